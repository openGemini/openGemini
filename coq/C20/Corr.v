(* C20 correspondence evaluator: runs the model variants (4 x 2 readings of a null index cell) on a harness case and compares with what the real code
   returned (NewKeyCondition error, Scan ranges, MayBeInRange per probe, CheckInRange marks per rectangle). *)
From Coq Require Import ZArith NArith List Bool Arith.
From OG Require Import C20.Model C20.NullOrder C20.BloomModel.
Import ListNotations.

Record ccase := mkC {
  c_isint : list bool; c_pads : list Z; c_keys : list key; c_sizes : list nat; c_cond : cond;
  c_coarse : nat; c_minmarks : nat; c_probes : list (nat * nat); c_rects : list (list range);
  c_detail : bool;
  (* checkInAnyRange driven with recorded call-back marks: (s, e), visited rectangles with their marks, final mark *)
  c_cbs : list ((nat * nat) * list (list range * (bool * bool)) * (Z * Z));
  (* implementation observables *)
  i_conderr : bool;
  i_scan : nat;                    (* 0 = ranges returned, 1 = error returned, 2 = panic *)
  i_ranges : list (nat * nat);
  i_maybe : list Z;                (* 1 / 0 / -1 error / -2 panic *)
  i_marks : list (Z * Z)           (* canBeTrue, canBeFalse as 1/0; (-1,-1) error; (-2,-2) panic *)
}.

(* order: (rb current, norm current) (rb current, norm repaired) (rb repaired, norm current) (rb repaired, norm repaired) *)
Definition variants : list variant := [mkV false true; mkV false false; mkV true true; mkV true false].
(* each of them under the two readings of a null index cell: entries 0..3 = +infinity (before a93f46a), 4..7 = the pad value the
   writer's sort uses for a null (repaired createFieldRefFunc) *)
Definition variants_nr : list (null_reading * variant) :=
  map (pair null_posinf) variants ++ map (pair null_pad) variants.

Fixpoint list_eqb {A} (eqb : A -> A -> bool) (a b : list A) : bool :=
  match a, b with
  | [], [] => true
  | x :: a', y :: b' => eqb x y && list_eqb eqb a' b'
  | _, _ => false
  end.
Definition pair_eqb (a b : nat * nat) := Nat.eqb (fst a) (fst b) && Nat.eqb (snd a) (snd b).
Definition b2z (b : bool) : Z := if b then 1%Z else 0%Z.

Definition range_eqb (a b : range) : bool :=
  beq (lo a) (lo b) && beq (hi a) (hi b) && Bool.eqb (loi a) (loi b) && Bool.eqb (hii a) (hii b).
Fixpoint lookup_cb (tbl : list (list range * (bool * bool))) (rs : list range) : mark :=
  match tbl with
  | [] => mkM false true
  | (k, (t, f)) :: r => if list_eqb range_eqb k rs then mkM t f else lookup_cb r rs
  end.

Definition scan_matches (c : ccase) (m : scan_result) : bool :=
  match m, i_scan c with
  | ScanErr, 1 => true
  | ScanOk rs, 0 => list_eqb pair_eqb rs (i_ranges c)
  | _, _ => false
  end.

(* per variant: (mismatch mask, model cover per fragment, model may_be per probe).
   mask bits: 1 scan, 2 may_be, 4 marks, 8 condition error, 16 checkInAnyRange with recorded call-back marks *)
Definition eval_variant (c : ccase) (rpn : list elem) (NV : null_reading * variant) : nat * list bool * list bool :=
  let V := snd NV in
  let n := length (c_sizes c) in
  let idx := read_index (fst NV) (c_pads c) (build_index (c_sizes c) (c_keys c)) in
  let sc := scan V (c_isint c) rpn idx n (c_coarse c) (c_minmarks c) in
  let probes := map (fun f => (f, S f)) (seq 0 n) ++ c_probes c in
  let mb := map (fun p => may_range V (c_isint c) rpn idx (fst p) (snd p)) probes in
  let marks := map (fun rg => match check_in_range rpn rg with
                              | Some m => (b2z (can_t m), b2z (can_f m))
                              | None => ((-1)%Z, (-1)%Z) end) (c_rects c) in
  let cover := match sc with ScanOk rs => map (fun f => covered f rs) (seq 0 n) | ScanErr => [] end in
  let b1 := if scan_matches c sc then 0 else 1 in
  let b2 := if list_eqb Z.eqb (map b2z mb) (i_maybe c) then 0 else 2 in
  let b4 := if list_eqb (fun a b => Z.eqb (fst a) (fst b) && Z.eqb (snd a) (snd b)) marks (i_marks c) then 0 else 4 in
  let used := used_keys rpn in
  let cbok := forallb (fun x =>
                let '(se, tbl, fin) := x in
                let m := ciar V (lookup_cb tbl) (c_isint c)
                              (map kb (firstn used (nth (fst se) idx []))) (map kb (firstn used (nth (snd se) idx [])))
                              true true [] in
                Z.eqb (b2z (can_t m)) (fst fin) && Z.eqb (b2z (can_f m)) (snd fin)) (c_cbs c) in
  let b16 := if cbok then 0 else 16 in
  (b1 + b2 + b4 + b16, (if c_detail c then cover else []), (if c_detail c then mb else [])).

Definition eval_case (c : ccase) : list (nat * list bool * list bool) :=
  match compile (c_isint c) (c_cond c) with
  | None => [((if i_conderr c then 0 else 8), [], [])]
  | Some rpn =>
      if i_conderr c then [(8, [], [])] else map (eval_variant c rpn) variants_nr
  end.

Definition interesting (r : list (nat * list bool * list bool)) : bool :=
  existsb (fun x => negb (Nat.eqb (fst (fst x)) 0)) r.

Fixpoint results_from (k : nat) (cs : list ccase) : list (nat * list (nat * list bool * list bool)) :=
  match cs with
  | [] => []
  | c :: r =>
      let e := eval_case c in
      if interesting e || c_detail c then (k, e) :: results_from (S k) r else results_from (S k) r
  end.
Definition results := results_from 0.

(* ---------- bloom-filter skip index stream ----------
   an atom of a harness case: (on the reader's file column, is MATCHPHRASE, column in the reader's schema, measured
   single-predicate hit of this segment). The kept/pruned decision of the compound condition is predicted from the
   measured single-predicate hits with the model's expression evaluation (hash independent). *)
Definition katom := (bool * bool * bool * bool)%type.
Definition katom_hit (a : katom) : bool := let '(fc, im, _, h) := a in if fc && im then h else true.
Definition katom_inschema (a : katom) : bool := let '(_, _, s, _) := a in s.
Definition bloom_predict (e : sk katom) : bool := sk_kept katom_hit katom_inschema e.

(* case = list over segments of (expression with that segment's hits, kept by the implementation) *)
Fixpoint bloom_results_from (k : nat) (cs : list (list (sk katom * bool))) : list (nat * list bool) :=
  match cs with
  | [] => []
  | c :: r =>
      let pred := map (fun x => bloom_predict (fst x)) c in
      if list_eqb Bool.eqb pred (map snd c) then bloom_results_from (S k) r
      else (k, pred) :: bloom_results_from (S k) r
  end.
Definition bloom_results := bloom_results_from 0.

(* ---------- tokenizer tie ----------
   the split table as the list of its split bytes; per value: (bytes, the byte-level tokens the harness computed and
   checked against the real SimpleTokenizer's hash sequence); per pair: (phrase, value, the real SimpleTokenFinder's
   answer). Returns the indices where TokModel.tokens / TokModel.finder differ. *)
From OG Require C20.TokModel.
Fixpoint mism_from {A} (bad : A -> bool) (k : nat) (l : list A) : list nat :=
  match l with
  | [] => []
  | x :: r => if bad x then k :: mism_from bad (S k) r else mism_from bad (S k) r
  end.
Definition tok_results (splitbytes : list N) (vals : list (list N * list (list N)))
                       (pairs : list (list N * list N * bool)) : list nat * list nat :=
  let split := fun b => existsb (N.eqb b) splitbytes in
  (mism_from (fun x => negb (list_eqb (list_eqb N.eqb) (TokModel.tokens split (fst x)) (snd x))) 0 vals,
   mism_from (fun x => negb (Bool.eqb (TokModel.finder split (fst (fst x)) (snd (fst x))) (snd x))) 0 pairs).

(* ---------- the reader above the single indexes (Multi.v) ----------
   a case: per file (primary-key ranges, MayBeInFragment per fragment), the batch setting, and what the implementation's
   successive Next() calls delivered: lists of (file index, ranges). *)
From OG Require C20.Multi.
Definition mcase := (list (list (nat * nat) * list bool) * option nat * list (list (nat * list (nat * nat))))%type.
Definition multi_ok (c : mcase) : bool :=
  let '(fs, batch, impl) := c in
  let files := map (fun p => Multi.mkF (fst p) (fun j => nth j (snd p) true)) fs in
  list_eqb (list_eqb (fun a b => Nat.eqb (fst a) (fst b) && list_eqb pair_eqb (snd a) (snd b)))
           (Multi.drain (S (length files)) files 0 batch) impl.
Definition multi_results (cs : list mcase) : list nat := mism_from (fun c => negb (multi_ok c)) 0 cs.

(* ---------- the key-grouped index of the attached flush (Grouped.v) ----------
   per case: the index rows (key groups) as the real sortRecord produced them, segments per group and segment offsets (the
   two halves of __fragment__), the condition, reader settings; implementation: NewKeyCondition error, Scan (fragment ranges),
   getSegmentRanges. Result per case: mismatch mask under the reading "null = -infinity" (repaired), mask under the reading
   "null = pad value" (the reading a93f46a applies to every index), groups covered under the first reading.
   mask bits: 1 fragment ranges, 2 segment ranges, 4 the index rows are not in KeySorter order, 8 condition error,
   16 the segment offsets are not the prefix sums of the segment counts. *)
From OG Require C20.Grouped.
Record gcase := mkG {
  g_isint : list bool; g_pads : list Z; g_idx : list key; g_cnts : list nat; g_offs : list nat; g_cond : cond;
  g_coarse : nat; g_minmarks : nat;
  g_conderr : bool; g_scan : nat; g_ranges : list (nat * nat); g_segranges : list (nat * nat) }.

Definition g_mask (c : gcase) (rpn : list elem) (idx : list key) : nat * list bool :=
  let sc := Grouped.scan_g (g_isint c) rpn idx (g_coarse c) (g_minmarks c) in
  let b1 := match sc, g_scan c with
            | ScanErr, 1 => 0
            | ScanOk rs, 0 => if list_eqb pair_eqb rs (g_ranges c) then 0 else 1
            | _, _ => 1 end in
  let b2 := match sc with
            | ScanOk rs => if list_eqb pair_eqb (Grouped.seg_ranges (g_cnts c) rs) (g_segranges c) then 0 else 2
            | ScanErr => 0 end in
  let cover := match sc with ScanOk rs => map (fun f => covered f rs) (seq 0 (length idx)) | ScanErr => [] end in
  (b1 + b2, cover).

Definition g_eval (c : gcase) : nat * nat * list bool :=
  let b4 := if Grouped.ks_sortedb (g_idx c) then 0 else 4 in
  let b16 := if list_eqb Nat.eqb (g_offs c) (map (fun i => ScanProofs.sum (firstn i (g_cnts c))) (seq 0 (length (g_cnts c)))) then 0 else 16 in
  match compile (g_isint c) (g_cond c) with
  | None => ((if g_conderr c then 0 else 8) + b4 + b16, (if g_conderr c then 0 else 8) + b4 + b16, [])
  | Some rpn =>
      if g_conderr c then (8 + b4 + b16, 8 + b4 + b16, [])
      else
        let '(m1, cov) := g_mask c rpn (g_idx c) in
        let '(m2, _) := g_mask c rpn (map (NullOrder.padk (g_pads c)) (g_idx c)) in
        (m1 + b4 + b16, m2 + b4 + b16, cov)
  end.
Definition grouped_results (cs : list gcase) : list (nat * nat * list bool) := map g_eval cs.

(* UTF-8 aware tokens (UtfTok.utokens) against the harness's tokens, which are checked against the real
   SimpleUtf8Tokenizer's hash sequence: the indices of the values where they differ *)
From OG Require C20.UtfTok.
Definition utok_results (splitbytes : list N) (vals : list (list N * list (list N))) : list nat :=
  let split := fun b => existsb (N.eqb b) splitbytes in
  mism_from (fun x => negb (list_eqb (list_eqb N.eqb) (UtfTok.utokens split (fst x)) (snd x))) 0 vals.
