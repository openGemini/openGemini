(* C20 - null primary-key values and the order of the data.
   The column store's flush sort (record.SortHelper.SortForColumnStore, lib/record/sort_item.go Pad*Slice) sorts a
   null key as the smallest value it knows for the column's type (MinInt64, -MaxFloat64, "", false): a null TIES with
   that value, it is neither below nor above it. The rows of a file - and so the rows of the primary index - are in
   that order ("writer order"). Two readings of a null index cell by PKIndexReaderImpl.createFieldRefFunc:
     null_posinf : +infinity (the code before a93f46a) - the index is then NOT ordered the way the data is,
     null_pad    : the pad value of the column (repaired) - the index is ordered exactly like the data.
   [padk] replaces the nulls of a key by the pad values; reading an index with null_pad is reading the padded index
   with [kb]. Soundness for writer-ordered data follows from the theorems of ScanProofs.v applied to the padded
   key list, because a condition tree is monotone in its atoms and a null satisfies no atom. *)
From Coq Require Import ZArith List Bool Arith Lia Sorted.
From OG Require Import C20.Model C20.Proofs C20.Cover C20.ScanProofs.
Import ListNotations.

Definition padc (p : Z) (c : option Z) : option Z := match c with Some z => Some z | None => Some p end.
Fixpoint padk (pads : list Z) (k : key) : key :=
  match k with
  | [] => []
  | c :: k' => padc (hd 0%Z pads) c :: padk (tl pads) k'
  end.

Inductive null_reading := null_posinf | null_pad.
Definition read_index (nr : null_reading) (pads : list Z) (idx : list key) : list key :=
  match nr with null_posinf => idx | null_pad => map (padk pads) idx end.

(* the order of the data: lexicographic on the padded keys *)
Definition writer_sorted (pads : list Z) (keys : list key) : Prop := sorted_lex (map (padk pads) keys).

(* a null index cell used as it is, FieldRef.Less / Equals ordering a null strictly before every value. As a reading of the
   fragment index of writer-ordered data it is unsound (Refuted.C20_null_strictly_first_refuted: the writer lets a null TIE
   with the pad value); it is the right reading of the key-grouped index, whose KeySorter order puts nulls strictly first
   (Grouped.v). *)
Definition kb_first (k : option Z) : bound := match k with Some z => Fin z | None => NegInf end.
Definition may_range_first (isint : list bool) (rpn : list elem) (idx : list key) (s e : nat) : bool :=
  let used := used_keys rpn in
  may_be repaired isint rpn (map kb_first (firstn used (nth s idx []))) (map kb_first (firstn used (nth e idx []))).

Lemma padk_length : forall k pads, length (padk pads k) = length k.
Proof. induction k; intros; simpl; auto. Qed.

Lemma padk_nth_some : forall row pads col x,
  nth col row None = Some x -> nth col (padk pads row) None = Some x.
Proof.
  induction row as [|c row IH]; intros pads col x H; destruct col; simpl in *; try discriminate.
  - subst c. reflexivity.
  - now apply IH.
Qed.

(* a condition tree is monotone in its atoms, and an atom on a null is false: padding never loses a match *)
Lemma eval_cond_pad : forall nonkey c pads row,
  eval_cond nonkey c row = true -> eval_cond nonkey c (padk pads row) = true.
Proof.
  induction c as [col op v | id | col vs | a IHa b IHb | a IHa b IHb]; intros pads row H; simpl in *; auto.
  - destruct (nth col row None) as [x|] eqn:E; [|discriminate]. now rewrite (padk_nth_some _ pads _ _ E).
  - destruct (nth col row None) as [x|] eqn:E; [|discriminate]. now rewrite (padk_nth_some _ pads _ _ E).
  - apply andb_true_iff in H. destruct H. apply andb_true_iff. split; auto.
  - apply orb_true_iff in H. apply orb_true_iff. destruct H; auto.
Qed.

(* ---------- the index and the fragments commute with a key transformation that keeps [] ---------- *)
Lemma last_map : forall {A B} (f : A -> B) l d, last (map f l) (f d) = f (last l d).
Proof.
  induction l as [|x l IH]; intros d; simpl; auto. destruct l; simpl in *; auto.
Qed.

Lemma build_index_map : forall (f : key -> key) sizes keys, f [] = [] ->
  build_index sizes (map f keys) = map f (build_index sizes keys).
Proof.
  intros f sizes keys Hf. unfold build_index. rewrite map_app, map_map. f_equal.
  - apply map_ext. intro st. rewrite <- Hf at 1. apply map_nth.
  - simpl. f_equal. rewrite <- Hf at 1. apply last_map.
Qed.

Lemma frag_rows_map : forall (f : key -> key) sizes keys i,
  frag_rows sizes (map f keys) i = map f (frag_rows sizes keys i).
Proof. intros. unfold frag_rows. now rewrite skipn_map, firstn_map. Qed.

Lemma frag_matches_pad : forall nonkey c sizes keys pads i,
  frag_matches nonkey c sizes keys i -> frag_matches nonkey c sizes (map (padk pads) keys) i.
Proof.
  intros nonkey c sizes keys pads i (row & Hin & He). exists (padk pads row). split.
  - rewrite frag_rows_map. now apply in_map.
  - now apply eval_cond_pad.
Qed.

Lemma Forall_length_pad : forall pads keys nk,
  Forall (fun k => length k = nk) keys -> Forall (fun k => length k = nk) (map (padk pads) keys).
Proof.
  intros pads keys nk H. apply Forall_forall. intros k Hk. apply in_map_iff in Hk. destruct Hk as (k0 & <- & Hk0).
  rewrite padk_length. rewrite Forall_forall in H. auto.
Qed.

(* without nulls the two readings coincide and the writer's order is the plain lexicographic order *)
Definition no_nulls (k : key) : Prop := Forall (fun c => c <> None) k.
Lemma padk_no_nulls : forall k pads, no_nulls k -> padk pads k = k.
Proof.
  induction k as [|c k IH]; intros pads H; simpl; auto. inversion H; subst.
  rewrite IH by auto. destruct c; [reflexivity|congruence].
Qed.

(* ---------- a decision procedure for sortedness (used by Examples and refutation witnesses) ---------- *)
Fixpoint lex_leb (a b : list bound) : bool :=
  match a, b with
  | [], _ => true
  | _ :: _, [] => false
  | x :: a', y :: b' => blt x y || (beq x y && lex_leb a' b')
  end.
Lemma lex_leb_true : forall a b, lex_leb a b = true -> lex_le a b.
Proof.
  induction a as [|x a IH]; intros [|y b] H; simpl in *; auto; try discriminate.
  apply orb_true_iff in H. destruct H as [H | H]; auto.
  apply andb_true_iff in H. destruct H as [E H]. apply beq_eq in E. right. split; auto.
Qed.
(* sortedness of a key list under a reading [rd] of the cells *)
Section Sortedb.
  Variable rd : option Z -> bound.
  Fixpoint sortedb (keys : list key) : bool :=
    match keys with
    | [] => true
    | k :: r => forallb (fun k' => lex_leb (map rd k) (map rd k')) r && sortedb r
    end.
  Lemma sortedb_true : forall keys, sortedb keys = true ->
    StronglySorted (fun a b => lex_le (map rd a) (map rd b)) keys.
  Proof.
    induction keys as [|k r IH]; intro H; simpl in *.
    - constructor.
    - apply andb_true_iff in H. destruct H as [H1 H2]. apply SSorted_cons; [now apply IH|].
      apply Forall_forall. intros k' Hk'. rewrite forallb_forall in H1. apply lex_leb_true. now apply H1.
  Qed.
End Sortedb.
