(* C20 - the primary index over a sorted key list cut into fragments: MayBeInRange over two index rows is true when a fragment
   between them holds a matching row (may_be_sound, may_range_sound); binary search and exclusion search never drop a fragment
   that holds a matching row, for any range predicate that is sound in that sense (scan_with_sound). *)
From Coq Require Import ZArith List Bool Arith Lia ZifyBool Sorted.
From OG Require Import C20.Model C20.Proofs C20.Cover.
Import ListNotations.
Open Scope nat_scope.

Definition key_le (a b : key) : Prop := lex_le (map kb a) (map kb b).
Definition sorted_lex (keys : list key) : Prop := StronglySorted key_le keys.

Lemma lex_sorted_nth : forall (rd : option Z -> bound) keys,
  StronglySorted (fun a b => lex_le (map rd a) (map rd b)) keys ->
  forall p q, p <= q -> q < length keys -> lex_le (map rd (nth p keys [])) (map rd (nth q keys [])).
Proof.
  induction 1 as [|k keys Hs IH Hall]; intros p q Hpq Hq; simpl in *; [lia|].
  destruct p, q; try lia.
  - apply lex_le_refl.
  - rewrite Forall_forall in Hall. apply Hall. apply nth_In. lia.
  - apply IH; lia.
Qed.

Lemma sorted_nth : forall keys, sorted_lex keys ->
  forall p q, p <= q -> q < length keys -> key_le (nth p keys []) (nth q keys []).
Proof. exact (lex_sorted_nth kb). Qed.

Fixpoint sum (l : list nat) : nat := match l with [] => 0 | x :: r => x + sum r end.

Lemma starts_from_length : forall sizes a, length (starts_from a sizes) = length sizes.
Proof. induction sizes; intros; simpl; auto. Qed.

Lemma starts_from_nth : forall sizes a j, j < length sizes ->
  nth j (starts_from a sizes) 0 = a + sum (firstn j sizes).
Proof.
  induction sizes as [|s sizes IH]; intros a j Hj; simpl in *; [lia|].
  destruct j; simpl; [lia|]. rewrite IH by lia. lia.
Qed.

Lemma sum_firstn_mono : forall l i j, i <= j -> sum (firstn i l) <= sum (firstn j l).
Proof.
  induction l as [|x l IH]; intros i j H; destruct i, j; simpl; try lia.
  specialize (IH i j). lia.
Qed.
Lemma sum_firstn_S : forall l i, i < length l -> sum (firstn (S i) l) = sum (firstn i l) + nth i l 0.
Proof.
  induction l as [|x l IH]; intros i H; simpl in *; [lia|]. destruct i; simpl; [lia|].
  rewrite <- Nat.add_assoc. f_equal. apply (IH i). lia.
Qed.
Lemma sum_firstn_all : forall l i, length l <= i -> sum (firstn i l) = sum l.
Proof. intros. now rewrite firstn_all2. Qed.
Lemma sum_firstn_lt : forall l i, Forall (fun z => 1 <= z) l -> i < length l -> sum (firstn i l) < sum l.
Proof.
  induction l as [|x l IH]; intros i Hf Hi; simpl in *; [lia|]. inversion Hf; subst.
  destruct i; simpl; [lia|]. specialize (IH i H2). lia.
Qed.

Lemma nth_skipn_add : forall {A} (l : list A) a k d, nth k (skipn a l) d = nth (a + k) l d.
Proof.
  induction l as [|x l IH]; intros a k d; destruct a; simpl; auto. destruct k; auto.
Qed.

Lemma In_firstn_skipn : forall {A} (l : list A) a n x d, In x (firstn n (skipn a l)) ->
  exists p, a <= p /\ p < a + n /\ p < length l /\ x = nth p l d.
Proof.
  intros A l a n x d H.
  apply (In_nth _ _ d) in H. destruct H as (k & Hk & E).
  rewrite firstn_length, skipn_length in Hk.
  exists (a + k). repeat split; try lia.
  rewrite <- E. rewrite nth_firstn_lt by lia. now rewrite nth_skipn_add.
Qed.

Lemma last_nth : forall {A} (l : list A) d, last l d = nth (length l - 1) l d.
Proof.
  induction l as [|x l IH]; intros d; simpl; auto.
  destruct l; simpl in *; auto. rewrite IH. simpl. now rewrite Nat.sub_0_r.
Qed.

(* rows of the index: row j < n is the first key of fragment j, row n is the last key *)
Lemma index_row : forall sizes keys j, j <= length sizes ->
  nth j (build_index sizes keys) [] =
  if j <? length sizes then nth (sum (firstn j sizes)) keys [] else nth (length keys - 1) keys [].
Proof.
  intros sizes keys j Hj. unfold build_index, starts.
  destruct (j <? length sizes) eqn:E.
  - apply Nat.ltb_lt in E. rewrite app_nth1 by (rewrite map_length, starts_from_length; auto).
    rewrite (nth_indep _ [] (nth 0 keys [])) by (rewrite map_length, starts_from_length; auto).
    rewrite (map_nth (fun st => nth st keys [])). rewrite starts_from_nth by auto. reflexivity.
  - apply Nat.ltb_ge in E. assert (j = length sizes) by lia. subst j.
    rewrite app_nth2 by (rewrite map_length, starts_from_length; auto).
    rewrite map_length, starts_from_length, Nat.sub_diag. simpl. apply last_nth.
Qed.

Lemma fragment_between : forall sizes keys s i e row,
  sorted_lex keys -> Forall (fun z => 1 <= z) sizes -> sum sizes = length keys ->
  s <= i -> i < e -> e <= length sizes ->
  In row (frag_rows sizes keys i) ->
  In row keys /\
  key_le (nth s (build_index sizes keys) []) row /\ key_le row (nth e (build_index sizes keys) []).
Proof.
  intros sizes keys s i e row Hs Hpos Hsum Hsi Hie Hen Hin.
  unfold frag_rows, starts in Hin. rewrite starts_from_nth in Hin by lia. simpl in Hin.
  destruct (In_firstn_skipn _ _ _ _ [] Hin) as (p & Hp1 & Hp2 & Hp3 & Erow).
  assert (Hi1 : sum (firstn (S i) sizes) = sum (firstn i sizes) + nth i sizes 0) by (apply sum_firstn_S; lia).
  split; [subst row; apply nth_In; auto|].
  split.
  - rewrite index_row by lia. replace (s <? length sizes) with true by (symmetry; apply Nat.ltb_lt; lia).
    subst row. apply sorted_nth; auto. pose proof (sum_firstn_mono sizes s i Hsi). lia.
  - rewrite index_row by lia. destruct (e <? length sizes) eqn:E.
    + apply Nat.ltb_lt in E. subst row. apply sorted_nth; auto.
      * pose proof (sum_firstn_mono sizes (S i) e Hie). lia.
      * rewrite <- Hsum. apply sum_firstn_lt; auto.
    + subst row. apply sorted_nth; auto; unfold key in *; lia.
Qed.

Lemma may_be_sound : forall isint nonkey c rpn keys sizes nk s i e row,
  compile isint c = Some rpn ->
  sorted_lex keys -> Forall (fun k => length k = nk) keys ->
  used_keys rpn <= nk -> used_keys rpn <= length isint ->
  Forall (fun z => 1 <= z) sizes -> sum sizes = length keys ->
  s <= i -> i < e -> e <= length sizes ->
  In row (frag_rows sizes keys i) -> eval_cond nonkey c row = true ->
  may_range repaired isint rpn (build_index sizes keys) s e = true.
Proof.
  intros isint nonkey c rpn keys sizes nk s i e row Hc Hs Hlen Hu Hty Hpos Hsum Hsi Hie Hen Hin He.
  destruct (fragment_between sizes keys s i e row Hs Hpos Hsum Hsi Hie Hen Hin) as (Hk & H1 & H2).
  unfold may_range.
  rewrite Forall_forall in Hlen.
  assert (Hrow : length row = nk) by auto.
  assert (HnthIn : forall j, j <= length sizes -> In (nth j (build_index sizes keys) []) keys).
  { intros j Hj. rewrite index_row by auto.
    assert (0 < length keys) by (destruct keys; simpl in *; [contradiction|lia]).
    destruct (j <? length sizes) eqn:E; apply nth_In; try lia.
    apply Nat.ltb_lt in E. rewrite <- Hsum. apply sum_firstn_lt; auto. }
  assert (Ls : length (nth s (build_index sizes keys) []) = nk) by (apply Hlen, HnthIn; lia).
  assert (Le : length (nth e (build_index sizes keys) []) = nk) by (apply Hlen, HnthIn; lia).
  eapply (may_be_sound_lex kb kb_some) with (row := row); eauto; try lia.
  - rewrite map_length, firstn_length_le; lia.
  - rewrite map_length, firstn_length_le; lia.
  - rewrite <- !firstn_map. apply lex_le_firstn. exact H1.
  - rewrite <- !firstn_map. apply lex_le_firstn. exact H2.
Qed.

Definition frag_matches (nonkey : nat -> bool) (c : cond) (sizes : list nat) (keys : list key) (i : nat) : Prop :=
  exists row, In row (frag_rows sizes keys i) /\ eval_cond nonkey c row = true.

Lemma may_range_sound : forall isint nonkey c rpn keys sizes nk,
  compile isint c = Some rpn ->
  sorted_lex keys -> Forall (fun k => length k = nk) keys ->
  used_keys rpn <= nk -> used_keys rpn <= length isint ->
  Forall (fun z => 1 <= z) sizes -> sum sizes = length keys ->
  forall s i e, s <= i -> i < e -> e <= length sizes -> frag_matches nonkey c sizes keys i ->
  may_range repaired isint rpn (build_index sizes keys) s e = true.
Proof.
  intros isint nonkey c rpn keys sizes nk Hc Hs Hlen Hu Hty Hpos Hsum s i e H1 H2 H3 (row & Hin & He).
  eapply may_be_sound; eauto.
Qed.

Lemma covered_cons : forall i a b rs, covered i ((a, b) :: rs) = true <-> (a <= i /\ i < b) \/ covered i rs = true.
Proof. intros. unfold covered. cbn [existsb fst snd]. rewrite orb_true_iff, andb_true_iff, Nat.leb_le, Nat.ltb_lt. reflexivity. Qed.

Lemma covered_iff : forall i rs, covered i rs = true <-> exists a b, In (a, b) rs /\ a <= i /\ i < b.
Proof.
  intros i rs. unfold covered. rewrite existsb_exists. split.
  - intros ([a b] & Hin & H). apply andb_true_iff in H. rewrite Nat.leb_le, Nat.ltb_lt in H. eauto.
  - intros (a & b & Hin & H). exists (a, b). split; [exact Hin|]. apply andb_true_iff. rewrite Nat.leb_le, Nat.ltb_lt. exact H.
Qed.

Lemma covered_single : forall i a b, a <= i -> i < b -> covered i [(a, b)] = true.
Proof. intros. apply covered_cons. auto. Qed.

Lemma covered_rev : forall i l, covered i (rev l) = covered i l.
Proof.
  intros i l. unfold covered. induction l as [|x l IH]; simpl; auto.
  rewrite existsb_app, IH. simpl. rewrite orb_false_r. apply orb_comm.
Qed.

(* Scan's choice between the two searches, over any range predicate: Model.scan is this at may_range, Grouped.scan_g at may_g *)
Definition scan_with (may : nat -> nat -> bool) (rpn : list elem) (n coarse minmarks : nat) : scan_result :=
  match rpn with
  | [] => ScanOk [(0, n)]
  | _ =>
      if used_keys rpn =? 1 then (if rpn_ok rpn then ScanOk (scan_binary may n) else ScanErr)
      else if coarse <=? 1 then ScanErr
      else if rpn_ok rpn then ScanOk (scan_exclusion may coarse minmarks n) else ScanErr
  end.

(* ---------- the two searches, over an abstract sound [may] ---------- *)
Section Search.
  Variable may : nat -> nat -> bool.
  Variable n : nat.
  Variable hasmatch : nat -> Prop.
  Hypothesis may_sound : forall s i e, s <= i -> i < e -> e <= n -> hasmatch i -> may s e = true.

  Lemma div2_between : forall l r, l + 1 < r -> l < (l + r) / 2 /\ (l + r) / 2 < r.
  Proof.
    intros l r H. split.
    - apply Nat.div_le_lower_bound; lia.
    - apply Nat.div_lt_upper_bound; lia.
  Qed.

  (* the invariant of the left search: no fragment left of `left` has a match (bs_right_inv: none at or right of `right`) *)
  Lemma bs_left_inv : forall fuel left right, left <= right -> right <= n ->
    (forall j, j < left -> ~ hasmatch j) ->
    (forall j, j < bs_left fuel may left right -> ~ hasmatch j) /\ bs_left fuel may left right <= n.
  Proof.
    induction fuel as [|f IH]; intros left right H1 H2 Hinv; cbn [bs_left].
    - split; auto. lia.
    - destruct (left + 1 <? right) eqn:E.
      + apply Nat.ltb_lt in E. destruct (div2_between _ _ E) as [M1 M2].
        destruct (may 0 ((left + right) / 2)) eqn:Em.
        * apply IH; auto; lia.
        * apply IH; auto; try lia.
          intros j Hj Hm. assert (X : may 0 ((left + right) / 2) = true) by (apply (may_sound 0 j); auto; lia). congruence.
      + split; auto. lia.
  Qed.

  Lemma bs_right_inv : forall fuel left right, left <= right -> right <= n ->
    (forall j, right <= j -> j < n -> ~ hasmatch j) ->
    (forall j, bs_right fuel may n left right <= j -> j < n -> ~ hasmatch j) /\ bs_right fuel may n left right <= n.
  Proof.
    induction fuel as [|f IH]; intros left right H1 H2 Hinv; cbn [bs_right].
    - split; auto.
    - destruct (left + 1 <? right) eqn:E.
      + apply Nat.ltb_lt in E. destruct (div2_between _ _ E) as [M1 M2].
        destruct (may ((left + right) / 2) n) eqn:Em.
        * apply IH; auto; lia.
        * apply IH; auto; try lia.
          intros j Hj Hn Hm. assert (X : may ((left + right) / 2) n = true) by (apply (may_sound _ j); auto; lia). congruence.
      + split; auto.
  Qed.

  Lemma scan_binary_sound : forall i, i < n -> hasmatch i -> covered i (scan_binary may n) = true.
  Proof.
    intros i Hi Hm. unfold scan_binary.
    assert (HL : (forall j, j < bs_left n may 0 n -> ~ hasmatch j) /\ bs_left n may 0 n <= n).
    { apply bs_left_inv; try lia; intros j Hj; lia. }
    destruct HL as [L1 L2].
    set (st := bs_left n may 0 n) in *.
    assert (HR : (forall j, bs_right n may n st n <= j -> j < n -> ~ hasmatch j) /\ bs_right n may n st n <= n).
    { apply bs_right_inv; try lia; intros j H1 H2; lia. }
    destruct HR as [R1 R2].
    set (en := bs_right n may n st n) in *.
    assert (Hst : st <= i). { destruct (Nat.le_gt_cases st i); auto. exfalso. eapply L1; eauto. }
    assert (Hen : i < en). { destruct (Nat.le_gt_cases en i); auto. exfalso. eapply R1; eauto. }
    replace (st <? en) with true by (symmetry; apply Nat.ltb_lt; lia).
    assert (X : may st en = true) by (apply (may_sound st i); auto). rewrite X. simpl andb. cbv iota. now apply covered_single.
  Qed.

  (* chain a c ps: the ranges ps are non-empty, consecutive, and tile [a, c) *)
  Inductive chain : nat -> nat -> list (nat * nat) -> Prop :=
  | chain_one : forall a b, a < b -> chain a b [(a, b)]
  | chain_cons : forall a b c rest, a < b -> chain b c rest -> chain a c ((a, b) :: rest).

  Lemma pieces_aux_chain : forall fuel step start en acc E,
    1 <= step -> start < en ->
    ((acc = [] /\ en = E) \/ chain en E acc) ->
    chain start E (pieces_aux fuel start en step acc).
  Proof.
    induction fuel as [|f IH]; intros step start en acc E Hs Hlt Hacc; simpl.
    - destruct Hacc as [[-> ->] | Hc]; [apply chain_one | apply chain_cons]; auto.
    - destruct (start + step <? en) eqn:Ec.
      + apply Nat.ltb_lt in Ec. apply IH; auto; try lia. right.
        destruct Hacc as [[-> ->] | Hc]; [apply chain_one | apply chain_cons]; auto; lia.
      + destruct Hacc as [[-> ->] | Hc]; [apply chain_one | apply chain_cons]; auto.
  Qed.

  Lemma pieces_chain : forall s e coarse, s < e -> chain s e (pieces s e coarse).
  Proof.
    intros. unfold pieces. apply pieces_aux_chain; auto; lia.
  Qed.

  (* accumulated result: well-formed ranges that end at or before x *)
  Definition bounded (acc : list (nat * nat)) (x : nat) : Prop :=
    Forall (fun p => fst p <= snd p /\ snd p <= x) acc.

  Lemma bounded_mono : forall acc x y, bounded acc x -> x <= y -> bounded acc y.
  Proof. unfold bounded. intros acc x y H Hxy. eapply Forall_impl; [|exact H]. simpl. intros; lia. Qed.

  Lemma add_single_props : forall m acc s, bounded acc s ->
    bounded (add_single m acc s) (s + 1) /\
    (forall j, covered j acc = true -> covered j (add_single m acc s) = true) /\
    covered s (add_single m acc s) = true.
  Proof.
    intros m acc s Hb. unfold add_single. destruct acc as [|[a b] t].
    - repeat split; [constructor; simpl; auto; lia | discriminate | apply covered_single; lia].
    - inversion Hb as [|x l [Hab Hbs] Ht]; subst. simpl in Hab, Hbs.
      destruct (m <? s - b); (split; [|split]).
      + constructor; simpl; [lia|]. apply (bounded_mono _ s); [exact Hb|lia].
      + intros j H. apply covered_cons. right. exact H.
      + apply covered_cons. left. lia.
      + constructor; simpl; [lia|]. apply (bounded_mono _ s); [exact Ht|lia].
      + intros j H. apply covered_cons in H. apply covered_cons. destruct H; [left; lia|right; assumption].
      + apply covered_cons. left. lia.
  Qed.

  (* what processing [s, e) does to the accumulated result: it stays bounded (now by e), loses nothing, and covers every
     fragment of [s, e) that has a match *)
  Definition excl_post (s e : nat) (acc acc' : list (nat * nat)) : Prop :=
    bounded acc' e /\
    (forall j, covered j acc = true -> covered j acc' = true) /\
    (forall j, s <= j -> j < e -> hasmatch j -> covered j acc' = true).

  Lemma chain_lt : forall a c ps, chain a c ps -> a < c.
  Proof. induction 1; lia. Qed.

  Lemma fold_chain : forall (F : nat -> nat -> list (nat * nat) -> list (nat * nat)),
    (forall s e acc, s < e -> e <= n -> bounded acc s -> excl_post s e acc (F s e acc)) ->
    forall a c ps, chain a c ps -> c <= n -> forall acc, bounded acc a ->
    excl_post a c acc (fold_left (fun a0 p => F (fst p) (snd p) a0) ps acc).
  Proof.
    intros F HF a c ps Hch. induction Hch as [a b Hab | a b c rest Hab Hch IHch]; intros Hc acc Hb; simpl.
    - apply HF; auto.
    - pose proof (chain_lt _ _ _ Hch) as Hbc.
      destruct (HF a b acc Hab ltac:(lia) Hb) as (B1 & M1 & C1).
      destruct (IHch Hc (F a b acc) B1) as (B2 & M2 & C2).
      repeat split; auto.
      intros j H1 H2 Hm. destruct (Nat.lt_ge_cases j b); auto.
  Qed.

  Lemma excl_sound : forall coarse minmarks fuel s e acc,
    s < e -> e <= n -> bounded acc s ->
    excl_post s e acc (excl fuel may coarse minmarks s e acc).
  Proof.
    intros coarse minmarks. induction fuel as [|f IH]; intros s e acc Hse Hen Hb; simpl.
    - repeat split.
      + constructor; simpl; [lia|]. eapply bounded_mono; eauto. lia.
      + intros j H. apply covered_cons. right. exact H.
      + intros j H1 H2 _. apply covered_cons. left. lia.
    - destruct (may s e) eqn:Em; simpl.
      + destruct (e =? s + 1) eqn:Ee.
        * apply Nat.eqb_eq in Ee. subst e. destruct (add_single_props minmarks acc s Hb) as (B & M & C).
          repeat split; auto. intros j H1 H2 _. assert (j = s) by lia. subst j. exact C.
        * apply (fold_chain (excl f may coarse minmarks) IH s e); auto. now apply pieces_chain.
      + repeat split.
        * eapply bounded_mono; eauto. lia.
        * auto.
        * intros j H1 H2 Hm. assert (X : may s e = true) by (apply (may_sound s j); auto). congruence.
  Qed.

  Lemma scan_exclusion_sound : forall coarse minmarks i, i < n -> hasmatch i ->
    covered i (scan_exclusion may coarse minmarks n) = true.
  Proof.
    intros coarse minmarks i Hi Hm. unfold scan_exclusion. rewrite covered_rev.
    destruct (excl_sound coarse minmarks (S n) 0 n []) as (_ & _ & C); try lia.
    - constructor.
    - apply C; auto. lia.
  Qed.
  Lemma scan_with_sound : forall rpn coarse minmarks i, rpn_ok rpn = true -> 2 <= coarse -> i < n -> hasmatch i ->
    exists rs, scan_with may rpn n coarse minmarks = ScanOk rs /\ covered i rs = true.
  Proof.
    intros rpn coarse minmarks i Hok Hco Hi Hm. unfold scan_with. destruct rpn as [|e0 rpn'] eqn:Erpn.
    - eexists. split; [reflexivity|]. apply covered_single; lia.
    - rewrite <- Erpn in *. rewrite Hok. destruct (used_keys rpn =? 1).
      + eexists. split; [reflexivity|]. now apply scan_binary_sound.
      + replace (coarse <=? 1) with false by (symmetry; apply Nat.leb_gt; lia).
        eexists. split; [reflexivity|]. now apply scan_exclusion_sound.
  Qed.
End Search.

Lemma scan_is_scan_with V isint rpn idx n coarse minmarks :
  scan V isint rpn idx n coarse minmarks = scan_with (may_range V isint rpn idx) rpn n coarse minmarks.
Proof. reflexivity. Qed.
