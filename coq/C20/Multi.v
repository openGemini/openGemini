(* C20 - the reader ABOVE the single indexes: engine/hybrid_index_reader.go attachedIndexReader.Next.
   For every data file of the list, in order: primary-key scan -> fragment ranges; every skip-index reader filters them
   (SKIndexReaderImpl.Scan: the kept fragments, adjacent ones merged); a file whose ranges became empty is passed over;
   the others are appended to the answer of this call; with readSegmentBatch the call returns as soon as the accumulated
   number of fragments reaches segmentBatchCount, the next call resumes behind the last file it looked at.
   Model: a file is abstracted to what the two index layers answer for it (pk : the ranges of the primary-key scan,
   keep : the skip index's MayBeInFragment). Proved: draining Next delivers, for EVERY file of the list, exactly the
   skip-filtered ranges of that file, each file once, in order; composed with the soundness of the two layers: a fragment
   with a matching row in ANY file is delivered. *)
From Coq Require Import List Bool Arith Lia.
From OG Require Import C20.Model C20.ScanProofs.
Import ListNotations.

Record mfile := mkF { f_pk : list (nat * nat); f_keep : nat -> bool }.

(* ---------- SKIndexReaderImpl.Scan (minMarksForSeek = 0 as in production: MinRowsForSeek = 0) ---------- *)
Definition frags_of (rs : list (nat * nat)) : list nat := flat_map (fun p => seq (fst p) (snd p - fst p)) rs.
(* result kept newest first: the kept fragment j extends the last range when it is adjacent to it, else starts a new one *)
Definition sk_add (res : list (nat * nat)) (j : nat) : list (nat * nat) :=
  match res with
  | (a, b) :: t => if b =? j then (a, S j) :: t else (j, S j) :: res
  | [] => [(j, S j)]
  end.
Definition sk_scan (keep : nat -> bool) (rs : list (nat * nat)) : list (nat * nat) :=
  rev (fold_left sk_add (filter keep (frags_of rs)) []).
Definition file_result (f : mfile) : list (nat * nat) := sk_scan (f_keep f) (f_pk f).
Definition count_frags (rs : list (nat * nat)) : nat := fold_right (fun p n => (snd p - fst p) + n) 0 rs.

(* ---------- attachedIndexReader.Next ----------
   files: the files from the cursor on; idx: the cursor; batch: Some n = readSegmentBatch with segmentBatchCount n.
   Returns the (file index, ranges) pairs of this call and the new cursor. *)
Fixpoint next_loop (files : list mfile) (idx : nat) (batch : option nat) (acc : list (nat * list (nat * nat))) (cnt : nat)
  : list (nat * list (nat * nat)) * nat :=
  match files with
  | [] => (rev acc, idx)
  | f :: rest =>
      let frs := file_result f in
      let c := count_frags frs in
      if c =? 0 then next_loop rest (S idx) batch acc cnt
      else
        let acc' := (idx, frs) :: acc in
        match batch with
        | Some n => if n <=? cnt + c then (rev acc', S idx) else next_loop rest (S idx) batch acc' (cnt + c)
        | None => next_loop rest (S idx) batch acc' (cnt + c)
        end
  end.
Definition next (files : list mfile) (idx : nat) (batch : option nat) : list (nat * list (nat * nat)) * nat :=
  next_loop (skipn idx files) idx batch [] 0.

(* the caller repeats Next until it answers nil (nothing accumulated) *)
Fixpoint drain (fuel : nat) (files : list mfile) (idx : nat) (batch : option nat) : list (list (nat * list (nat * nat))) :=
  match fuel with
  | O => []
  | S k => let (r, idx') := next files idx batch in
           match r with [] => [] | _ => r :: drain k files idx' batch end
  end.
Definition delivered (files : list mfile) (batch : option nat) : list (nat * list (nat * nat)) :=
  concat (drain (S (length files)) files 0 batch).

(* what must be delivered: every file with a non-empty result, once, in order *)
Fixpoint expected_from (files : list mfile) (idx : nat) : list (nat * list (nat * nat)) :=
  match files with
  | [] => []
  | f :: rest => if count_frags (file_result f) =? 0 then expected_from rest (S idx)
                 else (idx, file_result f) :: expected_from rest (S idx)
  end.

Lemma next_loop_spec : forall files idx batch acc cnt,
  exists k, k <= length files /\
    next_loop files idx batch acc cnt = (rev acc ++ expected_from (firstn k files) idx, idx + k) /\
    (* it stops early only right behind a delivered file, and only in batch mode *)
    (k < length files -> batch <> None /\ expected_from (firstn k files) idx <> []).
Proof.
  induction files as [|f rest IH]; intros idx batch acc cnt; simpl.
  - exists 0. rewrite app_nil_r, Nat.add_0_r. split; [lia|]. split; [reflexivity|]. intro H; inversion H.
  - destruct (count_frags (file_result f) =? 0) eqn:Ec.
    + destruct (IH (S idx) batch acc cnt) as (k & Hk & E & Hs). exists (S k). split; [lia|]. simpl. rewrite Ec.
      split; [rewrite E; f_equal; lia|]. intro H. apply Hs. lia.
    + set (acc' := (idx, file_result f) :: acc).
      assert (Hgo : exists k, k <= length (f :: rest) /\
                next_loop rest (S idx) batch acc' (cnt + count_frags (file_result f)) =
                  (rev acc ++ expected_from (firstn k (f :: rest)) idx, idx + k) /\
                (k < length (f :: rest) -> batch <> None /\ expected_from (firstn k (f :: rest)) idx <> [])).
      { destruct (IH (S idx) batch acc' (cnt + count_frags (file_result f))) as (k & Hk & E & Hs). exists (S k).
        split; [simpl; lia|]. simpl firstn. simpl expected_from. rewrite Ec. split.
        - rewrite E. f_equal; [|lia]. unfold acc'. cbn [rev]. rewrite <- app_assoc. reflexivity.
        - intro H. destruct Hs as [Hb _]; [simpl in H; lia|]. split; auto. discriminate. }
      destruct batch as [n|]; [|exact Hgo].
      destruct (n <=? cnt + count_frags (file_result f)) eqn:En; [|exact Hgo].
      exists 1. split; [simpl; lia|]. simpl. rewrite Ec. split.
      * replace (idx + 1) with (S idx) by lia. unfold acc'. cbn [rev]. rewrite <- ?app_assoc. reflexivity.
      * intro H. split; discriminate.
Qed.

Lemma expected_from_app : forall a b idx,
  expected_from (a ++ b) idx = expected_from a idx ++ expected_from b (idx + length a).
Proof.
  induction a as [|f a IH]; intros b idx; simpl.
  - now rewrite Nat.add_0_r.
  - rewrite IH. replace (S idx + length a) with (idx + S (length a)) by lia.
    destruct (count_frags (file_result f) =? 0); reflexivity.
Qed.

Lemma skipn_skipn_add : forall {A} (l : list A) a b, skipn a (skipn b l) = skipn (b + a) l.
Proof.
  induction l as [|x l IH]; intros a b; destruct b; simpl; auto.
  - now destruct a.
Qed.

(* draining from cursor idx delivers the expected entries of all files from idx on; fuel: one call per remaining file
   plus the final empty call *)
Lemma drain_spec : forall fuel files idx batch,
  idx <= length files -> length files - idx < fuel ->
  concat (drain fuel files idx batch) = expected_from (skipn idx files) idx.
Proof.
  induction fuel as [|fuel IH]; intros files idx batch Hi Hf; [lia|].
  simpl. unfold next.
  destruct (next_loop_spec (skipn idx files) idx batch [] 0) as (k & Hk & E & Hs). rewrite E. simpl rev. simpl app.
  rewrite skipn_length in Hk.
  destruct (expected_from (firstn k (skipn idx files)) idx) as [|e es] eqn:Ex.
  - (* nothing accumulated: the loop ran to the end of the list *)
    assert (k = length (skipn idx files)).
    { destruct (Nat.lt_ge_cases k (length (skipn idx files))) as [H|H]; [|rewrite skipn_length in *; lia].
      destruct (Hs H) as [_ Hne]. contradiction. }
    subst k. rewrite firstn_all in Ex. now rewrite Ex.
  - cbn [concat]. rewrite <- Ex.
    assert (Hk0 : k <> 0) by (intro; subst k; simpl in Ex; discriminate).
    rewrite IH by lia.
    transitivity (expected_from (firstn k (skipn idx files) ++ skipn k (skipn idx files)) idx);
      [|now rewrite firstn_skipn].
    rewrite expected_from_app. rewrite firstn_length, skipn_length. replace (Nat.min k (length files - idx)) with k by lia.
    rewrite skipn_skipn_add. reflexivity.
Qed.

Lemma expected_from_nth : forall files idx i f,
  nth_error files i = Some f -> count_frags (file_result f) <> 0 ->
  In (idx + i, file_result f) (expected_from files idx).
Proof.
  induction files as [|g rest IH]; intros idx i f Hn Hc; destruct i; simpl in *; try discriminate.
  - inversion Hn; subst g. apply Nat.eqb_neq in Hc. rewrite Hc. left. f_equal. lia.
  - replace (idx + S i) with (S idx + i) by lia.
    destruct (count_frags (file_result g) =? 0); [|right]; apply IH; auto.
Qed.

(* well-formed accumulator: every range has start < end *)
Definition wf_ranges (rs : list (nat * nat)) : Prop := Forall (fun p => fst p < snd p) rs.

Lemma sk_add_wf : forall res j, wf_ranges res -> wf_ranges (sk_add res j).
Proof.
  intros res j H. unfold sk_add. destruct res as [|[a b] t]; [repeat constructor|].
  inversion H as [|x l Hab Ht]; subst. simpl in Hab. destruct (b =? j) eqn:E.
  - apply Nat.eqb_eq in E. subst. constructor; simpl; [lia|auto].
  - constructor; simpl; [lia|]. constructor; auto.
Qed.

Lemma sk_add_covers : forall res j, wf_ranges res -> covered j (sk_add res j) = true.
Proof.
  intros res j H. unfold sk_add. destruct res as [|[a b] t]; [apply covered_single; lia|].
  inversion H as [|x l Hab Ht]; subst. simpl in Hab. destruct (Nat.eqb_spec b j); apply covered_cons; left; lia.
Qed.

Lemma sk_add_mono : forall res j i, covered i res = true -> covered i (sk_add res j) = true.
Proof.
  intros res j i H. unfold sk_add. destruct res as [|[a b] t]; [discriminate|].
  destruct (Nat.eqb_spec b j); [|apply covered_cons; right; exact H].
  apply covered_cons in H. apply covered_cons. destruct H; [left; lia|right; assumption].
Qed.

Lemma sk_fold_covers : forall js res j, wf_ranges res ->
  (In j js \/ covered j res = true) -> covered j (fold_left sk_add js res) = true /\ wf_ranges (fold_left sk_add js res).
Proof.
  induction js as [|x js IH]; intros res j Hwf H; simpl.
  - destruct H as [[]|H]; auto.
  - apply IH; [now apply sk_add_wf|]. destruct H as [[->|H]|H]; auto.
    + right. now apply sk_add_covers.
    + right. now apply sk_add_mono.
Qed.

Lemma in_frags_of : forall rs j, covered j rs = true -> In j (frags_of rs).
Proof.
  intros rs j H. apply covered_iff in H. destruct H as (a & b & Hin & H1 & H2).
  unfold frags_of. apply in_flat_map. exists (a, b). split; auto. simpl. apply in_seq. lia.
Qed.

Lemma covered_count : forall rs j, covered j rs = true -> count_frags rs <> 0.
Proof.
  induction rs as [|[a b] rs IH]; intros j H; [discriminate|]. apply covered_cons in H. simpl.
  destruct H as [H|H]; [lia|]. specialize (IH j H). lia.
Qed.
