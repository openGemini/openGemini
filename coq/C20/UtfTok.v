(* C20 - the UTF-8 aware tokenizer the bloom-filter writer uses since 9dd9491 (SimpleUtf8Tokenizer.Next, with the bound of
   fix8.patch) and the reader looks phrases up by, on byte strings:
     a split character of the table (a byte < 0x80 with splitTable > 0) separates tokens,
     a run of other bytes < 0x80 is a token,
     a byte >= 0x80 starts a character token of 2 (<= 0xdf), 3 (<= 0xef) or 4 (<= 0xf7) bytes, a byte > 0xf7 is passed over;
     a value that ends inside such a character: what is left of it is the token.
   Proved: for VALID UTF-8 value and phrase, whenever SimpleTokenFinder (TokModel.finder - the row semantics of MATCHPHRASE)
   matches the phrase in the value, every token of the phrase is a token of the value; for text without bytes >= 0x80 the
   byte-level tokens of SimpleTokenizer are these tokens, so the same holds of them (C20_finder_tokens_incl). This removes
   the last premise about the tokenizers from the bloom-filter theorems. *)
From Coq Require Import List Bool Arith NArith Lia ZifyBool ZifyN.
From OG Require Import C20.TokModel C20.TokProofs.
Import ListNotations.
Local Open Scope N_scope.

Section UtfTok.
  Variable split : N -> bool.

  (* bytes of the character a byte >= 0x80 starts; 0 = the byte is passed over *)
  Definition clen (b : N) : nat :=
    if b <=? 223 then 2%nat else if b <=? 239 then 3%nat else if b <=? 247 then 4%nat else 0%nat.

  Inductive ust :=
  | UA (cur : list N)                 (* between characters; cur = the ASCII run being read, newest first *)
  | UM (k : nat) (acc : list N).      (* inside a multi-byte character: k more bytes belong to it *)

  Fixpoint urun (s : list N) (st : ust) : list (list N) * ust :=
    match s with
    | [] => ([], st)
    | b :: s' =>
        match st with
        | UM (S (S k)) acc => urun s' (UM (S k) (b :: acc))
        | UM _ acc => let (o, e) := urun s' (UA []) in (rev (b :: acc) :: o, e)
        | UA cur =>
            if b <? 128 then
              (if split b then (let (o, e) := urun s' (UA []) in (flush cur ++ o, e)) else urun s' (UA (b :: cur)))
            else
              match clen b with
              | O => let (o, e) := urun s' (UA []) in (flush cur ++ o, e)
              | S k => let (o, e) := urun s' (UM k [b]) in (flush cur ++ o, e)
              end
        end
    end.
  Definition uflush (st : ust) : list (list N) :=
    match st with UA cur => flush cur | UM _ acc => [rev acc] end.
  Definition utokens (s : list N) : list (list N) := let (o, e) := urun s (UA []) in o ++ uflush e.

  (* ---------- valid UTF-8 (by length classes; overlong forms and surrogates are not excluded - not needed) ---------- *)
  Definition contb (b : N) : Prop := 128 <= b /\ b <= 191.
  Inductive valid : list N -> Prop :=
  | v_nil : valid []
  | v_1 : forall b s, b < 128 -> valid s -> valid (b :: s)
  | v_2 : forall b c1 s, 192 <= b -> b <= 223 -> contb c1 -> valid s -> valid (b :: c1 :: s)
  | v_3 : forall b c1 c2 s, 224 <= b -> b <= 239 -> contb c1 -> contb c2 -> valid s -> valid (b :: c1 :: c2 :: s)
  | v_4 : forall b c1 c2 c3 s, 240 <= b -> b <= 247 -> contb c1 -> contb c2 -> contb c3 -> valid s ->
          valid (b :: c1 :: c2 :: c3 :: s).

  Lemma urun_app : forall s1 s2 st,
    urun (s1 ++ s2) st = let (o1, e1) := urun s1 st in let (o2, e2) := urun s2 e1 in (o1 ++ o2, e2).
  Proof.
    induction s1 as [|b s1 IH]; intros s2 st; simpl.
    - destruct (urun s2 st); reflexivity.
    - destruct st as [cur | k acc].
      + destruct (b <? 128).
        * destruct (split b).
          -- rewrite IH. destruct (urun s1 (UA [])) as [o1 e1]. destruct (urun s2 e1) as [o2 e2]. now rewrite app_assoc.
          -- apply IH.
        * destruct (clen b) as [|k].
          -- rewrite IH. destruct (urun s1 (UA [])) as [o1 e1]. destruct (urun s2 e1) as [o2 e2]. now rewrite app_assoc.
          -- rewrite IH. destruct (urun s1 (UM k [b])) as [o1 e1]. destruct (urun s2 e1) as [o2 e2]. now rewrite app_assoc.
      + destruct k as [|[|k]].
        * rewrite IH. destruct (urun s1 (UA [])) as [o1 e1]. destruct (urun s2 e1) as [o2 e2]. reflexivity.
        * rewrite IH. destruct (urun s1 (UA [])) as [o1 e1]. destruct (urun s2 e1) as [o2 e2]. reflexivity.
        * apply IH.
  Qed.

  (* a byte that ends an ASCII run: a split character of the table or any byte >= 0x80 that starts a character *)
  Lemma urun_break_hd : forall x s cur, fsplit split x = true -> (x < 128 \/ clen x <> 0%nat) ->
    exists o e, urun (x :: s) (UA cur) = (flush cur ++ o, e) /\ urun (x :: s) (UA []) = (o, e).
  Proof.
    intros x s cur Hf Hx. unfold fsplit in Hf. simpl.
    destruct (x <? 128) eqn:E.
    - assert (Hs : split x = true).
      { apply orb_true_iff in Hf. destruct Hf as [Hf|Hf]; auto. apply N.leb_le in Hf. apply N.ltb_lt in E. lia. }
      rewrite Hs. destruct (urun s (UA [])) as [o e]. exists o, e. split; reflexivity.
    - destruct (clen x) as [|k] eqn:Ec.
      + destruct Hx as [Hx|Hx]; [apply N.ltb_ge in E; lia | contradiction].
      + destruct (urun s (UM k [x])) as [o e]. exists o, e. split; reflexivity.
  Qed.

  (* facts about [valid] and [clen] do not involve the split table; `clear split` keeps lia from carrying it into the proof
     terms, so that they take no split argument outside the section *)
  Lemma clen_2 : forall b, 192 <= b -> b <= 223 -> clen b = 2%nat.
  Proof using. clear split. intros. unfold clen. replace (b <=? 223) with true by (symmetry; apply N.leb_le; lia). reflexivity. Qed.
  Lemma clen_3 : forall b, 224 <= b -> b <= 239 -> clen b = 3%nat.
  Proof using. clear split.
    intros. unfold clen. replace (b <=? 223) with false by (symmetry; apply N.leb_gt; lia).
    replace (b <=? 239) with true by (symmetry; apply N.leb_le; lia). reflexivity.
  Qed.
  Lemma clen_4 : forall b, 240 <= b -> b <= 247 -> clen b = 4%nat.
  Proof using. clear split.
    intros. unfold clen. replace (b <=? 223) with false by (symmetry; apply N.leb_gt; lia).
    replace (b <=? 239) with false by (symmetry; apply N.leb_gt; lia).
    replace (b <=? 247) with true by (symmetry; apply N.leb_le; lia). reflexivity.
  Qed.
  Lemma ge128 : forall b, 128 <= b -> (b <? 128) = false.
  Proof using. clear split. intros. apply N.ltb_ge. lia. Qed.

  (* the state after a valid string: an ASCII run, which is empty unless the string ends with a non-split byte < 0x80 *)
  Lemma valid_end : forall s, valid s -> forall cur,
    exists o c, urun s (UA cur) = (o, UA c) /\
      (s = [] -> c = cur) /\
      (s <> [] -> fsplit split (last s 0) = true -> c = []).
  Proof.
    induction 1 as [| b s Hb Hv IH | b c1 s H1 H2 Hc1 Hv IH | b c1 c2 s H1 H2 Hc1 Hc2 Hv IH
                    | b c1 c2 c3 s H1 H2 Hc1 Hc2 Hc3 Hv IH]; intro cur.
    - exists [], cur. repeat split; auto. intro; contradiction.
    - simpl. replace (b <? 128) with true by (symmetry; apply N.ltb_lt; lia).
      destruct (split b) eqn:Es.
      + destruct (IH []) as (o & c & E & P1 & P2). rewrite E. exists (flush cur ++ o), c. split; [reflexivity|].
        split; [discriminate|]. intros _ Hl. destruct s as [|y s']; [apply P1; reflexivity|].
        apply P2; [discriminate|]. exact Hl.
      + destruct (IH (b :: cur)) as (o & c & E & P1 & P2). rewrite E. exists o, c. split; [reflexivity|].
        split; [discriminate|]. intros _ Hl. destruct s as [|y s'].
        * simpl in Hl. unfold fsplit in Hl. rewrite Es in Hl. replace (128 <=? b) with false in Hl by (symmetry; apply N.leb_gt; lia).
          discriminate.
        * apply P2; [discriminate|]. exact Hl.
    - destruct Hc1 as [Ha Hb']. simpl. rewrite (ge128 b) by lia. rewrite (clen_2 b) by lia.
      destruct (IH []) as (o & c & E & P1 & P2). rewrite E. eexists. exists c. split; [reflexivity|].
      split; [discriminate|]. intros _ Hl. destruct s as [|y s']; [apply P1; reflexivity|]. apply P2; [discriminate|]. exact Hl.
    - simpl. rewrite (ge128 b) by lia. rewrite (clen_3 b) by lia.
      destruct (IH []) as (o & c & E & P1 & P2). rewrite E. eexists. exists c. split; [reflexivity|].
      split; [discriminate|]. intros _ Hl. destruct s as [|y s']; [apply P1; reflexivity|]. apply P2; [discriminate|]. exact Hl.
    - simpl. rewrite (ge128 b) by lia. rewrite (clen_4 b) by lia.
      destruct (IH []) as (o & c & E & P1 & P2). rewrite E. eexists. exists c. split; [reflexivity|].
      split; [discriminate|]. intros _ Hl. destruct s as [|y s']; [apply P1; reflexivity|]. apply P2; [discriminate|]. exact Hl.
  Qed.

  Lemma valid_hd : forall x s, valid (x :: s) -> ~ contb x /\ (x < 128 \/ clen x <> 0%nat).
  Proof using. clear split.
    intros x s H. inversion H; subst; unfold contb.
    - split; [lia | now left].
    - split; [lia | right; rewrite clen_2 by lia; discriminate].
    - split; [lia | right; rewrite clen_3 by lia; discriminate].
    - split; [lia | right; rewrite clen_4 by lia; discriminate].
  Qed.

  (* ---------- UTF-8 is self-synchronising: an occurrence of a valid string in a valid string is character aligned ---------- *)
  Lemma valid_prefix_free : forall x, valid x -> forall y, valid (x ++ y) -> valid y.
  Proof using. clear split.
    induction 1 as [| b s Hb Hv IH | b c1 s H1 H2 Hc1 Hv IH | b c1 c2 s H1 H2 Hc1 Hc2 Hv IH
                    | b c1 c2 c3 s H1 H2 Hc1 Hc2 Hc3 Hv IH]; intros y Hy; simpl in Hy; auto.
    - inversion Hy; subst; try lia. now apply IH.
    - inversion Hy; subst; try lia. now apply IH.
    - inversion Hy; subst; try lia. now apply IH.
    - inversion Hy; subst; try lia. now apply IH.
  Qed.

  Ltac list_eqs := repeat match goal with
    | H : _ :: _ = _ :: _ |- _ => injection H; clear H; intros; subst
    | H : _ :: _ = ?r |- _ => is_var r; subst r
    | H : ?r = _ :: _ |- _ => is_var r; subst r
    end.

  (* peel one character off the front of a: what is left still ends in front of r, whose first byte is no continuation byte, so
     the character cannot have run on into r; strong induction on the length of a because a character is 1 to 4 bytes *)
  Lemma valid_split : forall a r, valid (a ++ r) -> r <> [] -> ~ contb (hd 0 r) -> valid a.
  Proof using. clear split.
    intros a. remember (length a) as n eqn:En. revert a En.
    induction n as [n IHn] using lt_wf_ind. intros a En r Hv Hr Hh.
    destruct a as [|b0 [|x1 [|x2 [|x3 a'']]]]; [constructor| | | |]; simpl in Hv; inversion Hv; subst; simpl in *; list_eqs;
      simpl in Hh; try contradiction; try lia.
    - constructor; auto. constructor.
    - constructor; auto. apply (IHn 1%nat) with (r := r); auto.
    - apply v_2; auto. constructor.
    - constructor; auto. apply (IHn 2%nat) with (r := r); auto.
    - apply v_2; auto. apply (IHn 1%nat) with (r := r); auto.
    - apply v_3; auto. constructor.
    - constructor; auto. apply (IHn (S (S (S (length a''))))) with (r := r); auto.
    - apply v_2; auto. apply (IHn (S (S (length a'')))) with (r := r); auto.
    - apply v_3; auto. apply (IHn (S (length a''))) with (r := r); auto.
    - apply v_4; auto. apply (IHn (length a'')) with (r := r); auto.
  Qed.

  Lemma valid_occurrence : forall a p b, valid (a ++ p ++ b) -> valid p -> p <> [] -> valid a /\ valid b.
  Proof using. clear split.
    intros a p b Hv Hp Hne. destruct p as [|x p']; [contradiction|].
    assert (Ha : valid a).
    { apply (valid_split a ((x :: p') ++ b)); auto; [discriminate|]. simpl. apply (valid_hd x p' Hp). }
    split; auto. apply (valid_prefix_free (x :: p') Hp). apply (valid_prefix_free a Ha). exact Hv.
  Qed.

  (* ---------- main lemma: a valid, finder-accepted occurrence keeps every token of the phrase ---------- *)
  Lemma occ_utokens_incl : forall acc p post,
    valid (rev acc ++ p ++ post) -> valid p -> p <> [] ->
    valid_occ split p acc post = true ->
    incl (utokens p) (utokens (rev acc ++ p ++ post)).
  Proof.
    intros acc p post Hv Hp Hne Hocc.
    destruct (valid_occurrence _ _ _ Hv Hp Hne) as [Ha Hb].
    unfold utokens at 2. rewrite urun_app.
    destruct (valid_end (rev acc) Ha []) as (o1 & c1 & E1 & A1 & A2). rewrite E1.
    rewrite urun_app. unfold utokens.
    destruct (valid_end p Hp []) as (op & cp & Ep & P1 & P2). rewrite Ep.
    unfold valid_occ in Hocc. apply andb_true_iff in Hocc. destruct Hocc as [V1 V2].
    destruct p as [|x0 p0]; [contradiction|].
    assert (Hl : exists o2', urun (x0 :: p0) (UA c1) = (o2' ++ op, UA cp)).
    { apply orb_true_iff in V1. destruct V1 as [V1 | V1].
      - assert (c1 = []) as ->.
        { destruct acc as [|y acc']; [apply A1; reflexivity|].
          apply A2; [simpl; intro H; apply app_eq_nil in H; destruct H; discriminate|].
          simpl. rewrite last_last. exact V1. }
        exists []. exact Ep.
      - destruct (urun_break_hd x0 p0 c1 V1 (proj2 (valid_hd x0 p0 Hp))) as (o & e & F1 & F2).
        rewrite Ep in F2. inversion F2; subst. exists (flush c1). exact F1. }
    destruct Hl as (o2' & Hl). rewrite Hl.
    destruct (valid_end post Hb cp) as (o3 & c3 & E3 & B1 & B2). rewrite E3.
    intros t Ht. apply in_app_or in Ht. destruct Ht as [Ht | Ht].
    - apply in_or_app. left. apply in_or_app. right. apply in_or_app. left. apply in_or_app. now right.
    - (* the unfinished ASCII run of the phrase is finished by what follows *)
      simpl in Ht. apply orb_true_iff in V2. destruct V2 as [V2 | V2].
      + destruct post as [|y post'].
        * rewrite (B1 eq_refl). apply in_or_app. right. exact Ht.
        * destruct (urun_break_hd y post' cp V2 (proj2 (valid_hd y post' Hb))) as (o & e & F1 & F2).
          rewrite E3 in F1. inversion F1; subst.
          apply in_or_app. left. apply in_or_app. right. apply in_or_app. right. apply in_or_app. now left.
      + assert (cp = []) as -> by (apply P2; [discriminate | exact V2]). destruct Ht.
  Qed.

  Theorem finder_utokens_incl : forall p v, valid v -> valid p -> finder split p v = true -> incl (utokens p) (utokens v).
  Proof.
    intros p v Hv Hp H. unfold finder in H. destruct p as [|x0 p0].
    { intros t Ht. destruct Ht. }
    destruct (scan_occ split _ _ _ _ H) as (acc & post & E & V).
    assert (E' : v = rev acc ++ (x0 :: p0) ++ post) by exact E. subst v.
    apply occ_utokens_incl; auto. discriminate.
  Qed.
  (* ---------- ASCII text: the byte-level tokens (SimpleTokenizer) are the UTF-8 aware ones ---------- *)
  Lemma urun_ascii : forall s cur, ascii s ->
    urun s (UA cur) = (fst (run split s cur), UA (snd (run split s cur))).
  Proof.
    induction s as [|b s IH]; intros cur Ha; simpl; [reflexivity|].
    assert (Hs : ascii s) by (intros x Hx; apply Ha; right; exact Hx).
    replace (b <? 128) with true by (symmetry; apply N.ltb_lt, Ha; left; reflexivity).
    destruct (split b); [|apply IH; exact Hs]. rewrite IH by exact Hs. destruct (run split s []); reflexivity.
  Qed.

  Lemma utokens_ascii : forall s, ascii s -> utokens s = tokens split s.
  Proof. intros s Ha. unfold utokens, tokens. rewrite urun_ascii by exact Ha. destruct (run split s []); reflexivity. Qed.

  Lemma ascii_valid : forall s, ascii s -> valid s.
  Proof using. clear split.
    induction s as [|b s IH]; intro H; [constructor|].
    apply v_1; [apply H; left; reflexivity|]. apply IH. intros x Hx. apply H. right. exact Hx.
  Qed.

  (* for values without non-ASCII bytes the premise holds for the byte-level tokens too; with non-ASCII bytes it does not
     (finding C20-bloom-nonascii-token-boundary, Refuted.v) *)
  Theorem finder_tokens_incl : forall p v, ascii v -> finder split p v = true -> incl (tokens split p) (tokens split v).
  Proof.
    intros p v Ha H. assert (Hp : ascii p).
    { destruct p as [|x0 p0]; [intros x []|]. destruct (scan_occ split _ _ _ _ H) as (acc & post & E & _).
      change (v = rev acc ++ (x0 :: p0) ++ post) in E. intros x Hx. apply Ha. rewrite E. apply in_or_app. right. apply in_or_app. left. exact Hx. }
    rewrite <- !utokens_ascii by assumption. apply finder_utokens_incl; auto using ascii_valid.
  Qed.
End UtfTok.
