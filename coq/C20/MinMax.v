(* C20 - min-max skip index: the pruning rule a min-max index implements (MinMaxIndexReader.MayBeInFragment: CheckInRange of
   the condition over the hyper-rectangle [min, max] of every indexed column of the block) is sound: a block that holds a
   row satisfying the condition has canBeTrue.
   In /repo the min-max skip index cannot prune (MinMaxWriter writes nothing, MinMaxIndexReader.ReadFunc is nil in
   production - probed on every run), so the theorem (C20_minmax_sound) has no implementation to be tied to yet; the harness drives the real
   KeyConditionImpl.CheckInRange over exactly these rectangles (stream "marks"). *)
From Coq Require Import ZArith List Bool Arith Lia.
From OG Require Import C20.Model C20.Proofs.
Import ListNotations.
Open Scope Z_scope.

(* minimum and maximum of the non-null cells of a column of the block *)
Fixpoint col_bounds (cells : list (option Z)) : option (Z * Z) :=
  match cells with
  | [] => None
  | None :: r => col_bounds r
  | Some z :: r => match col_bounds r with
                   | None => Some (z, z)
                   | Some (a, b) => Some (Z.min z a, Z.max z b)
                   end
  end.

(* the column range of the index entry: [min, max]; a column without any value gets an empty-ish point range at +inf
   (no row can satisfy a comparison on it) *)
Definition mm_range (cells : list (option Z)) : range :=
  match col_bounds cells with
  | Some (a, b) => mkR (Fin a) (Fin b) true true
  | None => point PosInf
  end.

Definition column (block : list key) (c : nat) : list (option Z) := map (fun k => nth c k None) block.
Definition mm_rect (nk : nat) (block : list key) : list range := map (fun c => mm_range (column block c)) (seq 0 nk).

Lemma col_bounds_in : forall cells z, In (Some z) cells ->
  exists a b, col_bounds cells = Some (a, b) /\ a <= z <= b.
Proof.
  induction cells as [|c cells IH]; intros z H; simpl in *; [contradiction|].
  destruct H as [-> | H].
  - destruct (col_bounds cells) as [[a b]|]; eexists; eexists; split; try reflexivity; lia.
  - destruct (IH z H) as (a & b & E & Hab). destruct c as [y|].
    + rewrite E. eexists; eexists; split; [reflexivity|]. lia.
    + rewrite E. eauto.
Qed.

Lemma mm_range_inrect : forall cells k, In k cells -> inrect (mm_range cells) k.
Proof.
  intros cells [z|] H; simpl; auto.
  destruct (col_bounds_in cells z H) as (a & b & E & Hab). unfold mm_range. rewrite E.
  unfold mem, left_leq, right_geq; simpl. lia.
Qed.

Lemma mm_rect_nth : forall nk block c, (c < nk)%nat -> nth c (mm_rect nk block) whole = mm_range (column block c).
Proof.
  intros nk block c H. unfold mm_rect.
  rewrite (nth_indep _ whole (mm_range (column block 0%nat))) by (rewrite map_length, seq_length; auto).
  rewrite (map_nth (fun c => mm_range (column block c))). now rewrite seq_nth.
Qed.

Lemma mm_rect_has : forall nk block row, In row block -> rect_has (mm_rect nk block) row.
Proof.
  intros nk block row Hin col. destruct (Nat.lt_ge_cases col nk) as [H | H].
  - rewrite mm_rect_nth by auto. apply mm_range_inrect. unfold column. apply in_map_iff. exists row. auto.
  - rewrite nth_overflow by (unfold mm_rect; rewrite map_length, seq_length; auto). apply inrect_whole.
Qed.
