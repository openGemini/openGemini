(* C20 - lemmas, part 1: order on bounds, ranges, the mark algebra, soundness of CheckInRange (mark_sound). *)
From Coq Require Import ZArith List Bool Arith Lia ZifyBool.
From OG Require Import C20.Model.
Import ListNotations.
Open Scope Z_scope.

Lemma beq_eq : forall a b, beq a b = true <-> a = b.
Proof.
  destruct a, b; simpl; split; intro H; try discriminate; try reflexivity.
  - apply Z.eqb_eq in H. now subst.
  - inversion H. apply Z.eqb_refl.
Qed.
Lemma beq_refl : forall a, beq a a = true.
Proof. intro a. now apply beq_eq. Qed.
Lemma blt_irrefl : forall a, blt a a = false.
Proof. destruct a; simpl; auto. apply Z.ltb_irrefl. Qed.
Lemma blt_trans : forall a b c, blt a b = true -> blt b c = true -> blt a c = true.
Proof. destruct a, b, c; simpl; intros; try discriminate; auto; lia. Qed.
Lemma blt_asym : forall a b, blt a b = true -> blt b a = false.
Proof. destruct a, b; simpl; intros; try discriminate; auto; lia. Qed.
Lemma blt_total : forall a b, blt a b = true \/ a = b \/ blt b a = true.
Proof.
  destruct a, b; simpl; auto.
  destruct (Z.lt_trichotomy z z0) as [H | [H | H]].
  - left. lia.
  - right. left. now subst.
  - right. right. lia.
Qed.

Definition mem (r : range) (x : bound) : bool := left_leq r x && right_geq r x.

(* a key column value lies in a column range of a hyper-rectangle. A null satisfies no comparison, so where it is
   put is irrelevant for soundness: it is admitted everywhere. *)
Definition inrect (kr : range) (k : option Z) : Prop :=
  match k with Some z => mem kr (Fin z) = true | None => True end.

Lemma inrect_whole : forall k, inrect whole k.
Proof. destruct k; simpl; auto. Qed.

Lemma right_lq_apart : forall r nr x, right_lq r nr = true -> right_geq r x = true -> left_leq nr x = false.
Proof.
  intros [l h li hi_] [l' h' li' hi'] x. unfold right_lq, right_geq, left_leq; cbn [lo hi loi hii].
  destruct h, l', x; cbn; lia.
Qed.

Lemma left_leq_trans : forall r nr x, left_leq r (lo nr) = true -> left_leq nr x = true -> left_leq r x = true.
Proof.
  intros [l h li hi_] [l' h' li' hi'] x. unfold left_leq; cbn [lo loi].
  destruct l, l', x; cbn; lia.
Qed.

Lemma right_geq_trans : forall r nr x, right_geq r (hi nr) = true -> right_geq nr x = true -> right_geq r x = true.
Proof.
  intros [l h li hi_] [l' h' li' hi'] x. unfold right_geq; cbn [hi hii].
  destruct h, h', x; cbn; lia.
Qed.

(* InRange atom: a value in both ranges makes them intersect *)
Lemma mem_intersects : forall rg kr x,
  mem rg x = true -> mem kr x = true -> intersects rg kr = true.
Proof.
  intros rg kr x H1 H2. unfold mem in *. apply andb_true_iff in H1, H2. destruct H1 as [L1 R1], H2 as [L2 R2].
  unfold intersects. apply negb_true_iff, orb_false_iff. split; apply not_true_is_false; intro H.
  - rewrite (right_lq_apart _ _ _ H R1) in L2. discriminate.
  - rewrite (right_lq_apart _ _ _ H R2) in L1. discriminate.
Qed.

(* NotInRange atom: if the atom's range contains the column range, every value of the column range is in it *)
Lemma contains_mem : forall rg kr x,
  contains rg kr = true -> mem kr x = true -> mem rg x = true.
Proof.
  intros rg kr x H1 H2. unfold mem, contains in *. apply andb_true_iff in H1, H2. destruct H1 as [L1 R1], H2 as [L2 R2].
  rewrite (left_leq_trans _ _ _ L1 L2), (right_geq_trans _ _ _ R1 R2). reflexivity.
Qed.

Lemma mand_true : forall a b, can_t (mand a b) = true <-> can_t a = true /\ can_t b = true.
Proof. intros. unfold mand; simpl. apply andb_true_iff. Qed.
Lemma mor_true : forall a b, can_t (mor a b) = true <-> can_t a = true \/ can_t b = true.
Proof. intros. unfold mor; simpl. apply orb_true_iff. Qed.
Lemma mor_mono_l : forall a b, can_t a = true -> can_t (mor a b) = true.
Proof. intros. apply mor_true. auto. Qed.
Lemma mor_mono_r : forall a b, can_t b = true -> can_t (mor a b) = true.
Proof. intros. apply mor_true. auto. Qed.
Lemma complete_true : forall m, complete m = true -> can_t m = true.
Proof. unfold complete. intros m H. apply andb_true_iff in H. tauto. Qed.

Lemma norm_left_mem : forall isint r z, mem (norm_left isint r) (Fin z) = mem r (Fin z).
Proof.
  intros isint [l h li hi_] z. unfold norm_left; simpl.
  destruct isint; simpl; auto. destruct li; simpl; auto.
  destruct l; simpl; auto.
  destruct (z0 =? max_i64) eqn:E; auto.
  unfold mem, left_leq, right_geq; simpl. destruct h; simpl; lia.
Qed.
Lemma norm_right_mem : forall isint r z, mem (norm_right isint r) (Fin z) = mem r (Fin z).
Proof.
  intros isint [l h li hi_] z. unfold norm_right; simpl.
  destruct isint; simpl; auto. destruct hi_; simpl; auto.
  destruct h; simpl; auto.
  destruct (z0 =? min_i64) eqn:E; auto.
  unfold mem, left_leq, right_geq; simpl. destruct l; simpl; lia.
Qed.

(* the mark CheckInRange computes for a condition tree, defined on the tree *)
Definition elem_mark (e : elem) (rgs : list range) : mark :=
  match e with
  | EIn c rg => elem_range_mark rg (nth c rgs whole)
  | ENotIn c rg => mnot (elem_range_mark rg (nth c rgs whole))
  | ETrue => mkM true false
  | EFalse => mkM false true
  | _ => mkM true true
  end.

Fixpoint mark_of (isint : list bool) (c : cond) (rgs : list range) : mark :=
  match c with
  | CAtom col op v => elem_mark (atom_elem (nth col isint false) col op v) rgs
  | CNonKey _ => mkM true false
  | CIn _ _ => mkM true true
  | CAnd a b => mand (mark_of isint a rgs) (mark_of isint b rgs)
  | COr a b => mor (mark_of isint a rgs) (mark_of isint b rgs)
  end.

Lemma run_atom : forall isint col op v rest rgs st,
  run_rpn (atom_elem isint col op v :: rest) rgs st =
  run_rpn rest rgs (elem_mark (atom_elem isint col op v) rgs :: st).
Proof. intros. destruct op; reflexivity. Qed.

Lemma run_compile : forall isint c rpn,
  compile isint c = Some rpn ->
  forall rest rgs st, run_rpn (rpn ++ rest) rgs st = run_rpn rest rgs (mark_of isint c rgs :: st).
Proof.
  induction c as [col op v | id | col vs | a IHa b IHb | a IHa b IHb]; intros rpn Hc rest rgs st; simpl in Hc.
  - inversion Hc; subst. simpl app. apply run_atom.
  - inversion Hc; subst. reflexivity.
  - discriminate.
  - destruct (compile isint a) as [x|]; [|discriminate]. destruct (compile isint b) as [y|]; [|discriminate].
    inversion Hc; subst. rewrite <- !app_assoc. rewrite (IHa x eq_refl). rewrite (IHb y eq_refl). reflexivity.
  - destruct (compile isint a) as [x|]; [|discriminate]. destruct (compile isint b) as [y|]; [|discriminate].
    inversion Hc; subst. rewrite <- !app_assoc. rewrite (IHa x eq_refl). rewrite (IHb y eq_refl). reflexivity.
Qed.

Lemma check_compile : forall isint c rpn rgs,
  compile isint c = Some rpn -> check_in_range rpn rgs = Some (mark_of isint c rgs).
Proof.
  intros. unfold check_in_range. rewrite <- (app_nil_r rpn). rewrite (run_compile _ _ _ H). reflexivity.
Qed.
Lemma cir_compile : forall isint c rpn rgs,
  compile isint c = Some rpn -> cir rpn rgs = mark_of isint c rgs.
Proof. intros. unfold cir. now rewrite (check_compile _ _ _ rgs H). Qed.
Lemma rpn_ok_compile : forall isint c rpn, compile isint c = Some rpn -> rpn_ok rpn = true.
Proof. intros. unfold rpn_ok. now rewrite (check_compile _ _ _ [] H). Qed.

Definition rect_has (rgs : list range) (row : key) : Prop :=
  forall col, inrect (nth col rgs whole) (nth col row None).

(* the mark of a range element over a column range that holds the row's value x: can-be-true if x is in the element's
   range, can-be-false if it is not *)
Lemma in_mark_sound : forall rg kr x b, mem kr (Fin x) = true -> mem rg (Fin x) = b ->
  if b then can_t (elem_range_mark rg kr) = true else can_f (elem_range_mark rg kr) = true.
Proof.
  intros rg kr x b Hk <-. cbn. destruct (mem rg (Fin x)) eqn:Hr.
  - exact (mem_intersects _ _ _ Hr Hk).
  - apply negb_true_iff, not_true_is_false. intro C. rewrite (contains_mem _ _ _ C Hk) in Hr. discriminate.
Qed.

(* the range of a comparison atom holds exactly the values that satisfy the comparison (for != : that do not) *)
Lemma atom_sound : forall isint col op v rgs x,
  mem (nth col rgs whole) (Fin x) = true ->
  let m := elem_mark (atom_elem isint col op v) rgs in
  if cmp_holds op x v then can_t m = true else can_f m = true.
Proof.
  intros isint col op v rgs x Hm. destruct op; cbn [atom_elem elem_mark cmp_holds].
  2: { assert (mem (point (Fin v)) (Fin x) = (x =? v)) as A by (unfold mem, left_leq, right_geq; cbn; lia).
       apply (in_mark_sound _ _ _ _ Hm) in A. destruct (x =? v); exact A. }
  all: apply (in_mark_sound _ _ x _ Hm); rewrite ?norm_right_mem, ?norm_left_mem; unfold mem, left_leq, right_geq; cbn; lia.
Qed.

Lemma mark_sound_tree : forall isint nonkey c rgs row,
  rect_has rgs row -> eval_cond nonkey c row = true -> can_t (mark_of isint c rgs) = true.
Proof.
  induction c as [col op v | id | col vs | a IHa b IHb | a IHa b IHb]; intros rgs row Hr He; simpl in *; auto.
  - specialize (Hr col). destruct (nth col row None) as [x|]; [|discriminate].
    pose proof (atom_sound (nth col isint false) col op v rgs x Hr) as A. cbv zeta in A. rewrite He in A. exact A.
  - apply andb_true_iff in He. destruct He. apply mand_true. split; eauto.
  - apply orb_true_iff in He. apply mor_true. destruct He; eauto.
Qed.

Lemma mark_sound_rpn : forall isint nonkey c rpn rgs row,
  compile isint c = Some rpn -> rect_has rgs row -> eval_cond nonkey c row = true ->
  can_t (cir rpn rgs) = true.
Proof.
  intros. rewrite (cir_compile _ _ _ rgs H). eapply mark_sound_tree; eauto.
Qed.

Lemma mark_sound : forall isint nonkey c rpn rgs row,
  compile isint c = Some rpn -> rect_has rgs row -> eval_cond nonkey c row = true ->
  check_in_range rpn rgs = Some (mark_of isint c rgs) /\ can_t (mark_of isint c rgs) = true.
Proof.
  intros. split. now apply check_compile. eapply mark_sound_tree; eauto.
Qed.
