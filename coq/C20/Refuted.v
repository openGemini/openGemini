(* C20 - witnesses that the code before the repairs of DESIGN.md section 8 violated the property, one group per finding
   (right-bound mark, index rewrite, null order, unboundable predicates, literal type, key-grouped index, bloom filter),
   closed by vm_compute on the variants of the models that mirror that code. Strings are encoded by rank: 'A' 'B' 'C' 'D' = 1 2 3 4. *)
From Coq Require Import ZArith NArith List Bool.
From OG Require Import C20.Model C20.Proofs C20.Cover C20.ScanProofs C20.NullOrder C20.StrOps C20.Grouped C20.BloomModel C20.BloomRepair.
From OG Require C20.TokModel.
Import ListNotations.
Open Scope Z_scope.

Definition nk0 : nat -> bool := fun _ => false.

(* a fragment contains a row that satisfies the condition, yet MayBeInRange over the fragment's key interval is false *)
Definition prunes_match (V : variant) (isint : list bool) (c : cond) (keys : list key) (sizes : list nat) (i : nat) : Prop :=
  exists rpn row, compile isint c = Some rpn /\ In row (frag_rows sizes keys i) /\ eval_cond nk0 c row = true /\
                  may_range V isint rpn (build_index sizes keys) i (S i) = false.

(* checkRangeRightBound returns `mark` instead of the accumulated `res` (variant v_rb_res = false), index bounds
   handled correctly: the witness is independent of the second defect *)
Definition rb_current : variant := mkV false false.

(* a = 'C' AND b != 1   over rows (C,2) (C,5) (D,0) | (D,1) (D,3) *)
Definition w1_keys : list key := [[Some 3; Some 2]; [Some 3; Some 5]; [Some 4; Some 0]; [Some 4; Some 1]; [Some 4; Some 3]].
Definition w1_cond : cond := CAnd (CAtom 0 Ceq 3) (CAtom 1 Cne 1).
(* a != 'D' OR b = 1    over rows (A,5) (B,7) (C,9) | (D,0) (D,2) *)
Definition w2_keys : list key := [[Some 1; Some 5]; [Some 2; Some 7]; [Some 3; Some 9]; [Some 4; Some 0]; [Some 4; Some 2]].
Definition w2_cond : cond := COr (CAtom 0 Cne 4) (CAtom 1 Ceq 1).

Theorem C20_rightbound_refuted :
  exists isint c keys sizes i, prunes_match rb_current isint c keys sizes i.
Proof.
  exists [false; true], w1_cond, w1_keys, [3%nat; 2%nat], 0%nat.
  eexists. exists [Some 3; Some 2]. split; [vm_compute; reflexivity|]. vm_compute. repeat split; auto.
Qed.
Print Assumptions C20_rightbound_refuted.

Theorem C20_rightbound_refuted_or :
  exists isint c keys sizes i, prunes_match rb_current isint c keys sizes i.
Proof.
  exists [false; true], w2_cond, w2_keys, [3%nat; 2%nat], 0%nat.
  eexists. exists [Some 1; Some 5]. split; [vm_compute; reflexivity|]. vm_compute. repeat split; auto.
Qed.

(* the same inputs are handled correctly by the repaired variant, and also fail in the variant [current] that has both defects *)
Example C20_rightbound_witnesses_repaired :
  (exists rpn, compile [false; true] w1_cond = Some rpn /\
     may_range repaired [false; true] rpn (build_index [3%nat; 2%nat] w1_keys) 0 1 = true /\
     may_range current [false; true] rpn (build_index [3%nat; 2%nat] w1_keys) 0 1 = false) /\
  (exists rpn, compile [false; true] w2_cond = Some rpn /\
     may_range repaired [false; true] rpn (build_index [3%nat; 2%nat] w2_keys) 0 1 = true /\
     may_range current [false; true] rpn (build_index [3%nat; 2%nat] w2_keys) 0 1 = false).
Proof. split; eexists; (split; [vm_compute; reflexivity|]); vm_compute; repeat split. Qed.

(* the whole Scan prunes the fragment too (exclusion search, coarse index 8) *)
Example C20_rightbound_scan_refuted :
  exists rpn, compile [false; true] w1_cond = Some rpn /\
    scan rb_current [false; true] rpn (build_index [3%nat; 2%nat] w1_keys) 2 8 0 = ScanOk [] /\
    scan repaired [false; true] rpn (build_index [3%nat; 2%nat] w1_keys) 2 8 0 = ScanOk [(0, 1)%nat].
Proof. eexists. split; [vm_compute; reflexivity|]. vm_compute. repeat split. Qed.

(* second defect: an open integer bound taken from the index is closed by rewriting the index value in place
   (variant v_norm_idx = true), checkRangeRightBound repaired.
   a = 1 AND b = 5 AND c = 7   over rows (1,5,3) (1,5,7) (1,9,0) | (2,0,0) (2,1,1), all integer columns *)
Definition norm_current : variant := mkV true true.
Definition w3_keys : list key :=
  [[Some 1; Some 5; Some 3]; [Some 1; Some 5; Some 7]; [Some 1; Some 9; Some 0]; [Some 2; Some 0; Some 0]; [Some 2; Some 1; Some 1]].
Definition w3_cond : cond := CAnd (CAnd (CAtom 0 Ceq 1) (CAtom 1 Ceq 5)) (CAtom 2 Ceq 7).

Theorem C20_index_rewrite_refuted :
  exists isint c keys sizes i, prunes_match norm_current isint c keys sizes i.
Proof.
  exists [true; true; true], w3_cond, w3_keys, [3%nat; 2%nat], 0%nat.
  eexists. exists [Some 1; Some 5; Some 7]. split; [vm_compute; reflexivity|]. vm_compute. repeat split; auto.
Qed.
Print Assumptions C20_index_rewrite_refuted.

Example C20_index_rewrite_witness_repaired :
  exists rpn, compile [true; true; true] w3_cond = Some rpn /\
    may_range repaired [true; true; true] rpn (build_index [3%nat; 2%nat] w3_keys) 0 1 = true.
Proof. eexists. split; [vm_compute; reflexivity|]. vm_compute. repeat split. Qed.

(* ---------- null keys: the data is in the writer's order, the reader before a93f46a read a null index cell as +infinity ----------
   finding C20-null-key-sort-order, witness corpus/C20/w8: f < 0.5 over (null)(0)(0)(1), one fragment. Floats by rank:
   pad (-MaxFloat64) = 0, 0.0 = 1, 0.5 = 2, 1.0 = 3. The index is [null; 1.0]: read as [+inf, 1.0] the interval is
   empty and Scan returns no range although two rows match. *)
Theorem C20_null_order_refuted :
  exists isint c rpn keys pads sizes i,
    compile isint c = Some rpn /\ writer_sorted pads keys /\ frag_matches nk0 c sizes keys i /\
    scan repaired isint rpn (read_index null_posinf pads (build_index sizes keys)) (length sizes) 8 0 = ScanOk [].
Proof.
  exists [false], (CAtom 0 Clt 2), [EIn 0 (mkR NegInf (Fin 2) false false)], [[None]; [Some 1]; [Some 1]; [Some 3]], [0], [4%nat], 0%nat.
  split; [reflexivity|]. split; [apply (sortedb_true kb); vm_compute; reflexivity|]. split.
  - exists [Some 1]. split; [right; left; reflexivity | reflexivity].
  - vm_compute. reflexivity.
Qed.
Print Assumptions C20_null_order_refuted.

(* a candidate repair that was tried and rejected (use the null cell as it is - FieldRef.Less orders a
   null strictly BEFORE every value) is unsound too, because the writer lets a null TIE with the pad value:
   boolean key false false | null false, condition k = false (false = pad = 0). The index is [false; null; false];
   fragment 0 gets the interval [false, null] = [0, -inf], which is empty, and both rows of the fragment match. *)
Theorem C20_null_strictly_first_refuted :
  exists isint c rpn keys pads sizes i,
    compile isint c = Some rpn /\ writer_sorted pads keys /\ frag_matches nk0 c sizes keys i /\
    covered i (scan_binary (may_range_first isint rpn (build_index sizes keys)) (length sizes)) = false /\
    (* the repaired reading keeps it *)
    covered i (scan_binary (may_range repaired isint rpn (read_index null_pad pads (build_index sizes keys))) (length sizes)) = true.
Proof.
  exists [false], (CAtom 0 Ceq 0), [EIn 0 (point (Fin 0))], [[Some 0]; [Some 0]; [None]; [Some 0]], [0], [2%nat; 2%nat], 0%nat.
  split; [reflexivity|]. split; [apply (sortedb_true kb); vm_compute; reflexivity|]. split.
  - exists [Some 0]. split; [left; reflexivity | reflexivity].
  - split; vm_compute; reflexivity.
Qed.
Print Assumptions C20_null_strictly_first_refuted.

(* ---------- unboundable predicates on a key column, before /repo 05a4bb5 (findings C20-matchphrase-key-as-equality,
   C20-like-on-key-panics; fixed) ----------
   strings by rank: 'a world' = 0, 'b' = 1, 'c' = 2, 'world' = 3, 'zeta' = 4; pk MATCHPHRASE 'world' holds for the row
   'a world' (opaque predicate 1 = true) but the old translation reads it as pk = 'world' and prunes fragment 0 *)
Theorem C20_matchphrase_as_equality_refuted :
  exists x keys sizes i row,
    In row (frag_rows sizes keys i) /\ eval_xcond (fun _ => true) x row = true /\
    scan repaired [false] (compile_old [false] x) (build_index sizes keys) (length sizes) 8 0 = ScanOk [(1, 2)%nat].
Proof.
  exists (XStr 0 SKmatchphrase 3 1), [[Some 0]; [Some 1]; [Some 2]; [Some 4]], [2%nat; 2%nat], 0%nat, [Some 0].
  split; [left; reflexivity|]. split; [reflexivity|]. vm_compute. reflexivity.
Qed.
Print Assumptions C20_matchphrase_as_equality_refuted.

(* pk LIKE 'x' AND k1 = 1: the old translation appends no element for LIKE, the AND finds one operand only: CheckInRange
   fails for every rectangle (the Go code indexes an empty stack: panic), while the repaired translation evaluates *)
Theorem C20_like_no_element_refuted :
  forall rgs, check_in_range (compile_old [false; true] (XAnd (XStr 0 SKlike 0 1) (XAtom 1 Ceq 1))) rgs = None /\
              exists rpn, compile [false; true] (lower (XAnd (XStr 0 SKlike 0 1) (XAtom 1 Ceq 1))) = Some rpn /\
                          check_in_range rpn rgs <> None.
Proof.
  intro rgs. split; [reflexivity|]. eexists. split; [reflexivity|]. simpl. discriminate.
Qed.
Print Assumptions C20_like_no_element_refuted.

(* ---------- a numeric literal of another type than the key column's (finding C20-literal-type-mismatch) ----------
   genRPNElementByVal before c8854be stored the literal's bits as a value of the KEY's type: for the index the atom `f = 2` (integer
   literal, float key) is `f = 1e-323`. Floats by rank: -1 = 0, 1e-323 = 1, 0.5 = 2, 1 = 3, 2 = 4; keys -1 0.5 | 1 1 | 2 2.
   The rows are judged with the literal 2 (rank 4), the index with rank 1: fragment 2 holds the matching rows, Scan returns
   fragment 0 only. With the literal converted (fix6.patch) the atom is an ordinary CAtom and C20_scan_sound applies. *)
Theorem C20_literal_reinterpreted_refuted :
  exists keys sizes i v v',
    frag_matches nk0 (CAtom 0 Ceq v) sizes keys i /\
    scan repaired [false] [EIn 0 (point (Fin v'))] (build_index sizes keys) (length sizes) 8 0 = ScanOk [(0, 1)%nat] /\
    scan repaired [false] [EIn 0 (point (Fin v))] (build_index sizes keys) (length sizes) 8 0 = ScanOk [(1, 3)%nat].
Proof.
  exists [[Some 0]; [Some 2]; [Some 3]; [Some 3]; [Some 4]; [Some 4]], [2%nat; 2%nat; 2%nat], 2%nat, 4, 1.
  split; [exists [Some 4]; split; [left; reflexivity | reflexivity]|]. split; vm_compute; reflexivity.
Qed.
Print Assumptions C20_literal_reinterpreted_refuted.

(* ---------- the key-grouped index read with the pad value (finding C20-null-key-grouped-index) ----------
   the same index as C20_example_grouped, a null cell read as the pad value (false = 0, '' = 0): the rows read
   (0,2) (0,3) (0,0) (0,0) (1,0) are not ordered, and k1 > 'B' loses group 1 = (null,'C'), whose key satisfies it *)
Theorem C20_grouped_pad_reading_refuted :
  exists idx pads c rpn i,
    ks_sorted idx /\ compile [false; false] c = Some rpn /\ eval_cond nk0 c (nth i idx []) = true /\
    (exists rs, scan_g [false; false] rpn (map (padk pads) idx) 8 0 = ScanOk rs /\ covered i rs = false) /\
    (exists rs, scan_g [false; false] rpn idx 8 0 = ScanOk rs /\ covered i rs = true).
Proof.
  exists [[None; Some 2]; [None; Some 3]; [Some 0; None]; [Some 0; Some 0]; [Some 1; Some 0]], [0; 0], (CAtom 1 Cgt 2),
         [EIn 1 (mkR (Fin 2) PosInf false false)], 1%nat.
  split; [apply ks_sortedb_true; vm_compute; reflexivity|]. split; [reflexivity|]. split; [reflexivity|].
  split; eexists; (split; [vm_compute; reflexivity|]); vm_compute; reflexivity.
Qed.
Print Assumptions C20_grouped_pad_reading_refuted.

(* ---------- bloom-filter skip index: reader and writer before 9dd9491 (findings C20-bloom-gram-phrase, C20-bloom-nonascii-token-boundary) ----------
   split table = {space, '/'}; hash positions of a token: two numbers computed from its bytes *)
Open Scope nat_scope.
Definition bsplit (b : N) : bool := ((b =? 32) || (b =? 47))%N.
Definition bhash (t : list N) : list nat :=
  [N.to_nat (fold_left N.add t 0%N mod 61); N.to_nat ((7 * fold_left N.add t 0 + N.of_nat (length t)) mod 59)%N].
Definition one_row (v : list N) : list (row (list N)) := [fun c => if c =? 0 then Some v else None].

(* (a) a phrase without a token: '/' matches the row "a/b" (SimpleTokenFinder: the phrase's own first and last byte are
   boundaries) but hitExpr before 9dd9491 answered "absent" for an empty token list *)
Theorem C20_bloom_notoken_refuted :
  exists v p, TokModel.finder bsplit p v = true /\
    bloom_kept (list N) bhash (list N) (TokModel.tokens bsplit) 0 (fun c => c =? 0)
               (block_filter (list N) bhash (list N) (TokModel.tokens bsplit) 0 (one_row v)) (SAtom (PMatch (list N) 0 p)) = false.
Proof. exists [97; 47; 98]%N, [47]%N. split; vm_compute; reflexivity. Qed.
Print Assumptions C20_bloom_notoken_refuted.

(* (b) gram lookups: the reader before 9dd9491 looked a phrase of three tokens joined by the same separator up by ONE combined hash
   (modelled as the token made of all bytes of the phrase); the writer inserted the three single tokens *)
Definition gram_tokens (p : list N) : list (list N) :=
  match TokModel.tokens bsplit p with
  | t1 :: t2 :: t3 :: _ => [p]
  | ts => ts
  end.
Theorem C20_bloom_gram_refuted :
  exists v p, TokModel.finder bsplit p v = true /\
    bloom_kept (list N) bhash (list N) gram_tokens 0 (fun c => c =? 0)
               (block_filter (list N) bhash (list N) (TokModel.tokens bsplit) 0 (one_row v)) (SAtom (PMatch (list N) 0 p)) = false /\
    bloom_kept_r (list N) bhash (list N) (TokModel.tokens bsplit) 0 (fun c => c =? 0)
               (block_filter (list N) bhash (list N) (TokModel.tokens bsplit) 0 (one_row v)) (SAtom (PMatch (list N) 0 p)) = true.
Proof. exists [98; 32; 102; 32; 103]%N, [98; 32; 102; 32; 103]%N. repeat split; vm_compute; reflexivity. Qed.
Print Assumptions C20_bloom_gram_refuted.

(* (c) non-ASCII text: the value "ab" + one 3-byte character is ONE byte-level token, the finder takes the non-ASCII byte
   for a boundary and matches the phrase "ab"; the premise of the bloom theorems fails and the block is pruned - even by the
   repaired READER as long as the WRITER tokenizes byte-wise (fix5.patch changes the writer's tokens) *)
Theorem C20_bloom_nonascii_refuted :
  exists v p, TokModel.finder bsplit p v = true /\ ~ incl (TokModel.tokens bsplit p) (TokModel.tokens bsplit v) /\
    bloom_kept_r (list N) bhash (list N) (TokModel.tokens bsplit) 0 (fun c => c =? 0)
               (block_filter (list N) bhash (list N) (TokModel.tokens bsplit) 0 (one_row v)) (SAtom (PMatch (list N) 0 p)) = false.
Proof.
  exists [97; 98; 229; 141; 142]%N, [97; 98]%N. split; [vm_compute; reflexivity|]. split; [|vm_compute; reflexivity].
  intro H. specialize (H [97; 98]%N). vm_compute in H. destruct H as [H | H]; [now left | discriminate H | destruct H].
Qed.
Print Assumptions C20_bloom_nonascii_refuted.
