(* C20 - predicates on a primary-key column that the key order cannot bound (MATCHPHRASE, IPINRANGE, LIKE, MATCH).
   [xcond] = condition trees with such atoms; their row semantics is opaque (token containment, subnet membership, a
   regular expression: [nonkey id]). Two translations to the RPN:
     lower        (repaired, /repo 05a4bb5): the atom becomes an AlwaysTrue element that keeps its operand slot - exactly
                  what a comparison on a non-key column becomes; all soundness theorems apply through [lower];
     compile_old  (before 05a4bb5): MATCHPHRASE / IPINRANGE become the equality range [v,v], LIKE / MATCH append NO
                  element (a following AND / OR pops an empty stack). *)
From Coq Require Import ZArith List Bool Arith.
From OG Require Import C20.Model.
Import ListNotations.
Open Scope Z_scope.

Inductive strkind := SKmatchphrase | SKipinrange | SKlike | SKmatch.

Inductive xcond :=
| XAtom (col : nat) (op : cmp) (v : Z)
| XNonKey (id : nat)
| XStr (col : nat) (k : strkind) (v : Z) (id : nat)      (* key column, literal (by rank), id of its opaque row predicate *)
| XAnd (a b : xcond)
| XOr (a b : xcond).

Fixpoint lower (x : xcond) : cond :=
  match x with
  | XAtom col op v => CAtom col op v
  | XNonKey id => CNonKey id
  | XStr _ _ _ id => CNonKey id
  | XAnd a b => CAnd (lower a) (lower b)
  | XOr a b => COr (lower a) (lower b)
  end.

(* row semantics: the opaque predicate decides; nothing about the key value can be assumed *)
Definition eval_xcond (nonkey : nat -> bool) (x : xcond) (row : key) : bool := eval_cond nonkey (lower x) row.

Fixpoint compile_old (isint : list bool) (x : xcond) : list elem :=
  match x with
  | XAtom col op v => [atom_elem (nth col isint false) col op v]
  | XNonKey _ => [ETrue]
  | XStr col SKmatchphrase v _ | XStr col SKipinrange v _ => [EIn col (point (Fin v))]
  | XStr _ _ _ _ => []
  | XAnd a b => compile_old isint a ++ compile_old isint b ++ [EAnd]
  | XOr a b => compile_old isint a ++ compile_old isint b ++ [EOr]
  end.

Lemma lower_compiles : forall isint x, exists rpn, compile isint (lower x) = Some rpn.
Proof.
  induction x as [col op v | id | col k v id | a [ra Ha] b [rb Hb] | a [ra Ha] b [rb Hb]]; simpl; eauto.
  - rewrite Ha, Hb. eauto.
  - rewrite Ha, Hb. eauto.
Qed.
