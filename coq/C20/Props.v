(* C20 property theorems: the statements, each with the steps that assemble it from the lemmas of the other files, Print
   Assumptions, and Examples showing that the hypotheses are satisfiable. All theorems are about the REPAIRED variant of the model
   (checkRangeRightBound returns the accumulated res; index bounds are never rewritten); Refuted.v shows that
   both deviations (the code before 89627e7 and 2d0760f) break them. *)
From Coq Require Import ZArith List Bool Arith Sorted.
From OG Require Import C20.Model C20.Proofs C20.Cover C20.ScanProofs C20.TwoSided C20.NullOrder C20.MinMax C20.StrOps C20.Multi C20.Grouped.
Import ListNotations.

(* mark_sound: CheckInRange over a hyper-rectangle never says "cannot be true" when some row of the rectangle
   satisfies the condition - for every condition tree NewKeyCondition accepts, every rectangle, every row. The RPN
   stack machine computes exactly the mark defined on the tree. *)
Theorem C20_mark_sound : forall isint nonkey c rpn rgs row,
  compile isint c = Some rpn -> rect_has rgs row -> eval_cond nonkey c row = true ->
  check_in_range rpn rgs = Some (mark_of isint c rgs) /\ can_t (mark_of isint c rgs) = true.
Proof. exact mark_sound. Qed.
Print Assumptions C20_mark_sound.

(* two-sided mark_sound: canBeFalse is sound as well (what a NOT-like rewrite needs), for trees of key-column
   comparisons and rows whose compared columns are not null; TwoSided.v shows both restrictions are necessary
   (a non-key predicate is AlwaysTrue = (true,false); `!=` on a null). *)
Theorem C20_mark_sound_two_sided : forall isint nonkey c rgs row,
  key_only c = true -> nonnull_on c row -> rect_has rgs row ->
  (eval_cond nonkey c row = true -> can_t (mark_of isint c rgs) = true) /\
  (eval_cond nonkey c row = false -> can_f (mark_of isint c rgs) = true).
Proof.
  intros isint nonkey c rgs row Hk Hn Hr. split; [apply mark_sound_tree; exact Hr|].
  induction c as [col op v | id | col vs | a IHa b IHb | a IHa b IHb]; simpl in *; try discriminate; intro He.
  - specialize (Hr col). destruct (nth col row None) as [x|]; [|contradiction].
    pose proof (atom_sound (nth col isint false) col op v rgs x Hr) as A. cbv zeta in A. rewrite He in A. exact A.
  - apply andb_true_iff in Hk. apply andb_false_iff in He. apply orb_true_iff. destruct He; [left|right]; tauto.
  - apply andb_true_iff in Hk. apply orb_false_iff in He. apply andb_true_iff. tauto.
Qed.
Print Assumptions C20_mark_sound_two_sided.

(* rect_cover: the hyper-rectangles checkInAnyRange generates for the key interval [L,R] (common prefix, middle,
   left bound, right bound, recursively) cover every key tuple lexicographically between L and R. *)
Theorem C20_rect_cover : forall L R tys ts,
  length R = length L -> length ts = length L -> (length L <= length tys)%nat ->
  lex_le L (map kb ts) -> lex_le (map kb ts) R ->
  can_t (ciar repaired (fun rs => mkM (in_rectb ts rs) true) tys L R true true []) = true.
Proof. exact Cover.rect_cover. Qed.
Print Assumptions C20_rect_cover.

(* OR-ing a call-back's marks over the cover is sound (with every early exit), whatever the call-back *)
Theorem C20_any_range_sound : forall cb L tys R lb rb pre ts,
  length R = length L -> length ts = length L -> (length L <= length tys)%nat ->
  (lb = true -> lex_le L (map kb ts)) ->
  (rb = true -> lex_le (map kb ts) R) ->
  (forall rs, Forall2 inrect rs ts -> can_t (cb (pre ++ rs)) = true) ->
  can_t (ciar repaired cb tys L R lb rb pre) = true.
Proof. exact (Cover.ciar_sound kb kb_some). Qed.
Print Assumptions C20_any_range_sound.

(* C20_may_be_sound: for every sorted key list cut into non-empty fragments of any sizes, every accepted condition
   tree and every s <= i < e: if fragment i contains a row that satisfies the condition then MayBeInRange over the
   index rows s and e answers true. *)
Theorem C20_may_be_sound : forall isint nonkey c rpn keys sizes nk s i e row,
  compile isint c = Some rpn ->
  sorted_lex keys -> Forall (fun k => length k = nk) keys ->
  (used_keys rpn <= nk)%nat -> (used_keys rpn <= length isint)%nat ->
  Forall (fun z => 1 <= z)%nat sizes -> sum sizes = length keys ->
  (s <= i)%nat -> (i < e)%nat -> (e <= length sizes)%nat ->
  In row (frag_rows sizes keys i) -> eval_cond nonkey c row = true ->
  may_range repaired isint rpn (build_index sizes keys) s e = true.
Proof. exact may_be_sound. Qed.
Print Assumptions C20_may_be_sound.

(* binary search and exclusion search keep every fragment with a match, for any range predicate that is sound in
   the sense of C20_may_be_sound, any coarse-index setting and any seek threshold *)
Theorem C20_scan_binary_sound : forall (may : nat -> nat -> bool) n (hasmatch : nat -> Prop),
  (forall s i e, s <= i -> i < e -> e <= n -> hasmatch i -> may s e = true)%nat ->
  forall i, (i < n)%nat -> hasmatch i -> covered i (scan_binary may n) = true.
Proof. exact scan_binary_sound. Qed.
Print Assumptions C20_scan_binary_sound.

Theorem C20_scan_exclusion_sound : forall (may : nat -> nat -> bool) n (hasmatch : nat -> Prop),
  (forall s i e, s <= i -> i < e -> e <= n -> hasmatch i -> may s e = true)%nat ->
  forall coarse minmarks i, (i < n)%nat -> hasmatch i -> covered i (scan_exclusion may coarse minmarks n) = true.
Proof. exact scan_exclusion_sound. Qed.
Print Assumptions C20_scan_exclusion_sound.

(* C20_scan_sound: Scan returns ranges (no error) and every fragment that contains a satisfying row lies in one *)
Theorem C20_scan_sound : forall isint nonkey c rpn keys sizes nk coarse minmarks i,
  compile isint c = Some rpn ->
  sorted_lex keys -> Forall (fun k => length k = nk) keys ->
  (used_keys rpn <= nk)%nat -> (used_keys rpn <= length isint)%nat ->
  Forall (fun z => 1 <= z)%nat sizes -> sum sizes = length keys ->
  (2 <= coarse)%nat -> (i < length sizes)%nat ->
  frag_matches nonkey c sizes keys i ->
  exists rs, scan repaired isint rpn (build_index sizes keys) (length sizes) coarse minmarks = ScanOk rs /\
             covered i rs = true.
Proof.
  intros isint nonkey c rpn keys sizes nk coarse minmarks i Hc Hs Hlen Hu Hty Hpos Hsum Hco Hi Hm.
  rewrite scan_is_scan_with. apply (scan_with_sound _ (length sizes) (frag_matches nonkey c sizes keys)); auto.
  - eapply may_range_sound; eauto.
  - exact (rpn_ok_compile _ _ _ Hc).
Qed.
Print Assumptions C20_scan_sound.

(* whichever strategy CanDoBinarySearch picks *)
Theorem C20_both_strategies_sound : forall isint nonkey c rpn keys sizes nk coarse minmarks i,
  compile isint c = Some rpn ->
  sorted_lex keys -> Forall (fun k => length k = nk) keys ->
  (used_keys rpn <= nk)%nat -> (used_keys rpn <= length isint)%nat ->
  Forall (fun z => 1 <= z)%nat sizes -> sum sizes = length keys ->
  (i < length sizes)%nat -> frag_matches nonkey c sizes keys i ->
  let may := may_range repaired isint rpn (build_index sizes keys) in
  covered i (scan_binary may (length sizes)) = true /\
  covered i (scan_exclusion may coarse minmarks (length sizes)) = true.
Proof.
  intros isint nonkey c rpn keys sizes nk coarse minmarks i Hc Hs Hlen Hu Hty Hpos Hsum Hi Hm may.
  pose proof (may_range_sound isint nonkey c rpn keys sizes nk Hc Hs Hlen Hu Hty Hpos Hsum) as Hmay.
  split; [eapply scan_binary_sound | eapply scan_exclusion_sound]; eauto.
Qed.
Print Assumptions C20_both_strategies_sound.

(* ---------- null keys, data in the order of the column store's flush sort ----------
   record.SortForColumnStore sorts a null key as the smallest value it knows for the type (the pad value: a null TIES
   with it). writer_sorted pads keys = the keys are lexicographically sorted once every null is replaced by its column's
   pad value. With a null index cell read as that pad value (read_index null_pad = the repaired createFieldRefFunc,
   props/C20/fix3.patch) pruning is sound for every key list in the writer's order, nulls anywhere, any pad values. *)
Theorem C20_may_be_sound_writer_order : forall isint nonkey c rpn keys pads sizes nk s i e row,
  compile isint c = Some rpn ->
  writer_sorted pads keys -> Forall (fun k => length k = nk) keys ->
  (used_keys rpn <= nk)%nat -> (used_keys rpn <= length isint)%nat ->
  Forall (fun z => 1 <= z)%nat sizes -> sum sizes = length keys ->
  (s <= i)%nat -> (i < e)%nat -> (e <= length sizes)%nat ->
  In row (frag_rows sizes keys i) -> eval_cond nonkey c row = true ->
  may_range repaired isint rpn (read_index null_pad pads (build_index sizes keys)) s e = true.
Proof.
  intros isint nonkey c rpn keys pads sizes nk s i e row Hc Hs Hlen Hu Hty Hpos Hsum Hsi Hie Hen Hin He.
  simpl read_index. rewrite <- build_index_map by reflexivity.
  apply (C20_may_be_sound isint nonkey c rpn (map (padk pads) keys) sizes nk s i e (padk pads row)); auto.
  - now apply Forall_length_pad.
  - now rewrite map_length.
  - rewrite frag_rows_map. now apply in_map.
  - now apply eval_cond_pad.
Qed.
Print Assumptions C20_may_be_sound_writer_order.

Theorem C20_scan_sound_writer_order : forall isint nonkey c rpn keys pads sizes nk coarse minmarks i,
  compile isint c = Some rpn ->
  writer_sorted pads keys -> Forall (fun k => length k = nk) keys ->
  (used_keys rpn <= nk)%nat -> (used_keys rpn <= length isint)%nat ->
  Forall (fun z => 1 <= z)%nat sizes -> sum sizes = length keys ->
  (2 <= coarse)%nat -> (i < length sizes)%nat ->
  frag_matches nonkey c sizes keys i ->
  exists rs, scan repaired isint rpn (read_index null_pad pads (build_index sizes keys)) (length sizes) coarse minmarks
             = ScanOk rs /\ covered i rs = true.
Proof.
  intros isint nonkey c rpn keys pads sizes nk coarse minmarks i Hc Hs Hlen Hu Hty Hpos Hsum Hco Hi Hm.
  simpl read_index. rewrite <- build_index_map by reflexivity.
  apply (C20_scan_sound isint nonkey c rpn (map (padk pads) keys) sizes nk coarse minmarks i); auto.
  - now apply Forall_length_pad.
  - now rewrite map_length.
  - now apply frag_matches_pad.
Qed.
Print Assumptions C20_scan_sound_writer_order.

(* padding never loses a match: a condition tree is monotone in its atoms and a null satisfies no atom *)
Theorem C20_pad_keeps_match : forall nonkey c pads row,
  eval_cond nonkey c row = true -> eval_cond nonkey c (padk pads row) = true.
Proof. exact eval_cond_pad. Qed.
Print Assumptions C20_pad_keeps_match.

(* without nulls in the index the two readings of a null cell are the same reader *)
Theorem C20_null_readings_agree_without_nulls : forall pads idx, Forall no_nulls idx ->
  read_index null_pad pads idx = read_index null_posinf pads idx.
Proof.
  intros pads idx H. simpl. induction H as [|k idx Hk _ IH]; simpl; auto. now rewrite padk_no_nulls, IH.
Qed.

(* ---------- min-max skip index ----------
   the rule: a block is read iff CheckInRange of the condition over the rectangle [min, max] of every indexed column
   (non-null values; mm_rect) says canBeTrue. Sound for every block, every accepted condition tree, nulls anywhere.
   (/repo cannot prune with it: MinMaxWriter writes nothing and the reader's ReadFunc is nil - a checked obligation
   of props/C20/run.py; the harness drives the real CheckInRange over exactly these rectangles.) *)
Theorem C20_minmax_sound : forall isint nonkey c rpn nk (block : list key) row,
  compile isint c = Some rpn -> In row block -> eval_cond nonkey c row = true ->
  exists m, check_in_range rpn (mm_rect nk block) = Some m /\ can_t m = true.
Proof.
  intros isint nonkey c rpn nk block row Hc Hin He.
  destruct (mark_sound isint nonkey c rpn (mm_rect nk block) row Hc (mm_rect_has nk block row Hin) He) as [H1 H2].
  eauto.
Qed.
Print Assumptions C20_minmax_sound.

(* a block with a matching value v in column c has min <= v <= max *)
Theorem C20_minmax_bounds : forall block c row z, In row block -> nth c row None = Some z ->
  exists a b, col_bounds (column block c) = Some (a, b) /\ (a <= z <= b)%Z.
Proof. intros block c row z Hin E. apply col_bounds_in. unfold column. apply in_map_iff. exists row. auto. Qed.
Print Assumptions C20_minmax_bounds.

(* ---------- predicates the key order cannot bound (MATCHPHRASE, IPINRANGE, LIKE, MATCH on a key column) ----------
   repaired (/repo 05a4bb5): such an atom is an AlwaysTrue element - it may be true anywhere (canBeTrue, never
   "certainly false") and it keeps its operand slot for the AND / OR that follows *)
Theorem C20_unboundable_atom_always_true : forall isint col k v id rgs,
  compile isint (lower (XStr col k v id)) = Some [ETrue] /\
  check_in_range [ETrue] rgs = Some (mkM true false).
Proof. intros. split; reflexivity. Qed.
Print Assumptions C20_unboundable_atom_always_true.

(* every tree with such atoms compiles (no missing operand), and pruning is sound whatever the opaque predicates answer.
   The two bounds on used_keys stand inside the conclusion because they speak of the rpn whose existence is being asserted. *)
Theorem C20_scan_sound_unboundable_atoms : forall isint nonkey x keys pads sizes nk coarse minmarks i,
  Forall (fun k => length k = nk) keys -> writer_sorted pads keys ->
  Forall (fun z => 1 <= z)%nat sizes -> sum sizes = length keys ->
  (2 <= coarse)%nat -> (i < length sizes)%nat ->
  (exists row, In row (frag_rows sizes keys i) /\ eval_xcond nonkey x row = true) ->
  exists rpn, compile isint (lower x) = Some rpn /\
    ((used_keys rpn <= nk)%nat -> (used_keys rpn <= length isint)%nat ->
     exists rs, scan repaired isint rpn (read_index null_pad pads (build_index sizes keys)) (length sizes) coarse minmarks
                = ScanOk rs /\ covered i rs = true).
Proof.
  intros isint nonkey x keys pads sizes nk coarse minmarks i Hlen Hs Hpos Hsum Hco Hi Hm.
  destruct (lower_compiles isint x) as [rpn Hc]. exists rpn. split; auto. intros Hu Hty.
  eapply C20_scan_sound_writer_order; eauto.
Qed.
Print Assumptions C20_scan_sound_unboundable_atoms.

(* ---------- the reader above the single indexes: attachedIndexReader.Next over a list of data files ----------
   per file: primary-key scan, then the skip index (sk_scan), files with an empty result passed over, optional batch return;
   [delivered] = everything the caller collects by repeating Next until it answers nil. *)

(* every file of the list is looked at exactly once: what is delivered is, in order, the skip-filtered primary-key ranges of
   every file for which they are not empty - for every file list, both index layers arbitrary, with and without batches *)
Theorem C20_attached_reader_visits_every_file_once : forall files batch,
  delivered files batch = expected_from files 0.
Proof.
  intros files batch. unfold delivered.
  rewrite drain_spec; [reflexivity | apply Nat.le_0_l | rewrite Nat.sub_0_r; apply Nat.lt_succ_diag_r].
Qed.
Print Assumptions C20_attached_reader_visits_every_file_once.

(* the skip-index scan keeps every fragment the primary-key scan kept and the skip index does not exclude *)
Theorem C20_sk_scan_sound : forall keep rs j,
  covered j rs = true -> keep j = true -> covered j (sk_scan keep rs) = true.
Proof.
  intros keep rs j Hc Hk. unfold sk_scan. rewrite covered_rev.
  apply sk_fold_covers; [constructor|]. left. apply filter_In. split; auto. now apply in_frags_of.
Qed.
Print Assumptions C20_sk_scan_sound.

(* composition: a fragment that the primary-key scan of its file keeps (C20_scan_sound_writer_order: it holds a matching
   row) and the skip index keeps (C20_bloom_skip_sound_repaired / _ascii: it holds a matching row) is delivered, whichever
   file of the list it is in *)
Theorem C20_attached_reader_delivers : forall files batch i f j,
  nth_error files i = Some f -> covered j (f_pk f) = true -> f_keep f j = true ->
  exists frs, In (i, frs) (delivered files batch) /\ covered j frs = true.
Proof.
  intros files batch i f j Hn Hc Hk. exists (file_result f).
  assert (Hcov : covered j (file_result f) = true) by (now apply C20_sk_scan_sound).
  split; auto. rewrite C20_attached_reader_visits_every_file_once.
  apply (expected_from_nth files 0 i f Hn). eapply covered_count; eauto.
Qed.
Print Assumptions C20_attached_reader_delivers.

(* ---------- the key-grouped index of the production attached flush (ColumnStoreTSSPWriter) ----------
   one index row per key group in KeySorter order (a null strictly before every value), no trailing row, a null cell read
   as -infinity, the row behind the record as +infinity; a fragment is a key group, getSegmentRanges maps the kept groups
   to the segments that hold their rows (cnts = segments per group). *)

(* the cover lemma for ANY reading of a null cell: a null satisfies no comparison, so where it is put does not matter *)
Theorem C20_may_be_sound_any_null_reading : forall (rd : option Z -> bound), (forall z, rd (Some z) = Fin z) ->
  forall isint nonkey c rpn row L R,
  compile isint c = Some rpn -> eval_cond nonkey c row = true ->
  length L = used_keys rpn -> length R = used_keys rpn ->
  (used_keys rpn <= length row)%nat -> (used_keys rpn <= length isint)%nat ->
  lex_le L (map rd (firstn (used_keys rpn) row)) -> lex_le (map rd (firstn (used_keys rpn) row)) R ->
  may_be repaired isint rpn L R = true.
Proof. exact Cover.may_be_sound_lex. Qed.
Print Assumptions C20_may_be_sound_any_null_reading.

Theorem C20_grouped_scan_sound : forall isint nonkey c rpn idx nk coarse minmarks i,
  compile isint c = Some rpn -> ks_sorted idx -> Forall (fun k => length k = nk) idx ->
  (used_keys rpn <= nk)%nat -> (used_keys rpn <= length isint)%nat ->
  (2 <= coarse)%nat -> (i < length idx)%nat ->
  eval_cond nonkey c (nth i idx []) = true ->
  exists rs, scan_g isint rpn idx coarse minmarks = ScanOk rs /\ covered i rs = true.
Proof.
  intros isint nonkey c rpn idx nk coarse minmarks i Hc Hs Hlen Hu Hty Hco Hi He.
  rewrite scan_g_is_scan_with.
  apply (scan_with_sound _ (length idx) (fun j => eval_cond nonkey c (nth j idx []) = true)); auto.
  - intros s j e H1 H2 H3 H4. eapply may_g_sound; eauto.
  - exact (rpn_ok_compile _ _ _ Hc).
Qed.
Print Assumptions C20_grouped_scan_sound.

(* end to end: every SEGMENT of a key group whose key satisfies the condition lies in a segment range handed to the reader *)
Theorem C20_grouped_index_sound : forall isint nonkey c rpn idx cnts nk coarse minmarks i sg,
  compile isint c = Some rpn -> ks_sorted idx -> Forall (fun k => length k = nk) idx ->
  (used_keys rpn <= nk)%nat -> (used_keys rpn <= length isint)%nat ->
  (2 <= coarse)%nat -> (i < length idx)%nat ->
  eval_cond nonkey c (nth i idx []) = true ->
  (sum (firstn i cnts) <= sg)%nat -> (sg < sum (firstn (S i) cnts))%nat ->
  exists rs, scan_g isint rpn idx coarse minmarks = ScanOk rs /\ covered sg (seg_ranges cnts rs) = true.
Proof.
  intros isint nonkey c rpn idx cnts nk coarse minmarks i sg Hc Hs Hlen Hu Hty Hco Hi He H1 H2.
  destruct (C20_grouped_scan_sound isint nonkey c rpn idx nk coarse minmarks i Hc Hs Hlen Hu Hty Hco Hi He) as (rs & E & Hcov).
  exists rs. split; auto. eapply seg_ranges_sound; eauto.
Qed.
Print Assumptions C20_grouped_index_sound.

(* ---------- the hypotheses are satisfiable: the refutation witnesses of Refuted.v, under the repaired model ---------- *)
Open Scope Z_scope.
Definition ex_keys : list key := [[Some 3; Some 2]; [Some 3; Some 5]; [Some 4; Some 0]; [Some 4; Some 1]; [Some 4; None]].
Definition ex_cond : cond := CAnd (CAtom 0 Ceq 3) (CAtom 1 Cne 1).

Example C20_example_hypotheses :
  sorted_lex ex_keys /\ Forall (fun k => length k = 2%nat) ex_keys /\
  Forall (fun z => 1 <= z)%nat [3%nat; 2%nat] /\ sum [3%nat; 2%nat] = length ex_keys /\
  (exists rpn, compile [false; true] ex_cond = Some rpn /\ used_keys rpn = 2%nat) /\
  frag_matches (fun _ => false) ex_cond [3%nat; 2%nat] ex_keys 0.
Proof.
  split; [|split; [|split; [|split; [|split]]]].
  - unfold sorted_lex, ex_keys.
    repeat (first [apply SSorted_cons | apply SSorted_nil | apply Forall_cons | apply Forall_nil]); unfold key_le;
      repeat (simpl; first [exact I | left; reflexivity | right; split; [reflexivity|]]).
  - repeat constructor.
  - repeat constructor.
  - reflexivity.
  - eexists. split; reflexivity.
  - exists [Some 3; Some 2]. split; [left; reflexivity | reflexivity].
Qed.

Example C20_example_scan :
  exists rpn, compile [false; true] ex_cond = Some rpn /\
    scan repaired [false; true] rpn (build_index [3%nat; 2%nat] ex_keys) 2 8 0 = ScanOk [(0, 1)%nat].
Proof. eexists. split; [vm_compute; reflexivity|]. vm_compute. reflexivity. Qed.

(* writer order with a null: the witness of finding C20-null-key-sort-order (f < 0.5 over (null)(0)(0)(1) in one
   fragment; floats by rank: pad -MaxFloat64 = 0, 0.0 = 1, 0.5 = 2, 1.0 = 3). The hypotheses of
   C20_scan_sound_writer_order hold and the repaired reader keeps the fragment. *)
Definition exn_keys : list key := [[None]; [Some 1]; [Some 1]; [Some 3]].
Example C20_example_writer_order :
  writer_sorted [0] exn_keys /\ ~ sorted_lex exn_keys /\
  frag_matches (fun _ => false) (CAtom 0 Clt 2) [4%nat] exn_keys 0 /\
  exists rpn, compile [false] (CAtom 0 Clt 2) = Some rpn /\
    scan repaired [false] rpn (read_index null_pad [0] (build_index [4%nat] exn_keys)) 1 8 0 = ScanOk [(0, 1)%nat].
Proof.
  split; [|split; [|split]].
  - apply (sortedb_true kb). vm_compute. reflexivity.
  - intro H. inversion H as [|k r Hs Hall]; subst. inversion Hall as [|k' r' H1 _]; subst.
    unfold key_le in H1. simpl in H1. destruct H1 as [H1 | [H1 _]]; discriminate.
  - exists [Some 1]. split; [right; left; reflexivity | reflexivity].
  - eexists. split; [vm_compute; reflexivity|]. vm_compute. reflexivity.
Qed.

(* min-max: block (1,null)(3,7)(2,5), condition a >= 3 AND b < 6 has no matching row (pruned: canBeTrue = false would be
   allowed) but a >= 2 AND b < 6 has one, and the mark says so; a = 9 is pruned *)
Example C20_example_minmax :
  let block : list key := [[Some 1; None]; [Some 3; Some 7]; [Some 2; Some 5]] in
  mm_rect 2 block = [mkR (Fin 1) (Fin 3) true true; mkR (Fin 5) (Fin 7) true true] /\
  (exists rpn, compile [true; true] (CAnd (CAtom 0 Cge 2) (CAtom 1 Clt 6)) = Some rpn /\
               option_map can_t (check_in_range rpn (mm_rect 2 block)) = Some true) /\
  (exists rpn, compile [true; true] (CAtom 0 Ceq 9) = Some rpn /\
               option_map can_t (check_in_range rpn (mm_rect 2 block)) = Some false).
Proof.
  split; [vm_compute; reflexivity|]. split; eexists; (split; [vm_compute; reflexivity|]); vm_compute; reflexivity.
Qed.

(* three files; the skip index drops everything the primary index kept in file 1; file 2 is still delivered (the shape of
   the seeded defect "the file after a file emptied by the skip index is never scanned"), in one call and in batches of 1 *)
Example C20_example_attached_reader :
  let files := [mkF [(0, 2)%nat] (fun _ => true); mkF [(0, 3)%nat] (fun _ => false); mkF [(1, 3)%nat] (fun j => Nat.eqb j 2)] in
  delivered files None = [(0, [(0, 2)]); (2, [(2, 3)])]%nat /\
  drain 4 files 0 (Some 1%nat) = [[(0, [(0, 2)])]; [(2, [(2, 3)])]]%nat.
Proof. split; vm_compute; reflexivity. Qed.

(* key-grouped index (bool, string by rank: '' = 0, 'B' = 2, 'C' = 3): groups (null,'B') (null,'C') (false,null) (false,'')
   (true,''); the second group spans two segments; k1 > 'B' keeps group 1 and its segments 1..2 *)
Example C20_example_grouped :
  let idx : list key := [[None; Some 2]; [None; Some 3]; [Some 0; None]; [Some 0; Some 0]; [Some 1; Some 0]] in
  ks_sorted idx /\
  exists rpn, compile [false; false] (CAtom 1 Cgt 2) = Some rpn /\
    exists rs, scan_g [false; false] rpn idx 8 0 = ScanOk rs /\ covered 1 rs = true /\
               covered 1 (seg_ranges [1; 2; 1; 1; 1]%nat rs) = true /\ covered 2 (seg_ranges [1; 2; 1; 1; 1]%nat rs) = true.
Proof.
  split; [apply ks_sortedb_true; vm_compute; reflexivity|].
  eexists. split; [vm_compute; reflexivity|]. eexists. split; [vm_compute; reflexivity|]. repeat split; vm_compute; reflexivity.
Qed.
