(* C20 - the primary index of the production ATTACHED flush (ColumnStoreTSSPWriter, colstore.PrimaryKeyFetcher / KeySorter):
   one index row per KEY GROUP (all rows with the same primary key), groups in KeySorter order - a null key STRICTLY before
   every value, nulls equal to each other - NO trailing last-key row, and per group the segments that hold its rows
   (__fragment__ = segment offset << 32 | segment count). A fragment of PKIndexReaderImpl.Scan is a key group; the ranges it
   returns are turned into segment ranges by getSegmentRanges (ColumnStoreReader.initReadCursor).
   Reading of such an index: a null cell = -infinity (strictly first, repaired createFieldRefFunc for an index with a
   __fragment__ column), the row behind the record = +infinity (no upper bound known).
   The cover lemmas of Cover.v hold for any reading of a null cell, so for this one. *)
From Coq Require Import ZArith List Bool Arith Lia ZifyBool Sorted.
From OG Require Import C20.Model C20.Proofs C20.Cover C20.ScanProofs C20.NullOrder.
Import ListNotations.
Open Scope nat_scope.

Lemma kb_first_some : forall z, kb_first (Some z) = Fin z.
Proof. reflexivity. Qed.

(* the row behind the index record: no upper bound *)
Definition top (u : nat) : list bound := repeat PosInf u.
(* what createFieldRef hands to MayBeInRange for index row j (first u columns) *)
Definition grow (idx : list key) (u j : nat) : list bound :=
  if j <? length idx then map kb_first (firstn u (nth j idx [])) else top u.
Definition may_g (isint : list bool) (rpn : list elem) (idx : list key) (s e : nat) : bool :=
  let u := used_keys rpn in may_be repaired isint rpn (grow idx u s) (grow idx u e).
(* PKIndexReaderImpl.Scan over it: fragment count = number of key groups *)
Definition scan_g (isint : list bool) (rpn : list elem) (idx : list key) (coarse minmarks : nat) : scan_result :=
  let n := length idx in
  match rpn with
  | [] => ScanOk [(0, n)]
  | _ =>
      let may := may_g isint rpn idx in
      if used_keys rpn =? 1 then (if rpn_ok rpn then ScanOk (scan_binary may n) else ScanErr)
      else if coarse <=? 1 then ScanErr
      else if rpn_ok rpn then ScanOk (scan_exclusion may coarse minmarks n) else ScanErr
  end.

Lemma scan_g_is_scan_with isint rpn idx coarse minmarks :
  scan_g isint rpn idx coarse minmarks = scan_with (may_g isint rpn idx) rpn (length idx) coarse minmarks.
Proof. reflexivity. Qed.

(* KeySorter: lexicographic, a null strictly before every value, nulls equal *)
Definition ks_le (a b : key) : Prop := lex_le (map kb_first a) (map kb_first b).
Definition ks_sorted (idx : list key) : Prop := StronglySorted ks_le idx.

(* getSegmentRanges: cnts = segments per key group; the segments of group i are sum(firstn i) .. sum(firstn (S i)) - 1 *)
Definition seg_ranges (cnts : list nat) (rs : list (nat * nat)) : list (nat * nat) :=
  map (fun p => (sum (firstn (fst p) cnts), sum (firstn (snd p) cnts))) rs.

Lemma lex_le_top : forall x, lex_le x (top (length x)).
Proof.
  induction x as [|b x IH]; simpl; auto. destruct b; simpl; auto.
Qed.

Lemma grow_length : forall idx u j nk, Forall (fun k => length k = nk) idx -> u <= nk -> length (grow idx u j) = u.
Proof.
  intros idx u j nk Hlen Hu. unfold grow, key in *. destruct (Nat.ltb j (length idx)) eqn:E.
  - apply Nat.ltb_lt in E. rewrite map_length. rewrite firstn_length_le; auto.
    rewrite Forall_forall in Hlen. rewrite (Hlen (nth j idx [])); auto. now apply nth_In.
  - unfold top. apply repeat_length.
Qed.

(* a key group i in [s, e) whose key satisfies the condition (all its rows carry that key) => MayBeInRange true *)
Lemma may_g_sound : forall isint nonkey c rpn idx nk s i e,
  compile isint c = Some rpn -> ks_sorted idx -> Forall (fun k => length k = nk) idx ->
  used_keys rpn <= nk -> used_keys rpn <= length isint ->
  s <= i -> i < e -> e <= length idx ->
  eval_cond nonkey c (nth i idx []) = true ->
  may_g isint rpn idx s e = true.
Proof.
  intros isint nonkey c rpn idx nk s i e Hc Hs Hlen Hu Hty Hsi Hie Hen He.
  unfold may_g. set (u := used_keys rpn) in *.
  assert (Hki : length (nth i idx []) = nk).
  { rewrite Forall_forall in Hlen. apply Hlen. apply nth_In. lia. }
  apply (may_be_sound_lex kb_first kb_first_some isint nonkey c rpn (nth i idx [])); auto; try (fold u).
  - eapply grow_length; eauto.
  - eapply grow_length; eauto.
  - lia.
  - unfold grow, key in *. replace (s <? length idx) with true by (symmetry; apply Nat.ltb_lt; lia).
    rewrite <- !firstn_map. apply lex_le_firstn. apply (lex_sorted_nth kb_first); auto; unfold key in *; lia.
  - unfold grow, key in *. destruct (e <? length idx) eqn:E.
    + apply Nat.ltb_lt in E. rewrite <- !firstn_map. apply lex_le_firstn. apply (lex_sorted_nth kb_first); auto; unfold key in *; lia.
    + replace u with (length (map kb_first (firstn u (nth i idx [])))) at 2
        by (rewrite map_length, firstn_length_le; lia).
      apply lex_le_top.
Qed.

Lemma seg_ranges_sound : forall cnts rs i sg,
  covered i rs = true -> sum (firstn i cnts) <= sg -> sg < sum (firstn (S i) cnts) ->
  covered sg (seg_ranges cnts rs) = true.
Proof.
  intros cnts rs i sg Hc H1 H2. apply covered_iff in Hc. destruct Hc as (a & b & Hin & Ha & Hb).
  apply covered_iff. exists (sum (firstn a cnts)), (sum (firstn b cnts)). split.
  - unfold seg_ranges. apply in_map_iff. exists (a, b). auto.
  - pose proof (sum_firstn_mono cnts a i Ha). pose proof (sum_firstn_mono cnts (S i) b ltac:(lia)). lia.
Qed.

(* decision procedure for KeySorter order (correspondence check + examples) *)
Fixpoint ks_sortedb (idx : list key) : bool :=
  match idx with
  | [] => true
  | k :: r => forallb (fun k' => lex_leb (map kb_first k) (map kb_first k')) r && ks_sortedb r
  end.
(* ks_sortedb is NullOrder.sortedb at the reading kb_first *)
Lemma ks_sortedb_true : forall idx, ks_sortedb idx = true -> ks_sorted idx.
Proof. exact (sortedb_true kb_first). Qed.
