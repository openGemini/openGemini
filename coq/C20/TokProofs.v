(* C20 - what SimpleTokenFinder accepts: an occurrence of the phrase in the value whose two ends pass the finder's
   boundary test (scan_occ). The tokenizer theorems (UtfTok.v) start from it. [ascii]: values without bytes >= 0x80. *)
From Coq Require Import List Bool Arith NArith Lia.
From OG Require Import C20.TokModel.
Import ListNotations.

Section TokProofs.
  Variable split : N -> bool.
  Notation scan := (scan split).
  Notation valid_occ := (valid_occ split).

  Lemma prefixb_app : forall p s, prefixb p s = true -> s = p ++ skipn (length p) s.
  Proof.
    induction p as [|x p IH]; intros [|y s] H; simpl in *; auto; try discriminate.
    apply andb_true_iff in H. destruct H as [E H]. apply N.eqb_eq in E. subst y. f_equal. auto.
  Qed.

  Lemma scan_occ : forall p s acc skip, scan p acc s skip = true ->
    exists acc' post, rev acc ++ s = rev acc' ++ p ++ post /\ valid_occ p acc' post = true.
  Proof.
    intros p. induction s as [|y s IH]; intros acc skip H; simpl in H; [discriminate|].
    assert (Hnext : forall k, scan p (y :: acc) s k = true ->
              exists acc' post, rev acc ++ y :: s = rev acc' ++ p ++ post /\ valid_occ p acc' post = true).
    { intros k Hk. destruct (IH _ _ Hk) as (acc' & post & E & V). exists acc', post. split; auto.
      simpl in E. now rewrite <- app_assoc in E. }
    destruct skip as [|k]; [|eauto].
    destruct (prefixb p (y :: s)) eqn:Ep; [|eauto].
    destruct (valid_occ p acc (skipn (length p) (y :: s))) eqn:Ev; [|eauto].
    exists acc, (skipn (length p) (y :: s)). split; auto. f_equal. now apply prefixb_app.
  Qed.

  Definition ascii (s : list N) : Prop := forall x, In x s -> (x < 128)%N.
End TokProofs.
