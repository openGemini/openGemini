(* C20 property theorems for the bloom-filter skip index, with Print Assumptions.
   The hash function, the two tokenizers and the row semantics of MATCHPHRASE are Section variables of the model; the
   only assumption about them is the premise of C20_bloom_skip_sound below (checked on the real tokenizers by the harness;
   before 9dd9491 the pure-Go build violated it for phrases the reader turned into a multi-token gram hash or into no token -
   finding C20-bloom-gram-phrase). *)
From Coq Require Import List Bool Arith NArith.
From OG Require Import C20.BloomModel C20.BloomProofs C20.BloomRepair C20.TokModel C20.TokProofs C20.UtfTok.
Import ListNotations.

Theorem bloom_no_false_negative : forall (token : Type) (hashpos : token -> list nat) ts t,
  In t ts -> query token hashpos (build token hashpos ts) t = true.
Proof. exact BloomProofs.bloom_no_false_negative. Qed.
Print Assumptions bloom_no_false_negative.

(* a predicate on a column the filter file does not cover must evaluate to "may match" *)
Theorem C20_bloom_uncovered_may_match : forall (token : Type) hashpos (phrase : Type) (ptokens : phrase -> list token) f0 F c p,
  c <> f0 -> pred_hit token hashpos phrase ptokens f0 F (PMatch phrase c p) = true.
Proof. intros. simpl. destruct (Nat.eqb_spec c f0); auto; contradiction. Qed.

Theorem C20_bloom_skip_sound :
  forall (token : Type) (hashpos : token -> list nat) (value phrase : Type)
         (vtokens : value -> list token) (ptokens : phrase -> list token) (pmatch : phrase -> value -> bool),
  (forall p v, pmatch p v = true -> ptokens p <> [] /\ incl (ptokens p) (vtokens v)) ->
  forall other f0 inschema (rows : list (row value)) r e,
  In r rows -> sk_fold (eval_pred value phrase pmatch other r) e = true ->
  bloom_kept token hashpos phrase ptokens f0 inschema (block_filter token hashpos value vtokens f0 rows) e = true.
Proof.
  intros token hashpos value phrase vtokens ptokens pmatch Hm other f0 inschema rows r e Hr He. unfold bloom_kept.
  eapply sk_kept_sound; [|exact He]. intros a Ha. eapply pred_hit_sound; eauto.
Qed.
Print Assumptions C20_bloom_skip_sound.

(* the premise is satisfiable and the filter does prune: tokens = numbers, two hash positions per token, a value is
   the list of its tokens, a phrase is one token, MATCHPHRASE = membership *)
Example C20_bloom_example :
  let hp := fun t : nat => [t mod 7; (3 * t + 1) mod 11] in
  let vt := fun v : list nat => v in
  let pt := fun p : nat => [p] in
  let pm := fun (p : nat) (v : list nat) => existsb (Nat.eqb p) v in
  (forall p v, pm p v = true -> pt p <> [] /\ incl (pt p) (vt v)) /\
  let rows : list (row (list nat)) := [fun c => if c =? 0 then Some [1; 2] else None; fun c => None] in
  bloom_kept nat hp nat pt 0 (fun c => c =? 0) (block_filter nat hp (list nat) vt 0 rows)
             (SAnd (SAtom (PMatch nat 0 2)) (SAtom (PMatch nat 1 9))) = true /\
  bloom_kept nat hp nat pt 0 (fun c => c =? 0) (block_filter nat hp (list nat) vt 0 rows)
             (SAtom (PMatch nat 0 5)) = false.
Proof.
  split; [|split; vm_compute; reflexivity].
  intros p v H. split; [discriminate|]. intros t [<- | []]. simpl in H.
  apply existsb_exists in H. destruct H as (x & Hx & E). apply Nat.eqb_eq in E. now subst.
Qed.

(* ---------- repaired reader (props/C20/fix5.patch): a phrase without a token is "may match" ----------
   the premise shrinks to an inclusion, and is needed for the values of the block only *)
Theorem C20_bloom_skip_sound_repaired :
  forall (token : Type) (hashpos : token -> list nat) (value phrase : Type)
         (vtokens : value -> list token) (ptokens : phrase -> list token) (pmatch : phrase -> value -> bool)
         other f0 inschema (rows : list (row value)) r e,
  (forall r v p, In r rows -> r f0 = Some v -> pmatch p v = true -> incl (ptokens p) (vtokens v)) ->
  In r rows -> sk_fold (eval_pred value phrase pmatch other r) e = true ->
  bloom_kept_r token hashpos phrase ptokens f0 inschema (block_filter token hashpos value vtokens f0 rows) e = true.
Proof. exact BloomRepair.bloom_skip_sound_r. Qed.
Print Assumptions C20_bloom_skip_sound_repaired.

(* the repaired reader keeps every block the reader before 9dd9491 kept *)
Theorem C20_bloom_repaired_prunes_less :
  forall (token : Type) (hashpos : token -> list nat) (phrase : Type) (ptokens : phrase -> list token) f0 F a,
  pred_hit token hashpos phrase ptokens f0 F a = true -> pred_hit_r token hashpos phrase ptokens f0 F a = true.
Proof.
  intros token hashpos phrase ptokens f0 F [c p | c id]; simpl; auto.
  destruct (c =? f0); auto. destruct (ptokens p); [discriminate | auto].
Qed.

(* ---------- the tokenizer premise, PROVED for ASCII values ----------
   tokens = SimpleTokenizer (maximal runs of non-split bytes: what the pure-Go writer inserts and, for ASCII text, what the
   repaired reader looks a phrase up by), finder = SimpleTokenFinder (row semantics of MATCHPHRASE), any split table. *)
Theorem C20_finder_tokens_incl : forall (split : N -> bool) p v,
  ascii v -> finder split p v = true -> incl (tokens split p) (tokens split v).
Proof. exact finder_tokens_incl. Qed.
Print Assumptions C20_finder_tokens_incl.

(* closed end-to-end statement for ASCII text: no premise about the tokenizers is left; the hash function stays abstract *)
Theorem C20_bloom_skip_sound_ascii :
  forall (split : N -> bool) (hashpos : list N -> list nat) other f0 inschema (rows : list (row (list N))) r e,
  (forall r v, In r rows -> r f0 = Some v -> ascii v) ->
  In r rows -> sk_fold (eval_pred (list N) (list N) (finder split) other r) e = true ->
  bloom_kept_r (list N) hashpos (list N) (tokens split) f0 inschema
               (block_filter (list N) hashpos (list N) (tokens split) f0 rows) e = true.
Proof.
  intros split hashpos other f0 inschema rows r e Ha Hr He.
  eapply BloomRepair.bloom_skip_sound_r; eauto.
  intros r0 v p Hr0 Hv Hm. apply finder_tokens_incl; eauto.
Qed.
Print Assumptions C20_bloom_skip_sound_ascii.

(* satisfiable and not vacuous: split table = {space, '/'}, value "ab cd", phrase "cd" is kept, phrase "zz" is pruned,
   the separator-only phrase "/" (no token) is kept by the repaired reader *)
Example C20_bloom_ascii_example :
  let split := fun b : N => ((b =? 32) || (b =? 47))%N in
  let hp := fun t : list N => [N.to_nat (fold_left N.add t 0%N mod 61); N.to_nat ((7 * fold_left N.add t 0 + N.of_nat (length t)) mod 59)%N] in
  let rows : list (row (list N)) := [fun c => if c =? 0 then Some [97; 98; 32; 99; 100]%N else None] in
  let F := block_filter (list N) hp (list N) (tokens split) 0 rows in
  ascii [97; 98; 32; 99; 100]%N /\ finder split [99; 100]%N [97; 98; 32; 99; 100]%N = true /\
  bloom_kept_r (list N) hp (list N) (tokens split) 0 (fun c => c =? 0) F (SAtom (PMatch (list N) 0 [99; 100]%N)) = true /\
  bloom_kept_r (list N) hp (list N) (tokens split) 0 (fun c => c =? 0) F (SAtom (PMatch (list N) 0 [122; 122]%N)) = false /\
  bloom_kept_r (list N) hp (list N) (tokens split) 0 (fun c => c =? 0) F (SAtom (PMatch (list N) 0 [47]%N)) = true.
Proof.
  split; [|split; [|split; [|split]]]; try (vm_compute; reflexivity).
  intros x Hx. simpl in Hx. repeat (destruct Hx as [<- | Hx]; [reflexivity|]). destruct Hx.
Qed.

(* ---------- the tokenizer premise PROVED for valid UTF-8 and the UTF-8 aware tokens (writer since 9dd9491 / 71f094e) ----------
   utokens = SimpleUtf8Tokenizer (an ASCII run between split characters, or one multi-byte character by its lead-byte class,
   a truncated last character = what is left of it); valid = UTF-8 by length classes (lead 0xC0-0xDF + 1, 0xE0-0xEF + 2,
   0xF0-0xF7 + 3 continuation bytes 0x80-0xBF). Uses that UTF-8 is self-synchronising (valid_occurrence). *)
Theorem C20_finder_utokens_incl : forall (split : N -> bool) p v,
  valid v -> valid p -> finder split p v = true -> incl (utokens split p) (utokens split v).
Proof. exact finder_utokens_incl. Qed.
Print Assumptions C20_finder_utokens_incl.

Theorem C20_utf8_self_synchronising : forall a p b, valid (a ++ p ++ b) -> valid p -> p <> [] -> valid a /\ valid b.
Proof. exact valid_occurrence. Qed.

(* end to end for valid UTF-8 text: phrases are valid UTF-8 strings (a sigma type), no premise about the tokenizers is left *)
Theorem C20_bloom_skip_sound_utf8 :
  forall (split : N -> bool) (hashpos : list N -> list nat) other f0 inschema (rows : list (row (list N))) r
         (e : sk (pred {p : list N | valid p})),
  (forall r v, In r rows -> r f0 = Some v -> valid v) ->
  In r rows ->
  sk_fold (eval_pred (list N) {p : list N | valid p} (fun ph v => finder split (proj1_sig ph) v) other r) e = true ->
  bloom_kept_r (list N) hashpos {p : list N | valid p} (fun ph => utokens split (proj1_sig ph)) f0 inschema
               (block_filter (list N) hashpos (list N) (utokens split) f0 rows) e = true.
Proof.
  intros split hashpos other f0 inschema rows r e Hv Hr He.
  eapply BloomRepair.bloom_skip_sound_r; eauto.
  intros r0 v [p Hp] Hr0 Hv0 Hm. simpl in *. apply finder_utokens_incl; eauto.
Qed.
Print Assumptions C20_bloom_skip_sound_utf8.

(* "ab" + a 3-byte character + "cd": the ASCII words and the character are tokens; the phrase "ab" is found and kept *)
Example C20_utf8_example :
  let split := fun b : N => ((b =? 32) || (b =? 47))%N in
  let v := [97; 98; 229; 141; 142; 99; 100]%N in
  valid v /\ utokens split v = [[97; 98]; [229; 141; 142]; [99; 100]]%N /\ finder split [97; 98]%N v = true /\
  incl (utokens split [97; 98]%N) (utokens split v).
Proof.
  split; [|split; [vm_compute; reflexivity | split; [vm_compute; reflexivity|]]].
  - apply v_1; [reflexivity|]. apply v_1; [reflexivity|]. apply v_3; try (unfold contb; split); try (vm_compute; discriminate).
    apply v_1; [reflexivity|]. apply v_1; [reflexivity|]. constructor.
  - intros t Ht. vm_compute in Ht. destruct Ht as [<-|[]]. vm_compute. now left.
Qed.
