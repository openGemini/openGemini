(* C20 - the premises of two-sided soundness of CheckInRange (Props.C20_mark_sound_two_sided: canBeFalse is sound too, as a NOT-like
   rewrite needs): condition trees made of key-column comparisons only ([key_only]) and rows whose compared columns are not null
   ([nonnull_on]); and the counter-examples that show both are needed.
   The two restrictions are necessary for the Mark values the code assigns:
   - a predicate on a non-key column is AlwaysTrue = (true,false): canBeFalse is false although the predicate may be
     false on a row, so a NOT-like rewrite above it would be unsound;
   - a null compared with != evaluates to false in the row filter, while the rectangle [null,null] gives
     NotInRange the mark (true,false). *)
From Coq Require Import ZArith List Bool Arith.
From OG Require Import C20.Model C20.Proofs.
Import ListNotations.
Open Scope Z_scope.

Fixpoint key_only (c : cond) : bool :=
  match c with
  | CAtom _ _ _ => true
  | CNonKey _ | CIn _ _ => false
  | CAnd a b | COr a b => key_only a && key_only b
  end.

Fixpoint nonnull_on (c : cond) (row : key) : Prop :=
  match c with
  | CAtom col _ _ => nth col row None <> None
  | CNonKey _ | CIn _ _ => True
  | CAnd a b | COr a b => nonnull_on a row /\ nonnull_on b row
  end.

(* the two restrictions cannot be dropped *)
Example nonkey_can_f_unsound :
  eval_cond (fun _ => false) (CNonKey 0) [] = false /\ can_f (mark_of [] (CNonKey 0) []) = false.
Proof. split; reflexivity. Qed.
Example null_neq_can_f_unsound :
  let rgs := [point PosInf] in   (* the rectangle of a null key *)
  rect_has rgs [None] /\ eval_cond (fun _ => false) (CAtom 0 Cne 1) [None] = false /\
  can_f (mark_of [false] (CAtom 0 Cne 1) rgs) = false.
Proof. repeat split. intro col. destruct col as [|[|col]]; simpl; auto. Qed.
