(* C20 - executable model of the column-store sparse primary index (engine/index/sparseindex):
   ranges with open/closed/infinite ends, the Mark{canBeTrue,canBeFalse} algebra, the RPN form of a condition,
   CheckInRange over a hyper-rectangle, checkInAnyRange (decomposition of a lexicographic key interval into
   hyper-rectangles), MayBeInRange, the index built from a sorted key list cut into fragments, and the two search
   strategies of PKIndexReaderImpl.Scan.

   Two places of the code were defective (repaired in /repo by 89627e7 and 2d0760f); the model carries both behaviours,
   selected by a [variant]:
     v_rb_res   = true  : checkRangeRightBound returns the accumulated [res]   (repaired)
                  false : it returns the last [mark] only                      (before 89627e7)
     v_norm_idx = false : bounds taken from the index are never rewritten       (repaired)
                  true  : createLeftBounded/createRightBounded turn an open integer bound taken from the INDEX
                          into a closed one by rewriting the index value in place (x -> x+1 / x-1); the following
                          left/right-bound step then reads the rewritten value   (before 2d0760f)
   Definitions only; the proofs are in Proofs.v, Cover.v, ScanProofs.v and the files that build on them. *)
From Coq Require Import ZArith List Bool Arith.
Import ListNotations.
Open Scope Z_scope.

(* ---------- values, bounds ---------- *)
Inductive bound := NegInf | Fin (z : Z) | PosInf.

(* FieldRef.Less / FieldRef.Equals *)
Definition blt (a b : bound) : bool :=
  match a, b with
  | NegInf, NegInf => false
  | NegInf, _ => true
  | _, NegInf => false
  | PosInf, _ => false
  | Fin _, PosInf => true
  | Fin x, Fin y => x <? y
  end.
Definition beq (a b : bound) : bool :=
  match a, b with
  | NegInf, NegInf => true
  | PosInf, PosInf => true
  | Fin x, Fin y => x =? y
  | _, _ => false
  end.

(* a key column value: None is a null. [kb] reads a null as +infinity, as the index reader did before a93f46a; the other
   readings (the pad value, -infinity for the key-grouped index) are in NullOrder.v *)
Definition key := list (option Z).
Definition kb (k : option Z) : bound := match k with Some z => Fin z | None => PosInf end.

(* ---------- ranges ---------- *)
Record range := mkR { lo : bound; hi : bound; loi : bool; hii : bool }.

Definition left_leq (r : range) (x : bound) : bool := blt (lo r) x || (loi r && beq x (lo r)).
Definition right_geq (r : range) (x : bound) : bool := blt x (hi r) || (hii r && beq x (hi r)).
Definition right_lq (r nr : range) : bool :=
  blt (hi r) (lo nr) || ((negb (hii r) || negb (loi nr)) && beq (lo nr) (hi r)).
Definition intersects (r nr : range) : bool := negb (right_lq r nr || right_lq nr r).
Definition contains (r nr : range) : bool := left_leq r (lo nr) && right_geq r (hi nr).

Definition whole : range := mkR NegInf PosInf false false.
Definition point (b : bound) : range := mkR b b true true.

Definition max_i64 : Z := 9223372036854775807.
Definition min_i64 : Z := -9223372036854775808.

(* turnOpenRangeIntoClosed, one end at a time; [isint] = the column is of integer type *)
Definition norm_left (isint : bool) (r : range) : range :=
  if isint && negb (loi r) then
    match lo r with
    | Fin z => if z =? max_i64 then r else mkR (Fin (z + 1)) (hi r) true (hii r)
    | _ => r
    end
  else r.
Definition norm_right (isint : bool) (r : range) : range :=
  if isint && negb (hii r) then
    match hi r with
    | Fin z => if z =? min_i64 then r else mkR (lo r) (Fin (z - 1)) (loi r) true
    | _ => r
    end
  else r.

(* ---------- marks ---------- *)
Record mark := mkM { can_t : bool; can_f : bool }.
Definition mand (m k : mark) : mark := mkM (can_t m && can_t k) (can_f m || can_f k).
Definition mor (m k : mark) : mark := mkM (can_t m || can_t k) (can_f m && can_f k).
Definition mnot (m : mark) : mark := mkM (can_f m) (can_t m).
Definition complete (m : mark) : bool := can_f m && can_t m.
Definition init_mask : mark := mkM false true.   (* ConsiderOnlyBeTrue *)

(* ---------- conditions ---------- *)
Inductive cmp := Ceq | Cne | Clt | Cle | Cgt | Cge.

(* condition tree as the query layer hands it over: comparisons of a key column with a literal, comparisons on
   columns outside the primary key (opaque, numbered), IN lists, AND, OR *)
Inductive cond :=
| CAtom (col : nat) (op : cmp) (v : Z)
| CNonKey (id : nat)
| CIn (col : nat) (vs : list Z)
| CAnd (a b : cond)
| COr (a b : cond).

Inductive elem :=
| EIn (col : nat) (rg : range)
| ENotIn (col : nat) (rg : range)
| EAnd | EOr | ETrue | EFalse.

(* genRPNElementByOp *)
Definition atom_elem (isint : bool) (col : nat) (op : cmp) (v : Z) : elem :=
  match op with
  | Ceq => EIn col (point (Fin v))
  | Cne => ENotIn col (point (Fin v))
  | Clt => EIn col (norm_right isint (mkR NegInf (Fin v) false false))
  | Cgt => EIn col (norm_left isint (mkR (Fin v) PosInf false false))
  | Cle => EIn col (mkR NegInf (Fin v) false true)
  | Cge => EIn col (mkR (Fin v) PosInf true false)
  end.

(* rpn.ConvertToRPNExpr + convertToRPNElem; None = NewKeyCondition returns an error (IN is not supported there) *)
Fixpoint compile (isint : list bool) (c : cond) : option (list elem) :=
  match c with
  | CAtom col op v => Some [atom_elem (nth col isint false) col op v]
  | CNonKey _ => Some [ETrue]
  | CIn _ _ => None
  | CAnd a b =>
      match compile isint a, compile isint b with
      | Some x, Some y => Some (x ++ y ++ [EAnd])
      | _, _ => None
      end
  | COr a b =>
      match compile isint a, compile isint b with
      | Some x, Some y => Some (x ++ y ++ [EOr])
      | _, _ => None
      end
  end.

(* row semantics (what a full scan would answer). A null satisfies no comparison. *)
Definition cmp_holds (op : cmp) (x v : Z) : bool :=
  match op with
  | Ceq => x =? v | Cne => negb (x =? v)
  | Clt => x <? v | Cle => x <=? v
  | Cgt => v <? x | Cge => v <=? x
  end.
Fixpoint eval_cond (nonkey : nat -> bool) (c : cond) (row : key) : bool :=
  match c with
  | CAtom col op v => match nth col row None with Some x => cmp_holds op x v | None => false end
  | CNonKey id => nonkey id
  | CIn col vs => match nth col row None with Some x => existsb (Z.eqb x) vs | None => false end
  | CAnd a b => eval_cond nonkey a row && eval_cond nonkey b row
  | COr a b => eval_cond nonkey a row || eval_cond nonkey b row
  end.

(* ---------- CheckInRange ---------- *)
Definition elem_range_mark (rg kr : range) : mark := mkM (intersects rg kr) (negb (contains rg kr)).

Fixpoint run_rpn (rpn : list elem) (rgs : list range) (st : list mark) : option (list mark) :=
  match rpn with
  | [] => Some st
  | e :: rest =>
      match e with
      | EIn c rg => run_rpn rest rgs (elem_range_mark rg (nth c rgs whole) :: st)
      | ENotIn c rg => run_rpn rest rgs (mnot (elem_range_mark rg (nth c rgs whole)) :: st)
      | ETrue => run_rpn rest rgs (mkM true false :: st)
      | EFalse => run_rpn rest rgs (mkM false true :: st)
      | EAnd => match st with a :: b :: st' => run_rpn rest rgs (mand b a :: st') | _ => None end
      | EOr => match st with a :: b :: st' => run_rpn rest rgs (mor b a :: st') | _ => None end
      end
  end.

Definition check_in_range (rpn : list elem) (rgs : list range) : option mark :=
  match run_rpn rpn rgs [] with Some [m] => Some m | _ => None end.

(* total version used as the call-back of checkInAnyRange; an ill-formed RPN (an error in the code) is (true,true) *)
Definition cir (rpn : list elem) (rgs : list range) : mark :=
  match check_in_range rpn rgs with Some m => m | None => mkM true true end.
Definition rpn_ok (rpn : list elem) : bool :=
  match check_in_range rpn [] with Some _ => true | None => false end.

(* GetMaxKeyIndex + 1 *)
Fixpoint used_keys (rpn : list elem) : nat :=
  match rpn with
  | [] => O
  | EIn c _ :: r | ENotIn c _ :: r => Nat.max (S c) (used_keys r)
  | _ :: r => used_keys r
  end.

(* ---------- checkInAnyRange ---------- *)
Record variant := mkV { v_rb_res : bool; v_norm_idx : bool }.
Definition repaired : variant := mkV true false.
Definition current : variant := mkV false true.

Section Ciar.
  Variable V : variant.
  Variable cb : list range -> mark.

  Definition wholes (n : nat) : list range := repeat whole n.

  (* value read by the left-bound step after createLeftBounded rewrote the index value in place *)
  Definition shift_l (isint : bool) (l : bound) : bound :=
    if v_norm_idx V && isint then
      match l with Fin z => if z =? max_i64 then l else Fin (z + 1) | _ => l end
    else l.
  Definition shift_r (isint : bool) (r : bound) : bound :=
    if v_norm_idx V && isint then
      match r with Fin z => if z =? min_i64 then r else Fin (z - 1) | _ => r end
    else r.

  (* checkRangeLeftRightBound, prefixSize+1 < keySize *)
  Definition mid_range (isint : bool) (l r : bound) (lb rb : bool) : range :=
    if lb && rb then mkR l r false false
    else if lb then
      (let rg := mkR l PosInf false false in if v_norm_idx V then norm_left isint rg else rg)
    else
      (let rg := mkR NegInf r false false in if v_norm_idx V then norm_right isint rg else rg).

  (* checkRangeLeftRightBound, prefixSize+1 = keySize *)
  Definition last_range (l r : bound) (lb rb : bool) : range :=
    if lb && rb then mkR l r true true
    else if lb then mkR l PosInf true (beq l PosInf)
    else mkR NegInf r (beq r NegInf) true.

  (* how checkInAnyRange combines the mark of the middle rectangle (already OR-ed into the initial mask: [res]) with
     the marks of the left-bound and right-bound recursions, including the early exits on a complete mark.
     checkRangeRightBound is the last step: repaired it returns res1 OR mrb, before 89627e7 it returned mrb alone. *)
  Definition ciar_combine (lb rb : bool) (res mlb mrb : mark) : mark :=
    if complete res then res else
    let res1 := if lb then mor res mlb else res in
    if lb && complete res1 then res1 else
    if rb then (if v_rb_res V then mor res1 mrb else mrb) else res1.

  (* L, R, tys: the part of the left key, right key and column types from position prefixSize on;
     pre: rgs[0..prefixSize) *)
  Fixpoint ciar (tys : list bool) (L R : list bound) (lb rb : bool) (pre : list range) {struct L} : mark :=
    match L, R, tys with
    | l :: L', r :: R', ty :: tys' =>
        if negb lb && negb rb then cb (pre ++ wholes (length L))
        else if lb && rb && beq l r then ciar tys' L' R' true true (pre ++ [point l])
        else
          match L' with
          | [] => cb (pre ++ [last_range l r lb rb])
          | _ :: _ =>
              let res := mor init_mask (cb (pre ++ mid_range ty l r lb rb :: wholes (length L'))) in
              let mlb := if lb then ciar tys' L' R' true false (pre ++ [point (if rb then l else shift_l ty l)])
                         else init_mask in
              let mrb := if rb then ciar tys' L' R' false true (pre ++ [point (if lb then r else shift_r ty r)])
                         else init_mask in
              ciar_combine lb rb res mlb mrb
          end
    | _, _, _ => cb pre
    end.
End Ciar.

(* MayBeInRange *)
Definition may_be (V : variant) (isint : list bool) (rpn : list elem) (L R : list bound) : bool :=
  can_t (ciar V (cir rpn) isint L R true true []).

(* ---------- the primary index ---------- *)
(* row positions at which the fragments start: sizes [a;b;c] -> [0; a; a+b] *)
Fixpoint starts_from (at_ : nat) (sizes : list nat) : list nat :=
  match sizes with
  | [] => []
  | s :: r => at_ :: starts_from (at_ + s) r
  end.
Definition starts := starts_from 0.

(* PKIndexWriterImpl.Build: the first key of every fragment, then the last key *)
Definition build_index (sizes : list nat) (keys : list key) : list key :=
  map (fun st => nth st keys []) (starts sizes) ++ [last keys []].

Definition frag_rows (sizes : list nat) (keys : list key) (i : nat) : list key :=
  firstn (nth i sizes O) (skipn (nth i (starts sizes) O) keys).

(* checkInRange closure of Scan: rows s and e of the index, first [used] columns, nulls as +infinity *)
Definition may_range (V : variant) (isint : list bool) (rpn : list elem) (idx : list key) (s e : nat) : bool :=
  let used := used_keys rpn in
  may_be V isint rpn (map kb (firstn used (nth s idx []))) (map kb (firstn used (nth e idx []))).

(* ---------- doBinarySearch ---------- *)
Open Scope nat_scope.
Fixpoint bs_left (fuel : nat) (may : nat -> nat -> bool) (left right : nat) : nat :=
  match fuel with
  | O => left
  | S f =>
      if left + 1 <? right then
        let mid := (left + right) / 2 in
        if may 0 mid then bs_left f may left mid else bs_left f may mid right
      else left
  end.
Fixpoint bs_right (fuel : nat) (may : nat -> nat -> bool) (n left right : nat) : nat :=
  match fuel with
  | O => right
  | S f =>
      if left + 1 <? right then
        let mid := (left + right) / 2 in
        if may mid n then bs_right f may n mid right else bs_right f may n left mid
      else right
  end.
Definition scan_binary (may : nat -> nat -> bool) (n : nat) : list (nat * nat) :=
  let st := bs_left n may 0 n in
  let en := bs_right n may n st n in
  if (st <? en) && may st en then [(st, en)] else [].

(* ---------- doExclusionSearch ---------- *)
(* the sub-ranges pushed for a range (start,en), in the order in which they are popped (ascending) *)
Fixpoint pieces_aux (fuel start en step : nat) (acc : list (nat * nat)) : list (nat * nat) :=
  match fuel with
  | O => (start, en) :: acc
  | S f =>
      if start + step <? en then pieces_aux f start (en - step) step ((en - step, en) :: acc)
      else (start, en) :: acc
  end.
Definition pieces (start en coarse : nat) : list (nat * nat) :=
  let step := (en - start - 1) / coarse + 1 in
  pieces_aux (en - start) start en step [].

(* result list is kept with the most recent range first *)
Definition add_single (minmarks : nat) (res : list (nat * nat)) (s : nat) : list (nat * nat) :=
  match res with
  | [] => [(s, s + 1)]
  | (a, b) :: t => if minmarks <? s - b then (s, s + 1) :: res else (a, s + 1) :: t
  end.

(* depth-first, left to right = the explicit stack of the code; fuel bounds the depth (a range of length k is split
   into strictly shorter pieces when coarse >= 2). Out of fuel the range is kept (never happens with fuel = n+1). *)
Fixpoint excl (fuel : nat) (may : nat -> nat -> bool) (coarse minmarks s e : nat) (acc : list (nat * nat))
  : list (nat * nat) :=
  match fuel with
  | O => (s, e) :: acc
  | S f =>
      if negb (may s e) then acc
      else if e =? s + 1 then add_single minmarks acc s
      else fold_left (fun a p => excl f may coarse minmarks (fst p) (snd p) a) (pieces s e coarse) acc
  end.
Definition scan_exclusion (may : nat -> nat -> bool) (coarse minmarks n : nat) : list (nat * nat) :=
  rev (excl (S n) may coarse minmarks 0 n []).

(* ---------- PKIndexReaderImpl.Scan ---------- *)
Inductive scan_result := ScanErr | ScanOk (rs : list (nat * nat)).

Definition scan (V : variant) (isint : list bool) (rpn : list elem) (idx : list key) (n coarse minmarks : nat)
  : scan_result :=
  match rpn with
  | [] => ScanOk [(0, n)]
  | _ =>
      let may := may_range V isint rpn idx in
      if used_keys rpn =? 1 then
        (if rpn_ok rpn then ScanOk (scan_binary may n) else ScanErr)
      else if coarse <=? 1 then ScanErr
      else if rpn_ok rpn then ScanOk (scan_exclusion may coarse minmarks n) else ScanErr
  end.

Definition covered (i : nat) (rs : list (nat * nat)) : bool :=
  existsb (fun p => (fst p <=? i) && (i <? snd p)) rs.
