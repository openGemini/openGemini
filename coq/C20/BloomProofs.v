(* C20 - bloom-filter skip index: no false negatives, lifted through the reader's expression evaluation. *)
From Coq Require Import List Bool Arith Lia.
From OG Require Import C20.BloomModel.
Import ListNotations.

Lemma sk_fold_all_true : forall {A} (f : A -> bool) e, (forall a, f a = true) -> sk_fold f e = true.
Proof. induction e; intros H; simpl; auto. rewrite IHe1, IHe2; auto. rewrite IHe1; auto. Qed.

Lemma sk_fold_mono : forall {A} (f g : A -> bool) e,
  (forall a, f a = true -> g a = true) -> sk_fold f e = true -> sk_fold g e = true.
Proof.
  induction e; intros H; simpl; auto.
  - intro E. apply andb_true_iff in E. destruct E. rewrite IHe1, IHe2; auto.
  - intro E. apply orb_true_iff in E. apply orb_true_iff. destruct E; [left | right]; auto.
Qed.

(* the reader's evaluation keeps a block whenever every predicate that holds on a row of it is a hit *)
Lemma sk_kept_sound : forall {A} (ev hit : A -> bool) inschema e,
  (forall a, ev a = true -> hit a = true) -> sk_fold ev e = true -> sk_kept hit inschema e = true.
Proof.
  intros A ev hit inschema e H He. unfold sk_kept. rewrite (sk_fold_mono ev hit e H He).
  apply sk_fold_all_true. intro a. destruct (inschema a); reflexivity.
Qed.

Section BloomProofs.
  Variable token : Type.
  Variable hashpos : token -> list nat.
  Variable value phrase : Type.
  Variable vtokens : value -> list token.
  Variable ptokens : phrase -> list token.
  Variable pmatch : phrase -> value -> bool.
  (* what MATCHPHRASE means for the tokenizers: a matching value produced (on the write side) every token the reader
     derives from the phrase, and the phrase has at least one token. Checked on the real tokenizers by the harness. *)
  Hypothesis match_tokens : forall p v, pmatch p v = true -> ptokens p <> [] /\ incl (ptokens p) (vtokens v).

  Notation insert := (insert token hashpos).
  Notation query := (query token hashpos).
  Notation build := (build token hashpos).

  Lemma bit_app : forall a b p, bit (a ++ b) p = bit a p || bit b p.
  Proof. intros. unfold BloomModel.bit. apply existsb_app. Qed.

  Lemma bit_in : forall f p, In p f -> bit f p = true.
  Proof. intros f p H. unfold BloomModel.bit. apply existsb_exists. exists p. split; auto. apply Nat.eqb_refl. Qed.

  Lemma fold_insert_mono : forall ts f p, bit f p = true -> bit (fold_left insert ts f) p = true.
  Proof.
    induction ts; intros f p H; simpl; auto. apply IHts. unfold BloomModel.insert. rewrite bit_app, H. apply orb_true_r.
  Qed.

  Lemma fold_insert_sets : forall ts f t p, In t ts -> In p (hashpos t) -> bit (fold_left insert ts f) p = true.
  Proof.
    induction ts; intros f t p Hin Hp; simpl in *; [contradiction|]. destruct Hin as [-> | Hin].
    - apply fold_insert_mono. unfold BloomModel.insert. rewrite bit_app, (bit_in _ _ Hp). reflexivity.
    - eapply IHts; eauto.
  Qed.

  Lemma bloom_no_false_negative : forall ts t, In t ts -> query (build ts) t = true.
  Proof.
    intros ts t H. unfold BloomModel.query, BloomModel.build. apply forallb_forall. intros p Hp.
    eapply fold_insert_sets; eauto.
  Qed.

  Lemma block_tokens_in : forall c (rows : list (row value)) r v t,
    In r rows -> r c = Some v -> In t (vtokens v) -> In t (block_tokens token value vtokens c rows).
  Proof.
    intros c rows r v t Hr Hv Ht. unfold block_tokens. apply in_concat.
    exists (vtokens v). split; auto. apply in_map_iff. exists r. rewrite Hv. auto.
  Qed.

  Lemma block_tokens_hit : forall c (rows : list (row value)) r v ts,
    In r rows -> r c = Some v -> incl ts (vtokens v) ->
    forallb (query (block_filter token hashpos value vtokens c rows)) ts = true.
  Proof.
    intros c rows r v ts Hr Hv Hi. apply forallb_forall. intros t Ht. apply bloom_no_false_negative.
    eapply block_tokens_in; eauto.
  Qed.

  Lemma pred_hit_other : forall f0 F c id, pred_hit token hashpos phrase ptokens f0 F (POther phrase c id) = true.
  Proof. reflexivity. Qed.

  Lemma pred_hit_sound : forall other f0 rows r a,
    In r rows -> eval_pred value phrase pmatch other r a = true ->
    pred_hit token hashpos phrase ptokens f0 (block_filter token hashpos value vtokens f0 rows) a = true.
  Proof.
    intros other f0 rows r [c p | c id] Hr He; simpl in *; auto.
    destruct (Nat.eqb_spec c f0) as [-> | Hne]; auto.
    destruct (r f0) as [v|] eqn:Ev; [|discriminate].
    destruct (match_tokens p v He) as [Hne Hincl].
    pose proof (block_tokens_hit f0 rows r v _ Hr Ev Hincl) as X.
    destruct (ptokens p); [contradiction | exact X].
  Qed.
End BloomProofs.
