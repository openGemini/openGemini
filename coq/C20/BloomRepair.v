(* C20 - bloom-filter skip index, repaired reader: a phrase from which the reader derives no token says nothing about the
   block ("may match"; LineFilterReader / VerticalFilterReader before 9dd9491 answered "absent"), and the premise about the
   tokenizers is needed only for the values of the block and only as an inclusion (no "the phrase has a token").
   props/C20/fix5.patch. *)
From Coq Require Import List Bool Arith Lia.
From OG Require Import C20.BloomModel C20.BloomProofs.
Import ListNotations.

Section BloomRepair.
  Variable token : Type.
  Variable hashpos : token -> list nat.
  Variable value phrase : Type.
  Variable vtokens : value -> list token.
  Variable ptokens : phrase -> list token.
  Variable pmatch : phrase -> value -> bool.

  (* hitExpr on one predicate, repaired: every token of the phrase must hit; no token = nothing known = may match *)
  Definition pred_hit_r (f0 : nat) (F : filter) (a : pred phrase) : bool :=
    match a with
    | PMatch _ c p => if c =? f0 then forallb (query token hashpos F) (ptokens p) else true
    | POther _ _ _ => true
    end.
  Definition bloom_kept_r (f0 : nat) (inschema : nat -> bool) (F : filter) (e : sk (pred phrase)) : bool :=
    sk_kept (pred_hit_r f0 F) (fun a => inschema (pcol phrase a)) e.

  Lemma pred_hit_r_sound : forall other f0 (rows : list (row value)) r a,
    (forall r v p, In r rows -> r f0 = Some v -> pmatch p v = true -> incl (ptokens p) (vtokens v)) ->
    In r rows -> eval_pred value phrase pmatch other r a = true ->
    pred_hit_r f0 (block_filter token hashpos value vtokens f0 rows) a = true.
  Proof.
    intros other f0 rows r [c p | c id] Hm Hr He; simpl in *; auto.
    destruct (Nat.eqb_spec c f0) as [-> | Hne]; auto.
    destruct (r f0) as [v|] eqn:Ev; [|discriminate].
    eapply block_tokens_hit; eauto.
  Qed.

  Lemma bloom_skip_sound_r : forall other f0 inschema (rows : list (row value)) r e,
    (forall r v p, In r rows -> r f0 = Some v -> pmatch p v = true -> incl (ptokens p) (vtokens v)) ->
    In r rows -> sk_fold (eval_pred value phrase pmatch other r) e = true ->
    bloom_kept_r f0 inschema (block_filter token hashpos value vtokens f0 rows) e = true.
  Proof.
    intros other f0 inschema rows r e Hm Hr He. unfold bloom_kept_r.
    eapply sk_kept_sound; [|exact He]. intros a Ha. eapply pred_hit_r_sound; eauto.
  Qed.
End BloomRepair.
