(* C02 proofs: sorted association lists with a combining merge (generic), their instances for field lists and tables, and
   the algebra of precedence (over) against the last-write-wins replay. The layout invariant and the refinement are in
   Refine.v. *)
From Coq Require Import ZArith List Bool Lia.
From OG Require Import C02.Model.
Import ListNotations.
Open Scope Z_scope.

Definition orelse {A} (a b : option A) : option A := match a with Some _ => a | None => b end.

Lemma orelse_assoc : forall A (a b c : option A), orelse (orelse a b) c = orelse a (orelse b c).
Proof. destruct a; reflexivity. Qed.
Lemma orelse_none_r : forall A (a : option A), orelse a None = a.
Proof. destruct a; reflexivity. Qed.

Section SortedMaps.
  Context {K V : Type}.
  Variable cmp : K -> K -> comparison.
  Hypothesis cmp_eq : forall x y, cmp x y = Eq -> x = y.
  Hypothesis cmp_refl : forall x, cmp x x = Eq.
  Hypothesis cmp_trans : forall x y z, cmp x y = Lt -> cmp y z = Lt -> cmp x z = Lt.
  Hypothesis cmp_opp : forall x y, cmp y x = CompOpp (cmp x y).

  Definition lb (k : K) (m : list (K * V)) : Prop := forall k' v, In (k', v) m -> cmp k k' = Lt.
  Fixpoint sorted (m : list (K * V)) : Prop :=
    match m with [] => True | (k, _) :: r => lb k r /\ sorted r end.

  Lemma cmp_gt_lt : forall x y, cmp x y = Gt -> cmp y x = Lt.
  Proof. intros x y H. rewrite cmp_opp, H. reflexivity. Qed.
  Lemma cmp_lt_gt : forall x y, cmp x y = Lt -> cmp y x = Gt.
  Proof. intros x y H. rewrite cmp_opp, H. reflexivity. Qed.

  Lemma lb_nil : forall k, lb k (@nil (K * V)).
  Proof. intros k k' v []. Qed.
  Lemma lb_cons : forall k k' v m, cmp k k' = Lt -> lb k m -> lb k ((k', v) :: m).
  Proof. intros k k' v m H1 H2 k2 v2 [E | I]. - inversion E; subst; auto. - eauto. Qed.
  Lemma lb_weaken : forall k k' m, cmp k k' = Lt -> lb k' m -> lb k m.
  Proof. intros k k' m H1 H2 k2 v2 I. eapply cmp_trans; eauto. Qed.

  Lemma get_lb : forall m k, lb k m -> get cmp m k = None.
  Proof.
    induction m as [| [k' v] r IH]; intros k H; cbn; auto.
    rewrite (H k' v (or_introl eq_refl)). apply IH. intros k2 v2 I. apply (H k2 v2). right; auto.
  Qed.

  Lemma get_in : forall (m : list (K * V)) k v, get cmp m k = Some v -> In (k, v) m.
  Proof.
    induction m as [| [k' v'] r IH]; intros k v H; cbn in *; try discriminate.
    destruct (cmp k k') eqn:E.
    - apply cmp_eq in E; subst. inversion H; subst. left; auto.
    - right; auto.
    - right; auto.
  Qed.

  Lemma get_lb_lt : forall m k k', lb k' m -> cmp k k' <> Gt -> get cmp m k = None.
  Proof.
    intros m k k' H N. apply get_lb. intros k2 v2 I. specialize (H k2 v2 I).
    destruct (cmp k k') eqn:E; try congruence.
    - apply cmp_eq in E; subst; auto.
    - eapply cmp_trans; eauto.
  Qed.

  Section Merge.
    Variable c : V -> V -> V.

    Lemma merge_nil_r : forall a, merge cmp c a [] = a.
    Proof. destruct a as [| [k v] a]; reflexivity. Qed.
    Lemma merge_nil_l : forall b, merge cmp c [] b = b.
    Proof. destruct b; reflexivity. Qed.

    Lemma merge_cons : forall ka va a' kb vb b',
      merge cmp c ((ka, va) :: a') ((kb, vb) :: b') =
      match cmp ka kb with
      | Lt => (ka, va) :: merge cmp c a' ((kb, vb) :: b')
      | Eq => (ka, c va vb) :: merge cmp c a' b'
      | Gt => (kb, vb) :: merge cmp c ((ka, va) :: a') b'
      end.
    Proof. intros. cbn. destruct (cmp ka kb); reflexivity. Qed.

    (* an entry of the merge comes from one side, or is the combination of two entries with its key *)
    Definition from (a b : list (K * V)) (k : K) (v : V) : Prop :=
      In (k, v) a \/ In (k, v) b \/ exists va vb, In (k, va) a /\ In (k, vb) b /\ v = c va vb.

    Lemma from_incl : forall a a' b b' k v, incl a a' -> incl b b' -> from a b k v -> from a' b' k v.
    Proof.
      intros a a' b b' k v Ha Hb [H | [H | (x & y & Hx & Hy & E)]];
        [left; auto | right; left; auto | right; right; exists x, y; auto].
    Qed.

    Lemma in_merge : forall a b k v, In (k, v) (merge cmp c a b) -> from a b k v.
    Proof.
      induction a as [| [ka va] a' IHa]; intros b k v I.
      - rewrite merge_nil_l in I. right; left; exact I.
      - induction b as [| [kb vb] b' IHb].
        + rewrite merge_nil_r in I. left; exact I.
        + rewrite merge_cons in I. destruct (cmp ka kb) eqn:E; destruct I as [I | I].
          * apply cmp_eq in E. subst kb. inversion I; subst. right; right. exists va, vb. cbn. auto.
          * apply from_incl with (a := a') (b := b'); [apply incl_tl, incl_refl | apply incl_tl, incl_refl | apply IHa, I].
          * inversion I; subst. left; left; reflexivity.
          * apply from_incl with (a := a') (b := (kb, vb) :: b'); [apply incl_tl, incl_refl | apply incl_refl | apply IHa, I].
          * inversion I; subst. right; left; left; reflexivity.
          * apply from_incl with (a := (ka, va) :: a') (b := b'); [apply incl_refl | apply incl_tl, incl_refl | apply IHb, I].
    Qed.

    Lemma lb_merge : forall a b k, lb k a -> lb k b -> lb k (merge cmp c a b).
    Proof.
      intros a b k Ha Hb k' v I. destruct (in_merge _ _ _ _ I) as [H | [H | (x & y & H & _)]]; eauto.
    Qed.

    Lemma sorted_merge : forall a b, sorted a -> sorted b -> sorted (merge cmp c a b).
    Proof.
      induction a as [| [ka va] a' IHa]; intros b Sa Sb.
      - rewrite merge_nil_l; auto.
      - induction b as [| [kb vb] b' IHb].
        + rewrite merge_nil_r; auto.
        + rewrite merge_cons. destruct Sa as [La Sa]. destruct Sb as [Lb Sb].
          destruct (cmp ka kb) eqn:E.
          * apply cmp_eq in E; subst kb. split. apply lb_merge; auto. apply IHa; auto.
          * split. apply lb_merge; auto. apply lb_cons; auto. eapply lb_weaken; eauto.
            apply IHa; auto. split; auto.
          * split. apply lb_merge; auto. apply lb_cons. apply cmp_gt_lt; auto.
            eapply lb_weaken; [apply cmp_gt_lt; eauto | auto]. apply IHb; auto.
    Qed.

    Definition comb (x y : option V) : option V :=
      match x, y with Some a, Some b => Some (c a b) | Some a, None => Some a | None, r => r end.

    Lemma get_merge : forall a b k, sorted a -> sorted b ->
      get cmp (merge cmp c a b) k = comb (get cmp a k) (get cmp b k).
    Proof.
      induction a as [| [ka va] a' IHa]; intros b k Sa Sb.
      - rewrite merge_nil_l. cbn. destruct (get cmp b k); auto.
      - induction b as [| [kb vb] b' IHb].
        + rewrite merge_nil_r. cbn [get]. destruct (cmp k ka); cbn; auto; destruct (get cmp a' k); auto.
        + rewrite merge_cons. destruct Sa as [La Sa]. destruct Sb as [Lb Sb].
          destruct (cmp ka kb) eqn:E.
          * apply cmp_eq in E; subst kb. cbn [get]. destruct (cmp k ka) eqn:E2.
            -- reflexivity.
            -- rewrite IHa; auto.
            -- rewrite IHa; auto.
          * cbn [get]. destruct (cmp k ka) eqn:E2.
            -- apply cmp_eq in E2; subst k. rewrite E. 
               rewrite (get_lb b' ka); [reflexivity | eapply lb_weaken; eauto].
            -- rewrite IHa; [| auto | split; auto]. cbn [get].
               assert (X : cmp k kb = Lt) by (eapply cmp_trans; eauto). rewrite X.
               rewrite (get_lb_lt a' k ka La) by congruence.
               rewrite (get_lb b' k); [reflexivity | eapply lb_weaken; eauto].
            -- rewrite IHa; [| auto | split; auto]. cbn [get]. reflexivity.
          * cbn [get]. destruct (cmp k kb) eqn:E2.
            -- apply cmp_eq in E2; subst k. rewrite (cmp_gt_lt _ _ E).
               rewrite (get_lb a' kb); [reflexivity | eapply lb_weaken; [apply cmp_gt_lt; eauto | auto]].
            -- rewrite IHb; auto.
            -- rewrite IHb; auto.
    Qed.
  End Merge.

  Lemma sorted_ext : forall a b, sorted a -> sorted b -> (forall k, get cmp a k = get cmp b k) -> a = b.
  Proof.
    induction a as [| [ka va] a' IHa]; intros b Sa Sb H.
    - destruct b as [| [kb vb] b']; auto. specialize (H kb). cbn in H. rewrite cmp_refl in H. discriminate.
    - destruct b as [| [kb vb] b'].
      + specialize (H ka). cbn in H. rewrite cmp_refl in H. discriminate.
      + destruct Sa as [La Sa]. destruct Sb as [Lb Sb].
        destruct (cmp ka kb) eqn:E.
        * apply cmp_eq in E; subst kb. pose proof (H ka) as H0. cbn in H0. rewrite cmp_refl in H0. inversion H0; subst vb.
          f_equal. apply IHa; auto. intro k. specialize (H k). cbn in H.
          destruct (cmp k ka) eqn:E2; auto.
          apply cmp_eq in E2; subst k. rewrite (get_lb a' ka La), (get_lb b' ka Lb). reflexivity.
        * pose proof (H ka) as H0. cbn in H0. rewrite cmp_refl, E in H0.
          rewrite (get_lb b' ka) in H0 by (eapply lb_weaken; eauto). discriminate.
        * pose proof (H kb) as H0. cbn in H0. rewrite cmp_refl, (cmp_gt_lt _ _ E) in H0.
          rewrite (get_lb a' kb) in H0 by (eapply lb_weaken; [apply cmp_gt_lt; eauto | auto]). discriminate.
  Qed.

  Lemma lb_filter : forall p k m, lb k m -> lb k (filter p m).
  Proof. intros p k m H k' v I. apply filter_In in I. destruct I; eauto. Qed.
  Lemma sorted_filter : forall p m, sorted m -> sorted (filter p m).
  Proof.
    induction m as [| [k v] r IH]; intros S; cbn; auto. destruct S as [L S].
    destruct (p (k, v)); cbn; auto. split; auto. apply lb_filter; auto.
  Qed.
  Lemma get_filter : forall (pk : K -> bool) m k, sorted m ->
    get cmp (filter (fun kv => pk (fst kv)) m) k = if pk k then get cmp m k else None.
  Proof.
    induction m as [| [k' v] r IH]; intros k S; cbn.
    - destruct (pk k); auto.
    - destruct S as [L S]. destruct (pk k') eqn:P; cbn.
      + destruct (cmp k k') eqn:E.
        * apply cmp_eq in E; subst k. rewrite P; auto.
        * apply IH; auto.
        * apply IH; auto.
      + rewrite IH; auto. destruct (cmp k k') eqn:E; auto.
        apply cmp_eq in E; subst k. rewrite P. reflexivity.
  Qed.

  Lemma sorted_app_single : forall m k v, sorted m -> (forall k' v', In (k', v') m -> cmp k' k = Lt) -> sorted (m ++ [(k, v)]).
  Proof.
    induction m as [| [k0 v0] r IH]; intros k v S H; cbn.
    - split; auto. apply lb_nil.
    - destruct S as [L S]. split.
      + intros k2 v2 I. apply in_app_or in I. destruct I as [I | [I | []]].
        * eauto.
        * inversion I; subst. apply (H k0 v0). left; auto.
      + apply IH; auto. intros k' v' I. apply (H k' v'). right; auto.
  Qed.
End SortedMaps.

Lemma zc_eq : forall x y, Z.compare x y = Eq -> x = y. Proof. apply Z.compare_eq. Qed.
Lemma zc_refl : forall x, Z.compare x x = Eq. Proof. apply Z.compare_refl. Qed.
Lemma zc_trans : forall x y z, Z.compare x y = Lt -> Z.compare y z = Lt -> Z.compare x z = Lt.
Proof. intros x y z. rewrite !Z.compare_lt_iff. lia. Qed.
Lemma zc_opp : forall x y, Z.compare y x = CompOpp (Z.compare x y). Proof. intros. apply Z.compare_antisym. Qed.

Lemma kc_eq : forall x y, kcmp x y = Eq -> x = y.
Proof.
  intros [a b] [c d]; unfold kcmp; cbn. destruct (Z.compare a c) eqn:E; try discriminate.
  intro H. apply Z.compare_eq in E. apply Z.compare_eq in H. subst; auto.
Qed.
Lemma kc_refl : forall x, kcmp x x = Eq.
Proof. intros [a b]; unfold kcmp; cbn. rewrite !Z.compare_refl. auto. Qed.
Lemma kcmp_lt : forall x y, kcmp x y = Lt <-> fst x < fst y \/ (fst x = fst y /\ snd x < snd y).
Proof.
  intros x y. unfold kcmp. destruct (Z.compare_spec (fst x) (fst y)).
  - rewrite Z.compare_lt_iff. lia.
  - split; [intros _; lia | reflexivity].
  - split; [discriminate | lia].
Qed.
Lemma kc_trans : forall x y z, kcmp x y = Lt -> kcmp y z = Lt -> kcmp x z = Lt.
Proof. intros x y z. rewrite !kcmp_lt. lia. Qed.
Lemma kc_opp : forall x y, kcmp y x = CompOpp (kcmp x y).
Proof.
  intros [a b] [c d]; unfold kcmp; cbn. rewrite (Z.compare_antisym a c), (Z.compare_antisym b d).
  destruct (Z.compare a c); cbn; auto.
Qed.

Definition fsorted := @sorted Z Z Z.compare.
Definition tsorted := @sorted key fields kcmp.
Definition wf_fields (fs : fields) : Prop := fsorted fs /\ fs <> [].
Definition wf_table (t : table) : Prop := tsorted t /\ forall k fs, In (k, fs) t -> wf_fields fs.
Definition wf_row (r : row) : Prop := wf_fields (snd r).

Lemma merge_nonempty : forall (c : Z -> Z -> Z) (a b : fields), a <> [] -> merge Z.compare c a b <> [].
Proof.
  intros c [| [ka va] a'] b H; [congruence |]. destruct b as [| [kb vb] b']; cbn; [congruence |].
  destruct (Z.compare ka kb); congruence.
Qed.

Lemma wf_fover : forall a b, wf_fields a -> wf_fields b -> wf_fields (fover a b).
Proof.
  intros a b [Sa Na] [Sb Nb]. split.
  - apply sorted_merge; eauto using zc_eq, zc_trans, zc_opp.
  - apply merge_nonempty; auto.
Qed.

Lemma get_fover : forall a b f, wf_fields a -> wf_fields b ->
  get Z.compare (fover a b) f = orelse (get Z.compare a f) (get Z.compare b f).
Proof.
  intros a b f [Sa _] [Sb _]. unfold fover. rewrite get_merge; eauto using zc_eq, zc_trans, zc_opp.
  unfold comb, orelse. destruct (get Z.compare a f), (get Z.compare b f); auto.
Qed.

Lemma wf_over : forall a b, wf_table a -> wf_table b -> wf_table (over a b).
Proof.
  intros a b [Sa Wa] [Sb Wb]. split.
  - apply sorted_merge; eauto using kc_eq, kc_trans, kc_opp.
  - intros k fs I. destruct (in_merge kcmp kc_eq fover a b k fs I) as [H | [H | (x & y & Hx & Hy & ->)]]; eauto using wf_fover.
Qed.

Lemma get2_over : forall a b k f, wf_table a -> wf_table b ->
  get2 (over a b) k f = orelse (get2 a k f) (get2 b k f).
Proof.
  intros a b k f [Sa Wa] [Sb Wb]. unfold get2, over.
  rewrite get_merge; eauto using kc_eq, kc_trans, kc_opp. unfold comb.
  destruct (get kcmp a k) as [fa |] eqn:Ea; destruct (get kcmp b k) as [fb |] eqn:Eb; cbn; auto.
  - apply get_in in Ea; [| apply kc_eq]. apply get_in in Eb; [| apply kc_eq].
    apply get_fover; eauto.
  - destruct (get Z.compare fa f); auto.
Qed.

Lemma wf_nil : wf_table []. Proof. split; cbn; auto. intros k fs []. Qed.

Lemma wf_single : forall r, wf_row r -> wf_table [r].
Proof.
  intros [k fs] H. split; cbn.
  - split; auto. intros k' v [].
  - intros k' fs' [E | []]. inversion E; subst; auto.
Qed.

(* the side conditions of the table lemmas: tables built by the operations are well formed *)
Create HintDb wf.
#[global] Hint Resolve wf_nil wf_single wf_over : wf.

Lemma fields_witness : forall fs, wf_fields fs -> exists f v, get Z.compare fs f = Some v.
Proof.
  intros [| [f v] r] [_ N]; [congruence |]. exists f, v. cbn. rewrite Z.compare_refl. auto.
Qed.

Lemma table_ext : forall a b, wf_table a -> wf_table b -> (forall k f, get2 a k f = get2 b k f) -> a = b.
Proof.
  intros a b [Sa Wa] [Sb Wb] H. apply (sorted_ext kcmp); eauto using kc_eq, kc_refl, kc_trans, kc_opp.
  intro k. destruct (get kcmp a k) as [fa |] eqn:Ea; destruct (get kcmp b k) as [fb |] eqn:Eb; auto.
  - f_equal. pose proof (get_in kcmp kc_eq _ _ _ Ea) as Ia. pose proof (get_in kcmp kc_eq _ _ _ Eb) as Ib.
    apply (sorted_ext Z.compare); eauto using zc_eq, zc_refl, zc_trans, zc_opp.
    + apply (Wa k fa Ia). + apply (Wb k fb Ib).
    + intro f. specialize (H k f). unfold get2 in H. rewrite Ea, Eb in H. auto.
  - pose proof (get_in kcmp kc_eq _ _ _ Ea) as Ia. destruct (fields_witness fa (Wa k fa Ia)) as (f & v & G).
    specialize (H k f). unfold get2 in H. rewrite Ea, Eb, G in H. discriminate.
  - pose proof (get_in kcmp kc_eq _ _ _ Eb) as Ib. destruct (fields_witness fb (Wb k fb Ib)) as (f & v & G).
    specialize (H k f). unfold get2 in H. rewrite Ea, Eb, G in H. discriminate.
Qed.


Definition lww_step (k : key) (f : Z) (acc : option Z) (r : row) : option Z :=
  match kcmp (fst r) k with
  | Eq => match get Z.compare (snd r) f with Some v => Some v | None => acc end
  | _ => acc
  end.
Lemma lww_get_unfold : forall raw k f, lww_get raw k f = fold_left (lww_step k f) raw None.
Proof. reflexivity. Qed.

Lemma lww_fold_acc : forall raw k f acc,
  fold_left (lww_step k f) raw acc = orelse (fold_left (lww_step k f) raw None) acc.
Proof.
  induction raw as [| r raw IH]; intros k f acc; cbn; auto.
  rewrite IH. rewrite (IH k f (lww_step k f None r)). unfold lww_step.
  destruct (kcmp (fst r) k); try (rewrite orelse_none_r; reflexivity).
  destruct (get Z.compare (snd r) f); cbn.
  - destruct (fold_left _ raw None); reflexivity.
  - rewrite orelse_none_r; reflexivity.
Qed.

Lemma lww_get_app : forall a b k f, lww_get (a ++ b) k f = orelse (lww_get b k f) (lww_get a k f).
Proof. intros. rewrite !lww_get_unfold, fold_left_app. apply lww_fold_acc. Qed.

Lemma get2_single : forall r k f, get2 [r] k f = lww_step k f None r.
Proof.
  intros [k' fs] k f. unfold get2, lww_step; cbn. rewrite (kc_opp k k').
  destruct (kcmp k k'); cbn; auto. destruct (get Z.compare fs f); auto.
Qed.

Definition wf_raw (raw : list row) : Prop := Forall wf_row raw.

(* the table built by inserting the rows in arrival order (newer over older) is the last-write-wins map *)
Lemma lww_table_spec : forall raw, wf_raw raw ->
  wf_table (lww_table raw) /\ forall k f, get2 (lww_table raw) k f = lww_get raw k f.
Proof.
  intros raw H. unfold lww_table, lww_get.
  assert (G : forall acc, wf_table acc ->
              wf_table (fold_left (fun acc r => over [r] acc) raw acc) /\
              forall k f, get2 (fold_left (fun acc r => over [r] acc) raw acc) k f
                          = orelse (fold_left (lww_step k f) raw None) (get2 acc k f)).
  { induction H as [| r raw Hr Hraw IH]; intros acc Wacc; cbn.
    - split; auto.
    - assert (W1 : wf_table (over [r] acc)) by (apply wf_over; auto with wf).
      destruct (IH _ W1) as [W2 E]. split; auto. intros k f. rewrite E.
      rewrite get2_over; auto with wf. rewrite get2_single.
      rewrite (lww_fold_acc raw k f (lww_step k f None r)). rewrite orelse_assoc. reflexivity. }
  destruct (G [] wf_nil) as [W E]. split; auto. intros k f. rewrite E. cbn. apply orelse_none_r.
Qed.

(* precedence is associative: merging an adjacent run of containers into one (compaction of ordered files,
   merge-self of out-of-order files, folding out-of-order files into ordered ones) leaves every read unchanged *)
Lemma over_assoc : forall a b c, wf_table a -> wf_table b -> wf_table c -> over (over a b) c = over a (over b c).
Proof.
  intros a b c Wa Wb Wc. apply table_ext; auto with wf.
  intros k f. rewrite !get2_over; auto with wf. apply orelse_assoc.
Qed.

Lemma over_nil_r : forall a, over a [] = a.
Proof. intro a. unfold over. apply merge_nil_r. Qed.
Lemma over_nil_l : forall a, over [] a = a.
Proof. intro a. unfold over. apply merge_nil_l. Qed.

Definition disjoint (a b : table) : Prop := forall k, get kcmp a k = None \/ get kcmp b k = None.
Lemma get2_none : forall a k f, get kcmp a k = None -> get2 a k f = None.
Proof. intros a k f H. unfold get2. rewrite H. auto. Qed.
Definition kfilter (p : key -> bool) (t : table) : table := filter (fun r : row => p (fst r)) t.
Lemma wf_kfilter : forall p t, wf_table t -> wf_table (kfilter p t).
Proof.
  intros p t [S W]. split.
  - apply sorted_filter; auto.
  - intros k fs I. apply filter_In in I. destruct I; eauto.
Qed.
#[global] Hint Resolve wf_kfilter : wf.
Lemma get2_kfilter : forall p t k f, wf_table t -> get2 (kfilter p t) k f = if p k then get2 t k f else None.
Proof.
  intros p t k f [S W]. unfold get2, kfilter.
  pose proof (get_filter kcmp kc_eq p t k S) as G. unfold row, table in *. rewrite G. destruct (p k); auto.
Qed.

(* the order / out-of-order split of a flush. T is the table being flushed, U the precedence product of the
   out-of-order files, O that of the ordered files. Rows selected by `late` go to a new out-of-order file that takes
   precedence over U; the others go to a new ordered file, which takes precedence only over O. If no existing file
   holds a key of a row that is not late (this is what  time > flushTime  guarantees), every read is unchanged. *)
Lemma flush_split_invisible : forall (late : key -> bool) T U O,
  wf_table T -> wf_table U -> wf_table O ->
  (forall k, late k = false -> get kcmp T k <> None -> get kcmp U k = None /\ get kcmp O k = None) ->
  over (over (kfilter late T) U) (over (kfilter (fun k => negb (late k)) T) O) = over T (over U O).
Proof.
  intros late T U O WT WU WO H. apply table_ext; auto 6 with wf.
  intros k f. rewrite !get2_over; auto 6 with wf. rewrite !get2_kfilter; auto.
  destruct (late k) eqn:L; cbn.
  - rewrite orelse_assoc. reflexivity.
  - destruct (get kcmp T k) as [fs |] eqn:E.
    + destruct (H k L) as [HU HO]; [congruence |]. rewrite (get2_none U k f HU), (get2_none O k f HO).
      cbn. rewrite !orelse_none_r. reflexivity.
    + rewrite (get2_none T k f E). reflexivity.
Qed.

(* the same with the whole snapshot going out of order (sequencer not available): trivially invisible *)
Lemma flush_all_ooo_invisible : forall T U O, wf_table T -> wf_table U -> wf_table O ->
  over (over T U) O = over T (over U O).
Proof. intros. apply over_assoc; auto. Qed.

(* reading through the memtable: a write batch appended to the memtable takes precedence over everything else *)
Lemma write_visible : forall raw b, wf_raw raw -> wf_raw b -> forall k f,
  get2 (lww_table (raw ++ b)) k f = orelse (get2 (lww_table b) k f) (get2 (lww_table raw) k f).
Proof.
  intros raw b Hr Hb k f.
  assert (Hrb : wf_raw (raw ++ b)) by (apply Forall_app; auto).
  destruct (lww_table_spec _ Hrb) as [_ E1]. destruct (lww_table_spec _ Hr) as [_ E2]. destruct (lww_table_spec _ Hb) as [_ E3].
  rewrite E1, E2, E3. apply lww_get_app.
Qed.
