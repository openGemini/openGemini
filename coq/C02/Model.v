(* C02 - reads equal a last-write-wins replay of acknowledged writes, in any layout.
   Executable model (definitions only; the table algebra is proved in Proofs.v, the invariant and the refinement in Refine.v).

   Mirrors, for the time-series engine of one shard and one measurement:
     lib/record/column_sort.go   ColumnSortHelper.Sort / replace        -> sort_dedup (stable sort by time, then
                                                                           left-to-right field-wise replace)
     lib/record/record.go        MergeRecord / mergeRecRow              -> over (newer over older, field-wise)
     engine/mutable/table.go     MemTables.Values                       -> read: active over snapshot table
     engine/series_cursor.go, tsm_merge_cursor.go FirstTimeInit/Next    -> read: memtables over out-of-order files
                                                                           (ascending sequence, later wins) over
                                                                           ordered files (concatenated in order)
     engine/mutable/ts_table.go  FlushChunks / SplitRecordByTime        -> flush (split at the per-series flush time)
     engine/immutable/sequencer.go MmsIdTime                            -> flush_time
     engine/immutable/compact.go, ts_mms_tables.go                      -> compact (an adjacent run of ordered files)
     engine/immutable/merge_tool.go, merge_performer.go                 -> merge_ooo, merge_self
     engine/shard.go Close/OpenAndEnable, engine/wal.go                 -> reopen (replay the log, flush)

   A key is (series, time); a row is a key with its non-null fields (field id -> value code, ascending ids).
   Values are opaque integers (the harness encodes typed values injectively). *)
From Coq Require Import ZArith List Bool.
Import ListNotations.
Open Scope Z_scope.

(* ---- sorted association lists with a combining merge ---- *)
Section SortedMaps.
  Context {K V : Type}.
  Variable cmp : K -> K -> comparison.

  Fixpoint get (m : list (K * V)) (k : K) : option V :=
    match m with
    | [] => None
    | (k', v) :: r => match cmp k k' with Eq => Some v | _ => get r k end
    end.

  (* merge two ascending lists; on equal keys combine with c (first argument comes from a) *)
  Fixpoint merge (c : V -> V -> V) (a : list (K * V)) : list (K * V) -> list (K * V) :=
    fix inner (b : list (K * V)) : list (K * V) :=
      match a, b with
      | [], _ => b
      | _, [] => a
      | (ka, va) :: a', (kb, vb) :: b' =>
          match cmp ka kb with
          | Lt => (ka, va) :: merge c a' b
          | Eq => (ka, c va vb) :: merge c a' b'
          | Gt => (kb, vb) :: inner b'
          end
      end.
End SortedMaps.

(* ---- rows and tables ---- *)
Definition key := (Z * Z)%type.                 (* series, time *)
Definition kcmp (a b : key) : comparison :=
  match Z.compare (fst a) (fst b) with Eq => Z.compare (snd a) (snd b) | c => c end.
Definition fields := list (Z * Z).              (* field id -> value, ascending field id, non-empty *)
Definition row := (key * fields)%type.
Definition table := list row.                   (* ascending key, one row per key *)

(* newer fields over older ones: a field carried by the newer row replaces, the others stay (mergeRecRow / replace) *)
Definition fover (newer older : fields) : fields := merge Z.compare (fun x _ => x) newer older.
Definition over (newer older : table) : table := merge kcmp fover newer older.

Definition get2 (m : table) (k : key) (f : Z) : option Z :=
  match get kcmp m k with Some fs => get Z.compare fs f | None => None end.

(* ---- ColumnSortHelper.Sort: stable sort by key, then left-to-right merge of equal keys (later row wins per field) ---- *)
Fixpoint ins (r : row) (l : list row) : list row :=
  match l with
  | [] => [r]
  | x :: l' => match kcmp (fst r) (fst x) with Lt => r :: l | _ => x :: ins r l' end
  end.
Definition isort (raw : list row) : list row := fold_left (fun acc r => ins r acc) raw [].
Fixpoint dedup1 (cur : row) (l : list row) : list row :=
  match l with
  | [] => [cur]
  | y :: l' => match kcmp (fst cur) (fst y) with
               | Eq => dedup1 (fst cur, fover (snd y) (snd cur)) l'
               | _ => cur :: dedup1 y l'
               end
  end.
Definition dedup (l : list row) : list row := match l with [] => [] | x :: l' => dedup1 x l' end.
Definition sort_dedup (raw : list row) : table := dedup (isort raw).

(* the specification object: replay of rows in arrival order into a map keyed by (series, time, field) *)
Definition lww_get (raw : list row) (k : key) (f : Z) : option Z :=
  fold_left (fun acc (r : row) =>
               match kcmp (fst r) k with
               | Eq => match get Z.compare (snd r) f with Some v => Some v | None => acc end
               | _ => acc
               end) raw None.
(* rows of the replay, ascending key: insert every row, newer over older *)
Definition lww_table (raw : list row) : table := fold_left (fun acc r => over [r] acc) raw [].

(* ---- containers ---- *)
Record file := { f_seq : Z; f_tab : table }.
Record layout := {
  mem  : list row;            (* active memtable: raw rows in arrival order *)
  snap : list row;            (* table being flushed (raw rows); [] when none *)
  ooo  : list file;           (* out-of-order files, ascending sequence *)
  ord  : list file;           (* ordered files, ascending sequence *)
  wal  : list (Z * list row); (* batches logged since the last log switch with their write-counter value, oldest first *)
  wreq : Z                    (* the log's write counter (never reset while the shard is open) *)
}.
Definition init : layout := {| mem := []; snap := []; ooo := []; ord := []; wal := []; wreq := 0 |}.

Definition key_in (k : key) (t : table) : bool := match get kcmp t k with Some _ => true | None => false end.

(* per-series last flushed time: the greatest time of the series in any of the given files (None: no row of the series) *)
Definition max_time_in (s : Z) (t : table) : option Z :=
  fold_left (fun acc (r : row) => if fst (fst r) =? s then
                                    match acc with Some m => Some (Z.max m (snd (fst r))) | None => Some (snd (fst r)) end
                                  else acc) t None.
Definition omax (a b : option Z) : option Z :=
  match a, b with Some x, Some y => Some (Z.max x y) | Some x, None => Some x | None, y => y end.
Definition flush_time (files : list file) (s : Z) : option Z :=
  fold_left (fun acc f => omax acc (max_time_in s (f_tab f))) files None.

(* SplitRecordByTime: time <= flushTime -> out-of-order, else ordered. The flush time of a series is the greatest time
   ever flushed for it into ANY file (MsBuilder.Flush feeds the sequencer for ordered and out-of-order files alike, and
   a reload reads the id-time block of both kinds). *)
Definition is_late (allf : list file) (r : row) : bool :=
  match flush_time allf (fst (fst r)) with Some ft => snd (fst r) <=? ft | None => false end.

Fixpoint insert_file (f : file) (l : list file) : list file :=
  match l with
  | [] => [f]
  | x :: l' => if f_seq f <? f_seq x then f :: l else x :: insert_file f l'
  end.
Definition add_file (seq : Z) (t : table) (l : list file) : list file :=
  match t with [] => l | _ => insert_file {| f_seq := seq; f_tab := t |} l end.

Definition min_time_in (s : Z) (t : table) : option Z :=
  fold_left (fun acc (r : row) => if fst (fst r) =? s then
                                    match acc with Some m => Some (Z.min m (snd (fst r))) | None => Some (snd (fst r)) end
                                  else acc) t None.

(* ---- reads ---- *)
(* out-of-order files: ascending sequence, each later file over the accumulated older ones (FirstTimeInit) *)
Definition ooo_prod (l : list file) : table := fold_left (fun acc f => over (f_tab f) acc) l [].
(* ordered files: read one after the other (LocationCursor), per series their time ranges increase with the position *)
Definition sel (s : Z) (t : table) : table := filter (fun r : row => fst (fst r) =? s) t.
Definition ord_cat (s : Z) (l : list file) : table := concat (map (fun f => sel s (f_tab f)) l).
Definition ord_prod (l : list file) : table := fold_left (fun acc f => over (f_tab f) acc) l [].

Definition read_series (L : layout) (s : Z) : table :=
  over (sel s (sort_dedup (mem L)))
   (over (sel s (sort_dedup (snap L)))
     (over (sel s (ooo_prod (ooo L))) (ord_cat s (ord L)))).

(* query shaping: time range (inclusive), field subset, direction; rows left without any selected field are dropped *)
Definition project (fs : list Z) (r : row) : row := (fst r, filter (fun fv : Z * Z => existsb (Z.eqb (fst fv)) fs) (snd r)).
Definition nonempty (r : row) : bool := match snd r with [] => false | _ => true end.
Definition shape (tmin tmax : Z) (fs : list Z) (asc : bool) (t : table) : list row :=
  let rows := filter nonempty (map (project fs) (filter (fun r : row => (tmin <=? snd (fst r)) && (snd (fst r) <=? tmax)) t)) in
  if asc then rows else rev rows.
Definition read_layout (L : layout) (s tmin tmax : Z) (fs : list Z) (asc : bool) : list row :=
  shape tmin tmax fs asc (read_series L s).

(* ---- operations ---- *)
Definition write (b : list row) (L : layout) : layout :=
  {| mem := mem L ++ b; snap := snap L; ooo := ooo L; ord := ord L;
     wal := wal L ++ [(wreq L, b)]; wreq := wreq L + 1 |}.

(* writeSnapshot part 1: log switch + table swap *)
Definition begin_flush (L : layout) : layout :=
  {| mem := []; snap := mem L; ooo := ooo L; ord := ord L; wal := []; wreq := wreq L |}.
(* part 2: FlushChunks + AddBothTSSPFiles; so / su are the sequence numbers the store hands out.
   allooo: the sequencer is not available (freed or still loading, Sequencer.GetMmsIdTime = nil while ordered files
   exist): FlushChunks then uses flushTime = MaxInt64 and every row goes to the out-of-order file. *)
Definition end_flush (allooo : bool) (so su : Z) (L : layout) : layout :=
  let t := sort_dedup (snap L) in
  let late := filter (fun r => allooo || is_late (ord L ++ ooo L) r) t in
  let fresh := filter (fun r => negb (allooo || is_late (ord L ++ ooo L) r)) t in
  {| mem := mem L; snap := []; ooo := add_file su late (ooo L); ord := add_file so fresh (ord L);
     wal := wal L; wreq := wreq L |}.
Definition flush (allooo : bool) (so su : Z) (L : layout) : layout := end_flush allooo so su (begin_flush L).

(* compaction: the files whose sequence is in grp (an adjacent run of the list) become one file under the first sequence *)
Definition in_grp (grp : list Z) (f : file) : bool := existsb (Z.eqb (f_seq f)) grp.
Fixpoint replace_run (grp : list Z) (nf : file) (l : list file) (placed : bool) : list file :=
  match l with
  | [] => []
  | x :: l' => if in_grp grp x then (if placed then replace_run grp nf l' true else nf :: replace_run grp nf l' true)
               else x :: replace_run grp nf l' placed
  end.
Definition compact_group (grp : list Z) (l : list file) : list file :=
  let members := filter (in_grp grp) l in
  match members with
  | [] => l
  | m0 :: _ => replace_run grp {| f_seq := f_seq m0; f_tab := ord_prod members |} l false
  end.
Definition compact (grps : list (list Z)) (L : layout) : layout :=
  {| mem := mem L; snap := snap L; ooo := ooo L; ord := fold_left (fun l g => compact_group g l) grps (ord L);
     wal := wal L; wreq := wreq L |}.

(* merge-self: an adjacent run of out-of-order files becomes one out-of-order file with sequence nseq.
   repaired: the members are folded in sequence order (later file over earlier ones) - what /repo does since commit 22016f1.
   current : the code before that commit (finding C02-mergeself-mintime-order). MergeSelf.Merge (merge_self.go) pulled the chunks of one series from ChunkIterators, whose heap orders the
             chunks of the same series by their MINIMUM TIME (chunk_iterators.go Less), appended them in that order and
             let ColumnSortHelper.Sort resolve equal timestamps in favour of the later row: per series the members are
             folded in min-time order (equal min times: sequence order), not in sequence order. *)
Definition has_series (s : Z) (f : file) : bool := existsb (fun r : row => fst (fst r) =? s) (f_tab f).
Definition min_key (s : Z) (f : file) : Z := match min_time_in s (f_tab f) with Some m => m | None => 0 end.
(* rev_ties: chunks with EQUAL minimum time have no defined order in the heap (it depends on earlier pops/pushes);
   false = they keep sequence order, true = the later file comes first *)
Fixpoint ins_by_min (rev_ties : bool) (s : Z) (f : file) (l : list file) : list file :=
  match l with
  | [] => [f]
  | x :: l' => if (min_key s f <? min_key s x) || (rev_ties && (min_key s f =? min_key s x)) then f :: l
               else x :: ins_by_min rev_ties s f l'
  end.
Definition sort_by_min (rev_ties : bool) (s : Z) (l : list file) : list file :=
  fold_left (fun acc f => ins_by_min rev_ties s f acc) l [].
Fixpoint zinsert (x : Z) (l : list Z) : list Z :=
  match l with
  | [] => [x]
  | y :: l' => if x <? y then x :: l else if x =? y then l else y :: zinsert x l'
  end.
Definition all_series (l : list file) : list Z :=
  fold_left (fun acc f => fold_left (fun a (r : row) => zinsert (fst (fst r)) a) (f_tab f) acc) l [].
Definition self_prod_current (rev_ties : bool) (members : list file) : table :=
  concat (map (fun s => sel s (ooo_prod (sort_by_min rev_ties s (filter (has_series s) members)))) (all_series members)).
(* mode 0 = repaired; 1 = current, ties in sequence order; 2 = current, ties reversed *)
Definition merge_self_m (mode : Z) (grp : list Z) (nseq : Z) (L : layout) : layout :=
  let members := filter (in_grp grp) (ooo L) in
  let merged := if mode =? 0 then ooo_prod members else self_prod_current (mode =? 2) members in
  {| mem := mem L; snap := snap L;
     ooo := match members with [] => ooo L | _ => replace_run grp {| f_seq := nseq; f_tab := merged |} (ooo L) false end;
     ord := ord L; wal := wal L; wreq := wreq L |}.
Definition merge_self (current : bool) := merge_self_m (if current then 1 else 0).

(* the order before commit 22016f1 in general: chunks of one series leave the heap by minimum time; the order of chunks with EQUAL minimum
   time is whatever the binary heap's array happens to give. rank = a tie-break (position of the file's sequence in a
   permutation pi of the members); the evaluator searches pi (Corr.v step_obs, mode 3). *)
Fixpoint index_of (x : Z) (l : list Z) (i : Z) : Z :=
  match l with [] => i | y :: r => if x =? y then i else index_of x r (i + 1) end.
Fixpoint ins_by_min_rank (rank : file -> Z) (s : Z) (f : file) (l : list file) : list file :=
  match l with
  | [] => [f]
  | x :: l' => if (min_key s f <? min_key s x) || ((min_key s f =? min_key s x) && (rank f <? rank x)) then f :: l
               else x :: ins_by_min_rank rank s f l'
  end.
Definition sort_by_min_rank (rank : file -> Z) (s : Z) (l : list file) : list file :=
  fold_left (fun acc f => ins_by_min_rank rank s f acc) l [].
Definition self_prod_rank (rank : file -> Z) (members : list file) : table :=
  concat (map (fun s => sel s (ooo_prod (sort_by_min_rank rank s (filter (has_series s) members)))) (all_series members)).
Definition merge_self_rank (pi : list Z) (grp : list Z) (nseq : Z) (L : layout) : layout :=
  let members := filter (in_grp grp) (ooo L) in
  let merged := self_prod_rank (fun f => index_of (f_seq f) pi 0) members in
  {| mem := mem L; snap := snap L;
     ooo := match members with [] => ooo L | _ => replace_run grp {| f_seq := nseq; f_tab := merged |} (ooo L) false end;
     ord := ord L; wal := wal L; wreq := wreq L |}.

(* out-of-order merge into the ordered files: the consumed out-of-order files (grp) are folded over the ordered
   rows; the result is laid out again over the ordered files. bounds gives, per resulting ordered file (sequence) and
   series, the last time the file holds for that series - the choice the merge made; a row goes to the first file
   whose bound for its series is >= its time, rows beyond every bound go to the last file listing the series, rows of
   a series no file lists go to the last file. *)
Definition bound_of (s : Z) (b : list (Z * Z)) : option Z :=
  match find (fun x => fst x =? s) b with Some x => Some (snd x) | None => None end.
Fixpoint target (s t : Z) (bounds : list (Z * list (Z * Z))) (fallback : Z) : Z :=
  match bounds with
  | [] => fallback
  | (seq, b) :: r => match bound_of s b with
                     | Some m => if t <=? m then seq else target s t r seq
                     | None => target s t r fallback
                     end
  end.
Definition last_seq (bounds : list (Z * list (Z * Z))) : Z := fst (last bounds (0, [])).
Definition merge_ooo (grp : list Z) (bounds : list (Z * list (Z * Z))) (L : layout) : layout :=
  let members := filter (in_grp grp) (ooo L) in
  let all := over (ooo_prod members) (ord_prod (ord L)) in
  let place (seq : Z) := filter (fun r : row => target (fst (fst r)) (snd (fst r)) bounds (last_seq bounds) =? seq) all in
  match members with
  | [] => L
  | _ => {| mem := mem L; snap := snap L; ooo := filter (fun f => negb (in_grp grp f)) (ooo L);
            ord := fold_left (fun l sb => add_file (fst sb) (place (fst sb)) l) bounds [];
            wal := wal L; wreq := wreq L |}
  end.

(* close + open: the memtable is dropped, the log is replayed into a fresh memtable and flushed.
   repaired: records are re-applied in the order they were acknowledged.
   current : today's code (finding C02-reopen-walphase, open). The log has n partitions, record c lives in partition c mod n, and replay takes one record from each
             non-exhausted partition in turn starting at partition 0 (engine/wal.go consumeRecordSerial). *)
Definition part_of (n c : Z) : Z := c mod n.
Fixpoint take_round (n p : Z) (fuel : nat) (pending : list (Z * list row)) : list (Z * list row) * list (Z * list row) :=
  (* one pass over partitions p, p+1, .., n-1: from each take its first pending record *)
  match fuel with
  | O => ([], pending)
  | S fuel' =>
      if n <=? p then ([], pending) else
      let fix pick (l : list (Z * list row)) : option (Z * list row) * list (Z * list row) :=
          match l with
          | [] => (None, [])
          | x :: l' => if part_of n (fst x) =? p then (Some x, l')
                       else let '(o, rest) := pick l' in (o, x :: rest)
          end in
      let '(o, rest) := pick pending in
      let '(taken, rest') := take_round n (p + 1) fuel' rest in
      (match o with Some x => x :: taken | None => taken end, rest')
  end.
Fixpoint replay_rounds (n : Z) (fuel : nat) (pending : list (Z * list row)) : list (Z * list row) :=
  match fuel with
  | O => pending
  | S fuel' => match pending with
               | [] => []
               | _ => let '(taken, rest) := take_round n 0 (Z.to_nat n) pending in taken ++ replay_rounds n fuel' rest
               end
  end.
Definition replay_current (n : Z) (w : list (Z * list row)) : list row :=
  concat (map snd (replay_rounds (Z.max 1 n) (length w) w)).
Definition replay_repaired (w : list (Z * list row)) : list row := concat (map snd w).

Definition reopen (current : bool) (n : Z) (allooo : bool) (so su : Z) (L : layout) : layout :=
  let m := if current then replay_current n (wal L) else replay_repaired (wal L) in
  flush allooo so su {| mem := m; snap := []; ooo := ooo L; ord := ord L; wal := []; wreq := 0 |}.

Inductive op :=
| Write (b : list row)
| Flush (allooo : bool) (so su : Z)
| BeginFlush
| EndFlush (allooo : bool) (so su : Z)
| Compact (grps : list (list Z))
| MergeOOO (grp : list Z) (bounds : list (Z * list (Z * Z)))
| MergeSelf (grp : list Z) (nseq : Z)
| Reopen (n : Z) (allooo : bool) (so su : Z).

(* variant: wc = today's log replay order at reopen, mc = merge-self mode (0 repaired, 1/2 the member order before 22016f1) *)
Definition step2 (wc : bool) (mc : Z) (L : layout) (o : op) : layout :=
  match o with
  | Write b => write b L
  | Flush a so su => flush a so su L
  | BeginFlush => begin_flush L
  | EndFlush a so su => end_flush a so su L
  | Compact g => compact g L
  | MergeOOO g b => merge_ooo g b L
  | MergeSelf g n => merge_self_m mc g n L
  | Reopen n a so su => reopen wc n a so su L
  end.
Definition run2 (wc : bool) (mc : Z) (h : list op) : layout := fold_left (step2 wc mc) h init.

Definition step (current : bool) (L : layout) (o : op) : layout :=
  match o with
  | Write b => write b L
  | Flush a so su => flush a so su L
  | BeginFlush => begin_flush L
  | EndFlush a so su => end_flush a so su L
  | Compact g => compact g L
  | MergeOOO g b => merge_ooo g b L
  | MergeSelf g n => merge_self false g n L
  | Reopen n a so su => reopen current n a so su L
  end.
Definition run (current : bool) (h : list op) : layout := fold_left (step current) h init.

Definition write_free (o : op) : bool := match o with Write _ => false | _ => true end.
Definition writes_of (h : list op) : list row :=
  concat (map (fun o => match o with Write b => b | _ => [] end) h).

(* ---- decidable side conditions (what the planner / the store guarantee; checked on every replayed history) ---- *)
Fixpoint asc_seq (l : list file) : bool :=
  match l with
  | x :: ((y :: _) as r) => (f_seq x <? f_seq y) && asc_seq r
  | _ => true
  end.
(* the members of grp are adjacent in l; started: a member has been seen, stopped: a non-member has been seen after one *)
Fixpoint adjacent_from (grp : list Z) (l : list file) (started : bool) (stopped : bool) : bool :=
  match l with
  | [] => true
  | x :: l' => if in_grp grp x then (if stopped then false else adjacent_from grp l' true false)
               else adjacent_from grp l' started started
  end.
Definition adjacent (grp : list Z) (l : list file) : bool := adjacent_from grp l false false.
(* grp names exactly the first files of l (the oldest out-of-order files) *)
Fixpoint is_prefix_from (grp : list Z) (l : list file) (stopped : bool) : bool :=
  match l with
  | [] => true
  | x :: l' => if in_grp grp x then (if stopped then false else is_prefix_from grp l' false)
               else is_prefix_from grp l' true
  end.
Definition is_prefix (grp : list Z) (l : list file) : bool := is_prefix_from grp l false.
Definition fresh_seq (s : Z) (l : list file) : bool := forallb (fun f => f_seq f <? s) l.
Definition between_neighbours (grp : list Z) (nseq : Z) (l : list file) : bool :=
  asc_seq (replace_run grp {| f_seq := nseq; f_tab := [] |} l false).

(* ordered files: per series the time ranges strictly increase with the position *)
Definition series_of (t : table) : list Z := map (fun r : row => fst (fst r)) t.
Fixpoint ord_ok_from (l : list file) : bool :=
  match l with
  | [] => true
  | x :: r => forallb (fun y : file => forallb (fun s => match max_time_in s (f_tab x), min_time_in s (f_tab y) with
                                                       | Some a, Some b => a <? b | _, _ => true end)
                                              (series_of (f_tab x))) r
              && ord_ok_from r
  end.
Definition layout_ok (L : layout) : bool := asc_seq (ooo L) && asc_seq (ord L) && ord_ok_from (ord L).

(* every group is an adjacent run of the list it is applied to (groups are applied one after the other) *)
Fixpoint compact_ok (grps : list (list Z)) (l : list file) : bool :=
  match grps with
  | [] => true
  | g :: r => adjacent g l && compact_ok r (compact_group g l)
  end.

(* strictly ascending integers (the sequence numbers of the ordered files an out-of-order merge wrote, in list order) *)
Fixpoint asc_zs (l : list Z) : bool :=
  match l with
  | x :: ((y :: _) as r) => (x <? y) && asc_zs r
  | _ => true
  end.

Definition op_ok (L : layout) (o : op) : bool :=
  match o with
  | Write _ => true
  | Flush _ so su | Reopen _ _ so su => fresh_seq so (ord L) && fresh_seq su (ooo L) && match snap L with [] => true | _ => false end
  | BeginFlush => match snap L with [] => true | _ => false end
  | EndFlush _ so su => fresh_seq so (ord L) && fresh_seq su (ooo L)
  | Compact grps => compact_ok grps (ord L)
  | MergeSelf g n => adjacent g (ooo L) && between_neighbours g n (ooo L)
  | MergeOOO g b => is_prefix g (ooo L) && match b with [] => false | _ => true end && asc_zs (map fst b)
  end.

(* a written row carries at least one field and its field ids ascend (the harness / the line protocol sort them) *)
Fixpoint fields_asc (fs : fields) : bool :=
  match fs with
  | x :: ((y :: _) as r) => (fst x <? fst y) && fields_asc r
  | _ => true
  end.
Definition row_ok (r : row) : bool := nonempty r && fields_asc (snd r).
Definition write_ok (o : op) : bool := match o with Write b => forallb row_ok b | _ => true end.

(* a history is allowed when every op satisfies the planner / store predicate in the state it is applied to and the
   layout predicate holds afterwards (both are evaluated by the correspondence on every replayed history: codes 4, 5) *)
Fixpoint allowed_from (L : layout) (h : list op) : bool :=
  match h with
  | [] => true
  | o :: r => op_ok L o && write_ok o && layout_ok (step false L o) && allowed_from (step false L o) r
  end.
Definition ops_allowed (h : list op) : bool := allowed_from init h.

(* boolean equality of tables (for Examples and the evaluator) *)
Fixpoint zz_list_eqb (a b : list (Z * Z)) : bool :=
  match a, b with
  | [], [] => true
  | x :: a', y :: b' => (fst x =? fst y) && (snd x =? snd y) && zz_list_eqb a' b'
  | _, _ => false
  end.
Fixpoint Corr_eq (a b : table) : bool :=
  match a, b with
  | [], [] => true
  | x :: a', y :: b' => (fst (fst x) =? fst (fst y)) && (snd (fst x) =? snd (fst y)) && zz_list_eqb (snd x) (snd y) && Corr_eq a' b'
  | _, _ => false
  end.
