(* C02 refinement proof: the executable layout model (Model.v: run over op histories) refines the last-write-wins
   replay of the acknowledged writes. The code-shaped sort_dedup (stable insertion sort + left-to-right replace) equals
   lww_table; every op leaves the precedence product of the containers (absL) unchanged, which is the invariant Core. *)
From Coq Require Import ZArith List Bool Lia Sorted.
From OG Require Import C02.Model C02.Proofs C02.Corr.
Import ListNotations.
Open Scope Z_scope.


Lemma kc_le_lt : forall a b c, kcmp a b <> Gt -> kcmp b c = Lt -> kcmp a c = Lt.
Proof.
  intros a b c H1 H2. destruct (kcmp a b) eqn:E; try congruence.
  - apply kc_eq in E; subst; auto.
  - eapply kc_trans; eauto.
Qed.
Lemma kc_lt_le : forall a b c, kcmp a b = Lt -> kcmp b c <> Gt -> kcmp a c = Lt.
Proof.
  intros a b c H1 H2. destruct (kcmp b c) eqn:E; try congruence.
  - apply kc_eq in E; subst; auto.
  - eapply kc_trans; eauto.
Qed.
Lemma kc_gt_lt : forall a b, kcmp a b = Gt -> kcmp b a = Lt.
Proof. exact (cmp_gt_lt kcmp kc_opp). Qed.
Lemma kc_lt_gt : forall a b, kcmp a b = Lt -> kcmp b a = Gt.
Proof. exact (cmp_lt_gt kcmp kc_opp). Qed.
Lemma kc_eq_sym : forall a b, kcmp a b = Eq -> kcmp b a = Eq.
Proof. intros a b H. rewrite kc_opp, H. reflexivity. Qed.
Lemma kc_nlt_le : forall a b, kcmp a b <> Lt -> kcmp b a <> Gt.
Proof. intros a b H. rewrite kc_opp. destruct (kcmp a b); cbn; congruence. Qed.

(* stable insertion behind the rows that are not greater, for the key order under any projection of the rows:
   Model.ins (by series, time) and the tag-set heap's tins (by time, series) are instances *)
Fixpoint ins_by (proj : row -> key) (r : row) (l : list row) : list row :=
  match l with
  | [] => [r]
  | x :: l' => match kcmp (proj r) (proj x) with Lt => r :: l | _ => x :: ins_by proj r l' end
  end.
Definition le_by (proj : row -> key) (a b : row) : Prop := kcmp (proj a) (proj b) <> Gt.

Lemma ins_by_in : forall proj r l y, In y (ins_by proj r l) -> y = r \/ In y l.
Proof.
  induction l as [| x l IH]; intros y H; cbn in H.
  - destruct H as [H | []]; auto.
  - destruct (kcmp (proj r) (proj x)).
    + destruct H as [H | H]; [right; left; auto |]. destruct (IH _ H) as [? | ?]; [left | right; right]; auto.
    + destruct H as [H | H]; auto.
    + destruct H as [H | H]; [right; left; auto |]. destruct (IH _ H) as [? | ?]; [left | right; right]; auto.
Qed.

Lemma ins_by_sorted : forall proj r l, StronglySorted (le_by proj) l -> StronglySorted (le_by proj) (ins_by proj r l).
Proof.
  induction l as [| x l IH]; intros S; cbn.
  - constructor; constructor.
  - inversion S as [| ? ? S' F]; subst. unfold le_by in *. destruct (kcmp (proj r) (proj x)) eqn:E.
    + constructor; auto. apply Forall_forall. intros y I. apply ins_by_in in I. destruct I as [-> | I].
      * rewrite (kc_eq_sym _ _ E). congruence.
      * rewrite Forall_forall in F. auto.
    + constructor; auto. constructor; [congruence |].
      rewrite Forall_forall in F. apply Forall_forall. intros y I. rewrite (kc_lt_le _ _ _ E (F y I)). congruence.
    + constructor; auto. apply Forall_forall. intros y I. apply ins_by_in in I. destruct I as [-> | I].
      * rewrite (kc_gt_lt _ _ E). congruence.
      * rewrite Forall_forall in F. auto.
Qed.

Lemma ins_ins_by : forall r l, ins r l = ins_by fst r l.
Proof. induction l as [| x l IH]; cbn; [reflexivity |]. rewrite IH. reflexivity. Qed.

Definition wsorted : list row -> Prop := StronglySorted (le_by fst).

Lemma dedup1_head : forall l cur, exists fs t, dedup1 cur l = (fst cur, fs) :: t.
Proof.
  induction l as [| y l IH]; intros cur; cbn.
  - destruct cur as [k fs]. exists fs, []. reflexivity.
  - destruct (kcmp (fst cur) (fst y)).
    + destruct (IH (fst cur, fover (snd y) (snd cur))) as (fs & t & E). exists fs, t. exact E.
    + destruct cur as [k fs]. eexists; eexists; reflexivity.
    + destruct cur as [k fs]. eexists; eexists; reflexivity.
Qed.

Lemma over1_nil : forall r, over [r] [] = [r].
Proof. intros [k v]. reflexivity. Qed.
Lemma over1_cons : forall (r : row) k fs t,
  over [r] ((k, fs) :: t) =
  match kcmp (fst r) k with
  | Lt => r :: (k, fs) :: t
  | Eq => (fst r, fover (snd r) fs) :: t
  | Gt => (k, fs) :: over [r] t
  end.
Proof.
  intros [kr vr] k fs t. unfold over. cbn [fst snd].
  pose proof (merge_cons kcmp fover kr vr [] k fs t) as M.
  pose proof (merge_nil_l kcmp fover t) as N. pose proof (merge_nil_l kcmp fover ((k, fs) :: t)) as N2.
  unfold row, table, key, fields in *. rewrite M.
  destruct (Model.kcmp kr k); auto; f_equal; auto.
Qed.

Lemma dedup1_ins : forall l cur r, wsorted (cur :: l) -> kcmp (fst r) (fst cur) <> Lt ->
  dedup1 cur (ins r l) = over [r] (dedup1 cur l).
Proof.
  induction l as [| y l IH]; intros [kc vc] r W H; cbn [fst snd] in *.
  - cbn [ins dedup1]. rewrite over1_cons. cbn [fst snd].
    rewrite (kc_opp (fst r) kc). destruct (kcmp (fst r) kc) eqn:E; cbn [CompOpp]; try congruence.
    + apply kc_eq in E. subst kc. reflexivity.
    + rewrite over1_nil. reflexivity.
  - inversion W as [| ? ? W' W1]; subst.
    assert (Ecy : kcmp kc (fst y) <> Gt) by exact (Forall_inv W1).
    destruct (dedup1_head l y) as (fs & t & Ed).
    (* r is put behind y: y is merged into cur, or cur is emitted and r is behind it as well *)
    assert (Later : kcmp (fst r) (fst y) <> Lt -> dedup1 (kc, vc) (y :: ins r l) = over [r] (dedup1 (kc, vc) (y :: l))).
    { intro Hry. cbn [dedup1 fst snd]. destruct (kcmp kc (fst y)) eqn:Ecy'; try congruence.
      - apply IH; [|exact H]. constructor; [exact (proj1 (StronglySorted_inv W')) | exact (Forall_inv_tail W1)].
      - rewrite over1_cons. cbn [fst snd].
        rewrite (kc_lt_gt _ _ (kc_lt_le _ _ _ Ecy' (kc_nlt_le _ _ Hry))). f_equal. apply IH; [exact W' | exact Hry]. }
    cbn [ins]. destruct (kcmp (fst r) (fst y)) eqn:Ery; [apply Later; congruence | | apply Later; congruence].
    (* r is put before y: it has the key of cur, or cur is emitted and r follows it *)
    cbn [dedup1 fst snd]. rewrite (kc_opp (fst r) kc). destruct (kcmp (fst r) kc) eqn:Erc; cbn [CompOpp]; try congruence.
    + apply kc_eq in Erc. subst kc. rewrite Ery, over1_cons. cbn [fst snd]. rewrite kc_refl. reflexivity.
    + rewrite (kc_trans _ _ _ (kc_gt_lt _ _ Erc) Ery), Ery, over1_cons. cbn [fst snd]. rewrite Erc.
      f_equal. rewrite Ed, over1_cons. cbn [fst snd]. rewrite Ery. reflexivity.
Qed.

Lemma dedup_ins : forall l r, wsorted l -> dedup (ins r l) = over [r] (dedup l).
Proof.
  intros [| x l] r W.
  - cbn [ins dedup dedup1]. rewrite over1_nil. reflexivity.
  - cbn [ins dedup]. destruct (kcmp (fst r) (fst x)) eqn:E.
    + apply dedup1_ins; auto. rewrite E; congruence.
    + cbn [dedup dedup1]. rewrite E. destruct (dedup1_head l x) as (fs & t & Ed). rewrite Ed.
      rewrite over1_cons. rewrite E. reflexivity.
    + apply dedup1_ins; auto. rewrite E; congruence.
Qed.

Lemma isort_snoc : forall raw r, isort (raw ++ [r]) = ins r (isort raw).
Proof. intros. unfold isort. rewrite fold_left_app. reflexivity. Qed.
Lemma wsorted_isort : forall raw, wsorted (isort raw).
Proof.
  induction raw as [| r raw IH] using rev_ind.
  - constructor.
  - rewrite isort_snoc, ins_ins_by. apply ins_by_sorted, IH.
Qed.
Lemma lww_table_snoc : forall raw r, lww_table (raw ++ [r]) = over [r] (lww_table raw).
Proof. intros. unfold lww_table. rewrite fold_left_app. reflexivity. Qed.

(* the function the evaluator runs (and ColumnSortHelper.Sort implements) is the last-write-wins table *)
Lemma sort_dedup_lww : forall raw, sort_dedup raw = lww_table raw.
Proof.
  induction raw as [| r raw IH] using rev_ind.
  - reflexivity.
  - unfold sort_dedup in *. rewrite isort_snoc, dedup_ins by apply wsorted_isort.
    rewrite IH, lww_table_snoc. reflexivity.
Qed.


Definition pstep (acc : table) (f : file) : table := over (f_tab f) acc.
Definition prod (l : list file) : table := fold_left pstep l [].
Lemma ooo_prod_prod : forall l, ooo_prod l = prod l. Proof. reflexivity. Qed.
Lemma ord_prod_prod : forall l, ord_prod l = prod l. Proof. reflexivity. Qed.

Definition wf_files (l : list file) : Prop := Forall (fun f => wf_table (f_tab f)) l.

Lemma prod_acc : forall l acc, wf_files l -> wf_table acc ->
  wf_table (fold_left pstep l acc) /\ fold_left pstep l acc = over (fold_left pstep l []) acc.
Proof.
  induction l as [| x l IH]; intros acc Wl Wa; cbn [fold_left].
  - split; auto. rewrite over_nil_l. reflexivity.
  - inversion Wl as [| ? ? Wx Wl']; subst.
    assert (W1 : wf_table (pstep acc x)) by (apply wf_over; auto).
    assert (W2 : wf_table (pstep [] x)) by (apply wf_over; auto with wf).
    destruct (IH _ Wl' W1) as [A1 A2]. destruct (IH _ Wl' W2) as [B1 B2].
    destruct (IH _ Wl' wf_nil) as [C1 _].
    split; auto. rewrite A2, B2. unfold pstep. rewrite over_nil_r.
    rewrite over_assoc; auto.
Qed.

Lemma wf_prod : forall l, wf_files l -> wf_table (prod l).
Proof. intros l W. apply (prod_acc l [] W wf_nil). Qed.

#[global] Hint Resolve wf_prod : wf.

Lemma prod_app : forall a b, wf_files a -> wf_files b -> prod (a ++ b) = over (prod b) (prod a).
Proof.
  intros a b Wa Wb. unfold prod. rewrite fold_left_app.
  apply (prod_acc b (fold_left pstep a []) Wb (wf_prod a Wa)).
Qed.

Lemma prod_single : forall f, prod [f] = f_tab f.
Proof. intro f. unfold prod, pstep. cbn. apply over_nil_r. Qed.
Lemma prod_cons : forall x l, wf_files (x :: l) -> prod (x :: l) = over (prod l) (f_tab x).
Proof.
  intros x l W. inversion W; subst. change (x :: l) with ([x] ++ l). rewrite prod_app; auto.
  - rewrite prod_single. reflexivity.
  - constructor; auto.
Qed.

Lemma wf_files_app : forall a b, wf_files (a ++ b) <-> wf_files a /\ wf_files b.
Proof. intros. unfold wf_files. apply Forall_app. Qed.

Lemma insert_file_fresh : forall f l, fresh_seq (f_seq f) l = true -> insert_file f l = l ++ [f].
Proof.
  induction l as [| x l IH]; intros H; cbn in *; auto.
  apply andb_true_iff in H. destruct H as [H1 H2].
  assert (X : (f_seq f <? f_seq x) = false) by lia. rewrite X. f_equal. auto.
Qed.

Lemma add_file_fresh : forall s t l, fresh_seq s l = true -> wf_table t -> wf_files l ->
  wf_files (add_file s t l) /\ prod (add_file s t l) = over t (prod l).
Proof.
  intros s t l F Wt Wl. unfold add_file. destruct t as [| r t'].
  - split; auto. rewrite over_nil_l. reflexivity.
  - rewrite insert_file_fresh by exact F.
    assert (W1 : wf_files [{| f_seq := s; f_tab := r :: t' |}]) by (constructor; [exact Wt | constructor]).
    split.
    + apply wf_files_app; auto.
    + rewrite prod_app; auto. rewrite prod_single. reflexivity.
Qed.

Definition allb (p : file -> bool) (l : list file) : Prop := forallb p l = true.
(* an adjacent run: the members of the group sit together in the list, and replace_run puts the new file in their place;
   the three states of the scan are behind the run, inside it, before it *)
Lemma adj_after : forall g l, adjacent_from g l true true = true ->
  filter (in_grp g) l = [] /\ forall nf p, replace_run g nf l p = l.
Proof.
  induction l as [| x l IH]; intros H; cbn in *; [auto |].
  destruct (in_grp g x); [discriminate |]. destruct (IH H) as [E R]. split; [exact E | intros; f_equal; apply R].
Qed.
Lemma adj_inside : forall g l, adjacent_from g l true false = true ->
  exists post, l = filter (in_grp g) l ++ post /\ forall nf, replace_run g nf l true = post.
Proof.
  induction l as [| x l IH]; intros H; cbn in *.
  - exists []. auto.
  - destruct (in_grp g x).
    + destruct (IH H) as (post & E & R). exists post. split; [cbn; f_equal; exact E | exact R].
    + destruct (adj_after g l H) as [E R]. exists (x :: l). rewrite E. split; [reflexivity | intros; f_equal; apply R].
Qed.
Lemma adj_split : forall g l, adjacent g l = true ->
  exists pre post, l = pre ++ filter (in_grp g) l ++ post /\
    forall nf, filter (in_grp g) l <> [] -> replace_run g nf l false = pre ++ [nf] ++ post.
Proof.
  unfold adjacent. induction l as [| x l IH]; intros H; cbn in *.
  - exists [], []. split; [reflexivity | congruence].
  - destruct (in_grp g x).
    + destruct (adj_inside g l H) as (post & E & R). exists [], post.
      split; [cbn; f_equal; exact E | intros; cbn; f_equal; apply R].
    + destruct (IH H) as (pre & post & E & R). exists (x :: pre), post.
      split; [cbn; f_equal; exact E | intros nf NE; cbn; f_equal; apply R, NE].
Qed.

Lemma prefix_after : forall g l, is_prefix_from g l true = true ->
  filter (in_grp g) l = [] /\ filter (fun f => negb (in_grp g f)) l = l.
Proof.
  induction l as [| x l IH]; intros H; cbn in *; [auto |].
  destruct (in_grp g x); [discriminate |]. destruct (IH H) as [E N]. cbn. rewrite N. auto.
Qed.
Lemma prefix_split : forall g l, is_prefix g l = true ->
  exists run post, l = run ++ post /\ filter (in_grp g) l = run /\ filter (fun f => negb (in_grp g f)) l = post.
Proof.
  unfold is_prefix. induction l as [| x l IH]; intros H; cbn in *.
  - exists [], []. auto.
  - destruct (in_grp g x); cbn.
    + destruct (IH H) as (run & post & E & M & N). exists (x :: run), post. rewrite E at 1. rewrite M, N. auto.
    + destruct (prefix_after g l H) as [M N]. exists [], (x :: l). rewrite M, N. auto.
Qed.

Lemma replace_adjacent_prod : forall g l seq, adjacent g l = true -> wf_files l ->
  let members := filter (in_grp g) l in
  members <> [] ->
  let l' := replace_run g {| f_seq := seq; f_tab := prod members |} l false in
  wf_files l' /\ prod l' = prod l.
Proof.
  intros g l seq Adj W members NE l'.
  destruct (adj_split g l Adj) as (pre & post & E & R). subst l'. rewrite (R _ NE). clear R. fold members in E. clearbody members. subst l.
  apply wf_files_app in W. destruct W as [Wpre W]. apply wf_files_app in W. destruct W as [Wrun Wpost].
  assert (Wn : wf_files [{| f_seq := seq; f_tab := prod members |}]) by (constructor; [apply wf_prod, Wrun | constructor]).
  split.
  - apply wf_files_app; split; auto. apply wf_files_app; split; auto.
  - rewrite !prod_app; auto; try (apply wf_files_app; split; auto).
    rewrite prod_single. reflexivity.
Qed.


(* the greatest / least time of a series in a table: one fold, the choice between two times a parameter *)
Definition tstep (pick : Z -> Z -> Z) (s : Z) (acc : option Z) (r : row) : option Z :=
  if fst (fst r) =? s then match acc with Some m => Some (pick m (snd (fst r))) | None => Some (snd (fst r)) end else acc.

Lemma in_sel_iff : forall s t (r : row), In r (sel s t) <-> In r t /\ fst (fst r) = s.
Proof. intros s t r. unfold sel. rewrite filter_In, Z.eqb_eq. reflexivity. Qed.

Lemma in_sel : forall s t k fs, In (k, fs) (sel s t) -> In (k, fs) t /\ fst k = s.
Proof. intros s t k fs I. apply in_sel_iff in I. exact I. Qed.

Section Extreme.
  Variables (pick : Z -> Z -> Z) (le : Z -> Z -> Prop).
  Hypothesis le_refl : forall a, le a a.
  Hypothesis le_trans : forall a b c, le a b -> le b c -> le a c.
  Hypothesis pick_ub : forall a b, le a (pick a b) /\ le b (pick a b).
  Hypothesis pick_in : forall a b, pick a b = a \/ pick a b = b.

  Lemma extreme_spec : forall s t,
    match fold_left (tstep pick s) t None with
    | Some m => (exists fs, In ((s, m), fs) t) /\ forall tm fs, In ((s, tm), fs) t -> le tm m
    | None => sel s t = []
    end.
  Proof.
    intros s t. induction t as [| [[s' t'] fs'] t IH] using rev_ind; [reflexivity |].
    rewrite fold_left_app. cbn [fold_left]. unfold tstep at 1. cbn [fst snd]. destruct (s' =? s) eqn:Q.
    - assert (s' = s) by lia. subst s'. destruct (fold_left (tstep pick s) t None) as [m |].
      + destruct IH as [[fs I] B]. destruct (pick_ub m t') as [U1 U2]. split.
        * destruct (pick_in m t') as [-> | ->]; [exists fs | exists fs']; apply in_or_app; [left | right; left]; auto.
        * intros tm fs0 J. apply in_app_or in J. destruct J as [J | [J | []]].
          -- eapply le_trans; [apply (B tm fs0 J) | exact U1].
          -- inversion J; subst. exact U2.
      + split; [exists fs'; apply in_or_app; right; left; reflexivity |].
        intros tm fs0 J. apply in_app_or in J. destruct J as [J | [J | []]].
        * assert (X : In ((s, tm), fs0) (sel s t)) by (apply in_sel_iff; auto). rewrite IH in X. destruct X.
        * inversion J; subst. apply le_refl.
    - destruct (fold_left (tstep pick s) t None) as [m |].
      + destruct IH as [[fs I] B]. split; [exists fs; apply in_or_app; left; exact I |].
        intros tm fs0 J. apply in_app_or in J. destruct J as [J | [J | []]]; [apply (B tm fs0 J) |].
        inversion J; subst. lia.
      + unfold sel in *. rewrite filter_app, IH. cbn [filter fst]. rewrite Q. reflexivity.
  Qed.
End Extreme.

Lemma max_time_spec : forall s t,
  match max_time_in s t with
  | Some m => (exists fs, In ((s, m), fs) t) /\ forall tm fs, In ((s, tm), fs) t -> tm <= m
  | None => sel s t = []
  end.
Proof. intros s t. apply (extreme_spec Z.max Z.le); intros; lia. Qed.
Lemma min_time_spec : forall s t,
  match min_time_in s t with
  | Some m => (exists fs, In ((s, m), fs) t) /\ forall tm fs, In ((s, tm), fs) t -> m <= tm
  | None => sel s t = []
  end.
Proof. intros s t. apply (extreme_spec Z.min (fun a b => b <= a)); intros; lia. Qed.

Definition before_ok (x f : file) : bool :=
  forallb (fun s => match max_time_in s (f_tab x), min_time_in s (f_tab f) with
                    | Some a, Some b => a <? b | _, _ => true end) (series_of (f_tab x)).
Lemma ord_ok_cons : forall x r, ord_ok_from (x :: r) = forallb (before_ok x) r && ord_ok_from r.
Proof. reflexivity. Qed.

Lemma before_ok_spec : forall x y, before_ok x y = true <->
  forall s ta fa tb fb, In ((s, ta), fa) (f_tab x) -> In ((s, tb), fb) (f_tab y) -> ta < tb.
Proof.
  intros x y. unfold before_ok. rewrite forallb_forall. split.
  - intros H s ta fa tb fb Ia Ib.
    assert (Is : In s (series_of (f_tab x))) by (apply in_map_iff; exists ((s, ta), fa); auto). specialize (H s Is).
    pose proof (max_time_spec s (f_tab x)) as Mx. pose proof (min_time_spec s (f_tab y)) as Mn.
    destruct (max_time_in s (f_tab x)) as [a |].
    + destruct (min_time_in s (f_tab y)) as [b |].
      * apply (proj2 Mx) in Ia. apply (proj2 Mn) in Ib. lia.
      * assert (J : In ((s, tb), fb) (sel s (f_tab y))) by (apply in_sel_iff; auto). rewrite Mn in J. destruct J.
    + assert (J : In ((s, ta), fa) (sel s (f_tab x))) by (apply in_sel_iff; auto). rewrite Mx in J. destruct J.
  - intros H s _. pose proof (max_time_spec s (f_tab x)) as Mx. pose proof (min_time_spec s (f_tab y)) as Mn.
    destruct (max_time_in s (f_tab x)) as [a |]; [| reflexivity]. destruct (min_time_in s (f_tab y)) as [b |]; [| reflexivity].
    destruct Mx as [[fa Ia] _]. destruct Mn as [[fb Ib] _]. specialize (H s a fa b fb Ia Ib). lia.
Qed.

Lemma ord_ok_app : forall a b, ord_ok_from (a ++ b) = true <->
  ord_ok_from a = true /\ ord_ok_from b = true /\ forall x y, In x a -> In y b -> before_ok x y = true.
Proof.
  induction a as [| z a IH]; intros b; cbn [app].
  - split; [intro H; repeat split; auto; intros x y [] | tauto].
  - rewrite !ord_ok_cons. split.
    + intro H. apply andb_true_iff in H. destruct H as [H1 H2]. apply IH in H2. destruct H2 as (A & B & C).
      rewrite forallb_app in H1. apply andb_true_iff in H1. destruct H1 as [H1 H3]. repeat split; auto.
      * rewrite H1, A. reflexivity.
      * intros x y [<- | I] J; [rewrite forallb_forall in H3; auto | auto].
    + intros (A & B & C). apply andb_true_iff in A. destruct A as [A1 A2]. apply andb_true_iff. split.
      * rewrite forallb_app, A1. cbn. apply forallb_forall. intros y J. apply C; auto. left; auto.
      * apply IH. repeat split; auto. intros x y I J. apply C; auto. right; auto.
Qed.

Lemma flush_time_ge : forall s files f a, In f files -> max_time_in s (f_tab f) = Some a ->
  exists m, flush_time files s = Some m /\ a <= m.
Proof.
  induction files as [| x files IH] using rev_ind; intros f a I E; [destruct I |].
  unfold flush_time. rewrite fold_left_app. cbn [fold_left]. fold (flush_time files s).
  apply in_app_or in I. destruct I as [I | [-> | []]].
  - destruct (IH f a I E) as (m & -> & L). destruct (max_time_in s (f_tab x)); cbn [omax]; eexists; split; try reflexivity; lia.
  - rewrite E. destruct (flush_time files s); cbn [omax]; eexists; split; try reflexivity; lia.
Qed.

Definition is_late_k (allf : list file) (k : key) : bool :=
  match flush_time allf (fst k) with Some ft => snd k <=? ft | None => false end.
Lemma is_late_is_late_k : forall allf r, is_late allf r = is_late_k allf (fst r). Proof. reflexivity. Qed.

Lemma row_is_late : forall files f s t fs, In f files -> In ((s, t), fs) (f_tab f) -> is_late_k files (s, t) = true.
Proof.
  intros files f s t fs I J. pose proof (max_time_spec s (f_tab f)) as X. destruct (max_time_in s (f_tab f)) as [a |] eqn:Ea.
  - destruct (flush_time_ge s files f a I Ea) as (m & Em & Lm). apply (proj2 X) in J.
    unfold is_late_k. cbn [fst snd]. rewrite Em. lia.
  - assert (J' : In ((s, t), fs) (sel s (f_tab f))) by (apply in_sel_iff; auto). rewrite X in J'. destruct J'.
Qed.

Lemma not_late_absent : forall files k f, is_late_k files k = false -> In f files -> get kcmp (f_tab f) k = None.
Proof.
  intros files [s t] f L I. destruct (get kcmp (f_tab f) (s, t)) as [fs |] eqn:G; auto.
  apply (get_in kcmp kc_eq) in G. rewrite (row_is_late files f s t fs I G) in L. discriminate.
Qed.

Lemma get_prod_none : forall l k, wf_files l -> (forall f, In f l -> get kcmp (f_tab f) k = None) ->
  get kcmp (prod l) k = None.
Proof.
  induction l as [| x l IH]; intros k W H.
  - reflexivity.
  - rewrite prod_cons by exact W. inversion W as [| ? ? Wx Wl]; subst.
    unfold over. rewrite (get_merge kcmp kc_eq kc_trans kc_opp fover _ _ k (proj1 (wf_prod l Wl)) (proj1 Wx)).
    rewrite IH, (H x (or_introl eq_refl)); auto. intros f I. apply H. right; auto.
Qed.


Definition has_key (k : key) (f : file) : bool := key_in k (f_tab f).
Definition subs (T : table) (l : list file) : Prop := Forall (fun f => exists q, f_tab f = kfilter q T) l.

Lemma key_in_kfilter : forall q T k, wf_table T -> key_in k (kfilter q T) = q k && key_in k T.
Proof.
  intros q T k [S _]. unfold key_in, kfilter.
  pose proof (get_filter kcmp kc_eq q T k S) as G. unfold row, table in *. rewrite G.
  destruct (q k); auto.
Qed.
Lemma key_in_false_get2 : forall T k f, key_in k T = false -> get2 T k f = None.
Proof. intros T k f H. unfold key_in in H. unfold get2. destruct (get kcmp T k); [discriminate | auto]. Qed.

Lemma subs_wf : forall T l, wf_table T -> subs T l -> wf_files l.
Proof.
  intros T l W S. induction S as [| x l (q & E) S IH]; constructor; auto. rewrite E. apply wf_kfilter; auto.
Qed.

Lemma get2_prod_subs : forall T l, wf_table T -> subs T l -> forall k f,
  get2 (prod l) k f = if existsb (has_key k) l then get2 T k f else None.
Proof.
  intros T l W S. induction S as [| x l (q & E) S IH]; intros k f.
  - reflexivity.
  - assert (Wl : wf_files (x :: l)) by (apply (subs_wf T); auto; constructor; eauto).
    rewrite prod_cons by exact Wl. inversion Wl; subst.
    rewrite get2_over; auto with wf. rewrite IH. cbn [existsb]. unfold has_key at 2.
    rewrite E. rewrite key_in_kfilter, get2_kfilter by exact W.
    destruct (existsb (has_key k) l); cbn [orelse].
    + rewrite orb_true_r. destruct (get2 T k f) eqn:G; cbn; auto. destruct (q k); auto.
    + rewrite orb_false_r. destruct (q k); cbn; auto.
      destruct (key_in k T) eqn:KI; auto. apply key_in_false_get2; auto.
Qed.

Lemma existsb_insert_file : forall p f l, existsb p (insert_file f l) = p f || existsb p l.
Proof.
  induction l as [| x l IH]; cbn; auto. destruct (f_seq f <? f_seq x); cbn; auto.
  rewrite IH. destruct (p f), (p x); auto.
Qed.
Lemma existsb_add_file : forall k s t l, existsb (has_key k) (add_file s t l) = key_in k t || existsb (has_key k) l.
Proof.
  intros. unfold add_file. destruct t as [| r t']; [reflexivity |]. rewrite existsb_insert_file. reflexivity.
Qed.
Lemma subs_insert_file : forall T f l, (exists q, f_tab f = kfilter q T) -> subs T l -> subs T (insert_file f l).
Proof.
  intros T f l Hf S. induction S as [| x l Hx S IH]; cbn.
  - constructor; [auto | constructor].
  - destruct (f_seq f <? f_seq x).
    + constructor; [auto | constructor; auto].
    + constructor; auto.
Qed.
Lemma subs_add_file : forall T s q l, subs T l -> subs T (add_file s (kfilter q T) l).
Proof.
  intros. unfold add_file. destruct (kfilter q T) eqn:E; auto. apply subs_insert_file; auto.
  exists q. cbn. auto.
Qed.

Section Placement.
  Variable T : table.
  Variable tg : key -> Z.
  Hypothesis WT : wf_table T.
  Definition placef (l : list file) (sb : Z * list (Z * Z)) : list file :=
    add_file (fst sb) (kfilter (fun k => tg k =? fst sb) T) l.

  Lemma placed_fold : forall bounds l, subs T l ->
    subs T (fold_left placef bounds l) /\
    forall k, existsb (has_key k) (fold_left placef bounds l)
              = existsb (has_key k) l || existsb (fun sb : Z * list (Z * Z) => (tg k =? fst sb) && key_in k T) bounds.
  Proof.
    induction bounds as [| sb bounds IH]; intros l S; cbn [fold_left].
    - split; auto. intro k. cbn. rewrite orb_false_r. reflexivity.
    - assert (S1 : subs T (placef l sb)) by (apply subs_add_file; auto).
      destruct (IH _ S1) as [A B]. split; auto. intro k. rewrite B. unfold placef at 1.
      rewrite existsb_add_file, key_in_kfilter by exact WT. cbn [existsb].
      destruct (tg k =? fst sb), (key_in k T), (existsb (has_key k) l); cbn; auto.
  Qed.

  Lemma place_prod : forall bounds, (forall k, In (tg k) (map fst bounds)) ->
    wf_files (fold_left placef bounds []) /\ prod (fold_left placef bounds []) = T.
  Proof.
    intros bounds Hin. destruct (placed_fold bounds [] (Forall_nil _)) as [S E].
    pose proof (subs_wf T _ WT S) as W. split; auto.
    apply table_ext; auto with wf. intros k f. rewrite (get2_prod_subs T _ WT S). rewrite E. cbn [existsb orb].
    destruct (key_in k T) eqn:KI.
    - assert (X : existsb (fun sb : Z * list (Z * Z) => (tg k =? fst sb) && true) bounds = true).
      { apply existsb_exists. specialize (Hin k). apply in_map_iff in Hin. destruct Hin as (sb & E1 & I).
        exists sb. split; auto. rewrite E1, Z.eqb_refl. reflexivity. }
      rewrite X. reflexivity.
    - rewrite (key_in_false_get2 T k f KI).
      destruct (existsb _ bounds); reflexivity.
  Qed.
End Placement.

Lemma target_in : forall s t bounds fb, In (target s t bounds fb) (fb :: map fst bounds).
Proof.
  induction bounds as [| [seq b] r IH]; intros fb; cbn [target map fst].
  - left; auto.
  - destruct (bound_of s b) as [m |].
    + destruct (t <=? m); [right; left; auto |]. right. apply IH.
    + destruct (IH fb) as [E | I]; [left; auto | right; right; auto].
Qed.
Lemma last_in : forall (bounds : list (Z * list (Z * Z))) d, bounds <> [] -> In (last bounds d) bounds.
Proof.
  induction bounds as [| x l IH]; intros d H; [congruence |]. destruct l as [| y l'].
  - left; auto.
  - right. apply IH. congruence.
Qed.
Lemma target_in_bounds : forall s t bounds, bounds <> [] -> In (target s t bounds (last_seq bounds)) (map fst bounds).
Proof.
  intros s t bounds H. destruct (target_in s t bounds (last_seq bounds)) as [E | I]; auto.
  rewrite <- E. unfold last_seq. apply in_map. apply last_in; auto.
Qed.


Lemma fields_asc_lb : forall r k v, fields_asc ((k, v) :: r) = true -> lb Z.compare k r.
Proof.
  induction r as [| [k2 v2] r IH]; intros k v H.
  - intros k' v' [].
  - cbn [fields_asc fst] in H. apply andb_true_iff in H. destruct H as [H1 H2].
    intros k' v' [E | I].
    + inversion E; subst. apply Z.compare_lt_iff. lia.
    + specialize (IH k2 v2 H2 k' v' I). rewrite Z.compare_lt_iff in IH. apply Z.compare_lt_iff. lia.
Qed.
Lemma fields_asc_sorted : forall fs, fields_asc fs = true -> fsorted fs.
Proof.
  induction fs as [| [k v] r IH]; intros H; cbn; auto. split.
  - eapply fields_asc_lb; eauto.
  - apply IH. destruct r as [| [k2 v2] r']; auto. cbn [fields_asc] in H. apply andb_true_iff in H. tauto.
Qed.
Lemma row_ok_wf : forall r, row_ok r = true -> wf_row r.
Proof.
  intros [k fs] H. unfold row_ok, nonempty in H. cbn [snd] in H. apply andb_true_iff in H. destruct H as [H1 H2].
  split; cbn [snd].
  - apply fields_asc_sorted; auto.
  - destruct fs; congruence.
Qed.
Lemma rows_ok_wf : forall b, forallb row_ok b = true -> wf_raw b.
Proof.
  induction b as [| r b IH]; intros H; [constructor |].
  cbn [forallb] in H. apply andb_true_iff in H. destruct H as [H1 H2]. constructor; [apply row_ok_wf; auto | apply IH; auto].
Qed.

Lemma wf_lww : forall raw, wf_raw raw -> wf_table (lww_table raw).
Proof. intros raw H. apply (lww_table_spec raw H). Qed.

#[global] Hint Resolve wf_lww : wf.

Lemma lww_table_app : forall a b, wf_raw a -> wf_raw b -> lww_table (a ++ b) = over (lww_table b) (lww_table a).
Proof.
  intros a b Wa Wb. assert (Wab : wf_raw (a ++ b)) by (apply Forall_app; auto).
  apply table_ext; auto with wf.
  intros k f. rewrite get2_over by auto with wf. apply write_visible; auto.
Qed.

(* what a layout holds, as one table: the containers in the order of precedence in which a read consults them *)
Definition absL (L : layout) : table :=
  over (lww_table (mem L)) (over (lww_table (snap L)) (over (prod (ooo L)) (prod (ord L)))).

(* raw = the rows written so far: every container is well formed and the layout holds the last-write-wins table of raw *)
Record Core (L : layout) (raw : list row) : Prop := {
  c_mem : wf_raw (mem L);
  c_snap : wf_raw (snap L);
  c_ooo : wf_files (ooo L);
  c_ord : wf_files (ord L);
  c_raw : wf_raw raw;
  c_abs : absL L = lww_table raw
}.
(* the memtable is what the log holds: only Reopen, which rebuilds the memtable from the log, needs it *)
Definition Inv (L : layout) (raw : list row) : Prop := Core L raw /\ mem L = concat (map snd (wal L)).

Lemma core_init : Core init []. Proof. split; cbn; auto; constructor. Qed.
Lemma inv_init : Inv init []. Proof. split; [apply core_init | reflexivity]. Qed.

Lemma write_core : forall L raw b, Core L raw -> wf_raw b -> Core (write b L) (raw ++ b).
Proof.
  intros L raw b [Wm Ws Wu Wo Wr A] Wb. split; cbn [write mem snap ooo ord]; auto.
  - apply Forall_app; auto.
  - apply Forall_app; auto.
  - unfold absL in *. cbn [write mem snap ooo ord]. rewrite !lww_table_app by auto. rewrite <- A.
    rewrite over_assoc; auto 8 with wf.
Qed.

Lemma begin_flush_core : forall L raw, Core L raw -> snap L = [] -> Core (begin_flush L) raw.
Proof.
  intros L raw [Wm Ws Wu Wo Wr A] E. split; cbn [begin_flush mem snap ooo ord]; auto.
  - constructor.
  - unfold absL in *. cbn [begin_flush mem snap ooo ord]. rewrite E in A. rewrite <- A.
    change (lww_table []) with (@nil row). rewrite !over_nil_l. reflexivity.
Qed.

Lemma end_flush_core : forall L raw a so su, Core L raw ->
  fresh_seq so (ord L) = true -> fresh_seq su (ooo L) = true -> Core (end_flush a so su L) raw.
Proof.
  intros L raw a so su [Wm Ws Wu Wo Wr A] Fo Fu.
  set (T := lww_table (snap L)).
  set (latek := fun k : key => a || is_late_k (ord L ++ ooo L) k).
  assert (WT : wf_table T) by (apply wf_lww; auto).
  assert (E1 : ooo (end_flush a so su L) = add_file su (kfilter latek T) (ooo L)).
  { unfold end_flush. cbn [ooo]. rewrite sort_dedup_lww. reflexivity. }
  assert (E2 : ord (end_flush a so su L) = add_file so (kfilter (fun k => negb (latek k)) T) (ord L)).
  { unfold end_flush. cbn [ord]. rewrite sort_dedup_lww. reflexivity. }
  destruct (add_file_fresh su (kfilter latek T) (ooo L) Fu (wf_kfilter _ _ WT) Wu) as [Wu' Pu].
  destruct (add_file_fresh so (kfilter (fun k => negb (latek k)) T) (ord L) Fo (wf_kfilter _ _ WT) Wo) as [Wo' Po].
  split; auto.
  - constructor.
  - rewrite E1; auto.
  - rewrite E2; auto.
  - unfold absL in *. rewrite E1, E2, Pu, Po. cbn [end_flush mem snap]. rewrite <- A.
    change (lww_table []) with (@nil row). rewrite over_nil_l. f_equal.
    apply flush_split_invisible; auto with wf.
    intros k Lk _. unfold latek in Lk. apply orb_false_iff in Lk. destruct Lk as [_ Lk]. split.
    + apply get_prod_none; auto. intros f I. eapply not_late_absent; eauto. apply in_or_app; auto.
    + apply get_prod_none; auto. intros f I. eapply not_late_absent; eauto. apply in_or_app; auto.
Qed.

Lemma flush_core : forall L raw a so su, Core L raw -> snap L = [] ->
  fresh_seq so (ord L) = true -> fresh_seq su (ooo L) = true -> Core (flush a so su L) raw.
Proof.
  intros. unfold flush. apply end_flush_core; auto. apply begin_flush_core; auto.
Qed.

Lemma compact_groups_prod : forall grps l, compact_ok grps l = true -> wf_files l ->
  wf_files (fold_left (fun l g => compact_group g l) grps l) /\
  prod (fold_left (fun l g => compact_group g l) grps l) = prod l.
Proof.
  induction grps as [| g grps IH]; intros l H W; cbn [fold_left]; auto.
  cbn [compact_ok] in H. apply andb_true_iff in H. destruct H as [H1 H2].
  assert (X : wf_files (compact_group g l) /\ prod (compact_group g l) = prod l).
  { unfold compact_group. destruct (filter (in_grp g) l) as [| m0 ms] eqn:E; auto.
    rewrite <- E. rewrite ord_prod_prod. apply replace_adjacent_prod; auto. rewrite E. congruence. }
  destruct X as [X1 X2]. destruct (IH _ H2 X1) as [Y1 Y2]. split; auto. congruence.
Qed.

Lemma compact_core : forall L raw grps, Core L raw -> compact_ok grps (ord L) = true -> Core (compact grps L) raw.
Proof.
  intros L raw grps [Wm Ws Wu Wo Wr A] H. destruct (compact_groups_prod grps (ord L) H Wo) as [X1 X2].
  split; cbn [compact mem snap ooo ord]; auto.
  unfold absL in *. cbn [compact mem snap ooo ord]. rewrite X2. exact A.
Qed.

Lemma merge_self_core : forall L raw g n, Core L raw -> adjacent g (ooo L) = true -> Core (merge_self false g n L) raw.
Proof.
  intros L raw g n [Wm Ws Wu Wo Wr A] H. unfold merge_self, merge_self_m. cbn [Z.eqb].
  destruct (filter (in_grp g) (ooo L)) as [| m0 ms] eqn:E.
  - split; auto.
  - rewrite <- E. rewrite ooo_prod_prod.
    destruct (replace_adjacent_prod g (ooo L) n H Wu) as [X1 X2]; [rewrite E; congruence |].
    split; cbn [mem snap ooo ord]; auto.
    unfold absL in *. cbn [mem snap ooo ord]. rewrite X2. exact A.
Qed.

Lemma merge_ooo_core : forall L raw g b, Core L raw -> is_prefix g (ooo L) = true -> b <> [] -> Core (merge_ooo g b L) raw.
Proof.
  intros L raw g b [Wm Ws Wu Wo Wr A] H NB. unfold merge_ooo.
  destruct (prefix_split g (ooo L) H) as (run & post & E & M & N).
  rewrite M. destruct run as [| x run]; [split; auto |]. rewrite N.
  rewrite E in Wu. apply wf_files_app in Wu. destruct Wu as [Wrun Wpost].
  change (ooo_prod (x :: run)) with (prod (x :: run)). change (ord_prod (ord L)) with (prod (ord L)).
  set (all := over (prod (x :: run)) (prod (ord L))).
  set (tg := fun k : key => target (fst k) (snd k) b (last_seq b)).
  assert (Wall : wf_table all) by (apply wf_over; auto with wf).
  destruct (place_prod all tg Wall b) as [X1 X2].
  { intro k. apply target_in_bounds; auto. }
  split; cbn [mem snap ooo ord]; auto; try exact X1.
  { unfold absL in *. cbn [mem snap ooo ord].
    change (fold_left (fun l sb => add_file (fst sb)
              (filter (fun r : row => target (fst (fst r)) (snd (fst r)) b (last_seq b) =? fst sb) all) l) b [])
      with (fold_left (placef all tg) b []).
    rewrite X2. rewrite <- A. rewrite E. rewrite prod_app by auto. unfold all.
    rewrite <- (over_assoc (prod post)); auto with wf. }
Qed.

Lemma step_inv : forall L raw o, Inv L raw -> op_ok L o = true -> write_ok o = true ->
  Inv (step false L o) (raw ++ match o with Write b => b | _ => [] end).
Proof.
  intros L raw o [C W] OK WO. destruct o as [b | a so su | | a so su | grps | g b | g n | n a so su]; cbn [step];
    try rewrite app_nil_r.
  - split. + apply write_core; auto. apply rows_ok_wf; auto.
    + cbn [write mem wal]. rewrite map_app, concat_app, W. cbn. rewrite app_nil_r. reflexivity.
  - cbn [op_ok] in OK. apply andb_true_iff in OK. destruct OK as [OK S]. apply andb_true_iff in OK. destruct OK as [Fo Fu].
    split. + apply flush_core; auto. destruct (snap L); [auto | discriminate]. + reflexivity.
  - cbn [op_ok] in OK. split.
    + apply begin_flush_core; auto. destruct (snap L); [auto | discriminate]. + reflexivity.
  - cbn [op_ok] in OK. apply andb_true_iff in OK. destruct OK as [Fo Fu].
    split. + apply end_flush_core; auto. + exact W.
  - cbn [op_ok] in OK. split. + apply compact_core; auto. + exact W.
  - cbn [op_ok] in OK. apply andb_true_iff in OK. destruct OK as [OK _]. apply andb_true_iff in OK. destruct OK as [P NB].
    split. + apply merge_ooo_core; auto. destruct b; [discriminate | congruence].
    + unfold merge_ooo. destruct (filter (in_grp g) (ooo L)); exact W.
  - cbn [op_ok] in OK. apply andb_true_iff in OK. destruct OK as [Ad _].
    split. + apply merge_self_core; auto. + exact W.
  - cbn [op_ok] in OK. apply andb_true_iff in OK. destruct OK as [OK S]. apply andb_true_iff in OK. destruct OK as [Fo Fu].
    assert (S0 : snap L = []) by (destruct (snap L); [auto | discriminate]).
    split; [| reflexivity]. unfold reopen. apply flush_core; auto.
    destruct C as [Wm Ws Wu Wo Wr A]. split; cbn [mem snap ooo ord]; auto.
    + unfold replay_repaired. rewrite <- W. auto.
    + constructor.
    + unfold absL in *. cbn [mem snap ooo ord]. unfold replay_repaired. rewrite <- W. rewrite S0 in A. exact A.
Qed.

Lemma run_inv : forall h L raw, Inv L raw -> layout_ok L = true -> allowed_from L h = true ->
  Inv (fold_left (step false) h L) (raw ++ writes_of h) /\ layout_ok (fold_left (step false) h L) = true.
Proof.
  induction h as [| o h IH]; intros L raw I LO A.
  - cbn. rewrite app_nil_r. auto.
  - cbn [allowed_from] in A. repeat (apply andb_true_iff in A; destruct A as [A ?]).
    cbn [fold_left]. unfold writes_of. cbn [map concat]. rewrite app_assoc. apply IH; auto.
    apply step_inv; auto.
Qed.

Lemma kfilter_over : forall p a b, wf_table a -> wf_table b -> kfilter p (over a b) = over (kfilter p a) (kfilter p b).
Proof.
  intros p a b Wa Wb. apply table_ext; auto with wf.
  intros k f. rewrite get2_kfilter, !get2_over, !get2_kfilter; auto with wf.
  destruct (p k); auto.
Qed.

Lemma over_app_lt : forall a b : table,
  (forall ka va kb vb, In (ka, va) a -> In (kb, vb) b -> kcmp ka kb = Lt) -> over b a = a ++ b.
Proof.
  induction a as [| [ka va] a IH]; intros b H.
  - apply over_nil_r.
  - destruct b as [| [kb vb] b'].
    + rewrite over_nil_l, app_nil_r. reflexivity.
    + unfold over. pose proof (merge_cons kcmp fover kb vb b' ka va a) as M. unfold row, table, key, fields in *.
      rewrite M, (kc_lt_gt ka kb (H ka va kb vb (or_introl eq_refl) (or_introl eq_refl))). cbn [app]. f_equal. apply (IH ((kb, vb) :: b')).
      intros k1 v1 k2 v2 I1 I2. apply (H k1 v1 k2 v2); auto. right; auto.
Qed.

Lemma sel_kfilter : forall s t, sel s t = kfilter (fun k => fst k =? s) t. Proof. reflexivity. Qed.
Lemma in_ord_cat : forall s l k v, In (k, v) (ord_cat s l) -> exists y, In y l /\ In (k, v) (f_tab y) /\ fst k = s.
Proof.
  intros s l k v I. unfold ord_cat in I. apply in_concat in I. destruct I as (t & It & I).
  apply in_map_iff in It. destruct It as (y & <- & Iy). apply in_sel in I. exists y. tauto.
Qed.

Lemma ord_cat_sel : forall l s, wf_files l -> ord_ok_from l = true -> sel s (prod l) = ord_cat s l.
Proof.
  induction l as [| x r IH]; intros s W H.
  - reflexivity.
  - rewrite prod_cons by exact W. inversion W as [| ? ? Wx Wr]; subst.
    rewrite ord_ok_cons in H. apply andb_true_iff in H. destruct H as [H1 H2].
    rewrite sel_kfilter, kfilter_over by auto with wf. rewrite <- !sel_kfilter. rewrite IH by auto.
    change (ord_cat s (x :: r)) with (sel s (f_tab x) ++ ord_cat s r).
    apply over_app_lt. intros [sa ta] va [sb tb] vb Ia Ib.
    apply in_sel in Ia. destruct Ia as [Ia Ea]. destruct (in_ord_cat _ _ _ _ Ib) as (y & Iy & Ib' & Eb). cbn [fst] in *. subst sa sb.
    rewrite forallb_forall in H1. apply kcmp_lt. right. split; [reflexivity |].
    apply (proj1 (before_ok_spec x y) (H1 y Iy) s ta va tb vb Ia Ib').
Qed.

Lemma read_series_core : forall L raw s, Core L raw -> ord_ok_from (ord L) = true ->
  read_series L s = sel s (lww_table raw).
Proof.
  intros L raw s [Wm Ws Wu Wo Wr A] H. unfold read_series. rewrite !sort_dedup_lww, ooo_prod_prod.
  rewrite <- (ord_cat_sel (ord L) s Wo H). rewrite <- A. unfold absL.
  rewrite !sel_kfilter. rewrite !kfilter_over; auto 8 with wf.
Qed.

Lemma run_core : forall h, ops_allowed h = true ->
  Core (run false h) (writes_of h) /\ ord_ok_from (ord (run false h)) = true.
Proof.
  intros h A. destruct (run_inv h init [] inv_init eq_refl A) as [[C _] LO]. split; [exact C |].
  unfold layout_ok in LO. apply andb_true_iff in LO. tauto.
Qed.

Lemma read_is_lww : forall h, ops_allowed h = true ->
  forall s, read_series (run false h) s = sel s (lww_table (writes_of h)).
Proof. intros h A s. destruct (run_core h A) as [C O]. apply read_series_core; assumption. Qed.

Lemma writes_wf : forall h L, allowed_from L h = true -> wf_raw (writes_of h).
Proof.
  induction h as [| o h IH]; intros L A.
  - constructor.
  - cbn [allowed_from] in A. repeat (apply andb_true_iff in A; destruct A as [A ?]).
    unfold writes_of. cbn [map concat]. apply Forall_app. split; [| eapply IH; eauto].
    destruct o; try constructor. apply rows_ok_wf; auto.
Qed.

(* rows come back sorted by time with no duplicate timestamps *)
Definition t_lt (x y : row) : Prop := snd (fst x) < snd (fst y).
Definition t_gt (x y : row) : Prop := snd (fst y) < snd (fst x).
Definition time_ordered (asc : bool) (s : Z) (l : list row) : Prop :=
  StronglySorted (if asc then t_lt else t_gt) l /\ Forall (fun r : row => fst (fst r) = s /\ snd r <> []) l.

Lemma ssorted_filter : forall (R : row -> row -> Prop) p l, StronglySorted R l -> StronglySorted R (filter p l).
Proof.
  induction l as [| x l IH]; intros S; cbn; auto. inversion S as [| ? ? S' F]; subst.
  destruct (p x); auto. constructor; auto.
  apply Forall_forall. intros y I. apply filter_In in I. destruct I as [I _].
  rewrite Forall_forall in F. auto.
Qed.
Lemma ssorted_mono : forall {A} (R R' : A -> A -> Prop), (forall x y, R x y -> R' x y) ->
  forall l, StronglySorted R l -> StronglySorted R' l.
Proof.
  intros A R R' H l S. induction S as [| x l _ IH F]; constructor; [exact IH |]. eapply Forall_impl; [| exact F]. apply H.
Qed.
Lemma ssorted_map : forall (R : row -> row -> Prop) (f : row -> row), (forall x y, R x y -> R (f x) (f y)) ->
  forall l, StronglySorted R l -> StronglySorted R (map f l).
Proof.
  intros R f H. induction l as [| x l IH]; intros S; cbn; [constructor |]. inversion S as [| ? ? S' F]; subst.
  constructor; auto. apply Forall_forall. intros y I. apply in_map_iff in I. destruct I as (z & <- & I).
  rewrite Forall_forall in F. auto.
Qed.
Lemma ssorted_app : forall {A} (R : A -> A -> Prop) (a b : list A), StronglySorted R (a ++ b) <->
  StronglySorted R a /\ StronglySorted R b /\ forall x y, In x a -> In y b -> R x y.
Proof.
  induction a as [| z a IH]; intros b; cbn [app].
  - split; [intro H; repeat split; auto; [constructor | intros x y []] | tauto].
  - split.
    + intro H. inversion H as [| ? ? S F]; subst. apply IH in S. destruct S as (Sa & Sb & C).
      apply Forall_app in F. destruct F as [Fa Fb]. repeat split; auto.
      * constructor; auto.
      * intros x y [<- | I] J; [rewrite Forall_forall in Fb; auto | auto].
    + intros (Sa & Sb & C). inversion Sa as [| ? ? S F]; subst. constructor.
      * apply IH. repeat split; auto. intros x y I J. apply C; auto. right; auto.
      * apply Forall_app. split; auto. apply Forall_forall. intros y J. apply C; auto. left; auto.
Qed.
Lemma ssorted_rev : forall l, StronglySorted t_lt l -> StronglySorted t_gt (rev l).
Proof.
  induction l as [| x l IH]; intros S; cbn; [constructor |]. inversion S as [| ? ? S' F]; subst.
  apply ssorted_app. split; [auto | split; [constructor; constructor |]].
  intros y z I [<- | []]. apply in_rev in I. rewrite Forall_forall in F. apply (F y I).
Qed.

Lemma tsorted_ssorted : forall s (l : table), tsorted l -> (forall k fs, In (k, fs) l -> fst k = s) -> StronglySorted t_lt l.
Proof.
  induction l as [| [k v] r IH]; intros S H; [constructor |]. destruct S as [L S]. constructor.
  - apply IH; auto. intros k' fs' I. apply (H k' fs'). right; auto.
  - apply Forall_forall. intros [k' v'] I. specialize (L k' v' I).
    assert (E1 : fst k = s) by (apply (H k v); left; auto).
    assert (E2 : fst k' = s) by (apply (H k' v'); right; auto).
    apply kcmp_lt in L. unfold t_lt. cbn [fst]. lia.
Qed.

Lemma shape_time_ordered : forall T s tmin tmax fs asc, wf_table T ->
  time_ordered asc s (shape tmin tmax fs asc (sel s T)).
Proof.
  intros T s tmin tmax fs asc W.
  assert (WS : wf_table (sel s T)) by (rewrite sel_kfilter; apply wf_kfilter; auto).
  set (rows := filter nonempty (map (project fs)
                (filter (fun r : row => (tmin <=? snd (fst r)) && (snd (fst r) <=? tmax)) (sel s T)))).
  assert (S : StronglySorted t_lt rows).
  { apply ssorted_filter. apply ssorted_map; [intros x y H; exact H |]. apply ssorted_filter.
    apply (tsorted_ssorted s); [apply WS |]. intros k v I. apply in_sel in I. tauto. }
  assert (F : Forall (fun r : row => fst (fst r) = s /\ snd r <> []) rows).
  { apply Forall_forall. intros x I. unfold rows in I. apply filter_In in I. destruct I as [I NE].
    apply in_map_iff in I. destruct I as (z & <- & I). apply filter_In in I. destruct I as [I _].
    destruct z as [k v]. apply in_sel in I. split; [cbn; tauto |].
    unfold nonempty in NE. destruct (snd (project fs (k, v))); congruence. }
  unfold shape. fold rows. destruct asc; split; auto.
  - apply ssorted_rev; auto.
  - apply Forall_forall. intros x I. apply in_rev in I. rewrite Forall_forall in F. auto.
Qed.

Lemma read_sorted : forall h, ops_allowed h = true -> forall s tmin tmax fs asc,
  time_ordered asc s (read_layout (run false h) s tmin tmax fs asc).
Proof.
  intros h A s tmin tmax fs asc. unfold read_layout. rewrite (read_is_lww h A).
  apply shape_time_ordered. apply wf_lww. eapply writes_wf; eauto.
Qed.

Lemma allowed_app : forall h1 h2 L, allowed_from L (h1 ++ h2) = true ->
  allowed_from L h1 = true /\ allowed_from (fold_left (step false) h1 L) h2 = true.
Proof.
  induction h1 as [| o h1 IH]; intros h2 L A; cbn [app allowed_from fold_left] in *; auto.
  apply andb_true_iff in A. destruct A as [A1 A2]. destruct (IH _ _ A2) as [B1 B2]. rewrite A1, B1. auto.
Qed.
Lemma writes_of_app : forall h1 h2, writes_of (h1 ++ h2) = writes_of h1 ++ writes_of h2.
Proof. intros. unfold writes_of. rewrite map_app, concat_app. reflexivity. Qed.

Lemma step2_repaired : forall L o, step2 false 0 L o = step false L o.
Proof. intros L o. destruct o; reflexivity. Qed.
(* the evaluator's verdict "no mismatch" on the repaired variant implies the hypothesis of the theorems: every history
   the correspondence accepts is an allowed history *)
Lemma check_from_allowed : forall h nser i L, check_from false 0 nser i L h = None -> allowed_from L (map fst h) = true.
Proof.
  induction h as [| [o ob] h IH]; intros nser i L H; cbn [map fst allowed_from]; auto.
  cbn [check_from] in H.
  assert (SO : step_obs false 0 nser L o (o_dump ob) = step false L o) by (destruct o; reflexivity).
  rewrite SO in H. clear SO.
  destruct (op_ok L o && write_ok o) eqn:E1; cbn [negb] in H; [| discriminate].
  destruct (layout_ok (step false L o)) eqn:E2; cbn [negb] in H; [| discriminate].
  cbn [andb].
  destruct (negb (list_eqb row_eqb (read_all nser (step false L o)) (o_dump ob))); [discriminate |].
  destruct (negb (list_eqb fobs_eqb (files_obs nser (ord (step false L o))) (o_ord ob))); [discriminate |].
  destruct (negb (list_eqb fobs_eqb (files_obs nser (ooo (step false L o))) (o_ooo ob))); [discriminate |].
  destruct (negb (reads_ok nser (step false L o) (o_reads ob))); [discriminate |].
  eapply IH; eauto.
Qed.
