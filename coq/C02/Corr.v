(* C02 correspondence evaluator: replays a harness history (ops with the plans / sequence numbers the real store
   chose) on the model and compares, after every op, the model's reads and file layout with what the real shard
   returned. *)
From Coq Require Import ZArith List Bool.
From OG Require Import C02.Model.
Import ListNotations.
Open Scope Z_scope.

Definition franges := list (Z * Z * Z).                 (* series, min time, max time *)
Definition fobs := (Z * franges)%type.                  (* sequence, ranges *)
(* a shaped read as observed: time range, selected fields, direction, and the rows of all series (series ascending, the
   rows of each series in the order delivered) *)
Definition robs := (Z * Z * list Z * bool * list row)%type.
Record obs := { o_dump : table; o_ord : list fobs; o_ooo : list fobs; o_reads : list robs }.

Fixpoint list_eqb {A} (eqb : A -> A -> bool) (a b : list A) : bool :=
  match a, b with
  | [], [] => true
  | x :: a', y :: b' => eqb x y && list_eqb eqb a' b'
  | _, _ => false
  end.
Definition pair_eqb (a b : Z * Z) := (fst a =? fst b) && (snd a =? snd b).
Definition row_eqb (a b : row) := pair_eqb (fst a) (fst b) && list_eqb pair_eqb (snd a) (snd b).
Definition rng_eqb (a b : Z * Z * Z) := pair_eqb (fst a) (fst b) && (snd a =? snd b).
Definition fobs_eqb (a b : fobs) := (fst a =? fst b) && list_eqb rng_eqb (snd a) (snd b).

Fixpoint zrange (n : nat) : list Z := match n with O => [] | S k => zrange k ++ [Z.of_nat k] end.

Definition read_all (nser : nat) (L : layout) : table := concat (map (read_series L) (zrange nser)).

Definition ranges_of (nser : nat) (t : table) : franges :=
  concat (map (fun s => match min_time_in s t, max_time_in s t with
                        | Some a, Some b => [(s, a, b)] | _, _ => [] end) (zrange nser)).
Definition files_obs (nser : nat) (l : list file) : list fobs := map (fun f => (f_seq f, ranges_of nser (f_tab f))) l.

(* mode 3 of merge-self = the member order before /repo commit 22016f1 with ANY tie order among chunks of equal minimum time: the evaluator tries
   the permutations of the members as tie-break and keeps the first one that reproduces the reads observed after the op
   (fallback: ties in sequence order). Modes 0 (repaired), 1, 2 do not look at the observation. *)
Fixpoint insert_all {A} (x : A) (l : list A) : list (list A) :=
  match l with
  | [] => [[x]]
  | y :: r => (x :: l) :: map (cons y) (insert_all x r)
  end.
Fixpoint perms {A} (l : list A) : list (list A) :=
  match l with
  | [] => [[]]
  | x :: r => concat (map (insert_all x) (perms r))
  end.
Definition ms_candidates (grp : list Z) (L : layout) : list (list Z) :=
  let seqs := map f_seq (filter (in_grp grp) (ooo L)) in
  if (length seqs <=? 5)%nat then perms seqs else [seqs; rev seqs].
Definition step_obs (wc : bool) (mc : Z) (nser : nat) (L : layout) (o : op) (dump : table) : layout :=
  match o with
  | MergeSelf g n =>
      if mc =? 3 then
        match find (fun L' => list_eqb row_eqb (read_all nser L') dump)
                   (map (fun pi => merge_self_rank pi g n L) (ms_candidates g L)) with
        | Some L' => L'
        | None => merge_self_m 1 g n L
        end
      else step2 wc mc L o
  | _ => step2 wc mc L o
  end.

Definition read_shaped (nser : nat) (L : layout) (tmin tmax : Z) (fs : list Z) (asc : bool) : list row :=
  concat (map (fun s => read_layout L s tmin tmax fs asc) (zrange nser)).
Definition reads_ok (nser : nat) (L : layout) (rs : list robs) : bool :=
  forallb (fun r : robs => match r with (tmin, tmax, fs, asc, rows) => list_eqb row_eqb (read_shaped nser L tmin tmax fs asc) rows end) rs.

(* code: 1 dump differs, 2 ordered files differ, 3 out-of-order files differ, 4 op parameters not allowed, 5 layout invariant
   broken, 6 a shaped read (sub-range / field subset / descending / multi-series tag set) differs *)
Fixpoint check_from (wc : bool) (mc : Z) (nser : nat) (i : nat) (L : layout) (h : list (op * obs)) : option (nat * nat) :=
  match h with
  | [] => None
  | (o, ob) :: r =>
      if negb (op_ok L o && write_ok o) then Some (i, 4%nat) else
      let L' := step_obs wc mc nser L o (o_dump ob) in
      if negb (layout_ok L') then Some (i, 5%nat) else
      if negb (list_eqb row_eqb (read_all nser L') (o_dump ob)) then Some (i, 1%nat) else
      if negb (list_eqb fobs_eqb (files_obs nser (ord L')) (o_ord ob)) then Some (i, 2%nat) else
      if negb (list_eqb fobs_eqb (files_obs nser (ooo L')) (o_ooo ob)) then Some (i, 3%nat) else
      if negb (reads_ok nser L' (o_reads ob)) then Some (i, 6%nat) else
      check_from wc mc nser (S i) L' r
  end.

Definition check_case (wc : bool) (mc : Z) (c : nat * list (op * obs)) : option (nat * nat) :=
  check_from wc mc (fst c) 0 init (snd c).

Fixpoint mismatches_from (wc : bool) (mc : Z) (k : nat) (cs : list (nat * list (op * obs))) : list (nat * nat * nat) :=
  match cs with
  | [] => []
  | c :: r => match check_case wc mc c with
              | None => mismatches_from wc mc (S k) r
              | Some (i, code) => (k, i, code) :: mismatches_from wc mc (S k) r
              end
  end.
Definition mismatches (wc : bool) (mc : Z) := mismatches_from wc mc 0.
