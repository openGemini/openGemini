(* C02 correspondence evaluator for the FILE-CURSOR path: the aggregate results the real store returned after every op
   (exact-statistics hint: count / sum / min / max / first / last per series, ascending and descending) are recomputed
   on the model of the file-cursor walk (FileCursor.v: fc_rows ascending, fc_stream_desc descending, repaired variant) of
   the layout the model reached by replaying the history, and compared. *)
From Coq Require Import ZArith List Bool.
From OG Require Import C02.Model C02.FileCursor.
Import ListNotations.
Open Scope Z_scope.

Record aggobs := { a_desc : bool; a_s : Z; a_tmin : Z; a_tmax : Z; a_f : Z; a_fn : Z; a_has : bool; a_v : Z; a_t : Z }.

(* (time, value) of field f of the rows inside the range, in stream order *)
Definition field_vals (f tmin tmax : Z) (rows : list row) : list (Z * Z) :=
  flat_map (fun r : row =>
              if (tmin <=? snd (fst r)) && (snd (fst r) <=? tmax)
              then match get Z.compare (snd r) f with Some v => [(snd (fst r), v)] | None => [] end
              else []) rows.

(* fn: 0 count, 1 sum, 2 min, 3 max, 4 first, 5 last (by time). Result: (a result exists, value, time of the selected point
   for first / last, else 0). count of nothing is 0. *)
Definition agg_of (fn : Z) (l : list (Z * Z)) : bool * Z * Z :=
  if fn =? 0 then (true, Z.of_nat (length l), 0) else
  match l with
  | [] => (false, 0, 0)
  | (t0, v0) :: r =>
      if fn =? 1 then (true, fold_left (fun a (tv : Z * Z) => a + snd tv) r v0, 0)
      else if fn =? 2 then (true, fold_left (fun a (tv : Z * Z) => Z.min a (snd tv)) r v0, 0)
      else if fn =? 3 then (true, fold_left (fun a (tv : Z * Z) => Z.max a (snd tv)) r v0, 0)
      else if fn =? 4 then
        let tv := fold_left (fun (a tv : Z * Z) => if fst tv <? fst a then tv else a) r (t0, v0) in (true, snd tv, fst tv)
      else
        let tv := fold_left (fun (a tv : Z * Z) => if fst a <? fst tv then tv else a) r (t0, v0) in (true, snd tv, fst tv)
  end.

Definition fc_stream (desc : bool) (L : layout) (s : Z) : list row :=
  if desc then fc_stream_desc L s else fc_rows false false L s.
Definition fc_agg (o : aggobs) (L : layout) : bool * Z * Z :=
  agg_of (a_fn o) (field_vals (a_f o) (a_tmin o) (a_tmax o) (fc_stream (a_desc o) L (a_s o))).
Definition agg_ok (o : aggobs) (L : layout) : bool :=
  let '(h, v, t) := fc_agg o L in
  Bool.eqb h (a_has o) && (negb h || ((v =? a_v o) && (t =? a_t o))).

Fixpoint bad_obs (j : nat) (L : layout) (os : list aggobs) : list nat :=
  match os with
  | [] => []
  | o :: r => if agg_ok o L then bad_obs (S j) L r else j :: bad_obs (S j) L r
  end.
(* (op index, observation index) of every aggregate the model does not reproduce *)
Fixpoint agg_check_from (i : nat) (L : layout) (h : list (op * list aggobs)) : list (nat * nat) :=
  match h with
  | [] => []
  | (o, os) :: r => let L' := step false L o in
                    map (fun j => (i, j)) (bad_obs 0 L' os) ++ agg_check_from (S i) L' r
  end.
Fixpoint agg_mismatches_from (k : nat) (cs : list (list (op * list aggobs))) : list (nat * nat * nat) :=
  match cs with
  | [] => []
  | c :: r => map (fun ij : nat * nat => (k, fst ij, snd ij)) (agg_check_from 0 init c) ++ agg_mismatches_from (S k) r
  end.
Definition agg_mismatches := agg_mismatches_from 0.
Definition agg_total (cs : list (list (op * list aggobs))) : nat :=
  fold_left (fun n c => fold_left (fun m (x : op * list aggobs) => (m + length (snd x))%nat) c n) cs 0%nat.
