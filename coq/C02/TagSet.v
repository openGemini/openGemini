(* C02 - the merged stream of a tag set holding SEVERAL series (engine/tagset_cursor.go: tagSetCursor merges its series
   cursors through heapCursor, whose Less orders the heads by time and, for equal times, by series key; descending: both
   reversed). Model: the rows of all series of the read, sorted by (time, series); descending = the reverse.
   Theorems (Props.v, from the lemmas here): the stream is sorted by (time, series); restricted to one series it is exactly
   that series' read - so, with C02_read_is_lww, the last-write-wins rows of the series in time order. *)
From Coq Require Import ZArith List Bool Lia Sorted.
From OG Require Import C02.Model C02.Proofs C02.Corr C02.Refine.
Import ListNotations.
Open Scope Z_scope.

Definition sw (k : key) : key := (snd k, fst k).
Definition tcmp (a b : key) : comparison := kcmp (sw a) (sw b).          (* time first, then series *)
Fixpoint tins (r : row) (l : list row) : list row :=
  match l with
  | [] => [r]
  | x :: l' => match tcmp (fst r) (fst x) with Lt => r :: l | _ => x :: tins r l' end
  end.
Definition tsort (l : list row) : list row := fold_right tins [] l.

Definition flat_stream (nser : nat) (L : layout) (tmin tmax : Z) (fs : list Z) (asc : bool) : list row :=
  let rows := tsort (read_shaped nser L tmin tmax fs true) in if asc then rows else rev rows.

Definition tle (a b : row) : Prop := tcmp (fst a) (fst b) <> Gt.
Definition tlt (a b : row) : Prop := tcmp (fst a) (fst b) = Lt.

Lemma tins_ins_by : forall r l, tins r l = ins_by (fun x => sw (fst x)) r l.
Proof. induction l as [| x l IH]; cbn; [reflexivity |]. rewrite IH. reflexivity. Qed.
Lemma tins_sorted : forall r l, StronglySorted tle l -> StronglySorted tle (tins r l).
Proof. intros r l S. rewrite tins_ins_by. apply (ins_by_sorted (fun x => sw (fst x))), S. Qed.
Lemma tsort_sorted : forall l, StronglySorted tle (tsort l).
Proof. induction l as [| r l IH]; cbn; [constructor | apply tins_sorted; auto]. Qed.

Lemma filter_tins : forall p r l, StronglySorted tle l ->
  filter p (tins r l) = if p r then tins r (filter p l) else filter p l.
Proof.
  induction l as [| x l IH]; intros S; cbn [tins filter].
  - destruct (p r); reflexivity.
  - inversion S as [| ? ? S' F]; subst. destruct (tcmp (fst r) (fst x)) eqn:E.
    + cbn [filter]. rewrite IH by auto. destruct (p x), (p r); cbn [tins]; try rewrite E; reflexivity.
    + cbn [filter]. destruct (p r) eqn:Pr; destruct (p x) eqn:Px; cbn [tins]; try rewrite E; try reflexivity.
      (* r kept, x dropped: r goes before the first kept element of l, all of which are after x *)
      destruct (filter p l) as [| y fl] eqn:Q; [reflexivity |]. cbn [tins].
      assert (Iy : In y l) by (assert (I : In y (filter p l)) by (rewrite Q; left; auto); apply filter_In in I; tauto).
      rewrite Forall_forall in F. specialize (F y Iy). unfold tle, tcmp in *. rewrite (kc_lt_le _ _ _ E F). reflexivity.
    + cbn [filter]. rewrite IH by auto. destruct (p x), (p r); cbn [tins]; try rewrite E; reflexivity.
Qed.
Lemma filter_tsort : forall p l, filter p (tsort l) = tsort (filter p l).
Proof.
  induction l as [| r l IH]; cbn [tsort fold_right filter]; auto.
  rewrite filter_tins by apply tsort_sorted. fold (tsort l). rewrite IH. destruct (p r); reflexivity.
Qed.

Lemma tsort_id : forall l, StronglySorted tlt l -> tsort l = l.
Proof.
  induction l as [| x l IH]; intros S; cbn [tsort fold_right]; auto. inversion S as [| ? ? S' F]; subst.
  fold (tsort l). rewrite IH by auto. destruct l as [| y l']; [reflexivity |]. cbn [tins].
  inversion F; subst. unfold tlt in *. rewrite H1. reflexivity.
Qed.

Definition ser (s : Z) (r : row) : bool := fst (fst r) =? s.

Lemma filter_all_false : forall s (l : list row), Forall (fun r : row => fst (fst r) <> s) l -> filter (ser s) l = [].
Proof.
  induction l as [| r l IH]; intros F; cbn; auto. inversion F; subst. unfold ser at 1.
  destruct (fst (fst r) =? s) eqn:E; [lia | auto].
Qed.
Lemma filter_all_true : forall s (l : list row), Forall (fun r : row => fst (fst r) = s) l -> filter (ser s) l = l.
Proof.
  induction l as [| r l IH]; intros F; cbn; auto. inversion F; subst. unfold ser at 1. rewrite Z.eqb_refl. f_equal; auto.
Qed.
Lemma filter_concat_none : forall (f : Z -> list row) s (l : list Z),
  (forall x, Forall (fun r : row => fst (fst r) = x) (f x)) -> ~ In s l -> filter (ser s) (concat (map f l)) = [].
Proof.
  induction l as [| x l IH]; intros Hf N; auto. cbn [map concat]. rewrite filter_app, IH; auto.
  - rewrite filter_all_false; auto. eapply Forall_impl; [| apply Hf]. intros r E. cbn in E. intro Q. apply N. left. lia.
  - intro J. apply N. right; auto.
Qed.

Lemma zrange_in : forall n x, In x (zrange n) <-> 0 <= x < Z.of_nat n.
Proof.
  induction n as [| k IH]; intros x; cbn [zrange].
  - split; [intros [] | lia].
  - rewrite in_app_iff, IH. cbn [In]. lia.
Qed.

Lemma filter_concat_zrange : forall (f : Z -> list row) s n,
  (forall x, Forall (fun r : row => fst (fst r) = x) (f x)) -> In s (zrange n) ->
  filter (ser s) (concat (map f (zrange n))) = f s.
Proof.
  induction n as [| k IH]; intros Hf I; [destruct I |]. cbn [zrange] in *. rewrite map_app, concat_app, filter_app.
  cbn [map concat]. rewrite app_nil_r. apply in_app_or in I. destruct I as [I | [E | []]].
  - rewrite IH by auto. rewrite filter_all_false; [apply app_nil_r |].
    eapply Forall_impl; [| apply Hf]. intros r E. cbn in E. apply zrange_in in I. lia.
  - subst s. rewrite filter_concat_none; auto.
    + cbn. apply filter_all_true; auto.
    + intro J. apply zrange_in in J. lia.
Qed.

Lemma filter_rev' : forall (p : row -> bool) l, filter p (rev l) = rev (filter p l).
Proof.
  induction l as [| x l IH]; auto. cbn [rev filter]. rewrite filter_app, IH. cbn [filter].
  destruct (p x); cbn [rev]; [reflexivity | apply app_nil_r].
Qed.

Lemma read_layout_tlt : forall h, ops_allowed h = true -> forall s tmin tmax fs,
  StronglySorted tlt (read_layout (run false h) s tmin tmax fs true) /\
  Forall (fun r : row => fst (fst r) = s) (read_layout (run false h) s tmin tmax fs true).
Proof.
  intros h A s tmin tmax fs. destruct (read_sorted h A s tmin tmax fs true) as [S F]. cbn in S. split.
  - apply (ssorted_mono t_lt); [| exact S]. intros x y H. apply kcmp_lt. left. exact H.
  - eapply Forall_impl; [| exact F]. intros r [E _]. exact E.
Qed.

(* evaluator: the arrival order of flat reads served by ONE group cursor (all series in one tag set) *)
Definition aobs := (Z * Z * list Z * bool * list (Z * Z))%type.       (* tmin, tmax, fields, ascending, (series, time) in arrival order *)
Definition arr_ok (nser : nat) (L : layout) (o : aobs) : bool :=
  match o with
  | (tmin, tmax, fs, asc, arr) => list_eqb pair_eqb (map (fun r : row => fst r) (flat_stream nser L tmin tmax fs asc)) arr
  end.
Fixpoint bad_arr (j : nat) (nser : nat) (L : layout) (os : list aobs) : list nat :=
  match os with
  | [] => []
  | o :: r => if arr_ok nser L o then bad_arr (S j) nser L r else j :: bad_arr (S j) nser L r
  end.
Fixpoint tag_check_from (i : nat) (nser : nat) (L : layout) (h : list (op * list aobs)) : list (nat * nat) :=
  match h with
  | [] => []
  | (o, os) :: r => let L' := step false L o in
                    map (fun j => (i, j)) (bad_arr 0 nser L' os) ++ tag_check_from (S i) nser L' r
  end.
Fixpoint tag_mismatches_from (k : nat) (cs : list (nat * list (op * list aobs))) : list (nat * nat * nat) :=
  match cs with
  | [] => []
  | c :: r => map (fun ij : nat * nat => (k, fst ij, snd ij)) (tag_check_from 0 (fst c) init (snd c)) ++ tag_mismatches_from (S k) r
  end.
Definition tag_mismatches := tag_mismatches_from 0.
Definition tag_total (cs : list (nat * list (op * list aobs))) : nat :=
  fold_left (fun n c => fold_left (fun m (x : op * list aobs) => (m + length (snd x))%nat) (snd c) n) cs 0%nat.
