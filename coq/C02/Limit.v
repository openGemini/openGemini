(* C02 - reads with LIMIT / OFFSET pushed down to the store (lazily initialised series cursors, groupCursor.limitBound,
   itrsInitWithLimit). The store may hand out more rows than limit+offset (the executor cuts), so the model states a
   predicate, not a function: every series contributes a PREFIX of its read, and in total at least min(limit+offset,
   everything) rows arrive. An accepted observation consists of prefixes of the reads (limit_ok_sound), hence of the shaped
   last-write-wins rows (Props.v). *)
From Coq Require Import ZArith List Bool Lia.
From OG Require Import C02.Model C02.Proofs C02.Corr C02.Refine.
Import ListNotations.
Open Scope Z_scope.

Fixpoint rows_prefix (p full : list row) : bool :=
  match p, full with
  | [], _ => true
  | x :: p', y :: f' => row_eqb x y && rows_prefix p' f'
  | _ :: _, [] => false
  end.
Definition total (l : list (list row)) : Z := Z.of_nat (length (concat l)).
(* tmin, tmax, fields, ascending, limit+offset, the rows delivered per series (series ascending) *)
Definition lobs := (Z * Z * list Z * bool * Z * list (list row))%type.
Definition limit_ok (nser : nat) (L : layout) (o : lobs) : bool :=
  match o with
  | (tmin, tmax, fs, asc, need, per) =>
      let full := map (fun s => read_layout L s tmin tmax fs asc) (zrange nser) in
      (length per =? length full)%nat
      && forallb (fun pf : list row * list row => rows_prefix (fst pf) (snd pf)) (combine per full)
      && ((need <=? total per) || (total per =? total full))
  end.

Lemma pair_eqb_eq : forall a b, pair_eqb a b = true -> a = b.
Proof. intros [a1 a2] [b1 b2] H. unfold pair_eqb in H. cbn in H. apply andb_true_iff in H. destruct H. f_equal; lia. Qed.
Lemma list_eqb_eq : forall (a b : list (Z * Z)), list_eqb pair_eqb a b = true -> a = b.
Proof.
  induction a as [| x a IH]; destruct b as [| y b]; cbn; intro H; try discriminate; auto.
  apply andb_true_iff in H. destruct H as [H1 H2]. f_equal; [apply pair_eqb_eq | apply IH]; auto.
Qed.
Lemma row_eqb_eq : forall a b, row_eqb a b = true -> a = b.
Proof.
  intros [ka fa] [kb fb] H. unfold row_eqb in H. cbn [fst snd] in H. apply andb_true_iff in H. destruct H as [H1 H2].
  f_equal; [apply pair_eqb_eq | apply list_eqb_eq]; auto.
Qed.
Lemma rows_prefix_spec : forall p full, rows_prefix p full = true -> exists rest, full = p ++ rest.
Proof.
  induction p as [| x p IH]; intros full H.
  - exists full. reflexivity.
  - destruct full as [| y f]; [discriminate |]. cbn [rows_prefix] in H. apply andb_true_iff in H. destruct H as [H1 H2].
    apply row_eqb_eq in H1. subst y. destruct (IH f H2) as [rest E]. exists rest. cbn. f_equal. exact E.
Qed.

Lemma in_combine_map : forall {A B C} (f : B -> C) (per : list A) (l : list B) p x,
  In (p, x) (combine per l) -> In (p, f x) (combine per (map f l)).
Proof.
  induction per as [| q per IH]; intros l p x I; [destruct I |]. destruct l as [| z l]; [destruct I |]. destruct I as [E | I].
  - inversion E; subst. left; reflexivity.
  - right. apply IH, I.
Qed.

Lemma limit_ok_sound : forall nser L tmin tmax fs asc need per,
  limit_ok nser L (tmin, tmax, fs, asc, need, per) = true ->
  forall p s, In (p, s) (combine per (zrange nser)) -> exists rest, read_layout L s tmin tmax fs asc = p ++ rest.
Proof.
  intros nser L tmin tmax fs asc need per H p s I. unfold limit_ok in H.
  apply andb_true_iff in H. destruct H as [H _]. apply andb_true_iff in H. destruct H as [_ H].
  rewrite forallb_forall in H. apply rows_prefix_spec.
  apply (H _ (in_combine_map (fun s => read_layout L s tmin tmax fs asc) per (zrange nser) p s I)).
Qed.

Fixpoint bad_lim (j : nat) (nser : nat) (L : layout) (os : list lobs) : list nat :=
  match os with
  | [] => []
  | o :: r => if limit_ok nser L o then bad_lim (S j) nser L r else j :: bad_lim (S j) nser L r
  end.
Fixpoint lim_check_from (i : nat) (nser : nat) (L : layout) (h : list (op * list lobs)) : list (nat * nat) :=
  match h with
  | [] => []
  | (o, os) :: r => let L' := step false L o in
                    map (fun j => (i, j)) (bad_lim 0 nser L' os) ++ lim_check_from (S i) nser L' r
  end.
Fixpoint lim_mismatches_from (k : nat) (cs : list (nat * list (op * list lobs))) : list (nat * nat * nat) :=
  match cs with
  | [] => []
  | c :: r => map (fun ij : nat * nat => (k, fst ij, snd ij)) (lim_check_from 0 (fst c) init (snd c)) ++ lim_mismatches_from (S k) r
  end.
Definition lim_mismatches := lim_mismatches_from 0.
Definition lim_total (cs : list (nat * list (op * list lobs))) : nat :=
  fold_left (fun n c => fold_left (fun m (x : op * list lobs) => (m + length (snd x))%nat) (snd c) n) cs 0%nat.
