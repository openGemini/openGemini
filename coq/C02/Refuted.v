(* C02: witnesses against today's log replay order at reopen (open) and against the merge-self member order and the
   descending file-cursor walk that /repo had before commits 22016f1 and 2b99c70. *)
From Coq Require Import ZArith List Bool.
From OG Require Import C02.Model C02.FileCursor.
Import ListNotations.
Open Scope Z_scope.

Definition r (s t : Z) (fs : list (Z * Z)) : row := ((s, t), fs).

(* Today's close/reopen (`reopen true`: the log has n partitions, record c sits in partition c mod n, the counter is not
   reset at the log switch, replay takes one record per partition in turn from partition 0) does NOT satisfy the
   property: with 2 partitions, one write, a flush, then two writes to the same point, the reopened shard returns the
   older of the two acknowledged values. This is finding C02-reopen-walphase (root cause shared with C01-walphase). *)
Definition h_wal : list op :=
  [ Write [r 0 1 [(0,1)]]; Flush false 1 1002; Write [r 0 2 [(0,5)]]; Write [r 0 2 [(0,6)]]; Reopen 2 false 2 1003 ].

Theorem C02_reopen_current_refuted :
  exists h s, Corr_eq (read_series (run true h) s) (sel s (lww_table (writes_of h))) = false.
Proof. exists h_wal, 0. vm_compute. reflexivity. Qed.
Print Assumptions C02_reopen_current_refuted.

(* the repaired replay order (acknowledgement order) is fine on the same history *)
Example C02_reopen_repaired_witness_ok :
  Corr_eq (read_series (run false h_wal) 0) (sel 0 (lww_table (writes_of h_wal))) = true.
Proof. vm_compute. reflexivity. Qed.

(* adjacency is needed: compacting ordered files 1 and 3 around file 2 puts the rows of file 3 before those of file 2,
   and the series is no longer read in time order - which is why the planner predicate (adjacent run) is part of the
   allowed-ops condition *)
Definition h_nonadj : list op :=
  [ Write [r 0 1 [(0,1)]]; Flush false 1 101; Write [r 0 5 [(0,5)]]; Flush false 2 102; Write [r 0 9 [(0,9)]]; Flush false 3 103;
    Compact [[1;3]] ].
Theorem C02_adjacency_needed_refuted :
  op_ok (run false (firstn 6 h_nonadj)) (Compact [[1;3]]) = false /\
  Corr_eq (read_series (run false h_nonadj) 0) (sel 0 (lww_table (writes_of h_nonadj))) = false.
Proof. vm_compute. split; reflexivity. Qed.

(* The merge-self before /repo commit 22016f1 (`merge_self_m 1`: per series the member files are folded in the order of
   their minimum time, as MergeSelf.Merge did through ChunkIterators) does NOT satisfy the property: a newer out-of-order file that starts
   earlier than an older one loses to it. Finding C02-mergeself-mintime-order (fixed). *)
Definition h_ms : list op :=
  [ Write [r 0 5 [(0,1)]]; Flush false 1 101; Write [r 0 3 [(0,1);(1,1)]]; Flush false 102 2;
    Write [r 0 2 [(0,9)]; r 0 3 [(0,2)]]; Flush false 103 3; MergeSelf [2;3] 2 ].
Theorem C02_mergeself_current_refuted :
  exists h s, Corr_eq (read_series (run2 false 1 h) s) (sel s (lww_table (writes_of h))) = false.
Proof. exists h_ms, 0. vm_compute. reflexivity. Qed.
Print Assumptions C02_mergeself_current_refuted.
Example C02_mergeself_repaired_witness_ok :
  Corr_eq (read_series (run2 false 0 h_ms) 0) (sel 0 (lww_table (writes_of h_ms))) = true.
Proof. vm_compute. reflexivity. Qed.

(* The DESCENDING walk of the file-cursor path before /repo commit 2b99c70 (`fc_rows true true`: the first ordered file visited - the newest - is
   flagged as the last one and takes all memtable / out-of-order rows; the older files are handed out as they are) does
   NOT satisfy the property: a point overwritten by a late write while its older version sits in an older ordered file
   is counted twice. Finding C02-desc-filecursor-lastfile (fixed). *)
Definition h_fc : list op :=
  [ Write [r 0 2 [(0,1)]; r 0 3 [(0,1)]]; Flush false 1 1001; Write [r 0 6 [(0,1)]]; Flush false 2 1002; Write [r 0 2 [(0,7)]] ].
Theorem C02_desc_filecursor_current_refuted :
  exists h s tmin tmax f, ops_allowed h = true /\
    fc_count true true (run false h) s tmin tmax f
    <> Z.of_nat (length (shape tmin tmax [f] true (sel s (lww_table (writes_of h))))).
Proof. exists h_fc, 0, 0, 9, 0. split; [vm_compute; reflexivity | vm_compute; discriminate]. Qed.
Print Assumptions C02_desc_filecursor_current_refuted.
Example C02_desc_filecursor_repaired_witness_ok :
  fc_count false true (run false h_fc) 0 0 9 0 = Z.of_nat (length (shape 0 9 [0] true (sel 0 (lww_table (writes_of h_fc))))).
Proof. vm_compute. reflexivity. Qed.
