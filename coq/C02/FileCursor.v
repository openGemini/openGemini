(* C02 - the FILE-CURSOR read path (engine/agg_tagset_cursor.go fileLoopCursor, engine/file_cursor.go fileCursor.readData):
   aggregates that can be computed file by file do not go through seriesCursor / tsmMergeCursor. Per series:
     M  = memtable over snapshot table over the out-of-order files, newest first       (fileLoopCursor.initMergeIters)
     the ordered files are visited one by one (ascending: oldest first; descending: newest first); when a file holds the
     series, the rows of M up to the chunk's own time range are cut off M and merged into the chunk's rows, M winning on
     equal timestamps (getMemEndIndex + mergeData); the LAST file visited takes everything that is left of M.
   The aggregate operators then see the blocks one after the other.

   fc_walk_asc / fc_walk_desc are the walks as /repo does them since commit 2b99c70; fc_blocks_desc_current is the
   descending walk before that commit, which marked the FIRST file visited as the last one (finding
   C02-desc-filecursor-lastfile). For all layouts satisfying the invariant of Refine.v the ascending walk hands out exactly
   the rows of read_series, in order, and the descending walk their reverse (fc_rows_asc_is_read, fc_stream_desc_is_read). *)
From Coq Require Import ZArith List Bool Lia.
From OG Require Import C02.Model C02.Proofs C02.Refine.
Import ListNotations.
Open Scope Z_scope.

Definition fc_newer (L : layout) (s : Z) : table :=
  over (sel s (sort_dedup (mem L))) (over (sel s (sort_dedup (snap L))) (sel s (ooo_prod (ooo L)))).

Definition le_time (mx : Z) (r : row) : bool := snd (fst r) <=? mx.
Definition ge_time (mn : Z) (r : row) : bool := mn <=? snd (fst r).

Fixpoint fc_walk_asc (s : Z) (M : table) (files : list file) : list table :=
  match files with
  | [] => [M]                                   (* no ordered file at all: ReadAggDataOnlyInMemTable *)
  | f :: r =>
      match r with
      | [] => [over M (sel s (f_tab f))]        (* the last file takes what is left *)
      | _ => match max_time_in s (f_tab f) with
             | None => fc_walk_asc s M r        (* the file does not hold the series *)
             | Some mx => over (filter (le_time mx) M) (sel s (f_tab f))
                          :: fc_walk_asc s (filter (fun x => negb (le_time mx x)) M) r
             end
      end
  end.

(* rfiles: the ordered files newest first *)
Fixpoint fc_walk_desc (s : Z) (M : table) (rfiles : list file) : list table :=
  match rfiles with
  | [] => [M]
  | f :: r =>
      match r with
      | [] => [over M (sel s (f_tab f))]
      | _ => match min_time_in s (f_tab f) with
             | None => fc_walk_desc s M r
             | Some mn => over (filter (ge_time mn) M) (sel s (f_tab f))
                          :: fc_walk_desc s (filter (fun x => negb (ge_time mn x)) M) r
             end
      end
  end.

(* the descending walk before commit 2b99c70: the first file visited is flagged as the last one and takes ALL of M; the older files are
   handed out as they are *)
Definition fc_blocks_desc_current (s : Z) (M : table) (rfiles : list file) : list table :=
  match rfiles with
  | [] => [M]
  | f :: r => over M (sel s (f_tab f)) :: map (fun g => sel s (f_tab g)) r
  end.

(* the rows the aggregate operators see (as a list; for a descending query every block arrives reversed, which no
   aggregate of count / sum / min / max observes) *)
Definition fc_rows (current desc : bool) (L : layout) (s : Z) : list row :=
  concat (if desc then (if current then fc_blocks_desc_current s (fc_newer L s) (rev (ord L))
                        else fc_walk_desc s (fc_newer L s) (rev (ord L)))
          else fc_walk_asc s (fc_newer L s) (ord L)).

Definition fc_count (current desc : bool) (L : layout) (s tmin tmax f : Z) : Z :=
  Z.of_nat (length (shape tmin tmax [f] true (fc_rows current desc L s))).

Definition in_series (s : Z) (t : table) : Prop := forall k v, In (k, v) t -> fst k = s.

Lemma in_over_key : forall (a b : table) k v, In (k, v) (over a b) ->
  (exists v', In (k, v') a) \/ (exists v', In (k, v') b).
Proof.
  intros a b k v I. destruct (in_merge kcmp kc_eq fover a b k v I) as [H | [H | (x & y & H & _)]]; eauto.
Qed.

Lemma in_series_over : forall s a b, in_series s a -> in_series s b -> in_series s (over a b).
Proof.
  intros s a b Ha Hb k v I. destruct (in_over_key a b k v I) as [[v' H] | [v' H]]; eauto.
Qed.
Lemma in_series_sel : forall s t, in_series s (sel s t).
Proof. intros s t k v I. apply in_sel in I. tauto. Qed.
Lemma in_series_filter : forall s p t, in_series s t -> in_series s (filter p t).
Proof. intros s p t H k v I. apply filter_In in I. destruct I; eauto. Qed.
Lemma wf_sel : forall s t, wf_table t -> wf_table (sel s t).
Proof. intros s t W. rewrite sel_kfilter. apply wf_kfilter, W. Qed.

#[global] Hint Resolve wf_sel in_series_sel : wf.

Lemma get_none_not_in : forall (t : table) k, (forall v, ~ In (k, v) t) -> get kcmp t k = None.
Proof.
  intros t k H. destruct (get kcmp t k) as [v |] eqn:G; auto.
  apply (get_in kcmp kc_eq) in G. exfalso. eapply H; eauto.
Qed.

Lemma filter_le_kfilter : forall mx t, filter (le_time mx) t = kfilter (fun k => snd k <=? mx) t.
Proof. reflexivity. Qed.
Lemma filter_gt_kfilter : forall mx t, filter (fun x => negb (le_time mx x)) t = kfilter (fun k => negb (snd k <=? mx)) t.
Proof. reflexivity. Qed.

(* splitting a read at a pivot time: M over (C ++ R) = (M up to the pivot over C) ++ (the rest of M over R) *)
Lemma over_pivot : forall s mx (M C R : table),
  wf_table M -> wf_table C -> wf_table R -> in_series s M -> in_series s C -> in_series s R ->
  (forall k v, In (k, v) C -> snd k <= mx) -> (forall k v, In (k, v) R -> mx < snd k) ->
  over M (C ++ R) = over (filter (le_time mx) M) C ++ over (filter (fun x => negb (le_time mx x)) M) R.
Proof.
  intros s mx M C R WM WC WR SM SC SR HC HR.
  rewrite filter_le_kfilter, filter_gt_kfilter.
  set (Mle := kfilter (fun k => snd k <=? mx) M). set (Mgt := kfilter (fun k => negb (snd k <=? mx)) M).
  assert (WMle : wf_table Mle) by (apply wf_kfilter; auto).
  assert (WMgt : wf_table Mgt) by (apply wf_kfilter; auto).
  assert (CR : C ++ R = over R C).
  { symmetry. apply over_app_lt. intros ka va kb vb Ia Ib. apply kcmp_lt.
    pose proof (SC _ _ Ia). pose proof (SR _ _ Ib). pose proof (HC _ _ Ia). pose proof (HR _ _ Ib). lia. }
  assert (SMle : in_series s Mle) by (unfold Mle, kfilter; apply in_series_filter; auto).
  assert (SMgt : in_series s Mgt) by (unfold Mgt, kfilter; apply in_series_filter; auto).
  assert (RHS : over Mle C ++ over Mgt R = over (over Mgt R) (over Mle C)).
  { symmetry. apply over_app_lt. intros ka va kb vb Ia Ib.
    assert (La : snd ka <= mx).
    { destruct (in_over_key _ _ _ _ Ia) as [[v' H] | [v' H]].
      - unfold Mle, kfilter in H. apply filter_In in H. destruct H as [_ H]. cbn [fst] in H. lia.
      - eapply HC; eauto. }
    assert (Lb : mx < snd kb).
    { destruct (in_over_key _ _ _ _ Ib) as [[v' H] | [v' H]].
      - unfold Mgt, kfilter in H. apply filter_In in H. destruct H as [_ H]. cbn [fst] in H. lia.
      - eapply HR; eauto. }
    pose proof (in_series_over s _ _ SMle SC _ _ Ia). pose proof (in_series_over s _ _ SMgt SR _ _ Ib).
    apply kcmp_lt. lia. }
  rewrite CR, RHS. apply table_ext; auto 6 with wf.
  intros k f. rewrite !get2_over; auto 6 with wf. unfold Mle, Mgt. rewrite !get2_kfilter by auto.
  destruct (snd k <=? mx) eqn:Q; cbn [negb].
  - assert (X : get2 R k f = None).
    { apply get2_none. apply get_none_not_in. intros v I. specialize (HR _ _ I). lia. }
    rewrite X. cbn [orelse]. reflexivity.
  - assert (X : get2 C k f = None).
    { apply get2_none. apply get_none_not_in. intros v I. specialize (HC _ _ I). lia. }
    rewrite X. cbn [orelse]. rewrite !orelse_none_r. reflexivity.
Qed.

Lemma ord_cat_wf : forall l s, wf_files l -> ord_ok_from l = true -> wf_table (ord_cat s l) /\ in_series s (ord_cat s l).
Proof.
  intros l s W H. rewrite <- (ord_cat_sel l s W H). split; [apply wf_sel, wf_prod, W | apply in_series_sel].
Qed.

Lemma walk_asc_is_over : forall s files M, wf_table M -> in_series s M -> wf_files files -> ord_ok_from files = true ->
  concat (fc_walk_asc s M files) = over M (ord_cat s files).
Proof.
  induction files as [| f r IH]; intros M WM SM W H.
  - cbn. rewrite app_nil_r, over_nil_r. reflexivity.
  - destruct r as [| g r'].
    + cbn. rewrite !app_nil_r. reflexivity.
    + inversion W as [| ? ? Wf Wr]; subst.
      rewrite ord_ok_cons in H. apply andb_true_iff in H. destruct H as [H1 H2]. rewrite forallb_forall in H1.
      change (fc_walk_asc s M (f :: g :: r')) with
        (match max_time_in s (f_tab f) with
         | None => fc_walk_asc s M (g :: r')
         | Some mx => over (filter (le_time mx) M) (sel s (f_tab f))
                      :: fc_walk_asc s (filter (fun x => negb (le_time mx x)) M) (g :: r')
         end).
      change (ord_cat s (f :: g :: r')) with (sel s (f_tab f) ++ ord_cat s (g :: r')).
      pose proof (max_time_spec s (f_tab f)) as Mx. destruct (max_time_in s (f_tab f)) as [mx |].
      * (* mx is the time of a row of f; the rows of f end there, those of the later files lie beyond *)
        destruct Mx as [[fs0 I0] B]. cbn [concat]. rewrite IH; auto.
        -- destruct (ord_cat_wf (g :: r') s Wr H2) as [WR SR].
           symmetry. apply (over_pivot s mx); auto with wf.
           ++ intros [a b] v I. apply in_sel in I. destruct I as [I Es]. cbn [fst snd] in *. subst a. apply (B b v I).
           ++ intros [a b] v I. destruct (in_ord_cat _ _ _ _ I) as (y & Iy & I' & Es). cbn [fst snd] in *. subst a.
              apply (proj1 (before_ok_spec f y) (H1 y Iy) s mx fs0 b v I0 I').
        -- rewrite filter_gt_kfilter. apply wf_kfilter; auto.
        -- apply in_series_filter; auto.
      * rewrite Mx. cbn [app]. apply IH; auto.
Qed.

Lemma fc_newer_core : forall L raw s, Core L raw -> ord_ok_from (ord L) = true ->
  wf_table (fc_newer L s) /\ in_series s (fc_newer L s) /\ read_series L s = over (fc_newer L s) (ord_cat s (ord L)).
Proof.
  intros L raw s [Wm Ws Wu Wo Wr A] H. unfold fc_newer, read_series.
  rewrite !sort_dedup_lww. change (ooo_prod (ooo L)) with (prod (ooo L)).
  assert (W1 : wf_table (sel s (lww_table (mem L)))) by (apply wf_sel, wf_lww, Wm).
  assert (W2 : wf_table (sel s (lww_table (snap L)))) by (apply wf_sel, wf_lww, Ws).
  assert (W3 : wf_table (sel s (prod (ooo L)))) by (apply wf_sel, wf_prod, Wu).
  destruct (ord_cat_wf (ord L) s Wo H) as [W4 _]. split; [auto with wf | split].
  - repeat apply in_series_over; apply in_series_sel.
  - rewrite !over_assoc; auto with wf.
Qed.

Lemma fc_rows_asc_is_read : forall L raw s current, Core L raw -> ord_ok_from (ord L) = true ->
  fc_rows current false L s = read_series L s.
Proof.
  intros L raw s current C H. destruct (fc_newer_core L raw s C H) as (W & S & ->).
  apply walk_asc_is_over; auto. apply (c_ord _ _ C).
Qed.

(* the repaired DESCENDING walk: the blocks, each delivered newest row first, are the read in descending order *)
Definition fc_stream_desc (L : layout) (s : Z) : list row :=
  concat (map (@rev row) (fc_walk_desc s (fc_newer L s) (rev (ord L)))).

Lemma ord_cat_app : forall s a b, ord_cat s (a ++ b) = ord_cat s a ++ ord_cat s b.
Proof. intros. unfold ord_cat. rewrite map_app, concat_app. reflexivity. Qed.

Lemma filter_lt_ge : forall mn (M : table),
  filter (le_time (mn - 1)) M = filter (fun x => negb (ge_time mn x)) M /\
  filter (fun x => negb (le_time (mn - 1) x)) M = filter (ge_time mn) M.
Proof.
  intros mn M. split; apply filter_ext; intro x; unfold le_time, ge_time; lia.
Qed.

Lemma walk_desc_is_over : forall s rfiles M, wf_table M -> in_series s M -> wf_files rfiles ->
  ord_ok_from (rev rfiles) = true ->
  concat (map (@rev row) (fc_walk_desc s M rfiles)) = rev (over M (ord_cat s (rev rfiles))).
Proof.
  induction rfiles as [| f r IH]; intros M WM SM W H.
  - cbn. rewrite app_nil_r, over_nil_r. reflexivity.
  - destruct r as [| g r'].
    + cbn. rewrite !app_nil_r. reflexivity.
    + inversion W as [| ? ? Wf Wr]; subst.
      change (rev (f :: g :: r')) with (rev (g :: r') ++ [f]) in *.
      apply ord_ok_app in H. destruct H as (H2 & _ & HB).
      assert (Wold : wf_files (rev (g :: r'))).
      { unfold wf_files. apply Forall_rev. exact Wr. }
      change (fc_walk_desc s M (f :: g :: r')) with
        (match min_time_in s (f_tab f) with
         | None => fc_walk_desc s M (g :: r')
         | Some mn => over (filter (ge_time mn) M) (sel s (f_tab f))
                      :: fc_walk_desc s (filter (fun x => negb (ge_time mn x)) M) (g :: r')
         end).
      rewrite ord_cat_app. change (ord_cat s [f]) with (sel s (f_tab f) ++ []). rewrite app_nil_r.
      pose proof (min_time_spec s (f_tab f)) as Mn. destruct (min_time_in s (f_tab f)) as [mn |].
      * (* mn is the time of a row of f; the rows of f start there, those of the older files lie before: pivot mn - 1 *)
        destruct Mn as [[fs0 I0] B]. cbn [map concat]. rewrite IH; auto.
        -- destruct (ord_cat_wf (rev (g :: r')) s Wold H2) as [WR SR].
           destruct (filter_lt_ge mn M) as [F1 F2].
           rewrite (over_pivot s (mn - 1) M (ord_cat s (rev (g :: r'))) (sel s (f_tab f))); auto with wf.
           ++ rewrite rev_app_distr. rewrite F1, F2. reflexivity.
           ++ intros [a b] v I. destruct (in_ord_cat _ _ _ _ I) as (y & Iy & I' & Es). cbn [fst snd] in *. subst a.
              pose proof (proj1 (before_ok_spec y f) (HB y f Iy (or_introl eq_refl)) s b v mn fs0 I' I0). lia.
           ++ intros [a b] v I. apply in_sel in I. destruct I as [I Es]. cbn [fst snd] in *. subst a.
              pose proof (B b v I). lia.
        -- apply (wf_kfilter (fun k => negb (mn <=? snd k))); auto.
        -- apply in_series_filter; auto.
      * rewrite Mn. rewrite app_nil_r. apply IH; auto.
Qed.

Lemma fc_stream_desc_is_read : forall L raw s, Core L raw -> ord_ok_from (ord L) = true ->
  fc_stream_desc L s = rev (read_series L s).
Proof.
  intros L raw s C H. destruct (fc_newer_core L raw s C H) as (W & S & ->). unfold fc_stream_desc.
  rewrite walk_desc_is_over; auto.
  - rewrite rev_involutive. reflexivity.
  - unfold wf_files. apply Forall_rev. apply (c_ord _ _ C).
  - rewrite rev_involutive. exact H.
Qed.
