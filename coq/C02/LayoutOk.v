(* C02 - the layout predicate (sequences ascending, ordered files per-series time-increasing by position) is PRESERVED by
   every op that satisfies op_ok: write, flush (plain / paused), compaction, merge-self, reopen, and the out-of-order merge,
   whose placement bounds are free parameters taken from the store (op_ok asks that their sequence numbers ascend; the
   placement by bounds is then monotone in time). Hence the theorems of Refine.v hold under the
   planner predicate alone (ops_planned), without assuming the layout predicate after every op. *)
From Coq Require Import ZArith List Bool Lia Sorted.
From OG Require Import C02.Model C02.Proofs C02.Corr C02.Refine C02.FileCursor.
Import ListNotations.
Open Scope Z_scope.

Lemma asc_seq_zs : forall l, asc_seq l = asc_zs (map f_seq l).
Proof.
  induction l as [| x l IH]; auto. destruct l as [| y l']; auto.
  change (asc_seq (x :: y :: l')) with ((f_seq x <? f_seq y) && asc_seq (y :: l')). rewrite IH. reflexivity.
Qed.
Lemma asc_zs_ss : forall l, asc_zs l = true <-> StronglySorted Z.lt l.
Proof.
  induction l as [| x l IH].
  - split; intros _; [constructor | reflexivity].
  - destruct l as [| y l'].
    + split; intros _; [constructor; constructor | reflexivity].
    + split; intro H.
      * cbn [asc_zs] in H. apply andb_true_iff in H. destruct H as [H1 H2].
        apply IH in H2. inversion H2 as [| ? ? S F]; subst. constructor; auto. constructor; [lia |].
        eapply Forall_impl; [| exact F]. intros a Ha. cbn in Ha. lia.
      * inversion H as [| ? ? S F]; subst. cbn [asc_zs]. apply andb_true_iff. split.
        -- inversion F; subst. lia.
        -- apply IH. exact S.
Qed.

Lemma asc_seq_ss : forall l, asc_seq l = true <-> StronglySorted Z.lt (map f_seq l).
Proof. intro l. rewrite asc_seq_zs. apply asc_zs_ss. Qed.

Lemma asc_snoc_fresh : forall l f, asc_seq l = true -> fresh_seq (f_seq f) l = true -> asc_seq (l ++ [f]) = true.
Proof.
  intros l f A F. apply asc_seq_ss. apply asc_seq_ss in A. rewrite map_app. cbn [map].
  apply ssorted_app. repeat split; auto.
  - constructor; constructor.
  - intros x y I [<- | []]. apply in_map_iff in I. destruct I as (g & <- & I).
    unfold fresh_seq in F. rewrite forallb_forall in F. specialize (F g I). lia.
Qed.
Lemma asc_add_file : forall s t l, asc_seq l = true -> fresh_seq s l = true -> asc_seq (add_file s t l) = true.
Proof.
  intros s t l A F. unfold add_file. destruct t; auto. rewrite insert_file_fresh by exact F. apply asc_snoc_fresh; auto.
Qed.

Lemma replace_run_seqs : forall g nf nf' l p, f_seq nf = f_seq nf' ->
  map f_seq (replace_run g nf l p) = map f_seq (replace_run g nf' l p).
Proof.
  induction l as [| x l IH]; intros p E; cbn; auto. destruct (in_grp g x).
  - destruct p; cbn; [auto | rewrite E; f_equal; auto].
  - cbn. f_equal; auto.
Qed.

Lemma asc_replace_first : forall g l tab, adjacent g l = true -> asc_seq l = true ->
  match filter (in_grp g) l with
  | [] => True
  | m0 :: _ => asc_seq (replace_run g {| f_seq := f_seq m0; f_tab := tab |} l false) = true
  end.
Proof.
  intros g l tab Adj A. destruct (adj_split g l Adj) as (pre & post & E & R).
  destruct (filter (in_grp g) l) as [| x run]; auto. rewrite R by congruence. clear R. subst l.
  apply asc_seq_ss. apply asc_seq_ss in A. rewrite !map_app in *. cbn [map f_seq] in *.
  apply ssorted_app in A. destruct A as (S1 & S2 & C1).
  change (f_seq x :: map f_seq run ++ map f_seq post) with ((f_seq x :: map f_seq run) ++ map f_seq post) in S2.
  apply ssorted_app in S2. destruct S2 as (S3 & S4 & C2).
  apply ssorted_app. repeat split; auto.
  - change (f_seq x :: map f_seq post) with ([f_seq x] ++ map f_seq post). apply ssorted_app. repeat split; auto.
    + constructor; constructor.
    + intros a b [<- | []] J. apply C2; auto. left; auto.
  - intros a b I [<- | J].
    + apply C1; auto. left; auto.
    + apply C1; auto. right. apply in_or_app. right; auto.
Qed.

Lemma layout_ok_split : forall L, layout_ok L = true <->
  asc_seq (ooo L) = true /\ asc_seq (ord L) = true /\ ord_ok_from (ord L) = true.
Proof. intro L. unfold layout_ok. rewrite !andb_true_iff. tauto. Qed.

(* flush: the new ordered file lies after every ordered file, per series *)
Lemma end_flush_layout_ok : forall L a so su, layout_ok L = true ->
  fresh_seq so (ord L) = true -> fresh_seq su (ooo L) = true -> layout_ok (end_flush a so su L) = true.
Proof.
  intros L a so su LO Fo Fu. apply layout_ok_split in LO. destruct LO as (O1 & O2 & O3).
  apply layout_ok_split. unfold end_flush. cbn [ooo ord]. split; [apply asc_add_file; auto |]. split; [apply asc_add_file; auto |].
  set (fresh := filter (fun r : row => negb (a || is_late (ord L ++ ooo L) r)) (sort_dedup (snap L))).
  unfold add_file. destruct fresh as [| r0 fr] eqn:EF; auto.
  rewrite insert_file_fresh by exact Fo. apply ord_ok_app. repeat split; auto.
  (* a row of the new file is not late; a row of an old file is *)
  intros x y Ix [<- | []]. apply before_ok_spec. intros s ta fa tb fb Ia Ib. cbn [f_tab] in Ib.
  rewrite <- EF in Ib. apply filter_In in Ib. destruct Ib as [_ NL].
  apply negb_true_iff, orb_false_iff in NL. destruct NL as [_ NL].
  pose proof (row_is_late (ord L ++ ooo L) x s ta fa (in_or_app _ _ _ (or_introl Ix)) Ia) as La.
  rewrite is_late_is_late_k in NL. unfold is_late_k in *. cbn [fst snd] in *.
  destruct (flush_time (ord L ++ ooo L) s); [lia | discriminate].
Qed.

Lemma in_prod_key : forall l (acc : table) k v, In (k, v) (fold_left pstep l acc) ->
  (exists v', In (k, v') acc) \/ exists f v', In f l /\ In (k, v') (f_tab f).
Proof.
  induction l as [| x l IH]; intros acc k v I; cbn [fold_left] in I; [left; eauto |].
  destruct (IH _ _ _ I) as [[v' H] | (f & v' & If & H)].
  - unfold pstep in H. destruct (in_over_key _ _ _ _ H) as [[v2 H2] | [v2 H2]]; [right; exists x, v2; split; auto; left; auto | left; eauto].
  - right. exists f, v'. split; auto. right; auto.
Qed.

Lemma replace_adjacent_ord_ok : forall g l seq, adjacent g l = true -> ord_ok_from l = true ->
  let members := filter (in_grp g) l in members <> [] ->
  ord_ok_from (replace_run g {| f_seq := seq; f_tab := prod members |} l false) = true.
Proof.
  intros g l seq Adj O members NE.
  destruct (adj_split g l Adj) as (pre & post & E & R). rewrite (R _ NE). clear R. fold members in E.
  destruct members as [| x run]; [congruence |]. subst l.
  apply ord_ok_app in O. destruct O as (O1 & O2 & C1). apply ord_ok_app in O2. destruct O2 as (O3 & O4 & C2).
  set (nf := {| f_seq := seq; f_tab := prod (x :: run) |}).
  (* a row of the new file has the key of a row of one of the files it replaces *)
  assert (KM : forall k v, In (k, v) (f_tab nf) -> exists m v', In m (x :: run) /\ In (k, v') (f_tab m)).
  { intros k v I. cbn [nf f_tab] in I. unfold prod in I. destruct (in_prod_key _ _ _ _ I) as [[v' []] | X]; auto. }
  apply ord_ok_app. repeat split; auto.
  - change ([nf] ++ post) with (nf :: post). rewrite ord_ok_cons, O4, andb_true_r. apply forallb_forall. intros q Iq.
    apply before_ok_spec. intros s ta fa tb fb Ia Ib. destruct (KM _ _ Ia) as (m & v' & Im & Ia').
    apply (proj1 (before_ok_spec m q) (C2 m q Im Iq) s ta v' tb fb Ia' Ib).
  - intros p y Ip [<- | Iy].
    + apply before_ok_spec. intros s ta fa tb fb Ia Ib. destruct (KM _ _ Ib) as (m & v' & Im & Ib').
      assert (Iy : In m ((x :: run) ++ post)) by (apply in_or_app; left; auto).
      apply (proj1 (before_ok_spec p m) (C1 p m Ip Iy) s ta fa tb v' Ia Ib').
    + apply C1; auto. apply in_or_app. right; auto.
Qed.

Lemma compact_group_layout : forall g l, adjacent g l = true -> asc_seq l = true -> ord_ok_from l = true ->
  asc_seq (compact_group g l) = true /\ ord_ok_from (compact_group g l) = true.
Proof.
  intros g l Adj A O. unfold compact_group. pose proof (asc_replace_first g l (ord_prod (filter (in_grp g) l)) Adj A) as X.
  destruct (filter (in_grp g) l) as [| m0 ms] eqn:E; auto. split; auto.
  rewrite <- E. apply replace_adjacent_ord_ok; auto. rewrite E. congruence.
Qed.
Lemma compact_groups_layout : forall grps l, compact_ok grps l = true -> asc_seq l = true -> ord_ok_from l = true ->
  asc_seq (fold_left (fun l g => compact_group g l) grps l) = true /\
  ord_ok_from (fold_left (fun l g => compact_group g l) grps l) = true.
Proof.
  induction grps as [| g grps IH]; intros l H A O; cbn [fold_left]; auto.
  cbn [compact_ok] in H. apply andb_true_iff in H. destruct H as [H1 H2].
  destruct (compact_group_layout g l H1 A O) as [A' O']. apply IH; auto.
Qed.

Lemma target_ge : forall s t bounds fb, StronglySorted Z.lt (fb :: map fst bounds) -> fb <= target s t bounds fb.
Proof.
  induction bounds as [| [seq b] r IH]; intros fb A; cbn [target]; [lia |].
  cbn [map fst] in A. inversion A as [| ? ? S F]; subst. inversion F as [| ? ? Lt F']; subst.
  destruct (bound_of s b) as [m |].
  - destruct (t <=? m); [lia |]. specialize (IH seq S). lia.
  - apply IH. inversion S; subst. constructor; auto.
Qed.

Lemma target_mono : forall s t t' bounds fb, StronglySorted Z.lt (map fst bounds) -> t <= t' ->
  target s t bounds fb <= target s t' bounds fb.
Proof.
  induction bounds as [| [seq b] r IH]; intros fb A Le; cbn [target]; [lia |].
  cbn [map fst] in A. pose proof (proj1 (StronglySorted_inv A)) as A1.
  destruct (bound_of s b) as [m |].
  - destruct (t <=? m) eqn:Q1; destruct (t' <=? m) eqn:Q2; try lia.
    + apply (target_ge s t' r seq A).
    + apply IH; auto.
  - apply IH; auto.
Qed.

Definition placed (T : table) (tg : key -> Z) (f : file) : Prop := f_tab f = kfilter (fun k => tg k =? f_seq f) T.

Lemma before_ok_placed : forall T tg x y, placed T tg x -> placed T tg y -> f_seq x < f_seq y ->
  (forall s t t', t <= t' -> tg (s, t) <= tg (s, t')) -> before_ok x y = true.
Proof.
  intros T tg x y Px Py Lt Mono. apply before_ok_spec. intros s a fa b fb Ia Ib.
  rewrite Px in Ia. rewrite Py in Ib. unfold kfilter in Ia, Ib. apply filter_In in Ia. apply filter_In in Ib.
  destruct Ia as [_ Ta]. destruct Ib as [_ Tb]. cbn [fst] in Ta, Tb.
  destruct (Z_lt_le_dec a b) as [? | Le]; auto. specialize (Mono s b a Le). lia.
Qed.

Section PlacedFold.
  Variable T : table.
  Variable tg : key -> Z.
  Hypothesis Mono : forall s t t', t <= t' -> tg (s, t) <= tg (s, t').

  Lemma placed_fold_layout : forall bounds acc,
    StronglySorted Z.lt (map fst bounds) ->
    asc_seq acc = true -> ord_ok_from acc = true -> Forall (placed T tg) acc ->
    (forall f sq, In f acc -> In sq (map fst bounds) -> f_seq f < sq) ->
    asc_seq (fold_left (placef T tg) bounds acc) = true /\ ord_ok_from (fold_left (placef T tg) bounds acc) = true.
  Proof.
    induction bounds as [| [seq b] r IH]; intros acc A As Ao Pl Lt; cbn [fold_left]; auto.
    cbn [map fst] in A. inversion A as [| ? ? S F]; subst.
    change (placef T tg acc (seq, b)) with (add_file seq (kfilter (fun k : key => tg k =? seq) T) acc). unfold add_file.
    destruct (kfilter (fun k : key => tg k =? seq) T) as [| r0 rs] eqn:E.
    - apply IH; auto. intros f sq If Is. apply Lt; auto. right; auto.
    - set (nf := {| f_seq := seq; f_tab := r0 :: rs |}).
      assert (Fr : fresh_seq (f_seq nf) acc = true).
      { unfold fresh_seq. apply forallb_forall. intros f If. specialize (Lt f seq If (or_introl eq_refl)). cbn. lia. }
      rewrite insert_file_fresh by exact Fr.
      assert (Pn : placed T tg nf) by (unfold placed; cbn [f_tab f_seq nf]; auto).
      apply IH; auto.
      + apply asc_snoc_fresh; auto.
      + apply ord_ok_app. repeat split; auto. intros x y Ix [<- | []].
        rewrite Forall_forall in Pl. apply (before_ok_placed T tg); auto.
        specialize (Lt x seq Ix (or_introl eq_refl)). cbn. lia.
      + apply Forall_app. split; auto.
      + intros f sq If Is. apply in_app_or in If. destruct If as [If | [<- | []]].
        * apply Lt; auto. right; auto.
        * cbn [f_seq nf]. rewrite Forall_forall in F. apply F; auto.
  Qed.
End PlacedFold.

Lemma merge_ooo_layout_ok : forall L g b, layout_ok L = true -> is_prefix g (ooo L) = true ->
  asc_zs (map fst b) = true -> layout_ok (merge_ooo g b L) = true.
Proof.
  intros L g b LO P A. apply asc_zs_ss in A. pose proof LO as LO'. apply layout_ok_split in LO'. destruct LO' as (O1 & O2 & O3). unfold merge_ooo.
  destruct (prefix_split g (ooo L) P) as (run & post & E & _ & N).
  destruct (filter (in_grp g) (ooo L)) as [| m0 ms] eqn:M; [exact LO |].
  apply layout_ok_split. cbn [ooo ord]. rewrite N.
  set (all := over (ooo_prod (m0 :: ms)) (ord_prod (ord L))).
  set (tg := fun k : key => target (fst k) (snd k) b (last_seq b)).
  change (fold_left (fun l sb => add_file (fst sb)
            (filter (fun r : row => target (fst (fst r)) (snd (fst r)) b (last_seq b) =? fst sb) all) l) b [])
    with (fold_left (placef all tg) b []).
  split; [| apply (placed_fold_layout all tg) with (acc := @nil file); auto].
  - rewrite E in O1. apply asc_seq_ss. apply asc_seq_ss in O1. rewrite map_app in O1. apply ssorted_app in O1. tauto.
  - intros s t t' Le. unfold tg. cbn [fst snd]. apply target_mono; auto.
  - intros f sq [].
Qed.

Lemma step_layout_ok : forall L o, layout_ok L = true -> op_ok L o = true -> layout_ok (step false L o) = true.
Proof.
  intros L o LO OK. pose proof LO as LO'. apply layout_ok_split in LO'. destruct LO' as (O1 & O2 & O3).
  destruct o as [b | a so su | | a so su | grps | g b | g n | n a so su]; cbn [step op_ok] in *.
  - exact LO.
  - apply andb_true_iff in OK. destruct OK as [OK _]. apply andb_true_iff in OK. destruct OK as [Fo Fu].
    unfold flush. apply end_flush_layout_ok; auto.
  - exact LO.
  - apply andb_true_iff in OK. destruct OK as [Fo Fu]. apply end_flush_layout_ok; auto.
  - apply layout_ok_split. cbn [compact ooo ord]. split; [exact O1 | apply compact_groups_layout; auto].
  - apply andb_true_iff in OK. destruct OK as [OK A]. apply andb_true_iff in OK. destruct OK as [P _].
    apply merge_ooo_layout_ok; auto.
  - apply andb_true_iff in OK. destruct OK as [Ad BN].
    unfold merge_self, merge_self_m. cbn [Z.eqb]. destruct (filter (in_grp g) (ooo L)) as [| m0 ms] eqn:E; [exact LO |].
    apply layout_ok_split. cbn [ooo ord]. repeat split; auto. unfold between_neighbours in BN. rewrite asc_seq_zs in *.
    erewrite replace_run_seqs; [exact BN | reflexivity].
  - apply andb_true_iff in OK. destruct OK as [OK _]. apply andb_true_iff in OK. destruct OK as [Fo Fu].
    unfold reopen, flush. apply end_flush_layout_ok; auto.
Qed.

(* the planner / store predicate alone: op_ok + write_ok for every op - no assumption about the layout *)
Fixpoint planned_from (L : layout) (h : list op) : bool :=
  match h with
  | [] => true
  | o :: r => op_ok L o && write_ok o && planned_from (step false L o) r
  end.
Definition ops_planned (h : list op) : bool := planned_from init h.

Lemma planned_allowed_from : forall h L, layout_ok L = true -> planned_from L h = true -> allowed_from L h = true.
Proof.
  induction h as [| o h IH]; intros L LO H; auto. cbn [planned_from allowed_from] in *.
  apply andb_true_iff in H. destruct H as [H H3]. apply andb_true_iff in H. destruct H as [H1 H2].
  assert (LO' : layout_ok (step false L o) = true) by (apply step_layout_ok; auto).
  rewrite H1, H2, LO'. cbn [andb]. apply IH; auto.
Qed.
Lemma allowed_planned_from : forall h L, allowed_from L h = true -> planned_from L h = true.
Proof.
  induction h as [| o h IH]; intros L H; auto. cbn [planned_from allowed_from] in *.
  apply andb_true_iff in H. destruct H as [H H4]. apply andb_true_iff in H. destruct H as [H H3].
  rewrite H. cbn [andb]. apply IH; auto.
Qed.
