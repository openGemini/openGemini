(* C02 property theorems, Print Assumptions, and Examples (non-vacuity / concrete histories evaluated on the model).

   Main statement (closed, for ALL histories; the invariant behind it is in Refine.v):

     C02_read_is_lww : forall h, ops_allowed h = true -> forall s tmin tmax fs asc,
        read_layout (run false h) s tmin tmax fs asc = shape tmin tmax fs asc (sel s (lww_table (writes_of h)))

   h ranges over every list of ops  Write (any rows: partial fields, late, repeated keys) | Flush | BeginFlush | EndFlush
   (paused flush: reads with a live snapshot table) | Compact (level / full: adjacent groups) | MergeOOO | MergeSelf |
   Reopen, with the sequence numbers / groups / per-file bounds the store chose as op parameters. `ops_allowed` is the
   decidable planner/store predicate (op_ok: fresh sequences, adjacent runs, oldest-prefix; written rows carry >= 1 field
   with ascending ids; layout_ok after each op: ordered files time-increasing per series) - the SAME boolean the
   correspondence evaluates on every replayed history (codes 4 and 5). `run false` is the repaired model (log replayed in
   acknowledgement order, merge-self in sequence order); the other variants - today's replay order at reopen, the merge-self
   order and the descending file-cursor walk of the code before their fixes - are refuted in Refuted.v. *)
From Coq Require Import ZArith List Bool Sorted.
From OG Require Import C02.Model C02.Proofs C02.Corr C02.Refine C02.FileCursor C02.LayoutOk C02.CorrAgg C02.TagSet C02.Limit.
Import ListNotations.
Open Scope Z_scope.

(* reading a newer container over an older one is field-wise precedence *)
Theorem C02_over_is_precedence : forall a b k f, wf_table a -> wf_table b ->
  get2 (over a b) k f = orelse (get2 a k f) (get2 b k f).
Proof. exact get2_over. Qed.
Print Assumptions C02_over_is_precedence.

Theorem C02_over_sorted_no_duplicates : forall a b, wf_table a -> wf_table b -> wf_table (over a b).
Proof. exact wf_over. Qed.

(* the insertion form lww_table (that the code-shaped sort_dedup equals it is C02_sort_dedup_code_shaped below): the table
   of a row sequence is sorted by (series,time), has one row per
   timestamp, no empty row, and its (series,time,field) lookups are the last-write-wins replay of the sequence *)
Theorem C02_sort_dedup_is_lww : forall raw, wf_raw raw ->
  wf_table (lww_table raw) /\ forall k f, get2 (lww_table raw) k f = lww_get raw k f.
Proof. exact lww_table_spec. Qed.
Print Assumptions C02_sort_dedup_is_lww.

(* rows sorted by time with no duplicate timestamps are determined by their lookups: equality of reads as lists *)
Theorem C02_rows_determined_by_lookups : forall a b, wf_table a -> wf_table b ->
  (forall k f, get2 a k f = get2 b k f) -> a = b.
Proof. exact table_ext. Qed.
Print Assumptions C02_rows_determined_by_lookups.

Theorem C02_replay_app : forall a b k f, lww_get (a ++ b) k f = orelse (lww_get b k f) (lww_get a k f).
Proof. exact lww_get_app. Qed.

(* Write step *)
Theorem C02_write_takes_precedence : forall raw b, wf_raw raw -> wf_raw b -> forall k f,
  get2 (lww_table (raw ++ b)) k f = orelse (get2 (lww_table b) k f) (get2 (lww_table raw) k f).
Proof. exact write_visible. Qed.

(* Flush step: the order / out-of-order split is invisible, provided no file holds a key of a row sent to the new
   ordered file (what  time > flushTime  gives) *)
Theorem C02_flush_invisible : forall (late : key -> bool) T U O,
  wf_table T -> wf_table U -> wf_table O ->
  (forall k, late k = false -> get kcmp T k <> None -> get kcmp U k = None /\ get kcmp O k = None) ->
  over (over (kfilter late T) U) (over (kfilter (fun k => negb (late k)) T) O) = over T (over U O).
Proof. exact flush_split_invisible. Qed.
Print Assumptions C02_flush_invisible.

(* Compact / MergeSelf / MergeOOO steps: folding an adjacent run of containers into one is invisible *)
Theorem C02_compact_merge_invisible : forall a b c, wf_table a -> wf_table b -> wf_table c ->
  over (over a b) c = over a (over b c).
Proof. exact over_assoc. Qed.
Print Assumptions C02_compact_merge_invisible.

(* ordered files are key-disjoint, so their relative precedence does not matter *)
Theorem C02_disjoint_commute : forall a b, wf_table a -> wf_table b -> disjoint a b -> over a b = over b a.
Proof.
  intros a b Wa Wb D. apply table_ext; auto with wf.
  intros k f. rewrite !get2_over; auto. destruct (D k) as [H | H]; rewrite (get2_none _ k f H).
  - cbn. rewrite orelse_none_r. auto.
  - rewrite orelse_none_r. auto.
Qed.

(* out-of-order merge lays the merged rows out over the ordered files again by a function of the key *)
Theorem C02_redistribute_invisible : forall (p : key -> bool) T, wf_table T ->
  over (kfilter p T) (kfilter (fun k => negb (p k)) T) = T.
Proof.
  intros p T WT. apply table_ext; auto with wf.
  intros k f. rewrite get2_over; auto with wf. rewrite !get2_kfilter; auto.
  destruct (p k); cbn; auto. apply orelse_none_r.
Qed.

(* the code-shaped stable sort + left-to-right replace (what ColumnSortHelper.Sort does and the evaluator runs) IS the
   last-write-wins table of the row sequence - for every row sequence, no side condition *)
Theorem C02_sort_dedup_code_shaped : forall raw, sort_dedup raw = lww_table raw.
Proof. exact sort_dedup_lww. Qed.
Print Assumptions C02_sort_dedup_code_shaped.

(* MAIN: for every allowed history, every series, time range, field subset and direction, the read of the layout equals
   the shaped last-write-wins replay of the acknowledged writes *)
Theorem C02_read_is_lww : forall h, ops_allowed h = true -> forall s tmin tmax fs asc,
  read_layout (run false h) s tmin tmax fs asc = shape tmin tmax fs asc (sel s (lww_table (writes_of h))).
Proof. intros h A s tmin tmax fs asc. unfold read_layout. rewrite (read_is_lww h A). reflexivity. Qed.
Print Assumptions C02_read_is_lww.

(* rows come back sorted by time (strictly: no duplicate timestamps), all of the series asked for, none empty;
   ascending or descending *)
Theorem C02_read_sorted_no_duplicates : forall h, ops_allowed h = true -> forall s tmin tmax fs asc,
  time_ordered asc s (read_layout (run false h) s tmin tmax fs asc).
Proof. exact read_sorted. Qed.
Print Assumptions C02_read_sorted_no_duplicates.

Theorem C02_descending_is_reverse : forall L s tmin tmax fs,
  read_layout L s tmin tmax fs false = rev (read_layout L s tmin tmax fs true).
Proof. reflexivity. Qed.

(* map form: the value a read holds at (series, timestamp, field) is the one the replay of all acknowledged writes in
   acknowledgement order left there (a later write replaces the fields it carries, the others stay) *)
Theorem C02_read_lookup_is_replay : forall h, ops_allowed h = true -> forall s t f,
  get2 (read_series (run false h) s) (s, t) f = lww_get (writes_of h) (s, t) f.
Proof.
  intros h A s t f. rewrite (read_is_lww h A). pose proof (writes_wf h init A) as W.
  destruct (lww_table_spec _ W) as [WT E]. rewrite sel_kfilter, get2_kfilter by exact WT.
  cbn [fst]. rewrite Z.eqb_refl. apply E.
Qed.
Print Assumptions C02_read_lookup_is_replay.

(* flush (plain or paused), level / full compaction, out-of-order merge, merge-self and close/reopen change no read *)
Theorem C02_reorganisation_invisible : forall h o, ops_allowed (h ++ [o]) = true -> write_free o = true ->
  forall s, read_series (run false (h ++ [o])) s = read_series (run false h) s.
Proof.
  intros h o A NW s. destruct (allowed_app h [o] init A) as [A1 _].
  rewrite (read_is_lww _ A), (read_is_lww _ A1). rewrite writes_of_app.
  destruct o; try discriminate; unfold writes_of; cbn [map concat]; rewrite !app_nil_r; reflexivity.
Qed.
Print Assumptions C02_reorganisation_invisible.

(* the evaluator's variant selector: (wal replay repaired, merge-self mode 0) is the model the theorems are about *)
Theorem C02_evaluator_variant_is_repaired : forall h, run2 false 0 h = run false h.
Proof.
  intro h. unfold run2, run. generalize init. induction h as [| o h IH]; intro L; cbn [fold_left]; auto.
Qed.

(* a history on which the correspondence evaluator reports no mismatch (repaired variant) satisfies the hypothesis of
   the theorems above: the runtime check and the theorem speak about the same predicate *)
Theorem C02_evaluator_accepts_only_allowed : forall c, check_case false 0 c = None -> ops_allowed (map fst (snd c)) = true.
Proof. intros c H. unfold check_case in H. eapply check_from_allowed; eauto. Qed.
Print Assumptions C02_evaluator_accepts_only_allowed.

(* the FILE-CURSOR read path (aggregates computed file by file: fileLoopCursor / fileCursor.readData), ascending: the
   blocks handed to the aggregate operators are, concatenated, exactly the last-write-wins rows of the series in time
   order - for every allowed history (both variants of the walk agree when ascending) *)
Theorem C02_filecursor_asc_is_lww : forall h s current, ops_allowed h = true ->
  fc_rows current false (run false h) s = sel s (lww_table (writes_of h)).
Proof.
  intros h s current A. destruct (run_core h A) as [C O].
  rewrite (fc_rows_asc_is_read _ _ s current C O). apply (read_series_core _ _ s C O).
Qed.
Print Assumptions C02_filecursor_asc_is_lww.

(* the REPAIRED descending walk (the file at visiting index len-1 is the last one; rows of memtable / out-of-order files
   are cut at each chunk's minimum time): the blocks, each delivered newest row first, are the last-write-wins rows of
   the series in descending time order - for every allowed history. The walk before /repo commit 2b99c70 is refuted in Refuted.v
   (C02_desc_filecursor_current_refuted). *)
Theorem C02_filecursor_desc_repaired_is_lww : forall h s, ops_allowed h = true ->
  fc_stream_desc (run false h) s = rev (sel s (lww_table (writes_of h))).
Proof.
  intros h s A. destruct (run_core h A) as [C O].
  rewrite (fc_stream_desc_is_read _ _ s C O). f_equal. apply (read_series_core _ _ s C O).
Qed.
Print Assumptions C02_filecursor_desc_repaired_is_lww.

(* the aggregates the evaluator recomputes on the model of the file-cursor walk (CorrAgg.v: count / sum / min / max /
   first / last, ascending and descending) are the aggregates over the last-write-wins rows *)
Theorem C02_filecursor_aggregate_is_lww : forall h o, ops_allowed h = true ->
  fc_agg o (run false h) =
  agg_of (a_fn o) (field_vals (a_f o) (a_tmin o) (a_tmax o)
                     (if a_desc o then rev (sel (a_s o) (lww_table (writes_of h))) else sel (a_s o) (lww_table (writes_of h)))).
Proof.
  intros h o A. unfold fc_agg, fc_stream. destruct (a_desc o).
  - rewrite C02_filecursor_desc_repaired_is_lww by exact A. reflexivity.
  - rewrite C02_filecursor_asc_is_lww by exact A. reflexivity.
Qed.
Print Assumptions C02_filecursor_aggregate_is_lww.

(* the merged stream of a tag set holding several series (tagSetCursor's heap: by time, equal times by series key;
   descending reversed): sorted by (time, series), and restricted to any one series it is exactly that series' read - hence
   (C02_read_is_lww) the shaped last-write-wins rows of the series *)
Theorem C02_tagset_stream_sorted : forall nser L tmin tmax fs, StronglySorted tle (flat_stream nser L tmin tmax fs true).
Proof. intros. unfold flat_stream. apply tsort_sorted. Qed.
Theorem C02_tagset_stream_per_series : forall h, ops_allowed h = true -> forall nser s tmin tmax fs asc, In s (zrange nser) ->
  filter (ser s) (flat_stream nser (run false h) tmin tmax fs asc) = read_layout (run false h) s tmin tmax fs asc.
Proof.
  intros h A nser s tmin tmax fs asc I.
  assert (X : filter (ser s) (tsort (read_shaped nser (run false h) tmin tmax fs true)) = read_layout (run false h) s tmin tmax fs true).
  { rewrite filter_tsort. unfold read_shaped.
    rewrite (filter_concat_zrange (fun x => read_layout (run false h) x tmin tmax fs true)); auto.
    - apply tsort_id. apply (read_layout_tlt h A).
    - intro x. apply (read_layout_tlt h A). }
  unfold flat_stream. destruct asc; auto. rewrite filter_rev', X. reflexivity.
Qed.
Print Assumptions C02_tagset_stream_per_series.

(* LIMIT / OFFSET pushed down to the store: an observation the evaluator accepts consists, series by series, of
   PREFIXES of the shaped last-write-wins rows *)
Theorem C02_limit_read_is_prefix_of_lww : forall h, ops_allowed h = true -> forall nser tmin tmax fs asc need per,
  limit_ok nser (run false h) (tmin, tmax, fs, asc, need, per) = true ->
  forall p s, In (p, s) (combine per (zrange nser)) ->
  exists rest, shape tmin tmax fs asc (sel s (lww_table (writes_of h))) = p ++ rest.
Proof.
  intros h A nser tmin tmax fs asc need per H p s I. rewrite <- (C02_read_is_lww h A). apply (limit_ok_sound _ _ _ _ _ _ _ _ H p s I).
Qed.
Print Assumptions C02_limit_read_is_prefix_of_lww.

(* THE LAYOUT PREDICATE IS AN INVARIANT, not an assumption: every op allowed by the planner / store predicate preserves
   it (sequences ascending; ordered files per-series time-increasing by position). The flush split at the flush time,
   the adjacency of compaction groups, and - for the out-of-order merge - the ascending sequences of the files it writes
   together with the monotone placement by bounds are exactly what keeps it. *)
Theorem C02_layout_ok_preserved : forall L o, layout_ok L = true -> op_ok L o = true -> layout_ok (step false L o) = true.
Proof. exact step_layout_ok. Qed.
Print Assumptions C02_layout_ok_preserved.

(* hence the planner predicate alone (op_ok + write_ok per op, nothing about the layout) implies the hypothesis of the
   theorems above (the converse is LayoutOk.allowed_planned_from) *)
Theorem C02_planned_is_allowed : forall h, ops_planned h = true -> ops_allowed h = true.
Proof. intros h H. apply planned_allowed_from; auto. Qed.
Theorem C02_read_is_lww_planner_only : forall h, ops_planned h = true -> forall s tmin tmax fs asc,
  read_layout (run false h) s tmin tmax fs asc = shape tmin tmax fs asc (sel s (lww_table (writes_of h))).
Proof. intros h H. apply C02_read_is_lww, C02_planned_is_allowed, H. Qed.
Print Assumptions C02_read_is_lww_planner_only.

Definition r (s t : Z) (fs : list (Z * Z)) : row := ((s, t), fs).
Definition h1 : list op :=
  [ Write [r 0 5 [(0,1);(1,1);(2,1);(3,1)]; r 1 5 [(0,2)]]; Flush false 1 2;
    Write [r 0 5 [(1,9)]; r 0 3 [(0,3)]; r 1 7 [(0,4)]]; Flush false 3 4;
    Write [r 0 5 [(2,0)]; r 0 3 [(3,2)]]; BeginFlush; Write [r 0 5 [(3,5)]; r 0 3 [(0,8)]; r 0 3 [(0,9)]]; EndFlush false 5 6;
    MergeSelf [4;6] 4; Write [r 0 6 [(0,1)]]; Flush false 7 8; Compact [[1;3]];
    MergeOOO [4] [(1, [(0,5);(1,7)]); (7, [(0,6)])]; Reopen 1 true 9 10; Write [r 0 5 [(0,7)]]; Flush false 11 12 ].

(* hypotheses are satisfiable: every op of h1 is allowed in the state it is applied to, the layout invariant holds *)
Example C02_example_ops_allowed : ops_allowed h1 = true.
Proof. vm_compute. reflexivity. Qed.

(* the read of every series equals the last-write-wins replay of the writes, ascending and descending, with a range
   and a field subset *)
Example C02_example_read_is_lww :
  forallb (fun s => Corr_eq (read_series (run false h1) s) (sel s (lww_table (writes_of h1)))) [0; 1; 2] = true
  /\ read_layout (run false h1) 0 4 6 [0; 3] false = rev (read_layout (run false h1) 0 4 6 [0; 3] true)
  /\ read_layout (run false h1) 0 4 6 [0; 3] true = shape 4 6 [0; 3] true (sel 0 (lww_table (writes_of h1))).
Proof. vm_compute. repeat split. Qed.

(* the code-shaped sort_dedup (stable sort, then left-to-right replace) agrees with the insertion form *)
Example C02_example_sort_dedup :
  let raw := [r 3 5 [(1,34);(2,1);(3,5)]; r 1 4 [(0,30);(1,5)]; r 1 4 [(0,20);(1,-6);(2,1);(3,4)]; r 3 3 [(0,15)];
              r 3 0 [(0,38);(1,-1);(2,1);(3,1)]; r 0 3 [(2,0)]; r 0 3 [(1,31)]; r 2 4 [(0,36);(1,3);(2,0);(3,4)]; r 2 4 [(2,1);(3,1)]] in
  sort_dedup raw = lww_table raw.
Proof. vm_compute. reflexivity. Qed.

(* the repaired descending file-cursor walk on the witness history of Refuted.v (C02_desc_filecursor_current_refuted): the
   count is right. fc_rows concatenates the blocks as they are visited (newest block first, each block ascending), so
   its reverse is NOT the row list (third conjunct); the stream with every block reversed is (fc_stream_desc,
   C02_filecursor_desc_repaired_is_lww) *)
Example C02_example_filecursor_desc_repaired :
  let h := [ Write [r 0 2 [(0,1)]; r 0 3 [(0,1)]]; Flush false 1 1001; Write [r 0 6 [(0,1)]]; Flush false 2 1002; Write [r 0 2 [(0,7)]] ] in
  ops_allowed h = true /\
  fc_count false true (run false h) 0 0 9 0 = 3 /\
  Corr_eq (rev (fc_rows false true (run false h) 0)) (sel 0 (lww_table (writes_of h))) = false /\
  fc_rows false false (run false h) 0 = sel 0 (lww_table (writes_of h)).
Proof. vm_compute. repeat split. Qed.

Example C02_example_ops_planned : ops_planned h1 = true.
Proof. vm_compute. reflexivity. Qed.
