(* C03 correspondence evaluator: runs the model on what the harness recorded from the real code.
   Per protocol instance: (1) the recorded step list must belong to the protocol family of C03_crash_atomic (log
   create, log write naming exactly old/new, log sync, then renames/deletes, log removal, then - for a merge - the
   out-of-order inputs deleted oldest first); (2) the file system at protocol start must satisfy protocol_pre;
   (3) for every crash image, the files (names + content ids) the real loader shows after the real recovery must equal
   the model's recover on the model state of that crash point, the real recovery's own mutations must lead to the same
   state as the model's recovery, and for second-level crashes (a prefix of the real recovery's mutations) the final
   recovery must again agree. *)
From Coq Require Import NArith ZArith List Bool.
From OG Require Import C03.Model.
Import ListNotations.

Record image := mkimg {
  i_k : option nat;          (* None: crash in the write phase before the protocol; Some k: k protocol steps applied *)
  i_sub : option nat;        (* Some j: second crash after j mutations of the recovery pass *)
  i_vis : list (N * content);
  i_left : nat;              (* .init files left after recovery *)
  i_rsteps : list step       (* the recovery pass' own mutations (of the parent image for a second-level crash) *)
}.

Record ccase := mkcase {
  c_univ : list N;
  c_fs0 : list (N * bool * content);
  c_old : list N; c_new : list N; c_unord : list N;
  c_steps : list step;
  c_images : list image
}.

Definition fs_of (l : list (N * bool * content)) : fs := mkfs (files_of l) NoLog.

Fixpoint list_eqb {A} (eqb : A -> A -> bool) (a b : list A) : bool :=
  match a, b with
  | [], [] => true
  | x :: a', y :: b' => eqb x y && list_eqb eqb a' b'
  | _, _ => false
  end.

Definition listing (univ : list N) (st : fs) : list (N * content) :=
  flat_map (fun n => match files st (n, false) with Some c => [(n, c)] | None => [] end) univ.
Definition listing_init (univ : list N) (st : fs) : list (N * content) :=
  flat_map (fun n => match files st (n, true) with Some c => [(n, c)] | None => [] end) univ.
Definition pair_eqb (a b : N * content) : bool := N.eqb (fst a) (fst b) && N.eqb (snd a) (snd b).
Definition logst_eqb (a b : logst) : bool :=
  match a, b with
  | NoLog, NoLog | DirtyLog, DirtyLog => true
  | FullLog o n, FullLog o' n' => list_eqb N.eqb o o' && list_eqb N.eqb n n'
  | _, _ => false
  end.
Definition state_eqb (univ : list N) (a b : fs) : bool :=
  list_eqb pair_eqb (listing univ a) (listing univ b) && list_eqb pair_eqb (listing_init univ a) (listing_init univ b) &&
  logst_eqb (logs a) (logs b).

(* split at the first LogRemove *)
Fixpoint split_at_logremove (l : list step) : option (list step * list step) :=
  match l with
  | [] => None
  | LogRemove :: r => Some ([], r)
  | s :: r => match split_at_logremove r with Some (a, b) => Some (s :: a, b) | None => None end
  end.

Fixpoint ascending (l : list N) : bool :=
  match l with
  | a :: ((b :: _) as r) => N.ltb a b && ascending r
  | _ => true
  end.

Definition tail_stepb (s : step) (u : N) : bool :=
  step_eqb s (Rm (u, false)) || step_eqb s (Mv (u, false) (u, true)).

(* the out-of-order inputs after the log removal, oldest first: each one removed or parked (before fbf71eb), or parked and then - unless a
   reader holds it - removed (deleteUnorderedFiles since fbf71eb) *)
Fixpoint tail_okb (tail : list step) (unord : list N) : bool :=
  match tail, unord with
  | [], [] => true
  | s :: t, u :: r =>
      tail_stepb s u &&
      match t with
      | s2 :: t2 => if step_eqb s (Mv (u, false) (u, true)) && step_eqb s2 (Rm (u, true)) then tail_okb t2 r else tail_okb t r
      | [] => tail_okb t r
      end
  | _, _ => false
  end.

(* code 0 = ok *)
Definition protocol_code (c : ccase) : nat :=
  match c_steps c with
  | LogCreate :: LogWrite o n :: LogSync :: rest =>
      if negb (list_eqb N.eqb o (c_old c) && list_eqb N.eqb n (c_new c)) then 2 else
      match split_at_logremove rest with
      | Some (body, tail) =>
          if negb (body_okb (c_old c) (c_new c) body) then 3
          else if negb (tail_okb tail (c_unord c)) then 4
          else if negb (ascending (c_unord c)) then 5
          else 0
      | None => 6
      end
  | _ => 1
  end.

Definition disjointb (a b : list N) : bool := forallb (fun x => negb (mem x b)) a.

Definition pre_code (c : ccase) : nat :=
  let st := fs_of (c_fs0 c) in
  if negb (disjointb (c_old c) (c_new c)) then 11
  else if negb (forallb (fun o => present st (o, false)) (c_old c)) then 12
  else if negb (forallb (fun n => present st (n, true) && negb (present st (n, false))) (c_new c)) then 13
  else if negb (forallb (fun o => mem o (c_univ c)) (c_old c)) then 14
  else if negb (forallb (fun e => mem (fst (fst e)) (c_univ c)) (c_fs0 c)) then 15
  else 0.

Definition image_code (c : ccase) (im : image) : nat :=
  let univ := c_univ c in
  let st0 := fs_of (c_fs0 c) in
  match i_k im with
  | None =>
      (* crash while the new files were being written: only the old files may be visible *)
      if negb (list_eqb pair_eqb (i_vis im) (listing univ st0)) then 21 else if negb (Nat.eqb (i_left im) 0) then 22 else 0
  | Some k =>
      let stk := run (firstn k (c_steps c)) st0 in
      match i_sub im with
      | None =>
          let fin := recover univ stk in
          if negb (list_eqb pair_eqb (i_vis im) (listing univ fin)) then 31
          else if negb (Nat.eqb (i_left im) 0) then 32
          else if negb (state_eqb univ (run (i_rsteps im) stk) fin) then 33
          else 0
      | Some j =>
          let fin := recover univ (run (firstn j (i_rsteps im)) stk) in
          if negb (list_eqb pair_eqb (i_vis im) (listing univ fin)) then 41
          else if negb (Nat.eqb (i_left im) 0) then 42
          else 0
      end
  end.

Fixpoint images_from (c : ccase) (i : nat) (l : list image) : list (nat * nat) :=
  match l with
  | [] => []
  | im :: r => match image_code c im with
               | 0 => images_from c (S i) r
               | code => (i, code) :: images_from c (S i) r
               end
  end.

(* (case index, image index or 0, code) for every disagreement *)
Definition case_mismatches (ci : nat) (c : ccase) : list (nat * nat * nat) :=
  (match protocol_code c with 0 => [] | code => [(ci, 0, code)] end) ++
  (match pre_code c with 0 => [] | code => [(ci, 0, code)] end) ++
  map (fun p => (ci, fst p, snd p)) (images_from c 0 (c_images c)).

Fixpoint mismatches_from (ci : nat) (cs : list ccase) : list (nat * nat * nat) :=
  match cs with
  | [] => []
  | c :: r => case_mismatches ci c ++ mismatches_from (S ci) r
  end.
Definition mismatches := mismatches_from 0.
