(* C03 model: the replace protocol of compaction / out-of-order merge over a file system with process-kill crashes,
   the start-up recovery pass (intent-log processing + loader purge of .init files), and a last-write-wins row model of
   what compaction and merge do to the logical contents.  Executable definitions only.

   Code mirrored (engine/immutable): MmsTables.ReplaceFiles, RenameTmpFiles, deleteFiles (mms_tables.go, compact.go),
   writeCompactedFileInfo / readCompactLogFile / procCompactLog / processLog / processFiles (compaction_file_info.go),
   fileLoader.Load / removeTmpFile (mms_loader.go), mergeTool.merge / deleteUnorderedFiles (merge_tool.go,
   merge_out_of_order.go). *)
From Coq Require Import NArith ZArith List Bool.
Import ListNotations.

(* ---- file system ---- *)
(* a data file name: (id, false) is "<id>.tssp", (id, true) is "<id>.tssp.init"; ids are assigned by the harness in
   directory-load order (ordered directory first, then out-of-order, each sorted by name) *)
Definition fname := (N * bool)%type.
Definition content := N.

(* the intent log of one replacement: absent, present without the magic trailer (created, torn or empty: "dirty",
   skipped by start-up and left in place), or complete *)
Inductive logst := NoLog | DirtyLog | FullLog (old new : list N).

Record fs := mkfs { files : fname -> option content; logs : logst }.

Definition fname_eqb (a b : fname) : bool := N.eqb (fst a) (fst b) && Bool.eqb (snd a) (snd b).

Definition upd (f : fname -> option content) (p : fname) (v : option content) : fname -> option content :=
  fun q => if fname_eqb q p then v else f q.

Inductive step :=
| LogCreate                      (* OpenFile(O_CREATE) of a fresh log file *)
| LogWrite (old new : list N)    (* the single Write of marshal(info) ++ magic *)
| LogSync
| LogRemove
| Mv (src dst : fname)           (* rename; replaces dst *)
| Rm (p : fname).

Definition run_step (s : step) (st : fs) : fs :=
  match s with
  | LogCreate => mkfs (files st) DirtyLog
  | LogWrite o n => mkfs (files st) (FullLog o n)
  | LogSync => st
  | LogRemove => mkfs (files st) NoLog
  | Mv a b => match files st a with
              | Some c => mkfs (upd (upd (files st) b (Some c)) a None) (logs st)
              | None => st
              end
  | Rm p => mkfs (upd (files st) p None) (logs st)
  end.

Definition run (l : list step) (st : fs) : fs := fold_left (fun s x => run_step x s) l st.

(* a torn write of the log leaves a file without the magic trailer *)
Definition torn_write (st : fs) : fs := mkfs (files st) DirtyLog.

(* ---- the replace protocol ---- *)
Definition rename_new (n : N) : step := Mv (n, true) (n, false).
(* an old file still referenced by a reader is renamed to .init and collected later; otherwise removed *)
Definition del_old (inuse : N -> bool) (o : N) : step :=
  if inuse o then Mv (o, false) (o, true) else Rm (o, false).

Definition replace_steps (inuse : N -> bool) (old new : list N) : list step :=
  [LogCreate; LogWrite old new; LogSync] ++ map rename_new new ++ map (del_old inuse) old ++ [LogRemove].

(* out-of-order merge: replace the ordered inputs, then delete the out-of-order inputs (no log) *)
Definition merge_steps (inuse : N -> bool) (old new unord : list N) : list step :=
  replace_steps inuse old new ++ map (del_old inuse) unord.

(* ---- start-up pass ---- *)
Definition present (st : fs) (p : fname) : bool := match files st p with Some _ => true | None => false end.
Definition any_form (st : fs) (n : N) : bool := present st (n, true) || present st (n, false).

Definition log_steps (st : fs) : list step :=
  match logs st with
  | FullLog old new =>
      (if forallb (any_form st) new then
         map rename_new (filter (fun n => present st (n, true)) new) ++
         map (fun o => Rm (o, false)) (filter (fun o => present st (o, false)) old)
       else if forallb (any_form st) old then
         map (fun o => Mv (o, true) (o, false)) (filter (fun o => present st (o, true)) old)
       else [])
      ++ [LogRemove]
  | _ => []
  end.

(* the loader removes every .init file it meets; univ enumerates the ids that may exist *)
Definition purge_steps (univ : list N) (st : fs) : list step :=
  map (fun n => Rm (n, true)) (filter (fun n => present st (n, true)) univ).

Definition recover_steps (univ : list N) (st : fs) : list step :=
  let a := log_steps st in a ++ purge_steps univ (run a st).

Definition recover (univ : list N) (st : fs) : fs := run (recover_steps univ st) st.

(* a crash inside the recovery pass after j of its mutations *)
Definition crash_in_recover (univ : list N) (st : fs) (j : nat) : fs := run (firstn j (recover_steps univ st)) st.

Definition recover_with_crashes (univ : list N) (cr : list nat) (st : fs) : fs :=
  recover univ (fold_left (crash_in_recover univ) cr st).

(* what a reader sees after load: the non-.init data files *)
Definition visible (st : fs) (n : N) : option content := files st (n, false).

Definition mem (n : N) (l : list N) : bool := existsb (N.eqb n) l.

Definition view_old (st0 : fs) : N -> option content := fun n => files st0 (n, false).
Definition view_new (st0 : fs) (old new : list N) : N -> option content :=
  fun n => if mem n new then files st0 (n, true) else if mem n old then None else files st0 (n, false).

(* the family of protocols covered by the theorem: log first, removal of the log last, in between any interleaving
   of "rename a new file" and "delete/park an old file" that does each of them at least once *)
Definition body_stepb (old new : list N) (s : step) : bool :=
  match s with
  | Mv (a, true) (b, false) => N.eqb a b && mem a new
  | Mv (a, false) (b, true) => N.eqb a b && mem a old
  | Rm (a, false) => mem a old
  | LogSync => true
  | _ => false
  end.

Definition step_eqb (a b : step) : bool :=
  match a, b with
  | LogCreate, LogCreate | LogSync, LogSync | LogRemove, LogRemove => true
  | Mv a1 a2, Mv b1 b2 => fname_eqb a1 b1 && fname_eqb a2 b2
  | Rm a1, Rm b1 => fname_eqb a1 b1
  | _, _ => false
  end.

Definition body_okb (old new : list N) (body : list step) : bool :=
  forallb (body_stepb old new) body &&
  forallb (fun n => existsb (step_eqb (rename_new n)) body) new &&
  forallb (fun o => existsb (step_eqb (Rm (o, false))) body || existsb (step_eqb (Mv (o, false) (o, true))) body) old.

(* ---- logical contents: last-write-wins rows ---- *)
Definition key := (N * Z * N)%type.          (* series, time, field *)
Definition store := key -> option Z.
Definition empty_store : store := fun _ => None.
(* b is newer than a: each cell b carries replaces a's, the others stay *)
Definition over (a b : store) : store := fun k => match b k with Some v => Some v | None => a k end.
(* reading a list of files in precedence order (ordered files by sequence, then out-of-order files by sequence) *)
Definition read (fl : list store) : store := fold_left over fl empty_store.
(* compaction / merge of a run of files writes their last-write-wins union *)
Definition compact (fl : list store) : store := read fl.

Definition key_eqb (a b : key) : bool :=
  match a, b with (s1, t1, f1), (s2, t2, f2) => N.eqb s1 s2 && Z.eqb t1 t2 && N.eqb f1 f2 end.
(* a file holding one cell *)
Definition cell (k : key) (v : Z) : store := fun q => if key_eqb q k then Some v else None.

(* ---- mutants of the protocol (what a wrong edit of ReplaceFiles would produce); refuted in Proofs.v. Refuted.v holds the
   refutations that are findings about the repository's code as it was ---- *)
(* the intent log is written only after the first new file was renamed into place *)
Definition mutant_log_late (old new : list N) : list step :=
  match new with
  | [] => []
  | n :: rest => rename_new n :: [LogCreate; LogWrite old new; LogSync] ++ map rename_new rest ++
                 map (fun o => Rm (o, false)) old ++ [LogRemove]
  end.
(* old files are deleted before the intent log exists *)
Definition mutant_delete_before_log (old new : list N) : list step :=
  map (fun o => Rm (o, false)) old ++ [LogCreate; LogWrite old new; LogSync] ++ map rename_new new ++ [LogRemove].
(* the intent log is removed before the old files are deleted *)
Definition mutant_log_removed_early (old new : list N) : list step :=
  [LogCreate; LogWrite old new; LogSync] ++ map rename_new new ++ [LogRemove] ++ map (fun o => Rm (o, false)) old.

(* a concrete file system used by the Examples and the refutations: old = [0;1] in place, new = [2;3] as .init *)
Definition files_of (l : list (N * bool * content)) : fname -> option content :=
  fun p => match find (fun e => fname_eqb (fst e) p) l with Some e => Some (snd e) | None => None end.
Definition ex_fs : fs := mkfs (files_of [(0, false, 10); (1, false, 11); (2, true, 12); (3, true, 13); (7, false, 17)]%N) NoLog.
