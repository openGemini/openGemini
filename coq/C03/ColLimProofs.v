(* C03 proofs for the column model with the max-segment-limit (ColLimModel): the files written for a series, laid end to
   end, are exactly the segments the compactor writes without a limit (compact_col_actual) - the split only inserts file
   boundaries; with the pre-95cf0b3 resume (every later chunk restarted at segmentIndex) rows are lost (Props.split_resume_all_chunks_refuted). *)
From Coq Require Import NArith ZArith List Bool Arith Lia.
From OG Require Import C03.ColModel C03.ColProofs C03.ColLimModel.
Import ListNotations.

Definition isnil {X} (l : list X) : bool := match l with [] => true | _ => false end.

Section Lim.
Context {A : Type} (nil : A) (m limit : nat).
Hypothesis Hm : 0 < m.
Hypothesis Hlim : 0 < limit.

(* the compactor without a limit, continued from a state and a list of remaining chunks, up to the final flush *)
Definition seg_unlim (li : bool) (rows : list nat) (col : option (list (list A))) (st : list A * list (list A)) :=
  seg_loop PadActual nil m li rows col 0 st.

Definition unlim (rem : list (src A)) (st : list A * list (list A)) : list (list A) :=
  let st' := itr_loop PadActual nil m rem st in
  if 0 <? length (fst st') then snd (write_segment m st') else snd st'.

Definition add_of (r0 : nat) (col : option (list (list A))) : list A :=
  match col with Some (seg :: _) => seg | Some [] => [] | None => repeat nil r0 end.
Definition tl_of (col : option (list (list A))) : option (list (list A)) :=
  match col with Some (_ :: segs) => Some segs | Some [] => Some [] | None => None end.

Lemma seg_loop_rc_irrel li rows : forall col rc st,
  seg_loop PadActual nil m li rows col rc st = seg_unlim li rows col st.
Proof.
  unfold seg_unlim. induction rows as [|r rest IH]; intros col rc st; [reflexivity|].
  cbn [seg_loop pad_step]. destruct col as [[|seg segs]|]; (destruct (_ && _ && _); [reflexivity | apply IH]).
Qed.

Lemma seg_unlim_cons li r0 rest col st :
  seg_unlim li (r0 :: rest) col st =
  let buf1 := fst st ++ add_of r0 col in
  if isnil rest && negb li && (length buf1 <? m) then (buf1, snd st)
  else let st1 := write_segment m (buf1, snd st) in
       let st2 := if li && isnil rest && (0 <? length (fst st1)) then write_segment m st1 else st1 in
       seg_unlim li rest (tl_of col) st2.
Proof.
  unfold seg_unlim. cbn [seg_loop pad_step]. destruct col as [[|seg segs]|]; cbn [add_of tl_of];
    (destruct (_ && _ && _); [reflexivity|]); rewrite seg_loop_rc_irrel; reflexivity.
Qed.

Lemma lseg_cons li i j r0 rest col st :
  lseg_loop nil m limit li i j (r0 :: rest) col st =
  let buf1 := l_buf st ++ add_of r0 col in
  if isnil rest && negb li && (length buf1 <? m) then Go (mklst buf1 (l_out st) (l_n st))
  else let w := write_segment m (buf1, l_out st) in
       let n1 := S (l_n st) in
       if (limit <=? n1) && (negb li || negb (isnil rest) || (0 <? length (fst w))) then
         if isnil rest then Split (mklst (fst w) (snd w) n1) (S i) 0 else Split (mklst (fst w) (snd w) n1) i (S j)
       else
         let st2 := if li && isnil rest && (0 <? length (fst w)) && (n1 <? limit)
                    then let w2 := write_segment m w in mklst (fst w2) (snd w2) (S n1)
                    else mklst (fst w) (snd w) n1 in
         lseg_loop nil m limit li i (S j) rest (tl_of col) st2.
Proof. cbn [lseg_loop]. destruct col as [[|seg segs]|]; reflexivity. Qed.

Lemma unlim_cons s r st : unlim (s :: r) st = unlim r (seg_unlim (isnil r) (s_rows s) (s_col s) st).
Proof. unfold unlim. cbn [itr_loop]. rewrite seg_loop_rc_irrel. reflexivity. Qed.

Lemma unlim_nil st : unlim [] st = if 0 <? length (fst st) then snd (write_segment m st) else snd st.
Proof. reflexivity. Qed.

Lemma write_prefix (buf : list A) O out :
  write_segment m (buf, O ++ out) = (fst (write_segment m (buf, out)), O ++ snd (write_segment m (buf, out))).
Proof. unfold write_segment. destruct (m <? length buf); cbn [fst snd]; rewrite app_assoc; reflexivity. Qed.

Definition col_ok (rows : list nat) (col : option (list (list A))) : Prop :=
  match col with Some segs => map (@length A) segs = rows | None => True end.

Lemma col_ok_tl r0 rest col : col_ok (r0 :: rest) col -> col_ok rest (tl_of col).
Proof.
  destruct col as [[|seg segs]|]; cbn [col_ok tl_of]; try tauto; try discriminate.
  intro H. cbn in H. injection H as _ H. exact H.
Qed.

Lemma col_ok_add r0 rest col : col_ok (r0 :: rest) col -> length (add_of r0 col) = r0.
Proof.
  destruct col as [[|seg segs]|]; cbn [col_ok add_of]; [discriminate | | intros _; apply repeat_length].
  intro H. injection H as H _. exact H.
Qed.

Lemma option_skipn_1 r0 rest col : col_ok (r0 :: rest) col -> option_skipn 1 col = tl_of col.
Proof. destruct col as [[|seg segs]|]; cbn; try reflexivity; try discriminate. Qed.

Lemma option_skipn_S k (col : option (list (list A))) : option_skipn (S k) col = option_skipn k (option_skipn 1 col).
Proof. destruct col as [[|seg segs]|]; cbn [option_skipn skipn]; try reflexivity. destruct k; reflexivity. Qed.

(* O: the segments written to earlier output files, out: those written to this file so far. One call of the limited segment loop
   from (buf, out, n) is the unlimited loop from (buf, O ++ out): if it finishes the chunk the states agree; if it leaves at the
   limit after k segments, the unlimited run continues from what the next file resumes with *)
Lemma lseg_sim (r : list (src A)) i : forall rows col j buf out n O,
  Forall (fun x => x <= m) rows -> col_ok rows col -> length buf < m -> n < limit ->
  let li := isnil r in
  match lseg_loop nil m limit li i j rows col (mklst buf out n) with
  | Go st' =>
      length (l_buf st') < m /\ (l_n st' < limit \/ (li = true /\ l_buf st' = [])) /\
      seg_unlim li rows col (buf, O ++ out) = (l_buf st', O ++ l_out st')
  | Split st' i' j' =>
      length (l_buf st') < m /\
      exists k, 0 < k <= length rows /\
        ((k < length rows /\ i' = i /\ j' = j + k) \/ (k = length rows /\ i' = S i /\ j' = 0)) /\
        unlim r (seg_unlim li rows col (buf, O ++ out)) =
        unlim r (seg_unlim li (skipn k rows) (option_skipn k col) (l_buf st', O ++ l_out st'))
  end.
Proof.
  induction rows as [|r0 rest IH]; intros col j buf out n O Hle Hcol Hb Hn li.
  - cbn [lseg_loop l_buf l_n l_out]. split; [exact Hb|]. split; [left; exact Hn | reflexivity].
  - rewrite lseg_cons. cbn [l_buf l_out l_n]. cbn zeta.
    apply Forall_cons_iff in Hle. destruct Hle as [Hr0 Hle].
    pose proof (col_ok_add _ _ _ Hcol) as Hadd. pose proof (col_ok_tl _ _ _ Hcol) as Hcol'.
    set (buf1 := buf ++ add_of r0 col).
    assert (Hb1 : length buf1 < 2 * m) by (unfold buf1; rewrite app_length, Hadd; lia).
    rewrite (seg_unlim_cons li r0 rest col (buf, O ++ out)). cbn [fst snd]. cbn zeta. fold buf1.
    destruct (isnil rest && negb li && (length buf1 <? m)) eqn:Ecm.
    + (* continueMerge *)
      cbn [l_buf l_n l_out]. apply andb_prop in Ecm. destruct Ecm as [_ Hlt]. apply Nat.ltb_lt in Hlt.
      split; [exact Hlt|]. split; [left; exact Hn | reflexivity].
    + rewrite (write_prefix buf1 O out).
      assert (Hw0 : length (fst (write_segment m (buf1, out))) < m) by exact (proj1 (write_spec m buf1 out Hm Hb1)).
      destruct (write_segment m (buf1, out)) as [wb wo] eqn:Ew. cbn [fst snd] in *.
      destruct ((limit <=? S n) && (negb li || negb (isnil rest) || (0 <? length wb))) eqn:Esp.
      * (* the file is full and there is more *)
        destruct rest as [|r1 rest1]; cbn [isnil].
        -- (* last segment of the chunk: resume at the next chunk *)
           cbn [l_buf l_out l_n]. split; [exact Hw0|]. exists 1. split; [cbn; lia|]. split; [right; cbn; repeat split; lia|].
           cbn [skipn length]. rewrite (option_skipn_1 _ _ _ Hcol). cbn [isnil andb].
           unfold seg_unlim. cbn [seg_loop fst snd].
           destruct li eqn:Eli; cbn [andb]; [|reflexivity].
           (* last chunk: without a limit the rest is written at once, with the limit by writeLastSegment of the next file *)
           destruct (Nat.ltb_spec 0 (length wb)) as [Hp|Hz]; [|reflexivity].
           rewrite (write_segment_le m wb (O ++ wo)) by lia.
           subst li. destruct r; [|discriminate]. rewrite !unlim_nil. cbn [fst snd].
           replace (0 <? length (@Datatypes.nil A)) with false by reflexivity.
           rewrite (proj2 (Nat.ltb_lt _ _) Hp).
           rewrite (write_segment_le m wb (O ++ wo)) by lia. reflexivity.
        -- cbn [l_buf l_out l_n]. split; [exact Hw0|]. exists 1. split; [cbn; lia|]. split; [left; cbn; repeat split; lia|].
           cbn [skipn]. rewrite (option_skipn_1 _ _ _ Hcol). rewrite !andb_false_r. cbn [andb]. reflexivity.
      * (* go on in the same file *)
        destruct rest as [|r1 rest1].
        -- cbn [isnil andb lseg_loop]. rewrite !andb_true_r.
           unfold seg_unlim. cbn [seg_loop].
           destruct li eqn:Eli; cbn [andb negb orb] in *.
           ++ destruct (Nat.ltb_spec 0 (length wb)) as [Hp|Hz].
              ** (* rows left over at the very end: written at once (the limit is not reached, else we had split) *)
                 rewrite orb_true_r, andb_true_r in Esp. apply Nat.leb_gt in Esp.
                 destruct (Nat.ltb_spec (S n) limit); [|lia]. cbn [andb].
                 rewrite (write_prefix wb O wo). rewrite (write_segment_le m wb wo) by lia. cbn [l_buf l_out l_n fst snd length].
                 split; [lia|]. split; [right; split; reflexivity | reflexivity].
              ** cbn [andb l_buf l_out l_n]. split; [exact Hw0|]. split; [|reflexivity].
                 right. split; [reflexivity|]. destruct wb; [reflexivity | cbn in Hz; lia].
           ++ cbn [l_buf l_out l_n]. split; [exact Hw0|]. split; [|reflexivity].
              left. rewrite andb_true_r in Esp. apply Nat.leb_gt in Esp. exact Esp.
        -- cbn [isnil]. rewrite !andb_false_r. cbn [andb].
           assert (Hn1 : S n < limit).
           { cbn [isnil negb orb] in Esp. rewrite orb_true_r in Esp. cbn [orb] in Esp. rewrite andb_true_r in Esp.
             apply Nat.leb_gt in Esp. exact Esp. }
           specialize (IH (tl_of col) (S j) wb wo (S n) O Hle Hcol' Hw0 Hn1). cbn zeta in IH.
           fold li in IH.
           destruct (lseg_loop nil m limit li i (S j) (r1 :: rest1) (tl_of col) (mklst wb wo (S n))) as [st'|st' i' j'].
           ++ exact IH.
           ++ destruct IH as [I1 [k [Hk [Hpos HF]]]]. split; [exact I1|]. exists (S k).
              split; [cbn [length] in *; lia|]. split.
              ** cbn [length] in *. destruct Hpos as [[P1 [P2 P3]]|[P1 [P2 P3]]]; [left | right]; repeat split; lia.
              ** rewrite HF. cbn [skipn]. rewrite option_skipn_S, (option_skipn_1 _ _ _ Hcol). reflexivity.
Qed.

Definition cut_src (j : nat) (s : src A) : src A := mksrc (skipn j (s_rows s)) (option_skipn j (s_col s)).
Definition cutL (j : nat) (L : list (src A)) : list (src A) :=
  match L with [] => [] | s :: r => cut_src j s :: r end.

Lemma cutL_0 L : cutL 0 L = L.
Proof. destruct L as [|[rows [c|]] r]; reflexivity. Qed.

Definition okc (s : src A) : Prop := Forall (fun x => x <= m) (s_rows s) /\ col_ok (s_rows s) (s_col s).

Lemma okc_of_bounded s : bounded_src m s -> okc s.
Proof. intros [_ [H1 H2]]. split; [exact H1 | exact H2]. Qed.

Lemma Forall_skipn {X} (P : X -> Prop) k l : Forall P l -> Forall P (skipn k l).
Proof. revert l. induction k; intros [|x l] H; cbn; try assumption. inversion H; subst. apply IHk. assumption. Qed.

Lemma col_ok_skipn k rows col : col_ok rows col -> col_ok (skipn k rows) (option_skipn k col).
Proof.
  destruct col as [segs|]; cbn [col_ok option_skipn]; [|tauto]. intro H. rewrite <- H.
  clear H. revert segs. induction k; intros [|x segs]; cbn; try reflexivity. apply IHk.
Qed.

Lemma nsegs_cons s (r : list (src A)) : nsegs (s :: r) = length (s_rows s) + nsegs r.
Proof. reflexivity. Qed.

Lemma skipn_skipn {X} a b (l : list X) : skipn a (skipn b l) = skipn (b + a) l.
Proof.
  revert l. induction b; intro l; [reflexivity|]. destruct l; [destruct a; reflexivity|]. cbn [skipn Nat.add]. apply IHb.
Qed.

Lemma option_skipn_skipn a b (c : option (list (list A))) : option_skipn a (option_skipn b c) = option_skipn (b + a) c.
Proof. destruct c; cbn [option_skipn]; [rewrite skipn_skipn|]; reflexivity. Qed.

Lemma litr_sim : forall (L : list (src A)) i j0 buf out n O,
  Forall okc L -> length buf < m -> n < limit ->
  match litr_loop false nil m limit i j0 L (mklst buf out n) with
  | Go st' =>
      length (l_buf st') < m /\ (l_n st' < limit \/ l_buf st' = []) /\
      unlim (cutL j0 L) (buf, O ++ out) = unlim [] (l_buf st', O ++ l_out st')
  | Split st' i' j' =>
      length (l_buf st') < m /\ i <= i' /\
      nsegs (cutL j' (skipn (i' - i) L)) < nsegs (cutL j0 L) /\
      unlim (cutL j0 L) (buf, O ++ out) = unlim (cutL j' (skipn (i' - i) L)) (l_buf st', O ++ l_out st')
  end.
Proof.
  induction L as [|s r IH]; intros i j0 buf out n O Hok Hb Hn.
  - cbn [litr_loop l_buf l_n l_out cutL]. split; [exact Hb|]. split; [left; exact Hn | reflexivity].
  - inversion Hok as [|? ? [Hs1 Hs2] Hr]; subst. cbn [litr_loop cutL].
    pose proof (lseg_sim r i (skipn j0 (s_rows s)) (option_skipn j0 (s_col s)) j0 buf out n O
                  (Forall_skipn _ _ _ Hs1) (col_ok_skipn _ _ _ Hs2) Hb Hn) as HA. cbn zeta in HA.
    fold (isnil r) in *.
    rewrite (unlim_cons (cut_src j0 s) r). cbn [cut_src s_rows s_col].
    destruct (lseg_loop nil m limit (isnil r) i j0 (skipn j0 (s_rows s)) (option_skipn j0 (s_col s)) (mklst buf out n))
      as [st'|st' i' j'].
    + destruct HA as [A1 [A2 A3]]. rewrite A3.
      destruct r as [|s2 r2].
      * cbn [litr_loop]. split; [exact A1|]. split; [|reflexivity].
        destruct A2 as [A2|[_ A2]]; [left | right]; assumption.
      * assert (Hn' : l_n st' < limit) by (destruct A2 as [A2|[A2 _]]; [exact A2 | discriminate]).
        destruct st' as [b' o' n']. cbn [l_buf l_out l_n] in *.
        specialize (IH (S i) 0 b' o' n' O Hr A1 Hn'). rewrite cutL_0 in IH.
        destruct (litr_loop false nil m limit (S i) 0 (s2 :: r2) (mklst b' o' n')) as [st''|st'' i'' j''].
        -- exact IH.
        -- destruct IH as [I1 [I2 [I3 I4]]]. split; [exact I1|]. split; [lia|].
           replace (i'' - i) with (S (i'' - S i)) by lia. cbn [skipn]. split; [|exact I4].
           rewrite nsegs_cons. lia.
    + destruct HA as [A1 [k [Hk [Hpos HF]]]]. split; [exact A1|].
      destruct Hpos as [[P1 [P2 P3]]|[P1 [P2 P3]]]; subst i' j'.
      * split; [lia|]. rewrite Nat.sub_diag. cbn [skipn cutL]. split.
        -- rewrite !nsegs_cons. cbn [cut_src s_rows]. rewrite <- (skipn_skipn k j0). rewrite !skipn_length in *. lia.
        -- rewrite HF, (unlim_cons (cut_src (j0 + k) s) r). cbn [cut_src s_rows s_col].
           rewrite skipn_skipn, option_skipn_skipn. reflexivity.
      * split; [lia|]. replace (S i - i) with 1 by lia. cbn [skipn]. rewrite cutL_0. split.
        -- rewrite nsegs_cons. cbn [cut_src s_rows]. lia.
        -- rewrite HF, P1, skipn_all. unfold seg_unlim. cbn [seg_loop]. reflexivity.
Qed.

Lemma skipn_sub_skipn {X} a b (l : list X) : a <= b -> skipn (b - a) (skipn a l) = skipn b l.
Proof. intro H. rewrite skipn_skipn. f_equal. lia. Qed.

(* the fuel of lrounds: every file that ends in a split leaves strictly fewer segments to do (litr_sim), so nsegs + 1 rounds
   suffice; ColLimModel gives one more *)
Lemma lrounds_sim (srcs : list (src A)) : forall fuel i0 j0 b O,
  Forall okc srcs -> length b < m -> nsegs (cutL j0 (skipn i0 srcs)) < fuel ->
  O ++ concat (lrounds fuel false nil m limit srcs i0 j0 b) = unlim (cutL j0 (skipn i0 srcs)) (b, O).
Proof.
  induction fuel as [|f IH]; intros i0 j0 b O Hok Hb Hfuel; [lia|].
  cbn [lrounds]. unfold lround.
  pose proof (litr_sim (skipn i0 srcs) i0 j0 b [] 0 O (Forall_skipn _ _ _ Hok) Hb Hlim) as HB.
  rewrite app_nil_r in HB.
  destruct (litr_loop false nil m limit i0 j0 (skipn i0 srcs) (mklst b [] 0)) as [st'|st' i' j'].
  - destruct HB as [B1 [B2 B3]]. rewrite B3, unlim_nil. cbn [fst snd].
    destruct (Nat.ltb_spec 0 (length (l_buf st'))) as [Hp|Hz]; cbn [andb].
    + destruct B2 as [B2|B2]; [|rewrite B2 in Hp; cbn in Hp; lia].
      destruct (Nat.ltb_spec (l_n st') limit); [|lia]. cbn [concat]. rewrite app_nil_r, write_prefix. reflexivity.
    + cbn [concat]. rewrite app_nil_r. reflexivity.
  - destruct HB as [B1 [B2 [B3 B4]]]. rewrite (skipn_sub_skipn _ _ _ B2) in B3, B4.
    cbn [concat]. rewrite app_assoc, (IH i' j' (l_buf st') (O ++ l_out st') Hok B1); [symmetry; exact B4 | lia].
Qed.

Lemma compact_col_lim_correct (srcs : list (src A)) :
  Forall (bounded_src m) srcs ->
  concat (compact_col_lim nil m limit srcs) = compact_col_actual nil m srcs.
Proof.
  intro Hall. unfold compact_col_lim, compact_col_lim_gen.
  assert (Hok : Forall okc srcs) by (eapply Forall_impl; [|exact Hall]; intros; apply okc_of_bounded; assumption).
  pose proof (lrounds_sim srcs (S (S (nsegs srcs))) 0 0 [] [] Hok) as H. cbn [skipn app] in H. rewrite cutL_0 in H.
  rewrite H; [reflexivity | cbn; lia | lia].
Qed.

End Lim.

