(* C03 column-level correspondence evaluator: runs the code-shaped column compactor (ColModel.compact_col) on the
   physical layout of the input chunks of one series as the harness read them from the real files, and compares the
   result with the physical layout of the chunk that the real compaction (streaming or not) wrote: same column set (the
   union of the inputs' columns), same segments, same cells in the same rows. *)
From Coq Require Import NArith ZArith List Bool Arith.
From OG Require Import C03.ColModel C03.ColLimModel.
Import ListNotations.

Definition cellv := option Z.     (* None = nil *)

Record chunk := mkchunk {
  k_t : list (list Z);                        (* time segments *)
  k_c : list (N * list (list cellv))          (* column id -> its segments *)
}.

Record colcase := mkcc {
  cc_max : nat;                (* max-rows-per-segment *)
  cc_limit : nat;              (* max-segment-limit if the case runs with a small one (the series may be split over several files), else 0 *)
  cc_fields : list N;          (* the union of the column ids, in the compactor's (name) order *)
  cc_in : list chunk;          (* the series' chunk in every input file, in file order *)
  cc_out : list chunk          (* the series' chunk in every output file *)
}.

Fixpoint lookup (f : N) (l : list (N * list (list cellv))) : option (list (list cellv)) :=
  match l with
  | [] => None
  | (g, v) :: r => if N.eqb f g then Some v else lookup f r
  end.

Definition rows_of (c : chunk) : list nat := map (@length Z) (k_t c).

Definition src_of_field (f : N) (c : chunk) : src cellv := mksrc (rows_of c) (lookup f (k_c c)).
Definition src_of_time (c : chunk) : src cellv := mksrc (rows_of c) (Some (map (map (fun t => Some t)) (k_t c))).

Definition model_field (mode : padmode) (cc : colcase) (f : N) : list (list cellv) :=
  compact_col_gen mode None (cc_max cc) (map (src_of_field f) (cc_in cc)).
Definition model_time (mode : padmode) (cc : colcase) : list (list cellv) :=
  compact_col_gen mode None (cc_max cc) (map src_of_time (cc_in cc)).

Definition cell_eqb (a b : cellv) : bool :=
  match a, b with
  | None, None => true
  | Some x, Some y => Z.eqb x y
  | _, _ => false
  end.

Fixpoint list_eqb {A} (eqb : A -> A -> bool) (a b : list A) : bool :=
  match a, b with
  | [], [] => true
  | x :: a', y :: b' => eqb x y && list_eqb eqb a' b'
  | _, _ => false
  end.

Definition segs_eqb := list_eqb (list_eqb cell_eqb).

(* is the chunk well-formed for this max-rows (the premise of the theorems)? *)
Fixpoint wf_rowsb (m : nat) (rows : list nat) : bool :=
  match rows with
  | [] => false
  | r :: rest => match rest with
                 | [] => (1 <=? r) && (r <=? m)
                 | _ => (r =? m) && wf_rowsb m rest
                 end
  end.
Definition wf_chunkb (m : nat) (c : chunk) : bool :=
  wf_rowsb m (rows_of c) &&
  forallb (fun e => list_eqb Nat.eqb (map (@length cellv) (snd e)) (rows_of c)) (k_c c).

(* 0 = agrees *)
Definition colcase_code (mode : padmode) (cc : colcase) : nat :=
  match cc_out cc with
  | [o] =>
      if negb (segs_eqb (map (map (fun t => Some t)) (k_t o)) (model_time mode cc)) then 52
      else if negb (forallb (fun f => match lookup f (k_c o) with
                                      | Some segs => segs_eqb segs (model_field mode cc f)
                                      | None => false
                                      end)
                            (filter (fun f => existsb (fun c => match lookup f (k_c c) with Some _ => true | None => false end) (cc_in cc))
                                    (cc_fields cc))) then 53
      else if negb (forallb (fun e => existsb (fun c => match lookup (fst e) (k_c c) with Some _ => true | None => false end) (cc_in cc))
                            (k_c o)) then 54
      else if forallb (wf_chunkb (cc_max cc)) (cc_in cc) && negb (wf_chunkb (cc_max cc) o) then 55
      else 0
  | _ => 51
  end.

(* ---- with a max-segment-limit: the series' chunk in EVERY output file, in file order, against ColLimModel ---- *)
Definition lim_field (cc : colcase) (f : N) : list (list (list cellv)) :=
  compact_col_lim None (cc_max cc) (cc_limit cc) (map (src_of_field f) (cc_in cc)).
Definition lim_time (cc : colcase) : list (list (list cellv)) :=
  compact_col_lim None (cc_max cc) (cc_limit cc) (map src_of_time (cc_in cc)).

Definition files_eqb := list_eqb segs_eqb.

Definition in_fields (cc : colcase) : list N :=
  filter (fun f => existsb (fun c => match lookup f (k_c c) with Some _ => true | None => false end) (cc_in cc)) (cc_fields cc).

Definition colcase_lim_code (cc : colcase) : nat :=
  if negb (files_eqb (map (fun o => map (map (fun t => Some t)) (k_t o)) (cc_out cc)) (lim_time cc)) then 56
  else if negb (forallb (fun f => files_eqb (map (fun o => match lookup f (k_c o) with Some segs => segs | None => [] end) (cc_out cc))
                                            (lim_field cc f)) (in_fields cc)) then 57
  else if negb (forallb (fun o => forallb (fun e => existsb (N.eqb (fst e)) (in_fields cc)) (k_c o)) (cc_out cc)) then 54
  else if negb (forallb (fun o => Nat.leb (length (k_t o)) (cc_limit cc)) (cc_out cc)) then 58
  else 0.

(* (index, code under the repaired padding PadActual, code under the counter padding PadCounter of before f0b71e4) whenever the repaired
   model does not agree; on well-formed inputs the two models coincide (ColProofs.actual_eq_counter_on_wf) *)
Fixpoint col_mismatches_from (i : nat) (l : list colcase) : list (nat * nat * nat) :=
  match l with
  | [] => []
  | c :: r =>
      match cc_limit c with
      | 0 => match colcase_code PadActual c with
             | 0 => col_mismatches_from (S i) r
             | code => (i, code, colcase_code PadCounter c) :: col_mismatches_from (S i) r
             end
      | _ => match colcase_lim_code c with
             | 0 => col_mismatches_from (S i) r
             | code => (i, code, code) :: col_mismatches_from (S i) r
             end
      end
  end.
Definition col_mismatches := col_mismatches_from 0.
