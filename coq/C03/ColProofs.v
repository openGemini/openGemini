(* C03 column-compaction proofs: for well-formed input chunks the code-shaped compactor writes exactly the cells of the
   inputs, in order, absent columns as nils, in segments of max-rows (the last one shorter): nothing lost, duplicated,
   reordered or shifted against the time column. *)
From Coq Require Import NArith ZArith List Bool Arith Lia.
From OG Require Import C03.ColModel.
Import ListNotations.

Lemma total_app a b : total (a ++ b) = total a + total b.
Proof. unfold total. induction a as [|x a IH]; cbn; [reflexivity | rewrite IH; lia]. Qed.

Lemma total_cons x l : total (x :: l) = x + total l.
Proof. reflexivity. Qed.

Lemma wf_rows_cons2 m r r2 rest : wf_rows m (r :: r2 :: rest) <-> r = m /\ wf_rows m (r2 :: rest).
Proof. reflexivity. Qed.

Lemma wf_rows_one m r : wf_rows m [r] <-> 1 <= r <= m.
Proof. reflexivity. Qed.

Lemma wf_rows_total_pos m rows : wf_rows m rows -> 1 <= total rows.
Proof.
  induction rows as [|r rest IH]; [cbn; tauto|].
  intro H. rewrite total_cons. destruct rest as [|r2 rest2].
  - pose proof (proj1 (wf_rows_one _ _) H) as H1. change (total []) with 0. lia.
  - pose proof (proj1 (wf_rows_cons2 _ _ _ _) H) as [_ H1]. specialize (IH H1). lia.
Qed.

Lemma wf_rows_bounded m rows : wf_rows m rows -> rows <> [] /\ Forall (fun r => r <= m) rows.
Proof.
  induction rows as [|r rest IH]; [cbn; tauto|]. intro H. split; [discriminate|]. destruct rest as [|r2 rest2].
  - cbn in H. constructor; [lia | constructor].
  - destruct H as [-> H]. constructor; [lia | apply IH; exact H].
Qed.

Lemma seg_loop_some_irrel {A} mode mode' (nil : A) m li rows : forall col rc rc' st,
  seg_loop mode nil m li rows (Some col) rc st = seg_loop mode' nil m li rows (Some col) rc' st.
Proof.
  induction rows as [|r rest IH]; intros col rc rc' st; [reflexivity|].
  cbn [seg_loop]. destruct col as [|seg segs]; (destruct (_ && _ && _); [reflexivity | apply IH]).
Qed.

(* nil padding acts as a column that is there and full of nils: the counter arithmetic on well-formed chunks, the repaired
   padding always *)
Lemma pad_as_present {A} (nil : A) m lastItr rows st :
  wf_rows m rows ->
  seg_loop PadCounter nil m lastItr rows None (total rows) st =
  seg_loop PadCounter nil m lastItr rows (Some (map (repeat nil) rows)) (total rows) st.
Proof.
  revert st. induction rows as [|r rest IH]; intros st Hwf; [reflexivity|].
  cbn [seg_loop map]. destruct rest as [|r2 rest2].
  - cbn in Hwf. unfold pad_step. cbn [total fold_right]. rewrite Nat.add_0_r.
    destruct (Nat.ltb_spec m r); [lia|]. reflexivity.
  - destruct Hwf as [Hr Hwf]. subst r.
    pose proof (wf_rows_total_pos _ _ Hwf) as Hp.
    unfold pad_step. change (total (m :: r2 :: rest2)) with (m + total (r2 :: rest2)).
    destruct (Nat.ltb_spec m (m + total (r2 :: rest2))); [|lia].
    replace (m + total (r2 :: rest2) - m) with (total (r2 :: rest2)) by lia.
    cbn [andb]. rewrite (IH _ Hwf). apply seg_loop_some_irrel.
Qed.

Lemma pad_actual_as_present {A} (nil : A) m lastItr rows : forall rc st,
  seg_loop PadActual nil m lastItr rows None rc st =
  seg_loop PadActual nil m lastItr rows (Some (map (repeat nil) rows)) rc st.
Proof.
  induction rows as [|r rest IH]; intros rc st; [reflexivity|].
  cbn [seg_loop map pad_step]. destruct (_ && _ && _); [reflexivity|]. apply IH.
Qed.

(* between segments: fewer than max-rows rows buffered; on well-formed chunks only full segments are written *)
Definition full {A} (m : nat) (out : list (list A)) : Prop := Forall (fun s => length s = m) out.

Definition flat {A} (st : list A * list (list A)) : list A := concat (snd st) ++ fst st.

Lemma concat_snoc {A} (l : list (list A)) x : concat (l ++ [x]) = concat l ++ x.
Proof. rewrite concat_app. cbn. rewrite app_nil_r. reflexivity. Qed.

Lemma Forall_snoc {A} (P : A -> Prop) l x : Forall P l -> P x -> Forall P (l ++ [x]).
Proof. intros H1 H2. apply Forall_app. split; [exact H1 | constructor; [exact H2 | constructor]]. Qed.

Lemma write_segment_gt {A} m (buf : list A) out :
  m < length buf -> write_segment m (buf, out) = (skipn m buf, out ++ [firstn m buf]).
Proof. intro H. unfold write_segment. destruct (Nat.ltb_spec m (length buf)); [reflexivity | lia]. Qed.

Lemma write_segment_le {A} m (buf : list A) out :
  length buf <= m -> write_segment m (buf, out) = ([], out ++ [buf]).
Proof. intro H. unfold write_segment. destruct (Nat.ltb_spec m (length buf)); [lia | reflexivity]. Qed.

(* the bound 2 * max-rows: when the loop writes it has fewer than max-rows rows buffered plus a segment of at most max-rows *)
Lemma write_spec {A} m (buf : list A) out :
  0 < m -> length buf < 2 * m ->
  length (fst (write_segment m (buf, out))) < m /\ flat (write_segment m (buf, out)) = concat out ++ buf /\
  (m <= length buf -> full m out -> full m (snd (write_segment m (buf, out)))).
Proof.
  intros Hm Hl. unfold write_segment, flat, full. destruct (Nat.ltb_spec m (length buf)); cbn [fst snd].
  - split; [rewrite skipn_length; lia|]. split; [rewrite concat_snoc, <- app_assoc, firstn_skipn; reflexivity|].
    intros _ Ho. apply Forall_snoc; [exact Ho|]. rewrite firstn_length. lia.
  - split; [cbn; lia|]. split; [rewrite concat_snoc, app_nil_r; reflexivity|].
    intros Hge Ho. apply Forall_snoc; [exact Ho | lia].
Qed.

Definition done_shape {A} (m : nat) (out : list (list A)) : Prop :=
  exists fullsegs lastseg, out = fullsegs ++ [lastseg] /\ full m fullsegs /\ 1 <= length lastseg <= m.

(* li is lastItr: only the chunk's last segment looks at it, so the last chunk (which flushes the buffer) and the others share
   the induction *)
Lemma seg_loop_spec {A} (mode : padmode) (nil : A) m li rows : forall (segs : list (list A)) rc st,
  0 < m -> rows <> [] -> Forall (fun r => r <= m) rows -> map (@length A) segs = rows -> length (fst st) < m ->
  let st' := seg_loop mode nil m li rows (Some segs) rc st in
  (if li then fst st' = [] else length (fst st') < m) /\ flat st' = flat st ++ concat segs /\
  (wf_rows m rows -> full m (snd st) -> if li then done_shape m (snd st') else full m (snd st')).
Proof.
  induction rows as [|r rest IH]; intros segs rc st Hm Hne Hb Hlen Hinv; [congruence|].
  destruct segs as [|seg segs]; [discriminate|]. cbn in Hlen. injection Hlen as Hseg Hlen.
  apply Forall_cons_iff in Hb. destruct Hb as [Hr Hb'].
  destruct st as [buf out]. cbn [fst snd] in Hinv. cbn [seg_loop fst snd].
  assert (Hl2 : length (buf ++ seg) < 2 * m) by (rewrite app_length; lia).
  destruct (write_spec m (buf ++ seg) out Hm Hl2) as [Hi [Hf Hs]].
  destruct rest as [|r2 rest2].
  - destruct segs; [|discriminate]. unfold flat at 2. cbn [fst snd concat]. rewrite app_nil_r, <- app_assoc.
    destruct li; cbn [negb andb seg_loop].
    + destruct (Nat.ltb_spec m (length (buf ++ seg))) as [Hgt|Hle].
      * (* more than a segment: a full one, then the rest *)
        rewrite (write_segment_gt m (buf ++ seg) out Hgt). cbn [fst].
        assert (Hsk : 1 <= length (skipn m (buf ++ seg)) < m) by (rewrite skipn_length, app_length in *; lia).
        destruct (Nat.ltb_spec 0 (length (skipn m (buf ++ seg)))); [|lia].
        rewrite write_segment_le by lia. unfold flat. cbn [fst snd].
        split; [reflexivity|]. split; [rewrite app_nil_r, !concat_snoc, <- app_assoc, firstn_skipn; reflexivity|].
        intros _ Ho. exists (out ++ [firstn m (buf ++ seg)]), (skipn m (buf ++ seg)). split; [reflexivity|]. split; [|lia].
        apply Forall_snoc; [exact Ho|]. rewrite firstn_length. lia.
      * rewrite (write_segment_le m (buf ++ seg) out Hle). unfold flat. cbn [fst snd length Nat.ltb Nat.leb].
        split; [reflexivity|]. split; [rewrite concat_snoc, app_nil_r; reflexivity|].
        intros Hwf Ho. cbn in Hwf. exists out, (buf ++ seg). split; [reflexivity|]. split; [exact Ho|].
        rewrite app_length in *. lia.
    + destruct (Nat.ltb_spec (length (buf ++ seg)) m) as [Hlt|Hge].
      * split; [exact Hlt | split; [reflexivity | auto]].
      * split; [exact Hi|]. split; [exact Hf | intros _ Ho; apply Hs; assumption].
  - cbn [andb]. rewrite andb_false_r. cbn [andb].
    assert (Hne2 : r2 :: rest2 <> []) by discriminate.
    specialize (IH segs rc (write_segment m (buf ++ seg, out)) Hm Hne2 Hb' Hlen Hi). cbn zeta in IH.
    destruct IH as [IH1 [IH2 IH3]]. split; [exact IH1|]. split.
    + rewrite IH2, Hf. unfold flat. cbn [fst snd concat]. rewrite <- !app_assoc. reflexivity.
    + intros [Hrm Hwf] Ho. apply IH3; [exact Hwf|]. apply Hs; [rewrite app_length; lia | exact Ho].
Qed.

Definition padded {A} (nil : A) (s : src A) : list (list A) :=
  match s_col s with Some segs => segs | None => map (repeat nil) (s_rows s) end.

Lemma padded_len {A} (nil : A) m s : bounded_src m s -> map (@length A) (padded nil s) = s_rows s.
Proof.
  intros [_ [_ H]]. unfold padded. destruct (s_col s); [exact H|].
  rewrite map_map. rewrite <- (map_id (s_rows s)) at 2. apply map_ext. intro. apply repeat_length.
Qed.

Lemma concat_map_repeat {A} (nil : A) rows : concat (map (repeat nil) rows) = repeat nil (total rows).
Proof. induction rows as [|r rows IH]; [reflexivity|]. cbn [map concat]. rewrite total_cons, IH, repeat_app. reflexivity. Qed.

Lemma padded_expand {A} (nil : A) s : concat (padded nil s) = expand nil s.
Proof. unfold padded, expand. destruct (s_col s); [reflexivity | apply concat_map_repeat]. Qed.

Lemma wf_bounded {A} m (s : src A) : wf_src m s -> bounded_src m s.
Proof. intros [H1 H2]. destruct (wf_rows_bounded m _ H1) as [H3 H4]. split; [exact H3 | split; [exact H4 | exact H2]]. Qed.

Definition pads_as_present {A} (mode : padmode) (nil : A) (m : nat) (s : src A) : Prop :=
  forall li st, seg_loop mode nil m li (s_rows s) (s_col s) (total (s_rows s)) st =
                seg_loop mode nil m li (s_rows s) (Some (padded nil s)) (total (s_rows s)) st.

Lemma pads_counter {A} (nil : A) m s : wf_src m s -> pads_as_present PadCounter nil m s.
Proof. intros [Hwf _] li st. unfold padded. destruct (s_col s); [reflexivity | apply pad_as_present; exact Hwf]. Qed.

Lemma pads_actual {A} (nil : A) m s : pads_as_present PadActual nil m s.
Proof. intros li st. unfold padded. destruct (s_col s); [reflexivity | apply pad_actual_as_present]. Qed.

Lemma itr_loop_spec {A} (mode : padmode) (nil : A) m srcs : forall st,
  0 < m -> srcs <> [] -> Forall (bounded_src m) srcs -> Forall (pads_as_present mode nil m) srcs -> length (fst st) < m ->
  let st' := itr_loop mode nil m srcs st in
  fst st' = [] /\ concat (snd st') = flat st ++ concat (map (expand nil) srcs) /\
  (Forall (wf_src m) srcs -> full m (snd st) -> done_shape m (snd st')).
Proof.
  induction srcs as [|s rest IH]; intros st Hm Hne Hall Hpad Hinv; [congruence|].
  inversion Hall as [|? ? Hs Hrest]; subst. inversion Hpad as [|? ? Hps Hprest]; subst. cbn [itr_loop map concat].
  rewrite Hps. pose proof (padded_len nil m s Hs) as Hlen. destruct Hs as [Hs1 [Hs2 Hs3]].
  destruct rest as [|s2 rest2].
  - cbn [itr_loop].
    destruct (seg_loop_spec mode nil m true (s_rows s) (padded nil s) (total (s_rows s)) st Hm Hs1 Hs2 Hlen Hinv) as [H1 [H2 H3]].
    unfold flat at 1 in H2. rewrite H1, app_nil_r in H2.
    split; [exact H1|]. split; [rewrite H2, padded_expand; cbn [map concat]; rewrite app_nil_r; reflexivity|].
    intros Hwf Ho. inversion Hwf as [|? ? [Hw _] _]; subst. apply H3; assumption.
  - destruct (seg_loop_spec mode nil m false (s_rows s) (padded nil s) (total (s_rows s)) st Hm Hs1 Hs2 Hlen Hinv) as [H1 [H2 H3]].
    assert (Hne2 : s2 :: rest2 <> []) by discriminate.
    destruct (IH _ Hm Hne2 Hrest Hprest H1) as [I1 [I2 I3]].
    split; [exact I1|]. split; [rewrite I2, H2, padded_expand, <- app_assoc; reflexivity|].
    intros Hwf Ho. inversion Hwf as [|? ? [Hw _] Hwr]; subst. apply I3; [exact Hwr | apply H3; assumption].
Qed.

Lemma done_shape_wf {A} m (out : list (list A)) : done_shape m out -> wf_rows m (map (@length A) out).
Proof.
  intros [fullsegs [lastseg [E [Hf Hl]]]]. subst out. rewrite map_app. cbn [map].
  induction fullsegs as [|x fullsegs IH]; cbn [map app].
  - cbn. exact Hl.
  - inversion Hf; subst. cbn [wf_rows]. destruct (map _ fullsegs ++ [length lastseg]) eqn:E.
    + destruct (map _ fullsegs); discriminate.
    + split; [reflexivity | apply IH; assumption].
Qed.

Lemma compact_col_gen_correct {A} (mode : padmode) (nil : A) m srcs :
  0 < m -> srcs <> [] -> Forall (bounded_src m) srcs -> Forall (pads_as_present mode nil m) srcs ->
  concat (compact_col_gen mode nil m srcs) = concat (map (expand nil) srcs) /\
  (Forall (wf_src m) srcs -> wf_rows m (map (@length A) (compact_col_gen mode nil m srcs))).
Proof.
  intros Hm Hne Hall Hpad. unfold compact_col_gen.
  assert (Hinv : length (fst (([] : list A), ([] : list (list A)))) < m) by (cbn; lia).
  destruct (itr_loop_spec mode nil m srcs _ Hm Hne Hall Hpad Hinv) as [H1 [H2 H3]]. cbn zeta in *.
  rewrite H1. cbn [length Nat.ltb Nat.leb]. split; [rewrite H2; reflexivity|].
  intro Hwf. apply done_shape_wf. apply H3; [exact Hwf | constructor].
Qed.

Lemma compact_col_correct {A} (nil : A) m srcs :
  0 < m -> srcs <> [] -> Forall (wf_src m) srcs ->
  concat (compact_col nil m srcs) = concat (map (expand nil) srcs) /\
  wf_rows m (map (@length A) (compact_col nil m srcs)).
Proof.
  intros Hm Hne Hall.
  destruct (compact_col_gen_correct PadCounter nil m srcs Hm Hne) as [H1 H2].
  - eapply Forall_impl; [|exact Hall]. apply wf_bounded.
  - eapply Forall_impl; [|exact Hall]. apply pads_counter.
  - split; [exact H1 | exact (H2 Hall)].
Qed.

Lemma wf_rows_unique m : forall a b, wf_rows m a -> wf_rows m b -> total a = total b -> a = b.
Proof.
  induction a as [|x a IH]; intros b Ha Hb Ht; [cbn in Ha; tauto|].
  destruct b as [|y b]; [cbn in Hb; tauto|].
  cbn [wf_rows] in Ha, Hb. destruct a as [|x2 a2]; destruct b as [|y2 b2].
  - cbn in Ht. f_equal. lia.
  - destruct Hb as [Hy Hb]. pose proof (wf_rows_total_pos _ _ Hb). cbn [total fold_right] in *. lia.
  - destruct Ha as [Hx Ha]. pose proof (wf_rows_total_pos _ _ Ha). cbn [total fold_right] in *. lia.
  - destruct Ha as [Hx Ha], Hb as [Hy Hb]. subst. f_equal. apply IH; try assumption.
    cbn [total fold_right] in *. lia.
Qed.

Lemma total_map_length_concat {A} (l : list (list A)) : total (map (@length A) l) = length (concat l).
Proof. induction l as [|x l IH]; [reflexivity|]. cbn [map concat]. rewrite total_cons, app_length, IH. reflexivity. Qed.

Lemma expand_length {A} (nil : A) m s : wf_src m s -> length (expand nil s) = total (s_rows s).
Proof.
  intros [_ H]. unfold expand. destruct (s_col s) as [segs|].
  - rewrite <- H. symmetry. apply total_map_length_concat.
  - apply repeat_length.
Qed.

(* any two columns of the same chunks (e.g. a field and the time column) are cut into segments at the same rows *)
Lemma columns_aligned {A B} (nilA : A) (nilB : B) m (sa : list (src A)) (sb : list (src B)) :
  0 < m -> sa <> [] -> Forall (wf_src m) sa -> Forall (wf_src m) sb -> map s_rows sa = map s_rows sb ->
  map (@length A) (compact_col nilA m sa) = map (@length B) (compact_col nilB m sb).
Proof.
  intros Hm Hne Ha Hb Hrows.
  assert (Hneb : sb <> []) by (destruct sa; [congruence|]; destruct sb; [discriminate | discriminate]).
  destruct (compact_col_correct nilA m sa Hm Hne Ha) as [A1 A2].
  destruct (compact_col_correct nilB m sb Hm Hneb Hb) as [B1 B2].
  apply (wf_rows_unique m); try assumption.
  rewrite !total_map_length_concat, A1, B1.
  clear A1 A2 B1 B2 Hne Hneb. revert sb Hb Hrows. induction sa as [|a sa IH]; intros sb Hb Hrows.
  - destruct sb; [reflexivity | discriminate].
  - destruct sb as [|b sb]; [discriminate|]. cbn in Hrows. injection Hrows as Hr Hrows.
    inversion Ha; subst. inversion Hb; subst. cbn [map concat]. rewrite !app_length.
    rewrite (expand_length nilA m a), (expand_length nilB m b), Hr by assumption. f_equal. apply IH; assumption.
Qed.

(* the repaired padding: nothing lost, duplicated, reordered or shifted, without the full-inner-segments premise *)
Lemma compact_col_actual_correct {A} (nil : A) m srcs :
  0 < m -> srcs <> [] -> Forall (bounded_src m) srcs ->
  concat (compact_col_actual nil m srcs) = concat (map (expand nil) srcs).
Proof.
  intros Hm Hne Hall. apply (compact_col_gen_correct PadActual nil m srcs Hm Hne Hall).
  apply Forall_forall. intros s _. apply pads_actual.
Qed.

Lemma actual_eq_counter_on_wf {A} (nil : A) m srcs :
  Forall (wf_src m) srcs -> compact_col_actual nil m srcs = compact_col nil m srcs.
Proof.
  intro Hall. unfold compact_col_actual, compact_col, compact_col_gen.
  assert (E : forall st, itr_loop PadActual nil m srcs st = itr_loop PadCounter nil m srcs st).
  { induction srcs as [|s rest IH]; intro st; [reflexivity|]. inversion Hall as [|? ? Hs Hrest]; subst.
    cbn [itr_loop]. rewrite (IH Hrest). f_equal.
    rewrite pads_actual, (pads_counter nil m s Hs). apply seg_loop_some_irrel. }
  rewrite E. reflexivity.
Qed.
