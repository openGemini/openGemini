(* C03 fault proofs: ReplaceFiles / merge under any pattern of failing file-system mutations.
   The disk state left behind is always a crash-prefix state of a member of the protocol family of C03_crash_atomic
   (replace_exec_crash_state), so the next start-up shows exactly the old or exactly the new file set; both delete loops
   in one description (del_loop_spec: what was deleted, what was not, the live list); the repaired removal of the out-of-order
   inputs leaves a suffix of them (unord_rep_suffix). The theorems about the live list and the merge order are assembled
   from these in Props.v, the refutations of the loops before e369601 / fbf71eb are in Refuted.v. *)
From Coq Require Import NArith List Bool Arith Lia.
From OG Require Import C03.Model C03.Proofs C03.FaultModel.
Import ListNotations.

Definition is_crash_state (old new : list N) (st0 st : fs) : Prop :=
  exists body k, body_okb old new body = true /\ st = run (firstn k (logA old new ++ body ++ [LogRemove])) st0.

Lemma firstn_app_exact {A} (l1 l2 : list A) : firstn (length l1) (l1 ++ l2) = l1.
Proof. rewrite firstn_app, Nat.sub_diag, firstn_all. cbn. apply app_nil_r. Qed.

Lemma crash_state_of_trace old new st0 body trace rest :
  body_okb old new body = true -> logA old new ++ body ++ [LogRemove] = trace ++ rest ->
  is_crash_state old new st0 (run trace st0).
Proof.
  intros Hb E. exists body, (length trace). split; [exact Hb|]. rewrite E, firstn_app_exact. reflexivity.
Qed.

Lemma run_abort_spec fails : forall l i st st' i' ab,
  run_abort fails i l st = (st', i', ab) ->
  exists k, k <= length l /\ st' = run (firstn k l) st /\ (ab = false -> k = length l) /\ i' = i + k + (if ab then 1 else 0).
Proof.
  induction l as [|s r IH]; intros i st st' i' ab H; cbn in H.
  - injection H as <- <- <-. exists 0. cbn. repeat split; lia.
  - destruct (fails i).
    + injection H as <- <- <-. exists 0. cbn. repeat split; try lia; try discriminate.
    + destruct (IH _ _ _ _ _ H) as [k [H1 [H2 [H3 H4]]]]. exists (S k). cbn [length firstn]. repeat split; try lia.
      * rewrite H2. reflexivity.
      * intro Hab. rewrite (H3 Hab). reflexivity.
Qed.

Lemma lrm_all_cons o os l : lrm_all (o :: os) l = lrm_all os (lrm o l).
Proof. reflexivity. Qed.

Lemma lrm_all_snoc os o l : lrm_all (os ++ [o]) l = lrm o (lrm_all os l).
Proof. unfold lrm_all. rewrite fold_left_app. reflexivity. Qed.

(* okl: the deletions that happened; restl: the old files not deleted (failed, or not reached by the loop that stops at the first
   failure) *)
Lemma del_loop_spec v inuse fails : forall olds i st live err st' live' err' i' ab,
  del_loop v inuse fails i olds st live err = (st', live', err', i', ab) ->
  (exists okl restl, st' = run (map (del_old inuse) okl) st /\ (forall o, In o olds <-> In o (okl ++ restl)) /\
                     (ab = false -> err' = false -> restl = [] /\ okl = olds)) /\
  (ab = false -> live' = lrm_all olds live) /\ (v = Repaired -> ab = false) /\ (err = true -> err' = true).
Proof.
  induction olds as [|o rest IH]; intros i st live err st' live' err' i' ab H; cbn [del_loop] in H.
  - injection H as <- <- <- <- <-. split; [exists [], []; cbn; tauto | auto].
  - destruct (fails i); [destruct v|].
    + injection H as <- <- <- <- <-. split; [exists [], (o :: rest); cbn; split; [reflexivity | split; [tauto | discriminate]]|].
      repeat split; discriminate || auto.
    + destruct (IH _ _ _ _ _ _ _ _ _ H) as [[okl [restl [B1 [B2 B3]]]] [A1 [A2 A3]]].
      split; [exists okl, (o :: restl); split; [exact B1 | split]|auto].
      * intro x. rewrite in_app_iff. cbn [In]. rewrite (B2 x), in_app_iff. tauto.
      * intros _ He. rewrite (A3 eq_refl) in He. discriminate.
    + destruct (IH _ _ _ _ _ _ _ _ _ H) as [[okl [restl [B1 [B2 B3]]]] [A1 [A2 A3]]].
      split; [exists (o :: okl), restl; split; [exact B1 | split]|auto].
      * intro x. cbn [In app]. rewrite (B2 x). tauto.
      * intros Ha He. destruct (B3 Ha He) as [-> ->]. split; reflexivity.
Qed.

Lemma replace_exec_crash_state v inuse fails i0 old new st live :
  is_crash_state old new st (r_fs (replace_exec v inuse fails i0 old new st live)).
Proof.
  unfold replace_exec.
  set (pre := [LogCreate; LogWrite old new; LogSync] ++ map rename_new new).
  destruct (run_abort fails i0 pre st) as [[st1 i1] ab1] eqn:E1.
  destruct (run_abort_spec _ _ _ _ _ _ _ E1) as [k [Hk [Hst1 [Hab1 _]]]].
  destruct ab1.
  - (* aborted before the delete loop *)
    cbn [r_fs]. subst st1.
    apply (crash_state_of_trace old new st _ (firstn k pre) (skipn k pre ++ map (del_old inuse) old ++ [LogRemove])
             (canonical_body_ok inuse old new)).
    rewrite (app_assoc (firstn k pre)), firstn_skipn. unfold logA, pre. rewrite <- !app_assoc. reflexivity.
  - specialize (Hab1 eq_refl). subst k. rewrite firstn_all in Hst1.
    destruct (del_loop v inuse fails i1 old st1 live false) as [[[[st2 live2] err2] i2] ab2] eqn:E2.
    destruct (del_loop_spec _ _ _ _ _ _ _ _ _ _ _ _ _ E2) as [[okl [restl [Hst2 [Hpart Hdone]]]] _].
    (* the deletions that happened first, the others after them: a member of the family, cut after the former *)
    assert (Hb : body_okb old new (map rename_new new ++ map (del_old inuse) (okl ++ restl)) = true)
      by (apply body_ok_any_order; exact Hpart).
    assert (Htr : st2 = run (pre ++ map (del_old inuse) okl) st) by (rewrite run_app, <- Hst1; exact Hst2).
    assert (Hfull : logA old new ++ (map rename_new new ++ map (del_old inuse) (okl ++ restl)) ++ [LogRemove]
                    = (pre ++ map (del_old inuse) okl) ++ map (del_old inuse) restl ++ [LogRemove]).
    { unfold logA, pre. rewrite map_app, <- !app_assoc. reflexivity. }
    assert (Hmid : is_crash_state old new st st2) by (rewrite Htr; exact (crash_state_of_trace old new st _ _ _ Hb Hfull)).
    destruct ab2; [destruct err2; exact Hmid|]. destruct err2; [exact Hmid|].
    destruct (Hdone eq_refl eq_refl) as [-> ->]. destruct (fails i2); cbn [r_fs]; [exact Hmid|].
    replace (run_step LogRemove st2) with (run ((pre ++ map (del_old inuse) old) ++ [LogRemove]) st)
      by (rewrite run_app, <- Htr; reflexivity).
    apply (crash_state_of_trace old new st _ _ [] Hb). rewrite Hfull. cbn [map app]. rewrite app_nil_r. reflexivity.
Qed.

Lemma replace_exec_live v inuse fails i0 old new st live :
  let r := replace_exec v inuse fails i0 old new st live in
  (r_err r = false -> r_live r = swapped old new live) /\
  (v = Repaired -> r_live r = live \/ r_live r = swapped old new live).
Proof.
  unfold replace_exec.
  destruct (run_abort fails i0 _ st) as [[st1 i1] ab1]. destruct ab1; [cbn; split; [discriminate | auto]|].
  destruct (del_loop v inuse fails i1 old st1 live false) as [[[[st2 live2] err2] i2] ab2] eqn:E2.
  destruct (del_loop_spec _ _ _ _ _ _ _ _ _ _ _ _ _ E2) as [_ [Hl [Hab _]]].
  destruct ab2.
  - split; [destruct err2; cbn; discriminate | intro Hv; discriminate (Hab Hv)].
  - rewrite (Hl eq_refl). destruct err2; [cbn; split; [discriminate | auto]|].
    destruct (fails i2); cbn; split; auto; discriminate.
Qed.

Lemma unord_loop_live inuse fails : forall us i st liveU, snd (unord_loop inuse fails i us st liveU) = lrm_all us liveU.
Proof. induction us as [|u us IH]; intros i st liveU; [reflexivity|]. cbn [unord_loop]. rewrite IH. reflexivity. Qed.

Lemma In_skipn_in {X} k (l : list X) x : In x (skipn k l) -> In x l.
Proof. revert l. induction k; intros [|y l] H; cbn in *; try tauto. right. apply IHk. exact H. Qed.

(* the first k inputs are parked or removed, the others and everything else are as they were *)
Definition parked (us : list N) (st : fs) (liveU : list N) (r : fs * list N) (k : nat) : Prop :=
  k <= length us /\
  snd r = lrm_all (firstn k us) liveU /\
  (forall u, In u (firstn k us) -> files (fst r) (u, false) = None) /\
  (forall u b, In u (skipn k us) -> files (fst r) (u, b) = files st (u, b)) /\
  (forall p, ~ In (fst p) us -> files (fst r) p = files st p) /\
  logs (fst r) = logs st.

Lemma unord_rep_suffix inuse fails : forall us i st liveU,
  NoDup us -> exists k, parked us st liveU (unord_rep inuse fails i us st liveU) k.
Proof.
  induction us as [|u rest IH]; intros i st liveU Hnd.
  - exists 0. unfold parked. cbn. repeat split; try tauto; lia.
  - inversion Hnd as [|? ? Hnotin Hnd']; subst. cbn [unord_rep].
    destruct (fails i).
    + exists 0. unfold parked. cbn. repeat split; try tauto; lia.
    + set (st1 := run_step (Mv (u, false) (u, true)) st).
      assert (Hst1_other : forall p, fst p <> u -> files st1 p = files st p).
      { intros [n b] Hp. cbn [fst] in Hp. unfold st1. apply files_mv_other; intro E; inversion E; congruence. }
      assert (Hst1_u : files st1 (u, false) = None) by (unfold st1; apply files_mv_src).
      assert (Hlog1 : logs st1 = logs st) by (unfold st1; apply logs_mv).
      (* u is parked; the rest of the loop runs from a state that differs from st at u only *)
      assert (Gen : forall st2 i2,
                 (forall p, fst p <> u -> files st2 p = files st p) -> files st2 (u, false) = None -> logs st2 = logs st ->
                 exists k, parked (u :: rest) st liveU (unord_rep inuse fails i2 rest st2 (lrm u liveU)) k).
      { intros st2 i2 Hother Hu Hlog.
        destruct (IH i2 st2 (lrm u liveU) Hnd') as [k [K1 [K2 [K3 [K4 [K5 K6]]]]]].
        exists (S k). unfold parked. cbn [length firstn skipn]. split; [lia|]. split; [rewrite K2; reflexivity|].
        split; [|split; [|split]].
        - intros x [Hx|Hx]; [subst x; rewrite K5; [exact Hu | cbn [fst]; exact Hnotin] | apply K3; exact Hx].
        - intros x b Hx. rewrite (K4 x b Hx). apply Hother. cbn [fst]. intro E. subst x.
          apply Hnotin. apply (In_skipn_in k). exact Hx.
        - intros p Hp. rewrite K5 by (intro H; apply Hp; right; exact H). apply Hother. intro E. apply Hp. left. symmetry. exact E.
        - rewrite K6. exact Hlog. }
      destruct (inuse u).
      * apply Gen; assumption.
      * destruct (fails (S i)).
        -- apply Gen; assumption.
        -- apply Gen.
           ++ intros [n b] Hp. cbn [fst] in Hp. rewrite files_rm_other by (intro E; inversion E; congruence).
              apply Hst1_other. exact Hp.
           ++ rewrite files_rm_other by (intro E; inversion E). exact Hst1_u.
           ++ cbn [run_step logs]. exact Hlog1.
Qed.
