(* C03 fault correspondence evaluator: runs FaultModel.replace_exec (+ the deletion of the out-of-order inputs) on what the
   fault-injection harness recorded from the real ReplaceFiles / merge and compares, per run:
   the files on disk and the intent-log state after the failed operation, the LIVE file list, the files loaded after the
   restart and the log state after it. Both variants of the delete loop are evaluated; the result says which one the
   working tree implements. The fault-free run must attempt exactly the canonical step list. *)
From Coq Require Import NArith List Bool Arith.
From OG Require Import C03.Model C03.FaultModel.
Import ListNotations.

Record frun := mkfrun {
  f_fail : option nat;                 (* ordinal of the failing attempt *)
  f_old : list N; f_new : list N;      (* as named by the intent log (order matters: the loops walk them in this order) *)
  f_disk : list (N * bool);            (* files on disk after the operation *)
  f_log : nat;                         (* intent-log files on disk after the operation *)
  f_live : list N;                     (* live file list after the operation *)
  f_reopened : list N;                 (* files loaded after the restart *)
  f_log_re : nat                       (* intent-log files after the restart *)
}.

Record fcase := mkfcase {
  fc_univ : list N;
  fc_fs0 : list (N * bool);            (* files on disk before the operation *)
  fc_unord : list N;                   (* out-of-order inputs deleted after the replacement (merge) *)
  fc_inuse : list N;                   (* files referenced by a reader (parked instead of removed) *)
  fc_attempts : list step;             (* the fault-free run: protocol mutations attempted, in order *)
  fc_runs : list frun
}.

Definition fs0_of (l : list (N * bool)) : fs := mkfs (files_of (map (fun e => (fst e, snd e, 1%N)) l)) NoLog.

Fixpoint insert (x : N) (l : list N) : list N :=
  match l with
  | [] => [x]
  | y :: r => if N.leb x y then x :: l else y :: insert x r
  end.
Definition sortN (l : list N) : list N := fold_right insert [] l.

Fixpoint listN_eqb (a b : list N) : bool :=
  match a, b with
  | [], [] => true
  | x :: a', y :: b' => N.eqb x y && listN_eqb a' b'
  | _, _ => false
  end.

Definition disk_listing (univ : list N) (st : fs) : list (N * bool) :=
  flat_map (fun n => (if present st (n, false) then [(n, false)] else []) ++ (if present st (n, true) then [(n, true)] else [])) univ.

Fixpoint listing_eqb (a b : list (N * bool)) : bool :=
  match a, b with
  | [], [] => true
  | (x, i) :: a', (y, j) :: b' => N.eqb x y && Bool.eqb i j && listing_eqb a' b'
  | _, _ => false
  end.

Definition log_count (st : fs) : nat := match logs st with NoLog => 0 | _ => 1 end.

(* vd: variant of the delete loop of ReplaceFiles; vu: variant of deleteUnorderedFiles; vl: is an intent log that could not be
   written / synced removed again (Repaired) or left behind (Current) *)
Definition model_run (vd vu vl : variant) (c : fcase) (r : frun) : fs * list N :=
  let inuse := fun n => mem n (fc_inuse c) in
  let fails := fun i => match f_fail r with Some j => Nat.eqb i j | None => false end in
  let live0 := map fst (filter (fun e => negb (snd e)) (fc_fs0 c)) in
  let x := replace_exec_c (match vl with Repaired => true | Current => false end) vd inuse fails 0 (f_old r) (f_new r)
                          (fs0_of (fc_fs0 c)) live0 in
  if r_err x then (r_fs x, r_live x)
  else unord_loop_v vu inuse fails (r_next x) (fc_unord c) (r_fs x) (r_live x).

(* 0 = agrees *)
Definition run_code (vd vu vl : variant) (c : fcase) (r : frun) : nat :=
  let '(st, live) := model_run vd vu vl c r in
  let re := recover (fc_univ c) st in
  if negb (listing_eqb (f_disk r) (disk_listing (fc_univ c) st)) then 61
  else if negb (Nat.eqb (f_log r) (log_count st)) then 62
  else if negb (listN_eqb (sortN (f_live r)) (sortN live)) then 63
  else if negb (listN_eqb (sortN (f_reopened r)) (map fst (filter (fun e => negb (snd e)) (disk_listing (fc_univ c) re)))) then 64
  else if negb (Nat.eqb (f_log_re r) (log_count re)) then 65
  else 0.

Definition step_same (a b : step) : bool :=
  match a, b with
  | LogWrite o n, LogWrite o' n' => listN_eqb o o' && listN_eqb n n'
  | _, _ => step_eqb a b
  end.
Fixpoint steps_same (a b : list step) : bool :=
  match a, b with
  | [], [] => true
  | x :: a', y :: b' => step_same x y && steps_same a' b'
  | _, _ => false
  end.

(* the attempts of the fault-free run: the canonical step list of the replacement, then the out-of-order inputs - removed /
   parked one by one (before fbf71eb), or parked and then removed unless in use (since fbf71eb) *)
Definition unord_steps_rep (inuse : N -> bool) (unord : list N) : list step :=
  flat_map (fun u => if inuse u then [Mv (u, false) (u, true)] else [Mv (u, false) (u, true); Rm (u, true)]) unord.

Definition shape_code (c : fcase) : nat :=
  match fc_runs c with
  | r :: _ =>
      let inuse := fun n => mem n (fc_inuse c) in
      if steps_same (fc_attempts c) (merge_steps inuse (f_old r) (f_new r) (fc_unord c)) then 0
      else if steps_same (fc_attempts c) (replace_steps inuse (f_old r) (f_new r) ++ unord_steps_rep inuse (fc_unord c)) then 0
      else 60
  | [] => 0
  end.

(* which of the eight variant combinations agree with the run: bit 1 = delete loop as before e369601, bit 2 = deleteUnorderedFiles
   as before fbf71eb, bit 4 = failed log left behind as before 7fdfed2; the result has bit 2^k set iff combination k agrees *)
Definition vof (b : bool) : variant := if b then Current else Repaired.
Definition agree_mask (c : fcase) (r : frun) : nat :=
  fold_left (fun acc k =>
               let d := Nat.odd k in let u := Nat.odd (k / 2) in let l := Nat.odd (k / 4) in
               match run_code (vof d) (vof u) (vof l) c r with 0 => acc + 2 ^ k | _ => acc end)
            (seq 0 8) 0.

(* per run: (index, code under the fully repaired model, agreement mask) when the fully repaired model does not agree *)
Fixpoint runs_from (c : fcase) (i : nat) (l : list frun) : list (nat * nat * nat) :=
  match l with
  | [] => []
  | r :: rest => match run_code Repaired Repaired Repaired c r with
                 | 0 => runs_from c (S i) rest
                 | code => (i, code, agree_mask c r) :: runs_from c (S i) rest
                 end
  end.

Definition fcase_mismatches (ci : nat) (c : fcase) : list (nat * nat * nat * nat) :=
  (match shape_code c with 0 => [] | code => [(ci, 0, code, 0)] end) ++
  map (fun t => match t with (i, a, b) => (ci, i, a, b) end) (runs_from c 0 (fc_runs c)).

Fixpoint fmismatches_from (ci : nat) (cs : list fcase) : list (nat * nat * nat * nat) :=
  match cs with
  | [] => []
  | c :: r => fcase_mismatches ci c ++ fmismatches_from (S ci) r
  end.
Definition fmismatches := fmismatches_from 0.
