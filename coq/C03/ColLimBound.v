(* C03: no output file of the split holds more than max-segment-limit segments of the series (the purpose of the limit). *)
From Coq Require Import NArith ZArith List Bool Arith Lia.
From OG Require Import C03.ColModel C03.ColLimModel C03.ColLimProofs.
Import ListNotations.

Section Bound.
Context {A : Type} (nil : A) (m limit : nat).
Hypothesis Hlim : 0 < limit.

Definition cnt (st : lst A) : Prop := length (l_out st) = l_n st.

Lemma write_len (buf : list A) out : length (snd (write_segment m (buf, out))) = S (length out).
Proof. unfold write_segment. destruct (m <? length buf); cbn [snd]; rewrite app_length; cbn; lia. Qed.

Lemma lseg_bound li i : forall rows col j st,
  cnt st -> l_n st < limit ->
  match lseg_loop nil m limit li i j rows col st with
  | Go st' => cnt st' /\ l_n st' <= limit
  | Split st' _ _ => cnt st' /\ l_n st' <= limit
  end.
Proof.
  induction rows as [|r0 rest IH]; intros col j st Hc Hn.
  - cbn [lseg_loop]. split; [exact Hc | lia].
  - rewrite (lseg_cons nil m limit li i j r0 rest col st). cbn zeta.
    set (buf1 := l_buf st ++ add_of nil r0 col).
    destruct (isnil rest && negb li && (length buf1 <? m)).
    + unfold cnt in *. cbn [l_out l_n]. split; [exact Hc | lia].
    + pose proof (write_len buf1 (l_out st)) as Hw. set (w := write_segment m (buf1, l_out st)) in *.
      destruct ((limit <=? S (l_n st)) && (negb li || negb (isnil rest) || (0 <? length (fst w)))) eqn:Esp.
      * destruct (isnil rest); unfold cnt in *; cbn [l_out l_n]; split; lia.
      * destruct (li && isnil rest && (0 <? length (fst w)) && (S (l_n st) <? limit)) eqn:E2.
        -- apply andb_prop in E2. destruct E2 as [E2 E3]. apply Nat.ltb_lt in E3.
           apply andb_prop in E2. destruct E2 as [E2 _]. apply andb_prop in E2. destruct E2 as [_ E2].
           destruct rest; [|discriminate]. cbn [lseg_loop]. unfold cnt in *. cbn [l_out l_n].
           destruct w as [wb wo]. cbn [fst snd] in *. rewrite write_len. split; lia.
        -- destruct (Nat.ltb_spec (S (l_n st)) limit) as [Hlt|Hge].
           ++ apply IH; unfold cnt in *; cbn [l_out l_n]; lia.
           ++ (* the limit is reached and nothing is left: this was the very last segment *)
              destruct rest as [|r1 rest1]; [cbn [lseg_loop]; unfold cnt in *; cbn [l_out l_n]; split; lia|].
              (* more segments would have forced the split *)
              exfalso. cbn [isnil negb] in Esp. rewrite orb_true_r in Esp. cbn [orb] in Esp. rewrite andb_true_r in Esp.
              apply Nat.leb_gt in Esp. lia.
Qed.

(* a chunk that is not the last one never ends with the limit reached: more data follows, so the file would have been split *)
Lemma lseg_go_nonlast i : forall rows col j st st',
  l_n st < limit -> lseg_loop nil m limit false i j rows col st = Go st' -> l_n st' < limit.
Proof.
  induction rows as [|r0 rest IHr]; intros col j st0 st' Hn0 E.
  - cbn in E. injection E as <-. exact Hn0.
  - rewrite (lseg_cons nil m limit false i j r0 rest col st0) in E. cbn zeta in E. cbn [negb andb] in E.
    rewrite andb_true_r in E.
    destruct (isnil rest && (length (l_buf st0 ++ add_of nil r0 col) <? m)).
    + injection E as <-. cbn [l_n]. exact Hn0.
    + cbn [orb] in E.
      destruct (limit <=? S (l_n st0)) eqn:El; cbn [andb] in E.
      * destruct (isnil rest); discriminate.
      * apply Nat.leb_gt in El. refine (IHr _ _ _ _ _ E). cbn [l_n]. exact El.
Qed.

Lemma litr_bound : forall (L : list (src A)) i j0 st,
  cnt st -> l_n st < limit ->
  match litr_loop false nil m limit i j0 L st with
  | Go st' => cnt st' /\ l_n st' <= limit
  | Split st' _ _ => cnt st' /\ l_n st' <= limit
  end.
Proof.
  induction L as [|s r IH]; intros i j0 st Hc Hn; [cbn; split; [exact Hc | lia]|].
  cbn [litr_loop].
  pose proof (lseg_bound (match r with [] => true | _ => false end) i (skipn j0 (s_rows s)) (option_skipn j0 (s_col s)) j0 st Hc Hn) as H.
  destruct (lseg_loop nil m limit _ i j0 (skipn j0 (s_rows s)) (option_skipn j0 (s_col s)) st) as [st'|st' i' j'] eqn:E; [|exact H].
  destruct H as [H1 H2]. destruct (Nat.ltb_spec (l_n st') limit) as [Hlt|Hge].
  - apply IH; assumption.
  - (* the limit was reached without a split: only possible at the very end *)
    destruct r as [|s2 r2]; [cbn; split; assumption|].
    exfalso. pose proof (lseg_go_nonlast i _ _ _ _ _ Hn E). lia.
Qed.

Lemma lrounds_bound (srcs : list (src A)) : forall fuel i0 j0 b,
  Forall (fun f => length f <= limit) (lrounds fuel false nil m limit srcs i0 j0 b).
Proof.
  induction fuel as [|f IH]; intros i0 j0 b; [constructor|].
  cbn [lrounds]. unfold lround.
  assert (Hc : cnt (mklst b ([] : list (list A)) 0)) by reflexivity.
  pose proof (litr_bound (skipn i0 srcs) i0 j0 (mklst b [] 0) Hc Hlim) as H.
  destruct (litr_loop false nil m limit i0 j0 (skipn i0 srcs) (mklst b [] 0)) as [st'|st' i' j'].
  - destruct H as [H1 H2]. unfold cnt in H1.
    destruct ((0 <? length (l_buf st')) && (l_n st' <? limit)) eqn:E.
    + apply andb_prop in E. destruct E as [_ E]. apply Nat.ltb_lt in E.
      constructor; [|constructor]. rewrite write_len. lia.
    + constructor; [lia | constructor].
  - destruct H as [H1 H2]. unfold cnt in H1. constructor; [lia | apply IH].
Qed.

End Bound.
