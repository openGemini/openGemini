(* C03 proofs: crash atomicity of the replace protocol under every crash prefix and every sequence of crashes inside
   the recovery pass; last-write-wins lemmas for compaction and out-of-order merge. *)
From Coq Require Import NArith ZArith List Bool Lia Arith.
From OG Require Import C03.Model.
Import ListNotations.

Definition logA (old new : list N) : list step := [LogCreate; LogWrite old new; LogSync].

Lemma fname_eqb_spec a b : reflect (a = b) (fname_eqb a b).
Proof.
  destruct a as [a1 a2], b as [b1 b2]. unfold fname_eqb; cbn [fst snd].
  destruct (N.eqb_spec a1 b1); destruct (Bool.eqb_spec a2 b2); cbn; constructor; congruence.
Qed.

Lemma upd_same f p v : upd f p v p = v.
Proof. unfold upd. destruct (fname_eqb_spec p p); congruence. Qed.

Lemma upd_other f p v q : q <> p -> upd f p v q = f q.
Proof. intro H. unfold upd. destruct (fname_eqb_spec q p); congruence. Qed.

Lemma mem_In n l : mem n l = true <-> In n l.
Proof.
  unfold mem. rewrite existsb_exists. split.
  - intros [x [Hx He]]. apply N.eqb_eq in He. subst. exact Hx.
  - intro H. exists n. split; [exact H | apply N.eqb_refl].
Qed.

Lemma mem_false n l : mem n l = false <-> ~ In n l.
Proof. rewrite <- mem_In. destruct (mem n l); split; congruence. Qed.

Lemma step_eqb_eq a b : step_eqb a b = true -> a = b.
Proof.
  destruct a, b; cbn; try discriminate; try reflexivity.
  - intro H. apply andb_prop in H. destruct H as [H1 H2].
    destruct (fname_eqb_spec src src0); try discriminate. destruct (fname_eqb_spec dst dst0); try discriminate. congruence.
  - intro H. destruct (fname_eqb_spec p p0); try discriminate. congruence.
Qed.

Lemma step_eqb_refl_mv a b : step_eqb (Mv a b) (Mv a b) = true.
Proof. cbn. destruct (fname_eqb_spec a a); destruct (fname_eqb_spec b b); cbn; congruence. Qed.

Lemma step_eqb_refl_rm a : step_eqb (Rm a) (Rm a) = true.
Proof. cbn. destruct (fname_eqb_spec a a); congruence. Qed.

(* step_eqb has no LogWrite case, so it is reflexive on renames and removals only (step_eqb_refl_mv, step_eqb_refl_rm): hence
   the premise *)
Lemma existsb_step s l : step_eqb s s = true -> (existsb (step_eqb s) l = true <-> In s l).
Proof.
  intro Hr. rewrite existsb_exists. split.
  - intros [x [Hx E]]. apply step_eqb_eq in E. subst x. exact Hx.
  - intro H. exists s. split; assumption.
Qed.

Lemma files_rm_same st p : files (run_step (Rm p) st) p = None.
Proof. apply upd_same. Qed.

Lemma files_rm_other st a p : p <> a -> files (run_step (Rm a) st) p = files st p.
Proof. intro H. cbn [run_step files]. apply upd_other. exact H. Qed.

Lemma files_mv_other st a b p : p <> a -> p <> b -> files (run_step (Mv a b) st) p = files st p.
Proof.
  intros Ha Hb. cbn [run_step]. destruct (files st a); [|reflexivity]. cbn [files].
  rewrite upd_other by exact Ha. rewrite upd_other by exact Hb. reflexivity.
Qed.

Lemma files_mv_src st a b : files (run_step (Mv a b) st) a = None.
Proof. cbn [run_step]. destruct (files st a) eqn:E; [|exact E]. cbn [files]. apply upd_same. Qed.

Lemma files_mv_dst st a b : a <> b -> files st a <> None -> files (run_step (Mv a b) st) b = files st a.
Proof.
  intros Hab Hs. cbn [run_step]. destruct (files st a) as [c|]; [|congruence]. cbn [files].
  rewrite upd_other by congruence. apply upd_same.
Qed.

Lemma logs_mv st a b : logs (run_step (Mv a b) st) = logs st.
Proof. cbn [run_step]. destruct (files st a); reflexivity. Qed.

Lemma run_app l1 l2 st : run (l1 ++ l2) st = run l2 (run l1 st).
Proof. unfold run. apply fold_left_app. Qed.

Lemma forallb_firstn {A} (f : A -> bool) l k : forallb f l = true -> forallb f (firstn k l) = true.
Proof.
  revert k. induction l as [|x l IH]; intros k H; destruct k; cbn in *; try reflexivity.
  apply andb_prop in H. destruct H as [H1 H2]. rewrite H1. cbn. apply IH. exact H2.
Qed.

Lemma filter_present_nil st (l : list N) :
  (forall x, files st (x, true) = None) -> filter (fun n => present st (n, true)) l = [].
Proof.
  intro Hc. induction l as [|x l IH]; [reflexivity|]. cbn. unfold present at 1. rewrite (Hc x). exact IH.
Qed.

Section Protocol.
Variables (st0 : fs) (old new univ : list N).

Definition protocol_pre : Prop :=
  (forall x, In x old -> ~ In x new) /\
  (forall o, In o old -> files st0 (o, false) <> None) /\
  (forall n, In n new -> files st0 (n, true) <> None /\ files st0 (n, false) = None) /\
  (forall o, In o old -> In o univ) /\
  (forall n, ~ In n univ -> files st0 (n, true) = None) /\
  (forall a b, logs st0 <> FullLog a b).

Hypothesis Hpre : protocol_pre.

Let Hdisj : forall x, In x old -> ~ In x new := proj1 Hpre.
Let Hold : forall o, In o old -> files st0 (o, false) <> None := proj1 (proj2 Hpre).
Let Hnew : forall n, In n new -> files st0 (n, true) <> None /\ files st0 (n, false) = None := proj1 (proj2 (proj2 Hpre)).
Let Holdu : forall o, In o old -> In o univ := proj1 (proj2 (proj2 (proj2 Hpre))).
Let Huniv : forall n, ~ In n univ -> files st0 (n, true) = None := proj1 (proj2 (proj2 (proj2 (proj2 Hpre)))).
Let Hlog0 : forall a b, logs st0 <> FullLog a b := proj2 (proj2 (proj2 (proj2 (proj2 Hpre)))).

Definition notfull (st : fs) : Prop := forall a b, logs st <> FullLog a b.
Definition tidy (st : fs) : Prop := forall n, ~ In n univ -> files st (n, true) = None.
(* before the log is complete and after it is removed: no complete log, and the data files are exactly the view v
   (view_old st0 before, view_new st0 old new after) *)
Definition at_view (v : N -> option content) (st : fs) : Prop :=
  notfull st /\ (forall n, visible st n = v n) /\ tidy st.

Definition renamed (st : fs) (n : N) : Prop := files st (n, false) = files st0 (n, true) /\ files st (n, true) = None.
Definition pending (st : fs) (n : N) : Prop := files st (n, true) = files st0 (n, true) /\ files st (n, false) = None.
Definition gone (st : fs) (o : N) : Prop := files st (o, false) = None.

(* the body phase: while the complete log exists *)
Definition PB (st : fs) : Prop :=
  (forall n, ~ In n old -> ~ In n new -> files st (n, false) = files st0 (n, false)) /\ tidy st /\
  logs st = FullLog old new /\ (forall n, In n new -> renamed st n \/ pending st n) /\
  (forall o, In o old -> files st (o, false) = files st0 (o, false) \/ gone st o).
Definition Inv (st : fs) : Prop := at_view (view_old st0) st \/ PB st \/ at_view (view_new st0 old new) st.

Lemma new_in_univ n : In n new -> In n univ.
Proof.
  intro H. destruct (in_dec N.eq_dec n univ) as [Hi|Hi]; [exact Hi|].
  exfalso. apply (proj1 (Hnew n H)). apply Huniv. exact Hi.
Qed.

Definition keeps (st st' : fs) : Prop :=
  PB st' /\ (forall n, In n new -> renamed st n -> renamed st' n) /\ (forall o, In o old -> gone st o -> gone st' o).

Lemma PB_del st o s : PB st -> In o old -> s = Rm (o, false) \/ s = Mv (o, false) (o, true) ->
  keeps st (run_step s st) /\ gone (run_step s st) o.
Proof.
  intros [Hc1 [Hc2 [Hl [Hn Ho]]]] Hin Hs. set (st' := run_step s st).
  assert (E : logs st' = logs st /\ gone st' o /\ forall n b, n <> o -> files st' (n, b) = files st (n, b)).
  { unfold st', gone. destruct Hs as [-> | ->]; (split; [|split]).
    - reflexivity.
    - apply files_rm_same.
    - intros n b H. apply files_rm_other. congruence.
    - apply logs_mv.
    - apply files_mv_src.
    - intros n b H. apply files_mv_other; congruence. }
  destruct E as [EL [EG EF]]. assert (Hna : ~ In o new) by (apply Hdisj; exact Hin).
  split; [|exact EG]. split; [|split]; [split; [|split; [|split; [|split]]]| |].
  - intros n H1 H2. rewrite EF by congruence. apply Hc1; assumption.
  - intros n H1. rewrite EF by (intro; subst; auto). apply Hc2. exact H1.
  - rewrite EL. exact Hl.
  - intros n H1. unfold renamed, pending. rewrite !EF by congruence. apply Hn. exact H1.
  - intros o' H1. destruct (N.eq_dec o' o) as [->|Hne]; [right; exact EG|]. unfold gone. rewrite EF by exact Hne. apply Ho. exact H1.
  - intros n H1. unfold renamed. rewrite !EF by congruence. tauto.
  - intros o' H1. destruct (N.eq_dec o' o) as [->|Hne]; [intros _; exact EG|]. unfold gone. rewrite EF by exact Hne. tauto.
Qed.

Lemma PB_rename st n : PB st -> In n new -> keeps st (run_step (rename_new n) st) /\ renamed (run_step (rename_new n) st) n.
Proof.
  intros HB Hin. pose proof HB as [Hc1 [Hc2 [Hl [Hn Ho]]]]. unfold rename_new.
  destruct (Hn n Hin) as [[H1 H2]|[H1 H2]].
  - (* done already: the step finds no source *)
    replace (run_step (Mv (n, true) (n, false)) st) with st by (cbn [run_step]; rewrite H2; reflexivity).
    split; [split; [exact HB | split; auto] | split; assumption].
  - set (st' := run_step (Mv (n, true) (n, false)) st).
    assert (Hsrc : files st (n, true) <> None) by (rewrite H1; apply Hnew; exact Hin).
    assert (EF : forall x b, x <> n -> files st' (x, b) = files st (x, b)) by (intros x b H; apply files_mv_other; congruence).
    assert (ER : renamed st' n).
    { split; [unfold st'; rewrite files_mv_dst by (congruence || exact Hsrc); exact H1 | apply files_mv_src]. }
    assert (Hna : ~ In n old) by (intro Hx; exact (Hdisj n Hx Hin)).
    split; [|exact ER]. split; [|split]; [split; [|split; [|split; [|split]]]| |].
    + intros x Hx1 Hx2. rewrite EF by congruence. apply Hc1; assumption.
    + intros x Hx. destruct (N.eq_dec x n) as [->|Hne]; [apply ER | rewrite EF by exact Hne; apply Hc2; exact Hx].
    + unfold st'. rewrite logs_mv. exact Hl.
    + intros x Hx. destruct (N.eq_dec x n) as [->|Hne]; [left; exact ER|].
      unfold renamed, pending. rewrite !EF by exact Hne. apply Hn. exact Hx.
    + intros o Hx. unfold gone. rewrite EF by congruence. apply Ho. exact Hx.
    + intros x Hx. destruct (N.eq_dec x n) as [->|Hne]; [intros _; exact ER|]. unfold renamed. rewrite !EF by exact Hne. tauto.
    + intros o Hx. unfold gone. rewrite EF by congruence. tauto.
Qed.

Lemma PB_body_step st s : PB st -> body_stepb old new s = true -> keeps st (run_step s st).
Proof.
  intros HB Hs. destruct s as [| | | |[a ai] [b bi]|[a ai]]; cbn in Hs; try discriminate.
  - split; [exact HB | split; auto].
  - destruct ai, bi; try discriminate; apply andb_prop in Hs; destruct Hs as [Hab Hm]; apply N.eqb_eq in Hab; subst b;
      apply mem_In in Hm.
    + apply (PB_rename st a HB Hm).
    + apply (PB_del st a _ HB Hm). right. reflexivity.
  - destruct ai; try discriminate. apply mem_In in Hs. apply (PB_del st a _ HB Hs). left. reflexivity.
Qed.

Lemma PB_body st body : PB st -> forallb (body_stepb old new) body = true -> keeps st (run body st).
Proof.
  revert st. induction body as [|s body IH]; intros st HB Hf; [split; [exact HB | split; auto]|].
  cbn in Hf. apply andb_prop in Hf. destruct Hf as [Hs Hf].
  destruct (PB_body_step st s HB Hs) as [HB1 [Hn1 Ho1]]. destruct (IH (run_step s st) HB1 Hf) as [HB2 [Hn2 Ho2]].
  split; [exact HB2 | split; intros; [apply Hn2 | apply Ho2]; auto].
Qed.

(* a property that no body step undoes holds after a body that contains a step establishing it *)
Lemma body_reaches (P : fs -> Prop) s0 :
  (forall st s, PB st -> body_stepb old new s = true -> P st -> P (run_step s st)) ->
  (forall st, PB st -> P (run_step s0 st)) ->
  forall body st, PB st -> forallb (body_stepb old new) body = true -> P st \/ In s0 body -> P (run body st).
Proof.
  intros Hmono Hhit. induction body as [|s body IH]; intros st HB Hf Hd.
  - destruct Hd as [Hd|[]]. exact Hd.
  - cbn in Hf. apply andb_prop in Hf. destruct Hf as [Hs Hf].
    apply (IH (run_step s st)); [apply (PB_body_step st s HB Hs) | exact Hf |].
    destruct Hd as [Hd|[<-|Hd]]; [left; apply Hmono; assumption | left; apply Hhit; exact HB | right; exact Hd].
Qed.

Lemma PB_done st :
  PB st -> (forall n, In n new -> renamed st n) -> (forall o, In o old -> gone st o) ->
  at_view (view_new st0 old new) (run_step LogRemove st).
Proof.
  intros [Hc1 [Hc2 [Hl [Hn Ho]]]] Hr Hg. split; [intros a b; discriminate | split; [|exact Hc2]].
  intro n. unfold visible, view_new. cbn [run_step files]. destruct (mem n new) eqn:E1.
  - apply Hr. apply mem_In. exact E1.
  - destruct (mem n old) eqn:E2; [apply Hg; apply mem_In; exact E2 | apply Hc1; apply mem_false; assumption].
Qed.

Lemma body_completes st body :
  PB st -> forallb (body_stepb old new) body = true ->
  (forall n, In n new -> renamed st n \/ In (rename_new n) body) ->
  (forall o, In o old -> gone st o \/ In (Rm (o, false)) body \/ In (Mv (o, false) (o, true)) body) ->
  (forall k, Inv (run (firstn k (body ++ [LogRemove])) st)) /\ at_view (view_new st0 old new) (run (body ++ [LogRemove]) st).
Proof.
  intros HB Hf Hn Ho.
  assert (Hfin : at_view (view_new st0 old new) (run (body ++ [LogRemove]) st)).
  { rewrite run_app. apply PB_done; [apply (PB_body st body HB Hf) | |].
    - intros n Hin. apply (body_reaches (fun x => renamed x n) (rename_new n)); auto.
      + intros x s Hx Hs. apply (PB_body_step x s Hx Hs). exact Hin.
      + intros x Hx. apply PB_rename; assumption.
    - intros o Hin. assert (Hmono : forall x s, PB x -> body_stepb old new s = true -> gone x o -> gone (run_step s x) o)
        by (intros x s Hx Hs; apply (PB_body_step x s Hx Hs); exact Hin).
      destruct (Ho o Hin) as [H|[H|H]].
      + apply (PB_body st body HB Hf); assumption.
      + apply (body_reaches (fun x => gone x o) (Rm (o, false))); auto. intros x Hx. apply (PB_del x o _ Hx Hin). auto.
      + apply (body_reaches (fun x => gone x o) (Mv (o, false) (o, true))); auto. intros x Hx. apply (PB_del x o _ Hx Hin). auto. }
  split; [|exact Hfin]. intro k. destruct (Nat.le_gt_cases k (length body)) as [Hle|Hgt].
  - rewrite firstn_app. replace (k - length body) with 0 by lia. cbn [firstn]. rewrite app_nil_r.
    right; left. apply (PB_body st (firstn k body) HB). apply forallb_firstn. exact Hf.
  - rewrite firstn_all2 by (rewrite app_length; cbn; lia). right; right. exact Hfin.
Qed.

Lemma PB_after_log : PB (run (logA old new) st0).
Proof.
  cbn. split; [auto | split; [exact Huniv | split; [reflexivity | split]]]; cbn [files].
  - intros n Hin. right. split; [reflexivity | apply (proj2 (Hnew n Hin))].
  - auto.
Qed.

Lemma body_ok_parts body :
  body_okb old new body = true ->
  forallb (body_stepb old new) body = true /\
  (forall n, In n new -> In (rename_new n) body) /\
  (forall o, In o old -> In (Rm (o, false)) body \/ In (Mv (o, false) (o, true)) body).
Proof.
  unfold body_okb. intro H. apply andb_prop in H. destruct H as [H H3]. apply andb_prop in H. destruct H as [H1 H2].
  rewrite forallb_forall in H2, H3. split; [exact H1|]. split.
  - intros n Hin. apply existsb_step; [apply step_eqb_refl_mv | apply H2; exact Hin].
  - intros o Hin. specialize (H3 o Hin). apply orb_prop in H3.
    destruct H3 as [H|H]; [left | right]; (apply existsb_step in H; [exact H|]);
      [apply step_eqb_refl_rm | apply step_eqb_refl_mv].
Qed.

Lemma protocol_prefix_inv body k :
  body_okb old new body = true ->
  Inv (run (firstn k (logA old new ++ body ++ [LogRemove])) st0).
Proof.
  intro Hb. destruct (body_ok_parts body Hb) as [Hf [Hn Ho]].
  (* a crash inside the three log steps, or after them *)
  destruct k as [|[|[|k]]].
  - left. split; [exact Hlog0 | split; [reflexivity | exact Huniv]].
  - left. split; [intros a b; discriminate | split; [reflexivity | exact Huniv]].
  - right; left. exact PB_after_log.
  - change (firstn (S (S (S k))) (logA old new ++ body ++ [LogRemove]))
      with (logA old new ++ firstn k (body ++ [LogRemove])).
    rewrite run_app. apply (body_completes _ body PB_after_log Hf); auto.
Qed.

Definition shrink_init (st st' : fs) : Prop :=
  logs st' = logs st /\ (forall n, files st' (n, false) = files st (n, false)) /\
  (forall n, files st' (n, true) = None \/ files st' (n, true) = files st (n, true)).

Lemma run_purge_list l st :
  shrink_init st (run (map (fun n => Rm (n, true)) l) st) /\
  (forall n, In n l -> files (run (map (fun n => Rm (n, true)) l) st) (n, true) = None).
Proof.
  revert st. induction l as [|x l IH]; intro st.
  - cbn. split; [repeat split; auto | intros n []].
  - cbn [map]. change (run (Rm (x, true) :: map (fun n => Rm (n, true)) l) st)
      with (run (map (fun n => Rm (n, true)) l) (run_step (Rm (x, true)) st)).
    destruct (IH (run_step (Rm (x, true)) st)) as [[H1 [H2 H3]] H4].
    split.
    + repeat split.
      * rewrite H1. reflexivity.
      * intro n. rewrite H2. apply files_rm_other. congruence.
      * intro n. destruct (H3 n) as [H|H]; [left; exact H|]. rewrite H.
        destruct (N.eq_dec n x) as [->|Hne]; [left; apply files_rm_same | right; apply files_rm_other; congruence].
    + intros n [->|Hin]; [|apply H4; exact Hin].
      destruct (H3 n) as [H|H]; [exact H|]. rewrite H. apply files_rm_same.
Qed.

Lemma at_shrink v st st' : at_view v st -> shrink_init st st' -> at_view v st'.
Proof.
  intros [Hl [Hv Ht]] [S1 [S2 S3]]. split; [|split].
  - intros a b. rewrite S1. apply Hl.
  - intro n. unfold visible. rewrite S2. apply Hv.
  - intros n H1. destruct (S3 n) as [H|H]; [exact H | rewrite H; apply Ht; exact H1].
Qed.

Definition clean (st : fs) : Prop := forall n, files st (n, true) = None.
Definition settled (st : fs) : Prop :=
  (at_view (view_old st0) st \/ at_view (view_new st0 old new) st) /\ clean st.

Lemma purge_prefix_shrink Y st j : shrink_init st (run (firstn j (purge_steps univ Y)) st).
Proof.
  unfold purge_steps. rewrite firstn_map. apply run_purge_list.
Qed.

Lemma purge_full_clean st : tidy st -> clean (run (purge_steps univ st) st).
Proof.
  intros Hc2 n. unfold purge_steps.
  destruct (run_purge_list (filter (fun n0 => present st (n0, true)) univ) st) as [[S1 [S2 S3]] H4].
  destruct (in_dec N.eq_dec n univ) as [Hi|Hi].
  - destruct (files st (n, true)) as [c|] eqn:Hp.
    + apply H4. apply filter_In. split; [exact Hi|]. unfold present. rewrite Hp. reflexivity.
    + destruct (S3 n) as [H|H]; [exact H | rewrite H; exact Hp].
  - destruct (S3 n) as [H|H]; [exact H | rewrite H; apply Hc2; exact Hi].
Qed.

Lemma log_steps_notfull st : notfull st -> log_steps st = [].
Proof.
  intro H. unfold log_steps. destruct (logs st) eqn:E; try reflexivity. exfalso. exact (H old0 new0 E).
Qed.

(* in PB the start-up pass always takes the "all new files exist" branch; its step list is a body followed by the
   removal of the log, and it finishes every pending rename and every remaining delete *)
Lemma PB_log_steps st :
  PB st ->
  exists body, log_steps st = body ++ [LogRemove] /\ forallb (body_stepb old new) body = true /\
    (forall n, In n new -> renamed st n \/ In (rename_new n) body) /\
    (forall o, In o old -> gone st o \/ In (Rm (o, false)) body \/ In (Mv (o, false) (o, true)) body).
Proof.
  intros [Hc1 [Hc2 [Hl [Hn Ho]]]].
  assert (Hpres : forall n, In n new -> pending st n -> present st (n, true) = true).
  { intros n Hin [H1 _]. unfold present. rewrite H1. destruct (files st0 (n, true)) eqn:E; [reflexivity|].
    exfalso. apply (proj1 (Hnew n Hin)). exact E. }
  unfold log_steps. rewrite Hl.
  assert (Hall : forallb (any_form st) new = true).
  { apply forallb_forall. intros n Hin. unfold any_form.
    destruct (Hn n Hin) as [[H1 H2]|Hp]; [|rewrite (Hpres n Hin Hp); reflexivity].
    unfold present at 2. rewrite H1. destruct (files st0 (n, true)) eqn:E; [apply orb_true_r|].
    exfalso. apply (proj1 (Hnew n Hin)). exact E. }
  rewrite Hall.
  eexists. split; [reflexivity|]. split; [|split].
  - rewrite forallb_app. apply andb_true_intro. split; apply forallb_forall; intros s Hs; apply in_map_iff in Hs;
      destruct Hs as [x [<- Hx]]; apply filter_In in Hx; destruct Hx as [Hx _].
    + cbn. rewrite N.eqb_refl. cbn. apply mem_In. exact Hx.
    + cbn. apply mem_In. exact Hx.
  - intros n Hin. destruct (Hn n Hin) as [Hr|Hp]; [left; exact Hr|]. right.
    apply in_or_app. left. apply in_map. apply filter_In. split; [exact Hin | apply Hpres; assumption].
  - intros o Hin. destruct (files st (o, false)) as [c|] eqn:Hp; [right; left | left; exact Hp].
    apply in_or_app. right. apply in_map_iff. exists o. split; [reflexivity|]. apply filter_In. split; [exact Hin|].
    unfold present. rewrite Hp. reflexivity.
Qed.

Lemma log_phase st : Inv st ->
  (forall j, Inv (run (firstn j (log_steps st)) st)) /\
  (at_view (view_old st0) (run (log_steps st) st) \/ at_view (view_new st0 old new) (run (log_steps st) st)).
Proof.
  intros [HA|[HB|HC]].
  - rewrite (log_steps_notfull st) by apply HA. split; [intro j; rewrite firstn_nil; left; exact HA | left; exact HA].
  - destruct (PB_log_steps st HB) as [body [E [Hf [Hn Ho]]]]. rewrite E.
    destruct (body_completes st body HB Hf Hn Ho) as [Hp Hfin]. split; [exact Hp | right; exact Hfin].
  - rewrite (log_steps_notfull st) by apply HC. split; [intro j; rewrite firstn_nil; right; right; exact HC | right; exact HC].
Qed.

Lemma crash_in_recover_inv st j : Inv st -> Inv (crash_in_recover univ st j).
Proof.
  intro H. destruct (log_phase st H) as [Hp Hfin]. unfold crash_in_recover, recover_steps. rewrite firstn_app, run_app.
  destruct (Nat.le_gt_cases j (length (log_steps st))) as [Hle|Hgt].
  - replace (j - length (log_steps st)) with 0 by lia. cbn [firstn run fold_left]. apply Hp.
  - rewrite (firstn_all2 (log_steps st)) by lia.
    destruct Hfin as [Hv|Hv]; [left | right; right]; apply (at_shrink _ _ _ Hv); apply purge_prefix_shrink.
Qed.

Lemma recover_settles st : Inv st -> settled (recover univ st).
Proof.
  intro H. destruct (log_phase st H) as [_ Hfin]. unfold recover, recover_steps. rewrite run_app.
  set (st1 := run (log_steps st) st) in *.
  assert (Hs : shrink_init st1 (run (purge_steps univ st1) st1)) by (unfold purge_steps; apply run_purge_list).
  split.
  - destruct Hfin as [Hv|Hv]; [left | right]; exact (at_shrink _ _ _ Hv Hs).
  - apply purge_full_clean. destruct Hfin as [Hv|Hv]; apply Hv.
Qed.

Lemma settled_fixpoint st : settled st -> recover univ st = st.
Proof.
  intros [Hp Hc]. unfold recover, recover_steps.
  assert (Hnf : notfull st) by (destruct Hp as [H|H]; apply H).
  rewrite (log_steps_notfull st Hnf). cbn [app run fold_left].
  unfold purge_steps. rewrite (filter_present_nil st univ Hc). reflexivity.
Qed.

Lemma crashes_inv cr st : Inv st -> Inv (fold_left (crash_in_recover univ) cr st).
Proof.
  revert st. induction cr as [|j cr IH]; intros st H; [exact H|]. cbn. apply IH. apply crash_in_recover_inv. exact H.
Qed.

Theorem crash_atomic_all body k cr :
  body_okb old new body = true ->
  let steps := logA old new ++ body ++ [LogRemove] in
  let st' := recover_with_crashes univ cr (run (firstn k steps) st0) in
  ((forall n, visible st' n = view_old st0 n) \/ (forall n, visible st' n = view_new st0 old new n)) /\
  (forall n, files st' (n, true) = None) /\
  notfull st' /\
  recover univ st' = st'.
Proof.
  intros Hb steps st'.
  assert (Hs : settled st').
  { unfold st', recover_with_crashes. apply recover_settles. apply crashes_inv. apply protocol_prefix_inv. exact Hb. }
  split; [|split; [|split]].
  - destruct Hs as [[HA|HC] _]; [left; apply HA | right; apply HC].
  - apply Hs.
  - destruct Hs as [[HA|HC] _]; [apply HA | apply HC].
  - apply settled_fixpoint. exact Hs.
Qed.

End Protocol.

Lemma mem_refl_in n l : In n l -> mem n l = true.
Proof. apply mem_In. Qed.

Lemma body_ok_any_order inuse old new dl :
  (forall o, In o old <-> In o dl) ->
  body_okb old new (map rename_new new ++ map (del_old inuse) dl) = true.
Proof.
  intro Hdl. unfold body_okb. apply andb_true_intro. split; [apply andb_true_intro; split|].
  - rewrite forallb_app. apply andb_true_intro. split; apply forallb_forall; intros s Hs; apply in_map_iff in Hs;
      destruct Hs as [x [<- Hx]].
    + cbn. rewrite N.eqb_refl. cbn. apply mem_In. exact Hx.
    + apply Hdl in Hx. unfold del_old. destruct (inuse x); cbn; [rewrite N.eqb_refl; cbn|]; apply mem_In; exact Hx.
  - apply forallb_forall. intros n Hin. apply existsb_step; [apply step_eqb_refl_mv|].
    apply in_or_app. left. apply in_map. exact Hin.
  - apply forallb_forall. intros o Hin. apply Hdl in Hin. apply orb_true_iff.
    assert (Hd : In (del_old inuse o) (map rename_new new ++ map (del_old inuse) dl))
      by (apply in_or_app; right; apply in_map; exact Hin).
    unfold del_old in Hd. destruct (inuse o); [right | left]; (apply existsb_step; [|exact Hd]);
      [apply step_eqb_refl_mv | apply step_eqb_refl_rm].
Qed.

(* the canonical step list of ReplaceFiles is a member of the family, for every in-use pattern *)
Lemma canonical_body_ok inuse old new :
  body_okb old new (map rename_new new ++ map (del_old inuse) old) = true.
Proof. apply body_ok_any_order. tauto. Qed.

Definition store_eq (a b : store) : Prop := forall k, a k = b k.

Lemma over_assoc a b c : store_eq (over (over a b) c) (over a (over b c)).
Proof. intro k. unfold over. destruct (c k); reflexivity. Qed.

(* reading a list of files after another: the later ones are newer *)
Lemma fold_over_base l : forall a k,
  fold_left over l a k = match fold_left over l empty_store k with Some v => Some v | None => a k end.
Proof.
  induction l as [|x l IH]; intros a k; cbn [fold_left].
  - reflexivity.
  - rewrite (IH (over a x) k), (IH (over empty_store x) k).
    destruct (fold_left over l empty_store k); [reflexivity|].
    unfold over, empty_store. destruct (x k); reflexivity.
Qed.

Lemma read_app a b k : read (a ++ b) k = over (read a) (read b) k.
Proof. unfold read. rewrite fold_left_app. apply fold_over_base. Qed.

Lemma compact_preserves pre mid post : store_eq (read (pre ++ [compact mid] ++ post)) (read (pre ++ mid ++ post)).
Proof.
  intro k. rewrite !read_app. unfold over. rewrite (read_app [compact mid] post), (read_app mid post). unfold over.
  destruct (read post k); [reflexivity|]. change (read [compact mid] k) with (over empty_store (read mid) k).
  unfold over, empty_store. destruct (read mid k); reflexivity.
Qed.

(* out-of-order merge: the rewritten ordered files carry old-ordered overlaid with all merged out-of-order inputs.
   Whatever suffix (newest inputs) of the out-of-order list is still on disk at a crash, reads are unchanged. *)
Lemma merge_suffix_safe O O' Upre Usuf :
  store_eq (read O') (over (read O) (read (Upre ++ Usuf))) ->
  store_eq (read (O' ++ Usuf)) (read (O ++ Upre ++ Usuf)).
Proof.
  intros H k. rewrite !read_app. unfold over. rewrite (H k). unfold over. rewrite (read_app Upre Usuf). unfold over.
  destruct (read Usuf k); reflexivity.
Qed.

(* contents: any reader semantics that depends only on the visible files and agrees on the old and the new set *)
Lemma contents_unchanged (L : Type) (sem : (N -> option content) -> L) st0 old new (v : N -> option content) :
  (forall a b, (forall n, a n = b n) -> sem a = sem b) ->
  sem (view_new st0 old new) = sem (view_old st0) ->
  ((forall n, v n = view_old st0 n) \/ (forall n, v n = view_new st0 old new n)) ->
  sem v = sem (view_old st0).
Proof.
  intros Hext Heq [H|H].
  - apply Hext. exact H.
  - rewrite <- Heq. apply Hext. exact H.
Qed.

(* the mutants of Model.v: a wrong protocol order has a crash prefix after which recovery shows neither file set *)
Lemma ex_pre : protocol_pre ex_fs [0; 1]%N [2; 3]%N [0; 1; 2; 3]%N.
Proof.
  unfold protocol_pre. repeat split.
  - intros x [<-|[<-|[]]] [H|[H|[]]]; discriminate.
  - intros o [<-|[<-|[]]]; vm_compute; discriminate.
  - destruct H as [<-|[<-|[]]]; vm_compute; discriminate.
  - destruct H as [<-|[<-|[]]]; vm_compute; reflexivity.
  - intros o [<-|[<-|[]]]; cbn; auto.
  - intros n Hn. unfold ex_fs, files_of. cbn [files find fst snd].
    repeat match goal with
           | |- context [fname_eqb ?a ?b] =>
               let E := fresh "E" in let E1 := fresh "E" in
               destruct (fname_eqb_spec a b) as [E|E];
               [try discriminate E; injection E as E1; subst n; exfalso; apply Hn; cbn; auto 6 |]
           end.
    reflexivity.
  - intros a b. cbn. discriminate.
Qed.

Definition neither (st0 st' : fs) (old new : list N) : Prop :=
  ~ (forall n, visible st' n = view_old st0 n) /\ ~ (forall n, visible st' n = view_new st0 old new n).

Lemma log_late_refuted :
  exists st0 old new univ k, protocol_pre st0 old new univ /\
    neither st0 (recover univ (run (firstn k (mutant_log_late old new)) st0)) old new.
Proof.
  exists ex_fs, [0; 1]%N, [2; 3]%N, [0; 1; 2; 3]%N, 1. split; [exact ex_pre|]. split; intro H.
  - specialize (H 2%N). vm_compute in H. discriminate.
  - specialize (H 0%N). vm_compute in H. discriminate.
Qed.

Lemma delete_before_log_refuted :
  exists st0 old new univ k, protocol_pre st0 old new univ /\
    neither st0 (recover univ (run (firstn k (mutant_delete_before_log old new)) st0)) old new.
Proof.
  exists ex_fs, [0; 1]%N, [2; 3]%N, [0; 1; 2; 3]%N, 1. split; [exact ex_pre|]. split; intro H.
  - specialize (H 0%N). vm_compute in H. discriminate.
  - specialize (H 1%N). vm_compute in H. discriminate.
Qed.

Lemma log_removed_early_refuted :
  exists st0 old new univ k, protocol_pre st0 old new univ /\
    neither st0 (recover univ (run (firstn k (mutant_log_removed_early old new)) st0)) old new.
Proof.
  exists ex_fs, [0; 1]%N, [2; 3]%N, [0; 1; 2; 3]%N, 7. split; [exact ex_pre|]. split; intro H.
  - specialize (H 2%N). vm_compute in H. discriminate.
  - specialize (H 1%N). vm_compute in H. discriminate.
Qed.
