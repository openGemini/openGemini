(* C03 fault model: MmsTables.ReplaceFiles and mergeTool.merge with FAILING file-system mutations (I/O errors instead of
   process kills). Every attempted mutation has an ordinal; `fails i = true` means the i-th attempt returns an error and
   does not happen. Any set of failing ordinals is allowed. Besides the disk (Model.fs) the state holds the LIVE file
   list of the directory (what running queries see). Executable definitions only.

   Code mirrored (engine/immutable): mms_tables.go ReplaceFiles (error handling of writeCompactedFileInfo, RenameTmpFiles,
   the delete loop `fs.deleteFile(f); m.deleteFiles(f)`, the final append of the new files and the log removal),
   merge_tool.go merge (replaceMergedFiles, then deleteUnorderedFiles only if the replacement returned no error),
   merge_out_of_order.go deleteUnorderedFiles / removeFile (errors are logged, the file is handed to the GC). *)
From Coq Require Import NArith List Bool Arith.
From OG Require Import C03.Model.
Import ListNotations.

Definition lrm (o : N) (l : list N) : list N := filter (fun x => negb (N.eqb x o)) l.
Definition lrm_all (os : list N) (l : list N) : list N := fold_left (fun acc o => lrm o acc) os l.

(* Current: the delete loop before e369601 returns at the first failing deletion, after the file has already left the live list and
   before the new files are added. Repaired: the loop goes on, the new files are added, the error is returned and the
   intent log is kept (e369601, props/C03/fix2.patch). *)
Inductive variant := Current | Repaired.

Record rstate := mkr {
  r_fs : fs;
  r_live : list N;
  r_err : bool;          (* ReplaceFiles returned an error *)
  r_next : nat           (* ordinal of the next attempt *)
}.

(* steps that abort the protocol when they fail: executed one after the other from ordinal i *)
Fixpoint run_abort (fails : nat -> bool) (i : nat) (l : list step) (st : fs) : fs * nat * bool :=
  match l with
  | [] => (st, i, false)
  | s :: r => if fails i then (st, S i, true) else run_abort fails (S i) r (run_step s st)
  end.

(* the delete loop over the old files *)
Fixpoint del_loop (v : variant) (inuse : N -> bool) (fails : nat -> bool) (i : nat) (olds : list N)
         (st : fs) (live : list N) (err : bool) : fs * list N * bool * nat * bool :=
  match olds with
  | [] => (st, live, err, i, false)
  | o :: rest =>
      let live' := lrm o live in
      if fails i then
        match v with
        | Current => (st, live', true, S i, true)                          (* return err *)
        | Repaired => del_loop v inuse fails (S i) rest st live' true      (* remember the error, go on *)
        end
      else del_loop v inuse fails (S i) rest (run_step (del_old inuse o) st) live' err
  end.

Definition replace_exec (v : variant) (inuse : N -> bool) (fails : nat -> bool) (i0 : nat) (old new : list N)
           (st : fs) (live : list N) : rstate :=
  let pre := [LogCreate; LogWrite old new; LogSync] ++ map rename_new new in
  match run_abort fails i0 pre st with
  | (st1, i1, true) => mkr st1 live true i1       (* log create / write / sync or a rename failed: nothing swapped *)
  | (st1, i1, false) =>
      match del_loop v inuse fails i1 old st1 live false with
      | (st2, live2, _, i2, true) => mkr st2 live2 true i2                 (* Current only: aborted inside the loop *)
      | (st2, live2, true, i2, false) => mkr st2 (live2 ++ new) true i2    (* Repaired: swapped, log kept *)
      | (st2, live2, false, i2, false) =>
          if fails i2 then mkr st2 (live2 ++ new) true (S i2)              (* log removal failed: log stays *)
          else mkr (run_step LogRemove st2) (live2 ++ new) false (S i2)
      end
  end.

(* the live list after a complete swap *)
Definition swapped (old new live : list N) : list N := lrm_all old live ++ new.

(* removal of the out-of-order inputs (deleteUnorderedFiles): the file leaves the live list, a failing removal is only
   logged (the file stays on disk for the GC) *)
Fixpoint unord_loop (inuse : N -> bool) (fails : nat -> bool) (i : nat) (us : list N) (st : fs) (liveU : list N)
  : fs * list N :=
  match us with
  | [] => (st, liveU)
  | u :: rest =>
      let st' := if fails i then st else run_step (del_old inuse u) st in
      unord_loop inuse fails (S i) rest st' (lrm u liveU)
  end.

Record mstate := mkm { m_fs : fs; m_liveO : list N; m_liveU : list N }.

(* mergeTool.merge after execute(): early = false is the repository's order (replace, then - only without error - delete the
   out-of-order inputs); early = true is the documented mutant that deletes the inputs first *)
Definition merge_exec (early : bool) (v : variant) (inuse : N -> bool) (fails : nat -> bool) (old new unord : list N)
           (st : fs) (liveO liveU : list N) : mstate :=
  if early then
    let '(st1, liveU1) := unord_loop inuse fails 0 unord st liveU in
    let r := replace_exec v inuse fails (length unord) old new st1 liveO in
    mkm (r_fs r) (r_live r) liveU1
  else
    let r := replace_exec v inuse fails 0 old new st liveO in
    if r_err r then mkm (r_fs r) (r_live r) liveU
    else let '(st2, liveU2) := unord_loop inuse fails (r_next r) unord (r_fs r) liveU in
         mkm st2 (r_live r) liveU2.

(* deleteUnorderedFiles since fbf71eb (props/C03/fix5.patch; unord_loop above is the loop before it): every input is PARKED first (renamed to .init: from then on a restart
   ignores it), then removed unless a reader still holds it; the loop stops at the first input that cannot be parked - that
   input and all newer ones stay in the live list and on disk (a suffix of the inputs, merged again later). A failing
   removal of a parked file is harmless. Ordinals: one attempt for the rename, one more for the removal if not in use. *)
Fixpoint unord_rep (inuse : N -> bool) (fails : nat -> bool) (i : nat) (us : list N) (st : fs) (liveU : list N)
  : fs * list N :=
  match us with
  | [] => (st, liveU)
  | u :: rest =>
      if fails i then (st, liveU)
      else
        let st1 := run_step (Mv (u, false) (u, true)) st in
        if inuse u then unord_rep inuse fails (S i) rest st1 (lrm u liveU)
        else
          let st2 := if fails (S i) then st1 else run_step (Rm (u, true)) st1 in
          unord_rep inuse fails (S (S i)) rest st2 (lrm u liveU)
  end.

Definition unord_loop_v (v : variant) := match v with Current => unord_loop | Repaired => unord_rep end.

(* writeCompactedFileInfo since 7fdfed2 (props/C03/fix6.patch): an intent log that could not be written or synced completely is removed
   again before the error is returned (before 7fdfed2 the file stayed: dirty after a failed write, COMPLETE after a failed sync - and a
   complete log left in a store that lives on is rolled forward by a later start-up against files that have changed since).
   cleanup = true: ordinals S i0 (write) and S (S i0) (sync) failing leave no log at all. *)
Definition replace_exec_c (cleanup : bool) (v : variant) (inuse : N -> bool) (fails : nat -> bool) (i0 : nat)
           (old new : list N) (st : fs) (live : list N) : rstate :=
  if cleanup && negb (fails i0) && (fails (S i0) || fails (S (S i0)))
  then mkr (run_step LogRemove (run_step LogCreate st)) live true (S (S (S i0)))
  else replace_exec v inuse fails i0 old new st live.
