(* C03 out-of-order merge at column level: the merged column is the last-write-wins overlay of the inputs in file order
   (ordered chunk first, then the out-of-order files oldest to newest), cell by cell; a nil of a newer file never hides an
   older value; the rows are the union of the rows; the result is again strictly ascending. *)
From Coq Require Import ZArith List Bool Lia.
From OG Require Import C03.MergeModel.
Import ListNotations.
Local Open Scope Z_scope.

(* what a time shows: None = no row, Some None = a row with a nil cell, Some (Some v) = a value. b is the newer side: its value
   wins, its nil keeps the older cell but makes the row exist, its absence changes nothing *)
Definition lww (a b : option mcell) : option mcell :=
  match b with
  | Some (Some v) => Some (Some v)
  | Some None => match a with Some c => Some c | None => Some None end
  | None => a
  end.

Lemma merge_col_nil_l u : merge_col [] u = u.
Proof. destruct u; reflexivity. Qed.

Lemma merge_col_nil_r o : merge_col o [] = o.
Proof. destruct o as [|[t c] o]; reflexivity. Qed.

Lemma merge_col_cons t1 c1 o' t2 c2 u' :
  merge_col ((t1, c1) :: o') ((t2, c2) :: u') =
  if Z.eqb t1 t2 then (t1, match c2 with Some _ => c2 | None => c1 end) :: merge_col o' u'
  else if Z.ltb t1 t2 then (t1, c1) :: merge_col o' ((t2, c2) :: u')
  else (t2, c2) :: merge_col ((t1, c1) :: o') u'.
Proof. reflexivity. Qed.

Lemma assoc_below lo l t : asc_from lo l -> t <= lo -> assoc t l = None.
Proof.
  revert lo. induction l as [|[t' c] r IH]; intros lo H Hle; [reflexivity|].
  cbn in H. destruct H as [H1 H2]. cbn [assoc]. destruct (Z.eqb_spec t t'); [lia|]. apply (IH t'); [exact H2 | lia].
Qed.

Lemma asc_from_weaken lo lo' l : lo' <= lo -> asc_from lo l -> asc_from lo' l.
Proof. destruct l as [|[t c] r]; cbn; [tauto|]. intros H [H1 H2]. split; [lia | exact H2]. Qed.

Lemma merge_col_spec : forall o u lo,
  asc_from lo o -> asc_from lo u ->
  asc_from lo (merge_col o u) /\ forall t, assoc t (merge_col o u) = lww (assoc t o) (assoc t u).
Proof.
  induction o as [|[t1 c1] o' IHo]; intros u.
  - intros lo _ Hu. rewrite merge_col_nil_l. split; [exact Hu|]. intro t. cbn [assoc]. unfold lww.
    destruct (assoc t u) as [[v|]|]; reflexivity.
  - induction u as [|[t2 c2] u' IHu]; intros lo Ho Hu.
    + rewrite merge_col_nil_r. split; [exact Ho|]. intro t. cbn [assoc lww]. reflexivity.
    + rewrite merge_col_cons. cbn [asc_from] in Ho, Hu. destruct Ho as [Ho1 Ho2], Hu as [Hu1 Hu2].
      destruct (Z.eqb_spec t1 t2) as [E|NE].
      * subst t2. destruct (IHo u' t1 Ho2 Hu2) as [A1 A2]. split; [cbn [asc_from]; split; assumption|].
        intro t. cbn [assoc]. destruct (Z.eqb_spec t t1).
        -- cbn [lww]. destruct c2; reflexivity.
        -- apply A2.
      * destruct (Z.ltb_spec t1 t2) as [Hlt|Hge].
        -- assert (Hu' : asc_from t1 ((t2, c2) :: u')) by (cbn [asc_from]; split; assumption).
           destruct (IHo ((t2, c2) :: u') t1 Ho2 Hu') as [A1 A2]. split; [cbn [asc_from]; split; assumption|].
           intro t. cbn [assoc]. destruct (Z.eqb_spec t t1) as [E|NE2].
           ++ subst t. destruct (Z.eqb_spec t1 t2); [lia|].
              rewrite (assoc_below t2 u' t1 Hu2) by lia. reflexivity.
           ++ rewrite A2. cbn [assoc]. reflexivity.
        -- assert (Ho' : asc_from t2 ((t1, c1) :: o')) by (cbn [asc_from]; split; [lia | assumption]).
           destruct (IHu t2 Ho' Hu2) as [A1 A2]. split; [cbn [asc_from]; split; assumption|].
           intro t. cbn [assoc]. destruct (Z.eqb_spec t t2) as [E|NE2].
           ++ subst t. destruct (Z.eqb_spec t2 t1); [lia|].
              rewrite (assoc_below t1 o' t2 Ho2) by lia. cbn [lww]. destruct c2; reflexivity.
           ++ rewrite A2. cbn [assoc]. reflexivity.
Qed.

Lemma merge_col_val o u lo t :
  asc_from lo o -> asc_from lo u ->
  val t (merge_col o u) = match val t u with Some v => Some v | None => val t o end.
Proof.
  intros Ho Hu. unfold val. rewrite (proj2 (merge_col_spec o u lo Ho Hu) t). unfold lww.
  destruct (assoc t u) as [[v|]|]; destruct (assoc t o) as [[w|]|]; reflexivity.
Qed.

Lemma merge_col_rows o u lo t :
  asc_from lo o -> asc_from lo u ->
  (assoc t (merge_col o u) = None <-> assoc t o = None /\ assoc t u = None).
Proof.
  intros Ho Hu. rewrite (proj2 (merge_col_spec o u lo Ho Hu) t). unfold lww.
  destruct (assoc t u) as [[v|]|]; destruct (assoc t o) as [[w|]|]; split; try tauto; try discriminate;
    intros [H1 H2]; discriminate.
Qed.

Definition newer_wins (t : Z) (a : option Z) (c : tcol) : option Z := match val t c with Some v => Some v | None => a end.

(* one more (newer) file laid over what a time shows so far *)
Definition over_cell (t : Z) (a : option mcell) (u : tcol) : option mcell := lww a (assoc t u).

Lemma lww_assoc a b c : lww a (lww b c) = lww (lww a b) c.
Proof. destruct c as [[v|]|], b as [[w|]|], a as [[x|]|]; reflexivity. Qed.

Lemma merge_fold us : forall acc lo t,
  asc_from lo acc -> Forall (asc_from lo) us ->
  asc_from lo (fold_left merge_col us acc) /\
  assoc t (fold_left merge_col us acc) = fold_left (over_cell t) us (assoc t acc).
Proof.
  induction us as [|u us IH]; intros acc lo t Ha Hall; [split; [exact Ha | reflexivity]|].
  inversion Hall as [|? ? Hu Hus]; subst. cbn [fold_left].
  destruct (merge_col_spec acc u lo Ha Hu) as [A1 A2].
  destruct (IH (merge_col acc u) lo t A1 Hus) as [B1 B2]. split; [exact B1|]. rewrite B2, A2. reflexivity.
Qed.

Lemma fold_over_cell_lww t us : forall a b, fold_left (over_cell t) us (lww a b) = lww a (fold_left (over_cell t) us b).
Proof. induction us as [|u us IH]; intros a b; [reflexivity|]. cbn [fold_left]. unfold over_cell at 2 4. rewrite <- lww_assoc. apply IH. Qed.

Lemma merge_series_overlay os us lo :
  asc_from lo (concat os) -> Forall (asc_from lo) us ->
  asc_from lo (merge_series os us) /\
  forall t, assoc t (merge_series os us) = fold_left (over_cell t) us (assoc t (concat os)).
Proof.
  intros Ho Hus. unfold merge_series, merge_files. assert (Hnil : asc_from lo []) by exact I.
  destruct (merge_col_spec (concat os) (fold_left merge_col us []) lo Ho (proj1 (merge_fold us [] lo 0 Hnil Hus))) as [A1 A2].
  split; [exact A1|]. intro t. rewrite A2, (proj2 (merge_fold us [] lo t Hnil Hus)), <- fold_over_cell_lww. reflexivity.
Qed.

Lemma fold_over_cell_val t us : forall a,
  match fold_left (over_cell t) us a with Some (Some v) => Some v | _ => None end =
  fold_left (newer_wins t) us (match a with Some (Some v) => Some v | _ => None end).
Proof.
  induction us as [|u us IH]; intro a; [reflexivity|]. cbn [fold_left]. rewrite IH. f_equal.
  unfold over_cell, newer_wins, val, lww. destruct (assoc t u) as [[v|]|]; destruct a as [[w|]|]; reflexivity.
Qed.

Lemma fold_over_cell_none t us : forall a,
  fold_left (over_cell t) us a = None <-> a = None /\ Forall (fun u => assoc t u = None) us.
Proof.
  induction us as [|u us IH]; intro a; cbn [fold_left].
  - split; [intro H; split; [exact H | constructor] | tauto].
  - rewrite IH. unfold over_cell, lww. split.
    + intros [H1 H2]. destruct (assoc t u) as [[v|]|] eqn:E; try discriminate; [destruct a; discriminate|].
      split; [exact H1 | constructor; assumption].
    + intros [-> H]. inversion H as [|? ? Hu Hus]; subst. rewrite Hu. tauto.
Qed.
