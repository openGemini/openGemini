(* C03 column model with the max-segment-limit: a series whose merged chunk would have more than `limit` segments is split
   over several output files. compactColumn leaves at a segment boundary, returns the position (iteratorStart, segmentIndex)
   at which the next file resumes, the rows still buffered go to lastSeg; compact() closes the file and calls compactColumn
   again with that position.
   Code mirrored (engine/immutable/stream_compact.go after /repo 95cf0b3): compactColumn (lastSeg prepended, chunk loop from
   c.iteratorStart, `segStart = c.segmentIndex` only for the chunk at which the previous file stopped, padding by the real
   segment sizes, continueMerge, writeSegment, `segmentN >= maxSegmentLimit` -> nextSegmentPosition + saveSegment, lastSegment,
   writeLastSegment) and the `for splitFile` loop of compact().
   `resume_all = true` is the code BEFORE 95cf0b3 (every chunk from iteratorStart on starts at segmentIndex): the
   documented mutant that the refutation (Props.split_resume_all_chunks_refuted) is about. Executable definitions only. *)
From Coq Require Import NArith ZArith List Bool Arith.
From OG Require Import C03.ColModel.
Import ListNotations.

Record lst (A : Type) := mklst { l_buf : list A; l_out : list (list A); l_n : nat }.
Arguments mklst {A} _ _ _.
Arguments l_buf {A} _.
Arguments l_out {A} _.
Arguments l_n {A} _.

Inductive outcome (A : Type) :=
| Go (st : lst A)                       (* the chunk is finished *)
| Split (st : lst A) (i j : nat).       (* file full: the next file resumes at chunk i, segment j; l_buf st goes to lastSeg *)
Arguments Go {A} _.
Arguments Split {A} _ _ _.

Definition option_skipn {A} (j : nat) (c : option (list A)) : option (list A) :=
  match c with Some l => Some (skipn j l) | None => None end.

(* the segment loop of chunk i; j = index of the first remaining segment, rows / col = the remaining segments *)
Fixpoint lseg_loop {A} (nil : A) (m limit : nat) (lastItr : bool) (i j : nat) (rows : list nat)
         (col : option (list (list A))) (st : lst A) : outcome A :=
  match rows with
  | [] => Go st
  | r :: rest =>
      let '(add, col') :=
        match col with
        | Some (seg :: segs) => (seg, Some segs)
        | Some [] => ([], Some [])
        | None => (repeat nil r, None)
        end in
      let buf1 := l_buf st ++ add in
      let lastSeg := match rest with [] => true | _ => false end in
      if lastSeg && negb lastItr && (length buf1 <? m) then Go (mklst buf1 (l_out st) (l_n st))       (* continueMerge *)
      else
        let w := write_segment m (buf1, l_out st) in
        let n1 := S (l_n st) in
        if (limit <=? n1) && (negb lastItr || negb lastSeg || (0 <? length (fst w))) then
          (* nextSegmentPosition says there is more: saveSegment, return *)
          if lastSeg then Split (mklst (fst w) (snd w) n1) (S i) 0 else Split (mklst (fst w) (snd w) n1) i (S j)
        else
          let st2 := if lastItr && lastSeg && (0 <? length (fst w)) && (n1 <? limit)
                     then let w2 := write_segment m w in mklst (fst w2) (snd w2) (S n1)
                     else mklst (fst w) (snd w) n1 in
          lseg_loop nil m limit lastItr i (S j) rest col' st2
  end.

(* the chunk loop: srcs = the chunks from chunk i on; the first of them is resumed at segment j0 *)
Fixpoint litr_loop {A} (resume_all : bool) (nil : A) (m limit : nat) (i j0 : nat) (srcs : list (src A)) (st : lst A)
  : outcome A :=
  match srcs with
  | [] => Go st
  | s :: rest =>
      let lastItr := match rest with [] => true | _ => false end in
      match lseg_loop nil m limit lastItr i j0 (skipn j0 (s_rows s)) (option_skipn j0 (s_col s)) st with
      | Go st' => litr_loop resume_all nil m limit (S i) (if resume_all then j0 else 0) rest st'
      | sp => sp
      end
  end.

(* one call of compactColumn = the column's part of one output file *)
Definition lround {A} (resume_all : bool) (nil : A) (m limit : nat) (srcs : list (src A)) (i0 j0 : nat) (lastseg : list A)
  : list (list A) * option (nat * nat * list A) :=
  match litr_loop resume_all nil m limit i0 j0 (skipn i0 srcs) (mklst lastseg [] 0) with
  | Split st i j => (l_out st, Some (i, j, l_buf st))
  | Go st =>
      (* writeLastSegment *)
      if (0 <? length (l_buf st)) && (l_n st <? limit) then (snd (write_segment m (l_buf st, l_out st)), None)
      else (l_out st, None)
  end.

(* the `for splitFile` loop *)
Fixpoint lrounds {A} (fuel : nat) (resume_all : bool) (nil : A) (m limit : nat) (srcs : list (src A)) (i0 j0 : nat)
         (lastseg : list A) : list (list (list A)) :=
  match fuel with
  | 0 => []
  | S f =>
      match lround resume_all nil m limit srcs i0 j0 lastseg with
      | (file, None) => [file]
      | (file, Some (i, j, b)) => file :: lrounds f resume_all nil m limit srcs i j b
      end
  end.

Definition nsegs {A} (srcs : list (src A)) : nat := total (map (fun s => length (s_rows s)) srcs).

(* the column's segments in every output file of the series, in file order *)
Definition compact_col_lim_gen {A} (resume_all : bool) (nil : A) (m limit : nat) (srcs : list (src A)) : list (list (list A)) :=
  lrounds (S (S (nsegs srcs))) resume_all nil m limit srcs 0 0 [].

Definition compact_col_lim {A} := @compact_col_lim_gen A false.
Definition compact_col_lim_resume_all {A} := @compact_col_lim_gen A true.
