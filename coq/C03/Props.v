(* C03 property theorems: the statements, each with the steps that assemble it from the lemmas of the other files (or the
   witness, for a refutation), followed by Print Assumptions; Examples show that the hypotheses are satisfiable. *)
From Coq Require Import NArith ZArith List Bool Lia.
From OG Require Import C03.Model C03.Proofs C03.ColModel C03.ColProofs C03.ColLimModel C03.ColLimProofs C03.ColLimBound C03.FaultModel C03.FaultProofs C03.MergeModel C03.MergeProofs.
Import ListNotations.

(* Main theorem, for the whole family of protocols "log first, log removal last, any interleaving of renaming the
   new files and deleting/parking the old ones in between" (ReplaceFiles is one member, see the next theorem):
   for every file system satisfying the protocol's precondition, every crash prefix k of the step list, and every
   finite sequence cr of further crashes inside the recovery pass itself, the state reached by the final complete
   recovery shows either exactly the old files or exactly the new files (every other file untouched, contents
   included), contains no .init file at all, holds no complete intent log, and is a fixpoint of recovery. *)
Theorem C03_crash_atomic : forall st0 old new univ body k cr,
  protocol_pre st0 old new univ -> body_okb old new body = true ->
  let steps := [LogCreate; LogWrite old new; LogSync] ++ body ++ [LogRemove] in
  let st' := recover_with_crashes univ cr (run (firstn k steps) st0) in
  ((forall n, visible st' n = view_old st0 n) \/ (forall n, visible st' n = view_new st0 old new n)) /\
  (forall n, files st' (n, true) = None) /\
  notfull st' /\
  recover univ st' = st'.
Proof. intros st0 old new univ body k cr Hp Hb. exact (crash_atomic_all st0 old new univ Hp body k cr Hb). Qed.
Print Assumptions C03_crash_atomic.

(* both directories of a measurement: the files of the ordered and of the out-of-order directory share one id space (the
   harness numbers them in load order, Model.fname). A replacement whose intent log has IsOrder = b names files of directory b
   only; the theorem above applies to it verbatim, and "every other file untouched" covers the whole other directory (recovery
   per directory; the loader's purge of .init files runs over both). [dir_id] is one encoding that keeps the two apart (even /
   odd); all the last conjunct uses of it is that an id of the other directory is in neither `old` nor `new`. *)
Definition dir_id (is_order : bool) (n : N) : N := (2 * n + (if is_order then 0 else 1))%N.
Theorem dir_ids_disjoint : forall a b, dir_id true a <> dir_id false b.
Proof. intros a b. unfold dir_id. rewrite N.add_0_r. intro H. apply (f_equal N.even) in H. rewrite N.even_mul, N.add_1_r, N.even_succ, N.odd_mul in H. cbn in H. discriminate. Qed.
Theorem C03_crash_atomic_both_directories : forall (is_order : bool) st0 old new univ body k cr,
  let old' := map (dir_id is_order) old in
  let new' := map (dir_id is_order) new in
  protocol_pre st0 old' new' univ -> body_okb old' new' body = true ->
  let steps := [LogCreate; LogWrite old' new'; LogSync] ++ body ++ [LogRemove] in
  let st' := recover_with_crashes univ cr (run (firstn k steps) st0) in
  ((forall n, visible st' n = view_old st0 n) \/ (forall n, visible st' n = view_new st0 old' new' n)) /\
  (forall n, files st' (n, true) = None) /\
  notfull st' /\
  recover univ st' = st' /\
  (forall n, visible st' (dir_id (negb is_order) n) = visible st0 (dir_id (negb is_order) n)).
Proof.
  intros is_order st0 old new univ body k cr old' new' Hp Hb steps st'.
  pose proof (crash_atomic_all st0 old' new' univ Hp body k cr Hb) as [H1 [H2 [H3 H4]]].
  repeat split; auto.
  intro n. assert (Hno : ~ In (dir_id (negb is_order) n) old' /\ ~ In (dir_id (negb is_order) n) new').
  { split; intro Hi; apply in_map_iff in Hi; destruct Hi as [x [E _]]; destruct is_order; cbn [negb] in E;
      [ | symmetry in E | | symmetry in E]; exact (dir_ids_disjoint _ _ E). }
  destruct Hno as [Ho Hn]. fold st'.
  destruct H1 as [H1|H1]; rewrite H1; [reflexivity|].
  unfold view_new, visible. apply mem_false in Ho, Hn. rewrite Hn, Ho. reflexivity.
Qed.
Print Assumptions C03_crash_atomic_both_directories.

(* "contents unchanged": for every reader semantics sem that depends only on the visible data files (names and
   contents) and gives the same answer on the old and on the new file set - which is what compaction / merge
   guarantee, see compact_preserves_contents and merge_ooo_preserves_contents - the answer after any crash prefix,
   any crashes during recovery, and the final recovery equals the answer before the reorganisation began *)
Theorem C03_contents_unchanged : forall (L : Type) (sem : (N -> option content) -> L) st0 old new univ body k cr,
  protocol_pre st0 old new univ -> body_okb old new body = true ->
  (forall a b, (forall n, a n = b n) -> sem a = sem b) ->
  sem (view_new st0 old new) = sem (view_old st0) ->
  sem (visible (recover_with_crashes univ cr
                  (run (firstn k ([LogCreate; LogWrite old new; LogSync] ++ body ++ [LogRemove])) st0)))
  = sem (view_old st0).
Proof.
  intros L sem st0 old new univ body k cr Hp Hb Hext Heq.
  exact (contents_unchanged L sem st0 old new _ Hext Heq (proj1 (crash_atomic_all st0 old new univ Hp body k cr Hb))).
Qed.
Print Assumptions C03_contents_unchanged.

(* the step list of MmsTables.ReplaceFiles (write+sync log, rename each new file, delete or park each old file,
   remove the log) belongs to the family, whatever files are still in use by readers *)
Theorem C03_replace_files_in_family : forall inuse old new,
  replace_steps inuse old new =
    [LogCreate; LogWrite old new; LogSync] ++ (map rename_new new ++ map (del_old inuse) old) ++ [LogRemove] /\
  body_okb old new (map rename_new new ++ map (del_old inuse) old) = true.
Proof. intros. split; [unfold replace_steps; rewrite <- app_assoc; reflexivity | apply canonical_body_ok]. Qed.
Print Assumptions C03_replace_files_in_family.

(* a torn write of the intent log (classified dirty by the reader) is the state after the log file was created: both are
   DirtyLog by definition (old, new and body play no part: the first step is LogCreate) *)
Theorem C03_torn_log_is_dirty : forall st0 old new body,
  torn_write (run (firstn 1 ([LogCreate; LogWrite old new; LogSync] ++ body ++ [LogRemove])) st0)
  = run (firstn 1 ([LogCreate; LogWrite old new; LogSync] ++ body ++ [LogRemove])) st0.
Proof. reflexivity. Qed.
Print Assumptions C03_torn_log_is_dirty.

(* compaction of an adjacent run of files (in read-precedence order) into their last-write-wins union changes no
   cell of any series / time / field; sparse columns and schema differences are cells absent from some files *)
Theorem compact_preserves_contents : forall pre mid post k,
  read (pre ++ [compact mid] ++ post) k = read (pre ++ mid ++ post) k.
Proof. exact compact_preserves. Qed.
Print Assumptions compact_preserves_contents.

(* out-of-order merge: if the rewritten ordered files read as the old ordered files overlaid with all merged
   out-of-order inputs, then with any suffix (the newest inputs) of the out-of-order list still on disk - the states a
   crash can leave while the inputs are deleted oldest first - every read is unchanged *)
Theorem merge_ooo_preserves_contents : forall O O' Upre Usuf k,
  (forall q, read O' q = over (read O) (read (Upre ++ Usuf)) q) ->
  read (O' ++ Usuf) k = read (O ++ Upre ++ Usuf) k.
Proof. intros O O' Upre Usuf k H. exact (merge_suffix_safe O O' Upre Usuf H k). Qed.
Print Assumptions merge_ooo_preserves_contents.

(* sensitivity: protocol orders a wrong edit would produce allow a crash prefix whose recovery shows neither the old
   nor the new file set (documented mutants, not findings) *)
Theorem order_matters_refuted_log_after_first_rename :
  exists st0 old new univ k, protocol_pre st0 old new univ /\
    neither st0 (recover univ (run (firstn k (mutant_log_late old new)) st0)) old new.
Proof. exact log_late_refuted. Qed.
Print Assumptions order_matters_refuted_log_after_first_rename.

Theorem order_matters_refuted_delete_before_log :
  exists st0 old new univ k, protocol_pre st0 old new univ /\
    neither st0 (recover univ (run (firstn k (mutant_delete_before_log old new)) st0)) old new.
Proof. exact delete_before_log_refuted. Qed.
Print Assumptions order_matters_refuted_delete_before_log.

Theorem order_matters_refuted_log_removed_before_deletes :
  exists st0 old new univ k, protocol_pre st0 old new univ /\
    neither st0 (recover univ (run (firstn k (mutant_log_removed_early old new)) st0)) old new.
Proof. exact log_removed_early_refuted. Qed.
Print Assumptions order_matters_refuted_log_removed_before_deletes.

Theorem order_matters_refuted_merge_newest_input_deleted_first :
  exists O O' Upre Usuf k,
    (forall q, read O' q = over (read O) (read (Upre ++ Usuf)) q) /\ read (O' ++ Upre) k <> read (O ++ Upre ++ Usuf) k.
Proof.
  pose (k := (1%N, 5%Z, 1%N)).
  exists [cell k 1], [cell k 3], [cell k 2], [cell k 3], k. split.
  - intro q. unfold read, over, cell, empty_store. cbn [fold_left app]. destruct (key_eqb q k); reflexivity.
  - vm_compute. discriminate.
Qed.
Print Assumptions order_matters_refuted_merge_newest_input_deleted_first.

Theorem compact_nonadjacent_refuted_thm : exists a b c k, read [compact [a; c]; b] k <> read [a; b; c] k.
Proof. pose (k := (1%N, 5%Z, 1%N)). exists (cell k 1), (cell k 2), (cell k 3), k. vm_compute. discriminate. Qed.
Print Assumptions compact_nonadjacent_refuted_thm.

(* non-vacuity: the precondition is satisfiable, and on that instance both outcomes occur *)
Example protocol_pre_satisfiable : protocol_pre ex_fs [0; 1]%N [2; 3]%N [0; 1; 2; 3]%N.
Proof. exact ex_pre. Qed.

Example crash_before_log_keeps_old :
  map (visible (recover [0; 1; 2; 3]%N (run (firstn 1 (replace_steps (fun _ => false) [0; 1]%N [2; 3]%N)) ex_fs))) [0; 1; 2; 3; 7]%N
  = [Some 10; Some 11; None; None; Some 17]%N.
Proof. vm_compute. reflexivity. Qed.

Example crash_mid_rename_completes_new :
  map (visible (recover [0; 1; 2; 3]%N (run (firstn 4 (replace_steps (fun n => N.eqb n 1) [0; 1]%N [2; 3]%N)) ex_fs))) [0; 1; 2; 3; 7]%N
  = [None; None; Some 12; Some 13; Some 17]%N.
Proof. vm_compute. reflexivity. Qed.

(* ---------- what compaction writes, column by column (streaming compactor, code-shaped model ColModel.compact_col) ----------
   For every max-rows > 0 and every non-empty list of well-formed input chunks of a series (any number of files, any
   number of segments per chunk, the column present in some chunks and absent from others, any cells): the segments
   written for the column hold exactly the cells of the input chunks in file order, one nil for every row of a chunk
   that lacks the column - nothing lost, duplicated, reordered or shifted - and the written chunk is well-formed again
   (full segments, then one of 1..max-rows rows), so the premise is an invariant of repeated compaction. *)
Theorem C03_compact_column_exact : forall (A : Type) (nil : A) (maxRows : nat) (srcs : list (src A)),
  0 < maxRows -> srcs <> [] -> Forall (wf_src maxRows) srcs ->
  concat (compact_col nil maxRows srcs) = concat (map (expand nil) srcs) /\
  wf_rows maxRows (map (@length A) (compact_col nil maxRows srcs)).
Proof. exact (@compact_col_correct). Qed.
Print Assumptions C03_compact_column_exact.

(* the same with the repaired padding (as many nils as the chunk's time segment has rows: /repo since f0b71e4, props/C03/fix3.patch;
   the theorem above is about the counter padding of before): exact for every
   chunk whose segments are not longer than max-rows - the full-inner-segments premise is gone, so files written under a
   smaller max-rows-per-segment are compacted correctly; on well-formed chunks the repair changes nothing *)
Theorem C03_compact_column_exact_repaired : forall (A : Type) (nil : A) (maxRows : nat) (srcs : list (src A)),
  0 < maxRows -> srcs <> [] -> Forall (bounded_src maxRows) srcs ->
  concat (compact_col_actual nil maxRows srcs) = concat (map (expand nil) srcs).
Proof. exact (@compact_col_actual_correct). Qed.
Print Assumptions C03_compact_column_exact_repaired.

Theorem C03_padding_repair_conservative : forall (A : Type) (nil : A) (maxRows : nat) (srcs : list (src A)),
  Forall (wf_src maxRows) srcs -> compact_col_actual nil maxRows srcs = compact_col nil maxRows srcs.
Proof. exact (@actual_eq_counter_on_wf). Qed.
Print Assumptions C03_padding_repair_conservative.

(* every column of the series (a field of any type, the time column) is cut into segments at the same rows: addressing
   a cell by (segment, offset) hits the same row in every column, so no value moves to another timestamp *)
Theorem C03_compact_columns_aligned : forall (A B : Type) (nilA : A) (nilB : B) (maxRows : nat)
    (sa : list (src A)) (sb : list (src B)),
  0 < maxRows -> sa <> [] -> Forall (wf_src maxRows) sa -> Forall (wf_src maxRows) sb -> map s_rows sa = map s_rows sb ->
  map (@length A) (compact_col nilA maxRows sa) = map (@length B) (compact_col nilB maxRows sb).
Proof. exact (@columns_aligned). Qed.
Print Assumptions C03_compact_columns_aligned.

(* both written columns hold the cells of their inputs (C03_compact_column_exact, twice), so pairing them cell by cell pairs the
   inputs' cells; that the pairs are the ROWS is C03_compact_columns_aligned. The hypothesis on s_rows only serves sf <> [] *)
Theorem C03_compact_rows_preserved : forall (A : Type) (nil : A) (maxRows : nat) (st : list (src Z)) (sf : list (src A)),
  0 < maxRows -> st <> [] -> Forall (wf_src maxRows) st -> Forall (wf_src maxRows) sf -> map s_rows st = map s_rows sf ->
  combine (concat (compact_col 0%Z maxRows st)) (concat (compact_col nil maxRows sf)) =
  combine (concat (map (expand 0%Z) st)) (concat (map (expand nil) sf)).
Proof.
  intros A nil m st sf Hm Hne Ht Hf Hr.
  assert (Hnf : sf <> []) by (destruct st; [congruence|]; destruct sf; discriminate).
  rewrite (proj1 (compact_col_correct 0%Z m st Hm Hne Ht)), (proj1 (compact_col_correct nil m sf Hm Hnf Hf)). reflexivity.
Qed.
Print Assumptions C03_compact_rows_preserved.

(* sensitivity: a padding counter that is never decremented (a documented mutant, not a finding) over-counts the nils of a
   chunk with two segments; and the well-formedness premise of C03_compact_column_exact is necessary (the witness is the one
   of the finding C03-pad-segment-size, Refuted.C03_counter_padding_current_refuted, which states more) *)
Theorem padding_counter_mutant_refuted :
  exists (m : nat) (srcs : list (src (option Z))),
    0 < m /\ Forall (wf_src m) srcs /\ concat (compact_col_nodec None m srcs) <> concat (map (expand None) srcs).
Proof.
  exists 2, [mksrc [2; 1] None; mksrc [1] (Some [[Some 7%Z]])]. split; [lia|]. split.
  - repeat constructor; cbn; lia.
  - vm_compute. discriminate.
Qed.
Print Assumptions padding_counter_mutant_refuted.

Theorem short_inner_segments_refuted_thm :
  exists (m : nat) (srcs : list (src (option Z))),
    0 < m /\ concat (compact_col None m srcs) <> concat (map (expand None) srcs).
Proof.
exists 4, [mksrc [2; 2; 1] None; mksrc [1] (Some [[Some 7%Z]])]. split; [lia|]. vm_compute. discriminate.
Qed.
Print Assumptions short_inner_segments_refuted_thm.

Example wf_src_satisfiable :
  Forall (wf_src 2) [mksrc [2; 1] (None : option (list (list (option Z)))); mksrc [2; 2] (Some [[Some 1%Z; None]; [Some 2%Z; Some 3%Z]])] /\
  compact_col None 2 [mksrc [2; 1] None; mksrc [2; 2] (Some [[Some 1%Z; None]; [Some 2%Z; Some 3%Z]])]
  = [[None; None]; [None; Some 1%Z]; [None; Some 2%Z]; [Some 3%Z]].
Proof. split; [repeat constructor; cbn; lia | vm_compute; reflexivity]. Qed.

(* ---------- a series split over several output files (max-segment-limit; ColLimModel, code after /repo 95cf0b3) ----------
   For every max-rows > 0, every limit > 0 and all bounded input chunks: the column's segments in the output files, laid end to
   end in file order, are EXACTLY the segments the compactor writes without a limit - leaving compactColumn at the limit,
   carrying the buffered rows (lastSeg) and resuming at (iteratorStart, segmentIndex) only inserts file boundaries. *)
Theorem C03_split_files_concat : forall (A : Type) (nil : A) (maxRows limit : nat),
  0 < maxRows -> 0 < limit -> forall srcs : list (src A), Forall (bounded_src maxRows) srcs ->
  concat (compact_col_lim nil maxRows limit srcs) = compact_col_actual nil maxRows srcs.
Proof. exact (@compact_col_lim_correct). Qed.
Print Assumptions C03_split_files_concat.

(* and no output file holds more than max-segment-limit segments of the series (what the limit is for) *)
Theorem C03_split_files_within_limit : forall (A : Type) (nil : A) (maxRows limit : nat),
  0 < limit -> forall srcs : list (src A), Forall (fun f => length f <= limit) (compact_col_lim nil maxRows limit srcs).
Proof. intros A nil m limit Hl srcs. apply lrounds_bound. exact Hl. Qed.
Print Assumptions C03_split_files_within_limit.

(* hence no cell of the series is lost, duplicated, reordered or shifted by the split *)
Theorem C03_split_cells_exact : forall (A : Type) (nil : A) (maxRows limit : nat) (srcs : list (src A)),
  0 < maxRows -> 0 < limit -> srcs <> [] -> Forall (bounded_src maxRows) srcs ->
  concat (concat (compact_col_lim nil maxRows limit srcs)) = concat (map (expand nil) srcs).
Proof.
  intros A nil m limit srcs Hm Hl Hne Hall. rewrite (C03_split_files_concat A nil m limit Hm Hl srcs Hall).
  apply C03_compact_column_exact_repaired; assumption.
Qed.
Print Assumptions C03_split_cells_exact.

(* sensitivity (the code before 95cf0b3, finding C03-stream-split): restarting EVERY later chunk at the resume segment index
   loses the leading segments of those chunks *)
Theorem split_resume_all_chunks_refuted :
  exists (m limit : nat) (srcs : list (src (option Z))),
    0 < m /\ 0 < limit /\ Forall (wf_src m) srcs /\
    concat (concat (compact_col_lim_resume_all None m limit srcs)) <> concat (map (expand None) srcs).
Proof.
  exists 2, 2, [mksrc [2; 2; 1] (Some [[Some 1%Z; Some 2%Z]; [Some 3%Z; Some 4%Z]; [Some 5%Z]]);
                mksrc [2; 2; 1] (Some [[Some 6%Z; Some 7%Z]; [Some 8%Z; Some 9%Z]; [Some 10%Z]])].
  split; [lia|]. split; [lia|]. split.
  - repeat constructor; cbn; lia.
  - vm_compute. discriminate.
Qed.
Print Assumptions split_resume_all_chunks_refuted.

Example split_example :
  compact_col_lim None 2 2 [mksrc [2; 2; 1] (Some [[Some 1%Z; Some 2%Z]; [Some 3%Z; Some 4%Z]; [Some 5%Z]]); mksrc [2] None]
  = [[[Some 1%Z; Some 2%Z]; [Some 3%Z; Some 4%Z]]; [[Some 5%Z; None]; [None]]].
Proof. vm_compute. reflexivity. Qed.

(* ---------- out-of-order merge, column by column (MergeModel: the two-cursor merge of lib/record/meger.go, the files of the
   out-of-order side merged oldest first, a column absent from a chunk = nil in its rows) ----------
   For all strictly ascending inputs (the ordered chunks of the series laid end to end, every out-of-order chunk): the merged
   column is strictly ascending, and what a query sees at any time t is the last-write-wins overlay of the inputs in file
   order - the value of the newest out-of-order file that has a non-nil cell at t, else the next older one, ..., else the
   ordered value (a nil of a newer file never hides an older value). This is Model.read / Model.over for one (series, field). *)
Theorem C03_merge_column_lww : forall (os us : list tcol) (lo : Z),
  asc_from lo (concat os) -> Forall (asc_from lo) us ->
  asc_from lo (merge_series os us) /\
  forall t, val t (merge_series os us) = fold_left (newer_wins t) us (val t (concat os)).
Proof.
  intros os us lo Ho Hus. destruct (merge_series_overlay os us lo Ho Hus) as [H1 H2]. split; [exact H1|].
  intro t. unfold val. rewrite H2. apply fold_over_cell_val.
Qed.
Print Assumptions C03_merge_column_lww.

(* rows: a time is in the merged column iff it is in some input (no row lost, none invented) *)
Theorem C03_merge_column_rows : forall (os us : list tcol) (lo t : Z),
  asc_from lo (concat os) -> Forall (asc_from lo) us ->
  (assoc t (merge_series os us) = None <-> assoc t (concat os) = None /\ Forall (fun u => assoc t u = None) us).
Proof.
  intros os us lo t Ho Hus. rewrite (proj2 (merge_series_overlay os us lo Ho Hus)). apply fold_over_cell_none.
Qed.
Print Assumptions C03_merge_column_rows.

Theorem merge_old_wins_refuted :
  exists o u t, asc_from 0 o /\ asc_from 0 u /\
    val t (merge_col_old_wins o u) <> match val t u with Some v => Some v | None => val t o end.
Proof. exists [(1, Some 10)]%Z, [(1, Some 20)]%Z, 1%Z. cbn. repeat split; try lia. discriminate. Qed.
Print Assumptions merge_old_wins_refuted.

Example merge_example :
  merge_series [[(1, Some 10); (3, None)]; [(5, Some 50)]]%Z [[(3, Some 31); (4, None)]; [(3, None); (5, Some 51); (9, Some 90)]]%Z
  = [(1, Some 10); (3, Some 31); (4, None); (5, Some 51); (9, Some 90)]%Z.
Proof. vm_compute. reflexivity. Qed.

(* ---------- reorganisations that FAIL (I/O errors instead of process kills; FaultModel.replace_exec / merge_exec) ----------
   Any set of failing file-system mutations (fails : ordinal of the attempt -> bool), the delete loop before or since e369601,
   any in-use pattern: the disk state ReplaceFiles leaves behind is a crash-prefix state of a member of the protocol family,
   hence the next start-up (with any crashes inside that recovery) shows exactly the old or exactly the new file set, no
   .init file, no complete log, and is a fixpoint of recovery. *)
Theorem C03_fault_restart_atomic : forall v inuse fails i0 st0 old new univ live cr,
  protocol_pre st0 old new univ ->
  let st' := recover_with_crashes univ cr (r_fs (replace_exec v inuse fails i0 old new st0 live)) in
  ((forall n, visible st' n = view_old st0 n) \/ (forall n, visible st' n = view_new st0 old new n)) /\
  (forall n, files st' (n, true) = None) /\ notfull st' /\ recover univ st' = st'.
Proof.
  intros v inuse fails i0 st0 old new univ live cr Hp.
  destruct (replace_exec_crash_state v inuse fails i0 old new st0 live) as [body [k [Hb E]]].
  cbn zeta. rewrite E. exact (crash_atomic_all st0 old new univ Hp body k cr Hb).
Qed.
Print Assumptions C03_fault_restart_atomic.

(* answers after the restart that follows a failed reorganisation = answers before it, for every reader semantics that
   depends only on the visible files and agrees on the old and the new set *)
Theorem C03_fault_contents_unchanged : forall (L : Type) (sem : (N -> option content) -> L) v inuse fails i0 st0 old new univ live cr,
  protocol_pre st0 old new univ ->
  (forall a b, (forall n, a n = b n) -> sem a = sem b) ->
  sem (view_new st0 old new) = sem (view_old st0) ->
  sem (visible (recover_with_crashes univ cr (r_fs (replace_exec v inuse fails i0 old new st0 live)))) = sem (view_old st0).
Proof.
  intros L sem v inuse fails i0 st0 old new univ live cr Hp Hext Heq.
  exact (contents_unchanged L sem st0 old new _ Hext Heq (proj1 (C03_fault_restart_atomic v inuse fails i0 st0 old new univ live cr Hp))).
Qed.
Print Assumptions C03_fault_contents_unchanged.

(* the LIVE file list (what running queries read) with the repaired delete loop: unchanged or completely swapped, never
   partial, whatever fails; and for both variants: no error returned -> completely swapped *)
Theorem C03_fault_live_atomic_repaired : forall inuse fails i0 old new st live,
  let r := replace_exec Repaired inuse fails i0 old new st live in
  r_live r = live \/ r_live r = swapped old new live.
Proof.
intros inuse fails i0 old new st live. exact (proj2 (replace_exec_live Repaired inuse fails i0 old new st live) eq_refl).
Qed.
Print Assumptions C03_fault_live_atomic_repaired.

Theorem C03_fault_success_swapped : forall v inuse fails i0 old new st live,
  let r := replace_exec v inuse fails i0 old new st live in
  r_err r = false -> r_live r = swapped old new live.
Proof.
intros v inuse fails i0 old new st live. exact (proj1 (replace_exec_live v inuse fails i0 old new st live)).
Qed.
Print Assumptions C03_fault_success_swapped.

(* out-of-order merge, repository order (replace, then delete the inputs only if the replacement returned no error): whatever
   fails, either no out-of-order input has left the live list, or the ordered list has been swapped completely and all
   inputs have left; when the replacement returned an error the disk is exactly what the replacement left (no deletion of an
   input is attempted). This is the obligation
   "delete the out-of-order inputs only after the replacement is committed". *)
Theorem C03_merge_unordered_after_commit : forall v inuse fails old new unord st liveO liveU,
  let m := merge_exec false v inuse fails old new unord st liveO liveU in
  m_liveU m = liveU \/ (m_liveO m = swapped old new liveO /\ m_liveU m = lrm_all unord liveU).
Proof.
  intros v inuse fails old new unord st liveO liveU. unfold merge_exec.
  pose proof (C03_fault_success_swapped v inuse fails 0 old new st liveO) as Hs. cbn zeta in Hs.
  destruct (r_err (replace_exec v inuse fails 0 old new st liveO)) eqn:E; [left; reflexivity|].
  right. destruct (unord_loop inuse fails _ unord _ liveU) as [st2 liveU2] eqn:E2. cbn [m_liveO m_liveU].
  split; [apply Hs; reflexivity|].
  pose proof (unord_loop_live inuse fails unord (r_next (replace_exec v inuse fails 0 old new st liveO))
                (r_fs (replace_exec v inuse fails 0 old new st liveO)) liveU) as H. rewrite E2 in H. exact H.
Qed.
Print Assumptions C03_merge_unordered_after_commit.

Theorem C03_merge_unordered_disk_after_commit : forall v inuse fails old new unord st liveO liveU,
  let r := replace_exec v inuse fails 0 old new st liveO in
  let m := merge_exec false v inuse fails old new unord st liveO liveU in
  r_err r = true -> m_fs m = r_fs r.
Proof.
intros v inuse fails old new unord st liveO liveU. unfold merge_exec. cbn zeta. intro H. rewrite H. reflexivity.
Qed.
Print Assumptions C03_merge_unordered_disk_after_commit.

(* writeCompactedFileInfo since 7fdfed2 (a log that could not be written or synced is removed again; props/C03/fix6.patch): nothing at all is left of the
   given-up replacement - the disk is the state before it and the live list is unchanged - and the restart theorem holds for the
   protocol with this cleanup as well *)
Theorem C03_failed_log_leaves_nothing : forall v inuse fails i0 old new st live,
  logs st = NoLog -> fails i0 = false -> fails (S i0) || fails (S (S i0)) = true ->
  r_fs (replace_exec_c true v inuse fails i0 old new st live) = st /\
  r_live (replace_exec_c true v inuse fails i0 old new st live) = live.
Proof.
  intros v inuse fails i0 old new st live.
  intros Hl H0 H12. unfold replace_exec_c. rewrite H0, H12. cbn [andb negb r_fs r_live run_step files logs].
  split; [|reflexivity]. destruct st as [f l]. cbn in Hl. subst l. reflexivity.
Qed.
Print Assumptions C03_failed_log_leaves_nothing.

Theorem C03_fault_restart_atomic_with_log_cleanup : forall cleanup v inuse fails i0 st0 old new univ live cr,
  protocol_pre st0 old new univ -> logs st0 = NoLog ->
  let st' := recover_with_crashes univ cr (r_fs (replace_exec_c cleanup v inuse fails i0 old new st0 live)) in
  ((forall n, visible st' n = view_old st0 n) \/ (forall n, visible st' n = view_new st0 old new n)) /\
  (forall n, files st' (n, true) = None) /\ notfull st' /\ recover univ st' = st'.
Proof.
  intros cleanup v inuse fails i0 st0 old new univ live cr Hp Hl. unfold replace_exec_c.
  destruct (cleanup && negb (fails i0) && (fails (S i0) || fails (S (S i0)))) eqn:E.
  - cbn [r_fs run_step files logs].
    replace (mkfs (files st0) NoLog) with (run (firstn 0 (logA old new ++ (map rename_new new ++ map (del_old inuse) old) ++ [LogRemove])) st0)
      by (destruct st0 as [f l]; cbn in Hl; subst l; reflexivity).
    exact (crash_atomic_all st0 old new univ Hp _ 0 cr (canonical_body_ok inuse old new)).
  - apply C03_fault_restart_atomic. exact Hp.
Qed.
Print Assumptions C03_fault_restart_atomic_with_log_cleanup.

(* deleteUnorderedFiles since fbf71eb (park first, stop at the first input that cannot be parked; props/C03/fix5.patch): whatever fails, the inputs that
   are still visible on disk - and in the live list - are a SUFFIX of the merged inputs (the newest ones); every other file and
   the intent-log state are untouched. With merge_ooo_preserves_contents: answers unchanged live and after restart. *)
Theorem C03_unordered_inputs_stay_a_suffix : forall inuse fails us i st liveU,
  NoDup us ->
  exists k, k <= length us /\
    snd (unord_rep inuse fails i us st liveU) = lrm_all (firstn k us) liveU /\
    (forall u, In u (firstn k us) -> files (fst (unord_rep inuse fails i us st liveU)) (u, false) = None) /\
    (forall u b, In u (skipn k us) -> files (fst (unord_rep inuse fails i us st liveU)) (u, b) = files st (u, b)) /\
    (forall p, ~ In (fst p) us -> files (fst (unord_rep inuse fails i us st liveU)) p = files st p) /\
    logs (fst (unord_rep inuse fails i us st liveU)) = logs st.
Proof. exact unord_rep_suffix. Qed.
Print Assumptions C03_unordered_inputs_stay_a_suffix.

(* sensitivity (documented mutant): deleting the out-of-order inputs BEFORE the replacement loses them when the replacement
   then fails (here: the intent log cannot be created) *)
Theorem order_matters_refuted_unordered_deleted_before_replace :
  exists inuse fails old new unord st liveO liveU,
    let m := merge_exec true Repaired inuse fails old new unord st liveO liveU in
    m_liveO m = liveO /\ m_liveU m <> liveU /\ files (m_fs m) (9%N, false) = None /\ files st (9%N, false) <> None.
Proof.
  exists (fun _ => false), (fun i => Nat.eqb i 1), [0; 1]%N, [2; 3]%N, [9]%N,
         (mkfs (files_of [(0, false, 10); (1, false, 11); (2, true, 12); (3, true, 13); (9, false, 19)]%N) NoLog),
         [0; 1]%N, [9]%N.
  vm_compute. repeat split; discriminate.
Qed.
Print Assumptions order_matters_refuted_unordered_deleted_before_replace.

Example fault_rename_error_rolls_forward :
  map (visible (recover [0; 1; 2; 3]%N (r_fs (replace_exec Repaired (fun _ => false) (fun i => Nat.eqb i 4) 0 [0; 1]%N [2; 3]%N ex_fs [0; 1; 7]%N))))
      [0; 1; 2; 3; 7]%N = [None; None; Some 12; Some 13; Some 17]%N /\
  r_live (replace_exec Repaired (fun _ => false) (fun i => Nat.eqb i 4) 0 [0; 1]%N [2; 3]%N ex_fs [0; 1; 7]%N) = [0; 1; 7]%N.
Proof. vm_compute. split; reflexivity. Qed.
