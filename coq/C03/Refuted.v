(* C03: the findings - properties the repository's code violated before the repairs named below - refuted on the variants of
   the models that mirror that code (Current, PadCounter, unord_loop). The mutants that are not findings are refuted in
   Proofs.v / Props.v. *)
From Coq Require Import NArith ZArith List Bool Lia.
From OG Require Import C03.Model C03.Proofs C03.FaultModel C03.FaultProofs C03.ColModel C03.ColProofs.
Import ListNotations.

(* finding C03-replace-delete-abort (repaired by e369601): the delete loop of ReplaceFiles returned at the first failing deletion, after the
   file has left the live list and before the new files are added: the live list is neither the old nor the new one *)
Theorem C03_live_partial_current_refuted :
  exists inuse fails old new st live,
    let r := replace_exec Current inuse fails 0 old new st live in
    r_live r <> live /\ r_live r <> swapped old new live.
Proof.
  exists (fun _ => false), (fun i => Nat.eqb i 5), [0; 1]%N, [2]%N, ex_fs, [0; 1; 7]%N.
  vm_compute. split; discriminate.
Qed.
Print Assumptions C03_live_partial_current_refuted.

(* finding C03-pad-segment-size (repaired by f0b71e4): the nil padding by counter arithmetic over max-rows-per-segment writes too many nils for
   a chunk that lacks the column and whose inner segments are shorter than max-rows (a file written under a smaller
   max-rows-per-segment), although no segment is longer than max-rows: the column gets longer than the time column *)
Theorem C03_counter_padding_current_refuted :
  exists (m : nat) (srcs : list (src (option Z))),
    0 < m /\ srcs <> [] /\ Forall (bounded_src m) srcs /\
    concat (compact_col None m srcs) <> concat (map (expand None) srcs).
Proof.
  exists 4, [mksrc [2; 2; 1] None; mksrc [1] (Some [[Some 7%Z]])]. split; [lia|]. split; [discriminate|]. split.
  - repeat constructor; cbn; try lia; discriminate.
  - vm_compute. discriminate.
Qed.
Print Assumptions C03_counter_padding_current_refuted.

(* finding C03-unordered-delete-gap (repaired by fbf71eb): deleteUnorderedFiles went on after a failed removal: an older input stays visible
   while a newer one is gone (not a suffix of the inputs: after restart its rows override newer merged rows) *)
Theorem C03_unordered_gap_current_refuted :
  exists inuse fails us st liveU,
    let r := unord_loop inuse fails 0 us st liveU in
    files (fst r) (1%N, false) <> None /\ files (fst r) (2%N, false) = None /\ files st (2%N, false) <> None.
Proof.
  exists (fun _ => false), (fun i => Nat.eqb i 1), [0; 1; 2]%N,
         (mkfs (files_of [(0, false, 10); (1, false, 11); (2, false, 12)]%N) NoLog), [0; 1; 2]%N.
  vm_compute. repeat split; discriminate.
Qed.
Print Assumptions C03_unordered_gap_current_refuted.

(* finding C03-stale-intent-log (repaired by 7fdfed2): a failed sync of the intent log gave the replacement up (error returned, live list
   unchanged) but left the COMPLETE log on disk; the store lives on and a later start-up rolls it forward *)
Theorem C03_stale_log_current_refuted :
  exists inuse fails old new st live,
    let r := replace_exec Current inuse fails 0 old new st live in
    r_err r = true /\ r_live r = live /\ logs (r_fs r) = FullLog old new.
Proof.
exists (fun _ => false), (fun i => Nat.eqb i 2), [0; 1]%N, [2; 3]%N, ex_fs, [0; 1; 7]%N. vm_compute. repeat split.
Qed.
Print Assumptions C03_stale_log_current_refuted.
