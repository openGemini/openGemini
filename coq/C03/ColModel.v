(* C03 column-compaction model: what the streaming compactor writes for ONE column of ONE series.
   Code mirrored: engine/immutable/stream_compact.go StreamIterators.compactColumn (iterator loop, segment loop, nil
   padding of a column that is absent from an input chunk, continueMerge / lastSegment / writeLastSegment),
   writeSegment + splitColumn (a buffer longer than max-rows-per-segment is cut at max-rows-per-segment, the rest stays
   in the buffer). The max-segment-limit split of a chunk over several files is not in this model: ColLimModel.v has it.
   Executable definitions only. *)
From Coq Require Import NArith ZArith List Bool Arith.
Import ListNotations.

(* one input chunk as one column of the compactor sees it: the row count of every time segment of the chunk, and the
   column's own segments if the chunk has the column (None: the column is absent from this chunk) *)
Record src (A : Type) := mksrc { s_rows : list nat; s_col : option (list (list A)) }.
Arguments mksrc {A} _ _.
Arguments s_rows {A} _.
Arguments s_col {A} _.

Definition total (l : list nat) : nat := fold_right Nat.add 0 l.

(* writeSegment: write the first max-rows rows of the buffer (all of it if it is not longer), keep the rest *)
Definition write_segment {A} (maxRows : nat) (st : list A * list (list A)) : list A * list (list A) :=
  let (buf, out) := st in
  if maxRows <? length buf then (skipn maxRows buf, out ++ [firstn maxRows buf]) else ([], out ++ [buf]).

(* how many nil cells the code appends for one segment of a chunk without the column, and the new rowCount.
   PadCounter is the code before f0b71e4: counter arithmetic (a full segment while more than max-rows rows remain, rowCount -=
   maxRows after it, the remainder at the end) - it never looks at the real size r of the chunk's time segment.
   PadNoDec is the documented mutant that forgets the decrement. PadActual is the repaired code (f0b71e4, props/C03/fix3.patch):
   as many nils as the time segment has rows. The names without a suffix (compact_col) are the counter padding. *)
Inductive padmode := PadCounter | PadNoDec | PadActual.

Definition pad_step (mode : padmode) (maxRows rowCount r : nat) : nat * nat :=
  match mode with
  | PadActual => (r, rowCount)
  | _ => if maxRows <? rowCount
         then (maxRows, match mode with PadCounter => rowCount - maxRows | _ => rowCount end)
         else (rowCount, rowCount)
  end.

(* the segment loop over one input chunk. rows: the remaining time segments; col: the remaining column segments;
   rowCount: the padding counter; lastItr: this is the last input chunk of the series *)
Fixpoint seg_loop {A} (mode : padmode) (nil : A) (maxRows : nat) (lastItr : bool) (rows : list nat)
         (col : option (list (list A))) (rowCount : nat) (st : list A * list (list A)) : list A * list (list A) :=
  match rows with
  | [] => st
  | r :: rest =>
      let '(add, col', rc') :=
        match col with
        | Some (seg :: segs) => (seg, Some segs, rowCount)
        | Some [] => ([], Some [], rowCount)
        | None => let (n, rc) := pad_step mode maxRows rowCount r in (repeat nil n, None, rc)
        end in
      let buf1 := fst st ++ add in
      let lastSeg := match rest with [] => true | _ => false end in
      if lastSeg && negb lastItr && (length buf1 <? maxRows) then (buf1, snd st)          (* continueMerge: break *)
      else
        let st1 := write_segment maxRows (buf1, snd st) in
        let st2 := if lastItr && lastSeg && (0 <? length (fst st1)) then write_segment maxRows st1 else st1 in
        seg_loop mode nil maxRows lastItr rest col' rc' st2
  end.

Fixpoint itr_loop {A} (mode : padmode) (nil : A) (maxRows : nat) (srcs : list (src A)) (st : list A * list (list A))
  : list A * list (list A) :=
  match srcs with
  | [] => st
  | s :: rest =>
      let lastItr := match rest with [] => true | _ => false end in
      itr_loop mode nil maxRows rest (seg_loop mode nil maxRows lastItr (s_rows s) (s_col s) (total (s_rows s)) st)
  end.

(* compactColumn followed by writeLastSegment: the segments written for the column *)
Definition compact_col_gen {A} (mode : padmode) (nil : A) (maxRows : nat) (srcs : list (src A)) : list (list A) :=
  let st := itr_loop mode nil maxRows srcs ([], []) in
  if 0 <? length (fst st) then snd (write_segment maxRows st) else snd st.

Definition compact_col {A} := @compact_col_gen A PadCounter.
(* the mutant: padding counter never decremented *)
Definition compact_col_nodec {A} := @compact_col_gen A PadNoDec.
(* the repair: padding by the real segment size *)
Definition compact_col_actual {A} := @compact_col_gen A PadActual.

(* specification side: the cells the column contributes, chunk after chunk (absent column = one nil per row) *)
Definition expand {A} (nil : A) (s : src A) : list A :=
  match s_col s with
  | Some segs => concat segs
  | None => repeat nil (total (s_rows s))
  end.

(* a well-formed chunk: at least one segment, every segment but the last has exactly max-rows rows, the last one has
   between 1 and max-rows rows (what MsBuilder, the merge column writer and the compactor itself write) *)
Fixpoint wf_rows (maxRows : nat) (rows : list nat) : Prop :=
  match rows with
  | [] => False
  | r :: rest => match rest with
                 | [] => 1 <= r <= maxRows
                 | _ => r = maxRows /\ wf_rows maxRows rest
                 end
  end.

Definition wf_src {A} (maxRows : nat) (s : src A) : Prop :=
  wf_rows maxRows (s_rows s) /\
  match s_col s with Some segs => map (@length A) segs = s_rows s | None => True end.

(* the weaker shape that files written under another (smaller or equal) max-rows-per-segment still have: at least one
   segment, no segment longer than max-rows *)
Definition bounded_src {A} (maxRows : nat) (s : src A) : Prop :=
  s_rows s <> [] /\ Forall (fun r => r <= maxRows) (s_rows s) /\
  match s_col s with Some segs => map (@length A) segs = s_rows s | None => True end.
