(* C07 stored statistics blocks: every layout the length-dispatching reader can be handed decodes to the statistics that
   were marshalled; the writer only ever picks such a layout (in every chunk-meta-compress-mode). *)
From Coq Require Import ZArith List Bool Lia ZifyBool ZifyNat.
From OG Require Import C07.Gen_Consts C07.Model C07.ModelRows C07.ModelPreAgg C07.ProofsBase C07.ProofsRows.
Import ListNotations.
Open Scope Z_scope.

Definition rt {A} (e : A -> list Z) (d : dec_t A) (P : A -> Prop) : Prop :=
  forall a rest, P a -> d (e a ++ rest) = Some (a, rest).

Definition W (v : Z) : Prop := 0 <= v < M64.

Lemma word_ok_W : forall v, word_ok v = true -> W v.
Proof. unfold word_ok, W. intros. lia. Qed.

Lemma rt_zint : forall v rest, W v -> d_zint (e_zint v ++ rest) = Some (v, rest).
Proof. destruct good_zint as [R _]. exact R. Qed.

Lemma rt_be8 : forall v rest, W v -> get_be 8 (be 8 v ++ rest) = Some (v, rest).
Proof. intros v rest H. apply get_be_app. rewrite pow256_8. exact H. Qed.

Lemma rt_uvarint : rt put_uvarint get_uvarint W.
Proof. intros v rest H. apply uvarint_roundtrip. exact H. Qed.

Lemma rt_varint : forall v rest, W v -> d_varint (e_varint v ++ rest) = Some (v, rest).
Proof.
  intros v rest H. unfold e_varint, d_varint. rewrite uvarint_roundtrip by (apply zz_range; exact H).
  cbn [omap]. rewrite unzz_zz by exact H. reflexivity.
Qed.

Lemma rt_pair {A B} (e1 : A -> list Z) (d1 : dec_t A) P1 (e2 : B -> list Z) (d2 : dec_t B) P2 :
  rt e1 d1 P1 -> rt e2 d2 P2 -> rt (e_pair e1 e2) (d_pair d1 d2) (fun p => P1 (fst p) /\ P2 (snd p)).
Proof.
  intros R1 R2 [a b] rest [Ha Hb]. unfold e_pair, d_pair. cbn [fst snd] in *.
  rewrite <- app_assoc, R1, R2 by assumption. reflexivity.
Qed.

(* split a boolean conjunction hypothesis into its conjuncts *)
Ltac and2 A B := apply andb_true_iff in A; destruct A as [A B].
Ltac and3 A B C := and2 A C; and2 A B.
Ltac and4 A B C D := and2 A D; and3 A B C.
Ltac and5 A B C D E := and2 A E; and4 A B C D.

Lemma sgn64_mod : forall v, W v -> sgn64 v mod M64 = v.
Proof.
  intros v H. unfold sgn64, W, M63, M64 in *. destruct (Z.ltb_spec v 9223372036854775808).
  - apply Z.mod_small. lia.
  - replace (v - 18446744073709551616) with (v + (-1) * 18446744073709551616) by lia.
    rewrite Z.mod_add by lia. apply Z.mod_small. lia.
Qed.

(* dividing by an admissible scale and multiplying back (both wrapping) gives the value back *)
Lemma scaled_back : forall k v, W v -> scale_ok k v = true ->
  (Z.quot (sgn64 v) (scale_at k) mod M64 * scale_at k) mod M64 = v.
Proof.
  intros k v Hv Hk. unfold scale_ok in Hk. and2 Hk Hr. apply Z.eqb_eq in Hr.
  rewrite Z.mul_mod_idemp_l by discriminate.
  pose proof (Z.quot_rem' (sgn64 v) (scale_at k)) as Q. rewrite Hr, Z.add_0_r, Z.mul_comm in Q.
  rewrite <- Q. apply sgn64_mod. exact Hv.
Qed.

Lemma rt_scaled : forall k v rest, W v -> scale_ok k v = true -> d_scaled (e_scaled k v ++ rest) = Some (v, rest).
Proof.
  intros k v rest Hv Hk. unfold e_scaled, d_scaled. cbn [app].
  replace ((k <? 0) || (n_scales <=? k)) with false by (unfold scale_ok in Hk; lia).
  rewrite uvarint_roundtrip by (apply Z.mod_pos_bound; reflexivity).
  rewrite scaled_back by assumption. reflexivity.
Qed.

Lemma scale_greedy_ok : forall v, scale_ok (scale_greedy v) v = true.
Proof.
  intros v. unfold scale_greedy. change (Z.to_nat (n_scales - 1)) with 3%nat. unfold scale_from.
  change (scale_at (Z.of_nat 3)) with 1000000000. change (scale_at (Z.of_nat 2)) with 1000000.
  change (scale_at (Z.of_nat 1)) with 1000.
  destruct (Z.eqb_spec (Z.rem (sgn64 v) 1000000000) 0) as [E3|_].
  { unfold scale_ok. change (scale_at (Z.of_nat 3)) with 1000000000. rewrite E3. reflexivity. }
  destruct (Z.eqb_spec (Z.rem (sgn64 v) 1000000) 0) as [E2|_].
  { unfold scale_ok. change (scale_at (Z.of_nat 2)) with 1000000. rewrite E2. reflexivity. }
  destruct (Z.eqb_spec (Z.rem (sgn64 v) 1000) 0) as [E1|_].
  { unfold scale_ok. change (scale_at (Z.of_nat 1)) with 1000. rewrite E1. reflexivity. }
  unfold scale_ok. change (scale_at 0) with 1. rewrite Z.rem_1_r. reflexivity.
Qed.

Lemma dur_W : forall s, W (dur s).
Proof. intros s. unfold dur, W. apply Z.mod_pos_bound. unfold M64. lia. Qed.

Lemma dur_back : forall s, W (s_minT s) -> W (s_maxT s) -> (s_minT s + dur s) mod M64 = s_maxT s.
Proof.
  intros s H0 H1. unfold dur. rewrite Z.add_mod_idemp_r by (unfold M64; lia).
  replace (s_minT s + (s_maxT s - s_minT s)) with (s_maxT s) by lia. apply Z.mod_small. exact H1.
Qed.

Lemma rt_times : forall k1 k2 s rest, W (s_cnt s) -> W (s_minT s) ->
  scale_ok k1 (s_minT s) = true -> scale_ok k2 (dur s) = true ->
  d_times (times_vlc k1 k2 s ++ rest) = Some ((s_cnt s, (s_minT s, dur s)), rest).
Proof.
  intros k1 k2 s rest Hc Ht K1 K2. unfold d_times, times_vlc, d_pair. rewrite <- !app_assoc.
  rewrite uvarint_roundtrip by exact Hc.
  rewrite rt_scaled by assumption.
  rewrite rt_scaled by (try apply dur_W; assumption). reflexivity.
Qed.

Lemma stat_ok_W : forall s, stat_ok s = true ->
  W (s_min s) /\ W (s_max s) /\ W (s_minT s) /\ W (s_maxT s) /\ W (s_sum s) /\ W (s_cnt s).
Proof.
  intros s H. unfold stat_ok in H. repeat (apply andb_true_iff in H; destruct H as [H ?]).
  unfold W, word_ok in *. lia.
Qed.

Lemma len_zint : forall v, len (e_zint v) = 8.
Proof. intros. unfold e_zint, len. rewrite be_length. reflexivity. Qed.

Lemma len_int_fixed : forall s, len (int_fixed s) = size_int.
Proof. intros. unfold int_fixed. rewrite !len_app, !len_zint. reflexivity. Qed.
Lemma len_int_one : forall s, len (int_one s) = size_one.
Proof. intros. unfold int_one. rewrite !len_app, !len_zint. reflexivity. Qed.
Lemma len_fl_fixed : forall s, len (fl_fixed s) = size_float.
Proof. intros. unfold fl_fixed. rewrite !len_app, !len_zint, !len_be8. reflexivity. Qed.
Lemma len_fl_one : forall s, len (fl_one s) = size_one.
Proof. intros. unfold fl_one. rewrite !len_app, !len_zint, !len_be8. reflexivity. Qed.

Lemma sizes : size_one = 16 /\ size_int = 48 /\ size_float = 48 /\ size_bool = 26 /\ size_string = 8 /\ size_time = 4.
Proof. repeat split; reflexivity. Qed.

(* what the reader leaves unread *)
Definition pad_of (l : layout) : list Z := match l with LPad _ _ _ => [0] | _ => [] end.

Lemma int_vlc_rt : forall k1 k2 s rest, stat_ok s = true ->
  scale_ok k1 (s_minT s) = true -> scale_ok k2 (dur s) = true ->
  int_vlc_dec (int_vlc k1 k2 s ++ rest) = Some (s, rest).
Proof.
  intros k1 k2 s rest H K1 K2. destruct (stat_ok_W s H) as (Hmn & Hmx & Ht0 & Ht1 & Hsm & Hc).
  unfold int_vlc_dec, int_vlc, d_pair. rewrite <- !app_assoc.
  rewrite !rt_varint by assumption.
  rewrite rt_times by assumption.
  rewrite dur_back by assumption. destruct s; reflexivity.
Qed.

Lemma int_fixed_rt : forall s rest, stat_ok s = true -> int_fixed_dec (int_fixed s ++ rest) = Some (s, rest).
Proof.
  intros s rest H. destruct (stat_ok_W s H) as (Hmn & Hmx & Ht0 & Ht1 & Hsm & Hc).
  unfold int_fixed_dec, int_fixed, d_pair. rewrite <- !app_assoc.
  rewrite !rt_zint by assumption. destruct s; reflexivity.
Qed.

Lemma one_row_eq : forall s, one_row_stat s = true -> one_stat (s_min s) (s_minT s) = s.
Proof.
  intros s H. unfold one_row_stat in H. repeat (apply andb_true_iff in H; destruct H as [H ?]).
  destruct s; cbn in *. unfold one_stat. f_equal; lia.
Qed.

Theorem preagg_int_roundtrip : forall l s, stat_ok s = true -> pai_applicable l s = true ->
  pai_dec (pai_enc_with l s) = Some (s, pad_of l).
Proof.
  intros l s H A. destruct (stat_ok_W s H) as (Hmn & Hmx & Ht0 & Ht1 & Hsm & Hc).
  destruct sizes as (S1 & SI & _).
  unfold pai_dec. destruct l as [| |f k1 k2|f k1 k2]; cbn [pai_enc_with pai_applicable pad_of] in *.
  - rewrite len_int_one, Z.eqb_refl.
    rewrite <- (app_nil_r (int_one s)). unfold int_one, d_pair. rewrite <- !app_assoc.
    rewrite !rt_zint by assumption. rewrite one_row_eq by exact A. reflexivity.
  - rewrite len_int_fixed. rewrite S1, SI. cbn [Z.eqb Z.ltb Z.compare Pos.compare Pos.compare_cont Pos.eqb].
    rewrite <- (app_nil_r (int_fixed s)). apply int_fixed_rt. exact H.
  - and4 A A2 A3 A4. apply negb_true_iff in A3. rewrite A3, A4.
    rewrite <- (app_nil_r (int_vlc k1 k2 s)). apply int_vlc_rt; assumption.
  - and3 A A2 A3. apply Z.eqb_eq in A3. rewrite len_app, A3.
    apply int_vlc_rt; assumption.
Qed.

(* the writer picks an applicable layout whenever its guard keeps the variable-length form only below the fixed size *)
Theorem preagg_int_writer_ok : forall keep self s,
  (forall n, keep n = true -> n < size_int) ->
  (s_cnt s = 1 -> one_row_stat s = true) ->
  pai_applicable (int_layout_g keep self s) s = true.
Proof.
  intros keep self s K O. unfold int_layout_g.
  destruct (Z.eqb_spec (s_cnt s) 1) as [E|E]; [exact (O E)|].
  destruct self; [|reflexivity].
  destruct (Z.eqb_spec (len (int_vlc (scale_greedy (s_minT s)) (scale_greedy (dur s)) s)) size_one) as [E1|E1].
  - cbn [pai_applicable]. rewrite !scale_greedy_ok, E1, Z.eqb_refl. reflexivity.
  - destruct (keep (len (int_vlc (scale_greedy (s_minT s)) (scale_greedy (dur s)) s))) eqn:Kp; [|reflexivity].
    cbn [pai_applicable]. rewrite !scale_greedy_ok. apply K in Kp.
    destruct (Z.eqb_spec (len (int_vlc (scale_greedy (s_minT s)) (scale_greedy (dur s)) s)) size_one); [contradiction|].
    destruct (Z.ltb_spec (len (int_vlc (scale_greedy (s_minT s)) (scale_greedy (dur s)) s)) size_int); [reflexivity|lia].
Qed.

Lemma fl_vlc_rt : forall f k1 k2 s rest, stat_ok s = true -> (f || fl_zero_repaired s) = true ->
  scale_ok k1 (s_minT s) = true -> scale_ok k2 (dur s) = true ->
  fl_vlc_dec (fl_vlc f k1 k2 s ++ rest) = Some (s, rest).
Proof.
  intros f k1 k2 s rest H Z K1 K2. destruct (stat_ok_W s H) as (Hmn & Hmx & Ht0 & Ht1 & Hsm & Hc).
  unfold fl_vlc_dec, fl_vlc. destruct f.
  - cbn [app]. change (1 =? 0) with false. cbv iota. unfold d_pair. rewrite <- !app_assoc.
    rewrite !rt_be8 by assumption. rewrite rt_times by assumption.
    rewrite dur_back by assumption. destruct s; reflexivity.
  - cbn [app orb] in *. rewrite Z.eqb_refl. rewrite rt_times by assumption.
    rewrite dur_back by assumption.
    unfold fl_zero_repaired in Z. repeat (apply andb_true_iff in Z; destruct Z as [Z ?]).
    destruct s; cbn in *. f_equal. f_equal. f_equal; lia.
Qed.

Lemma fl_fixed_rt : forall s rest, stat_ok s = true -> fl_fixed_dec (fl_fixed s ++ rest) = Some (s, rest).
Proof.
  intros s rest H. destruct (stat_ok_W s H) as (Hmn & Hmx & Ht0 & Ht1 & Hsm & Hc).
  unfold fl_fixed_dec, fl_fixed, d_pair. rewrite <- !app_assoc.
  rewrite !rt_be8, !rt_zint by assumption. rewrite !rt_be8, !rt_zint by assumption. destruct s; reflexivity.
Qed.

Theorem preagg_float_roundtrip : forall l s, stat_ok s = true -> fl_applicable l s = true ->
  fl_dec (fl_enc_with l s) = Some (s, pad_of l).
Proof.
  intros l s H A. destruct (stat_ok_W s H) as (Hmn & Hmx & Ht0 & Ht1 & Hsm & Hc).
  destruct sizes as (S1 & _ & SF & _).
  unfold fl_dec. unfold fl_applicable in A.
  destruct l as [| |f k1 k2|f k1 k2]; cbn [fl_enc_with fl_applicable_g pad_of] in *.
  - rewrite len_fl_one, Z.eqb_refl.
    rewrite <- (app_nil_r (fl_one s)). unfold fl_one, d_pair. rewrite <- !app_assoc.
    rewrite rt_be8, rt_zint by assumption. rewrite one_row_eq by exact A. reflexivity.
  - rewrite len_fl_fixed. rewrite S1, SF. cbn [Z.eqb Z.ltb Z.compare Pos.compare Pos.compare_cont Pos.eqb].
    rewrite <- (app_nil_r (fl_fixed s)). apply fl_fixed_rt. exact H.
  - and5 A A2 A3 A4 A5. apply negb_true_iff in A4. rewrite A4, A5.
    rewrite <- (app_nil_r (fl_vlc f k1 k2 s)). apply fl_vlc_rt; assumption.
  - and4 A A2 A3 A4. apply Z.eqb_eq in A4. rewrite len_app, A4.
    apply fl_vlc_rt; assumption.
Qed.

Theorem preagg_float_writer_ok : forall zero keep self s,
  (forall n, keep n = true -> n < size_float) ->
  (s_cnt s = 1 -> one_row_stat s = true) ->
  fl_applicable_g zero (fl_layout_g zero keep self s) s = true.
Proof.
  intros zero keep self s K O. unfold fl_layout_g.
  destruct (Z.eqb_spec (s_cnt s) 1) as [E|E]; [exact (O E)|].
  destruct self; [|reflexivity].
  set (f := negb (zero s)). set (k1 := scale_greedy (s_minT s)). set (k2 := scale_greedy (dur s)).
  assert (F : (f || zero s) = true) by (unfold f; destruct (zero s); reflexivity).
  destruct (Z.eqb_spec (len (fl_vlc f k1 k2 s)) size_one) as [E1|E1].
  - cbn [fl_applicable_g]. unfold k1, k2. rewrite !scale_greedy_ok. fold k1 k2. rewrite F, E1, Z.eqb_refl. reflexivity.
  - destruct (keep (len (fl_vlc f k1 k2 s))) eqn:Kp; [|reflexivity].
    cbn [fl_applicable_g]. unfold k1, k2. rewrite !scale_greedy_ok. fold k1 k2. rewrite F. apply K in Kp.
    destruct (Z.eqb_spec (len (fl_vlc f k1 k2 s)) size_one); [contradiction|].
    destruct (Z.ltb_spec (len (fl_vlc f k1 k2 s)) size_float); [reflexivity|lia].
Qed.

(* one byte, big endian: the boolean block's min / max bytes *)
Lemma be1 : forall b, 0 <= b < 256 -> be 1 b = [b].
Proof. intros b H. cbn [be]. change (256 ^ Z.of_nat 0) with 1. rewrite Z.div_1_r, Z.mod_small by lia. reflexivity. Qed.
