(* C07: the whole-file reader finds every layer of a file laid out by the writer - footer, trailer (incl. the dictionary of
   chunk-meta-compress-mode self), meta-index entries, chunk-meta blocks under every chunk-meta-compress-mode, chunk metas. *)
From Coq Require Import ZArith List Bool Lia ZifyBool ZifyNat.
From OG Require Import C07.Gen_Consts C07.Model C07.ModelRows C07.ModelFile C07.ModelPreAgg C07.ModelCMSelf C07.ModelWhole
  C07.ProofsBase C07.ProofsRows C07.ProofsSeg C07.ProofsFile C07.ProofsPreAgg C07.ProofsCMSelf C07.ProofsString.
Import ListNotations.
Open Scope Z_scope.

Lemma good_mindex : good e_mindex d_mindex (fun m => mindex_ok m = true).
Proof.
  eapply good_weaken.
  - apply (good_pair _ _ _ _ _ _ (good_be 8) (good_pair _ _ _ _ _ _ good_zint (good_pair _ _ _ _ _ _ good_zint
            (good_pair _ _ _ _ _ _ good_zint (good_pair _ _ _ _ _ _ (good_be 4) (good_be 4)))))).
  - intros [id [t0 [t1 [off [cnt size]]]]] H. unfold mindex_ok, w64 in H. cbn [fst snd].
    rewrite pow256_8, pow256_4. lia.
Qed.

Theorem mindex_list_roundtrip : forall mis rest, Forall (fun m => mindex_ok m = true) mis ->
  get_n d_mindex (length mis) (flat_map e_mindex mis ++ rest) = Some (mis, rest).
Proof. intros. apply (get_n_rt e_mindex d_mindex _ good_mindex). assumption. Qed.

Lemma len_mindex : forall m, len (e_mindex m) = 40.
Proof.
  intros [id [t0 [t1 [off [cnt size]]]]]. unfold e_mindex, e_pair. cbn [fst snd].
  rewrite !len_app, !len_zint. unfold len. rewrite !be_length. reflexivity.
Qed.

Lemma d_strings_rt : forall l fuel, Forall (fun s => len s < 65536) l -> (length l <= fuel)%nat ->
  d_strings fuel (e_strings l) = Some l.
Proof.
  induction l as [|s r IH]; intros fuel F Hf.
  - destruct fuel; reflexivity.
  - inversion F; subst. destruct fuel as [|k]; [cbn in Hf; lia|].
    unfold e_strings. cbn [flat_map]. fold (e_strings r).
    assert (NE : put_bytes 2 s ++ e_strings r <> []).
    { unfold put_bytes. cbn [be app]. discriminate. }
    cbn [d_strings]. destruct (put_bytes 2 s ++ e_strings r) eqn:E; [contradiction|]. rewrite <- E.
    destruct (good_bytes 2) as [R _]. rewrite R by (rewrite pow256_2; assumption).
    rewrite IH by (try assumption; cbn in Hf; lia). reflexivity.
Qed.

Lemma len_e_strings_ge : forall l, Z.of_nat (length l) <= len (e_strings l).
Proof.
  induction l as [|s r IH]; [cbn; lia|]. unfold e_strings. cbn [flat_map]. fold (e_strings r).
  rewrite len_app. unfold put_bytes. rewrite len_app. pose proof (len_nonneg s). unfold len at 1. rewrite be_length.
  cbn [length]. lia.
Qed.

Lemma unle_le8 : forall v, 0 <= v < M64 -> unle (le 8 v) = v.
Proof. intros. apply unle_le. rewrite pow256_8. assumption. Qed.

Lemma le8_length : forall v, length (le 8 v) = 8%nat.
Proof. intros. apply le_length. Qed.

(* the three fields of the trailer's flag word come apart again *)
Lemma flag_word : forall ts cm n, 0 <= ts < 256 -> 0 <= cm < 256 -> 0 <= n ->
  let f := ts + 256 * cm + M32 * n in f mod 256 = ts /\ (f / 256) mod 256 = cm /\ f / M32 = n.
Proof.
  intros ts cm n Hts Hcm Hn f.
  assert (E1 : f = ts + (cm + 16777216 * n) * 256) by (unfold f, M32; ring).
  assert (E2 : f = (ts + 256 * cm) + n * M32) by (unfold f; ring).
  split; [|split].
  - rewrite E1, Z.mod_add by discriminate. apply Z.mod_small. exact Hts.
  - rewrite E1, Z.div_add, (Z.div_small ts), Z.add_0_l by (assumption || discriminate).
    replace (cm + 16777216 * n) with (cm + (65536 * n) * 256) by ring.
    rewrite Z.mod_add by discriminate. apply Z.mod_small. exact Hcm.
  - rewrite E2, Z.div_add, Z.div_small by (unfold M32; lia). apply Z.add_0_l.
Qed.

Theorem extra_roundtrip : forall x rest, extra_ok x = true -> d_extra (e_extra x ++ rest) = Some (x, rest).
Proof.
  intros [ts [cm [dict name]]] rest H. unfold extra_ok in H.
  apply andb_true_iff in H. destruct H as [H Hname]. apply andb_true_iff in H. destruct H as [H Hsize].
  apply andb_true_iff in H. destruct H as [H Hd]. apply andb_true_iff in H. destruct H as [H Hdl].
  apply andb_true_iff in H. destruct H as [Hts Hcm]. unfold byte_ok in *.
  unfold e_extra, d_extra. set (body := extra_body (ts, (cm, (dict, name)))) in *.
  pose proof (len_nonneg body) as LB.
  assert (EB : body = be 2 (len dict) ++ e_strings dict) by reflexivity.
  assert (LB2 : 2 <= len body) by (rewrite EB, len_app; unfold len at 1; rewrite be_length; pose proof (len_nonneg (e_strings dict)); lia).
  set (flags := ts + 256 * cm + M32 * (8 + len body)).
  assert (HF : 0 <= flags < M64) by (unfold flags, M32, M64 in *; lia).
  rewrite <- !app_assoc.
  rewrite get_be_app by (rewrite pow256_2; lia).
  set (r := le 8 flags ++ body ++ put_bytes 2 name ++ rest).
  assert (LR : len r = 8 + len body + len (put_bytes 2 name ++ rest)).
  { unfold r. rewrite !len_app. unfold len at 1. rewrite le8_length. lia. }
  pose proof (len_nonneg (put_bytes 2 name ++ rest)) as LT.
  destruct (Z.ltb_spec (len r) 8); [lia|].
  change (8 =? 0) with false. change (8 =? 1) with false. change (8 =? 2) with false. change (8 <? 8) with false. cbv iota.
  destruct (le8_shape flags) as (b0&b1&b2&b3&b4&b5&b6&b7&EL).
  assert (F8 : firstn 8 r = le 8 flags) by (unfold r; rewrite EL; reflexivity).
  rewrite F8, unle_le8 by exact HF.
  destruct (flag_word ts cm (8 + len body)) as (Ets & Ecm & Esz); [lia..|]. fold flags in Ets, Ecm, Esz.
  rewrite Ets, Ecm, Esz.
  destruct (Z.ltb_spec 0 (8 + len body)); [|lia].
  destruct (Z.ltb_spec (len r) (8 + len body)); [lia|].
  destruct (Z.ltb_spec (8 + len body) 10); [lia|].
  assert (S10 : skipn 10 r = e_strings dict ++ put_bytes 2 name ++ rest) by (unfold r; rewrite EL, EB, <- app_assoc; reflexivity).
  rewrite S10.
  assert (LD : 8 + len body - 10 = len (e_strings dict)).
  { rewrite EB, len_app. unfold len at 1. rewrite be_length. lia. }
  rewrite LD, firstn_len_app by reflexivity.
  apply forallb_Forall in Hd.
  rewrite d_strings_rt.
  - cbn [omap].
    assert (SK : skipn (Z.to_nat (8 + len body)) r = put_bytes 2 name ++ rest).
    { unfold r. rewrite app_assoc. apply skipn_len_app. rewrite len_app. replace (len (le 8 flags)) with 8 by (unfold len; rewrite le8_length; reflexivity). lia. }
    rewrite SK. destruct (good_bytes 2) as [R _]. rewrite R by (rewrite pow256_2; lia). reflexivity.
  - eapply Forall_impl; [|exact Hd]. cbv beta. intros. lia.
  - pose proof (len_e_strings_ge dict). assert (Z.of_nat (length r) = len r) by reflexivity.
    assert (len (e_strings dict) <= len r) by lia. lia.
Qed.

Theorem trailer_roundtrip : forall t rest, trailer_ok t = true -> d_trailer (e_trailer t ++ rest) = Some (t, rest).
Proof.
  intros [vs x] rest H. unfold trailer_ok in H. cbn [fst snd] in H.
  apply andb_true_iff in H. destruct H as [H Hx]. apply andb_true_iff in H. destruct H as [Hl Hw].
  unfold e_trailer, d_trailer. cbn [fst snd]. rewrite <- app_assoc.
  rewrite trailer_fixed_roundtrip.
  - rewrite extra_roundtrip by exact Hx. reflexivity.
  - apply Nat.eqb_eq. exact Hl.
  - apply Forall_forall. intros v I. apply words_ok_In with (vs := vs); assumption.
Qed.

Lemma split_offs_starts : forall items o, items <> [] -> split_offs (starts_of o items) (concat items) = items.
Proof.
  induction items as [|x r IH]; intros o Hne; [contradiction|].
  destruct r as [|y r'].
  - cbn. rewrite app_nil_r. reflexivity.
  - cbn [starts_of concat split_offs]. replace (o + len x - o) with (len x) by lia.
    rewrite firstn_len_app, skipn_len_app by reflexivity. f_equal.
    specialize (IH (o + len x)). cbn [starts_of concat] in IH. apply IH. discriminate.
Qed.

Lemma starts_of_eq : forall items o, starts_of o items = starts o items.
Proof. induction items; intros; [reflexivity|]. cbn. rewrite IHitems. reflexivity. Qed.

Lemma offs_rt : forall (offs : list Z) rest, Forall (fun o => 0 <= o < M32) offs ->
  get_n (get_be 4) (length offs) (flat_map (be 4) offs ++ rest) = Some (offs, rest).
Proof.
  intros. apply (get_n_rt (be 4) (get_be 4) _ (good_be 4)). eapply Forall_impl; [|eassumption]. cbv beta. intros. rewrite pow256_4. assumption.
Qed.

Theorem block_items_roundtrip : forall items, items <> [] -> 0 < len (concat items) < M32 ->
  block_items (len items) (block_plain items) = Some items.
Proof.
  intros items Hne Hl. unfold block_items, block_plain.
  set (offb := flat_map (be 4) (starts_of 0 items)).
  assert (LO : len offb = 4 * len items).
  { unfold offb. rewrite (flat_be4_length (fun o => o)). unfold len. rewrite starts_of_eq, starts_length. reflexivity. }
  rewrite len_app, LO.
  destruct (Z.leb_spec (len (concat items) + 4 * len items) (4 * len items)); [lia|].
  replace (len (concat items) + 4 * len items - 4 * len items) with (len (concat items)) by lia.
  rewrite skipn_len_app, firstn_len_app by reflexivity.
  replace (Z.to_nat (len items)) with (length (starts_of 0 items)) by (rewrite starts_of_eq, starts_length, to_nat_len; reflexivity).
  unfold offb. rewrite <- (app_nil_r (flat_map (be 4) (starts_of 0 items))). rewrite offs_rt.
  - rewrite split_offs_starts by exact Hne. reflexivity.
  - apply Forall_forall. intros v I. rewrite starts_of_eq in I. pose proof (starts_range items 0 v ltac:(lia) I). lia.
Qed.

Section BlockProof.
  Variable bcomp : Z -> list Z -> list Z.
  Variable bdec : Z -> list Z -> option (list Z).
  Hypothesis comp_rt : forall mode x, bdec mode (bcomp mode x) = Some x.

  Definition mode_ok (mode : Z) : bool :=
    (mode =? g_cm_mode_none) || (mode =? g_cm_mode_snappy) || (mode =? g_cm_mode_lz4) || (mode =? g_cm_mode_self).

  Theorem block_store_load : forall mode raw, mode_ok mode = true -> len raw < M32 ->
    block_load bdec mode (block_store bcomp mode raw) = Some raw.
  Proof.
    intros mode raw M L. unfold block_load, block_store. pose proof (len_nonneg raw).
    destruct (Z.eqb_spec mode g_cm_mode_snappy); [apply comp_rt|].
    destruct (Z.eqb_spec mode g_cm_mode_lz4).
    - rewrite get_be4 by (lia). rewrite comp_rt, Z.eqb_refl. reflexivity.
    - unfold mode_ok in M. destruct (Z.eqb_spec mode g_cm_mode_none); [reflexivity|].
      destruct (Z.eqb_spec mode g_cm_mode_self); [reflexivity|]. lia.
  Qed.

  (* how a chunk meta is written under a mode (scale index and dictionary indices = the writer's choices) *)
  Definition cm_enc (mode : Z) (ch : Z * list Z) (cm : chunk_meta) : list Z :=
    if mode =? g_cm_mode_self then e_cm_self (fst ch) (snd ch) cm else e_chunk_meta cm.
  Definition cm_enc_ok (mode : Z) (dict : list (list Z)) (ch : Z * list Z) (cm : chunk_meta) : bool :=
    if mode =? g_cm_mode_self then cm_self_ok dict (fst ch) (snd ch) cm && (0 <=? fst ch) && (fst ch <? n_scales)
    else chunk_meta_ok cm.

  Lemma cm_any_rt : forall mode dict ch cm, cm_enc_ok mode dict ch cm = true ->
    d_cm_any mode dict (cm_enc mode ch cm) = Some cm.
  Proof.
    intros mode dict [k idxs] cm H. unfold d_cm_any, cm_enc, cm_enc_ok in *. cbn [fst snd] in *.
    destruct (mode =? g_cm_mode_self).
    - apply andb_true_iff in H. destruct H as [H K2]. apply andb_true_iff in H. destruct H as [H K1].
      rewrite <- (app_nil_r (e_cm_self k idxs cm)). rewrite cm_self_roundtrip; [reflexivity|exact H|rewrite K1, K2; reflexivity].
    - rewrite <- (app_nil_r (e_chunk_meta cm)). rewrite chunk_meta_roundtrip by exact H. reflexivity.
  Qed.

  (* one block of the index area: its chunk metas with the writer's choices, the meta-index entry that locates it *)
  Definition blk := (list ((Z * list Z) * chunk_meta) * mindex)%type.
  Definition cs_items (mode : Z) (cs : list ((Z * list Z) * chunk_meta)) : list (list Z) := map (fun p => cm_enc mode (fst p) (snd p)) cs.
  Definition cs_bytes (mode : Z) (cs : list ((Z * list Z) * chunk_meta)) : list Z := block_store bcomp mode (block_plain (cs_items mode cs)).
  Definition blk_items (mode : Z) (b : blk) : list (list Z) := cs_items mode (fst b).
  Definition blk_bytes (mode : Z) (b : blk) : list Z := cs_bytes mode (fst b).
  Definition blk_cms (b : blk) : list chunk_meta := map snd (fst b).

  (* the file: header, data, blocks, meta-index entries, bloom filter, id-time section, trailer, footer *)
  Definition file_body (mode : Z) (H D : list Z) (blks : list blk) (B I : list Z) : list Z :=
    H ++ D ++ concat (map (blk_bytes mode) blks) ++ flat_map e_mindex (map snd blks) ++ B ++ I.
  Definition file_bytes (mode : Z) (H D : list Z) (blks : list blk) (B I : list Z) (t : trailer) : list Z :=
    let body := file_body mode H D blks B I in body ++ e_trailer t ++ e_zint (len body).

  (* block i sits where its meta-index entry says, and the entry is well formed *)
  Fixpoint blks_placed (mode : Z) (dict : list (list Z)) (pos : Z) (blks : list blk) : Prop :=
    match blks with
    | [] => True
    | b :: r =>
        let '(_, (_, (_, (off, (cnt, size))))) := snd b in
        mindex_ok (snd b) = true /\ off = pos /\ size = len (blk_bytes mode b) /\ cnt = len (fst b) /\
        fst b <> [] /\ 0 < len (concat (blk_items mode b)) /\ len (block_plain (blk_items mode b)) < M32 /\
        Forall (fun p => cm_enc_ok mode dict (fst p) (snd p) = true) (fst b) /\
        blks_placed mode dict (pos + len (blk_bytes mode b)) r
    end.

  Lemma all_some_map : forall {A B} (f : A -> option B) (g : A -> B) l, Forall (fun a => f a = Some (g a)) l ->
    all_some (map f l) = Some (map g l).
  Proof.
    induction l as [|a r IH]; intros F; [reflexivity|]. inversion F; subst. cbn [map all_some]. rewrite H1, IH by assumption. reflexivity.
  Qed.

  Lemma read_blocks : forall mode t F blks pre post,
    mode_ok mode = true -> t_cmode t = mode ->
    F = pre ++ concat (map (blk_bytes mode) blks) ++ post ->
    t_data_off t + t_data_size t <= len pre ->
    len pre + len (concat (map (blk_bytes mode) blks)) <= t_data_off t + t_data_size t + t_index_size t ->
    blks_placed mode (t_dict t) (len pre) blks ->
    all_some (map (read_block bdec t F) (map snd blks)) = Some (map blk_cms blks).
  Proof.
    intros mode t F blks. revert F. induction blks as [|b r IH]; intros F pre post M TM EF Lo Hi P; [reflexivity|].
    cbn [map all_some]. cbn [blks_placed] in P.
    destruct b as [cs [id [t0 [t1 [off [cnt size]]]]]]. cbn [snd fst] in P.
    unfold blk_bytes, blk_items in P. cbn [fst] in P.
    destruct P as (MO & Eoff & Esize & Ecnt & Hne & Lpos & Lraw & Fcm & Prest).
    cbn [map concat] in EF, Hi. unfold blk_bytes at 1 in EF. unfold blk_bytes at 1 in Hi. cbn [fst] in EF, Hi. rewrite len_app in Hi.
    pose proof (len_nonneg (cs_bytes mode cs)) as Lb. pose proof (len_nonneg (concat (map (blk_bytes mode) r))) as Lr.
    assert (RB : read_block bdec t F (id, (t0, (t1, (off, (cnt, size))))) = Some (map snd cs)).
    { unfold read_block. subst off size cnt.
      destruct (Z.ltb_spec (len pre) (t_data_off t + t_data_size t)); [lia|].
      destruct (Z.ltb_spec (t_data_off t + t_data_size t + t_index_size t) (len pre + len (cs_bytes mode cs))); [lia|]. cbn [orb].
      rewrite EF. rewrite <- app_assoc. rewrite slice_app. rewrite TM.
      unfold cs_bytes. rewrite block_store_load by assumption.
      replace (len cs) with (len (cs_items mode cs)) by (unfold cs_items, len; rewrite map_length; reflexivity).
      rewrite block_items_roundtrip.
      - unfold cs_items. rewrite map_map. apply all_some_map.
        eapply Forall_impl; [|exact Fcm]. cbv beta. intros p Hp. apply cm_any_rt. exact Hp.
      - unfold cs_items. destruct cs; [contradiction|discriminate].
      - split; [exact Lpos|]. unfold block_plain in Lraw. rewrite len_app in Lraw.
        pose proof (len_nonneg (flat_map (be 4) (starts_of 0 (cs_items mode cs)))). lia. }
    cbn [snd]. rewrite RB. unfold blk_cms at 1. cbn [fst].
    rewrite (IH F (pre ++ cs_bytes mode cs) post); [reflexivity|assumption|assumption| | | |].
    - rewrite EF, <- !app_assoc. reflexivity.
    - rewrite len_app. lia.
    - rewrite len_app. lia.
    - rewrite len_app. exact Prest.
  Qed.

  (* for every chunk-meta-compress-mode, a file laid out as the writer lays it out - any header,
     data area, bloom filter and id-time section; blocks of chunk metas stored under the mode with their meta-index entries
     pointing at them; a trailer whose sizes describe the areas; the footer - is read back layer by layer: the reader
     returns exactly the trailer (with the dictionary), the meta-index entries and every chunk meta of every block. *)
  Theorem whole_file_roundtrip : forall mode H D blks B I t,
    mode_ok mode = true -> trailer_ok t = true -> t_cmode t = mode ->
    t_data_off t = len H -> t_data_size t = len D ->
    t_index_size t = len (concat (map (blk_bytes mode) blks)) ->
    t_mindex_size t = 40 * len blks -> t_mindex_num t = len blks ->
    blks_placed mode (t_dict t) (len H + len D) blks ->
    len (file_body mode H D blks B I) < M63 ->
    firstn (length g_table_magic) H = g_table_magic ->
    read_file bdec (file_bytes mode H D blks B I t) = Some (t, map snd blks, map blk_cms blks).
  Proof.
    intros mode H D blks B I t M TO TM EH ED EI EMS EMN P LB MG.
    unfold file_bytes. set (body := file_body mode H D blks B I) in *.
    set (T := e_trailer t). set (Ft := e_zint (len body)).
    pose proof (len_nonneg body) as L0. pose proof (len_nonneg T) as L1.
    assert (LF : len Ft = 8) by apply len_zint.
    unfold read_file. rewrite !len_app, LF.
    destruct (Z.ltb_spec (len body + (len T + 8)) 8); [lia|].
    assert (MF : firstn (length g_table_magic) (body ++ T ++ Ft) = g_table_magic).
    { unfold body, file_body. rewrite <- !app_assoc. rewrite firstn_app.
      assert (length g_table_magic <= length H)%nat.
      { rewrite <- MG at 1. rewrite firstn_length. lia. }
      replace (length g_table_magic - length H)%nat with 0%nat by lia. cbn [firstn]. rewrite app_nil_r. exact MG. }
    rewrite MF, list_eqb_refl. cbn [negb].
    rewrite app_assoc, skipn_len_app by (rewrite len_app; lia).
    unfold Ft. rewrite <- (app_nil_r (e_zint (len body))). rewrite rt_zint by (unfold W, M63, M64 in *; lia).
    assert (SG : sgn64 (len body) = len body) by (unfold sgn64; destruct (Z.ltb_spec (len body) M63); lia).
    rewrite SG.
    destruct (Z.ltb_spec (len body) 0); [lia|]. destruct (Z.ltb_spec (len body + (len T + 8) - 8) (len body)); [lia|]. cbn [orb].
    rewrite <- app_assoc, (slice_at _ body T (e_zint (len body))) by (reflexivity || lia).
    unfold T. rewrite <- (app_nil_r (e_trailer t)). rewrite trailer_roundtrip by exact TO.
    set (IX := concat (map (blk_bytes mode) blks)) in *.
    set (MI := flat_map e_mindex (map snd blks)).
    assert (LMI : len MI = 40 * len blks) by (unfold MI; rewrite (len_flat_map _ 40 len_mindex); unfold len; rewrite map_length; reflexivity).
    assert (EB : body = (H ++ D ++ IX) ++ MI ++ (B ++ I)) by (unfold body, file_body; rewrite <- !app_assoc; reflexivity).
    rewrite EH, ED, EI, EMS, EMN, app_nil_r.
    rewrite (slice_at _ (H ++ D ++ IX) MI ((B ++ I) ++ e_trailer t ++ e_zint (len body)));
      [|rewrite EB, <- !app_assoc; reflexivity|rewrite !len_app; lia|lia].
    replace (Z.to_nat (len blks)) with (length (map snd blks)) by (rewrite map_length, to_nat_len; reflexivity).
    unfold MI. rewrite <- (app_nil_r (flat_map e_mindex (map snd blks))). rewrite mindex_list_roundtrip.
    - rewrite (read_blocks mode t _ blks (H ++ D) (MI ++ (B ++ I) ++ e_trailer t ++ e_zint (len body))); try assumption.
      + reflexivity.
      + rewrite EB, <- !app_assoc. reflexivity.
      + rewrite len_app. lia.
      + rewrite len_app. fold IX. lia.
      + rewrite len_app. exact P.
    - clear -P. revert P. generalize (len H + len D). induction blks as [|b r IH]; intros pos P; [constructor|].
      cbn [blks_placed] in P. destruct b as [cs [id [t0 [t1 [off [cnt size]]]]]]. cbn [snd fst] in P.
      destruct P as (MO & _ & _ & _ & _ & _ & _ & _ & Prest). cbn [map]. constructor; [exact MO|]. eapply IH. exact Prest.
  Qed.
End BlockProof.
