(* C07: merging the stored statistics of two row sets gives the statistics of their union (integers; the float64 round trip
   of IntegerPreAgg.merge is exact on the values a float64 represents). *)
From Coq Require Import ZArith List Bool Lia ZifyBool ZifyNat Sorted.
From OG Require Import C07.Model C07.ModelRows C07.ModelPreAgg C07.ModelStats C07.ModelMerge C07.ProofsBase C07.ProofsPreAgg C07.ProofsStats.
Import ListNotations.
Open Scope Z_scope.

Lemma sgn64_inj : forall a b, W a -> W b -> sgn64 a = sgn64 b -> a = b.
Proof. intros a b Ha Hb H. rewrite <- (sgn64_mod a Ha), <- (sgn64_mod b Hb), H. reflexivity. Qed.

Lemma sgn64_range : forall a, W a -> - M63 <= sgn64 a < M63.
Proof. intros a H. unfold sgn64, W, M63, M64 in *. destruct (Z.ltb_spec a 9223372036854775808); lia. Qed.

Lemma round53_small : forall a, 0 <= a <= P53 -> round53 a = a.
Proof.
  intros a H. unfold round53. destruct (Z.ltb_spec a P53); [reflexivity|].
  assert (a = P53) by lia. subst a. vm_compute. reflexivity.
Qed.

Theorem via_f64_exact : forall u, W u -> exact53 u = true -> via_f64 u = u.
Proof.
  intros u Hu E. unfold exact53 in E. apply Z.leb_le in E. unfold via_f64.
  rewrite round53_small by (split; [apply Z.abs_nonneg|exact E]).
  assert (P : P53 < M63) by reflexivity.
  destruct (Z.ltb_spec (sgn64 u) 0).
  - rewrite Z.abs_neq by lia. rewrite Z.opp_involutive.
    destruct (Z.leb_spec M63 (sgn64 u)); [lia|]. apply sgn64_mod. exact Hu.
  - rewrite Z.abs_eq by lia.
    destruct (Z.leb_spec M63 (sgn64 u)); [rewrite Z.abs_eq in E by lia; lia|]. apply sgn64_mod. exact Hu.
Qed.

Definition Wp (p : Z * Z) : Prop := W (fst p) /\ W (snd p).
Definition time_sorted (l : list (Z * Z)) : Prop := Sorted.StronglySorted (fun p q => sgn64 (snd p) <= sgn64 (snd q)) l.

(* minimum and maximum are the two instances of one notion: the builder compares values with `better`, which is the
   strict order R, read off `key` *)
Record ext_order (key : Z -> Z) (R : Z -> Z -> Prop) (better : Z -> Z -> bool) : Prop := {
  R_key : forall a b, R a b <-> key a < key b;
  better_key : forall a b, better a b = true <-> key a < key b;
  key_inj : forall a b, W a -> W b -> key a = key b -> a = b }.

Lemma min_ext : ext_order sgn64 (fun a b => sgn64 a < sgn64 b) ilt.
Proof. split; [reflexivity|intros; apply Z.ltb_lt|exact sgn64_inj]. Qed.
Lemma max_ext : ext_order (fun v => - sgn64 v) (fun a b => sgn64 b < sgn64 a) (fun a b => ilt b a).
Proof. split; [intros; lia|intros; unfold ilt; lia|intros a b Wa Wb H; apply sgn64_inj; [assumption..|lia]]. Qed.

Lemma ref_ext_in : forall better l acc p, ref_ext better acc l = Some p -> acc = Some p \/ In p l.
Proof.
  induction l as [|[v t] r IH]; intros acc p H; cbn [ref_ext ref_step] in H; [left; exact H|].
  destruct (IH _ _ H) as [E|I]; [|right; right; exact I].
  destruct acc as [[a ta]|]; cbn [ref_step] in E; [destruct (better v a); [|left; exact E]|]; inversion E; right; left; reflexivity.
Qed.
Lemma ref_ext_some : forall better l acc, acc <> None \/ l <> [] -> exists p, ref_ext better acc l = Some p.
Proof.
  induction l as [|[v t] r IH]; intros acc H; cbn [ref_ext ref_step].
  - destruct acc as [p|]; [exists p; reflexivity|destruct H as [H|H]; contradiction].
  - apply IH. left. destruct acc as [[a ta]|]; cbn [ref_step]; [destruct (better v a)|]; discriminate.
Qed.

Section Extreme.
  Variable key : Z -> Z.
  Variable R : Z -> Z -> Prop.
  Variable better : Z -> Z -> bool.
  Hypothesis O : ext_order key R better.

  (* value by R, then time ascending *)
  Definition lex (p q : Z * Z) : Prop := R (fst p) (fst q) \/ (fst p = fst q /\ sgn64 (snd p) <= sgn64 (snd q)).
  Definition least (l : list (Z * Z)) (p : Z * Z) : Prop := In p l /\ forall q, In q l -> lex p q.

  Lemma not_better : forall a b, better a b = false -> key b <= key a.
  Proof. intros a b H. destruct (Z.lt_ge_cases (key a) (key b)) as [L|L]; [apply (better_key _ _ _ O) in L; congruence|exact L]. Qed.

  Lemma lex_trans : forall p q r, lex p q -> lex q r -> lex p r.
  Proof.
    intros p q r [H|[H H']] [G|[G G']].
    - left. apply (R_key _ _ _ O). apply (R_key _ _ _ O) in H, G. lia.
    - left. rewrite <- G. exact H.
    - left. rewrite H. exact G.
    - right. split; [congruence|lia].
  Qed.

  Lemma least_app_l : forall A B p q, least A p -> least B q -> lex p q -> least (A ++ B) p.
  Proof.
    intros A B p q [IA LA] [IB LB] L. split; [apply in_or_app; left; exact IA|].
    intros x Hx. apply in_app_or in Hx. destruct Hx as [Hx|Hx]; [apply LA; exact Hx|eapply lex_trans; [exact L|apply LB; exact Hx]].
  Qed.
  Lemma least_app_r : forall A B p q, least A p -> least B q -> lex q p -> least (A ++ B) q.
  Proof.
    intros A B p q [IA LA] [IB LB] L. split; [apply in_or_app; right; exact IB|].
    intros x Hx. apply in_app_or in Hx. destruct Hx as [Hx|Hx]; [eapply lex_trans; [exact L|apply LA; exact Hx]|apply LB; exact Hx].
  Qed.

  (* addMin / addMax on the (value, time) pair they maintain: a better value replaces it, an equal value keeps the
     earlier time *)
  Definition add_ext (cur : Z * Z) (v t : Z) : Z * Z :=
    if better v (fst cur) then (v, t)
    else if fst cur =? v then (if ilt t (snd cur) then (v, t) else cur)
    else cur.

  Lemma add_ext_least : forall cur v t A B, W (fst cur) -> W v ->
    least A cur -> least B (v, t) -> least (A ++ B) (add_ext cur v t).
  Proof.
    intros [m tm] v t A B Wm Wv LA LB. unfold add_ext, ilt. cbn [fst snd] in *.
    destruct (better v m) eqn:L1.
    - apply (least_app_r A B (m, tm)); auto. left. apply (R_key _ _ _ O), (better_key _ _ _ O). exact L1.
    - apply not_better in L1. destruct (Z.eqb_spec m v) as [E|E].
      + destruct (Z.ltb_spec (sgn64 t) (sgn64 tm)).
        * apply (least_app_r A B (m, tm)); auto. right. cbn. split; [congruence|lia].
        * apply (least_app_l A B (m, tm) (v, t)); auto. right. cbn. split; [exact E|lia].
      + apply (least_app_l A B (m, tm) (v, t)); auto. left. apply (R_key _ _ _ O). cbn.
        assert (key m <> key v) by (intros Q; apply E, (key_inj _ _ _ O); assumption). lia.
  Qed.

  (* the reference's extreme is an extreme by value ... *)
  Lemma ref_ext_bound : forall l acc m tm, ref_ext better acc l = Some (m, tm) ->
    (forall a ta, acc = Some (a, ta) -> key m <= key a) /\ (forall v t, In (v, t) l -> key m <= key v).
  Proof.
    induction l as [|[v t] r IH]; intros acc m tm H; cbn [ref_ext ref_step] in H.
    - subst acc. split; [intros a ta E; inversion E; lia|intros v t []].
    - destruct (IH _ _ _ H) as [A B]. clear IH H.
      assert (C : key m <= key v /\ forall a ta, acc = Some (a, ta) -> key m <= key a).
      { destruct acc as [[a ta]|]; cbn [ref_step] in A; [|split; [exact (A v t eq_refl)|discriminate]].
        destruct (better v a) eqn:L; specialize (A _ _ eq_refl);
          [apply (better_key _ _ _ O) in L|apply not_better in L]; (split; [|intros ? ? E; inversion E; subst]; lia). }
      split; [apply C|]. intros v' t' [E|I]; [inversion E; subst; apply C|exact (B _ _ I)].
  Qed.

  (* ... and, on time-sorted rows, its time is the earliest among the rows that carry that value *)
  Lemma ref_ext_lex : forall l acc m tm, Forall Wp l -> time_sorted l ->
    (forall a ta, acc = Some (a, ta) -> W a /\ forall p, In p l -> sgn64 ta <= sgn64 (snd p)) ->
    ref_ext better acc l = Some (m, tm) ->
    (forall a ta, acc = Some (a, ta) -> lex (m, tm) (a, ta)) /\ (forall p, In p l -> lex (m, tm) p).
  Proof.
    induction l as [|[v t] r IH]; intros acc m tm WL S Inv H; cbn [ref_ext ref_step] in H.
    - subst acc. split; [intros a ta E; inversion E; subst; right; cbn; split; [reflexivity|lia]|intros p []].
    - inversion WL as [|? ? [Wv Wt] WR]; subst. inversion S as [|? ? SR SF]; subst. cbn [fst snd] in *.
      rewrite Forall_forall in SF.
      assert (InvNew : forall a ta, Some (v, t) = Some (a, ta) -> W a /\ forall p, In p r -> sgn64 ta <= sgn64 (snd p)).
      { intros a ta E. inversion E; subst. split; [exact Wv|]. intros p Hp. apply (SF p Hp). }
      destruct acc as [[a ta]|].
      + destruct (Inv a ta eq_refl) as [Wa Ita]. cbn [ref_step] in H.
        destruct (better v a) eqn:L.
        * apply (better_key _ _ _ O) in L. destruct (IH _ _ _ WR SR InvNew H) as [A B]. specialize (A v t eq_refl).
          split.
          -- intros a' ta' E. inversion E; subst. left. apply (R_key _ _ _ O). cbn [fst].
             destruct A as [A|[A _]]; cbn [fst] in A; [apply (R_key _ _ _ O) in A; lia|subst; lia].
          -- intros p [<-|Hp]; [exact A|apply B; exact Hp].
        * apply not_better in L.
          assert (InvOld : forall a0 ta0, Some (a, ta) = Some (a0, ta0) -> W a0 /\ forall p, In p r -> sgn64 ta0 <= sgn64 (snd p)).
          { intros a0 ta0 E. inversion E; subst. split; [exact Wa|]. intros p Hp. apply Ita. right. exact Hp. }
          destruct (IH _ _ _ WR SR InvOld H) as [A B]. specialize (A a ta eq_refl).
          split.
          -- intros a' ta' E. inversion E; subst. exact A.
          -- intros p [<-|Hp]; [|apply B; exact Hp].
             specialize (Ita (v, t) (or_introl eq_refl)). cbn [snd] in Ita.
             destruct A as [A|[A A']]; cbn [fst snd] in *; [left; apply (R_key _ _ _ O); apply (R_key _ _ _ O) in A; cbn; lia|]. subst m.
             destruct (Z.eq_dec (key a) (key v)) as [Q|Q];
               [right; cbn; split; [apply (key_inj _ _ _ O); assumption|lia]|left; apply (R_key _ _ _ O); cbn; lia].
      + cbn [ref_step] in H. destruct (IH _ _ _ WR SR InvNew H) as [A B]. specialize (A v t eq_refl).
        split; [intros a' ta' E; discriminate|]. intros p [<-|Hp]; [exact A|apply B; exact Hp].
  Qed.
End Extreme.

Lemma add_min_int_ext : forall s v t,
  (s_min (add_min_int s v t), s_minT (add_min_int s v t)) = add_ext ilt (s_min s, s_minT s) v t /\
  s_max (add_min_int s v t) = s_max s /\ s_maxT (add_min_int s v t) = s_maxT s.
Proof.
  intros. unfold add_min_int, add_ext. cbn [fst snd].
  destruct (ilt v (s_min s)); [repeat split|]. destruct (s_min s =? v); [|repeat split]. destruct (ilt t (s_minT s)); repeat split.
Qed.
Lemma add_max_int_ext : forall s v t,
  (s_max (add_max_int s v t), s_maxT (add_max_int s v t)) = add_ext (fun a b => ilt b a) (s_max s, s_maxT s) v t /\
  s_min (add_max_int s v t) = s_min s /\ s_minT (add_max_int s v t) = s_minT s.
Proof.
  intros. unfold add_max_int, add_ext. cbn [fst snd].
  destruct (ilt (s_max s) v); [repeat split|]. destruct (s_max s =? v); [|repeat split]. destruct (ilt t (s_maxT s)); repeat split.
Qed.

Lemma sum64_app : forall a b, sum64 (a ++ b) = (sum64 a + sum64 b) mod M64.
Proof.
  induction a as [|[v t] a IH]; intros b; cbn [app sum64].
  - assert (0 <= sum64 b < M64).
    { destruct b as [|[x y] b]; cbn [sum64]; [unfold M64; lia|apply Z.mod_pos_bound; reflexivity]. }
    rewrite Z.mod_small; lia.
  - rewrite IH. rewrite Z.add_mod_idemp_r by (unfold M64; lia). rewrite Z.add_mod_idemp_l by (unfold M64; lia).
    f_equal. lia.
Qed.

(* merging the statistics of A and of B gives the statistics of A ++ B, for any conversion of the other block's min / max
   that leaves those two values unchanged *)
Theorem int_merge_conv_is_stat_of_union : forall conv a b A B,
  Forall Wp A -> Forall Wp B -> is_stat_of a A -> is_stat_of b B ->
  conv (s_min b) = s_min b -> conv (s_max b) = s_max b ->
  is_stat_of (int_merge conv a b) (A ++ B).
Proof.
  intros conv a b A B WA WB (Ia & La & Ja & Ga & Sa & Ca) (Ib & Lb & Jb & Gb & Sb & Cb) E1 E2.
  rewrite Forall_forall in WA, WB.
  unfold int_merge. rewrite E1, E2.
  destruct (add_min_int_ext a (s_min b) (s_minT b)) as (M1 & M2 & M3).
  set (m1 := add_min_int a (s_min b) (s_minT b)) in *.
  destruct (add_max_int_ext m1 (s_max b) (s_maxT b)) as (X1 & X2 & X3).
  (* is_stat_of spells `least` out: its first two conjuncts are `least (lex ..) l (s_min, s_minT)` for the order of
     min_ext (lex_le), the next two the same for max_ext (lex_ge) *)
  destruct (add_ext_least _ _ _ min_ext (s_min a, s_minT a) (s_min b) (s_minT b) A B
              (proj1 (WA _ Ia)) (proj1 (WB _ Ib)) (conj Ia La) (conj Ib Lb)) as [I1 L1].
  rewrite <- M2, <- M3 in Ja, Ga.
  destruct (add_ext_least _ _ _ max_ext (s_max m1, s_maxT m1) (s_max b) (s_maxT b) A B
              (proj1 (WA _ Ja)) (proj1 (WB _ Jb)) (conj Ja Ga) (conj Jb Gb)) as [I2 L2].
  rewrite <- M1 in I1, L1. rewrite <- X1 in I2, L2.
  unfold is_stat_of. cbn [s_min s_minT s_max s_maxT s_sum s_cnt]. rewrite X2, X3.
  repeat split; try assumption.
  - rewrite sum64_app, Sa, Sb. reflexivity.
  - rewrite len_app, Ca, Cb. rewrite <- Z.add_mod by (unfold M64; lia). reflexivity.
Qed.

Lemma int_reference_sum : forall rows mn mx sm n, 0 <= sm < M64 ->
  snd (fst (ref_loop ilt (fun _ => true) iadd mn mx sm n rows)) = (sm + sum64 (values_of rows)) mod M64 /\
  snd (ref_loop ilt (fun _ => true) iadd mn mx sm n rows) = n + len (values_of rows).
Proof.
  induction rows as [|[[v|] t] r IH]; intros mn mx sm n Hs; cbn [ref_loop values_of sum64].
  - cbn [snd fst]. rewrite Z.add_0_r, Z.mod_small by exact Hs. split; [reflexivity|unfold len; cbn; lia].
  - destruct (IH (ref_step (fun _ => true) mn ilt v t) (ref_step (fun _ => true) mx (fun a b => ilt b a) v t) (iadd sm v) (n + 1)) as [I1 I2].
    { unfold iadd. apply Z.mod_pos_bound. reflexivity. }
    rewrite I1, I2. split.
    + unfold iadd. rewrite Z.add_mod_idemp_l by (unfold M64; lia). rewrite Z.add_mod_idemp_r by (unfold M64; lia). f_equal. lia.
    + rewrite len_cons. lia.
  - apply IH. exact Hs.
Qed.

(* the repaired integer builder's result for a time-sorted, non-empty chunk is "statistics of its rows": on time-sorted
   rows the first occurrence of an extreme, which the builder keeps, is its earliest one *)
Theorem builder_stat_of_rows : forall segs,
  let l := values_of (concat segs) in
  l <> [] -> Forall Wp l -> time_sorted l -> len l < M64 ->
  is_stat_of (int_build true segs) l.
Proof.
  intros segs l Hne WL S HL. rewrite stats_int_repaired.
  unfold int_reference, reference.
  destruct (int_reference_ext (concat segs) None None 0 0) as [Emin Emax].
  destruct (int_reference_sum (concat segs) None None 0 0) as [Esum Ecnt]; [unfold M64; lia|].
  destruct (ref_loop ilt (fun _ => true) iadd None None 0 0 (concat segs)) as [[[mn mx] sm] n].
  cbn [fst snd] in *. fold l in Emin, Emax, Esum, Ecnt.
  destruct (ref_ext_some ilt l None (or_intror Hne)) as [[m tm] Hm].
  destruct (ref_ext_some (fun a b => ilt b a) l None (or_intror Hne)) as [[x tx] Hx].
  rewrite Hm in Emin. rewrite Hx in Emax. subst mn mx.
  unfold int_ref_stat, ref_stat, is_stat_of. cbn [s_min s_minT s_max s_maxT s_sum s_cnt].
  destruct (ref_ext_in _ _ _ _ Hm) as [Q|Imin]; [discriminate|].
  destruct (ref_ext_in _ _ _ _ Hx) as [Q|Imax]; [discriminate|].
  destruct (ref_ext_lex _ _ _ min_ext l None m tm WL S) as [_ Lmin]; [intros a ta E; discriminate|exact Hm|].
  destruct (ref_ext_lex _ _ _ max_ext l None x tx WL S) as [_ Lmax]; [intros a ta E; discriminate|exact Hx|].
  repeat split; try assumption.
  - rewrite Esum. rewrite Z.add_0_l.
    destruct l as [|[v t] r]; [contradiction|]. cbn [sum64]. rewrite Z.mod_mod by (unfold M64; lia). reflexivity.
  - rewrite Ecnt. rewrite Z.add_0_l. pose proof (len_nonneg l). rewrite Z.mod_small by lia. reflexivity.
Qed.
