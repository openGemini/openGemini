(* C07 correspondence evaluators, part 2 (statistics merges, meta-index entries, trailer extra data, whole-file framing). *)
From Coq Require Import ZArith List Bool.
From OG Require Import C07.Gen_Consts C07.Model C07.ModelRows C07.ModelFile C07.ModelPreAgg C07.ModelStats C07.ModelMerge C07.ModelCMSelf C07.ModelWhole C07.Corr.
Import ListNotations.
Open Scope Z_scope.

(* the real merge of two statistics blocks (hook VerifPreAggMerge) against the model, for ANY two blocks - also values
   beyond 2^53, where the float64 round trip of IntegerPreAgg.merge rounds: 2 the model's result differs *)
(* integers: 2 = differs from IntegerPreAgg.merge (min / max through float64), 4 = differs from a merge that hands the int64
   over as it is (what a repair of the float64 routing would do; the two agree whenever |min|, |max| <= 2^53) *)
Definition check_merge_int (a b got : stat) : Z :=
  (if stat_eqb (int_merge via_f64 a b) got then 0 else 2) + (if stat_eqb (int_merge (fun v => v) a b) got then 0 else 4).
Definition check_merge_float (a b got : stat) : Z :=
  if stat_eqb (no_sum (fl_merge (fun _ _ => 0) a b)) (no_sum got) then 0 else 2.

(* ---- the model READER run on the bytes of a real data file ----
   F = the whole file; tbl = (compressed chunk-meta block, what the third-party decoder returns for it) under the compressing
   modes; fixed = the 14 fixed trailer fields the real reader holds; expected series in file order:
   (sid, segment time ranges, columns in file order (data columns by name, time last): (kind, null pattern per segment
   (true = value present), statistics the real reader decoded)). kinds: 0 int, 1 float, 2 bool, 3 string, 4 time.
     1  read_file rejects the file                        2  trailer fields differ
     4  series ids / segment ranges / column count differ  8  a segment found through the chunk meta does not decode to the
    16  a statistics block does not decode to what the        expected null pattern
        real reader decoded                               32  a meta-index entry is not (first sid, count, hull) of its block *)
Definition tbl_dec (tbl : list (list Z * list Z)) (mode : Z) (x : list Z) : option (list Z) :=
  match find (fun p => list_eqb (fst p) x) tbl with Some p => Some (snd p) | None => None end.
Definition exp_col := (Z * (list (list bool) * stat))%type.
Definition exp_series := (Z * (list cm_range * list exp_col))%type.
Definition kind_ctype (k : Z) : ctype := if k =? 1 then CFloat else if k =? 2 then CBool else if k =? 3 then CString else CInt.
Fixpoint ranges_eqb (a b : list cm_range) : bool :=
  match a, b with
  | [], [] => true
  | x :: a', y :: b' => (fst x =? fst y) && (snd x =? snd y) && ranges_eqb a' b'
  | _, _ => false
  end.
Fixpoint segs_ok (F : list Z) (t : ctype) (ents : list cm_seg) (vs : list (list bool)) : bool :=
  match ents, vs with
  | [], [] => true
  | (o, sz) :: er, v :: vr =>
      match seg_dec t (len v) (slice o sz F) with
      | Some (v', _) => bools_eqb v' v && segs_ok F t er vr
      | None => false
      end
  | _, _ => false
  end.
Definition stats_ok (k : Z) (pre : list Z) (st : stat) : bool :=
  if k =? 0 then match pai_dec pre with Some (s, _) => stat_eqb s st | None => false end
  else if k =? 1 then match fl_dec pre with Some (s, _) => stat_eqb s st | None => false end
  else if k =? 2 then
    match bool_pa_dec pre with
    | Some (s, _) => stat_eqb (mkStat (bool_of_byte (s_min s)) (bool_of_byte (s_max s)) (s_minT s) (s_maxT s) 0 (s_cnt s)) st
    | None => false
    end
  else if k =? 3 then match str_pa_dec pre with Some (s, _) => s_cnt s =? s_cnt st | None => false end
  else match time_pa_dec pre with Some (s, _) => s_cnt s =? s_cnt st | None => false end.
Fixpoint cols_flags (F : list Z) (cols : list cm_col) (ecols : list exp_col) : Z :=
  match cols, ecols with
  | [], [] => 0
  | (_, (_, (pre, ents))) :: cr, (k, (vs, st)) :: er =>
      Z.lor (Z.lor (if segs_ok F (kind_ctype k) ents vs then 0 else 8) (if stats_ok k pre st then 0 else 16)) (cols_flags F cr er)
  | _, _ => 4
  end.
Fixpoint series_flags (F : list Z) (cms : list chunk_meta) (es : list exp_series) : Z :=
  match cms, es with
  | [], [] => 0
  | (sid, (_, (_, (trs, cols)))) :: cr, (esid, (etrs, ecols)) :: er =>
      Z.lor (Z.lor (if (sid =? esid) && ranges_eqb trs etrs then 0 else 4) (cols_flags F cols ecols)) (series_flags F cr er)
  | _, _ => 4
  end.
Definition cm_chunk_range (cm : chunk_meta) : rng :=
  let '(_, (_, (_, (trs, _)))) := cm in (sgn64 (fst (hd (0, 0) trs)), sgn64 (snd (last trs (0, 0)))).
Fixpoint mindex_flags (mis : list mindex) (blocks : list (list chunk_meta)) : Z :=
  match mis, blocks with
  | [], [] => 0
  | (id, (t0, (t1, (_, (cnt, _))))) :: mr, b :: br =>
      let '(n, (lo, hi)) := tr_fold (map cm_chunk_range b) in
      Z.lor (if (match b with (sid, _) :: _ => sid =? id | [] => false end) && (cnt =? len b) && (n =? len b) &&
                (sgn64 t0 =? lo) && (sgn64 t1 =? hi) then 0 else 32) (mindex_flags mr br)
  | _, _ => 32
  end.
Definition check_whole (F : list Z) (tbl : list (list Z * list Z)) (fixed : list Z) (es : list exp_series) : Z :=
  match read_file (tbl_dec tbl) F with
  | Some (t, mis, blocks) =>
      Z.lor (Z.lor (if list_eqb (fst t) fixed then 0 else 2) (series_flags F (concat blocks) es)) (mindex_flags mis blocks)
  | None => 1
  end.

(* stored statistics of a boolean column against the boolean builder model (start values 2 / -1, strict int8 comparisons,
   times by row) as the real reader reports them (min() / max() read "byte = 1"); 15 = differs *)
Definition check_stats_bool (self : bool) (segs : list (list srow)) (stored : stat) : Z :=
  let s := bool_build true segs in
  if stat_eqb (mkStat (bool_of_byte (s_min s)) (bool_of_byte (s_max s)) (s_minT s) (s_maxT s) 0 (s_cnt s)) stored then 0 else 15.

(* STREAMING compaction: the stored block of a column = the first source chunk's block with every further source chunk's
   block merged into it, each source block as its own file stores it (a single-row block keeps only (min, minTime): a
   single NaN leaves the start value there, which then takes part in the merge). Integers: the float64-routed merge of IntegerPreAgg.merge or
   the exact one. 15 = explained by neither / differs. *)
Definition fold_chunks (merge : stat -> stat -> stat) (blocks : list stat) (dflt : stat) : stat :=
  match blocks with [] => dflt | s :: r => fold_left merge r s end.
Definition check_stats_int_stream (self : bool) (chunks : list (list (list srow))) (stored : stat) : Z :=
  let blocks := map (fun segs => one_row_view (int_build true segs)) chunks in
  let ok (conv : Z -> Z) := stat_eqb (one_row_view (fold_chunks (int_merge conv) blocks (int_build true []))) stored in
  if ok via_f64 || ok (fun v => v) then 0 else 15.
Definition check_stats_float_stream (self : bool) (chunks : list (list (list srow))) (stored : stat) : Z :=
  let add := fun _ _ : Z => 0 in
  let blocks := map (fun segs => one_row_view (fl_build add true segs)) chunks in
  if stat_eqb (no_sum (one_row_view (fold_chunks (fl_merge add) blocks (fl_build add true [])))) (no_sum stored) then 0 else 15.
Definition check_stats_bool_stream (self : bool) (chunks : list (list (list srow))) (stored : stat) : Z :=
  let s := fold_chunks bool_merge (map (bool_build true) chunks) (bool_build true []) in
  if stat_eqb (mkStat (bool_of_byte (s_min s)) (bool_of_byte (s_max s)) (s_minT s) (s_maxT s) 0 (s_cnt s)) stored then 0 else 15.
