(* C07 - the chunk meta as written under chunk-meta-compress-mode = self (engine/immutable/chunk_meta_codec.go
   MarshalChunkMeta / UnmarshalChunkMeta, lib/codec EncodeInt64sWithScale / DecodeInt64sWithScale):
     sid (8 bytes BE), uvarint offset, size, column count, segment count;
     the segment time ranges as ONE scaled delta list [min0; max0; min1; max1; ...]: scale index byte, then per value
       uvarint(uint64((v_i - v_(i-1)) / scale)) (wrapping int64 subtraction, truncating division; v_(-1) = 0);
     per column: uvarint index of the name in the file's dictionary (kept in the trailer), type byte, u8 length of the
       statistics block + the block, the offset of the FIRST segment (8 bytes BE) and the size of every segment (4 bytes BE
       each) - the reader rebuilds the other offsets by summing sizes.
   Writer's choices carried by the arguments: the scale index `k` and the dictionary index of every column. *)
From Coq Require Import ZArith List Bool.
From OG Require Import C07.Gen_Consts C07.Model C07.ModelRows C07.ModelFile C07.ModelPreAgg.
Import ListNotations.
Open Scope Z_scope.

(* ---- scaled delta list ---- *)
Definition delta64 (prev v : Z) : Z := (v - prev) mod M64.
Fixpoint scaled_deltas (k prev : Z) (vs : list Z) : list Z :=
  match vs with
  | [] => []
  | v :: r => put_uvarint (Z.quot (sgn64 (delta64 prev v)) (scale_at k) mod M64) ++ scaled_deltas k v r
  end.
Definition e_scaled_list (k : Z) (vs : list Z) : list Z := k :: scaled_deltas k 0 vs.
Fixpoint d_scaled_n (k : Z) (n : nat) (prev : Z) (bs : list Z) : option (list Z * list Z) :=
  match n with
  | O => Some ([], bs)
  | S m =>
      match get_uvarint bs with
      | Some (u, r) =>
          let v := (u * scale_at k + prev) mod M64 in
          match d_scaled_n k m v r with Some (l, r2) => Some (v :: l, r2) | None => None end
      | None => None
      end
  end.
Definition d_scaled_list (n : nat) : dec_t (list Z) := fun bs =>
  match bs with
  | [] => None
  | k :: r => if (k <? 0) || (n_scales <=? k) then None else d_scaled_n k n 0 r
  end.
(* the scale index may be used when the scale divides every (wrapped) delta exactly *)
Fixpoint deltas_ok (k prev : Z) (vs : list Z) : bool :=
  match vs with
  | [] => true
  | v :: r => word_ok v && scale_ok k (delta64 prev v) && deltas_ok k v r
  end.

Definition flat_ranges (trs : list cm_range) : list Z := flat_map (fun r => [fst r; snd r]) trs.
Fixpoint pair_up (vs : list Z) : list cm_range :=
  match vs with
  | a :: b :: r => (a, b) :: pair_up r
  | _ => []
  end.

(* ---- one column ----
   a statistics block of length 0 is not written: the reader takes the length byte 0 for "no block" and substitutes
   `zero_preagg`, hence `0 < len pre` in cmcol_self_ok *)
Definition zero_preagg : list Z := repeat 0 48.
Definition first_off (ents : list cm_seg) : Z := fst (hd (0, 0) ents).
Definition e_cmcol_self (idx : Z) (c : cm_col) : list Z :=
  let '(name, (ty, (pre, ents))) := c in
  put_uvarint idx ++ [ty] ++ [len pre] ++ pre ++ be 8 (first_off ents) ++ flat_map (fun e => be 4 (snd e)) ents.
Fixpoint sum_offsets (o : Z) (sizes : list Z) : list cm_seg :=
  match sizes with
  | [] => []
  | s :: r => (o, s) :: sum_offsets ((o + s) mod M64) r
  end.
Definition d_cmcol_self (dict : list (list Z)) (segs : nat) : dec_t cm_col := fun bs =>
  match get_uvarint bs with
  | Some (idx, r0) =>
      let name := nth (Z.to_nat idx) dict [] in
      match name with
      | [] => None                                            (* "invalid column name" *)
      | _ =>
        if len r0 <? 1 + 1 + 8 + 4 * Z.of_nat segs then None   (* "too smaller data" *)
        else
        match r0 with
        | ty :: n :: r1 =>
            if len r1 <? n then None else
            let pre := if n =? 0 then zero_preagg else firstn (Z.to_nat n) r1 in
            let r2 := skipn (Z.to_nat n) r1 in
            match get_be 8 r2 with
            | Some (o, r3) =>
                match get_n (get_be 4) segs r3 with
                | Some (sizes, r4) => Some ((name, (ty, (pre, sum_offsets o sizes))), r4)
                | None => None
                end
            | None => None
            end
        | _ => None
        end
      end
  | None => None
  end.
Fixpoint contiguous (o : Z) (ents : list cm_seg) : bool :=
  match ents with
  | [] => true
  | (o', s) :: r => (o' =? o) && contiguous ((o + s) mod M64) r
  end.
Definition cmcol_self_ok (dict : list (list Z)) (segs : nat) (idx : Z) (c : cm_col) : bool :=
  let '(name, (ty, (pre, ents))) := c in
  word_ok idx && list_eqb (nth (Z.to_nat idx) dict []) name && (0 <? len name) &&
  byte_ok ty && (0 <? len pre) && (len pre <? 256) && bytes_ok pre &&
  (length ents =? segs)%nat && (0 <? len ents) &&
  forallb (fun e => word_ok (fst e) && (0 <=? snd e) && (snd e <? M32)) ents && contiguous (first_off ents) ents.

(* ---- the chunk meta ---- *)
Fixpoint e_cols_self (idxs : list Z) (cols : list cm_col) : list Z :=
  match idxs, cols with
  | i :: ir, c :: cr => e_cmcol_self i c ++ e_cols_self ir cr
  | _, _ => []
  end.
Definition e_cm_self (k : Z) (idxs : list Z) (m : chunk_meta) : list Z :=
  let '(sid, (off, (size, (trs, cols)))) := m in
  be 8 sid ++ put_uvarint off ++ put_uvarint size ++ put_uvarint (len cols) ++ put_uvarint (len trs) ++
  e_scaled_list k (flat_ranges trs) ++ e_cols_self idxs cols.
Definition d_cm_self (dict : list (list Z)) : dec_t chunk_meta := fun bs =>
  match get_be 8 bs with
  | Some (sid, r1) =>
    match get_uvarint r1 with
    | Some (off, r2) =>
      match get_uvarint r2 with
      | Some (size, r3) =>
        match get_uvarint r3 with
        | Some (cc, r4) =>
          match get_uvarint r4 with
          | Some (sc, r5) =>
            let segs := Z.to_nat (sc mod M32) in
            match d_scaled_list (2 * segs) r5 with
            | Some (vs, r6) =>
              match get_n (d_cmcol_self dict segs) (Z.to_nat (cc mod M32)) r6 with
              | Some (cols, r7) => Some ((sid, (off, (size mod M32, (pair_up vs, cols)))), r7)
              | None => None
              end
            | None => None
            end
          | None => None
          end
        | None => None
        end
      | None => None
      end
    | None => None
    end
  | None => None
  end.
Fixpoint cols_self_ok (dict : list (list Z)) (segs : nat) (idxs : list Z) (cols : list cm_col) : bool :=
  match idxs, cols with
  | [], [] => true
  | i :: ir, c :: cr => cmcol_self_ok dict segs i c && cols_self_ok dict segs ir cr
  | _, _ => false
  end.
Definition cm_self_ok (dict : list (list Z)) (k : Z) (idxs : list Z) (m : chunk_meta) : bool :=
  let '(sid, (off, (size, (trs, cols)))) := m in
  w64 sid && w64 off && (0 <=? size) && (size <? M32) && (len cols <? M32) && (len trs <? M32) &&
  deltas_ok k 0 (flat_ranges trs) && cols_self_ok dict (length trs) idxs cols.
