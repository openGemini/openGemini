(* C07 - executable model of the openGemini-owned codec layers.

   Conventions
   * a byte is a Z in [0,256); a 64-bit value (int64, uint64, float64 bit pattern) is a Z in [0,2^64): the unsigned
     bit pattern. All wrap-around arithmetic is written explicitly as `mod M64`.
   * every layer is a pair  enc_with mode x / dec  plus a boolean `applicable mode x`.
   * third-party compressors (snappy, zstd, lz4, tsm1 gorilla, MLF) are arguments `c`/`d` of the block functions
     (Section variables); the theorems carry their round-trip behaviour as hypotheses.
   * where the implementation has freedom (simple8b selector choice, RLE run splitting, time scale, which mode to
     pick) the mode carries the choice; the harness reads the choice from the real bytes. *)
From Coq Require Import ZArith List Bool.
From OG Require Export C07.Gen_Consts.
Import ListNotations.
Open Scope Z_scope.

Definition M64 : Z := 18446744073709551616.      (* 2^64 *)
Definition M63 : Z := 9223372036854775808.       (* 2^63 *)
Definition M60 : Z := 1152921504606846976.       (* 2^60 *)
Definition M32 : Z := 4294967296.

Definition len {A} (l : list A) : Z := Z.of_nat (length l).

Definition byte_ok (b : Z) : bool := (0 <=? b) && (b <? 256).
Definition bytes_ok (l : list Z) : bool := forallb byte_ok l.
Definition word_ok (v : Z) : bool := (0 <=? v) && (v <? M64).
Definition words_ok (l : list Z) : bool := forallb word_ok l.

Fixpoint list_eqb (a b : list Z) : bool :=
  match a, b with
  | [], [] => true
  | x :: a', y :: b' => (x =? y) && list_eqb a' b'
  | _, _ => false
  end.

(* ---------- fixed-width integers ---------- *)
(* big endian, n bytes: numberenc.MarshalUint32Append / MarshalUint64Append / MarshalUint16Append *)
Fixpoint be (n : nat) (v : Z) : list Z :=
  match n with
  | O => []
  | S k => (v / 256 ^ Z.of_nat k) mod 256 :: be k v
  end.
Fixpoint unbe (l : list Z) (acc : Z) : Z :=
  match l with
  | [] => acc
  | b :: r => unbe r (acc * 256 + b)
  end.
(* read n big-endian bytes from the front *)
Definition get_be (n : nat) (l : list Z) : option (Z * list Z) :=
  if (length l <? n)%nat then None else Some (unbe (firstn n l) 0, skipn n l).

(* little endian (the in-memory layout of []int64 / []float64 viewed as []byte on the supported platforms) *)
Fixpoint le (n : nat) (v : Z) : list Z :=
  match n with
  | O => []
  | S k => v mod 256 :: le k (v / 256)
  end.
Fixpoint unle (l : list Z) : Z :=
  match l with
  | [] => 0
  | b :: r => b + 256 * unle r
  end.
Definition le_bytes (vs : list Z) : list Z := flat_map (le 8) vs.
Fixpoint unle_all (l : list Z) : option (list Z) :=
  match l with
  | [] => Some []
  | b0 :: b1 :: b2 :: b3 :: b4 :: b5 :: b6 :: b7 :: r =>
      match unle_all r with
      | Some vs => Some (unle [b0; b1; b2; b3; b4; b5; b6; b7] :: vs)
      | None => None
      end
  | _ => None
  end.

(* ---------- zig-zag on 64-bit patterns ---------- *)
(* Go: uint64(v<<1) ^ uint64(v>>63) for int64 v with pattern u:  u < 2^63 -> 2u ; else 2*(2^64-u)-1 *)
Definition zz (u : Z) : Z := if u <? M63 then 2 * u else 2 * (M64 - u) - 1.
Definition unzz (w : Z) : Z := if Z.even w then w / 2 else (M64 - (w + 1) / 2) mod M64.

(* ---------- Go binary.PutUvarint / Uvarint for uint64 ---------- *)
Fixpoint put_uvarint_f (f : nat) (v : Z) : list Z :=
  match f with
  | O => [v]
  | S k => if v <? 128 then [v] else (v mod 128 + 128) :: put_uvarint_f k (v / 128)
  end.
Definition put_uvarint (v : Z) : list Z := put_uvarint_f 9 v.
Fixpoint get_uvarint_f (l : list Z) (i : nat) (mul acc : Z) : option (Z * list Z) :=
  match l with
  | [] => None
  | b :: r =>
      if (10 <=? i)%nat then None
      else if b <? 128 then
        (if (i =? 9)%nat && (1 <? b) then None else Some (acc + b * mul, r))
      else get_uvarint_f r (S i) (mul * 128) (acc + (b - 128) * mul)
  end.
Definition get_uvarint (l : list Z) : option (Z * list Z) := get_uvarint_f l 0 1 0.

(* ---------- simple8b (lib/util/lifted/encoding/simple8b) ---------- *)
(* selector table: (number of values, bits per value) *)
Definition s8_table : list (Z * Z) := g_s8_table.     (* regenerated from simple8b's selector table on every run *)
Definition s8_n (sel : Z) : nat := Z.to_nat (fst (nth (Z.to_nat sel) s8_table (0, 0))).
Definition s8_bits (sel : Z) : Z := snd (nth (Z.to_nat sel) s8_table (0, 0)).

Fixpoint pack_vals (bits : Z) (vs : list Z) : Z :=
  match vs with
  | [] => 0
  | v :: r => v + 2 ^ bits * pack_vals bits r
  end.
Fixpoint unpack_vals (n : nat) (bits w : Z) : list Z :=
  match n with
  | O => []
  | S k => w mod 2 ^ bits :: unpack_vals k bits (w / 2 ^ bits)
  end.
Definition s8_word (sel : Z) (vs : list Z) : Z :=
  if sel <? 2 then sel * M60 else sel * M60 + pack_vals (s8_bits sel) vs.
Definition s8_unpack (w : Z) : list Z :=
  let sel := w / M60 in
  if sel <? 2 then repeat 1 (s8_n sel) else unpack_vals (s8_n sel) (s8_bits sel) (w mod M60).

(* can the first n values be stored with this selector *)
Definition s8_fits (sel : Z) (vs : list Z) : bool :=
  (0 <=? sel) && (sel <? 16) && (s8_n sel <=? length vs)%nat &&
  (if sel <? 2 then forallb (fun v => v =? 1) (firstn (s8_n sel) vs)
   else forallb (fun v => (0 <=? v) && (v <? 2 ^ s8_bits sel)) (firstn (s8_n sel) vs)).
Fixpoint s8_applicable (sels : list Z) (vs : list Z) : bool :=
  match sels with
  | [] => match vs with [] => true | _ => false end
  | s :: r => s8_fits s vs && s8_applicable r (skipn (s8_n s) vs)
  end.
Fixpoint s8_encode (sels : list Z) (vs : list Z) : list Z :=
  match sels with
  | [] => []
  | s :: r => s8_word s (firstn (s8_n s) vs) :: s8_encode r (skipn (s8_n s) vs)
  end.
Definition s8_decode (ws : list Z) : list Z := flat_map s8_unpack ws.
(* the selector list that is always applicable when every value is below 2^60 *)
Definition s8_trivial_sels (vs : list Z) : list Z := map (fun _ => 15) vs.

(* ---------- delta coding mod 2^64 ---------- *)
Fixpoint deltas (prev : Z) (vs : list Z) : list Z :=
  match vs with
  | [] => []
  | v :: r => (v - prev) mod M64 :: deltas v r
  end.
Fixpoint undeltas (prev : Z) (ds : list Z) : list Z :=
  match ds with
  | [] => []
  | d :: r => let v := (prev + d) mod M64 in v :: undeltas v r
  end.
Definition all_eq (d : Z) (l : list Z) : bool := forallb (fun x => x =? d) l.

(* split a byte list into big-endian 8-byte words *)
Fixpoint be8_all (l : list Z) : option (list Z) :=
  match l with
  | [] => Some []
  | b0 :: b1 :: b2 :: b3 :: b4 :: b5 :: b6 :: b7 :: r =>
      match be8_all r with
      | Some vs => Some (unbe [b0; b1; b2; b3; b4; b5; b6; b7] 0 :: vs)
      | None => None
      end
  | _ => None
  end.

(* ================= integer block (lib/encoding/int.go) ================= *)
Inductive imode := IConst | IS8 (sels : list Z) | IZstd | IRaw.
Definition imode_tag (m : imode) : Z := match m with IConst => g_int_const | IS8 _ => g_int_s8 | IZstd => g_int_zstd | IRaw => g_int_raw end.

Section IntBlock.
  Variable zc : list Z -> list Z.            (* zstd EncodeAll *)
  Variable zd : list Z -> option (list Z).   (* zstd DecodeAll *)

  Definition int_applicable (m : imode) (vs : list Z) : bool :=
    words_ok vs && (8 * len vs <? M32) &&
    match vs with
    | [] => true
    | v0 :: rest =>
        match m with
        | IRaw => true
        | IZstd => len (zc (le_bytes vs)) <? M32
        | IConst => match deltas v0 rest with [] => false | d :: ds => all_eq d ds end
        | IS8 sels => s8_applicable sels (map zz (deltas v0 rest)) && (len sels + 1 <? M32)
        end
    end.

  Definition int_enc_with (m : imode) (vs : list Z) : list Z :=
    match vs with
    | [] => []
    | v0 :: rest =>
        match m with
        | IRaw => [16 * g_int_raw] ++ be 4 (8 * len vs) ++ flat_map (fun v => be 8 (zz v)) vs
        | IZstd => let c := zc (le_bytes vs) in [16 * g_int_zstd] ++ be 4 (8 * len vs) ++ be 4 (len c) ++ c
        | IConst => [16 * g_int_const] ++ be 8 (zz v0) ++ put_uvarint (zz (hd 0 (deltas v0 rest))) ++ put_uvarint (len rest)
        | IS8 sels =>
            let ws := s8_encode sels (map zz (deltas v0 rest)) in
            [16 * g_int_s8] ++ be 4 (len ws + 1) ++ be 4 (len vs) ++ be 8 (zz v0) ++ flat_map (be 8) ws
        end
    end.

  Definition int_dec (bs : list Z) : option (list Z) :=
    match bs with
    | [] => Some []
    | t :: body =>
        if (length bs <? 5)%nat then None else
        let tag := t / 16 in
        if tag =? g_int_raw then
          match get_be 4 body with
          | Some (n, r) => if len r <? n then None else
                           match be8_all r with Some ws => Some (map unzz ws) | None => None end
          | None => None
          end
        else if tag =? g_int_const then
          match get_be 8 body with
          | Some (first, r) =>
              match get_uvarint r with
              | Some (dz, r2) =>
                  match get_uvarint r2 with
                  | Some (cnt, _) => let v0 := unzz first in Some (v0 :: undeltas v0 (repeat (unzz dz) (Z.to_nat cnt)))
                  | None => None
                  end
              | None => None
              end
          | None => None
          end
        else if tag =? g_int_s8 then
          if (length body <? 16)%nat then None else
          match get_be 4 body with
          | Some (encCount, r) =>
              match get_be 4 r with
              | Some (srcCount, r2) =>
                  if len r2 <? encCount * 8 then None else
                  match be8_all (firstn (Z.to_nat (encCount * 8)) r2) with
                  | Some (first :: ws) =>
                      let ds := s8_decode ws in
                      if len ds + 1 =? srcCount then let v0 := unzz first in Some (v0 :: undeltas v0 (map unzz ds)) else None
                  | _ => None
                  end
              | None => None
              end
          | None => None
          end
        else if tag =? g_int_zstd then
          match get_be 4 body with
          | Some (_, r) =>
              match get_be 4 r with
              | Some (compLen, r2) =>
                  if len r2 <? compLen then None else
                  match zd (firstn (Z.to_nat compLen) r2) with
                  | Some raw => unle_all raw
                  | None => None
                  end
              | None => None
              end
          | None => None
          end
        else None
    end.
End IntBlock.

(* ================= timestamp block (lib/encoding/timestamp.go) ================= *)
Inductive tmode := TConst | TS8 (scale : Z) (sels : list Z) | TSnappy | TRaw.
Definition tmode_tag (m : tmode) : Z := match m with TConst => g_time_const | TS8 _ _ => g_time_s8 | TSnappy => g_time_snappy | TRaw => g_time_raw end.

Section TimeBlock.
  Variable sc : list Z -> list Z.            (* klauspost snappy.Encode *)
  Variable sd : list Z -> option (list Z).   (* klauspost snappy.Decode *)

  Definition time_applicable (m : tmode) (vs : list Z) : bool :=
    words_ok vs && (8 * len vs <? M32) &&
    match m with
    | TRaw => true
    | TSnappy => len (sc (le_bytes vs)) <? M32
    | TConst => match vs with
                | v0 :: rest => match deltas v0 rest with [] => false | d :: ds => all_eq d ds end
                | [] => false
                end
    | TS8 scale sels =>
        match vs with
        | v0 :: rest =>
            (1 <=? scale) && (scale <? M64) && forallb (fun d => d mod scale =? 0) (deltas v0 rest) &&
            s8_applicable sels (map (fun d => d / scale) (deltas v0 rest)) && (len sels + 1 <? M32)
        | [] => false
        end
    end.

  Definition time_enc_with (m : tmode) (vs : list Z) : list Z :=
    match m with
    | TRaw => [16 * g_time_raw] ++ be 4 (8 * len vs) ++ flat_map (fun v => be 8 (zz v)) vs
    | TSnappy => let c := sc (le_bytes vs) in [16 * g_time_snappy] ++ be 4 (8 * len vs) ++ be 4 (len c) ++ c
    | TConst => match vs with
                | v0 :: rest => [16 * g_time_const] ++ be 8 v0 ++ put_uvarint (hd 0 (deltas v0 rest)) ++ put_uvarint (len rest)
                | [] => []
                end
    | TS8 scale sels =>
        match vs with
        | v0 :: rest =>
            let ws := s8_encode sels (map (fun d => d / scale) (deltas v0 rest)) in
            [16 * g_time_s8] ++ be 8 scale ++ be 4 (len ws + 1) ++ be 4 (len vs) ++ be 8 v0 ++ flat_map (be 8) ws
        | [] => []
        end
    end.

  Definition time_dec (bs : list Z) : option (list Z) :=
    match bs with
    | [] => None
    | t :: body =>
        if (length bs <? 5)%nat then None else
        let tag := t / 16 in
        if tag =? g_time_raw then
          match get_be 4 body with
          | Some (n, r) => if len r <? n then None else
                           match be8_all r with Some ws => Some (map unzz ws) | None => None end
          | None => None
          end
        else if tag =? g_time_const then
          match get_be 8 body with
          | Some (v0, r) =>
              match get_uvarint r with
              | Some (d, r2) =>
                  match get_uvarint r2 with
                  | Some (cnt, _) => Some (v0 :: undeltas v0 (repeat d (Z.to_nat cnt)))
                  | None => None
                  end
              | None => None
              end
          | None => None
          end
        else if tag =? g_time_s8 then
          if (length body <? 24)%nat then None else
          match get_be 8 body with
          | Some (scale, r0) =>
              match get_be 4 r0 with
              | Some (encCount, r) =>
                  match get_be 4 r with
                  | Some (srcCount, r2) =>
                      if len r2 <? encCount * 8 then None else
                      match be8_all (firstn (Z.to_nat (encCount * 8)) r2) with
                      | Some (v0 :: ws) =>
                          let ds := s8_decode ws in
                          if len ds + 1 =? srcCount then Some (v0 :: undeltas v0 (map (fun q => (q * scale) mod M64) ds)) else None
                      | _ => None
                      end
                  | None => None
                  end
              | None => None
              end
          | None => None
          end
        else if tag =? g_time_snappy then
          match get_be 4 body with
          | Some (srcLen, r) =>
              match get_be 4 r with
              | Some (compLen, r2) =>
                  if len r2 <? compLen then None else
                  match sd (firstn (Z.to_nat compLen) r2) with
                  | Some raw => if len raw =? srcLen then unle_all raw else None
                  | None => None
                  end
              | None => None
              end
          | None => None
          end
        else None
    end.
End TimeBlock.

(* ================= boolean block (lib/encoding/bool.go) ================= *)
Definition bit (b : bool) : Z := if b then 1 else 0.
Definition byte_of_bits (l : list bool) : Z :=
  128 * bit (nth 0 l false) + 64 * bit (nth 1 l false) + 32 * bit (nth 2 l false) + 16 * bit (nth 3 l false) +
  8 * bit (nth 4 l false) + 4 * bit (nth 5 l false) + 2 * bit (nth 6 l false) + bit (nth 7 l false).
Definition bits_of_byte (v : Z) : list bool :=
  [Z.odd (v / 128); Z.odd (v / 64); Z.odd (v / 32); Z.odd (v / 16); Z.odd (v / 8); Z.odd (v / 4); Z.odd (v / 2); Z.odd v].
Fixpoint pack_bits (fuel : nat) (bs : list bool) : list Z :=
  match fuel with
  | O => []
  | S k => match bs with [] => [] | _ => byte_of_bits bs :: pack_bits k (skipn 8 bs) end
  end.
Definition bool_applicable (bs : list bool) : bool := len bs <? M32.
Definition bool_enc (bs : list bool) : list Z :=
  match bs with
  | [] => []
  | _ => [16 * g_bool_bitpack] ++ be 4 (len bs) ++ pack_bits (length bs) bs
  end.
Definition bool_dec (bs : list Z) : option (list bool) :=
  match bs with
  | [] => Some []
  | t :: body =>
      match get_be 4 body with
      | Some (n, r) =>
          if t / 16 =? g_bool_bitpack then
            let bits := flat_map bits_of_byte r in
            if len bits <? n then None else Some (firstn (Z.to_nat n) bits)
          else None
      | None => None
      end
  end.

(* ================= float container (lib/compress/float.go, compress.go) ================= *)
Inductive fmode := FNone | FSame | FRLE (runs : list Z) | FSnappy | FGorilla | FMLF.
Definition fmode_tag (m : fmode) : Z :=
  match m with FNone => g_f_none | FSnappy => g_f_snappy | FGorilla => g_f_gorilla | FSame => g_f_same | FRLE _ => g_f_rle | FMLF => g_f_mlf end.

(* float64 bit-pattern predicates *)
Definition f_is_nan (v : Z) : bool := ((v / 4503599627370496) mod 2048 =? 2047) && negb (v mod 4503599627370496 =? 0).
Definition f_is_zero (v : Z) : bool := v mod M63 =? 0.                    (* +0.0 or -0.0: Go `v == 0` on float64 *)
Definition f_eq (a b : Z) : bool :=                                        (* Go `a == b` on float64 *)
  negb (f_is_nan a) && negb (f_is_nan b) && ((a =? b) || (f_is_zero a && f_is_zero b)).

(* zero test used by same-value encoding: the code before /repo 20f335a tested the float (`values[0] == 0`, true for -0.0 as well),
   the repaired code tests the bit pattern *)
Definition zero_current (v : Z) : bool := f_is_zero v.
Definition zero_repaired (v : Z) : bool := v =? 0.

Fixpoint rle_applicable (runs : list Z) (vs : list Z) : bool :=
  match runs with
  | [] => match vs with [] => true | _ => false end
  | n :: r =>
      (1 <=? n) && (n <? 32768) && (Z.to_nat n <=? length vs)%nat &&
      all_eq (hd 0 vs) (firstn (Z.to_nat n) vs) && rle_applicable r (skipn (Z.to_nat n) vs)
  end.
Fixpoint rle_enc (runs : list Z) (vs : list Z) : list Z :=
  match runs with
  | [] => []
  | n :: r =>
      let v := hd 0 vs in
      (if v =? 0 then be 2 (n + 32768) else be 2 n ++ le 8 v) ++ rle_enc r (skipn (Z.to_nat n) vs)
  end.
Fixpoint rle_dec (bs : list Z) : list Z :=
  match bs with
  | h :: l :: r2 =>
      let n := h * 256 + l in
      if 32768 <=? n then repeat 0 (Z.to_nat (n - 32768)) ++ rle_dec r2
      else match r2 with
           | b0 :: b1 :: b2 :: b3 :: b4 :: b5 :: b6 :: b7 :: r10 =>
               repeat (unle [b0; b1; b2; b3; b4; b5; b6; b7]) (Z.to_nat n) ++ rle_dec r10
           | _ => []       (* the implementation returns an error here; never produced by a valid encoding *)
           end
  | _ => []
  end.
(* runs as the encoder splits them: maximal runs of equal bit patterns, cut at `limit` *)
Fixpoint rle_greedy_runs (limit : Z) (prev : Z) (n : Z) (vs : list Z) : list Z :=
  match vs with
  | [] => [n]
  | v :: r => if (v =? prev) && (n <? limit) then rle_greedy_runs limit prev (n + 1) r
              else n :: rle_greedy_runs limit v 1 r
  end.
Definition rle_runs_of (vs : list Z) : list Z :=
  match vs with [] => [] | v :: r => rle_greedy_runs g_rle_block_limit v 1 r end.

Inductive result := Ok (bs : list Z) | Panic.

Section FloatBlock.
  Variable gsc : list Z -> list Z.                    (* golang/snappy Encode *)
  Variable gsd : list Z -> option (list Z).           (* golang/snappy Decode *)
  Variable gor_c : list Z -> option (list Z).         (* tsm1.FloatArrayEncodeAll: may return an error *)
  Variable gor_d : list Z -> option (list Z).         (* tsm1.FloatArrayDecodeAll *)
  Variable mlf_c : list Z -> list Z.                  (* mlf compressor *)
  Variable mlf_d : list Z -> option (list Z).
  Variable is_zero : Z -> bool.                       (* zero_current or zero_repaired *)

  Definition float_applicable (m : fmode) (vs : list Z) : bool :=
    words_ok vs &&
    match vs with
    | [] => true
    | v0 :: rest =>
        match m with
        | FNone => true
        | FSame => all_eq v0 rest && (len vs <? 65536)
        | FRLE runs => rle_applicable runs vs
        | FSnappy => true
        | FGorilla => match gor_c vs with Some _ => true | None => false end
        | FMLF => true
        end
    end.

  Definition float_enc_with (m : fmode) (vs : list Z) : list Z :=
    match vs with
    | [] => []
    | v0 :: _ =>
        match m with
        | FNone => [16 * g_f_none] ++ le_bytes vs
        | FSame => [16 * g_f_same] ++ be 2 (len vs) ++ (if is_zero v0 then [] else le 8 v0)
        | FRLE runs => [16 * g_f_rle] ++ rle_enc runs vs
        | FSnappy => [16 * g_f_snappy] ++ gsc (le_bytes vs)
        | FGorilla => [16 * g_f_gorilla] ++ match gor_c vs with Some g => g | None => [] end
        | FMLF => [16 * g_f_mlf] ++ mlf_c vs
        end
    end.

  Definition float_dec (bs : list Z) : option (list Z) :=
    match bs with
    | [] => Some []
    | t :: body =>
        let tag := t / 16 in
        if tag =? g_f_none then unle_all body
        else if tag =? g_f_gorilla then gor_d body
        else if tag =? g_f_snappy then match gsd body with Some raw => unle_all raw | None => None end
        else if tag =? g_f_same then
          match body with
          | [h; l] => Some (repeat 0 (Z.to_nat (h * 256 + l)))
          | h :: l :: b0 :: b1 :: b2 :: b3 :: b4 :: b5 :: b6 :: b7 :: _ =>
              Some (repeat (unle [b0; b1; b2; b3; b4; b5; b6; b7]) (Z.to_nat (h * 256 + l)))
          | _ => None
          end
        else if tag =? g_f_rle then Some (rle_dec body)
        else if tag =? g_f_mlf then mlf_d body
        else None
    end.

  (* ---- the whole adaptive encoder (selection + fall-backs), with the data-dependent sampling heuristic
          (snappy or gorilla) as a choice oracle ---- *)
  Variable prefer_snappy : list Z -> bool.
  Variable feq : Z -> Z -> bool.             (* equality used to count distinct neighbours: f_eq before /repo 20f335a, Z.eqb repaired *)
  Variable guard_gorilla_err : bool.         (* repaired: test the gorilla encoder's error before re-slicing *)

  Fixpoint distinct_count (prev : Z) (vs : list Z) : Z :=
    match vs with
    | [] => 1
    | v :: r => (if feq v prev then 0 else 1) + distinct_count v r
    end.

  Definition float_encode (vs : list Z) : result :=
    match vs with
    | [] => Ok []
    | v0 :: rest =>
        if len vs <=? g_f_threshold then Ok (float_enc_with FNone vs)
        else
          let dc := distinct_count v0 rest in
          if dc =? 1 then Ok (float_enc_with FSame vs)
          else if dc <=? g_f_rle_threshold then Ok (float_enc_with (FRLE (rle_runs_of vs)) vs)
          else
            let r :=
              if prefer_snappy vs || existsb f_is_nan vs then Ok (float_enc_with FSnappy vs)
              else match gor_c vs with
                   | Some g => Ok ([16 * g_f_gorilla] ++ g)
                   | None => if guard_gorilla_err then Ok (float_enc_with FNone vs) else Panic
                   end in
            match r with
            | Ok out => if 8 * len vs * 90 / 100 <? len out then Ok (float_enc_with FNone vs) else Ok out
            | Panic => Panic
            end
    end.
End FloatBlock.

(* ================= string block (lib/encoding/encoding.go packStringV2 + string.go) ================= *)
Inductive smode := SRaw | SSnappy | SZstd | SLz4.
Definition smode_tag (m : smode) : Z := match m with SRaw => g_str_raw | SSnappy => g_str_snappy | SZstd => g_str_zstd | SLz4 => g_str_lz4 end.

Definition str_version_v2 : Z := g_str_v2.
Definition pack_strings (ss : list (list Z)) : list Z :=
  let data := concat ss in
  be 4 str_version_v2 ++ be 4 (len data) ++ data ++ be 4 (len ss) ++ flat_map (fun s => be 4 (len s)) ss.
(* split data by the given lengths; the last string takes the rest *)
Fixpoint split_by (lens : list Z) (data : list Z) : list (list Z) :=
  match lens with
  | [] => [data]
  | n :: r => firstn (Z.to_nat n) data :: split_by r (skipn (Z.to_nat n) data)
  end.
Fixpoint be4_all (l : list Z) : option (list Z) :=
  match l with
  | [] => Some []
  | b0 :: b1 :: b2 :: b3 :: r =>
      match be4_all r with
      | Some vs => Some (unbe [b0; b1; b2; b3] 0 :: vs)
      | None => None
      end
  | _ => None
  end.
(* the deprecated version-1 packing (decode only; files written by older versions): no version word,
   | u32 length of data | data | u32 length of the offsets in BYTES | u32 start offset of every string | *)
Fixpoint starts (o : Z) (ss : list (list Z)) : list Z :=
  match ss with [] => [] | s :: r => o :: starts (o + len s) r end.
Definition pack_strings_v1 (ss : list (list Z)) : list Z :=
  let data := concat ss in
  be 4 (len data) ++ data ++ be 4 (4 * len ss) ++ flat_map (fun o => be 4 o) (starts 0 ss).
Fixpoint diffs_from (o : Z) (offs : list Z) : list Z :=
  match offs with
  | [] => []
  | o2 :: r => (o2 - o) :: diffs_from o2 r
  end.
Definition unpack_strings_v1 (bs : list Z) : option (list (list Z)) :=
  match get_be 4 bs with
  | Some (n, r) =>
      if len r <? n + 4 then None else
      let data := firstn (Z.to_nat n) r in
      match get_be 4 (skipn (Z.to_nat n) r) with
      | Some (offLen, r3) =>
          if len r3 <? offLen then None else
          match be4_all (firstn (Z.to_nat (4 * (offLen / 4))) r3) with
          | Some [] => Some []
          | Some (o :: offs) => Some (split_by (diffs_from o offs) (skipn (Z.to_nat o) data))
          | None => None
          end
      | None => None
      end
  | None => None
  end.

Definition unpack_strings (bs : list Z) : option (list (list Z)) :=
  match get_be 4 bs with
  | Some (ver, r) =>
      if ver =? str_version_v2 then
        match get_be 4 r with
        | Some (n, r2) =>
            if len r2 <? n + 4 then None else
            let data := firstn (Z.to_nat n) r2 in
            match get_be 4 (skipn (Z.to_nat n) r2) with
            | Some (cnt, r3) =>
                if (cnt <? 1) || (len r3 <? 4 * cnt) then None else
                match be4_all (firstn (Z.to_nat (4 * (cnt - 1))) r3) with
                | Some lens => Some (split_by lens data)
                | None => None
                end
            | None => None
            end
        | None => None
        end
      else if ver <? g_str_end then unpack_strings_v1 bs      (* a length, not a version word: version 1 *)
      else None
  | None => None
  end.

Section StringBlock.
  Variable cc : smode -> list Z -> list Z.            (* compressor of the mode (SRaw: identity, not used) *)
  Variable cd : smode -> list Z -> option (list Z).

  Definition string_applicable (m : smode) (ss : list (list Z)) : bool :=
    forallb bytes_ok ss && (len (pack_strings ss) <? M32 - 3) &&
    match m with SRaw => true | _ => len (cc m (pack_strings ss)) <? M32 end.

  Definition string_enc_with (m : smode) (ss : list (list Z)) : list Z :=
    match ss with
    | [] => []
    | _ =>
        let src := pack_strings ss in
        match m with
        | SRaw => [16 * g_str_raw] ++ be 4 (len src) ++ be 4 (len src) ++ src
        | _ => let c := cc m src in [16 * smode_tag m] ++ be 4 (len src) ++ be 4 (len c) ++ c
        end
    end.

  Definition string_dec (bs : list Z) : option (list (list Z)) :=
    match bs with
    | [] => Some []
    | t :: body =>
        if (length bs <? 9)%nat then None else
        let tag := t / 16 in
        if negb ((tag =? g_str_raw) || (tag =? g_str_snappy) || (tag =? g_str_zstd) || (tag =? g_str_lz4)) then None else
        match get_be 4 body with
        | Some (srcLen, r) =>
            match get_be 4 r with
            | Some (compLen, r2) =>
                if len r2 <? compLen then None else
                let payload := firstn (Z.to_nat compLen) r2 in
                if tag =? g_str_raw then unpack_strings payload
                else
                  let m := if tag =? g_str_snappy then SSnappy else if tag =? g_str_zstd then SZstd else SLz4 in
                  match cd m payload with
                  | Some raw => if len raw =? srcLen then unpack_strings raw else None
                  | None => None
                  end
            | None => None
            end
        | None => None
        end
    end.
End StringBlock.

(* a version-1 packing in the uncompressed container (what an older writer stored) *)
Definition string_block_v1 (ss : list (list Z)) : list Z :=
  let src := pack_strings_v1 ss in [16 * g_str_raw] ++ be 4 (len src) ++ be 4 (len src) ++ src.

(* ================= WAL record frame (engine/wal.go writeBinary / replayPhysicRecord) ================= *)
Section Frame.
  Variable wc : list Z -> list Z.            (* golang/snappy Encode *)
  Variable wd : list Z -> option (list Z).   (* golang/snappy Decode *)

  Definition frame_applicable (typ : Z) (payload : list Z) : bool :=
    ((typ =? g_wal_line) || (typ =? g_wal_arrow)) && bytes_ok payload && (len (wc payload) <? M32).
  Definition frame_enc (typ : Z) (payload : list Z) : list Z :=
    let c := wc payload in [typ] ++ be 4 (len c) ++ c.
  (* Some (type, payload, rest of the file) or None = "incomplete / unreadable: replay of this file ends here" *)
  Definition frame_dec (bs : list Z) : option (Z * list Z * list Z) :=
    match bs with
    | [] => None
    | t :: body =>
        match get_be 4 body with
        | Some (n, r) =>
            if (t <=? g_wal_unknown) || (g_wal_end <=? t) then None
            else if len r <? n then None
            else match wd (firstn (Z.to_nat n) r) with
                 | Some p => Some (t, p, skipn (Z.to_nat n) r)
                 | None => None
                 end
        | None => None
        end
    end.
  (* replay of a whole log file: records until the first incomplete one *)
  Fixpoint replay (fuel : nat) (bs : list Z) : list (Z * list Z) :=
    match fuel with
    | O => []
    | S k => match frame_dec bs with
             | Some (t, p, rest) => (t, p) :: replay k rest
             | None => []
             end
    end.
End Frame.

(* applicability as the selection before /repo 20f335a saw it (same-value decided by float equality); used by Refuted.v and by the
   correspondence to recognise which variant the working tree implements *)
Definition float_applicable_current (gor_c : list Z -> option (list Z)) (m : fmode) (vs : list Z) : bool :=
  match m, vs with
  | FSame, v0 :: rest => words_ok vs && forallb (fun v => f_eq v v0) vs && (len vs <? 65536)
  | _, _ => float_applicable gor_c m vs
  end.

(* the record reader before /repo fba11cf (engine/wal.go replayPhysicRecord): io.ReadFull reporting io.EOF - not a single payload byte
   follows the header - is treated like success, and the pooled buffer, still holding `stale` bytes of an earlier
   record, is decompressed and delivered *)
Definition frame_dec_current (wd : list Z -> option (list Z)) (stale : list Z) (bs : list Z) : option (Z * list Z * list Z) :=
  match bs with
  | [] => None
  | t :: body =>
      match get_be 4 body with
      | Some (n, r) =>
          if (t <=? g_wal_unknown) || (g_wal_end <=? t) then None
          else if (len r =? 0) && (0 <? n) then
            (if len stale <? n then None
             else match wd (firstn (Z.to_nat n) stale) with Some p => Some (t, p, []) | None => None end)
          else frame_dec wd bs
      | None => None
      end
  end.

(* ================= column segment: one-row mode and column header (engine/immutable/column_builder.go) =================
   A segment is a list of rows; a row is null (None) or the raw bytes of its value (int/float: 8 bytes LE, bool: 1 byte,
   string: its bytes - possibly none). col.Val is the concatenation of the non-null values. The block that follows the
   header is produced by the block coders modelled above and is a parameter here. *)
Inductive ctype := CFloat | CInt | CBool | CString.
Definition base_tag (t : ctype) : Z := match t with CInt => g_blk_int | CFloat => g_blk_float | CString => g_blk_string | CBool => g_blk_bool end.
Definition one_tag (t : ctype) : Z := match t with CFloat => g_one_float | CInt => g_one_int | CBool => g_one_bool | CString => g_one_string end.
Definition full_tag (t : ctype) : Z := match t with CFloat => g_full_float | CInt => g_full_int | CBool => g_full_bool | CString => g_full_string end.
Definition empty_tag (t : ctype) : Z := match t with CFloat => g_empty_float | CInt => g_empty_int | CBool => g_empty_bool | CString => g_empty_string end.

Definition row := option (list Z).
Definition is_some (r : row) : bool := match r with Some _ => true | None => false end.
Definition validity (rows : list row) : list bool := map is_some rows.
Definition nil_count (rows : list row) : Z := len (filter (fun r => negb (is_some r)) rows).
Definition col_val (rows : list row) : list Z := flat_map (fun r => match r with Some v => v | None => [] end) rows.

(* null bitmap: least significant bit first, 1 = value present *)
Definition byte_of_bits_lsb (l : list bool) : Z :=
  bit (nth 0 l false) + 2 * bit (nth 1 l false) + 4 * bit (nth 2 l false) + 8 * bit (nth 3 l false) +
  16 * bit (nth 4 l false) + 32 * bit (nth 5 l false) + 64 * bit (nth 6 l false) + 128 * bit (nth 7 l false).
Definition bits_of_byte_lsb (v : Z) : list bool :=
  [Z.odd v; Z.odd (v / 2); Z.odd (v / 4); Z.odd (v / 8); Z.odd (v / 16); Z.odd (v / 32); Z.odd (v / 64); Z.odd (v / 128)].
Fixpoint pack_bits_lsb (fuel : nat) (bs : list bool) : list Z :=
  match fuel with
  | O => []
  | S k => match bs with [] => [] | _ => byte_of_bits_lsb bs :: pack_bits_lsb k (skipn 8 bs) end
  end.

(* header modes; the bitmap mode carries what the real bitmap holds around the segment's own bits: `pre` bits before
   the bitmap offset (a segment split off a longer column starts inside a byte) and `post` padding bits; `seg_applicable`
   asks that the three fill whole bytes, which pins the real byte layout (the reader does not depend on it) *)
Inductive hmode := HOne | HFull | HEmpty | HBitmap (pre post : list bool).

Definition seg_applicable (m : hmode) (rows : list row) : bool :=
  match m with
  | HOne => match rows with
            | [Some v] => (0 <? len v) && (len v <? 16)       (* CanEncodeOneRowMode: Len = 1, 0 < len(Val) < 16 *)
            | _ => false
            end
  | HFull => (nil_count rows =? 0) && (0 <? len rows) && (len rows <? M32)
  | HEmpty => (nil_count rows =? len rows) && (0 <? len rows) && (len rows <? M32)
  | HBitmap pre post =>
      (0 <? len rows) && (len rows <? M32 - 16) && (len pre <? 8) && (len post <? 8) &&
      ((len pre + len rows + len post) mod 8 =? 0)
  end.

Definition seg_enc_with (t : ctype) (m : hmode) (block : list Z) (rows : list row) : list Z :=
  match m with
  | HOne => [one_tag t] ++ col_val rows
  | HFull => [full_tag t] ++ be 4 (len rows) ++ block
  | HEmpty => [empty_tag t] ++ be 4 (len rows) ++ block
  | HBitmap pre post =>
      let bits := pre ++ validity rows ++ post in
      let bm := pack_bits_lsb (length bits) bits in
      [base_tag t] ++ be 4 (len bm) ++ bm ++ be 4 (len pre) ++ be 4 (nil_count rows) ++ block
  end.

(* the reader (decodeColumnData / DecodeColumnHeader / DecodeColumnOfOneValue): validity of the rows and the payload
   handed to the block decoder (one-row mode: the value itself). `nrows` is the row count the reader derives from the
   decoded block (values + nil count, or number of string offsets). *)
Definition seg_dec (t : ctype) (nrows : Z) (bs : list Z) : option (list bool * list Z) :=
  match bs with
  | [] => None
  | tag :: body =>
      if (g_one_begin <? tag) && (tag <? g_one_end) then
        Some ([match body with [] => false | _ => true end], body)
      else if (g_full_begin <? tag) && (tag <? g_full_end) then
        match get_be 4 body with Some (n, payload) => Some (repeat true (Z.to_nat n), payload) | None => None end
      else if (g_empty_begin <? tag) && (tag <? g_empty_end) then
        match get_be 4 body with Some (n, payload) => Some (repeat false (Z.to_nat n), payload) | None => None end
      else if tag =? base_tag t then
        match get_be 4 body with
        | Some (bmlen, r) =>
            if len r <? bmlen + 8 then None else
            let bm := firstn (Z.to_nat bmlen) r in
            match get_be 4 (skipn (Z.to_nat bmlen) r) with
            | Some (off, r2) =>
                match get_be 4 r2 with
                | Some (_, payload) =>
                    let bits := skipn (Z.to_nat off) (flat_map bits_of_byte_lsb bm) in
                    if len bits <? nrows then None else Some (firstn (Z.to_nat nrows) bits, payload)
                | None => None
                end
            | None => None
            end
        | None => None
        end
      else None
  end.
