(* C07 column segment layer: one-row mode and column header with null bitmap. *)
From Coq Require Import ZArith List Bool Lia ZifyBool ZifyNat.
From OG Require Import C07.Model C07.ProofsBase.
Import ListNotations.
Open Scope Z_scope.

Lemma pack_bits_lsb_spec : forall bs, exists pad, flat_map bits_of_byte_lsb (pack_bits_lsb (length bs) bs) = bs ++ pad.
Proof.
  intros. apply (pack_spec byte_of_bits_lsb); auto.
  apply byte_bits_lsb.
Qed.

Lemma pack_bits_lsb_len : forall f bits, len (pack_bits_lsb f bits) <= len bits.
Proof.
  induction f; intros bits; cbn [pack_bits_lsb]; [pose proof (len_nonneg bits); unfold len at 1; simpl; lia|].
  destruct bits as [|b r] eqn:E; [unfold len; simpl; lia|]. rewrite <- E.
  rewrite len_cons. specialize (IHf (skipn 8 bits)).
  assert (len (skipn 8 bits) + 1 <= len bits).
  { unfold len. rewrite skipn_length. rewrite E. simpl length. lia. }
  lia.
Qed.

Lemma nil_count_0_all_some : forall rows, nil_count rows = 0 -> validity rows = repeat true (length rows).
Proof.
  induction rows as [|r rows IH]; intros H; [reflexivity|].
  unfold nil_count in *. cbn [filter validity map length repeat] in *.
  destruct r; cbn [is_some negb] in *.
  - f_equal. apply IH. exact H.
  - rewrite len_cons in H. pose proof (len_nonneg (filter (fun r => negb (is_some r)) rows)). lia.
Qed.

Lemma filter_len_le {A} (f : A -> bool) : forall l, len (filter f l) <= len l.
Proof.
  induction l; cbn [filter]; [lia|]. destruct (f a); rewrite ?len_cons; lia.
Qed.

Lemma nil_count_all_none : forall rows, nil_count rows = len rows -> validity rows = repeat false (length rows).
Proof.
  induction rows as [|r rows IH]; intros H; [reflexivity|].
  unfold nil_count in *. cbn [filter validity map length repeat] in *.
  destruct r; cbn [is_some negb] in *.
  - rewrite len_cons in H. pose proof (filter_len_le (fun r => negb (is_some r)) rows). lia.
  - f_equal. apply IH. rewrite !len_cons in H. lia.
Qed.

Definition seg_payload (m : hmode) (block : list Z) (rows : list row) : list Z :=
  match m with HOne => col_val rows | _ => block end.

Lemma tag_ranges : forall t,
  (g_one_begin <? one_tag t) && (one_tag t <? g_one_end) = true /\
  (g_one_begin <? full_tag t) && (full_tag t <? g_one_end) = false /\ (g_full_begin <? full_tag t) && (full_tag t <? g_full_end) = true /\
  (g_one_begin <? empty_tag t) && (empty_tag t <? g_one_end) = false /\ (g_full_begin <? empty_tag t) && (empty_tag t <? g_full_end) = false /\
  (g_empty_begin <? empty_tag t) && (empty_tag t <? g_empty_end) = true /\
  (g_one_begin <? base_tag t) && (base_tag t <? g_one_end) = false /\ (g_full_begin <? base_tag t) && (base_tag t <? g_full_end) = false /\
  (g_empty_begin <? base_tag t) && (base_tag t <? g_empty_end) = false.
Proof. destruct t; vm_compute; repeat split. Qed.

(* whatever block follows the header, the reader recovers exactly the null pattern of the rows and hands exactly that
   block (one-row mode: the value) to the block decoder *)
Theorem seg_roundtrip : forall t m block rows, seg_applicable m rows = true ->
  seg_dec t (len rows) (seg_enc_with t m block rows) = Some (validity rows, seg_payload m block rows).
Proof.
  intros t m block rows H.
  destruct (tag_ranges t) as (T1 & T2 & T3 & T4 & T5 & T6 & T7 & T8 & T9).
  destruct m as [| | |pre post]; unfold seg_applicable in H.
  - (* one row *)
    destruct rows as [|[v|] [|r2 rest]]; try discriminate.
    unfold seg_enc_with, seg_dec, seg_payload, col_val. cbn [flat_map app]. rewrite app_nil_r. rewrite T1.
    destruct v as [|b v]; [unfold len in H; simpl in H; lia|]. reflexivity.
  - (* full *)
    repeat (apply andb_true_iff in H; destruct H as [H ?]).
    unfold seg_enc_with, seg_dec, seg_payload. cbn [app]. rewrite T2, T3.
    rewrite get_be4 by (lia).
    rewrite to_nat_len, nil_count_0_all_some by lia. reflexivity.
  - (* empty *)
    repeat (apply andb_true_iff in H; destruct H as [H ?]).
    unfold seg_enc_with, seg_dec, seg_payload. cbn [app]. rewrite T4, T5, T6.
    rewrite get_be4 by (lia).
    rewrite to_nat_len, nil_count_all_none by lia. reflexivity.
  - (* bitmap *)
    repeat (apply andb_true_iff in H; destruct H as [H ?]).
    unfold seg_enc_with, seg_dec, seg_payload. cbv zeta. cbn [app].
    set (bits := pre ++ validity rows ++ post).
    set (bm := pack_bits_lsb (length bits) bits).
    rewrite T7, T8, T9, Z.eqb_refl.
    assert (Lbits : len bits = len pre + len rows + len post).
    { unfold bits. rewrite !len_app. unfold validity, len at 2. rewrite map_length. fold (len rows). lia. }
    assert (Lbm : len bm <= len bits) by apply pack_bits_lsb_len.
    pose proof (len_nonneg pre). pose proof (len_nonneg post). pose proof (len_nonneg bm).
    pose proof (filter_len_le (fun r => negb (is_some r)) rows) as NC. fold (nil_count rows) in NC.
    pose proof (len_nonneg (filter (fun r => negb (is_some r)) rows)) as NC0. fold (nil_count rows) in NC0.
    rewrite get_be4 by (unfold M32 in *; lia).
    rewrite !len_app, !len_be4.
    destruct (Z.ltb_spec (len bm + (4 + (4 + len block))) (len bm + 8)); [pose proof (len_nonneg block); lia|].
    rewrite firstn_len_app, skipn_len_app by reflexivity.
    rewrite get_be4 by (lia).
    rewrite get_be4 by (unfold M32 in *; lia).
    destruct (pack_bits_lsb_spec bits) as [pad EP]. fold bm in EP. rewrite EP.
    unfold bits. rewrite <- app_assoc. rewrite skipn_len_app by reflexivity.
    rewrite <- app_assoc. rewrite len_app.
    assert (LV : len (validity rows) = len rows) by (unfold len, validity; rewrite map_length; reflexivity).
    rewrite LV. pose proof (len_nonneg (post ++ pad)).
    destruct (Z.ltb_spec (len rows + len (post ++ pad)) (len rows)); [lia|].
    rewrite firstn_len_app by (symmetry; exact LV). reflexivity.
Qed.
