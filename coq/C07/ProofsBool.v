(* C07 boolean block (bit packing, most significant bit first) and WAL record frame. *)
From Coq Require Import ZArith List Bool Lia ZifyBool ZifyNat.
From OG Require Import C07.Model C07.ModelRows C07.ProofsBase C07.ProofsRows.
Import ListNotations.
Open Scope Z_scope.

Lemma pack_bits_spec : forall bs, exists pad, flat_map bits_of_byte (pack_bits (length bs) bs) = bs ++ pad.
Proof.
  intros. apply (pack_spec byte_of_bits); auto.
  apply byte_bits.
Qed.

Theorem bool_block_roundtrip : forall bs, bool_applicable bs = true -> bool_dec (bool_enc bs) = Some bs.
Proof.
  intros bs H. unfold bool_applicable in H.
  destruct bs as [|b r] eqn:E; [reflexivity|]. rewrite <- E in *.
  assert (P : bool_enc bs = 16 * g_bool_bitpack :: be 4 (len bs) ++ pack_bits (length bs) bs) by (rewrite E; reflexivity).
  rewrite P. unfold bool_dec.
  rewrite get_be4 by (pose proof (len_nonneg bs); lia).
  rewrite tag16, Z.eqb_refl.
  destruct (pack_bits_spec bs) as [pad EP]. rewrite EP.
  rewrite len_app. pose proof (len_nonneg pad).
  destruct (Z.ltb_spec (len bs + len pad) (len bs)); [lia|].
  rewrite firstn_len_app by reflexivity. reflexivity.
Qed.

Section FrameProof.
  Variable wc : list Z -> list Z.
  Variable wd : list Z -> option (list Z).
  Hypothesis snappy_roundtrip : forall x, bytes_ok x = true -> wd (wc x) = Some x.

  (* a record is its type byte and a length-prefixed field holding the compressed payload *)
  Lemma frame_dec_bytes : forall t body, frame_dec wd (t :: body) =
    match get_bytes 4 body with
    | Some (c, rest) =>
        if (t <=? g_wal_unknown) || (g_wal_end <=? t) then None
        else match wd c with Some p => Some (t, p, rest) | None => None end
    | None => None
    end.
  Proof.
    intros. unfold frame_dec, get_bytes. destruct (get_be 4 body) as [[n r]|]; [|reflexivity].
    destruct ((t <=? g_wal_unknown) || (g_wal_end <=? t)), (len r <? n); reflexivity.
  Qed.

  Theorem frame_roundtrip : forall typ p rest, frame_applicable wc typ p = true ->
    frame_dec wd (frame_enc wc typ p ++ rest) = Some (typ, p, rest).
  Proof.
    intros typ p rest H. unfold frame_applicable in H.
    apply andb_true_iff in H. destruct H as [H Hl]. apply andb_true_iff in H. destruct H as [Ht Hp].
    unfold frame_enc. cbn [app]. fold (put_bytes 4 (wc p)). rewrite frame_dec_bytes.
    rewrite (proj1 (good_bytes 4)) by (rewrite pow256_4; lia).
    replace ((typ <=? g_wal_unknown) || (g_wal_end <=? typ)) with false
      by (unfold g_wal_line, g_wal_arrow, g_wal_unknown, g_wal_end in *; lia).
    rewrite snappy_roundtrip by assumption. reflexivity.
  Qed.

  (* every strict prefix of a record is recognised as incomplete - whatever the decompressor would do with it *)
  Theorem frame_prefix_rejected : forall typ p k, len (wc p) < M32 ->
    (k < length (frame_enc wc typ p))%nat -> frame_dec wd (firstn k (frame_enc wc typ p)) = None.
  Proof.
    clear snappy_roundtrip. intros typ p k Hl Hk. unfold frame_enc in *. cbn [app length] in *.
    destruct k as [|k]; [reflexivity|]. cbn [firstn]. fold (put_bytes 4 (wc p)) in *. rewrite frame_dec_bytes.
    rewrite (proj2 (good_bytes 4)) by (rewrite ?pow256_4; lia). reflexivity.
  Qed.

  (* replay of a log file = the complete records, in order; a torn tail (strict prefix of one more record) adds nothing *)
  Definition file_of (recs : list (Z * list Z)) : list Z := flat_map (fun r => frame_enc wc (fst r) (snd r)) recs.

  Theorem replay_torn_tail : forall recs typ p k fuel,
    forallb (fun r => frame_applicable wc (fst r) (snd r)) recs = true ->
    len (wc p) < M32 -> (k < length (frame_enc wc typ p))%nat -> (length recs < fuel)%nat ->
    replay wd fuel (file_of recs ++ firstn k (frame_enc wc typ p)) = recs.
  Proof.
    induction recs as [|[t q] recs IH]; intros typ p k fuel Ha Hl Hk Hf.
    - simpl file_of. simpl app. destruct fuel; [simpl in Hf; lia|]. cbn [replay].
      rewrite frame_prefix_rejected by assumption. reflexivity.
    - simpl in Ha. apply andb_true_iff in Ha. destruct Ha as [Ha1 Ha2].
      destruct fuel; [simpl in Hf; lia|]. cbn [replay file_of flat_map fst snd].
      rewrite <- app_assoc. rewrite frame_roundtrip by assumption.
      fold (file_of recs). rewrite IH; auto. simpl in Hf. lia.
  Qed.
End FrameProof.
