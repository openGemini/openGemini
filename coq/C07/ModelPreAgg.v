(* C07 - the stored per-column statistics ("pre-aggregation" blocks of the column meta, engine/immutable/pre_aggregation.go):
   marshal / unmarshal of the Integer, Float, Boolean, String and Time blocks in EVERY layout.

   A block is stored length-prefixed in the column meta, so the reader is handed exactly the block and tells the layouts apart
   by the LENGTH ALONE:  length = one_row (16) -> a single (value, time) pair;  length < fixed size (48) -> the
   variable-length layout (written under chunk-meta-compress-mode = self);  otherwise the fixed six-word layout.
   The writer's freedom (which layout, which scale index for the scaled times, which flag byte for float zeros) is
   carried by `layout`; `*_applicable` says when a layout may be used for a statistics value, i.e. when the
   length-dispatching reader will take the bytes for what they are.  `*_marshal` mirrors the writer. *)
From Coq Require Import ZArith List Bool.
From OG Require Import C07.Gen_Consts C07.Model C07.ModelRows.
Import ListNotations.
Open Scope Z_scope.

(* statistics of one column of one series, every field a 64-bit pattern (float64 bits for float min/max/sum; 0/1, or the
   start values 2 / 255, in the low byte for booleans) *)
Record stat := mkStat { s_min : Z; s_max : Z; s_minT : Z; s_maxT : Z; s_sum : Z; s_cnt : Z }.
Definition stat_ok (s : stat) : bool :=
  word_ok (s_min s) && word_ok (s_max s) && word_ok (s_minT s) && word_ok (s_maxT s) && word_ok (s_sum s) && word_ok (s_cnt s).

Definition size_int : Z := g_preagg_int_size.
Definition size_float : Z := g_preagg_float_size.
Definition size_bool : Z := g_preagg_bool_size.
Definition size_string : Z := g_preagg_string_size.
Definition size_time : Z := g_preagg_time_size.
Definition size_one : Z := g_preagg_one_row.

(* ---- signed varint (binary.AppendVarint / Varint): zig-zag, then uvarint ---- *)
Definition e_varint (v : Z) : list Z := put_uvarint (zz v).
Definition d_varint : dec_t Z := fun bs => omap unzz (get_uvarint bs).

(* ---- scaled int64 (codec.AppendInt64WithScale / DecodeInt64WithScale): index into the scale table, then
        uvarint(uint64(v / scale)) with Go's truncating signed division; the reader multiplies back (wrapping) ---- *)
Definition sgn64 (u : Z) : Z := if u <? M63 then u else u - M64.
Definition n_scales : Z := len g_scales.
Definition scale_at (k : Z) : Z := nth (Z.to_nat k) g_scales 0.
Definition e_scaled (k : Z) (v : Z) : list Z := k :: put_uvarint (Z.quot (sgn64 v) (scale_at k) mod M64).
Definition d_scaled : dec_t Z := fun bs =>
  match bs with
  | [] => None
  | k :: r =>
      if (k <? 0) || (n_scales <=? k) then None      (* index > table length: error; = table length: index out of range *)
      else match get_uvarint r with
           | Some (u, r2) => Some ((u * scale_at k) mod M64, r2)
           | None => None
           end
  end.
(* a scale index may be used for v when the scale divides v exactly (Go: v % scale == 0) *)
Definition scale_ok (k v : Z) : bool :=
  (0 <=? k) && (k <? n_scales) && (0 <? scale_at k) && (Z.rem (sgn64 v) (scale_at k) =? 0).
(* the writer's choice (codec.scale): the largest index whose scale divides v, index 0 otherwise *)
Fixpoint scale_from (i : nat) (v : Z) : Z :=
  match i with
  | O => 0
  | S j => if Z.rem (sgn64 v) (scale_at (Z.of_nat i)) =? 0 then Z.of_nat i else scale_from j v
  end.
Definition scale_greedy (v : Z) : Z := scale_from (Z.to_nat (n_scales - 1)) v.

Definition dur (s : stat) : Z := (s_maxT s - s_minT s) mod M64.

(* ---- layouts ---- *)
Inductive layout :=
| LOne                               (* 16 bytes: value, time *)
| LFixed                             (* the fixed layout *)
| LVlc (flag : bool) (k1 k2 : Z)     (* variable-length; flag (floats only): true = values present, false = all zero; scale indices *)
| LPad (flag : bool) (k1 k2 : Z).    (* variable-length layout of exactly one_row bytes, followed by a 0 byte *)

Definition times_vlc (k1 k2 : Z) (s : stat) : list Z :=
  put_uvarint (s_cnt s) ++ e_scaled k1 (s_minT s) ++ e_scaled k2 (dur s).
Definition d_times : dec_t (Z * (Z * Z)) := d_pair get_uvarint (d_pair d_scaled d_scaled).

(* ================= IntegerPreAgg ================= *)
Definition int_fixed (s : stat) : list Z :=
  e_zint (s_min s) ++ e_zint (s_max s) ++ e_zint (s_minT s) ++ e_zint (s_maxT s) ++ e_zint (s_sum s) ++ e_zint (s_cnt s).
Definition int_one (s : stat) : list Z := e_zint (s_min s) ++ e_zint (s_minT s).
Definition int_vlc (k1 k2 : Z) (s : stat) : list Z :=
  e_varint (s_min s) ++ e_varint (s_max s) ++ e_varint (s_sum s) ++ times_vlc k1 k2 s.

(* a statistics value of a single row: what the one-row layout can express *)
Definition one_row_stat (s : stat) : bool :=
  (s_cnt s =? 1) && (s_max s =? s_min s) && (s_maxT s =? s_minT s) && (s_sum s =? s_min s).

Definition pai_enc_with (l : layout) (s : stat) : list Z :=
  match l with
  | LOne => int_one s
  | LFixed => int_fixed s
  | LVlc _ k1 k2 => int_vlc k1 k2 s
  | LPad _ k1 k2 => int_vlc k1 k2 s ++ [0]
  end.
Definition pai_applicable (l : layout) (s : stat) : bool :=
  match l with
  | LOne => one_row_stat s
  | LFixed => true
  | LVlc _ k1 k2 => scale_ok k1 (s_minT s) && scale_ok k2 (dur s) &&
                    negb (len (int_vlc k1 k2 s) =? size_one) && (len (int_vlc k1 k2 s) <? size_int)
  | LPad _ k1 k2 => scale_ok k1 (s_minT s) && scale_ok k2 (dur s) && (len (int_vlc k1 k2 s) =? size_one)
  end.

Definition one_stat (v t : Z) : stat := mkStat v v t t v 1.

Definition int_vlc_dec : dec_t stat := fun bs =>
  match d_pair d_varint (d_pair d_varint (d_pair d_varint d_times)) bs with
  | Some ((mn, (mx, (sm, (c, (t0, d))))), r) => Some (mkStat mn mx t0 ((t0 + d) mod M64) sm c, r)
  | None => None
  end.
Definition int_fixed_dec : dec_t stat := fun bs =>
  match d_pair d_zint (d_pair d_zint (d_pair d_zint (d_pair d_zint (d_pair d_zint d_zint)))) bs with
  | Some ((mn, (mx, (t0, (t1, (sm, c))))), r) => Some (mkStat mn mx t0 t1 sm c, r)
  | None => None
  end.
(* IntegerPreAgg.unmarshal: dispatch on the length of the block alone *)
Definition pai_dec : dec_t stat := fun bs =>
  if len bs =? size_one then
    match d_pair d_zint d_zint bs with Some ((v, t), r) => Some (one_stat v t, r) | None => None end
  else if len bs <? size_int then int_vlc_dec bs
  else int_fixed_dec bs.

(* the writer. `self` = chunk-meta-compress-mode is "self"; `keep n` = the guard that keeps the variable-length form of
   n bytes (the code: n < fixed size) *)
Definition int_layout_g (keep : Z -> bool) (self : bool) (s : stat) : layout :=
  let k1 := scale_greedy (s_minT s) in
  let k2 := scale_greedy (dur s) in
  if s_cnt s =? 1 then LOne
  else if self then
    let v := int_vlc k1 k2 s in
    if len v =? size_one then LPad true k1 k2 else if keep (len v) then LVlc true k1 k2 else LFixed
  else LFixed.

Definition int_marshal_g (keep : Z -> bool) (self : bool) (s : stat) : list Z :=
  pai_enc_with (int_layout_g keep self s) s.
Definition int_marshal : bool -> stat -> list Z := int_marshal_g (fun n => n <? size_int).

(* ================= FloatPreAgg ================= *)
Definition fl_fixed (s : stat) : list Z :=
  be 8 (s_min s) ++ be 8 (s_max s) ++ e_zint (s_minT s) ++ e_zint (s_maxT s) ++ be 8 (s_sum s) ++ e_zint (s_cnt s).
Definition fl_one (s : stat) : list Z := be 8 (s_min s) ++ e_zint (s_minT s).
Definition fl_vlc (flag : bool) (k1 k2 : Z) (s : stat) : list Z :=
  (if flag then [1] ++ be 8 (s_min s) ++ be 8 (s_max s) ++ be 8 (s_sum s) else [0]) ++ times_vlc k1 k2 s.

(* when the writer may drop min, max and sum (flag byte 0): the reader restores +0.0 for all three.
   repaired: all three are +0.0 bit for bit;  current: `m.maxV == 0 && m.minV == 0` on float64, true also for -0.0 and
   whatever the sum is *)
Definition fl_zero_repaired (s : stat) : bool := (s_min s =? 0) && (s_max s =? 0) && (s_sum s =? 0).
Definition fl_zero_current (s : stat) : bool := f_is_zero (s_max s) && f_is_zero (s_min s).

Definition fl_enc_with (l : layout) (s : stat) : list Z :=
  match l with
  | LOne => fl_one s
  | LFixed => fl_fixed s
  | LVlc f k1 k2 => fl_vlc f k1 k2 s
  | LPad f k1 k2 => fl_vlc f k1 k2 s ++ [0]
  end.
Definition fl_applicable_g (zero : stat -> bool) (l : layout) (s : stat) : bool :=
  match l with
  | LOne => one_row_stat s
  | LFixed => true
  | LVlc f k1 k2 => (f || zero s) && scale_ok k1 (s_minT s) && scale_ok k2 (dur s) &&
                    negb (len (fl_vlc f k1 k2 s) =? size_one) && (len (fl_vlc f k1 k2 s) <? size_float)
  | LPad f k1 k2 => (f || zero s) && scale_ok k1 (s_minT s) && scale_ok k2 (dur s) && (len (fl_vlc f k1 k2 s) =? size_one)
  end.
Definition fl_applicable : layout -> stat -> bool := fl_applicable_g fl_zero_repaired.
Definition fl_applicable_current : layout -> stat -> bool := fl_applicable_g fl_zero_current.

Definition fl_vlc_dec : dec_t stat := fun bs =>
  match bs with
  | [] => None
  | flag :: r =>
      if flag =? 0 then
        match d_times r with
        | Some ((c, (t0, d)), r2) => Some (mkStat 0 0 t0 ((t0 + d) mod M64) 0 c, r2)
        | None => None
        end
      else
        match d_pair (get_be 8) (d_pair (get_be 8) (d_pair (get_be 8) d_times)) r with
        | Some ((mn, (mx, (sm, (c, (t0, d))))), r2) => Some (mkStat mn mx t0 ((t0 + d) mod M64) sm c, r2)
        | None => None
        end
  end.
Definition fl_fixed_dec : dec_t stat := fun bs =>
  match d_pair (get_be 8) (d_pair (get_be 8) (d_pair d_zint (d_pair d_zint (d_pair (get_be 8) d_zint)))) bs with
  | Some ((mn, (mx, (t0, (t1, (sm, c))))), r) => Some (mkStat mn mx t0 t1 sm c, r)
  | None => None
  end.
Definition fl_dec : dec_t stat := fun bs =>
  if len bs =? size_one then
    match d_pair (get_be 8) d_zint bs with Some ((v, t), r) => Some (one_stat v t, r) | None => None end
  else if len bs <? size_float then fl_vlc_dec bs
  else fl_fixed_dec bs.

Definition fl_layout_g (zero : stat -> bool) (keep : Z -> bool) (self : bool) (s : stat) : layout :=
  let k1 := scale_greedy (s_minT s) in
  let k2 := scale_greedy (dur s) in
  let f := negb (zero s) in
  if s_cnt s =? 1 then LOne
  else if self then
    let v := fl_vlc f k1 k2 s in
    if len v =? size_one then LPad f k1 k2 else if keep (len v) then LVlc f k1 k2 else LFixed
  else LFixed.
Definition fl_marshal_g (zero : stat -> bool) (keep : Z -> bool) (self : bool) (s : stat) : list Z :=
  fl_enc_with (fl_layout_g zero keep self s) s.
Definition fl_marshal : bool -> stat -> list Z := fl_marshal_g fl_zero_repaired (fun n => n <? size_float).
Definition fl_marshal_current : bool -> stat -> list Z := fl_marshal_g fl_zero_current (fun n => n <? size_float).

(* ================= BooleanPreAgg / StringPreAgg / TimePreAgg: one fixed layout each ================= *)
(* boolean: count, minTime, maxTime, min byte, max byte *)
Definition bool_stat_ok (s : stat) : bool :=
  word_ok (s_cnt s) && word_ok (s_minT s) && word_ok (s_maxT s) && byte_ok (s_min s) && byte_ok (s_max s) && (s_sum s =? 0).
Definition bool_marshal (s : stat) : list Z := e_zint (s_cnt s) ++ e_zint (s_minT s) ++ e_zint (s_maxT s) ++ [s_min s] ++ [s_max s].
Definition bool_pa_dec : dec_t stat := fun bs =>
  if len bs <? size_bool then None
  else match d_pair d_zint (d_pair d_zint (d_pair d_zint (d_pair (get_be 1) (get_be 1)))) bs with
       | Some ((c, (t0, (t1, (mn, mx)))), r) => Some (mkStat mn mx t0 t1 0 c, r)
       | None => None
       end.
Definition cnt_stat (c : Z) : stat := mkStat 0 0 0 0 0 c.
Definition str_marshal (s : stat) : list Z := e_zint (s_cnt s).
Definition str_pa_dec : dec_t stat := fun bs =>
  if len bs <? size_string then None else omap cnt_stat (d_zint bs).
Definition time_marshal (s : stat) : list Z := be 4 (s_cnt s).
Definition time_pa_dec : dec_t stat := fun bs =>
  if len bs <? size_time then None else omap cnt_stat (get_be 4 bs).
