(* C07 correspondence evaluator. For one harness case (input, the mode the implementation chose with the choices read
   from its bytes, the real bytes, what the implementation decoded) it returns a flag word:
     1  the chosen mode is not applicable to the input           (the implementation picked a mode it must not pick)
     2  enc_with of that mode differs from the real bytes         (format drift)
     4  the model's decoder, run on the REAL bytes, does not return what is expected
   Third-party compressors are instantiated by one-entry tables (payload found in the real bytes <-> what the real
   third-party decoder returned for it), so the comparison covers openGemini's own framing and the raw layout fed to
   the compressor. *)
From Coq Require Import ZArith List Bool.
From OG Require Import C07.Gen_Consts C07.Model C07.ModelRows C07.ModelFile C07.ModelPreAgg C07.ModelCMSelf C07.ModelStats.
Import ListNotations.
Open Scope Z_scope.

Definition tbl_c (d c : list Z) : list Z -> list Z := fun x => if list_eqb x d then c else [].
Definition tbl_d (c d : list Z) : list Z -> option (list Z) := fun x => if list_eqb x c then Some d else None.
Definition tbl_co (d c : list Z) : list Z -> option (list Z) := fun x => if list_eqb x d then Some c else None.

Definition flags (app : bool) (enc real : list Z) (dec : option (list Z)) (expect : list Z) : Z :=
  (if app then 0 else 1) + (if list_eqb enc real then 0 else 2) +
  (match dec with Some r => if list_eqb r expect then 0 else 4 | None => 4 end).

Definition check_int (d c : list Z) (m : imode) (vs real : list Z) : Z :=
  flags (int_applicable (tbl_c d c) m vs) (int_enc_with (tbl_c d c) m vs) real (int_dec (tbl_d c d) real) vs.

Definition check_time (d c : list Z) (m : tmode) (vs real : list Z) : Z :=
  flags (time_applicable (tbl_c d c) m vs) (time_enc_with (tbl_c d c) m vs) real (time_dec (tbl_d c d) real) vs.

Definition b2z (l : list bool) : list Z := map bit l.
Definition z2b (l : list Z) : list bool := map (fun v => v =? 1) l.
Definition check_bool (vs real : list Z) : Z :=
  flags (bool_applicable (z2b vs) && forallb (fun v => (v =? 0) || (v =? 1)) vs) (bool_enc (z2b vs)) real
        (match bool_dec real with Some r => Some (b2z r) | None => None end) vs.

(* float: d/c bytes for snappy, dv/c for gorilla; expect = what the implementation decoded.
   returns (flags under the repaired model, flags under the model of the code before /repo 20f335a) *)
Definition check_float (d c dv : list Z) (m : fmode) (vs real expect : list Z) : Z * Z :=
  let gsc := tbl_c d c in let gsd := tbl_d c d in
  let gc := tbl_co dv c in let gd := tbl_d c dv in
  let nc := fun _ : list Z => @nil Z in let nd := fun _ : list Z => @None (list Z) in
  (flags (float_applicable gc m vs) (float_enc_with gsc gc nc zero_repaired m vs) real (float_dec gsd gd nd real) expect,
   flags (float_applicable_current gc m vs) (float_enc_with gsc gc nc zero_current m vs) real (float_dec gsd gd nd real) expect).

(* the encoder panicked: does the model of the selection before /repo 20f335a reach the gorilla branch with a failing encoder?
   (gorilla encoder instantiated as "returns an error", sampling oracle as "not snappy") *)
Definition float_panics_current (vs : list Z) : bool :=
  match float_encode (fun _ => []) (fun _ => None) (fun _ => []) zero_current (fun _ => false) f_eq false vs with
  | Panic => true
  | Ok _ => false
  end.

Fixpoint lists_eqb (a b : list (list Z)) : bool :=
  match a, b with
  | [], [] => true
  | x :: a', y :: b' => list_eqb x y && lists_eqb a' b'
  | _, _ => false
  end.
Definition check_string (d c : list Z) (m : smode) (ss : list (list Z)) (real : list Z) : Z :=
  (if string_applicable (fun _ => tbl_c d c) m ss then 0 else 1) +
  (if list_eqb (string_enc_with (fun _ => tbl_c d c) m ss) real then 0 else 2) +
  (match string_dec (fun _ => tbl_d c d) real with Some r => if lists_eqb r ss then 0 else 4 | None => 4 end).

(* version-1 string block built by the real packStringV1: 2 the model block differs; 4 the model reader does not return
   the strings from the real bytes *)
Definition check_string_v1 (ss : list (list Z)) (real : list Z) : Z :=
  (if list_eqb (string_block_v1 ss) real then 0 else 2) +
  (match string_dec (fun _ _ => None) real with Some r => if lists_eqb r ss then 0 else 4 | None => 4 end).

(* WAL frame: real frame bytes, and the model's verdict on every strict prefix (number of prefixes NOT rejected) *)
Fixpoint count_accepted_prefixes (wd : list Z -> option (list Z)) (k : nat) (bs : list Z) : Z :=
  match k with
  | O => 0
  | S j => (match frame_dec wd (firstn j bs) with Some _ => 1 | None => 0 end) + count_accepted_prefixes wd j bs
  end.
Definition check_frame (d c : list Z) (typ : Z) (payload real : list Z) : Z :=
  (if frame_applicable (tbl_c d c) typ payload then 0 else 1) +
  (if list_eqb (frame_enc (tbl_c d c) typ payload) real then 0 else 2) +
  (match frame_dec (tbl_d c d) real with
   | Some (t, p, rest) => if (t =? typ) && list_eqb p payload && list_eqb rest [] then 0 else 4
   | None => 4 end) +
  (if count_accepted_prefixes (tbl_d c d) (length real) real =? 0 then 0 else 8) +
  (* model of the reader before /repo fba11cf: a header-only tail with the same record's payload still in the pooled buffer is accepted *)
  (match frame_dec_current (tbl_d c d) c (firstn 5 real) with
   | Some (t, p, _) => if (t =? typ) && list_eqb p payload then 0 else 16
   | None => if len c =? 0 then 0 else 16 end).

(* expand 8-byte big-endian words back into bytes (the driver ships long byte strings as 64-bit words) *)
Definition unwords (n : Z) (ws : list Z) : list Z := firstn (Z.to_nat n) (flat_map (be 8) ws).

(* column segment: header mode read from the real bytes, rows of the segment, real segment bytes *)
Fixpoint bools_eqb (a b : list bool) : bool :=
  match a, b with
  | [], [] => true
  | x :: a', y :: b' => Bool.eqb x y && bools_eqb a' b'
  | _, _ => false
  end.
Definition check_seg (t : ctype) (m : hmode) (rows : list row) (real : list Z) : Z :=
  (if seg_applicable m rows then 0 else 1) +
  match seg_dec t (len rows) real with
  | Some (valid, payload) =>
      (if bools_eqb valid (validity rows) then 0 else 4) +
      (if list_eqb (seg_enc_with t m payload rows) real then 0 else 2)
  | None => 6
  end.
Definition le8 (v : Z) : list Z := le 8 v.

(* rows codec: 1 some row breaks a length-field bound; 2 e_batch differs from the real bytes; 4 the model decoder does
   not accept the real bytes or what it returns does not re-encode to them; 8 the model accepts one of the given
   strict prefixes (row boundaries and their neighbours) *)
Definition check_rows (rs : list rrow) (real : list Z) (ks : list Z) : Z :=
  (if forallb row_ok rs && (len rs <? M32) then 0 else 1) +
  (if list_eqb (e_batch rs) real then 0 else 2) +
  (match d_batch real with Some rs' => if list_eqb (e_batch rs') real then 0 else 4 | None => 4 end) +
  (if forallb (fun k => match d_batch (firstn (Z.to_nat k) real) with None => true | Some _ => false end) ks then 0 else 8).

(* record.Marshal: 1 a length-field bound is broken; 2 e_record differs from the real bytes; 4 the model decoder does
   not return the record from the real bytes *)
Definition check_record (r : rrecord) (real : list Z) : Z :=
  (if record_ok r then 0 else 1) +
  (if list_eqb (e_record r) real then 0 else 2) +
  (match d_record real with Some (r', []) => if list_eqb (e_record r') real then 0 else 4 | _ => 4 end).

(* ... 8 the model decoder accepts one of the given strict prefixes *)
Definition check_record_pre (r : rrecord) (real : list Z) (ks : list Z) : Z :=
  check_record r real +
  (if forallb (fun k => match d_record (firstn (Z.to_nat k) real) with None => true | Some _ => false end) ks then 0 else 8).

(* chunk meta: 1 a field is out of range / the entry counts do not match the segment count; 2 e_chunk_meta differs
   from the real bytes; 4 the model decoder does not return it from the real bytes; 8 the recorded offsets are not the
   builder's layout (per column a 4-byte checksum then its segments back to back, covering exactly [offset, offset+size)) *)
Definition check_cm (m : chunk_meta) (real : list Z) : Z :=
  (if chunk_meta_ok m then 0 else 1) +
  (if list_eqb (e_chunk_meta m) real then 0 else 2) +
  (match d_chunk_meta real with Some (m', []) => if list_eqb (e_chunk_meta m') real then 0 else 4 | _ => 4 end) +
  (if chunk_layout_ok m then 0 else 8).

(* trailer: the 14 fixed fields; 2 their encoding is not the head of the real trailer bytes; 4 the model decoder does
   not return them from the real bytes *)
Definition check_trailer (vs : list Z) (real : list Z) : Z :=
  (if (length vs =? length trailer_pattern)%nat && words_ok vs then 0 else 1) +
  (if list_eqb (e_fields trailer_pattern vs) (firstn (length (e_fields trailer_pattern vs)) real) then 0 else 2) +
  (match d_fields trailer_pattern real with Some (vs', _) => if list_eqb vs' vs then 0 else 4 | None => 4 end).

(* ---- stored statistics blocks. One case = one statistics value marshalled by the real writer under each
   chunk-meta-compress-mode; per mode: the real bytes and what the real reader returned for them. Flags per mode:
     1  no applicable layout (one-row, fixed, variable-length / padded with any scale indices and flag byte) reproduces
        the real bytes: the writer used a layout the length-dispatching reader cannot take for what it is
     2  (boolean/string/time) the single layout differs from the real bytes
     4  the model reader, run on the REAL bytes, does not return what the real reader returned
     8  a field is out of range
    32  informational: the bytes differ from the model of the writer (its choice among applicable layouts)
   floats: flags under the repaired zero test + 64 * flags under the zero test before /repo f1b5acb. The per-mode words are packed
   base 4096 in mode order. *)
Definition stat_eqb (a b : stat) : bool :=
  (s_min a =? s_min b) && (s_max a =? s_max b) && (s_minT a =? s_minT b) && (s_maxT a =? s_maxT b) &&
  (s_sum a =? s_sum b) && (s_cnt a =? s_cnt b).
(* candidate layouts: one-row, fixed, and the variable-length / padded layouts with the flag byte and the scale indices
   read from the real bytes (a wrong guess can only raise flag 1, never hide a difference) *)
Definition head_k (bs : list Z) : Z := match bs with k :: _ => k | [] => 0 end.
Definition ks_after_values (r : list Z) : list (Z * Z) :=      (* r = the bytes from the count on *)
  match get_uvarint r with
  | Some (_, r1) => match d_scaled r1 with Some (_, r2) => [(head_k r1, head_k r2)] | None => [] end
  | None => []
  end.
Definition vl_cands (f : bool) (r : list Z) : list layout :=
  flat_map (fun k => [LVlc f (fst k) (snd k); LPad f (fst k) (snd k)]) (ks_after_values r).
Definition int_cands (real : list Z) : list layout :=
  LOne :: LFixed :: match d_pair d_varint (d_pair d_varint d_varint) real with Some (_, r) => vl_cands true r | None => [] end.
Definition fl_cands (real : list Z) : list layout :=
  LOne :: LFixed :: match real with
                    | [] => []
                    | flag :: r => if flag =? 0 then vl_cands false r else vl_cands true (skipn 24 r)
                    end.
Definition dec_flag (d : option (stat * list Z)) (got : stat) : Z :=
  match d with Some (s', _) => if stat_eqb s' got then 0 else 4 | None => 4 end.
Definition check_pa_int (self : bool) (s : stat) (real : list Z) (got : stat) : Z :=
  (if existsb (fun l => pai_applicable l s && list_eqb (pai_enc_with l s) real) (int_cands real) then 0 else 1) +
  dec_flag (pai_dec real) got + (if stat_ok s then 0 else 8) +
  (if list_eqb (int_marshal self s) real then 0 else 32).
Definition check_pa_float (self : bool) (s : stat) (real : list Z) (got : stat) : Z :=
  let f (zero : stat -> bool) (marshal : bool -> stat -> list Z) :=
    (if existsb (fun l => fl_applicable_g zero l s && list_eqb (fl_enc_with l s) real) (fl_cands real)
     then 0 else 1) +
    dec_flag (fl_dec real) got + (if stat_ok s then 0 else 8) +
    (if list_eqb (marshal self s) real then 0 else 32) in
  f fl_zero_repaired fl_marshal + 64 * f fl_zero_current fl_marshal_current.
Definition check_pa_bool (self : bool) (s : stat) (real : list Z) (got : stat) : Z :=
  (if bool_stat_ok s then 0 else 8) + (if list_eqb (bool_marshal s) real then 0 else 2) + dec_flag (bool_pa_dec real) got.
Definition check_pa_string (self : bool) (s : stat) (real : list Z) (got : stat) : Z :=
  (if word_ok (s_cnt s) && stat_eqb s (cnt_stat (s_cnt s)) then 0 else 8) + (if list_eqb (str_marshal s) real then 0 else 2) +
  dec_flag (str_pa_dec real) got.
Definition check_pa_time (self : bool) (s : stat) (real : list Z) (got : stat) : Z :=
  (if (0 <=? s_cnt s) && (s_cnt s <? M32) && stat_eqb s (cnt_stat (s_cnt s)) then 0 else 8) +
  (if list_eqb (time_marshal s) real then 0 else 2) + dec_flag (time_pa_dec real) got.
Fixpoint pa_modes (f : bool -> stat -> list Z -> stat -> Z) (s : stat) (l : list (Z * (list Z * stat))) : Z :=
  match l with
  | [] => 0
  | (mode, (real, got)) :: r => f (mode =? g_cm_mode_self) s real got + 4096 * pa_modes f s r
  end.

(* file-level time ranges: chunks = (first row time, last row time) of every series in file order (signed), the
   trailer's (minTime, maxTime), and the meta-index entries in file order as (chunk count, (minTime, maxTime)).
   2  the fold over all chunks is not the real trailer range;  4  the fold over the chunks of some meta-index block is
   not that entry's range, or the counts do not add up to the number of chunks *)
Definition rng_eqb (a b : rng) : bool := (fst a =? fst b) && (snd a =? snd b).
Fixpoint blocks_ok (chunks : list rng) (blocks : list (Z * rng)) : bool :=
  match blocks with
  | [] => match chunks with [] => true | _ => false end
  | (cnt, r) :: rest =>
      let n := Z.to_nat cnt in
      let '(c', r') := tr_fold (firstn n chunks) in
      (0 <? cnt) && (c' =? cnt) && rng_eqb r' r && blocks_ok (skipn n chunks) rest
  end.
Definition check_ranges (chunks : list rng) (trailer : rng) (blocks : list (Z * rng)) : Z :=
  (let '(n, r) := tr_fold chunks in if (n =? len chunks) && rng_eqb r trailer then 0 else 2) +
  (if blocks_ok chunks blocks then 0 else 4).

(* chunk meta in the mode-self layout: 1 not well-formed for the scale index / dictionary indices read from the real
   bytes (a scale that does not divide a delta, a column whose index does not name it, segments not contiguous ...);
   2 e_cm_self differs from the real bytes; 4 the model reader with the dictionary does not return it from the real bytes *)
Definition check_cm_self (dict : list (list Z)) (k : Z) (idxs : list Z) (m : chunk_meta) (real : list Z) : Z :=
  (if cm_self_ok dict k idxs m && (0 <=? k) && (k <? n_scales) then 0 else 1) +
  (if list_eqb (e_cm_self k idxs m) real then 0 else 2) +
  (match d_cm_self dict real with Some (m', []) => if list_eqb (e_cm_self k idxs m') real then 0 else 4 | _ => 4 end).

(* stored statistics of one column of a written file (as the real reader decodes them) against the builder models run on
   the rows, segment by segment, seen through the statistics codec of the file's chunk-meta-compress-mode. Four variants of
   the tree: builder repaired / as before /repo 0b71ecf (finding C07-preagg-sentinel-init) x float zero test of the variable-length form
   repaired / as before /repo f1b5acb (finding C07-preagg-vlc-zero-flag). Bit set = that variant does NOT give the stored statistics:
     1 (repaired builder, repaired codec) = the reference   2 (old builder, repaired codec)
     4 (repaired builder, old codec)                        8 (old builder, old codec)
   A single-row block stores only (min, minTime): every variant is viewed through that marshalling. Floats: the sum (IEEE
   addition) is not compared. *)
Definition one_row_view (s : stat) : stat := if s_cnt s =? 1 then one_stat (s_min s) (s_minT s) else s.
Definition check_stats_int (self : bool) (segs : list (list srow)) (stored : stat) : Z :=
  let a := if stat_eqb (one_row_view (int_build true segs)) stored then 0 else 1 in
  let b := if stat_eqb (one_row_view (int_build false segs)) stored then 0 else 1 in
  a + 2 * b + 4 * a + 8 * b.
Definition no_sum (s : stat) : stat := set_sum s 0.
(* what the float writer + reader before /repo f1b5acb make of statistics under mode self: min = max = 0 as floats -> all three +0.0 *)
Definition zero_flag_view (self : bool) (s : stat) : stat :=
  if self && negb (s_cnt s =? 1) && fl_zero_current s then mkStat 0 0 (s_minT s) (s_maxT s) 0 (s_cnt s) else s.
Definition check_stats_float (self : bool) (segs : list (list srow)) (stored : stat) : Z :=
  let add := fun _ _ : Z => 0 in
  let rep := one_row_view (fl_build add true segs) in
  let cur := one_row_view (fl_build add false segs) in
  let ne (x : stat) := if stat_eqb (no_sum x) (no_sum stored) then 0 else 1 in
  ne rep + 2 * ne cur + 4 * ne (zero_flag_view self rep) + 8 * ne (zero_flag_view self cur).
(* bitwise or of the per-column words *)
Fixpoint lor_all (l : list Z) : Z := match l with [] => 0 | x :: r => Z.lor x (lor_all r) end.
