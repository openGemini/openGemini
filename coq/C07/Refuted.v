(* C07: what the code before the repairs named below (the `_current` parameters of the model) violated. Witnesses closed by vm_compute. *)
From Coq Require Import ZArith List Bool.
From OG Require Import C07.Model C07.ModelRows C07.ModelPreAgg C07.ModelStats C07.ModelMerge C07.ProofsPreAgg C07.ProofsMerge.
Import ListNotations.
Open Scope Z_scope.

Definition nz : Z := M63.                       (* the bit pattern of -0.0 *)
Definition no_c (x : list Z) : list Z := x.
Definition no_d (x : list Z) : option (list Z) := Some x.
Definition gor_fail (x : list Z) : option (list Z) := None.   (* a gorilla encoder that reports an error; it satisfies the
                                                                  round-trip hypothesis (which only speaks about successes) *)

(* C07-negzero-same (fixed by /repo 20f335a): the selection by float equality puts a column of -0.0 in same-value mode and the zero test on
   the float drops the value: the block decodes to +0.0 *)
Theorem C07_negzero_same_refuted : exists vs bs,
  words_ok vs = true /\
  float_encode no_c gor_fail no_c zero_current (fun _ => false) f_eq false vs = Ok bs /\
  float_dec no_d no_d no_d bs <> Some vs /\ float_dec no_d no_d no_d bs = Some [0; 0; 0; 0; 0].
Proof.
  exists [nz; nz; nz; nz; nz], [64; 0; 5]. vm_compute. repeat split; congruence.
Qed.
Print Assumptions C07_negzero_same_refuted.

(* the same for the mode-level statement: same-value mode is "applicable" in that selection's sense but does not round-trip *)
Theorem C07_same_mode_current_refuted : exists vs,
  float_applicable_current gor_fail FSame vs = true /\
  float_dec no_d no_d no_d (float_enc_with no_c gor_fail no_c zero_current FSame vs) <> Some vs.
Proof. exists [0; nz; 0; nz; 0; 0]. vm_compute. split; congruence. Qed.

(* C07-gorilla-error-path: when the gorilla encoder reports an error (tsm1 does for a column whose sum is NaN, e.g.
   +Inf and -Inf present) the encoder before /repo 20f335a panicked instead of falling back; encode_total fails for `_current` *)
Theorem C07_gorilla_error_refuted : exists vs,
  words_ok vs = true /\ (forall g, gor_fail vs = Some g -> no_d g = Some vs) /\
  float_encode no_c gor_fail no_c zero_current (fun _ => false) f_eq false vs = Panic.
Proof.
  exists [4562254508917369340; 4612811918334230528; 9218868437227405312; 18442240474082181120; 4562254508917369340;
          13837309855095848960; 9094988921128908188; 13837309855095848960; 4607182418800017408].
  split; [vm_compute; reflexivity|]. split; [intros g H; discriminate|]. vm_compute. reflexivity.
Qed.
Print Assumptions C07_gorilla_error_refuted.

(* C07-wal-header-only-tail (fixed by /repo fba11cf): a record cut exactly after its 5-byte header was NOT recognised as
   incomplete by the reader when the pooled buffer still holds a decodable payload of that length: the earlier record is delivered again *)
Theorem C07_wal_header_only_tail_refuted : exists typ p stale,
  frame_applicable no_c typ p = true /\
  frame_dec no_d (firstn 5 (frame_enc no_c typ p)) = None /\                       (* repaired reader: incomplete *)
  frame_dec_current no_d stale (firstn 5 (frame_enc no_c typ p)) = Some (typ, stale, []).   (* today: fabricated *)
Proof. exists 1, [7; 8; 9], [1; 2; 3]. vm_compute. repeat split. Qed.
Print Assumptions C07_wal_header_only_tail_refuted.

(* C07-preagg-vlc-zero-flag (fixed by /repo f1b5acb): under chunk-meta-compress-mode "self" the float statistics writer dropped min, max and sum
   (flag byte 0) when `maxV == 0 && minV == 0` on float64 - true for -0.0 as well, and whatever the sum is (NaN when the
   column also holds a NaN): the reader restores +0.0 for all three. Statistics of a column of -0.0 do not read back. *)
Theorem C07_preagg_vlc_zero_flag_refuted : exists s,
  stat_ok s = true /\ s_cnt s <> 1 /\
  fl_applicable_current (fl_layout_g fl_zero_current (fun n => n <? size_float) true s) s = true /\
  fl_dec (fl_marshal_current true s) = Some (mkStat 0 0 (s_minT s) (s_maxT s) 0 (s_cnt s), []) /\
  forall rest, fl_dec (fl_marshal_current true s) <> Some (s, rest).
Proof.
  exists (mkStat nz nz 1000 2000 0 2). vm_compute. repeat split; try congruence.
Qed.
Print Assumptions C07_preagg_vlc_zero_flag_refuted.

(* C07-preagg-sentinel-init (fixed by /repo 0b71ecf): the builders started from MaxInt64 / MinInt64 (+-MaxFloat64) with strict comparisons only:
   a column whose minimum IS MaxInt64 never records the time of that minimum; an all-+Inf float column keeps MaxFloat64
   as its minimum *)
Theorem C07_stats_sentinel_current_refuted :
  (exists segs, int_build false segs <> int_ref_stat (int_reference segs) /\
                s_minT (int_build false segs) = 0 /\ s_minT (int_ref_stat (int_reference segs)) = 10) /\
  (exists segs, let add := fun _ _ : Z => 0 in
                s_min (fl_build add false segs) = max_f64 /\ s_min (fl_ref_stat (fl_reference add segs)) = 9218868437227405312).
Proof.
  split.
  - exists [[(Some max_i64, 10); (Some max_i64, 20)]]. vm_compute. repeat split; congruence.
  - exists [[(Some 9218868437227405312, 10); (Some 9218868437227405312, 20)]]. vm_compute. split; reflexivity.
Qed.
Print Assumptions C07_stats_sentinel_current_refuted.

(* IntegerPreAgg.merge (min / max through float64) is not statistics of the union beyond 2^53: merging a block whose
   minimum is 2^53 + 1 stores 2^53, a value no row has. Not reachable through the write path (integers are parsed
   through float64), therefore an observation and not a finding; props/C07/fix4.patch removes the detour. *)
Theorem C07_int_merge_via_f64_refuted : exists a b A B,
  Forall Wp A /\ Forall Wp B /\ is_stat_of a A /\ is_stat_of b B /\ ~ is_stat_of (int_merge via_f64 a b) (A ++ B).
Proof.
  assert (S1 : forall v t, W v -> is_stat_of (mkStat v v t t v 1) [(v, t)]).
  { intros v t Hv. unfold is_stat_of. cbn [s_min s_minT s_max s_maxT s_sum s_cnt].
    split; [left; reflexivity|]. split; [intros p [<-|[]]; right; split; [reflexivity|apply Z.le_refl]|].
    split; [left; reflexivity|]. split; [intros p [<-|[]]; right; split; [reflexivity|apply Z.le_refl]|].
    split; [cbn [sum64]; rewrite Z.add_0_r; symmetry; apply Z.mod_small; exact Hv|reflexivity]. }
  set (a := 9007199254741000). set (b := 9007199254740993).     (* 2^53 + 8, 2^53 + 1 *)
  assert (Wa : W a) by (split; [discriminate|reflexivity]). assert (Wb : W b) by (split; [discriminate|reflexivity]).
  assert (W10 : W 10) by (split; [discriminate|reflexivity]). assert (W20 : W 20) by (split; [discriminate|reflexivity]).
  exists (mkStat a a 10 10 a 1), (mkStat b b 20 20 b 1), [(a, 10)], [(b, 20)].
  split; [constructor; [split; assumption|constructor]|].
  split; [constructor; [split; assumption|constructor]|].
  split; [apply S1; exact Wa|]. split; [apply S1; exact Wb|].
  intros (I & _).
  assert (E : s_min (int_merge via_f64 (mkStat a a 10 10 a 1) (mkStat b b 20 20 b 1)) = 9007199254740992)
    by (vm_compute; reflexivity).
  rewrite E in I. cbn [app] in I. destruct I as [Q|[Q|[]]]; inversion Q.
Qed.
Print Assumptions C07_int_merge_via_f64_refuted.
