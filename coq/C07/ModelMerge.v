(* C07 - the MERGE paths of the statistics builders, used by streaming compaction to combine the stored statistics of the
   source chunks of one series without reading their rows (engine/immutable/pre_aggregation.go addMin / addMax / merge,
   stream_compact.go mergeIntegerPreAgg / mergeFloatPreAgg / mergeBooleanPreAgg).

   addMin(v, t): a smaller value replaces (value, time); an EQUAL value keeps the earlier time. addMax alike.
   IntegerPreAgg.merge hands the other block's min / max over as float64 and converts back with int64(...):
   `via_f64` is that conversion (round to nearest, ties to even, at 53 bits; amd64 gives MinInt64 when the rounded value is
   2^63). It is the identity exactly on the integers a float64 represents, in particular for |v| <= 2^53. *)
From Coq Require Import ZArith List Bool.
From OG Require Import C07.Model C07.ModelRows C07.ModelPreAgg C07.ModelStats.
Import ListNotations.
Open Scope Z_scope.

Definition P53 : Z := 9007199254740992.        (* 2^53 *)
(* a >= 0 rounded to 53 significant bits, ties to even *)
Definition round53 (a : Z) : Z :=
  if a <? P53 then a else
  let e := Z.log2 a - 52 in
  let q := a / 2 ^ e in
  let r := a mod 2 ^ e in
  let h := 2 ^ (e - 1) in
  (if (h <? r) || ((r =? h) && Z.odd q) then q + 1 else q) * 2 ^ e.
Definition via_f64 (u : Z) : Z :=
  let v := sgn64 u in
  let m := round53 (Z.abs v) in
  let w := if v <? 0 then - m else m in
  if M63 <=? w then M63 else w mod M64.
Definition exact53 (u : Z) : bool := Z.abs (sgn64 u) <=? P53.

(* ---- integer ---- *)
Definition add_min_int (s : stat) (v t : Z) : stat :=
  if ilt v (s_min s) then set_min s v t
  else if s_min s =? v then (if ilt t (s_minT s) then set_min s v t else s)
  else s.
Definition add_max_int (s : stat) (v t : Z) : stat :=
  if ilt (s_max s) v then set_max s v t
  else if s_max s =? v then (if ilt t (s_maxT s) then set_max s v t else s)
  else s.
Definition int_merge (conv : Z -> Z) (m o : stat) : stat :=
  let m1 := add_min_int m (conv (s_min o)) (s_minT o) in
  let m2 := add_max_int m1 (conv (s_max o)) (s_maxT o) in
  mkStat (s_min m2) (s_max m2) (s_minT m2) (s_maxT m2) ((s_sum m + s_sum o) mod M64) ((s_cnt m + s_cnt o) mod M64).

(* ---- float (sum = IEEE addition: a parameter) ---- *)
Definition add_min_fl (s : stat) (v t : Z) : stat :=
  if flt v (s_min s) then set_min s v t
  else if f_eq (s_min s) v then (if ilt t (s_minT s) then set_min s (s_min s) t else s)
  else s.
Definition add_max_fl (s : stat) (v t : Z) : stat :=
  if flt (s_max s) v then set_max s v t
  else if f_eq (s_max s) v then (if ilt t (s_maxT s) then set_max s (s_max s) t else s)
  else s.
Definition fl_merge (fadd : Z -> Z -> Z) (m o : stat) : stat :=
  let m1 := add_min_fl m (s_min o) (s_minT o) in
  let m2 := add_max_fl m1 (s_max o) (s_maxT o) in
  mkStat (s_min m2) (s_max m2) (s_minT m2) (s_maxT m2) (fadd (s_sum m) (s_sum o)) ((s_cnt m + s_cnt o) mod M64).

(* ---- boolean: min / max bytes are int8 (start values 2 and -1 = 255); the merge of streaming compaction hands over
        other.min() / other.max(), which read "byte = 1" (anything else is false) ---- *)
Definition i8 (b : Z) : Z := if b <? 128 then b else b - 256.
Definition bool_of_byte (b : Z) : Z := if b =? 1 then 1 else 0.
Definition add_min_bool (s : stat) (v t : Z) : stat :=
  if i8 v <? i8 (s_min s) then set_min s v t
  else if s_min s =? v then (if ilt t (s_minT s) then set_min s v t else s)
  else s.
Definition add_max_bool (s : stat) (v t : Z) : stat :=
  if i8 (s_max s) <? i8 v then set_max s v t
  else if s_max s =? v then (if ilt t (s_maxT s) then set_max s v t else s)
  else s.
Definition bool_merge (m o : stat) : stat :=
  let m1 := add_min_bool m (bool_of_byte (s_min o)) (s_minT o) in
  let m2 := add_max_bool m1 (bool_of_byte (s_max o)) (s_maxT o) in
  mkStat (s_min m2) (s_max m2) (s_minT m2) (s_maxT m2) 0 ((s_cnt m + s_cnt o) mod M64).
(* the boolean builder (as of /repo bdc706f: times indexed by row): start values 2 / 255, strict int8 comparisons *)
Definition bool_build := build (fun a b => i8 a <? i8 b) (fun _ => true) (fun _ _ => 0) 2 255.

(* ---- what statistics OF A ROW LIST are: the least value with the earliest time it occurs at, the greatest value with the
        earliest time it occurs at, wrapping sum, count. Rows = (value, time) patterns ---- *)
Definition lex_le (p q : Z * Z) : Prop :=          (* value ascending, then time ascending *)
  sgn64 (fst p) < sgn64 (fst q) \/ (fst p = fst q /\ sgn64 (snd p) <= sgn64 (snd q)).
Definition lex_ge (p q : Z * Z) : Prop :=          (* value descending, then time ascending *)
  sgn64 (fst q) < sgn64 (fst p) \/ (fst p = fst q /\ sgn64 (snd p) <= sgn64 (snd q)).
Fixpoint sum64 (l : list (Z * Z)) : Z := match l with [] => 0 | (v, _) :: r => (v + sum64 r) mod M64 end.
Definition is_stat_of (s : stat) (l : list (Z * Z)) : Prop :=
  In (s_min s, s_minT s) l /\ (forall p, In p l -> lex_le (s_min s, s_minT s) p) /\
  In (s_max s, s_maxT s) l /\ (forall p, In p l -> lex_ge (s_max s, s_maxT s) p) /\
  s_sum s = sum64 l /\ s_cnt s = len l mod M64.
