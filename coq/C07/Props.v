(* C07 property theorems: the statements, each proved by a lemma of the Proofs files or in a few steps from them. Third-party compressors appear as universally
   quantified functions with their round-trip behaviour as premises. All theorems are for every input (no bound). *)
From Coq Require Import ZArith List Bool Lia.
From OG Require Import C07.Model C07.ModelRows C07.ModelFile C07.ModelPreAgg C07.ModelCMSelf C07.ModelStats C07.ModelMerge C07.ModelWhole C07.ProofsPreAgg C07.ProofsCMSelf C07.ProofsStats C07.ProofsMerge C07.ProofsWhole C07.ProofsFile C07.ProofsRows C07.ProofsBase C07.ProofsS8 C07.ProofsInt C07.ProofsBool C07.ProofsFloat C07.ProofsString C07.ProofsSeg.
Import ListNotations.
Open Scope Z_scope.

Theorem C07_zigzag_inv : forall u, 0 <= u < M64 -> unzz (zz u) = u.
Proof. exact unzz_zz. Qed.
Print Assumptions C07_zigzag_inv.

Theorem C07_zigzag_onto : forall w, 0 <= w < M64 -> zz (unzz w) = w /\ 0 <= unzz w < M64.
Proof. exact zz_unzz. Qed.

Theorem C07_uvarint_roundtrip : forall v rest, 0 <= v < M64 -> get_uvarint (put_uvarint v ++ rest) = Some (v, rest).
Proof. exact uvarint_roundtrip. Qed.
Print Assumptions C07_uvarint_roundtrip.

Theorem C07_be_roundtrip : forall n v rest, 0 <= v < 256 ^ Z.of_nat n -> get_be n (be n v ++ rest) = Some (v, rest).
Proof. exact get_be_app. Qed.

Theorem C07_le_values_roundtrip : forall vs, words_ok vs = true -> unle_all (le_bytes vs) = Some vs.
Proof. exact unle_all_le_bytes. Qed.

(* ---- simple8b: any selector sequence that fits decodes back; one always exists below 2^60 ---- *)
Theorem C07_simple8b_roundtrip : forall sels vs, s8_applicable sels vs = true -> s8_decode (s8_encode sels vs) = vs.
Proof. exact s8_roundtrip. Qed.
Print Assumptions C07_simple8b_roundtrip.

Theorem C07_simple8b_total : forall vs, forallb (fun v => (0 <=? v) && (v <? M60)) vs = true ->
  s8_applicable (s8_trivial_sels vs) vs = true.
Proof. exact s8_trivial_applicable. Qed.

(* ---- integer block: const-delta / simple8b (any selectors) / zstd / uncompressed ---- *)
Theorem C07_int_block_roundtrip : forall (zc : list Z -> list Z) (zd : list Z -> option (list Z)),
  (forall x, bytes_ok x = true -> zd (zc x) = Some x) ->
  forall m vs, int_applicable zc m vs = true -> int_dec zd (int_enc_with zc m vs) = Some vs.
Proof. exact int_block_roundtrip. Qed.
Print Assumptions C07_int_block_roundtrip.

Theorem C07_int_encode_total : forall zc vs, words_ok vs = true -> 8 * len vs < M32 -> int_applicable zc IRaw vs = true.
Proof. intros. unfold int_applicable. rewrite H. destruct vs; lia. Qed.

(* ---- timestamp block: const-delta / scaled simple8b (any scale dividing every delta) / snappy / uncompressed ---- *)
Theorem C07_time_block_roundtrip : forall (sc : list Z -> list Z) (sd : list Z -> option (list Z)),
  (forall x, bytes_ok x = true -> sd (sc x) = Some x) ->
  forall m vs, time_applicable sc m vs = true -> time_dec sd (time_enc_with sc m vs) = Some vs.
Proof. exact time_block_roundtrip. Qed.
Print Assumptions C07_time_block_roundtrip.

Theorem C07_time_encode_total : forall sc vs, words_ok vs = true -> 8 * len vs < M32 -> time_applicable sc TRaw vs = true.
Proof. intros. unfold time_applicable. rewrite H. lia. Qed.

Theorem C07_bool_block_roundtrip : forall bs, bool_applicable bs = true -> bool_dec (bool_enc bs) = Some bs.
Proof. exact bool_block_roundtrip. Qed.
Print Assumptions C07_bool_block_roundtrip.

(* ---- float container (repaired zero test): none / same-value / RLE (any run split) / snappy / gorilla / MLF ---- *)
Theorem C07_float_container_roundtrip :
  forall (gsc : list Z -> list Z) (gsd : list Z -> option (list Z)) (gor_c gor_d : list Z -> option (list Z))
         (mlf_c : list Z -> list Z) (mlf_d : list Z -> option (list Z)),
  (forall x, bytes_ok x = true -> gsd (gsc x) = Some x) ->
  (forall vs g, words_ok vs = true -> gor_c vs = Some g -> gor_d g = Some vs) ->
  (forall vs, words_ok vs = true -> mlf_d (mlf_c vs) = Some vs) ->
  forall m vs, float_applicable gor_c m vs = true ->
  float_dec gsd gor_d mlf_d (float_enc_with gsc gor_c mlf_c zero_repaired m vs) = Some vs.
Proof. exact float_container_roundtrip. Qed.
Print Assumptions C07_float_container_roundtrip.

Theorem C07_rle_roundtrip : forall runs vs, words_ok vs = true -> rle_applicable runs vs = true -> rle_dec (rle_enc runs vs) = vs.
Proof. exact rle_roundtrip. Qed.

(* encode_total for floats, end to end: the REPAIRED adaptive encoder (bit-pattern comparison, gorilla error tested
   before use) returns a block for every column of fewer than 65536 values - whatever the sampling heuristic answers, whether or not the gorilla
   encoder errs - and the block decodes to exactly the column *)
Theorem C07_float_encode_total :
  forall (gsc : list Z -> list Z) (gsd : list Z -> option (list Z)) (gor_c gor_d : list Z -> option (list Z))
         (mlf_c : list Z -> list Z) (mlf_d : list Z -> option (list Z)),
  (forall x, bytes_ok x = true -> gsd (gsc x) = Some x) ->
  (forall vs g, words_ok vs = true -> gor_c vs = Some g -> gor_d g = Some vs) ->
  (forall vs, words_ok vs = true -> mlf_d (mlf_c vs) = Some vs) ->
  forall (prefer_snappy : list Z -> bool) vs, words_ok vs = true -> len vs < 65536 ->
  exists bs, float_encode gsc gor_c mlf_c zero_repaired prefer_snappy Z.eqb true vs = Ok bs /\
             float_dec gsd gor_d mlf_d bs = Some vs.
Proof. exact float_encode_repaired_total. Qed.
Print Assumptions C07_float_encode_total.

(* ---- string block: offsets -> lengths packing, any compressor mode ---- *)
Theorem C07_string_block_roundtrip : forall (cc : smode -> list Z -> list Z) (cd : smode -> list Z -> option (list Z)),
  (forall m x, bytes_ok x = true -> cd m (cc m x) = Some x) ->
  forall m ss, ss <> [] -> string_applicable cc m ss = true -> string_dec cd (string_enc_with cc m ss) = Some ss.
Proof. exact string_block_roundtrip. Qed.
Print Assumptions C07_string_block_roundtrip.

(* the deprecated version-1 string packing (decode only; reachable from files written by older versions): the version
   dispatch recognises it (its first word is a data length below the version words) and the block decodes to exactly
   its strings, for any number of strings *)
Theorem C07_string_block_v1_roundtrip : forall (cd : smode -> list Z -> option (list Z)) ss,
  8 + len (concat ss) + 4 * len ss < M32 - 3 -> string_dec cd (string_block_v1 ss) = Some ss.
Proof.
    intros cd ss H. pose proof (len_nonneg (concat ss)) as Hd. pose proof (len_nonneg ss) as Hs.
    assert (UP : unpack_strings (pack_strings_v1 ss) = Some ss) by (apply unpack_strings_takes_v1; exact H).
    unfold string_block_v1. set (src := pack_strings_v1 ss) in *.
    assert (LS : len src = 8 + len (concat ss) + 4 * len ss) by apply pack_strings_v1_len.
    cbn [app]. unfold string_dec.
    destruct (comp_body_read (len src) src) as (E1 & E2 & E3 & E4); [lia..|].
    rewrite container_long, E1, E2, E3, E4.
    rewrite tag16. tagsimp. exact UP.
  Qed.
Print Assumptions C07_string_block_v1_roundtrip.

(* ---- column segment: one-row mode and column header (full / empty / null bitmap with any offset and padding) ---- *)
Theorem C07_segment_roundtrip : forall t m block rows, seg_applicable m rows = true ->
  seg_dec t (len rows) (seg_enc_with t m block rows) = Some (validity rows, seg_payload m block rows).
Proof. exact seg_roundtrip. Qed.
Print Assumptions C07_segment_roundtrip.

Theorem C07_segment_encode_total : forall rows, 0 < len rows < M32 - 16 ->
  seg_applicable (HBitmap [] (repeat false (Z.to_nat ((8 - len rows mod 8) mod 8)))) rows = true.
Proof.
  intros rows H. unfold seg_applicable.
  set (p := (8 - len rows mod 8) mod 8).
  assert (0 <= p < 8) by (apply Z.mod_pos_bound; lia).
  assert (L : len (repeat false (Z.to_nat p)) = p) by (unfold len; rewrite repeat_length; lia).
  rewrite L. change (len (@nil bool)) with 0.
  assert ((0 + len rows + p) mod 8 = 0).
  { unfold p. pose proof (Z.mod_pos_bound (len rows) 8). pose proof (Z.div_mod (len rows) 8).
    destruct (Z.eq_dec (len rows mod 8) 0) as [E|E].
    - rewrite E. change ((8 - 0) mod 8) with 0. lia.
    - rewrite (Z.mod_small (8 - len rows mod 8)) by lia.
      replace (0 + len rows + (8 - len rows mod 8)) with (8 * (len rows / 8 + 1)) by lia.
      rewrite Z.mul_comm. apply Z_mod_mult. }
  lia.
Qed.

(* one-row mode is NOT applicable to a single non-null empty string: its block would read back as a null *)
Example C07_ex_one_row_empty_string :
  seg_applicable HOne [Some []] = false /\
  seg_dec CString 1 (seg_enc_with CString HOne [] [Some []]) = Some ([false], []) /\
  seg_applicable HOne [Some [104; 105]] = true /\ seg_applicable HFull [Some []] = true /\
  seg_applicable (HBitmap [true; false] [false; false; false]) [None; Some [1]; None] = true.
Proof. vm_compute. repeat split. Qed.

Theorem C07_frame_roundtrip : forall (wc : list Z -> list Z) (wd : list Z -> option (list Z)),
  (forall x, bytes_ok x = true -> wd (wc x) = Some x) ->
  forall typ p rest, frame_applicable wc typ p = true -> frame_dec wd (frame_enc wc typ p ++ rest) = Some (typ, p, rest).
Proof. exact frame_roundtrip. Qed.
Print Assumptions C07_frame_roundtrip.

(* every strict prefix of a record is recognised as incomplete, whatever the decompressor does with a short input *)
Theorem C07_frame_prefix_rejected : forall (wc : list Z -> list Z) (wd : list Z -> option (list Z)) typ p k,
  len (wc p) < M32 -> (k < length (frame_enc wc typ p))%nat -> frame_dec wd (firstn k (frame_enc wc typ p)) = None.
Proof. exact frame_prefix_rejected. Qed.
Print Assumptions C07_frame_prefix_rejected.

(* a log file whose last record was cut short replays exactly the complete records *)
Theorem C07_replay_torn_tail : forall (wc : list Z -> list Z) (wd : list Z -> option (list Z)),
  (forall x, bytes_ok x = true -> wd (wc x) = Some x) ->
  forall recs typ p k fuel,
  forallb (fun r => frame_applicable wc (fst r) (snd r)) recs = true ->
  len (wc p) < M32 -> (k < length (frame_enc wc typ p))%nat -> (length recs < fuel)%nat ->
  replay wd fuel (file_of wc recs ++ firstn k (frame_enc wc typ p)) = recs.
Proof. exact replay_torn_tail. Qed.
Print Assumptions C07_replay_torn_tail.

(* ---- rows codec (FastMarshalMultiRows / FastUnmarshalMultiRows) ---- *)
Theorem C07_rows_roundtrip : forall rs trailing, Forall (fun r => row_ok r = true) rs -> len rs < M32 ->
  d_batch (e_batch rs ++ trailing) = Some rs.
Proof. exact rows_roundtrip. Qed.
Print Assumptions C07_rows_roundtrip.

(* every strict prefix of a marshalled batch is rejected, in particular one cut exactly at a row boundary *)
Theorem C07_rows_prefix_rejected : forall rs k, Forall (fun r => row_ok r = true) rs -> len rs < M32 ->
  (k < length (e_batch rs))%nat -> d_batch (firstn k (e_batch rs)) = None.
Proof. exact rows_prefix_rejected. Qed.
Print Assumptions C07_rows_prefix_rejected.

Theorem C07_rows_cut_at_row_boundary_rejected : forall rs1 r rs2,
  Forall (fun r => row_ok r = true) (rs1 ++ r :: rs2) -> len (rs1 ++ r :: rs2) < M32 -> e_row r <> [] ->
  d_batch (be 4 (len (rs1 ++ r :: rs2)) ++ [1] ++ flat_map e_row rs1) = None.
Proof.
  intros rs1 r rs2 HP Hl Hne.
  set (rs := rs1 ++ r :: rs2) in *.
  set (p := be 4 (len rs) ++ [1] ++ flat_map e_row rs1).
  assert (EB : e_batch rs = p ++ (e_row r ++ flat_map e_row rs2)).
  { unfold e_batch, p, rs. rewrite flat_map_app. cbn [flat_map]. rewrite <- !app_assoc. reflexivity. }
  assert (EP : firstn (length p) (e_batch rs) = p).
  { rewrite EB, firstn_app, Nat.sub_diag, firstn_all. cbn [firstn]. apply app_nil_r. }
  rewrite <- EP. apply rows_prefix_rejected; try assumption.
  rewrite EB, !app_length. destruct (e_row r); [congruence|]. cbn [length]. lia.
Qed.

Example C07_ex_rows :
  let r1 : rrow := ([99;112;117], ([], ([([104], [97])], ([([118], FNum 3 4609434218613702656); ([115], FStr [104;105])], ([], 100))))) in
  let r2 : rrow := ([109], ([1;2], ([], ([([102], FNum 1 0)], ([(7, [0; 7])], M64 - 1))))) in
  row_ok r1 = true /\ row_ok r2 = true /\ d_batch (e_batch [r1; r2]) = Some [r1; r2] /\
  d_batch (firstn (5 + length (e_row r1)) (e_batch [r1; r2])) = None.
Proof. vm_compute. repeat split. Qed.

Theorem C07_chunk_meta_roundtrip : forall m rest, chunk_meta_ok m = true ->
  d_chunk_meta (e_chunk_meta m ++ rest) = Some (m, rest).
Proof. exact chunk_meta_roundtrip. Qed.
Print Assumptions C07_chunk_meta_roundtrip.

Theorem C07_trailer_fixed_roundtrip : forall vs rest, length vs = length trailer_pattern -> Forall (fun v => 0 <= v < M64) vs ->
  d_fields trailer_pattern (e_fields trailer_pattern vs ++ rest) = Some (vs, rest).
Proof. intros. apply trailer_fixed_roundtrip; assumption. Qed.

(* pieces written one after the other never overlap and keep file order (offsets monotone) *)
Theorem C07_layout_monotone : forall pieces off, Sorted.StronglySorted (fun a b => fst a + snd a <= fst b) (lay off pieces).
Proof. exact lay_sorted. Qed.

(* file_roundtrip, composed from the segment round trip: whatever else a file holds (magic, checksums, metas, bloom
   filter, trailer = PRaw), every column segment written into it is found at the (offset, size) recorded for it and
   decodes to the null pattern of its rows and to the block that was stored *)
Theorem C07_file_roundtrip : forall pieces pre post,
  Forall2 (fun p e =>
             match p with
             | PSeg t m block rows =>
                 seg_applicable m rows = true ->
                 seg_dec t (len rows) (slice (fst e) (snd e) (pre ++ concat (map piece_bytes pieces) ++ post))
                 = Some (validity rows, seg_payload m block rows)
             | PRaw _ => True
             end)
          pieces (lay (len pre) (map piece_bytes pieces)).
Proof. exact file_roundtrip. Qed.
Print Assumptions C07_file_roundtrip.

Example C07_ex_chunk_meta :
  let m : chunk_meta := (7, (16, (33, ([(100, 200)], [([102], (1, ([1;2], [(20, 9)]))); ([116;105;109;101], (1, ([3], [(33, 16)])))])))) in
  chunk_meta_ok m = true /\ d_chunk_meta (e_chunk_meta m) = Some (m, []) /\ chunk_layout_ok m = true.
Proof. vm_compute. repeat split. Qed.

(* ---- record.Marshal / record.Unmarshal ---- *)
Theorem C07_record_marshal_roundtrip : forall r rest, record_ok r = true -> d_record (e_record r ++ rest) = Some (r, rest).
Proof. exact record_marshal_roundtrip. Qed.
Print Assumptions C07_record_marshal_roundtrip.

(* every strict prefix of a marshalled record is rejected (the real Record.Unmarshal has no error result: it faults on every
   non-empty strict prefix handed over without spare capacity, and leaves the destination untouched for the empty one);
   bytes after a complete record are left unread (C07_record_marshal_roundtrip with rest) *)
Theorem C07_record_prefix_rejected : forall r k, record_ok r = true -> (k < length (e_record r))%nat ->
  d_record (firstn k (e_record r)) = None.
Proof. intros r k H Hk. destruct good_record as [_ Q]. apply Q; [apply record_ok_P; exact H|exact Hk]. Qed.
Print Assumptions C07_record_prefix_rejected.

Example C07_ex_record :
  let r : rrecord := ([([105], 1); ([116;105;109;101], 1)],
                      [(2, (1, (0, ([5;0;0;0;0;0;0;0], ([1], [])))));
                       (2, (0, (0, ([1;0;0;0;0;0;0;0; 2;0;0;0;0;0;0;0], ([3], [0; 7])))))]) in
  record_ok r = true /\ d_record (e_record r) = Some (r, []).
Proof. vm_compute. repeat split. Qed.

(* ---- generated constants (Gen_Consts.v, rewritten from the Go constants on every run): what the model needs of them ---- *)
Example C07_generated_constants :
  NoDup [g_int_const; g_int_s8; g_int_zstd; g_int_raw] /\ NoDup [g_time_const; g_time_s8; g_time_snappy; g_time_raw] /\
  NoDup [g_f_none; g_f_snappy; g_f_gorilla; g_f_same; g_f_rle; g_f_mlf] /\ NoDup [g_str_raw; g_str_snappy; g_str_zstd; g_str_lz4] /\
  forallb (fun t => (0 <=? t) && (t <? 16)) [g_int_const; g_int_s8; g_int_zstd; g_int_raw; g_time_const; g_time_s8; g_time_snappy; g_time_raw;
                                             g_f_none; g_f_snappy; g_f_gorilla; g_f_same; g_f_rle; g_f_mlf; g_str_raw; g_str_snappy; g_str_zstd; g_str_lz4;
                                             g_bool_bitpack] = true /\
  g_s8_max = M60 - 1 /\ length g_s8_table = 16%nat /\ g_wal_head = 1 + 4 /\ g_rle_block_limit < 32768 /\
  g_wal_unknown < g_wal_line < g_wal_end /\ g_wal_unknown < g_wal_arrow < g_wal_end /\ g_str_v2 < M32.
Proof.
  repeat split; try (vm_compute; congruence); try reflexivity;
    repeat (constructor; [vm_compute; intuition congruence|]); constructor.
Qed.

(* ---- non-vacuity: the hypotheses are satisfiable (identity compressors) and every mode has an applicable input ---- *)
Definition idc (x : list Z) := x.
Definition idd (x : list Z) : option (list Z) := Some x.

Example C07_ex_int_modes :
  int_applicable idc IConst [5; 8; 11; 14] = true /\
  int_applicable idc (IS8 [13]) [M64 - 1; 0; 3; 1] = true /\        (* deltas +1, +3, -2 (wrapping start) *)
  int_applicable idc IZstd [0; M63; M64 - 1; 7] = true /\           (* int64 extremes: overflowing deltas *)
  int_enc_with idc IConst [5; 8; 11; 14] = [16; 0;0;0;0;0;0;0;10; 6; 3] /\
  int_dec idd (int_enc_with idc (IS8 [13]) [M64 - 1; 0; 3; 1]) = Some [M64 - 1; 0; 3; 1].
Proof. vm_compute. repeat split. Qed.

Example C07_ex_time_modes :
  time_applicable idc (TS8 1000 [14]) [1000; 3000; 8000] = true /\
  time_dec idd (time_enc_with idc (TS8 1000 [14]) [1000; 3000; 8000]) = Some [1000; 3000; 8000] /\
  time_applicable idc TConst [10; 5; 0; M64 - 5] = true /\          (* descending: the unsigned delta wraps *)
  time_dec idd (time_enc_with idc TConst [10; 5; 0; M64 - 5]) = Some [10; 5; 0; M64 - 5].
Proof. vm_compute. repeat split. Qed.

Example C07_ex_float_modes :
  let nz := M63 in
  float_applicable (fun _ => None) FSame [nz; nz; nz; nz; nz] = true /\
  float_dec idd (fun _ => None) (fun _ => None) (float_enc_with idc (fun _ => None) idc zero_repaired FSame [nz; nz; nz; nz; nz])
    = Some [nz; nz; nz; nz; nz] /\
  float_applicable (fun _ => None) (FRLE [2; 3]) [0; 0; nz; nz; nz] = true /\
  float_applicable (fun _ => None) FGorilla [1; 2] = false.
Proof. vm_compute. repeat split. Qed.

Example C07_ex_frame :
  frame_applicable idc 1 [7; 8; 9] = true /\ frame_enc idc 1 [7; 8; 9] = [1; 0; 0; 0; 3; 7; 8; 9] /\
  frame_dec idd (firstn 7 (frame_enc idc 1 [7; 8; 9])) = None.
Proof. vm_compute. repeat split. Qed.

(* ---- stored statistics blocks (pre-aggregation) ----
   The reader tells the layouts apart by the length of the block alone. Whatever layout a writer uses for a statistics
   value - one-row, fixed, variable-length with any valid scale indices and flag byte, or the padded variable-length form -
   if the layout is `applicable` (variable-length only when its length is neither the one-row length nor >= the fixed
   size) the reader returns exactly the statistics, for every statistics value and every chunk-meta-compress-mode. *)
Theorem C07_preagg_int_roundtrip : forall l s, stat_ok s = true -> pai_applicable l s = true ->
  pai_dec (pai_enc_with l s) = Some (s, pad_of l).
Proof. exact preagg_int_roundtrip. Qed.
Print Assumptions C07_preagg_int_roundtrip.

Theorem C07_preagg_float_roundtrip : forall l s, stat_ok s = true -> fl_applicable l s = true ->
  fl_dec (fl_enc_with l s) = Some (s, pad_of l).
Proof. exact preagg_float_roundtrip. Qed.
Print Assumptions C07_preagg_float_roundtrip.

(* the fixed layout is always applicable: encoding statistics never fails *)
Theorem C07_preagg_encode_total : forall s, pai_applicable LFixed s = true /\ fl_applicable LFixed s = true.
Proof. intros s. split; reflexivity. Qed.

(* the writers (one-row form for a single row; under mode "self" the variable-length form with the greedy scale,
   padded when it is one-row long, kept only when the guard `keep` accepts its length, else the fixed form) pick an
   applicable layout for EVERY statistics value in every mode, provided the guard keeps the variable-length form only
   when it is STRICTLY shorter than the fixed size - including the boundary where both have the same length *)
Theorem C07_preagg_int_writer : forall keep self s,
  (forall n, keep n = true -> n < size_int) -> (s_cnt s = 1 -> one_row_stat s = true) ->
  pai_applicable (int_layout_g keep self s) s = true.
Proof. exact preagg_int_writer_ok. Qed.
Print Assumptions C07_preagg_int_writer.

Theorem C07_preagg_float_writer : forall zero keep self s,
  (forall n, keep n = true -> n < size_float) -> (s_cnt s = 1 -> one_row_stat s = true) ->
  fl_applicable_g zero (fl_layout_g zero keep self s) s = true.
Proof. exact preagg_float_writer_ok. Qed.

Theorem C07_preagg_int_marshal_roundtrip : forall self s, stat_ok s = true -> (s_cnt s = 1 -> one_row_stat s = true) ->
  exists rest, pai_dec (int_marshal self s) = Some (s, rest).
Proof.
  intros self s H O. eexists. apply preagg_int_roundtrip; [exact H|].
  apply preagg_int_writer_ok; [|exact O]. intros n Hn. lia.
Qed.
Print Assumptions C07_preagg_int_marshal_roundtrip.

Theorem C07_preagg_float_marshal_roundtrip : forall self s, stat_ok s = true -> (s_cnt s = 1 -> one_row_stat s = true) ->
  exists rest, fl_dec (fl_marshal self s) = Some (s, rest).
Proof.
  intros self s H O. eexists. apply preagg_float_roundtrip; [exact H|].
  apply preagg_float_writer_ok; [|exact O]. intros n Hn. lia.
Qed.
Print Assumptions C07_preagg_float_marshal_roundtrip.

(* the strictness of the guard is necessary: a writer that keeps the variable-length form also when it is exactly as
   long as the fixed form (`<=`) stores, for these statistics, 48 bytes the reader takes for the fixed layout *)
Definition pa_boundary_int : stat :=
  mkStat 4611686018427387904 4611686018427387904 1600000000000000001 1600004398046511106 36028797018963968 2.
Definition pa_boundary_float : stat :=    (* min 1.5, max 2.5 seen 7 ns BEFORE the min, 200 values *)
  mkStat 4609434218613702656 4612811918334230528 1600000000000000001 1599999999999999994 4616189618054758400 200.
Theorem C07_preagg_guard_must_be_strict :
  stat_ok pa_boundary_int = true /\ len (int_vlc 0 0 pa_boundary_int) = size_int /\
  (forall rest, pai_dec (int_marshal_g (fun n => n <=? size_int) true pa_boundary_int) <> Some (pa_boundary_int, rest)) /\
  stat_ok pa_boundary_float = true /\ len (fl_vlc true 0 0 pa_boundary_float) = size_float /\
  (forall rest, fl_dec (fl_marshal_g fl_zero_repaired (fun n => n <=? size_float) true pa_boundary_float) <> Some (pa_boundary_float, rest)).
Proof.
  split; [vm_compute; reflexivity|]. split; [vm_compute; reflexivity|].
  split; [intros rest; vm_compute; intros H; inversion H|].
  split; [vm_compute; reflexivity|]. split; [vm_compute; reflexivity|].
  intros rest; vm_compute; intros H; inversion H.
Qed.
Print Assumptions C07_preagg_guard_must_be_strict.

Theorem C07_preagg_bool_roundtrip : forall s rest, bool_stat_ok s = true -> bool_pa_dec (bool_marshal s ++ rest) = Some (s, rest).
Proof.
  intros s rest H.
  assert (F : W (s_cnt s) /\ W (s_minT s) /\ W (s_maxT s) /\ 0 <= s_min s < 256 /\ 0 <= s_max s < 256 /\ s_sum s = 0).
  { unfold bool_stat_ok, word_ok, byte_ok in H. unfold W. lia. }
  destruct F as (Hc & H0 & H1 & Hmn & Hmx & Hs).
  unfold bool_pa_dec, bool_marshal.
  rewrite <- (be1 (s_min s)), <- (be1 (s_max s)) by assumption.
  match goal with |- context [len ?x <? size_bool] => assert (L : size_bool <= len x) end.
  { rewrite !len_app, !len_zint. pose proof (len_nonneg rest). unfold len at 1 2. rewrite !be_length.
    destruct sizes as (_ & _ & _ & SB & _). lia. }
  match goal with |- context [len ?x <? size_bool] => destruct (Z.ltb_spec (len x) size_bool); [lia|] end.
  unfold d_pair. rewrite <- !app_assoc.
  rewrite !rt_zint by assumption.
  rewrite !get_be_app by (change (256 ^ Z.of_nat 1) with 256; lia).
  destruct s; cbn in *. subst. reflexivity.
Qed.
Theorem C07_preagg_string_roundtrip : forall c rest, 0 <= c < M64 -> str_pa_dec (str_marshal (cnt_stat c) ++ rest) = Some (cnt_stat c, rest).
Proof.
  intros c rest H. unfold str_pa_dec, str_marshal. cbn [s_cnt cnt_stat].
  assert (L : size_string <= len (e_zint c ++ rest)).
  { rewrite len_app, len_zint. pose proof (len_nonneg rest). destruct sizes as (_ & _ & _ & _ & SS & _). lia. }
  destruct (Z.ltb_spec (len (e_zint c ++ rest)) size_string); [lia|].
  rewrite rt_zint by assumption. reflexivity.
Qed.
Theorem C07_preagg_time_roundtrip : forall c rest, 0 <= c < M32 -> time_pa_dec (time_marshal (cnt_stat c) ++ rest) = Some (cnt_stat c, rest).
Proof.
  intros c rest H. unfold time_pa_dec, time_marshal. cbn [s_cnt cnt_stat].
  assert (L : size_time <= len (be 4 c ++ rest)).
  { rewrite len_app, len_be4. pose proof (len_nonneg rest). destruct sizes as (_ & _ & _ & _ & _ & ST). lia. }
  destruct (Z.ltb_spec (len (be 4 c ++ rest)) size_time); [lia|].
  rewrite get_be4 by (assumption). reflexivity.
Qed.
Print Assumptions C07_preagg_time_roundtrip.

(* every layout has applicable statistics; the boundary statistics take the fixed layout under the writer's guard and decode *)
Example C07_ex_preagg_layouts :
  pai_applicable LOne (one_stat 7 1000) = true /\
  int_layout_g (fun n => n <? size_int) true (mkStat 1 9 1000 3000 10 2) = LVlc true 1 1 /\
  pai_applicable (LVlc true 1 1) (mkStat 1 9 1000 3000 10 2) = true /\
  int_marshal true (mkStat 1 9 1000 3000 10 2) = [2; 18; 20; 2; 1; 1; 1; 2] /\
  int_layout_g (fun n => n <? size_int) true pa_boundary_int = LFixed /\
  fl_layout_g fl_zero_repaired (fun n => n <? size_float) true pa_boundary_float = LFixed /\
  (exists k1 k2, int_layout_g (fun n => n <? size_int) true (mkStat 1 3 1600000000000000001 1600000000000000003 4 2) = LPad true k1 k2) /\
  fl_layout_g fl_zero_repaired (fun n => n <? size_float) true (mkStat 0 0 1000 2000 0 2) = LVlc false 1 1 /\
  fl_layout_g fl_zero_repaired (fun n => n <? size_float) true (mkStat M63 M63 1000 2000 0 2) = LVlc true 1 1.
Proof. vm_compute. repeat split. eexists; eexists; reflexivity. Qed.

(* ---- file-level time ranges: trailer and meta-index entries ----
   MsBuilder.WriteData folds every chunk's (min, max) time into the trailer, writeToDisk folds the chunks of one
   meta-index block into its entry. For any non-empty chunk sequence the recorded range is the hull: it contains every
   chunk's range, whatever the order in which later chunks extend it on either side, and both ends are attained. *)
Theorem C07_trailer_range_is_hull : forall chunks, chunks <> [] ->
  exists lo hi, tr_fold chunks = (len chunks, (lo, hi)) /\
  (forall c, In c chunks -> lo <= fst c /\ snd c <= hi) /\
  (exists c, In c chunks /\ fst c = lo) /\ (exists c, In c chunks /\ snd c = hi).
Proof. exact tr_fold_hull. Qed.
Print Assumptions C07_trailer_range_is_hull.

(* a file of time-sorted series, each cut into non-empty segments in any way: every query range that holds the time of
   a stored row overlaps the recorded range - file.ContainsByTime / ContainsValue (Trailer.ContainsTime) and
   tsspFileReader.MetaIndex (the same test on a meta-index entry) never deny a stored row; the range is tight *)
Theorem C07_file_range_never_denies : forall (file : list (list (list Z))),
  file <> [] ->
  Forall (fun segs => segs <> [] /\ Forall (fun s => s <> []) segs /\ Sorted.Sorted Z.le (concat segs)) file ->
  exists lo hi, tr_fold (file_chunk_ranges file) = (len file, (lo, hi)) /\
  (forall segs t q, In segs file -> In t (concat segs) -> fst q <= t <= snd q -> overlaps q lo hi = true) /\
  (exists segs, In segs file /\ hd 0 (concat segs) = lo) /\ (exists segs, In segs file /\ last (concat segs) 0 = hi).
Proof.
  intros file Hne F.
  assert (Hne' : file_chunk_ranges file <> []) by (destruct file; [contradiction|discriminate]).
  destruct (tr_fold_hull (file_chunk_ranges file) Hne') as (lo & hi & E & A & (cl & Hcl & Ecl) & (ch & Hch & Ech)).
  exists lo, hi. rewrite Forall_forall in F.
  split; [rewrite E; unfold file_chunk_ranges, len; rewrite map_length; reflexivity|]. split; [|split].
  - intros segs t q Hs Ht Hq. destruct (F segs Hs) as (N1 & N2 & S).
    assert (I : In (chunk_range (map seg_range segs)) (file_chunk_ranges file)).
    { unfold file_chunk_ranges. apply in_map_iff. exists segs. split; [reflexivity|assumption]. }
    specialize (A _ I). rewrite chunk_range_concat in A by assumption. cbn [fst snd] in A.
    pose proof (sorted_hd_last _ t S Ht). unfold overlaps. lia.
  - unfold file_chunk_ranges in Hcl. apply in_map_iff in Hcl. destruct Hcl as (segs & <- & Hs).
    destruct (F segs Hs) as (N1 & N2 & S). rewrite chunk_range_concat in Ecl by assumption. exists segs. split; assumption.
  - unfold file_chunk_ranges in Hch. apply in_map_iff in Hch. destruct Hch as (segs & <- & Hs).
    destruct (F segs Hs) as (N1 & N2 & S). rewrite chunk_range_concat in Ech by assumption. exists segs. split; assumption.
Qed.
Print Assumptions C07_file_range_never_denies.

(* three series in id order; the second extends the range to the left, the third to the right *)
Example C07_ex_file_ranges :
  let file := [[[50; 60]; [70]]; [[10; 20]]; [[55]; [90; 95]]] in
  Forall (fun segs => segs <> [] /\ Forall (fun s => s <> []) segs /\ Sorted.Sorted Z.le (concat segs)) file /\
  file_chunk_ranges file = [(50, 70); (10, 20); (55, 95)] /\ tr_fold (file_chunk_ranges file) = (3, (10, 95)).
Proof.
  cbv zeta. split; [|split; reflexivity].
  repeat constructor; try discriminate; cbn; lia.
Qed.

(* ---- the chunk meta as written under chunk-meta-compress-mode = self (MarshalChunkMeta / UnmarshalChunkMeta) ----
   whatever scale index the writer uses for the segment time ranges (it must divide every wrapped delta) and whatever
   dictionary index names each column, the reader - given the file's dictionary - returns exactly the chunk meta:
   ids, offsets, sizes, every segment range, and per column name, type, statistics block and every segment's offset and
   size (offsets are rebuilt by summing sizes: exact because the segments of a column are contiguous) *)
Theorem C07_chunk_meta_self_roundtrip : forall dict k idxs m rest, cm_self_ok dict k idxs m = true ->
  (0 <=? k) && (k <? n_scales) = true ->
  d_cm_self dict (e_cm_self k idxs m ++ rest) = Some (m, rest).
Proof. exact cm_self_roundtrip. Qed.
Print Assumptions C07_chunk_meta_self_roundtrip.

Example C07_ex_chunk_meta_self :
  let dict := [[102]; [116; 105; 109; 101]] in
  let m := (7, (16, (60, ([(1000, 5000); (6000, 9000)],
            [([102], (1, ([1; 2; 3], [(20, 10); (30, 12)]))); ([116; 105; 109; 101], (1, ([0; 0; 0; 2], [(46, 14); (60, 16)])))])))) in
  cm_self_ok dict 1 [0; 1] m = true /\ d_cm_self dict (e_cm_self 1 [0; 1] m) = Some (m, []) /\
  cm_self_ok dict 2 [0; 1] m = false.      (* 1e6 does not divide the times *)
Proof. vm_compute. repeat split. Qed.

(* ---- the VALUES of the stored statistics ----
   the repaired builders (first value initialises min and max when both still hold their start values; props/C07/fix3.patch),
   fed segment by segment, store exactly the reference: first occurrence of the strict minimum / maximum over all rows of
   the column (floats: NaN never compares), wrapping sum, count - for every column, null pattern and cut into segments *)
Theorem C07_stats_int_repaired : forall segs, int_build true segs = int_ref_stat (int_reference segs).
Proof. exact stats_int_repaired. Qed.
Print Assumptions C07_stats_int_repaired.

Theorem C07_stats_float_repaired : forall fadd segs, fl_build fadd true segs = fl_ref_stat (fl_reference fadd segs).
Proof.
  intros. unfold fl_build, fl_ref_stat, fl_reference. apply build_repaired_is_reference.
  - intros. unfold flt. rewrite Z.ltb_irrefl, !andb_false_r. reflexivity.
  - reflexivity.
  - intros v x H. unfold flt. apply negb_false_iff in H. rewrite H. reflexivity.
  - intros v x H. unfold flt. apply negb_false_iff in H. rewrite H. cbn [negb]. rewrite andb_false_r. reflexivity.
Qed.
Print Assumptions C07_stats_float_repaired.

Theorem C07_stats_int_min_is_min : forall segs m tm,
  fst (fst (fst (int_reference segs))) = Some (m, tm) ->
  (forall v t, In (Some v, t) (concat segs) -> sgn64 m <= sgn64 v) /\ In (Some m, tm) (concat segs).
Proof.
  intros segs m tm H. unfold int_reference, reference in H. rewrite (proj1 (int_reference_ext _ _ _ _ _)) in H.
  split.
  - intros v t I. apply (proj2 (ref_ext_bound _ _ _ min_ext _ _ _ _ H) v t). apply values_of_in. exact I.
  - destruct (ref_ext_in _ _ _ _ H) as [E|I]; [discriminate|]. apply values_of_in. exact I.
Qed.

Example C07_ex_stats :
  int_build true [[(Some 5, 10); (None, 20)]; [(Some (M64 - 3), 30); (Some 5, 40)]] = mkStat (M64 - 3) 5 30 10 7 3 /\
  int_build true [[(Some max_i64, 10)]] = mkStat max_i64 max_i64 10 10 max_i64 1.
Proof. vm_compute. split; reflexivity. Qed.

(* ---- the MERGE paths of the statistics builders (streaming compaction) ----
   IntegerPreAgg.merge hands the other block's min / max over as float64: `via_f64` (round to nearest even at 53 bits) is
   the identity on |v| <= 2^53 *)
Theorem C07_via_f64_exact : forall u, 0 <= u < M64 -> exact53 u = true -> via_f64 u = u.
Proof. exact via_f64_exact. Qed.
Print Assumptions C07_via_f64_exact.

(* merging statistics of row set A with statistics of row set B gives statistics of A ++ B: least value with the earliest
   time it occurs at, greatest value likewise, wrapping sum, count - provided B's min and max are integers a float64
   represents (EXPLICIT DEPENDENCY: |v| <= 2^53, true for every integer the write path stores: line-protocol integers are
   parsed through float64, property C06; beyond it the real merge rounds, which `via_f64` models and the tie checks) *)
Theorem C07_int_merge_is_stat_of_union : forall a b A B,
  Forall Wp A -> Forall Wp B -> is_stat_of a A -> is_stat_of b B ->
  exact53 (s_min b) = true -> exact53 (s_max b) = true ->
  is_stat_of (int_merge via_f64 a b) (A ++ B).
Proof.
  intros a b A B WA WB Ha Hb E1 E2. pose proof Hb as (Ib & _ & Jb & _). pose proof WB as WFB. rewrite Forall_forall in WFB.
  apply int_merge_conv_is_stat_of_union; try assumption; apply via_f64_exact; try assumption;
    [apply (WFB _ Ib)|apply (WFB _ Jb)].
Qed.
Print Assumptions C07_int_merge_is_stat_of_union.

(* what the (repaired) builder stores for a time-sorted chunk IS statistics of its rows in that sense (the first occurrence
   of an extreme is its earliest), so: two chunks of one series compacted by merging their stored statistics *)
Theorem C07_builder_stat_of_rows : forall segs,
  let l := values_of (concat segs) in
  l <> [] -> Forall Wp l -> time_sorted l -> len l < M64 -> is_stat_of (int_build true segs) l.
Proof. exact builder_stat_of_rows. Qed.

Theorem C07_compaction_merge_is_stat_of_rows : forall segsA segsB,
  let A := values_of (concat segsA) in
  let B := values_of (concat segsB) in
  A <> [] -> B <> [] -> Forall Wp A -> Forall Wp B -> time_sorted A -> time_sorted B -> len A < M64 -> len B < M64 ->
  exact53 (s_min (int_build true segsB)) = true -> exact53 (s_max (int_build true segsB)) = true ->
  is_stat_of (int_merge via_f64 (int_build true segsA) (int_build true segsB)) (A ++ B).
Proof. intros. apply C07_int_merge_is_stat_of_union; try assumption; apply builder_stat_of_rows; assumption. Qed.
Print Assumptions C07_compaction_merge_is_stat_of_rows.

(* the exact merge (the other block's min / max handed over as int64, props/C07/fix4.patch) needs no side condition *)
Theorem C07_int_merge_exact_is_stat_of_union : forall a b A B,
  Forall Wp A -> Forall Wp B -> is_stat_of a A -> is_stat_of b B ->
  is_stat_of (int_merge (fun v => v) a b) (A ++ B).
Proof. intros. apply int_merge_conv_is_stat_of_union; try assumption; reflexivity. Qed.
Print Assumptions C07_int_merge_exact_is_stat_of_union.

(* beyond 2^53 the float64 round trip really loses the value: 2^53 + 1 comes back as 2^53 *)
Example C07_ex_via_f64 :
  via_f64 (P53 + 1) = P53 /\ via_f64 (P53 + 3) = P53 + 4 /\ via_f64 (M63 - 1) = M63 /\ via_f64 M63 = M63 /\
  int_merge via_f64 (mkStat 5 5 10 10 5 1) (mkStat 3 9 20 30 12 2) = mkStat 3 9 20 30 17 3 /\
  int_merge via_f64 (mkStat 5 5 10 10 5 1) (mkStat 5 5 7 70 5 1) = mkStat 5 5 7 10 10 2.
Proof. vm_compute. repeat split. Qed.

(* ---- meta-index entries, trailer incl. extra data (dictionary), chunk-meta blocks: bytes ---- *)
Theorem C07_mindex_list_roundtrip : forall mis rest, Forall (fun m => mindex_ok m = true) mis ->
  get_n d_mindex (length mis) (flat_map e_mindex mis ++ rest) = Some (mis, rest).
Proof. exact mindex_list_roundtrip. Qed.

Theorem C07_trailer_roundtrip : forall t rest, trailer_ok t = true -> d_trailer (e_trailer t ++ rest) = Some (t, rest).
Proof. exact trailer_roundtrip. Qed.
Print Assumptions C07_trailer_roundtrip.

Theorem C07_block_items_roundtrip : forall items, items <> [] -> 0 < len (concat items) < M32 ->
  block_items (len items) (block_plain items) = Some items.
Proof. exact block_items_roundtrip. Qed.

(* the whole file, for every chunk-meta-compress-mode (snappy / lz4 as functions with their round trip as premise):
   header with the magic, any data area, blocks of chunk metas stored under the mode and located by their meta-index
   entries, any bloom filter and id-time section, a trailer whose sizes describe the areas (its dictionary names the
   columns under mode self), the footer: the reader returns exactly the trailer, the meta-index entries and every chunk meta.
   Together with C07_file_roundtrip (every segment is found at the offset / size a chunk meta records and decodes to its
   null pattern and block) this composes segment, chunk-meta, meta-index and trailer layers. *)
Theorem C07_whole_file_roundtrip : forall (bcomp : Z -> list Z -> list Z) (bdec : Z -> list Z -> option (list Z)),
  (forall mode x, bdec mode (bcomp mode x) = Some x) ->
  forall mode H D blks B I t,
  mode_ok mode = true -> trailer_ok t = true -> t_cmode t = mode ->
  t_data_off t = len H -> t_data_size t = len D ->
  t_index_size t = len (concat (map (blk_bytes bcomp mode) blks)) ->
  t_mindex_size t = 40 * len blks -> t_mindex_num t = len blks ->
  blks_placed bcomp mode (t_dict t) (len H + len D) blks ->
  len (file_body bcomp mode H D blks B I) < M63 ->
  firstn (length g_table_magic) H = g_table_magic ->
  read_file bdec (file_bytes bcomp mode H D blks B I t) = Some (t, map snd blks, map blk_cms blks).
Proof. exact whole_file_roundtrip. Qed.
Print Assumptions C07_whole_file_roundtrip.

(* the hypotheses of the whole-file theorem are satisfiable: a one-series file under each of the four modes *)
Definition ex_cm : chunk_meta :=
  (7, (16, (60, ([(1000, 5000); (6000, 9000)],
   [([102], (1, ([1; 2; 3], [(20, 10); (30, 12)]))); ([116; 105; 109; 101], (1, ([0; 0; 0; 2], [(46, 14); (60, 16)])))])))).
Definition ex_H : list Z := g_table_magic ++ be 8 2.
Definition ex_D : list Z := repeat 0 60.
Definition ex_blk (mode : Z) : blk :=
  let cs := [((1, [0; 1]), ex_cm)] in
  (cs, (7, (1000, (9000, (76, (1, len (cs_bytes (fun _ x => x) mode cs))))))).
Definition ex_trailer (mode : Z) : trailer :=
  ([16; 60; len (cs_bytes (fun _ x => x) mode (fst (ex_blk mode))); 40; 0; 0; 1; 7; 7; 1000; 9000; 1; 0; 0],
   (0, (mode, ((if mode =? g_cm_mode_self then [[102]; [116; 105; 109; 101]] else []), [109; 115; 116])))).

Ltac ex_placed :=
  cbn [blks_placed ex_blk snd fst];
  split; [vm_compute; reflexivity|]; split; [vm_compute; reflexivity|]; split; [reflexivity|]; split; [reflexivity|];
  split; [discriminate|]; split; [vm_compute; reflexivity|]; split; [vm_compute; reflexivity|];
  split; [|exact I]; constructor; [vm_compute; reflexivity|constructor].
Example C07_ex_whole_file :
  forall mode, In mode [g_cm_mode_none; g_cm_mode_snappy; g_cm_mode_lz4; g_cm_mode_self] ->
  trailer_ok (ex_trailer mode) = true /\
  blks_placed (fun _ x => x) mode (t_dict (ex_trailer mode)) (len ex_H + len ex_D) [ex_blk mode] /\
  read_file (fun _ x => Some x) (file_bytes (fun _ x => x) mode ex_H ex_D [ex_blk mode] [] [] (ex_trailer mode))
    = Some (ex_trailer mode, [snd (ex_blk mode)], [[ex_cm]]).
Proof.
  intros mode [<-|[<-|[<-|[<-|[]]]]]; (split; [vm_compute; reflexivity|]); (split; [ex_placed|vm_compute; reflexivity]).
Qed.

(* the segment layer inside the same file: every column segment written into the data area is found at the (offset, size)
   the writer's layout gives it - the values a chunk meta records for it - and decodes to its null pattern and block *)
Theorem C07_whole_file_segments : forall (bcomp : Z -> list Z -> list Z) mode H preD pieces postD blks B I t,
  let D := preD ++ concat (map piece_bytes pieces) ++ postD in
  Forall2 (fun p e =>
             match p with
             | PSeg ty m block rows =>
                 seg_applicable m rows = true ->
                 seg_dec ty (len rows) (slice (fst e) (snd e) (file_bytes bcomp mode H D blks B I t))
                 = Some (validity rows, seg_payload m block rows)
             | PRaw _ => True
             end)
          pieces (lay (len H + len preD) (map piece_bytes pieces)).
Proof.
  intros bcomp mode H preD pieces postD blks B I t D.
  set (rest := concat (map (blk_bytes bcomp mode) blks) ++ flat_map e_mindex (map snd blks) ++ B ++ I).
  assert (E : file_bytes bcomp mode H D blks B I t =
              (H ++ preD) ++ concat (map piece_bytes pieces) ++
              (postD ++ rest ++ e_trailer t ++ e_zint (len (file_body bcomp mode H D blks B I)))).
  { unfold file_bytes, file_body, D. fold rest. rewrite <- !app_assoc. reflexivity. }
  rewrite E. replace (len H + len preD) with (len (H ++ preD)) by (rewrite len_app; reflexivity).
  apply C07_file_roundtrip.
Qed.
Print Assumptions C07_whole_file_segments.
