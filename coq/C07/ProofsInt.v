(* C07 integer and timestamp blocks: round trip for every mode. *)
From Coq Require Import ZArith List Bool Lia ZifyBool ZifyNat.
From OG Require Import C07.Model C07.ProofsBase C07.ProofsS8.
Import ListNotations.
Open Scope Z_scope.

Lemma map_unzz_zz : forall l, (forall v, In v l -> 0 <= v < M64) -> map unzz (map zz l) = l.
Proof.
  intros. rewrite map_map. rewrite <- (map_id l) at 2. apply map_ext_in. intros. apply unzz_zz. auto.
Qed.

Lemma be8_all_words : forall ws, (forall w, In w ws -> 0 <= w < M64) -> be8_all (flat_map (be 8) ws) = Some ws.
Proof.
  intros. change (flat_map (be 8) ws) with (flat_map (fun v => be 8 ((fun x => x) v)) ws).
  rewrite be8_all_flat by assumption. rewrite map_id. reflexivity.
Qed.

Lemma flat_words_length : forall ws, len (flat_map (be 8) ws) = 8 * len ws.
Proof. intros. apply (flat_be8_length (fun x => x)). Qed.

Lemma len_map {A B} (f : A -> B) l : len (map f l) = len l.
Proof. unfold len. rewrite map_length. reflexivity. Qed.
Lemma len_deltas : forall vs p, len (deltas p vs) = len vs.
Proof. intros. unfold len. rewrite deltas_length. reflexivity. Qed.

Lemma nat_ltb_false : forall a b, (b <= a)%nat -> (a <? b)%nat = false.
Proof. intros. apply Nat.ltb_ge. assumption. Qed.

Lemma be_len : forall n v, len (be n v) = Z.of_nat n.
Proof. exact len_be. Qed.

Ltac len_norm := repeat (rewrite ?len_app, ?len_cons, ?flat_be8_length, ?flat_words_length, ?le_bytes_length, ?len_map, ?len_deltas).

(* every block is longer than the four bytes the decoders ask for first *)
Lemma block_long : forall t n x r, (4 <= n)%nat -> (length (t :: be n x ++ r) <? 5)%nat = false.
Proof. intros. apply Nat.ltb_ge. cbn [length]. rewrite app_length, be_length. lia. Qed.

Lemma words_ok_cons : forall v r, words_ok (v :: r) = true -> 0 <= v < M64 /\ words_ok r = true.
Proof. intros v r H. cbn in H. apply andb_true_iff in H. unfold word_ok in H. split; [lia|tauto]. Qed.

Lemma const_deltas : forall v0 rest d ds, deltas v0 rest = d :: ds -> all_eq d ds = true ->
  deltas v0 rest = repeat d (length rest) /\ 0 <= d < M64.
Proof.
  intros v0 rest d ds ED H. split.
  - rewrite <- (deltas_length rest v0), ED. apply (all_eq_repeat d (d :: ds)). cbn. rewrite Z.eqb_refl. exact H.
  - apply (deltas_range rest v0). rewrite ED. left. reflexivity.
Qed.

(* the words of a simple8b body, `first` in front, are read back as written *)
Lemma s8_body_read : forall ws n, (forall w, In w ws -> 0 <= w < M64) -> n = len ws ->
  (len (flat_map (be 8) ws) <? n * 8) = false /\
  be8_all (firstn (Z.to_nat (n * 8)) (flat_map (be 8) ws)) = Some ws.
Proof.
  intros ws n H ->. rewrite flat_words_length. split; [lia|].
  rewrite firstn_exact by (rewrite flat_words_length; lia). apply be8_all_words. exact H.
Qed.

(* the uncompressed body, the same in both blocks *)
Lemma raw_body_read : forall vs, words_ok vs = true -> 8 * len vs < M32 ->
  match get_be 4 (be 4 (8 * len vs) ++ flat_map (fun v => be 8 (zz v)) vs) with
  | Some (n, r) => if len r <? n then None else match be8_all r with Some ws => Some (map unzz ws) | None => None end
  | None => None
  end = Some vs.
Proof.
  intros vs Hw Hl. pose proof (len_nonneg vs).
  rewrite get_be4, flat_be8_length, Z.ltb_irrefl by lia.
  rewrite be8_all_flat by (intros; apply zz_range; eapply words_ok_In; [exact Hw|assumption]).
  rewrite map_unzz_zz by (intros; eapply words_ok_In; [exact Hw|assumption]). reflexivity.
Qed.

Section IntProof.
  Variable zc : list Z -> list Z.
  Variable zd : list Z -> option (list Z).
  Hypothesis zstd_roundtrip : forall x, bytes_ok x = true -> zd (zc x) = Some x.

  Theorem int_block_roundtrip : forall m vs, int_applicable zc m vs = true -> int_dec zd (int_enc_with zc m vs) = Some vs.
  Proof.
    intros m vs H. unfold int_applicable in H.
    apply andb_true_iff in H. destruct H as [H Hm]. apply andb_true_iff in H. destruct H as [Hw Hl].
    destruct vs as [|v0 rest]; [reflexivity|].
    destruct (words_ok_cons _ _ Hw) as [Hv0 Hrest].
    apply Z.ltb_lt in Hl. pose proof (len_nonneg rest) as Hnn.
    destruct m as [|sels| |]; unfold int_enc_with, int_dec; cbv zeta; cbn [app]; rewrite block_long, tag16 by lia; tagsimp.
    - (* const delta *)
      destruct (deltas v0 rest) as [|d ds] eqn:ED; [discriminate|]. destruct (const_deltas _ _ _ _ ED Hm) as [EQ Hd].
      rewrite len_cons in Hl. cbn [hd].
      rewrite get_be8, uvarint_roundtrip by (apply zz_range; assumption).
      rewrite <- (app_nil_r (put_uvarint (len rest))), uvarint_roundtrip by (unfold M32, M64 in *; lia).
      rewrite !unzz_zz by assumption. rewrite to_nat_len, <- EQ, undeltas_deltas by assumption. reflexivity.
    - (* simple8b *)
      apply andb_true_iff in Hm. destruct Hm as [Hs Hn]. apply Z.ltb_lt in Hn.
      set (ds := map zz (deltas v0 rest)) in *. set (ws := s8_encode sels ds).
      assert (Hws : forall w, In w (zz v0 :: ws) -> 0 <= w < M64)
        by (intros w [<-|I]; [apply zz_range; assumption|eapply s8_words_range; eauto]).
      assert (Lws : len ws = len sels) by (unfold len, ws; rewrite s8_encode_length; reflexivity).
      rewrite len_cons in Hl |- *.
      rewrite nat_ltb_false by (rewrite !app_length, !be_length; lia).
      pose proof (len_nonneg ws). rewrite !get_be4 by lia.
      change (be 8 (zz v0) ++ flat_map (be 8) ws) with (flat_map (be 8) (zz v0 :: ws)).
      destruct (s8_body_read (zz v0 :: ws) (len ws + 1) Hws) as [E1 E2]; [rewrite len_cons; lia|]. rewrite E1, E2.
      unfold ws. rewrite s8_roundtrip by assumption.
      unfold ds at 1. len_norm. rewrite Z.add_comm, Z.eqb_refl.
      rewrite unzz_zz by assumption. unfold ds. rewrite map_unzz_zz by (intros; eapply deltas_range; eauto).
      rewrite undeltas_deltas by assumption. reflexivity.
    - (* zstd *)
      apply Z.ltb_lt in Hm.
      destruct (comp_body_read (8 * len (v0 :: rest)) (zc (le_bytes (v0 :: rest)))) as (E1 & E2 & E3 & E4); [rewrite len_cons in *; lia|lia|].
      rewrite E1, E2, E3, E4, zstd_roundtrip by apply le_bytes_ok_all.
      apply unle_all_le_bytes. exact Hw.
    - (* uncompressed *)
      apply raw_body_read; assumption.
  Qed.

End IntProof.

Section TimeProof.
  Variable sc : list Z -> list Z.
  Variable sd : list Z -> option (list Z).
  Hypothesis snappy_roundtrip : forall x, bytes_ok x = true -> sd (sc x) = Some x.

  Lemma div_mul_scale : forall scale l, 1 <= scale -> forallb (fun d => d mod scale =? 0) l = true ->
    (forall d, In d l -> 0 <= d < M64) ->
    map (fun q => (q * scale) mod M64) (map (fun d => d / scale) l) = l.
  Proof.
    intros scale l Hs Hd Hr. rewrite map_map. rewrite <- (map_id l) at 2. apply map_ext_in. intros d I.
    rewrite forallb_forall in Hd. specialize (Hd d I). specialize (Hr d I).
    assert (E : d / scale * scale = d).
    { pose proof (Z.div_mod d scale). assert (d mod scale = 0) by lia. nia. }
    rewrite E. apply Z.mod_small. assumption.
  Qed.

  Theorem time_block_roundtrip : forall m vs, time_applicable sc m vs = true -> time_dec sd (time_enc_with sc m vs) = Some vs.
  Proof.
    intros m vs H. unfold time_applicable in H.
    apply andb_true_iff in H. destruct H as [H Hm]. apply andb_true_iff in H. destruct H as [Hw Hl].
    apply Z.ltb_lt in Hl. pose proof (len_nonneg vs) as Hnn.
    destruct m as [|scale sels| |]; unfold time_enc_with, time_dec.
    - (* const delta *)
      destruct vs as [|v0 rest]; [discriminate|]. destruct (words_ok_cons _ _ Hw) as [Hv0 Hrest].
      destruct (deltas v0 rest) as [|d ds] eqn:ED; [discriminate|]. destruct (const_deltas _ _ _ _ ED Hm) as [EQ Hd].
      rewrite len_cons in Hl. pose proof (len_nonneg rest). cbn [hd app]. rewrite block_long, tag16 by lia. tagsimp.
      rewrite get_be8, uvarint_roundtrip by assumption.
      rewrite <- (app_nil_r (put_uvarint (len rest))), uvarint_roundtrip by (unfold M32, M64 in *; lia).
      rewrite to_nat_len, <- EQ, undeltas_deltas by assumption. reflexivity.
    - (* scaled simple8b *)
      destruct vs as [|v0 rest]; [discriminate|]. destruct (words_ok_cons _ _ Hw) as [Hv0 Hrest].
      repeat (apply andb_true_iff in Hm; destruct Hm as [Hm ?]).
      rewrite len_cons in Hl. pose proof (len_nonneg rest).
      assert (F : (1 <= scale /\ 0 <= scale < M64) /\ 0 <= len sels + 1 < M32 /\ 0 <= 1 + len rest < M32) by (pose proof (len_nonneg sels); lia).
      destruct F as ((Hsc & Hsc0) & F1 & F2).
      set (ds := map (fun d => d / scale) (deltas v0 rest)) in *. set (ws := s8_encode sels ds).
      assert (Hws : forall w, In w (v0 :: ws) -> 0 <= w < M64)
        by (intros w [<-|I]; [assumption|eapply s8_words_range; eauto]).
      assert (Lws : len ws = len sels) by (unfold len, ws; rewrite s8_encode_length; reflexivity).
      cbv zeta. cbn [app]. rewrite block_long, tag16 by lia. tagsimp.
      rewrite nat_ltb_false by (rewrite !app_length, !be_length; lia).
      rewrite len_cons, Lws. rewrite get_be8, !get_be4 by assumption.
      change (be 8 v0 ++ flat_map (be 8) ws) with (flat_map (be 8) (v0 :: ws)).
      destruct (s8_body_read (v0 :: ws) (len sels + 1) Hws) as [E1 E2]; [rewrite len_cons; lia|]. rewrite E1, E2.
      unfold ws. rewrite s8_roundtrip by assumption.
      unfold ds at 1. len_norm. rewrite Z.add_comm, Z.eqb_refl.
      unfold ds. rewrite div_mul_scale; [|assumption..|intros; eapply deltas_range; eauto].
      rewrite undeltas_deltas by assumption. reflexivity.
    - (* snappy *)
      apply Z.ltb_lt in Hm. cbv zeta. cbn [app]. rewrite block_long, tag16 by lia. tagsimp.
      destruct (comp_body_read (8 * len vs) (sc (le_bytes vs))) as (E1 & E2 & E3 & E4); [lia..|].
      rewrite E1, E2, E3, E4, snappy_roundtrip by apply le_bytes_ok_all.
      rewrite le_bytes_length, Z.eqb_refl. apply unle_all_le_bytes. exact Hw.
    - (* uncompressed *)
      cbn [app]. rewrite block_long, tag16 by lia. tagsimp. apply raw_body_read; assumption.
  Qed.

End TimeProof.
