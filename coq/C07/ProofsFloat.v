(* C07 float container: round trip for every mode; the repaired adaptive encoder is total and exact. *)
From Coq Require Import ZArith List Bool Lia ZifyBool ZifyNat.
From OG Require Import C07.Model C07.ProofsBase.
Import ListNotations.
Open Scope Z_scope.

Lemma be2_shape : forall n, 0 <= n < 65536 -> exists h l, be 2 n = [h; l] /\ h * 256 + l = n /\ 0 <= h < 256 /\ 0 <= l < 256.
Proof.
  intros n H. exists (n / 256), (n mod 256). cbn [be]. change (256 ^ Z.of_nat 1) with 256. change (256 ^ Z.of_nat 0) with 1. rewrite Z.div_1_r.
  assert (0 <= n / 256 < 256) by (split; [apply Z.div_pos; lia | apply Z.div_lt_upper_bound; lia]).
  rewrite (Z.mod_small (n / 256)) by lia. pose proof (Z.div_mod n 256). pose proof (Z.mod_pos_bound n 256). repeat split; lia.
Qed.

Lemma all_eq_cons_repeat : forall v l, all_eq v l = true -> v :: l = repeat v (S (length l)).
Proof. intros. simpl. f_equal. apply all_eq_repeat. assumption. Qed.

Lemma repeat_snoc {A} : forall (x : A) n r, repeat x n ++ x :: r = repeat x (S n) ++ r.
Proof. induction n; simpl; intros; auto. f_equal. apply IHn. Qed.

Lemma firstn_repeat_app {A} : forall (x : A) n r, firstn n (repeat x n ++ r) = repeat x n.
Proof. intros. rewrite <- (repeat_length x n) at 1. rewrite firstn_app, Nat.sub_diag, firstn_all. simpl. apply app_nil_r. Qed.
Lemma skipn_repeat_app {A} : forall (x : A) n r, skipn n (repeat x n ++ r) = r.
Proof. intros. rewrite <- (repeat_length x n) at 1. rewrite skipn_app, Nat.sub_diag, skipn_all. reflexivity. Qed.

Lemma all_eq_repeat_true : forall v n, all_eq v (repeat v n) = true.
Proof. induction n; simpl; auto. rewrite Z.eqb_refl. auto. Qed.

Lemma rle_roundtrip : forall runs vs, words_ok vs = true -> rle_applicable runs vs = true -> rle_dec (rle_enc runs vs) = vs.
Proof.
  induction runs as [|n runs IH]; intros vs Hw H.
  - simpl in H. destruct vs; [reflexivity|discriminate].
  - cbn [rle_applicable] in H.
    repeat (apply andb_true_iff in H; destruct H as [H ?]).
    rename H0 into Hrest, H1 into Heq, H2 into Hlen, H3 into Hn.
    apply Z.leb_le in H. apply Z.ltb_lt in Hn. apply Nat.leb_le in Hlen.
    assert (Hf : (32768 <=? n + 32768) = true /\ (32768 <=? n) = false /\ n + 32768 - 32768 = n /\
                 0 <= n < 65536 /\ 0 <= n + 32768 < 65536 /\ (1 <= Z.to_nat n)%nat) by lia.
    destruct Hf as (F1 & F2 & F3 & F4 & F5 & Hk). clear H Hn.
    set (k := Z.to_nat n) in *.
    assert (E : firstn k vs = repeat (hd 0 vs) k).
    { apply all_eq_repeat in Heq. rewrite firstn_length_le in Heq by exact Hlen. exact Heq. }
    assert (Hw2 : words_ok (skipn k vs) = true).
    { unfold words_ok in *. rewrite <- (firstn_skipn k vs), forallb_app in Hw. apply andb_true_iff in Hw. tauto. }
    assert (Hv : 0 <= hd 0 vs < M64).
    { destruct vs as [|v r]; [simpl in Hlen; lia|]. eapply words_ok_In; [exact Hw|left; reflexivity]. }
    cbn [rle_enc]. fold k. set (v := hd 0 vs) in *.
    destruct (Z.eqb_spec v 0) as [Ez|Enz].
    + destruct (be2_shape (n + 32768) F5) as (h & l & EB & EV & _). rewrite EB. cbn [app rle_dec].
      rewrite EV, F1, F3. fold k. rewrite IH by assumption.
      rewrite <- Ez, <- E. apply firstn_skipn.
    + destruct (be2_shape n F4) as (h & l & EB & EV & _). rewrite EB.
      destruct (le8_shape v) as (b0&b1&b2&b3&b4&b5&b6&b7&EL). rewrite EL. cbn [app rle_dec].
      rewrite EV, F2.
      rewrite <- EL. rewrite unle_le by (rewrite pow256_8; assumption). fold k.
      rewrite IH by assumption. rewrite <- E. apply firstn_skipn.
Qed.

(* maximal runs, cut at any limit a run word can hold, are applicable *)
Lemma rle_greedy_applicable : forall limit, limit < 32768 -> forall vs prev k,
  (1 <= k)%nat -> Z.of_nat k <= limit ->
  rle_applicable (rle_greedy_runs limit prev (Z.of_nat k) vs) (repeat prev k ++ vs) = true.
Proof.
  intros limit HL vs. induction vs as [|v r IH]; intros prev k Hk Hl.
  - cbn [rle_greedy_runs rle_applicable]. rewrite app_nil_r, Nat2Z.id.
    rewrite repeat_length, firstn_all2 by (rewrite repeat_length; lia).
    rewrite skipn_all2 by (rewrite repeat_length; lia).
    assert (hd 0 (repeat prev k) = prev) by (destruct k; [lia|reflexivity]). rewrite H.
    rewrite all_eq_repeat_true. lia.
  - cbn [rle_greedy_runs].
    destruct ((v =? prev) && (Z.of_nat k <? limit)) eqn:C.
    + apply andb_true_iff in C. destruct C as [C1 C2]. apply Z.eqb_eq in C1. subst v.
      rewrite repeat_snoc. replace (Z.of_nat k + 1) with (Z.of_nat (S k)) by lia. apply IH; lia.
    + cbn [rle_applicable]. rewrite Nat2Z.id.
      rewrite firstn_repeat_app, skipn_repeat_app.
      assert (hd 0 (repeat prev k ++ v :: r) = prev) by (destruct k; [lia|reflexivity]). rewrite H.
      rewrite all_eq_repeat_true. rewrite app_length, repeat_length.
      change (v :: r) with (repeat v 1 ++ r). change 1 with (Z.of_nat 1). rewrite IH by lia. simpl length. lia.
Qed.

Lemma rle_runs_applicable : forall vs, rle_applicable (rle_runs_of vs) vs = true.
Proof.
  destruct vs as [|v r]; [reflexivity|]. unfold rle_runs_of.
  change (v :: r) with (repeat v 1 ++ r). change 1 with (Z.of_nat 1). apply rle_greedy_applicable; [reflexivity|lia|discriminate].
Qed.

Theorem float_none_always_applicable : forall gor_c vs, words_ok vs = true -> float_applicable gor_c FNone vs = true.
Proof. intros. unfold float_applicable. rewrite H. destruct vs; reflexivity. Qed.

Section FloatProof.
  Variable gsc : list Z -> list Z.
  Variable gsd : list Z -> option (list Z).
  Variable gor_c : list Z -> option (list Z).
  Variable gor_d : list Z -> option (list Z).
  Variable mlf_c : list Z -> list Z.
  Variable mlf_d : list Z -> option (list Z).
  Hypothesis snappy_roundtrip : forall x, bytes_ok x = true -> gsd (gsc x) = Some x.
  Hypothesis gorilla_roundtrip : forall vs g, words_ok vs = true -> gor_c vs = Some g -> gor_d g = Some vs.
  Hypothesis mlf_roundtrip : forall vs, words_ok vs = true -> mlf_d (mlf_c vs) = Some vs.

  Notation enc := (float_enc_with gsc gor_c mlf_c zero_repaired).
  Notation dec := (float_dec gsd gor_d mlf_d).

  Theorem float_container_roundtrip : forall m vs, float_applicable gor_c m vs = true -> dec (enc m vs) = Some vs.
  Proof.
    intros m vs H. unfold float_applicable in H. apply andb_true_iff in H. destruct H as [Hw Hm].
    destruct vs as [|v0 rest]; [reflexivity|].
    assert (Hv0 : 0 <= v0 < M64) by (eapply words_ok_In; [exact Hw|left; reflexivity]).
    destruct m as [| |runs| | |]; unfold float_enc_with, float_dec; cbn [app]; rewrite tag16; tagsimp.
    - (* none *) apply unle_all_le_bytes. exact Hw.
    - (* same value *)
      apply andb_true_iff in Hm. destruct Hm as [He Hl].
      pose proof (len_nonneg (v0 :: rest)).
      destruct (be2_shape (len (v0 :: rest))) as (h & l & EB & EV & _); [lia|]. rewrite EB. cbn [app].
      rewrite (all_eq_cons_repeat v0 rest He).
      assert (EN : Z.to_nat (h * 256 + l) = S (length rest)) by (rewrite EV; unfold len; simpl length; lia).
      unfold zero_repaired. destruct (Z.eqb_spec v0 0) as [Ez|Enz].
      + rewrite EN, Ez. reflexivity.
      + destruct (le8_shape v0) as (b0&b1&b2&b3&b4&b5&b6&b7&EL). rewrite EL. cbn [app].
        rewrite <- EL. rewrite unle_le by (rewrite pow256_8; assumption). rewrite EN. reflexivity.
    - (* RLE *) rewrite rle_roundtrip by assumption. reflexivity.
    - (* snappy *) rewrite snappy_roundtrip by apply le_bytes_ok_all. apply unle_all_le_bytes. exact Hw.
    - (* gorilla *) destruct (gor_c (v0 :: rest)) as [g|] eqn:EG; [|discriminate]. eapply gorilla_roundtrip; eauto.
    - (* MLF *) apply mlf_roundtrip. exact Hw.
  Qed.

  Lemma distinct_ge_1 : forall vs prev, 1 <= distinct_count Z.eqb prev vs.
  Proof. induction vs; simpl; intros; [lia|]. specialize (IHvs a). destruct (a =? prev); lia. Qed.

  Lemma distinct_1_all_eq : forall vs prev, distinct_count Z.eqb prev vs = 1 -> all_eq prev vs = true.
  Proof.
    induction vs as [|v r IH]; simpl; intros prev H; [reflexivity|].
    pose proof (distinct_ge_1 r v). destruct (Z.eqb_spec v prev); [|lia].
    subst v. rewrite IH by lia. reflexivity.
  Qed.

  Variable prefer_snappy : list Z -> bool.
  Notation encode_repaired := (float_encode gsc gor_c mlf_c zero_repaired prefer_snappy Z.eqb true).

  (* the repaired adaptive encoder is total and exact for every column, whatever the sampling heuristic says and
     whether or not the gorilla encoder reports an error *)
  Theorem float_encode_repaired_total : forall vs, words_ok vs = true -> len vs < 65536 ->
    exists bs, encode_repaired vs = Ok bs /\ dec bs = Some vs.
  Proof.
    intros vs Hw Hl.
    assert (RT : forall m, float_applicable gor_c m vs = true -> exists bs, Ok (enc m vs) = Ok bs /\ dec bs = Some vs).
    { intros m Hm. eexists. split; [reflexivity|]. apply float_container_roundtrip. exact Hm. }
    assert (HN : float_applicable gor_c FNone vs = true) by (apply float_none_always_applicable; exact Hw).
    destruct vs as [|v0 rest]; [exists []; split; reflexivity|].
    set (vs := v0 :: rest) in *.
    unfold float_encode, vs. fold vs. cbv zeta.
    destruct (len vs <=? g_f_threshold); [apply RT; exact HN|].
    destruct (Z.eqb_spec (distinct_count Z.eqb v0 rest) 1) as [D1|D1].
    { apply RT. unfold float_applicable, vs. fold vs. rewrite Hw. rewrite distinct_1_all_eq by assumption. lia. }
    destruct (distinct_count Z.eqb v0 rest <=? g_f_rle_threshold).
    { apply RT. unfold float_applicable, vs. fold vs. rewrite Hw. apply rle_runs_applicable. }
    assert (FB : forall out, (exists bs, Ok out = Ok bs /\ dec bs = Some vs) ->
      exists bs, (if 8 * len vs * 90 / 100 <? len out then Ok (enc FNone vs) else Ok out) = Ok bs /\ dec bs = Some vs).
    { intros out Ho. destruct (8 * len vs * 90 / 100 <? len out); [apply RT; exact HN|exact Ho]. }
    destruct (prefer_snappy vs || existsb f_is_nan vs).
    { apply FB. apply RT. unfold float_applicable, vs. fold vs. rewrite Hw. reflexivity. }
    destruct (gor_c vs) as [g|] eqn:EG.
    - apply FB. eexists. split; [reflexivity|].
      assert (E : [16 * g_f_gorilla] ++ g = enc FGorilla vs) by (unfold float_enc_with, vs; fold vs; rewrite EG; reflexivity).
      rewrite E. apply float_container_roundtrip. unfold float_applicable, vs. fold vs. rewrite Hw, EG. reflexivity.
    - apply FB. apply RT. exact HN.
  Qed.
End FloatProof.
