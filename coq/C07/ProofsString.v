(* C07 string block: offsets -> lengths packing (V2) under any compressor mode. *)
From Coq Require Import ZArith List Bool Lia ZifyBool ZifyNat.
From OG Require Import C07.Gen_Consts C07.Model C07.ProofsBase.
Import ListNotations.
Open Scope Z_scope.

Lemma be4_shape : forall v, exists b0 b1 b2 b3, be 4 v = [b0; b1; b2; b3].
Proof. intros. cbn [be]. repeat eexists. Qed.

Lemma be4_all_flat {A} : forall (f : A -> Z) vs, (forall v, In v vs -> 0 <= f v < M32) ->
  be4_all (flat_map (fun v => be 4 (f v)) vs) = Some (map f vs).
Proof.
  induction vs as [|v vs IH]; intros H; [reflexivity|].
  cbn [flat_map map]. destruct (be4_shape (f v)) as (b0&b1&b2&b3&E). rewrite E.
  cbn [app be4_all]. rewrite IH by (intros; apply H; right; assumption). rewrite <- E.
  rewrite unbe_be0. reflexivity. rewrite pow256_4. apply H. left. reflexivity.
Qed.

Lemma flat_be4_length {A} : forall (f : A -> Z) vs, len (flat_map (fun v => be 4 (f v)) vs) = 4 * len vs.
Proof. intros f. apply len_flat_map. intros. apply len_be4. Qed.

Lemma flat_be4_ok {A} : forall (f : A -> Z) vs, bytes_ok (flat_map (fun v => be 4 (f v)) vs) = true.
Proof. induction vs; [reflexivity|]. cbn [flat_map]. rewrite bytes_ok_app, be_bytes_ok, IHvs. reflexivity. Qed.

Lemma concat_bytes_ok : forall ss, forallb bytes_ok ss = true -> bytes_ok (concat ss) = true.
Proof.
  induction ss; [reflexivity|]. cbn [forallb concat]. intros H. apply andb_true_iff in H. destruct H.
  rewrite bytes_ok_app, H, IHss; auto.
Qed.

Lemma split_by_concat : forall (init : list (list Z)) lst, split_by (map (@len Z) init) (concat init ++ lst) = init ++ [lst].
Proof.
  induction init as [|s init IH]; intros lst; [reflexivity|].
  cbn [map split_by concat app]. rewrite <- app_assoc.
  rewrite firstn_len_app, skipn_len_app by reflexivity. rewrite IH. reflexivity.
Qed.

Lemma len_concat_ge : forall (ss : list (list Z)) s, In s ss -> len s <= len (concat ss).
Proof.
  induction ss; intros s I; [contradiction|]. cbn [concat]. rewrite len_app.
  pose proof (len_nonneg a). pose proof (len_nonneg (concat ss)).
  destruct I as [I|I]; [subst; lia|]. specialize (IHss s I). lia.
Qed.

Lemma pack_strings_len : forall ss : list (list Z), len (pack_strings ss) = 12 + len (concat ss) + 4 * len ss.
Proof. intros. unfold pack_strings. rewrite !len_app, !len_be4, flat_be4_length. lia. Qed.

Lemma pack_strings_ok : forall ss, forallb bytes_ok ss = true -> bytes_ok (pack_strings ss) = true.
Proof.
  intros. unfold pack_strings. rewrite !bytes_ok_app, !be_bytes_ok, flat_be4_ok, concat_bytes_ok by assumption. reflexivity.
Qed.

Theorem unpack_pack_strings : forall ss, ss <> [] -> len (pack_strings ss) < M32 - 3 ->
  unpack_strings (pack_strings ss) = Some ss.
Proof.
  intros ss Hne Hl. rewrite pack_strings_len in Hl.
  pose proof (len_nonneg (concat ss)) as Hd. pose proof (len_nonneg ss) as Hs.
  assert (Hs1 : 1 <= len ss) by (destruct ss; [congruence|rewrite len_cons; pose proof (len_nonneg ss); lia]).
  destruct (exists_last Hne) as (init & lst & ES).
  assert (ED : concat ss = concat init ++ lst) by (rewrite ES, concat_app; simpl; rewrite app_nil_r; reflexivity).
  assert (LI : len ss = len init + 1) by (rewrite ES, len_app; reflexivity).
  unfold pack_strings, unpack_strings.
  rewrite get_be4 by (unfold str_version_v2, g_str_v2, M32; lia).
  rewrite Z.eqb_refl.
  rewrite get_be4 by (lia).
  rewrite !len_app, len_be4.
  set (LB := flat_map (fun s => be 4 (len s)) ss).
  assert (LLB : len LB = 4 * len ss) by apply flat_be4_length.
  destruct (Z.ltb_spec (len (concat ss) + (4 + len LB)) (len (concat ss) + 4)); [lia|].
  rewrite firstn_len_app, skipn_len_app by reflexivity.
  rewrite get_be4 by (lia).
  replace ((len ss <? 1) || (len LB <? 4 * len ss)) with false by lia.
  assert (ELB : LB = flat_map (fun s => be 4 (len s)) init ++ be 4 (len lst)).
  { unfold LB. rewrite ES. rewrite flat_map_app. cbn [flat_map]. rewrite app_nil_r. reflexivity. }
  rewrite ELB. rewrite firstn_len_app by (rewrite flat_be4_length; lia).
  rewrite be4_all_flat.
  - rewrite ED, split_by_concat. rewrite <- ES. reflexivity.
  - intros s I. pose proof (len_nonneg s). split; [lia|].
    assert (Iss : In s ss) by (rewrite ES; apply in_or_app; left; exact I).
    pose proof (len_concat_ge ss s Iss). lia.
Qed.

Lemma diffs_starts : forall init lst o, diffs_from o (starts (o + len (hd lst init)) (tl (init ++ [lst]))) = map (@len Z) init.
Proof.
  induction init as [|s init IH]; intros lst o; [reflexivity|].
  cbn [app tl hd map]. destruct init as [|s2 init'].
  - cbn. f_equal. lia.
  - cbn [app starts diffs_from]. f_equal; [lia|].
    specialize (IH lst (o + len s)). cbn [app tl hd] in IH. exact IH.
Qed.

Lemma starts_range : forall ss o v, 0 <= o -> In v (starts o ss) -> 0 <= v <= o + len (concat ss).
Proof.
  induction ss as [|s r IH]; intros o v Ho H; [destruct H|].
  cbn [starts concat] in *. rewrite len_app. pose proof (len_nonneg s). pose proof (len_nonneg (concat r)).
  destruct H as [<-|H]; [lia|]. specialize (IH (o + len s) v). lia.
Qed.

Lemma starts_length : forall ss o, length (starts o ss) = length ss.
Proof. induction ss; intros; [reflexivity|]. cbn. rewrite IHss. reflexivity. Qed.

Theorem unpack_pack_strings_v1 : forall ss, 8 + len (concat ss) + 4 * len ss < M32 ->
  unpack_strings_v1 (pack_strings_v1 ss) = Some ss.
Proof.
  intros ss Hl. pose proof (len_nonneg (concat ss)) as Hd. pose proof (len_nonneg ss) as Hs.
  unfold pack_strings_v1, unpack_strings_v1.
  rewrite get_be4 by (lia).
  rewrite !len_app, len_be4.
  set (OB := flat_map (fun o => be 4 o) (starts 0 ss)).
  assert (LOB : len OB = 4 * len ss).
  { unfold OB. rewrite (flat_be4_length (fun o => o)). unfold len. rewrite starts_length. reflexivity. }
  destruct (Z.ltb_spec (len (concat ss) + (4 + len OB)) (len (concat ss) + 4)); [lia|].
  rewrite firstn_len_app, skipn_len_app by reflexivity.
  rewrite get_be4 by (lia).
  destruct (Z.ltb_spec (len OB) (4 * len ss)); [lia|].
  replace (4 * len ss / 4) with (len ss) by (rewrite Z.mul_comm, Z.div_mul; lia).
  rewrite (firstn_exact OB) by (symmetry; exact LOB).
  unfold OB. rewrite (be4_all_flat (fun o => o)).
  - rewrite map_id. destruct ss as [|s r]; [reflexivity|].
    destruct (@exists_last _ (s :: r)) as (init & lst & ES); [discriminate|].
    cbn [starts]. cbn [Z.to_nat skipn].
    assert (D : diffs_from 0 (starts (0 + len s) r) = map (@len Z) init).
    { pose proof (diffs_starts init lst 0) as D. rewrite <- ES in D. cbn [tl] in D.
      replace (hd lst init) with s in D; [exact D|]. destruct init; cbn in ES; inversion ES; reflexivity. }
    rewrite D. rewrite ES, concat_app. cbn [concat]. rewrite app_nil_r. f_equal. apply split_by_concat.
  - intros v I. pose proof (starts_range ss 0 v ltac:(lia) I). lia.
Qed.

Lemma pack_strings_v1_len : forall ss : list (list Z), len (pack_strings_v1 ss) = 8 + len (concat ss) + 4 * len ss.
Proof.
  intros. unfold pack_strings_v1. rewrite !len_app, !len_be4, (flat_be4_length (fun o => o)).
  replace (len (starts 0 ss)) with (len ss) by (unfold len; rewrite starts_length; reflexivity). lia.
Qed.

(* the version dispatch takes a version-1 packing (its first word is a data length below the version words) to the
   version-1 reader *)
Theorem unpack_strings_takes_v1 : forall ss, 8 + len (concat ss) + 4 * len ss < M32 - 3 ->
  unpack_strings (pack_strings_v1 ss) = Some ss.
Proof.
  intros ss H. pose proof (len_nonneg (concat ss)) as Hd. pose proof (len_nonneg ss) as Hs.
  unfold unpack_strings. unfold pack_strings_v1 at 1.
  rewrite get_be4 by (lia).
  assert (V2 : str_version_v2 = M32 - 2) by reflexivity. assert (VE : g_str_end = M32 - 3) by reflexivity.
  destruct (Z.eqb_spec (len (concat ss)) str_version_v2); [lia|].
  destruct (Z.ltb_spec (len (concat ss)) g_str_end); [|lia].
  apply unpack_pack_strings_v1. lia.
Qed.

(* tag byte and two length words: the nine bytes the decoder asks for first *)
Lemma container_long : forall t a b r, (length (t :: be 4 a ++ be 4 b ++ r) <? 9)%nat = false.
Proof. reflexivity. Qed.

Section StringProof.
  Variable cc : smode -> list Z -> list Z.
  Variable cd : smode -> list Z -> option (list Z).
  Hypothesis comp_roundtrip : forall m x, bytes_ok x = true -> cd m (cc m x) = Some x.

  Theorem string_block_roundtrip : forall m ss, ss <> [] -> string_applicable cc m ss = true ->
    string_dec cd (string_enc_with cc m ss) = Some ss.
  Proof.
    intros m ss Hne H. unfold string_applicable in H.
    apply andb_true_iff in H. destruct H as [H Hc]. apply andb_true_iff in H. destruct H as [Hok Hl].
    assert (UP : unpack_strings (pack_strings ss) = Some ss) by (apply unpack_pack_strings; [assumption|lia]).
    assert (BO : bytes_ok (pack_strings ss) = true) by (apply pack_strings_ok; assumption).
    set (src := pack_strings ss) in *. pose proof (len_nonneg src) as Hsrc.
    set (c := match m with SRaw => src | _ => cc m src end).
    assert (Enc : string_enc_with cc m ss = [16 * smode_tag m] ++ be 4 (len src) ++ be 4 (len c) ++ c)
      by (destruct ss; [congruence|destruct m; reflexivity]).
    assert (Lc : len c < M32) by (destruct m; unfold c; lia).
    rewrite Enc. clear Enc. cbn [app]. unfold string_dec.
    destruct (comp_body_read (len src) c) as (E1 & E2 & E3 & E4); [lia..|].
    rewrite container_long, E1, E2, E3, E4, tag16.
    destruct m; unfold smode_tag, c; tagsimp; try (rewrite comp_roundtrip by assumption; rewrite Z.eqb_refl); exact UP.
  Qed.

End StringProof.
