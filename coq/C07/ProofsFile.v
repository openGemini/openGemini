(* C07 data file framing: chunk meta and trailer round trips, segment layout, file round trip composed from the
   segment round trip. *)
From Coq Require Import ZArith List Bool Lia ZifyBool ZifyNat Sorted.
From OG Require Import C07.Model C07.ModelRows C07.ModelFile C07.ProofsBase C07.ProofsRows C07.ProofsSeg.
Import ListNotations.
Open Scope Z_scope.

Lemma good_fixed {A} (e : A -> list Z) (d : dec_t A) P (n : nat) : good e d P ->
  good (e_fixed e) (d_fixed d n) (fun l => length l = n /\ Forall P l).
Proof.
  intros G. split.
  - intros l rest [L HP]. unfold e_fixed, d_fixed. subst n. apply (get_n_rt e d P G). assumption.
  - intros l k [L HP] Hk. unfold e_fixed, d_fixed in *. subst n. apply (get_n_pr e d P G); assumption.
Qed.

Lemma good_range : good e_range d_range (fun r => 0 <= fst r < M64 /\ 0 <= snd r < M64).
Proof. apply (good_pair _ _ _ _ _ _ good_zint good_zint). Qed.

Lemma good_cmseg : good e_cmseg d_cmseg (fun s => 0 <= fst s < M64 /\ 0 <= snd s < M32).
Proof. pose proof (good_pair _ _ _ _ _ _ good_zint (good_be 4)) as G. rewrite pow256_4 in G. exact G. Qed.

Lemma good_cmcol : forall n, good e_cmcol (d_cmcol n) (fun c => cmcol_ok n c = true).
Proof.
  intros n. eapply good_weaken.
  - apply (good_pair _ _ _ _ _ _ (good_bytes 2) (good_pair _ _ _ _ _ _ (good_be 1)
            (good_pair _ _ _ _ _ _ (good_bytes 2) (good_fixed _ _ _ n good_cmseg)))).
  - intros [name [ty [pre ents]]] H. unfold cmcol_ok in H. cbn [fst snd].
    repeat (apply andb_true_iff in H; destruct H as [H ?]).
    rewrite pow256_2. change (256 ^ Z.of_nat 1) with 256.
    repeat split; try lia.
    apply forallb_Forall in H0. eapply Forall_impl; [|exact H0]. cbv beta. unfold w64. intros. lia.
Qed.

Theorem chunk_meta_roundtrip : forall m rest, chunk_meta_ok m = true ->
  d_chunk_meta (e_chunk_meta m ++ rest) = Some (m, rest).
Proof.
  intros [sid [off [size [trs cols]]]] rest H. unfold chunk_meta_ok, w64 in H.
  repeat (apply andb_true_iff in H; destruct H as [H ?]).
  unfold e_chunk_meta, d_chunk_meta. rewrite <- !app_assoc.
  rewrite get_be8 by (lia).
  destruct good_zint as [RZ _]. rewrite RZ by lia.
  rewrite get_be4 by (lia).
  rewrite get_be4 by (pose proof (len_nonneg cols); lia).
  rewrite get_be4 by (pose proof (len_nonneg trs); lia).
  rewrite !to_nat_len.
  destruct (good_fixed _ _ _ (length trs) good_range) as [RT _]. rewrite RT.
  - destruct (good_fixed _ _ _ (length cols) (good_cmcol (length trs))) as [RC _]. rewrite RC; [reflexivity|].
    split; [reflexivity|]. apply forallb_Forall. assumption.
  - split; [reflexivity|]. apply forallb_Forall in H1. eapply Forall_impl; [|exact H1]. cbv beta. intros. lia.
Qed.

Theorem trailer_fixed_roundtrip : forall pat vs rest, length vs = length pat -> Forall (fun v => 0 <= v < M64) vs ->
  d_fields pat (e_fields pat vs ++ rest) = Some (vs, rest).
Proof.
  induction pat as [|zig pat IH]; intros vs rest L HF.
  - destruct vs; [reflexivity|discriminate].
  - destruct vs as [|v vs]; [discriminate|]. inversion HF; subst. cbn [e_fields d_fields]. rewrite <- app_assoc.
    destruct zig.
    + destruct good_zint as [R _]. rewrite R by assumption. rewrite IH by (simpl in L; auto; lia). reflexivity.
    + rewrite get_be8 by (assumption). rewrite IH by (simpl in L; auto; lia). reflexivity.
Qed.

Lemma slice_app : forall pre s post, slice (len pre) (len s) (pre ++ s ++ post) = s.
Proof. intros. unfold slice. rewrite skipn_len_app by reflexivity. apply firstn_len_app. reflexivity. Qed.

Lemma slice_at : forall F pre s post off size, F = pre ++ s ++ post -> off = len pre -> size = len s -> slice off size F = s.
Proof. intros. subst. apply slice_app. Qed.

Lemma lay_slices : forall pieces pre post,
  Forall2 (fun p e => slice (fst e) (snd e) (pre ++ concat pieces ++ post) = p) pieces (lay (len pre) pieces).
Proof.
  induction pieces as [|p r IH]; intros pre post; [constructor|].
  cbn [lay concat]. constructor.
  - cbn [fst snd]. rewrite <- app_assoc. apply slice_app.
  - specialize (IH (pre ++ p) post). rewrite len_app in IH. rewrite <- !app_assoc in *. exact IH.
Qed.

(* pieces never overlap and follow each other in file order *)
Lemma lay_sorted : forall pieces off, StronglySorted (fun a b => fst a + snd a <= fst b) (lay off pieces).
Proof.
  induction pieces as [|p r IH]; intros off; cbn [lay]; constructor; [apply IH|].
  assert (G : forall r o, off + len p <= o -> Forall (fun b => fst (off, len p) + snd (off, len p) <= fst b) (lay o r)).
  { clear. induction r as [|q r IH]; intros o H; cbn [lay]; constructor; cbn [fst snd] in *; [lia|].
    apply IH. pose proof (len_nonneg q). lia. }
  apply G. lia.
Qed.

(* whatever else a file holds, every column segment written into it is found again at the (offset,
   size) the writer recorded for it and decodes to the null pattern of its rows and the block that was stored *)
Theorem file_roundtrip : forall pieces pre post,
  Forall2 (fun p e =>
             match p with
             | PSeg t m block rows =>
                 seg_applicable m rows = true ->
                 seg_dec t (len rows) (slice (fst e) (snd e) (pre ++ concat (map piece_bytes pieces) ++ post))
                 = Some (validity rows, seg_payload m block rows)
             | PRaw _ => True
             end)
          pieces (lay (len pre) (map piece_bytes pieces)).
Proof.
  intros pieces pre post.
  pose proof (lay_slices (map piece_bytes pieces) pre post) as H.
  remember (pre ++ concat (map piece_bytes pieces) ++ post) as file. clear Heqfile.
  remember (lay (len pre) (map piece_bytes pieces)) as ents. clear Heqents.
  revert ents H. induction pieces as [|p r IH]; intros ents H; cbn [map] in H;
    inversion H as [|x e l ents' Hhead Htail]; subst; constructor.
  - destruct p as [t m block rows|bs]; [|exact I]. intros Ha. cbn [piece_bytes] in *.
    rewrite Hhead. apply seg_roundtrip. exact Ha.
  - apply IH. assumption.
Qed.

Lemma tr_fold_from : forall chunks n lo hi, 0 < n ->
  exists n' lo' hi', fold_left tr_step chunks (n, (lo, hi)) = (n', (lo', hi')) /\
  n' = n + len chunks /\ lo' <= lo /\ hi <= hi' /\
  (forall c, In c chunks -> lo' <= fst c /\ snd c <= hi') /\
  (lo' = lo \/ exists c, In c chunks /\ fst c = lo') /\ (hi' = hi \/ exists c, In c chunks /\ snd c = hi').
Proof.
  induction chunks as [|c r IH]; intros n lo hi Hn.
  - exists n, lo, hi. cbn. repeat split; try lia; try (left; reflexivity); intros c [].
  - cbn [fold_left]. unfold tr_step at 2. destruct (Z.eqb_spec n 0); [lia|].
    set (lo1 := if lo >? fst c then fst c else lo). set (hi1 := if hi <? snd c then snd c else hi).
    destruct (IH (n + 1) lo1 hi1) as (n' & lo' & hi' & EF & E & L & H & A & ML & MH); [lia|].
    exists n', lo', hi'. split; [exact EF|].
    assert (L1 : lo1 <= lo /\ lo1 <= fst c) by (unfold lo1; destruct (Z.gtb_spec lo (fst c)); lia).
    assert (H1 : hi <= hi1 /\ snd c <= hi1) by (unfold hi1; destruct (Z.ltb_spec hi (snd c)); lia).
    rewrite len_cons. split; [lia|]. split; [lia|]. split; [lia|]. split; [|split].
    + intros d [<-|Hd]; [lia|apply A; assumption].
    + destruct ML as [ML|(d & Hd & Ed)].
      * unfold lo1 in ML. destruct (Z.gtb_spec lo (fst c)).
        -- right. exists c. split; [left; reflexivity|lia].
        -- left. lia.
      * right. exists d. split; [right; assumption|assumption].
    + destruct MH as [MH|(d & Hd & Ed)].
      * unfold hi1 in MH. destruct (Z.ltb_spec hi (snd c)).
        -- right. exists c. split; [left; reflexivity|lia].
        -- left. lia.
      * right. exists d. split; [right; assumption|assumption].
Qed.

(* the range recorded for a non-empty sequence of chunks is the hull of the chunk ranges: it contains every chunk range
   and both ends are attained *)
Theorem tr_fold_hull : forall chunks, chunks <> [] ->
  exists lo hi, tr_fold chunks = (len chunks, (lo, hi)) /\
  (forall c, In c chunks -> lo <= fst c /\ snd c <= hi) /\
  (exists c, In c chunks /\ fst c = lo) /\ (exists c, In c chunks /\ snd c = hi).
Proof.
  intros [|c r] Hne; [contradiction|]. unfold tr_fold. cbn [fold_left]. unfold tr_step at 2. cbn [Z.eqb fst snd].
  replace (if fst c >? fst c then fst c else fst c) with (fst c) by (destruct (fst c >? fst c); reflexivity).
  replace (if snd c <? snd c then snd c else snd c) with (snd c) by (destruct (snd c <? snd c); reflexivity).
  destruct (tr_fold_from r (0 + 1) (fst c) (snd c)) as (n & lo & hi & EF & E & L & H & A & ML & MH); [lia|].
  exists lo, hi. rewrite EF, len_cons. split; [f_equal; lia|]. split; [|split].
  - intros d [<-|Hd]; [lia|apply A; assumption].
  - destruct ML as [->|(d & Hd & Ed)]; [exists c; split; [left; reflexivity|reflexivity]|exists d; split; [right; assumption|assumption]].
  - destruct MH as [->|(d & Hd & Ed)]; [exists c; split; [left; reflexivity|reflexivity]|exists d; split; [right; assumption|assumption]].
Qed.

Lemma last_in : forall (l : list Z) b, In (last (b :: l) 0) (b :: l).
Proof.
  induction l as [|x l IH]; intros b; [left; reflexivity|].
  change (last (b :: x :: l) 0) with (last (x :: l) 0). right. apply IH.
Qed.

Lemma sorted_hd_last : forall ts t, Sorted Z.le ts -> In t ts -> hd 0 ts <= t <= last ts 0.
Proof.
  intros ts t S. apply Sorted_StronglySorted in S; [|intros x y z; lia].
  induction S as [|a l S IH F]; intros Hin; [destruct Hin|].
  rewrite Forall_forall in F.
  destruct l as [|b l'].
  - destruct Hin as [<-|[]]. cbn. lia.
  - change (last (a :: b :: l') 0) with (last (b :: l') 0). cbn [hd].
    pose proof (F _ (last_in l' b)) as HL. pose proof (F b (or_introl eq_refl)) as HB.
    destruct Hin as [<-|Hin]; [lia|]. specialize (IH Hin). cbn [hd] in IH. lia.
Qed.

Lemma hd_concat : forall (segs : list (list Z)), Forall (fun s => s <> []) segs -> hd 0 (concat segs) = hd 0 (hd [] segs).
Proof. intros [|s r] F; [reflexivity|]. inversion F; subst. destruct s; [contradiction|reflexivity]. Qed.

Lemma last_app_ne : forall (a b : list Z), b <> [] -> last (a ++ b) 0 = last b 0.
Proof.
  induction a as [|x a IH]; intros b Hb; [reflexivity|].
  cbn [app]. destruct (a ++ b) eqn:E; [destruct a; [cbn in E; contradiction|discriminate]|]. rewrite <- E. cbn [last]. rewrite E. rewrite <- E. apply IH. exact Hb.
Qed.

Lemma last_concat : forall (segs : list (list Z)), segs <> [] -> Forall (fun s => s <> []) segs ->
  last (concat segs) 0 = last (last segs []) 0.
Proof.
  induction segs as [|s r IH]; intros Hne F; [contradiction|]. inversion F; subst.
  destruct r as [|s2 r'].
  - cbn. rewrite app_nil_r. reflexivity.
  - cbn [concat]. rewrite last_app_ne.
    + change (last (s :: s2 :: r') []) with (last (s2 :: r') []). apply IH; [discriminate|assumption].
    + inversion H2; subst. cbn [concat]. destruct s2; [contradiction|discriminate].
Qed.

(* the chunk range of a time-sorted chunk split into non-empty segments (any split) is (first row time, last row time) *)
Lemma chunk_range_concat : forall segs, segs <> [] -> Forall (fun s => s <> []) segs ->
  chunk_range (map seg_range segs) = (hd 0 (concat segs), last (concat segs) 0).
Proof.
  intros segs Hne F. unfold chunk_range. rewrite hd_concat, last_concat by assumption.
  destruct segs as [|s r]; [contradiction|]. cbn [map hd fst seg_range]. f_equal.
  clear Hne F. revert s. induction r as [|s2 r IH]; intros s; [reflexivity|].
  change (last (map seg_range (s :: s2 :: r)) (0, 0)) with (last (map seg_range (s2 :: r)) (0, 0)).
  change (last (s :: s2 :: r) []) with (last (s2 :: r) []). apply IH.
Qed.
