(* C07 rows codec: round trip and rejection of every strict prefix, built compositionally. *)
From Coq Require Import ZArith List Bool Lia ZifyBool ZifyNat.
From OG Require Import C07.Model C07.ModelRows C07.ProofsBase.
Import ListNotations.
Open Scope Z_scope.

(* a codec is good on P when (rt) decoding an encoding followed by anything returns the value and exactly the rest,
   and (pr) every strict prefix of an encoding is rejected *)
Definition good {A} (e : A -> list Z) (d : dec_t A) (P : A -> Prop) : Prop :=
  (forall a rest, P a -> d (e a ++ rest) = Some (a, rest)) /\
  (forall a k, P a -> (k < length (e a))%nat -> d (firstn k (e a)) = None).

Lemma good_pair {A B} (e1 : A -> list Z) (d1 : dec_t A) P1 (e2 : B -> list Z) (d2 : dec_t B) P2 :
  good e1 d1 P1 -> good e2 d2 P2 -> good (e_pair e1 e2) (d_pair d1 d2) (fun p => P1 (fst p) /\ P2 (snd p)).
Proof.
  intros [R1 Q1] [R2 Q2]. split.
  - intros [a b] rest [Ha Hb]. unfold e_pair, d_pair. cbn [fst snd] in *.
    rewrite <- app_assoc, R1, R2 by assumption. reflexivity.
  - intros [a b] k [Ha Hb] Hk. unfold e_pair, d_pair in *. cbn [fst snd] in *.
    rewrite app_length in Hk. rewrite firstn_app.
    destruct (Nat.lt_ge_cases k (length (e1 a))) as [L|G].
    + replace (k - length (e1 a))%nat with 0%nat by lia. cbn [firstn]. rewrite app_nil_r, Q1 by assumption. reflexivity.
    + rewrite firstn_all2 by lia. rewrite R1 by assumption. rewrite Q2 by (assumption || lia). reflexivity.
Qed.

Lemma good_be : forall n, good (be n) (get_be n) (fun v => 0 <= v < 256 ^ Z.of_nat n).
Proof.
  intros n. split.
  - intros. apply get_be_app. assumption.
  - intros v k _ Hk. rewrite be_length in Hk. apply get_be_short. rewrite firstn_length, be_length. lia.
Qed.

Lemma good_bytes : forall w, good (put_bytes w) (get_bytes w) (fun s => len s < 256 ^ Z.of_nat w).
Proof.
  intros w. split.
  - intros s rest H. unfold put_bytes, get_bytes. rewrite <- app_assoc.
    rewrite get_be_app by (pose proof (len_nonneg s); lia).
    rewrite len_app. pose proof (len_nonneg rest).
    destruct (Z.ltb_spec (len s + len rest) (len s)); [lia|].
    rewrite firstn_len_app, skipn_len_app by reflexivity. reflexivity.
  - intros s k H Hk. unfold put_bytes, get_bytes in *. rewrite app_length, be_length in Hk.
    rewrite get_be_prefix by (pose proof (len_nonneg s); lia). destruct (Nat.ltb_spec k w); [reflexivity|].
    replace (len (firstn (k - w) s) <? len s) with true; [reflexivity|]. unfold len. rewrite firstn_length. lia.
Qed.

Lemma get_n_rt {A} (e : A -> list Z) (d : dec_t A) P : good e d P ->
  forall l rest, Forall P l -> get_n d (length l) (flat_map e l ++ rest) = Some (l, rest).
Proof.
  intros [R Q]. induction l as [|a l IH]; intros rest H; [reflexivity|].
  inversion H; subst. cbn [length get_n flat_map]. rewrite <- app_assoc, R, IH by assumption. reflexivity.
Qed.

Lemma get_n_pr {A} (e : A -> list Z) (d : dec_t A) P : good e d P ->
  forall l k, Forall P l -> (k < length (flat_map e l))%nat -> get_n d (length l) (firstn k (flat_map e l)) = None.
Proof.
  intros [R Q]. induction l as [|a l IH]; intros k H Hk; [simpl in Hk; lia|].
  inversion H; subst. cbn [length get_n flat_map] in *. rewrite app_length in Hk. rewrite firstn_app.
  destruct (Nat.lt_ge_cases k (length (e a))) as [L|G].
  - replace (k - length (e a))%nat with 0%nat by lia. cbn [firstn]. rewrite app_nil_r, Q by assumption. reflexivity.
  - rewrite firstn_all2 by lia. rewrite R by assumption. rewrite IH by (assumption || lia). reflexivity.
Qed.

Lemma good_list {A} (w : nat) (e : A -> list Z) (d : dec_t A) P : good e d P ->
  good (put_list w e) (get_list w d) (fun l => len l < 256 ^ Z.of_nat w /\ Forall P l).
Proof.
  intros G. split.
  - intros l rest [Hl HP]. unfold put_list, get_list. rewrite <- app_assoc.
    rewrite get_be_app by (pose proof (len_nonneg l); lia).
    rewrite to_nat_len. apply (get_n_rt e d P G). assumption.
  - intros l k [Hl HP] Hk. unfold put_list, get_list in *. rewrite app_length, be_length in Hk.
    rewrite get_be_prefix by (pose proof (len_nonneg l); lia). destruct (Nat.ltb_spec k w); [reflexivity|].
    rewrite to_nat_len. apply (get_n_pr e d P G); [assumption|lia].
Qed.

Lemma good_weaken {A} (e : A -> list Z) (d : dec_t A) (P Q : A -> Prop) :
  good e d P -> (forall a, Q a -> P a) -> good e d Q.
Proof. intros [R S] H. split; intros; [apply R|apply S]; auto. Qed.

Definition Ptag (t : rtag) : Prop := tag_ok t = true.
Definition Pfval (v : fval) : Prop := fval_ok v = true.
Definition Pfield (f : rfield) : Prop := field_ok f = true.
Definition Popt (o : ropt) : Prop := opt_ok o = true.
Definition Prow (r : rrow) : Prop := row_ok r = true.

Lemma forallb_Forall {A} (f : A -> bool) l : forallb f l = true -> Forall (fun x => f x = true) l.
Proof. intros H. apply Forall_forall. apply forallb_forall. exact H. Qed.

Lemma good_tag : good e_tag d_tag Ptag.
Proof.
  eapply good_weaken. apply (good_pair _ _ _ _ _ _ (good_bytes 2) (good_bytes 2)).
  intros [k v] H. unfold Ptag, tag_ok in H. cbn [fst snd] in *. rewrite pow256_2. lia.
Qed.

Lemma good_fval : good e_fval d_fval Pfval.
Proof.
  destruct (good_bytes 8) as [RB QB]. destruct (good_be 8) as [RN QN]. rewrite pow256_8 in *.
  split.
  - intros [s|ty bits] rest H; unfold Pfval, fval_ok in H; unfold e_fval, d_fval; cbn [app].
    + change ((4 <=? 0) || (7 <=? 4)) with false. change (4 =? 4) with true. cbv iota.
      rewrite RB by lia. reflexivity.
    + replace ((ty <=? 0) || (7 <=? ty)) with false by lia. replace (ty =? 4) with false by lia.
      rewrite RN by lia. reflexivity.
  - intros [s|ty bits] k H Hk; unfold Pfval, fval_ok in H; unfold e_fval, d_fval in *; cbn [app length] in *;
      (destruct k as [|k]; [reflexivity|]); cbn [firstn].
    + change ((4 <=? 0) || (7 <=? 4)) with false. change (4 =? 4) with true. cbv iota.
      rewrite QB by lia. reflexivity.
    + replace ((ty <=? 0) || (7 <=? ty)) with false by lia. replace (ty =? 4) with false by lia.
      rewrite QN by lia. reflexivity.
Qed.

Lemma good_field : good e_field d_field Pfield.
Proof.
  eapply good_weaken. apply (good_pair _ _ _ _ _ _ (good_bytes 2) good_fval).
  intros [k v] H. unfold Pfield, field_ok in H. cbn [fst snd] in *. rewrite pow256_2. unfold Pfval. lia.
Qed.

Lemma good_opt : good e_opt d_opt Popt.
Proof.
  eapply good_weaken. apply (good_pair _ _ _ _ _ _ (good_be 4) (good_list 2 _ _ _ (good_be 2))).
  intros [oid l] H. unfold Popt, opt_ok in H. cbn [fst snd] in *. rewrite pow256_4, pow256_2.
  repeat (apply andb_true_iff in H; destruct H as [H ?]).
  split; [lia|]. split; [lia|]. apply forallb_Forall in H0. eapply Forall_impl; [|exact H0]. cbv beta. intros. lia.
Qed.

Definition Popts (l : list ropt) : Prop := len l < M32 /\ Forall Popt l.

Lemma good_opts : good e_opts d_opts Popts.
Proof.
  destruct (good_list 4 _ _ _ good_opt) as [RL QL]. rewrite pow256_4 in *.
  split.
  - intros l rest H. destruct l as [|o l]; [reflexivity|].
    unfold e_opts, d_opts. cbn [app]. change (121 =? 110) with false. cbv iota. apply RL. exact H.
  - intros l k H Hk. destruct l as [|o l].
    + simpl in Hk. assert (k = 0)%nat by lia. subst. reflexivity.
    + unfold e_opts, d_opts in *. cbn [app length] in *. destruct k as [|k]; [reflexivity|]. cbn [firstn].
      change (121 =? 110) with false. cbv iota. apply QL; [exact H|lia].
Qed.

Lemma good_zint : good e_zint d_zint (fun v => 0 <= v < M64).
Proof.
  destruct (good_be 8) as [R Q]. rewrite pow256_8 in *. split.
  - intros t rest H. unfold e_zint, d_zint. rewrite R by (apply zz_range; assumption).
    cbn [omap]. rewrite unzz_zz by assumption. reflexivity.
  - intros t k H Hk. unfold e_zint, d_zint in *. rewrite Q by (try apply zz_range; assumption). reflexivity.
Qed.

Lemma good_time : good e_time d_time (fun t => 0 <= t < M64).
Proof. exact good_zint. Qed.

Lemma good_row : good e_row d_row Prow.
Proof.
  eapply good_weaken.
  - apply (good_pair _ _ _ _ _ _ (good_bytes 1)
          (good_pair _ _ _ _ _ _ (good_bytes 4)
            (good_pair _ _ _ _ _ _ (good_list 4 _ _ _ good_tag)
              (good_pair _ _ _ _ _ _ (good_list 4 _ _ _ good_field)
                (good_pair _ _ _ _ _ _ good_opts good_time))))).
  - intros [name [sk [tags [fields [opts t]]]]] H. unfold Prow, row_ok in H. cbn [fst snd].
    repeat (apply andb_true_iff in H; destruct H as [H ?]).
    rewrite pow256_4. change (256 ^ Z.of_nat 1) with 256.
    repeat split; try (apply Z.ltb_lt; assumption); try (apply Z.leb_le; assumption); apply forallb_Forall; assumption.
Qed.

Theorem rows_roundtrip : forall rs trailing, Forall Prow rs -> len rs < M32 ->
  d_batch (e_batch rs ++ trailing) = Some rs.
Proof.
  intros rs trailing HP Hl. unfold e_batch, d_batch. rewrite <- app_assoc.
  rewrite get_be4 by (pose proof (len_nonneg rs); lia).
  cbn [app]. rewrite to_nat_len.
  rewrite (get_n_rt e_row d_row Prow good_row) by assumption. reflexivity.
Qed.

(* every strict prefix of a marshalled batch is rejected - in particular one that ends exactly on a row boundary *)
Theorem rows_prefix_rejected : forall rs k, Forall Prow rs -> len rs < M32 ->
  (k < length (e_batch rs))%nat -> d_batch (firstn k (e_batch rs)) = None.
Proof.
  intros rs k HP Hl Hk. unfold e_batch, d_batch in *.
  rewrite app_length, be_length in Hk. cbn [app length] in Hk.
  rewrite get_be_prefix by (rewrite pow256_4; pose proof (len_nonneg rs); lia). destruct (Nat.ltb_spec k 4); [reflexivity|].
  destruct (k - 4)%nat as [|j] eqn:E; [reflexivity|]. cbn [app firstn].
  rewrite to_nat_len.
  rewrite (get_n_pr e_row d_row Prow good_row) by (assumption || lia). reflexivity.
Qed.

(* record.Marshal / Unmarshal *)
Lemma good_le : forall n, good (le n) (get_le n) (fun v => 0 <= v < 256 ^ Z.of_nat n).
Proof.
  intros n. split.
  - intros v rest H. unfold get_le.
    assert (L : length (le n v) = n) by apply le_length.
    destruct (Nat.ltb_spec (length (le n v ++ rest)) n) as [Hlt|Hge]; [rewrite app_length in Hlt; lia|].
    rewrite <- L at 1. rewrite firstn_app, Nat.sub_diag, firstn_all. cbn [firstn]. rewrite app_nil_r.
    rewrite unle_le by assumption.
    rewrite <- L at 1. rewrite skipn_app, Nat.sub_diag, skipn_all. reflexivity.
  - intros v k _ Hk. rewrite le_length in Hk. unfold get_le.
    destruct (Nat.ltb_spec (length (firstn k (le n v))) n); [reflexivity|].
    rewrite firstn_length, le_length in *. lia.
Qed.

Lemma good_sized {A} (e : A -> list Z) (d : dec_t A) P : good e d P ->
  good (put_sized e) (get_sized d) (fun a => P a /\ len (e a) < M32).
Proof.
  intros [R Q]. destruct (good_bytes 4) as [RB QB]. rewrite pow256_4 in *. split.
  - intros a rest [Ha Hl]. unfold put_sized, get_sized. rewrite RB by assumption.
    rewrite <- (app_nil_r (e a)). rewrite R by assumption. reflexivity.
  - intros a k [Ha Hl] Hk. unfold put_sized, get_sized in *. rewrite QB by assumption. reflexivity.
Qed.

Definition Prec_field (f : rec_field) : Prop := rec_field_ok f = true.
Definition Prec_col (c : rec_col) : Prop := rec_col_ok c = true.

Lemma good_rec_field : good e_rec_field d_rec_field Prec_field.
Proof.
  eapply good_weaken. apply (good_pair _ _ _ _ _ _ (good_bytes 2) good_zint).
  intros [n t] H. unfold Prec_field, rec_field_ok in H. cbn [fst snd] in *. rewrite pow256_2. lia.
Qed.

Lemma good_rec_col : good e_rec_col d_rec_col Prec_col.
Proof.
  eapply good_weaken.
  - apply (good_pair _ _ _ _ _ _ good_zint (good_pair _ _ _ _ _ _ good_zint (good_pair _ _ _ _ _ _ good_zint
            (good_pair _ _ _ _ _ _ (good_bytes 4) (good_pair _ _ _ _ _ _ (good_bytes 4) (good_list 4 _ _ _ (good_le 4))))))).
  - intros [l [n [o [val [bm offs]]]]] H. unfold Prec_col, rec_col_ok in H. cbn [fst snd].
    repeat (apply andb_true_iff in H; destruct H as [H ?]).
    rewrite pow256_4.
    repeat split; try lia. apply forallb_Forall in H0. eapply Forall_impl; [|exact H0]. cbv beta. intros. lia.
Qed.

Definition Precord (r : rrecord) : Prop :=
  (len (fst r) < M32 /\ Forall (fun f => Prec_field f /\ len (e_rec_field f) < M32) (fst r)) /\
  (len (snd r) < M32 /\ Forall (fun c => Prec_col c /\ len (e_rec_col c) < M32) (snd r)).

Lemma good_record : good e_record d_record Precord.
Proof.
  pose proof (good_pair _ _ _ _ _ _ (good_list 4 _ _ _ (good_sized _ _ _ good_rec_field))
                                      (good_list 4 _ _ _ (good_sized _ _ _ good_rec_col))) as G.
  rewrite pow256_4 in G. exact G.
Qed.

Lemma record_ok_P : forall r, record_ok r = true -> Precord r.
Proof.
  intros [fs cs] H. unfold record_ok in H. cbn [fst snd] in H.
  apply andb_true_iff in H. destruct H as [H H0]. apply andb_true_iff in H. destruct H as [H H1].
  apply andb_true_iff in H. destruct H as [H HC]. apply andb_true_iff in H. destruct H as [HA H2].
  unfold Precord. cbn [fst snd].
  apply forallb_Forall in H2. apply forallb_Forall in H0. apply forallb_Forall in H1.
  repeat split; try lia.
  - eapply Forall_impl; [|exact H2]. cbv beta. intros [n t] Hf. split; [exact Hf|].
    unfold e_rec_field, e_pair, put_bytes, e_zint. cbn [fst snd]. rewrite !len_app. unfold len. rewrite !be_length.
    unfold Prec_field, rec_field_ok, len in Hf. cbn [fst snd] in Hf. unfold M32. lia.
  - rewrite Forall_forall in *. intros c Hc. split; [apply H1; exact Hc|]. specialize (H0 c Hc). cbv beta in H0. lia.
Qed.

Theorem record_marshal_roundtrip : forall r rest, record_ok r = true -> d_record (e_record r ++ rest) = Some (r, rest).
Proof. intros r rest H. destruct good_record as [R _]. apply R. apply record_ok_P. exact H. Qed.
