(* C07 base lemmas: fixed-width integers and their reads (whole, cut, length-prefixed compressed body), zig-zag, uvarint,
   delta coding, bits <-> byte in either bit order and the packing of a bit list into bytes. *)
From Coq Require Import ZArith List Bool Lia ZifyBool ZifyNat.
From OG Require Import C07.Model.
Import ListNotations.
Open Scope Z_scope.

(* decide the comparisons between two generated constants (mode tags) in the goal *)
Ltac tagsimp :=
  repeat match goal with
  | |- context [?a =? ?b] =>
      is_const a; is_const b;
      let r := eval cbv in (a =? b) in change (a =? b) with r
  end; cbn [negb orb andb]; cbv iota.

(* the tag nibble of a block's first byte *)
Lemma tag16 : forall t, 16 * t / 16 = t.
Proof. intros. rewrite Z.mul_comm. apply Z.div_mul. discriminate. Qed.

Lemma len_nonneg {A} (l : list A) : 0 <= len l.
Proof. unfold len. lia. Qed.
Lemma len_app {A} (a b : list A) : len (a ++ b) = len a + len b.
Proof. unfold len. rewrite app_length. lia. Qed.
Lemma len_cons {A} (x : A) (l : list A) : len (x :: l) = 1 + len l.
Proof. unfold len. simpl length. lia. Qed.

Lemma list_eqb_refl : forall l, list_eqb l l = true.
Proof. induction l; simpl; auto. rewrite Z.eqb_refl. auto. Qed.
Lemma list_eqb_eq : forall a b, list_eqb a b = true -> a = b.
Proof.
  induction a; destruct b; simpl; intros; try discriminate; auto.
  apply andb_true_iff in H. destruct H. apply Z.eqb_eq in H. f_equal; auto.
Qed.

Lemma be_length : forall n v, length (be n v) = n.
Proof. induction n; simpl; intros; auto. Qed.

Lemma be_bytes_ok : forall n v, bytes_ok (be n v) = true.
Proof.
  induction n; simpl; intros; auto. rewrite IHn. unfold byte_ok.
  pose proof (Z.mod_pos_bound (v / 256 ^ Z.of_nat n) 256). lia.
Qed.

Lemma unbe_be : forall n v acc, 0 <= v -> unbe (be n v) acc = acc * 256 ^ Z.of_nat n + v mod 256 ^ Z.of_nat n.
Proof.
  induction n; intros v acc Hv.
  - simpl. rewrite Z.mod_1_r. lia.
  - cbn [be unbe]. rewrite IHn by assumption.
    replace (Z.of_nat (S n)) with (Z.of_nat n + 1) by lia.
    rewrite Z.pow_add_r by lia. rewrite Z.pow_1_r.
    assert (Hp : 0 < 256 ^ Z.of_nat n) by (apply Z.pow_pos_nonneg; lia).
    rewrite (Z.rem_mul_r v (256 ^ Z.of_nat n) 256) by lia. ring.
Qed.

Lemma unbe_be0 : forall n v, 0 <= v < 256 ^ Z.of_nat n -> unbe (be n v) 0 = v.
Proof. intros. rewrite unbe_be by lia. rewrite Z.mod_small by lia. lia. Qed.

Lemma get_be_app : forall n v rest, 0 <= v < 256 ^ Z.of_nat n -> get_be n (be n v ++ rest) = Some (v, rest).
Proof.
  intros. unfold get_be.
  assert (L : length (be n v) = n) by apply be_length.
  destruct (Nat.ltb_spec (length (be n v ++ rest)) n) as [Hlt|Hge].
  - rewrite app_length in Hlt. lia.
  - rewrite <- L at 1. rewrite firstn_app, Nat.sub_diag, firstn_all. simpl firstn. rewrite app_nil_r.
    rewrite unbe_be0 by assumption.
    rewrite <- L at 1. rewrite skipn_app, Nat.sub_diag, skipn_all. simpl. reflexivity.
Qed.

Lemma pow256_4 : 256 ^ Z.of_nat 4 = M32. Proof. reflexivity. Qed.
Lemma pow256_8 : 256 ^ Z.of_nat 8 = M64. Proof. reflexivity. Qed.
Lemma get_be4 : forall v rest, 0 <= v < M32 -> get_be 4 (be 4 v ++ rest) = Some (v, rest).
Proof. exact (get_be_app 4). Qed.
Lemma get_be8 : forall v rest, 0 <= v < M64 -> get_be 8 (be 8 v ++ rest) = Some (v, rest).
Proof. exact (get_be_app 8). Qed.

Lemma get_be_short : forall n l, (length l < n)%nat -> get_be n l = None.
Proof. intros. unfold get_be. destruct (Nat.ltb_spec (length l) n); auto. lia. Qed.

Lemma get_be_prefix : forall n v rest k, 0 <= v < 256 ^ Z.of_nat n ->
  get_be n (firstn k (be n v ++ rest)) = if (k <? n)%nat then None else Some (v, firstn (k - n) rest).
Proof.
  intros n v rest k H. rewrite firstn_app, be_length. destruct (Nat.ltb_spec k n).
  - apply get_be_short. rewrite app_length, !firstn_length, be_length. lia.
  - rewrite firstn_all2 by (rewrite be_length; lia). apply get_be_app. exact H.
Qed.

Lemma len_be : forall n v, len (be n v) = Z.of_nat n.
Proof. intros. unfold len. rewrite be_length. reflexivity. Qed.
Lemma len_be4 : forall v, len (be 4 v) = 4.
Proof. exact (len_be 4). Qed.
Lemma len_be8 : forall v, len (be 8 v) = 8.
Proof. exact (len_be 8). Qed.
Lemma pow256_2 : 256 ^ Z.of_nat 2 = 65536. Proof. reflexivity. Qed.

Lemma le_length : forall n v, length (le n v) = n.
Proof. induction n; simpl; intros; auto. Qed.
Lemma le_bytes_ok : forall n v, bytes_ok (le n v) = true.
Proof.
  induction n; simpl; intros; auto. rewrite IHn. unfold byte_ok.
  pose proof (Z.mod_pos_bound v 256). lia.
Qed.
Lemma unle_le : forall n v, 0 <= v < 256 ^ Z.of_nat n -> unle (le n v) = v.
Proof.
  induction n; intros v Hv.
  - simpl in *. lia.
  - cbn [le unle]. replace (Z.of_nat (S n)) with (Z.of_nat n + 1) in Hv by lia.
    rewrite Z.pow_add_r, Z.pow_1_r in Hv by lia.
    rewrite IHn.
    + pose proof (Z.div_mod v 256). lia.
    + split. apply Z.div_pos; lia. apply Z.div_lt_upper_bound; lia.
Qed.

Lemma bytes_ok_app : forall a b, bytes_ok (a ++ b) = bytes_ok a && bytes_ok b.
Proof. intros. unfold bytes_ok. apply forallb_app. Qed.

Lemma le_bytes_ok_all : forall vs, bytes_ok (le_bytes vs) = true.
Proof.
  induction vs; [reflexivity|]. unfold le_bytes in *. cbn [flat_map]. rewrite bytes_ok_app, IHvs, le_bytes_ok. reflexivity.
Qed.

Lemma le8_shape : forall v, exists b0 b1 b2 b3 b4 b5 b6 b7, le 8 v = [b0; b1; b2; b3; b4; b5; b6; b7].
Proof. intros. cbn [le]. repeat eexists. Qed.

Lemma unle_all_le_bytes : forall vs, words_ok vs = true -> unle_all (le_bytes vs) = Some vs.
Proof.
  induction vs as [|v vs IH]; intros H; [reflexivity|].
  simpl in H. apply andb_true_iff in H. destruct H as [Hv Hvs].
  unfold le_bytes in *. cbn [flat_map].
  destruct (le8_shape v) as (b0&b1&b2&b3&b4&b5&b6&b7&E). rewrite E.
  cbn [app unle_all]. rewrite IH by assumption. rewrite <- E.
  rewrite unle_le. reflexivity. rewrite pow256_8. unfold word_ok in Hv. lia.
Qed.

Lemma len_flat_map {A} (e : A -> list Z) k : (forall x, len (e x) = k) -> forall l, len (flat_map e l) = k * len l.
Proof. intros H. induction l; [cbn; lia|]. cbn [flat_map]. rewrite len_app, H, IHl, len_cons. lia. Qed.

Lemma le_bytes_length : forall vs, len (le_bytes vs) = 8 * len vs.
Proof. apply len_flat_map. intros. unfold len. rewrite le_length. reflexivity. Qed.

Lemma be8_shape : forall v, exists b0 b1 b2 b3 b4 b5 b6 b7, be 8 v = [b0; b1; b2; b3; b4; b5; b6; b7].
Proof. intros. cbn [be]. repeat eexists. Qed.

Lemma be8_all_flat : forall (f : Z -> Z) vs, (forall v, In v vs -> 0 <= f v < M64) ->
  be8_all (flat_map (fun v => be 8 (f v)) vs) = Some (map f vs).
Proof.
  induction vs as [|v vs IH]; intros H; [reflexivity|].
  cbn [flat_map map]. destruct (be8_shape (f v)) as (b0&b1&b2&b3&b4&b5&b6&b7&E). rewrite E.
  cbn [app be8_all]. rewrite IH by (intros; apply H; right; assumption). rewrite <- E.
  rewrite unbe_be0. reflexivity. rewrite pow256_8. apply H. left. reflexivity.
Qed.

Lemma flat_be8_length : forall (f : Z -> Z) vs, len (flat_map (fun v => be 8 (f v)) vs) = 8 * len vs.
Proof. intros f. apply len_flat_map. intros. apply len_be8. Qed.

Lemma zz_range : forall u, 0 <= u < M64 -> 0 <= zz u < M64.
Proof. intros u H. unfold zz, M64, M63 in *. destruct (Z.ltb_spec u 9223372036854775808); lia. Qed.

Lemma unzz_zz : forall u, 0 <= u < M64 -> unzz (zz u) = u.
Proof.
  intros u H. unfold zz, unzz, M64, M63 in *.
  destruct (Z.ltb_spec u 9223372036854775808).
  - assert (E : Z.even (2 * u) = true) by (rewrite Z.even_mul; reflexivity). rewrite E.
    rewrite (Z.mul_comm 2 u), Z.div_mul by lia. reflexivity.
  - set (k := 18446744073709551616 - u) in *.
    assert (E : Z.even (2 * k - 1) = false).
    { replace (2 * k - 1) with (1 + 2 * (k - 1)) by lia. rewrite Z.even_add_mul_2. reflexivity. }
    rewrite E. replace (2 * k - 1 + 1) with (k * 2) by lia. rewrite Z.div_mul by lia.
    unfold k. replace (18446744073709551616 - (18446744073709551616 - u)) with u by lia.
    apply Z.mod_small. lia.
Qed.

Lemma zz_unzz : forall w, 0 <= w < M64 -> zz (unzz w) = w /\ 0 <= unzz w < M64.
Proof.
  intros w H. unfold zz, unzz, M64, M63 in *.
  destruct (Z.even w) eqn:E.
  - apply Z.even_spec in E. destruct E as [k E]. subst w. rewrite Z.mul_comm, Z.div_mul by lia.
    destruct (Z.ltb_spec k 9223372036854775808); lia.
  - assert (O : Z.odd w = true) by (rewrite <- Z.negb_even, E; reflexivity).
    apply Z.odd_spec in O. destruct O as [k O]. subst w.
    replace (2 * k + 1 + 1) with ((k + 1) * 2) by lia. rewrite Z.div_mul by lia.
    rewrite Z.mod_small by lia.
    destruct (Z.ltb_spec (18446744073709551616 - (k + 1)) 9223372036854775808); lia.
Qed.

Lemma uvarint_f_roundtrip : forall f i v mul acc rest,
  (i + f = 9)%nat -> 0 <= v < 2 * 128 ^ Z.of_nat f ->
  get_uvarint_f (put_uvarint_f f v ++ rest) i mul acc = Some (acc + v * mul, rest).
Proof.
  induction f; intros i v mul acc rest Hi Hv.
  - assert (i = 9%nat) by lia. subst i. simpl in Hv. cbn [put_uvarint_f app get_uvarint_f].
    replace (10 <=? 9)%nat with false by reflexivity.
    destruct (Z.ltb_spec v 128); [|lia].
    replace ((9 =? 9)%nat) with true by reflexivity. destruct (Z.ltb_spec 1 v); [lia|]. reflexivity.
  - cbn [put_uvarint_f]. destruct (Z.ltb_spec v 128).
    + cbn [app get_uvarint_f]. destruct (Nat.leb_spec 10 i); [lia|].
      destruct (Z.ltb_spec v 128); [|lia]. destruct (Nat.eqb_spec i 9); [lia|]. reflexivity.
    + cbn [app get_uvarint_f]. destruct (Nat.leb_spec 10 i); [lia|].
      pose proof (Z.mod_pos_bound v 128).
      destruct (Z.ltb_spec (v mod 128 + 128) 128); [lia|].
      rewrite IHf.
      * f_equal. f_equal. pose proof (Z.div_mod v 128). nia.
      * lia.
      * replace (Z.of_nat (S f)) with (Z.of_nat f + 1) in Hv by lia.
        rewrite Z.pow_add_r, Z.pow_1_r in Hv by lia.
        split. apply Z.div_pos; lia. apply Z.div_lt_upper_bound; lia.
Qed.

Lemma uvarint_roundtrip : forall v rest, 0 <= v < M64 -> get_uvarint (put_uvarint v ++ rest) = Some (v, rest).
Proof.
  intros. unfold get_uvarint, put_uvarint. rewrite uvarint_f_roundtrip.
  - f_equal. f_equal. lia.
  - reflexivity.
  - unfold M64 in H. change (2 * 128 ^ Z.of_nat 9) with 18446744073709551616. lia.
Qed.

Lemma put_uvarint_f_bytes_ok : forall f v, 0 <= v < 2 * 128 ^ Z.of_nat f -> bytes_ok (put_uvarint_f f v) = true.
Proof.
  induction f; intros v Hv.
  - simpl in *. unfold byte_ok. lia.
  - cbn [put_uvarint_f]. destruct (Z.ltb_spec v 128).
    + simpl. unfold byte_ok. lia.
    + cbn [bytes_ok forallb]. fold (bytes_ok (put_uvarint_f f (v / 128))). rewrite IHf.
      * pose proof (Z.mod_pos_bound v 128). unfold byte_ok. lia.
      * replace (Z.of_nat (S f)) with (Z.of_nat f + 1) in Hv by lia.
        rewrite Z.pow_add_r, Z.pow_1_r in Hv by lia.
        split. apply Z.div_pos; lia. apply Z.div_lt_upper_bound; lia.
Qed.

Lemma undeltas_deltas : forall vs prev, words_ok vs = true -> undeltas prev (deltas prev vs) = vs.
Proof.
  induction vs as [|v vs IH]; intros prev H; [reflexivity|].
  simpl in H. apply andb_true_iff in H. destruct H as [Hv Hvs].
  cbn [deltas undeltas]. unfold word_ok in Hv.
  assert (E : (prev + (v - prev) mod M64) mod M64 = v).
  { rewrite Zplus_mod_idemp_r. replace (prev + (v - prev)) with v by lia. apply Z.mod_small. lia. }
  rewrite E. f_equal. apply IH. assumption.
Qed.

Lemma deltas_range : forall vs prev d, In d (deltas prev vs) -> 0 <= d < M64.
Proof.
  induction vs; simpl; intros prev d H; [contradiction|]. destruct H as [H|H].
  - subst d. apply Z.mod_pos_bound. reflexivity.
  - eapply IHvs; eauto.
Qed.

Lemma deltas_length : forall vs prev, length (deltas prev vs) = length vs.
Proof. induction vs; simpl; intros; auto. Qed.

Lemma all_eq_repeat : forall d l, all_eq d l = true -> l = repeat d (length l).
Proof.
  induction l; simpl; intros; auto. apply andb_true_iff in H. destruct H as [H1 H2].
  apply Z.eqb_eq in H1. subst a. f_equal. auto.
Qed.

Lemma words_ok_In : forall vs v, words_ok vs = true -> In v vs -> 0 <= v < M64.
Proof.
  intros vs v H I. unfold words_ok in H. rewrite forallb_forall in H. apply H in I. unfold word_ok in I. lia.
Qed.

Lemma to_nat_len {A} (l : list A) : Z.to_nat (len l) = length l.
Proof. apply Nat2Z.id. Qed.
Lemma firstn_exact {A} : forall (l : list A) n, n = len l -> firstn (Z.to_nat n) l = l.
Proof. intros. subst. rewrite to_nat_len. apply firstn_all. Qed.
Lemma firstn_len_app {A} : forall (a b : list A) n, n = len a -> firstn (Z.to_nat n) (a ++ b) = a.
Proof.
  intros. subst n. rewrite to_nat_len, firstn_app, Nat.sub_diag, firstn_all. simpl. apply app_nil_r.
Qed.
Lemma skipn_len_app {A} : forall (a b : list A) n, n = len a -> skipn (Z.to_nat n) (a ++ b) = b.
Proof.
  intros. subst n. rewrite to_nat_len, skipn_app, Nat.sub_diag, skipn_all. reflexivity.
Qed.

Definition nth8 (bs : list bool) : list bool :=
  [nth 0 bs false; nth 1 bs false; nth 2 bs false; nth 3 bs false; nth 4 bs false; nth 5 bs false; nth 6 bs false; nth 7 bs false].

Lemma nths_skipn : forall bs, exists pad, nth8 bs ++ skipn 8 bs = bs ++ pad.
Proof.
  intros bs. unfold nth8.
  destruct bs as [|b0 [|b1 [|b2 [|b3 [|b4 [|b5 [|b6 [|b7 r]]]]]]]]; cbn [nth skipn app]; try (eexists; reflexivity).
  exists []. rewrite app_nil_r. reflexivity.
Qed.

(* the bits of a number, least significant first, from position i on *)
Fixpoint lsb_val (l : list bool) : Z := match l with [] => 0 | b :: r => bit b + 2 * lsb_val r end.
Fixpoint bits_from (n : nat) (i v : Z) : list bool :=
  match n with O => [] | S k => Z.odd (v / 2 ^ i) :: bits_from k (i + 1) v end.

Lemma odd_bit : forall b x, Z.odd (bit b + 2 * x) = b.
Proof. intros. rewrite Z.odd_add_mul_2. destruct b; reflexivity. Qed.

Lemma bits_from_val : forall l i x, 0 <= i -> 0 <= x < 2 ^ i -> bits_from (length l) i (x + 2 ^ i * lsb_val l) = l.
Proof.
  induction l as [|b r IH]; intros i x Hi Hx; [reflexivity|].
  cbn [length bits_from lsb_val]. f_equal.
  - rewrite (Z.mul_comm (2 ^ i)), Z.div_add, Z.div_small, Z.add_0_l by lia. apply odd_bit.
  - replace (x + 2 ^ i * (bit b + 2 * lsb_val r)) with ((x + 2 ^ i * bit b) + 2 ^ (i + 1) * lsb_val r)
      by (rewrite Z.pow_add_r, Z.pow_1_r by lia; ring).
    apply IH; [lia|]. rewrite Z.pow_add_r, Z.pow_1_r by lia. destruct b; cbn [bit]; lia.
Qed.

Lemma bits8_val : forall l, length l = 8%nat -> bits_of_byte_lsb (lsb_val l) = l.
Proof.
  intros [|b tl] H; [discriminate|]. injection H as H. cbn [lsb_val].
  change (bits_of_byte_lsb ?v) with (Z.odd v :: bits_from 7 1 v). rewrite odd_bit, <- H. f_equal.
  apply (bits_from_val tl 1); [lia|destruct b; cbn; lia].
Qed.

Lemma byte_bits_lsb : forall bs, bits_of_byte_lsb (byte_of_bits_lsb bs) = nth8 bs.
Proof.
  intros. replace (byte_of_bits_lsb bs) with (lsb_val (nth8 bs)) by (unfold byte_of_bits_lsb, nth8; cbn [lsb_val]; ring).
  apply bits8_val. reflexivity.
Qed.
Lemma byte_bits : forall bs, bits_of_byte (byte_of_bits bs) = nth8 bs.
Proof.
  intros. replace (byte_of_bits bs) with (lsb_val (rev (nth8 bs))) by (unfold byte_of_bits, nth8; cbn [rev app lsb_val]; ring).
  exact (f_equal (@rev bool) (bits8_val (rev (nth8 bs)) eq_refl)).
Qed.

Section Pack.
  Variable f : list bool -> Z.
  Variable g : Z -> list bool.
  Variable pk : nat -> list bool -> list Z.
  Hypothesis pk_0 : forall bs, pk 0 bs = [].
  Hypothesis pk_S : forall k bs, pk (S k) bs = match bs with [] => [] | _ => f bs :: pk k (skipn 8 bs) end.
  Hypothesis gf : forall bs, g (f bs) = nth8 bs.

  Lemma pack_spec : forall fuel bs, (length bs <= fuel)%nat -> exists pad, flat_map g (pk fuel bs) = bs ++ pad.
  Proof.
    induction fuel; intros bs H.
    - destruct bs; [|simpl in H; lia]. exists []. rewrite pk_0. reflexivity.
    - rewrite pk_S. destruct bs as [|b r] eqn:E; [exists []; reflexivity|]. rewrite <- E in *.
      destruct (IHfuel (skipn 8 bs)) as [pad' EP]; [rewrite skipn_length, E in *; simpl in *; lia|].
      destruct (nths_skipn bs) as [pad EQ].
      exists (pad ++ pad'). cbn [flat_map]. rewrite gf, EP, !app_assoc, EQ. reflexivity.
  Qed.
End Pack.

(* a compressed body: source length, compressed length, compressed bytes *)
Lemma comp_body_read : forall a c, 0 <= a < M32 -> len c < M32 ->
  get_be 4 (be 4 a ++ be 4 (len c) ++ c) = Some (a, be 4 (len c) ++ c) /\
  get_be 4 (be 4 (len c) ++ c) = Some (len c, c) /\ (len c <? len c) = false /\ firstn (Z.to_nat (len c)) c = c.
Proof.
  intros a c Ha Hc. pose proof (len_nonneg c).
  split; [apply get_be4; exact Ha|]. split; [|split; [apply Z.ltb_irrefl|apply firstn_exact; reflexivity]].
  rewrite <- (app_nil_r c) at 2. rewrite get_be4, app_nil_r by lia. reflexivity.
Qed.
