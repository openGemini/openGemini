(* C07: round trip of the chunk meta layout written under chunk-meta-compress-mode = self. *)
From Coq Require Import ZArith List Bool Lia ZifyBool ZifyNat.
From OG Require Import C07.Gen_Consts C07.Model C07.ModelRows C07.ModelFile C07.ModelPreAgg C07.ModelCMSelf
  C07.ProofsBase C07.ProofsRows C07.ProofsPreAgg.
Import ListNotations.
Open Scope Z_scope.

Lemma scaled_deltas_rt : forall k vs prev rest, deltas_ok k prev vs = true ->
  d_scaled_n k (length vs) prev (scaled_deltas k prev vs ++ rest) = Some (vs, rest).
Proof.
  induction vs as [|v r IH]; intros prev rest H; [reflexivity|].
  cbn [deltas_ok] in H. and3 H Hk Hr. apply word_ok_W in H.
  assert (D : W (delta64 prev v)) by (apply Z.mod_pos_bound; reflexivity).
  cbn [length d_scaled_n scaled_deltas]. rewrite <- app_assoc.
  rewrite uvarint_roundtrip by (apply Z.mod_pos_bound; reflexivity).
  assert (E : (Z.quot (sgn64 (delta64 prev v)) (scale_at k) mod M64 * scale_at k + prev) mod M64 = v).
  { rewrite <- Z.add_mod_idemp_l, scaled_back by (assumption || discriminate).
    unfold delta64. rewrite Z.add_mod_idemp_l by discriminate.
    replace (v - prev + prev) with v by ring. apply Z.mod_small. exact H. }
  rewrite E, IH by exact Hr. reflexivity.
Qed.

Lemma scaled_list_rt : forall k vs rest, deltas_ok k 0 vs = true -> (0 <=? k) && (k <? n_scales) = true ->
  d_scaled_list (length vs) (e_scaled_list k vs ++ rest) = Some (vs, rest).
Proof.
  intros k vs rest H K. unfold d_scaled_list, e_scaled_list. cbn [app].
  destruct (Z.ltb_spec k 0); [lia|]. destruct (Z.leb_spec n_scales k); [lia|]. cbn [orb].
  apply scaled_deltas_rt. exact H.
Qed.

Lemma pair_up_flat : forall trs, pair_up (flat_ranges trs) = trs.
Proof. induction trs as [|[a b] r IH]; [reflexivity|]. cbn. f_equal. exact IH. Qed.
Lemma flat_ranges_length : forall trs, length (flat_ranges trs) = (2 * length trs)%nat.
Proof. induction trs as [|[a b] r IH]; [reflexivity|]. cbn [flat_ranges flat_map app length] in *. unfold flat_ranges in IH. lia. Qed.

Lemma sum_offsets_contig : forall ents o, contiguous o ents = true -> sum_offsets o (map snd ents) = ents.
Proof.
  induction ents as [|[o' s] r IH]; intros o H; [reflexivity|].
  cbn [contiguous] in H. and2 H Hr. apply Z.eqb_eq in H. subst o'.
  cbn [map snd sum_offsets]. f_equal. apply IH. exact Hr.
Qed.

Lemma sizes_rt : forall (ents : list cm_seg) rest, Forall (fun e => 0 <= snd e < M32) ents ->
  get_n (get_be 4) (length ents) (flat_map (fun e => be 4 (snd e)) ents ++ rest) = Some (map snd ents, rest).
Proof.
  induction ents as [|e r IH]; intros rest F; [reflexivity|]. inversion F; subst.
  cbn [length get_n flat_map map]. rewrite <- app_assoc.
  rewrite get_be4 by (assumption). rewrite IH by assumption. reflexivity.
Qed.

Lemma len_sizes : forall (ents : list cm_seg), len (flat_map (fun e => be 4 (snd e)) ents) = 4 * len ents.
Proof. apply len_flat_map. intros. apply len_be4. Qed.

Lemma cmcol_self_read : forall dict segs idx name ty pre ents rest,
  W idx -> nth (Z.to_nat idx) dict [] = name -> name <> [] -> 0 < len pre ->
  length ents = segs -> W (first_off ents) -> Forall (fun e => 0 <= snd e < M32) ents ->
  contiguous (first_off ents) ents = true ->
  d_cmcol_self dict segs (e_cmcol_self idx (name, (ty, (pre, ents))) ++ rest) = Some ((name, (ty, (pre, ents))), rest).
Proof.
  intros dict segs idx name ty pre ents rest Hidx Hname Hne Hpre Hlen Hoff Hents Hcontig.
  unfold d_cmcol_self, e_cmcol_self. rewrite <- !app_assoc.
  rewrite uvarint_roundtrip, Hname by exact Hidx. destruct name as [|n0 nm]; [contradiction|]. cbn [app].
  set (T := be 8 (first_off ents) ++ flat_map (fun e : Z * Z => be 4 (snd e)) ents ++ rest).
  assert (LT : 8 + 4 * Z.of_nat segs <= len T).
  { unfold T. rewrite !len_app, len_sizes. unfold len at 1. rewrite be_length. pose proof (len_nonneg rest).
    unfold len at 1. rewrite Hlen. lia. }
  rewrite !len_cons, len_app.
  destruct (Z.ltb_spec (1 + (1 + (len pre + len T))) (1 + 1 + 8 + 4 * Z.of_nat segs)); [lia|].
  destruct (Z.ltb_spec (len pre + len T) (len pre)); [lia|].
  destruct (Z.eqb_spec (len pre) 0); [lia|].
  rewrite firstn_len_app, skipn_len_app by reflexivity. unfold T.
  rewrite get_be8 by (assumption).
  rewrite <- Hlen, sizes_rt, sum_offsets_contig by assumption. reflexivity.
Qed.

Lemma cmcol_self_rt : forall dict segs idx c rest, cmcol_self_ok dict segs idx c = true ->
  d_cmcol_self dict segs (e_cmcol_self idx c ++ rest) = Some (c, rest).
Proof.
  intros dict segs idx [name [ty [pre ents]]] rest H. unfold cmcol_self_ok in H.
  and5 H Hlen Hne Hents Hcontig. and5 H Hty Hp1 Hp2 Hpb. and3 H Hname Hn0.
  apply list_eqb_eq in Hname. apply Nat.eqb_eq in Hlen. rewrite forallb_forall in Hents.
  apply cmcol_self_read; try assumption.
  - apply word_ok_W. exact H.
  - destruct name; [discriminate|discriminate].
  - lia.
  - destruct ents as [|e r]; [discriminate|]. specialize (Hents e (or_introl eq_refl)). cbv beta in Hents.
    unfold first_off, W. cbn [hd]. unfold word_ok in Hents. lia.
  - apply Forall_forall. intros e I. specialize (Hents e I). cbv beta in Hents. lia.
Qed.

Lemma cols_self_rt : forall dict segs idxs cols rest, cols_self_ok dict segs idxs cols = true ->
  get_n (d_cmcol_self dict segs) (length cols) (e_cols_self idxs cols ++ rest) = Some (cols, rest).
Proof.
  induction idxs as [|i ir IH]; intros [|c cr] rest H; try discriminate; [reflexivity|].
  cbn [cols_self_ok] in H. and2 H Hr. cbn [length get_n e_cols_self]. rewrite <- app_assoc.
  rewrite cmcol_self_rt by exact H. rewrite IH by exact Hr. reflexivity.
Qed.

Theorem cm_self_roundtrip : forall dict k idxs m rest, cm_self_ok dict k idxs m = true ->
  (0 <=? k) && (k <? n_scales) = true ->
  d_cm_self dict (e_cm_self k idxs m ++ rest) = Some (m, rest).
Proof.
  intros dict k idxs [sid [off [size [trs cols]]]] rest H K. unfold cm_self_ok in H.
  apply andb_true_iff in H. destruct H as [H Hcols].
  apply andb_true_iff in H. destruct H as [H Hd].
  unfold w64 in H.
  unfold e_cm_self, d_cm_self. rewrite <- !app_assoc.
  pose proof (len_nonneg cols) as LC. pose proof (len_nonneg trs) as LT.
  assert (M : M32 < M64) by reflexivity.
  rewrite get_be8 by (lia).
  rewrite !uvarint_roundtrip by lia.
  rewrite (Z.mod_small (len trs)) by lia. rewrite (Z.mod_small (len cols)) by lia. rewrite (Z.mod_small size) by lia.
  rewrite !to_nat_len.
  rewrite <- flat_ranges_length. rewrite scaled_list_rt by assumption.
  rewrite cols_self_rt by exact Hcols. rewrite pair_up_flat. reflexivity.
Qed.
