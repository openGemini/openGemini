(* C07: a repaired statistics builder computes exactly the reference (first occurrence of the strict minimum / maximum,
   sum, count) for every column, every null pattern and every cut into segments - for any strict order with start values
   (Section BuilderProof); the integer instance; the extremes of the integer reference as a function of the (value, time)
   pairs (used by ProofsMerge). The float instance is C07_stats_float_repaired in Props.v. *)
From Coq Require Import ZArith List Bool Lia ZifyBool ZifyNat.
From OG Require Import C07.Model C07.ModelRows C07.ModelPreAgg C07.ModelStats C07.ProofsBase.
Import ListNotations.
Open Scope Z_scope.

Section BuilderProof.
  Variable lt : Z -> Z -> bool.
  Variable usable : Z -> bool.
  Variable add : Z -> Z -> Z.
  Variable start_min start_max : Z.
  Hypothesis lt_irrefl : forall x, lt x x = false.
  Hypothesis start_order : lt start_max start_min = true.
  Hypothesis unusable_l : forall v x, usable v = false -> lt v x = false.
  Hypothesis unusable_r : forall v x, usable v = false -> lt x v = false.

  (* the builder state that corresponds to a reference state, with `c` in the count field *)
  Notation st mn mx sm c := (ref_stat start_min start_max (mn, mx, sm, c)).

  (* both extremes unset, or both set with max not below min *)
  Definition consistent (mn mx : option (Z * Z)) : Prop :=
    match mn, mx with
    | None, None => True
    | Some (a, _), Some (b, _) => lt b a = false
    | _, _ => False
    end.
  Definition unset (mn : option (Z * Z)) : bool := match mn with None => true | Some _ => false end.

  (* one segment: the builder runs with `fresh` exactly while the reference has recorded nothing; its count field keeps
     the value c0 it had when the segment began, n counts the values seen *)
  Lemma loop_rel : forall rows mn mx sm c0 n mn' mx' sm' k', consistent mn mx ->
    ref_loop lt usable add mn mx sm (c0 + n) rows = (mn', mx', sm', k') ->
    seg_loop lt usable add (unset mn) (st mn mx sm c0) n rows = (st mn' mx' sm' c0, k' - c0) /\ consistent mn' mx'.
  Proof.
    induction rows as [|[[v|] t] rows IH]; intros mn mx sm c0 n mn' mx' sm' k' C E; cbn [seg_loop ref_loop] in *.
    - inversion E; subst. split; [f_equal; lia|exact C].
    - rewrite <- Z.add_assoc in E.
      destruct mn as [[a ta]|], mx as [[b tb]|]; try contradiction; cbn [unset andb consistent ref_step] in *.
      + (* min and max are set: the two strict comparisons of the builder are those of the reference *)
        unfold cmp_step. cbn [ref_stat s_min s_max]. 
        destruct (lt v a) eqn:L1; cbn [set_min s_max]; destruct (lt b v) eqn:L2;
          (apply IH in E; [exact E|]; cbn [consistent]; first [apply lt_irrefl | assumption]).
      + destruct (usable v) eqn:U.
        * (* the first usable value becomes min and max *)
          unfold cmp_step. cbn [set_min set_max s_min s_max]. rewrite lt_irrefl. cbn [s_max]. rewrite lt_irrefl.
          apply IH in E; [exact E|apply lt_irrefl].
        * (* a value that never compares (NaN): only the sum moves *)
          unfold cmp_step. cbn [ref_stat s_min s_max]. rewrite (unusable_l v _ U). cbn [s_max]. rewrite (unusable_r v _ U).
          apply IH in E; [exact E|exact I].
    - apply IH; assumption.
  Qed.

  (* between segments the builder decides from its min and max alone whether anything has been recorded *)
  Lemma fresh_unset : forall mn mx sm k, consistent mn mx ->
    (s_min (st mn mx sm k) =? start_min) && (s_max (st mn mx sm k) =? start_max) = unset mn.
  Proof.
    intros [[a ta]|] [[b tb]|] sm k C; try contradiction; cbn [ref_stat s_min s_max unset consistent] in *.
    - destruct (Z.eqb_spec a start_min) as [->|]; [|reflexivity].
      destruct (Z.eqb_spec b start_max) as [->|]; [|reflexivity]. rewrite start_order in C. discriminate.
    - rewrite !Z.eqb_refl. reflexivity.
  Qed.

  Lemma ref_loop_app : forall a b mn mx sm k, ref_loop lt usable add mn mx sm k (a ++ b) =
    let '(mn', mx', sm', k') := ref_loop lt usable add mn mx sm k a in ref_loop lt usable add mn' mx' sm' k' b.
  Proof.
    induction a as [|[[v|] t] a IHa]; intros; cbn [app ref_loop]; [|apply IHa..].
    destruct (ref_loop lt usable add mn mx sm k []) as [[[? ?] ?] ?] eqn:E. cbn in E. inversion E; subst. reflexivity.
  Qed.

  Theorem build_repaired_is_reference : forall segs,
    build lt usable add start_min start_max true segs = ref_stat start_min start_max (reference lt usable add segs).
  Proof.
    intros segs. unfold build, reference.
    assert (G : forall segs mn mx sm k, consistent mn mx ->
              fold_left (add_values lt usable add start_min start_max true) segs (st mn mx sm k) =
              ref_stat start_min start_max (ref_loop lt usable add mn mx sm k (concat segs))).
    { induction segs0 as [|rows r IH]; intros mn mx sm k C; [reflexivity|].
      cbn [fold_left concat]. rewrite ref_loop_app.
      destruct (ref_loop lt usable add mn mx sm k rows) as [[[mn' mx'] sm'] k'] eqn:E.
      rewrite <- (Z.add_0_r k) in E. destruct (loop_rel rows mn mx sm k 0 _ _ _ _ C E) as [L C'].
      unfold add_values. cbn [andb]. rewrite fresh_unset, L by exact C.
      replace (add_cnt (st mn' mx' sm' k) (k' - k)) with (st mn' mx' sm' k') by (unfold add_cnt; cbn; f_equal; lia).
      apply IH. exact C'. }
    apply (G segs None None 0 0 I).
  Qed.
End BuilderProof.

Lemma ilt_irrefl : forall x, ilt x x = false.
Proof. intros. unfold ilt. apply Z.ltb_irrefl. Qed.

Theorem stats_int_repaired : forall segs, int_build true segs = int_ref_stat (int_reference segs).
Proof.
  intros. unfold int_build, int_ref_stat, int_reference. apply build_repaired_is_reference.
  - exact ilt_irrefl.
  - reflexivity.
  - intros v x H. discriminate.
  - intros v x H. discriminate.
Qed.

(* the non-null (value, time) pairs of a column *)
Fixpoint values_of (rows : list srow) : list (Z * Z) :=
  match rows with
  | [] => []
  | (None, _) :: r => values_of r
  | (Some v, t) :: r => (v, t) :: values_of r
  end.

Lemma values_of_in : forall rows v t, In (v, t) (values_of rows) <-> In (Some v, t) rows.
Proof.
  induction rows as [|[[x|] tx] r IH]; intros v t; cbn [values_of In]; rewrite ?IH; [tauto| |].
  - split; (intros [E|I]; [left; congruence|right; exact I]).
  - split; [tauto|intros [E|I]; [discriminate|exact I]].
Qed.

(* what the reference keeps for one of its two extremes, as a function of the (value, time) pairs alone *)
Fixpoint ref_ext (better : Z -> Z -> bool) (acc : option (Z * Z)) (l : list (Z * Z)) : option (Z * Z) :=
  match l with
  | [] => acc
  | (v, t) :: r => ref_ext better (ref_step (fun _ => true) acc better v t) r
  end.

Lemma int_reference_ext : forall rows mn mx sm n,
  fst (fst (fst (ref_loop ilt (fun _ => true) iadd mn mx sm n rows))) = ref_ext ilt mn (values_of rows) /\
  snd (fst (fst (ref_loop ilt (fun _ => true) iadd mn mx sm n rows))) = ref_ext (fun a b => ilt b a) mx (values_of rows).
Proof.
  induction rows as [|[[v|] t] r IH]; intros; cbn [ref_loop values_of ref_ext]; [split; reflexivity|apply IH..].
Qed.
