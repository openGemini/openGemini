(* C07 - the VALUES of the stored statistics: the builders' accumulation over the segments of a column
   (engine/immutable/pre_aggregation.go IntegerPreAgg / FloatPreAgg / BooleanPreAgg .reset and .addValues, called once per
   segment by the chunk builder), against the reference "first occurrence of the strict minimum / maximum".

   A row = (value, time); value None = null. Integers are 64-bit patterns compared as int64; floats are IEEE bit patterns
   compared as float64 (`flt`; a NaN never compares); booleans 0 / 1 compared as int8 with start values 2 / -1 (255).

   `_current` : the code before /repo 0b71ecf - start values MaxInt64 / MinInt64 (+-MaxFloat64) and strict comparisons only - a value EQUAL to a start value
                never registers (finding C07-preagg-sentinel-init).
   `_repaired`: props/C07/fix3.patch - when min and max still hold their start values (min > max, impossible once a value
                is recorded) the first (non-NaN) value becomes min and max with its time. *)
From Coq Require Import ZArith List Bool.
From OG Require Import C07.Model C07.ModelRows C07.ModelPreAgg.
Import ListNotations.
Open Scope Z_scope.

Definition srow := (option Z * Z)%type.

(* ---- comparisons ---- *)
Definition ilt (a b : Z) : bool := sgn64 a <? sgn64 b.                    (* int64 a < b *)
(* float64 a < b on bit patterns: false when either is NaN; -0.0 = +0.0 *)
Definition fkey (a : Z) : Z := if a <? M63 then a + M63 else M64 - 1 - a.
Definition flt (a b : Z) : bool :=
  negb (f_is_nan a) && negb (f_is_nan b) && negb (f_is_zero a && f_is_zero b) && (fkey a <? fkey b).

Definition max_i64 : Z := M63 - 1.
Definition min_i64 : Z := M63.
Definition max_f64 : Z := 9218868437227405311.         (* 0x7FEFFFFFFFFFFFFF *)
Definition neg_max_f64 : Z := 18442240474082181119.    (* 0xFFEFFFFFFFFFFFFF *)

(* ---- one accumulation step (a non-null value v at time t) ---- *)
Definition set_min (s : stat) (v t : Z) : stat := mkStat v (s_max s) t (s_maxT s) (s_sum s) (s_cnt s).
Definition set_max (s : stat) (v t : Z) : stat := mkStat (s_min s) v (s_minT s) t (s_sum s) (s_cnt s).
Definition set_sum (s : stat) (x : Z) : stat := mkStat (s_min s) (s_max s) (s_minT s) (s_maxT s) x (s_cnt s).
Definition add_cnt (s : stat) (n : Z) : stat := mkStat (s_min s) (s_max s) (s_minT s) (s_maxT s) (s_sum s) (s_cnt s + n).

Section Builder.
  Variable lt : Z -> Z -> bool.            (* the value order *)
  Variable usable : Z -> bool.             (* may a value initialise min/max (floats: not NaN) *)
  Variable add : Z -> Z -> Z.              (* the sum *)
  Variable start_min start_max : Z.

  Definition cmp_step (s : stat) (v t : Z) : stat :=
    let s1 := if lt v (s_min s) then set_min s v t else s in
    let s2 := if lt (s_max s1) v then set_max s1 v t else s1 in
    set_sum s2 (add (s_sum s2) v).

  (* one segment: `fresh` = min and max still hold the start values when the segment begins (repaired only) *)
  Fixpoint seg_loop (fresh : bool) (s : stat) (n : Z) (rows : list srow) : stat * Z :=
    match rows with
    | [] => (s, n)
    | (None, _) :: r => seg_loop fresh s n r
    | (Some v, t) :: r =>
        if fresh && usable v
        then seg_loop false (cmp_step (set_max (set_min s v t) v t) v t) (n + 1) r
        else seg_loop fresh (cmp_step s v t) (n + 1) r
    end.
  Definition add_values (repaired : bool) (s : stat) (rows : list srow) : stat :=
    let fresh := repaired && (s_min s =? start_min) && (s_max s =? start_max) in
    let '(s', n) := seg_loop fresh s 0 rows in add_cnt s' n.
  Definition start_stat : stat := mkStat start_min start_max 0 0 0 0.
  Definition build (repaired : bool) (segs : list (list srow)) : stat := fold_left (add_values repaired) segs start_stat.

  (* ---- reference: first occurrence of the strict extreme over ALL rows, with an explicit "nothing yet" ---- *)
  Definition ref_step (acc : option (Z * Z)) (better : Z -> Z -> bool) (v t : Z) : option (Z * Z) :=
    match acc with
    | None => if usable v then Some (v, t) else None
    | Some (m, tm) => if better v m then Some (v, t) else Some (m, tm)
    end.
  Fixpoint ref_loop (mn mx : option (Z * Z)) (sm n : Z) (rows : list srow) : option (Z * Z) * option (Z * Z) * Z * Z :=
    match rows with
    | [] => (mn, mx, sm, n)
    | (None, _) :: r => ref_loop mn mx sm n r
    | (Some v, t) :: r => ref_loop (ref_step mn lt v t) (ref_step mx (fun a b => lt b a) v t) (add sm v) (n + 1) r
    end.
  Definition reference (segs : list (list srow)) := ref_loop None None 0 0 (concat segs).
  (* how the reference reads as a stat: nothing recorded = the start values with time 0 *)
  Definition ref_stat (r : option (Z * Z) * option (Z * Z) * Z * Z) : stat :=
    let '(mn, mx, sm, n) := r in
    mkStat (match mn with Some (v, _) => v | None => start_min end) (match mx with Some (v, _) => v | None => start_max end)
           (match mn with Some (_, t) => t | None => 0 end) (match mx with Some (_, t) => t | None => 0 end) sm n.
End Builder.

Definition iadd (a b : Z) : Z := (a + b) mod M64.
Definition int_build := build ilt (fun _ => true) iadd max_i64 min_i64.
Definition int_reference := reference ilt (fun _ => true) iadd.
Definition int_ref_stat := ref_stat max_i64 min_i64.
(* floats: the sum is IEEE addition, which the model does not have: it is a parameter *)
Definition fl_build (fadd : Z -> Z -> Z) := build flt (fun v => negb (f_is_nan v)) fadd max_f64 neg_max_f64.
Definition fl_reference (fadd : Z -> Z -> Z) := reference flt (fun v => negb (f_is_nan v)) fadd.
Definition fl_ref_stat := ref_stat max_f64 neg_max_f64.
