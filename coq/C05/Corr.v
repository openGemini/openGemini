(* C05 correspondence evaluator: runs the model on the harness cases and classifies each case.
   Result code per case: 0 = agrees with the model (both variants where a variant exists), 1 = agrees only with
   the variant before the fix (_current), 2 = agrees only with the repaired variant, 3 = disagrees with the model. *)
From Coq Require Import List Arith NArith ZArith Bool.
From OG Require Import C05.Model C05.Trunc C05.ReadPath C05.RestartRace C05.Coord.
Import ListNotations.

Fixpoint list_eqb {A} (eqb : A -> A -> bool) (a b : list A) : bool :=
  match a, b with
  | [], [] => true
  | x :: a', y :: b' => eqb x y && list_eqb eqb a' b'
  | _, _ => false
  end.

Definition rg_eqb (a b : option (nat * list nat)) : bool :=
  match a, b with
  | None, None => true
  | Some (m, ps), Some (m', ps') => Nat.eqb m m' && list_eqb Nat.eqb ps ps'
  | _, _ => false
  end.

Inductive mev :=                      (* compact model events of the ack scenarios *)
| MP (n : nat) (b : batch) | MK (n : nat) | MR (n : nat) | ME (n : nat)
| MRR (m k : nat) | MRC (k : nat) | MRL (m c : nat) | MA (n cnt : nat).

Definition expand (e : mev) : list event :=
  match e with
  | MP n b => [Propose n b] | MK n => [Kill n] | MR n => [Restart n] | ME n => [RElect n]
  | MRR m k => [RReplicate m k] | MRC k => [RCommit k] | MRL m c => [RLearn m c]
  | MA n cnt => repeat (Apply n) cnt
  end.

Inductive oev :=
| OAck (b : batch) | ONoAck (b : batch)
| OKill (n : nat) | ORestart (n : nat) | OPause (n : nat) | OResume (n : nat)
| ORead (kvs : list (key * val)).

Inductive wstep :=
| WE (e : event)
| WAck (b : batch)              (* the request was acknowledged: b must be in the model's acked set now *)
| WNoAck (b : batch)            (* unacknowledged request (it may or may not have reached WriteToRaft) *)
| WRead (kvs : list (key * val)).

Inductive case :=
| CRot (m : nat) (ps : list (nat * bool)) (online : list nat) (newm : nat)
       (gn : option (nat * list nat)) (upd : option (nat * list nat)) (gp : list nat) (el : option (nat * list nat))
| CDw (ty : N) (ident : list N) (pid : N) (data : list N) (bytes : list N)
| CDwBad (bytes : list N) (res : option (N * list N * N * list N))
| CReplay (fs n commit snp : nat) (clears : list nat) (first : nat) (rep : option (nat * nat * nat)) (appl : nat)
| CAck (evs : list mev) (acks : list batch) (final : list (key * val))
| CAckErr (acked : bool)
| CCoord (script : list wres) (acked : bool) (calls : nat)
| CGroup (forced lost : bool)
| CHist (obs : list oev) (w : list wstep)
| CConflict (old : list batch) (j : nat) (new : list batch) (applied : list batch)
| CTrunc (fsz first last : N) (T : Z) (rs : list (Z * bool * list bool * list N * N * option N * bool))
| CGroupT (stale lost : bool)
| CGroupL (lost : bool)
| CGroupR (lost : bool)
| CPersist (acks : list (nat * nat * nat * nat))   (* per acknowledgement: index, term, last index / durable term at the hand-off *)
| CBatch (scripts : list (list wres)) (acked : bool) (calls : list nat)
| CReadSel (health : bool) (master : nat) (online : list bool) (shard_pts : list nat) (sel : list nat)
| CSend (fsz first last snp : N) (probes : list (N * bool)) (slots : list (N * option nat * Z * bool)).

Definition dw_eqb (a : option dwrap) (b : option (N * list N * N * list N)) : bool :=
  match a, b with
  | None, None => true
  | Some d, Some (ty, id, pid, data) =>
      N.eqb (dw_type d) ty && list_eqb N.eqb (dw_ident d) id && N.eqb (dw_pid d) pid && list_eqb N.eqb (dw_data d) data
  | _, _ => false
  end.

Fixpoint mklog (n : nat) (i : N) : list entry :=
  match n with O => [] | S n' => EData 1 i [(i, 0%Z)] :: mklog n' (N.succ i) end.

(* restart-replay scenario on the model: a member with n entries (entry i writes key i), own snapshot index snp,
   the ClearEntryLog indexes applied with the variant's rule, killed and restarted *)
Definition replay_model (clampv : bool) (fs n commit snp : nat) (clears : list nat) : nat * option (nat * nat * nat) * nat :=
  let c := mkCfg 3 fs true clampv true true false in
  let lg := mklog n 1%N in
  let x0 := mkNode true false lg 0 commit snp [] [] [] 0 snp [] [] false [] 0%N in
  let x1 := fold_left (fun x idx => apply_node c 0 x (EClear idx)) clears x0 in
  let x2 := restart_node c (kill_node c x1) in
  let ks := rev (map (fun kv => N.to_nat (fst kv)) (firstn (length (mem x2) - length (mem x1)) (mem x2))) in
  (S (efirst x2), match ks with [] => None | k :: _ => Some (k, last ks k, length ks) end, applied x2).

Definition replay_eqb (a b : nat * option (nat * nat * nat) * nat) : bool :=
  match a, b with
  | (f, r, ap), (f', r', ap') =>
      Nat.eqb f f' && Nat.eqb ap ap' &&
      match r, r' with
      | None, None => true
      | Some (x, y, z), Some (x', y', z') => Nat.eqb x x' && Nat.eqb y y' && Nat.eqb z z'
      | _, _ => false
      end
  end.

Definition batch_in (b : batch) (l : list batch) : bool := existsb (batch_eqb b) l.
Definition same_batches (a b : list batch) : bool :=
  Nat.eqb (length a) (length b) && forallb (fun x => batch_in x b) a && forallb (fun x => batch_in x a) b.

Definition ack_model (fresh : bool) (evs : list mev) : option (list batch * sys) :=
  match run raft_ref (init (mkCfg 3 30000 true true fresh true false)) (flat_map expand evs) with
  | Some s => Some (map (fun a => snd a) (acked s), s)
  | None => None
  end.

Definition ack_agrees (fresh : bool) (evs : list mev) (acks : list batch) (final : list (key * val)) : bool :=
  match ack_model fresh evs with
  | Some (ma, s) =>
      same_batches ma acks &&
      forallb (fun kv => match read s 0 (fst kv) with Some v => Z.eqb v (snd kv) | None => false end) final &&
      Nat.eqb (length final) (length (nodup N.eq_dec (map fst (view (nodes s 0)))))
  | None => false
  end.

(* a follower whose log is overwritten from index k-j+1 by the new leader (effect of RReplicate: the log becomes a
   prefix of the leader's log = kept prefix ++ new entries; an empty batch is the leader's no-op); what it applies *)
Definition conflict_applied (old : list batch) (j : nat) (new : list batch) : list batch :=
  let ent := fun b : batch => match b with [] => ENoop | _ => EData 1 0%N b end in
  let leader_log := firstn (length old - j) (map ent old) ++ map ent new in
  let follower := with_elog node0 (map ent old) in
  let follower' := with_elog follower (firstn (length leader_log) leader_log) in
  flat_map (fun e => match e with EData _ _ b => [b] | _ => [] end) (elog follower').

(* ---------------------------------------------------------------- acceptance of a recorded black-box history.
   obs  = what was observed at the cluster (write requests with/without acknowledgement, kills, restarts, pauses,
          resumes, full read answers), in order.
   w    = a candidate model execution (events of the model under the reference raft oracle, with check points).
   accepted = w projects exactly onto obs, every event of w is enabled, a majority is available after every event,
   every acknowledged batch is in the model's acked set at its check point, every read answer equals what the
   caught-up master replica of the model returns, and the model acknowledges nothing else. *)
Definition kv_eqb (a b : key * val) : bool := N.eqb (fst a) (fst b) && Z.eqb (snd a) (snd b).
Definition oev_eqb (a b : oev) : bool :=
  match a, b with
  | OAck x, OAck y | ONoAck x, ONoAck y => batch_eqb x y
  | OKill x, OKill y | ORestart x, ORestart y | OPause x, OPause y | OResume x, OResume y => Nat.eqb x y
  | ORead x, ORead y => list_eqb kv_eqb x y
  | _, _ => false
  end.

Definition project (w : list wstep) : list oev :=
  flat_map (fun x => match x with
                     | WE (Kill n) => [OKill n] | WE (Restart n) => [ORestart n]
                     | WE (Pause n) => [OPause n] | WE (Resume n) => [OResume n]
                     | WE _ => []
                     | WAck b => [OAck b] | WNoAck b => [ONoAck b] | WRead kvs => [ORead kvs]
                     end) w.

Fixpoint accepts_from (s : sys) (w : list wstep) : option sys :=
  match w with
  | [] => Some s
  | WE e :: r =>
      match step raft_ref s e with
      | Some s' => if minority_down s' then accepts_from s' r else None
      | None => None
      end
  | WAck b :: r => if batch_in b (map (fun a => snd a) (acked s)) then accepts_from s r else None
  | WNoAck _ :: r => accepts_from s r
  | WRead kvs :: r =>
      let m := master s in
      if caught_up s m
         && forallb (fun kv => match read s m (fst kv) with Some v => Z.eqb v (snd kv) | None => false end) kvs
         && Nat.eqb (length kvs) (length (nodup N.eq_dec (map fst (view (nodes s m)))))
      then accepts_from s r else None
  end.

Definition accepts (obs : list oev) (w : list wstep) : bool :=
  list_eqb oev_eqb (project w) obs &&
  match accepts_from (init (cfg_repaired 3 30000)) w with
  | Some s => same_batches (map (fun a => snd a) (acked s))
                           (flat_map (fun o => match o with OAck b => [b] | _ => [] end) obs)
  | None => false
  end.

(* index of the first witness step that is rejected (for diagnostics) *)
Fixpoint reject_at (s : sys) (w : list wstep) (i : nat) : option nat :=
  match w with
  | [] => None
  | x :: r =>
      match accepts_from s [x] with
      | Some s' => reject_at s' r (S i)
      | None => Some i
      end
  end.

(* the long-outage scenario of the real 3-node group: member 2 is down while the others write (with an overwrite),
   flush and run the truncation decision; then it rejoins. forced = the tolerate-time/size branch acted. Result: does the
   rejoined, caught-up member lack an acknowledged value? today = cfg_today: truncation branches as coded + raft snapshot install *)
Definition outage_trace (forced : bool) : list event :=
  [ RElect 0;
    Propose 0 [(1%N, 10%Z)]; RReplicate 1 1; RReplicate 2 1; RCommit 1; RLearn 0 1; RLearn 1 1; RLearn 2 1;
    Apply 0; Apply 1; Apply 2; Kill 2;
    Propose 0 [(1%N, 11%Z)]; Propose 0 [(2%N, 20%Z)]; RReplicate 1 3; RCommit 3; RLearn 0 3; RLearn 1 3;
    Apply 0; Apply 0; Apply 1; Apply 1;
    UpdSnapc 0; FlushSwap 0; SnapPersist 0; FlushCommit 0; UpdSnapc 1; FlushSwap 1; SnapPersist 1; FlushCommit 1 ]
  ++ (if forced then [TruncForce 3; RReplicate 1 4; RCommit 4; RLearn 0 4; RLearn 1 4; Apply 0; Apply 1; Restart 2; RSnapshot 2]
      else [Restart 2; RReplicate 2 3; RLearn 2 3; Apply 2; Apply 2]).

Definition group_lost (today forced : bool) : bool :=
  match run raft_ref (init (if today then cfg_today 3 2 else cfg_repaired 3 2)) (outage_trace forced) with
  | Some s => negb (match read s 2 1%N with Some v => Z.eqb v 11 | None => false end)
  | None => false      (* the forced truncation is not enabled: nothing is lost *)
  end.

(* a sequence of truncation-decision rounds: (clock units that pass before the round, leader?, alive flags, Match
   values, snapshot index, observed proposal, observed "tolerance period running") *)
Definition optN_eqb (a b : option N) : bool :=
  match a, b with None, None => true | Some x, Some y => N.eqb x y | _, _ => false end.
Definition proposal (d : decision) : option N := match d with DNone => None | DHealthy i | DForce i => Some i end.

Fixpoint trunc_agrees (tc : tcfg) (T : Z) (L : layout) (st : option Z) (now : Z)
                      (rs : list (Z * bool * list bool * list N * N * option N * bool)) : bool :=
  match rs with
  | [] => true
  | (adv, lead, alive, mt, snp, prop, armed) :: q =>
      let now' := (now + adv)%Z in
      let r := decide tc T L st (mkRound now' lead alive mt snp) in
      optN_eqb (proposal (snd r)) prop && Bool.eqb (match fst r with Some _ => true | None => false end) armed
      && trunc_agrees tc T L (fst r) now' q
  end.

(* the two-outage scenarios of the real 3-node group as seen by the node that led during the first outage (tolerate
   time 60 minutes): second = outage, recovery seen as the leader, two hours, second outage with three rounds;
   stale = the leadership is lost during the first outage and regained during the second one *)
Definition two_outage_rounds (stale : bool) : list round :=
  let dn := [true; true; false] in let al := [true; true; true] in let m := [9%N; 9%N; 9%N] in
  [ mkRound 0 true dn m 5 ] ++
  (if stale then [ mkRound 0 false dn m 5; mkRound 1 false al m 5 ] else [ mkRound 1 true al m 5 ]) ++
  [ mkRound 121 true dn m 9; mkRound 122 true dn m 9; mkRound 123 true dn m 9 ].
Definition two_outage_forced (tc : tcfg) (stale : bool) : bool :=
  existsb (fun d => match d with DForce _ => true | _ => false end)
          (decisions tc 60 (mkLay 30000 1 20) None (two_outage_rounds stale)).

Definition variant (cur rep : bool) : nat :=
  match cur, rep with true, true => 0 | true, false => 1 | false, true => 2 | false, false => 3 end.

Definition classify (c : case) : nat :=
  match c with
  | CRot m ps online newm gn upd gp el =>
      let ids := map fst ps in
      let ok := rg_eqb (get_new_rg m ids newm) gn
                && (match gn with Some _ => rg_eqb gn upd | None => true end)
                && list_eqb Nat.eqb (generate_new_peer m ids newm) gp
                && rg_eqb (elect_rg_master m ps (fun p => existsb (Nat.eqb p) online)) el in
      if ok then 0 else 3
  | CDw ty ident pid data bytes =>
      let d := mkDw ty ident pid data in
      if list_eqb N.eqb (dw_marshal d) bytes && dw_eqb (dw_unmarshal bytes) (Some (ty, ident, pid, data)) then 0 else 3
  | CDwBad bytes res => if dw_eqb (dw_unmarshal bytes) res then 0 else 3
  | CReplay fs n commit snp clears first rep appl =>
      variant (replay_eqb (replay_model false fs n commit snp clears) (first, rep, appl))
              (replay_eqb (replay_model true fs n commit snp clears) (first, rep, appl))
  | CAck evs acks final => variant (ack_agrees false evs acks final) (ack_agrees true evs acks final)
  | CCoord script acked calls =>
      let lst := last script WFail in
      let r := coord_retry 1000 (removelast script) lst 0 in
      match lst with
      | WRetry => if Bool.eqb (fst (coord_retry 3 (removelast script) lst 0)) acked && Nat.leb (length script) calls then 0 else 3
      | _ => if Bool.eqb (fst r) acked && Nat.eqb (snd r) calls then 0 else 3
      end
  | CGroup forced lost => variant (Bool.eqb (group_lost true forced) lost) (Bool.eqb (group_lost false forced) lost)
  | CHist obs w => if accepts obs w then 0 else 3
  | CConflict old j new applied =>
      if list_eqb batch_eqb (conflict_applied old j new) applied then 0 else 3
  | CAckErr acked =>
      variant (Bool.eqb (commit_result_current true false) acked) (Bool.eqb (commit_result_repaired true false) acked)
  | CTrunc fsz first last T rs =>
      let L := mkLay fsz first last in
      variant (trunc_agrees tcfg_current T L None 0 rs) (trunc_agrees tcfg_repaired T L None 0 rs)
  | CSend fsz first last snp probes slots =>
      let E := layout_files fsz first last in
      let optnat_eqb := fun a b : option nat => match a, b with None, None => true | Some x, Some y => Nat.eqb x y | _, _ => false end in
      if forallb (fun p => Bool.eqb (send_append true E snp (fst p + 1)) (snd p)) probes
         && forallb (fun q => match q with (i, f, off, tok) =>
                                let r := slot_ge true E i in
                                optnat_eqb (fst r) f && Z.eqb (snd r) off && Bool.eqb (storage_term_ok true E snp i) tok
                              end) slots
      then 0 else 3
  | CGroupL lost =>
      (* scenario lagmaster: does the replica that answers after the master's store died lack the acknowledged overwrite? *)
      let m := fun aware : bool =>
        match run raft_ref (init (cfg_repaired 3 2)) lagmaster_trace with
        | Some s => match (if aware then elect_caught_up s else elect_today s) with
                    | Some (nm, _) => negb (match read s nm 1%N with Some v => Z.eqb v 11 | None => false end)
                    | None => false
                    end
        | None => false
        end in
      variant (Bool.eqb (m false) lost) (Bool.eqb (m true) lost)
  | CBatch scripts acked calls =>
      (* per shard as in CCoord: a script that ends in WRetry models "no master for longer than the timeout" (the number
         of attempts depends on the clock: at least the scripted ones) *)
      let one := fun (sc : list wres) (k : nat) =>
        match last sc WFail with
        | WRetry => (fst (coord_retry 3 (removelast sc) WRetry 0), Nat.leb (length sc) k)
        | l => let r := coord_retry 1000 (removelast sc) l 0 in (fst r, Nat.eqb (snd r) k)
        end in
      let rs := map (fun p => one (fst p) (snd p)) (combine scripts calls) in
      if Nat.eqb (length scripts) (length calls) && Bool.eqb (forallb fst rs) acked && forallb snd rs
         && Bool.eqb (fst (batch_write 1000 (filter (fun sc => match last sc WFail with WRetry => false | _ => true end) scripts))
                      && forallb (fun sc => match last sc WFail with WRetry => false | _ => true end) scripts) acked
      then 0 else 3
  | CPersist acks =>
      (* follower path of the model: an acknowledgement carries only what is durable *)
      if forallb (fun a => match a with (i, t, la, ta) => Nat.leb i la && Nat.leb t ta end) acks then 0 else 3
  | CGroupR lost =>
      (* scenario replayrace: the rejoined member's replay is slower than the entries shipped by the leader *)
      let x := mkNode false false [EData 0 1%N [(1%N, 10%Z)]; EData 0 2%N [(1%N, 11%Z)]] 0 1 0 [(1%N, 10%Z)] [] [] 0 0 [] [] false [] 0%N in
      let es := [EData 0 2%N [(1%N, 11%Z)]] in
      let stale := fun y : node => negb (match get (view y) 1%N with Some v => Z.eqb v 11 | None => false end) in
      variant (Bool.eqb (stale (apply_then_replay (cfg_today 3 2) 1 x es)) lost)
              (Bool.eqb (stale (replay_then_apply (cfg_today 3 2) 1 x es)) lost)
  | CReadSel health master online shard_pts sel =>
      if list_eqb Nat.eqb (read_shards health master (fun p => nth p online false) shard_pts) sel then 0 else 3
  | CGroupT stale lost =>
      variant (Bool.eqb (group_lost true (two_outage_forced tcfg_current stale)) lost)
              (Bool.eqb (group_lost true (two_outage_forced tcfg_repaired stale)) lost)
  end.

Definition classify_all (cs : list case) : list nat := map classify cs.
