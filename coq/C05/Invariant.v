(* C05: the replication invariant and its preservation by every step, for every raft oracle that satisfies the raft
   safety facts (raft_safe). *)
From Coq Require Import List Arith NArith ZArith Bool Lia.
From OG Require Import C05.Model C05.Proofs.
Import ListNotations.

(* what the replication invariant needs of the configuration; Final.wf_cfg adds a non-empty group, pid_fresh (for InvP)
   and trunc_all; Catchup.base_cfg drops snap_install = false (there RSnapshot is shown never to be enabled) *)
Definition good_cfg (c : config) : Prop := wal_on c = true /\ clamp c = true /\ snap_install c = false.

(* Node x against the committed sequence g. The last field carries the development: of a node that is down only some
   prefix d of g is durable in its shard (dview), with snap <= d <= hcommit and efirst <= d. So the restart replay of
   the entries (snap, hcommit] starts inside what the log still has and overlaps what the shard already holds, and
   replay_idem makes the result exactly the first hcommit entries (case Restart of step_inv_gen). *)
Record node_ok (g : list entry) (x : node) : Prop := mkOk {
  ok_hc : hcommit x <= length g;
  ok_match : firstn (hcommit x) (elog x) = firstn (hcommit x) g;
  ok_trunc : efirst x = 0 \/ efirst x < snap x;
  ok_up : up x = true ->
      applied x <= hcommit x /\ snap x <= snapc x /\ snapc x <= applied x /\ efirst x <= applied x /\
      sim (view x) (ents_store (firstn (applied x) g)) /\ wal x = mem x /\ walold x = imm x;
  ok_down : up x = false ->
      exists d, snap x <= d /\ d <= hcommit x /\ efirst x <= d /\ sim (dview x) (ents_store (firstn d g)) }.

(* every node is ok; the leader is up and holds every committed entry; so does a quorum of nodes (what majorities_meet
   turns into an available node holding them, in Final.survives) *)
Definition Inv' (c : config) (nd : nat -> node) (g : list entry) (ld : option nat) : Prop :=
  (forall n, node_ok g (nd n)) /\
  (forall l, ld = Some l -> pre g (elog (nd l)) /\ up (nd l) = true) /\
  nn c < 2 * count (fun m => prefixb g (elog (nd m))) (nn c).

Definition Inv (s : sys) : Prop := Inv' (cfg s) (nodes s) (glog s) (leader s).

Lemma hc_le_elog : forall g x, node_ok g x -> hcommit x <= length (elog x).
Proof.
  intros g x H. pose proof (ok_hc _ _ H) as H1. pose proof (ok_match _ _ H) as H2.
  apply (f_equal (@length entry)) in H2. rewrite !firstn_length in H2. lia.
Qed.

Lemma node_ok_ext : forall g g' x, node_ok g x -> pre g g' -> node_ok g' x.
Proof.
  intros g g' x H [t ->]. destruct H as [H1 H2 H3 H4 H5]. constructor.
  - rewrite app_length; lia.
  - rewrite firstn_pre by assumption; assumption.
  - assumption.
  - intros Hu. specialize (H4 Hu). destruct H4 as (A & B & C & D & E & F & G).
    repeat split; try assumption. rewrite firstn_pre by lia; assumption.
  - intros Hu. specialize (H5 Hu). destruct H5 as (d & A & B & C & D).
    exists d; repeat split; try assumption. rewrite firstn_pre by lia; assumption.
Qed.

Lemma node_ok_elog_ext : forall g x t, node_ok g x -> node_ok g (with_elog x (elog x ++ t)).
Proof.
  intros g x t H. pose proof (hc_le_elog _ _ H) as Hl. destruct H as [H1 H2 H3 H4 H5].
  constructor; cbn; try assumption.
  rewrite firstn_app. replace (hcommit x - length (elog x)) with 0 by lia. cbn. rewrite app_nil_r; assumption.
Qed.

Lemma count_mono : forall (p q : nat -> bool) n, (forall m, p m = true -> q m = true) -> count p n <= count q n.
Proof. intros; unfold count; apply count_mono_list; intros; auto. Qed.

Lemma upd_same : forall f n x, upd f n x n = x.
Proof. intros; unfold upd; rewrite Nat.eqb_refl; reflexivity. Qed.
Lemma upd_other : forall f n x m, m <> n -> upd f n x m = f m.
Proof. intros f n x m H; unfold upd. destruct (Nat.eqb m n) eqn:E; [apply Nat.eqb_eq in E; contradiction|reflexivity]. Qed.

Lemma inv_set_node_gen : forall c nd g ld ld' n x',
  Inv' c nd g ld -> node_ok g x' -> (pre g (elog (nd n)) -> pre g (elog x')) ->
  (forall l, ld' = Some l -> ld = Some l /\ (l = n -> up x' = true)) ->
  Inv' c (upd nd n x') g ld'.
Proof.
  intros c nd g ld ld' n x' (HN & HL & HQ) Hx Hp Hld. split; [|split].
  - intros m. destruct (Nat.eq_dec m n) as [->|Hm]; [rewrite upd_same; assumption|rewrite upd_other by assumption; apply HN].
  - intros l Hl. destruct (Hld l Hl) as [Hl0 Hn]. destruct (HL l Hl0) as [A B]. destruct (Nat.eq_dec l n) as [->|Hm].
    + rewrite upd_same. split; [apply Hp; exact A|apply Hn; reflexivity].
    + rewrite upd_other by assumption. split; assumption.
  - eapply Nat.lt_le_trans; [exact HQ|]. apply Nat.mul_le_mono_l. apply count_mono. intros m Hm.
    destruct (Nat.eq_dec m n) as [->|Hmn]; [rewrite upd_same|rewrite upd_other by assumption; assumption].
    apply prefixb_spec. apply Hp. apply prefixb_spec. exact Hm.
Qed.

Lemma inv_set_node: forall c nd g ld n x',
  Inv' c nd g ld -> (node_ok g (nd n) -> node_ok g x') -> pre (elog (nd n)) (elog x') -> up x' = up (nd n) ->
  Inv' c (upd nd n x') g ld.
Proof.
  intros c nd g ld n x' HI Hx Hp Hu. pose proof HI as (HN & HL & _).
  apply (inv_set_node_gen c nd g ld ld n x' HI (Hx (HN n))); [intros A; eapply pre_trans; eassumption|].
  intros l Hl. split; [exact Hl|intros ->]. rewrite Hu. apply (HL _ Hl).
Qed.

Lemma nth_firstn : forall (A : Type) (l : list A) i k, i < k -> nth_error (firstn k l) i = nth_error l i.
Proof.
  induction l as [|x l IH]; intros i k H; destruct k, i; cbn; try reflexivity; try lia.
  apply IH; lia.
Qed.

(* what is assumed of etcd/raft: the events of an oracle happen only when these four facts allow them *)
Record raft_safe (raft_ok : sys -> event -> bool) : Prop := {
  (* leader completeness: raft elects only a live node whose log holds every committed entry *)
  rs_elect : forall s n, raft_ok s (RElect n) = true ->
    up (nodes s n) = true /\ prefixb (glog s) (elog (nodes s n)) = true;
  (* log matching: a follower's log becomes a prefix of the leader's log; raft never removes an entry the follower
     has persisted as committed, nor a committed entry from a log that held all of them *)
  rs_repl : forall s m k, raft_ok s (RReplicate m k) = true ->
    exists l, leader s = Some l /\ m <> l /\ up (nodes s m) = true /\ hcommit (nodes s m) <= k /\
              k <= length (elog (nodes s l)) /\
              (prefixb (glog s) (elog (nodes s m)) = true -> length (glog s) <= k);
  (* commit: only entries of the current leader's log, never retracting a committed entry, and only when a quorum
     of nodes has persisted them *)
  rs_commit : forall s k, raft_ok s (RCommit k) = true ->
    exists l, leader s = Some l /\ length (glog s) <= k /\ k <= length (elog (nodes s l)) /\
              nn (cfg s) < 2 * count (fun m => prefixb (firstn k (elog (nodes s l))) (elog (nodes s m))) (nn (cfg s));
  (* state-machine safety: a node learns commit index c only if its first c entries are the committed ones *)
  rs_learn : forall s m c, raft_ok s (RLearn m c) = true ->
    up (nodes s m) = true /\ hcommit (nodes s m) <= c /\ c <= length (glog s) /\
    firstn c (elog (nodes s m)) = firstn c (glog s) }.

(* H : Some x = Some s' names the state after a step (s' becomes x); H : None = Some s' closes the goal *)
Ltac stepped H := first [discriminate H | injection H as <-].

Lemma step_trunc : forall raft_ok s e mm s', e = TruncPropose mm \/ e = TruncForce mm -> step raft_ok s e = Some s' ->
  exists l, leader s = Some l /\
    negb (trunc_all (cfg s)) || members_have s (trunc_idx (cfg s) mm (snap (nodes s l))) = true /\
    s' = set_node s l (with_elog (nodes s l) (elog (nodes s l) ++ [EClear (trunc_idx (cfg s) mm (snap (nodes s l)))])).
Proof.
  intros raft_ok s e mm s' [-> | ->] H; cbn [step] in H; (destruct (leader s) as [l|]; [|discriminate]);
    match type of H with (if ?b then _ else _) = _ => destruct b eqn:Hg; [|discriminate] end;
    stepped H; exists l; (split; [reflexivity|split; [|reflexivity]]); apply andb_prop in Hg; apply Hg.
Qed.

Section RaftFacts.
  Variable raft_ok : sys -> event -> bool.
  Hypothesis HR : raft_safe raft_ok.

  Lemma step_cfg : forall s e s', step raft_ok s e = Some s' -> cfg s' = cfg s.
  Proof.
    intros s e s' H. destruct e; cbn [step] in H;
      repeat match type of H with
             | (if ?b then _ else _) = Some _ => destruct b; try discriminate
             | match ?x with Some _ => _ | None => _ end = Some _ => destruct x; try discriminate
             | match ?x with (_, _) => _ end = Some _ => destruct x
             end; try (inversion H; subst; reflexivity).
    all: try (inversion H; subst; cbn; repeat match goal with |- context [match ?x with _ => _ end] => destruct x end; reflexivity).
  Qed.

  Lemma avail_up : forall x, avail x = true -> up x = true.
  Proof. intros x H; unfold avail in H; apply andb_prop in H; tauto. Qed.

  (* general form: either raft snapshots are never installed (snap_install = false), or the step is not one *)
  Lemma step_inv_gen : forall s e s', wal_on (cfg s) = true -> clamp (cfg s) = true ->
    (snap_install (cfg s) = false \/ forall m, e <> RSnapshot m) ->
    Inv s -> step raft_ok s e = Some s' -> Inv s'.
  Proof.
    intros s e s' Hwal Hclamp Hnosnap HI H. unfold Inv in *.
    assert (Trunc : forall mm, e = TruncPropose mm \/ e = TruncForce mm -> Inv' (cfg s') (nodes s') (glog s') (leader s')).
    { intros mm He. destruct (step_trunc _ _ _ _ _ He H) as (l & Hl & _ & ->). cbn.
      apply inv_set_node; [assumption|apply node_ok_elog_ext|cbn; eexists; reflexivity|reflexivity]. }
    destruct e; cbn [step] in H.
    - (* Propose *)
      destruct (avail (nodes s n)) eqn:Hav; [|discriminate].
      set (x := nodes s n) in *.
      set (x' := mkNode (up x) (paused x) (elog x) (efirst x) (hcommit x) (snap x) (wal x) (walold x) (files x)
                        (applied x) (snapc x) (mem x) (imm x) (sig x) ((N.succ (nextpid x), b) :: pend x) (N.succ (nextpid x))) in *.
      assert (H1 : Inv' (cfg s) (upd (nodes s) n x') (glog s) (leader s)).
      { apply inv_set_node; [assumption| |apply pre_refl|reflexivity].
        intros HN. fold x in HN. destruct HN as [A B C D E].
        constructor; cbn; assumption. }
      destruct (leader s) as [l|] eqn:Hl.
      + cbn [set_node set_nodes nodes] in H.
        destruct (avail (upd (nodes s) n x' l)) eqn:Hal; stepped H; cbn; try assumption.
        apply inv_set_node; [assumption| |cbn; exists [EData n (N.succ (nextpid x)) b]; reflexivity|reflexivity].
        apply node_ok_elog_ext.
      + stepped H; cbn; assumption.
    - (* Timeout *)
      stepped H; cbn. apply inv_set_node; [assumption| |apply pre_refl|reflexivity].
      intros [A B C D E]. constructor; cbn; assumption.
    - (* RElect *)
      destruct (raft_ok s (RElect n)) eqn:Hr; [|discriminate]. stepped H; cbn.
      destruct (rs_elect _ HR _ _ Hr) as [Hu Hp]. destruct HI as (HN & HL & HQ). split; [assumption|split; [|assumption]].
      intros l Hl; inversion Hl; subst. split; [apply prefixb_spec|]; assumption.
    - (* RStepDown *)
      stepped H; cbn. destruct HI as (HN & HL & HQ). split; [assumption|split; [|assumption]].
      intros l Hl; discriminate.
    - (* RReplicate *)
      destruct (raft_ok s (RReplicate m k)) eqn:Hr; [|discriminate]. cbn [andb] in H.
      destruct (match leader s with Some l => Nat.leb (efirst (nodes s l)) (length (elog (nodes s m))) | None => false end); [|discriminate].
      stepped H.
      destruct (rs_repl _ HR _ _ _ Hr) as (l & Hl & Hml & Hum & Hhc & Hk & Hkeep).
      cbn [raft_effect]. rewrite Hl. cbn. pose proof HI as (HN & HL & _). destruct (HL l Hl) as [Hpl _].
      apply (inv_set_node_gen _ _ _ (leader s)); [exact HI| | |].
      + destruct (HN m) as [A B C D E]. constructor; cbn; try assumption.
        rewrite firstn_firstn, Nat.min_l by assumption. apply pre_firstn_eq; assumption.
      + cbn. intros Hm. apply pre_firstn; [assumption|]. apply Hkeep. apply prefixb_spec. exact Hm.
      + intros l' Hl'. split; [exact Hl'|]. intros ->. congruence.
    - (* RCommit *)
      destruct (raft_ok s (RCommit k)) eqn:Hr; [|discriminate]. stepped H.
      destruct (rs_commit _ HR _ _ Hr) as (l & Hl & Hk1 & Hk2 & Hq).
      cbn [raft_effect]. rewrite Hl. cbn. destruct HI as (HN & HL & HQ).
      destruct (HL l Hl) as [Hpl Hul].
      assert (Hext : pre (glog s) (firstn k (elog (nodes s l)))) by (apply pre_firstn; assumption).
      split; [|split].
      + intros n. eapply node_ok_ext; [apply HN|assumption].
      + intros l' Hl'. inversion Hl'; subst l'. split; [apply pre_firstn_self|assumption].
      + assumption.
    - (* RLearn *)
      destruct (raft_ok s (RLearn m c)) eqn:Hr; [|discriminate]. stepped H.
      destruct (rs_learn _ HR _ _ _ Hr) as (Hu & Hc1 & Hc2 & Hm).
      cbn. apply inv_set_node; [assumption| |apply pre_refl|reflexivity].
      intros [A B C D E].
      constructor; cbn; try assumption.
      * intros Hu'. specialize (D Hu'). destruct D as (D1 & D2 & D3 & D4 & D5 & D6 & D7). repeat split; try assumption; lia.
      * intros Hd; congruence.
    - (* Apply *)
      set (x := nodes s n) in *.
      destruct (avail x && Nat.ltb (applied x) (hcommit x) && Nat.leb (efirst x) (applied x)) eqn:Hg; [|discriminate].
      apply andb_prop in Hg; destruct Hg as [Hg Hef]; apply andb_prop in Hg; destruct Hg as [Hav Hlt].
      apply Nat.ltb_lt in Hlt. apply Nat.leb_le in Hef. apply avail_up in Hav.
      destruct (nth_error (elog x) (applied x)) as [en|] eqn:Hnth; [|discriminate].
      stepped H. cbn.
      apply inv_set_node; [assumption| |apply pre_refl|reflexivity].
      intros HN. fold x in HN. destruct HN as [A B C D E].
      destruct (D Hav) as (D1 & D2 & D3 & D4 & D5 & D6 & D7).
      assert (Hg : nth_error (glog s) (applied x) = Some en).
      { rewrite <- (nth_firstn _ (glog s) (applied x) (hcommit x)) by assumption.
        rewrite <- B. rewrite nth_firstn by assumption. assumption. }
      constructor; cbn -[firstn Nat.max Nat.min tr_first]; try assumption.
      + destruct en; try assumption. rewrite Hclamp.
        pose proof (tr_first_le (fsz (cfg s)) (Nat.min idx (snap x))). lia.
      + intros _. rewrite Hwal. repeat split; try lia.
        * destruct en; try lia. rewrite Hclamp.
          pose proof (tr_first_le (fsz (cfg s)) (Nat.min idx (snap x))). lia.
        * rewrite (firstn_S_nth _ _ _ _ Hg), ents_store_snoc.
          unfold view in *; cbn. rewrite <- app_assoc. apply sim_app_l. assumption.
        * congruence.
        * assumption.
      + intros Hd; congruence.
    - (* UpdSnapc *)
      destruct (avail (nodes s n)) eqn:Hav; [|discriminate]. stepped H; cbn.
      apply inv_set_node; [assumption| |apply pre_refl|reflexivity].
      intros [A B C D E]. constructor; cbn; try assumption.
      intros Hu. destruct (D Hu) as (D1 & D2 & D3 & D4 & D5 & D6 & D7). repeat split; try assumption; lia.
    - (* FlushSwap *)
      set (x := nodes s n) in *.
      destruct (avail x) eqn:Hav; cbn [andb] in H; [|discriminate].
      destruct (imm x) eqn:Himm; [|discriminate]. destruct (walold x) eqn:Hwo; [|discriminate]. cbn [andb] in H.
      stepped H; cbn.
      apply inv_set_node; [assumption| |apply pre_refl|reflexivity].
      intros HN. fold x in HN. destruct HN as [A B C D E]. constructor; cbn; try assumption.
      + intros Hu. destruct (D Hu) as (D1 & D2 & D3 & D4 & D5 & D6 & D7). repeat split; try assumption.
        unfold view in *; cbn. rewrite Himm in D5. rewrite app_nil_l in D5. assumption.
      + intros Hd. apply avail_up in Hav. congruence.
    - (* SnapPersist *)
      set (x := nodes s n) in *.
      destruct (avail x && sig x) eqn:Hg; [|discriminate]. apply andb_prop in Hg; destruct Hg as [Hav _]. apply avail_up in Hav.
      stepped H; cbn.
      apply inv_set_node; [assumption| |apply pre_refl|reflexivity].
      intros HN. fold x in HN. destruct HN as [A B C D E].
      destruct (D Hav) as (D1 & D2 & D3 & D4 & D5 & D6 & D7).
      constructor; cbn; try assumption.
      + destruct (Nat.leb (snapc x) (efirst x)) eqn:El; [assumption|]. apply Nat.leb_gt in El. lia.
      + intros _. repeat split; try assumption. destruct (Nat.leb (snapc x) (efirst x)); lia.
      + intros Hd; congruence.
    - (* FlushCommit *)
      set (x := nodes s n) in *.
      destruct (avail x) eqn:Hav; [|discriminate]. apply avail_up in Hav. stepped H; cbn.
      apply inv_set_node; [assumption| |apply pre_refl|reflexivity].
      intros HN. fold x in HN. destruct HN as [A B C D E].
      destruct (D Hav) as (D1 & D2 & D3 & D4 & D5 & D6 & D7).
      constructor; cbn; try assumption.
      + intros _. repeat split; try assumption; try (unfold view in *; cbn; assumption).
      + intros Hd; congruence.
    - exact (Trunc mm (or_introl eq_refl)).
    - exact (Trunc mm (or_intror eq_refl)).
    - (* TruncLocal *)
      set (x := nodes s n) in *.
      destruct (avail x) eqn:Hav; cbn [andb] in H; [|discriminate]. apply avail_up in Hav.
      match type of H with (if ?b then _ else _) = _ => destruct b; [|discriminate] end.
      stepped H; cbn.
      apply inv_set_node; [assumption| |apply pre_refl|reflexivity].
      intros HN. fold x in HN. destruct HN as [A B C D E].
      destruct (D Hav) as (D1 & D2 & D3 & D4 & D5 & D6 & D7).
      pose proof (tr_first_le (fsz (cfg s)) (snap x)) as Ht.
      constructor; cbn -[Nat.max tr_first]; try assumption.
      + unfold tr_first in *. destruct (Nat.eqb (snap x) 0) eqn:E0; [lia|]. apply Nat.eqb_neq in E0. lia.
      + intros _. repeat split; try assumption; lia.
      + intros Hd; congruence.
    - (* RSnapshot *)
      destruct Hnosnap as [Hnosnap|Hne]; [|exfalso; apply (Hne m); reflexivity].
      destruct (leader s) as [l|]; [|discriminate]. rewrite Hnosnap in H. cbn in H. discriminate.
    - (* Kill *)
      set (x := nodes s n) in *.
      destruct (up x) eqn:Hu; [|discriminate]. stepped H; cbn. pose proof HI as (HN & _ & _).
      apply (inv_set_node_gen _ _ _ (leader s)); [exact HI| |auto|].
      + specialize (HN n). fold x in HN. destruct HN as [A B C D E].
        destruct (D Hu) as (D1 & D2 & D3 & D4 & D5 & D6 & D7).
        constructor; cbn; try assumption.
        * intros; discriminate.
        * intros _. exists (applied x). repeat split; try lia.
          unfold dview, view in *; cbn. rewrite D6, D7. assumption.
      + (* the killed node is not the leader any more *)
        intros l Hl. destruct (leader s) as [l0|]; [|discriminate].
        destruct (Nat.eqb l0 n) eqn:En; [discriminate|]. split; [exact Hl|]. intros ->. inversion Hl; subst l0.
        rewrite Nat.eqb_refl in En. discriminate.
    - (* Restart *)
      set (x := nodes s n) in *.
      destruct (up x) eqn:Hu; [discriminate|]. stepped H; cbn. pose proof HI as (HN & _ & _).
      apply (inv_set_node_gen _ _ _ (leader s)); [exact HI| |auto|intros l Hl; split; [exact Hl|reflexivity]].
      specialize (HN n). fold x in HN. destruct HN as [A B C D E].
      destruct (E Hu) as (d & E1 & E2 & E3 & E4).
      assert (Hlo : Nat.leb (Nat.max 1 (snap x)) (efirst x) = false) by (apply Nat.leb_gt; lia).
      unfold restart_node. rewrite Hlo, Hwal.
      constructor; cbn; try assumption.
      + intros _. repeat split; try lia.
        unfold view; cbn. unfold seg. rewrite B.
        unfold dview in E4. rewrite <- !app_assoc.
        apply (replay_idem (glog s) (wal x ++ walold x ++ files x) (Nat.max 1 (snap x) - 1) d (hcommit x)); try lia.
        assumption.
      + intros; discriminate.
    - (* Pause *)
      destruct (up (nodes s n)) eqn:Hu; [|discriminate]. stepped H; cbn.
      apply inv_set_node; [assumption| |apply pre_refl|cbn; congruence].
      intros [A B C D E]. constructor; cbn; try assumption.
      + intros _; apply D; assumption.
      + intros; discriminate.
    - (* Resume *)
      destruct (up (nodes s n)) eqn:Hu; [|discriminate]. stepped H; cbn.
      apply inv_set_node; [assumption| |apply pre_refl|cbn; congruence].
      intros [A B C D E]. constructor; cbn; try assumption.
      + intros _; apply D; assumption.
      + intros; discriminate.
    - (* Rotate *)
      destruct (get_new_rg (master s) (peers s) newm) as [[m' ps']|]; [|discriminate].
      stepped H; cbn. assumption.
  Qed.

  Lemma step_inv : forall s e s', good_cfg (cfg s) -> Inv s -> step raft_ok s e = Some s' -> Inv s'.
  Proof.
    intros s e s' (Hwal & Hclamp & Hnosnap) HI H. eapply step_inv_gen; try eassumption. left; assumption.
  Qed.

  Lemma run_inv : forall es s s', good_cfg (cfg s) -> Inv s -> run raft_ok s es = Some s' -> Inv s' /\ cfg s' = cfg s.
  Proof.
    induction es as [|e es IH]; intros s s' Hc HI H; cbn in H.
    - stepped H; split; [assumption|reflexivity].
    - destruct (step raft_ok s e) as [s1|] eqn:Hs; [|discriminate].
      pose proof (step_cfg _ _ _ Hs) as Hc1.
      destruct (IH s1 s') as [A B]; [rewrite Hc1; assumption|eapply step_inv; eassumption|assumption|].
      split; [assumption|congruence].
  Qed.
End RaftFacts.

Lemma count_all : forall n, count (fun _ => true) n = n.
Proof.
  intros n; unfold count.
  assert (H : forall l : list nat, filter (fun _ => true) l = l) by (induction l; cbn; congruence).
  rewrite H, seq_length; reflexivity.
Qed.

Lemma inv_init : forall c, 0 < nn c -> Inv (init c).
Proof.
  intros c Hn. unfold Inv, init; cbn. split; [|split].
  - intros n. constructor; cbn; try lia; try reflexivity; try (intros; discriminate).
    intros _. repeat split; try lia; try reflexivity.
  - intros l Hl; discriminate.
  - rewrite count_all. lia.
Qed.
