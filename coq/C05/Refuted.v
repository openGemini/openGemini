(* C05: what fails without the repairs - in the code before the fix named at each witness (cfg_current, tcfg_current,
   commit_result_current, apply_then_replay), in the code as it is (cfg_today: the forced truncation; the election of a
   master that has not caught up, which no flag of cfg_repaired touches), and in variants that were never in the code
   but that a small change produces (the seeded changes C05-m4, C05-m5, C05-m7). Group-machine runs are under the
   reference raft oracle (which has the assumed raft facts), with at most a minority of nodes down at every step.
   Witnesses closed by vm_compute. Each defect of the code was first reproduced on the real code by the harness
   (props/C05/NOTES.md). *)
From Coq Require Import List Arith NArith ZArith Bool Lia.
From OG Require Import C05.Model C05.Trunc C05.TruncProofs C05.Catchup C05.ReadPath C05.RestartRace C05.TruncPM C05.Persist.
Import ListNotations.

(* The witnesses are stated as "exists s, run .. = Some s /\ P s" and proved from the match form, which evaluates
   without the end state ever appearing in a goal (written out, it is a large term that Qed has to check again). *)
Lemma some_witness {A} (P : A -> Prop) (r : option A) :
  match r with Some s => P s | None => False end -> exists s, r = Some s /\ P s.
Proof. destruct r as [s|]; [intros H; exists s; split; [reflexivity|exact H]|contradiction]. Qed.

(* every prefix of the trace keeps a majority available *)
Fixpoint minority_always (s : sys) (es : list event) : bool :=
  minority_down s &&
  match es with
  | [] => true
  | e :: r => match step raft_ref s e with Some s' => minority_always s' r | None => false end
  end.

(* Before fix 29caa41: ClearEntryLog is applied with the LEADER's index on every member. A member whose own snapshot index lies in an
   earlier entry-log file loses the entries (snapshot, first) from its log; its next restart gets ErrCompacted from
   Entries(snapshot, commit+1), replays nothing, yet sets appliedIndex = commit: committed entries it had not applied
   before the kill are never applied. The replica counts as caught up and answers with a stale value. *)
Definition trunc_witness : list event :=
  [ RElect 0;
    Propose 0 [(1%N, 10%Z)]; RReplicate 1 1; RReplicate 2 1; RCommit 1; RLearn 0 1; RLearn 1 1; RLearn 2 1;
    Apply 0; Apply 1; Apply 2;
    UpdSnapc 1; FlushSwap 1; SnapPersist 1; FlushCommit 1;                       (* member 1 flushes: snapshot index 1 *)
    Propose 0 [(2%N, 20%Z)]; Propose 0 [(3%N, 30%Z)]; RReplicate 1 3; RReplicate 2 3; RCommit 3;
    RLearn 0 3; RLearn 1 3; RLearn 2 3; Apply 0; Apply 0; Apply 1; Apply 1; Apply 2; Apply 2;
    UpdSnapc 0; FlushSwap 0; SnapPersist 0; FlushCommit 0;                       (* leader flushes: snapshot index 3 *)
    TruncPropose 3; RReplicate 1 4; RReplicate 2 4; RCommit 4; RLearn 0 4; RLearn 1 4; RLearn 2 4;
    Apply 0; Apply 1; Apply 2;                                                   (* file 1 (entries 1,2) deleted everywhere *)
    Propose 0 [(1%N, 11%Z)]; RReplicate 1 5; RReplicate 2 5; RCommit 5; RLearn 0 5; Apply 0;  (* acknowledged overwrite *)
    RLearn 1 5;                                                                  (* member 1 persisted commit 5, applied 4 *)
    Kill 1; Restart 1 ].

Theorem truncate_replay_refuted :
  exists es s, run raft_ref (init (cfg_current 3 2)) es = Some s /\
    minority_always (init (cfg_current 3 2)) es = true /\
    In (0, 4%N, [(1%N, 11%Z)]) (acked s) /\
    caught_up s 1 = true /\ read s 1 1%N = Some 10%Z /\ get (ents_store (glog s)) 1%N = Some 11%Z.
Proof. exists trunc_witness. apply some_witness. vm_compute. repeat split. left; reflexivity. Qed.

(* the same trace is harmless with the member-local clamp *)
Example truncate_witness_repaired :
  match run raft_ref (init (cfg_repaired 3 2)) trunc_witness with
  | Some s => caught_up s 1 = true /\ read s 1 1%N = Some 11%Z
  | None => False
  end.
Proof. vm_compute. repeat split. Qed.

(* Before fix cfc2c3f: the propose counter restarts at 0 with the process: an entry proposed by the previous incarnation (same
   identity, same propose id) that commits after the restart acknowledges a NEW waiting writer whose own entry is
   not committed - and may never be. *)
Definition pid_witness : list event :=
  [ RElect 1;
    Propose 0 [(1%N, 10%Z)];            (* node 0, propose id 1, forwarded to leader 1 *)
    Kill 0; Restart 0;                  (* killed during the write; counter restarts *)
    RReplicate 2 1; RCommit 1;
    Propose 0 [(1%N, 99%Z)];            (* propose id 1 again, waiting *)
    RReplicate 0 1; RLearn 0 1; Apply 0 (* old entry applied: the new writer is acknowledged *) ].

Theorem proposeid_reuse_refuted :
  exists es s o p b, run raft_ref (init (cfg_current 3 2)) es = Some s /\
    minority_always (init (cfg_current 3 2)) es = true /\
    In (o, p, b) (acked s) /\ existsb (entry_eqb (EData o p b)) (glog s) = false /\
    read s 0 1%N = Some 10%Z.
Proof.
  exists pid_witness.
  destruct (some_witness (fun s => minority_always (init (cfg_current 3 2)) pid_witness = true /\
              In (0, 1%N, [(1%N, 99%Z)]) (acked s) /\ existsb (entry_eqb (EData 0 1%N [(1%N, 99%Z)])) (glog s) = false /\
              read s 0 1%N = Some 10%Z) (run raft_ref (init (cfg_current 3 2)) pid_witness)) as (s & E & H).
  - vm_compute. repeat split. left; reflexivity.
  - exists s, 0, 1%N, [(1%N, 99%Z)]. exact (conj E H).
Qed.

Example proposeid_witness_repaired :
  match run raft_ref (init (cfg_repaired 3 2)) pid_witness with
  | Some s => acked s = []
  | None => False
  end.
Proof. vm_compute. reflexivity. Qed.

(* The code as it is (finding C05-forced-truncation-strands-member): forced truncation (clear-entryLog-tolerate-time expired, or the size branch): the leader deletes entries a dead
   member still lacks; when the member rejoins raft installs a snapshot that carries no shard data: the member counts
   as caught up, yet never applies the entries in between. *)
Definition forced_witness : list event :=
  [ RElect 0;
    Propose 0 [(1%N, 10%Z)]; RReplicate 1 1; RReplicate 2 1; RCommit 1; RLearn 0 1; RLearn 1 1; RLearn 2 1;
    Apply 0; Apply 1; Apply 2;
    Kill 2;                                                                        (* a long outage begins *)
    Propose 0 [(1%N, 11%Z)]; Propose 0 [(2%N, 20%Z)]; RReplicate 1 3; RCommit 3; RLearn 0 3; RLearn 1 3;
    Apply 0; Apply 0; Apply 1; Apply 1;                                            (* acknowledged overwrite of key 1 *)
    UpdSnapc 0; FlushSwap 0; SnapPersist 0; FlushCommit 0; UpdSnapc 1; FlushSwap 1; SnapPersist 1; FlushCommit 1;
    TruncForce 3; RReplicate 1 4; RCommit 4; RLearn 0 4; RLearn 1 4; Apply 0; Apply 1;   (* entries 1,2 deleted on 0 and 1 *)
    Restart 2; RSnapshot 2 ].

Theorem forced_truncation_strands_member_refuted :
  exists es s, run raft_ref (init (cfg_today 3 2)) es = Some s /\
    minority_always (init (cfg_today 3 2)) es = true /\
    In (0, 2%N, [(1%N, 11%Z)]) (acked s) /\
    avail (nodes s 2) = true /\ applied (nodes s 2) = 3 /\ read s 2 1%N = Some 10%Z /\ read s 2 2%N = None /\
    get (ents_store (firstn 3 (glog s))) 1%N = Some 11%Z.
Proof. exists forced_witness. apply some_witness. vm_compute. repeat split. right; left; reflexivity. Qed.

(* with trunc_all the forced proposal is simply not enabled while a member lacks the index *)
Example forced_witness_repaired : run raft_ref (init (cfg_repaired 3 2)) forced_witness = None.
Proof. vm_compute. reflexivity. Qed.

(* Before fix 9767637: dealCommitData hands the waiting writer the result of Unmarshal only (the deferred call captures err before
   the apply runs): a failed local apply is acknowledged as success. *)
Theorem ack_despite_apply_error_refuted :
  exists u a, commit_result_current u a = true /\ a = false.
Proof. exists true, false. split; reflexivity. Qed.

(* Before fix 5ce0b1e: the tolerance timer of the truncation decision survives the loss of the leadership (a round in
   which the node is not the leader returns before the timer is looked at). A node that led during a first, short
   outage and gets the leadership back during a second short outage days later forces the truncation at once:
   every member was seen alive one minute before, the tolerate time is six hours. Time in minutes. *)
Definition stale_rounds : list round :=
  let dn := [true; true; false] in let al := [true; true; true] in
  [ mkRound 0 true dn [100%N; 100%N; 40%N] 90%N;        (* first outage seen as the leader: timer starts *)
    mkRound 1 false dn [100%N; 100%N; 40%N] 90%N;       (* leadership lost *)
    mkRound 2 false al [100%N; 100%N; 100%N] 90%N;      (* member back, group healthy: seen as a follower *)
    mkRound 4000 false al [200%N; 200%N; 200%N] 90%N ]. (* days later, still healthy *)
Definition stale_last : round := mkRound 4001 true [true; true; false] [200%N; 200%N; 150%N] 190%N.

Theorem stale_tolerance_timer_refuted :
  exists T L pre r idx q, clock_mono (pre ++ [r]) /\ snap_stays (pre ++ [r]) /\
    snd (decide tcfg_current T L (tstate tcfg_current T L None pre) r) = DForce idx /\
    In q pre /\ all_alive q = true /\ (r_now r - r_now q <= T)%Z.
Proof.
  exists 360%Z, (mkLay 30000 1 200), stale_rounds, stale_last, 190%N, (mkRound 4000 false [true; true; true] [200%N; 200%N; 200%N] 90%N).
  split; [|split; [|split; [vm_compute; reflexivity|split; [right; right; right; left; reflexivity|split; [reflexivity|vm_compute; discriminate]]]]].
  - apply clock_monob_ok; reflexivity.
  - apply snap_staysb_ok; reflexivity.
Qed.

(* the repaired rule does not force anything in that round *)
Example stale_rounds_repaired :
  snd (decide tcfg_repaired 360 (mkLay 30000 1 200) (tstate tcfg_repaired 360 (mkLay 30000 1 200) None stale_rounds) stale_last) = DNone.
Proof. vm_compute. reflexivity. Qed.

(* The variant that never clears the timer on health (never in the code; the seeded change C05-m4 is of this kind): a second outage
   long after a first one that was resolved is treated as already expired although the leader itself saw the group
   healthy in between *)
Theorem never_cleared_timer_refuted :
  exists T L pre r idx q, clock_mono (pre ++ [r]) /\ snap_stays (pre ++ [r]) /\
    snd (decide tcfg_noclear T L (tstate tcfg_noclear T L None pre) r) = DForce idx /\
    In q pre /\ r_lead q = true /\ r_snap q <> 0%N /\ all_alive q = true /\ (r_now r - r_now q <= T)%Z.
Proof.
  exists 360%Z, (mkLay 30000 1 200),
         [ mkRound 0 true [true; true; false] [100%N; 100%N; 40%N] 90%N; mkRound 1 true [true; true; true] [100%N; 100%N; 100%N] 90%N;
           mkRound 4000 true [true; true; true] [200%N; 200%N; 200%N] 190%N ],
         (mkRound 4001 true [true; true; false] [200%N; 200%N; 150%N] 190%N), 190%N,
         (mkRound 4000 true [true; true; true] [200%N; 200%N; 200%N] 190%N).
  split; [|split; [|split; [vm_compute; reflexivity|split; [right; right; left; reflexivity|split; [reflexivity|split; [discriminate|split; [reflexivity|vm_compute; discriminate]]]]]]].
  - apply clock_monob_ok; reflexivity.
  - apply snap_staysb_ok; reflexivity.
Qed.

(* Entry-log lookup without the "raftIndex is exactly the first index of a rotated file" case (never in the code; the
   seeded change C05-m5): the first entry of a middle file is not found, its term is unavailable, and the leader
   sends a snapshot (which carries no shard data) to a follower that only needs entries the leader still has *)
Theorem lookup_without_exact_case_refuted :
  exists E i snp, wf_files E /\ (log_first E <= i)%N /\ (i <= log_last E)%N /\
    seek false E i <> SFound i /\ send_append false E snp (i + 1) = false /\ send_append true E snp (i + 1) = true.
Proof.
  exists (layout_files 3 1 8), 4%N, 7%N. vm_compute. repeat split; try reflexivity; try discriminate.
Qed.

(* the forced step of forced_witness is exactly what the hypothesis of Props.catch_up_from_log_guaranteed excludes:
   member 2 holds one committed entry when the leader forces the truncation with index 3 *)
Fixpoint upto_force (es : list event) : list event :=
  match es with
  | [] => []
  | TruncForce _ :: _ => []
  | e :: r => e :: upto_force r
  end.

Example forced_step_is_not_sound :
  match run raft_ref (init (cfg_today 3 2)) (upto_force forced_witness) with
  | Some s => ~ sound s (TruncForce 3)
  | None => False
  end.
Proof.
  vm_compute. intros [H|H]; [discriminate|]. specialize (H 2). vm_compute in H. lia.
Qed.

(* The code as it is (finding C05-master-elected-before-catch-up), the read path: when the store of the master partition fails, electRgMaster makes the FIRST ONLINE slave peer the
   master and queries read the master partition - whether or not that member has caught up. Member 1 is down during
   an acknowledged overwrite, restarts, and right then the master's store is killed: with one store down the replica
   that answers returns the old value. Holds with every flag of the configuration repaired (cfg_repaired). *)
Theorem master_elected_before_catch_up_refuted :
  exists es s nm ps', run raft_ref (init (cfg_repaired 3 2)) es = Some s /\
    minority_always (init (cfg_repaired 3 2)) es = true /\
    In (0, 2%N, [(1%N, 11%Z)]) (acked s) /\
    elect_today s = Some (nm, ps') /\ avail (nodes s nm) = true /\ caught_up s nm = false /\
    read s nm 1%N = Some 10%Z /\ get (ents_store (glog s)) 1%N = Some 11%Z.
Proof.
  exists lagmaster_trace.
  destruct (some_witness (fun s => minority_always (init (cfg_repaired 3 2)) lagmaster_trace = true /\
              In (0, 2%N, [(1%N, 11%Z)]) (acked s) /\ elect_today s = Some (1, [0; 2]) /\ avail (nodes s 1) = true /\
              caught_up s 1 = false /\ read s 1 1%N = Some 10%Z /\ get (ents_store (glog s)) 1%N = Some 11%Z)
             (run raft_ref (init (cfg_repaired 3 2)) lagmaster_trace)) as (s & E & H).
  - vm_compute. repeat split. left; reflexivity.
  - exists s, 1, [0; 2]. exact (conj E H).
Qed.

(* Before fix 2f484be the restart replay was not ordered before the entries raft publishes after the restart (startRaftNode starts
   the commit reader, Assign runs the replay later): a member killed with entry 1 applied ((1,10)), entry 2 = the
   acknowledged overwrite (1,11) committed while it was down. If entry 2 is applied first and the replay of entry 1
   lands on top, the member counts both entries as applied and answers 10 for good. *)
Definition race_node : node :=
  mkNode false false [EData 0 1%N [(1%N, 10%Z)]; EData 0 2%N [(1%N, 11%Z)]] 0 1 0 [(1%N, 10%Z)] [] [] 0 0 [] [] false [] 0%N.

Theorem replay_after_newer_entries_refuted :
  exists c n x es, applied (apply_then_replay c n x es) = 2 /\
    get (view (apply_then_replay c n x es)) 1%N = Some 10%Z /\
    get (ents_store (firstn 2 (elog x))) 1%N = Some 11%Z /\
    get (view (replay_then_apply c n x es)) 1%N = Some 11%Z.
Proof. exists (cfg_today 3 2), 1, race_node, [EData 0 2%N [(1%N, 11%Z)]]. vm_compute. repeat split. Qed.

(* The same state seen through the weakest rule: the member the election of the code picks does NOT cover the acknowledged
   overwrite (covers_acks = false) and answers stale; an election among covering members picks member 2, which answers 11 *)
Theorem master_not_covering_acks_refuted :
  exists es s, run raft_ref (init (cfg_repaired 3 2)) es = Some s /\
    elect_today s = Some (1, [0; 2]) /\ covers_acks s 1 = false /\ read s 1 1%N = Some 10%Z /\
    elect_covering s = Some (2, [1; 0]) /\ read s 2 1%N = Some 11%Z.
Proof. exists lagmaster_trace. apply some_witness. vm_compute. repeat split. Qed.

(* When the forced branch can still strand a member with the repaired timer (the code as it is): the timer is per GROUP.
   Member 1 is down for six hours; it comes back and member 2 goes down between two rounds - no round sees the group
   healthy, the timer runs on, and the next round gives up member 2's entries although member 2 was alive two minutes
   before (its Match 90 is below the forced index 95). *)
Definition handover_rounds : list round :=
  map (fun t => mkRound t true [true; false; true] [100%N; 40%N; 100%N] 95%N) [0; 60; 120; 180; 240; 300; 359]%Z.
Definition handover_last : round := mkRound 361 true [true; true; false] [100%N; 100%N; 90%N] 95%N.

Theorem group_timer_gives_up_recently_alive_member_refuted :
  exists T L pre r idx q j, clock_mono (pre ++ [r]) /\ snap_stays (pre ++ [r]) /\
    snd (decide tcfg_repaired T L (tstate tcfg_repaired T L None pre) r) = DForce idx /\
    In q pre /\ nth j (r_alive q) true = true /\ nth j (r_alive r) true = false /\ (r_now r - r_now q <= T)%Z /\
    (nth j (r_match r) 0 < idx)%N.
Proof.
  exists 360%Z, (mkLay 30000 1 100), handover_rounds, handover_last, 95%N,
         (mkRound 359 true [true; false; true] [100%N; 40%N; 100%N] 95%N), 2.
  split; [|split; [|split; [vm_compute; reflexivity|split; [|split; [reflexivity|split; [reflexivity|split; [vm_compute; discriminate|vm_compute; reflexivity]]]]]]].
  - apply clock_monob_ok; reflexivity.
  - apply snap_staysb_ok; reflexivity.
  - unfold handover_rounds. cbn. do 6 right. left. reflexivity.
Qed.

(* A follower that answers on the LEADER path (send first, write in parallel) - e.g. an ex-leader whose flag is never
   reset on step-down (never in the code; the seeded change C05-m7): member 1 acknowledges index 1 before it is durable,
   the leader (member 0) commits with the quorum {0,1} and acknowledges the client, member 1 is killed: the write is
   durable on one member of three; if the leader's store is lost next, no surviving member has it *)
Theorem ack_before_persist_refuted :
  exists es s, prun 3 false pinit es = Some s /\ pcommit s = 1 /\
    cnt 3 (fun m => Nat.leb (pcommit s) (pd s m)) = 1 /\ ~ 3 < 2 * cnt 3 (fun m => Nat.leb (pcommit s) (pd s m)).
Proof.
  exists [PRecv 0 1; PPersist 0; PAck 0; PRecv 1 1; PAck 1; PCommit 1; PKill 1]. apply some_witness. vm_compute. repeat split. lia.
Qed.
