(* C05: what every run of the repaired configuration reaches (reach, survives); the reference oracle has the raft facts;
   replica-group rotation. *)
From Coq Require Import List Arith NArith ZArith Bool Lia Permutation.
From OG Require Import C05.Model C05.Proofs C05.Invariant C05.Theorems.
Import ListNotations.

(* Invariant.good_cfg with a non-empty group, fresh propose ids (needed for InvP only) and trunc_all (needed by
   Props.leader_keeps_what_members_lack only) *)
Definition wf_cfg (c : config) : Prop :=
  0 < nn c /\ wal_on c = true /\ clamp c = true /\ pid_fresh c = true /\ trunc_all c = true /\ snap_install c = false.

Section Traces.
  Variable raft_ok : sys -> event -> bool.
  Hypothesis H_elect : forall s n, raft_ok s (RElect n) = true ->
    up (nodes s n) = true /\ prefixb (glog s) (elog (nodes s n)) = true.
  Hypothesis H_repl : forall s m k, raft_ok s (RReplicate m k) = true ->
    exists l, leader s = Some l /\ m <> l /\ up (nodes s m) = true /\ hcommit (nodes s m) <= k /\
              k <= length (elog (nodes s l)) /\
              (prefixb (glog s) (elog (nodes s m)) = true -> length (glog s) <= k).
  Hypothesis H_commit : forall s k, raft_ok s (RCommit k) = true ->
    exists l, leader s = Some l /\ length (glog s) <= k /\ k <= length (elog (nodes s l)) /\
              nn (cfg s) < 2 * count (fun m => prefixb (firstn k (elog (nodes s l))) (elog (nodes s m))) (nn (cfg s)).
  Hypothesis H_learn : forall s m c, raft_ok s (RLearn m c) = true ->
    up (nodes s m) = true /\ hcommit (nodes s m) <= c /\ c <= length (glog s) /\
    firstn c (elog (nodes s m)) = firstn c (glog s).

  Lemma raft_ok_safe : raft_safe raft_ok.
  Proof. exact (Build_raft_safe _ H_elect H_repl H_commit H_learn). Qed.

  Lemma run_invp : forall es s s', good_cfg (cfg s) -> pid_fresh (cfg s) = true -> Inv s -> InvP s ->
    run raft_ok s es = Some s' -> InvP s'.
  Proof.
    induction es as [|e es IH]; intros s s' Hc Hf HI HP H; cbn in H.
    - inversion H; subst; assumption.
    - destruct (step raft_ok s e) as [s1|] eqn:Hs; [|discriminate].
      pose proof (step_cfg raft_ok _ _ _ Hs) as Hc1.
      apply (IH s1 s'); try (rewrite Hc1; assumption); try assumption.
      + eapply (step_inv raft_ok raft_ok_safe); eassumption.
      + eapply (step_invp raft_ok raft_ok_safe); eassumption.
  Qed.

  Lemma reach : forall c es s, wf_cfg c -> run raft_ok (init c) es = Some s -> Inv s /\ InvP s /\ cfg s = c.
  Proof.
    intros c es s (Hn & Hw & Hcl & Hf & Hta & Hsi) H.
    destruct (run_inv raft_ok raft_ok_safe es (init c) s) as [A B]; try assumption.
    - repeat split; assumption.
    - apply inv_init; assumption.
    - split; [assumption|split; [|assumption]].
      apply (run_invp es (init c) s); [repeat split; assumption|assumption|apply inv_init; assumption|apply invp_init|assumption].
  Qed.

  (* durable logs agree with the committed sequence; what is read is the last-write-wins image of the applied
     prefix; with a majority available some available node holds every committed entry *)
  Lemma survives : forall c es s, wf_cfg c -> run raft_ok (init c) es = Some s ->
    (forall n, hcommit (nodes s n) <= length (glog s) /\
               firstn (hcommit (nodes s n)) (elog (nodes s n)) = firstn (hcommit (nodes s n)) (glog s)) /\
    (forall l, leader s = Some l -> pre (glog s) (elog (nodes s l))) /\
    (forall n, up (nodes s n) = true ->
               applied (nodes s n) <= hcommit (nodes s n) /\
               forall k, read s n k = get (ents_store (firstn (applied (nodes s n)) (glog s))) k) /\
    (minority_down s = true -> exists n, n < nn c /\ avail (nodes s n) = true /\ pre (glog s) (elog (nodes s n))).
  Proof.
    intros c es s Hc H. destruct (reach _ _ _ Hc H) as ((HN & HL & HQ) & _ & Hcfg).
    split; [|split; [|split]].
    - intros n. destruct (HN n) as [A B _ _ _]. split; assumption.
    - intros l Hl. apply HL; assumption.
    - intros n Hu. destruct (HN n) as [_ _ _ D _]. destruct (D Hu) as (D1 & _ & _ & _ & D5 & _). split; [assumption|apply D5].
    - intros Hm. unfold minority_down, quorum in Hm. apply Nat.ltb_lt in Hm. rewrite Hcfg in *.
      destruct (majorities_meet _ _ _ HQ Hm) as (n & Hn & Hp & Ha).
      exists n; split; [assumption|split; [assumption|apply prefixb_spec; assumption]].
  Qed.

End Traces.

Lemma raft_ref_safe : raft_safe raft_ref.
Proof.
  constructor.
  - intros s n H. cbn in H. apply andb_prop in H; destruct H as [H _]. apply andb_prop in H; destruct H as [H1 H2].
    split; [apply avail_up|]; assumption.
  - intros s m k H. cbn in H. destruct (leader s) as [l|]; [|discriminate]. exists l.
    repeat (apply andb_prop in H; destruct H as [H ?]).
    split; [reflexivity|]. split; [apply Nat.eqb_neq; apply negb_true_iff; assumption|].
    split; [apply avail_up; assumption|]. split; [apply Nat.leb_le; assumption|]. split; [apply Nat.leb_le; assumption|].
    intros Hp. rewrite Hp in *. cbn in *. apply Nat.leb_le; assumption.
  - intros s k H. cbn in H. destruct (leader s) as [l|]; [|discriminate]. exists l.
    repeat (apply andb_prop in H; destruct H as [H ?]).
    split; [reflexivity|]. split; [apply Nat.leb_le; assumption|]. split; [apply Nat.leb_le; assumption|].
    unfold quorum in *. apply Nat.ltb_lt; assumption.
  - intros s m c H. cbn in H. repeat (apply andb_prop in H; destruct H as [H ?]).
    split; [first [assumption|apply avail_up; assumption]|]. split; [apply Nat.leb_le; assumption|].
    assert (Hc : c <= length (glog s)) by (apply Nat.leb_le; assumption). split; [assumption|].
    match goal with Hp : prefixb _ _ = true |- _ => apply prefixb_spec in Hp; destruct Hp as [t Hp] end.
    match goal with Hp : elog _ = _ |- _ => rewrite Hp end.
    rewrite firstn_app, firstn_firstn, Nat.min_id, firstn_length, Nat.min_l by assumption.
    rewrite Nat.sub_diag. cbn. rewrite app_nil_r. reflexivity.
Qed.

Lemma filter_neq_id : forall x l, ~ In x l -> filter (fun p => negb (Nat.eqb p x)) l = l.
Proof.
  intros x l. induction l as [|z l IH]; intros H; cbn; [reflexivity|].
  destruct (Nat.eqb z x) eqn:Ez; cbn.
  - apply Nat.eqb_eq in Ez; subst. exfalso; apply H; left; reflexivity.
  - rewrite IH; [reflexivity|]. intros Hc; apply H; right; assumption.
Qed.

Lemma filter_neq_perm : forall x l, NoDup l -> In x l ->
  Permutation (x :: filter (fun p => negb (Nat.eqb p x)) l) l /\ ~ In x (filter (fun p => negb (Nat.eqb p x)) l).
Proof.
  intros x l Hnd Hin. split.
  - induction l as [|y l IH]; [contradiction|]. inversion Hnd as [|? ? Hy Hnd']; subst. cbn.
    destruct (Nat.eqb y x) eqn:E; cbn.
    + apply Nat.eqb_eq in E; subst y. rewrite filter_neq_id by assumption. apply Permutation_refl.
    + destruct Hin as [->|Hin]; [rewrite Nat.eqb_refl in E; discriminate|].
      eapply perm_trans; [apply perm_swap|]. apply perm_skip. apply IH; assumption.
  - intros Hc. apply filter_In in Hc. destruct Hc as [_ Hc]. rewrite Nat.eqb_refl in Hc. discriminate.
Qed.

Lemma NoDup_filter : forall (f : nat -> bool) l, NoDup l -> NoDup (filter f l).
Proof.
  induction l as [|x l IH]; intros H; cbn; [constructor|]. inversion H; subst.
  destruct (f x); [constructor; [intros Hc; apply filter_In in Hc; tauto|]|]; apply IH; assumption.
Qed.

Lemma get_new_rg_ok : forall m ps newm m' ps', ~ In m ps -> NoDup ps ->
  get_new_rg m ps newm = Some (m', ps') ->
  m' = newm /\ In newm ps /\ Permutation (m' :: ps') (m :: ps) /\ ~ In m' ps' /\ NoDup ps' /\ length ps' = length ps.
Proof.
  intros m ps newm m' ps' Hm Hnd H. unfold get_new_rg in H.
  destruct (Nat.eqb newm m) eqn:E1; [discriminate|]. apply Nat.eqb_neq in E1.
  destruct (existsb (Nat.eqb newm) ps) eqn:E2; [|discriminate].
  destruct (Nat.eqb (length (m :: filter (fun p => negb (Nat.eqb p newm)) ps)) (length ps)) eqn:E3; [|discriminate].
  inversion H; subst; clear H. apply Nat.eqb_eq in E3.
  apply existsb_exists in E2. destruct E2 as (y & Hy & Ey). apply Nat.eqb_eq in Ey; subst y.
  destruct (filter_neq_perm m' ps Hnd Hy) as [P1 P2].
  split; [reflexivity|]. split; [assumption|]. split; [|split; [|split]].
  - eapply perm_trans; [apply perm_swap|]. apply perm_skip. assumption.
  - intros [Hc|Hc]; [congruence|contradiction].
  - constructor; [intros Hc; apply filter_In in Hc; tauto|apply NoDup_filter; assumption].
  - assumption.
Qed.

(* rotation inside a trace keeps the replica group a permutation of its members with exactly one master *)
Definition rg_ok (s : sys) : Prop :=
  ~ In (master s) (peers s) /\ NoDup (peers s) /\ Permutation (master s :: peers s) (seq 0 (nn (cfg s))).

Lemma rg_init : forall c, 0 < nn c -> rg_ok (init c).
Proof.
  intros c H. unfold rg_ok, init; cbn. split; [|split].
  - intros Hc. apply in_seq in Hc. lia.
  - apply seq_NoDup.
  - destruct (nn c) as [|k]; [lia|]. cbn. rewrite Nat.sub_0_r. apply Permutation_refl.
Qed.

Lemma rg_step : forall raft_ok s e s', rg_ok s -> step raft_ok s e = Some s' -> rg_ok s'.
Proof.
  intros raft_ok s e s' (A & B & C) H.
  assert (Hsame : master s' = master s /\ peers s' = peers s /\ cfg s' = cfg s -> rg_ok s').
  { intros (E1 & E2 & E3). unfold rg_ok. rewrite E1, E2, E3. repeat split; assumption. }
  destruct e; cbn [step] in H;
    repeat match type of H with
           | (if ?b then _ else _) = Some _ => destruct b eqn:?; try discriminate
           | match ?x with Some _ => _ | None => _ end = Some _ => destruct x eqn:?; try discriminate
           | match ?x with (_, _) => _ end = Some _ => destruct x eqn:?
           end;
    try (inversion H; subst; apply Hsame; cbn; repeat match goal with |- context [match ?x with _ => _ end] => destruct x end; auto; fail).
  inversion H; subst; clear H. unfold rg_ok; cbn.
  match goal with Hg : get_new_rg _ _ _ = Some _ |- _ => destruct (get_new_rg_ok _ _ _ _ _ A B Hg) as (E1 & E2 & P & N1 & N2 & _) end.
  split; [assumption|split; [assumption|]]. eapply perm_trans; eassumption.
Qed.

Lemma rg_run : forall raft_ok es s s', rg_ok s -> run raft_ok s es = Some s' -> rg_ok s'.
Proof.
  intros raft_ok. induction es as [|e es IH]; intros s s' Hs H; cbn in H; [inversion H; subst; assumption|].
  destruct (step raft_ok s e) as [s1|] eqn:E; [|discriminate]. eapply IH; [eapply rg_step; eassumption|assumption].
Qed.
