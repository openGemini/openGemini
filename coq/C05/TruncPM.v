(* C05 - per-member tolerance periods for the forced truncation branch (a design variant, not in the code).
   In the code one timer per node covers the whole group: it runs while ANY member is down, so when it expires the entries of
   EVERY member that is down in that round are given up - also of a member that was alive a moment ago (another member
   had been down before it; Refuted.group_timer_gives_up_recently_alive_member_refuted). Per-member variant: member j's
   period is the repaired timer rule of Trunc.decide run on the group as seen through j alone (a round "sees the group
   healthy" iff j is alive); the forced index is computed from the Match of every member whose OWN period has not
   expired. Defined from the history of rounds (executable). *)
From Coq Require Import List NArith ZArith Bool Lia.
From OG Require Import C05.Trunc C05.TruncProofs.
Import ListNotations.

(* the round as far as member j is concerned *)
Definition proj (j : nat) (r : round) : round :=
  mkRound (r_now r) (r_lead r) [nth j (r_alive r) true] [] (r_snap r).

Definition pm_state (T : Z) (L : layout) (pre : list round) (j : nat) : option Z :=
  tstate tcfg_repaired T L None (map (proj j) pre).

(* member j's own outage has lasted longer than T in this round: its entries are given up *)
Definition pm_expired (T : Z) (L : layout) (pre : list round) (r : round) (j : nat) : bool :=
  match snd (decide tcfg_repaired T L (pm_state T L pre j) (proj j r)) with DForce _ => true | _ => false end.

Definition pm_counted (n : nat) (T : Z) (L : layout) (pre : list round) (r : round) : list bool :=
  map (fun j => negb (pm_expired T L pre r j)) (seq 0 n).

(* the decision of a node for a group of n members *)
Definition decide_pm (n : nat) (T : Z) (L : layout) (pre : list round) (r : round) : decision :=
  if negb (r_lead r) then DNone
  else if (r_snap r =? 0)%N then DNone
  else if all_alive r then DHealthy (gen_idx L (r_snap r) (min_list (r_match r)))
  else if existsb (pm_expired T L pre r) (seq 0 n)
       then DForce (gen_idx L (r_snap r) (min_list (sel (pm_counted n T L pre r) (r_match r))))
       else DNone.

Lemma all_alive_proj : forall j q, all_alive (proj j q) = nth j (r_alive q) true.
Proof. intros; unfold all_alive, proj; cbn. apply andb_true_r. Qed.

Lemma snap_stays_map_proj : forall j rs, snap_stays rs -> snap_stays (map (proj j) rs).
Proof.
  induction rs as [|r rs IH]; cbn; [trivial|]. intros [H1 H2]. split; [|apply IH; assumption].
  intros Hs x Hx. apply in_map_iff in Hx. destruct Hx as (y & <- & Hy). cbn. apply H1; assumption.
Qed.

(* member j is given up only after ITS OWN continuous outage: in every decision round of a window longer than T this
   node was the leader and saw j not alive *)
Lemma pm_given_up_after_own_outage : forall T L pre r j,
  snap_stays (pre ++ [r]) -> pm_expired T L pre r j = true ->
  exists p a w, pre ++ [r] = p ++ a :: w /\ (T < r_now r - r_now a)%Z /\
                forall q, In q (a :: w) -> r_lead q = true /\ nth j (r_alive q) true = false.
Proof.
  intros T L pre r j Hss H. unfold pm_expired, pm_state in H.
  destruct (snd (decide tcfg_repaired T L (tstate tcfg_repaired T L None (map (proj j) pre)) (proj j r))) as [| |idx] eqn:Hd;
    try discriminate.
  assert (Hss' : snap_stays (map (proj j) pre ++ [proj j r])).
  { change [proj j r] with (map (proj j) [r]). rewrite <- map_app. apply snap_stays_map_proj. assumption. }
  destruct (forced_continuous_outage T L _ _ _ Hss' Hd) as (p' & a' & w' & E & Ht & Hw).
  change [proj j r] with (map (proj j) [r]) in E. rewrite <- map_app in E.
  apply map_eq_app in E. destruct E as (p & rest & E1 & E2 & E3).
  destruct rest as [|a w]; [discriminate|]. cbn in E3. inversion E3 as [[Ea Ew]].
  exists p, a, w. split; [assumption|]. split.
  - subst a'. cbn in Ht. assumption.
  - intros q Hq. assert (Hin : In (proj j q) (a' :: w')).
    { rewrite <- Ea, <- Ew. change (proj j a :: map (proj j) w) with (map (proj j) (a :: w)). apply in_map. assumption. }
    destruct (Hw _ Hin) as [A B]. rewrite all_alive_proj in B. split; assumption.
Qed.

Lemma min_list_le : forall l m x, min_list l = Some m -> In x l -> (m <= x)%N.
Proof.
  induction l as [|y l IH]; intros m x H Hin; [contradiction|]. cbn in H.
  destruct (min_list l) as [m'|] eqn:E.
  - inversion H; subst. destruct Hin as [->|Hin]; [lia|]. specialize (IH m' x eq_refl Hin). lia.
  - inversion H; subst. destruct Hin as [->|Hin]; [lia|]. destruct l; [contradiction|]. cbn in E. destruct (min_list l); discriminate.
Qed.

Lemma sel_nth_in : forall (fl : list bool) (l : list N) j, nth j fl false = true -> j < length l -> In (nth j l 0%N) (sel fl l).
Proof.
  induction fl as [|f fl IH]; intros l j Hf Hj; [destruct j; discriminate|].
  destruct l as [|x l]; [cbn in Hj; lia|]. destruct j; cbn in *.
  - subst f. left; reflexivity.
  - destruct f; [right|]; apply IH; try assumption; lia.
Qed.

