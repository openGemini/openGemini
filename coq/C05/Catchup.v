(* C05: catch-up from the log is guaranteed as long as no truncation gives up entries a member lacks.

   A raft snapshot of RaftDiskStorage carries no shard data (Model.snap_install_node: index and log position jump, the
   shard is untouched). So a rejoining store catches up - applies every committed entry it lacks - only if the
   leader can still ship those entries. This file states precisely when that is guaranteed, over the group machine:

     every truncation uses an index that every member of the group, also a dead one, already holds as part of the
     committed sequence ([sound]: the healthy branch with the Match of ALL members is of this kind, and so is any
     branch under trunc_all; the tolerate-time branch - Match of the ACTIVE members only - and the size branch are
     not, unless they happen to stay below what the dead member holds).

   Then, in every reachable state, every node's log starts strictly inside what every member holds
   (efirst n = 0 \/ efirst n < length (elog m)): the entry before the member's next one is in the leader's log, the
   leader appends (Trunc.send_append / Props.follower_with_prev_in_log_gets_entries) and RSnapshot is never enabled.
   The configuration may be the one coded (trunc_all = false, snap_install = true). *)
From Coq Require Import List Arith NArith ZArith Bool Lia.
From OG Require Import C05.Model C05.Proofs C05.Invariant C05.Theorems.
Import ListNotations.

(* length of the longest common prefix *)
Fixpoint lcp (a b : list entry) : nat :=
  match a, b with
  | x :: a', y :: b' => if entry_eqb x y then S (lcp a' b') else 0
  | _, _ => 0
  end.

(* how much of the committed sequence member m durably holds *)
Definition clen (s : sys) (m : nat) : nat := lcp (elog (nodes s m)) (glog s).

Definition sound (s : sys) (e : event) : Prop :=
  match e with
  | TruncPropose mm | TruncForce mm => trunc_all (cfg s) = true \/ forall m, m < nn (cfg s) -> mm <= clen s m
  | TruncLocal n => trunc_all (cfg s) = true \/ forall m, m < nn (cfg s) -> snap (nodes s n) <= clen s m
  | RSnapshot m => m < nn (cfg s)           (* raft sends snapshots to members of the group only *)
  | _ => True
  end.

Definition base_cfg (c : config) : Prop := 0 < nn c /\ wal_on c = true /\ clamp c = true.

Lemma entry_eqb_refl : forall x, entry_eqb x x = true.
Proof. intros x; apply entry_eqb_eq; reflexivity. Qed.

Lemma lcp_le_l : forall a b, lcp a b <= length a.
Proof. induction a as [|x a IH]; intros [|y b]; cbn; try lia. destruct (entry_eqb x y); [specialize (IH b)|]; lia. Qed.

Lemma lcp_le_r : forall a b, lcp a b <= length b.
Proof. induction a as [|x a IH]; intros [|y b]; cbn; try lia. destruct (entry_eqb x y); [specialize (IH b)|]; lia. Qed.

Lemma lcp_app_l : forall a t b, lcp a b <= lcp (a ++ t) b.
Proof.
  induction a as [|x a IH]; intros t [|y b]; cbn; try lia.
  destruct (entry_eqb x y); [specialize (IH t b)|]; lia.
Qed.

Lemma lcp_app_r : forall a b t, lcp a b <= lcp a (b ++ t).
Proof.
  induction a as [|x a IH]; intros [|y b] t; cbn; try lia.
  destruct (entry_eqb x y); [specialize (IH b t)|]; lia.
Qed.

Lemma lcp_pre_r : forall a g g', pre g g' -> lcp a g <= lcp a g'.
Proof. intros a g g' [t ->]; apply lcp_app_r. Qed.

Lemma lcp_firstn_pre : forall g t k, lcp (firstn k (g ++ t)) g = Nat.min k (length g).
Proof.
  induction g as [|x g IH]; intros t k; cbn.
  - destruct (firstn k t); cbn; lia.
  - destruct k; cbn; [reflexivity|]. rewrite entry_eqb_refl, IH. reflexivity.
Qed.

Lemma lcp_firstn_eq : forall a g h, firstn h a = firstn h g -> h <= length g -> h <= lcp a g.
Proof.
  induction a as [|x a IH]; intros [|y g] h H Hl; destruct h; cbn in *; try lia; try discriminate.
  inversion H; subst. rewrite entry_eqb_refl. apply le_n_S. apply IH; [assumption|lia].
Qed.

Lemma tr_first_mono : forall f a b, a <= b -> tr_first f a <= tr_first f b.
Proof.
  intros f a b H. unfold tr_first.
  destruct (Nat.eqb a 0) eqn:Ea; [lia|]. apply Nat.eqb_neq in Ea.
  destruct (Nat.eqb b 0) eqn:Eb; [apply Nat.eqb_eq in Eb; lia|].
  destruct f as [|f]; [cbn; lia|]. apply Nat.mul_le_mono_r. apply Nat.div_le_mono; lia.
Qed.

Lemma trunc_idx_cut : forall c mm snp, tr_first (fsz c) (trunc_idx c mm snp) <= tr_first (fsz c) mm.
Proof.
  intros c mm snp. unfold trunc_idx, same_file.
  destruct (Nat.eqb (tr_first (fsz c) mm) (tr_first (fsz c) snp)) eqn:E.
  - apply Nat.eqb_eq in E. lia.
  - apply tr_first_mono. lia.
Qed.

Lemma lcp_mono : forall a a' g g', pre a a' -> pre g g' -> lcp a g <= lcp a' g'.
Proof. intros a a' g g' [t ->] Hg. etransitivity; [apply lcp_app_l|apply lcp_pre_r; assumption]. Qed.

(* The invariant, for any measure h s m of how much of
   the committed sequence member m is known to hold in state s. Two measures are used: clen (below) and the persisted
   commit index. Cut positions - the file boundary of every ClearEntryLog index in any log, and every first index -
   lie strictly inside what every member holds. *)
Section Held.
  Variable h : sys -> nat -> nat.

  Definition below (s : sys) (c : nat) : Prop := forall m, m < nn (cfg s) -> c = 0 \/ c < h s m.

  Definition InvH (s : sys) : Prop :=
    (forall n idx, In (EClear idx) (elog (nodes s n)) -> below s (tr_first (fsz (cfg s)) idx)) /\
    (forall n, below s (efirst (nodes s n))).

  (* the truncation proposed or performed by e uses an index every member holds: [sound] for the measure h
     (sound s e is safe clen s e, by conversion) *)
  Definition safe (s : sys) (e : event) : Prop :=
    match e with
    | TruncPropose mm | TruncForce mm => trunc_all (cfg s) = true \/ forall m, m < nn (cfg s) -> mm <= h s m
    | TruncLocal n => trunc_all (cfg s) = true \/ forall m, m < nn (cfg s) -> snap (nodes s n) <= h s m
    | RSnapshot m => m < nn (cfg s)
    | _ => True
    end.

  Lemma below_le : forall s c c', c' <= c -> below s c -> below s c'.
  Proof. intros s c c' H Hb m Hm. destruct (Hb m Hm) as [->|Hlt]; [left; lia|]. destruct c'; [left; reflexivity|right; lia]. Qed.

  Lemma below_max : forall s a b, below s a -> below s b -> below s (Nat.max a b).
  Proof. intros s a b Ha Hb m Hm. destruct (Ha m Hm), (Hb m Hm); subst; try (left; reflexivity); right; lia. Qed.

  Lemma below_tr_first : forall s f t, (forall m, m < nn (cfg s) -> t <= h s m) -> below s (tr_first f t).
  Proof.
    intros s f t H m Hm. specialize (H m Hm). pose proof (tr_first_le f t) as Ht.
    destruct t; [left; reflexivity|]. destruct (tr_first f (S t)); [left; reflexivity|right; lia].
  Qed.

  Lemma invh_init : forall c, InvH (init c).
  Proof. intros c. split; cbn; [intros n idx []|intros n m Hm; left; reflexivity]. Qed.

  (* no member ever needs a raft snapshot *)
  Lemma invh_no_snapshot : forall raft_ok s m, InvH s -> (forall l, h s l <= length (elog (nodes s l))) -> m < nn (cfg s) ->
    (forall n, efirst (nodes s n) = 0 \/ efirst (nodes s n) < length (elog (nodes s m))) /\
    step raft_ok s (RSnapshot m) = None.
  Proof.
    intros raft_ok s m [_ K2] Hle Hm.
    assert (Hb : forall n, efirst (nodes s n) = 0 \/ efirst (nodes s n) < length (elog (nodes s m))).
    { intros n. destruct (K2 n m Hm) as [E|Hlt]; [left; assumption|right]. specialize (Hle m). lia. }
    split; [exact Hb|]. cbn [step]. destruct (leader s) as [l|]; [|reflexivity].
    destruct (Nat.ltb (length (elog (nodes s m))) (efirst (nodes s l))) eqn:E.
    - apply Nat.ltb_lt in E. destruct (Hb l); lia.
    - rewrite !andb_false_r. reflexivity.
  Qed.

  Variable raft_ok : sys -> event -> bool.

  (* one node changes and neither its log nor its first index does *)
  Ltac same_logs H Frame := stepped H; apply Frame;
    [intros n0 idx; cbn; unfold upd; destruct (Nat.eqb n0 _) eqn:E; [apply Nat.eqb_eq in E; subst n0|]; cbn; intros Hin; left; eauto
    |intros n0; left; cbn; unfold upd; destruct (Nat.eqb n0 _) eqn:E; [apply Nat.eqb_eq in E; subst n0|]; reflexivity].

  Lemma step_invh : forall s e s',
    (forall m, m < nn (cfg s) -> hcommit (nodes s m) <= h s m) ->
    (forall m, m < nn (cfg s) -> h s m <= h s' m) ->
    InvH s -> safe s e -> (forall m, e <> RSnapshot m) -> step raft_ok s e = Some s' -> InvH s'.
  Proof.
    intros s e s' Hge Hmono [K1 K2] Hsafe Hns H.
    assert (Hcfg : cfg s' = cfg s) by (eapply step_cfg; eassumption).
    (* it is enough to say where the ClearEntryLog entries and the first indexes of s' come from *)
    assert (Frame : (forall n idx, In (EClear idx) (elog (nodes s' n)) ->
                       (exists n0, In (EClear idx) (elog (nodes s n0))) \/ below s (tr_first (fsz (cfg s)) idx)) ->
                    (forall n, efirst (nodes s' n) = efirst (nodes s n) \/ below s (efirst (nodes s' n))) -> InvH s').
    { assert (Hb : forall c, below s c -> below s' c).
      { intros c Hb m Hlt. rewrite Hcfg in Hlt. destruct (Hb m Hlt) as [->|Hc]; [left; reflexivity|]. right. specialize (Hmono m Hlt). lia. }
      intros F1 F2. split.
      - intros n idx Hin. rewrite Hcfg. apply Hb. destruct (F1 _ _ Hin) as [[n0 H0]|Hc]; [eapply K1; eassumption|assumption].
      - intros n. apply Hb. destruct (F2 n) as [->|Hc]; [apply K2|assumption]. }
    (* under trunc_all the guard of a truncation says that every member has persisted the index as committed *)
    assert (Hguard : forall t, negb (trunc_all (cfg s)) || members_have s t = true ->
              (trunc_all (cfg s) = true \/ forall m, m < nn (cfg s) -> t <= h s m) -> forall m, m < nn (cfg s) -> t <= h s m).
    { intros t Hg [Hta|Hall]; [|exact Hall]. rewrite Hta in Hg. cbn [negb orb] in Hg.
      unfold members_have in Hg. rewrite forallb_forall in Hg. intros m Hm. etransitivity; [|apply Hge; assumption].
      apply Nat.leb_le; apply Hg; apply in_seq; lia. }
    assert (Trunc : forall mm, e = TruncPropose mm \/ e = TruncForce mm -> InvH s').
    { intros mm He.
      assert (Hmm : trunc_all (cfg s) = true \/ forall m, m < nn (cfg s) -> mm <= h s m) by (destruct He as [-> | ->]; exact Hsafe).
      destruct (step_trunc _ _ _ _ _ He H) as (l & Hl & Hg & ->). apply Frame; cbn; unfold upd.
      - intros n0 idx Hin. destruct (Nat.eqb n0 l) eqn:E0; cbn in Hin; [|left; eauto].
        apply in_app_or in Hin. destruct Hin as [Hin | [Hin | [] ] ]; [left; eauto|]. inversion Hin; subst idx. right.
        destruct Hmm as [Hta|Hmm]; [|eapply below_le; [apply trunc_idx_cut|apply below_tr_first; assumption]].
        apply below_tr_first. apply Hguard; [exact Hg|left; assumption].
      - intros n0. left. destruct (Nat.eqb n0 l) eqn:E0; [apply Nat.eqb_eq in E0; subst n0|]; reflexivity. }
    destruct e; cbn [step] in H.
    - (* Propose *)
      destruct (avail (nodes s n)); [|discriminate].
      set (x := nodes s n) in *.
      set (x' := mkNode (up x) (paused x) (elog x) (efirst x) (hcommit x) (snap x) (wal x) (walold x) (files x)
                        (applied x) (snapc x) (mem x) (imm x) (sig x) ((N.succ (nextpid x), b) :: pend x) (N.succ (nextpid x))) in *.
      assert (Hx2 : efirst x' = efirst x) by reflexivity.
      assert (Hx3 : elog x' = elog x) by reflexivity.
      clearbody x'.
      destruct (leader s) as [l|].
      + cbn [set_node set_nodes nodes] in H.
        destruct (avail (upd (nodes s) n x' l)); stepped H; apply Frame; cbn; unfold upd.
        * intros n0 idx Hin. left. destruct (Nat.eqb n0 l) eqn:E1; cbn in Hin.
          -- apply in_app_or in Hin. destruct Hin as [Hin | [Hin | [] ] ]; [|discriminate].
             destruct (Nat.eqb l n) eqn:E2; [apply Nat.eqb_eq in E2; subst; rewrite Hx3 in Hin|]; eauto.
          -- destruct (Nat.eqb n0 n) eqn:E2; [apply Nat.eqb_eq in E2; subst; rewrite Hx3 in Hin|]; eauto.
        * intros n0. left. destruct (Nat.eqb n0 l) eqn:E1; cbn.
          -- apply Nat.eqb_eq in E1; subst. destruct (Nat.eqb l n) eqn:E2; [apply Nat.eqb_eq in E2; subst; fold x; lia|reflexivity].
          -- destruct (Nat.eqb n0 n) eqn:E2; [apply Nat.eqb_eq in E2; subst; fold x; lia|reflexivity].
        * intros n0 idx Hin. left. destruct (Nat.eqb n0 n) eqn:E2; [apply Nat.eqb_eq in E2; subst; rewrite Hx3 in Hin|]; eauto.
        * intros n0. left. destruct (Nat.eqb n0 n) eqn:E2; [apply Nat.eqb_eq in E2; subst; fold x; lia|reflexivity].
      + stepped H; apply Frame; cbn; unfold upd.
        * intros n0 idx Hin. left. destruct (Nat.eqb n0 n) eqn:E2; [apply Nat.eqb_eq in E2; subst; rewrite Hx3 in Hin|]; eauto.
        * intros n0. left. destruct (Nat.eqb n0 n) eqn:E2; [apply Nat.eqb_eq in E2; subst; fold x; lia|reflexivity].
    - (* Timeout *) same_logs H Frame.
    - (* RElect *)
      destruct (raft_ok s (RElect n)); [|discriminate]. stepped H. apply Frame; cbn; intros; left; eauto.
    - (* RStepDown *) stepped H. apply Frame; cbn; intros; left; eauto.
    - (* RReplicate: the member's log becomes a prefix of the leader's *)
      destruct (raft_ok s (RReplicate m k)); [|discriminate]. cbn [andb] in H.
      destruct (leader s) as [l|] eqn:Hl; [|discriminate]. destruct (Nat.leb _ _) in H; [|discriminate].
      stepped H. revert Frame. cbn [raft_effect]. rewrite Hl. intros Frame. apply Frame; cbn; unfold upd.
      + intros n0 idx Hin. left. destruct (Nat.eqb n0 m); cbn in Hin; [exists l; eapply In_firstn; eassumption|eauto].
      + intros n0. left. destruct (Nat.eqb n0 m) eqn:E; [apply Nat.eqb_eq in E; subst n0|]; reflexivity.
    - (* RCommit *)
      destruct (raft_ok s (RCommit k)); [|discriminate]. stepped H.
      revert Frame. cbn [raft_effect]. destruct (leader s); intros Frame; apply Frame; cbn; intros; left; eauto.
    - (* RLearn *) destruct (raft_ok s (RLearn m c)); [|discriminate]. same_logs H Frame.
    - (* Apply: a ClearEntryLog entry of the node's own log moves its first index *)
      set (x := nodes s n) in *.
      destruct (avail x && Nat.ltb (applied x) (hcommit x) && Nat.leb (efirst x) (applied x)); [|discriminate].
      destruct (nth_error (elog x) (applied x)) as [en|] eqn:Hnth; [|discriminate].
      stepped H. apply Frame; cbn -[Nat.max Nat.min tr_first]; unfold upd.
      + intros n0 idx Hin. left. destruct (Nat.eqb n0 n) eqn:E; [apply Nat.eqb_eq in E; subst; cbn -[Nat.max Nat.min tr_first] in Hin; fold x in Hin|]; eauto.
      + intros n0. destruct (Nat.eqb n0 n) eqn:E; [|left; reflexivity]. apply Nat.eqb_eq in E; subst n0.
        cbn -[Nat.max Nat.min tr_first]. destruct en; try (left; reflexivity).
        right. apply below_max; [apply K2|].
        apply nth_error_In in Hnth. specialize (K1 n idx Hnth).
        destruct (clamp (cfg s)); [|assumption].
        eapply below_le; [|exact K1]. apply tr_first_mono. lia.
    - (* UpdSnapc *) destruct (avail (nodes s n)); [|discriminate]. same_logs H Frame.
    - (* FlushSwap *)
      match type of H with (if ?b then _ else _) = _ => destruct b; [|discriminate] end. same_logs H Frame.
    - (* SnapPersist *)
      match type of H with (if ?b then _ else _) = _ => destruct b; [|discriminate] end. same_logs H Frame.
    - (* FlushCommit *) destruct (avail (nodes s n)); [|discriminate]. same_logs H Frame.
    - exact (Trunc mm (or_introl eq_refl)).
    - exact (Trunc mm (or_intror eq_refl)).
    - (* TruncLocal *)
      set (x := nodes s n) in *.
      match type of H with (if ?b then _ else _) = _ => destruct b eqn:Hg; [|discriminate] end.
      stepped H. apply Frame; cbn -[Nat.max tr_first]; unfold upd.
      + intros n0 idx Hin. left. destruct (Nat.eqb n0 n) eqn:E; [apply Nat.eqb_eq in E; subst; cbn -[Nat.max tr_first] in Hin; fold x in Hin|]; eauto.
      + intros n0. destruct (Nat.eqb n0 n) eqn:E; [|left; reflexivity]. apply Nat.eqb_eq in E; subst n0.
        cbn -[Nat.max tr_first]. right. apply below_max; [apply K2|].
        apply below_tr_first. apply andb_prop in Hg. apply Hguard; [apply Hg|exact Hsafe].
    - (* RSnapshot *) exfalso. apply (Hns m). reflexivity.
    - (* Kill *) destruct (up (nodes s n)); [|discriminate]. same_logs H Frame.
    - (* Restart *) destruct (up (nodes s n)); [discriminate|]. same_logs H Frame.
    - (* Pause *) destruct (up (nodes s n)); [|discriminate]. same_logs H Frame.
    - (* Resume *) destruct (up (nodes s n)); [|discriminate]. same_logs H Frame.
    - (* Rotate *)
      destruct (get_new_rg (master s) (peers s) newm) as [[m' ps']|]; [|discriminate]. stepped H.
      apply Frame; cbn; intros; left; eauto.
  Qed.
End Held.

(* Apart from a snapshot installation and from replication (which may cut a follower's log back), a step only appends
   to logs and only raises persisted commit indexes (RLearn: raft_safe); only RCommit touches the committed sequence. *)
Lemma step_grows : forall raft_ok, raft_safe raft_ok -> forall s e s',
  (forall m, e <> RSnapshot m) -> (forall m k, e <> RReplicate m k) -> step raft_ok s e = Some s' ->
  ((forall k, e <> RCommit k) -> glog s' = glog s) /\
  forall m, pre (elog (nodes s m)) (elog (nodes s' m)) /\ hcommit (nodes s m) <= hcommit (nodes s' m).
Proof.
  intros raft_ok HR s e s' Hns Hnr H.
  assert (One : forall f n x', pre (elog (f n)) (elog x') -> hcommit (f n) <= hcommit x' ->
                  forall m, pre (elog (f m)) (elog (upd f n x' m)) /\ hcommit (f m) <= hcommit (upd f n x' m)).
  { intros f n x' Hp Hx m. unfold upd. destruct (Nat.eqb m n) eqn:E; [apply Nat.eqb_eq in E; subst m; split; assumption|].
    split; [apply pre_refl|apply le_n]. }
  (* one node is replaced by one with the same log and commit index *)
  Ltac unchanged One := cbn; split; [reflexivity|apply One; [apply pre_refl|apply le_n]].
  assert (Trunc : forall mm, e = TruncPropose mm \/ e = TruncForce mm ->
            ((forall k, e <> RCommit k) -> glog s' = glog s) /\
            forall m, pre (elog (nodes s m)) (elog (nodes s' m)) /\ hcommit (nodes s m) <= hcommit (nodes s' m)).
  { intros mm He. destruct (step_trunc _ _ _ _ _ He H) as (l & _ & _ & ->).
    cbn. split; [reflexivity|]. apply One; [eexists; reflexivity|apply le_n]. }
  destruct e; try (exfalso; apply (Hns m); reflexivity); try (exfalso; apply (Hnr m k); reflexivity); cbn [step] in H.
  - (* Propose: the entry is appended to the leader's log if the leader can be reached *)
    destruct (avail (nodes s n)); [|discriminate].
    destruct (leader s) as [l|]; [cbn [set_node set_nodes nodes] in H; destruct (avail _) in H|]; stepped H;
      [|unchanged One..].
    cbn. split; [reflexivity|]. intros m. unfold upd.
    destruct (Nat.eqb m l) eqn:E1; [apply Nat.eqb_eq in E1; subst m; destruct (Nat.eqb l n) eqn:E2; [apply Nat.eqb_eq in E2; subst l|]
                                   |destruct (Nat.eqb m n) eqn:E2; [apply Nat.eqb_eq in E2; subst m|]];
      cbn; split; try apply le_n; try apply pre_refl; eexists; reflexivity.
  - stepped H. unchanged One.
  - destruct (raft_ok s (RElect n)); stepped H. cbn. split; [reflexivity|]. intros; split; [apply pre_refl|apply le_n].
  - stepped H. cbn. split; [reflexivity|]. intros; split; [apply pre_refl|apply le_n].
  - destruct (raft_ok s (RCommit k)); stepped H.
    split; [intros Hk; exfalso; apply (Hk k); reflexivity|]. cbn [raft_effect]. destruct (leader s); cbn; intros; (split; [apply pre_refl|apply le_n]).
  - destruct (raft_ok s (RLearn m c)) eqn:Hr; stepped H.
    destruct (rs_learn _ HR _ _ _ Hr) as (_ & Hc & _). cbn. split; [reflexivity|]. apply One; [apply pre_refl|exact Hc].
  - match type of H with (if ?b then _ else _) = _ => destruct b; [|discriminate] end.
    destruct (nth_error _ _); stepped H. unchanged One.
  - destruct (avail (nodes s n)); stepped H. unchanged One.
  - match type of H with (if ?b then _ else _) = _ => destruct b; [|discriminate] end. stepped H. unchanged One.
  - match type of H with (if ?b then _ else _) = _ => destruct b; [|discriminate] end. stepped H. unchanged One.
  - destruct (avail (nodes s n)); stepped H. unchanged One.
  - exact (Trunc mm (or_introl eq_refl)).
  - exact (Trunc mm (or_intror eq_refl)).
  - match type of H with (if ?b then _ else _) = _ => destruct b; [|discriminate] end. stepped H. unchanged One.
  - destruct (up (nodes s n)); stepped H. unchanged One.
  - destruct (up (nodes s n)); stepped H. unchanged One.
  - destruct (up (nodes s n)); stepped H. unchanged One.
  - destruct (up (nodes s n)); stepped H. unchanged One.
  - destruct (get_new_rg _ _ _) as [[m' ps']|]; stepped H. cbn. split; [reflexivity|]. intros; split; [apply pre_refl|apply le_n].
Qed.

Lemma step_replicate : forall raft_ok s m k s', step raft_ok s (RReplicate m k) = Some s' ->
  exists l, leader s = Some l /\ s' = set_node s m (with_elog (nodes s m) (firstn k (elog (nodes s l)))).
Proof.
  intros raft_ok s m k s' H. cbn [step] in H. destruct (raft_ok s (RReplicate m k)); [|discriminate]. cbn [andb] in H.
  destruct (leader s) as [l|] eqn:Hl; [|discriminate]. destruct (Nat.leb _ _) in H; stepped H.
  exists l. split; [reflexivity|]. cbn [raft_effect]. rewrite Hl. reflexivity.
Qed.

Lemma hcommit_step : forall raft_ok, raft_safe raft_ok -> forall s e s' m, (forall m, e <> RSnapshot m) ->
  step raft_ok s e = Some s' -> hcommit (nodes s m) <= hcommit (nodes s' m).
Proof.
  intros raft_ok HR s e s' m Hns H.
  assert (Hr : (exists m0 k, e = RReplicate m0 k) \/ forall m0 k, e <> RReplicate m0 k)
    by (destruct e; try (right; discriminate); left; eauto).
  destruct Hr as [(m0 & k & ->)|Hnr]; [|apply (step_grows raft_ok HR s e s' Hns Hnr H)].
  destruct (step_replicate _ _ _ _ _ H) as (l & _ & ->). cbn. unfold upd. destruct (Nat.eqb m m0) eqn:E; [apply Nat.eqb_eq in E; subst m0|]; apply le_n.
Qed.

(* with trunc_all every truncation index has been persisted as committed by EVERY member (also a dead one) and no raft
   snapshot is installed: the invariant holds for the persisted commit indexes themselves *)
Definition hcom (s : sys) (m : nat) : nat := hcommit (nodes s m).

Lemma run_invh_hcom : forall raft_ok, raft_safe raft_ok -> forall es s s',
  trunc_all (cfg s) = true -> snap_install (cfg s) = false -> InvH hcom s -> run raft_ok s es = Some s' -> InvH hcom s'.
Proof.
  intros raft_ok HR. induction es as [|e es IH]; intros s s' Hta Hsi HJ H; cbn in H; [inversion H; subst; assumption|].
  destruct (step raft_ok s e) as [s1|] eqn:Es; [|discriminate].
  assert (Hns : forall m, e <> RSnapshot m).
  { intros m ->. cbn [step] in Es. destruct (leader s); [|discriminate]. rewrite Hsi in Es. discriminate. }
  pose proof (step_cfg raft_ok _ _ _ Es) as Hc.
  apply (IH s1 s'); [rewrite Hc; assumption|rewrite Hc; assumption| |assumption].
  eapply step_invh; try eassumption.
  - intros m _. apply le_n.
  - intros m _. eapply hcommit_step; eassumption.
  - destruct e; try exact I; try (left; assumption). destruct (Hns m eq_refl).
Qed.

Section Catch.
  Variable raft_ok : sys -> event -> bool.
  Hypothesis HR : raft_safe raft_ok.
  (* log matching, second half: replication never removes a committed entry from a follower's log (this implies the last
     conjunct of rs_repl) *)
  Hypothesis H_keep : forall s m k, raft_ok s (RReplicate m k) = true -> lcp (elog (nodes s m)) (glog s) <= k.

  Lemma hcommit_le_clen : forall s m, Inv s -> hcommit (nodes s m) <= clen s m.
  Proof.
    intros s m (HN & _ & _). destruct (HN m) as [A B _ _ _]. unfold clen. apply lcp_firstn_eq; assumption.
  Qed.

  (* what a member holds of the committed sequence never shrinks: replication does not cut a follower's log back below
     what it holds of the committed sequence (H_keep) *)
  Lemma clen_step : forall s e s' m, Inv s -> (forall m, e <> RSnapshot m) -> step raft_ok s e = Some s' ->
    clen s m <= clen s' m.
  Proof.
    intros s e s' m HI Hns H. unfold clen.
    assert (Hc : (exists m0 k, e = RReplicate m0 k) \/ (exists k, e = RCommit k) \/
                 ((forall m0 k, e <> RReplicate m0 k) /\ forall k, e <> RCommit k))
      by (destruct e; try (right; right; split; discriminate); [left|right; left]; eauto).
    destruct Hc as [(m0 & k & ->)|[(k & ->)|[Hnr Hnc]]].
    - pose proof H as Hr. cbn [step] in Hr. destruct (raft_ok s (RReplicate m0 k)) eqn:Ek; [|discriminate]. clear Hr.
      destruct (step_replicate _ _ _ _ _ H) as (l & Hl & ->). cbn. unfold upd. destruct (Nat.eqb m m0) eqn:E; [|lia].
      apply Nat.eqb_eq in E; subst m0. cbn.
      destruct HI as (_ & HL & _). destruct (HL l Hl) as [[t Ht] _]. rewrite Ht, lcp_firstn_pre.
      pose proof (H_keep _ _ _ Ek). pose proof (lcp_le_r (elog (nodes s m)) (glog s)). lia.
    - destruct (step_grows raft_ok HR _ _ _ Hns ltac:(discriminate) H) as [_ Hn]. destruct (Hn m) as [Hp _].
      cbn [step] in H. destruct (raft_ok s (RCommit k)) eqn:Hr; stepped H.
      destruct (rs_commit _ HR _ _ Hr) as (l & Hl & Hk1 & Hk2 & _). revert Hp. cbn [raft_effect]. rewrite Hl. cbn. intros Hp.
      destruct HI as (_ & HL & _). destruct (HL l Hl) as [Hpl _]. apply lcp_pre_r. apply pre_firstn; assumption.
    - destruct (step_grows raft_ok HR _ _ _ Hns Hnr H) as [Hg Hn]. rewrite (Hg Hnc). destruct (Hn m) as [Hp _].
      apply lcp_mono; [exact Hp|apply pre_refl].
  Qed.

  Fixpoint sound_run (s : sys) (es : list event) : Prop :=
    match es with
    | [] => True
    | e :: r => sound s e /\ match step raft_ok s e with Some s' => sound_run s' r | None => True end
    end.

  (* soundness as a boolean, so that the soundness of a concrete run is checked by evaluation (sound_runb_ok) *)
  Definition soundb (s : sys) (e : event) : bool :=
    match e with
    | TruncPropose mm | TruncForce mm => trunc_all (cfg s) || forallb (fun m => Nat.leb mm (clen s m)) (seq 0 (nn (cfg s)))
    | TruncLocal n => trunc_all (cfg s) || forallb (fun m => Nat.leb (snap (nodes s n)) (clen s m)) (seq 0 (nn (cfg s)))
    | RSnapshot m => Nat.ltb m (nn (cfg s))
    | _ => true
    end.
  Fixpoint sound_runb (s : sys) (es : list event) : bool :=
    match es with
    | [] => true
    | e :: r => soundb s e && match step raft_ok s e with Some s' => sound_runb s' r | None => true end
    end.

  Lemma soundb_ok : forall s e, soundb s e = true -> sound s e.
  Proof.
    intros s e.
    assert (A : forall b t, b || forallb (fun m => Nat.leb t (clen s m)) (seq 0 (nn (cfg s))) = true ->
                b = true \/ forall m, m < nn (cfg s) -> t <= clen s m).
    { intros b t H. apply orb_prop in H. destruct H as [H|H]; [left; exact H|right]. rewrite forallb_forall in H.
      intros m Hm. apply Nat.leb_le, H, in_seq. lia. }
    destruct e; cbn; intros H; try exact I; try (apply A; exact H). apply Nat.ltb_lt; exact H.
  Qed.

  Lemma sound_runb_ok : forall es s, sound_runb s es = true -> sound_run s es.
  Proof.
    induction es as [|e es IH]; cbn; intros s H; [exact I|]. apply andb_prop in H. destruct H as [H1 H2].
    split; [apply soundb_ok; exact H1|]. destruct (step raft_ok s e); [apply IH; exact H2|exact I].
  Qed.

  Lemma run_invh_clen : forall es s s', wal_on (cfg s) = true -> clamp (cfg s) = true -> Inv s -> InvH clen s ->
    sound_run s es -> run raft_ok s es = Some s' -> Inv s' /\ InvH clen s' /\ cfg s' = cfg s.
  Proof.
    induction es as [|e es IH]; intros s s' Hw Hc HI HK Hs H; cbn in H.
    - inversion H; subst. split; [assumption|split; [assumption|reflexivity]].
    - destruct (step raft_ok s e) as [s1|] eqn:Es; [|discriminate]. cbn in Hs. rewrite Es in Hs. destruct Hs as [Hs1 Hs2].
      pose proof (step_cfg raft_ok _ _ _ Es) as Hc1.
      (* a sound RSnapshot is never enabled *)
      assert (Hns : forall m, e <> RSnapshot m).
      { intros m ->. cbn [sound] in Hs1.
        destruct (invh_no_snapshot clen raft_ok s m HK (fun l => lcp_le_l _ _) Hs1) as [_ Hno]. congruence. }
      assert (HK1 : InvH clen s1).
      { eapply step_invh; try eassumption.
        - intros m _. apply hcommit_le_clen; assumption.
        - intros m _. eapply clen_step; eassumption. }
      assert (HI1 : Inv s1) by (eapply (step_inv_gen raft_ok HR); try eassumption; right; assumption).
      destruct (IH s1 s') as (A & B & C); try assumption; try (rewrite Hc1; assumption).
      split; [assumption|split; [assumption|congruence]].
  Qed.

End Catch.

(* a reference oracle that also has the second half of log matching *)
Definition raft_ref2 (s : sys) (e : event) : bool :=
  raft_ref s e && match e with RReplicate m k => Nat.leb (lcp (elog (nodes s m)) (glog s)) k | _ => true end.

Lemma ref2_ref : forall s e, raft_ref2 s e = true -> raft_ref s e = true.
Proof. intros s e H; unfold raft_ref2 in H; apply andb_prop in H; tauto. Qed.

Lemma ref2_keep : forall s m k, raft_ref2 s (RReplicate m k) = true -> lcp (elog (nodes s m)) (glog s) <= k.
Proof. intros s m k H; unfold raft_ref2 in H; apply andb_prop in H; destruct H as [_ H]; apply Nat.leb_le; assumption. Qed.
