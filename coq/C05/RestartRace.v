(* C05 - restart replay vs. entries committed after the restart.
   EngineImpl.startRaftNode starts the commit reader (readCommitFromRaft) and Assign then registers the partition and
   runs the restart replay (readReplayForReplication re-applies the entries (snapshot index, persisted commit]).
   Model.restart_node makes the replay atomic with the restart (the repaired order: the commit reader waits until the
   replay has been applied: fix 2f484be). Before that fix nothing ordered the two: [apply_then_replay] is the other extreme - the
   entries the leader ships after the restart are applied first, the replay lands on top. *)
From Coq Require Import List Arith NArith ZArith Bool Lia.
From OG Require Import C05.Model C05.Proofs.
Import ListNotations.

Definition apply_all (c : config) (n : nat) (x : node) (es : list entry) : node :=
  fold_left (fun y e => apply_node c n y e) es x.

(* repaired order: restart (with its replay), then the newer entries in log order *)
Definition replay_then_apply (c : config) (n : nat) (x : node) (es : list entry) : node :=
  apply_all c n (restart_node c x) es.

(* what the replay of restart_node puts on top of the shard *)
Definition replay_part (x : node) : store :=
  let lo := Nat.max 1 (snap x) in
  if Nat.leb lo (efirst x) then [] else ents_store (seg lo (hcommit x) (elog x)).

(* the restart without its replay: shard WAL only *)
Definition restart_no_replay (c : config) (x : node) : node :=
  let base := wal x ++ walold x in
  mkNode true false (elog x) (efirst x) (hcommit x) (snap x) (if wal_on c then base else []) [] (files x)
         (hcommit x) (snap x) base [] false [] (nextpid x).

(* the other extreme, possible before fix 2f484be: newer entries first, the replay afterwards *)
Definition apply_then_replay (c : config) (n : nat) (x : node) (es : list entry) : node :=
  let y := apply_all c n (restart_no_replay c x) es in
  mkNode (up y) (paused y) (elog y) (efirst y) (hcommit y) (snap y)
         (if wal_on c then replay_part x ++ wal y else wal y) (walold y) (files y)
         (applied y) (snapc y) (replay_part x ++ mem y) (imm y) (sig y) (pend y) (nextpid y).

Lemma apply_all_mem : forall c n es x,
  mem (apply_all c n x es) = ents_store es ++ mem x /\ imm (apply_all c n x es) = imm x /\
  files (apply_all c n x es) = files x /\ applied (apply_all c n x es) = applied x + length es.
Proof.
  intros c n es. induction es as [|e es IH]; intros x; cbn [apply_all fold_left].
  - cbn. repeat split; lia.
  - destruct (IH (apply_node c n x e)) as (A & B & C & D). unfold apply_all in *. rewrite A, B, C, D. cbn.
    repeat split; try reflexivity; try lia. rewrite <- app_assoc. reflexivity.
Qed.

