(* C05 - replicated data survives the loss of a minority of store nodes.
   Executable model (definitions only).

   A replica group of [nn] partitions. Every partition (node) has
     durable raft storage : entry log [elog] (index i = position i-1), number of deleted leading entries [efirst],
                            hard-state commit [hcommit], snapshot index [snap]               (lib/raftlog)
     durable shard state  : shard WAL [wal]/[walold] (switched WAL files not yet removed), data files [files]
     volatile state       : applied index, SnapShotter.CommittedIndex [snapc], active memtable [mem], snapshot
                            memtable [imm], pending flush signal [sig], committedDataC [pend], propose counter.
   etcd/raft is ABSTRACT: its events (election, replication, commit, learning the commit index) happen exactly when
   an oracle [raft_ok] allows them. What the theorems need from raft is stated as hypotheses about the oracle
   (Invariant.raft_safe: leader completeness, log matching, state-machine safety, quorum commit). openGemini's own steps are
   concrete: propose/ack-after-apply, follower apply, memtable swap + snapshot index, data-file commit, entry-log
   truncation, restart replay, replica-group master rotation, kill/restart/pause.

   Variants (config flags): the code with and without the repair of a confirmed defect:
     clamp     = false : a ClearEntryLog entry deletes up to the LEADER's index on every member (the code before fix 29caa41)
               = true  : a member never deletes beyond its OWN snapshot index (fix 29caa41)
     pid_fresh = false : the propose counter restarts at 0 after a restart (the code before fix cfc2c3f)
               = true  : propose ids are never reused by a later incarnation (fix cfc2c3f)
     wal_on            : shard WAL enabled (default true in the product).
     trunc_all / snap_install : see the config record (forced truncation branches and raft snapshot installation). *)
From Coq Require Import List Arith NArith ZArith Bool Lia.
Import ListNotations.

(* ------------------------------------------------------------------ data *)
Definition key := N.
Definition val := Z.
Definition batch := list (key * val).
Definition store := list (key * val).          (* newest first; lookup = first match = last write wins *)

Fixpoint get (s : store) (k : key) : option val :=
  match s with
  | [] => None
  | (k', v) :: r => if N.eqb k k' then Some v else get r k
  end.

Inductive entry :=
| EData (owner : nat) (pid : N) (b : batch)    (* DataWrapper Normal: Identity, ProposeId, rows *)
| EClear (idx : nat)                            (* DataWrapper ClearEntryLog *)
| ENoop.                                        (* conf changes / empty entries *)

Definition entry_pairs (e : entry) : store :=
  match e with EData _ _ b => rev b | _ => [] end.

(* contents after applying the entries oldest-first to an empty shard *)
Fixpoint ents_store (es : list entry) : store :=
  match es with
  | [] => []
  | e :: r => ents_store r ++ entry_pairs e
  end.

(* entries lo..hi (1-based, inclusive) *)
Definition seg (lo hi : nat) (l : list entry) : list entry := skipn (lo - 1) (firstn hi l).

Fixpoint is_prefix (a b : list entry) (eqb : entry -> entry -> bool) : bool :=
  match a, b with
  | [], _ => true
  | x :: a', y :: b' => eqb x y && is_prefix a' b' eqb
  | _ :: _, [] => false
  end.

Fixpoint batch_eqb (a b : batch) : bool :=
  match a, b with
  | [], [] => true
  | (k, v) :: a', (k', v') :: b' => N.eqb k k' && Z.eqb v v' && batch_eqb a' b'
  | _, _ => false
  end.

Definition entry_eqb (x y : entry) : bool :=
  match x, y with
  | EData o p b, EData o' p' b' => Nat.eqb o o' && N.eqb p p' && batch_eqb b b'
  | EClear i, EClear j => Nat.eqb i j
  | ENoop, ENoop => true
  | _, _ => false
  end.

Definition prefixb (a b : list entry) : bool := is_prefix a b entry_eqb.

(* ------------------------------------------------------------------ configuration *)
Record config := mkCfg {
  nn : nat;            (* replicas *)
  fsz : nat;           (* entries per entry-log file (maxNumEntries) *)
  wal_on : bool;
  clamp : bool;
  pid_fresh : bool;
  trunc_all : bool;     (* true: an index is proposed/used for truncation only if EVERY member (also a dead one) has
                           persisted it as committed (repair, not in the code); false: the rules as coded (healthy branch: all members alive;
                           tolerate-time branch: only the ACTIVE members' Match counts; size branch: nothing counts) *)
  snap_install : bool } (* true: a member that needs entries the leader has deleted gets a raft snapshot, which carries
                           no shard data (as coded); false: this never has to happen *).

(* number of leading entries removed by DeleteBefore(t): whole files before the file that contains index t *)
Definition tr_first (fsz t : nat) : nat := if Nat.eqb t 0 then 0 else ((t - 1) / fsz) * fsz.
Definition same_file (fsz a b : nat) : bool := Nat.eqb (tr_first fsz a) (tr_first fsz b).

(* ------------------------------------------------------------------ state *)
Record node := mkNode {
  up : bool; paused : bool;
  elog : list entry; efirst : nat; hcommit : nat; snap : nat;
  wal : store; walold : store; files : store;
  applied : nat; snapc : nat; mem : store; imm : store; sig : bool;
  pend : list (N * batch);
  nextpid : N }.

Definition view (x : node) : store := mem x ++ imm x ++ files x.        (* what a query on this replica reads *)
Definition dview (x : node) : store := wal x ++ walold x ++ files x.    (* what survives a kill *)

Record sys := mkSys {
  cfg : config;
  nodes : nat -> node;
  glog : list entry;                 (* ghost: the sequence of entries raft has committed so far *)
  leader : option nat;
  master : nat; peers : list nat;    (* the replica group as meta records it *)
  proposed : list (nat * N * batch); (* ghost: every proposal ever made *)
  acked : list (nat * N * batch) }.  (* ghost: proposals whose WriteToRaft returned nil *)

Definition upd (f : nat -> node) (n : nat) (x : node) : nat -> node :=
  fun m => if Nat.eqb m n then x else f m.

Definition set_nodes (s : sys) (f : nat -> node) : sys :=
  mkSys (cfg s) f (glog s) (leader s) (master s) (peers s) (proposed s) (acked s).
Definition set_node (s : sys) (n : nat) (x : node) : sys := set_nodes s (upd (nodes s) n x).

Definition avail (x : node) : bool := up x && negb (paused x).

Definition count (p : nat -> bool) (n : nat) : nat := length (filter p (seq 0 n)).
Definition quorum (s : sys) (p : node -> bool) : bool :=
  Nat.ltb (nn (cfg s)) (2 * count (fun m => p (nodes s m)) (nn (cfg s))).

(* ------------------------------------------------------------------ replica group rotation (meta) *)
(* GetNewRg / GenerateNewPeer: the old master takes the first peer slot, the new master leaves the peers *)
Definition get_new_rg (m : nat) (ps : list nat) (newm : nat) : option (nat * list nat) :=
  if Nat.eqb newm m then None
  else if existsb (Nat.eqb newm) ps
       then let ps' := m :: filter (fun p => negb (Nat.eqb p newm)) ps in
            if Nat.eqb (length ps') (length ps) then Some (newm, ps') else None
       else None.

(* GenerateNewPeer (master balance): same result, but no validation (identity if newm is the master) *)
Definition generate_new_peer (m : nat) (ps : list nat) (newm : nat) : list nat :=
  if Nat.eqb newm m then ps else m :: filter (fun p => negb (Nat.eqb p newm)) ps.

(* electRgMaster (owner of the master failed): the first online slave peer swaps places with the master *)
Fixpoint elect_rg_master (m : nat) (ps : list (nat * bool)) (online : nat -> bool) : option (nat * list nat) :=
  match ps with
  | [] => None
  | (p, slave) :: r =>
      if slave && online p then Some (p, m :: map fst r)
      else match elect_rg_master m r online with
           | Some (nm, r') => Some (nm, p :: r')
           | None => None
           end
  end.

(* ------------------------------------------------------------------ what dealCommitData reports to the waiting writer
   (_current: the code before fix 9767637; _repaired: with it) *)
Definition commit_result_current (unmarshal_ok apply_ok : bool) : bool := unmarshal_ok.
Definition commit_result_repaired (unmarshal_ok apply_ok : bool) : bool := unmarshal_ok && apply_ok.

(* ------------------------------------------------------------------ coordinator: per-shard write with retry
   (PointsWriter.writeRowToShard): the store's answers in order (the last one repeats); `fuel` = attempts that fit
   into the coordinator's timeout. Result: (acknowledged to the client, store calls made). *)
Inductive wres := WOk | WRetry | WFail.
Fixpoint coord_retry (fuel : nat) (script : list wres) (last : wres) (calls : nat) : bool * nat :=
  let r := match script with [] => last | x :: _ => x end in
  match r with
  | WOk => (true, S calls)
  | WFail => (false, S calls)
  | WRetry => match fuel with
              | O => (false, S calls)
              | S f => coord_retry f (tl script) last (S calls)
              end
  end.

(* ------------------------------------------------------------------ events *)
Inductive event :=
| Propose (n : nat) (b : batch)          (* WriteToRaft on node n: register in committedDataC, hand to raft *)
| Timeout (n : nat) (pid : N)            (* WaitCommitTimeout: the writer gives up (no ack) *)
| RElect (n : nat) | RStepDown
| RReplicate (m k : nat)                 (* follower m's durable log becomes the first k entries of the leader's *)
| RCommit (k : nat)                      (* raft commits the first k entries of the leader's log *)
| RLearn (m c : nat)                     (* node m persists HardState.Commit = c *)
| Apply (n : nat)                        (* readCommitFromRaft/dealCommitData applies the next committed entry *)
| UpdSnapc (n : nat)                     (* TryToUpdateCommittedIndex after a commit batch *)
| FlushSwap (n : nat)                    (* writeSnapshot: WAL switch, memtable swap, RaftFlushC signal *)
| SnapPersist (n : nat)                  (* snapshotAfterFlush: CreateSnapshot(SnapShotter.CommittedIndex) *)
| FlushCommit (n : nat)                  (* commitSnapshot + RemoveWalFiles *)
| TruncPropose (mm : nat)                (* deleteEntryLog on the leader, healthy branch; mm = min Progress.Match *)
| TruncForce (mm : nat)                  (* forceDeleteEntryLog after clear-entryLog-tolerate-time: mm = min Match of the ACTIVE members *)
| TruncLocal (n : nat)                   (* forceDeleteEntryLogBySize: local DeleteBefore(own snapshot index) *)
| RSnapshot (m : nat)                    (* raft MsgSnap: the leader no longer has the entries member m needs *)
| Kill (n : nat) | Restart (n : nat) | Pause (n : nat) | Resume (n : nat)
| Rotate (newm : nat).                   (* meta: UpdateReplication with GetNewRg's result *)

Definition is_raft_event (e : event) : bool :=
  match e with RElect _ | RReplicate _ _ | RCommit _ | RLearn _ _ => true | _ => false end.

Definition pend_lookup (p : list (N * batch)) (pid : N) : option batch :=
  match find (fun x => N.eqb (fst x) pid) p with Some x => Some (snd x) | None => None end.
Definition pend_remove (p : list (N * batch)) (pid : N) : list (N * batch) :=
  filter (fun x => negb (N.eqb (fst x) pid)) p.

Definition all_up (s : sys) : bool := forallb (fun m => up (nodes s m)) (seq 0 (nn (cfg s))).
(* every member of the group has persisted index idx as committed *)
Definition members_have (s : sys) (idx : nat) : bool :=
  forallb (fun m => Nat.leb idx (hcommit (nodes s m))) (seq 0 (nn (cfg s))).
Definition trunc_idx (c : config) (mm snp : nat) : nat := if same_file (fsz c) mm snp then snp else Nat.min mm snp.

(* what a raft snapshot installs on member x (as coded: Snapshot.Data is the literal "snapshot", no shard data):
   the log is replaced by the snapshot point, applied index jumps, the shard is untouched *)
Definition snap_install_node (x lx : node) : node :=
  mkNode (up x) (paused x) (firstn (snap lx) (elog lx)) (snap lx) (snap lx) (snap lx) (wal x) (walold x) (files x)
         (snap lx) (snap lx) (mem x) (imm x) (sig x) (pend x) (nextpid x).

(* restart: shard WAL replay, then raft replay of entries [max 1 snap .. hcommit] unless the range is compacted *)
Definition restart_node (c : config) (x : node) : node :=
  let base := wal x ++ walold x in
  let lo := Nat.max 1 (snap x) in
  let rep := if Nat.leb lo (efirst x) then [] else ents_store (seg lo (hcommit x) (elog x)) in
  mkNode true false (elog x) (efirst x) (hcommit x) (snap x)
         (if wal_on c then rep ++ base else []) [] (files x)
         (hcommit x) (snap x) (rep ++ base) [] false [] (nextpid x).

Definition kill_node (c : config) (x : node) : node :=
  mkNode false false (elog x) (efirst x) (hcommit x) (snap x) (wal x) (walold x) (files x)
         0 0 [] [] false [] (if pid_fresh c then nextpid x else 0%N).

Definition apply_node (c : config) (n : nat) (x : node) (e : entry) : node :=
  let ps := entry_pairs e in
  let ef := match e with
            | EClear idx => Nat.max (efirst x) (tr_first (fsz c) (if clamp c then Nat.min idx (snap x) else idx))
            | _ => efirst x
            end in
  let pd := match e with
            | EData o pid _ => if Nat.eqb o n then pend_remove (pend x) pid else pend x
            | _ => pend x
            end in
  mkNode (up x) (paused x) (elog x) ef (hcommit x) (snap x)
         (if wal_on c then ps ++ wal x else wal x) (walold x) (files x)
         (S (applied x)) (snapc x) (ps ++ mem x) (imm x) (sig x) pd (nextpid x).

(* the acknowledgement produced by applying e on node n (ack only to a writer waiting on this node) *)
Definition ack_of (n : nat) (x : node) (e : entry) : list (nat * N * batch) :=
  match e with
  | EData o pid _ => if Nat.eqb o n then match pend_lookup (pend x) pid with Some b => [(n, pid, b)] | None => [] end else []
  | _ => []
  end.

Definition with_elog (x : node) (l : list entry) : node :=
  mkNode (up x) (paused x) l (efirst x) (hcommit x) (snap x) (wal x) (walold x) (files x)
         (applied x) (snapc x) (mem x) (imm x) (sig x) (pend x) (nextpid x).

(* effect of an enabled raft event *)
Definition raft_effect (s : sys) (e : event) : sys :=
  match e with
  | RElect n => mkSys (cfg s) (nodes s) (glog s) (Some n) (master s) (peers s) (proposed s) (acked s)
  | RReplicate m k =>
      match leader s with
      | Some l => set_node s m (with_elog (nodes s m) (firstn k (elog (nodes s l))))
      | None => s
      end
  | RCommit k =>
      match leader s with
      | Some l => mkSys (cfg s) (nodes s) (firstn k (elog (nodes s l))) (leader s) (master s) (peers s) (proposed s) (acked s)
      | None => s
      end
  | RLearn m c =>
      let x := nodes s m in
      set_node s m (mkNode (up x) (paused x) (elog x) (efirst x) c (snap x) (wal x) (walold x) (files x)
                           (applied x) (snapc x) (mem x) (imm x) (sig x) (pend x) (nextpid x))
  | _ => s
  end.

Section Step.
  Variable raft_ok : sys -> event -> bool.

  Definition step (s : sys) (e : event) : option sys :=
    let c := cfg s in
    match e with
    | RReplicate m _ =>
        (* the leader can ship entries only if it still has what the member lacks *)
        if raft_ok s e && match leader s with
                          | Some l => Nat.leb (efirst (nodes s l)) (length (elog (nodes s m)))
                          | None => false
                          end
        then Some (raft_effect s e) else None
    | RElect _ | RCommit _ | RLearn _ _ =>
        if raft_ok s e then Some (raft_effect s e) else None
    | RStepDown => Some (mkSys c (nodes s) (glog s) None (master s) (peers s) (proposed s) (acked s))
    | Propose n b =>
        let x := nodes s n in
        if avail x then
          let pid := N.succ (nextpid x) in
          let x' := mkNode (up x) (paused x) (elog x) (efirst x) (hcommit x) (snap x) (wal x) (walold x) (files x)
                           (applied x) (snapc x) (mem x) (imm x) (sig x) ((pid, b) :: pend x) pid in
          let s1 := set_node s n x' in
          let s2 := match leader s with
                    | Some l => if avail (nodes s1 l)
                                then set_node s1 l (with_elog (nodes s1 l) (elog (nodes s1 l) ++ [EData n pid b]))
                                else s1
                    | None => s1
                    end in
          Some (mkSys c (nodes s2) (glog s) (leader s) (master s) (peers s) ((n, pid, b) :: proposed s) (acked s))
        else None
    | Timeout n pid =>
        let x := nodes s n in
        Some (set_node s n (mkNode (up x) (paused x) (elog x) (efirst x) (hcommit x) (snap x) (wal x) (walold x) (files x)
                                   (applied x) (snapc x) (mem x) (imm x) (sig x) (pend_remove (pend x) pid) (nextpid x)))
    | Apply n =>
        let x := nodes s n in
        if avail x && Nat.ltb (applied x) (hcommit x) && Nat.leb (efirst x) (applied x) then
          match nth_error (elog x) (applied x) with
          | Some en =>
              let s1 := set_node s n (apply_node c n x en) in
              Some (mkSys c (nodes s1) (glog s) (leader s) (master s) (peers s) (proposed s) (ack_of n x en ++ acked s))
          | None => None
          end
        else None
    | UpdSnapc n =>
        let x := nodes s n in
        if avail x then
          Some (set_node s n (mkNode (up x) (paused x) (elog x) (efirst x) (hcommit x) (snap x) (wal x) (walold x) (files x)
                                     (applied x) (Nat.max (snapc x) (applied x)) (mem x) (imm x) (sig x) (pend x) (nextpid x)))
        else None
    | FlushSwap n =>
        let x := nodes s n in
        if avail x && match imm x with [] => true | _ => false end && match walold x with [] => true | _ => false end then
          Some (set_node s n (mkNode (up x) (paused x) (elog x) (efirst x) (hcommit x) (snap x) [] (wal x) (files x)
                                     (applied x) (snapc x) [] (mem x) true (pend x) (nextpid x)))
        else None
    | SnapPersist n =>
        let x := nodes s n in
        if avail x && sig x then
          let sp := if Nat.leb (snapc x) (efirst x) then snap x else snapc x in   (* ErrSnapOutOfDate is ignored *)
          Some (set_node s n (mkNode (up x) (paused x) (elog x) (efirst x) (hcommit x) sp (wal x) (walold x) (files x)
                                     (applied x) (snapc x) (mem x) (imm x) false (pend x) (nextpid x)))
        else None
    | FlushCommit n =>
        let x := nodes s n in
        if avail x then
          Some (set_node s n (mkNode (up x) (paused x) (elog x) (efirst x) (hcommit x) (snap x) (wal x) [] (imm x ++ files x)
                                     (applied x) (snapc x) (mem x) [] (sig x) (pend x) (nextpid x)))
        else None
    | TruncPropose mm =>
        match leader s with
        | Some l =>
            let x := nodes s l in
            let idx := trunc_idx c mm (snap x) in
            if avail x && all_up s && negb (Nat.eqb (snap x) 0) && (negb (trunc_all c) || members_have s idx) then
              Some (set_node s l (with_elog x (elog x ++ [EClear idx])))
            else None
        | None => None
        end
    | TruncForce mm =>
        match leader s with
        | Some l =>
            let x := nodes s l in
            let idx := trunc_idx c mm (snap x) in
            if avail x && negb (Nat.eqb (snap x) 0) && (negb (trunc_all c) || members_have s idx) then
              Some (set_node s l (with_elog x (elog x ++ [EClear idx])))
            else None
        | None => None
        end
    | TruncLocal n =>
        let x := nodes s n in
        if avail x && (negb (trunc_all c) || members_have s (snap x)) then
          Some (set_node s n (mkNode (up x) (paused x) (elog x) (Nat.max (efirst x) (tr_first (fsz c) (snap x))) (hcommit x) (snap x)
                                     (wal x) (walold x) (files x) (applied x) (snapc x) (mem x) (imm x) (sig x) (pend x) (nextpid x)))
        else None
    | RSnapshot m =>
        match leader s with
        | Some l =>
            if snap_install c && avail (nodes s l) && avail (nodes s m) && negb (Nat.eqb m l)
               && Nat.ltb (length (elog (nodes s m))) (efirst (nodes s l))
            then Some (set_node s m (snap_install_node (nodes s m) (nodes s l)))
            else None
        | None => None
        end
    | Kill n =>
        let x := nodes s n in
        if up x then
          let s1 := set_node s n (kill_node c x) in
          Some (mkSys c (nodes s1) (glog s)
                      (match leader s with Some l => if Nat.eqb l n then None else Some l | None => None end)
                      (master s) (peers s) (proposed s) (acked s))
        else None
    | Restart n =>
        let x := nodes s n in
        if up x then None else Some (set_node s n (restart_node c x))
    | Pause n =>
        let x := nodes s n in
        if up x then
          Some (set_node s n (mkNode (up x) true (elog x) (efirst x) (hcommit x) (snap x) (wal x) (walold x) (files x)
                                     (applied x) (snapc x) (mem x) (imm x) (sig x) (pend x) (nextpid x)))
        else None
    | Resume n =>
        let x := nodes s n in
        if up x then
          Some (set_node s n (mkNode (up x) false (elog x) (efirst x) (hcommit x) (snap x) (wal x) (walold x) (files x)
                                     (applied x) (snapc x) (mem x) (imm x) (sig x) (pend x) (nextpid x)))
        else None
    | Rotate newm =>
        match get_new_rg (master s) (peers s) newm with
        | Some (m', ps') => Some (mkSys c (nodes s) (glog s) (leader s) m' ps' (proposed s) (acked s))
        | None => None
        end
    end.

  Fixpoint run (s : sys) (es : list event) : option sys :=
    match es with
    | [] => Some s
    | e :: r => match step s e with Some s' => run s' r | None => None end
    end.
End Step.

(* ------------------------------------------------------------------ a reference raft oracle (for Examples and the
   correspondence evaluator): allows exactly the raft events that satisfy the safety facts. *)
Definition raft_ref (s : sys) (e : event) : bool :=
  match e with
  | RElect n =>
      avail (nodes s n) && prefixb (glog s) (elog (nodes s n))
      && quorum s avail
  | RReplicate m k =>
      match leader s with
      | Some l =>
          avail (nodes s l) && avail (nodes s m) && negb (Nat.eqb m l)
          && Nat.leb (hcommit (nodes s m)) k && Nat.leb k (length (elog (nodes s l)))
          && (negb (prefixb (glog s) (elog (nodes s m))) || Nat.leb (length (glog s)) k)
      | None => false
      end
  | RCommit k =>
      match leader s with
      | Some l =>
          avail (nodes s l) && Nat.leb (length (glog s)) k && Nat.leb k (length (elog (nodes s l)))
          && quorum s (fun x => prefixb (firstn k (elog (nodes s l))) (elog x))
      | None => false
      end
  | RLearn m c =>
      avail (nodes s m) && Nat.leb (hcommit (nodes s m)) c && Nat.leb c (length (glog s))
      && prefixb (firstn c (glog s)) (elog (nodes s m))
  | _ => false
  end.

Definition node0 : node := mkNode true false [] 0 0 0 [] [] [] 0 0 [] [] false [] 0%N.
Definition init (c : config) : sys :=
  mkSys c (fun _ => node0) [] None 0 (seq 1 (nn c - 1)) [] [].

(* the product's defaults with every repair / as the code was before fixes 29caa41 and cfc2c3f *)
Definition cfg_repaired (n f : nat) : config := mkCfg n f true true true true false.
Definition cfg_current (n f : nat) : config := mkCfg n f true false false false true.
(* the code as it is: clamp and fresh propose ids (fixes 29caa41, cfc2c3f), truncation branches and snapshot installation as coded *)
Definition cfg_today (n f : nat) : config := mkCfg n f true true true false true.

(* observations *)
Definition read (s : sys) (n : nat) (k : key) : option val := get (view (nodes s n)) k.
Definition caught_up (s : sys) (n : nat) : bool := avail (nodes s n) && Nat.eqb (applied (nodes s n)) (length (glog s)).
Definition minority_down (s : sys) : bool := quorum s avail.

(* ------------------------------------------------------------------ DataWrapper codec (lib/raftlog/datawrapper.go) *)
Definition byte := N.
Fixpoint be_put (n : nat) (x : N) : list byte :=     (* n bytes, big endian *)
  match n with
  | O => []
  | S n' => be_put n' (N.div x 256) ++ [N.modulo x 256]
  end.
Fixpoint be_get (l : list byte) (acc : N) : N :=
  match l with [] => acc | b :: r => be_get r (acc * 256 + b)%N end.

Record dwrap := mkDw { dw_type : N; dw_ident : list byte; dw_pid : N; dw_data : list byte }.

Definition dw_marshal (d : dwrap) : list byte :=
  be_put 4 (dw_type d) ++ [N.modulo (N.of_nat (length (dw_ident d))) 256] ++ dw_ident d ++ be_put 8 (dw_pid d) ++ dw_data d.

(* None where the Go function returns an error or panics on a short buffer *)
Definition dw_unmarshal (l : list byte) : option dwrap :=
  if Nat.ltb (length l) 4 then None else
  let ty := be_get (firstn 4 l) 0 in
  let l1 := skipn 4 l in
  match l1 with
  | [] => None
  | ln :: l2 =>
      let n := N.to_nat ln in
      if Nat.leb (length l1) n then None else
      let ident := firstn n l2 in
      let l3 := skipn n l2 in
      if Nat.ltb (length l3) 8 then None else
      Some (mkDw ty ident (be_get (firstn 8 l3) 0) (skipn 8 l3))
  end.

Definition dw_wf (d : dwrap) : Prop :=
  (dw_type d < 2 ^ 32)%N /\ (dw_pid d < 2 ^ 64)%N /\ length (dw_ident d) < 256 /\
  Forall (fun b => (b < 256)%N) (dw_ident d).
