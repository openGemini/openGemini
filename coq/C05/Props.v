(* C05 property theorems, each derived from the invariants and lemmas of the files imported below and followed by
   Print Assumptions, plus Examples.
   etcd/raft is third-party and trusted: what is assumed of it are the four hypotheses of Section C05 (Invariant.raft_safe;
   they become premises of every closed theorem of the section; nothing is declared as an axiom). The trace theorems
   are stated for wf_cfg: shard WAL on, member-local clamp of ClearEntryLog and no snapshot installation (what the
   invariant needs), propose ids never reused (needed by ack_implies_committed only), trunc_all (needed by
   leader_keeps_what_members_lack only). Refuted.v shows what fails without them. Not expressible here (partial claim):
   timing, timeouts, real network behaviour. *)
From Coq Require Import List Arith NArith ZArith Bool Lia Permutation.
From OG Require Import C05.Model C05.Proofs C05.Invariant C05.Theorems C05.Final C05.Trunc C05.TruncProofs C05.Catchup C05.ReadPath C05.Refine C05.RestartRace C05.TruncPM C05.Coord C05.Persist.
Import ListNotations.

(* master rotation (GetNewRg / UpdateReplication, GenerateNewPeer, electRgMaster) *)
Theorem get_new_rg_permutes : forall m ps newm m' ps', ~ In m ps -> NoDup ps ->
  get_new_rg m ps newm = Some (m', ps') ->
  m' = newm /\ In newm ps /\ Permutation (m' :: ps') (m :: ps) /\ ~ In m' ps' /\ NoDup ps' /\ length ps' = length ps.
Proof. exact get_new_rg_ok. Qed.
Print Assumptions get_new_rg_permutes.

Theorem get_new_rg_accepts_every_peer : forall m ps newm, ~ In m ps -> NoDup ps -> In newm ps -> get_new_rg m ps newm <> None.
Proof.
  intros m ps newm Hm Hnd Hin. unfold get_new_rg.
  destruct (Nat.eqb newm m) eqn:E1; [apply Nat.eqb_eq in E1; subst; contradiction|].
  assert (E2 : existsb (Nat.eqb newm) ps = true) by (apply existsb_exists; exists newm; split; [assumption|apply Nat.eqb_refl]).
  rewrite E2. destruct (filter_neq_perm newm ps Hnd Hin) as [P1 _]. apply Permutation_length in P1. cbn in P1.
  cbn [length]. rewrite P1, Nat.eqb_refl. discriminate.
Qed.

Theorem generate_new_peer_permutes : forall m ps newm, ~ In m ps -> NoDup ps -> In newm ps ->
  let ps' := generate_new_peer m ps newm in
  Permutation (newm :: ps') (m :: ps) /\ ~ In newm ps' /\ NoDup ps'.
Proof.
  intros m ps newm Hm Hnd Hin. unfold generate_new_peer.
  destruct (Nat.eqb newm m) eqn:E1; [apply Nat.eqb_eq in E1; subst; contradiction|]. apply Nat.eqb_neq in E1.
  destruct (filter_neq_perm newm ps Hnd Hin) as [P1 P2]. cbn. split; [|split].
  - eapply perm_trans; [apply perm_swap|]. apply perm_skip. assumption.
  - intros [Hc|Hc]; [congruence|contradiction].
  - constructor; [intros Hc; apply filter_In in Hc; tauto|apply NoDup_filter; assumption].
Qed.

Theorem elect_rg_master_permutes : forall online ps m nm ps',
  elect_rg_master m ps online = Some (nm, ps') ->
  Permutation (nm :: ps') (m :: map fst ps) /\ In nm (map fst ps) /\ online nm = true /\ length ps' = length ps.
Proof.
  intros online. induction ps as [|[p sl] r IH]; intros m nm ps' H; cbn in H; [discriminate|].
  destruct (sl && online p) eqn:E.
  - inversion H; subst. apply andb_prop in E. cbn. split; [apply perm_swap|]. split; [left; reflexivity|]. split; [tauto|].
    rewrite map_length; reflexivity.
  - destruct (elect_rg_master m r online) as [[nm0 r0]|] eqn:Er; [|discriminate]. inversion H; subst.
    destruct (IH _ _ _ Er) as (P & I1 & O & L). cbn. split; [|split; [right; assumption|split; [assumption|lia]]].
    eapply perm_trans; [apply perm_swap|]. eapply perm_trans; [apply perm_skip; exact P|]. apply perm_swap.
Qed.
Print Assumptions elect_rg_master_permutes.

Theorem rotation_keeps_group : forall raft_ok c es s, 0 < nn c -> run raft_ok (init c) es = Some s ->
  ~ In (master s) (peers s) /\ NoDup (peers s) /\ Permutation (master s :: peers s) (seq 0 (nn (cfg s))).
Proof. intros raft_ok c es s Hn H. exact (rg_run raft_ok es (init c) s (rg_init c Hn) H). Qed.
Print Assumptions rotation_keeps_group.

Section C05.
  Variable raft_ok : sys -> event -> bool.
  (* leader completeness *)
  Hypothesis H_elect : forall s n, raft_ok s (RElect n) = true ->
    up (nodes s n) = true /\ prefixb (glog s) (elog (nodes s n)) = true.
  (* log matching *)
  Hypothesis H_repl : forall s m k, raft_ok s (RReplicate m k) = true ->
    exists l, leader s = Some l /\ m <> l /\ up (nodes s m) = true /\ hcommit (nodes s m) <= k /\
              k <= length (elog (nodes s l)) /\
              (prefixb (glog s) (elog (nodes s m)) = true -> length (glog s) <= k).
  (* commit only through a quorum, never retracted *)
  Hypothesis H_commit : forall s k, raft_ok s (RCommit k) = true ->
    exists l, leader s = Some l /\ length (glog s) <= k /\ k <= length (elog (nodes s l)) /\
              nn (cfg s) < 2 * count (fun m => prefixb (firstn k (elog (nodes s l))) (elog (nodes s m))) (nn (cfg s)).
  (* state-machine safety *)
  Hypothesis H_learn : forall s m c, raft_ok s (RLearn m c) = true ->
    up (nodes s m) = true /\ hcommit (nodes s m) <= c /\ c <= length (glog s) /\
    firstn c (elog (nodes s m)) = firstn c (glog s).

  (* the theorems of this section hold in every state reached from init c by any trace of proposals, raft events,
     applies, flushes, truncations, kills, restarts, pauses and rotations *)
  Theorem ack_implies_committed : forall c es s o p b, wf_cfg c -> run raft_ok (init c) es = Some s ->
    In (o, p, b) (acked s) -> In (EData o p b) (glog s).
  Proof.
    intros c es s o p b Hc H. destruct (reach raft_ok H_elect H_repl H_commit H_learn c es s Hc H) as (_ & HP & _).
    apply (p_ack _ HP).
  Qed.

  Theorem committed_survives_minority : forall c es s, wf_cfg c -> run raft_ok (init c) es = Some s ->
    (forall n, hcommit (nodes s n) <= length (glog s) /\
               firstn (hcommit (nodes s n)) (elog (nodes s n)) = firstn (hcommit (nodes s n)) (glog s)) /\
    (forall l, leader s = Some l -> pre (glog s) (elog (nodes s l))) /\
    (forall n, up (nodes s n) = true ->
               applied (nodes s n) <= hcommit (nodes s n) /\
               forall k, read s n k = get (ents_store (firstn (applied (nodes s n)) (glog s))) k) /\
    (minority_down s = true -> exists n, n < nn c /\ avail (nodes s n) = true /\ pre (glog s) (elog (nodes s n))).
  Proof. exact (survives raft_ok H_elect H_repl H_commit H_learn). Qed.

  Theorem any_replica_same_answer : forall c es s n m k, wf_cfg c -> run raft_ok (init c) es = Some s ->
    caught_up s n = true -> caught_up s m = true ->
    read s n k = read s m k /\ read s n k = get (ents_store (glog s)) k.
  Proof.
    intros c es s n m k Hc H Hn Hm. destruct (committed_survives_minority c es s Hc H) as (_ & _ & HR & _).
    unfold caught_up in *. apply andb_prop in Hn; destruct Hn as [Hn1 Hn2]. apply andb_prop in Hm; destruct Hm as [Hm1 Hm2].
    apply Nat.eqb_eq in Hn2, Hm2. apply avail_up in Hn1. apply avail_up in Hm1.
    destruct (HR n Hn1) as [_ Rn]. destruct (HR m Hm1) as [_ Rm].
    rewrite Rn, Rm, Hn2, Hm2, firstn_all. split; reflexivity.
  Qed.

  (* obligation made explicit: snapshot index <= entries contained in the durable shard state (data files + shard
     WAL). In writeSnapshot the RaftFlushC signal (and so CreateSnapshot) comes BEFORE commitSnapshot writes the data
     files: the obligation holds only because the switched WAL files are removed after commitSnapshot (wal_on). *)
  Theorem snapshot_index_safe : forall c es s n, wf_cfg c -> run raft_ok (init c) es = Some s ->
    (up (nodes s n) = true -> snap (nodes s n) <= applied (nodes s n) /\ dview (nodes s n) = view (nodes s n)) /\
    (up (nodes s n) = false ->
       (exists d, snap (nodes s n) <= d /\ d <= hcommit (nodes s n) /\
                  forall k, get (dview (nodes s n)) k = get (ents_store (firstn d (glog s))) k) /\
       forall s', step raft_ok s (Restart n) = Some s' ->
                  applied (nodes s' n) = hcommit (nodes s n) /\
                  forall k, read s' n k = get (ents_store (firstn (hcommit (nodes s n)) (glog s))) k).
  Proof.
    intros c es s n Hc H. destruct (reach raft_ok H_elect H_repl H_commit H_learn c es s Hc H) as (HI & _ & Hcfg).
    pose proof HI as (HN & _ & _). split.
    - intros Hu. destruct (HN n) as [_ _ _ D _]. destruct (D Hu) as (D1 & D2 & D3 & D4 & D5 & D6 & D7).
      split; [lia|]. unfold dview, view. rewrite D6, D7; reflexivity.
    - intros Hd. split.
      + destruct (HN n) as [_ _ _ _ E]. destruct (E Hd) as (d & E1 & E2 & E3 & E4). exists d; repeat split; assumption.
      + intros s' Hs.
        (* the restarted node satisfies the invariant again: its view is the image of its persisted commit prefix *)
        assert (HI' : Inv s').
        { eapply (step_inv raft_ok (raft_ok_safe raft_ok H_elect H_repl H_commit H_learn)); [|exact HI|exact Hs].
          destruct Hc as (_ & Hw & Hcl & _ & _ & Hsi). rewrite Hcfg; repeat split; assumption. }
        cbn [step] in Hs. rewrite Hd in Hs. inversion Hs; subst s'; clear Hs.
        destruct HI' as (HN' & _ & _). specialize (HN' n). cbn in HN'. rewrite upd_same in HN'.
        destruct HN' as [_ _ _ D _]. cbn in D. destruct (D eq_refl) as (_ & _ & _ & _ & D5 & _).
        cbn. rewrite upd_same. split; [reflexivity|]. intros k. unfold read. cbn. rewrite upd_same. apply D5.
  Qed.

  Theorem truncate_safe : forall c es s n, wf_cfg c -> run raft_ok (init c) es = Some s ->
    (efirst (nodes s n) = 0 \/ efirst (nodes s n) < snap (nodes s n)) /\
    (up (nodes s n) = true -> efirst (nodes s n) <= applied (nodes s n)).
  Proof.
    intros c es s n Hc H. destruct (reach raft_ok H_elect H_repl H_commit H_learn c es s Hc H) as ((HN & _ & _) & _ & _).
    destruct (HN n) as [_ _ C D _]. split; [assumption|]. intros Hu. destruct (D Hu) as (_ & _ & _ & D4 & _). assumption.
  Qed.

  (* the forced branches (clear-entryLog-tolerate-time, clear-entryLog-tolerate-size) are covered by truncate_safe
     for the member's OWN replay (the clamp makes any index safe locally). What they endanger is the OTHER members:
     this holds under the extra hypothesis made explicit by wf_cfg's trunc_all - an index is used for truncation only
     once EVERY member, also a dead one, has persisted it as committed. Then no node ever deletes an entry a member
     still lacks, so no raft snapshot (which carries no shard data) is ever needed. The forced branches as coded do not
     satisfy it: Refuted.forced_truncation_strands_member_refuted. *)
  Theorem leader_keeps_what_members_lack : forall c es s n m, wf_cfg c -> run raft_ok (init c) es = Some s ->
    m < nn c -> efirst (nodes s n) <= hcommit (nodes s m) /\ efirst (nodes s n) <= length (elog (nodes s m)).
  Proof.
    intros c es s n m Hc H Hm.
    destruct (reach raft_ok H_elect H_repl H_commit H_learn c es s Hc H) as ((HN & _ & _) & _ & Hcfg).
    destruct Hc as (_ & _ & _ & _ & Hta & Hsi).
    destruct (run_invh_hcom raft_ok (raft_ok_safe raft_ok H_elect H_repl H_commit H_learn) es (init c) s Hta Hsi (invh_init hcom c) H) as [_ J2].
    rewrite <- Hcfg in Hm. pose proof (hc_le_elog _ _ (HN m)). destruct (J2 n m Hm); unfold hcom in *; lia.
  Qed.

  (* one step of catching up: an available replica whose applied index is below its persisted commit index can apply
     the next entry (Apply n is enabled and advances applied by one); with committed_survives_minority (reads = LWW of
     the applied prefix) a replica that reaches the commit point this way answers like every other *)
  Theorem rejoin_catches_up : forall c es s n, wf_cfg c -> run raft_ok (init c) es = Some s ->
    avail (nodes s n) = true -> applied (nodes s n) < hcommit (nodes s n) ->
    exists s', step raft_ok s (Apply n) = Some s' /\ applied (nodes s' n) = S (applied (nodes s n)).
  Proof.
    intros c es s n Hc H Ha Hlt. destruct (reach raft_ok H_elect H_repl H_commit H_learn c es s Hc H) as ((HN & _ & _) & _ & _).
    pose proof (hc_le_elog _ _ (HN n)) as Hl. destruct (HN n) as [_ _ _ D _].
    destruct (D (avail_up _ Ha)) as (_ & _ & _ & D4 & _).
    cbn [step]. rewrite Ha. apply Nat.ltb_lt in Hlt. rewrite Hlt. apply Nat.leb_le in D4. rewrite D4. cbn [andb].
    destruct (nth_error (elog (nodes s n)) (applied (nodes s n))) eqn:E.
    - eexists; split; [reflexivity|]. cbn. rewrite upd_same. reflexivity.
    - apply nth_error_None in E. apply Nat.ltb_lt in Hlt. lia.
  Qed.

  (* read path after a failure of the master's store (ReadPath.v): a master elected (with electRgMaster's rule, any
     peer order) among the members that have CAUGHT UP answers every key with its latest committed value; the code
     elects among the members that are merely Online: Refuted.master_elected_before_catch_up_refuted *)
  Theorem master_elected_among_caught_up_answers_latest : forall c es s nm ps' k, wf_cfg c ->
    run raft_ok (init c) es = Some s -> elect_caught_up s = Some (nm, ps') -> read s nm k = get (ents_store (glog s)) k.
  Proof.
    intros c es s nm ps' k Hc H He. destruct (elect_rg_master_permutes _ _ _ _ _ He) as (_ & _ & Hon & _).
    apply (any_replica_same_answer c es s nm nm k Hc H Hon Hon).
  Qed.

  (* the weakest rule: elect among the members whose applied prefix contains every ACKNOWLEDGED write (they need not have
     caught up with everything committed) *)
  Theorem master_covering_every_ack_answers_every_ack : forall c es s nm ps', wf_cfg c ->
    run raft_ok (init c) es = Some s -> elect_covering s = Some (nm, ps') ->
    let a := applied (nodes s nm) in
    (forall k, read s nm k = get (ents_store (firstn a (glog s))) k) /\
    (forall o p b, In (o, p, b) (acked s) -> In (EData o p b) (firstn a (glog s))) /\
    (forall k, get (ents_store (skipn a (glog s))) k = None -> read s nm k = get (ents_store (glog s)) k).
  Proof.
    intros c es s nm ps' Hc H He a. destruct (elect_rg_master_permutes _ _ _ _ _ He) as (_ & _ & Hon & _).
    unfold covers_acks in Hon. apply andb_prop in Hon. destruct Hon as [Hav Hall].
    destruct (committed_survives_minority c es s Hc H) as (_ & _ & HR & _).
    destruct (HR nm (avail_up _ Hav)) as [_ Rd]. fold a in Rd.
    split; [exact Rd|]. split.
    - intros o p b Hin. rewrite forallb_forall in Hall. specialize (Hall _ Hin). cbn in Hall.
      apply existsb_exists in Hall. destruct Hall as (e & He1 & He2). apply entry_eqb_eq in He2. subst e. exact He1.
    - intros k Hk. rewrite Rd. rewrite <- (firstn_skipn a (glog s)) at 2. symmetry. apply get_tail_none. exact Hk.
  Qed.
End C05.

Print Assumptions ack_implies_committed.
Print Assumptions committed_survives_minority.
Print Assumptions any_replica_same_answer.
Print Assumptions snapshot_index_safe.
Print Assumptions truncate_safe.
Print Assumptions leader_keeps_what_members_lack.
Print Assumptions rejoin_catches_up.
Print Assumptions master_elected_among_caught_up_answers_latest.
Print Assumptions master_covering_every_ack_answers_every_ack.

(* coordinator (writeRowToShard): an acknowledgement to the client means that one of the store's answers (the scripted
   ones or the repeating last one) was an acknowledgement; while the store answers with retryable errors (no master yet)
   the request is retried and succeeds as soon as the store accepts it within the budget ("writes are accepted again as
   soon as a new leader exists") *)
Theorem coordinator_ack_only_after_store_ack : forall fuel script last calls,
  fst (coord_retry fuel script last calls) = true -> In WOk (script ++ [last]).
Proof. exact coord_ack_sound. Qed.
Theorem coordinator_retries_until_master : forall k fuel last calls, k <= fuel ->
  coord_retry fuel (repeat WRetry k ++ [WOk]) last calls = (true, S (k + calls)).
Proof.
  induction k as [|k IH]; intros fuel last calls H; cbn.
  - destruct fuel; reflexivity.
  - destruct fuel as [|f]; [lia|]. cbn. rewrite IH by lia. f_equal. lia.
Qed.
Print Assumptions coordinator_ack_only_after_store_ack.

Theorem ack_only_after_successful_apply : forall u a, commit_result_repaired u a = true -> a = true.
Proof. intros u a H; unfold commit_result_repaired in H; apply andb_prop in H; tauto. Qed.

(* the hypotheses are satisfiable: the reference oracle has all four properties *)
Example raft_hypotheses_satisfiable :
  (forall s n, raft_ref s (RElect n) = true -> up (nodes s n) = true /\ prefixb (glog s) (elog (nodes s n)) = true) /\
  (forall s m k, raft_ref s (RReplicate m k) = true ->
    exists l, leader s = Some l /\ m <> l /\ up (nodes s m) = true /\ hcommit (nodes s m) <= k /\
              k <= length (elog (nodes s l)) /\ (prefixb (glog s) (elog (nodes s m)) = true -> length (glog s) <= k)) /\
  (forall s k, raft_ref s (RCommit k) = true ->
    exists l, leader s = Some l /\ length (glog s) <= k /\ k <= length (elog (nodes s l)) /\
              nn (cfg s) < 2 * count (fun m => prefixb (firstn k (elog (nodes s l))) (elog (nodes s m))) (nn (cfg s))) /\
  (forall s m c, raft_ref s (RLearn m c) = true ->
    up (nodes s m) = true /\ hcommit (nodes s m) <= c /\ c <= length (glog s) /\
    firstn c (elog (nodes s m)) = firstn c (glog s)).
Proof. destruct raft_ref_safe as [A B C D]. exact (conj A (conj B (conj C D))). Qed.

(* a full run under the reference oracle: write, overwrite, leader killed, new leader, old leader rejoins, catches
   up, then another node is killed; the acknowledged points are readable with their latest values on every
   caught-up replica *)
Definition demo_trace : list event :=
  [ RElect 0;
    Propose 0 [(1%N, 10%Z); (2%N, 20%Z)]; RReplicate 1 1; RReplicate 2 1; RCommit 1; RLearn 0 1; Apply 0;
    RLearn 1 1; Apply 1; UpdSnapc 1; FlushSwap 1; SnapPersist 1;
    Propose 0 [(1%N, 11%Z)]; RReplicate 1 2; RCommit 2; RLearn 0 2; Apply 0;
    Kill 0;
    RLearn 1 2; RElect 1; Rotate 1;
    RReplicate 2 2; RLearn 2 2; Apply 2; Apply 2; Apply 1; FlushCommit 1;
    Propose 1 [(2%N, 21%Z)]; RReplicate 2 3; RCommit 3; RLearn 1 3; Apply 1;
    Restart 0; RReplicate 0 3; RLearn 0 3; Apply 0;
    Kill 2 ].

Example demo_run :
  match run raft_ref (init (cfg_repaired 3 2)) demo_trace with
  | Some s =>
      minority_down s = true /\ caught_up s 0 = true /\ caught_up s 1 = true /\ master s = 1 /\
      length (acked s) = 3 /\
      read s 0 1%N = Some 11%Z /\ read s 0 2%N = Some 21%Z /\ read s 1 1%N = Some 11%Z /\ read s 1 2%N = Some 21%Z
  | None => False
  end.
Proof. vm_compute. repeat split. Qed.

(* the explicit snapshot obligation is needed: with the shard WAL switched off, a kill between the RaftFlushC signal
   (snapshot index persisted) and commitSnapshot loses an acknowledged write on that replica although it counts as
   caught up *)
Example snapshot_window_without_wal :
  match run raft_ref (init (mkCfg 3 2 false true true true false))
        [ RElect 0; Propose 0 [(1%N, 10%Z)]; Propose 0 [(2%N, 20%Z)]; RReplicate 1 2; RCommit 2; RLearn 0 2;
          Apply 0; Apply 0; UpdSnapc 0; FlushSwap 0; SnapPersist 0; Kill 0; Restart 0 ] with
  | Some s => length (acked s) = 2 /\ applied (nodes s 0) = length (glog s) /\ read s 0 1%N = None /\ read s 0 2%N = Some 20%Z
  | None => False
  end.
Proof. vm_compute. repeat split. Qed.

(* the leader's truncation decision (Trunc.v)
   The tolerance timer is state of the decision. T = clear-entryLog-tolerate-time, L = the entry-file layout, pre = the
   decision rounds of one node since its start (any roles, any liveness, any Match values, any clock values), r = the
   round that follows. *)

(* every variant: a forced truncation (ClearEntryLog computed from the ACTIVE members only) ends a window of rounds
   that began, more than T earlier, with a leader round that saw a member down, and in which no round stopped the
   timer ([quiet] says what stops it in the given variant) *)
Theorem forced_truncation_window : forall tc T L pre r idx,
  snd (decide tc T L (tstate tc T L None pre) r) = DForce idx ->
  exists p a w, pre ++ [r] = p ++ a :: w /\ starts a /\ (T < r_now r - r_now a)%Z /\ Forall (quiet tc) (a :: w).
Proof. exact forced_window. Qed.
Print Assumptions forced_truncation_window.

(* repaired rule (timer cleared by a healthy round and by a round in which the node is not the leader): a forced
   truncation happens only after a CONTINUOUS unhealthy period longer than the tolerate time - in every decision round of
   a window longer than T this node was the leader and saw a member down *)
Theorem forced_truncation_needs_continuous_outage : forall T L pre r idx,
  snap_stays (pre ++ [r]) ->
  snd (decide tcfg_repaired T L (tstate tcfg_repaired T L None pre) r) = DForce idx ->
  exists p a w, pre ++ [r] = p ++ a :: w /\ (T < r_now r - r_now a)%Z /\
                forall q, In q (a :: w) -> r_lead q = true /\ all_alive q = false.
Proof. exact forced_continuous_outage. Qed.
Print Assumptions forced_truncation_needs_continuous_outage.

(* repaired rule: after any round (in any role) in which this node saw every member alive, nothing is forced until
   more than the tolerate time later: a second outage never inherits the clock of a first one *)
Theorem forced_truncation_not_within_tolerance_of_health : forall T L pre r idx q,
  clock_mono (pre ++ [r]) -> snap_stays (pre ++ [r]) ->
  snd (decide tcfg_repaired T L (tstate tcfg_repaired T L None pre) r) = DForce idx ->
  In q pre -> all_alive q = true -> (T < r_now r - r_now q)%Z.
Proof.
  intros T L pre r idx q Hcm Hss H Hq Hal.
  destruct (forced_continuous_outage _ _ _ _ _ Hss H) as (p & a & w & E & Ht & Hw).
  assert (Hin : In q (p ++ a :: w)) by (rewrite <- E; apply in_or_app; left; assumption).
  apply in_app_or in Hin. destruct Hin as [Hp|Hw'].
  - rewrite E in Hcm. destruct (clock_mono_app _ _ Hcm) as [_ B]. specialize (B q a Hp (or_introl eq_refl)). lia.
  - destruct (Hw q Hw') as [_ C]. congruence.
Qed.
Print Assumptions forced_truncation_not_within_tolerance_of_health.

(* the rule before fix 5ce0b1e (partial: only health seen AS THE LEADER clears the timer; see
   Refuted.stale_tolerance_timer_refuted for what is missing) *)
Theorem leader_health_clears_tolerance_timer_partial : forall T L pre r idx q,
  clock_mono (pre ++ [r]) ->
  snd (decide tcfg_current T L (tstate tcfg_current T L None pre) r) = DForce idx ->
  In q pre -> r_lead q = true -> r_snap q <> 0%N -> all_alive q = true -> (T < r_now r - r_now q)%Z.
Proof.
  intros T L pre r idx q Hcm H Hq Hl Hs Hal.
  destruct (forced_window _ _ _ _ _ _ H) as (p & a & w & E & _ & Ht & Hf).
  assert (Hin : In q (p ++ a :: w)) by (rewrite <- E; apply in_or_app; left; assumption).
  apply in_app_or in Hin. destruct Hin as [Hp|Hw'].
  - rewrite E in Hcm. destruct (clock_mono_app _ _ Hcm) as [_ B]. specialize (B q a Hp (or_introl eq_refl)). lia.
  - rewrite Forall_forall in Hf. destruct (Hf q Hw') as [_ Q2]. exfalso. apply (Q2 eq_refl). repeat split; assumption.
Qed.
Print Assumptions leader_health_clears_tolerance_timer_partial.

(* the hypotheses are satisfiable and the forced branch is reachable: a member is down for seven hours (tolerate time
   six hours = 360 minutes, rounds every 60 minutes); the forced index is the minimum over the ACTIVE members *)
Example forced_after_long_outage :
  let dn := [true; true; false] in
  let rs := map (fun t => mkRound t true dn [100%N; 90%N; 7%N] 95%N) [0; 60; 120; 180; 240; 300; 360]%Z in
  let r := mkRound 420 true dn [100%N; 90%N; 7%N] 95%N in
  clock_mono (rs ++ [r]) /\ snap_stays (rs ++ [r]) /\
  decisions tcfg_repaired 360 (mkLay 30000 1 100) None (rs ++ [r]) = [DNone; DNone; DNone; DNone; DNone; DNone; DNone; DForce 95%N].
Proof.
  cbn zeta. split; [apply clock_monob_ok; reflexivity|split; [apply snap_staysb_ok; reflexivity|vm_compute; reflexivity]].
Qed.

(* every entry of a contiguously written entry log is found by seekEntry, whichever file holds it - in particular the
   first entry of a rotated file *)
Theorem entry_lookup_finds_every_entry : forall E i, wf_files E ->
  (log_first E <= i)%N -> (i <= log_last E)%N -> seek true E i = SFound i.
Proof. exact seek_finds. Qed.
Print Assumptions entry_lookup_finds_every_entry.

(* a follower whose entry next-1 is in the leader's log is sent entries (MsgApp), never a snapshot *)
Theorem follower_with_prev_in_log_gets_entries : forall E snp next, wf_files E ->
  (log_first E <= next - 1)%N -> (next - 1 <= log_last E)%N -> send_append true E snp next = true.
Proof.
  intros E snp next Hwf Hlo Hhi. unfold send_append. apply andb_true_iff. split.
  - unfold raftlog_term_ok. destruct ((next - 1 <? log_first E - 1)%N || (N.max (log_last E) snp <? next - 1)%N); [reflexivity|].
    unfold storage_term_ok. rewrite (seek_finds _ _ Hwf Hlo Hhi). reflexivity.
  - unfold raftlog_entries_ok. apply orb_true_iff. right. apply N.leb_le. lia.
Qed.
Print Assumptions follower_with_prev_in_log_gets_entries.

(* the converse: a follower whose next entry is already below the leader's first index is sent a snapshot (which carries
   no shard data), for both lookup variants *)
Theorem follower_below_log_gets_snapshot : forall exact E snp next,
  (next < log_first E)%N -> (next <= N.max (log_last E) snp)%N -> send_append exact E snp next = false.
Proof.
  intros exact E snp next H1 H2. unfold send_append, raftlog_entries_ok.
  assert (A : (N.max (log_last E) snp <? next)%N = false) by (apply N.ltb_ge; assumption).
  assert (B : (log_first E <=? next)%N = false) by (apply N.leb_gt; assumption).
  rewrite A, B. apply andb_false_r.
Qed.
Print Assumptions follower_below_log_gets_snapshot.

(* ... and so is a follower whose log ends exactly where the leader's begins (Term(first-1) is compacted), unless the
   leader's snapshot index is that very entry: the strict form efirst < |log m| of catch_up_from_log_guaranteed is needed *)
Theorem follower_ending_just_before_log_gets_snapshot : forall E snp next, wf_files E ->
  (1 < next)%N -> next = log_first E -> (next - 1 <= N.max (log_last E) snp)%N -> snp <> (next - 1)%N ->
  send_append true E snp next = false.
Proof.
  intros E snp next Hwf H1 Hn H2 Hs. unfold send_append, raftlog_term_ok.
  assert (A : (next - 1 <? log_first E - 1)%N = false) by (apply N.ltb_ge; lia).
  assert (B : (N.max (log_last E) snp <? next - 1)%N = false) by (apply N.ltb_ge; assumption).
  rewrite A, B. cbn [orb]. unfold storage_term_ok. rewrite (seek_before_log E (next - 1)%N Hwf) by lia.
  assert (C : (next - 1 =? snp)%N = false) by (apply N.eqb_neq; congruence). rewrite C. reflexivity.
Qed.
Print Assumptions follower_ending_just_before_log_gets_snapshot.

(* the hypotheses are satisfiable: a log of 60100 entries in three files of 30000 *)
Example three_file_log_is_wf :
  wf_files (layout_files 30000 1 60100) /\ log_first (layout_files 30000 1 60100) = 1%N /\
  log_last (layout_files 30000 1 60100) = 60100%N /\
  seek true (layout_files 30000 1 60100) 30001 = SFound 30001%N /\
  send_append true (layout_files 30000 1 60100) 60050 30002 = true.
Proof. vm_compute. repeat split; try reflexivity; try discriminate. Qed.

(* the same log after its first file was deleted: a follower that ends at 30000 or earlier gets a snapshot *)
Example truncated_log_sends_snapshot :
  wf_files (layout_files 30000 30001 60100) /\ log_first (layout_files 30000 30001 60100) = 30001%N /\
  send_append true (layout_files 30000 30001 60100) 60050 30001 = false /\
  send_append true (layout_files 30000 30001 60100) 60050 30000 = false /\
  send_append true (layout_files 30000 30001 60100) 60050 30002 = true.
Proof. vm_compute. repeat split; try reflexivity; try discriminate. Qed.

Section C05_catchup.
  Variable raft_ok : sys -> event -> bool.
  Hypothesis H_elect : forall s n, raft_ok s (RElect n) = true ->
    up (nodes s n) = true /\ prefixb (glog s) (elog (nodes s n)) = true.
  Hypothesis H_repl : forall s m k, raft_ok s (RReplicate m k) = true ->
    exists l, leader s = Some l /\ m <> l /\ up (nodes s m) = true /\ hcommit (nodes s m) <= k /\
              k <= length (elog (nodes s l)) /\
              (prefixb (glog s) (elog (nodes s m)) = true -> length (glog s) <= k).
  Hypothesis H_commit : forall s k, raft_ok s (RCommit k) = true ->
    exists l, leader s = Some l /\ length (glog s) <= k /\ k <= length (elog (nodes s l)) /\
              nn (cfg s) < 2 * count (fun m => prefixb (firstn k (elog (nodes s l))) (elog (nodes s m))) (nn (cfg s)).
  Hypothesis H_learn : forall s m c, raft_ok s (RLearn m c) = true ->
    up (nodes s m) = true /\ hcommit (nodes s m) <= c /\ c <= length (glog s) /\
    firstn c (elog (nodes s m)) = firstn c (glog s).
  (* log matching, second half: replication never removes a committed entry from a follower's log *)
  Hypothesis H_keep : forall s m k, raft_ok s (RReplicate m k) = true -> lcp (elog (nodes s m)) (glog s) <= k.

  (* for every configuration with the shard WAL and the member-local clamp (trunc_all and snap_install as they are
     coded or repaired), every trace in which each truncation step is [sound] - its index lies inside what EVERY member
     of the group, also a dead one, holds of the committed sequence; the healthy branch with the Match of all members
     is of this kind - : in the reached state every node's log starts strictly inside every member's log, i.e. the
     entry before the member's next one is still in the leader's log, so the leader ships entries and a raft snapshot
     (which carries no shard data) is never enabled: catch-up from the log is guaranteed. *)
  Theorem catch_up_from_log_guaranteed : forall c es s n m, base_cfg c ->
    sound_run raft_ok (init c) es -> run raft_ok (init c) es = Some s -> m < nn c ->
    (efirst (nodes s n) = 0 \/ efirst (nodes s n) < length (elog (nodes s m))) /\
    step raft_ok s (RSnapshot m) = None.
  Proof.
    intros c es s n m (Hn & Hw & Hc) Hs H Hm.
    destruct (run_invh_clen raft_ok (raft_ok_safe raft_ok H_elect H_repl H_commit H_learn) H_keep es (init c) s Hw Hc
                       (inv_init c Hn) (invh_init clen c) Hs H) as (HI & HK & Hcfg).
    assert (Hm' : m < nn (cfg s)) by (rewrite Hcfg; exact Hm).
    destruct (invh_no_snapshot clen raft_ok s m HK (fun l => lcp_le_l _ _) Hm') as [Hb Hno].
    split; [apply Hb|exact Hno].
  Qed.
End C05_catchup.
Print Assumptions catch_up_from_log_guaranteed.

(* what installing a raft snapshot means for the shard of member m: nothing is transferred - the applied and commit
   indexes jump to the leader's snapshot index, what the member reads (and what survives a kill) is unchanged; and it
   happens only when the leader's log starts after the member's log ends *)
Theorem snapshot_install_transfers_no_shard_data : forall raft_ok s m s', step raft_ok s (RSnapshot m) = Some s' ->
  exists l, leader s = Some l /\
    view (nodes s' m) = view (nodes s m) /\ dview (nodes s' m) = dview (nodes s m) /\
    applied (nodes s' m) = snap (nodes s l) /\ hcommit (nodes s' m) = snap (nodes s l) /\
    length (elog (nodes s m)) < efirst (nodes s l).
Proof.
  intros raft_ok s m s' H. cbn [step] in H. destruct (leader s) as [l|]; [|discriminate]. exists l.
  match type of H with (if ?b then _ else _) = _ => destruct b eqn:Hg; [|discriminate] end.
  stepped H. repeat (apply andb_prop in Hg; destruct Hg as [Hg ?]).
  match goal with Hlt : Nat.ltb _ _ = true |- _ => apply Nat.ltb_lt in Hlt end.
  cbn. rewrite upd_same. cbn. repeat split; try reflexivity. assumption.
Qed.
Print Assumptions snapshot_install_transfers_no_shard_data.

(* the reference oracle with the second half of log matching: leader completeness, state-machine safety and H_keep
   hold of it (log matching and commit are those of raft_ref: ref2_ref with raft_hypotheses_satisfiable) *)
Example raft_hypotheses_with_keep_satisfiable :
  (forall s n, raft_ref2 s (RElect n) = true -> up (nodes s n) = true /\ prefixb (glog s) (elog (nodes s n)) = true) /\
  (forall s m c, raft_ref2 s (RLearn m c) = true ->
     up (nodes s m) = true /\ hcommit (nodes s m) <= c /\ c <= length (glog s) /\ firstn c (elog (nodes s m)) = firstn c (glog s)) /\
  (forall s m k, raft_ref2 s (RReplicate m k) = true -> lcp (elog (nodes s m)) (glog s) <= k).
Proof.
  split; [|split].
  - intros s n H; apply (rs_elect _ raft_ref_safe); apply ref2_ref; assumption.
  - intros s m c H; apply (rs_learn _ raft_ref_safe); apply ref2_ref; assumption.
  - exact ref2_keep.
Qed.

(* the configuration as coded (cfg_today), healthy truncation only: the leader flushes and truncates with the Match of all members
   (entry file 1 = entries 1,2 deleted on the leader), then member 2 is down during an acknowledged overwrite, rejoins
   and catches up from the log; every step is sound *)
Definition healthy_trace : list event :=
  [ RElect 0; Propose 0 [(1%N, 10%Z)]; RReplicate 1 1; RReplicate 2 1; RCommit 1; RLearn 0 1; RLearn 1 1; RLearn 2 1;
    Apply 0; Apply 1; Apply 2;
    Propose 0 [(2%N, 20%Z)]; Propose 0 [(3%N, 30%Z)]; RReplicate 1 3; RReplicate 2 3; RCommit 3;
    RLearn 0 3; RLearn 1 3; RLearn 2 3; Apply 0; Apply 0; Apply 1; Apply 1; Apply 2; Apply 2;
    UpdSnapc 0; FlushSwap 0; SnapPersist 0; FlushCommit 0;
    TruncPropose 3; RReplicate 1 4; RReplicate 2 4; RCommit 4; RLearn 0 4; RLearn 1 4; RLearn 2 4; Apply 0; Apply 1; Apply 2;
    Kill 2; Propose 0 [(1%N, 11%Z)]; RReplicate 1 5; RCommit 5; RLearn 0 5; RLearn 1 5; Apply 0; Apply 1;
    Restart 2; RReplicate 2 5; RLearn 2 5; Apply 2 ].

Example healthy_truncation_then_catch_up :
  sound_run raft_ref2 (init (cfg_today 3 2)) healthy_trace /\
  match run raft_ref2 (init (cfg_today 3 2)) healthy_trace with
  | Some s => efirst (nodes s 0) = 2 /\ caught_up s 2 = true /\ read s 2 1%N = Some 11%Z /\ length (acked s) = 4
  | None => False
  end.
Proof.
  split.
  - apply sound_runb_ok. vm_compute. reflexivity.
  - vm_compute. repeat split.
Qed.

(* the read path after a failure of the master's store: the election rules of ReadPath.v on concrete runs *)
Example caught_up_master_after_lagmaster_trace :
  match run raft_ref (init (cfg_repaired 3 2)) lagmaster_trace with
  | Some s => elect_caught_up s = Some (2, [1; 0]) /\ read s 2 1%N = Some 11%Z
  | None => False
  end.
Proof. vm_compute. split; reflexivity. Qed.

(* the rule is strictly weaker than "caught up": an entry whose writer gave up (never acknowledged) is committed but not
   yet applied on member 1; the master's store dies: no member has caught up, member 1 covers every acknowledgement *)
Example covering_is_weaker_than_caught_up :
  match run raft_ref (init (cfg_repaired 3 2))
        [ RElect 0; Propose 0 [(1%N, 10%Z)]; RReplicate 1 1; RReplicate 2 1; RCommit 1; RLearn 0 1; RLearn 1 1; RLearn 2 1;
          Apply 0; Apply 1; Apply 2;
          Propose 0 [(2%N, 20%Z)]; Timeout 0 2%N; RReplicate 1 2; RCommit 2; RLearn 0 2; Apply 0; Kill 0 ] with
  | Some s => elect_caught_up s = None /\ elect_covering s = Some (1, [0; 2]) /\ length (acked s) = 1 /\ read s 1 1%N = Some 10%Z
  | None => False
  end.
Proof. vm_compute. repeat split. Qed.

(* the decision model refines the group machine (Refine.v)
   Layered machine: the group machine + a wall clock + one tolerance timer per node; TRound n ms runs Trunc.decide on
   node n with what n sees of the group (leadership, who is up, its snapshot index, its entry-file layout) and performs
   the decision as the TruncPropose / TruncForce event of the group machine. For every raft oracle, timer variant, T. *)
Theorem truncation_decision_refines_group_machine : forall raft_ok tc T tes ts ts',
  trun raft_ok tc T ts tes = Some ts' -> exists es, run raft_ok (tb ts) es = Some (tb ts').
Proof.
  intros raft_ok tc T. induction tes as [|te tes IH]; intros ts ts' H; cbn in H.
  - inversion H; subst. exists []. reflexivity.
  - destruct (tstep raft_ok tc T ts te) as [ts1|] eqn:E; [|discriminate].
    destruct (IH _ _ H) as [es Hes]. destruct (tstep_refines _ _ _ _ _ _ E) as [Heq|[e He]].
    + exists es. rewrite <- Heq. assumption.
    + exists (e :: es). cbn. rewrite He. assumption.
Qed.
Print Assumptions truncation_decision_refines_group_machine.

(* a round whose decision proposes idx appends exactly ClearEntryLog(idx) to the leader's log: genProposeData with the
   file ids SlotGe reports relative to the present log and the group machine's trunc_idx agree on it *)
Theorem round_appends_exactly_the_decided_index : forall raft_ok tc T ts n ms ts' idx,
  tstep raft_ok tc T ts (TRound n ms) = Some ts' ->
  (snd (decide tc T (lay_of (tb ts) n) (ttim ts n) (round_of ts n ms)) = DHealthy idx \/
   snd (decide tc T (lay_of (tb ts) n) (ttim ts n) (round_of ts n ms)) = DForce idx) ->
  leader (tb ts) = Some n /\
  tb ts' = set_node (tb ts) n (with_elog (nodes (tb ts) n) (elog (nodes (tb ts) n) ++ [EClear (N.to_nat idx)])).
Proof. exact round_appends_decision. Qed.
Print Assumptions round_appends_exactly_the_decided_index.

(* group level, repaired timer rule (fix 5ce0b1e): in every reachable state of the layered machine, a node
   whose decision forces a truncation now last saw every member alive (in any role) more than T ago *)
Theorem group_forced_truncation_not_within_tolerance_of_health : forall raft_ok T c tes ts n ms idx z,
  trun raft_ok tcfg_repaired T (tinit c) tes = Some ts ->
  snd (decide tcfg_repaired T (lay_of (tb ts) n) (ttim ts n) (round_of ts n ms)) = DForce idx ->
  tseen ts n = Some z -> (T < tclock ts - z)%Z.
Proof. exact group_forced_after_tolerance. Qed.
Print Assumptions group_forced_truncation_not_within_tolerance_of_health.

(* a layered run under the reference oracle: healthy round (ClearEntryLog(1) proposed), member 2 killed, rounds while
   the tolerate time (360) runs, forced round after 400 *)
Example layered_run_demo :
  match trun raft_ref tcfg_repaired 360 (tinit (cfg_today 3 2))
        [ TBase (RElect 0); TBase (Propose 0 [(1%N, 10%Z)]); TBase (RReplicate 1 1); TBase (RReplicate 2 1); TBase (RCommit 1);
          TBase (RLearn 0 1); TBase (Apply 0); TBase (UpdSnapc 0); TBase (FlushSwap 0); TBase (SnapPersist 0);
          TRound 0 [1; 1; 1]%N; TBase (Kill 2); TTick 10; TRound 0 [2; 2; 1]%N; TTick 400; TRound 0 [2; 2; 1]%N ] with
  | Some ts => elog (nodes (tb ts) 0) = [EData 0 1%N [(1%N, 10%Z)]; EClear 1; EClear 1] /\ ttim ts 0 = None /\ tclock ts = 410%Z
  | None => False
  end.
Proof. vm_compute. repeat split. Qed.

(* repaired order (the commit reader waits for the restart replay): if the restart reconstructs a prefix of the log,
   applying the entries that follow gives the image of the longer prefix - log order is kept *)
Theorem restart_replay_before_newer_entries_is_log_order : forall c n x es pre,
  sim (view (restart_node c x)) (ents_store pre) ->
  sim (view (replay_then_apply c n x es)) (ents_store (pre ++ es)) /\
  applied (replay_then_apply c n x es) = hcommit x + length es.
Proof.
  intros c n x es pre H. unfold replay_then_apply.
  destruct (apply_all_mem c n es (restart_node c x)) as (A & B & C & D). split.
  - unfold view in *. rewrite A, B, C, ents_store_app, <- app_assoc. apply sim_app_l. exact H.
  - rewrite D. reflexivity.
Qed.
Print Assumptions restart_replay_before_newer_entries_is_log_order.

(* per-member tolerance periods (TruncPM.v: a design variant, not in the code): a member's entries are given up only after ITS OWN continuous outage of more than T *)
Theorem per_member_given_up_only_after_own_outage : forall T L pre r j,
  snap_stays (pre ++ [r]) -> pm_expired T L pre r j = true ->
  exists p a w, pre ++ [r] = p ++ a :: w /\ (T < r_now r - r_now a)%Z /\
                forall q, In q (a :: w) -> r_lead q = true /\ nth j (r_alive q) true = false.
Proof. exact pm_given_up_after_own_outage. Qed.
Print Assumptions per_member_given_up_only_after_own_outage.

(* ... and the forced index respects the Match of every member whose own period has not expired *)
Theorem per_member_forced_index_counts_members_within_tolerance : forall n T L pre r idx,
  decide_pm n T L pre r = DForce idx ->
  exists mm, idx = gen_idx L (r_snap r) mm /\
    forall j m, j < n -> j < length (r_match r) -> pm_expired T L pre r j = false -> mm = Some m -> (m <= nth j (r_match r) 0)%N.
Proof.
  intros n T L pre r idx H. unfold decide_pm in H.
  destruct (negb (r_lead r)); [discriminate|]. destruct (r_snap r =? 0)%N; [discriminate|].
  destruct (all_alive r); [discriminate|]. destruct (existsb _ _); [|discriminate]. inversion H; subst idx; clear H.
  eexists; split; [reflexivity|]. intros j m Hj Hl He Hm.
  eapply min_list_le; [exact Hm|]. apply sel_nth_in; [|assumption].
  unfold pm_counted. rewrite (nth_indep _ false (negb (pm_expired T L pre r 0))) by (rewrite map_length, seq_length; assumption).
  rewrite (map_nth (fun j0 => negb (pm_expired T L pre r j0)) (seq 0 n) 0 j), seq_nth by assumption. cbn. rewrite He. reflexivity.
Qed.
Print Assumptions per_member_forced_index_counts_members_within_tolerance.

(* member 1 is down for six hours, comes back, and member 2 goes down within two minutes: the group timer of the code forces the
   truncation with member 2's entries given up; with per-member periods member 1's period ends, member 2's starts *)
Definition handover_rounds : list round :=
  map (fun t => mkRound t true [true; false; true] [100%N; 40%N; 100%N] 95%N) [0; 60; 120; 180; 240; 300; 359]%Z.
Definition handover_last : round := mkRound 361 true [true; true; false] [100%N; 100%N; 90%N] 95%N.
Example per_member_handover :
  decide_pm 3 360 (mkLay 30000 1 100) handover_rounds handover_last = DNone /\
  snd (decide tcfg_repaired 360 (mkLay 30000 1 100) (tstate tcfg_repaired 360 (mkLay 30000 1 100) None handover_rounds) handover_last) = DForce 95%N.
Proof. vm_compute. split; reflexivity. Qed.

(* acknowledged to the client => every shard the request touches was acknowledged by its store *)
Theorem batch_ack_means_every_shard_stored : forall fuel scripts, Forall (fun sc => sc <> []) scripts ->
  fst (batch_write fuel scripts) = true -> Forall (fun sc => In WOk sc) scripts.
Proof.
  intros fuel scripts Hne H. unfold batch_write in H. cbn [fst] in H. rewrite forallb_forall in H.
  rewrite Forall_forall in *. intros sc Hin. apply (shard_ack_sound fuel); [apply Hne; assumption|].
  apply H. apply in_map. assumption.
Qed.
Print Assumptions batch_ack_means_every_shard_stored.

(* a partially stored request is never acknowledged *)
Theorem partially_stored_batch_is_not_acknowledged : forall fuel scripts sc, In sc scripts ->
  fst (shard_write fuel sc) = false -> fst (batch_write fuel scripts) = false.
Proof.
  intros fuel scripts sc Hin H. unfold batch_write. cbn [fst].
  destruct (forallb fst (map (shard_write fuel) scripts)) eqn:E; [|reflexivity].
  rewrite forallb_forall in E. rewrite (E _ (in_map _ _ _ Hin)) in H. discriminate.
Qed.

Theorem fully_stored_batch_is_acknowledged : forall fuel scripts,
  Forall (fun sc => fst (shard_write fuel sc) = true) scripts -> fst (batch_write fuel scripts) = true.
Proof.
  intros fuel scripts H. unfold batch_write. cbn [fst]. apply forallb_forall. intros x Hx.
  apply in_map_iff in Hx. destruct Hx as (sc & <- & Hin). rewrite Forall_forall in H. apply H. assumption.
Qed.

Example partial_batch_demo :
  batch_write 10 [[WOk]; [WRetry; WFail]; [WRetry; WOk]] = (false, [(true, 1); (false, 2); (true, 2)]).
Proof. vm_compute. reflexivity. Qed.

(* every member answers on the follower path (an acknowledgement carries only what is durable): what the leader has
   committed - and acknowledged to the client - is on the disk of a quorum at every instant of every run, whichever
   members are killed whenever *)
Theorem acknowledged_is_on_disk_of_a_quorum : forall n es s, prun n true pinit es = Some s ->
  pcommit s = 0 \/ n < 2 * cnt n (fun m => Nat.leb (pcommit s) (pd s m)).
Proof. intros n es s H. destruct (prun_inv n es pinit s (pi_init n) H) as (_ & _ & I3). exact I3. Qed.
Print Assumptions acknowledged_is_on_disk_of_a_quorum.

Example persist_run_demo :
  match prun 3 true pinit [PRecv 0 1; PPersist 0; PAck 0; PRecv 1 1; PAck 1; PKill 1; PRecv 1 1; PPersist 1; PAck 1; PCommit 1] with
  | Some s => pcommit s = 1 /\ pd s 0 = 1 /\ pd s 1 = 1
  | None => False
  end.
Proof. vm_compute. repeat split. Qed.
