(* C05 - coordinator: one write request that touches several shards (PointsWriter.writeShardMap): every shard is written
   through the per-shard retry loop (Model.coord_retry) concurrently; the request fails if any shard failed. *)
From Coq Require Import List Arith Bool Lia.
From OG Require Import C05.Model.
Import ListNotations.

Lemma coord_ack_sound : forall fuel script last calls,
  fst (coord_retry fuel script last calls) = true -> In WOk (script ++ [last]).
Proof.
  induction fuel as [|f IH]; intros script last calls H; destruct script as [|x r]; cbn in *.
  - destruct last; cbn in H; try discriminate; left; reflexivity.
  - destruct x; cbn in H; try discriminate; left; reflexivity.
  - destruct last; cbn in H; try discriminate; [left; reflexivity|]. specialize (IH [] WRetry _ H). cbn in IH. destruct IH as [IH|[]]. discriminate.
  - destruct x; cbn in H; try discriminate; [left; reflexivity|]. right. exact (IH _ _ _ H).
Qed.

(* per shard: the store's answers in order (the last one repeats). Result: acknowledged to the client?, per-shard
   (stored?, store calls) *)
Definition shard_write (fuel : nat) (sc : list wres) : bool * nat :=
  coord_retry fuel (removelast sc) (last sc WFail) 0.
Definition batch_write (fuel : nat) (scripts : list (list wres)) : bool * list (bool * nat) :=
  let rs := map (shard_write fuel) scripts in (forallb fst rs, rs).

Lemma shard_ack_sound : forall fuel sc, sc <> [] -> fst (shard_write fuel sc) = true -> In WOk sc.
Proof.
  intros fuel sc Hne H. unfold shard_write in H. apply coord_ack_sound in H.
  rewrite <- (app_removelast_last WFail Hne) in H. exact H.
Qed.

