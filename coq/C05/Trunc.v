(* C05 - model, part 2 (definitions only): what the leader of a replica group decides about its own entry log.

   (A) The periodic truncation decision (lib/raftconn/node.go: deleteEntryLog -> forceDeleteEntryLog ->
       prepareDeleteEntryLogProposeData / genProposeData). The tolerance timer [tolerateStartTime] is STATE of the
       decision: started at the first round in which a member is not alive, cleared by a round that sees every member
       alive, and when it has run for more than clear-entryLog-tolerate-time the leader proposes ClearEntryLog with the
       minimum Match of the ACTIVE members only (the forced branch: entries the dead member lacks are given up).
       Variants:   t_clear_health   = false : the timer is never cleared by a healthy round (never in the code; Refuted.never_cleared_timer_refuted)
                   t_clear_follower = false : a round in which the node is not the leader leaves the timer alone
                                              (the code before fix 5ce0b1e, finding C05-stale-tolerance-timer-after-leadership-loss)
                                    = true  : such a round clears it (fix 5ce0b1e).
   (B) The entry-log lookup (lib/raftlog/entrylog.go slotGe / seekEntry, log.go logFile.slotGe) over a log that spans
       several entry files, RaftDiskStorage.Term, and etcd/raft's choice between MsgApp and MsgSnap for a follower
       (raft.go maybeSendAppend: a snapshot is sent iff term(next-1) or entries(next) fails).
   Indexes are N (logs of > 60000 entries are evaluated), wall-clock time is Z. *)
From Coq Require Import List NArith ZArith Bool Lia.
Import ListNotations.

(* ------------------------------------------------------------------ (A) truncation decision *)
Record tcfg := mkTcfg { t_clear_health : bool; t_clear_follower : bool }.
Definition tcfg_current : tcfg := mkTcfg true false.
Definition tcfg_repaired : tcfg := mkTcfg true true.
Definition tcfg_noclear : tcfg := mkTcfg false false.

(* one decision round as the node sees it *)
Record round := mkRound {
  r_now : Z;               (* time.Now() *)
  r_lead : bool;           (* isLeader() *)
  r_alive : list bool;     (* meta status of every member of the group is Alive (CheckAllRgMembers) *)
  r_match : list N;        (* raft Status().Progress[member].Match, same order *)
  r_snap : N }.            (* Store.Snapshot().Metadata.Index *)

Inductive decision :=
| DNone                    (* nothing is proposed *)
| DHealthy (idx : N)       (* every member alive: ClearEntryLog(idx), idx from the Match of ALL members *)
| DForce (idx : N).        (* tolerance expired: ClearEntryLog(idx), idx from the Match of the ACTIVE members only *)

(* the entry log as SlotGe sees it: entries lay_first..lay_last, lay_fsz entries per file *)
Record layout := mkLay { lay_fsz : N; lay_first : N; lay_last : N }.
(* the file an index falls into: indexes below the log fall into the first file, indexes above into the current one *)
Definition file_no (L : layout) (i : N) : N := ((N.max (lay_first L) (N.min i (lay_last L)) - 1) / lay_fsz L)%N.

Fixpoint min_list (l : list N) : option N :=
  match l with
  | [] => None
  | x :: r => match min_list r with Some m => Some (N.min x m) | None => Some x end
  end.

(* the values of the members whose flag is set *)
Fixpoint sel {A} (fl : list bool) (l : list A) : list A :=
  match fl, l with
  | f :: fl', x :: l' => if f then x :: sel fl' l' else sel fl' l'
  | _, _ => []
  end.

(* genProposeData: the leader's snapshot index if the slowest member is in the same entry file, else the smaller of
   the two (DeleteBefore removes whole files before the file of the index) *)
Definition gen_idx (L : layout) (snp : N) (mm : option N) : N :=
  match mm with
  | None => snp
  | Some m => if (file_no L m =? file_no L snp)%N then snp else N.min m snp
  end.

Definition all_alive (r : round) : bool := forallb (fun b => b) (r_alive r).

(* one round: new timer state (None = not running) and the decision *)
Definition decide (tc : tcfg) (T : Z) (L : layout) (st : option Z) (r : round) : option Z * decision :=
  if negb (r_lead r) then ((if t_clear_follower tc then None else st), DNone)
  else if (r_snap r =? 0)%N then (st, DNone)                                   (* "dont have a snapshot yet" *)
  else if all_alive r then
    ((if t_clear_health tc then None else st), DHealthy (gen_idx L (r_snap r) (min_list (r_match r))))
  else
    let s0 := match st with Some t => t | None => r_now r end in
    if (T <? r_now r - s0)%Z
    then (None, DForce (gen_idx L (r_snap r) (min_list (sel (r_alive r) (r_match r)))))
    else (Some s0, DNone).

(* timer state after a sequence of rounds *)
Fixpoint tstate (tc : tcfg) (T : Z) (L : layout) (st : option Z) (rs : list round) : option Z :=
  match rs with
  | [] => st
  | r :: q => tstate tc T L (fst (decide tc T L st r)) q
  end.

(* all decisions of a sequence *)
Fixpoint decisions (tc : tcfg) (T : Z) (L : layout) (st : option Z) (rs : list round) : list decision :=
  match rs with
  | [] => []
  | r :: q => snd (decide tc T L st r) :: decisions tc T L (fst (decide tc T L st r)) q
  end.

(* the wall clock never goes back *)
Fixpoint clock_mono (rs : list round) : Prop :=
  match rs with
  | [] => True
  | r :: q => (forall x, In x q -> (r_now r <= r_now x)%Z) /\ clock_mono q
  end.

(* a snapshot index, once there, stays *)
Fixpoint snap_stays (rs : list round) : Prop :=
  match rs with
  | [] => True
  | r :: q => (r_snap r <> 0%N -> forall x, In x q -> r_snap x <> 0%N) /\ snap_stays q
  end.

(* ------------------------------------------------------------------ (B) entry-log lookup and append-vs-snapshot *)
(* an entry file: (index of its first entry, number of entries); a log: rotated files (oldest first) + current file *)
Definition efile := (N * N)%type.
Record elog_files := mkFiles { ef_fsz : N; ef_files : list efile; ef_cur : efile }.

(* logFile.slotGe: -1 = before this file, the slot of the entry, or the first empty slot (maxNumEntries if full) *)
Definition file_slot_ge (f : efile) (i : N) : Z :=
  let '(fi, cnt) := f in
  if (fi =? 0)%N || (i <? fi)%N then (-1)%Z
  else if (i - fi <? cnt)%N then Z.of_N (i - fi) else Z.of_N cnt.

(* position of the first file whose first index is >= i (sort.Search over the sorted file list) *)
Fixpoint find_ge (fs : list efile) (i : N) (k : nat) : nat :=
  match fs with
  | [] => k
  | (fi, _) :: r => if (i <=? fi)%N then k else find_ge r i (S k)
  end.

(* entryLog.slotGe: (file position, slot); file position None = the current file.
   exact = false is the variant without the "raftIndex is exactly the first index of a rotated file" case *)
Definition slot_ge (exact : bool) (E : elog_files) (i : N) : option nat * Z :=
  let o := file_slot_ge (ef_cur E) i in
  if (0 <=? o)%Z then (None, o)
  else match ef_files E with
       | [] => (None, (-1)%Z)
       | _ =>
           let k := find_ge (ef_files E) i 0 in
           match nth_error (ef_files E) k with
           | Some (fi, _) =>
               if exact && (fi =? i)%N then (Some k, 0%Z)
               else let k' := Nat.pred k in
                    (Some k', file_slot_ge (nth k' (ef_files E) (0%N, 0%N)) i)
           | None =>
               let k' := Nat.pred k in
               (Some k', file_slot_ge (nth k' (ef_files E) (0%N, 0%N)) i)
           end
       end.

Inductive seek_res := SFound (idx : N) | SCompacted | SUnavailable | SNotFound.

(* entryLog.seekEntry (index 0 is answered with the empty entry) *)
Definition seek (exact : bool) (E : elog_files) (i : N) : seek_res :=
  if (i =? 0)%N then SFound 0%N else
  let '(fp, off) := slot_ge exact E i in
  if (off =? -1)%Z then SCompacted
  else if (Z.of_N (ef_fsz E) <=? off)%Z then SUnavailable
  else let '(fi, cnt) := match fp with None => ef_cur E | Some k => nth k (ef_files E) (0%N, 0%N) end in
       if (Z.of_N cnt <=? off)%Z then SUnavailable                      (* empty slot *)
       else if (fi + Z.to_N off =? i)%N then SFound i else SNotFound.

Definition log_first (E : elog_files) : N :=
  let fi := match ef_files E with [] => fst (ef_cur E) | f :: _ => fst f end in
  if (fi =? 0)%N then 1%N else fi.
Definition log_last (E : elog_files) : N :=
  if (0 <? snd (ef_cur E))%N then (fst (ef_cur E) + snd (ef_cur E) - 1)%N
  else match rev (ef_files E) with [] => 0%N | (fi, cnt) :: _ => (fi + cnt - 1)%N end.

(* RaftDiskStorage.Term returns no error *)
Definition storage_term_ok (exact : bool) (E : elog_files) (snp i : N) : bool :=
  match seek exact E i with
  | SFound _ => true
  | _ => (i =? snp)%N
  end.

(* etcd raftLog.term(i) returns no error (stable log only): outside [first-1, last] it answers (0, nil) *)
Definition raftlog_term_ok (exact : bool) (E : elog_files) (snp i : N) : bool :=
  if (i <? log_first E - 1)%N || (N.max (log_last E) snp <? i)%N then true else storage_term_ok exact E snp i.

(* etcd raftLog.entries(next) returns no error *)
Definition raftlog_entries_ok (E : elog_files) (snp next : N) : bool :=
  (N.max (log_last E) snp <? next)%N || (log_first E <=? next)%N.

(* maybeSendAppend: true = MsgApp, false = MsgSnap *)
Definition send_append (exact : bool) (E : elog_files) (snp next : N) : bool :=
  raftlog_term_ok exact E snp (next - 1) && raftlog_entries_ok E snp next.

(* a log written contiguously: every rotated file is non-empty, at most ef_fsz entries, and the next file starts
   right after it; the current file continues the last rotated one *)
Fixpoint contig (fsz : N) (fs : list efile) (nxt : N) : Prop :=
  match fs with
  | [] => True
  | (fi, cnt) :: r => fi = nxt /\ (0 < cnt)%N /\ (cnt <= fsz)%N /\ contig fsz r (fi + cnt)%N
  end.
Fixpoint files_end (fs : list efile) (start : N) : N :=
  match fs with [] => start | (fi, cnt) :: r => files_end r (fi + cnt)%N end.

Definition wf_files (E : elog_files) : Prop :=
  (0 < ef_fsz E)%N /\
  match ef_files E with
  | [] => (0 < fst (ef_cur E))%N \/ snd (ef_cur E) = 0%N
  | (f0, _) :: _ => (0 < f0)%N /\ contig (ef_fsz E) (ef_files E) f0 /\ fst (ef_cur E) = files_end (ef_files E) f0
  end /\ (snd (ef_cur E) <= ef_fsz E)%N.

(* the files of a log with entries first..last written by AddEntries with n entries per file (first = k*n+1) *)
Fixpoint mk_files (fuel : nat) (n first last : N) : list efile :=
  match fuel with
  | O => []
  | S f => if (first + n <=? last)%N then (first, n) :: mk_files f n (first + n)%N last else []
  end.
Definition layout_files (n first last : N) : elog_files :=
  let fs := mk_files (N.to_nat ((last - first) / n + 1)) n first last in
  let cf := files_end fs first in
  mkFiles n fs (cf, (last + 1 - cf)%N).
