(* C05 - read path: which replica answers. The coordinator maps a query of a replicated database to shards through
   metaclient.Client.GetAliveShards (getAliveShardsForRepDB): replica group Health (a majority of its partitions
   online) -> the shard of the MASTER partition; SubHealth -> the first Online partition of the group in shard order.
   When the store owning the master partition fails, ts-meta's electRgMaster (Model.elect_rg_master) makes the first
   Online slave peer the master. Neither looks at how far the chosen replica has caught up. *)
From Coq Require Import List Arith NArith ZArith Bool Lia.
From OG Require Import C05.Model C05.Proofs.
Import ListNotations.

(* positions (in shard-group order) of the shards a query reads; shard_pts = owner partition of every shard *)
Fixpoint first_online (online : nat -> bool) (shard_pts : list nat) (i : nat) : list nat :=
  match shard_pts with
  | [] => []
  | p :: r => if online p then [i] else first_online online r (S i)
  end.
Fixpoint positions_of (m : nat) (shard_pts : list nat) (i : nat) : list nat :=
  match shard_pts with
  | [] => []
  | p :: r => if Nat.eqb p m then i :: positions_of m r (S i) else positions_of m r (S i)
  end.
Definition read_shards (health : bool) (master : nat) (online : nat -> bool) (shard_pts : list nat) : list nat :=
  if health then positions_of master shard_pts 0 else first_online online shard_pts 0.

(* a member is down during an acknowledged overwrite, restarts, and right then the master's store is killed *)
Definition lagmaster_trace : list event :=
  [ RElect 0;
    Propose 0 [(1%N, 10%Z)]; RReplicate 1 1; RReplicate 2 1; RCommit 1; RLearn 0 1; RLearn 1 1; RLearn 2 1;
    Apply 0; Apply 1; Apply 2;
    Kill 1;
    Propose 0 [(1%N, 11%Z)]; RReplicate 2 2; RCommit 2; RLearn 0 2; RLearn 2 2; Apply 0; Apply 2;
    Restart 1; Kill 0 ].

(* the master meta elects: among the members that are merely available (the code as it is), or among those that have caught up *)
Definition elect_today (s : sys) : option (nat * list nat) :=
  elect_rg_master (master s) (map (fun p => (p, true)) (peers s)) (fun n => avail (nodes s n)).
Definition elect_caught_up (s : sys) : option (nat * list nat) :=
  elect_rg_master (master s) (map (fun p => (p, true)) (peers s)) (caught_up s).

(* the weakest election rule
   What the property needs of the replica that answers is not that it has caught up with everything committed, only
   that its applied prefix contains every ACKNOWLEDGED write ("promote only a member whose applied index has reached
   the last index acknowledged by the old master"). *)
Definition covers_acks (s : sys) (n : nat) : bool :=
  avail (nodes s n) &&
  forallb (fun a => match a with (o, p, b) =>
             existsb (entry_eqb (EData o p b)) (firstn (applied (nodes s n)) (glog s)) end) (acked s).
Definition elect_covering (s : sys) : option (nat * list nat) :=
  elect_rg_master (master s) (map (fun p => (p, true)) (peers s)) (covers_acks s).

Lemma get_tail_none : forall (a b : list entry) k, get (ents_store b) k = None ->
  get (ents_store (a ++ b)) k = get (ents_store a) k.
Proof. intros a b k H. rewrite ents_store_app, get_app, H. reflexivity. Qed.

