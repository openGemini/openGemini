(* C05 - raft's persistence-before-send rule per role (lib/raftconn/node.go serveChannels).
   A member handles a Ready either on the FOLLOWER path (write entries + hard state, sync, then send its messages) or on
   the LEADER path (send first, write in parallel). The leader path is sound only for a leader: its own MsgApp does not
   acknowledge anything. A follower's MsgAppResp tells the leader "I hold the log up to index i"; the leader counts it
   towards the quorum, commits and acknowledges the client. Machine: per member the volatile log length v (what raft
   holds in memory) and the durable one d (what survives a kill); the leader's view match[m]; the committed index.
   path_ok = true: an acknowledgement carries only what is durable (follower path); false: it carries the volatile
   length (a follower that keeps using the leader path - e.g. an ex-leader whose flag is never reset). *)
From Coq Require Import List Arith Bool Lia.
Import ListNotations.

Record pst := mkP { pv : nat -> nat; pd : nat -> nat; pmatch : nat -> nat; pcommit : nat }.

Inductive pev :=
| PRecv (m k : nat)      (* member m receives an append: its in-memory log reaches k *)
| PPersist (m : nat)     (* SaveToStorage + TrySync *)
| PAck (m : nat)         (* MsgAppResp leaves member m and reaches the leader *)
| PKill (m : nat)        (* SIGKILL + restart: the in-memory log is what was durable *)
| PCommit (c : nat).     (* the leader commits c (and acknowledges the client) *)

Definition updf (f : nat -> nat) (m x : nat) : nat -> nat := fun j => if Nat.eqb j m then x else f j.
Definition cnt (n : nat) (p : nat -> bool) : nat := length (filter p (seq 0 n)).

Definition pstep (n : nat) (path_ok : bool) (s : pst) (e : pev) : option pst :=
  match e with
  | PRecv m k => if Nat.leb (pv s m) k then Some (mkP (updf (pv s) m k) (pd s) (pmatch s) (pcommit s)) else None
  | PPersist m => Some (mkP (pv s) (updf (pd s) m (pv s m)) (pmatch s) (pcommit s))
  | PAck m => Some (mkP (pv s) (pd s) (updf (pmatch s) m (Nat.max (pmatch s m) (if path_ok then pd s m else pv s m))) (pcommit s))
  | PKill m => Some (mkP (updf (pv s) m (pd s m)) (pd s) (pmatch s) (pcommit s))
  | PCommit c => if Nat.leb (pcommit s) c && Nat.ltb n (2 * cnt n (fun m => Nat.leb c (pmatch s m)))
                 then Some (mkP (pv s) (pd s) (pmatch s) c) else None
  end.

Fixpoint prun (n : nat) (path_ok : bool) (s : pst) (es : list pev) : option pst :=
  match es with [] => Some s | e :: r => match pstep n path_ok s e with Some s' => prun n path_ok s' r | None => None end end.

Definition pinit : pst := mkP (fun _ => 0) (fun _ => 0) (fun _ => 0) 0.

Lemma cnt_mono : forall n (p q : nat -> bool), (forall m, p m = true -> q m = true) -> cnt n p <= cnt n q.
Proof.
  intros n p q H. unfold cnt. induction (seq 0 n) as [|x l IH]; cbn; [lia|].
  destruct (p x) eqn:E; [rewrite (H x E); cbn; lia|destruct (q x); cbn; lia].
Qed.

(* what the leader believes of a member is durable there; what is committed is durable on a quorum *)
Definition PI (n : nat) (s : pst) : Prop :=
  (forall m, pmatch s m <= pd s m) /\ (forall m, pd s m <= pv s m) /\
  (pcommit s = 0 \/ n < 2 * cnt n (fun m => Nat.leb (pcommit s) (pd s m))).

Lemma updf_same : forall f m x, updf f m x m = x.
Proof. intros; unfold updf; rewrite Nat.eqb_refl; reflexivity. Qed.
Lemma updf_cases : forall f m x j, updf f m x j = x /\ j = m \/ updf f m x j = f j /\ j <> m.
Proof. intros f m x j. unfold updf. destruct (Nat.eqb j m) eqn:E; [left; apply Nat.eqb_eq in E; tauto|right; apply Nat.eqb_neq in E; tauto]. Qed.

Ltac ucase j := match goal with |- context [updf ?f ?m ?x j] => destruct (updf_cases f m x j) as [[-> ->]|[-> _]] end.

(* follower path: the invariant holds at every instant, whatever is killed whenever *)
Lemma pstep_inv : forall n s e s', PI n s -> pstep n true s e = Some s' -> PI n s'.
Proof.
  intros n s e s' (I1 & I2 & I3) H. destruct e as [m k|m|m|m|c]; unfold pstep in H; cbv iota in H.
  - destruct (Nat.leb (pv s m) k) eqn:E; [|discriminate]. apply Nat.leb_le in E. inversion H; subst; clear H. unfold PI. cbn [pv pd pmatch pcommit].
    split; [assumption|]. split; [|assumption]. intros j. ucase j; [specialize (I2 m); lia|apply I2].
  - inversion H; subst; clear H. unfold PI. cbn [pv pd pmatch pcommit]. split; [|split].
    + intros j. ucase j; [specialize (I1 m); specialize (I2 m); lia|apply I1].
    + intros j. ucase j; [lia|apply I2].
    + destruct I3 as [I3|I3]; [left; assumption|right]. eapply Nat.lt_le_trans; [exact I3|]. apply Nat.mul_le_mono_l. apply cnt_mono.
      intros j Hj. apply Nat.leb_le in Hj. apply Nat.leb_le.
      ucase j; [specialize (I2 m); lia|assumption].
  - inversion H; subst; clear H. unfold PI. cbn [pv pd pmatch pcommit]. split; [|split; assumption].
    intros j. ucase j; [specialize (I1 m); lia|apply I1].
  - inversion H; subst; clear H. unfold PI. cbn [pv pd pmatch pcommit]. split; [assumption|]. split; [|assumption].
    intros j. ucase j; [lia|apply I2].
  - destruct (Nat.leb (pcommit s) c && Nat.ltb n (2 * cnt n (fun m => Nat.leb c (pmatch s m)))) eqn:E; [|discriminate].
    apply andb_prop in E. destruct E as [_ E]. apply Nat.ltb_lt in E. inversion H; subst; clear H. unfold PI. cbn [pv pd pmatch pcommit].
    split; [assumption|]. split; [assumption|]. right.
    assert (Hm : cnt n (fun m => Nat.leb c (pmatch s m)) <= cnt n (fun m => Nat.leb c (pd s m))).
    { apply cnt_mono. intros j Hj. apply Nat.leb_le in Hj. apply Nat.leb_le. specialize (I1 j). lia. }
    lia.
Qed.

Lemma prun_inv : forall n es s s', PI n s -> prun n true s es = Some s' -> PI n s'.
Proof.
  intros n. induction es as [|e es IH]; intros s s' HI H; cbn in H; [inversion H; subst; assumption|].
  destruct (pstep n true s e) as [s1|] eqn:E; [|discriminate]. eapply IH; [eapply pstep_inv; eassumption|assumption].
Qed.

Lemma pi_init : forall n, PI n pinit.
Proof. intros n. split; [intros; cbn; lia|]. split; [intros; cbn; lia|left; reflexivity]. Qed.

