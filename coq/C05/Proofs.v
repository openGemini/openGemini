(* C05: lists, last-write-wins stores (sim), log prefixes (pre), replay idempotence, and: two majorities intersect. *)
From Coq Require Import List Arith NArith ZArith Bool Lia.
From OG Require Import C05.Model.
Import ListNotations.

Definition sim (a b : store) : Prop := forall k, get a k = get b k.
Definition pre (a b : list entry) : Prop := exists t, b = a ++ t.

Lemma get_app : forall a b k, get (a ++ b) k = match get a k with Some v => Some v | None => get b k end.
Proof.
  induction a as [|[k' v] a IH]; intros b k; cbn [get app]; [reflexivity|].
  destruct (N.eqb k k'); [reflexivity|apply IH].
Qed.

Lemma sim_refl : forall a, sim a a. Proof. intros a k; reflexivity. Qed.
Lemma sim_trans : forall a b c, sim a b -> sim b c -> sim a c.
Proof. intros a b c H1 H2 k; rewrite H1; apply H2. Qed.
Lemma sim_app_l : forall p a b, sim a b -> sim (p ++ a) (p ++ b).
Proof. intros p a b H k; rewrite !get_app, H; reflexivity. Qed.
Lemma sim_dup : forall z y x, sim (z ++ y ++ y ++ x) (z ++ y ++ x).
Proof. intros z y x k; rewrite !get_app; destruct (get z k); [reflexivity|]; destruct (get y k); reflexivity. Qed.

Lemma ents_store_app : forall a b, ents_store (a ++ b) = ents_store b ++ ents_store a.
Proof.
  induction a as [|e a IH]; intros b; cbn [ents_store app].
  - rewrite app_nil_r; reflexivity.
  - rewrite IH, app_assoc; reflexivity.
Qed.

Lemma ents_store_snoc : forall a e, ents_store (a ++ [e]) = entry_pairs e ++ ents_store a.
Proof. intros; rewrite ents_store_app; cbn [ents_store]; reflexivity. Qed.

Lemma firstn_S_nth : forall (A : Type) (l : list A) i x, nth_error l i = Some x -> firstn (S i) l = firstn i l ++ [x].
Proof.
  induction l as [|y l IH]; intros i x H; destruct i; cbn in *; try discriminate.
  - inversion H; reflexivity.
  - rewrite (IH _ _ H); reflexivity.
Qed.

Lemma skipn_split : forall (A : Type) (F : list A) j d, j <= d -> d <= length F ->
  skipn j F = skipn j (firstn d F) ++ skipn d F.
Proof.
  intros A F j d Hj Hd.
  rewrite <- (firstn_skipn d F) at 1.
  rewrite skipn_app, firstn_length, Nat.min_l by assumption.
  replace (j - d) with 0 by lia; reflexivity.
Qed.

Lemma firstn_pre : forall (g t : list entry) i, i <= length g -> firstn i (g ++ t) = firstn i g.
Proof. intros; rewrite firstn_app; replace (i - length g) with 0 by lia; cbn; rewrite app_nil_r; reflexivity. Qed.

Lemma replay_lists : forall X Y Z base, sim base (ents_store (X ++ Y)) ->
  sim (ents_store (Y ++ Z) ++ base) (ents_store (X ++ Y ++ Z)).
Proof.
  intros X Y Z base Hb. rewrite !ents_store_app in *.
  eapply sim_trans.
  - rewrite <- app_assoc. apply sim_app_l. apply sim_app_l. exact Hb.
  - rewrite <- !app_assoc. apply sim_dup.
Qed.

(* replaying entries (j, c] on top of a shard that already contains the first d entries, j <= d <= c, gives exactly
   the first c entries: re-applied older writes are overwritten again by the re-applied newer ones *)
Lemma replay_idem : forall (g : list entry) base j d c,
  j <= d -> d <= c -> c <= length g ->
  sim base (ents_store (firstn d g)) ->
  sim (ents_store (skipn j (firstn c g)) ++ base) (ents_store (firstn c g)).
Proof.
  intros g base j d c Hj Hd Hc Hb.
  assert (HF : length (firstn c g) = c) by (rewrite firstn_length; lia).
  assert (Hd' : firstn d (firstn c g) = firstn d g) by (rewrite firstn_firstn; f_equal; lia).
  assert (E3 : firstn d g = firstn j g ++ skipn j (firstn d g)).
  { rewrite <- (firstn_skipn j (firstn d g)) at 1. rewrite firstn_firstn, Nat.min_l by lia; reflexivity. }
  assert (E1 : skipn j (firstn c g) = skipn j (firstn d g) ++ skipn d (firstn c g)).
  { rewrite <- Hd'. apply skipn_split; lia. }
  assert (E2 : firstn c g = firstn j g ++ skipn j (firstn d g) ++ skipn d (firstn c g)).
  { rewrite <- (firstn_skipn d (firstn c g)) at 1. rewrite Hd'. rewrite E3 at 1. rewrite <- app_assoc; reflexivity. }
  rewrite E3 in Hb. rewrite E1.
  pose proof (replay_lists _ _ (skipn d (firstn c g)) _ Hb) as H.
  rewrite <- E2 in H. exact H.
Qed.

Lemma batch_eqb_eq : forall a b, batch_eqb a b = true <-> a = b.
Proof.
  induction a as [|[k v] a IH]; destruct b as [|[k' v'] b]; cbn; split; intros H; try reflexivity; try discriminate.
  - apply andb_prop in H; destruct H as [H H3]; apply andb_prop in H; destruct H as [H1 H2].
    apply N.eqb_eq in H1; apply Z.eqb_eq in H2; apply IH in H3; subst; reflexivity.
  - inversion H; subst. rewrite N.eqb_refl, Z.eqb_refl; cbn. apply IH; reflexivity.
Qed.

Lemma entry_eqb_eq : forall x y, entry_eqb x y = true <-> x = y.
Proof.
  destruct x, y; cbn; split; intros H; try reflexivity; try discriminate.
  - apply andb_prop in H; destruct H as [H H3]; apply andb_prop in H; destruct H as [H1 H2].
    apply Nat.eqb_eq in H1; apply N.eqb_eq in H2; apply batch_eqb_eq in H3; subst; reflexivity.
  - inversion H; subst. rewrite Nat.eqb_refl, N.eqb_refl; cbn. apply batch_eqb_eq; reflexivity.
  - apply Nat.eqb_eq in H; subst; reflexivity.
  - inversion H; apply Nat.eqb_refl.
Qed.

Lemma prefixb_spec : forall a b, prefixb a b = true <-> pre a b.
Proof.
  unfold prefixb, pre. induction a as [|x a IH]; intros b; cbn.
  - split; intros _; [exists b|]; reflexivity.
  - destruct b as [|y b]; cbn.
    + split; [discriminate|intros [t H]; discriminate].
    + split.
      * intros H; apply andb_prop in H; destruct H as [H1 H2]. apply entry_eqb_eq in H1; subst.
        apply IH in H2; destruct H2 as [t ->]. exists t; reflexivity.
      * intros [t H]; inversion H; subst. apply andb_true_intro; split; [apply entry_eqb_eq; reflexivity|].
        apply IH; exists t; reflexivity.
Qed.

Lemma pre_refl : forall a, pre a a. Proof. intros a; exists []; rewrite app_nil_r; reflexivity. Qed.
Lemma pre_app : forall a b t, pre a b -> pre a (b ++ t).
Proof. intros a b t [u ->]; exists (u ++ t); rewrite app_assoc; reflexivity. Qed.
Lemma pre_firstn : forall a b k, pre a b -> length a <= k -> pre a (firstn k b).
Proof.
  intros a b k [t ->] H. exists (firstn (k - length a) t).
  rewrite firstn_app. f_equal. rewrite firstn_all2 by lia; reflexivity.
Qed.
Lemma pre_firstn_self : forall (b : list entry) k, pre (firstn k b) b.
Proof. intros b k; exists (skipn k b); symmetry; apply firstn_skipn. Qed.
Lemma pre_length : forall a b, pre a b -> length a <= length b.
Proof. intros a b [t ->]; rewrite app_length; lia. Qed.
Lemma pre_firstn_eq : forall a b i, pre a b -> i <= length a -> firstn i b = firstn i a.
Proof. intros a b i [t ->] H; apply firstn_pre; assumption. Qed.
Lemma pre_trans : forall a b c, pre a b -> pre b c -> pre a c.
Proof. intros a b c [t ->] [u ->]; exists (t ++ u); rewrite app_assoc; reflexivity. Qed.
Lemma pre_In : forall a b e, pre a b -> In e a -> In e b.
Proof. intros a b e [t ->] H; apply in_or_app; left; assumption. Qed.

Lemma count_mono_list : forall (p q : nat -> bool) l, (forall m, In m l -> p m = true -> q m = true) ->
  length (filter p l) <= length (filter q l).
Proof.
  induction l as [|x l IH]; intros H; cbn; [lia|].
  assert (IH' : length (filter p l) <= length (filter q l)) by (apply IH; intros; apply H; [right|]; assumption).
  destruct (p x) eqn:Hp.
  - rewrite (H x (or_introl eq_refl) Hp); cbn; lia.
  - destruct (q x); cbn; lia.
Qed.

Lemma count_inter_list : forall (p q : nat -> bool) l,
  length (filter p l) + length (filter q l) <= length l + length (filter (fun m => p m && q m) l).
Proof.
  induction l as [|x l IH]; cbn; [lia|].
  destruct (p x), (q x); cbn; lia.
Qed.

Lemma majorities_meet : forall (p q : nat -> bool) n,
  n < 2 * count p n -> n < 2 * count q n -> exists m, m < n /\ p m = true /\ q m = true.
Proof.
  intros p q n Hp Hq. unfold count in *.
  pose proof (count_inter_list p q (seq 0 n)) as H. rewrite seq_length in H.
  destruct (filter (fun m => p m && q m) (seq 0 n)) as [|m r] eqn:E.
  - cbn in H; lia.
  - assert (Hin : In m (filter (fun m => p m && q m) (seq 0 n))) by (rewrite E; left; reflexivity).
    apply filter_In in Hin; destruct Hin as [Hs Hb]. apply in_seq in Hs. apply andb_prop in Hb.
    exists m; split; [lia|exact Hb].
Qed.

Lemma tr_first_le : forall f t, tr_first f t <= t - 1.
Proof.
  intros f t; unfold tr_first. destruct (Nat.eqb t 0) eqn:E; [lia|].
  destruct f as [|f]; [cbn; lia|].
  rewrite Nat.mul_comm. apply Nat.mul_div_le. lia.
Qed.
