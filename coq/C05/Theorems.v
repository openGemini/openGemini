(* C05: proposals and acknowledgements - the invariant InvP and its preservation by every step. *)
From Coq Require Import List Arith NArith ZArith Bool Lia.
From OG Require Import C05.Model C05.Proofs C05.Invariant.
Import ListNotations.

Definition entry_prop (P : list (nat * N * batch)) (e : entry) : Prop :=
  match e with EData o p b => In (o, p, b) P | _ => True end.

Record InvP (s : sys) : Prop := mkInvP {
  p_logs : forall m e, In e (elog (nodes s m)) -> entry_prop (proposed s) e;
  p_glog : forall e, In e (glog s) -> entry_prop (proposed s) e;
  p_pend : forall n p b, In (p, b) (pend (nodes s n)) -> In (n, p, b) (proposed s);
  p_max : forall o p b, In (o, p, b) (proposed s) -> (p <= nextpid (nodes s o))%N;
  p_fun : forall o p b b', In (o, p, b) (proposed s) -> In (o, p, b') (proposed s) -> b = b';
  p_ack : forall o p b, In (o, p, b) (acked s) -> In (EData o p b) (glog s) }.

Lemma In_firstn : forall (A : Type) (l : list A) k x, In x (firstn k l) -> In x l.
Proof. intros A l k x H. rewrite <- (firstn_skipn k l). apply in_or_app; left; assumption. Qed.

Lemma pend_lookup_In : forall p pid b, pend_lookup p pid = Some b -> In (pid, b) p.
Proof.
  intros p pid b H. unfold pend_lookup in H.
  destruct (find (fun x => N.eqb (fst x) pid) p) as [[q b']|] eqn:E; [|discriminate].
  inversion H; subst. apply find_some in E. destruct E as [E1 E2]. cbn in E2. apply N.eqb_eq in E2; subst. assumption.
Qed.

Lemma pend_remove_In : forall p pid x, In x (pend_remove p pid) -> In x p.
Proof. intros p pid x H. unfold pend_remove in H. apply filter_In in H. tauto. Qed.

Lemma invp_set_node : forall s n x' ld ms ps, InvP s ->
  (forall e, In e (elog x') -> entry_prop (proposed s) e) ->
  (forall p b, In (p, b) (pend x') -> In (p, b) (pend (nodes s n))) ->
  (nextpid (nodes s n) <= nextpid x')%N ->
  InvP (mkSys (cfg s) (upd (nodes s) n x') (glog s) ld ms ps (proposed s) (acked s)).
Proof.
  intros s n x' ld ms ps [A B C D E F] H1 H2 H3. constructor; cbn; try assumption.
  - intros m e He. unfold upd in He. destruct (Nat.eqb m n); [apply H1|apply (A m)]; exact He.
  - intros m p b H. apply C. unfold upd in H. destruct (Nat.eqb m n) eqn:E1; [apply Nat.eqb_eq in E1; subst m; apply H2|]; exact H.
  - intros o p b H. specialize (D o p b H). unfold upd. destruct (Nat.eqb o n) eqn:E1; [apply Nat.eqb_eq in E1; subst o; lia|exact D].
Qed.

(* a proposal on node n with a fresh propose id (before the entry reaches any log) *)
Lemma invp_propose : forall s n b ld ms ps, InvP s ->
  let x := nodes s n in let pid := N.succ (nextpid x) in
  InvP (mkSys (cfg s) (upd (nodes s) n (mkNode (up x) (paused x) (elog x) (efirst x) (hcommit x) (snap x) (wal x) (walold x)
                                                (files x) (applied x) (snapc x) (mem x) (imm x) (sig x) ((pid, b) :: pend x) pid))
              (glog s) ld ms ps ((n, pid, b) :: proposed s) (acked s)).
Proof.
  intros s n b ld ms ps [A B C D E F] x pid.
  assert (Hnew : forall b', In (n, pid, b') (proposed s) -> False).
  { intros b' Hb. specialize (D _ _ _ Hb). fold x in D. unfold pid in D. lia. }
  assert (Hmono : forall P e, entry_prop P e -> entry_prop ((n, pid, b) :: P) e) by (intros P [] He; cbn in *; auto).
  constructor; cbn.
  - intros m e He. apply Hmono, (A m). unfold upd in He. destruct (Nat.eqb m n) eqn:E1; [apply Nat.eqb_eq in E1; subst m|]; exact He.
  - intros e He. apply Hmono, B, He.
  - intros m p b0 Hin. unfold upd in Hin. destruct (Nat.eqb m n) eqn:E1; [apply Nat.eqb_eq in E1; subst m|]; [|right; apply C, Hin].
    destruct Hin as [Hin|Hin]; [inversion Hin; subst; left; reflexivity|right; apply C, Hin].
  - intros o p b0 [Hin|Hin]; unfold upd.
    + inversion Hin; subst. rewrite Nat.eqb_refl. cbn. lia.
    + specialize (D _ _ _ Hin). destruct (Nat.eqb o n) eqn:E1; [|assumption].
      apply Nat.eqb_eq in E1; subst o. fold x in D. cbn. unfold pid. lia.
  - intros o p b0 b1 [H0|H0] [H1|H1]; [congruence|inversion H0; subst; destruct (Hnew _ H1)|inversion H1; subst; destruct (Hnew _ H0)|eapply E; eassumption].
  - assumption.
Qed.

Section Acks.
  Variable raft_ok : sys -> event -> bool.
  Hypothesis HR : raft_safe raft_ok.

  Lemma step_invp : forall s e s', pid_fresh (cfg s) = true -> Inv s -> InvP s -> step raft_ok s e = Some s' -> InvP s'.
  Proof.
    intros s e s' Hfresh HI HP H.
    (* a node changes nothing that InvP speaks of *)
    assert (Same : forall n x' ld ms ps, elog x' = elog (nodes s n) -> pend x' = pend (nodes s n) -> nextpid x' = nextpid (nodes s n) ->
                     InvP (mkSys (cfg s) (upd (nodes s) n x') (glog s) ld ms ps (proposed s) (acked s))).
    { intros n x' ld ms ps E1 E2 E3. apply invp_set_node; [assumption|rewrite E1; apply (p_logs _ HP)|rewrite E2; auto|rewrite E3; apply N.le_refl]. }
    assert (Trunc : forall mm, e = TruncPropose mm \/ e = TruncForce mm -> InvP s').
    { intros mm He. destruct (step_trunc _ _ _ _ _ He H) as (l & _ & _ & ->).
      apply invp_set_node; cbn; [assumption| |auto|apply N.le_refl].
      intros e0 He0. apply in_app_or in He0. destruct He0 as [He0|[<-|[]]]; [apply (p_logs _ HP l), He0|exact I]. }
    destruct e; cbn [step] in H.
    - (* Propose: the proposal is registered, then the entry is appended to the leader's log if the leader can be reached *)
      destruct (avail (nodes s n)); [|discriminate].
      pose proof (invp_propose s n b (leader s) (master s) (peers s) HP) as H1. cbv zeta in H1.
      destruct (leader s) as [l|]; [cbn [set_node set_nodes nodes] in H; destruct (avail _) in H|]; stepped H; [|exact H1..].
      apply (invp_set_node _ l _ _ _ _ H1); cbn; [|auto|apply N.le_refl].
      intros e He. apply in_app_or in He. destruct He as [He|[<-|[]]]; [apply (p_logs _ H1 l), He|left; reflexivity].
    - (* Timeout *)
      stepped H. apply invp_set_node; cbn; [assumption|apply (p_logs _ HP)|intros ? ?; apply pend_remove_In|apply N.le_refl].
    - (* RElect *)
      destruct (raft_ok s (RElect n)); [|discriminate]. stepped H. destruct HP; constructor; assumption.
    - (* RStepDown *)
      stepped H. destruct HP; constructor; assumption.
    - (* RReplicate *)
      destruct (raft_ok s (RReplicate m k)); [|discriminate]. cbn [andb] in H.
      destruct (leader s) as [l|] eqn:Hl; [|discriminate]. destruct (Nat.leb _ _) in H; [|discriminate].
      stepped H. cbn [raft_effect]. rewrite Hl.
      apply invp_set_node; cbn; [assumption| |auto|apply N.le_refl].
      intros e He. apply (p_logs _ HP l), (In_firstn _ _ _ _ He).
    - (* RCommit *)
      destruct (raft_ok s (RCommit k)) eqn:Hr; [|discriminate]. stepped H.
      destruct (rs_commit _ HR _ _ Hr) as (l & Hl & Hk1 & Hk2 & _). cbn [raft_effect]. rewrite Hl.
      destruct HI as (HN & HL & HQ). destruct (HL l Hl) as [Hpl _].
      destruct HP as [A B C D E F]. constructor; cbn; try assumption.
      + intros e He. eapply A. eapply In_firstn; eassumption.
      + intros o p b Hin. eapply pre_In; [apply pre_firstn; eassumption|]. apply F; assumption.
    - (* RLearn *)
      destruct (raft_ok s (RLearn m c)); [|discriminate]. stepped H. apply Same; reflexivity.
    - (* Apply: an acknowledgement goes to the writer waiting for exactly the committed entry *)
      set (x := nodes s n) in *.
      destruct (avail x && Nat.ltb (applied x) (hcommit x) && Nat.leb (efirst x) (applied x)) eqn:Hg; [|discriminate].
      apply andb_prop in Hg; destruct Hg as [Hg Hef]; apply andb_prop in Hg; destruct Hg as [Hav Hlt]. apply Nat.ltb_lt in Hlt.
      destruct (nth_error (elog x) (applied x)) as [en|] eqn:Hnth; [|discriminate].
      stepped H.
      assert (Hg : In en (glog s)).
      { destruct HI as (HN & _ & _). specialize (HN n). fold x in HN. destruct HN as [A B _ _ _].
        apply (In_firstn _ _ (hcommit x)). rewrite <- B. apply nth_error_In with (n := applied x). rewrite nth_firstn by assumption. assumption. }
      assert (HP1 : InvP (mkSys (cfg s) (upd (nodes s) n (apply_node (cfg s) n x en)) (glog s) (leader s) (master s) (peers s) (proposed s) (acked s))).
      { apply invp_set_node; cbn; [assumption|apply (p_logs _ HP)| |apply N.le_refl].
        destruct en; auto. destruct (Nat.eqb owner n); auto. intros ? ?; apply pend_remove_In. }
      destruct HP1 as [A B C D E F]. constructor; cbn in *; try assumption.
      intros o p b Hin. apply in_app_or in Hin. destruct Hin as [Hin|Hin]; [|apply F; assumption].
      unfold ack_of in Hin. destruct en as [o' pid b'| |]; try contradiction.
      destruct (Nat.eqb o' n) eqn:Eo; [|contradiction]. apply Nat.eqb_eq in Eo; subst o'.
      destruct (pend_lookup (pend x) pid) as [b0|] eqn:Ep; [|contradiction].
      destruct Hin as [Hin|[]]. inversion Hin; subst o p b0.
      apply pend_lookup_In in Ep.
      pose proof (p_pend _ HP n pid b Ep) as P1. pose proof (p_glog _ HP _ Hg) as P2. cbn in P2.
      rewrite (p_fun _ HP _ _ _ _ P1 P2). assumption.
    - (* UpdSnapc *) destruct (avail (nodes s n)); [|discriminate]. stepped H. apply Same; reflexivity.
    - (* FlushSwap *)
      match type of H with (if ?b then _ else _) = _ => destruct b; [|discriminate] end. stepped H. apply Same; reflexivity.
    - (* SnapPersist *)
      match type of H with (if ?b then _ else _) = _ => destruct b; [|discriminate] end. stepped H. apply Same; reflexivity.
    - (* FlushCommit *) destruct (avail (nodes s n)); [|discriminate]. stepped H. apply Same; reflexivity.
    - exact (Trunc mm (or_introl eq_refl)).
    - exact (Trunc mm (or_intror eq_refl)).
    - (* TruncLocal *)
      match type of H with (if ?b then _ else _) = _ => destruct b; [|discriminate] end. stepped H. apply Same; reflexivity.
    - (* RSnapshot *)
      destruct (leader s) as [l|]; [|discriminate].
      match type of H with (if ?b then _ else _) = _ => destruct b; [|discriminate] end. stepped H.
      apply invp_set_node; cbn; [assumption| |auto|apply N.le_refl].
      intros e He. apply (p_logs _ HP l), (In_firstn _ _ _ _ He).
    - (* Kill: the propose counter survives (pid_fresh) *)
      destruct (up (nodes s n)); [|discriminate]. stepped H.
      apply invp_set_node; cbn; [assumption|apply (p_logs _ HP)|intros ? ? []|rewrite Hfresh; apply N.le_refl].
    - (* Restart *)
      destruct (up (nodes s n)); [discriminate|]. stepped H.
      apply invp_set_node; cbn; [assumption|apply (p_logs _ HP)|intros ? ? []|apply N.le_refl].
    - (* Pause *) destruct (up (nodes s n)); [|discriminate]. stepped H. apply Same; reflexivity.
    - (* Resume *) destruct (up (nodes s n)); [|discriminate]. stepped H. apply Same; reflexivity.
    - (* Rotate *)
      destruct (get_new_rg (master s) (peers s) newm) as [[m' ps']|]; [|discriminate]. stepped H. destruct HP; constructor; assumption.
  Qed.
End Acks.

Lemma invp_init : forall c, InvP (init c).
Proof. intros c. constructor; cbn; intros; try contradiction. Qed.
