(* C05: the tolerance timer of the truncation decision (Trunc.v part A) and the entry-log lookup over several files
   (part B). *)
From Coq Require Import List NArith ZArith Bool Lia.
From OG Require Import C05.Trunc.
Import ListNotations.

(* a round that leaves a running tolerance period running, for the given variant *)
Definition quiet (tc : tcfg) (q : round) : Prop :=
  (t_clear_follower tc = true -> r_lead q = true) /\
  (t_clear_health tc = true -> ~ (r_lead q = true /\ r_snap q <> 0%N /\ all_alive q = true)).

(* the round that started the period: a leader with a snapshot that saw a member not alive *)
Definition starts (a : round) : Prop := r_lead a = true /\ r_snap a <> 0%N /\ all_alive a = false.

Lemma tstate_app : forall tc T L a b st, tstate tc T L st (a ++ b) = tstate tc T L (tstate tc T L st a) b.
Proof. induction a as [|x a IH]; intros b st; cbn; [reflexivity|apply IH]. Qed.

Lemma decisions_app : forall tc T L a b st,
  decisions tc T L st (a ++ b) = decisions tc T L st a ++ decisions tc T L (tstate tc T L st a) b.
Proof. induction a as [|x a IH]; intros b st; cbn; [reflexivity|rewrite IH; reflexivity]. Qed.

(* invariant: a running period was started by a round of the sequence and every round since was quiet *)
Definition running (tc : tcfg) (pre : list round) (st : option Z) : Prop :=
  match st with
  | None => True
  | Some t => exists p a w, pre = p ++ a :: w /\ t = r_now a /\ starts a /\ Forall (quiet tc) (a :: w)
  end.

Lemma N_eqb_false_neq : forall a b : N, (a =? b)%N = false -> a <> b.
Proof. intros a b H E; subst; rewrite N.eqb_refl in H; discriminate. Qed.

Lemma running_step : forall tc T L pre st x,
  running tc pre st -> running tc (pre ++ [x]) (fst (decide tc T L st x)).
Proof.
  intros tc T L pre st x Hr. unfold decide.
  assert (Ext : forall t, st = Some t -> quiet tc x -> running tc (pre ++ [x]) (Some t)).
  { intros t -> Hq. cbn in Hr. destruct Hr as (p & a & w & -> & Ht & Hs & Hf).
    exists p, a, (w ++ [x]). split; [rewrite <- app_assoc; reflexivity|]. split; [assumption|]. split; [assumption|].
    change (a :: w ++ [x]) with ((a :: w) ++ [x]). apply Forall_app; split; [assumption|constructor; [assumption|constructor]]. }
  destruct (r_lead x) eqn:Hl; cbn [negb].
  2:{ cbn [fst]. destruct (t_clear_follower tc) eqn:Hcf; [exact I|].
      destruct st as [t|]; [|exact I]. apply Ext; [reflexivity|]. split; [congruence|]. intros _ (A & _); congruence. }
  destruct (r_snap x =? 0)%N eqn:Hs.
  { cbn [fst]. apply N.eqb_eq in Hs. destruct st as [t|]; [|exact I]. apply Ext; [reflexivity|].
    split; [intros _; assumption|]. intros _ (_ & B & _); contradiction. }
  apply N_eqb_false_neq in Hs.
  destruct (all_alive x) eqn:Ha.
  { cbn [fst]. destruct (t_clear_health tc) eqn:Hch; [exact I|].
    destruct st as [t|]; [|exact I]. apply Ext; [reflexivity|]. split; [intros _; assumption|congruence]. }
  assert (Hq : quiet tc x) by (split; [intros _; assumption|intros _ (_ & _ & C); congruence]).
  destruct st as [t|].
  - destruct (T <? r_now x - t)%Z; cbn [fst]; [exact I|]. apply Ext; [reflexivity|assumption].
  - destruct (T <? r_now x - r_now x)%Z; cbn [fst]; [exact I|].
    exists pre, x, []. repeat split; try assumption; try reflexivity. constructor; [assumption|constructor].
Qed.

Lemma running_run : forall tc T L pre, running tc pre (tstate tc T L None pre).
Proof.
  intros tc T L pre. induction pre as [|x pre IH] using rev_ind; [exact I|].
  rewrite tstate_app. cbn [tstate]. apply running_step. assumption.
Qed.

Lemma decide_force : forall tc T L st r idx, snd (decide tc T L st r) = DForce idx ->
  r_lead r = true /\ r_snap r <> 0%N /\ all_alive r = false /\
  (T < r_now r - match st with Some t => t | None => r_now r end)%Z.
Proof.
  intros tc T L st r idx H. unfold decide in H. destruct (r_lead r); cbn [negb snd] in H; [|discriminate].
  destruct (r_snap r =? 0)%N eqn:Hs; [discriminate|]. apply N_eqb_false_neq in Hs.
  destruct (all_alive r); [discriminate|]. destruct (T <? _)%Z eqn:Ht; [|discriminate]. apply Z.ltb_lt in Ht.
  repeat split; assumption.
Qed.

(* the general statement, for every variant: a forced truncation ends a window of quiet rounds that began with a
   leader round that saw a member down, more than T earlier *)
Lemma forced_window : forall tc T L pre r idx,
  snd (decide tc T L (tstate tc T L None pre) r) = DForce idx ->
  exists p a w, pre ++ [r] = p ++ a :: w /\ starts a /\ (T < r_now r - r_now a)%Z /\ Forall (quiet tc) (a :: w).
Proof.
  intros tc T L pre r idx H. destruct (decide_force _ _ _ _ _ _ H) as (Hl & Hs & Ha & Ht).
  assert (Hq : quiet tc r) by (split; [intros _; assumption|intros _ (_ & _ & C); congruence]).
  pose proof (running_run tc T L pre) as Hr. destruct (tstate tc T L None pre) as [t|].
  - cbn in Hr. destruct Hr as (p & a & w & -> & -> & Hst & Hf).
    exists p, a, (w ++ [r]). split; [rewrite <- app_assoc; reflexivity|]. split; [assumption|]. split; [assumption|].
    change (a :: w ++ [r]) with ((a :: w) ++ [r]). apply Forall_app; split; [assumption|constructor; [assumption|constructor]].
  - exists pre, r, []. repeat split; try assumption. constructor; [assumption|constructor].
Qed.

Lemma clock_mono_app : forall a b, clock_mono (a ++ b) ->
  clock_mono b /\ forall x y, In x a -> In y b -> (r_now x <= r_now y)%Z.
Proof.
  induction a as [|z a IH]; intros b H; cbn in *; [split; [assumption|intros x y []]|].
  destruct H as [H1 H2]. destruct (IH _ H2) as [A B]. split; [assumption|].
  intros x y [->|Hx] Hy; [apply H1; apply in_or_app; right; assumption|apply B; assumption].
Qed.

Lemma snap_stays_app : forall a b, snap_stays (a ++ b) -> snap_stays b.
Proof. induction a as [|z a IH]; intros b H; cbn in *; [assumption|apply IH; tauto]. Qed.

Lemma snap_stays_head : forall a w x, snap_stays (a :: w) -> r_snap a <> 0%N -> In x (a :: w) -> r_snap x <> 0%N.
Proof. intros a w x [H _] Ha [<-|Hx]; [assumption|apply H; assumption]. Qed.

(* the two hypotheses on a sequence of rounds, decided for a given sequence *)
Fixpoint clock_monob (rs : list round) : bool :=
  match rs with [] => true | r :: q => forallb (fun x => (r_now r <=? r_now x)%Z) q && clock_monob q end.
Fixpoint snap_staysb (rs : list round) : bool :=
  match rs with [] => true | r :: q => ((r_snap r =? 0)%N || forallb (fun x => negb (r_snap x =? 0)%N) q) && snap_staysb q end.

Lemma clock_monob_ok : forall rs, clock_monob rs = true -> clock_mono rs.
Proof.
  induction rs as [|r q IH]; cbn; [trivial|]. intros H. apply andb_prop in H. destruct H as [H1 H2].
  split; [|apply IH; assumption]. intros x Hx. rewrite forallb_forall in H1. apply Z.leb_le. apply H1; assumption.
Qed.

Lemma snap_staysb_ok : forall rs, snap_staysb rs = true -> snap_stays rs.
Proof.
  induction rs as [|r q IH]; cbn; [trivial|]. intros H. apply andb_prop in H. destruct H as [H1 H2].
  split; [|apply IH; assumption]. intros Hr x Hx. apply orb_prop in H1. destruct H1 as [H1|H1].
  - apply N.eqb_eq in H1. contradiction.
  - rewrite forallb_forall in H1. apply N.eqb_neq. apply negb_true_iff. apply H1; assumption.
Qed.

(* repaired variant: every round of the window is a leader round that saw a member down *)
Lemma forced_continuous_outage : forall T L pre r idx,
  snap_stays (pre ++ [r]) ->
  snd (decide tcfg_repaired T L (tstate tcfg_repaired T L None pre) r) = DForce idx ->
  exists p a w, pre ++ [r] = p ++ a :: w /\ (T < r_now r - r_now a)%Z /\
                forall q, In q (a :: w) -> r_lead q = true /\ all_alive q = false.
Proof.
  intros T L pre r idx Hss H. destruct (forced_window _ _ _ _ _ _ H) as (p & a & w & E & (Sl & Ss & Sa) & Ht & Hf).
  exists p, a, w. split; [assumption|]. split; [assumption|].
  intros q Hq. rewrite Forall_forall in Hf. destruct (Hf q Hq) as [Q1 Q2]. cbn in Q1, Q2.
  specialize (Q1 eq_refl). split; [assumption|].
  rewrite E in Hss. apply snap_stays_app in Hss. pose proof (snap_stays_head _ _ _ Hss Ss Hq) as Hsq.
  destruct (all_alive q) eqn:Ea; [|reflexivity]. exfalso. apply (Q2 eq_refl). repeat split; assumption.
Qed.

(* sort.Search over contiguously written files, for an index i inside them: file j holds i; the search (started at
   position k) answers j when i is the first index of file j, and j + 1 otherwise - the two cases of slot_ge *)
Lemma find_ge_spec : forall fsz fs nxt k i,
  contig fsz fs nxt -> (nxt <= i)%N -> (i < files_end fs nxt)%N ->
  exists j fi cnt, nth_error fs j = Some (fi, cnt) /\ (fi <= i)%N /\ (i < fi + cnt)%N /\
    (forall fi' c', nth_error fs (S j) = Some (fi', c') -> (i < fi')%N) /\
    ((i = fi /\ find_ge fs i k = k + j) \/ ((fi < i)%N /\ find_ge fs i k = k + S j)).
Proof.
  intros fsz fs. induction fs as [|[fi cnt] r IH]; intros nxt k i Hc Hlo Hhi; cbn in *; [lia|].
  destruct Hc as (-> & Hc1 & Hc2 & Hc3).
  destruct (N.lt_ge_cases i (nxt + cnt)) as [Hin|Hout].
  - exists 0, nxt, cnt. split; [reflexivity|]. split; [assumption|]. split; [assumption|]. split.
    + intros fi' c' Hn. cbn in Hn. destruct r as [|[f2 c2] r2]; [discriminate|]. inversion Hn; subst.
      cbn in Hc3. destruct Hc3 as (-> & _). assumption.
    + destruct (N.eq_dec i nxt) as [->|Hne].
      * left. split; [reflexivity|]. rewrite N.leb_refl. lia.
      * right. split; [lia|]. assert (E : (i <=? nxt)%N = false) by (apply N.leb_gt; lia). rewrite E.
        destruct r as [|[f2 c2] r2]; cbn; [lia|]. cbn in Hc3. destruct Hc3 as (-> & _).
        assert (E2 : (i <=? nxt + cnt)%N = true) by (apply N.leb_le; lia). rewrite E2. lia.
  - assert (E : (i <=? nxt)%N = false) by (apply N.leb_gt; lia). rewrite E.
    destruct (IH (nxt + cnt)%N (S k) i Hc3 Hout Hhi) as (j & f & c & Hn & H1 & H2 & H3 & H4).
    exists (S j), f, c. split; [assumption|]. split; [assumption|]. split; [assumption|]. split; [assumption|].
    destruct H4 as [[A B]|[A B]]; [left|right]; (split; [assumption|rewrite B; lia]).
Qed.

Lemma files_end_ge : forall fsz fs nxt, contig fsz fs nxt -> (nxt <= files_end fs nxt)%N.
Proof.
  intros fsz fs. induction fs as [|[fi cnt] r IH]; intros nxt H; cbn in *; [lia|].
  destruct H as (-> & H1 & H2 & H3). specialize (IH _ H3). lia.
Qed.

Lemma contig_nth : forall fsz fs nxt j fi cnt, contig fsz fs nxt -> nth_error fs j = Some (fi, cnt) ->
  (0 < cnt)%N /\ (cnt <= fsz)%N /\ (nxt <= fi)%N.
Proof.
  intros fsz fs. induction fs as [|[f c] r IH]; intros nxt j fi cnt H Hn; destruct j; cbn in *; try discriminate.
  - inversion Hn; subst. destruct H as (-> & H1 & H2 & _). repeat split; try assumption; lia.
  - destruct H as (-> & H1 & H2 & H3). destruct (IH _ _ _ _ H3 Hn) as (A & B & C). repeat split; try assumption; lia.
Qed.

Lemma rev_last_files : forall fsz fs nxt, contig fsz fs nxt -> fs <> [] ->
  exists fi cnt, rev fs = (fi, cnt) :: tl (rev fs) /\ (fi + cnt)%N = files_end fs nxt.
Proof.
  intros fsz fs. induction fs as [|[f c] r IH]; intros nxt H Hne; [contradiction|].
  cbn in H. destruct H as (-> & H1 & H2 & H3). destruct r as [|x r'].
  - exists nxt, c. cbn. split; reflexivity.
  - destruct (IH _ H3) as (fi & cnt & E & F); [discriminate|].
    exists fi, cnt. cbn [rev] in *. rewrite E. cbn. split; [reflexivity|]. cbn [files_end] in *. assumption.
Qed.

(* wf_files without the match on the file list: no rotated file, or the first one starts at f0 > 0 (the equation on hd
   says just that, leaving the first file's entry count alone) and the files are contiguous up to the current one *)
Lemma wf_shape : forall E, wf_files E ->
  (ef_files E = [] /\ ((0 < fst (ef_cur E))%N \/ snd (ef_cur E) = 0%N)) \/
  (exists f0, (0 < f0)%N /\ ef_files E <> [] /\ hd (0%N, 0%N) (ef_files E) = (f0, snd (hd (0%N, 0%N) (ef_files E))) /\
              contig (ef_fsz E) (ef_files E) f0 /\ fst (ef_cur E) = files_end (ef_files E) f0).
Proof.
  intros [fsz fs [cf cc]] (_ & H & _). cbn [ef_fsz ef_files ef_cur fst snd] in *.
  destruct fs as [|[f0 c0] r]; [left; split; [reflexivity|assumption]|].
  right. exists f0. destruct H as (A & B & C). split; [assumption|]. split; [discriminate|]. split; [reflexivity|]. split; assumption.
Qed.

Lemma log_first_files : forall E f0, ef_files E <> [] -> hd (0%N, 0%N) (ef_files E) = (f0, snd (hd (0%N, 0%N) (ef_files E))) ->
  (0 < f0)%N -> log_first E = f0.
Proof.
  intros [fsz fs cur] f0 Hne Hh Hp. unfold log_first. cbn [ef_files ef_cur] in *.
  destruct fs as [|x r]; [contradiction|]. cbn in Hh. rewrite Hh. cbn [fst].
  destruct (f0 =? 0)%N eqn:E0; [apply N.eqb_eq in E0; lia|reflexivity].
Qed.

Lemma log_last_cur : forall E, wf_files E -> (log_last E + 1 = fst (ef_cur E) + snd (ef_cur E))%N \/ (ef_files E = [] /\ snd (ef_cur E) = 0%N).
Proof.
  intros E Hwf. pose proof (wf_shape _ Hwf) as Hs. destruct E as [fsz fs [cf cc]]. cbn [ef_fsz ef_files ef_cur fst snd] in *.
  unfold log_last. cbn [ef_files ef_cur fst snd].
  destruct (0 <? cc)%N eqn:Ec; [apply N.ltb_lt in Ec; left; lia|]. apply N.ltb_ge in Ec. assert (cc = 0%N) by lia. subst cc.
  destruct Hs as [[-> _]|(f0 & Hf0 & Hne & _ & Hc & Hcf)]; [right; split; reflexivity|].
  left. destruct (rev_last_files _ _ _ Hc Hne) as (fi & cnt & E1 & E2). rewrite E1. pose proof (contig_nth fsz fs f0) as Hn.
  assert (0 < cnt)%N.
  { assert (Hin : In (fi, cnt) fs) by (apply (proj2 (in_rev fs (fi, cnt))); rewrite E1; left; reflexivity).
    apply In_nth_error in Hin. destruct Hin as [j Hj]. destruct (Hn _ _ _ Hc Hj) as (A & _). assumption. }
  lia.
Qed.

Lemma file_slot_ge_in : forall fi cnt i, (0 < fi)%N -> (fi <= i)%N -> (i < fi + cnt)%N ->
  file_slot_ge (fi, cnt) i = Z.of_N (i - fi).
Proof.
  intros fi cnt i H0 H1 H2. unfold file_slot_ge. destruct (N.eqb_spec fi 0); [lia|]. destruct (N.ltb_spec i fi); [lia|].
  cbn [orb]. destruct (N.ltb_spec (i - fi) cnt); [reflexivity|lia].
Qed.

Lemma file_slot_ge_before : forall fi cnt i, (i < fi)%N -> file_slot_ge (fi, cnt) i = (-1)%Z.
Proof. intros fi cnt i H. unfold file_slot_ge. destruct (N.ltb_spec i fi); [|lia]. rewrite orb_true_r. reflexivity. Qed.

(* the lookup succeeds once slotGe has found the file that holds the index, at the index's offset in it *)
Lemma seek_of_slot : forall exact E i fp fi cnt, (0 < i)%N ->
  slot_ge exact E i = (fp, Z.of_N (i - fi)) ->
  match fp with None => ef_cur E | Some k => nth k (ef_files E) (0%N, 0%N) end = (fi, cnt) ->
  (fi <= i)%N -> (i < fi + cnt)%N -> (cnt <= ef_fsz E)%N -> seek exact E i = SFound i.
Proof.
  intros exact E i fp fi cnt Hi Hs Hf H1 H2 H3. unfold seek. rewrite Hs, Hf.
  destruct (N.eqb_spec i 0); [lia|]. destruct (Z.eqb_spec (Z.of_N (i - fi)) (-1)); [lia|].
  destruct (Z.leb_spec (Z.of_N (ef_fsz E)) (Z.of_N (i - fi))); [lia|].
  destruct (Z.leb_spec (Z.of_N cnt) (Z.of_N (i - fi))); [lia|]. rewrite N2Z.id.
  destruct (N.eqb_spec (fi + (i - fi)) i); [reflexivity|lia].
Qed.

Lemma seek_finds : forall E i, wf_files E -> (log_first E <= i)%N -> (i <= log_last E)%N -> seek true E i = SFound i.
Proof.
  intros E i Hwf Hlo Hhi.
  pose proof (wf_shape _ Hwf) as Hshape. pose proof (log_last_cur _ Hwf) as Hlast.
  destruct Hwf as (Hfsz & _ & Hcc).
  destruct E as [fsz fs [cf cc]]. cbn [ef_fsz ef_files ef_cur fst snd] in *.
  assert (Hi0 : (0 < i)%N).
  { unfold log_first in Hlo. cbn [ef_files ef_cur fst] in Hlo.
    destruct (match fs with [] => cf | f :: _ => fst f end =? 0)%N eqn:E0; [lia|]. apply N_eqb_false_neq in E0. lia. }
  destruct Hlast as [Hlast|[-> ->]]; [|exfalso; unfold log_last in Hhi; cbn in Hhi; lia].
  destruct (N.lt_ge_cases i cf) as [Hbelow|Hin].
  2:{ (* in the current file *)
      assert (Hcf : (0 < cf)%N).
      { destruct Hshape as [[-> [A|A]]|(f0 & Hf0 & _ & _ & Hc & Hcf)].
        - assumption.
        - subst cc. unfold log_last in Hhi. cbn in Hhi. lia.
        - pose proof (files_end_ge _ _ _ Hc). lia. }
      apply (seek_of_slot true _ i None cf cc); cbn [ef_fsz ef_files ef_cur]; try lia; [|reflexivity].
      unfold slot_ge. cbn [ef_cur]. rewrite (file_slot_ge_in cf cc i) by lia.
      destruct (Z.leb_spec 0 (Z.of_N (i - cf))); [reflexivity|lia]. }
  (* in a rotated file *)
  destruct Hshape as [[-> _]|(f0 & Hf0 & Hne & Hhd & Hcont & Hcf)].
  { exfalso. unfold log_first in Hlo. cbn in Hlo. destruct (cf =? 0)%N eqn:E0; [apply N.eqb_eq in E0; lia|lia]. }
  assert (Hlo' : (f0 <= i)%N).
  { rewrite (log_first_files (mkFiles fsz fs (cf, cc)) f0 Hne Hhd Hf0) in Hlo. assumption. }
  destruct (find_ge_spec _ _ _ 0 i Hcont Hlo' ltac:(lia)) as (j & fi & cnt & Hn & H1 & H2 & H3 & H4).
  destruct (contig_nth _ _ _ _ _ _ Hcont Hn) as (Hc1 & Hc2 & Hc3).
  assert (Hnth : nth j fs (0%N, 0%N) = (fi, cnt)) by (apply nth_error_nth; assumption).
  apply (seek_of_slot true _ i (Some j) fi cnt); cbn [ef_fsz ef_files ef_cur]; try lia; [|exact Hnth].
  unfold slot_ge. cbn [ef_files ef_cur]. rewrite (file_slot_ge_before cf cc i Hbelow). cbn [Z.leb Z.compare].
  destruct fs as [|x xs] eqn:Efs2; [contradiction|]. rewrite <- Efs2 in *.
  destruct H4 as [[-> Hk]|[Hlt Hk]]; rewrite Hk; cbn [Nat.add].
  - (* the first entry of a rotated file *)
    rewrite Hn. cbn [andb]. rewrite N.eqb_refl, N.sub_diag. reflexivity.
  - cbn [Nat.pred]. rewrite Hnth, (file_slot_ge_in fi cnt i) by lia.
    destruct (nth_error fs (S j)) as [[fi' c']|] eqn:En; [|reflexivity].
    specialize (H3 _ _ eq_refl). destruct (N.eqb_spec fi' i); [lia|reflexivity].
Qed.

Lemma seek_before_log : forall E i, wf_files E -> (0 < i)%N -> (i < log_first E)%N -> seek true E i = SCompacted.
Proof.
  intros E i Hwf Hi0 Hlt. pose proof (wf_shape _ Hwf) as Hshape.
  destruct E as [fsz fs [cf cc]]. cbn [ef_fsz ef_files ef_cur fst snd] in *.
  unfold seek. destruct (N.eqb_spec i 0); [lia|].
  unfold slot_ge. cbn [ef_files ef_cur].
  destruct Hshape as [[-> _]|(f0 & Hf0 & Hne & Hhd & Hcont & Hcf)].
  - unfold log_first in Hlt. cbn in Hlt.
    assert (Ecur : file_slot_ge (cf, cc) i = (-1)%Z).
    { destruct (N.eqb_spec cf 0) as [->|]; [reflexivity|apply file_slot_ge_before; lia]. }
    rewrite Ecur. reflexivity.
  - rewrite (log_first_files (mkFiles fsz fs (cf, cc)) f0 Hne Hhd Hf0) in Hlt.
    pose proof (files_end_ge _ _ _ Hcont) as Hge.
    rewrite (file_slot_ge_before cf cc i) by lia. cbn [Z.leb Z.compare].
    destruct fs as [|[f c] r]; [contradiction|]. cbn in Hhd. inversion Hhd; subst f.
    cbn [find_ge]. destruct (N.leb_spec i f0); [|lia].
    cbn [nth_error]. destruct (N.eqb_spec f0 i); [lia|]. cbn [andb Nat.pred nth].
    rewrite (file_slot_ge_before f0 c i Hlt). reflexivity.
Qed.

