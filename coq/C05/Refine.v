(* C05 - the truncation-decision model (Trunc.decide, tied to the real deleteEntryLog round by round) refines the group
   machine (Model.step): a layered machine runs the decision of every node on the state of the group machine, with a
   wall clock and one tolerance timer per node, and performs what the decision says as TruncPropose / TruncForce.
   Every layered step is a step of the group machine or leaves it unchanged (tstep_refines), so every layered run
   projects onto a run of the group machine and all trace theorems apply
   (Props.truncation_decision_refines_group_machine). *)
From Coq Require Import List Arith NArith ZArith Bool Lia.
From OG Require Import C05.Model C05.Proofs C05.Invariant C05.Trunc C05.TruncProofs.
Import ListNotations.

Record tsys := mkT {
  tb : sys;                       (* the group machine *)
  tclock : Z;                     (* wall clock *)
  ttim : nat -> option Z;         (* RaftNode.tolerateStartTime of every node (None = 0) *)
  tseen : nat -> option Z }.      (* ghost: when the node's decision last saw every member alive *)

Inductive tevent :=
| TBase (e : event)               (* any event of the group machine except the two truncation proposals *)
| TTick (d : Z)                   (* time passes *)
| TRound (n : nat) (ms : list N). (* deleteEntryLog on node n; ms = Progress.Match of the members as raft reports them *)

Definition upd_o {A} (f : nat -> A) (n : nat) (x : A) : nat -> A := fun m => if Nat.eqb m n then x else f m.

Definition round_of (ts : tsys) (n : nat) (ms : list N) : round :=
  let s := tb ts in
  mkRound (tclock ts)
          (match leader s with Some l => Nat.eqb l n | None => false end)
          (map (fun m => up (nodes s m)) (seq 0 (nn (cfg s))))
          ms
          (N.of_nat (snap (nodes s n))).

Definition lay_of (s : sys) (n : nat) : layout :=
  mkLay (N.of_nat (fsz (cfg s))) (N.of_nat (efirst (nodes s n)) + 1) (N.of_nat (length (elog (nodes s n)))).

(* the decision looked at the members and found all of them alive *)
Definition saw_health (r : round) : bool := all_alive r && (negb (r_lead r) || negb (r_snap r =? 0)%N).

Lemma quot_between : forall f q x : N, (0 < f)%N -> (q * f < x)%N -> (x <= q * f + f)%N -> ((x - 1) / f = q)%N.
Proof.
  intros f q x Hf H1 H2. rewrite (N.mul_comm q f) in *. symmetry. apply (N.div_unique (x - 1) f q (x - 1 - f * q)); lia.
Qed.

Lemma file_no_same : forall L a s, (0 < lay_fsz L)%N -> (1 <= lay_first L)%N -> (1 <= a)%N -> (a <= s)%N ->
  ((a - 1) / lay_fsz L = (s - 1) / lay_fsz L)%N -> file_no L a = file_no L s.
Proof.
  intros [f fi la] a s Hf Hfi Ha Has Hq. cbn [lay_fsz lay_first lay_last] in *. unfold file_no. cbn [lay_fsz lay_first lay_last].
  set (q := ((s - 1) / f)%N) in *.
  assert (A1 : (q * f < a)%N).
  { pose proof (N.mul_div_le (a - 1) f ltac:(lia)) as H. rewrite Hq in H. lia. }
  assert (A2 : (s <= q * f + f)%N).
  { pose proof (N.mul_succ_div_gt (s - 1) f ltac:(lia)) as H. fold q in H. lia. }
  destruct (N.lt_ge_cases s fi) as [C1|C1].
  { replace (N.max fi (N.min a la)) with fi by lia. replace (N.max fi (N.min s la)) with fi by lia. reflexivity. }
  destruct (N.lt_ge_cases la a) as [C2|C2].
  { replace (N.min a la) with la by lia. replace (N.min s la) with la by lia. reflexivity. }
  rewrite (quot_between f q (N.max fi (N.min a la))) by lia.
  rewrite (quot_between f q (N.max fi (N.min s la))) by lia.
  reflexivity.
Qed.

Lemma file_no_zero_one : forall L, (1 <= lay_first L)%N -> file_no L 0 = file_no L 1.
Proof. intros [f fi la] H. unfold file_no; cbn [lay_fsz lay_first lay_last] in *. f_equal. f_equal. lia. Qed.

Lemma same_file_quot : forall f a b, 0 < f -> 1 <= a -> 1 <= b -> same_file f a b = true -> (a - 1) / f = (b - 1) / f.
Proof.
  intros f a b Hf Ha Hb H. unfold same_file, tr_first in H.
  destruct (Nat.eqb a 0) eqn:Ea; [apply Nat.eqb_eq in Ea; lia|].
  destruct (Nat.eqb b 0) eqn:Eb; [apply Nat.eqb_eq in Eb; lia|].
  apply Nat.eqb_eq in H. apply Nat.mul_cancel_r in H; lia.
Qed.

Lemma same_file_refl : forall f a, same_file f a a = true.
Proof. intros; unfold same_file; apply Nat.eqb_refl. Qed.

(* genProposeData with the file ids SlotGe reports (relative to the present log) = the group machine's trunc_idx on
   the decision's own result *)
Lemma trunc_idx_of_gen_idx : forall c ef len snp mm,
  let L := mkLay (N.of_nat (fsz c)) (N.of_nat ef + 1) (N.of_nat len) in
  let idx := gen_idx L (N.of_nat snp) mm in
  trunc_idx c (N.to_nat idx) snp = N.to_nat idx.
Proof.
  intros c ef len snp mm L idx. unfold trunc_idx.
  assert (Hsnp : N.to_nat (N.of_nat snp) = snp) by apply Nat2N.id.
  subst idx. destruct mm as [m|]; cbn [gen_idx].
  2:{ rewrite Hsnp, same_file_refl. reflexivity. }
  destruct (file_no L m =? file_no L (N.of_nat snp))%N eqn:Ef.
  { rewrite Hsnp, same_file_refl. reflexivity. }
  destruct (N.le_gt_cases (N.of_nat snp) m) as [Hge|Hlt].
  { rewrite N.min_r by assumption. rewrite Hsnp, same_file_refl. reflexivity. }
  rewrite N.min_l by lia.
  assert (Hlt' : N.to_nat m < snp) by lia.
  destruct (same_file (fsz c) (N.to_nat m) snp) eqn:Es; [|lia].
  (* the same file in absolute terms would be the same file in SlotGe's terms *)
  exfalso. apply N.eqb_neq in Ef. apply Ef.
  destruct (fsz c) as [|f'] eqn:Efz.
  { unfold file_no, L. cbn [lay_fsz]. assert (Z0 : forall x : N, (x / 0 = 0)%N) by (intros [|p]; reflexivity). rewrite !Z0. reflexivity. }
  assert (HL1 : (0 < lay_fsz L)%N) by (unfold L; cbn; lia).
  assert (HL2 : (1 <= lay_first L)%N) by (unfold L; cbn [lay_first]; lia).
  destruct (N.eq_dec m 0) as [->|Hm0].
  - rewrite (file_no_zero_one L HL2). apply file_no_same; try assumption; try lia.
    cbn [N.to_nat] in Es. unfold same_file, tr_first in Es. cbn [Nat.eqb] in Es.
    destruct (Nat.eqb snp 0) eqn:E0; [apply Nat.eqb_eq in E0; lia|].
    assert (Eq0 : (snp - 1) / S f' = 0).
    { destruct ((snp - 1) / S f' * S f') eqn:Ep; [|discriminate]. apply Nat.eq_mul_0_l in Ep; [assumption|lia]. }
    unfold L; cbn [lay_fsz]. cbn [N.sub]. rewrite N.div_0_l by lia.
    replace (N.of_nat snp - 1)%N with (N.of_nat (snp - 1)) by lia.
    rewrite <- Nat2N.inj_div, Eq0. reflexivity.
  - apply file_no_same; try assumption; try lia.
    pose proof (same_file_quot (S f') (N.to_nat m) snp ltac:(lia) ltac:(lia) ltac:(lia) Es) as Hq.
    unfold L; cbn [lay_fsz].
    replace (m - 1)%N with (N.of_nat (N.to_nat m - 1)) by lia.
    replace (N.of_nat snp - 1)%N with (N.of_nat (snp - 1)) by lia.
    rewrite <- !Nat2N.inj_div, Hq. reflexivity.
Qed.

Section Layered.
  Variable raft_ok : sys -> event -> bool.
  Variable tc : tcfg.
  Variable T : Z.

  Definition tstep (ts : tsys) (te : tevent) : option tsys :=
    match te with
    | TBase e =>
        match e with
        | TruncPropose _ | TruncForce _ => None
        | _ => match step raft_ok (tb ts) e with
               | Some s' => Some (mkT s' (tclock ts)
                                      (match e with Kill n | Restart n => upd_o (ttim ts) n None | _ => ttim ts end)
                                      (tseen ts))
               | None => None
               end
        end
    | TTick d => if (0 <=? d)%Z then Some (mkT (tb ts) (tclock ts + d) (ttim ts) (tseen ts)) else None
    | TRound n ms =>
        let s := tb ts in
        if avail (nodes s n) then
          let r := round_of ts n ms in
          let res := decide tc T (lay_of s n) (ttim ts n) r in
          let tim' := upd_o (ttim ts) n (fst res) in
          let seen' := if saw_health r then upd_o (tseen ts) n (Some (tclock ts)) else tseen ts in
          match snd res with
          | DNone => Some (mkT s (tclock ts) tim' seen')
          | DHealthy idx => match step raft_ok s (TruncPropose (N.to_nat idx)) with
                            | Some s' => Some (mkT s' (tclock ts) tim' seen') | None => None end
          | DForce idx => match step raft_ok s (TruncForce (N.to_nat idx)) with
                          | Some s' => Some (mkT s' (tclock ts) tim' seen') | None => None end
          end
        else None
    end.

  Fixpoint trun (ts : tsys) (tes : list tevent) : option tsys :=
    match tes with
    | [] => Some ts
    | te :: r => match tstep ts te with Some ts' => trun ts' r | None => None end
    end.

  Lemma tstep_refines : forall ts te ts', tstep ts te = Some ts' ->
    tb ts' = tb ts \/ exists e, step raft_ok (tb ts) e = Some (tb ts').
  Proof.
    intros ts te ts' H. destruct te as [e|d|n ms]; cbn [tstep] in H.
    - right. exists e.
      destruct e; try discriminate;
        (destruct (step raft_ok (tb ts) _) as [s'|] eqn:E; [|discriminate]; inversion H; subst; reflexivity).
    - destruct (0 <=? d)%Z; [|discriminate]. inversion H; subst. left; reflexivity.
    - destruct (avail (nodes (tb ts) n)); [|discriminate].
      destruct (snd (decide tc T (lay_of (tb ts) n) (ttim ts n) (round_of ts n ms))) as [|idx|idx].
      + inversion H; subst. left; reflexivity.
      + destruct (step raft_ok (tb ts) (TruncPropose (N.to_nat idx))) as [s'|] eqn:E; [|discriminate].
        inversion H; subst. right; eexists; exact E.
      + destruct (step raft_ok (tb ts) (TruncForce (N.to_nat idx))) as [s'|] eqn:E; [|discriminate].
        inversion H; subst. right; eexists; exact E.
  Qed.

  (* a round whose decision proposes idx appends exactly ClearEntryLog(idx) to the leader's log (and nothing else
     changes in the group machine) *)
  Lemma round_appends_decision : forall ts n ms ts' idx,
    tstep ts (TRound n ms) = Some ts' ->
    (snd (decide tc T (lay_of (tb ts) n) (ttim ts n) (round_of ts n ms)) = DHealthy idx \/
     snd (decide tc T (lay_of (tb ts) n) (ttim ts n) (round_of ts n ms)) = DForce idx) ->
    leader (tb ts) = Some n /\
    tb ts' = set_node (tb ts) n (with_elog (nodes (tb ts) n) (elog (nodes (tb ts) n) ++ [EClear (N.to_nat idx)])).
  Proof.
    intros ts n ms ts' idx H Hd. cbn [tstep] in H.
    destruct (avail (nodes (tb ts) n)); [|discriminate].
    assert (Hlead : leader (tb ts) = Some n).
    { unfold decide in Hd. cbn [round_of r_lead] in Hd.
      destruct (leader (tb ts)) as [l|]; [|cbn in Hd; destruct Hd; discriminate].
      destruct (Nat.eqb l n) eqn:E; [apply Nat.eqb_eq in E; subst; reflexivity|cbn in Hd; destruct Hd; discriminate]. }
    split; [assumption|].
    assert (Hidx : exists mm, idx = gen_idx (lay_of (tb ts) n) (N.of_nat (snap (nodes (tb ts) n))) mm).
    { unfold decide in Hd. cbn [round_of r_lead r_snap r_now r_alive r_match] in Hd.
      destruct (negb _) in Hd; [cbn in Hd; destruct Hd; discriminate|].
      destruct (N.of_nat (snap (nodes (tb ts) n)) =? 0)%N in Hd; [cbn in Hd; destruct Hd; discriminate|].
      destruct (all_alive _) in Hd.
      - cbn [snd] in Hd. destruct Hd as [Hd|Hd]; [|discriminate]. inversion Hd. eexists; reflexivity.
      - destruct (T <? _)%Z in Hd; cbn [snd] in Hd; destruct Hd as [Hd|Hd]; try discriminate. inversion Hd. eexists; reflexivity. }
    destruct Hidx as [mm Hidx].
    pose proof (trunc_idx_of_gen_idx (cfg (tb ts)) (efirst (nodes (tb ts) n)) (length (elog (nodes (tb ts) n)))
                                     (snap (nodes (tb ts) n)) mm) as Hti.
    cbn zeta in Hti. fold (lay_of (tb ts) n) in Hti. rewrite <- Hidx in Hti.
    assert (Tr : forall e s', e = TruncPropose (N.to_nat idx) \/ e = TruncForce (N.to_nat idx) -> step raft_ok (tb ts) e = Some s' ->
                   s' = set_node (tb ts) n (with_elog (nodes (tb ts) n) (elog (nodes (tb ts) n) ++ [EClear (N.to_nat idx)]))).
    { intros e s' He E. destruct (step_trunc _ _ _ _ _ He E) as (l & Hl & _ & ->). rewrite Hlead in Hl. inversion Hl; subst l.
      rewrite Hti. reflexivity. }
    destruct Hd as [Hd|Hd]; rewrite Hd in H;
      (destruct (step raft_ok (tb ts) _) as [s'|] eqn:E; [|discriminate]); inversion H; subst ts'; cbn [tb];
      [apply (Tr _ _ (or_introl eq_refl) E)|apply (Tr _ _ (or_intror eq_refl) E)].
  Qed.
End Layered.

Definition tinit (c : config) : tsys := mkT (init c) 0 (fun _ => None) (fun _ => None).

(* a running timer was started at or after the node's last sight of a healthy group; nothing lies in the future *)
Definition TInv (ts : tsys) : Prop :=
  (forall n t, ttim ts n = Some t -> (t <= tclock ts)%Z /\ forall z, tseen ts n = Some z -> (z <= t)%Z) /\
  (forall n z, tseen ts n = Some z -> (z <= tclock ts)%Z).

Section Timer.
  Variable raft_ok : sys -> event -> bool.
  Variable T : Z.

  Lemma tinv_step : forall ts te ts', TInv ts -> tstep raft_ok tcfg_repaired T ts te = Some ts' -> TInv ts'.
  Proof.
    intros ts te ts' [I1 I2] H. destruct te as [e|d|n ms]; cbn [tstep] in H.
    - assert (Hgen : forall s' tim', (forall m t, tim' m = Some t -> ttim ts m = Some t) ->
                                    TInv (mkT s' (tclock ts) tim' (tseen ts))).
      { intros s' tim' Hsub. split; cbn; [intros m t Ht; apply I1; apply Hsub; assumption|assumption]. }
      assert (Hupd : forall k m t, upd_o (ttim ts) k None m = Some t -> ttim ts m = Some t).
      { intros k m t Hm. unfold upd_o in Hm. destruct (Nat.eqb m k); [discriminate|assumption]. }
      destruct e; try discriminate;
        (destruct (step raft_ok (tb ts) _) as [s'|]; [|discriminate]; inversion H; subst; apply Hgen; auto; apply Hupd).
    - destruct (0 <=? d)%Z eqn:Ed; [|discriminate]. apply Z.leb_le in Ed. inversion H; subst. split; cbn.
      + intros m t Ht. destruct (I1 m t Ht) as [A B]. split; [lia|assumption].
      + intros m z Hz. specialize (I2 m z Hz). lia.
    - destruct (avail (nodes (tb ts) n)); [|discriminate].
      set (r := round_of ts n ms) in *. set (L := lay_of (tb ts) n) in *.
      assert (Hnow : r_now r = tclock ts) by reflexivity. clearbody r L.
      (* what the decision does to the timer of node n, for the repaired rule *)
      assert (Hcore : forall s', TInv (mkT s' (tclock ts) (upd_o (ttim ts) n (fst (decide tcfg_repaired T L (ttim ts n) r)))
                                           (if saw_health r then upd_o (tseen ts) n (Some (tclock ts)) else tseen ts))).
      { intros s'. unfold decide, saw_health. cbn [t_clear_follower t_clear_health tcfg_repaired].
        destruct (r_lead r) eqn:Hl; cbn [negb orb].
        2:{ (* not the leader: timer cleared *)
            split; cbn.
            - intros m t Ht. unfold upd_o in Ht. destruct (Nat.eqb m n) eqn:E; [discriminate|].
              destruct (I1 m t Ht) as [A B]. split; [assumption|]. intros z Hz.
              destruct (all_alive r); cbn in Hz; [unfold upd_o in Hz; rewrite E in Hz|]; apply B; assumption.
            - intros m z Hz. destruct (all_alive r); cbn in Hz; [|apply I2 with m; assumption].
              unfold upd_o in Hz. destruct (Nat.eqb m n); [inversion Hz; lia|apply I2 with m; assumption]. }
        destruct (r_snap r =? 0)%N eqn:Hs; cbn [negb andb].
        { (* no snapshot yet: nothing looked at *)
          rewrite andb_false_r. split; cbn.
          - intros m t Ht. unfold upd_o in Ht. destruct (Nat.eqb m n) eqn:E; [apply Nat.eqb_eq in E; subst m|]; apply I1; assumption.
          - assumption. }
        rewrite andb_true_r.
        destruct (all_alive r) eqn:Ha.
        { (* healthy: timer cleared, sight recorded *)
          split; cbn.
          - intros m t Ht. unfold upd_o in Ht. destruct (Nat.eqb m n) eqn:E; [discriminate|].
            destruct (I1 m t Ht) as [A B]. split; [assumption|]. intros z Hz. unfold upd_o in Hz. rewrite E in Hz. apply B; assumption.
          - intros m z Hz. unfold upd_o in Hz. destruct (Nat.eqb m n); [inversion Hz; lia|apply I2 with m; assumption]. }
        (* a member is down *)
        split; cbn; [|assumption].
        intros m t Ht. unfold upd_o in Ht. destruct (Nat.eqb m n) eqn:E; [|apply I1; assumption].
        apply Nat.eqb_eq in E; subst m.
        destruct (ttim ts n) as [t0|] eqn:Et.
        - destruct (T <? r_now r - t0)%Z; cbn [fst] in Ht; [discriminate|]. inversion Ht; subst t. apply I1; assumption.
        - destruct (T <? r_now r - r_now r)%Z; cbn [fst] in Ht; [discriminate|]. inversion Ht; subst t. rewrite Hnow.
          split; [lia|]. intros z Hz. apply I2 with n; assumption. }
      destruct (snd (decide tcfg_repaired T L (ttim ts n) r)) as [|idx|idx].
      + inversion H; subst. apply Hcore.
      + destruct (step raft_ok (tb ts) (TruncPropose (N.to_nat idx))) as [s'|]; [|discriminate]. inversion H; subst. apply Hcore.
      + destruct (step raft_ok (tb ts) (TruncForce (N.to_nat idx))) as [s'|]; [|discriminate]. inversion H; subst. apply Hcore.
  Qed.

  Lemma tinv_run : forall tes ts ts', TInv ts -> trun raft_ok tcfg_repaired T ts tes = Some ts' -> TInv ts'.
  Proof.
    induction tes as [|te tes IH]; intros ts ts' HI H; cbn in H; [inversion H; subst; assumption|].
    destruct (tstep raft_ok tcfg_repaired T ts te) as [ts1|] eqn:E; [|discriminate].
    eapply IH; [eapply tinv_step; eassumption|assumption].
  Qed.

  Lemma tinv_init : forall c, TInv (tinit c).
  Proof. intros c; split; cbn; intros; discriminate. Qed.

  (* in every reachable state of the layered machine: if the decision of node n forces a truncation now, the last time
     n saw every member alive (in any role) lies more than T back *)
  Lemma group_forced_after_tolerance : forall c tes ts n ms idx z,
    trun raft_ok tcfg_repaired T (tinit c) tes = Some ts ->
    snd (decide tcfg_repaired T (lay_of (tb ts) n) (ttim ts n) (round_of ts n ms)) = DForce idx ->
    tseen ts n = Some z -> (T < tclock ts - z)%Z.
  Proof.
    intros c tes ts n ms idx z Hrun Hd Hz.
    destruct (tinv_run _ _ _ (tinv_init c) Hrun) as [I1 I2].
    destruct (decide_force _ _ _ _ _ _ Hd) as (_ & _ & _ & Ht). change (r_now (round_of ts n ms)) with (tclock ts) in Ht.
    destruct (ttim ts n) as [t|] eqn:Et; [destruct (I1 n t Et) as [_ B]; specialize (B z Hz)|specialize (I2 n z Hz)]; lia.
  Qed.
End Timer.
