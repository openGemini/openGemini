(* C01 proofs: the epoch-numbered log layout (efiles of Model.v) - partition 0's file as the epoch's marker makes
   the file-by-file removal of an epoch atomic for recovery, and recovery from the files is exact. *)
From Coq Require Import NArith ZArith List Bool Arith Lia.
From OG Require Import C01.Model C01.Proofs.
Import ListNotations.

Lemma total_app_at {A} i (x : A) parts : i < length parts -> total (app_at i x parts) = S (total parts).
Proof.
  revert i. induction parts as [|p r IH]; intros i H; [cbn in H; lia|]. destruct i; cbn.
  - rewrite app_length. cbn. unfold total. lia.
  - cbn in H. unfold total in *. cbn. rewrite IH by lia. lia.
Qed.

Lemma distribute_length {A} n (xs : list A) : forall ph parts, length (distribute n ph xs parts) = length parts.
Proof. induction xs as [|x xs IH]; intros ph parts; [reflexivity|]. cbn. rewrite IH. apply app_at_length. Qed.

Lemma total_distribute {A} n (xs : list A) : 0 < n -> forall ph parts, length parts = n ->
  total (distribute n ph xs parts) = length xs + total parts.
Proof.
  intro Hn. induction xs as [|x xs IH]; intros ph parts Hl; [reflexivity|]. cbn [distribute length].
  rewrite IH by (rewrite app_at_length; exact Hl). rewrite total_app_at; [lia|]. rewrite Hl. apply Nat.mod_upper_bound. lia.
Qed.

Lemma total_repeat_nil {A} n : total (repeat (@nil A) n) = 0.
Proof. induction n; [reflexivity|]. cbn. exact IHn. Qed.

Lemma unwrap_wrap parts : unwrap (wrap_epoch parts) = parts.
Proof.
  destruct parts as [|p0 r]; [reflexivity|]. cbn. f_equal. rewrite map_map. rewrite <- (map_id r) at 2. apply map_ext.
  intro p. destruct p; reflexivity.
Qed.

(* partition 0's file exists in every epoch, written to or not *)
Lemma epoch_files_marker n e : 0 < n -> exists p0 r, epoch_files n e = Some p0 :: r.
Proof.
  intro Hn. unfold epoch_files. pose proof (distribute_length n e 0 (repeat [] n)) as Hl. rewrite repeat_length in Hl.
  destruct (distribute n 0 e (repeat [] n)) as [|p0 r]; [cbn in Hl; lia|]. eexists _, _. reflexivity.
Qed.

Lemma epoch_files_live n e : 0 < n -> epoch_live (epoch_files n e) = true.
Proof. intro Hn. destruct (epoch_files_marker n e Hn) as (p0 & r & E). rewrite E. reflexivity. Qed.

Lemma replay_epoch_exact n e : 0 < n -> replay_epoch_files (epoch_files n e) = e.
Proof.
  intro Hn. unfold replay_epoch_files. rewrite (epoch_files_live n e Hn). unfold epoch_files. rewrite unwrap_wrap.
  rewrite (total_distribute n e Hn 0 (repeat [] n) (repeat_length _ _)), total_repeat_nil, Nat.add_0_r.
  apply replay_phase0. exact Hn.
Qed.

(* as soon as the removal has taken its first step the epoch is not live any more, whatever else is still there *)
Lemma removal_started_dead n e j : 0 < n -> replay_epoch_files (remove_files (S j) (epoch_files n e)) = [].
Proof. intro Hn. destruct (epoch_files_marker n e Hn) as (p0 & r & E). rewrite E. reflexivity. Qed.

Lemma remove_zero ef : remove_files 0 ef = ef.
Proof. induction ef as [|o r IH]; [reflexivity|]. destruct o; cbn; [reflexivity | rewrite IH; reflexivity]. Qed.

Lemma replay_disk_all n eps : 0 < n -> replay_disk (map (epoch_files n) eps) = concat eps.
Proof.
  intro Hn. unfold replay_disk. rewrite map_map. f_equal. rewrite <- (map_id eps) at 2. apply map_ext. intro e. apply replay_epoch_exact. exact Hn.
Qed.

Lemma skipn_S_tl {A} k : forall l : list A, skipn (S k) l = tl (skipn k l).
Proof.
  induction k as [|k IH]; intro l; [destruct l; reflexivity|]. destruct l as [|x l]; [reflexivity|].
  change (skipn (S (S k)) (x :: l)) with (skipn (S k) l). change (skipn (S k) (x :: l)) with (skipn k l). apply IH.
Qed.

(* what the files give back: the live epochs, without the oldest one as soon as its removal has taken its first step
   (any number of steps >= 1, partition 0 first) *)
Lemma replay_disk_disk n st j : 0 < n ->
  replay_disk (disk n st j) = concat (match j with 0 => live_epochs st | S _ => tl (live_epochs st) end).
Proof.
  intro Hn. unfold disk. destruct (live_epochs st) as [|e r]; [destruct j; reflexivity|].
  unfold replay_disk. cbn [map concat]. fold (replay_disk (map (epoch_files n) r)). rewrite (replay_disk_all n r Hn).
  destruct j as [|j]; [rewrite remove_zero, (replay_epoch_exact n e Hn) | rewrite (removal_started_dead n e j Hn)]; reflexivity.
Qed.

Lemma live_epochs_wremove st : nj st < nf st -> nf st <= length (closed st) ->
  live_epochs (wstep st WRemove) = tl (live_epochs st).
Proof.
  intros H1 H2. unfold wstep. apply Nat.ltb_lt in H1 as H1b. rewrite H1b. unfold live_epochs. cbn [closed opn nj].
  rewrite skipn_S_tl. destruct (skipn (nj st) (closed st)) eqn:E; [|reflexivity].
  apply (f_equal (@length _)) in E. rewrite skipn_length in E. cbn in E. lia.
Qed.

Lemma flushed_wremove st : flushed (wstep st WRemove) = flushed st.
Proof. unfold wstep. destruct (Nat.ltb (nj st) (nf st)); reflexivity. Qed.

(* recovery from the files is exact at every step of every removal *)
Theorem recovered_disk_exact n st j k : 0 < n -> winv st -> (j = 0 \/ nj st < nf st) ->
  recovered_disk n st j k = lww (acked st) k.
Proof.
  intros Hn I Hj. unfold recovered_disk. rewrite (replay_disk_disk n st j Hn). destruct j as [|j].
  - rewrite <- (replay_repaired_is_live n st Hn). apply (recovery_exact_inv n st Hn I k).
  - destruct Hj as [Hj|Hj]; [discriminate|].
    rewrite <- (live_epochs_wremove st Hj (proj2 I)), <- (replay_repaired_is_live n _ Hn), <- (flushed_wremove st).
    change (recovered_repaired n (wstep st WRemove) k = lww (acked st) k).
    rewrite (recovery_exact_inv n _ Hn (wstep_inv st WRemove I) k), acked_wstep. reflexivity.
Qed.
