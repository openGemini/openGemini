(* C01 proofs: record framing for all records - what the reader does with a header followed by any bytes. *)
From Coq Require Import NArith ZArith List Bool Arith Lia.
From OG Require Import C01.Model.
Import ListNotations.

(* the four base-256 digits of n, by three successive divisions; lia sees the quotients and remainders as atoms *)
Lemma unbe32_be32 (n : N) : (n < 4294967296)%N -> unbe32 (be32 n) = n.
Proof.
  intro H. unfold unbe32, be32.
  assert (E2 : (n / 65536 = n / 256 / 256)%N) by (rewrite N.div_div by discriminate; reflexivity).
  assert (E3 : (n / 16777216 = n / 65536 / 256)%N) by (rewrite N.div_div by discriminate; reflexivity).
  assert (H3 : (n / 16777216 < 256)%N) by (apply N.div_lt_upper_bound; [discriminate | exact H]).
  rewrite (N.mod_small _ _ H3), E3.
  pose proof (N.div_mod' n 256) as D1. pose proof (N.div_mod' (n / 256) 256) as D2. pose proof (N.div_mod' (n / 65536) 256) as D3.
  rewrite <- E2 in D2. lia.
Qed.

Lemma frame_split typ payload : frame typ payload = typ :: be32 (N.of_nat (length payload)) ++ payload.
Proof. reflexivity. Qed.

Lemma read_frame_cons typ n rest : (n < 4294967296)%N ->
  read_frame (typ :: be32 n ++ rest) =
  if (N.ltb 0 typ && N.ltb typ 3)%bool && Nat.leb (N.to_nat n) (length rest)
  then Record typ (firstn (N.to_nat n) rest) (skipn (N.to_nat n) rest) else Incomplete.
Proof.
  intro H. pose proof (unbe32_be32 n H) as E. unfold be32 in *. cbn [app read_frame]. rewrite E. reflexivity.
Qed.
