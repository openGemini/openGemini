(* C01 proofs: the flush with its per-measurement skip, DROP MEASUREMENT as steps, deleting marks and the replay flag (machine
   xstate of Model.v), in the order that checks the replay flag before it sets the mark: the invariant behind "recovery is
   exact for every measurement that has no unfinished drop", and the two no-op steps behind "a refused drop changes
   nothing". Asynchronous replay (machine astate): the invariant of the two-table rule. The theorems are in Props.v. *)
From Coq Require Import NArith ZArith List Bool Arith Lia.
From OG Require Import C01.Model C01.Proofs.
Import ListNotations.

Lemma memNb_In m l : memNb m l = true <-> In m l.
Proof. exact (memN_In m l). Qed.

Lemma out_ext a b c : (forall x, In x a <-> In x b) -> keep_out a c = keep_out b c.
Proof.
  intro H. unfold keep_out. apply filter_ext. intro x. f_equal. apply eq_true_iff_eq.
  change (memN (mst_of (fst x)) a = true <-> memN (mst_of (fst x)) b = true). rewrite !memN_In. apply H.
Qed.

Lemma out_out a b c : keep_out a (keep_out b c) = keep_out (a ++ b) c.
Proof.
  unfold keep_out. induction c as [|x c IH]; [reflexivity|]. cbn [filter]. rewrite existsb_app.
  destruct (existsb (N.eqb (mst_of (fst x))) b) eqn:Eb; cbn [negb].
  - rewrite orb_true_r. cbn [negb]. exact IH.
  - rewrite orb_false_r. cbn [filter]. destruct (existsb (N.eqb (mst_of (fst x))) a); cbn [negb]; [exact IH | f_equal; exact IH].
Qed.

Lemma out_absorb T ms c : incl ms T -> keep_out T (keep_out ms c) = keep_out T c.
Proof.
  intro H. rewrite out_out. apply out_ext. intro x. rewrite in_app_iff. split; [intros [Hx|Hx]; [exact Hx | apply H; exact Hx] | intro Hx; left; exact Hx].
Qed.

Lemma map_out_absorb T ms bs : incl ms T -> map (keep_out T) (map (keep_out ms) bs) = map (keep_out T) bs.
Proof. intro H. rewrite map_map. apply map_ext. intro c. apply out_absorb. exact H. Qed.

Lemma in_remove_iff (m x : N) l : In x (remove N.eq_dec m l) <-> In x l /\ x <> m.
Proof.
  split.
  - intro H. apply in_remove in H. exact H.
  - intros [H1 H2]. apply in_in_remove; assumption.
Qed.

(* what the commits wrote is what they should have written, up to the measurements for which a drop began and was not
   acknowledged: a commit leaves out the marked measurements, a mark is always tainted, and the taint outlives the mark
   (a crash wipes the mark, not what the skipping commit did) *)
Definition xinv (st : xstate) : Prop :=
  x_nc st <= length (x_logs st) /\ incl (x_marks st) (x_taint st) /\
  map (keep_out (x_taint st)) (x_files st) = map (keep_out (x_taint st)) (x_gone st ++ concat (firstn (x_nc st) (x_logs st))).

Lemma firstn_S_nth {B} (d : B) n : forall l, n < length l -> firstn (S n) l = firstn n l ++ [nth n l d].
Proof.
  induction n as [|n IH]; intros l H; destruct l as [|x l]; cbn in *; try lia; [reflexivity|].
  f_equal. apply IH. lia.
Qed.

Ltac xs := cbn [x_files x_gone x_logs x_nc x_open x_marks x_replaying x_taint].

Lemma xstep_inv clear st o : xinv st -> xinv (xstep false clear st o).
Proof.
  intros (H1 & H2 & H3). destruct o; unfold xstep, xinv.
  - xs. auto.
  - xs. rewrite app_length. xs. split; [lia|]. split; [exact H2|]. rewrite firstn_app. replace (x_nc st - length (x_logs st)) with 0 by lia.
    xs. rewrite app_nil_r. exact H3.
  - destruct (Nat.ltb (x_nc st) (length (x_logs st))) eqn:E; [|xs; auto]. apply Nat.ltb_lt in E. xs.
    split; [lia|]. split; [exact H2|].
    rewrite (firstn_S_nth [] (x_nc st) (x_logs st) E), concat_app. cbn [concat]. rewrite app_nil_r.
    rewrite map_app, H3. rewrite (map_out_absorb _ _ _ H2). rewrite <- map_app, <- app_assoc. reflexivity.
  - destruct (x_logs st) as [|e r] eqn:El; [xs; rewrite El; auto|].
    destruct (Nat.ltb 0 (x_nc st)) eqn:E; [|xs; rewrite El; auto]. apply Nat.ltb_lt in E. xs. cbn in H1.
    split; [lia|]. split; [exact H2|].
    rewrite H3. destruct (x_nc st) as [|n]; [lia|]. xs. rewrite <- app_assoc. reflexivity.
  - rewrite andb_true_r. destruct (x_replaying st); [xs; auto|]. xs.
    split; [exact H1|]. split.
    + intros x [Hx|Hx]; [left; exact Hx | right; apply H2; exact Hx].
    + assert (E : forall bs, map (keep_out (m :: x_taint st)) bs = map (keep_out [m]) (map (keep_out (x_taint st)) bs)).
      { intro bs. rewrite map_map. apply map_ext. intro c. rewrite out_out. reflexivity. }
      rewrite !E, H3. reflexivity.
  - rewrite andb_false_r. xs. auto.
  - destruct (memNb m (x_marks st) && Nat.eqb (length (x_logs st)) 0 && negb (existsb (has_mst m) (x_open st))) eqn:G; [|xs; auto].
    apply andb_prop in G. destruct G as [G _]. apply andb_prop in G. destruct G as [Gm Gl].
    apply memNb_In in Gm. apply Nat.eqb_eq in Gl. apply length_zero_iff_nil in Gl. xs.
    rewrite Gl in *. cbn in H1. assert (x_nc st = 0) as Hn by lia. rewrite Hn in *. cbn in H3. xs. rewrite app_nil_r in *.
    split; [lia|]. split.
    + intros x Hx. apply in_remove_iff in Hx. apply in_remove_iff. split; [apply H2; tauto | tauto].
    + assert (E : forall bs, map (keep_out (remove N.eq_dec m (x_taint st))) (map (keep_not m) bs) = map (keep_out (x_taint st)) bs).
      { intro bs. rewrite map_map. apply map_ext. intro c. rewrite keep_not_out, out_out. apply out_ext. intro x.
        rewrite in_app_iff, in_remove_iff. xs. split.
        - intros [[Hx _]|[Hx|[]]]; [exact Hx | subst; apply H2; exact Gm].
        - intro Hx. destruct (N.eq_dec x m); [right; left; symmetry; assumption | left; split; assumption]. }
      rewrite !E. exact H3.
  - xs. split; [exact H1|]. split; [intros x []|exact H3].
  - xs. auto.
Qed.

Lemma xrun_inv clear ops : xinv (xrun false clear ops).
Proof.
  apply (fold_left_inv (xstep false clear) xinv (xstep_inv clear)).
  unfold xinv. cbn. split; [lia|]. split; [intros x []|reflexivity].
Qed.

Lemma xinv_exact st k : xinv st -> ~ In (mst_of k) (x_taint st) -> x_recovered st k = lww (x_acked st) k.
Proof.
  intros (H1 & _ & H3) Hk. unfold x_recovered, x_acked.
  set (Cn := concat (firstn (x_nc st) (x_logs st))) in *. set (R := concat (skipn (x_nc st) (x_logs st))).
  assert (El : concat (x_logs st) = Cn ++ R).
  { unfold Cn, R. rewrite <- concat_app, firstn_skipn. reflexivity. }
  rewrite El. rewrite over_apply.
  assert (Ef : lww (x_files st) k = lww (x_gone st ++ Cn) k).
  { rewrite <- (lww_keep_out (x_taint st) (x_files st) k Hk), H3. apply lww_keep_out. exact Hk. }
  rewrite Ef. rewrite <- over_apply. rewrite <- !app_assoc.
  apply (over_overlap (x_gone st) Cn (R ++ x_open st) k).
Qed.

Lemma no_drop_no_taint early clear ops : Forall (fun o => match o with XDropBegin _ => False | _ => True end) ops ->
  x_taint (xrun early clear ops) = [].
Proof.
  intro Hf. refine (fold_left_inv_on (xstep early clear) (fun st => x_taint st = []) _ _ ops xinit Hf eq_refl).
  intros st o Ho H. destruct o; unfold xstep; try exact H; try contradiction.
  - destruct (Nat.ltb (x_nc st) (length (x_logs st))); exact H.
  - destruct (x_logs st); [exact H|]. destruct (Nat.ltb 0 (x_nc st)); exact H.
  - destruct (x_replaying st && early && clear); xs; [rewrite H; reflexivity | exact H].
  - destruct (memNb m (x_marks st) && Nat.eqb (length (x_logs st)) 0 && negb (existsb (has_mst m) (x_open st))); xs; [rewrite H; reflexivity | exact H].
Qed.

Lemma xrun_app early clear a b : xrun early clear (a ++ b) = fold_left (xstep early clear) b (xrun early clear a).
Proof. apply fold_left_app. Qed.

(* a drop attempted while the log is being re-applied: neither the attempt nor the refusal changes the state *)
Lemma refused_is_noop clear st m : xstep false clear st (XDropRefused m) = st.
Proof. unfold xstep. rewrite andb_false_r. reflexivity. Qed.

Lemma begin_replaying_noop clear st m : x_replaying st = true -> xstep false clear st (XDropBegin m) = st.
Proof. intro H. unfold xstep. rewrite H. reflexivity. Qed.

(* the history of Props.refused_drop_window_in_todays_order: a flush runs between the mark and the refusal *)
Definition kx : key := (1000, 1, 1)%N.
Definition window_ops : list xop := [XWrite [(kx, 5%Z)]; XCrash; XDropBegin 1%N; XSwitch; XCommit; XRemove; XDropRefused 1%N].

(* the history of Props.stale_deleting_mark_loses_rows: refused, then a write and a flush *)
Definition stale_ops : list xop := [XWrite [(kx, 5%Z)]; XCrash; XDropBegin 1%N; XDropRefused 1%N; XReplayDone; XWrite [(kx, 6%Z)]; XSwitch; XCommit; XRemove].

(* asynchronous replay: the replay table holds what was re-applied so far, the active table what was written since the restart *)
Definition ainv (files log : list batch) (st : astate) : Prop :=
  a_files st = files /\ a_done st ++ a_log st = log /\ a_rep st = a_done st /\ a_act st = a_new st.

Lemma arun_inv files log ops : ainv files log (arun files log ops).
Proof.
  apply (fold_left_inv astep (ainv files log)); [|unfold ainv; cbn; auto].
  intros st o (H1 & H2 & H3 & H4). unfold ainv. destruct o; unfold astep.
  - destruct (a_log st) as [|r rest] eqn:E; [rewrite E; auto|]. cbn. rewrite <- app_assoc. cbn. rewrite H3. auto.
  - cbn. rewrite H4. auto.
Qed.

(* with the replayed records below the new writes a read shows the last-write-wins state of (data files, the records
   re-applied so far, the writes acknowledged since the restart) - the same as if the re-applied part of the log had been
   applied before the first new write *)
Lemma two_tables_exact files log st k : ainv files log st -> a_read false st k = lww (files ++ a_done st ++ a_new st) k.
Proof.
  intros (H1 & _ & H3 & H4). unfold a_read. rewrite H1, H3, H4.
  rewrite (lww_app files (a_done st ++ a_new st) k), !over_apply, (lww_app (a_done st) (a_new st) k), over_apply.
  destruct (lww (a_new st) k); reflexivity.
Qed.

(* the cell of Refuted.C01_async_replay_reverts_new_write *)
Definition ka : key := (1, 1, 1)%N.
