(* C01 models, executable definitions only:
   - write-ahead-log distribution over N partitions and its replay at start-up, in the variant of today's code (_current)
     and in a repaired variant (_repaired), over a last-write-wins store and a history machine wstate (write / log switch /
     data-file commit / log removal / drop) whose every reachable state is a possible crash image;
   - record framing; the order of a partition's log files at restart; the series index across a memtable flush (istate);
   - the flush with its per-measurement skip and DROP MEASUREMENT as steps (xstate); a log layout with epoch-numbered
     files (efiles); concurrent write requests (cwstate); asynchronous replay interleaved with new writes (astate).

   Code mirrored (engine): WAL.writeBinary (record k goes to partition (writeReq++) mod N, the counter is never reset),
   WAL.Switch / LogWriter.Switch (closes the current file of every partition; the next write opens the next file),
   tsstoreImpl.writeSnapshot (Switch -> index flush -> commitSnapshot -> RemoveWalFiles, file by file),
   WAL.restoreLog (per partition the files oldest first), consumeRecordSerial (one record from partition 0..N-1
   cyclically, skipping finished partitions), shard.syncReplayWal (replay -> ForceFlush -> remove the replayed files). *)
From Coq Require Import NArith ZArith List Bool Arith.
Import ListNotations.

Section Wal.
Context {A : Type}.

Fixpoint app_at (i : nat) (x : A) (parts : list (list A)) : list (list A) :=
  match parts, i with
  | [], _ => []
  | p :: r, 0 => (p ++ [x]) :: r
  | p :: r, S j => p :: app_at j x r
  end.

(* the record written when the counter is c goes to partition c mod n *)
Fixpoint distribute (n phase : nat) (xs : list A) (parts : list (list A)) : list (list A) :=
  match xs with
  | [] => parts
  | x :: r => distribute n (S phase) r (app_at (phase mod n) x parts)
  end.

Definition heads (parts : list (list A)) : list A :=
  flat_map (fun p => match p with [] => [] | x :: _ => [x] end) parts.
Definition tails (parts : list (list A)) : list (list A) := map (@tl A) parts.

(* serial replay: one record from every unfinished partition, partition 0 first, round after round *)
Fixpoint replay (fuel : nat) (parts : list (list A)) : list A :=
  match fuel with
  | 0 => []
  | S f => heads parts ++ replay f (tails parts)
  end.

Definition total (parts : list (list A)) : nat := fold_right (fun p acc => length p + acc) 0 parts.
End Wal.

(* ---- last-write-wins store ---- *)
Definition key := (N * N * N)%type.          (* series, time, field *)
Definition cellw := (key * Z)%type.
Definition batch := list cellw.              (* one acknowledged write request = one WAL record *)
Definition store := key -> option Z.
Definition empty_store : store := fun _ => None.
Definition key_eqb (a b : key) : bool :=
  match a, b with (s1, t1, f1), (s2, t2, f2) => N.eqb s1 s2 && N.eqb t1 t2 && N.eqb f1 f2 end.
Definition put (st : store) (c : cellw) : store := fun k => if key_eqb k (fst c) then Some (snd c) else st k.
Definition apply_batch (st : store) (b : batch) : store := fold_left put b st.
Definition lww_from (st : store) (bs : list batch) : store := fold_left apply_batch bs st.
Definition lww (bs : list batch) : store := lww_from empty_store bs.
Definition over (a b : store) : store := fun k => match b k with Some v => Some v | None => a k end.

(* ---- history machine: every reachable state is a crash image ---- *)
(* closed: the WAL epochs already switched, oldest first; opn: the records of the current epoch;
   nf: how many closed epochs are committed to data files; nj: how many closed epochs had their log removed *)
Record wstate := mkw { closed : list (list batch); opn : list batch; nf : nat; nj : nat }.
(* measurements: the series id carries its measurement (series s belongs to measurement s / 1000; props/C01/run.py
   encodes series s of measurement m as s + 1000 * m) *)
Definition mst_of (k : key) : N := N.div (fst (fst k)) 1000.
Definition keep_not (m : N) (b : batch) : batch := filter (fun c => negb (N.eqb (mst_of (fst c)) m)) b.
Definition has_mst (m : N) (b : batch) : bool := existsb (fun c => N.eqb (mst_of (fst c)) m) b.
(* shard.DropMeasurement m = ForceFlush (log switch, commit, log removal: the ordinary ops below) followed by the removal
   of m's data files; it returns - the drop is acknowledged - only after that. WDrop m therefore takes effect only when
   the log of every closed epoch is removed and no record of m sits in the current epoch; otherwise it is a drop that was
   not acknowledged (crash positions inside it are the states of its flush ops) and has no effect. *)
Inductive wop := WWrite (b : batch) | WSwitch | WCommit | WRemove | WDrop (m : N).

Definition wstep (st : wstate) (o : wop) : wstate :=
  match o with
  | WWrite b => mkw (closed st) (opn st ++ [b]) (nf st) (nj st)
  | WSwitch => mkw (closed st ++ [opn st]) [] (nf st) (nj st)
  | WCommit => if Nat.ltb (nf st) (length (closed st)) then mkw (closed st) (opn st) (S (nf st)) (nj st) else st
  | WRemove => if Nat.ltb (nj st) (nf st) then mkw (closed st) (opn st) (nf st) (S (nj st)) else st
  | WDrop m => if Nat.eqb (nj st) (length (closed st)) && negb (existsb (has_mst m) (opn st))
               then mkw (map (map (keep_not m)) (closed st)) (opn st) (nf st) (nj st) else st
  end.
Definition drop_ready (st : wstate) (m : N) : bool :=
  Nat.eqb (nj st) (length (closed st)) && negb (existsb (has_mst m) (opn st)).
Definition winit : wstate := mkw [] [] 0 0.
Definition wrun (ops : list wop) : wstate := fold_left wstep ops winit.

Definition acked (st : wstate) : list batch := concat (closed st) ++ opn st.
Definition flushed (st : wstate) : list batch := concat (firstn (nf st) (closed st)).
Definition live_epochs (st : wstate) : list (list batch) := skipn (nj st) (closed st) ++ [opn st].

(* repaired: the counter is re-phased at every switch, a flushed epoch's log dies as a whole, and replay goes epoch
   by epoch (oldest first), round-robin inside an epoch *)
Definition replay_repaired (n : nat) (st : wstate) : list batch :=
  concat (map (fun e => replay (length e) (distribute n 0 e (repeat [] n))) (live_epochs st)).
Definition recovered_repaired (n : nat) (st : wstate) : store :=
  over (lww (flushed st)) (lww (replay_repaired n st)).

(* current: one counter over all records ever written; the partitions' live files are concatenated oldest first and
   consumed round-robin across epochs. nj st whole epochs are gone; of the next epoch the partitions listed in
   gone_parts are already removed (RemoveWalFiles goes file by file). *)
Definition epoch_sizes (st : wstate) : list nat := map (@length batch) (closed st) ++ [length (opn st)].
Fixpoint tag_epochs (e : nat) (eps : list (list batch)) : list (nat * batch) :=
  match eps with
  | [] => []
  | ep :: r => map (fun b => (e, b)) ep ++ tag_epochs (S e) r
  end.
Definition placed_current (n : nat) (st : wstate) : list (list (nat * batch)) :=
  distribute n 0 (tag_epochs 0 (closed st ++ [opn st])) (repeat [] n).
Definition live_current (n : nat) (st : wstate) (gone_parts : list nat) : list (list (nat * batch)) :=
  map (fun ip => filter (fun eb => Nat.ltb (nj st) (fst eb) ||
                                   (Nat.eqb (nj st) (fst eb) && negb (existsb (Nat.eqb (fst ip)) gone_parts)))
                        (snd ip))
      (combine (seq 0 n) (placed_current n st)).
Definition replay_current (n : nat) (st : wstate) (gone_parts : list nat) : list batch :=
  let parts := live_current n st gone_parts in map snd (replay (total parts) parts).
Definition recovered_current (n : nat) (st : wstate) (gone_parts : list nat) : store :=
  over (lww (flushed st)) (lww (replay_current n st gone_parts)).

(* ---- record framing: [type:1][len:4 big endian][payload] ---- *)
Definition be32 (n : N) : list N :=
  [N.modulo (N.div n 16777216) 256; N.modulo (N.div n 65536) 256; N.modulo (N.div n 256) 256; N.modulo n 256].
Definition frame (typ : N) (payload : list N) : list N := typ :: be32 (N.of_nat (length payload)) ++ payload.
Inductive rd := Incomplete | Record (typ : N) (payload rest : list N).
Definition unbe32 (b : list N) : N :=
  match b with [a; b; c; d] => a * 16777216 + b * 65536 + c * 256 + d | _ => 0 end%N.
(* the repaired reader: a record is taken only if header and the whole payload are present *)
Definition read_frame (bs : list N) : rd :=
  match bs with
  | t :: b1 :: b2 :: b3 :: b4 :: rest =>
      let len := N.to_nat (unbe32 [b1; b2; b3; b4]) in
      if (N.ltb 0 t && N.ltb t 3)%bool && Nat.leb len (length rest)
      then Record t (firstn len rest) (skipn len rest) else Incomplete
  | _ => Incomplete
  end.

(* ---- order of the log files of one partition at restart (WAL.restoreLog) ---- *)
(* file names are "<decimal sequence number>.wal"; restoreLog orders them: shorter name = older, equal length: string order *)
Fixpoint digits_fuel (fuel n : nat) (acc : list nat) : list nat :=
  match fuel with
  | 0 => acc
  | S f => if Nat.ltb n 10 then n :: acc else digits_fuel f (Nat.div n 10) (Nat.modulo n 10 :: acc)
  end.
Definition digits (n : nat) : list nat := digits_fuel (S n) n [].
Fixpoint lex_ltb (a b : list nat) : bool :=
  match a, b with
  | [], [] => false
  | [], _ :: _ => true
  | _ :: _, [] => false
  | x :: a', y :: b' => Nat.ltb x y || (Nat.eqb x y && lex_ltb a' b')
  end.
Definition name_ltb (a b : nat) : bool :=
  let da := digits a in let db := digits b in
  Nat.ltb (length da) (length db) || (Nat.eqb (length da) (length db) && lex_ltb da db).
(* a plain string comparison of the names, for contrast *)
Definition name_ltb_lex (a b : nat) : bool := lex_ltb (digits a) (digits b).

Section FileOrder.
Context {B : Type}.
Definition wfile := (nat * list B)%type.        (* sequence number, records in append order *)
Fixpoint insert_file (cmp : nat -> nat -> bool) (x : wfile) (l : list wfile) : list wfile :=
  match l with
  | [] => [x]
  | y :: r => if cmp (fst x) (fst y) then x :: l else y :: insert_file cmp x r
  end.
Definition sort_files (cmp : nat -> nat -> bool) (l : list wfile) : list wfile := fold_right (insert_file cmp) [] l.
(* the records of a partition in the order replay reads them, from any directory listing *)
Definition restore_records (cmp : nat -> nat -> bool) (listing : list wfile) : list B :=
  concat (map snd (sort_files cmp listing)).
End FileOrder.

(* ---- series index durability across a memtable flush ---- *)
(* series created by writes sit in the in-memory index until an index flush; a memtable flush is
   log switch -> index flush -> data-file commit -> log removal (tsstoreImpl.writeSnapshot); the index also has its own
   background flusher. A flush order is a list of the four actions; writes and background flushes interleave freely. *)
Inductive faction := ASwitch | AIndex | ACommit | ARemove.
Record istate := mki {
  i_mem : list N; i_snap : list N; i_files : list N;      (* series of the rows in memtable / snapshot table / data files *)
  i_walcur : list N; i_walold : list N;                    (* series of the live log records: current epoch / switched epoch *)
  i_idxmem : list N; i_idxdur : list N;                    (* series known to the index: in memory / durable *)
  i_pc : nat                                               (* position inside the running flush, 0 = idle *)
}.
Inductive iop := IWrite (s : N) | IStep | IBgIndexFlush.
Definition do_action (a : faction) (st : istate) : istate :=
  match a with
  | ASwitch => mki [] (i_mem st) (i_files st) [] (i_walcur st ++ i_walold st) (i_idxmem st) (i_idxdur st) (i_pc st)
  | AIndex => mki (i_mem st) (i_snap st) (i_files st) (i_walcur st) (i_walold st) (i_idxmem st) (i_idxmem st) (i_pc st)
  | ACommit => mki (i_mem st) [] (i_snap st ++ i_files st) (i_walcur st) (i_walold st) (i_idxmem st) (i_idxdur st) (i_pc st)
  | ARemove => mki (i_mem st) (i_snap st) (i_files st) (i_walcur st) [] (i_idxmem st) (i_idxdur st) (i_pc st)
  end.
Definition istep (order : list faction) (st : istate) (o : iop) : istate :=
  match o with
  | IWrite s => mki (s :: i_mem st) (i_snap st) (i_files st) (s :: i_walcur st) (i_walold st) (s :: i_idxmem st) (i_idxdur st) (i_pc st)
  | IBgIndexFlush => mki (i_mem st) (i_snap st) (i_files st) (i_walcur st) (i_walold st) (i_idxmem st) (i_idxmem st) (i_pc st)
  | IStep =>
      match nth_error order (i_pc st) with
      | Some a => let st' := do_action a st in
                  mki (i_mem st') (i_snap st') (i_files st') (i_walcur st') (i_walold st') (i_idxmem st') (i_idxdur st')
                      (if Nat.eqb (S (i_pc st)) (length order) then 0 else S (i_pc st))
      | None => st
      end
  end.
Definition iinit : istate := mki [] [] [] [] [] [] [] 0.
Definition irun (order : list faction) (ops : list iop) : istate := fold_left (istep order) ops iinit.
Definition good_order : list faction := [ASwitch; AIndex; ACommit; ARemove].
Definition index_last_order : list faction := [ASwitch; ACommit; ARemove; AIndex].
Definition memN (s : N) (l : list N) : bool := existsb (N.eqb s) l.
(* every series that has rows in data files can be found after a crash: through the durable index, or it is re-created
   by replaying a live log record *)
Definition recoverable (st : istate) : bool :=
  forallb (fun s => memN s (i_idxdur st) || memN s (i_walold st) || memN s (i_walcur st)) (i_files st).

(* ---- memtable flush with its per-measurement skip, DROP MEASUREMENT as its steps, the volatile flags ---- *)
(* Code mirrored (engine/shard.go): shard.commitSnapshot skips every measurement that carries the "deleting" mark
   (droppedMst) while writeSnapshot removes the switched log files regardless; shard.DropMeasurement = set the mark, refuse
   while replayingWal, ForceFlush (log switch, commit with the skip, log removal), remove the measurement's data files,
   clear the mark; replayingWal is set by every (re)start and cleared when the log has been re-applied and flushed; the mark
   lives in memory only. Data files hold what the commits wrote (x_files), so rows skipped by a commit are really gone
   once their log is removed. Ghost fields: x_gone = the acknowledged batches whose log is removed, x_taint = the
   measurements for which a drop began and was neither acknowledged nor (in the order that checks the replay flag first)
   refused - they survive a crash, the mark does not.
   early = true is the order of today's DropMeasurement (mark first, replay check second); early = false checks first.
   clear = false is a refusal path that forgets to clear the mark. *)
Definition keep_out (ms : list N) (b : batch) : batch := filter (fun c => negb (existsb (N.eqb (mst_of (fst c))) ms)) b.
Record xstate := mkx {
  x_files : list batch; x_gone : list batch; x_logs : list (list batch); x_nc : nat; x_open : list batch;
  x_marks : list N; x_replaying : bool; x_taint : list N }.
Inductive xop := XWrite (b : batch) | XSwitch | XCommit | XRemove
               | XDropBegin (m : N) | XDropRefused (m : N) | XDropDone (m : N) | XCrash | XReplayDone.
Definition memNb (m : N) (l : list N) : bool := existsb (N.eqb m) l.
Definition xstep (early clear : bool) (st : xstate) (o : xop) : xstate :=
  match o with
  | XWrite b => mkx (x_files st) (x_gone st) (x_logs st) (x_nc st) (x_open st ++ [b]) (x_marks st) (x_replaying st) (x_taint st)
  | XSwitch => mkx (x_files st) (x_gone st) (x_logs st ++ [x_open st]) (x_nc st) [] (x_marks st) (x_replaying st) (x_taint st)
  | XCommit => if Nat.ltb (x_nc st) (length (x_logs st))
               then mkx (x_files st ++ map (keep_out (x_marks st)) (nth (x_nc st) (x_logs st) [])) (x_gone st) (x_logs st) (S (x_nc st))
                        (x_open st) (x_marks st) (x_replaying st) (x_taint st)
               else st
  | XRemove => match x_logs st with
               | e :: r => if Nat.ltb 0 (x_nc st)
                           then mkx (x_files st) (x_gone st ++ e) r (pred (x_nc st)) (x_open st) (x_marks st) (x_replaying st) (x_taint st)
                           else st
               | [] => st
               end
  | XDropBegin m => if x_replaying st && negb early then st
                    else mkx (x_files st) (x_gone st) (x_logs st) (x_nc st) (x_open st) (m :: x_marks st) (x_replaying st) (m :: x_taint st)
  | XDropRefused m => if x_replaying st && early && clear
                      then mkx (x_files st) (x_gone st) (x_logs st) (x_nc st) (x_open st) (remove N.eq_dec m (x_marks st)) (x_replaying st)
                               (remove N.eq_dec m (x_taint st))
                      else st
  | XDropDone m => if memNb m (x_marks st) && Nat.eqb (length (x_logs st)) 0 && negb (existsb (has_mst m) (x_open st))
                   then mkx (map (keep_not m) (x_files st)) (map (keep_not m) (x_gone st)) (x_logs st) (x_nc st) (x_open st)
                            (remove N.eq_dec m (x_marks st)) (x_replaying st) (remove N.eq_dec m (x_taint st))
                   else st
  | XCrash => mkx (x_files st) (x_gone st) (x_logs st) (x_nc st) (x_open st) [] true (x_taint st)
  | XReplayDone => mkx (x_files st) (x_gone st) (x_logs st) (x_nc st) (x_open st) (x_marks st) false (x_taint st)
  end.
Definition xinit : xstate := mkx [] [] [] 0 [] [] false [].
Definition xrun (early clear : bool) (ops : list xop) : xstate := fold_left (xstep early clear) ops xinit.
Definition x_acked (st : xstate) : list batch := x_gone st ++ concat (x_logs st) ++ x_open st.
(* what a restart finds: the data files, overlaid with the live log replayed epoch by epoch *)
Definition x_recovered (st : xstate) : store := over (lww (x_files st)) (lww (concat (x_logs st) ++ x_open st)).

(* ---- a log layout that repairs the replay order (finding C01-walphase; not what /repo does): epoch-numbered log files ---- *)
(* Every log switch starts a new epoch number shared by all partitions and re-phases the counter; partition 0's file of the
   epoch is created (under the exclusive lock) before the first record of the epoch is appended anywhere and is the FIRST
   file a removal deletes; at restart an epoch whose partition-0 file is missing is ignored (its removal had begun, so it is
   committed); live epochs are replayed one after the other, round-robin from partition 0 inside an epoch. *)
Definition efiles := list (option (list batch)).            (* the files of one epoch, per partition; None = no such file *)
Definition wrap_epoch (parts : list (list batch)) : efiles :=
  match parts with
  | [] => []
  | p0 :: r => Some p0 :: map (fun p => match p with [] => None | _ => Some p end) r
  end.
Definition epoch_files (n : nat) (e : list batch) : efiles := wrap_epoch (distribute n 0 e (repeat [] n)).
(* removal goes file by file, partition 0 first: after j steps the first j existing files are gone *)
Fixpoint remove_files (j : nat) (ef : efiles) {struct ef} : efiles :=
  match ef with
  | [] => []
  | None :: r => None :: remove_files j r
  | Some p :: r => match j with 0 => Some p :: r | S j' => None :: remove_files j' r end
  end.
Definition unwrap (ef : efiles) : list (list batch) := map (fun o => match o with Some p => p | None => [] end) ef.
Definition epoch_live (ef : efiles) : bool := match ef with Some _ :: _ => true | _ => false end.
Definition replay_epoch_files (ef : efiles) : list batch :=
  if epoch_live ef then replay (total (unwrap ef)) (unwrap ef) else [].
Definition replay_disk (d : list efiles) : list batch := concat (map replay_epoch_files d).
(* the disk of a history-machine state whose oldest live epoch has lost its first j files *)
Definition disk (n : nat) (st : wstate) (j : nat) : list efiles :=
  match live_epochs st with
  | e :: r => remove_files j (epoch_files n e) :: map (epoch_files n) r
  | [] => []
  end.
Definition recovered_disk (n : nat) (st : wstate) (j : nat) : store := over (lww (flushed st)) (lww (replay_disk (disk n st j))).

(* ---- concurrent write requests on the WAL (engine/wal.go WAL.Write / writeBinary) ---- *)
(* A request first passes an exclusive section on the WAL's lock (WAL.Write: l.mu.Lock, maxRowTime, l.mu.Unlock) - with
   barrier = true it can do so only while no request holds the lock shared; then, holding the lock shared (writeBinary:
   l.mu.RLock), it takes its slot (writeReq++) and appends its record to partition slot mod n under that partition's lock -
   requests that are inside together may append to one partition in ANY order; then it releases the lock and is
   acknowledged. A request is named by its slot. Ghost: cw_quiet = for every entry into the exclusive section the counter
   value at that moment and the requests acknowledged by then. A request that enters then or later gets a slot >= that
   counter value (slots are handed out in increasing order). *)
Record cwstate := mkcw0 {
  cw_ctr : nat; cw_parts : list (list nat);
  cw_waiting : nat;                 (* requests that passed the exclusive section and have no slot yet *)
  cw_inside : list nat;             (* slot taken, record not appended: these hold the lock shared *)
  cw_appended : list nat; cw_acked : list nat;
  cw_quiet : list (nat * list nat) }.
Inductive cwop := CEnter | CSlot | CAppend (s : nat) | CAck (s : nat).
Definition memb (x : nat) (l : list nat) : bool := existsb (Nat.eqb x) l.
Definition cwstep (barrier : bool) (n : nat) (st : cwstate) (o : cwop) : cwstate :=
  match o with
  | CEnter =>
      if barrier && negb (match cw_inside st with [] => true | _ => false end) then st
      else mkcw0 (cw_ctr st) (cw_parts st) (S (cw_waiting st)) (cw_inside st) (cw_appended st) (cw_acked st)
                 ((cw_ctr st, cw_acked st) :: cw_quiet st)
  | CSlot =>
      match cw_waiting st with
      | S k => mkcw0 (S (cw_ctr st)) (cw_parts st) k (cw_ctr st :: cw_inside st) (cw_appended st) (cw_acked st) (cw_quiet st)
      | 0 => st
      end
  | CAppend s =>
      if memb s (cw_inside st)
      then mkcw0 (cw_ctr st) (app_at (s mod n) s (cw_parts st)) (cw_waiting st) (remove Nat.eq_dec s (cw_inside st))
                 (s :: cw_appended st) (cw_acked st) (cw_quiet st)
      else st
  | CAck s => if memb s (cw_appended st)
              then mkcw0 (cw_ctr st) (cw_parts st) (cw_waiting st) (cw_inside st) (cw_appended st) (s :: cw_acked st) (cw_quiet st)
              else st
  end.
Definition cwinit (n : nat) : cwstate := mkcw0 0 (repeat [] n) 0 [] [] [] [].
Definition cwrun (barrier : bool) (n : nat) (ops : list cwop) : cwstate := fold_left (cwstep barrier n) ops (cwinit n).
Definition cw_replay (st : cwstate) : list nat := replay (total (cw_parts st)) (cw_parts st).

(* ---- asynchronous replay (wal-replay-async): replay steps interleaved with new write requests ---- *)
(* After a restart the shard accepts writes at once while a goroutine re-applies the log record by record (shard.replayWal /
   syncReplayWal). one_table = true is today's code: replayed records and new writes go to the same memtable in arrival
   order. one_table = false is the ordering rule that makes it correct: replayed records go to a table of their own that is
   read BELOW the table of the new writes (and flushed before it). Ghost: a_new = the writes acknowledged since the restart. *)
Record astate := mka { a_files : list batch; a_log : list batch; a_done : list batch; a_tbl : list batch;
                       a_rep : list batch; a_act : list batch; a_new : list batch }.
Inductive aop := AReplayOne | AWrite (b : batch).
Definition astep (st : astate) (o : aop) : astate :=
  match o with
  | AReplayOne => match a_log st with
                  | r :: rest => mka (a_files st) rest (a_done st ++ [r]) (a_tbl st ++ [r]) (a_rep st ++ [r]) (a_act st) (a_new st)
                  | [] => st
                  end
  | AWrite b => mka (a_files st) (a_log st) (a_done st) (a_tbl st ++ [b]) (a_rep st) (a_act st ++ [b]) (a_new st ++ [b])
  end.
Definition ainit (files log : list batch) : astate := mka files log [] [] [] [] [].
Definition arun (files log : list batch) (ops : list aop) : astate := fold_left astep ops (ainit files log).
Definition a_read (one_table : bool) (st : astate) : store :=
  if one_table then over (lww (a_files st)) (lww (a_tbl st))
  else over (over (lww (a_files st)) (lww (a_rep st))) (lww (a_act st)).
