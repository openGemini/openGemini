(* C01 proofs: round-robin replay of a phase-0 distribution returns the append order; last-write-wins algebra; the
   repaired recovery is exact in every state of the history machine that satisfies its invariant. *)
From Coq Require Import NArith ZArith List Bool Arith Lia.
From OG Require Import C01.Model.
Import ListNotations.

(* every machine of the model is run by fold_left over its step function *)
Lemma fold_left_inv {S O} (step : S -> O -> S) (P : S -> Prop) :
  (forall s o, P s -> P (step s o)) -> forall ops s, P s -> P (fold_left step ops s).
Proof. intros H ops. induction ops as [|o ops IH]; intros s Hs; [exact Hs | apply IH, H, Hs]. Qed.

Lemma fold_left_inv_on {S O} (step : S -> O -> S) (P : S -> Prop) (Q : O -> Prop) :
  (forall s o, Q o -> P s -> P (step s o)) -> forall ops s, Forall Q ops -> P s -> P (fold_left step ops s).
Proof. intros H ops s Hq. revert s. induction Hq as [|o ops Ho _ IH]; intros s Hs; [exact Hs | apply IH, H; assumption]. Qed.

Lemma existsb_eqb_In {T} (eqb : T -> T -> bool) (x : T) l :
  (forall y, eqb x y = true <-> x = y) -> existsb (eqb x) l = true <-> In x l.
Proof.
  intro E. rewrite existsb_exists. split.
  - intros (y & Hy & Exy). apply E in Exy. subst. exact Hy.
  - intro H. exists x. split; [exact H | apply E; reflexivity].
Qed.

Lemma memN_In s l : memN s l = true <-> In s l.
Proof. apply existsb_eqb_In. intro y. apply N.eqb_eq. Qed.

Section WalProofs.
Context {A : Type}.
Implicit Types (parts : list (list A)) (xs : list A).

Lemma app_at_split A1 p A2 (x : A) : app_at (length A1) x (A1 ++ p :: A2) = A1 ++ (p ++ [x]) :: A2.
Proof. induction A1 as [|a A1 IH]; cbn; [reflexivity | rewrite IH; reflexivity]. Qed.

Lemma app_at_length i (x : A) parts : length (app_at i x parts) = length parts.
Proof. revert i. induction parts as [|p r IH]; intros [|i]; cbn; try reflexivity. rewrite IH. reflexivity. Qed.

Lemma distribute_snoc n xs : forall ph parts (x : A),
  distribute n ph (xs ++ [x]) parts = app_at ((ph + length xs) mod n) x (distribute n ph xs parts).
Proof.
  induction xs as [|y xs IH]; intros ph parts x; cbn [distribute app length].
  - rewrite Nat.add_0_r. reflexivity.
  - rewrite IH. replace (S ph + length xs) with (ph + S (length xs)) by lia. reflexivity.
Qed.

Lemma heads_app (l1 l2 : list (list A)) : heads (l1 ++ l2) = heads l1 ++ heads l2.
Proof. apply flat_map_app. Qed.

Lemma tails_app (l1 l2 : list (list A)) : tails (l1 ++ l2) = tails l1 ++ tails l2.
Proof. apply map_app. Qed.

Lemma heads_cons (p : list A) l : heads (p :: l) = match p with [] => [] | x :: _ => [x] end ++ heads l.
Proof. reflexivity. Qed.

Lemma tails_cons (p : list A) l : tails (p :: l) = tl p :: tails l.
Proof. reflexivity. Qed.

Lemma heads_empty (l : list (list A)) : Forall (fun p => length p = 0) l -> heads l = [].
Proof.
  induction 1 as [|p l Hp _ IH]; [reflexivity|]. destruct p; [|discriminate]. exact IH.
Qed.

Lemma tails_len q (l : list (list A)) : Forall (fun p => length p = q) l -> Forall (fun p => length p = pred q) (tails l).
Proof.
  induction 1 as [|p l Hp _ IH]; cbn; constructor; auto. rewrite <- Hp. destruct p; reflexivity.
Qed.

Lemma replay_empty f (l : list (list A)) : Forall (fun p => length p = 0) l -> replay f l = [].
Proof.
  revert l. induction f as [|f IH]; intros l H; [reflexivity|]. cbn. rewrite (heads_empty l H).
  apply IH, (tails_len 0), H.
Qed.

(* appending to the partition that is next in round-robin order appends to the replay *)
Lemma replay_snoc q : forall (A1 : list (list A)) p A2 (x : A) F,
  Forall (fun p => length p = S q) A1 -> length p = q -> Forall (fun p => length p = q) A2 -> S q <= F ->
  replay F (A1 ++ (p ++ [x]) :: A2) = replay F (A1 ++ p :: A2) ++ [x].
Proof.
  induction q as [|q IH]; intros A1 p A2 x F H1 Hp H2 HF; destruct F as [|f]; try lia.
  - destruct p; [|discriminate]. cbn [replay app].
    rewrite !heads_app, !tails_app, !heads_cons, !tails_cons. cbn [tl app].
    rewrite (heads_empty A2 H2), !app_nil_r.
    assert (E1 : Forall (fun p => length p = 0) (tails A1 ++ [] :: tails A2)).
    { apply Forall_app. split; [apply (tails_len 1); exact H1 | constructor; [reflexivity | apply (tails_len 0); exact H2]]. }
    rewrite (replay_empty f _ E1), !app_nil_r. reflexivity.
  - destruct p as [|y p]; [discriminate|]. cbn [replay].
    rewrite !heads_app, !tails_app. rewrite <- !app_comm_cons. rewrite !heads_cons, !tails_cons. cbn [tl].
    rewrite (IH (tails A1) p (tails A2) x f).
    + rewrite !app_assoc. reflexivity.
    + apply (tails_len (S (S q))). exact H1.
    + cbn in Hp. lia.
    + apply (tails_len (S q)). exact H2.
    + lia.
Qed.

(* the shape of a phase-0 distribution after c records: the first r partitions hold q+1 records, the others q *)
Definition shape (n c : nat) (xs : list A) (parts : list (list A)) : Prop :=
  exists q A1 p A2,
    parts = A1 ++ p :: A2 /\ length parts = n /\ c = q * n + length A1 /\
    Forall (fun p => length p = S q) A1 /\ length p = q /\ Forall (fun p => length p = q) A2 /\
    (forall F, (S q <= F \/ (length A1 = 0 /\ q <= F)) -> replay F parts = xs).

Lemma repeat_nil_empty n : Forall (fun p : list A => length p = 0) (repeat [] n).
Proof. apply Forall_forall. intros p Hp. apply repeat_spec in Hp. subst. reflexivity. Qed.

Lemma shape_init n : 0 < n -> shape n 0 [] (repeat [] n).
Proof.
  intro Hn. destruct n as [|n]; [lia|]. exists 0, [], [], (repeat [] n). cbn [repeat app length].
  repeat split; auto.
  - rewrite repeat_length. reflexivity.
  - apply repeat_nil_empty.
  - intros F _. apply replay_empty. constructor; [reflexivity | apply repeat_nil_empty].
Qed.

Lemma shape_step n c xs parts (x : A) :
  0 < n -> shape n c xs parts -> shape n (S c) (xs ++ [x]) (app_at (c mod n) x parts).
Proof.
  intros Hn [q [A1 [p [A2 [E [Hl [Hc [H1 [Hp [H2 Hr]]]]]]]]]].
  assert (Hlen : length A1 + S (length A2) = n) by (rewrite <- Hl, E, app_length; reflexivity).
  assert (Hmod : c mod n = length A1).
  { rewrite Hc. rewrite Nat.add_comm. rewrite Nat.mod_add by lia. apply Nat.mod_small. lia. }
  (* the replay after the append, whatever the new shape is *)
  assert (R : forall F, S q <= F -> replay F (A1 ++ (p ++ [x]) :: A2) = xs ++ [x]).
  { intros F HF. rewrite (replay_snoc q A1 p A2 x F H1 Hp H2 HF). f_equal. rewrite <- E. apply Hr. left. exact HF. }
  assert (Hpx : length (p ++ [x]) = S q) by (rewrite app_length; cbn; lia).
  rewrite Hmod, E, app_at_split.
  destruct A2 as [|a A2].
  - (* wrap: every partition now holds q+1 records *)
    destruct A1 as [|b A1]; [|apply Forall_cons_iff in H1; destruct H1 as [Hb H1]].
    + exists (S q), [], (p ++ [x]), []. cbn [app length] in *. repeat split; auto; try lia.
      intros F HF. apply R. lia.
    + exists (S q), [], b, (A1 ++ [p ++ [x]]). cbn [app length] in *. repeat split; auto.
      * rewrite !app_length. cbn. lia.
      * lia.
      * apply Forall_app. split; [assumption | constructor; [exact Hpx | constructor]].
      * intros F HF. apply R. lia.
  - apply Forall_cons_iff in H2. destruct H2 as [Ha H2]. cbn [length] in Hlen. exists q, (A1 ++ [p ++ [x]]), a, A2. repeat split; auto.
    + rewrite <- app_assoc. reflexivity.
    + rewrite !app_length. cbn. lia.
    + rewrite app_length. cbn. lia.
    + apply Forall_app. split; [assumption | constructor; [exact Hpx | constructor]].
    + intros F HF. rewrite app_length in HF. cbn in HF. apply R. lia.
Qed.

Lemma shape_distribute n : 0 < n -> forall xs, shape n (length xs) xs (distribute n 0 xs (repeat [] n)).
Proof.
  intros Hn xs. induction xs as [|x xs IH] using rev_ind.
  - apply shape_init. exact Hn.
  - rewrite distribute_snoc, app_length, Nat.add_1_r. apply shape_step; assumption.
Qed.

Theorem replay_phase0 n xs : 0 < n -> replay (length xs) (distribute n 0 xs (repeat [] n)) = xs.
Proof.
  intro Hn. destruct (shape_distribute n Hn xs) as [q [A1 [p [A2 [E [Hl [Hc [H1 [Hp [H2 Hr]]]]]]]]]].
  apply Hr. destruct (length A1) as [|r] eqn:Er.
  - right. split; [reflexivity|]. rewrite Hc. nia.
  - left. rewrite Hc. nia.
Qed.
End WalProofs.

Definition store_eq (a b : store) : Prop := forall k, a k = b k.

Lemma put_apply st c k : put st c k = if key_eqb k (fst c) then Some (snd c) else st k.
Proof. reflexivity. Qed.

Lemma over_apply a b k : over a b k = match b k with Some v => Some v | None => a k end.
Proof. reflexivity. Qed.

Lemma apply_batch_over st b : store_eq (apply_batch st b) (over st (apply_batch empty_store b)).
Proof.
  unfold apply_batch. revert st. induction b as [|c b IH] using rev_ind; intros st k.
  - reflexivity.
  - rewrite !fold_left_app. cbn [fold_left]. rewrite over_apply, !put_apply.
    destruct (key_eqb k (fst c)); [reflexivity|]. rewrite (IH st k). apply over_apply.
Qed.

Lemma lww_from_over bs : forall st, store_eq (lww_from st bs) (over st (lww bs)).
Proof.
  unfold lww, lww_from. induction bs as [|b bs IH] using rev_ind; intros st k.
  - reflexivity.
  - rewrite !fold_left_app. cbn [fold_left].
    rewrite (apply_batch_over (fold_left apply_batch bs st) b k).
    rewrite (over_apply st), (apply_batch_over (fold_left apply_batch bs empty_store) b k).
    rewrite !over_apply. destruct (apply_batch empty_store b k); [reflexivity|].
    rewrite (IH st k). apply over_apply.
Qed.

Lemma lww_app a b : store_eq (lww (a ++ b)) (over (lww a) (lww b)).
Proof. intro k. unfold lww at 1, lww_from. rewrite fold_left_app. apply (lww_from_over b (lww a) k). Qed.

(* re-applying, in order, a part that was already applied last changes nothing *)
Lemma over_overlap a b c : store_eq (over (lww (a ++ b)) (lww (b ++ c))) (lww (a ++ b ++ c)).
Proof.
  intro k. rewrite (lww_app a (b ++ c) k). rewrite !over_apply.
  rewrite (lww_app b c k), (lww_app a b k). rewrite !over_apply.
  destruct (lww c k); [reflexivity|]. destruct (lww b k); reflexivity.
Qed.

Lemma key_eqb_eq a b : key_eqb a b = true -> a = b.
Proof.
  destruct a as [[a1 a2] a3], b as [[b1 b2] b3]. cbn. intro H. apply andb_prop in H. destruct H as [H H3]. apply andb_prop in H. destruct H as [H1 H2].
  apply N.eqb_eq in H1, H2, H3. subst. reflexivity.
Qed.

Lemma apply_batch_filter (f : cellw -> bool) st b k :
  (forall c, f c = false -> key_eqb k (fst c) = false) -> apply_batch st (filter f b) k = apply_batch st b k.
Proof.
  intro H. unfold apply_batch. induction b as [|c b IH] using rev_ind; [reflexivity|].
  rewrite filter_app, !fold_left_app. cbn [filter]. destruct (f c) eqn:E; cbn [fold_left]; rewrite !put_apply.
  - rewrite IH. reflexivity.
  - rewrite (H c E). exact IH.
Qed.

Lemma lww_filter (f : cellw -> bool) bs k :
  (forall c, f c = false -> key_eqb k (fst c) = false) -> lww (map (filter f) bs) k = lww bs k.
Proof.
  intro H. unfold lww, lww_from. induction bs as [|b bs IH] using rev_ind; [reflexivity|].
  rewrite map_app, !fold_left_app. cbn [map fold_left].
  rewrite (apply_batch_over _ (filter f b) k), (apply_batch_over _ b k), !over_apply.
  rewrite (apply_batch_filter f empty_store b k H). destruct (apply_batch empty_store b k); [reflexivity | exact IH].
Qed.

Lemma lww_keep_out T bs k : ~ In (mst_of k) T -> lww (map (keep_out T) bs) k = lww bs k.
Proof.
  intro Hk. apply lww_filter. intros c Hc. destruct (key_eqb k (fst c)) eqn:E; [|reflexivity].
  apply key_eqb_eq in E. subst k. apply negb_false_iff, memN_In in Hc. contradiction.
Qed.

Lemma keep_not_out m b : keep_not m b = keep_out [m] b.
Proof.
  unfold keep_not, keep_out. apply filter_ext. intro c. cbn. rewrite orb_false_r. reflexivity.
Qed.

Lemma lww_keep_not m bs k : mst_of k <> m -> lww (map (keep_not m) bs) k = lww bs k.
Proof.
  intro Hk. rewrite (map_ext _ _ (keep_not_out m)). apply lww_keep_out. intros [E|[]]. auto.
Qed.

Definition winv (st : wstate) : Prop := nj st <= nf st /\ nf st <= length (closed st).

Lemma wstep_inv st o : winv st -> winv (wstep st o).
Proof.
  intros [H1 H2]. destruct o; unfold wstep, winv.
  - cbn. auto.
  - cbn. rewrite app_length. cbn. lia.
  - destruct (Nat.ltb (nf st) (length (closed st))) eqn:E; cbn; [apply Nat.ltb_lt in E; lia | lia].
  - destruct (Nat.ltb (nj st) (nf st)) eqn:E; cbn; [apply Nat.ltb_lt in E; lia | lia].
  - destruct (Nat.eqb (nj st) (length (closed st)) && negb (existsb (has_mst m) (opn st))); cbn; [rewrite map_length|]; lia.
Qed.

Lemma wrun_inv ops : winv (wrun ops).
Proof. apply (fold_left_inv wstep winv wstep_inv). unfold winv. cbn. lia. Qed.

Lemma wrun_app ops1 ops2 : wrun (ops1 ++ ops2) = fold_left wstep ops2 (wrun ops1).
Proof. apply fold_left_app. Qed.

Lemma replay_repaired_is_live n st : 0 < n -> replay_repaired n st = concat (live_epochs st).
Proof.
  intro Hn. unfold replay_repaired. f_equal. rewrite <- (map_id (live_epochs st)) at 2.
  apply map_ext. intro e. apply replay_phase0. exact Hn.
Qed.

Lemma mid_split {B} j : forall f (l : list B), j <= f ->
  exists m, firstn f l = firstn j l ++ m /\ skipn j l = m ++ skipn f l.
Proof.
  induction j as [|j IH]; intros f l H.
  - exists (firstn f l). split; [reflexivity | symmetry; apply firstn_skipn].
  - destruct f as [|f]; [lia|]. destruct l as [|x l]; [exists []; split; reflexivity|].
    destruct (IH f l) as (m & E1 & E2); [lia|]. exists m. cbn. rewrite E1, E2. split; reflexivity.
Qed.

(* committed epochs whose log is still there (nj..nf) are both in the data files and in the replay: over_overlap *)
Theorem recovery_exact_inv n st : 0 < n -> winv st -> store_eq (recovered_repaired n st) (lww (acked st)).
Proof.
  intros Hn [H1 _] k. unfold recovered_repaired. rewrite (replay_repaired_is_live n st Hn).
  unfold flushed, live_epochs, acked. destruct (mid_split (nj st) (nf st) (closed st) H1) as (m & E1 & E2).
  rewrite <- (firstn_skipn (nf st) (closed st)) at 3. rewrite E1, E2, !concat_app. cbn [concat].
  rewrite app_nil_r, <- !app_assoc. apply over_overlap.
Qed.

Lemma keep_not_id m b : has_mst m b = false -> keep_not m b = b.
Proof.
  unfold has_mst, keep_not. induction b as [|c b IH]; [reflexivity|]. cbn. intro H. apply orb_false_iff in H. destruct H as [H1 H2].
  rewrite H1. cbn. f_equal. apply IH. exact H2.
Qed.

Lemma keep_not_all m bs : existsb (has_mst m) bs = false -> map (keep_not m) bs = bs.
Proof.
  induction bs as [|b bs IH]; [reflexivity|]. cbn. intro H. apply orb_false_iff in H. destruct H as [H1 H2].
  rewrite (keep_not_id m b H1), (IH H2). reflexivity.
Qed.

Lemma acked_wstep st o : acked (wstep st o) =
  match o with
  | WWrite b => acked st ++ [b]
  | WDrop m => if drop_ready st m then map (keep_not m) (acked st) else acked st
  | _ => acked st
  end.
Proof.
  destruct o; unfold wstep, acked; cbn [closed opn].
  - apply app_assoc.
  - rewrite concat_app. cbn [concat]. rewrite !app_nil_r. reflexivity.
  - destruct (Nat.ltb (nf st) (length (closed st))); reflexivity.
  - destruct (Nat.ltb (nj st) (nf st)); reflexivity.
  - fold (drop_ready st m). destruct (drop_ready st m) eqn:E; [|reflexivity]. cbn [closed opn].
    apply andb_prop in E. destruct E as [_ E]. apply negb_true_iff in E.
    rewrite map_app, concat_map, (keep_not_all m (opn st) E). reflexivity.
Qed.

(* a concrete framed record for the finite check in Props.v; the general statement is C01_torn_record_rejected there *)
Definition ex_frame : list N := frame 1 [10; 20; 30; 40; 50; 60; 70]%N.

Definition clean (m : N) (bs : list batch) : Prop := Forall (fun b => has_mst m b = false) bs.

Lemma keep_not_clean m b : has_mst m (keep_not m b) = false.
Proof.
  unfold has_mst, keep_not. induction b as [|c b IH]; [reflexivity|]. cbn.
  destruct (N.eqb (mst_of (fst c)) m) eqn:E; cbn; [exact IH | rewrite E; exact IH].
Qed.

Lemma keep_not_sub m m' b : has_mst m b = false -> has_mst m (keep_not m' b) = false.
Proof.
  unfold has_mst, keep_not. induction b as [|c b IH]; [reflexivity|]. cbn. intro H. apply orb_false_iff in H. destruct H as [H1 H2].
  destruct (negb (N.eqb (mst_of (fst c)) m')); cbn; [rewrite H1; cbn|]; apply IH; exact H2.
Qed.

Lemma apply_batch_untouched st b k : (forall c, In c b -> key_eqb k (fst c) = false) -> apply_batch st b k = st k.
Proof.
  unfold apply_batch. revert st. induction b as [|c b IH]; intros st H; [reflexivity|]. cbn [fold_left].
  rewrite IH by (intros c' Hc; apply H; right; exact Hc). rewrite put_apply. rewrite (H c (or_introl eq_refl)). reflexivity.
Qed.

Lemma clean_untouched m b k : has_mst m b = false -> mst_of k = m -> forall c, In c b -> key_eqb k (fst c) = false.
Proof.
  intros H Hk c Hc. destruct (key_eqb k (fst c)) eqn:E; [|reflexivity]. apply key_eqb_eq in E. exfalso.
  unfold has_mst in H. assert (Hx : existsb (fun c0 => N.eqb (mst_of (fst c0)) m) b = true).
  { apply existsb_exists. exists c. split; [exact Hc|]. rewrite <- E, Hk. apply N.eqb_refl. }
  congruence.
Qed.

Lemma lww_clean m bs k : clean m bs -> mst_of k = m -> lww bs k = None.
Proof.
  intros Hc Hk. unfold lww, lww_from. assert (G : forall st, st k = None -> fold_left apply_batch bs st k = None).
  { induction Hc as [|b bs Hb _ IH]; intros st Hst; [exact Hst|]. cbn [fold_left]. apply IH.
    rewrite (apply_batch_untouched st b k); [exact Hst|]. apply (clean_untouched m); assumption. }
  apply G. reflexivity.
Qed.

(* once nothing of m is in the acknowledged history, only a write of m brings it back *)
Lemma clean_wstep m st o : match o with WWrite b => has_mst m b = false | _ => True end ->
  clean m (acked st) -> clean m (acked (wstep st o)).
Proof.
  intros Ho H. rewrite acked_wstep. destruct o; try exact H.
  - apply Forall_app. split; [exact H | constructor; [exact Ho | constructor]].
  - destruct (drop_ready st m0); [|exact H]. apply Forall_map. eapply Forall_impl; [|exact H]. intro b. apply keep_not_sub.
Qed.

Lemma clean_dropped m bs : clean m (map (keep_not m) bs).
Proof. apply Forall_map, Forall_forall. intros b _. apply keep_not_clean. Qed.
