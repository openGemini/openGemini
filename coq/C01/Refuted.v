(* C01: witnesses against today's recovery (findings C01-walphase and C01-asyncreplay, both open in /repo) and against two
   half-repairs. First: one never-reset write counter, round-robin replay across epochs starting at partition 0.
   Witness of DESIGN.md: 16 partitions; 15 single-point writes; flush (switch, commit, log removal);
   write (s,t)=111; write (s,t)=222; crash. Record 111 is in partition 15, record 222 in partition 0, replay applies
   222 then 111: the older value is recovered. *)
From Coq Require Import NArith ZArith List Bool Arith.
From OG Require Import C01.Proofs3 C01.Model.
Import ListNotations.

Definition w_ops : list wop :=
  map (fun i => WWrite [((1, N.of_nat i, 1)%N, Z.of_nat (1000 + i))]) (seq 0 15) ++
  [WSwitch; WCommit; WRemove; WWrite [((1, 3, 1)%N, 111%Z)]; WWrite [((1, 3, 1)%N, 222%Z)]].

Theorem C01_current_reverts_overwrite :
  exists (n : nat) (ops : list wop) (k : key), 0 < n /\ recovered_current n (wrun ops) [] k <> lww (acked (wrun ops)) k.
Proof.
  exists 16, w_ops, (1, 3, 1)%N. split; [apply Nat.lt_0_succ|]. vm_compute. discriminate.
Qed.
Print Assumptions C01_current_reverts_overwrite.

(* second witness: resetting the counter at the switch is not enough while replay still interleaves epochs - here the
   crash happens between the data-file commit and the log removal (two epochs live), 2 partitions: epoch 1 = one write
   (partition 0), epoch 2 = two writes to the same cell; even with the counter re-phased to 0 at the switch, partition 0
   holds [w1; a] and partition 1 holds [b], and the cyclic reader yields w1, b, a. rephased_parts is written out by
   hand (partition by partition it is distribute 2 0 of epoch 1 followed by distribute 2 0 of epoch 2); the statement
   speaks of this literal only. *)
Definition rephased_parts : list (list batch) :=
  [[ [((1, 9, 1)%N, 1%Z)]; [((1, 3, 1)%N, 111%Z)] ]; [ [((1, 3, 1)%N, 222%Z)] ]].
Theorem C01_counter_reset_alone_is_not_enough :
  lww (replay 3 rephased_parts) (1, 3, 1)%N = Some 111%Z.
Proof. vm_compute. reflexivity. Qed.
Print Assumptions C01_counter_reset_alone_is_not_enough.

(* third witness: log files of a flushed epoch are removed one by one; a crash after the file holding the newer
   record was removed and before the file holding the older one is removed re-applies the older value over the data
   files (2 partitions: writes a then b to one cell, flush, partition 1 (b) already removed) *)
Theorem C01_current_partial_removal_reverts :
  let ops := [WWrite [((1, 3, 1)%N, 111%Z)]; WWrite [((1, 3, 1)%N, 222%Z)]; WSwitch; WCommit] in
  recovered_current 2 (wrun ops) [1] (1, 3, 1)%N = Some 111%Z /\ lww (acked (wrun ops)) (1, 3, 1)%N = Some 222%Z.
Proof. vm_compute. split; reflexivity. Qed.
Print Assumptions C01_current_partial_removal_reverts.

(* finding C01-asyncreplay: with one table for replayed records and new writes, a write acknowledged during the asynchronous
   replay (value 2) is overwritten by the older logged value (1) when the replay reaches that record *)
Theorem C01_async_replay_reverts_new_write :
  let st := arun [] [[(ka, 1%Z)]] [AWrite [(ka, 2%Z)]; AReplayOne] in
  a_log st = [] /\ a_read true st ka = Some 1%Z /\ a_read false st ka = Some 2%Z /\ lww ([] ++ a_done st ++ a_new st) ka = Some 2%Z.
Proof. vm_compute. repeat split; reflexivity. Qed.
Print Assumptions C01_async_replay_reverts_new_write.
