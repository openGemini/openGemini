From Coq Require Import NArith ZArith List Bool Arith Lia.
From Coq Require Import Permutation Sorted.
From OG Require Import C01.Model C01.Proofs C01.Proofs2 C01.Proofs3 C01.Proofs4 C01.Proofs5 C01.ProofsC C01.ModelF C01.ProofsF.
Import ListNotations.

(* records appended to partition (counter mod n) starting from counter 0, replayed one record per unfinished
   partition in partition order round after round, come back in append order - for every n > 0 and every list *)
Theorem replay_order_phase0 : forall (A : Type) (n : nat) (xs : list A), 0 < n ->
  replay (length xs) (distribute n 0 xs (repeat [] n)) = xs.
Proof. intros A n xs H. exact (replay_phase0 n xs H). Qed.
Print Assumptions replay_order_phase0.

(* Main theorem for the repaired variant (counter re-phased at every log switch, replay epoch by epoch, a flushed
   epoch's log removed as a whole): in EVERY reachable state of the history machine - any interleaving of acknowledged
   writes, log switches, data-file commits and log removals, which includes every crash position between the steps of
   a flush and every crash position inside recovery itself (recovery = switch, commit, removals of the same machine) -
   the store recovered from (committed data files, live log) equals the last-write-wins store of all acknowledged
   writes: nothing lost, nothing reverted, nothing invented. A torn last record is a write that is not in the history
   (it was never acknowledged); a complete unacknowledged record is a write that is. *)
Theorem C01_recovery_exact : forall (n : nat) (ops : list wop) (k : key), 0 < n ->
  recovered_repaired n (wrun ops) k = lww (acked (wrun ops)) k.
Proof. intros n ops k H. exact (recovery_exact_inv n (wrun ops) H (wrun_inv ops) k). Qed.
Print Assumptions C01_recovery_exact.

(* DROP MEASUREMENT in the history machine (WDrop m: acknowledged only after its own flush removed every closed epoch's log).
   C01_recovery_exact above already quantifies over op lists containing drops anywhere, also between any two flush steps;
   the three theorems below say what the acknowledged history is after a drop: exactly the cells of m are gone, every other
   measurement is untouched, and nothing of m comes back in ANY later state (any later writes to other measurements,
   flush steps, further drops, crash positions), i.e. recovery never brings back a dropped measurement. *)
Theorem C01_drop_spec : forall st m, drop_ready st m = true -> acked (wstep st (WDrop m)) = map (keep_not m) (acked st).
Proof. intros st m H. rewrite acked_wstep, H. reflexivity. Qed.
Print Assumptions C01_drop_spec.

Theorem C01_drop_keeps_other_measurements : forall st m k, drop_ready st m = true -> mst_of k <> m ->
  lww (acked (wstep st (WDrop m))) k = lww (acked st) k.
Proof. intros st m k Hr Hk. rewrite (C01_drop_spec st m Hr). apply lww_keep_not. exact Hk. Qed.
Print Assumptions C01_drop_keeps_other_measurements.

Theorem C01_dropped_measurement_never_comes_back : forall n ops1 m ops2 k, 0 < n ->
  drop_ready (wrun ops1) m = true ->
  Forall (fun o => match o with WWrite b => has_mst m b = false | _ => True end) ops2 ->
  mst_of k = m ->
  recovered_repaired n (wrun (ops1 ++ WDrop m :: ops2)) k = None.
Proof.
  intros n ops1 m ops2 k Hn Hr Hw Hk. rewrite (C01_recovery_exact n _ k Hn). apply (lww_clean m); [|exact Hk].
  rewrite wrun_app. cbn [fold_left].
  apply (fold_left_inv_on wstep (fun st => clean m (acked st)) _ (clean_wstep m)); [exact Hw|].
  rewrite acked_wstep, Hr. apply clean_dropped.
Qed.
Print Assumptions C01_dropped_measurement_never_comes_back.

(* The memtable flush with its per-measurement skip (commitSnapshot leaves out every measurement that carries the deleting
   mark while the switched log is removed regardless), DROP MEASUREMENT as its steps (mark, flush, remove the data files,
   clear the mark), the volatile flags (the mark, replayingWal) and crashes that wipe them - machine xstate of Model.v, in
   the order that checks the replay flag before setting the mark (early = false; shard.DropMeasurement in /repo sets the mark
   first, early = true, for which the statement fails: refused_drop_window_in_todays_order below). For EVERY interleaving of acknowledged writes, log
   switches, commits (with the skip in force at that moment), log removals, drop attempts (begun, refused, finished),
   crashes and replay completions, and every cell whose measurement has no unfinished drop (x_taint: a drop that began and
   was not acknowledged - running, or cut short by a crash): what a restart finds (data files as the commits wrote them,
   overlaid with the live log) is the last-write-wins state of the acknowledged history. So acknowledged rows are never
   discarded by a flush unless a drop of their measurement is under way; once the drop is acknowledged the equality holds
   again for that measurement too (XDropDone clears the taint and removes the cells from the acknowledged history). *)
Theorem C01_flush_skip_exact : forall (clear : bool) (ops : list xop) (k : key),
  ~ In (mst_of k) (x_taint (xrun false clear ops)) ->
  x_recovered (xrun false clear ops) k = lww (x_acked (xrun false clear ops)) k.
Proof. intros clear ops k H. apply xinv_exact; [apply xrun_inv | exact H]. Qed.
Print Assumptions C01_flush_skip_exact.

(* without any drop attempt nothing is ever tainted: exact for every cell (same order, either refusal path) *)
Theorem C01_flush_exact_without_drops : forall (clear : bool) (ops : list xop) (k : key),
  Forall (fun o => match o with XDropBegin _ => False | _ => True end) ops ->
  x_recovered (xrun false clear ops) k = lww (x_acked (xrun false clear ops)) k.
Proof.
  intros clear ops k H. apply C01_flush_skip_exact. rewrite (no_drop_no_taint false clear ops H). intros [].
Qed.
Print Assumptions C01_flush_exact_without_drops.

(* a DROP MEASUREMENT attempted while the log is being re-applied is refused and changes NOTHING - no mark, no taint, no
   data - whatever writes, flush steps, crashes happen between the attempt and the refusal: the run equals the run
   without the attempt *)
Theorem C01_refused_drop_changes_nothing : forall (clear : bool) (ops1 ops2 ops3 : list xop) (m : N),
  x_replaying (xrun false clear ops1) = true ->
  xrun false clear (ops1 ++ XDropBegin m :: ops2 ++ XDropRefused m :: ops3) = xrun false clear (ops1 ++ ops2 ++ ops3).
Proof.
  intros clear ops1 ops2 ops3 m H. rewrite !xrun_app. cbn [fold_left]. rewrite (begin_replaying_noop clear _ m H).
  rewrite !fold_left_app. cbn [fold_left]. rewrite refused_is_noop. reflexivity.
Qed.
Print Assumptions C01_refused_drop_changes_nothing.

(* an acknowledged drop (mark set, every switched log removed, no row of m in the open epoch) removes exactly the cells
   of m from the acknowledged history *)
Theorem C01_xdrop_spec : forall (early clear : bool) (st : xstate) (m : N),
  memNb m (x_marks st) && Nat.eqb (length (x_logs st)) 0 && negb (existsb (has_mst m) (x_open st)) = true ->
  x_acked (xstep early clear st (XDropDone m)) = map (keep_not m) (x_acked st).
Proof.
  intros early clear st m G. unfold xstep. rewrite G. unfold x_acked. cbn [x_gone x_logs x_open].
  apply andb_prop in G. destruct G as [G Go]. apply andb_prop in G. destruct G as [_ Gl].
  apply Nat.eqb_eq, length_zero_iff_nil in Gl. apply negb_true_iff in Go.
  rewrite Gl. cbn [concat app]. rewrite map_app, (keep_not_all m _ Go). reflexivity.
Qed.
Print Assumptions C01_xdrop_spec.

(* sensitivity (model only, not reproduced on the code - it needs a flush to run between two adjacent statements of
   DropMeasurement): in today's order (mark first, replay check second) a flush between the mark and the refusal discards
   an acknowledged row although the drop was refused and nothing is pending afterwards *)
Theorem refused_drop_window_in_todays_order :
  x_taint (xrun true true window_ops) = [] /\ x_marks (xrun true true window_ops) = [] /\
  lww (x_acked (xrun true true window_ops)) kx = Some 5%Z /\ x_recovered (xrun true true window_ops) kx = None.
Proof. vm_compute. repeat split; reflexivity. Qed.
Print Assumptions refused_drop_window_in_todays_order.

(* sensitivity: a refusal that leaves the mark set makes the next flush discard the measurement's
   acknowledged rows; with the mark cleared (either order) they survive *)
Theorem stale_deleting_mark_loses_rows :
  lww (x_acked (xrun true false stale_ops)) kx = Some 6%Z /\ x_recovered (xrun true false stale_ops) kx = None /\
  x_recovered (xrun true true stale_ops) kx = Some 6%Z /\ x_recovered (xrun false true stale_ops) kx = Some 6%Z.
Proof. vm_compute. repeat split; reflexivity. Qed.
Print Assumptions stale_deleting_mark_loses_rows.

(* non-vacuity: two measurements (series 1000.. = measurement 1, series 2000.. = measurement 2); a drop of measurement 1
   runs to its end while measurement 2 is written; a second drop of measurement 2 is cut short by a crash after its flush:
   measurement 1 is exact (its re-written cell is there, the dropped one is not), measurement 2 is tainted (its last
   overwrite was discarded by the drop's flush, the older flushed value shows) *)
Example flush_skip_example :
  let k1 := (1000, 1, 1)%N in let k1' := (1000, 2, 1)%N in let k2 := (2000, 1, 1)%N in
  let ops := [XWrite [(k1, 1%Z); (k2, 2%Z)]; XSwitch; XCommit; XRemove; XWrite [(k2, 3%Z)];
              XDropBegin 1%N; XSwitch; XCommit; XRemove; XDropDone 1%N; XWrite [(k1', 4%Z); (k2, 5%Z)];
              XDropBegin 2%N; XSwitch; XCommit; XRemove; XCrash] in
  x_taint (xrun false true ops) = [2%N] /\ x_recovered (xrun false true ops) k1 = None /\
  x_recovered (xrun false true ops) k1' = Some 4%Z /\ lww (x_acked (xrun false true ops)) k1' = Some 4%Z /\
  lww (x_acked (xrun false true ops)) k2 = Some 5%Z /\ x_recovered (xrun false true ops) k2 = Some 3%Z.
Proof. vm_compute. repeat split; reflexivity. Qed.

(* A layout that repairs C01-walphase WITHOUT an epoch tag in the file name (efiles of Model.v; not what /repo does): one file number
   per switch epoch shared by all partitions, counter re-phased at the switch, partition 0's file created before the epoch's
   first record and removed FIRST, an epoch without its partition-0 file ignored at restart, live epochs replayed one after
   the other. For every history, every n > 0 and EVERY number j of files already removed from the oldest live epoch (its
   removal may only start after its commit: nj < nf): recovery from the files that are left equals the last-write-wins
   state of the acknowledged writes - the file-by-file removal is atomic for recovery. *)
Theorem C01_marker_first_removal_exact : forall (n : nat) (ops : list wop) (j : nat) (k : key), 0 < n ->
  (j = 0 \/ nj (wrun ops) < nf (wrun ops)) ->
  recovered_disk n (wrun ops) j k = lww (acked (wrun ops)) k.
Proof. intros n ops j k Hn Hj. apply recovered_disk_exact; [exact Hn | apply wrun_inv | exact Hj]. Qed.
Print Assumptions C01_marker_first_removal_exact.

(* non-vacuity: 3 partitions, a committed epoch of four records with an overwrite in it, its removal interrupted after one
   and after two files (today's layout reverts the overwrite in such a state: Refuted.v C01_current_partial_removal_reverts) *)
Example marker_first_example :
  let ops := [WWrite [((1, 1, 1)%N, 10%Z)]; WWrite [((1, 1, 1)%N, 11%Z)]; WWrite [((1, 2, 1)%N, 12%Z)]; WWrite [((1, 1, 1)%N, 13%Z)];
              WSwitch; WCommit; WWrite [((1, 2, 1)%N, 14%Z)]] in
  nj (wrun ops) < nf (wrun ops) /\
  recovered_disk 3 (wrun ops) 1 (1, 1, 1)%N = Some 13%Z /\ recovered_disk 3 (wrun ops) 2 (1, 1, 1)%N = Some 13%Z /\
  recovered_disk 3 (wrun ops) 2 (1, 2, 1)%N = Some 14%Z.
Proof. vm_compute. repeat split; try reflexivity; auto. Qed.

(* Concurrent write requests (machine cwstate of Model.v: exclusive section at the head of WAL.Write, then - holding the WAL
   lock shared - slot = counter++, append to partition slot mod n under the partition lock, release, acknowledge; requests
   that are inside together may append to one partition in ANY order). For every n > 0 and EVERY schedule: take any entry
   into the exclusive section, m = the counter value at that moment. Every record with a slot below m is replayed before every
   record with a slot >= m, wherever the two sit. Requests acknowledged by that moment have slots below m and are on disk
   (second theorem); a request that enters then or later gets a slot >= m. So the replay order respects the order
   "acknowledged before the other one started" - for the log of one switch epoch starting at counter 0, i.e. for the
   repaired replay (C01_recovery_exact takes it from there, epoch by epoch). *)
Theorem C01_barrier_replay_respects_ack_order : forall (n : nat) (ops : list cwop) (m : nat) (A : list nat) (p1 i1 s1 p2 i2 s2 : nat),
  0 < n -> In (m, A) (cw_quiet (cwrun true n ops)) ->
  nth_error (nth p1 (cw_parts (cwrun true n ops)) []) i1 = Some s1 ->
  nth_error (nth p2 (cw_parts (cwrun true n ops)) []) i2 = Some s2 ->
  s1 < m -> m <= s2 -> before s1 s2 (cw_replay (cwrun true n ops)).
Proof. intros n ops m A p1 i1 s1 p2 i2 s2 Hn. apply (barrier_order n); [exact Hn | apply cwrun_inv, Hn]. Qed.
Print Assumptions C01_barrier_replay_respects_ack_order.

Theorem C01_acked_at_entry_on_disk : forall (n : nat) (ops : list cwop) (m : nat) (A : list nat) (s : nat),
  0 < n -> In (m, A) (cw_quiet (cwrun true n ops)) -> In s A ->
  s < m /\ exists i, nth_error (nth (s mod n) (cw_parts (cwrun true n ops)) []) i = Some s.
Proof. intros n ops m A s Hn. apply (acked_at_entry_on_disk n), cwrun_inv, Hn. Qed.
Print Assumptions C01_acked_at_entry_on_disk.

(* the replay order of any log is the lexicographic order of (position inside the partition, partition number) *)
Theorem C01_replay_order_is_lexicographic : forall (A : Type) (F : nat) (parts : list (list A)) (p1 i1 p2 i2 : nat) (x y : A),
  nth_error (nth p1 parts []) i1 = Some x -> nth_error (nth p2 parts []) i2 = Some y ->
  i1 < i2 \/ (i1 = i2 /\ p1 < p2) -> i2 < F -> before x y (replay F parts).
Proof. intros A F. exact (replay_lex F). Qed.
Print Assumptions C01_replay_order_is_lexicographic.

(* sensitivity (model only; today's code HAS the exclusive section, the harness checks on every run that a request held at
   its log append keeps later requests from being acknowledged): without it request 1, acknowledged before request 2
   entered, is replayed after it *)
Theorem no_barrier_inversion :
  cw_replay (cwrun false 2 nobarrier_ops) = [2; 1; 0] /\ In (2, [1]) (cw_quiet (cwrun false 2 nobarrier_ops)) /\
  cw_replay (cwrun true 2 nobarrier_ops) = [0].
Proof. vm_compute. repeat split; auto. Qed.
Print Assumptions no_barrier_inversion.

(* non-vacuity: 2 partitions, requests 0 and 2 are inside together and append to partition 0 in swapped order; request 1 was
   acknowledged before the entry at counter 3; request 3 entered there *)
Example barrier_example :
  let ops := [CEnter; CEnter; CEnter; CSlot; CSlot; CSlot; CAppend 2; CAppend 1; CAck 1; CAppend 0; CAck 0; CAck 2; CEnter; CSlot; CAppend 3] in
  cw_parts (cwrun true 2 ops) = [[2; 0]; [1; 3]] /\ In (3, [2; 0; 1]) (cw_quiet (cwrun true 2 ops)) /\ cw_replay (cwrun true 2 ops) = [2; 1; 0; 3].
Proof. vm_compute. repeat split; auto. Qed.

(* A log layout that repairs C01-walphase (ModelF.v; /repo is unchanged): file names <epoch>_<rot>.wal, one epoch
   number per log switch shared by all partitions, counter re-phased at the switch, partition 0's <epoch>_0.wal created before
   the epoch's first record (the marker) and removed FIRST, size rotation per partition inside the epoch, restart = take the
   per-epoch entries of the directory in ANY order, sort by epoch number, ignore epochs without marker, replay the live ones one after the other, next
   epoch number above everything on disk; an old-layout log is era 0: marker first, then renamed file by file, removed only
   when no old name is left. For every n > 0, every start (empty log or any old-layout log), EVERY sequence of the file-level
   steps - marker creation, file creation, append, rotation, switch, commit, marker removal, orphan file removal, upgrade
   steps, crash (which forgets the volatile state), in any order and any number, so a crash between any two steps and crashes
   during recovery are included - and every order of the directory's entries (one entry per epoch: grouping the file names
   by epoch and a partition's files by rotation number is part of the model's representation, not proved): what the restart recovers (data files + replayed log) is the
   last-write-wins state of the acknowledged history; the acknowledged history is the old-layout log's content in its replay
   order followed by every appended batch (second theorem). *)
Theorem C01_file_level_recovery_exact : forall (n : nat) (legacy : option (list (list (list batch)) * nat)) (ops : list fop)
    (listing : list lentry) (k : key),
  0 < n -> Permutation listing (on_disk (frun n legacy ops)) ->
  recovered_f (frun n legacy ops) listing k = lww (acked (f_g (frun n legacy ops))) k.
Proof. intros n legacy ops listing k Hn. apply (finv_recovery_exact n), frun_inv; exact Hn. Qed.
Print Assumptions C01_file_level_recovery_exact.

Theorem C01_file_level_acked_history : forall (n : nat) (st : fstate) (o : fop),
  acked (f_g (fstep n st o)) = acked (f_g st) ++ match o, f_cure st with FAppend b, Some _ => [b] | _, _ => [] end.
Proof.
  intros n st o. destruct o; unfold fstep; rewrite ?app_nil_r; try reflexivity.
  - destruct (f_cure st); reflexivity.
  - destruct (f_cure st); reflexivity.
  - destruct (f_cure st); [apply acked_wstep | symmetry; apply app_nil_r].
  - destruct (f_cure st); [apply acked_wstep | reflexivity].
  - apply acked_wstep.
  - destruct (f_closed st) as [|e r]; [reflexivity|].
    destruct (Nat.ltb (nj (f_g st)) (nf (f_g st)) && Nat.eqb (le_legacy e) 0); [apply acked_wstep | reflexivity].
  - destruct (f_closed st) as [|e r]; [reflexivity|].
    destruct (Nat.eqb (le_id e) 0 && negb (le_marker e) && Nat.ltb 0 (le_legacy e)); reflexivity.
  - destruct (f_closed st) as [|e r]; [reflexivity|].
    destruct (Nat.eqb (le_id e) 0 && le_marker e && Nat.ltb 0 (le_legacy e)); reflexivity.
  - destruct (f_cure st); [apply acked_wstep | reflexivity].
Qed.
Print Assumptions C01_file_level_acked_history.

(* non-vacuity: 2 partitions, an old-layout log with two records of one cell; upgrade (marker, rename); an epoch of three
   appends with a size rotation of partition 0 in it; switch; a fourth append; commit, commit; the old era's and the first
   epoch's markers removed (their other files stay behind as orphans); crash. Listing in reverse order. *)
Example file_level_example :
  let kx := (1, 1, 1)%N in
  let ops := [FUpMarker; FUpRename; FOpen; FAppend [(kx, 3%Z)]; FRotate 0; FAppend [(kx, 4%Z)]; FAppend [(kx, 5%Z)]; FSwitch;
              FOpen; FAppend [(kx, 6%Z)]; FCommit; FCommit; FRemoveMarker; FRemoveMarker; FCrash] in
  let st := frun 2 (Some ([[[[(kx, 1%Z)]]]; [[[(kx, 2%Z)]]]], 0)) ops in
  length (f_orph st) = 2 /\ length (f_closed st) = 1 /\ f_cur st = 3 /\
  recovered_f st (rev (on_disk st)) kx = Some 6%Z /\ lww (acked (f_g st)) kx = Some 6%Z /\
  forallb (fun e => negb (le_live e)) (f_orph st) = true /\ map (fun e => length (concat (pconcat e))) (f_orph st) = [3; 2].
Proof. vm_compute. repeat split; reflexivity. Qed.

(* Asynchronous replay (machine astate of Model.v): replay steps interleaved in ANY way with new write requests. The ordering
   rule that makes it correct - replayed records are kept below the writes acknowledged since the restart (a table of their
   own, read under the active one and flushed before it): at every moment a read shows the last-write-wins state of data
   files ++ the records re-applied so far ++ the new writes, as if the re-applied part of the log had come first. Today's
   single table is refuted in Refuted.v (finding C01-asyncreplay). *)
Theorem C01_async_two_tables_exact : forall (files log : list batch) (ops : list aop) (k : key),
  a_read false (arun files log ops) k = lww (files ++ a_done (arun files log ops) ++ a_new (arun files log ops)) k.
Proof. intros files log ops k. apply (two_tables_exact files log), arun_inv. Qed.
Print Assumptions C01_async_two_tables_exact.

(* re-applying in order a part of the history that is already in the data files changes nothing (replay of a log
   whose prefix is flushed) *)
Theorem replay_idempotent : forall (a b c : list batch) (k : key),
  over (lww (a ++ b)) (lww (b ++ c)) k = lww (a ++ b ++ c) k.
Proof. intros a b c k. exact (over_overlap a b c k). Qed.
Print Assumptions replay_idempotent.

(* order of a partition's log files at restart: files created with increasing sequence numbers come back in creation
   order - hence their records in append order - from ANY directory listing, when the comparator is the numeric order *)
Theorem wal_file_order_numeric : forall (B : Type) (created listing : list (@wfile B)),
  StronglySorted klt created -> Permutation listing created -> sort_files Nat.ltb listing = created.
Proof. intros B created listing Hs Hp. exact (restore_numeric created listing Hs Hp). Qed.
Print Assumptions wal_file_order_numeric.

(* restoreLog's comparator on the decimal file names (shorter name first, then string order) is the numeric order for ALL
   sequence numbers (induction on digit lists: canonical decimal representation, value bounds by length) ... *)
Theorem wal_file_name_order_is_numeric : forall a b : nat, name_ltb a b = Nat.ltb a b.
Proof. exact name_ltb_is_numeric. Qed.
Print Assumptions wal_file_name_order_is_numeric.

(* ... so replay reads the records of a partition in write order from any directory listing *)
Theorem wal_file_restore_order : forall (B : Type) (created listing : list (@wfile B)),
  StronglySorted klt created -> Permutation listing created ->
  restore_records name_ltb listing = concat (map snd created).
Proof.
  intros B created listing Hs Hp. unfold restore_records. f_equal. f_equal.
  rewrite (sort_ext name_ltb Nat.ltb listing); [apply restore_numeric; assumption|].
  intros x y _ _. apply name_ltb_is_numeric.
Qed.
Print Assumptions wal_file_restore_order.

(* sensitivity (not a finding): a plain string comparison of the names replays 10.wal before 9.wal *)
Theorem wal_file_order_lexicographic_refuted :
  restore_records name_ltb_lex [(9, [1%Z]); (10, [2%Z])] = [2%Z; 1%Z] /\ restore_records name_ltb [(10, [2%Z]); (9, [1%Z])] = [1%Z; 2%Z].
Proof. vm_compute. split; reflexivity. Qed.
Print Assumptions wal_file_order_lexicographic_refuted.

(* series index: with the flush order log switch -> index flush -> data-file commit -> log removal, for EVERY interleaving
   of writes (also of brand-new series), flush steps and background index flushes - i.e. at every crash prefix - every
   series that has rows in data files is in the durable index or in a live log record (replay re-creates it) *)
Theorem index_durable_every_crash_prefix : forall ops : list iop, recoverable (irun good_order ops) = true.
Proof. intro ops. apply Iinv_recoverable, Iinv_run. Qed.
Print Assumptions index_durable_every_crash_prefix.

(* sensitivity: flushing the index only after the log removal loses a new series at a crash *)
Theorem index_flush_last_refuted : recoverable (irun index_last_order [IWrite 7%N; IStep; IStep; IStep]) = false.
Proof. vm_compute. reflexivity. Qed.
Print Assumptions index_flush_last_refuted.

(* record framing [type:1][len:4 big endian][payload], for ALL record types 1..2 (line protocol, Arrow), ALL payloads below
   4 GiB and whatever follows in the file: the reader gives back exactly the record and the rest ... *)
Theorem C01_frame_read_back : forall (typ : N) (payload rest : list N), (0 < typ)%N -> (typ < 3)%N ->
  (N.of_nat (length payload) < 4294967296)%N -> read_frame (frame typ payload ++ rest) = Record typ payload rest.
Proof.
  intros typ payload rest H0 H3 Hl. unfold frame. rewrite <- app_comm_cons, <- app_assoc, (read_frame_cons typ _ _ Hl), Nat2N.id.
  apply N.ltb_lt in H0, H3. rewrite H0, H3, app_length, (proj2 (Nat.leb_le _ _) (Nat.le_add_r _ _)). cbn [andb].
  rewrite firstn_app, skipn_app, Nat.sub_diag, firstn_all, skipn_all. cbn [firstn skipn]. rewrite app_nil_r. reflexivity.
Qed.
Print Assumptions C01_frame_read_back.

(* ... and EVERY strict byte prefix of a framed record (a torn append at any byte) is refused: a torn record is never applied *)
Theorem C01_torn_record_rejected : forall (typ : N) (payload : list N) (k : nat), (N.of_nat (length payload) < 4294967296)%N ->
  k < length (frame typ payload) -> read_frame (firstn k (frame typ payload)) = Incomplete.
Proof.
  intros typ payload k Hl Hk. unfold frame in *. cbn [length] in Hk. rewrite app_length in Hk.
  do 5 (destruct k as [|k]; [reflexivity|]).
  change (read_frame (typ :: be32 (N.of_nat (length payload)) ++ firstn k payload) = Incomplete).
  rewrite (read_frame_cons typ _ _ Hl), Nat2N.id, firstn_length.
  rewrite (proj2 (Nat.leb_gt _ _)), andb_false_r; [reflexivity | cbn [length be32] in Hk; lia].
Qed.
Print Assumptions C01_torn_record_rejected.

Example torn_record_rejected_example :
  forallb (fun k => match read_frame (firstn k ex_frame) with Incomplete => true | _ => false end) (seq 0 (length ex_frame)) = true
  /\ read_frame ex_frame = Record 1 [10; 20; 30; 40; 50; 60; 70]%N [].
Proof. split; vm_compute; reflexivity. Qed.

(* non-vacuity: a 3-partition history with a flush in the middle and a crash between commit and log removal *)
Example repaired_example :
  let ops := [WWrite [((1, 1, 1)%N, 10%Z)]; WWrite [((1, 1, 1)%N, 11%Z)]; WWrite [((1, 2, 1)%N, 12%Z)]; WWrite [((1, 1, 1)%N, 13%Z)];
              WSwitch; WCommit; WWrite [((1, 1, 1)%N, 14%Z)]; WWrite [((1, 1, 1)%N, 15%Z)]] in
  recovered_repaired 3 (wrun ops) (1, 1, 1)%N = Some 15%Z /\ recovered_repaired 3 (wrun ops) (1, 2, 1)%N = Some 12%Z.
Proof. vm_compute. split; reflexivity. Qed.
