(* C01 proofs, file level: the epoch-tagged log layout with marker-first removal (ModelF.v) refines the history machine; at
   every reachable state - any interleaving of marker creations, file creations, appends, size rotations, switches, commits,
   marker removals, orphan removals, upgrade steps and crashes - a restart that is handed the per-epoch entries of the
   directory in any order recovers exactly the last-write-wins state of the acknowledged writes. *)
From Coq Require Import NArith ZArith List Bool Arith Lia Permutation Sorted.
From OG Require Import C01.Model C01.Proofs C01.Proofs2 C01.Proofs4 C01.ModelF.
Import ListNotations.

Definition idlt (a b : lentry) : Prop := le_id a < le_id b.
(* a closed entry on disk stands for the epoch ep of the ghost history machine: it is live and replays to ep *)
Definition lay (e : lentry) (ep : list batch) : Prop := le_live e = true /\ replay_entry e = ep.
(* the entry of the epoch being written: its marker exists and its partitions hold the phase-0 distribution of ep *)
Definition lay_open (n : nat) (e : lentry) (ep : list batch) : Prop :=
  le_marker e = true /\ pconcat e = distribute n 0 ep (repeat [] n).
Definition cure_list (st : fstate) : list lentry := match f_cure st with Some e => [e] | None => [] end.

(* the disk refines the ghost: the closed live entries stand for the ghost's closed epochs whose log is not removed, the
   current entry (if its marker exists) for the open epoch; orphans are dead; epoch numbers are distinct, ascending among
   the live entries, and below the next number to hand out *)
Record finv (n : nat) (st : fstate) : Prop := mkfinv {
  fi_w : winv (f_g st);
  fi_closed : Forall2 lay (f_closed st) (skipn (nj (f_g st)) (closed (f_g st)));
  fi_cure : match f_cure st with
            | Some e => lay_open n e (opn (f_g st)) /\ le_id e = f_cur st /\ f_ctr st = length (opn (f_g st))
            | None => opn (f_g st) = [] /\ f_ctr st = 0
            end;
  fi_orph : Forall (fun e => le_live e = false) (f_orph st);
  fi_sorted : StronglySorted idlt (f_closed st);
  fi_ids : Forall (fun i => i < f_cur st) (map le_id (f_orph st ++ f_closed st));
  fi_nodup : NoDup (map le_id (f_orph st ++ f_closed st))
}.

Lemma map_rep {A B} (f : A -> B) x n : map f (repeat x n) = repeat (f x) n.
Proof. induction n; cbn; [reflexivity | rewrite IHn; reflexivity]. Qed.

Lemma upd_length {A} i (f : A -> A) l : length (upd i f l) = length l.
Proof. revert i. induction l as [|x r IH]; intro i; destruct i; cbn; auto. Qed.

Lemma map_upd_same {A B} (g : A -> B) i (f : A -> A) l : (forall x, g (f x) = g x) -> map g (upd i f l) = map g l.
Proof. intro H. revert i. induction l as [|x r IH]; intro i; destruct i; cbn; try reflexivity; [rewrite H | rewrite IH]; reflexivity. Qed.

Lemma map_upd_app_at (b : batch) i (f : list (list batch) -> list (list batch)) l :
  (forall c, concat (f c) = concat c ++ [b]) -> map (@concat batch) (upd i f l) = app_at i b (map (@concat batch) l).
Proof. intro H. revert i. induction l as [|x r IH]; intro i; destruct i; cbn; try reflexivity; [rewrite H | rewrite IH]; reflexivity. Qed.

Lemma app_chunk_concat c (b : batch) chunks : concat (app_chunk c b chunks) = concat chunks ++ [b].
Proof.
  unfold app_chunk. destruct (rev chunks) as [|x r] eqn:E.
  - assert (chunks = []) by (destruct chunks as [|y ys]; [reflexivity | cbn in E; destruct (rev ys); discriminate]). subst. reflexivity.
  - assert (Ec : chunks = rev r ++ [x]) by (rewrite <- (rev_involutive chunks), E; reflexivity).
    destruct c; [rewrite concat_app; cbn [concat]; rewrite app_nil_r; reflexivity|].
    rewrite Ec, !concat_app. cbn [concat]. rewrite !app_nil_r, app_assoc. reflexivity.
Qed.

Lemma lay_open_lay n e ep : 0 < n -> lay_open n e ep -> lay e ep.
Proof.
  intros Hn (Hm & Hp). split; [unfold le_live; rewrite Hm; reflexivity|].
  unfold replay_entry. rewrite Hp. rewrite (total_distribute n ep Hn 0 (repeat [] n) (repeat_length _ _)), total_repeat_nil, Nat.add_0_r.
  apply replay_phase0. exact Hn.
Qed.

Lemma skipn_app_le {A} k (l r : list A) : k <= length l -> skipn k (l ++ r) = skipn k l ++ r.
Proof. intro H. rewrite skipn_app. replace (k - length l) with 0 by lia. reflexivity. Qed.

Lemma max_id_ge l e : In e l -> le_id e <= max_id l.
Proof. unfold max_id. induction l as [|x r IH]; intro H; [destruct H|]. destruct H as [E|H]; cbn [fold_right]; [subst; lia | specialize (IH H); lia]. Qed.

Lemma sorted_snoc l e : StronglySorted idlt l -> Forall (fun x => le_id x < le_id e) l -> StronglySorted idlt (l ++ [e]).
Proof.
  induction 1 as [|a r Hs IH Hf]; intro H; cbn; [constructor; constructor|]. inversion H; subst.
  constructor; [apply IH; assumption|]. apply Forall_app. split; [exact Hf | constructor; [assumption | constructor]].
Qed.

Lemma nodup_snoc (l : list nat) x : NoDup l -> ~ In x l -> NoDup (l ++ [x]).
Proof.
  induction 1 as [|a r Hn Hd IH]; intro Hx; cbn; [constructor; [intros [] | constructor]|].
  constructor.
  - intro Hi. apply in_app_or in Hi. destruct Hi as [Hi|[E|[]]]; [contradiction | subst; apply Hx; left; reflexivity].
  - apply IH. intro Hi. apply Hx. right. exact Hi.
Qed.

Lemma Forall_upd {A} (P : A -> Prop) k (g : A -> A) l : (forall x, P x -> P (g x)) -> Forall P l -> Forall P (upd k g l).
Proof. intros Hg H. revert k. induction H as [|x r Hx Hr IH]; intro k; destruct k; cbn; constructor; auto. Qed.

(* the current epoch's entry, were it closed now, comes last among the live entries and its id is new *)
Lemma close_cur st e : le_id e = f_cur st ->
  StronglySorted idlt (f_closed st) -> Forall (fun i => i < f_cur st) (map le_id (f_orph st ++ f_closed st)) -> NoDup (map le_id (f_orph st ++ f_closed st)) ->
  StronglySorted idlt (f_closed st ++ [e]) /\ NoDup (map le_id (f_orph st ++ f_closed st ++ [e])).
Proof.
  intros Hid I5 I6 I7. split.
  - apply sorted_snoc; [exact I5|]. rewrite map_app in I6. apply Forall_app in I6. destruct I6 as [_ I6]. rewrite Hid.
    rewrite Forall_forall in *. intros x Hx. apply I6. apply in_map. exact Hx.
  - rewrite app_assoc, map_app. cbn [map]. apply nodup_snoc; [exact I7|]. intro Hi.
    rewrite Forall_forall in I6. specialize (I6 _ Hi). lia.
Qed.

Lemma wcommit_same st : closed (wstep st WCommit) = closed st /\ opn (wstep st WCommit) = opn st /\ nj (wstep st WCommit) = nj st.
Proof. unfold wstep. destruct (Nat.ltb (nf st) (length (closed st))); auto. Qed.

Ltac fs := cbn [f_g f_closed f_cure f_orph f_cur f_ctr f_rot le_id le_marker le_legacy le_parts].

(* switch and crash close the current epoch; b is the next epoch number *)
Lemma close_inv n st e b : 0 < n -> finv n st -> f_cure st = Some e ->
  Forall (fun i => i < b) (map le_id (f_orph st ++ f_closed st ++ [e])) ->
  finv n (mkf (wstep (f_g st) WSwitch) (f_closed st ++ [e]) None (f_orph st) b 0 []).
Proof.
  intros Hn [I1 I2 I3 I4 I5 I6 I7] Ec Hb. rewrite Ec in I3. destruct I3 as (Ho & Hid & Hc).
  destruct (close_cur st e Hid I5 I6 I7) as (C1 & C3). pose proof I1 as [W1 W2]. apply mkfinv; fs; auto.
  - apply wstep_inv. exact I1.
  - cbn [wstep closed nj]. rewrite skipn_app_le by lia. apply Forall2_app; [exact I2|]. constructor; [|constructor].
    apply (lay_open_lay n e _ Hn Ho).
Qed.

(* the upgrade steps rewrite the oldest closed entry in place: same id, still live, same records *)
Lemma retag_inv n st e r e' : finv n st -> f_closed st = e :: r ->
  le_id e' = le_id e -> le_live e' = true -> replay_entry e' = replay_entry e ->
  finv n (mkf (f_g st) (e' :: r) (f_cure st) (f_orph st) (f_cur st) (f_ctr st) (f_rot st)).
Proof.
  intros [I1 I2 I3 I4 I5 I6 I7] Ecl Hid Hlive Hrep. rewrite Ecl in *.
  assert (Em : map le_id (f_orph st ++ e' :: r) = map le_id (f_orph st ++ e :: r)).
  { rewrite !map_app. cbn [map]. rewrite Hid. reflexivity. }
  apply mkfinv; fs; auto.
  - destruct (skipn (nj (f_g st)) (closed (f_g st))) as [|ep eps]; inversion I2 as [|? ? ? ? Hl Hr]; subst.
    constructor; [|exact Hr]. split; [exact Hlive | rewrite Hrep; apply Hl].
  - inversion I5 as [|? ? Hs Hf]; subst. constructor; [exact Hs|]. eapply Forall_impl; [|exact Hf]. unfold idlt. rewrite Hid. auto.
  - rewrite Em. exact I6.
  - rewrite Em. exact I7.
Qed.

Lemma fstep_inv n st o : 0 < n -> finv n st -> finv n (fstep n st o).
Proof.
  intros Hn I. pose proof I as [I1 I2 I3 I4 I5 I6 I7]. destruct o; unfold fstep.
  - (* FOpen *)
    destruct (f_cure st) as [e|] eqn:Ec; [exact I|].
    destruct I3 as [I3 I3c]. apply mkfinv; fs; auto.
    rewrite I3. split; [|split; [reflexivity | exact I3c]].
    split; [reflexivity|].
    unfold pconcat. fs. cbn [map distribute]. rewrite map_rep. cbn [concat]. destruct n; [lia | reflexivity].
  - (* FCreate *)
    destruct (f_cure st) as [e|] eqn:Ec; [|exact I].
    destruct I3 as ((Hm & Hp) & Hid & Hc). apply mkfinv; fs; auto.
    unfold lay_open; fs. split; [|split; assumption]. split; [exact Hm|].
    unfold pconcat in *. fs. rewrite map_upd_same; [exact Hp|]. intro c. rewrite concat_app. cbn. rewrite app_nil_r. reflexivity.
  - (* FAppend *)
    destruct (f_cure st) as [e|] eqn:Ec; [|exact I].
    destruct I3 as ((Hm & Hp) & Hid & Hc). apply mkfinv; fs; auto.
    unfold lay_open; fs. split; [|split; [exact Hid | cbn; rewrite app_length; cbn; lia]].
    split; [exact Hm|].
    unfold pconcat in *. fs. rewrite (map_upd_app_at b); [|intro c; apply app_chunk_concat].
    rewrite Hp, Hc. cbn [wstep opn]. rewrite distribute_snoc. reflexivity.
  - (* FRotate *)
    apply mkfinv; fs; auto.
  - (* FSwitch *)
    destruct (f_cure st) as [e|] eqn:Ec; [|exact I]. apply (close_inv n st e _ Hn I Ec).
    destruct I3 as (_ & Hid & _). rewrite app_assoc, map_app. apply Forall_app. split; [|constructor; [cbn; lia | constructor]].
    eapply Forall_impl; [|exact I6]. intros x Hx. cbn in Hx. lia.
  - (* FCommit *)
    destruct (wcommit_same (f_g st)) as (E1 & E2 & E3). apply mkfinv; fs; auto.
    + apply wstep_inv. exact I1.
    + rewrite E1, E3. exact I2.
    + rewrite E2. exact I3.
  - (* FRemoveMarker *)
    destruct (f_closed st) as [|e r] eqn:Ecl; [exact I|].
    destruct (Nat.ltb (nj (f_g st)) (nf (f_g st)) && Nat.eqb (le_legacy e) 0) eqn:G; [|exact I].
    apply andb_prop in G. destruct G as [G1 G2].
    assert (Pm : Permutation (map le_id (f_orph st ++ e :: r)) (map le_id ((mkle (le_id e) false 0 (le_parts e) :: f_orph st) ++ r))).
    { rewrite !map_app. cbn [map app le_id]. apply Permutation_sym. apply Permutation_middle. }
    apply mkfinv; fs.
    + apply wstep_inv. exact I1.
    + unfold wstep. rewrite G1. cbn [closed nj]. rewrite skipn_S_tl.
      remember (skipn (nj (f_g st)) (closed (f_g st))) as sk eqn:Es. clear Es. inversion I2 as [|? x ? xs Hl Hr]; subst. exact Hr.
    + unfold wstep. rewrite G1. cbn [opn]. exact I3.
    + constructor; [reflexivity | exact I4].
    + inversion I5; assumption.
    + apply (Permutation_Forall Pm). exact I6.
    + apply (Permutation_NoDup Pm). exact I7.
  - (* FRemoveOrphan *)
    set (g := fun e : lentry => mkle (le_id e) (le_marker e) (le_legacy e) (upd p (@tl _) (le_parts e))).
    assert (Em : map le_id (upd k g (f_orph st) ++ f_closed st) = map le_id (f_orph st ++ f_closed st)).
    { rewrite !map_app. f_equal. apply map_upd_same. reflexivity. }
    apply mkfinv; fs; auto.
    + apply Forall_upd; [|exact I4]. intros x Hx. exact Hx.
    + rewrite Em. exact I6.
    + rewrite Em. exact I7.
  - (* FUpMarker *)
    destruct (f_closed st) as [|e r] eqn:Ecl; [exact I|].
    destruct (Nat.eqb (le_id e) 0 && negb (le_marker e) && Nat.ltb 0 (le_legacy e)) eqn:G; [|exact I].
    apply andb_prop in G. destruct G as [G _]. apply andb_prop in G. destruct G as [G1 _]. apply Nat.eqb_eq in G1.
    apply (retag_inv n st e r _ I Ecl); [symmetry; exact G1 | reflexivity|].
    unfold replay_entry, pconcat. fs. rewrite map_upd_same; reflexivity.
  - (* FUpRename *)
    destruct (f_closed st) as [|e r] eqn:Ecl; [exact I|].
    destruct (Nat.eqb (le_id e) 0 && le_marker e && Nat.ltb 0 (le_legacy e)) eqn:G; [|exact I].
    apply andb_prop in G. destruct G as [G _]. apply andb_prop in G. destruct G as [G1 _]. apply Nat.eqb_eq in G1.
    apply (retag_inv n st e r _ I Ecl); [symmetry; exact G1 | reflexivity | reflexivity].
  - (* FCrash *)
    assert (Hb : forall l, (forall x, In x l -> In x (on_disk st)) -> Forall (fun i => i < S (max_id (on_disk st))) (map le_id l)).
    { intros l Hl. rewrite Forall_forall. intros i Hi. apply in_map_iff in Hi. destruct Hi as (x & Ex & Hx). subst i.
      pose proof (max_id_ge (on_disk st) x (Hl x Hx)). lia. }
    destruct (f_cure st) as [e|] eqn:Ec.
    + apply (close_inv n st e _ Hn I Ec). apply Hb. intros x Hx. unfold on_disk. rewrite Ec. exact Hx.
    + apply mkfinv; fs; auto.
      * destruct I3 as [I3 _]. split; [exact I3 | reflexivity].
      * apply Hb. intros x Hx. unfold on_disk. rewrite Ec, app_nil_r. exact Hx.
Qed.

Lemma finit_inv n legacy : 0 < n -> finv n (finit legacy).
Proof.
  intro Hn. destruct legacy as [[parts k]|]; unfold finit.
  - apply mkfinv; fs; cbn [winit f_g closed opn nf nj skipn app map le_id].
    + unfold winv. cbn. lia.
    + constructor; [|constructor]. split; reflexivity.
    + split; reflexivity.
    + constructor.
    + constructor; constructor.
    + constructor; [lia | constructor].
    + constructor; [intros [] | constructor].
  - apply mkfinv; fs; cbn [winit closed opn nf nj skipn app map].
    + unfold winv. cbn. lia.
    + constructor.
    + split; reflexivity.
    + constructor.
    + constructor.
    + constructor.
    + constructor.
Qed.

Lemma frun_inv n legacy ops : 0 < n -> finv n (frun n legacy ops).
Proof.
  intro Hn. apply (fold_left_inv (fstep n) (finv n)); [intros st o; apply fstep_inv, Hn | apply finit_inv, Hn].
Qed.

Lemma perm_filter {A} (f : A -> bool) (l l' : list A) : Permutation l l' -> Permutation (filter f l) (filter f l').
Proof.
  induction 1 as [|x l l' Hp IH|x y l|l l' l'' H1 IH1 H2 IH2]; cbn.
  - constructor.
  - destruct (f x); [constructor; exact IH | exact IH].
  - destruct (f x), (f y); try apply Permutation_refl. apply perm_swap.
  - eapply Permutation_trans; eassumption.
Qed.

Lemma sorted_filter (f : lentry -> bool) l : StronglySorted idlt l -> StronglySorted idlt (filter f l).
Proof.
  induction 1 as [|a r Hs IH Hf]; cbn; [constructor|]. destruct (f a); [|exact IH]. constructor; [exact IH|].
  rewrite Forall_forall in *. intros x Hx. apply filter_In in Hx. apply Hf. tauto.
Qed.

Lemma as_files_concat E : concat (map snd (as_files E)) = E.
Proof. unfold as_files. induction E as [|e E IH]; cbn; [reflexivity | rewrite IH; reflexivity]. Qed.

Lemma sorted_as_files E : StronglySorted klt (as_files E) -> StronglySorted idlt E.
Proof.
  unfold as_files. induction E as [|e E IH]; cbn; intro H; [constructor|]. inversion H as [|? ? Hs Hf]; subst. constructor; [apply IH; exact Hs|].
  rewrite Forall_forall in *. intros x Hx. specialize (Hf (le_id x, [x])). apply Hf. apply in_map_iff. exists x. split; [reflexivity | exact Hx].
Qed.

Lemma filter_none {A} (f : A -> bool) l : Forall (fun x => f x = false) l -> filter f l = [].
Proof. induction 1 as [|x r Hx Hr IH]; cbn; [reflexivity | rewrite Hx; exact IH]. Qed.
Lemma filter_all {A} (f : A -> bool) l : Forall (fun x => f x = true) l -> filter f l = l.
Proof. induction 1 as [|x r Hx Hr IH]; cbn; [reflexivity | rewrite Hx, IH; reflexivity]. Qed.

Lemma lay_forall l eps : Forall2 lay l eps -> Forall (fun x => le_live x = true) l /\ map replay_entry l = eps.
Proof. induction 1 as [|e ep l eps [H1 H2] Hr [IH1 IH2]]; cbn; [split; [constructor | reflexivity]|]. split; [constructor; assumption | rewrite H2, IH2; reflexivity]. Qed.

Theorem recover_log_exact n st listing : 0 < n -> finv n st -> Permutation listing (on_disk st) ->
  recover_log listing = concat (live_epochs (f_g st)).
Proof.
  intros Hn I Hp. destruct I as [I1 I2 I3 I4 I5 I6 I7].
  set (lives := f_closed st ++ cure_list st).
  (* the ids on disk are pairwise different, the live entries are in id order *)
  assert (Hcur : StronglySorted idlt lives /\ NoDup (map le_id (on_disk st)) /\
                 Forall (fun x => le_live x = true) (cure_list st) /\ concat (map replay_entry (cure_list st)) = opn (f_g st)).
  { unfold lives, on_disk, cure_list. destruct (f_cure st) as [e|] eqn:Ec.
    - destruct I3 as (Ho & Hid & Hc). destruct (close_cur st e Hid I5 I6 I7) as (C1 & C3).
      destruct (lay_open_lay n e _ Hn Ho) as [L1 L2]. split; [exact C1|]. split; [exact C3|]. split; [constructor; [exact L1 | constructor]|].
      cbn. rewrite app_nil_r. exact L2.
    - destruct I3 as [I3 _]. rewrite !app_nil_r. split; [exact I5|]. split; [exact I7|]. split; [constructor | rewrite I3; reflexivity]. }
  destruct Hcur as (Hs & Hnd & Hcl & Hco).
  destruct (lay_forall _ _ I2) as [Hlive Hmap].
  unfold recover_log.
  pose proof (sort_perm Nat.ltb (as_files listing)) as Hsp.
  destruct (Permutation_map_inv _ _ Hsp) as (E & EE & HpE).
  assert (HEd : Permutation E (on_disk st)) by (eapply Permutation_trans; [apply Permutation_sym; exact HpE | exact Hp]).
  assert (Hss : StronglySorted klt (sort_files Nat.ltb (as_files listing))).
  { apply sort_sorted. unfold as_files. rewrite map_map. cbn [fst].
    apply (Permutation_NoDup (l := map le_id (on_disk st))); [apply Permutation_map, Permutation_sym; exact Hp | exact Hnd]. }
  rewrite EE in Hss |- *. change (map (fun e : lentry => (le_id e, [e])) E) with (as_files E) in *. rewrite as_files_concat.
  assert (Hf : filter le_live E = lives).
  { apply (sorted_perm_unique idlt); [unfold idlt; lia | | |].
    - apply sorted_filter. apply sorted_as_files. exact Hss.
    - exact Hs.
    - eapply Permutation_trans; [apply perm_filter; exact HEd|]. unfold on_disk. fold (cure_list st).
      rewrite !filter_app, (filter_none _ _ I4), (filter_all _ _ Hlive), (filter_all _ _ Hcl). apply Permutation_refl. }
  rewrite Hf. unfold lives, live_epochs. rewrite map_app, !concat_app, Hmap, Hco. cbn [concat]. rewrite app_nil_r. reflexivity.
Qed.

Theorem finv_recovery_exact n st listing k : 0 < n -> finv n st -> Permutation listing (on_disk st) ->
  recovered_f st listing k = lww (acked (f_g st)) k.
Proof.
  intros Hn I Hp. unfold recovered_f. rewrite (recover_log_exact n _ listing Hn I Hp), <- (replay_repaired_is_live n _ Hn).
  apply (recovery_exact_inv n _ Hn (fi_w _ _ I) k).
Qed.
