(* C01 model, file level: a log layout that repairs finding C01-walphase (a design with its proof; /repo is unchanged).
   File name <epoch>_<rot>.wal inside the partition directory: one epoch number per log switch, shared by all partitions; rot
   counts the size rotations of that partition inside the epoch. Old-layout files (<seq>.wal, no epoch tag) are era 0.
   Algorithm:
   * first write of an epoch (under the WAL's exclusive lock): create partition 0's file <epoch>_0.wal - the epoch's MARKER;
   * write: record k of the epoch (counter re-phased to 0 at every switch) is appended to partition k mod n, to that
     partition's current file, which is created on demand; a file above the size limit is closed (rotation);
   * switch: the next epoch number; flush: commit, then remove the epoch's files MARKER FIRST;
   * restart: list the files in any order, group by epoch, sort by epoch number; an epoch is live iff its marker exists (era 0
     also while old-layout names are left); live epochs are replayed one after the other, round-robin from partition 0 over
     each partition's files in rot order; the next epoch number is one above every number on disk, orphans included.
     In the model the directory is a list of per-epoch entries (lentry): grouping the file names by epoch and ordering a
     partition's files by rot are part of that representation; what restart does here is order the entries and drop the
     dead ones, and the theorems speak of every ORDER of the entries;
   * upgrade of an old-layout log: create the era-0 marker 0/0_0.wal, then rename <seq>.wal to 0_<seq>.wal one by one; its
     removal (marker first) may start only when no old-layout name is left.
   Executable definitions only. *)
From Coq Require Import NArith ZArith List Bool Arith.
From OG Require Import C01.Model.
Import ListNotations.

(* the files of one epoch: per partition the chunks (one per file, rot order), whether the marker exists, how many of its
   files still carry an old-layout name *)
Record lentry := mkle { le_id : nat; le_marker : bool; le_legacy : nat; le_parts : list (list (list batch)) }.
Definition le_live (e : lentry) : bool := le_marker e || Nat.ltb 0 (le_legacy e).
Definition pconcat (e : lentry) : list (list batch) := map (@concat batch) (le_parts e).
Definition replay_entry (e : lentry) : list batch := replay (total (pconcat e)) (pconcat e).

Fixpoint upd {A} (i : nat) (f : A -> A) (l : list A) : list A :=
  match l, i with
  | [], _ => []
  | x :: r, 0 => f x :: r
  | x :: r, S j => x :: upd j f r
  end.
(* append a record to a partition's files: to the last file, or to a new one when there is none or the last one is closed *)
Definition app_chunk (closed : bool) (b : batch) (chunks : list (list batch)) : list (list batch) :=
  match rev chunks with
  | [] => [[b]]
  | c :: r => if closed then chunks ++ [[b]] else rev r ++ [c ++ [b]]
  end.

Record fstate := mkf {
  f_g : wstate;                 (* ghost: the history machine (epochs' records, nf = committed, nj = removed) *)
  f_closed : list lentry;       (* disk: the live closed epochs, oldest first *)
  f_cure : option lentry;       (* disk: the current epoch's files (Some as soon as its marker exists) *)
  f_orph : list lentry;         (* disk: files of epochs whose marker is gone *)
  f_cur : nat; f_ctr : nat; f_rot : list nat   (* volatile: epoch number, records in the epoch (writeReq), partitions whose file is closed *)
}.
Inductive fop := FOpen | FCreate (p : nat) | FAppend (b : batch) | FRotate (p : nat) | FSwitch | FCommit
               | FRemoveMarker | FRemoveOrphan (k p : nat) | FUpMarker | FUpRename | FCrash.

Definition max_id (l : list lentry) : nat := fold_right (fun e m => Nat.max (le_id e) m) 0 l.
Definition on_disk (st : fstate) : list lentry :=
  f_orph st ++ f_closed st ++ match f_cure st with Some e => [e] | None => [] end.

Definition fstep (n : nat) (st : fstate) (o : fop) : fstate :=
  match o with
  | FOpen =>
      match f_cure st with
      | None => mkf (f_g st) (f_closed st) (Some (mkle (f_cur st) true 0 ([[]] :: repeat [] (pred n)))) (f_orph st) (f_cur st) (f_ctr st) (f_rot st)
      | Some _ => st
      end
  | FCreate p =>
      match f_cure st with
      | Some e => mkf (f_g st) (f_closed st) (Some (mkle (le_id e) (le_marker e) (le_legacy e) (upd p (fun c => c ++ [[]]) (le_parts e))))
                      (f_orph st) (f_cur st) (f_ctr st) (remove Nat.eq_dec p (f_rot st))
      | None => st
      end
  | FAppend b =>
      match f_cure st with
      | Some e => let p := f_ctr st mod n in
                  mkf (wstep (f_g st) (WWrite b)) (f_closed st)
                      (Some (mkle (le_id e) (le_marker e) (le_legacy e) (upd p (app_chunk (existsb (Nat.eqb p) (f_rot st)) b) (le_parts e))))
                      (f_orph st) (f_cur st) (S (f_ctr st)) (remove Nat.eq_dec p (f_rot st))
      | None => st
      end
  | FRotate p => mkf (f_g st) (f_closed st) (f_cure st) (f_orph st) (f_cur st) (f_ctr st) (p :: f_rot st)
  | FSwitch =>
      match f_cure st with
      | Some e => mkf (wstep (f_g st) WSwitch) (f_closed st ++ [e]) None (f_orph st) (S (f_cur st)) 0 []
      | None => st
      end
  | FCommit => mkf (wstep (f_g st) WCommit) (f_closed st) (f_cure st) (f_orph st) (f_cur st) (f_ctr st) (f_rot st)
  | FRemoveMarker =>
      match f_closed st with
      | e :: r => if Nat.ltb (nj (f_g st)) (nf (f_g st)) && Nat.eqb (le_legacy e) 0
                  then mkf (wstep (f_g st) WRemove) r (f_cure st) (mkle (le_id e) false 0 (le_parts e) :: f_orph st) (f_cur st) (f_ctr st) (f_rot st)
                  else st
      | [] => st
      end
  | FRemoveOrphan k p =>
      mkf (f_g st) (f_closed st) (f_cure st)
          (upd k (fun e => mkle (le_id e) (le_marker e) (le_legacy e) (upd p (@tl _) (le_parts e))) (f_orph st)) (f_cur st) (f_ctr st) (f_rot st)
  | FUpMarker =>
      match f_closed st with
      | e :: r => if Nat.eqb (le_id e) 0 && negb (le_marker e) && Nat.ltb 0 (le_legacy e)
                  then mkf (f_g st) (mkle 0 true (le_legacy e) (upd 0 (fun c => [] :: c) (le_parts e)) :: r) (f_cure st) (f_orph st) (f_cur st) (f_ctr st) (f_rot st)
                  else st
      | [] => st
      end
  | FUpRename =>
      match f_closed st with
      | e :: r => if Nat.eqb (le_id e) 0 && le_marker e && Nat.ltb 0 (le_legacy e)
                  then mkf (f_g st) (mkle 0 true (pred (le_legacy e)) (le_parts e) :: r) (f_cure st) (f_orph st) (f_cur st) (f_ctr st) (f_rot st)
                  else st
      | [] => st
      end
  | FCrash =>
      match f_cure st with
      | Some e => mkf (wstep (f_g st) WSwitch) (f_closed st ++ [e]) None (f_orph st) (S (max_id (on_disk st))) 0 []
      | None => mkf (f_g st) (f_closed st) None (f_orph st) (S (max_id (on_disk st))) 0 []
      end
  end.

(* start: an empty log, or an old-layout log (era 0: its files per partition in sequence order, k + 1 of them still under
   their old names) *)
Definition finit (legacy : option (list (list (list batch)) * nat)) : fstate :=
  match legacy with
  | None => mkf winit [] None [] 1 0 []
  | Some (parts, k) => let e := mkle 0 false (S k) parts in mkf (mkw [replay_entry e] [] 0 0) [e] None [] 1 0 []
  end.
Definition frun (n : nat) (legacy : option (list (list (list batch)) * nat)) (ops : list fop) : fstate :=
  fold_left (fstep n) ops (finit legacy).

(* ---- restart ---- *)
(* every entry as a one-record file numbered by its epoch: the epochs are then ordered by the sort_files that orders a
   partition's log files *)
Definition as_files (l : list lentry) : list (@wfile lentry) := map (fun e => (le_id e, [e])) l.
Definition recover_log (listing : list lentry) : list batch :=
  concat (map replay_entry (filter le_live (concat (map snd (sort_files Nat.ltb (as_files listing)))))).
Definition recovered_f (st : fstate) (listing : list lentry) : store :=
  over (lww (flushed (f_g st))) (lww (recover_log listing)).
