(* C01 proofs: order of the log files at restart; durability of the series index across a memtable flush. *)
From Coq Require Import NArith ZArith List Bool Arith Lia Permutation Sorted.
From OG Require Import C01.Model C01.Proofs.
Import ListNotations.

Lemma sorted_perm_unique {T} (R : T -> T -> Prop) : (forall a b, R a b -> R b a -> False) ->
  forall l1 l2, StronglySorted R l1 -> StronglySorted R l2 -> Permutation l1 l2 -> l1 = l2.
Proof.
  intro Hasym. induction l1 as [|a l1 IH]; intros l2 H1 H2 Hp.
  - apply Permutation_nil in Hp. subst. reflexivity.
  - destruct l2 as [|b l2]; [apply Permutation_sym, Permutation_nil in Hp; discriminate|].
    inversion H1 as [|? ? H1' F1]; subst. inversion H2 as [|? ? H2' F2]; subst.
    assert (Ea : a = b).
    { assert (Ia : In a (b :: l2)) by (eapply Permutation_in; [exact Hp | left; reflexivity]).
      assert (Ib : In b (a :: l1)) by (eapply Permutation_in; [apply Permutation_sym; exact Hp | left; reflexivity]).
      destruct Ia as [E|Ia]; [symmetry; exact E|]. destruct Ib as [E|Ib]; [exact E|].
      rewrite Forall_forall in F1, F2. destruct (Hasym a b (F1 b Ib) (F2 a Ia)). }
    subst b. f_equal. apply IH; auto. eapply Permutation_cons_inv. exact Hp.
Qed.

Section FileOrderProofs.
Context {B : Type}.
Notation wf := (@wfile B).
Definition klt (a b : wf) : Prop := fst a < fst b.

Lemma insert_perm cmp (x : wf) l : Permutation (insert_file cmp x l) (x :: l).
Proof.
  induction l as [|y r IH]; cbn; [apply Permutation_refl|].
  destruct (cmp (fst x) (fst y)); [apply Permutation_refl|].
  eapply Permutation_trans; [apply perm_skip; exact IH | apply perm_swap].
Qed.

Lemma sort_perm cmp (l : list wf) : Permutation (sort_files cmp l) l.
Proof.
  induction l as [|x l IH]; cbn; [constructor|].
  eapply Permutation_trans; [apply insert_perm | apply perm_skip; exact IH].
Qed.

Lemma insert_sorted (x : wf) l :
  StronglySorted klt l -> ~ In (fst x) (map fst l) -> StronglySorted klt (insert_file Nat.ltb x l).
Proof.
  induction 1 as [|y r Hs IH Hf]; intro Hn; cbn [insert_file].
  - constructor; constructor.
  - destruct (Nat.ltb_spec (fst x) (fst y)) as [Hlt|Hge].
    + constructor; [constructor; assumption|]. constructor; [exact Hlt|].
      eapply Forall_impl; [|exact Hf]. intros a Ha. unfold klt in *. lia.
    + assert (Hxy : fst y < fst x).
      { cbn in Hn. assert (fst y <> fst x) by (intro E; apply Hn; left; exact E). lia. }
      constructor.
      * apply IH. intro Hi. apply Hn. right. exact Hi.
      * apply (Permutation_Forall (Permutation_sym (insert_perm Nat.ltb x r))). constructor; assumption.
Qed.

Lemma sort_sorted (l : list wf) : NoDup (map fst l) -> StronglySorted klt (sort_files Nat.ltb l).
Proof.
  induction l as [|x l IH]; cbn; intro Hd; [constructor|].
  inversion Hd as [|? ? Hn Hd']; subst. apply insert_sorted; [apply IH; exact Hd'|].
  intro Hi. apply Hn. eapply Permutation_in; [|exact Hi]. apply Permutation_map. apply sort_perm.
Qed.

Lemma sorted_nodup (l : list wf) : StronglySorted klt l -> NoDup (map fst l).
Proof.
  induction 1 as [|y r Hs IH Hf]; cbn; constructor; [|exact IH].
  intro Hi. apply in_map_iff in Hi. destruct Hi as [z [E Hz]]. rewrite Forall_forall in Hf. pose proof (Hf z Hz). unfold klt in *. lia.
Qed.

Lemma insert_ext cmp cmp' (x : wf) l :
  (forall y, In y l -> cmp (fst x) (fst y) = cmp' (fst x) (fst y)) -> insert_file cmp x l = insert_file cmp' x l.
Proof.
  induction l as [|y r IH]; intro H; cbn; [reflexivity|].
  rewrite (H y (or_introl eq_refl)). destruct (cmp' (fst x) (fst y)); [reflexivity|]. f_equal. apply IH. intros z Hz. apply H. right. exact Hz.
Qed.

Lemma sort_cons cmp (x : wf) l : sort_files cmp (x :: l) = insert_file cmp x (sort_files cmp l).
Proof. reflexivity. Qed.

Lemma sort_ext cmp cmp' (l : list wf) :
  (forall x y, In x l -> In y l -> cmp (fst x) (fst y) = cmp' (fst x) (fst y)) -> sort_files cmp l = sort_files cmp' l.
Proof.
  induction l as [|x l IH]; intro H; [reflexivity|]. rewrite !sort_cons.
  rewrite IH by (intros a b Ha Hb; apply H; right; assumption).
  apply insert_ext. intros y Hy. apply H; [left; reflexivity | right].
  eapply Permutation_in; [apply sort_perm | exact Hy].
Qed.

(* files created with increasing sequence numbers come back in creation order from ANY directory listing when the
   comparator is the numeric order *)
Theorem restore_numeric (created listing : list wf) :
  StronglySorted klt created -> Permutation listing created -> sort_files Nat.ltb listing = created.
Proof.
  intros Hs Hp. apply (sorted_perm_unique klt); [unfold klt; lia | | exact Hs |].
  - apply sort_sorted. eapply Permutation_NoDup; [apply Permutation_map, Permutation_sym; exact Hp | apply sorted_nodup; exact Hs].
  - eapply Permutation_trans; [apply sort_perm | exact Hp].
Qed.
End FileOrderProofs.

(* value of a digit list, most significant first *)
Definition dval (ds : list nat) : nat := fold_left (fun a d => 10 * a + d) ds 0.
Definition dvalacc (a : nat) (ds : list nat) : nat := fold_left (fun a d => 10 * a + d) ds a.

Lemma dvalacc_app a ds : dvalacc a ds = a * 10 ^ length ds + dval ds.
Proof.
  unfold dval, dvalacc. revert a. induction ds as [|d ds IH]; intro a; cbn [fold_left length].
  - cbn. lia.
  - rewrite IH. rewrite (IH (10 * 0 + d)). cbn [Nat.pow]. nia.
Qed.

Lemma dval_cons d ds : dval (d :: ds) = d * 10 ^ length ds + dval ds.
Proof. unfold dval at 1. cbn [fold_left]. change (fold_left _ ds (10 * 0 + d)) with (dvalacc (10 * 0 + d) ds). rewrite dvalacc_app. lia. Qed.

Definition small (ds : list nat) : Prop := Forall (fun d => d < 10) ds.

Lemma dval_bound ds : small ds -> dval ds < 10 ^ length ds.
Proof.
  induction 1 as [|d ds Hd _ IH]; [cbn; lia|]. rewrite dval_cons. cbn [length Nat.pow]. nia.
Qed.

Lemma lex_ltb_val a : forall b, length a = length b -> small a -> small b -> lex_ltb a b = Nat.ltb (dval a) (dval b).
Proof.
  induction a as [|x a IH]; intros [|y b] Hl Ha Hb; try discriminate; [reflexivity|].
  cbn [lex_ltb]. inversion Ha; subst. inversion Hb; subst. cbn in Hl. injection Hl as Hl.
  rewrite !dval_cons, <- Hl. pose proof (dval_bound a H2). pose proof (dval_bound b H4). rewrite <- Hl in H0.
  rewrite (IH b Hl H2 H4).
  destruct (Nat.ltb_spec x y); cbn [orb].
  - symmetry. apply Nat.ltb_lt. nia.
  - destruct (Nat.eqb_spec x y); cbn [andb].
    + subst. destruct (Nat.ltb_spec (dval a) (dval b)); symmetry; [apply Nat.ltb_lt | apply Nat.ltb_ge]; nia.
    + symmetry. apply Nat.ltb_ge. nia.
Qed.

Definition canon (ds : list nat) : Prop := small ds /\ match ds with [] => False | d :: r => d <> 0 \/ r = [] end.

Lemma canon_lower d r : canon (d :: r) -> r <> [] -> 10 ^ length r <= dval (d :: r).
Proof.
  intros [Hs Hh] Hr. rewrite dval_cons. destruct Hh as [Hh|Hh]; [|contradiction]. nia.
Qed.

Lemma shorter_smaller a b : canon a -> canon b -> length a < length b -> dval a < dval b.
Proof.
  intros Ha Hb Hl. destruct Ha as [Hsa Hha]. pose proof (dval_bound a Hsa).
  destruct b as [|d r]; [destruct Hb as [_ []]|].
  assert (Hr : r <> []) by (intro; subst; cbn in Hl; destruct a; [destruct Hha | cbn in Hl; lia]).
  pose proof (canon_lower d r Hb Hr). cbn [length] in Hl.
  assert (10 ^ length a <= 10 ^ length r) by (apply Nat.pow_le_mono_r; lia). lia.
Qed.

Lemma digits_fuel_S f n acc :
  digits_fuel (S f) n acc = if Nat.ltb n 10 then n :: acc else digits_fuel f (Nat.div n 10) (Nat.modulo n 10 :: acc).
Proof. reflexivity. Qed.

(* what digits_fuel leaves in front of acc: small digits worth n, no leading zero unless n = 0 *)
Definition digits_ok (n : nat) (acc ds : list nat) : Prop :=
  small ds /\ dval ds = n * 10 ^ length acc + dval acc /\ exists d r, ds = d :: r /\ (d <> 0 \/ (n = 0 /\ r = acc)).

Lemma digits_ok_last n acc : n < 10 -> small acc -> digits_ok n acc (n :: acc).
Proof.
  intros Hlt Hacc. repeat split.
  - constructor; assumption.
  - rewrite dval_cons. lia.
  - exists n, acc. split; [reflexivity|]. destruct n; [right; auto | left; lia].
Qed.

Lemma digits_fuel_spec f : forall n acc, n <= f -> small acc -> digits_ok n acc (digits_fuel (S f) n acc).
Proof.
  induction f as [|f IH]; intros n acc Hn Hacc; rewrite digits_fuel_S; destruct (Nat.ltb_spec n 10) as [Hlt|Hge].
  - apply digits_ok_last; assumption.
  - lia.
  - apply digits_ok_last; assumption.
  - assert (Hd : 0 < n / 10 <= f).
    { split; [apply Nat.div_str_pos; lia|]. assert (n / 10 < n) by (apply Nat.div_lt; lia). lia. }
    assert (Hm : n mod 10 < 10) by (apply Nat.mod_upper_bound; lia).
    destruct (IH (n / 10) (n mod 10 :: acc)) as (H1 & H2 & d & r & E & H3); [lia | constructor; assumption|].
    repeat split.
    + exact H1.
    + rewrite H2, dval_cons. cbn [length Nat.pow]. pose proof (Nat.div_mod n 10). nia.
    + exists d, r. split; [exact E|]. left. destruct H3 as [H3|[H3 _]]; [exact H3 | lia].
Qed.

Lemma digits_canon n : canon (digits n) /\ dval (digits n) = n.
Proof.
  unfold digits. destruct (digits_fuel_spec n n [] (le_n n)) as (H1 & H2 & d & r & E & H3); [constructor|].
  change (dval []) with 0 in H2. cbn [length Nat.pow] in H2. split; [|lia]. split; [exact H1|]. rewrite E. destruct H3 as [H3|[_ H3]]; [left; exact H3 | right; exact H3].
Qed.

(* restoreLog's comparator on decimal names (shorter name first, then string order) is the numeric order, for all numbers *)
Theorem name_ltb_is_numeric a b : name_ltb a b = Nat.ltb a b.
Proof.
  unfold name_ltb. destruct (digits_canon a) as [Ca Va]. destruct (digits_canon b) as [Cb Vb].
  destruct (Nat.ltb_spec (length (digits a)) (length (digits b))) as [Hl|Hl]; cbn [orb].
  - symmetry. apply Nat.ltb_lt. rewrite <- Va, <- Vb. apply shorter_smaller; assumption.
  - destruct (Nat.eqb_spec (length (digits a)) (length (digits b))) as [He|He]; cbn [andb].
    + rewrite (lex_ltb_val _ _ He (proj1 Ca) (proj1 Cb)). rewrite Va, Vb. reflexivity.
    + symmetry. apply Nat.ltb_ge. rewrite <- Va, <- Vb.
      assert (length (digits b) < length (digits a)) by lia.
      pose proof (shorter_smaller _ _ Cb Ca H). lia.
Qed.

(* what the memtable holds is logged, the in-memory index knows everything; while the flush has not flushed the index
   (positions 0, 1) the snapshot rows are still logged and every series in data files is covered; afterwards (2, 3) both
   are in the durable index *)
Definition Iinv (st : istate) : Prop :=
  incl (i_mem st) (i_walcur st) /\ incl (i_idxdur st) (i_idxmem st) /\ incl (i_files st) (i_idxmem st) /\
  incl (i_snap st) (i_idxmem st) /\ incl (i_mem st) (i_idxmem st) /\
  match i_pc st with
  | 0 | 1 => incl (i_snap st) (i_walold st) /\
             (forall s, In s (i_files st) -> In s (i_idxdur st) \/ In s (i_walold st) \/ In s (i_walcur st))
  | 2 => incl (i_snap st) (i_idxdur st) /\ incl (i_files st) (i_idxdur st)
  | 3 => i_snap st = [] /\ incl (i_files st) (i_idxdur st)
  | _ => False
  end.

Ltac inc := unfold incl in *; cbn [In]; intros; repeat rewrite in_app_iff in *; intuition auto.

Lemma Iinv_step st o : Iinv st -> Iinv (istep good_order st o).
Proof.
  destruct st as [mem snap files wc wo im idd pc]. unfold Iinv. cbn [i_mem i_snap i_files i_walcur i_walold i_idxmem i_idxdur i_pc].
  intros [A1 [A2 [A3 [A4 [A5 Hpc]]]]].
  destruct o as [s| |].
  - (* write: only the covering clause sees the longer log *)
    cbn. repeat split; try solve [inc].
    destruct pc as [|[|pc]]; try exact Hpc.
    all: destruct Hpc as [H1 H2]; split; [exact H1|]; intros x Hx; specialize (H2 x Hx); inc.
  - destruct pc as [|[|[|[|pc]]]]; cbn; cbn in Hpc.
    + destruct Hpc as [H1 H2]. repeat split; try solve [inc]. intros x Hx. specialize (H2 x Hx). inc.
    + destruct Hpc as [H1 H2]. repeat split; try solve [inc].
    + destruct Hpc as [H1 H2]. repeat split; try solve [inc].
    + destruct Hpc as [H1 H2]. subst snap. repeat split; try solve [inc].
    + exact (False_ind _ Hpc).
  - (* background index flush: the durable index becomes the in-memory one *)
    cbn. repeat split; try solve [inc].
    destruct pc as [|[|[|[|pc]]]]; try exact Hpc; destruct Hpc as [H1 H2].
    1,2: split; [exact H1|]; intros x Hx; specialize (H2 x Hx); inc.
    all: split; assumption.
Qed.

Lemma Iinv_run ops : Iinv (irun good_order ops).
Proof. apply (fold_left_inv (istep good_order) Iinv Iinv_step). unfold Iinv; cbn; repeat split; try solve [inc]. Qed.

Lemma Iinv_recoverable st : Iinv st -> recoverable st = true.
Proof.
  intros (_ & _ & _ & _ & _ & Hpc). unfold recoverable. apply forallb_forall. intros s Hs.
  assert (C : In s (i_idxdur st) \/ In s (i_walold st) \/ In s (i_walcur st)).
  { destruct (i_pc st) as [|[|[|[|pc]]]]; try destruct Hpc as [_ H];
      [apply H, Hs | apply H, Hs | left; apply H, Hs | left; apply H, Hs | destruct Hpc]. }
  destruct C as [X|[X|X]]; apply memN_In in X; rewrite X, ?orb_true_r; reflexivity.
Qed.
