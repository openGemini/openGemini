(* C01 proofs: concurrent write requests. With the exclusive section at the head of WAL.Write (barrier) the replay
   order respects the acknowledgement order: a request acknowledged before another one entered is replayed before it,
   although requests that are inside together may append to one partition in any order. *)
From Coq Require Import NArith ZArith List Bool Arith Lia.
From OG Require Import C01.Model C01.Proofs.
Import ListNotations.

Definition before {A} (x y : A) (l : list A) : Prop := exists l1 l2 l3, l = l1 ++ x :: l2 ++ y :: l3.

Lemma before_app_l {A} (x y : A) l0 l : before x y l -> before x y (l0 ++ l).
Proof. intros (l1 & l2 & l3 & E). exists (l0 ++ l1), l2, l3. rewrite E, app_assoc. reflexivity. Qed.
Lemma before_app_r {A} (x y : A) l0 l : before x y l -> before x y (l ++ l0).
Proof.
  intros (l1 & l2 & l3 & E). exists l1, l2, (l3 ++ l0). rewrite E.
  repeat (rewrite <- app_assoc; cbn [app]). reflexivity.
Qed.
Lemma before_in_in {A} (x y : A) l r : In x l -> In y r -> before x y (l ++ r).
Proof.
  intros Hx Hy. apply in_split in Hx. destruct Hx as (a & b & Ea). apply in_split in Hy. destruct Hy as (c & d & Ec).
  exists a, (b ++ c), d. rewrite Ea, Ec. repeat (rewrite <- app_assoc; cbn [app]). reflexivity.
Qed.

Section Lex.
Context {A : Type}.
Implicit Types parts : list (list A).

Lemma nth_tails parts p : nth p (tails parts) [] = tl (nth p parts []).
Proof. unfold tails. revert p. induction parts as [|a r IH]; intro p; destruct p; cbn; try reflexivity. apply IH. Qed.

Lemma heads_in parts p (y : A) : nth_error (nth p parts []) 0 = Some y -> In y (heads parts).
Proof.
  revert p. induction parts as [|a r IH]; intros p H.
  - destruct p; cbn in H; discriminate.
  - rewrite heads_cons. apply in_or_app. destruct p; cbn in H.
    + left. destruct a; [discriminate|]. inversion H; subst. left. reflexivity.
    + right. apply (IH p H).
Qed.

Lemma heads_before parts p1 p2 (x y : A) : p1 < p2 ->
  nth_error (nth p1 parts []) 0 = Some x -> nth_error (nth p2 parts []) 0 = Some y -> before x y (heads parts).
Proof.
  revert p1 p2. induction parts as [|a r IH]; intros p1 p2 Hlt Hx Hy.
  - destruct p1; cbn in Hx; discriminate.
  - rewrite heads_cons. destruct p2 as [|p2]; [lia|]. cbn [nth] in Hy. destruct p1 as [|p1].
    + cbn [nth] in Hx. destruct a as [|a0 a']; [discriminate|]. cbn in Hx. inversion Hx; subst.
      apply (before_in_in x y [x] (heads r)); [left; reflexivity | apply (heads_in r p2 y Hy)].
    + cbn [nth] in Hx. apply before_app_l. apply (IH p1 p2); [lia | exact Hx | exact Hy].
Qed.

Lemma nth_error_tl (l : list A) i : nth_error (tl l) i = nth_error l (S i).
Proof. destruct l; [destruct i; reflexivity | reflexivity]. Qed.

Lemma replay_in F : forall parts p i (y : A), nth_error (nth p parts []) i = Some y -> i < F -> In y (replay F parts).
Proof.
  induction F as [|f IH]; intros parts p i y H Hi; [lia|]. cbn [replay]. apply in_or_app. destruct i as [|i].
  - left. apply (heads_in parts p y H).
  - right. apply (IH (tails parts) p i y); [|lia]. rewrite nth_tails, nth_error_tl. exact H.
Qed.

(* the replay order is the lexicographic order of (position inside the partition, partition number) *)
Lemma replay_lex F : forall parts p1 i1 p2 i2 (x y : A),
  nth_error (nth p1 parts []) i1 = Some x -> nth_error (nth p2 parts []) i2 = Some y ->
  i1 < i2 \/ (i1 = i2 /\ p1 < p2) -> i2 < F -> before x y (replay F parts).
Proof.
  induction F as [|f IH]; intros parts p1 i1 p2 i2 x y Hx Hy Hl HF; [lia|]. cbn [replay]. destruct i1 as [|i1].
  - destruct i2 as [|i2].
    + apply before_app_r. apply (heads_before parts p1 p2 x y); [lia | exact Hx | exact Hy].
    + apply before_in_in; [apply (heads_in parts p1 x Hx)|].
      apply (replay_in f (tails parts) p2 i2 y); [rewrite nth_tails, nth_error_tl; exact Hy | lia].
  - destruct i2 as [|i2]; [lia|]. apply before_app_l.
    apply (IH (tails parts) p1 i1 p2 i2 x y); [rewrite nth_tails, nth_error_tl; exact Hx | rewrite nth_tails, nth_error_tl; exact Hy | lia | lia].
Qed.
End Lex.

(* how many of the slots 0..m-1 go to partition p *)
Fixpoint cnt (n p m : nat) : nat := match m with 0 => 0 | S m' => cnt n p m' + (if Nat.eqb (m' mod n) p then 1 else 0) end.

Lemma div_mod_S n m : 0 < n ->
  (S (m mod n) < n /\ S m / n = m / n /\ S m mod n = S (m mod n)) \/ (S (m mod n) = n /\ S m / n = S (m / n) /\ S m mod n = 0).
Proof.
  intro Hn. pose proof (Nat.div_mod m n ltac:(lia)) as E. pose proof (Nat.mod_upper_bound m n ltac:(lia)) as Hb.
  pose proof (Nat.div_mod (S m) n ltac:(lia)) as E'. pose proof (Nat.mod_upper_bound (S m) n ltac:(lia)) as Hb'.
  destruct (Nat.eq_dec (S (m mod n)) n) as [Heq|Hne]; [right | left]; split; try lia.
  - apply (Nat.div_mod_unique n (S m / n) (S (m / n)) (S m mod n) 0); lia.
  - apply (Nat.div_mod_unique n (S m / n) (m / n) (S m mod n) (S (m mod n))); lia.
Qed.

Lemma cnt_shape n p m : 0 < n -> p < n -> cnt n p m = m / n + (if Nat.ltb p (m mod n) then 1 else 0).
Proof.
  intros Hn Hp. induction m as [|m IH].
  - cbn. rewrite Nat.div_0_l, Nat.mod_0_l by lia. destruct (Nat.ltb_spec p 0); lia.
  - cbn [cnt]. rewrite IH. destruct (div_mod_S n m Hn) as [(H1 & H2 & H3)|(H1 & H2 & H3)]; rewrite H2, H3.
    + destruct (Nat.eqb_spec (m mod n) p), (Nat.ltb_spec p (m mod n)), (Nat.ltb_spec p (S (m mod n))); lia.
    + destruct (Nat.eqb_spec (m mod n) p), (Nat.ltb_spec p (m mod n)), (Nat.ltb_spec p 0); lia.
Qed.

(* staircase: a position below the count of p1 and a position at or above the count of p2 are in replay order *)
Lemma staircase n m p1 p2 i1 i2 : 0 < n -> p1 < n -> p2 < n -> i1 < cnt n p1 m -> cnt n p2 m <= i2 ->
  i1 < i2 \/ (i1 = i2 /\ p1 < p2).
Proof.
  intros Hn H1 H2 Ha Hb. rewrite (cnt_shape n p1 m Hn H1) in Ha. rewrite (cnt_shape n p2 m Hn H2) in Hb.
  destruct (Nat.ltb_spec p1 (m mod n)), (Nat.ltb_spec p2 (m mod n)); lia.
Qed.

Definition inpart (n p : nat) (l : list nat) : nat := length (filter (fun s => Nat.eqb (s mod n) p) l).

(* Slots are handed out in increasing order and slot s goes to partition s mod n, so once every request with a slot has
   appended, partition p holds cnt n p ctr records. With the barrier nobody is inside when the exclusive section is entered
   (counter value m): partition p then holds exactly its cnt n p m records, all of slots below m, and every later append
   (a slot >= m) lands at a position >= cnt n p m. wi_quiet keeps that for every recorded entry; the clauses before it
   are what its preservation needs. *)
Record cwinv (n : nat) (st : cwstate) : Prop := mkinv {
  wi_len : length (cw_parts st) = n;
  wi_cnt : forall p, p < n -> length (nth p (cw_parts st) []) + inpart n p (cw_inside st) = cnt n p (cw_ctr st);
  wi_nodup : NoDup (cw_inside st);
  wi_inside_lt : forall s, In s (cw_inside st) -> s < cw_ctr st;
  wi_disk_lt : forall p i s, nth_error (nth p (cw_parts st) []) i = Some s -> s < cw_ctr st;
  wi_app_disk : forall s, In s (cw_appended st) -> exists i, nth_error (nth (s mod n) (cw_parts st) []) i = Some s;
  wi_ack_app : forall s, In s (cw_acked st) -> In s (cw_appended st);
  wi_quiet : forall m A, In (m, A) (cw_quiet st) ->
     m <= cw_ctr st /\ (forall s, In s (cw_inside st) -> m <= s) /\ (forall s, In s A -> s < m /\ In s (cw_appended st)) /\
     forall p, p < n -> cnt n p m <= length (nth p (cw_parts st) []) /\
        forall i s, nth_error (nth p (cw_parts st) []) i = Some s -> (i < cnt n p m -> s < m) /\ (cnt n p m <= i -> m <= s)
}.

Lemma nth_app_at {A} (x : A) : forall parts q p, q < length parts ->
  nth p (app_at q x parts) [] = if Nat.eqb p q then nth p parts [] ++ [x] else nth p parts [].
Proof.
  induction parts as [|a r IH]; intros q p Hq; [cbn in Hq; lia|]. destruct q as [|q]; destruct p as [|p]; cbn; try reflexivity.
  cbn in Hq. rewrite IH by lia. reflexivity.
Qed.

Lemma nodup_remove (s : nat) l : NoDup l -> NoDup (remove Nat.eq_dec s l).
Proof.
  induction 1 as [|a l Hn Hd IH]; cbn; [constructor|]. destruct (Nat.eq_dec s a); [exact IH|]. constructor; [|exact IH].
  intro Hi. apply in_remove in Hi. tauto.
Qed.

Lemma inpart_remove n p s l : NoDup l -> In s l ->
  inpart n p (remove Nat.eq_dec s l) + (if Nat.eqb (s mod n) p then 1 else 0) = inpart n p l.
Proof.
  unfold inpart. induction 1 as [|a l Hn Hd IH]; intro Hi; [destruct Hi|]. cbn [remove filter].
  destruct (Nat.eq_dec s a) as [E|E].
  - subst a. rewrite (notin_remove Nat.eq_dec l s Hn). destruct (Nat.eqb (s mod n) p); cbn; lia.
  - destruct Hi as [Hi|Hi]; [congruence|]. specialize (IH Hi). cbn [filter]. destruct (Nat.eqb (a mod n) p); cbn [length]; lia.
Qed.

Lemma nth_error_snoc {A} (l : list A) (x y : A) i : nth_error (l ++ [x]) i = Some y ->
  (i < length l /\ nth_error l i = Some y) \/ (i = length l /\ y = x).
Proof.
  intro H. destruct (Nat.lt_ge_cases i (length l)) as [Hlt|Hge].
  - left. split; [exact Hlt|]. rewrite nth_error_app1 in H by exact Hlt. exact H.
  - right. rewrite nth_error_app2 in H by exact Hge. destruct (i - length l) as [|k] eqn:E.
    + cbn in H. inversion H. split; [lia | reflexivity].
    + cbn in H. destruct k; discriminate.
Qed.

Lemma memb_In x l : memb x l = true <-> In x l.
Proof. apply existsb_eqb_In. intro y. apply Nat.eqb_eq. Qed.

Lemma cwstep_inv n st o : 0 < n -> cwinv n st -> cwinv n (cwstep true n st o).
Proof.
  intros Hn I. destruct I as [I1 I2 I3 I4 I5 I6 I7 I8]. destruct o as [| |s|s]; unfold cwstep.
  - (* CEnter *)
    cbn [andb]. destruct (cw_inside st) as [|x ins] eqn:Ei; cbn [negb]; [|rewrite <- Ei in *; constructor; auto].
    apply mkinv; cbn [cw_ctr cw_parts cw_waiting cw_inside cw_appended cw_acked cw_quiet]; rewrite ?Ei; auto.
    intros m A [E|Hq]; [|exact (I8 m A Hq)].
    inversion E; subst m A. split; [lia|]. split; [intros s []|]. split.
    + intros s Hs. pose proof (I7 s Hs) as Ha. destruct (I6 s Ha) as [i Hi]. split; [apply (I5 _ i s Hi) | exact Ha].
    + intros p Hp. specialize (I2 p Hp). unfold inpart in I2. cbn in I2. split; [lia|].
      intros i s Hs. split; [intros _; apply (I5 p i s Hs)|].
      intro Hge. assert (i < length (nth p (cw_parts st) [])) by (apply nth_error_Some; congruence). lia.
  - (* CSlot *)
    destruct (cw_waiting st) as [|k]; [constructor; auto|].
    constructor; cbn [cw_ctr cw_parts cw_waiting cw_inside cw_appended cw_acked cw_quiet]; auto.
    + intros p Hp. specialize (I2 p Hp). unfold inpart in *. cbn [filter cnt]. destruct (Nat.eqb (cw_ctr st mod n) p); cbn [length]; lia.
    + constructor; [|exact I3]. intro Hi. apply I4 in Hi. lia.
    + intros s [E|Hs]; [lia | apply I4 in Hs; lia].
    + intros p i s Hs. apply I5 in Hs. lia.
    + intros m A Hq. destruct (I8 m A Hq) as (Q1 & Q2 & Q3 & Q4). split; [lia|]. split; [|split; [exact Q3 | exact Q4]].
      intros s [E|Hs]; [lia | apply Q2; exact Hs].
  - (* CAppend *)
    destruct (memb s (cw_inside st)) eqn:Em; [|constructor; auto]. apply memb_In in Em.
    assert (Hq : s mod n < length (cw_parts st)) by (rewrite I1; apply Nat.mod_upper_bound; lia).
    assert (Hnth : forall p, nth p (app_at (s mod n) s (cw_parts st)) [] =
                             if Nat.eqb p (s mod n) then nth p (cw_parts st) [] ++ [s] else nth p (cw_parts st) [])
      by (intro p; apply nth_app_at; exact Hq).
    constructor; cbn [cw_ctr cw_parts cw_waiting cw_inside cw_appended cw_acked cw_quiet].
    + rewrite app_at_length. exact I1.
    + intros p Hp. specialize (I2 p Hp). pose proof (inpart_remove n p s (cw_inside st) I3 Em) as R. rewrite Hnth.
      rewrite (Nat.eqb_sym p (s mod n)). destruct (Nat.eqb (s mod n) p); [rewrite app_length; cbn [length]; lia | lia].
    + apply nodup_remove. exact I3.
    + intros x Hx. apply in_remove in Hx. apply I4. tauto.
    + intros p i x Hx. rewrite Hnth in Hx. destruct (Nat.eqb p (s mod n)); [|apply (I5 p i x Hx)].
      apply nth_error_snoc in Hx. destruct Hx as [[_ Hx]|[_ Hx]]; [apply (I5 p i x Hx) | subst x; apply I4; exact Em].
    + intros x [E|Hx].
      * subst x. exists (length (nth (s mod n) (cw_parts st) [])). rewrite Hnth, Nat.eqb_refl.
        rewrite nth_error_app2 by lia. rewrite Nat.sub_diag. reflexivity.
      * destruct (I6 x Hx) as [i Hi]. rewrite Hnth. destruct (Nat.eqb (x mod n) (s mod n)); [|exists i; exact Hi].
        exists i. rewrite nth_error_app1; [exact Hi | apply nth_error_Some; congruence].
    + intros x Hx. right. apply I7. exact Hx.
    + intros m A Hqm. destruct (I8 m A Hqm) as (Q1 & Q2 & Q3 & Q4). split; [exact Q1|]. split; [|split].
      * intros x Hx. apply in_remove in Hx. apply Q2. tauto.
      * intros x Hx. destruct (Q3 x Hx) as [Ha Hb]. split; [exact Ha | right; exact Hb].
      * intros p Hp. destruct (Q4 p Hp) as [L E]. rewrite Hnth. destruct (Nat.eqb p (s mod n)); [|split; [exact L | exact E]].
        split; [rewrite app_length; lia|]. intros i x Hx. apply nth_error_snoc in Hx. destruct Hx as [[_ Hx]|[Hi Hx]]; [apply (E i x Hx)|].
        subst x. split; [intro; lia | intros _; apply Q2; exact Em].
  - (* CAck *)
    destruct (memb s (cw_appended st)) eqn:Em; [|constructor; auto]. apply memb_In in Em.
    constructor; cbn [cw_ctr cw_parts cw_waiting cw_inside cw_appended cw_acked cw_quiet]; auto.
    intros x [E|Hx]; [subst; exact Em | apply I7; exact Hx].
Qed.

Lemma nth_repeat_nil {A} n p : nth p (repeat (@nil A) n) [] = [].
Proof. revert p. induction n; intro p; destruct p; cbn; auto. Qed.

Lemma cwinit_inv n : cwinv n (cwinit n).
Proof.
  apply mkinv; unfold cwinit; cbn [cw_ctr cw_parts cw_waiting cw_inside cw_appended cw_acked cw_quiet].
  - apply repeat_length.
  - intros p _. rewrite nth_repeat_nil. reflexivity.
  - constructor.
  - intros s [].
  - intros p i s H. rewrite nth_repeat_nil in H. destruct i; discriminate.
  - intros s [].
  - intros s [].
  - intros m A [].
Qed.

Lemma cwrun_inv n ops : 0 < n -> cwinv n (cwrun true n ops).
Proof. intro Hn. apply (fold_left_inv (cwstep true n) (cwinv n)); [intros st o; apply cwstep_inv, Hn | apply cwinit_inv]. Qed.

Lemma length_le_total {A} (parts : list (list A)) p : length (nth p parts []) <= total parts.
Proof.
  revert p. induction parts as [|a r IH]; intro p; [destruct p; cbn; lia|]. unfold total in *. destruct p; cbn; [lia|].
  specialize (IH p). lia.
Qed.

(* With the barrier: take any entry into the exclusive section (counter value m at that moment). Every record of a slot below
   m - in particular every request acknowledged by then - is replayed before every record of a slot >= m - in particular every
   request that entered then or later - wherever the two records sit and whatever the requests that were inside together did
   to the order inside a partition. *)
Theorem barrier_order n st m A p1 i1 s1 p2 i2 s2 : 0 < n -> cwinv n st -> In (m, A) (cw_quiet st) ->
  nth_error (nth p1 (cw_parts st) []) i1 = Some s1 -> nth_error (nth p2 (cw_parts st) []) i2 = Some s2 ->
  s1 < m -> m <= s2 -> before s1 s2 (cw_replay st).
Proof.
  intros Hn I Hq H1 H2 Hlt Hge. destruct I as [I1 _ _ _ _ _ _ I8]. destruct (I8 m A Hq) as (_ & _ & _ & Q4).
  assert (P : forall p i s, nth_error (nth p (cw_parts st) []) i = Some s -> p < n).
  { intros p i s H. rewrite <- I1. destruct (Nat.lt_ge_cases p (length (cw_parts st))) as [|Hp]; [assumption|].
    rewrite (nth_overflow _ _ Hp) in H. destruct i; discriminate. }
  pose proof (P _ _ _ H1) as P1. pose proof (P _ _ _ H2) as P2.
  destruct (Q4 p1 P1) as [_ E1]. destruct (Q4 p2 P2) as [_ E2].
  assert (C1 : i1 < cnt n p1 m). { destruct (Nat.lt_ge_cases i1 (cnt n p1 m)) as [|Hc]; [assumption|]. apply (E1 i1 s1 H1) in Hc. lia. }
  assert (C2 : cnt n p2 m <= i2). { destruct (Nat.lt_ge_cases i2 (cnt n p2 m)) as [Hc|]; [|assumption]. apply (E2 i2 s2 H2) in Hc. lia. }
  unfold cw_replay. apply (replay_lex (total (cw_parts st)) (cw_parts st) p1 i1 p2 i2 s1 s2 H1 H2).
  - apply (staircase n m p1 p2 i1 i2 Hn P1 P2 C1 C2).
  - assert (i2 < length (nth p2 (cw_parts st) [])) by (apply nth_error_Some; congruence). pose proof (length_le_total (cw_parts st) p2). lia.
Qed.

(* ... and the requests acknowledged when the exclusive section was entered are on disk, with slots below m *)
Theorem acked_at_entry_on_disk n st m A s : cwinv n st -> In (m, A) (cw_quiet st) -> In s A ->
  s < m /\ exists i, nth_error (nth (s mod n) (cw_parts st) []) i = Some s.
Proof.
  intros [_ _ _ _ _ I6 _ I8] Hq Hs.
  destruct (I8 m A Hq) as (_ & _ & Q3 & _). destruct (Q3 s Hs) as [Ha Hb]. split; [exact Ha | apply (I6 s Hb)].
Qed.

(* sensitivity: without the exclusive section (a WAL.Write that takes its slot without first waiting for the requests inside)
   a request acknowledged before another one entered can be replayed after it: 2 partitions, request 0 takes slot 0 and stalls
   before its partition lock, request 1 (slot 1) is written and acknowledged, THEN request 2 enters, takes slot 2 (partition 0
   again), is written; request 0 is written last. Replay: 2, 1, 0 - request 1 after request 2. *)
Definition nobarrier_ops : list cwop := [CEnter; CSlot; CEnter; CSlot; CAppend 1; CAck 1; CEnter; CSlot; CAppend 2; CAck 2; CAppend 0; CAck 0].
