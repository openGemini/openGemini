(* C16: generic list lemmas (sublists, first-match update, Forall2-related lists, consecutive numbers). *)
From Coq Require Import ZArith List Lia Sorting.Sorted Sorting.Permutation.
From OG Require Import C16.Model.
Import ListNotations.
Open Scope Z_scope.

Inductive subl {A} : list A -> list A -> Prop :=
| subl_nil : subl [] []
| subl_skip : forall x l1 l2, subl l1 l2 -> subl l1 (x :: l2)
| subl_keep : forall x l1 l2, subl l1 l2 -> subl (x :: l1) (x :: l2).

Lemma subl_refl : forall {A} (l : list A), subl l l.
Proof. induction l; constructor; assumption. Qed.

Lemma subl_nil_l : forall {A} (l : list A), subl [] l.
Proof. induction l; constructor; assumption. Qed.

Lemma subl_In : forall {A} (l1 l2 : list A) x, subl l1 l2 -> In x l1 -> In x l2.
Proof. induction 1; cbn; intros; tauto. Qed.

Lemma subl_Forall : forall {A} (P : A -> Prop) l1 l2, subl l1 l2 -> Forall P l2 -> Forall P l1.
Proof.
  induction 1; intros HF; [constructor | inversion HF; auto |].
  inversion HF; subst. constructor; auto.
Qed.

Lemma subl_NoDup : forall {A} (l1 l2 : list A), subl l1 l2 -> NoDup l2 -> NoDup l1.
Proof.
  induction 1; intros HN; [constructor | inversion HN; auto |].
  inversion HN; subst. constructor; [|auto]. intro Hin. apply (subl_In _ _ _ H) in Hin. contradiction.
Qed.

Lemma subl_app : forall {A} (a1 a2 b1 b2 : list A), subl a1 a2 -> subl b1 b2 -> subl (a1 ++ b1) (a2 ++ b2).
Proof. induction 1; cbn; intros; [assumption | apply subl_skip; auto | apply subl_keep; auto]. Qed.

Lemma subl_filter : forall {A} (f : A -> bool) l, subl (filter f l) l.
Proof. induction l; cbn; [constructor|]. destruct (f a); [apply subl_keep | apply subl_skip]; assumption. Qed.

Lemma subl_map : forall {A B} (f : A -> B) l1 l2, subl l1 l2 -> subl (map f l1) (map f l2).
Proof. induction 1; cbn; [constructor | apply subl_skip; assumption | apply subl_keep; assumption]. Qed.

Lemma subl_flat_map : forall {A B} (f : A -> list B) l1 l2, subl l1 l2 -> subl (flat_map f l1) (flat_map f l2).
Proof.
  induction 1; cbn; [constructor | | apply subl_app; [apply subl_refl | assumption]].
  change (flat_map f l1) with ([] ++ flat_map f l1). apply subl_app; [apply subl_nil_l | assumption].
Qed.

Lemma subl_flat_map_pointwise : forall {A B} (f : A -> list B) (h : A -> A) l,
  (forall x, subl (f (h x)) (f x)) -> subl (flat_map f (map h l)) (flat_map f l).
Proof. intros A B f h l H. induction l; cbn; [constructor | apply subl_app; auto]. Qed.

Lemma subl_trans : forall {A} (l1 l2 l3 : list A), subl l1 l2 -> subl l2 l3 -> subl l1 l3.
Proof.
  intros A l1 l2 l3 H12 H23. revert l1 H12. induction H23; intros l0 H12.
  - assumption.
  - apply subl_skip. auto.
  - inversion H12; subst; [apply subl_skip; auto | apply subl_keep; auto].
Qed.

Lemma subl_ForallOrdPairs : forall {A} (R : A -> A -> Prop) l1 l2, subl l1 l2 -> ForallOrdPairs R l2 -> ForallOrdPairs R l1.
Proof.
  induction 1; intros HF; [constructor | inversion HF; auto |].
  inversion HF; subst. constructor; [|auto]. eapply subl_Forall; eassumption.
Qed.

Lemma subl_StronglySorted : forall {A} (R : A -> A -> Prop) l1 l2, subl l1 l2 -> StronglySorted R l2 -> StronglySorted R l1.
Proof.
  induction 1; intros HS; [constructor | inversion HS; auto |].
  inversion HS; subst. constructor; [auto|]. eapply subl_Forall; eassumption.
Qed.

Lemma LocallySorted_Strongly : forall {A} (R : A -> A -> Prop), (forall x y z, R x y -> R y z -> R x z) ->
  forall l, LocallySorted R l <-> StronglySorted R l.
Proof.
  intros A R T l. rewrite <- Sorted_LocallySorted_iff. split.
  - apply Sorted_StronglySorted. exact T.
  - apply StronglySorted_Sorted.
Qed.

Section UpdFirst.
  Context {A : Type} (P : A -> bool) (g : A -> A).

  Notation updf := (upd_first P g).

  Lemma updf_length : forall l, length (updf l) = length l.
  Proof. induction l; cbn; [reflexivity|]. destruct (P a); cbn; congruence. Qed.

  Lemma updf_none : forall l, find P l = None -> updf l = l.
  Proof. induction l; cbn; [reflexivity|]. destruct (P a); [discriminate | intros; f_equal; auto]. Qed.

  Lemma updf_Forall2 : forall (R : A -> A -> Prop), (forall x, R x x) -> (forall x, P x = true -> R x (g x)) ->
    forall l, Forall2 R l (updf l).
  Proof.
    intros R Hr Hg. induction l; cbn; [constructor|]. destruct (P a) eqn:E.
    - constructor; [auto|]. clear IHl. induction l; constructor; auto.
    - constructor; auto.
  Qed.

  Lemma updf_map_same : forall {B} (h : A -> B), (forall x, P x = true -> h (g x) = h x) -> forall l, map h (updf l) = map h l.
  Proof. intros B h H. induction l; cbn; [reflexivity|]. destruct (P a) eqn:E; cbn; f_equal; auto. Qed.

  Lemma updf_flat_map_same : forall {B} (h : A -> list B), (forall x, P x = true -> h (g x) = h x) ->
    forall l, flat_map h (updf l) = flat_map h l.
  Proof. intros B h H. induction l; cbn; [reflexivity|]. destruct (P a) eqn:E; cbn; f_equal; auto. Qed.

  Lemma updf_Forall : forall (Q : A -> Prop), (forall x, P x = true -> Q x -> Q (g x)) -> forall l, Forall Q l -> Forall Q (updf l).
  Proof.
    intros Q H. induction l; cbn; intros HF; [constructor|]. inversion HF; subst.
    destruct (P a) eqn:E; constructor; auto.
  Qed.

  Lemma updf_flat_map_perm : forall {B} (h : A -> list B) (extra : list B) x l,
    find P l = Some x -> Permutation (h (g x)) (extra ++ h x) ->
    Permutation (flat_map h (updf l)) (extra ++ flat_map h l).
  Proof.
    intros B h extra x. induction l; cbn; [discriminate|]. destruct (P a) eqn:E.
    - intros Hx Hp. inversion Hx; subst. rewrite app_assoc. apply Permutation_app_tail. assumption.
    - intros Hx Hp. specialize (IHl Hx Hp).
      eapply Permutation_trans; [apply Permutation_app_head; exact IHl|].
      rewrite !app_assoc. apply Permutation_app_tail. apply Permutation_app_comm.
  Qed.

  Lemma updf_In : forall l y, In y (updf l) -> In y l \/ exists x, In x l /\ P x = true /\ y = g x.
  Proof.
    induction l; cbn; [tauto|]. intros y. destruct (P a) eqn:E; cbn.
    - intros [H|H]; [right; exists a; auto | auto].
    - intros [H|H]; [auto|]. destruct (IHl y H) as [?|[x [? [? ?]]]]; [auto | right; exists x; auto].
  Qed.
End UpdFirst.

Lemma find_some_In : forall {A} (P : A -> bool) l x, find P l = Some x -> In x l /\ P x = true.
Proof. intros. apply find_some. assumption. Qed.

Lemma Forall2_map_eq : forall {A B} (R : A -> A -> Prop) (h : A -> B) l l',
  (forall x y, R x y -> h y = h x) -> Forall2 R l l' -> map h l' = map h l.
Proof. intros A B R h l l' H. induction 1; cbn; [reflexivity | f_equal; auto]. Qed.

Lemma Forall2_flat_map_eq : forall {A B} (R : A -> A -> Prop) (h : A -> list B) l l',
  (forall x y, R x y -> h y = h x) -> Forall2 R l l' -> flat_map h l' = flat_map h l.
Proof. intros A B R h l l' H. induction 1; cbn; [reflexivity | f_equal; auto]. Qed.

Lemma Forall2_Forall : forall {A} (R : A -> A -> Prop) (Q : A -> Prop) l l',
  (forall x y, R x y -> Q x -> Q y) -> Forall2 R l l' -> Forall Q l -> Forall Q l'.
Proof. intros A R Q l l' H. induction 1; intros HF; [constructor|]. inversion HF; subst. constructor; eauto. Qed.

Lemma Forall2_ForallOrdPairs : forall {A} (R : A -> A -> Prop) (D : A -> A -> Prop) l l',
  (forall x y x' y', R x x' -> R y y' -> D x y -> D x' y') -> Forall2 R l l' -> ForallOrdPairs D l -> ForallOrdPairs D l'.
Proof.
  intros A R D l l' H. induction 1; intros HF; [constructor|]. inversion HF; subst. constructor; [|auto].
  clear - H H0 H1 H4. induction H1; [constructor|]. inversion H4; subst. constructor; eauto.
Qed.

Lemma Forall2_LocallySorted : forall {A} (R : A -> A -> Prop) (K : A -> A -> Prop) l l',
  (forall x y x' y', R x x' -> R y y' -> K x y -> K x' y') -> Forall2 R l l' -> LocallySorted K l -> LocallySorted K l'.
Proof.
  intros A R K l l' H. induction 1; intros HS; [constructor|].
  inversion HS; subst.
  - inversion H1; subst. constructor.
  - inversion H1; subst. constructor; [apply IHForall2; assumption | eauto].
Qed.

Lemma Forall2_map_r : forall {A} (R : A -> A -> Prop) (h : A -> A) l, (forall x, R x (h x)) -> Forall2 R l (map h l).
Proof. intros. induction l; cbn; constructor; auto. Qed.

(* through an equation, so that the caller may hand in any list convertible to a zseq (and eq_refl) *)
Lemma in_zseq : forall zs k a x, zs = zseq a k -> (In x zs <-> a <= x < a + Z.of_nat k).
Proof.
  intros zs k. revert zs. induction k; intros zs a x ->; cbn [zseq In].
  - lia.
  - rewrite (IHk _ (a + 1) x eq_refl). lia.
Qed.

Lemma NoDup_zseq : forall k a, NoDup (zseq a k).
Proof.
  induction k; intros a; cbn; constructor; [|apply IHk].
  rewrite (in_zseq _ k (a + 1) a eq_refl). lia.
Qed.

Lemma length_zseq : forall k a, length (zseq a k) = k.
Proof. induction k; intros; cbn; [reflexivity | f_equal; apply IHk]. Qed.

Lemma NoDup_map_inj_in : forall {A B} (f : A -> B) l, (forall x y, In x l -> In y l -> f x = f y -> x = y) -> NoDup l -> NoDup (map f l).
Proof.
  intros A B f l. induction l; intros Hinj HN; cbn; [constructor|]. inversion HN; subst. constructor.
  - intro Hin. apply in_map_iff in Hin. destruct Hin as [y [E Hy]].
    assert (y = a) by (apply Hinj; cbn; auto). subst. contradiction.
  - apply IHl; [|assumption]. intros. apply Hinj; cbn; auto.
Qed.

Lemma NoDup_app_bound : forall (l1 l2 : list Z) m, NoDup l1 -> NoDup l2 -> Forall (fun x => m < x) l1 -> Forall (fun x => x <= m) l2 -> NoDup (l1 ++ l2).
Proof.
  induction l1; intros l2 m H1 H2 F1 F2; cbn; [assumption|].
  inversion H1; subst. inversion F1; subst. constructor; [|eapply IHl1; eassumption].
  rewrite in_app_iff. intros [Hin|Hin]; [contradiction|].
  rewrite Forall_forall in F2. specialize (F2 _ Hin). cbn in F2. lia.
Qed.

Lemma Forall2_flat_map_subl : forall {A B} (f : A -> list B) l l',
  Forall2 (fun x y => subl (f y) (f x)) l l' -> subl (flat_map f l') (flat_map f l).
Proof. induction 1; cbn; [constructor | apply subl_app; assumption]. Qed.

Lemma find_none_forall : forall {A} (P : A -> bool) l, find P l = None -> forall x, In x l -> P x = false.
Proof. intros. eapply find_none; eassumption. Qed.

Lemma NoDup_map_eq : forall {A B} (f : A -> B) l x y, NoDup (map f l) -> In x l -> In y l -> f x = f y -> x = y.
Proof.
  induction l; cbn; intros x y HN Hx Hy E; [tauto|]. inversion HN; subst.
  destruct Hx as [Hx|Hx], Hy as [Hy|Hy]; subst; auto.
  - exfalso. apply H1. rewrite E. apply in_map. assumption.
  - exfalso. apply H1. rewrite <- E. apply in_map. assumption.
Qed.

Lemma find_first_unique : forall {A} (P : A -> bool) l x y, find P l = Some x -> (forall a b, In a l -> In b l -> P a = true -> P b = true -> a = b) ->
  In y l -> P y = true -> y = x.
Proof. intros A P l x y Hf Hu Hy Py. apply find_some in Hf. destruct Hf. apply Hu; auto. Qed.

Lemma NoDup_snoc : forall {A} (l : list A) x, NoDup l -> ~ In x l -> NoDup (l ++ [x]).
Proof.
  intros A l x HN Hx. induction l; cbn; [constructor; [tauto | constructor]|].
  inversion HN; subst. constructor.
  - rewrite in_app_iff. cbn. intros [?|[?|[]]]; [contradiction|]. subst. apply Hx. left. reflexivity.
  - apply IHl; [assumption|]. intro. apply Hx. right. assumption.
Qed.

Lemma upd_first_as_map : forall {A} (key : A -> Z) (k : Z) (g : A -> A) l, NoDup (map key l) ->
  upd_first (fun x => key x =? k) g l = map (fun x => if key x =? k then g x else x) l.
Proof.
  induction l; cbn; intros HN; [reflexivity|]. inversion HN; subst.
  destruct (key a =? k) eqn:E.
  - f_equal. rewrite <- (map_id l) at 1. apply map_ext_in. intros x Hx.
    destruct (key x =? k) eqn:Ex; [|reflexivity]. exfalso. apply H1.
    assert (key a = key x) by lia. rewrite H. apply in_map. assumption.
  - f_equal. apply IHl. assumption.
Qed.

Lemma Forall2_impl : forall {A B} (R1 R2 : A -> B -> Prop) l l', (forall x y, R1 x y -> R2 x y) -> Forall2 R1 l l' -> Forall2 R2 l l'.
Proof. intros A B R1 R2 l l' H. induction 1; constructor; auto. Qed.

Lemma updf_Forall_first : forall {A} (P : A -> bool) (g : A -> A) (Q : A -> Prop) l x,
  find P l = Some x -> Forall Q l -> Q (g x) -> Forall Q (upd_first P g l).
Proof.
  intros A P g Q l x. induction l; cbn; [discriminate|]. destruct (P a) eqn:E; intros Hf HF Hq; inversion HF; subst.
  - inversion Hf; subst. constructor; assumption.
  - constructor; [assumption | apply IHl; assumption].
Qed.

Lemma updf_map_first : forall {A B} (P : A -> bool) (g : A -> A) (h : A -> B) l x,
  find P l = Some x -> h (g x) = h x -> map h (upd_first P g l) = map h l.
Proof.
  intros A B P g h l x. induction l; cbn; [discriminate|]. destruct (P a) eqn:E; intros Hf Hh; cbn; f_equal.
  - inversion Hf; subst. assumption.
  - apply IHl; assumption.
Qed.

Lemma Forall2_In_r : forall {A} (R : A -> A -> Prop) l l' y, Forall2 R l l' -> In y l' -> exists x, In x l /\ R x y.
Proof.
  induction 1; cbn; [tauto|]. intros [E|Hin]; [subst; exists x; auto|].
  destruct (IHForall2 Hin) as [z [? ?]]. exists z. auto.
Qed.

Lemma updf_map_NoDup : forall {A B} (P : A -> bool) (g : A -> A) (h : A -> B) l, NoDup (map h l) ->
  (forall y, In y l -> P y = true -> h (g y) = h y \/ ~ In (h (g y)) (map h l)) -> NoDup (map h (upd_first P g l)).
Proof.
  intros A B P g h. induction l as [|a l IH]; cbn [upd_first map]; intros HN Hg; [constructor|].
  inversion HN; subst. destruct (P a) eqn:E; cbn [map].
  - constructor; [|assumption]. destruct (Hg a (or_introl eq_refl) E) as [Eq|Nin]; [rewrite Eq; assumption|].
    intro Hin. apply Nin. cbn. right. exact Hin.
  - constructor.
    + intro Hin. apply in_map_iff in Hin. destruct Hin as [y [Ey Hy]]. apply updf_In in Hy.
      destruct Hy as [Hy|[z [Hz [Pz ->]]]].
      * apply H1. rewrite <- Ey. apply in_map. exact Hy.
      * destruct (Hg z (or_intror Hz) Pz) as [Eq|Nin].
        -- apply H1. rewrite <- Ey, Eq. apply in_map. exact Hz.
        -- apply Nin. rewrite Ey. cbn. left. reflexivity.
    + apply IH; [assumption|]. intros y Hy Py. destruct (Hg y (or_intror Hy) Py) as [Eq|Nin]; [left; exact Eq|right].
      intro Hin. apply Nin. cbn. right. exact Hin.
Qed.

Lemma updf_map_In_other : forall {A B} (P : A -> bool) (g : A -> A) (h : A -> B) l k, In k (map h l) ->
  (forall y, P y = true -> h y <> k) -> In k (map h (upd_first P g l)).
Proof.
  intros A B P g h. induction l as [|a l IH]; cbn [upd_first map]; intros k Hin Hk; [contradiction|].
  destruct (P a) eqn:E; cbn [map].
  - destruct Hin as [Ha|Hin]; [exfalso; exact (Hk a E Ha) | right; exact Hin].
  - destruct Hin as [Ha|Hin]; [left; exact Ha | right; apply IH; assumption].
Qed.

Lemma flat_map_snoc_nil : forall {A B} (f : A -> list B) l x, f x = [] -> flat_map f (l ++ [x]) = flat_map f l.
Proof. intros. rewrite flat_map_app. cbn. rewrite H. rewrite !app_nil_r. reflexivity. Qed.

Lemma In_updf_first : forall {A} (P : A -> bool) (g : A -> A) l x, find P l = Some x -> In (g x) (upd_first P g l).
Proof.
  intros A P g. induction l as [|a l IH]; cbn; [discriminate|]. intros x. destruct (P a) eqn:E; intros Hf.
  - inversion Hf; subst. left. reflexivity.
  - right. apply IH. exact Hf.
Qed.

Lemma find_filter_some : forall {A} (g f : A -> bool) l x, find g l = Some x -> f x = true -> find g (filter f l) = Some x.
Proof.
  intros A g f. induction l as [|a l IH]; cbn; [discriminate|]. intros x. destruct (g a) eqn:Eg; intros Hf Fx.
  - inversion Hf; subst. rewrite Fx. cbn. rewrite Eg. reflexivity.
  - destruct (f a); [cbn; rewrite Eg|]; apply IH; assumption.
Qed.

Lemma find_split : forall {A} (P : A -> bool) l x, find P l = Some x ->
  exists l1 l2, l = l1 ++ x :: l2 /\ forall g, upd_first P g l = l1 ++ g x :: l2.
Proof.
  intros A P. induction l as [|a l IH]; cbn; [discriminate|]. intros x. destruct (P a) eqn:E; intros Hf.
  - inversion Hf; subst. exists [], l. split; reflexivity.
  - destruct (IH x Hf) as (l1 & l2 & E1 & E2). exists (a :: l1), l2. split; [cbn; rewrite E1; reflexivity|].
    intros g. cbn. rewrite E2. reflexivity.
Qed.

Lemma FOP_replace : forall {A} (R : A -> A -> Prop) l1 x y l2, ForallOrdPairs R (l1 ++ x :: l2) ->
  Forall (fun a => R a y) l1 -> Forall (R y) l2 -> ForallOrdPairs R (l1 ++ y :: l2).
Proof.
  intros A R. induction l1 as [|a l1 IH]; cbn; intros x y l2 HP H1 H2.
  - inversion HP; subst. constructor; assumption.
  - inversion HP; subst. inversion H1; subst. constructor; [|eapply IH; eassumption].
    apply Forall_app in H3. destruct H3 as [F1 F2]. inversion F2; subst.
    apply Forall_app. split; [exact F1|]. constructor; assumption.
Qed.

Lemma NoDup_app_parts : forall {A} (l1 l2 : list A), NoDup (l1 ++ l2) -> NoDup l1 /\ NoDup l2 /\ (forall x, In x l1 -> In x l2 -> False).
Proof.
  intros A. induction l1 as [|a l1 IH]; cbn; intros l2 HN.
  - split; [constructor|]. split; [exact HN | intros x []].
  - inversion HN; subst. destruct (IH l2 H2) as (N1 & N2 & D). split; [|split; [exact N2|]].
    + constructor; [|exact N1]. intro Hin. apply H1. apply in_or_app. left. exact Hin.
    + intros x [->|Hx] Hx2; [apply H1; apply in_or_app; right; exact Hx2 | exact (D x Hx Hx2)].
Qed.
