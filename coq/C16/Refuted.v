(* C16: each code variant without one of the repairs (apply_current = apply false false on init_cat: without any) violates the
   statement; witnesses closed by vm_compute. *)
From Coq Require Import ZArith List Bool.
From OG Require Import C16.Model C16.Wf.
Import ListNotations.
Open Scope Z_scope.

(* groups of 1 h; the shard-group duration is altered to 1 d; a group is created for an instant of the same day outside
   every existing group: the new group [00:00, 24:00) overlaps the old hour [10:00, 11:00) *)
Definition overlap_witness : list cmd :=
  [CreateNode 1 1; CreateDb 1 1 0 HOUR; CreateMst 1 1 1; CreateSg 1 1 1700042400000000005 0;
   UpdateRp 1 1 None (Some DAY) false; CreateSg 1 1 1700053200000000000 0].

Definition overlapping (a b : sgroup) : Prop :=
  sg_del a = false /\ sg_del b = false /\ sg_eng a = sg_eng b /\ sg_start a < sg_end b /\ sg_start b < sg_end a.

Theorem C16_overlap_refuted :
  exists cs p a b, In p (pols (run false false (init_cat 1 true) cs)) /\
    In a (rp_sgs p) /\ In b (rp_sgs p) /\ sg_id a <> sg_id b /\ overlapping a b.
Proof.
  exists overlap_witness.
  set (c := run false false (init_cat 1 true) overlap_witness).
  vm_compute in c.
  eexists. eexists. eexists.
  split. { left. reflexivity. }
  split. { left. reflexivity. }
  split. { right. left. reflexivity. }
  split. { vm_compute. discriminate. }
  unfold overlapping. cbn. repeat split; try reflexivity.
Qed.
Print Assumptions C16_overlap_refuted.

(* the default policy is marked, then dropped: the database's default name no longer resolves *)
Definition dangling_witness : list cmd := [CreateNode 1 1; CreateDb 1 1 0 HOUR; MarkRp 1 1; DropRp 1 1].

Theorem C16_default_dangling_refuted :
  exists cs d, let c := run false false (init_cat 1 true) cs in
    In d (dbs c) /\ db_default d <> 0 /\ ~ In (db_name d, db_default d) (pol_keys c).
Proof.
  exists dangling_witness.
  eexists. cbv zeta.
  set (c := run false false (init_cat 1 true) dangling_witness).
  vm_compute in c.
  split. { left. reflexivity. }
  split. { cbn. discriminate. }
  cbn. tauto.
Qed.
Print Assumptions C16_default_dangling_refuted.

(* hence the step function without clipping or without clearing the default does not preserve well-formedness: the very theorem
   proved for the repaired one fails *)
Theorem C16_current_not_wf :
  (exists cs, ~ wf (run false false (init_cat 1 true) cs)) /\
  (exists cs, ~ wf (run true false (init_cat 1 true) cs)) /\
  (exists cs, ~ wf (run false true (init_cat 1 true) cs)).
Proof.
  split; [|split].
  - exists overlap_witness. intro W. apply wf_b_iff in W. vm_compute in W. discriminate.
  - exists dangling_witness. intro W. apply wf_b_iff in W. vm_compute in W. discriminate.
  - exists overlap_witness. intro W. apply wf_b_iff in W. vm_compute in W. discriminate.
Qed.
Print Assumptions C16_current_not_wf.

(* the same sequences are well-formed under the repaired step function *)
Example C16_repaired_on_witnesses :
  wf_b (run true true (init_cat 1 true) overlap_witness) = true /\
  wf_b (run true true (init_cat 1 true) dangling_witness) = true /\
  wf_b (run false false (init_cat 1 true) overlap_witness) = false /\
  wf_b (run false false (init_cat 1 true) dangling_witness) = false.
Proof. vm_compute. repeat split. Qed.

(* a group for an instant at the very beginning of the time domain starts before -2^63 ns; persisting the catalogue as int64
   nanoseconds wraps that start around: after a snapshot/restore the group ends before it starts (neither clip nor cleardef
   repairs this; clampst does, below) *)
Definition restore_witness : list cmd :=
  [CreateNode 1 1; CreateDb 1 1 0 (7 * DAY); CreateMst 1 1 1; CreateSg 1 1 MINNANO 0; Restore].

Theorem C16_restore_wraps_refuted :
  forall clip cleardef, wf_b (run clip cleardef (init_cat 1 true) (removelast restore_witness)) = true /\
                        wf_b (run clip cleardef (init_cat 1 true) restore_witness) = false.
Proof. intros [|] [|]; vm_compute; split; reflexivity. Qed.
Print Assumptions C16_restore_wraps_refuted.

(* with group starts clamped to models.MinNanoTime (/repo 3695b47) the same sequence survives the restore *)
Example C16_clamped_restore_ok : forall clip cleardef, wf_b (run clip cleardef (init_cat_v 1 true true) restore_witness) = true.
Proof. intros [|] [|]; vm_compute; reflexivity. Qed.

(* CreateMeasurement with a schema list naming a field twice with different types, before /repo f21700b: the measurement is
   registered (MaxMstID moves), then the command fails - a failed command changed the catalogue *)
Definition half_witness : list cmd := [CreateNode 1 1; CreateDb 1 1 0 HOUR].

Theorem C16_half_applied_refuted :
  exists c x, schemafirst c = false /\ snd (apply_current c x) = false /\ max_mst (fst (apply_current c x)) <> max_mst c.
Proof.
  exists (run false false (init_cat 1 true) half_witness), (CreateMstBad 1 1 1).
  vm_compute. repeat split; discriminate.
Qed.
Print Assumptions C16_half_applied_refuted.

Example C16_half_applied_repaired :
  let c := run true true (init_cat_rep 1 true) half_witness in
  apply_repaired c (CreateMstBad 1 1 1) = (c, false).
Proof. vm_compute. reflexivity. Qed.

(* a policy rename before /repo f36a23d: the Name changes, the map key does not; with makeDefault the database's default
   names a policy that cannot be found *)
Definition rename_witness : list cmd := [CreateNode 1 1; CreateDb 1 1 0 HOUR; RenameRp 1 1 2 None None true].

Theorem C16_rename_stale_key_refuted :
  exists cs p d, let c := run false true (init_cat_v 1 true true) cs in
    In p (pols c) /\ rp_nm p <> rp_name p /\ In d (dbs c) /\ db_default d <> 0 /\ ~ In (db_name d, db_default d) (pol_keys c).
Proof.
  exists rename_witness. eexists. eexists. cbv zeta.
  set (c := run false true (init_cat_v 1 true true) rename_witness). vm_compute in c.
  split. { left. reflexivity. }
  split. { cbn. discriminate. }
  split. { left. reflexivity. }
  split. { cbn. discriminate. }
  cbn. intros [E|[]]. discriminate.
Qed.
Print Assumptions C16_rename_stale_key_refuted.

(* a shard group is marked deleted, a write creates a new group for the same span, the deletion is cancelled
   (RevertRetentionPolicyDelete): two live groups with the same span *)
Definition cancel_witness : list cmd :=
  [CreateNode 1 1; CreateDb 1 1 0 HOUR; CreateMst 1 1 1; CreateSg 1 1 1700042400000000005 0; DeleteSg 1 1 1;
   CreateSg 1 1 1700042400000000005 0; CancelDeleteSg 1 1 1].

Theorem C16_cancel_delete_overlap_refuted :
  exists cs p a b, In p (pols (run true true (init_cat_o 1 true true true true false) cs)) /\
    In a (rp_sgs p) /\ In b (rp_sgs p) /\ sg_id a <> sg_id b /\ sg_dur a = sg_dur b /\ overlapping a b.
Proof.
  exists cancel_witness.
  set (c := run true true (init_cat_o 1 true true true true false) cancel_witness).
  vm_compute in c.
  eexists. eexists. eexists.
  split. { left. reflexivity. }
  split. { left. reflexivity. }
  split. { right. left. reflexivity. }
  split. { vm_compute. discriminate. }
  split. { reflexivity. }
  unfold overlapping. cbn. repeat split; try reflexivity.
Qed.
Print Assumptions C16_cancel_delete_overlap_refuted.

(* the three sequences under the repaired step function *)
Example C16_round5_repaired_on_witnesses :
  wf_b (run true true (init_cat_rep 1 true) rename_witness) = true /\
  wf_b (run true true (init_cat_rep 1 true) cancel_witness) = true /\
  wf_b (run false true (init_cat_v 1 true true) rename_witness) = false /\
  wf_b (run true true (init_cat_o 1 true true true true false) cancel_witness) = false.
Proof. vm_compute. repeat split. Qed.

(* The guard of a cancelled deletion must be an INTERVAL-overlap test. A guard that only asks whether a live group of the same
   engine kind serves the START of the group being revived is equivalent while all groups are cells of one grid; after the
   shard-group duration was shortened a live group can lie inside the deleted group's span without containing its start. *)
Definition serves_start (l : list sgroup) (g : sgroup) : bool := existsb (fun x => covers x (sg_start g) (sg_eng g)) l.
Definition cancel_delete_start_only (c : cat) (db rp id : Z) : cat * bool :=
  match get_pol c db rp with
  | None => err c
  | Some p =>
      match find (fun g => sg_id g =? id) (rp_sgs p) with
      | None => ok c
      | Some g =>
          if negb (sg_del g) then ok c else
          if serves_start (rp_sgs p) g then ok c else
          ok (upd_pol c db (rp_name p) (fun q => pol_set_sgs q (upd_first (fun g => sg_id g =? id) sg_set_live (rp_sgs q))))
      end
  end.

(* [10:00,12:00) created under 2h groups and marked deleted; the duration becomes 1h; a group is created for 11:30: [11:00,12:00) *)
Definition shorter_witness : list cmd :=
  [CreateNode 1 1; CreateDb 1 1 0 (2 * HOUR); CreateMst 1 1 1; CreateSg 1 1 1700042400000000005 0; DeleteSg 1 1 1;
   UpdateRp 1 1 None (Some HOUR) false; CreateSg 1 1 1700047800000000000 0].

Theorem C16_cancel_start_only_refuted :
  exists cs p a b, let c := fst (cancel_delete_start_only (run true true (init_cat_rep 1 true) cs) 1 1 1) in
    In p (pols c) /\ In a (rp_sgs p) /\ In b (rp_sgs p) /\ sg_id a <> sg_id b /\ overlapping a b.
Proof.
  exists shorter_witness. cbv zeta.
  set (c := fst (cancel_delete_start_only (run true true (init_cat_rep 1 true) shorter_witness) 1 1 1)).
  vm_compute in c.
  eexists. eexists. eexists.
  split. { left. reflexivity. }
  split. { left. reflexivity. }
  split. { right. left. reflexivity. }
  split. { vm_compute. discriminate. }
  unfold overlapping. cbn. repeat split; try reflexivity.
Qed.
Print Assumptions C16_cancel_start_only_refuted.

(* the interval-overlap guard of the code refuses on the same state: the catalogue stays as it is, well-formed *)
Example C16_cancel_overlap_guard_refuses :
  let c := run true true (init_cat_rep 1 true) shorter_witness in
  apply_repaired c (CancelDeleteSg 1 1 1) = (c, true) /\ wf_b c = true /\
  wf_b (fst (cancel_delete_start_only c 1 1 1)) = false.
Proof. vm_compute. repeat split. Qed.
