(* C16: the step theorem for the whole command alphabet, runs, and counter monotonicity. *)
From Coq Require Import ZArith List Bool Lia Sorting.Permutation.
From OG Require Import C16.Model C16.Wf C16.Lists C16.Proofs C16.ProofsCmd C16.ProofsSg C16.ProofsNew C16.ProofsInv.
Import ListNotations.
Open Scope Z_scope.

(* every instant of the catalogue is representable as int64 nanoseconds (MAXNANO1 = 2^63 - 1 = models.MaxNanoTime + 1) *)
Definition span_ok (s e : Z) : Prop := MININT <= s <= MAXNANO1 /\ MININT <= e <= MAXNANO1.
Definition representable (c : cat) : Prop :=
  Forall (fun p => Forall (fun g => span_ok (sg_start g) (sg_end g)) (rp_sgs p) /\
                   Forall (fun g => span_ok (ig_start g) (ig_end g)) (rp_igs p)) (pols c).

(* what the environment guarantees about a command (everything else is unconstrained): instants of shard-group creation lie in
   the time domain [models.MinNanoTime, models.MaxNanoTime]; an index is pruned only once no shard refers to it; a snapshot is
   taken of a representable catalogue *)
Definition env_ok (c : cat) (x : cmd) : Prop :=
  match x with
  | CreateSg _ _ t _ => MINNANO <= t < MAXNANO1
  | PruneIg id => prune_ig_env c id
  | Restore => representable c     (* no group starts before -2^63 ns (finding C16-restore-wraps-early-group-start) *)
  | _ => True
  end.

(* the code variant with the repairs that well-formedness needs *)
Definition repaired (c : cat) : Prop := rekey c = true /\ safecancel c = true.
(* the inductive invariant: the statement plus what its preservation needs *)
Definition good (c : cat) : Prop := wf c /\ all_aligned c /\ covered c /\ repaired c.

Definition switches (c : cat) : bool * bool * bool * bool := (clampst c, schemafirst c, rekey c, safecancel c).
Lemma apply_switches : forall clip cd c x, switches (fst (apply clip cd c x)) = switches c.
Proof. intros clip cd c x. open_cmd x; reflexivity. Qed.

Lemma switches_repaired : forall c c', switches c' = switches c -> repaired c -> repaired c'.
Proof. unfold switches, repaired. intros c c' E. inversion E as [[E1 E2 E3 E4]]. rewrite E3, E4. tauto. Qed.

Lemma repaired_step : forall clip cd c x, repaired c -> repaired (fst (apply clip cd c x)).
Proof. intros clip cd c x. apply switches_repaired, apply_switches. Qed.

Lemma wrap64_id : forall z, MININT <= z <= MAXNANO1 -> wrap64 z = z.
Proof. intros z H. unfold wrap64, MININT, MAXNANO1 in *. rewrite Z.mod_small; lia. Qed.

Lemma restore_state_id : forall c, representable c -> restore_state c = c.
Proof.
  intros c H. unfold restore_state.
  assert (E : map (fun p => pol_set_igs (pol_set_sgs p (map restore_sg (rp_sgs p))) (map restore_ig (rp_igs p))) (pols c) = pols c).
  { rewrite <- (map_id (pols c)) at 2. apply map_ext_in. intros p Hp. unfold representable in H. rewrite Forall_forall in H.
    destruct (H p Hp) as [Hs Hi].
    assert (E1 : map restore_sg (rp_sgs p) = rp_sgs p).
    { rewrite <- (map_id (rp_sgs p)) at 2. apply map_ext_in. intros g Hg. rewrite Forall_forall in Hs. destruct (Hs g Hg) as [A B].
      destruct g. unfold restore_sg. cbn in *. rewrite !wrap64_id by assumption. reflexivity. }
    assert (E2 : map restore_ig (rp_igs p) = rp_igs p).
    { rewrite <- (map_id (rp_igs p)) at 2. apply map_ext_in. intros g Hg. rewrite Forall_forall in Hi. destruct (Hi g Hg) as [A B].
      destruct g. unfold restore_ig. cbn in *. rewrite !wrap64_id by assumption. reflexivity. }
    rewrite E1, E2. destruct p. reflexivity. }
  rewrite E. destruct c. reflexivity.
Qed.

Lemma wf_init_o : forall per sc cl sf rk sca, wf (init_cat_o per sc cl sf rk sca).
Proof. intros. apply wf_b_iff. reflexivity. Qed.

Lemma wf_init : forall per sc, wf (init_cat per sc).
Proof. intros. apply wf_init_o. Qed.

Lemma wf_step : forall c x, wf c -> all_aligned c -> repaired c -> env_ok c x -> wf (fst (apply true true c x)).
Proof.
  intros c x H AA [RK SC] E. destruct x; cbn [apply].
  - apply wf_create_db; assumption.
  - apply wf_mark_db; assumption.
  - apply wf_drop_db; assumption.
  - apply wf_create_rp; assumption.
  - apply wf_update_rp; assumption.
  - apply wf_mark_rp; assumption.
  - apply wf_drop_rp; assumption.
  - apply wf_set_default_rp; assumption.
  - apply wf_create_mst; assumption.
  - apply wf_mark_mst; assumption.
  - apply wf_drop_mst; assumption.
  - apply wf_create_sg; assumption.
  - apply wf_delete_sg; assumption.
  - apply wf_prune_sg; assumption.
  - apply wf_delete_ig; assumption.
  - apply wf_prune_ig; assumption.
  - apply wf_create_node; assumption.
  - apply wf_create_ptview; assumption.
  - apply wf_update_pt; assumption.
  - cbn [fst ok]. rewrite restore_state_id by exact E. exact H.
  - apply wf_create_mst_bad; assumption.
  - apply wf_rename_rp; assumption.
  - apply wf_cancel_delete_sg; assumption.
  - apply wf_remove_node; assumption.
Qed.

Lemma aligned_step : forall c x, wf c -> all_aligned c -> env_ok c x -> all_aligned (fst (apply true true c x)).
Proof.
  intros c x H AA E. destruct (is_create_sg x) eqn:Ex.
  - destruct x; try discriminate. cbn [apply]. apply all_aligned_create_sg; assumption.
  - eapply all_aligned_from; [|exact AA]. apply pols_from_step; [exact Ex|]. intros ->. apply restore_state_id. exact E.
Qed.

Lemma covered_step : forall c x, wf c -> covered c -> env_ok c x -> covered (fst (apply true true c x)).
Proof.
  intros c x H CV E. destruct (is_create_sg x) eqn:Ex.
  - destruct x; try discriminate. cbn [apply]. apply covered_create_sg; assumption.
  - eapply covered_from; [|exact CV]. apply pols_from_step; [exact Ex|]. intros ->. apply restore_state_id. exact E.
Qed.

(* with group starts clamped to models.MinNanoTime (/repo 3695b47) every instant of the catalogue stays representable
   as int64 nanoseconds, so the hypothesis of Restore holds by itself *)
Lemma representable_from : forall c c', pols_from c c' -> representable c -> representable c'.
Proof.
  intros c c' F R. unfold representable in *. rewrite Forall_forall in *. intros p' Hp'.
  destruct (F p' Hp') as [[E1 E2]|[p [Hp [A B]]]]; [rewrite E1, E2; split; constructor|].
  destruct (R p Hp) as [Rs Ri]. rewrite Forall_forall in Rs, Ri. split; apply Forall_forall.
  - intros g' Hg'. destruct (A g' Hg') as [g [Hg (_ & E1 & E2 & _)]]. rewrite E1, E2. exact (Rs g Hg).
  - intros g' Hg'. destruct (B g' Hg') as [g [Hg (_ & E1 & E2 & _)]]. rewrite E1, E2. exact (Ri g Hg).
Qed.

Lemma representable_create_sg : forall c db rp t eng, wf c -> clampst c = true -> MINNANO <= t < MAXNANO1 -> representable c ->
  representable (fst (create_sg true c db rp t eng)).
Proof.
  intros c db rp t eng H CL Ht R.
  destruct (create_sg_shape true c db rp t eng) as [->|(p & ig & isnew & Eg & Ecov & Eig & ->)]; [exact R|].
  pose proof (nonneg_get _ H) as NN.
  destruct (get_pol_spec _ _ _ _ Eg) as (_ & Hp & _).
  pose proof (wf_dur _ H) as DUR. rewrite Forall_forall in DUR. pose proof (DUR p Hp) as Hd.
  destruct (ensure_ig_spec _ _ _ _ _ _ _ Eig) as (_ & _ & Inew); [lia|].
  assert (Gs : span_ok (sg_start (new_sgroup true c p ig t eng)) (sg_end (new_sgroup true c p ig t eng))).
  { cbn [new_sgroup sg_start sg_end]. rewrite CL. unfold new_sg_end.
    set (s := trunc t (rp_sgdur p)). set (e := cell_end s (rp_sgdur p)).
    assert (Hs : s <= t) by (apply trunc_le; exact Hd).
    assert (He : t < e) by (unfold e, cell_end; pose proof (trunc_gt t (rp_sgdur p) Hd); fold s in H0; lia).
    pose proof (clip_lo_ge (rp_sgs p) eng t (Z.max s MINNANO)). pose proof (clip_lo_le (rp_sgs p) eng t (Z.max s MINNANO)).
    pose proof (clip_hi_le (rp_sgs p) eng t e). pose proof (clip_hi_gt (rp_sgs p) eng t e He).
    assert (e <= MAXNANO1) by (unfold e, cell_end; lia).
    unfold span_ok, MININT, MINNANO, MAXNANO1 in *. lia. }
  assert (Is : isnew = true -> span_ok (ig_start ig) (ig_end ig)).
  { intros En. rewrite (Inew En). cbn [new_igroup ig_start ig_end]. rewrite CL.
    pose proof (new_sg_end_le p t eng). destruct Gs as [_ Ge]. cbn [new_sgroup sg_end] in Ge.
    destruct (Z.leb_spec (rp_igdur p) 0).
    - unfold trunc. replace (rp_igdur p <=? 0) with true by lia. unfold span_ok, MININT, MINNANO, MAXNANO1 in *. lia.
    - pose proof (trunc_le t (rp_igdur p) H1). unfold span_ok, MININT, MINNANO, MAXNANO1 in *. lia. }
  unfold representable in *. rewrite Forall_forall in *. intros p' Hp'. unfold upd_pol in Hp'. cbn [pols set_pols set_sg_counters] in Hp'.
  apply updf_In in Hp'. destruct Hp' as [Hp'|[q [Hq [_ ->]]]]; [exact (R p' Hp')|].
  destruct (R q Hq) as [Rs Ri]. cbn [sg_upd rp_sgs rp_igs pol_set_sgs]. split.
  - eapply Permutation_Forall; [apply Permutation_sym, insert_sg_perm|]. constructor; [exact Gs|]. destruct isnew; exact Rs.
  - destruct isnew; cbn [rp_igs pol_set_igs]; [|exact Ri].
    eapply Permutation_Forall; [apply Permutation_sym, insert_ig_perm|]. constructor; [apply Is; reflexivity | exact Ri].
Qed.

Lemma representable_step : forall c x, wf c -> clampst c = true -> representable c -> env_ok c x ->
  representable (fst (apply true true c x)).
Proof.
  intros c x H CL R E. destruct (is_create_sg x) eqn:Ex.
  - destruct x; try discriminate. cbn [apply]. apply representable_create_sg; assumption.
  - eapply representable_from; [|exact R]. apply pols_from_step; [exact Ex|]. intros ->. apply restore_state_id. exact R.
Qed.

Lemma good_step : forall c x, good c -> env_ok c x -> good (fst (apply true true c x)).
Proof.
  intros c x (H & AA & CV & R) E. split; [|split; [|split]].
  - apply wf_step; assumption.
  - apply aligned_step; assumption.
  - apply covered_step; assumption.
  - apply repaired_step; assumption.
Qed.

Lemma good_init : forall per sc cl sf, good (init_cat_o per sc cl sf true true).
Proof.
  intros. split; [apply wf_init_o|]. split; [intros p g []|]. split; [constructor | split; reflexivity].
Qed.

Fixpoint env_run (c : cat) (xs : list cmd) : Prop :=
  match xs with
  | [] => True
  | x :: r => env_ok c x /\ env_run (fst (apply true true c x)) r
  end.

Lemma good_run_prefix : forall xs c k, good c -> env_run c xs -> good (run true true c (firstn k xs)).
Proof.
  induction xs; intros c k H E; destruct k; cbn [firstn run]; try exact H.
  destruct E as [E1 E2]. apply IHxs; [apply good_step; assumption | exact E2].
Qed.

Lemma good_run : forall xs c, good c -> env_run c xs -> good (run true true c xs).
Proof. intros xs c H E. rewrite <- (firstn_all xs). apply good_run_prefix; assumption. Qed.

Definition counters_le (c c' : cat) : Prop :=
  max_sg c <= max_sg c' /\ max_sh c <= max_sh c' /\ max_ig c <= max_ig c' /\ max_ix c <= max_ix c' /\
  max_mst c <= max_mst c' /\ max_node c <= max_node c' /\ ptnum c <= ptnum c'.

Lemma counters_le_refl : forall c, counters_le c c.
Proof. intros. unfold counters_le. lia. Qed.

Lemma counters_mono : forall clip cd c x, 0 <= ptnum c -> counters_le c (fst (apply clip cd c x)).
Proof. intros clip cd c x Hp. open_cmd x; unfold counters_le; cbn; repeat split; (apply Z.le_refl || lia). Qed.

(* a decidable form of the environment guarantee, for the non-vacuity examples *)
Definition prune_ig_env_b (c : cat) (id : Z) : bool :=
  forallb (fun p => forallb (fun g => negb (ig_gone (prune_mark_ig id g)) ||
     forallb (fun ix => forallb (fun sg => forallb (fun s => negb (sh_index s =? ix_id ix)) (sg_shards sg)) (rp_sgs p)) (ig_indexes g))
     (rp_igs p)) (pols c).
Definition span_ok_b (s e : Z) : bool := (MININT <=? s) && (s <=? MAXNANO1) && (MININT <=? e) && (e <=? MAXNANO1).
Definition representable_b (c : cat) : bool :=
  forallb (fun p => forallb (fun g => span_ok_b (sg_start g) (sg_end g)) (rp_sgs p) &&
                    forallb (fun g => span_ok_b (ig_start g) (ig_end g)) (rp_igs p)) (pols c).
Definition env_ok_b (c : cat) (x : cmd) : bool :=
  match x with CreateSg _ _ t _ => (MINNANO <=? t) && (t <? MAXNANO1) | PruneIg id => prune_ig_env_b c id | Restore => representable_b c
             | _ => true end.
Fixpoint env_run_b (c : cat) (xs : list cmd) : bool :=
  match xs with [] => true | x :: r => env_ok_b c x && env_run_b (fst (apply true true c x)) r end.

Lemma representable_b_sound : forall c, representable_b c = true -> representable c.
Proof.
  unfold representable_b, representable. intros c Hb. rewrite forallb_forall in Hb. apply Forall_forall. intros p Hp.
  specialize (Hb p Hp). apply andb_true_iff in Hb. destruct Hb as [B1 B2]. rewrite forallb_forall in B1, B2.
  split; apply Forall_forall; intros g Hg; [specialize (B1 g Hg) | specialize (B2 g Hg)]; unfold span_ok_b, span_ok in *; lia.
Qed.

Lemma env_ok_b_sound : forall c x, env_ok_b c x = true -> env_ok c x.
Proof.
  intros c x. destruct x; cbn [env_ok_b env_ok]; try (intros; exact I); [lia| |apply representable_b_sound].
  unfold prune_ig_env_b, prune_ig_env. intros Hb p g ix sg s Hp Hg Hgone Hix Hsg Hs.
  rewrite forallb_forall in Hb. specialize (Hb p Hp). rewrite forallb_forall in Hb. specialize (Hb g Hg).
  rewrite Hgone in Hb. cbn [negb orb] in Hb. rewrite forallb_forall in Hb. specialize (Hb ix Hix).
  rewrite forallb_forall in Hb. specialize (Hb sg Hsg). rewrite forallb_forall in Hb. specialize (Hb s Hs). lia.
Qed.

Lemma env_run_b_sound : forall xs c, env_run_b c xs = true -> env_run c xs.
Proof.
  induction xs; intros c H; cbn [env_run env_run_b] in *; [exact I|].
  apply andb_true_iff in H. destruct H as [H1 H2]. split; [apply env_ok_b_sound; exact H1 | apply IHxs; exact H2].
Qed.

Lemma run_app : forall clip cd xs ys c, run clip cd c (xs ++ ys) = run clip cd (run clip cd c xs) ys.
Proof. intros clip cd xs. induction xs; intros ys c; cbn [app run]; [reflexivity | apply IHxs]. Qed.

Lemma env_run_app : forall xs ys c, env_run c (xs ++ ys) -> env_run c xs /\ env_run (run true true c xs) ys.
Proof. induction xs; intros ys c E; cbn in *; [tauto|]. destruct E as [E1 E2]. destruct (IHxs _ _ E2). tauto. Qed.

Definition env_ok0 (c : cat) (x : cmd) : Prop := match x with Restore => True | _ => env_ok c x end.
Fixpoint env_run0 (c : cat) (xs : list cmd) : Prop :=
  match xs with
  | [] => True
  | x :: r => env_ok0 c x /\ env_run0 (fst (apply true true c x)) r
  end.

Lemma env_run_env_run0 : forall xs c, env_run c xs -> env_run0 c xs.
Proof.
  induction xs as [|x r IH]; intros c E; cbn [env_run env_run0] in *; [exact I|]. destruct E as [E1 E2].
  split; [destruct x; try exact E1; exact I | apply IH; exact E2].
Qed.
