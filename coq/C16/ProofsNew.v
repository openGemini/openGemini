(* C16: well-formedness is preserved by CreateMeasurement with an inconsistent schema list, policy rename (re-keying variant),
   cancelling a group deletion (guarded variant) and node removal. *)
From Coq Require Import ZArith List Bool Lia Sorting.Sorted.
From OG Require Import C16.Model C16.Wf C16.Lists C16.Proofs C16.ProofsCmd.
Import ListNotations.
Open Scope Z_scope.

Lemma wf_create_mst_bad : forall c db rp m, wf c -> wf (fst (create_mst_bad c db rp m)).
Proof.
  intros c db rp m H. destruct (create_mst_bad_shape c db rp m) as [->|(p & v & Eg & ->)]; [exact H|].
  destruct (get_pol_spec _ _ _ _ Eg) as (Hf & _ & Edb & _). rewrite <- Edb in Hf. apply wf_add_mst; assumption.
Qed.

Lemma wf_remove_node : forall c id, wf c -> wf (fst (remove_node c id)).
Proof.
  intros c id H. unfold remove_node. cbn [fst ok]. constructor; try (same H).
  unfold node_ids. cbn [nodes set_nodes max_node]. eapply uniq_le_subl; [|exact (wf_node _ H)]. apply subl_map, subl_filter.
Qed.

Lemma find_is_pol_unique : forall c db n p q, wf c -> find_pol c db n = Some p -> In q (pols c) -> is_pol db n q = true -> q = p.
Proof.
  intros c db n p q H Hf Hq Pq. destruct (find_is_pol _ _ _ _ Hf) as (Hp & E1 & E2). unfold is_pol in Pq.
  apply (NoDup_map_eq (fun p => (rp_db p, rp_name p)) (pols c)); [exact (wf_poln _ H) | exact Hq | exact Hp|].
  f_equal; lia.
Qed.

Lemma wf_filter_pols : forall c f, wf c ->
  (forall d p, In d (dbs c) -> In p (pols c) -> (rp_db p, rp_name p) = (db_name d, db_default d) -> db_default d <> 0 -> f p = true) ->
  wf (set_pols c (filter f (pols c))).
Proof.
  intros c f H Keep. eapply (wf_filter_names c); try reflexivity; [exact H | | repeat split].
  apply Forall_forall. intros d Hd. pose proof (wf_def _ H) as D. rewrite Forall_forall in D.
  destruct (D d Hd) as [E0|Hin]; [left; exact E0|].
  destruct (Z.eq_dec (db_default d) 0) as [E0|N0]; [left; exact E0 | right].
  unfold pol_keys in *. cbn [pols set_pols]. apply in_map_iff in Hin. destruct Hin as [q [Eq Hq]].
  apply in_map_iff. exists q. split; [exact Eq|]. apply filter_In. split; [exact Hq|]. eapply Keep; eassumption.
Qed.

Lemma wf_rename_core : forall c db x p nn d' sgd' igd' k, wf c -> In x (dbs c) -> db_name x = db ->
  find (is_pol db (rp_name p)) (pols c) = Some p -> In p (pols c) -> rp_db p = db ->
  (nn = rp_name p \/ ~ In (db, nn) (pol_keys c)) -> 0 < sgd' ->
  wf (let c1 := upd_pol c db (rp_name p) (fun q => pol_rename (pol_set_meta q d' sgd' igd' (rp_mark q)) nn nn) in
      if k || (db_default x =? rp_nm p) then set_default c1 db nn else c1).
Proof.
  intros c db x p nn d' sgd' igd' k H Hx Exn Hfind Hp Edb Hfresh Hsgd. cbv zeta.
  set (g := fun q => pol_rename (pol_set_meta q d' sgd' igd' (rp_mark q)) nn nn).
  set (old := rp_name p) in *.
  assert (Hold : db_default x = rp_nm p <-> db_default x = old).
  { pose proof (wf_nm _ H) as NM. rewrite Forall_forall in NM. rewrite (NM p Hp). reflexivity. }
  set (c1 := upd_pol c db old g).
  assert (Ekeys : forall k0, In k0 (pol_keys c) -> k0 <> (db, old) -> In k0 (pol_keys c1)).
  { intros k0 Hk Hne. unfold pol_keys, c1, upd_pol. cbn [pols set_pols]. apply updf_map_In_other; [exact Hk|].
    intros y Py. unfold is_pol in Py. intro Ey. apply Hne. rewrite <- Ey. f_equal; lia. }
  assert (Enew : In (db, nn) (pol_keys c1)).
  { unfold pol_keys, c1, upd_pol. cbn [pols set_pols]. apply in_map_iff. exists (g p). split; [cbn; rewrite Edb; reflexivity|].
    apply In_updf_first. exact Hfind. }
  assert (Knd : NoDup (pol_keys c1)).
  { unfold pol_keys, c1, upd_pol. cbn [pols set_pols]. apply updf_map_NoDup; [exact (wf_poln _ H)|].
    intros y Hy Py. assert (y = p) by (eapply find_is_pol_unique; [exact H | exact Hfind | exact Hy | exact Py]). subst y.
    cbn [g pol_rename pol_set_meta rp_db rp_name].
    destruct Hfresh as [->|Nin]; [left; reflexivity | right; rewrite Edb; exact Nin]. }
  assert (Gen : forall c2, pols c2 = pols c1 -> map db_name (dbs c2) = map db_name (dbs c) -> Forall (default_ok c2) (dbs c2) ->
            nodes c2 = nodes c -> ptview c2 = ptview c -> ptnum c2 = ptnum c ->
            same_ctrs c c2 -> wf c2).
  { intros c2 Ep Edn Hdef End Epv Epn (E1 & E2 & E3 & E4 & E5 & E6).
    eapply (wf_pols_meta c c2 (is_pol db old) g); try eassumption.
    - intros q. cbn. tauto.
    - intros q _. cbn. exact Hsgd.
    - intros q _. reflexivity.
    - unfold pol_keys. rewrite Ep. exact Knd.
    - tauto.
    - unfold mst_ids. rewrite Ep, E5. unfold c1, upd_pol. cbn [pols set_pols].
      rewrite updf_flat_map_same; [exact (wf_mst _ H) | reflexivity].
    - rewrite E5. pose proof (nonneg_get _ H). lia. }
  pose proof (wf_def _ H) as D. rewrite Forall_forall in D.
  assert (Other : forall y, In y (dbs c) -> db_name y <> db -> default_ok c1 y).
  { intros y Hy Hne. destruct (D y Hy) as [E0|Hin]; [left; exact E0 | right]. apply Ekeys; [exact Hin|]. intro E. inversion E. contradiction. }
  destruct (k || (db_default x =? rp_nm p)) eqn:Emove.
  - (* the default is (re)pointed at the new name *)
    unfold set_default, upd_db. rewrite (upd_first_as_map db_name db) by exact (wf_dbn _ H).
    apply Gen; try reflexivity; [| |repeat split].
    + cbn [dbs set_dbs c1 upd_pol set_pols]. rewrite map_map. apply map_ext. intros a. destruct (db_name a =? db); reflexivity.
    + cbn [dbs set_dbs c1 upd_pol set_pols]. rewrite Forall_map. apply Forall_forall. intros y Hy.
      destruct (db_name y =? db) eqn:Ey.
      * right. cbn [db_name db_default]. replace (db_name y) with db by lia. exact Enew.
      * assert (Ok1 : default_ok c1 y) by (apply Other; [exact Hy | lia]). exact Ok1.
  - apply Gen; try reflexivity; [|repeat split].
    cbn [dbs c1 upd_pol set_pols]. apply Forall_forall. intros y Hy.
    destruct (Z.eq_dec (db_name y) db) as [Ey|Ey]; [|apply Other; assumption].
    assert (y = x) by (eapply (NoDup_map_eq db_name); [exact (wf_dbn _ H) | exact Hy | exact Hx | congruence]). subst y.
    destruct (D x Hx) as [E0|Hin]; [left; exact E0 | right]. apply Ekeys; [exact Hin|].
    intro E. inversion E as [[E1 E2]]. apply orb_false_iff in Emove. destruct Emove as [_ Em]. apply Hold in E2. lia.
Qed.

Lemma wf_rename_rp : forall c db rp nn d sgd k, wf c -> rekey c = true -> wf (fst (rename_rp c db rp nn d sgd k)).
Proof.
  intros c db rp nn d sgd k H RK. unfold rename_rp.
  destruct (get_db c db) as [x|] eqn:Ex; [|exact H].
  destruct (get_pol c db rp) as [p|] eqn:Eg; [|exact H].
  destruct (get_db_spec _ _ _ Ex) as (Hx & Exn & _).
  destruct (get_pol_spec _ _ _ _ Eg) as (Hfind & Hp & Edb & _ & Hn0 & _). unfold find_pol in Hfind.
  match goal with |- context [if ?t then err c else _] => destruct t eqn:Etaken end; [exact H|].
  destruct (negb (spec_valid _ _)); [exact H|]. rewrite RK. cbn [fst ok].
  set (old := rp_name p) in *.
  destruct (nn =? old) eqn:Eno.
  - apply (wf_rename_core c db x p nn); try assumption; [left; unfold old in Eno; lia | apply norm_sgd_pos].
  - (* an entry stored under the new name, if there is one, is overwritten; that only happens for the empty name *)
    set (f := fun q => negb (is_pol db nn q)).
    assert (Hnn : nn = 0 \/ ~ In (db, nn) (pol_keys c)).
    { destruct (Z.eq_dec nn 0) as [E0|N0]; [left; exact E0 | right].
      destruct (nn =? rp) eqn:Er.
      - exfalso. destruct (get_pol_name _ _ _ _ Eg) as [E1|E1]; [lia | unfold old in Eno; lia].
      - unfold resolve in Etaken. replace (nn =? 0) with false in Etaken by lia. replace (nn =? 0) with false in Etaken by lia.
        destruct (find_pol c db nn) eqn:Ef; [discriminate|]. apply find_pol_none. exact Ef. }
    assert (W0 : wf (set_pols c (filter f (pols c)))).
    { apply wf_filter_pols; [exact H|]. intros d0 q Hd0 Hq Ek Ndef. unfold f, is_pol.
      destruct ((rp_db q =? db) && (rp_name q =? nn)) eqn:E; [|reflexivity]. exfalso. inversion Ek as [[E1 E2]].
      destruct Hnn as [E0|Nin]; [lia|]. apply Nin. unfold pol_keys. apply in_map_iff. exists q. split; [f_equal; lia | exact Hq]. }
    assert (Fp : f p = true) by (unfold f, is_pol; unfold old in Eno; lia).
    apply (wf_rename_core (set_pols c (filter f (pols c))) db x p nn); try assumption; [| | |apply norm_sgd_pos].
    + cbn [pols set_pols]. apply find_filter_some; assumption.
    + cbn [pols set_pols]. apply filter_In. split; assumption.
    + right. unfold pol_keys. cbn [pols set_pols]. intro Hin. apply in_map_iff in Hin. destruct Hin as [q [Eq Hq]].
      apply filter_In in Hq. destruct Hq as [_ Fq]. unfold f, is_pol in Fq. inversion Eq. lia.
Qed.

Lemma LocallySorted_replace : forall l1 x y l2, LocallySorted key_leP (l1 ++ x :: l2) -> sg_start y = sg_start x -> sg_end y = sg_end x ->
  LocallySorted key_leP (l1 ++ y :: l2).
Proof.
  intros l1 x y l2 HS E1 E2.
  eapply (Forall2_LocallySorted (fun a b => sg_start b = sg_start a /\ sg_end b = sg_end a)); [| |exact HS].
  - unfold key_leP. intros a b a' b' (A1 & A2) (B1 & B2). lia.
  - clear HS. induction l1; cbn; constructor; auto. clear. induction l2; constructor; auto.
Qed.

Lemma wf_cancel_delete_sg : forall c db rp id, wf c -> all_aligned c -> safecancel c = true -> wf (fst (cancel_delete_sg c db rp id)).
Proof.
  intros c db rp id H AA SC. unfold cancel_delete_sg.
  destruct (get_pol c db rp) as [p|] eqn:Eg; [|exact H].
  destruct (find (fun g => sg_id g =? id) (rp_sgs p)) as [x|] eqn:Ef; [|exact H].
  destruct (negb (sg_del x)) eqn:Edel; [exact H|]. rewrite SC. cbn [andb].
  destruct (overlaps_live (rp_sgs p) x) eqn:Eov; [exact H|]. cbn [fst ok].
  destruct (get_pol_spec _ _ _ _ Eg) as (Hfind & Hp & Edb & _). unfold find_pol in Hfind.
  destruct (find_split _ _ _ Ef) as (l1 & l2 & El & Eu).
  unfold upd_pol. eapply (wf_pols_shrink_by sg_sim0 c); try reflexivity; [auto | exact H | | | repeat split].
  - cbn [pols set_pols]. apply updf_Forall2; [apply pol_shrink_by_refl, sg_sim0_refl|]. intros q _.
    unfold pol_shrink_by. cbn [rp_sgdur rp_db rp_name rp_nm rp_sgs rp_igs rp_msts pol_set_sgs]. repeat split; try apply subl_refl; [auto | | auto].
    eexists. split; [|apply subl_refl]. apply updf_Forall2; [apply sg_sim0_refl|]. intros g _. unfold sg_sim0. cbn. repeat split. apply sh_sim_refl.
  - (* the revived group is aligned like every group and meets no live group *)
    cbn [pols set_pols]. apply (updf_Forall_first _ _ _ _ p Hfind (wf_groups _ H)).
    pose proof (wf_groups _ H) as GG. rewrite Forall_forall in GG. destruct (GG p Hp) as (S1 & S2 & S3).
    cbn [rp_sgs pol_set_sgs]. rewrite Eu. rewrite El in S1, S2, S3.
    assert (Hxin : In x (rp_sgs p)) by (rewrite El; apply in_or_app; right; left; reflexivity).
    assert (Live : forall a, In a (rp_sgs p) -> sg_del a = false -> sg_eng a = sg_eng x -> sg_end a <= sg_start x \/ sg_end x <= sg_start a).
    { intros a Ha Hd He. unfold overlaps_live in Eov.
      assert (N : (negb (sg_del a) && (sg_eng a =? sg_eng x) && (sg_start a <? sg_end x) && (sg_start x <? sg_end a)) = false).
      { destruct (negb (sg_del a) && (sg_eng a =? sg_eng x) && (sg_start a <? sg_end x) && (sg_start x <? sg_end a)) eqn:E; [|reflexivity].
        assert (existsb (fun x0 => negb (sg_del x0) && (sg_eng x0 =? sg_eng x) && (sg_start x0 <? sg_end x) && (sg_start x <? sg_end x0)) (rp_sgs p) = true)
          by (apply existsb_exists; exists a; split; assumption). congruence. }
      rewrite Hd in N. lia. }
    split; [|split].
    + eapply LocallySorted_replace; [exact S1 | reflexivity | reflexivity].
    + apply Forall_app in S2. destruct S2 as [A1 A2]. inversion A2; subst. apply Forall_app. split; [exact A1|]. constructor; [|assumption].
      intros _. cbn [sg_set_live sg_start sg_end sg_dur]. exact (AA p x Hp Hxin).
    + eapply FOP_replace; [exact S3 | |].
      * apply Forall_forall. intros a Ha Hda _ He. cbn [sg_set_live sg_start sg_end sg_eng] in *.
        apply Live; [rewrite El; apply in_or_app; left; exact Ha | exact Hda | exact He].
      * apply Forall_forall. intros a Ha _ Hda He. cbn [sg_set_live sg_start sg_end sg_eng] in *.
        destruct (Live a) as [L|L]; [rewrite El; apply in_or_app; right; right; exact Ha | exact Hda | symmetry; exact He | right; exact L | left; exact L].
Qed.
