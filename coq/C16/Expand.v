(* C16: Data.ExpandGroups (ExpandGroupsCommand, also run by a node join when expand-shards is enabled) - executable model used by
   the correspondence. Kept outside [cmd]; [xcmd] at the end of the file adds it, and the expanding node join, to the commands of
   [cmd]. ProofsExpandWf.v proves that it preserves the invariant and hands out only fresh identifiers.
   Walk order: databases, then policies, in the order of their names (sort.Strings); inside a policy first every index group gets
   one index per missing partition, then every shard group one shard per missing partition, each shard looking its index group
   up with createIndexGroupCovering(start, end of the shard group) - which may create one. Identifiers come from the counters in
   exactly this order, so after an expansion the id ranges of different groups interleave. HASH sharding only (RANGE policies are
   skipped by the code and are not modelled). *)
From Coq Require Import ZArith List Bool.
From OG Require Import C16.Model.
Import ListNotations.
Open Scope Z_scope.

(* names are integer codes; the walks go in string order: "" (0) < "autogen" (4) < "db1"/"rp1" (1) < .. *)
Definition name_ord (n : Z) : Z := if n =? 0 then -1 else if n =? 4 then 0 else n.
Definition pol_le (a b : policy) : bool :=
  (name_ord (rp_db a) <? name_ord (rp_db b)) ||
  ((name_ord (rp_db a) =? name_ord (rp_db b)) && (name_ord (rp_name a) <=? name_ord (rp_name b))).
Fixpoint insert_pol (x : policy) (l : list policy) : list policy :=
  match l with [] => [x] | y :: r => if pol_le x y then x :: l else y :: insert_pol x r end.
Definition sort_pols (l : list policy) : list policy := fold_right insert_pol [] l.

Definition ig_set_indexes (g : igroup) (l : list index) : igroup :=
  {| ig_id := ig_id g; ig_start := ig_start g; ig_end := ig_end g; ig_del := ig_del g; ig_eng := ig_eng g; ig_indexes := l |}.
Definition sg_set_shards (g : sgroup) (l : list shard) : sgroup :=
  {| sg_id := sg_id g; sg_start := sg_start g; sg_end := sg_end g; sg_del := sg_del g; sg_eng := sg_eng g; sg_dur := sg_dur g; sg_shards := l |}.

(* one index per missing partition; mx = MaxIndexID *)
Definition expand_ig (n mx : Z) (g : igroup) : Z * igroup :=
  let k := Z.of_nat (length (ig_indexes g)) in
  if k <? n then
    (mx + (n - k),
     ig_set_indexes g (ig_indexes g ++ map (fun i => {| ix_id := mx + 1 + (i - k); ix_owners := [i]; ix_mark := false |}) (zseq k (Z.to_nat (n - k)))))
  else (mx, g).
Fixpoint expand_igs (n mx : Z) (l : list igroup) : Z * list igroup :=
  match l with
  | [] => (mx, [])
  | g :: r => let '(mx1, g1) := expand_ig n mx g in let '(mx2, r1) := expand_igs n mx1 r in (mx2, g1 :: r1)
  end.

(* one shard per missing partition of one shard group; c carries the counters, p the policy's index groups *)
Fixpoint expand_shards (c : cat) (p : policy) (g : sgroup) (parts : list Z) : cat * policy * sgroup :=
  match parts with
  | [] => (c, p, g)
  | i :: r =>
      let '(ig, isnew) := ensure_ig c p (sg_start g) (sg_end g) (sg_eng g) in
      let p1 := if isnew then pol_set_igs p (insert_ig ig (rp_igs p)) else p in
      let c1 := set_sg_counters c (max_sg c) (max_sh c + 1) (if isnew then max_ig c + 1 else max_ig c)
                  (if isnew then max_ix c + ptnum c else max_ix c) in
      let s := {| sh_id := max_sh c + 1; sh_owners := [i];
                  sh_index := ix_id (nth (Z.to_nat i) (ig_indexes ig) {| ix_id := 0; ix_owners := []; ix_mark := false |});
                  sh_mark := false |} in
      expand_shards c1 p1 (sg_set_shards g (sg_shards g ++ [s])) r
  end.

Fixpoint expand_sgs (c : cat) (p : policy) (l : list sgroup) : cat * policy * list sgroup :=
  match l with
  | [] => (c, p, [])
  | g :: r =>
      let k := Z.of_nat (length (sg_shards g)) in
      let '(c1, p1, g1) := expand_shards c p g (zseq k (Z.to_nat (ptnum c - k))) in
      let '(c2, p2, r1) := expand_sgs c1 p1 r in
      (c2, p2, g1 :: r1)
  end.

Definition expand_pol (c : cat) (p : policy) : cat * policy :=
  let '(mx, igs1) := expand_igs (ptnum c) (max_ix c) (rp_igs p) in
  let c0 := set_sg_counters c (max_sg c) (max_sh c) (max_ig c) mx in
  let '(c1, p1, sgs1) := expand_sgs c0 (pol_set_igs p igs1) (rp_sgs p) in
  (c1, pol_set_sgs p1 sgs1).

Fixpoint expand_pols (c : cat) (l : list policy) : cat * list policy :=
  match l with
  | [] => (c, [])
  | p :: r => let '(c1, p1) := expand_pol c p in let '(c2, r1) := expand_pols c1 r in (c2, p1 :: r1)
  end.

Definition expand_groups (c : cat) : cat :=
  let '(c1, l) := expand_pols c (sort_pols (pols c)) in set_pols c1 l.

(* the commands of the correspondence: those of [cmd] and the expansion *)
(* XJoin: CreateDataNodeCommand on a store configured with expand-shards: a node that is really new (the list grew) is followed
   by an expansion inside the same command *)
Inductive xcmd := Base (x : cmd) | XExpand | XJoin (h t : Z).
Definition applyx (clip cleardef : bool) (c : cat) (x : xcmd) : cat * bool :=
  match x with
  | Base y => apply clip cleardef c y
  | XExpand => ok (expand_groups c)
  | XJoin h t =>
      let '(c1, r) := create_node c h t in
      if Nat.ltb (length (nodes c)) (length (nodes c1)) then (expand_groups c1, r) else (c1, r)
  end.
