(* C16 - the meta catalogue: executable model (definitions only; the statement as a proposition is in Wf.v, proofs in Proofs*.v).
   Mirrors lib/util/lifted/influx/meta: Data.CreateDatabase / MarkDatabaseDelete / DropDatabase / CreateRetentionPolicy /
   UpdateRetentionPolicy / MarkRetentionPolicyDelete / DropRetentionPolicy / SetDefaultRetentionPolicy /
   CreateMeasurement / MarkMeasurementDelete / DropMeasurement / CreateShardGroup (newShardGroup, createShards,
   createIndexGroupIfNeeded, CreateIndexGroup) / DeleteShardGroup / DeleteIndexGroup / PruneGroups / CreateDataNode /
   CreateDBPtView / UpdatePtInfo, RetentionPolicyInfo.CheckSpecValid and the normalisation helpers, as reached through
   app/ts-meta/meta storeFSM.executeCmd.
   Names are integer codes (0 = the empty string); instants and durations are unbounded Z nanoseconds; ids are Z.
   The catalogue is kept flat: policies carry the name of their database.
   Switches select the code before or after each repair of a defect found (arguments of the step function, or constant
   fields of the state):
     clip        : a new shard group is clipped to its live neighbours            (/repo 2b62e48)
     cleardef    : dropping the default policy clears the database's default name (/repo b424c13)
     clampst     : group starts are clamped to models.MinNanoTime                 (/repo 3695b47)
     schemafirst : CreateMeasurement checks its schema list before registering    (/repo f21700b)
     rekey       : a policy rename moves the map entry and the default name       (/repo f36a23d)
     safecancel  : cancelling a group deletion is refused over a live group       (/repo b51128b)
   Index groups are created as in /repo 76d3742 (never ending before the shard group they serve), pruning marks only the
   element carrying the pruned id (/repo b988d37). *)
From Coq Require Import ZArith List Bool.
Import ListNotations.
Open Scope Z_scope.

Definition HOUR : Z := 3600000000000.
Definition DAY : Z := 24 * HOUR.
(* nanoseconds between 0001-01-01T00:00:00Z, the anchor of Go's time.Truncate, and the Unix epoch *)
Definition YEAR1 : Z := 62135596800000000000.
Definition MAXNANO1 : Z := 9223372036854775807.   (* models.MaxNanoTime + 1 *)
Definition MINNANO : Z := -9223372036854775806.   (* models.MinNanoTime *)

(* time.Time.Truncate(d): d <= 0 returns t unchanged *)
Definition trunc (t d : Z) : Z := if d <=? 0 then t else t - (t + YEAR1) mod d.
(* end of a group starting at s: s + d, capped at MaxNanoTime + 1 *)
Definition cell_end (s d : Z) : Z := Z.min (s + d) MAXNANO1.

Record shard := { sh_id : Z; sh_owners : list Z; sh_index : Z; sh_mark : bool }.
Record sgroup := { sg_id : Z; sg_start : Z; sg_end : Z; sg_del : bool; sg_eng : Z;
                   sg_dur : Z;   (* ghost: the policy's shard group duration in force when the group was created *)
                   sg_shards : list shard }.
Record index := { ix_id : Z; ix_owners : list Z; ix_mark : bool }.
Record igroup := { ig_id : Z; ig_start : Z; ig_end : Z; ig_del : bool; ig_eng : Z; ig_indexes : list index }.
Record mst := { ms_name : Z; ms_ver : Z; ms_id : Z; ms_mark : bool }.
(* rp_name is the KEY of the policy in DatabaseInfo.RetentionPolicies (what every lookup uses); rp_nm is the Name field of the
   RetentionPolicyInfo. They differ only after a rename in the code variant that does not re-key the map (rekey = false). *)
Record policy := { rp_db : Z; rp_name : Z; rp_nm : Z; rp_dur : Z; rp_sgdur : Z; rp_igdur : Z; rp_mark : bool;
                   rp_msts : list mst; rp_vers : list (Z * Z); rp_sgs : list sgroup; rp_igs : list igroup }.
Record database := { db_name : Z; db_default : Z (* 0 = none *); db_mark : bool }.
Record node := { nd_id : Z; nd_http : Z; nd_tcp : Z; nd_conn : Z }.
Record ptinfo := { pt_owner : Z; pt_status : Z; pt_ver : Z }.
Record cat := { dbs : list database; pols : list policy; nodes : list node; ptview : list (Z * list ptinfo);
                ptnum : Z; ptper : Z; sclean : bool;
                clampst : bool;   (* code variant, constant: group starts are clamped to models.MinNanoTime (false = before /repo 3695b47) *)
                schemafirst : bool; (* code variant, constant: CreateMeasurement refuses an inconsistent schema list before it registers
                                       the measurement (false = before /repo f21700b) *)
                rekey : bool;     (* code variant, constant: a policy rename moves the map entry and the default name (false = before /repo f36a23d) *)
                safecancel : bool; (* code variant, constant: cancelling the deletion of a shard group is refused while a live group of the same
                                      engine type overlaps it (false = before /repo b51128b) *)
                max_node : Z; max_sg : Z; max_sh : Z; max_mst : Z; max_ig : Z; max_ix : Z; max_conn : Z }.

Definition init_cat_o (per : Z) (sc cl sf rk sca : bool) : cat :=
  {| dbs := []; pols := []; nodes := []; ptview := []; ptnum := 0; ptper := per; sclean := sc; clampst := cl;
     schemafirst := sf; rekey := rk; safecancel := sca;
     max_node := 0; max_sg := 0; max_sh := 0; max_mst := 0; max_ig := 0; max_ix := 0; max_conn := 0 |}.
Definition init_cat_v (per : Z) (sc cl : bool) : cat := init_cat_o per sc cl false false false.
(* none of the repairs: the code before /repo b424c13, the first of them *)
Definition init_cat (per : Z) (sc : bool) : cat := init_cat_v per sc false.
(* every repair: the catalogue Props.v proves well-formedness for *)
Definition init_cat_rep (per : Z) (sc : bool) : cat := init_cat_o per sc true true true true.

(* ---- record updates ---- *)
Definition set_pols (c : cat) (l : list policy) : cat :=
  {| dbs := dbs c; pols := l; nodes := nodes c; ptview := ptview c; ptnum := ptnum c; ptper := ptper c; sclean := sclean c; clampst := clampst c; schemafirst := schemafirst c; rekey := rekey c; safecancel := safecancel c;
     max_node := max_node c; max_sg := max_sg c; max_sh := max_sh c; max_mst := max_mst c; max_ig := max_ig c;
     max_ix := max_ix c; max_conn := max_conn c |}.
Definition set_dbs (c : cat) (l : list database) : cat :=
  {| dbs := l; pols := pols c; nodes := nodes c; ptview := ptview c; ptnum := ptnum c; ptper := ptper c; sclean := sclean c; clampst := clampst c; schemafirst := schemafirst c; rekey := rekey c; safecancel := safecancel c;
     max_node := max_node c; max_sg := max_sg c; max_sh := max_sh c; max_mst := max_mst c; max_ig := max_ig c;
     max_ix := max_ix c; max_conn := max_conn c |}.
Definition set_ptview (c : cat) (l : list (Z * list ptinfo)) : cat :=
  {| dbs := dbs c; pols := pols c; nodes := nodes c; ptview := l; ptnum := ptnum c; ptper := ptper c; sclean := sclean c; clampst := clampst c; schemafirst := schemafirst c; rekey := rekey c; safecancel := safecancel c;
     max_node := max_node c; max_sg := max_sg c; max_sh := max_sh c; max_mst := max_mst c; max_ig := max_ig c;
     max_ix := max_ix c; max_conn := max_conn c |}.
Definition set_sg_counters (c : cat) (sg sh ig ix : Z) : cat :=
  {| dbs := dbs c; pols := pols c; nodes := nodes c; ptview := ptview c; ptnum := ptnum c; ptper := ptper c; sclean := sclean c; clampst := clampst c; schemafirst := schemafirst c; rekey := rekey c; safecancel := safecancel c;
     max_node := max_node c; max_sg := sg; max_sh := sh; max_mst := max_mst c; max_ig := ig;
     max_ix := ix; max_conn := max_conn c |}.
Definition set_max_mst (c : cat) (m : Z) : cat :=
  {| dbs := dbs c; pols := pols c; nodes := nodes c; ptview := ptview c; ptnum := ptnum c; ptper := ptper c; sclean := sclean c; clampst := clampst c; schemafirst := schemafirst c; rekey := rekey c; safecancel := safecancel c;
     max_node := max_node c; max_sg := max_sg c; max_sh := max_sh c; max_mst := m; max_ig := max_ig c;
     max_ix := max_ix c; max_conn := max_conn c |}.

Definition pol_set_meta (p : policy) (d sgd igd : Z) (mk : bool) : policy :=
  {| rp_db := rp_db p; rp_name := rp_name p; rp_nm := rp_nm p; rp_dur := d; rp_sgdur := sgd; rp_igdur := igd; rp_mark := mk;
     rp_msts := rp_msts p; rp_vers := rp_vers p; rp_sgs := rp_sgs p; rp_igs := rp_igs p |}.
Definition pol_set_msts (p : policy) (ms : list mst) (vs : list (Z * Z)) : policy :=
  {| rp_db := rp_db p; rp_name := rp_name p; rp_nm := rp_nm p; rp_dur := rp_dur p; rp_sgdur := rp_sgdur p; rp_igdur := rp_igdur p; rp_mark := rp_mark p;
     rp_msts := ms; rp_vers := vs; rp_sgs := rp_sgs p; rp_igs := rp_igs p |}.
Definition pol_set_sgs (p : policy) (l : list sgroup) : policy :=
  {| rp_db := rp_db p; rp_name := rp_name p; rp_nm := rp_nm p; rp_dur := rp_dur p; rp_sgdur := rp_sgdur p; rp_igdur := rp_igdur p; rp_mark := rp_mark p;
     rp_msts := rp_msts p; rp_vers := rp_vers p; rp_sgs := l; rp_igs := rp_igs p |}.
Definition pol_set_igs (p : policy) (l : list igroup) : policy :=
  {| rp_db := rp_db p; rp_name := rp_name p; rp_nm := rp_nm p; rp_dur := rp_dur p; rp_sgdur := rp_sgdur p; rp_igdur := rp_igdur p; rp_mark := rp_mark p;
     rp_msts := rp_msts p; rp_vers := rp_vers p; rp_sgs := rp_sgs p; rp_igs := l |}.

(* ---- lookups ---- *)
Definition is_pol (db n : Z) (p : policy) : bool := (rp_db p =? db) && (rp_name p =? n).
Definition find_db (c : cat) (db : Z) : option database := find (fun d => db_name d =? db) (dbs c).
Definition find_pol (c : cat) (db n : Z) : option policy := find (is_pol db n) (pols c).

(* Data.GetDatabase: present and not marked for deletion *)
Definition get_db (c : cat) (db : Z) : option database :=
  match find_db c db with Some d => if db_mark d then None else Some d | None => None end.

(* Data.RetentionPolicy(db, name): the empty name resolves to the default policy; marked policies are not returned *)
Definition resolve (d : database) (n : Z) : Z := if n =? 0 then db_default d else n.
Definition get_pol (c : cat) (db n : Z) : option policy :=
  match get_db c db with
  | None => None
  | Some d =>
      let k := resolve d n in
      if k =? 0 then None else
      match find_pol c db k with Some p => if rp_mark p then None else Some p | None => None end
  end.

(* update the first element satisfying f *)
Fixpoint upd_first {A} (f : A -> bool) (g : A -> A) (l : list A) : list A :=
  match l with
  | [] => []
  | x :: r => if f x then g x :: r else x :: upd_first f g r
  end.

Definition upd_pol (c : cat) (db n : Z) (g : policy -> policy) : cat := set_pols c (upd_first (is_pol db n) g (pols c)).
Definition upd_db (c : cat) (db : Z) (g : database -> database) : cat :=
  set_dbs c (upd_first (fun d => db_name d =? db) g (dbs c)).

(* ---- retention policy specification (RetentionPolicyInfo.CheckSpecValid with hot/warm/cold/merge durations 0);
        sg_default is shardGroupDuration, norm_sgd normalisedShardDuration of retentionpolicy.go ---- *)
Definition sg_default (d : Z) : Z :=
  if (d >=? 180 * DAY) || (d =? 0) then 7 * DAY else if d >=? 2 * DAY then DAY else HOUR.
Definition norm_sgd (sgd d : Z) : Z := if sgd =? 0 then sg_default d else if sgd <? HOUR then HOUR else sgd.
Definition norm_igd (igd sgd : Z) : Z :=
  if igd <? sgd then sgd else if igd mod sgd =? 0 then igd else (igd / sgd + 1) * sgd.
Definition spec_valid (d sgd : Z) : bool :=
  negb (negb (d =? 0) && (d <? HOUR)) && negb (negb (d =? 0) && (d <? sgd)).

Definition new_policy (db n d sgd igd : Z) : policy :=
  {| rp_db := db; rp_name := n; rp_nm := n; rp_dur := d; rp_sgdur := sgd; rp_igdur := igd; rp_mark := false;
     rp_msts := []; rp_vers := []; rp_sgs := []; rp_igs := [] |}.

(* ---- commands ---- *)
Inductive cmd :=
| CreateDb (db : Z) (rp d sgd : Z)                    (* with the policy of the command or the auto-created one *)
| MarkDb (db : Z)
| DropDb (db : Z)
| CreateRp (db rp d sgd : Z) (mkdef : bool)
| UpdateRp (db rp : Z) (d sgd : option Z) (mkdef : bool)
| MarkRp (db rp : Z)
| DropRp (db rp : Z)
| SetDefault (db rp : Z)
| CreateMst (db rp m : Z)
| MarkMst (db rp m : Z)
| DropMst (db rp m ver : Z)
| CreateSg (db rp ts eng : Z)
| DeleteSg (db rp id : Z)
| PruneSg (id : Z)
| DeleteIg (db rp id : Z)
| PruneIg (id : Z)
| CreateNode (http tcp : Z)
| CreatePtView (db : Z)
| UpdatePt (db pt cowner cstat owner status : Z)
| Restore                                             (* snapshot (clone, marshal) and restore (unmarshal) of the whole catalogue *)
| CreateMstBad (db rp m : Z)                          (* CreateMeasurement whose schema list names a field twice with different types *)
| RenameRp (db rp nn : Z) (d sgd : option Z) (mkdef : bool)   (* UpdateRetentionPolicy carrying NewName *)
| CancelDeleteSg (db rp id : Z)                       (* DeleteShardGroup with DeleteType = CancelDelete (RevertRetentionPolicyDelete) *)
| RemoveNode (id : Z).                                (* RemoveNodeCommand for one data node *)

Definition ok (c : cat) : cat * bool := (c, true).
Definition err (c : cat) : cat * bool := (c, false).

(* -- databases -- *)
Definition create_db (c : cat) (db rp d sgd : Z) : cat * bool :=
  if db =? 0 then err c else
  if ptnum c =? 0 then err c else
  match find_db c db with
  | Some x => if db_mark x then err c else ok c
  | None =>
      if rp =? 0 then err c else
      let sgd' := norm_sgd sgd d in
      if negb (spec_valid d sgd') then err c else
      ok (set_pols (set_dbs c (dbs c ++ [{| db_name := db; db_default := rp; db_mark := false |}]))
                   (pols c ++ [new_policy db rp d sgd' (norm_igd 0 sgd')]))
  end.

Definition mark_db (c : cat) (db : Z) : cat * bool :=
  match find_db c db with
  | None => err c
  | Some x => if db_mark x then err c
              else ok (upd_db c db (fun x => {| db_name := db_name x; db_default := db_default x; db_mark := true |}))
  end.

(* storeFSM.applyDropDatabaseCommand returns before Data.DropDatabase for an unknown database: its partition view, if the
   server created one ahead of the database, stays *)
Definition drop_db (c : cat) (db : Z) : cat * bool :=
  match find_db c db with None => ok c | Some _ =>
  ok (set_ptview (set_pols (set_dbs c (filter (fun d => negb (db_name d =? db)) (dbs c)))
                           (filter (fun p => negb (rp_db p =? db)) (pols c)))
                 (filter (fun e => negb (fst e =? db)) (ptview c)))
  end.

(* -- retention policies -- *)
Definition set_default (c : cat) (db n : Z) : cat :=
  upd_db c db (fun x => {| db_name := db_name x; db_default := n; db_mark := db_mark x |}).

Definition create_rp (c : cat) (db rp d sgd : Z) (mkdef : bool) : cat * bool :=
  match get_db c db with
  | None => err c
  | Some x =>
      if rp =? 0 then err c else
      let sgd' := norm_sgd sgd d in
      let igd' := norm_igd 0 sgd' in
      if negb (spec_valid d sgd') then err c else
      match find_pol c db rp with
      | None =>
          let c1 := set_pols c (pols c ++ [new_policy db rp d sgd' igd']) in
          ok (if mkdef then set_default c1 db rp else c1)
      | Some q =>
          if negb ((rp_dur q =? d) && (rp_sgdur q =? sgd') && (rp_igdur q =? igd')) then err c
          else if mkdef && negb (db_default x =? rp) then err c
          else ok c
      end
  end.

Definition opt_or (o : option Z) (v : Z) : Z := match o with Some x => x | None => v end.

Definition update_rp (c : cat) (db rp : Z) (d sgd : option Z) (mkdef : bool) : cat * bool :=
  match get_pol c db rp with
  | None => err c
  | Some p =>
      let d' := opt_or d (rp_dur p) in
      let sgd' := norm_sgd (opt_or sgd (rp_sgdur p)) d' in
      let igd' := norm_igd (rp_igdur p) sgd' in
      if negb (spec_valid d' sgd') then err c else
      let c1 := upd_pol c db (rp_name p) (fun q => pol_set_meta q d' sgd' igd' (rp_mark q)) in
      ok (if mkdef then set_default c1 db (rp_name p) else c1)
  end.

(* UpdateRetentionPolicy with NewName = nn. checkUpdateRetentionPolicyName compares nn with the command's literal name and
   otherwise looks nn up like any policy name (the empty name is the default policy; marked policies count). With rekey
   the entry moves to the new key and a default naming the old key follows; without, only the Name field changes (and
   makeDefault stores a name that is not a key). *)
Definition pol_rename (p : policy) (key nm : Z) : policy :=
  {| rp_db := rp_db p; rp_name := key; rp_nm := nm; rp_dur := rp_dur p; rp_sgdur := rp_sgdur p; rp_igdur := rp_igdur p; rp_mark := rp_mark p;
     rp_msts := rp_msts p; rp_vers := rp_vers p; rp_sgs := rp_sgs p; rp_igs := rp_igs p |}.

Definition rename_rp (c : cat) (db rp nn : Z) (d sgd : option Z) (mkdef : bool) : cat * bool :=
  match get_db c db, get_pol c db rp with
  | Some x, Some p =>
      let taken := if nn =? rp then false else
                   let k := resolve x nn in
                   if k =? 0 then false else match find_pol c db k with Some _ => true | None => false end in
      if taken then err c else
      let d' := opt_or d (rp_dur p) in
      let sgd' := norm_sgd (opt_or sgd (rp_sgdur p)) d' in
      let igd' := norm_igd (rp_igdur p) sgd' in
      if negb (spec_valid d' sgd') then err c else
      let old := rp_name p in
      if rekey c then
        (* delete(RetentionPolicies, old); RetentionPolicies[nn] = rpi: an entry already stored under nn is overwritten. Only the
           empty name gets that far (the default policy renamed to "" while a policy named "" exists): that policy is lost *)
        let c0 := if nn =? old then c else set_pols c (filter (fun q => negb (is_pol db nn q)) (pols c)) in
        let c1 := upd_pol c0 db old (fun q => pol_rename (pol_set_meta q d' sgd' igd' (rp_mark q)) nn nn) in
        ok (if mkdef || (db_default x =? rp_nm p) then set_default c1 db nn else c1)
      else
        let c1 := upd_pol c db old (fun q => pol_rename (pol_set_meta q d' sgd' igd' (rp_mark q)) old nn) in
        ok (if mkdef then set_default c1 db nn else c1)
  | _, _ => err c
  end.

Definition mark_rp (c : cat) (db rp : Z) : cat * bool :=
  match get_pol c db rp with
  | None => err c
  | Some p => ok (upd_pol c db (rp_name p) (fun q => pol_set_meta q (rp_dur q) (rp_sgdur q) (rp_igdur q) true))
  end.

Definition drop_rp (cleardef : bool) (c : cat) (db rp : Z) : cat * bool :=
  match get_db c db with
  | None => err c
  | Some x =>
      let c1 := set_pols c (filter (fun p => negb (is_pol db rp p)) (pols c)) in
      ok (if cleardef && (db_default x =? rp) then set_default c1 db 0 else c1)
  end.

Definition set_default_rp (c : cat) (db rp : Z) : cat * bool :=
  match get_pol c db rp with
  | None => err c
  | Some _ => ok (set_default c db rp)       (* the literal name of the command, as in the code *)
  end.

(* -- measurements -- *)
Fixpoint assoc (k : Z) (l : list (Z * Z)) : option Z :=
  match l with [] => None | (a, b) :: r => if a =? k then Some b else assoc k r end.
Fixpoint assoc_set (k v : Z) (l : list (Z * Z)) : list (Z * Z) :=
  match l with [] => [(k, v)] | (a, b) :: r => if a =? k then (k, v) :: r else (a, b) :: assoc_set k v r end.
Definition is_mst (m ver : Z) (x : mst) : bool := (ms_name x =? m) && (ms_ver x =? ver).
Definition find_mst (p : policy) (m ver : Z) : option mst := find (is_mst m ver) (rp_msts p).

(* RetentionPolicyInfo.Measurement(name): the current version's entry, if it is still there. Versions are 16 bits wide:
   createVersionMeasurement takes (version + 1) & 0xffff *)
Definition cur_mst (p : policy) (m : Z) : option mst :=
  match assoc m (rp_vers p) with None => None | Some v => find_mst p m v end.

Definition add_mst (c : cat) (p : policy) (m ver : Z) : cat :=
  set_max_mst
    (upd_pol c (rp_db p) (rp_name p)
       (fun q => pol_set_msts q (rp_msts q ++ [{| ms_name := m; ms_ver := ver; ms_id := max_mst c; ms_mark := false |}])
                              (assoc_set m ver (rp_vers q))))
    (max_mst c + 1).

Definition create_mst (c : cat) (db rp m : Z) : cat * bool :=
  match get_pol c db rp with
  | None => err c
  | Some p =>
      match assoc m (rp_vers p) with
      | None => ok (add_mst c p m 0)
      | Some v =>
          match find_mst p m v with
          | None => ok (add_mst c p m (Z.land (v + 1) 65535))
          | Some x => if ms_mark x then ok (add_mst c p m (Z.land (v + 1) 65535)) else ok c
          end
      end
  end.

(* CreateMeasurement with a schema list that names one field twice with different types. A measurement that exists (same
   shard key) is left alone and the command succeeds; otherwise the code before f21700b registered the measurement and then
   failed in UpdateSchema: a failed command that changed the catalogue. *)
Definition create_mst_bad (c : cat) (db rp m : Z) : cat * bool :=
  match get_pol c db rp with
  | None => err c
  | Some p =>
      let add v := if schemafirst c then err c else (add_mst c p m v, false) in
      match assoc m (rp_vers p) with
      | None => add 0
      | Some v =>
          match find_mst p m v with
          | None => add (Z.land (v + 1) 65535)
          | Some x => if ms_mark x then add (Z.land (v + 1) 65535) else ok c
          end
      end
  end.

Definition mark_one (x : mst) : mst := {| ms_name := ms_name x; ms_ver := ms_ver x; ms_id := ms_id x; ms_mark := true |}.

Definition mark_mst (c : cat) (db rp m : Z) : cat * bool :=
  match get_pol c db rp with
  | None => err c
  | Some p =>
      match cur_mst p m with
      | None => err c
      | Some x => if ms_mark x then err c
                  else ok (upd_pol c db (rp_name p) (fun q => pol_set_msts q (upd_first (is_mst m (ms_ver x)) mark_one (rp_msts q)) (rp_vers q)))
      end
  end.

Definition drop_mst (c : cat) (db rp m ver : Z) : cat * bool :=
  match get_pol c db rp with
  | None => err c
  | Some p =>
      ok (upd_pol c db (rp_name p)
            (fun q => pol_set_msts q (filter (fun x => negb (is_mst m ver x && ms_mark x)) (rp_msts q)) (rp_vers q)))
  end.

(* -- shard groups -- *)
Definition sg_contains (g : sgroup) (t : Z) : bool := (sg_start g <=? t) && (t <? sg_end g).
(* ShardGroupByTimestampAndEngineType: a live group of that engine type containing the instant *)
Definition covers (g : sgroup) (t eng : Z) : bool := (sg_eng g =? eng) && sg_contains g t && negb (sg_del g).

(* ShardGroupInfos.Less / IndexGroupInfos.Less: by end, then start *)
Definition key_lt (e1 s1 e2 s2 : Z) : bool := (e1 <? e2) || ((e1 =? e2) && (s1 <? s2)).
Fixpoint insert_sg (g : sgroup) (l : list sgroup) : list sgroup :=
  match l with
  | [] => [g]
  | x :: r => if key_lt (sg_end g) (sg_start g) (sg_end x) (sg_start x) then g :: l else x :: insert_sg g r
  end.
Fixpoint insert_ig (g : igroup) (l : list igroup) : list igroup :=
  match l with
  | [] => [g]
  | x :: r => if key_lt (ig_end g) (ig_start g) (ig_end x) (ig_start x) then g :: l else x :: insert_ig g r
  end.

(* ids n, n+1, .. : k consecutive numbers starting at a *)
Fixpoint zseq (a : Z) (k : nat) : list Z := match k with O => [] | S k' => a :: zseq (a + 1) k' end.

(* createIndexGroupCovering(t, e): the LAST index group of that engine type that contains the instant t (deleted or not)
   and does not end before e - the end of the shard group it is to serve - is reused if it has at least ptnum indexes;
   otherwise createIndexGroupUntil makes a new one: the cell of t for the policy's index-group duration, stretched to e *)
Definition ig_match (t e eng : Z) (g : igroup) : bool := (ig_eng g =? eng) && (ig_start g <=? t) && (t <? ig_end g) && (e <=? ig_end g).
Definition find_last {A} (f : A -> bool) (l : list A) : option A := find f (rev l).

Definition new_igroup (c : cat) (p : policy) (t e eng : Z) : igroup :=
  let s := trunc t (rp_igdur p) in
  {| ig_id := max_ig c + 1; ig_start := if clampst c then Z.max s MINNANO else s;
     ig_end := Z.min (Z.max (s + rp_igdur p) e) MAXNANO1; ig_del := false; ig_eng := eng;
     ig_indexes := map (fun i => {| ix_id := max_ix c + 1 + i; ix_owners := [i]; ix_mark := false |}) (zseq 0 (Z.to_nat (ptnum c))) |}.

(* returns the index group to use and whether it is new *)
Definition ensure_ig (c : cat) (p : policy) (t e eng : Z) : igroup * bool :=
  match find_last (ig_match t e eng) (rp_igs p) with
  | Some g => if Z.of_nat (length (ig_indexes g)) >=? ptnum c then (g, false) else (new_igroup c p t e eng, true)
  | None => (new_igroup c p t e eng, true)
  end.

(* the minimal repair: clip [s, e) to the live neighbours of the same engine type around t *)
Definition clip_lo (l : list sgroup) (eng t s : Z) : Z :=
  fold_left (fun acc g => if (sg_eng g =? eng) && negb (sg_del g) && (sg_end g <=? t) then Z.max acc (sg_end g) else acc) l s.
Definition clip_hi (l : list sgroup) (eng t e : Z) : Z :=
  fold_left (fun acc g => if (sg_eng g =? eng) && negb (sg_del g) && (t <? sg_start g) then Z.min acc (sg_start g) else acc) l e.

(* the end of the group newShardGroup makes for the instant t *)
Definition new_sg_end (clip : bool) (p : policy) (t eng : Z) : Z :=
  let e := cell_end (trunc t (rp_sgdur p)) (rp_sgdur p) in
  if clip then clip_hi (rp_sgs p) eng t e else e.

Definition new_sgroup (clip : bool) (c : cat) (p : policy) (ig : igroup) (t eng : Z) : sgroup :=
  let s := trunc t (rp_sgdur p) in
  let s0 := if clampst c then Z.max s MINNANO else s in   (* the first cell of the time domain begins before int64 ns *)
  {| sg_id := max_sg c + 1;
     sg_start := if clip then clip_lo (rp_sgs p) eng t s0 else s0;
     sg_end := new_sg_end clip p t eng;
     sg_del := false; sg_eng := eng; sg_dur := rp_sgdur p;
     sg_shards := map (fun i => {| sh_id := max_sh c + 1 + i; sh_owners := [i];
                                   sh_index := ix_id (nth (Z.to_nat i) (ig_indexes ig) {| ix_id := 0; ix_owners := []; ix_mark := false |});
                                   sh_mark := false |})
                      (zseq 0 (Z.to_nat (ptnum c))) |}.

Definition create_sg (clip : bool) (c : cat) (db rp t eng : Z) : cat * bool :=
  if ptnum c =? 0 then err c else
  match get_pol c db rp with
  | None => err c
  | Some p =>
      if existsb (fun g => covers g t eng) (rp_sgs p) then ok c else
      match rp_msts p with
      | [] => err c
      | _ :: _ =>
          let '(ig, isnew) := ensure_ig c p t (new_sg_end clip p t eng) eng in
          let g := new_sgroup clip c p ig t eng in
          let c1 := upd_pol c db (rp_name p)
                      (fun q => pol_set_sgs (if isnew then pol_set_igs q (insert_ig ig (rp_igs q)) else q) (insert_sg g (rp_sgs q))) in
          ok (set_sg_counters c1 (max_sg c + 1) (max_sh c + ptnum c)
                (if isnew then max_ig c + 1 else max_ig c) (if isnew then max_ix c + ptnum c else max_ix c))
      end
  end.

Definition sg_set_del (g : sgroup) : sgroup :=
  {| sg_id := sg_id g; sg_start := sg_start g; sg_end := sg_end g; sg_del := true; sg_eng := sg_eng g; sg_dur := sg_dur g; sg_shards := sg_shards g |}.
Definition ig_set_del (g : igroup) : igroup :=
  {| ig_id := ig_id g; ig_start := ig_start g; ig_end := ig_end g; ig_del := true; ig_eng := ig_eng g; ig_indexes := ig_indexes g |}.

Definition delete_sg (c : cat) (db rp id : Z) : cat * bool :=
  match get_pol c db rp with
  | None => err c
  | Some p => ok (upd_pol c db (rp_name p) (fun q => pol_set_sgs q (upd_first (fun g => sg_id g =? id) sg_set_del (rp_sgs q))))
  end.
(* DeleteShardGroup with CancelDelete: the deletion stamp of the group with that id is cleared. Repair (safecancel): not
   while a live group of the same engine type overlaps it - a group created for that span while this one was deleted. *)
Definition sg_set_live (g : sgroup) : sgroup :=
  {| sg_id := sg_id g; sg_start := sg_start g; sg_end := sg_end g; sg_del := false; sg_eng := sg_eng g; sg_dur := sg_dur g; sg_shards := sg_shards g |}.
Definition overlaps_live (l : list sgroup) (g : sgroup) : bool :=
  existsb (fun x => negb (sg_del x) && (sg_eng x =? sg_eng g) && (sg_start x <? sg_end g) && (sg_start g <? sg_end x)) l.
Definition cancel_delete_sg (c : cat) (db rp id : Z) : cat * bool :=
  match get_pol c db rp with
  | None => err c
  | Some p =>
      match find (fun g => sg_id g =? id) (rp_sgs p) with
      | None => ok c
      | Some g =>
          if negb (sg_del g) then ok c else
          if safecancel c && overlaps_live (rp_sgs p) g then ok c else
          ok (upd_pol c db (rp_name p) (fun q => pol_set_sgs q (upd_first (fun g => sg_id g =? id) sg_set_live (rp_sgs q))))
      end
  end.

Definition delete_ig (c : cat) (db rp id : Z) : cat * bool :=
  match get_pol c db rp with
  | None => err c
  | Some p => ok (upd_pol c db (rp_name p) (fun q => pol_set_igs q (upd_first (fun g => ig_id g =? id) ig_set_del (rp_igs q))))
  end.

(* pruneShardGroups id: in every policy, inside each group whose id range [first, last] contains the argument, the first shard
   with id >= the argument (sort.Search) is marked if it carries exactly that id; drop groups that are deleted and whose shards are all marked. With schema
   cleaning on, a policy that lost a group has the current version of every measurement (schemas are empty in the modelled
   subset) marked for deletion, provided its database and itself are not being deleted. *)
Definition sh_set_mark (x : shard) : shard := {| sh_id := sh_id x; sh_owners := sh_owners x; sh_index := sh_index x; sh_mark := true |}.
Definition ix_set_mark (x : index) : index := {| ix_id := ix_id x; ix_owners := ix_owners x; ix_mark := true |}.
Definition first_sh (l : list shard) : Z := match l with [] => 0 | x :: _ => sh_id x end.
Definition last_sh (l : list shard) : Z := sh_id (last l {| sh_id := 0; sh_owners := []; sh_index := 0; sh_mark := false |}).
Definition first_ix (l : list index) : Z := match l with [] => 0 | x :: _ => ix_id x end.
Definition last_ix (l : list index) : Z := ix_id (last l {| ix_id := 0; ix_owners := []; ix_mark := false |}).

Definition prune_mark_sg (id : Z) (g : sgroup) : sgroup :=
  if (first_sh (sg_shards g) <=? id) && (id <=? last_sh (sg_shards g)) then
    {| sg_id := sg_id g; sg_start := sg_start g; sg_end := sg_end g; sg_del := sg_del g; sg_eng := sg_eng g; sg_dur := sg_dur g;
       sg_shards := upd_first (fun x => id <=? sh_id x) (fun x => if sh_id x =? id then sh_set_mark x else x) (sg_shards g) |}
  else g.
Definition prune_mark_ig (id : Z) (g : igroup) : igroup :=
  if (first_ix (ig_indexes g) <=? id) && (id <=? last_ix (ig_indexes g)) then
    {| ig_id := ig_id g; ig_start := ig_start g; ig_end := ig_end g; ig_del := ig_del g; ig_eng := ig_eng g;
       ig_indexes := upd_first (fun x => id <=? ix_id x) (fun x => if ix_id x =? id then ix_set_mark x else x) (ig_indexes g) |}
  else g.
Definition sg_gone (g : sgroup) : bool := sg_del g && forallb sh_mark (sg_shards g).
Definition ig_gone (g : igroup) : bool := forallb ix_mark (ig_indexes g).

Definition db_live (c : cat) (db : Z) : bool := match get_db c db with Some _ => true | None => false end.

Definition prune_sg_pol (c : cat) (id : Z) (p : policy) : policy :=
  let l := map (prune_mark_sg id) (rp_sgs p) in
  let p1 := pol_set_sgs p (filter (fun g => negb (sg_gone g)) l) in
  if sclean c && existsb sg_gone l && db_live c (rp_db p) && negb (rp_mark p) then
    pol_set_msts p1 (map (fun x => match assoc (ms_name x) (rp_vers p) with
                                   | Some v => if ms_ver x =? v then mark_one x else x
                                   | None => x end) (rp_msts p)) (rp_vers p)
  else p1.
Definition prune_sg (c : cat) (id : Z) : cat * bool := ok (set_pols c (map (prune_sg_pol c id) (pols c))).

Definition prune_ig_pol (id : Z) (p : policy) : policy :=
  pol_set_igs p (filter (fun g => negb (ig_gone g)) (map (prune_mark_ig id) (rp_igs p))).
Definition prune_ig (c : cat) (id : Z) : cat * bool := ok (set_pols c (map (prune_ig_pol id) (pols c))).

(* -- data nodes and the partition view (all nodes are writers, HA policy write-available-first) -- *)
(* the PtStatus Offline of database.go (Online, PrepareOffload, PrepareAssign, Offline) *)
Definition OFFLINE : Z := 3.
Definition fresh_pt (owner : Z) : ptinfo := {| pt_owner := owner; pt_status := OFFLINE; pt_ver := 1 |}.

Definition set_nodes (c : cat) (l : list node) (mn mc pn : Z) (pv : list (Z * list ptinfo)) : cat :=
  {| dbs := dbs c; pols := pols c; nodes := l; ptview := pv; ptnum := pn; ptper := ptper c; sclean := sclean c; clampst := clampst c; schemafirst := schemafirst c; rekey := rekey c; safecancel := safecancel c;
     max_node := mn; max_sg := max_sg c; max_sh := max_sh c; max_mst := max_mst c; max_ig := max_ig c;
     max_ix := max_ix c; max_conn := mc |}.
Definition nd_set_conn (v : Z) (n : node) : node := {| nd_id := nd_id n; nd_http := nd_http n; nd_tcp := nd_tcp n; nd_conn := v |}.

Definition create_node (c : cat) (h t : Z) : cat * bool :=
  let mc := max_conn c + 1 in
  if existsb (fun n => nd_http n =? h) (nodes c) then
    ok (set_nodes c (upd_first (fun n => nd_http n =? h) (nd_set_conn mc) (nodes c)) (max_node c) mc (ptnum c) (ptview c))
  else if existsb (fun n => nd_tcp n =? t) (nodes c) then
    ok (set_nodes c (upd_first (fun n => nd_tcp n =? t) (nd_set_conn mc) (nodes c)) (max_node c) mc (ptnum c) (ptview c))
  else
    let id := max_node c + 1 in
    let l := nodes c ++ [{| nd_id := id; nd_http := h; nd_tcp := t; nd_conn := mc |}] in
    let want := ptper c * Z.of_nat (length l) in
    let pn := if ptnum c <? want then want else ptnum c in
    ok (set_nodes c l id mc pn
          (map (fun e => (fst e, snd e ++ repeat (fresh_pt id) (Z.to_nat pn - length (snd e)))) (ptview c))).

(* Data.RemoveNode: the node leaves the list; its id is not handed out again (MaxNodeID stays) *)
Definition remove_node (c : cat) (id : Z) : cat * bool :=
  ok (set_nodes c (filter (fun n => negb (nd_id n =? id)) (nodes c)) (max_node c) (max_conn c) (ptnum c) (ptview c)).

Definition create_ptview (c : cat) (db : Z) : cat * bool :=
  if existsb (fun e => fst e =? db) (ptview c) then ok c else
  match nodes c with
  | [] => err c
  | n0 :: _ =>
      if ptnum c =? 0 then ok c else
      ok (set_ptview c (ptview c ++ [(db, map (fun i => fresh_pt (nd_id (nth (Z.to_nat (i mod Z.of_nat (length (nodes c)))) (nodes c) n0)))
                                                (zseq 0 (Z.to_nat (ptnum c))))]))
  end.

Fixpoint upd_nth {A} (k : nat) (g : A -> A) (l : list A) : list A :=
  match l, k with
  | [], _ => []
  | x :: r, O => g x :: r
  | x :: r, S k' => x :: upd_nth k' g r
  end.

Definition update_pt (c : cat) (db pt cowner cstat owner status : Z) : cat * bool :=
  match find (fun e => fst e =? db) (ptview c) with
  | None => err c
  | Some e =>
      if (pt <? 0) || (pt >=? Z.of_nat (length (snd e))) then err c else
      match nth_error (snd e) (Z.to_nat pt) with
      | None => err c
      | Some x =>
          if negb ((pt_owner x =? cowner) && (pt_status x =? cstat)) then err c else
          (* nodes never become alive in the modelled subset: setting a partition of a known node online is refused silently *)
          if (status =? 0) && existsb (fun n => nd_id n =? owner) (nodes c) then ok c else
          ok (set_ptview c (upd_first (fun e => fst e =? db)
                (fun e => (fst e, upd_nth (Z.to_nat pt)
                   (fun x => {| pt_owner := owner; pt_status := status; pt_ver := if pt_ver x =? 0 then 1 else pt_ver x |}) (snd e)))
                (ptview c)))
      end
  end.

(* -- snapshot and restore of the whole catalogue (storeFSM.Snapshot / Persist / Restore) --
   Instants are persisted as int64 nanoseconds (MarshalTime = time.Time.UnixNano): a group start before -2^63 ns - the
   cell of an instant close to models.MinNanoTime begins there - wraps around. Everything else the model observes comes back
   unchanged. *)
Definition MININT : Z := -9223372036854775808.
Definition wrap64 (z : Z) : Z := (z - MININT) mod 18446744073709551616 + MININT.
Definition restore_sg (g : sgroup) : sgroup :=
  {| sg_id := sg_id g; sg_start := wrap64 (sg_start g); sg_end := wrap64 (sg_end g); sg_del := sg_del g; sg_eng := sg_eng g;
     sg_dur := sg_dur g; sg_shards := sg_shards g |}.
Definition restore_ig (g : igroup) : igroup :=
  {| ig_id := ig_id g; ig_start := wrap64 (ig_start g); ig_end := wrap64 (ig_end g); ig_del := ig_del g; ig_eng := ig_eng g;
     ig_indexes := ig_indexes g |}.
Definition restore_state (c : cat) : cat :=
  set_pols c (map (fun p => pol_set_igs (pol_set_sgs p (map restore_sg (rp_sgs p))) (map restore_ig (rp_igs p))) (pols c)).

(* ---- the step function ---- *)
Definition apply (clip cleardef : bool) (c : cat) (x : cmd) : cat * bool :=
  match x with
  | CreateDb db rp d sgd => create_db c db rp d sgd
  | MarkDb db => mark_db c db
  | DropDb db => drop_db c db
  | CreateRp db rp d sgd k => create_rp c db rp d sgd k
  | UpdateRp db rp d sgd k => update_rp c db rp d sgd k
  | MarkRp db rp => mark_rp c db rp
  | DropRp db rp => drop_rp cleardef c db rp
  | SetDefault db rp => set_default_rp c db rp
  | CreateMst db rp m => create_mst c db rp m
  | MarkMst db rp m => mark_mst c db rp m
  | DropMst db rp m v => drop_mst c db rp m v
  | CreateSg db rp t eng => create_sg clip c db rp t eng
  | DeleteSg db rp id => delete_sg c db rp id
  | PruneSg id => prune_sg c id
  | DeleteIg db rp id => delete_ig c db rp id
  | PruneIg id => prune_ig c id
  | CreateNode h t => create_node c h t
  | CreatePtView db => create_ptview c db
  | UpdatePt db pt co cs o s => update_pt c db pt co cs o s
  | Restore => ok (restore_state c)
  | CreateMstBad db rp m => create_mst_bad c db rp m
  | RenameRp db rp nn d sgd k => rename_rp c db rp nn d sgd k
  | CancelDeleteSg db rp id => cancel_delete_sg c db rp id
  | RemoveNode id => remove_node c id
  end.

Definition apply_current := apply false false.
Definition apply_repaired := apply true true.

Fixpoint run (clip cleardef : bool) (c : cat) (xs : list cmd) : cat :=
  match xs with [] => c | x :: r => run clip cleardef (fst (apply clip cleardef c x)) r end.

(* ---- well-formedness (the statement of C16), boolean form; Prop form and the equivalence are in Wf.v ---- *)
Definition sg_ids (c : cat) : list Z := flat_map (fun p => map sg_id (rp_sgs p)) (pols c).
Definition sh_ids_of (p : policy) : list Z := flat_map (fun g => map sh_id (sg_shards g)) (rp_sgs p).
Definition sh_ids (c : cat) : list Z := flat_map sh_ids_of (pols c).
Definition ig_ids (c : cat) : list Z := flat_map (fun p => map ig_id (rp_igs p)) (pols c).
Definition ix_ids_of (p : policy) : list Z := flat_map (fun g => map ix_id (ig_indexes g)) (rp_igs p).
Definition ix_ids (c : cat) : list Z := flat_map ix_ids_of (pols c).
Definition mst_ids (c : cat) : list Z := flat_map (fun p => map ms_id (rp_msts p)) (pols c).
Definition node_ids (c : cat) : list Z := map nd_id (nodes c).

Fixpoint nodup_b (l : list Z) : bool :=
  match l with [] => true | x :: r => negb (existsb (Z.eqb x) r) && nodup_b r end.
(* unique, positive, at most the counter *)
Definition uniq_le_b (l : list Z) (m : Z) : bool := nodup_b l && forallb (fun x => (0 <? x) && (x <=? m)) l.
(* measurement ids are post-incremented from 0 *)
Definition uniq_lt_b (l : list Z) (m : Z) : bool := nodup_b l && forallb (fun x => (0 <=? x) && (x <? m)) l.

(* a live group lies inside one cell of the duration in force at its creation and is not empty *)
Definition aligned_b (g : sgroup) : bool :=
  sg_del g ||
  ((sg_start g <? sg_end g) && (0 <? sg_dur g) &&
   (sg_end g <=? cell_end (trunc (sg_start g) (sg_dur g)) (sg_dur g))).
Definition disjoint2_b (a b : sgroup) : bool :=
  sg_del a || sg_del b || negb (sg_eng a =? sg_eng b) || (sg_end a <=? sg_start b) || (sg_end b <=? sg_start a).
Fixpoint pairwise_b {A} (f : A -> A -> bool) (l : list A) : bool :=
  match l with [] => true | x :: r => forallb (f x) r && pairwise_b f r end.
Definition key_le (a b : sgroup) : bool := negb (key_lt (sg_end b) (sg_start b) (sg_end a) (sg_start a)).
Fixpoint sorted_b (l : list sgroup) : bool :=
  match l with
  | [] => true
  | x :: r => match r with [] => true | y :: _ => key_le x y && sorted_b r end
  end.
Definition groups_ok_b (l : list sgroup) : bool := sorted_b l && forallb aligned_b l && pairwise_b disjoint2_b l.

Definition refs_ok_b (c : cat) (p : policy) : bool :=
  forallb (fun g => forallb (fun s =>
      existsb (Z.eqb (sh_index s)) (ix_ids_of p) &&
      negb (match sh_owners s with [] => true | _ => false end) &&
      forallb (fun o => (0 <=? o) && (o <? ptnum c)) (sh_owners s)) (sg_shards g)) (rp_sgs p).

Definition pol_keys (c : cat) : list (Z * Z) := map (fun p => (rp_db p, rp_name p)) (pols c).
Definition pair_eqb (a b : Z * Z) : bool := (fst a =? fst b) && (snd a =? snd b).
Fixpoint nodup_pairs_b (l : list (Z * Z)) : bool :=
  match l with [] => true | x :: r => negb (existsb (pair_eqb x) r) && nodup_pairs_b r end.

Definition default_ok_b (c : cat) (d : database) : bool :=
  (db_default d =? 0) || existsb (pair_eqb (db_name d, db_default d)) (pol_keys c).

Definition wf_b (c : cat) : bool :=
  forallb (fun p => groups_ok_b (rp_sgs p)) (pols c) &&
  uniq_le_b (sg_ids c) (max_sg c) && uniq_le_b (sh_ids c) (max_sh c) &&
  uniq_le_b (ig_ids c) (max_ig c) && uniq_le_b (ix_ids c) (max_ix c) &&
  uniq_lt_b (mst_ids c) (max_mst c) && uniq_le_b (node_ids c) (max_node c) &&
  nodup_b (map db_name (dbs c)) && nodup_pairs_b (pol_keys c) &&
  forallb (fun p => existsb (Z.eqb (rp_db p)) (map db_name (dbs c))) (pols c) &&
  forallb (refs_ok_b c) (pols c) &&
  forallb (default_ok_b c) (dbs c) &&
  forallb (fun e => Z.of_nat (length (snd e)) =? ptnum c) (ptview c) &&
  forallb (fun x => 0 <=? x) [max_sg c; max_sh c; max_ig c; max_ix c; max_mst c; max_node c; ptnum c] &&
  forallb (fun p => 0 <? rp_sgdur p) (pols c) &&
  forallb (fun p => rp_nm p =? rp_name p) (pols c).   (* a policy is stored under its name *)

(* ---- the C14 invariant seen from the catalogue: the index group of every shard does not end before the shard's group ---- *)
Definition ig_of (p : policy) (ix : Z) : list igroup := filter (fun g => existsb (fun i => ix_id i =? ix) (ig_indexes g)) (rp_igs p).
Definition covered_pol_b (p : policy) : bool :=
  forallb (fun g => forallb (fun s => forallb (fun ig => sg_end g <=? ig_end ig) (ig_of p (sh_index s))) (sg_shards g)) (rp_sgs p).
Definition covered_b (c : cat) : bool := forallb covered_pol_b (pols c).
