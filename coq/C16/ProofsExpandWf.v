(* C16: ExpandGroups (and a node join that expands) hands out only fresh identifiers, never lowers a counter, and preserves the
   whole invariant: well-formedness, the C14 clause, all groups inside one cell. The walk is followed with three kinds of facts:
   the id lists grow by exactly the consecutive numbers above the counters ([ext]), the groups keep their spans ([sg_same]) -
   both whatever the catalogue - and every shard, old or appended, names an index of an index group of its policy that does not
   end before the shard's group ([good_shard], monotone while index groups only grow) provided the shards it found did. *)
From Coq Require Import ZArith List Bool Lia Sorting.Permutation.
From OG Require Import C16.Model C16.Wf C16.Lists C16.Proofs C16.ProofsCmd C16.ProofsSg C16.ProofsInv C16.ProofsRun C16.ProofsIds C16.Expand.
Import ListNotations.
Open Scope Z_scope.

Lemma map_shift_zseq : forall a n b, map (fun i => a + i) (zseq b n) = zseq (a + b) n.
Proof. intros a. induction n; intros b; cbn; [reflexivity|]. f_equal. rewrite IHn. f_equal. lia. Qed.

Lemma map_rebase_zseq : forall n a b, map (fun x => a + (x - b)) (zseq b n) = zseq a n.
Proof.
  induction n; intros a b; cbn; [reflexivity|]. f_equal; [lia|]. rewrite <- (IHn (a + 1) (b + 1)). apply map_ext. intros x. lia.
Qed.

Lemma zseq_app : forall n1 n2 a, zseq a (n1 + n2) = zseq a n1 ++ zseq (a + Z.of_nat n1) n2.
Proof.
  induction n1; intros n2 a; cbn [plus zseq app].
  - f_equal. lia.
  - f_equal. rewrite IHn1. f_equal. f_equal. lia.
Qed.

Definition ext (m m' : Z) (l l' : list Z) : Prop := m <= m' /\ Permutation l' (zseq (m + 1) (Z.to_nat (m' - m)) ++ l).

Lemma ext_refl : forall m l, ext m m l l.
Proof. intros. split; [lia|]. replace (m - m) with 0 by lia. cbn. apply Permutation_refl. Qed.

Lemma ext_trans : forall m m1 m2 l l1 l2, ext m m1 l l1 -> ext m1 m2 l1 l2 -> ext m m2 l l2.
Proof.
  intros m m1 m2 l l1 l2 [A1 A2] [B1 B2]. split; [lia|].
  replace (Z.to_nat (m2 - m)) with (Z.to_nat (m1 - m) + Z.to_nat (m2 - m1))%nat by lia. rewrite zseq_app.
  replace (m + 1 + Z.of_nat (Z.to_nat (m1 - m))) with (m1 + 1) by lia.
  eapply Permutation_trans; [exact B2|]. eapply Permutation_trans; [apply Permutation_app_head; exact A2|].
  rewrite !app_assoc. apply Permutation_app_tail. apply Permutation_app_comm.
Qed.

Lemma ext_app : forall m m1 m2 a a1 b b1, ext m m1 a a1 -> ext m1 m2 b b1 -> ext m m2 (a ++ b) (a1 ++ b1).
Proof.
  intros m m1 m2 a a1 b b1 [A1 A2] [B1 B2]. split; [lia|].
  replace (Z.to_nat (m2 - m)) with (Z.to_nat (m1 - m) + Z.to_nat (m2 - m1))%nat by lia. rewrite zseq_app.
  replace (m + 1 + Z.of_nat (Z.to_nat (m1 - m))) with (m1 + 1) by lia.
  eapply Permutation_trans; [apply Permutation_app; [exact A2 | exact B2]|].
  set (x := zseq (m + 1) (Z.to_nat (m1 - m))). set (y := zseq (m1 + 1) (Z.to_nat (m2 - m1))).
  (* (x ++ a) ++ (y ++ b)  ~  (x ++ y) ++ (a ++ b) *)
  rewrite <- !app_assoc. apply Permutation_app_head. rewrite !app_assoc. apply Permutation_app_tail. apply Permutation_app_comm.
Qed.

Lemma ext_perm : forall m m' l l0 l' l0', Permutation l l0 -> Permutation l' l0' -> ext m m' l l' -> ext m m' l0 l0'.
Proof.
  intros m m' l l0 l' l0' P P' [A B]. split; [exact A|].
  eapply Permutation_trans; [apply Permutation_sym; exact P'|]. eapply Permutation_trans; [exact B|]. apply Permutation_app_head. exact P.
Qed.

Lemma ext_uniq : forall m m' l l', uniq_le l m -> 0 <= m -> ext m m' l l' -> uniq_le l' m'.
Proof.
  intros m m' l l' U H0 [A B]. eapply uniq_le_perm; [exact B|].
  apply (uniq_le_extend _ _ m); [exact U | apply NoDup_zseq | | exact A | exact H0].
  apply Forall_forall. intros x Hx. apply (in_zseq _ (Z.to_nat (m' - m)) (m + 1) x eq_refl) in Hx. lia.
Qed.

Lemma ext_In_old : forall m m' l l' x, ext m m' l l' -> In x l -> In x l'.
Proof. intros m m' l l' x [_ B] Hx. apply (Permutation_in _ (Permutation_sym B)). apply in_or_app. right. exact Hx. Qed.

Lemma ext_In : forall m m' l l' x, ext m m' l l' -> In x l' -> In x l \/ m < x.
Proof.
  intros m m' l l' x [_ B] Hx. apply (Permutation_in _ B), in_app_iff in Hx. destruct Hx as [Hx|Hx]; [right | left; exact Hx].
  apply (in_zseq _ _ _ x eq_refl) in Hx. lia.
Qed.

Lemma ext_one : forall m l, ext m (m + 1) l (l ++ [m + 1]).
Proof.
  intros. split; [lia|]. replace (m + 1 - m) with 1 by lia. cbn. apply Permutation_sym. apply Permutation_cons_append.
Qed.

Definition ctr_ext (c c1 : cat) : Prop :=
  exists a b d e, c1 = set_sg_counters c a b d e /\ max_sg c <= a /\ max_sh c <= b /\ max_ig c <= d /\ max_ix c <= e.

Lemma ctr_ext_refl : forall c, ctr_ext c c.
Proof. intros c. exists (max_sg c), (max_sh c), (max_ig c), (max_ix c). split; [destruct c; reflexivity | lia]. Qed.

Lemma ctr_ext_trans : forall c c1 c2, ctr_ext c c1 -> ctr_ext c1 c2 -> ctr_ext c c2.
Proof.
  intros c c1 c2 (a & b & d & e & -> & A) (a' & b' & d' & e' & -> & B). cbn [max_sg max_sh max_ig max_ix set_sg_counters] in B.
  exists a', b', d', e'. split; [reflexivity | lia].
Qed.

Lemma ctr_ext_facts : forall c c1, ctr_ext c c1 ->
  ptnum c1 = ptnum c /\ nodes c1 = nodes c /\ max_mst c1 = max_mst c /\ max_node c1 = max_node c /\ switches c1 = switches c /\
  max_sg c <= max_sg c1 /\ max_sh c <= max_sh c1 /\ max_ig c <= max_ig c1 /\ max_ix c <= max_ix c1.
Proof. intros c c1 (a & b & d & e & -> & A). cbn. repeat split; lia. Qed.

Definition sg_same (g g1 : sgroup) : Prop :=
  sg_id g1 = sg_id g /\ sg_start g1 = sg_start g /\ sg_end g1 = sg_end g /\ sg_del g1 = sg_del g /\ sg_eng g1 = sg_eng g /\ sg_dur g1 = sg_dur g.

Lemma sg_same_refl : forall g, sg_same g g. Proof. intros. unfold sg_same. tauto. Qed.

Lemma groups_ok_same : forall l l', Forall2 sg_same l l' -> groups_ok l -> groups_ok l'.
Proof. apply groups_ok_sim. unfold sg_same. intros a b (_ & -> & -> & -> & -> & ->). tauto. Qed.

Definition igs_le (l l' : list igroup) : Prop :=
  forall ig, In ig l -> exists ig', In ig' l' /\ ig_end ig' = ig_end ig /\ incl (ig_indexes ig) (ig_indexes ig').

Lemma igs_le_refl : forall l, igs_le l l.
Proof. intros l ig H. exists ig. split; [exact H|]. split; [reflexivity | apply incl_refl]. Qed.

Lemma igs_le_trans : forall a b c0, igs_le a b -> igs_le b c0 -> igs_le a c0.
Proof.
  intros a b c0 A B ig H. destruct (A ig H) as (i1 & H1 & E1 & I1). destruct (B i1 H1) as (i2 & H2 & E2 & I2).
  exists i2. split; [exact H2|]. split; [congruence | eapply incl_tran; eassumption].
Qed.

Definition good_shard (n : Z) (igs : list igroup) (e : Z) (s : shard) : Prop :=
  sh_owners s <> [] /\ Forall (fun o => 0 <= o < n) (sh_owners s) /\
  exists ig i, In ig igs /\ In i (ig_indexes ig) /\ ix_id i = sh_index s /\ e <= ig_end ig.

Lemma good_shard_mono : forall n igs igs' e s, igs_le igs igs' -> good_shard n igs e s -> good_shard n igs' e s.
Proof.
  intros n igs igs' e s L (A & B & ig & i & H1 & H2 & H3 & H4). split; [exact A|]. split; [exact B|].
  destruct (L ig H1) as (ig' & G1 & G2 & G3). exists ig', i. split; [exact G1|]. split; [apply G3; exact H2|]. split; [exact H3 | lia].
Qed.

Definition good_group (n : Z) (igs : list igroup) (g : sgroup) : Prop := Forall (good_shard n igs (sg_end g)) (sg_shards g).

Lemma good_group_mono : forall n igs igs' g, igs_le igs igs' -> good_group n igs g -> good_group n igs' g.
Proof. intros n igs igs' g L H. unfold good_group in *. eapply Forall_impl; [|exact H]. intros s. apply good_shard_mono. exact L. Qed.

(* the fields of a policy the expansion never touches *)
Definition pol_meta_eq (p p1 : policy) : Prop :=
  rp_db p1 = rp_db p /\ rp_name p1 = rp_name p /\ rp_nm p1 = rp_nm p /\ rp_sgdur p1 = rp_sgdur p /\ rp_igdur p1 = rp_igdur p /\ rp_msts p1 = rp_msts p.

Definition ixs (g : igroup) : list Z := map ix_id (ig_indexes g).

Lemma expand_ig_spec : forall n mx g mx1 g1, expand_ig n mx g = (mx1, g1) ->
  ext mx mx1 (ixs g) (ixs g1) /\ ig_id g1 = ig_id g /\ ig_end g1 = ig_end g /\ incl (ig_indexes g) (ig_indexes g1).
Proof.
  intros n mx g mx1 g1. unfold expand_ig. set (k := Z.of_nat (length (ig_indexes g))).
  destruct (k <? n) eqn:E; intros X; inversion X; subst; clear X.
  - split; [|split; [reflexivity|split; [reflexivity|]]].
    + split; [lia|]. unfold ixs. cbn [ig_set_indexes ig_indexes]. rewrite map_app, map_map. cbn [ix_id].
      replace (mx + (n - k) - mx) with (n - k) by lia.
      assert (Em : map (fun x => mx + 1 + (x - k)) (zseq k (Z.to_nat (n - k))) = zseq (mx + 1) (Z.to_nat (n - k))) by apply map_rebase_zseq.
      rewrite Em. apply Permutation_app_comm.
    + cbn [ig_set_indexes ig_indexes]. apply incl_appl. apply incl_refl.
  - split; [apply ext_refl|]. split; [reflexivity|]. split; [reflexivity | apply incl_refl].
Qed.

Lemma expand_igs_spec : forall n l mx mx1 l1, expand_igs n mx l = (mx1, l1) ->
  ext mx mx1 (flat_map ixs l) (flat_map ixs l1) /\ map ig_id l1 = map ig_id l /\ igs_le l l1.
Proof.
  intros n. induction l as [|g r IH]; intros mx mx1 l1; cbn [expand_igs].
  - intros X. inversion X; subst. split; [apply ext_refl|]. split; [reflexivity | apply igs_le_refl].
  - destruct (expand_ig n mx g) as [mxa g1] eqn:E1. destruct (expand_igs n mxa r) as [mxb r1] eqn:E2. intros X. inversion X; subst; clear X.
    destruct (expand_ig_spec _ _ _ _ _ E1) as (A1 & A2 & A3 & A4). destruct (IH _ _ _ E2) as (B1 & B2 & B3).
    split; [cbn [flat_map]; eapply ext_app; eassumption|]. split; [cbn; rewrite A2, B2; reflexivity|].
    intros ig [<-|Hin].
    + exists g1. split; [left; reflexivity|]. split; [exact A3 | exact A4].
    + destruct (B3 ig Hin) as (ig' & H1 & H2 & H3). exists ig'. split; [right; exact H1|]. tauto.
Qed.

Definition shs (g : sgroup) : list Z := map sh_id (sg_shards g).
Definition igids (p : policy) : list Z := map ig_id (rp_igs p).

Record grow (c : cat) (p : policy) (c1 : cat) (p1 : policy) : Prop := {
  gr_ctr : ctr_ext c c1;
  gr_meta : pol_meta_eq p p1;
  gr_sgs : rp_sgs p1 = rp_sgs p;
  gr_igs : igs_le (rp_igs p) (rp_igs p1);
  gr_ig : ext (max_ig c) (max_ig c1) (igids p) (igids p1);
  gr_ix : ext (max_ix c) (max_ix c1) (ix_ids_of p) (ix_ids_of p1)
}.

Lemma pol_meta_eq_refl : forall p, pol_meta_eq p p. Proof. intros. unfold pol_meta_eq. tauto. Qed.
Lemma pol_meta_eq_trans : forall p q r, pol_meta_eq p q -> pol_meta_eq q r -> pol_meta_eq p r.
Proof. unfold pol_meta_eq. intros p q r (a1 & a2 & a3 & a4 & a5 & a6) (b1 & b2 & b3 & b4 & b5 & b6). repeat split; congruence. Qed.

Lemma grow_refl : forall c p, grow c p c p.
Proof. intros. constructor; [apply ctr_ext_refl | apply pol_meta_eq_refl | reflexivity | apply igs_le_refl | apply ext_refl | apply ext_refl]. Qed.

Lemma grow_trans : forall c p c1 p1 c2 p2, grow c p c1 p1 -> grow c1 p1 c2 p2 -> grow c p c2 p2.
Proof.
  intros c p c1 p1 c2 p2 [A1 A2 A3 A4 A5 A6] [B1 B2 B3 B4 B5 B6]. constructor.
  - eapply ctr_ext_trans; eassumption.
  - eapply pol_meta_eq_trans; eassumption.
  - congruence.
  - eapply igs_le_trans; eassumption.
  - eapply ext_trans; eassumption.
  - eapply ext_trans; eassumption.
Qed.

Lemma new_igroup_ixs : forall c p t e eng, 0 <= ptnum c -> ixs (new_igroup c p t e eng) = zseq (max_ix c + 1) (Z.to_nat (ptnum c)).
Proof.
  intros. unfold ixs. cbn [new_igroup ig_indexes]. rewrite map_map. cbn [ix_id]. rewrite (map_shift_zseq (max_ix c + 1) (Z.to_nat (ptnum c)) 0). f_equal. lia.
Qed.

Lemma expand_shards_spec : forall parts c p g c1 p1 g1, 0 <= ptnum c -> expand_shards c p g parts = (c1, p1, g1) ->
  grow c p c1 p1 /\ sg_same g g1 /\ ext (max_sh c) (max_sh c1) (shs g) (shs g1) /\
  (Forall (fun i => 0 <= i < ptnum c) parts -> good_group (ptnum c) (rp_igs p) g -> sg_end g <= MAXNANO1 ->
   good_group (ptnum c) (rp_igs p1) g1).
Proof.
  induction parts as [|i r IH]; intros c p g c1 p1 g1 Hn; cbn [expand_shards].
  - intros X. inversion X; subst. split; [apply grow_refl|]. split; [apply sg_same_refl|]. split; [apply ext_refl | auto].
  - destruct (ensure_ig c p (sg_start g) (sg_end g) (sg_eng g)) as [ig isnew] eqn:Eig.
    destruct (ensure_ig_spec _ _ _ _ _ _ _ Eig Hn) as (Ilen & Iold & Inew).
    set (pa := if isnew then pol_set_igs p (insert_ig ig (rp_igs p)) else p).
    set (ca := set_sg_counters c (max_sg c) (max_sh c + 1) (if isnew then max_ig c + 1 else max_ig c) (if isnew then max_ix c + ptnum c else max_ix c)).
    set (s := {| sh_id := max_sh c + 1; sh_owners := [i];
                 sh_index := ix_id (nth (Z.to_nat i) (ig_indexes ig) {| ix_id := 0; ix_owners := []; ix_mark := false |}); sh_mark := false |}).
    set (ga := sg_set_shards g (sg_shards g ++ [s])).
    intros X.
    assert (Ga : grow c p ca pa).
    { constructor.
      - exists (max_sg c), (max_sh c + 1), (if isnew then max_ig c + 1 else max_ig c), (if isnew then max_ix c + ptnum c else max_ix c).
        split; [reflexivity|]. destruct isnew; lia.
      - unfold pa. destruct isnew; [|apply pol_meta_eq_refl]. unfold pol_meta_eq. cbn. tauto.
      - unfold pa. destruct isnew; reflexivity.
      - unfold pa. destruct isnew; [|apply igs_le_refl]. cbn [rp_igs pol_set_igs]. intros x Hx. exists x.
        split; [apply In_insert_ig; right; exact Hx|]. split; [reflexivity | apply incl_refl].
      - unfold pa, ca, igids. cbn [max_ig set_sg_counters]. destruct isnew; [|apply ext_refl]. cbn [rp_igs pol_set_igs].
        eapply ext_perm; [apply Permutation_refl | | apply ext_one].
        eapply Permutation_trans; [|apply Permutation_sym, Permutation_map, insert_ig_perm]. cbn [map]. rewrite (Inew eq_refl). cbn [new_igroup ig_id].
        apply Permutation_sym. apply Permutation_cons_append.
      - unfold pa, ca. cbn [max_ix set_sg_counters]. destruct isnew; [|apply ext_refl]. unfold ix_ids_of. cbn [rp_igs pol_set_igs].
        split; [lia|]. eapply Permutation_trans; [apply Permutation_flat_map, insert_ig_perm|]. cbn [flat_map].
        replace (max_ix c + ptnum c - max_ix c) with (ptnum c) by lia.
        rewrite (Inew eq_refl). fold (ixs (new_igroup c p (sg_start g) (sg_end g) (sg_eng g))). rewrite new_igroup_ixs by exact Hn. apply Permutation_refl. }
    assert (Hn' : 0 <= ptnum ca) by (cbn; exact Hn).
    destruct (IH ca pa ga c1 p1 g1 Hn' X) as (B1 & B2 & B3 & B4).
    split; [eapply grow_trans; eassumption|]. split.
    { destruct B2 as (b1 & b2 & b3 & b4 & b5 & b6). unfold sg_same. cbn [ga sg_set_shards sg_id sg_start sg_end sg_del sg_eng sg_dur] in *. tauto. }
    split.
    { eapply ext_trans; [|exact B3]. unfold shs, ga. cbn [sg_set_shards sg_shards ca max_sh set_sg_counters]. rewrite map_app. cbn [map sh_id s]. apply ext_one. }
    intros Hparts Hg Hcap. inversion Hparts as [|i0 r0 Hi Hr]; subst. apply B4; [exact Hr | | exact Hcap].
    unfold good_group, ga. cbn [sg_set_shards sg_shards sg_end ptnum ca set_sg_counters]. apply Forall_app. split.
    + eapply Forall_impl; [|exact Hg]. intros s0. apply good_shard_mono. exact (gr_igs _ _ _ _ Ga).
    + constructor; [|constructor]. split; [cbn; discriminate|]. split; [cbn; constructor; [exact Hi | constructor]|].
      exists ig, (nth (Z.to_nat i) (ig_indexes ig) {| ix_id := 0; ix_owners := []; ix_mark := false |}).
      split; [|split; [apply nth_In; lia|split; [reflexivity|]]].
      * unfold pa. destruct isnew; cbn [rp_igs pol_set_igs]; [apply In_insert_ig; left; reflexivity | apply Iold; reflexivity].
      * (* a new index group is stretched to the end of the shard group (and capped like it) *)
        destruct isnew; [|apply Iold; reflexivity]. rewrite (Inew eq_refl). cbn [new_igroup ig_end]. lia.
Qed.

Lemma expand_sgs_spec : forall l c p c1 p1 l1, 0 <= ptnum c -> expand_sgs c p l = (c1, p1, l1) ->
  grow c p c1 p1 /\ Forall2 sg_same l l1 /\ ext (max_sh c) (max_sh c1) (flat_map shs l) (flat_map shs l1) /\
  (Forall (good_group (ptnum c) (rp_igs p)) l -> Forall (fun g => sg_end g <= MAXNANO1) l -> Forall (good_group (ptnum c) (rp_igs p1)) l1).
Proof.
  induction l as [|g r IH]; intros c p c1 p1 l1 Hn; cbn [expand_sgs].
  - intros X. inversion X; subst. split; [apply grow_refl|]. split; [constructor|]. split; [apply ext_refl | auto].
  - destruct (expand_shards c p g _) as [[ca pa] ga] eqn:E1. destruct (expand_sgs ca pa r) as [[cb pb] rb] eqn:E2.
    intros X. inversion X; subst; clear X.
    destruct (expand_shards_spec _ _ _ _ _ _ _ Hn E1) as (A1 & A2 & A3 & A4).
    destruct (ctr_ext_facts _ _ (gr_ctr _ _ _ _ A1)) as (Ep & _).
    assert (Hn' : 0 <= ptnum ca) by (rewrite Ep; exact Hn).
    destruct (IH _ _ _ _ _ Hn' E2) as (B1 & B2 & B3 & B4). rewrite Ep in B4.
    split; [eapply grow_trans; eassumption|]. split; [constructor; assumption|]. split; [cbn [flat_map]; eapply ext_app; eassumption|].
    intros Hg Hcap. inversion Hg as [|g0 r0 Hg1 Hgr]; subst. inversion Hcap as [|g0 r0 Hc1 Hcr]; subst. constructor.
    + eapply good_group_mono; [exact (gr_igs _ _ _ _ B1)|]. apply A4; [|exact Hg1 | exact Hc1].
      apply Forall_forall. intros i Hi. apply (in_zseq _ _ _ i eq_refl) in Hi. lia.
    + apply B4; [|exact Hcr]. eapply Forall_impl; [|exact Hgr]. intros g0. apply good_group_mono. exact (gr_igs _ _ _ _ A1).
Qed.

Definition pol_good (n : Z) (p : policy) : Prop := Forall (good_group n (rp_igs p)) (rp_sgs p).

Record pol_rel (n : Z) (p p1 : policy) : Prop := {
  pr_meta : pol_meta_eq p p1;
  pr_sgs : Forall2 sg_same (rp_sgs p) (rp_sgs p1);
  pr_good : pol_good n p -> Forall (fun g => sg_end g <= MAXNANO1) (rp_sgs p) -> pol_good n p1
}.

Lemma expand_pol_spec : forall c p c1 p1, 0 <= ptnum c -> expand_pol c p = (c1, p1) ->
  ctr_ext c c1 /\ pol_rel (ptnum c) p p1 /\
  ext (max_sh c) (max_sh c1) (sh_ids_of p) (sh_ids_of p1) /\ ext (max_ig c) (max_ig c1) (igids p) (igids p1) /\
  ext (max_ix c) (max_ix c1) (ix_ids_of p) (ix_ids_of p1).
Proof.
  intros c p c1 p1 Hn. unfold expand_pol.
  destruct (expand_igs (ptnum c) (max_ix c) (rp_igs p)) as [mx igs1] eqn:E1.
  set (c0 := set_sg_counters c (max_sg c) (max_sh c) (max_ig c) mx).
  set (p0 := pol_set_igs p igs1).
  destruct (expand_sgs c0 p0 (rp_sgs p)) as [[cb pb] sgs1] eqn:E2. intros X. inversion X; subst; clear X.
  destruct (expand_igs_spec _ _ _ _ _ E1) as (A1 & A2 & A3).
  assert (H0 : ctr_ext c c0) by (exists (max_sg c), (max_sh c), (max_ig c), mx; split; [reflexivity | destruct A1; lia]).
  assert (Hn0 : 0 <= ptnum c0) by (cbn; exact Hn).
  destruct (expand_sgs_spec _ _ _ _ _ _ Hn0 E2) as ([G1 G2 G3 G4 G5 G6] & B2 & B3 & B4).
  split; [eapply ctr_ext_trans; eassumption|]. split; [|split; [|split]].
  - constructor.
    + destruct G2 as (a1 & a2 & a3 & a4 & a5 & a6). unfold pol_meta_eq. cbn [rp_db rp_name rp_nm rp_sgdur rp_igdur rp_msts pol_set_sgs p0 pol_set_igs] in *. tauto.
    + cbn [rp_sgs pol_set_sgs]. exact B2.
    + intros Hgood Hcap. unfold pol_good. cbn [rp_sgs rp_igs pol_set_sgs]. apply B4; [|exact Hcap].
      cbn [ptnum c0 set_sg_counters rp_igs p0 pol_set_igs]. eapply Forall_impl; [|exact Hgood]. intros g. apply good_group_mono. exact A3.
  - unfold sh_ids_of. cbn [rp_sgs pol_set_sgs]. cbn [max_sh c0 set_sg_counters] in B3. exact B3.
  - unfold igids in *. cbn [rp_igs pol_set_sgs]. cbn [max_ig c0 set_sg_counters rp_igs p0 pol_set_igs] in G5. rewrite A2 in G5. exact G5.
  - cbn [rp_igs pol_set_sgs]. eapply ext_trans; [|exact G6]. unfold ix_ids_of. cbn [max_ix c0 set_sg_counters rp_igs p0 pol_set_igs]. exact A1.
Qed.

Lemma expand_pols_spec : forall l c c1 l1, 0 <= ptnum c -> expand_pols c l = (c1, l1) ->
  ctr_ext c c1 /\ Forall2 (pol_rel (ptnum c)) l l1 /\
  ext (max_sh c) (max_sh c1) (flat_map sh_ids_of l) (flat_map sh_ids_of l1) /\
  ext (max_ig c) (max_ig c1) (flat_map igids l) (flat_map igids l1) /\
  ext (max_ix c) (max_ix c1) (flat_map ix_ids_of l) (flat_map ix_ids_of l1).
Proof.
  induction l as [|p r IH]; intros c c1 l1 Hn; cbn [expand_pols].
  - intros X. inversion X; subst. split; [apply ctr_ext_refl|]. split; [constructor|]. split; [apply ext_refl|]. split; apply ext_refl.
  - destruct (expand_pol c p) as [ca pa] eqn:E1. destruct (expand_pols ca r) as [cb rb] eqn:E2. intros X. inversion X; subst; clear X.
    destruct (expand_pol_spec _ _ _ _ Hn E1) as (A1 & A2 & A3 & A4 & A5).
    destruct (ctr_ext_facts _ _ A1) as (Ep & _).
    assert (Hn' : 0 <= ptnum ca) by (rewrite Ep; exact Hn).
    destruct (IH _ _ _ Hn' E2) as (B1 & B2 & B3 & B4 & B5). rewrite Ep in B2.
    split; [eapply ctr_ext_trans; eassumption|]. split; [constructor; assumption|].
    cbn [flat_map]. split; [eapply ext_app; eassumption|]. split; eapply ext_app; eassumption.
Qed.

Lemma insert_pol_perm : forall x l, Permutation (insert_pol x l) (x :: l).
Proof.
  induction l; cbn; [apply Permutation_refl|]. destruct (pol_le x a); [apply Permutation_refl|].
  eapply Permutation_trans; [apply perm_skip; exact IHl | apply perm_swap].
Qed.

Lemma sort_pols_perm : forall l, Permutation (sort_pols l) l.
Proof.
  induction l; cbn; [constructor|]. eapply Permutation_trans; [apply insert_pol_perm | apply perm_skip; exact IHl].
Qed.

Lemma expand_facts : forall c, 0 <= ptnum c -> exists c1 l1,
  expand_groups c = set_pols c1 l1 /\ ctr_ext c c1 /\ Forall2 (pol_rel (ptnum c)) (sort_pols (pols c)) l1 /\
  ext (max_sh c) (max_sh c1) (sh_ids c) (flat_map sh_ids_of l1) /\
  ext (max_ig c) (max_ig c1) (ig_ids c) (flat_map igids l1) /\
  ext (max_ix c) (max_ix c1) (ix_ids c) (flat_map ix_ids_of l1).
Proof.
  intros c Hn. unfold expand_groups. destruct (expand_pols c (sort_pols (pols c))) as [c1 l1] eqn:E. exists c1, l1. split; [reflexivity|].
  destruct (expand_pols_spec _ _ _ _ Hn E) as (A1 & A2 & A3 & A4 & A5). split; [exact A1|]. split; [exact A2|].
  split; [|split]; (eapply ext_perm; [apply Permutation_flat_map, sort_pols_perm | apply Permutation_refl | eassumption]).
Qed.

Lemma rel_sg_ids : forall n l l1, Forall2 (pol_rel n) l l1 ->
  flat_map (fun p => map sg_id (rp_sgs p)) l1 = flat_map (fun p => map sg_id (rp_sgs p)) l.
Proof.
  intros. eapply Forall2_flat_map_eq; [|eassumption]. intros p p1 [_ S _].
  eapply Forall2_map_eq; [|exact S]. intros x y (E & _). exact E.
Qed.

Lemma rel_keys : forall n l l1, Forall2 (pol_rel n) l l1 ->
  map (fun p => (rp_db p, rp_name p)) l1 = map (fun p => (rp_db p, rp_name p)) l.
Proof. intros. eapply Forall2_map_eq; [|eassumption]. intros x y [(E1 & E2 & _) _ _]. rewrite E1, E2. reflexivity. Qed.

Lemma rel_mst_ids : forall n l l1, Forall2 (pol_rel n) l l1 ->
  flat_map (fun p => map ms_id (rp_msts p)) l1 = flat_map (fun p => map ms_id (rp_msts p)) l.
Proof. intros. eapply Forall2_flat_map_eq; [|eassumption]. intros p p1 [(_ & _ & _ & _ & _ & E) _ _]. rewrite E. reflexivity. Qed.

Theorem expand_ids_step : forall c k id, 0 <= ptnum c ->
  In id (ids k (expand_groups c)) -> In id (ids k c) \/ issued k c < id.
Proof.
  intros c k id Hn Hin. destruct (expand_facts c Hn) as (c1 & l1 & Eg & A & R & Xsh & Xig & Xix). rewrite Eg in Hin.
  destruct (ctr_ext_facts _ _ A) as (_ & En & _).
  destruct k; cbn [ids issued] in *; unfold sg_ids, mst_ids, node_ids in *; cbn [pols nodes set_pols] in Hin.
  - left. rewrite (rel_sg_ids _ _ _ R) in Hin. exact (Permutation_in _ (Permutation_flat_map _ (sort_pols_perm _)) Hin).
  - exact (ext_In _ _ _ _ _ Xsh Hin).
  - exact (ext_In _ _ _ _ _ Xig Hin).
  - exact (ext_In _ _ _ _ _ Xix Hin).
  - left. rewrite (rel_mst_ids _ _ _ R) in Hin. exact (Permutation_in _ (Permutation_flat_map _ (sort_pols_perm _)) Hin).
  - left. rewrite En in Hin. exact Hin.
Qed.

Theorem expand_counters_le : forall c, 0 <= ptnum c -> counters_le c (expand_groups c).
Proof.
  intros c Hn. destruct (expand_facts c Hn) as (c1 & l1 & -> & A & _). destruct (ctr_ext_facts _ _ A) as (E1 & _ & E3 & E4 & _ & ?).
  unfold counters_le. cbn [max_sg max_sh max_ig max_ix max_mst max_node ptnum set_pols]. lia.
Qed.

Lemma switches_expand_groups : forall c, 0 <= ptnum c -> switches (expand_groups c) = switches c.
Proof.
  intros c Hn. destruct (expand_facts c Hn) as (c1 & l1 & -> & A & _). destruct (ctr_ext_facts _ _ A) as (_ & _ & _ & _ & S & _). exact S.
Qed.

Lemma pol_good_of_wf : forall c p, wf c -> covered c -> In p (pols c) -> pol_good (ptnum c) p.
Proof.
  intros c p H CV Hp. unfold pol_good, good_group. apply Forall_forall. intros g Hg. apply Forall_forall. intros s Hs.
  pose proof (wf_refs _ H) as RR. rewrite Forall_forall in RR. destruct (RR p Hp g s Hg Hs) as (R1 & R2 & R3).
  unfold covered in CV. rewrite Forall_forall in CV.
  split; [exact R2|]. split; [exact R3|].
  unfold ix_ids_of in R1. apply in_flat_map in R1. destruct R1 as [ig [Hig Hi]]. apply in_map_iff in Hi. destruct Hi as [i [Ei Hi]].
  exists ig, i. split; [exact Hig|]. split; [exact Hi|]. split; [exact Ei|]. exact (CV p Hp g s ig i Hg Hs Hig Hi Ei).
Qed.

Lemma cap_of_aligned : forall c p g, all_aligned c -> In p (pols c) -> In g (rp_sgs p) -> sg_end g <= MAXNANO1.
Proof. intros c p g AA Hp Hg. destruct (AA p g Hp Hg) as (_ & _ & E). unfold cell_end in E. lia. Qed.

Section Final.
  Variable c : cat.
  Hypothesis H : wf c.
  Hypothesis AA : all_aligned c.
  Hypothesis CV : covered c.

  Let n := ptnum c.
  Let L0 := sort_pols (pols c).

  Let L0_in : forall p, In p L0 -> In p (pols c).
  Proof. intros p Hp. exact (Permutation_in _ (sort_pols_perm _) Hp). Qed.

  Let ptnum_nonneg : 0 <= ptnum c.
  Proof. pose proof (nonneg_get _ H). lia. Qed.

  Lemma expanded_good : forall p p1, In p L0 -> pol_rel n p p1 -> pol_good n p1.
  Proof.
    intros p p1 Hp R. apply (pr_good _ _ _ R); [apply pol_good_of_wf; [exact H | exact CV | apply L0_in; exact Hp]|].
    apply Forall_forall. intros g Hg. eapply cap_of_aligned; [exact AA | apply L0_in; exact Hp | exact Hg].
  Qed.

  Theorem wf_expand_groups : wf (expand_groups c).
  Proof.
    destruct (expand_facts c ptnum_nonneg) as (c1 & l1 & -> & (a & b & d & e & -> & Ha & Hb & Hd & He) & R & Xsh & Xig & Xix).
    cbn [max_sh max_ig max_ix set_sg_counters] in Xsh, Xig, Xix.
    pose proof (nonneg_get _ H) as NN.
    assert (Ek : pol_keys (set_pols (set_sg_counters c a b d e) l1) = map (fun p => (rp_db p, rp_name p)) L0).
    { unfold pol_keys. cbn [pols set_pols]. apply (rel_keys _ _ _ R). }
    assert (Pk : Permutation (map (fun p => (rp_db p, rp_name p)) L0) (pol_keys c)) by (apply Permutation_map, sort_pols_perm).
    constructor; cbn [pols dbs nodes ptview ptnum set_pols set_sg_counters max_sg max_sh max_ig max_ix max_mst max_node].
    - eapply Forall2_Forall; [| exact R |].
      + intros p p1 [_ S _] Q. eapply groups_ok_same; [exact S | exact Q].
      + eapply Permutation_Forall; [apply Permutation_sym, sort_pols_perm | exact (wf_groups _ H)].
    - unfold sg_ids. cbn [pols set_pols]. rewrite (rel_sg_ids _ _ _ R).
      eapply uniq_le_perm; [apply (Permutation_flat_map _ (sort_pols_perm _))|]. eapply uniq_le_weaken; [exact (wf_sg _ H) | exact Ha].
    - unfold sh_ids. cbn [pols set_pols]. eapply ext_uniq; [exact (wf_sh _ H) | lia | exact Xsh].
    - unfold ig_ids. cbn [pols set_pols]. eapply ext_uniq; [exact (wf_ig _ H) | lia | exact Xig].
    - unfold ix_ids. cbn [pols set_pols]. eapply ext_uniq; [exact (wf_ix _ H) | lia | exact Xix].
    - unfold mst_ids. cbn [pols set_pols]. rewrite (rel_mst_ids _ _ _ R). destruct (wf_mst _ H) as [N1 N2]. split.
      + eapply Permutation_NoDup; [apply Permutation_sym, (Permutation_flat_map _ (sort_pols_perm _)) | exact N1].
      + eapply Permutation_Forall; [apply Permutation_sym, (Permutation_flat_map _ (sort_pols_perm _)) | exact N2].
    - exact (wf_node _ H).
    - exact (wf_dbn _ H).
    - fold (pol_keys (set_pols (set_sg_counters c a b d e) l1)). rewrite Ek.
      eapply Permutation_NoDup; [apply Permutation_sym; exact Pk | exact (wf_poln _ H)].
    - eapply Forall2_Forall; [| exact R |].
      + intros p p1 [(E1 & _) _ _] Q. cbv beta in *. rewrite E1. exact Q.
      + eapply Permutation_Forall; [apply Permutation_sym, sort_pols_perm | exact (wf_poldb _ H)].
    - apply Forall_forall. intros p1 Hp1. destruct (Forall2_In_r _ _ _ _ R Hp1) as [p [Hp Rp]]. pose proof (expanded_good _ _ Hp Rp) as G.
      intros g s Hg Hs. unfold pol_good, good_group in G. rewrite Forall_forall in G. specialize (G g Hg). rewrite Forall_forall in G.
      destruct (G s Hs) as (G1 & G2 & ig & i & I1 & I2 & I3 & _).
      split; [|split; [exact G1 | exact G2]]. rewrite <- I3. eapply In_ix_ids_of; eassumption.
    - eapply Forall_impl; [|exact (wf_def _ H)]. intros d0 [E0|Hin]; [left; exact E0 | right].
      rewrite Ek. apply (Permutation_in _ (Permutation_sym Pk)). exact Hin.
    - exact (wf_ptv _ H).
    - repeat (constructor; [lia|]). constructor.
    - eapply Forall2_Forall; [| exact R |].
      + intros p p1 [(_ & _ & _ & E & _) _ _] Q. cbv beta in *. rewrite E. exact Q.
      + eapply Permutation_Forall; [apply Permutation_sym, sort_pols_perm | exact (wf_dur _ H)].
    - eapply Forall2_Forall; [| exact R |].
      + intros p p1 [(_ & E2 & E3 & _) _ _] Q. cbv beta in *. rewrite E2, E3. exact Q.
      + eapply Permutation_Forall; [apply Permutation_sym, sort_pols_perm | exact (wf_nm _ H)].
  Qed.

  Theorem covered_expand_groups : covered (expand_groups c).
  Proof.
    pose proof wf_expand_groups as W. revert W.
    destruct (expand_facts c ptnum_nonneg) as (c1 & l1 & -> & _ & R & _). intros W.
    unfold covered. cbn [pols set_pols]. apply Forall_forall. intros p1 Hp1.
    destruct (Forall2_In_r _ _ _ _ R Hp1) as [p [Hp Rp]]. pose proof (expanded_good _ _ Hp Rp) as G.
    intros g s ig i Hg Hs Hig Hi E.
    unfold pol_good, good_group in G. rewrite Forall_forall in G. specialize (G g Hg). rewrite Forall_forall in G.
    destruct (G s Hs) as (_ & _ & ig0 & i0 & I1 & I2 & I3 & I4).
    assert (ig = ig0).
    { eapply (ix_owner_unique (set_pols c1 l1) p1); [exact W | exact Hp1 | exact Hig | exact I1 | exact Hi | exact I2 | congruence]. }
    subst ig0. exact I4.
  Qed.

  Theorem aligned_expand_groups : all_aligned (expand_groups c).
  Proof.
    destruct (expand_facts c ptnum_nonneg) as (c1 & l1 & -> & _ & R & _). intros p1 g1 Hp1 Hg1. cbn [pols set_pols] in Hp1.
    destruct (Forall2_In_r _ _ _ _ R Hp1) as [p [Hp [_ S _]]].
    destruct (Forall2_In_r _ _ _ _ S Hg1) as [g [Hg (_ & E2 & E3 & _ & _ & E6)]].
    pose proof (AA p g (L0_in p Hp) Hg) as A. unfold aligned_any in *. rewrite E2, E3, E6. exact A.
  Qed.
End Final.

Theorem good_expand_groups : forall c, good c -> good (expand_groups c).
Proof.
  intros c (H & AA & CV & R). pose proof (nonneg_get _ H) as NN.
  split; [apply wf_expand_groups; assumption|]. split; [apply aligned_expand_groups; assumption|].
  split; [apply covered_expand_groups; assumption|].
  exact (switches_repaired _ _ (switches_expand_groups c ltac:(lia)) R).
Qed.

(* the commands of the correspondence (Expand.xcmd): those of [cmd], the expansion, a join that expands *)
Definition env_okx (c : cat) (x : xcmd) : Prop := match x with Base y => env_ok c y | _ => True end.

Theorem good_stepx : forall c x, good c -> env_okx c x -> good (fst (applyx true true c x)).
Proof.
  intros c x G E. destruct x; cbn [applyx].
  - apply good_step; assumption.
  - cbn [fst ok]. apply good_expand_groups. exact G.
  - pose proof (good_step c (CreateNode h t) G I) as G1. cbn [apply] in G1.
    destruct (create_node c h t) as [c1 r]. cbn [fst] in G1. destruct (Nat.ltb _ _); cbn [fst]; [apply good_expand_groups; exact G1 | exact G1].
Qed.

Fixpoint runx (c : cat) (xs : list xcmd) : cat :=
  match xs with [] => c | x :: r => runx (fst (applyx true true c x)) r end.
Fixpoint env_runx (c : cat) (xs : list xcmd) : Prop :=
  match xs with [] => True | x :: r => env_okx c x /\ env_runx (fst (applyx true true c x)) r end.

Lemma good_runx_prefix : forall xs c k, good c -> env_runx c xs -> good (runx c (firstn k xs)).
Proof.
  induction xs; intros c k G E; destruct k; cbn [firstn runx]; try exact G.
  destruct E as [E1 E2]. apply IHxs; [apply good_stepx; assumption | exact E2].
Qed.

Definition env_okx_b (c : cat) (x : xcmd) : bool := match x with Base y => env_ok_b c y | _ => true end.
Fixpoint env_runx_b (c : cat) (xs : list xcmd) : bool :=
  match xs with [] => true | x :: r => env_okx_b c x && env_runx_b (fst (applyx true true c x)) r end.
Lemma env_runx_b_sound : forall xs c, env_runx_b c xs = true -> env_runx c xs.
Proof.
  induction xs; intros c Hb; cbn [env_runx env_runx_b] in *; [exact I|]. apply andb_true_iff in Hb. destruct Hb as [H1 H2].
  split; [destruct a; cbn [env_okx env_okx_b] in *; try exact I; apply env_ok_b_sound; exact H1 | apply IHxs; exact H2].
Qed.
