(* C16: a failed command is the identity; the relations between groups and the lookup facts the later files share. *)
From Coq Require Import ZArith List Lia.
From OG Require Import C16.Model C16.Wf C16.Lists.
Import ListNotations.
Open Scope Z_scope.

(* A command is a case tree over its guards whose leaves are the catalogue or record updates of it: open the command x, the
   helpers and every guard. For facts that hold leaf by leaf. *)
Ltac open_cmd x :=
  destruct x; cbn [apply];
  unfold create_db, mark_db, drop_db, create_rp, update_rp, mark_rp, drop_rp, set_default_rp, create_mst, mark_mst, drop_mst,
    create_sg, delete_sg, prune_sg, delete_ig, prune_ig, create_node, create_ptview, update_pt, create_mst_bad, rename_rp,
    cancel_delete_sg, remove_node, ok, err, add_mst, set_default, upd_pol, upd_db, restore_state;
  repeat match goal with
         | |- context [match ?e with _ => _ end] => destruct e eqn:?; cbn [fst snd]
         | |- context [if ?e then _ else _] => destruct e eqn:?; cbn [fst snd]
         end.

(* schemafirst: CreateMeasurement checks its schema list before it registers the measurement (/repo f21700b); without it
   the statement is false (Refuted.v, C16_half_applied_refuted) *)
Lemma failed_is_identity : forall clip cd c x, schemafirst c = true -> snd (apply clip cd c x) = false -> fst (apply clip cd c x) = c.
Proof. intros clip cd c x SF. open_cmd x; try reflexivity; try discriminate; congruence. Qed.

Lemma key_leP_trans : forall x y z, key_leP x y -> key_leP y z -> key_leP x z.
Proof. unfold key_leP. intros. lia. Qed.

Definition sh_sim (s s' : shard) : Prop := sh_id s' = sh_id s /\ sh_index s' = sh_index s /\ sh_owners s' = sh_owners s.
Definition sg_sim0 (a b : sgroup) : Prop :=
  sg_id b = sg_id a /\ sg_start b = sg_start a /\ sg_end b = sg_end a /\ sg_eng b = sg_eng a /\ sg_dur b = sg_dur a /\
  Forall2 sh_sim (sg_shards a) (sg_shards b).
Definition sg_sim (a b : sgroup) : Prop := sg_sim0 a b /\ (sg_del a = true -> sg_del b = true).

Lemma sh_sim_refl : forall l, Forall2 sh_sim l l.
Proof. induction l; constructor; unfold sh_sim; auto. Qed.

Lemma sg_sim0_refl : forall a, sg_sim0 a a.
Proof. intros. unfold sg_sim0. repeat split. apply sh_sim_refl. Qed.

Lemma sg_sim_refl : forall a, sg_sim a a.
Proof. intros. split; [apply sg_sim0_refl | auto]. Qed.

Lemma groups_ok_sim : forall (R : sgroup -> sgroup -> Prop),
  (forall a b, R a b -> sg_start b = sg_start a /\ sg_end b = sg_end a /\ sg_eng b = sg_eng a /\ sg_dur b = sg_dur a /\
                        (sg_del a = true -> sg_del b = true)) ->
  forall l l', Forall2 R l l' -> groups_ok l -> groups_ok l'.
Proof.
  intros R HR l l' HS [H1 [H2 H3]]. split; [|split].
  - eapply Forall2_LocallySorted; [|exact HS|exact H1].
    unfold key_leP. intros x y x' y' X Y. destruct (HR _ _ X) as (X2 & X3 & _), (HR _ _ Y) as (Y2 & Y3 & _). lia.
  - eapply Forall2_Forall; [|exact HS|exact H2].
    unfold aligned. intros x y X Ha Hd. destruct (HR _ _ X) as (X2 & X3 & _ & X5 & X6).
    destruct (sg_del x) eqn:E; [rewrite X6 in Hd by reflexivity; discriminate|].
    specialize (Ha eq_refl). rewrite X2, X3, X5. assumption.
  - eapply Forall2_ForallOrdPairs; [|exact HS|exact H3].
    unfold disjoint2. intros x y x' y' X Y HD Hdx Hdy He. destruct (HR _ _ X) as (X2 & X3 & X4 & _ & X6), (HR _ _ Y) as (Y2 & Y3 & Y4 & _ & Y6).
    destruct (sg_del x) eqn:E1; [rewrite X6 in Hdx by reflexivity; discriminate|].
    destruct (sg_del y) eqn:E2; [rewrite Y6 in Hdy by reflexivity; discriminate|].
    rewrite X2, X3, Y2, Y3. apply HD; congruence.
Qed.

Lemma sg_sim_groups_ok : forall l l', Forall2 sg_sim l l' -> groups_ok l -> groups_ok l'.
Proof. apply groups_ok_sim. unfold sg_sim, sg_sim0. tauto. Qed.

Lemma sg_sim0_ids : forall l l', Forall2 sg_sim0 l l' -> map sg_id l' = map sg_id l.
Proof. intros. eapply Forall2_map_eq; [|eassumption]. unfold sg_sim0. intros x y Hx. tauto. Qed.

Lemma sh_sim_ids : forall (l l' : list shard), Forall2 sh_sim l l' -> map sh_id l' = map sh_id l.
Proof. induction 1; cbn; [reflexivity|]. destruct H as [-> _]. f_equal. assumption. Qed.

Lemma sh_sim_indexes : forall (l l' : list shard), Forall2 sh_sim l l' -> map sh_index l' = map sh_index l.
Proof. induction 1; cbn; [reflexivity|]. destruct H as (_ & -> & _). f_equal. assumption. Qed.

Lemma sg_sim0_sh_ids : forall l l', Forall2 sg_sim0 l l' ->
  flat_map (fun g => map sh_id (sg_shards g)) l' = flat_map (fun g => map sh_id (sg_shards g)) l.
Proof.
  intros. eapply Forall2_flat_map_eq; [|eassumption]. intros x y (_ & _ & _ & _ & _ & X7). apply sh_sim_ids. assumption.
Qed.

Lemma refs_ok_mono : forall c c' p p',
  (forall g', In g' (rp_sgs p') -> exists g, In g (rp_sgs p) /\ sg_sim0 g g') ->
  (forall i, In i (ix_ids_of p) -> In i (ix_ids_of p')) -> ptnum c <= ptnum c' ->
  refs_ok c p -> refs_ok c' p'.
Proof.
  intros c c' p p' Hg Hi Hn HR g' s' Hg' Hs'.
  destruct (Hg g' Hg') as [g [Hgin (_ & _ & _ & _ & _ & X7)]].
  destruct (Forall2_In_r _ _ _ _ X7 Hs') as [s [Hsin (_ & E1 & E2)]].
  destruct (HR g s Hgin Hsin) as [R1 [R2 R3]]. rewrite E1, E2. split; [auto|]. split; [assumption|].
  eapply Forall_impl; [|exact R3]. cbn. intros. lia.
Qed.

Lemma find_is_pol : forall c db n p, find_pol c db n = Some p -> In p (pols c) /\ rp_db p = db /\ rp_name p = n.
Proof.
  unfold find_pol. intros c db n p H. apply find_some in H. destruct H as [H1 H2]. unfold is_pol in H2. split; [assumption|]. lia.
Qed.

Lemma get_pol_spec : forall c db n p, get_pol c db n = Some p ->
  find_pol c db (rp_name p) = Some p /\ In p (pols c) /\ rp_db p = db /\ rp_mark p = false /\ rp_name p <> 0 /\
  exists d, get_db c db = Some d.
Proof.
  unfold get_pol. intros c db n p H. destruct (get_db c db) as [d|] eqn:Ed; [|discriminate].
  destruct (resolve d n =? 0) eqn:Ek; [discriminate|].
  destruct (find_pol c db (resolve d n)) as [q|] eqn:Eq; [|discriminate].
  destruct (rp_mark q) eqn:Em; [discriminate|]. inversion H; subst q.
  destruct (find_is_pol _ _ _ _ Eq) as [H1 [H2 H3]]. rewrite H3. repeat split; auto; [lia | eauto].
Qed.

Lemma create_mst_shape : forall c db rp m, fst (create_mst c db rp m) = c \/
  exists p v, get_pol c db rp = Some p /\ fst (create_mst c db rp m) = add_mst c p m v.
Proof.
  intros. unfold create_mst. destruct (get_pol c db rp) as [p|]; [|left; reflexivity].
  destruct (assoc m (rp_vers p)) as [v|]; [destruct (find_mst p m v) as [y|]; [destruct (ms_mark y)|]|]; cbn [fst ok];
    (left; reflexivity) || (right; eexists; eexists; split; reflexivity).
Qed.

Lemma create_mst_bad_shape : forall c db rp m, fst (create_mst_bad c db rp m) = c \/
  exists p v, get_pol c db rp = Some p /\ fst (create_mst_bad c db rp m) = add_mst c p m v.
Proof.
  intros. unfold create_mst_bad. destruct (get_pol c db rp) as [p|]; [|left; reflexivity]. destruct (schemafirst c);
    (destruct (assoc m (rp_vers p)) as [v|]; [destruct (find_mst p m v) as [y|]; [destruct (ms_mark y)|]|]); cbn [fst ok err];
    (left; reflexivity) || (right; eexists; eexists; split; reflexivity).
Qed.

Lemma get_db_spec : forall c db d, get_db c db = Some d -> In d (dbs c) /\ db_name d = db /\ db_mark d = false.
Proof.
  unfold get_db, find_db. intros c db d H. destruct (find _ (dbs c)) as [x|] eqn:E; [|discriminate].
  destruct (db_mark x) eqn:Em; [discriminate|]. inversion H; subst x. apply find_some in E. destruct E. repeat split; auto. lia.
Qed.

Lemma In_pol_keys : forall c p, In p (pols c) -> In (rp_db p, rp_name p) (pol_keys c).
Proof. intros. unfold pol_keys. apply (in_map (fun p => (rp_db p, rp_name p))). assumption. Qed.

