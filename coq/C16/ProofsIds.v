(* C16: identifiers are never handed out twice. A command only introduces identifiers above the counters; with monotone
   counters and "ids at most the counters" (wf) an identifier that disappeared can never reappear. *)
From Coq Require Import ZArith List Lia Sorting.Permutation.
From OG Require Import C16.Model C16.Wf C16.Lists C16.Proofs C16.ProofsCmd C16.ProofsSg C16.ProofsInv C16.ProofsRun.
Import ListNotations.
Open Scope Z_scope.

Inductive kind := KSg | KSh | KIg | KIx | KMst | KNode.

Definition ids (k : kind) (c : cat) : list Z :=
  match k with KSg => sg_ids c | KSh => sh_ids c | KIg => ig_ids c | KIx => ix_ids c | KMst => mst_ids c | KNode => node_ids c end.
(* the largest identifier handed out so far (measurement ids are post-incremented from 0) *)
Definition issued (k : kind) (c : cat) : Z :=
  match k with KSg => max_sg c | KSh => max_sh c | KIg => max_ig c | KIx => max_ix c | KMst => max_mst c - 1 | KNode => max_node c end.

Definition ids_step (c c' : cat) : Prop := forall k id, In id (ids k c') -> In id (ids k c) \/ issued k c < id.

Lemma ids_step_incl : forall c c', (forall k, incl (ids k c') (ids k c)) -> ids_step c c'.
Proof. intros c c' H k id Hin. left. apply (H k). exact Hin. Qed.

Lemma ids_step_refl : forall c, ids_step c c.
Proof. intros c. apply ids_step_incl. intros k. apply incl_refl. Qed.

Definition pol_ids (k : kind) (p : policy) : list Z :=
  match k with
  | KSg => map sg_id (rp_sgs p) | KSh => sh_ids_of p | KIg => map ig_id (rp_igs p) | KIx => ix_ids_of p
  | KMst => map ms_id (rp_msts p) | KNode => []
  end.

Lemma ids_flat : forall k c, k <> KNode -> ids k c = flat_map (pol_ids k) (pols c).
Proof. intros k c Hk. destruct k; try reflexivity. contradiction. Qed.

Lemma pol_keep_ids : forall p p' k, pol_keep p p' -> incl (pol_ids k p') (pol_ids k p).
Proof.
  intros p p' k [[S I] M] id Hin. destruct k; cbn [pol_ids] in *; unfold sh_ids_of, ix_ids_of in *.
  - apply in_map_iff in Hin. destruct Hin as [g' [<- Hg']]. destruct (S g' Hg') as [g [Hg (E & _)]]. rewrite E. apply in_map. exact Hg.
  - apply in_flat_map in Hin. destruct Hin as [g' [Hg' Hid]]. destruct (S g' Hg') as [g [Hg (_ & _ & _ & _ & _ & E)]]. rewrite (sh_sim_ids _ _ E) in Hid.
    apply in_flat_map. exists g. auto.
  - apply in_map_iff in Hin. destruct Hin as [g' [<- Hg']]. destruct (I g' Hg') as [g [Hg (E & _)]]. rewrite E. apply in_map. exact Hg.
  - apply in_flat_map in Hin. destruct Hin as [g' [Hg' Hid]]. destruct (I g' Hg') as [g [Hg (_ & _ & _ & E)]]. rewrite E in Hid.
    apply in_flat_map. exists g. auto.
  - apply in_map_iff in Hin. destruct Hin as [m' [<- Hm']]. destruct (M m' Hm') as [m [Hm [->| ->]]]; exact (in_map ms_id _ m Hm).
  - exact Hin.
Qed.

Lemma keeps_ids_step : forall c c', keeps c c' -> ids_step c c'.
Proof.
  intros c c' [K N]. apply ids_step_incl. intros k id Hin. destruct (match k with KNode => true | _ => false end) eqn:E.
  - destruct k; try discriminate. apply N. exact Hin.
  - rewrite ids_flat in * by (destruct k; discriminate). apply in_flat_map in Hin. destruct Hin as [p' [Hp' Hid]].
    destruct (K p' Hp') as [(E1 & E2 & E3)|(p & Hp & Kp)].
    + exfalso. destruct k; cbn [pol_ids] in Hid; unfold sh_ids_of, ix_ids_of in Hid; rewrite ?E1, ?E2, ?E3 in Hid; exact Hid.
    + apply in_flat_map. exists p. split; [exact Hp | eapply pol_keep_ids; eassumption].
Qed.

Lemma ids_restore : forall k c, ids k (restore_state c) = ids k c.
Proof.
  intros k c. unfold restore_state. destruct k; cbn [ids]; unfold sg_ids, sh_ids, sh_ids_of, ig_ids, ix_ids, ix_ids_of, mst_ids; cbn [pols set_pols];
    try reflexivity; rewrite flat_map_concat_map, map_map, <- flat_map_concat_map; apply flat_map_ext; intros p;
    cbn [rp_sgs rp_igs rp_msts pol_set_sgs pol_set_igs]; rewrite ?flat_map_concat_map, ?map_map; reflexivity.
Qed.

Lemma perm_new : forall (l' extra l : list Z) m id, Permutation l' (extra ++ l) -> Forall (fun x => m < x) extra -> In id l' -> In id l \/ m < id.
Proof.
  intros l' extra l m id HP HF Hin. apply (Permutation_in _ HP) in Hin. apply in_app_iff in Hin. destruct Hin as [Hin|Hin]; [right|left; exact Hin].
  rewrite Forall_forall in HF. apply HF. exact Hin.
Qed.

Lemma ids_step_add_mst : forall c p m ver, find_pol c (rp_db p) (rp_name p) = Some p -> ids_step c (add_mst c p m ver).
Proof.
  intros c p m ver Hf k id Hin. unfold add_mst, upd_pol in Hin.
  destruct k; cbn [ids issued] in *;
    unfold sg_ids, sh_ids, sh_ids_of, ig_ids, ix_ids, ix_ids_of, mst_ids, node_ids in *; cbn [pols nodes set_pols set_max_mst] in Hin;
    try (rewrite updf_flat_map_same in Hin by reflexivity; left; exact Hin); [|left; exact Hin].
  eapply (perm_new _ [max_mst c]); [|constructor; [|constructor]|exact Hin]; [|lia].
  apply (updf_flat_map_perm _ _ _ _ p); [exact Hf|]. cbn [rp_msts pol_set_msts]. rewrite map_app. apply Permutation_app_comm.
Qed.

Lemma ids_step_create_sg : forall c db rp t eng, wf c -> ids_step c (fst (create_sg true c db rp t eng)).
Proof.
  intros c db rp t eng H.
  destruct (create_sg_shape true c db rp t eng) as [->|(p & ig & isnew & Eg & _ & Eig & ->)]; [apply ids_step_refl|].
  pose proof (nonneg_get _ H) as NN.
  destruct (get_pol_spec _ _ _ _ Eg) as (Hfind & Hp & Edb & _). unfold find_pol in Hfind.
  destruct (ensure_ig_spec _ _ _ _ _ _ _ Eig) as (_ & _ & Inew); [lia|].
  set (n := Z.to_nat (ptnum c)).
  intros k id Hin. unfold upd_pol, sg_upd in Hin.
  destruct k; cbn [ids issued] in *; unfold sg_ids, sh_ids, ig_ids, ix_ids, mst_ids, node_ids in *;
    cbn [pols nodes set_pols set_sg_counters] in Hin.
  - eapply (perm_new _ [max_sg c + 1]); [|constructor; [|constructor]|exact Hin]; [|lia].
    apply (updf_flat_map_perm _ _ _ _ p); [exact Hfind|]. cbn [rp_sgs pol_set_sgs].
    eapply Permutation_trans; [apply Permutation_map, insert_sg_perm|]. apply Permutation_refl.
  - eapply (perm_new _ (map sh_id (sg_shards (new_sgroup true c p ig t eng)))); [| |exact Hin].
    + apply (updf_flat_map_perm _ _ _ _ p); [exact Hfind|]. unfold sh_ids_of. cbn [rp_sgs pol_set_sgs].
      eapply Permutation_trans; [apply Permutation_flat_map, insert_sg_perm|]. apply Permutation_refl.
    + cbn [new_sgroup sg_shards]. rewrite map_map. cbn [sh_id]. fold n.
      eapply Forall_impl; [|apply (zseq_shift_bounds (max_sh c + 1) n)]. cbv beta. intros. lia.
  - destruct isnew.
    + eapply (perm_new _ [max_ig c + 1]); [|constructor; [|constructor]|exact Hin]; [|lia].
      apply (updf_flat_map_perm _ _ _ _ p); [exact Hfind|]. cbn [rp_igs pol_set_sgs pol_set_igs].
      eapply Permutation_trans; [apply Permutation_map, insert_ig_perm|]. rewrite (Inew eq_refl). apply Permutation_refl.
    + rewrite updf_flat_map_same in Hin by reflexivity. left. exact Hin.
  - destruct isnew.
    + eapply (perm_new _ (map ix_id (ig_indexes ig))); [| |exact Hin].
      * apply (updf_flat_map_perm _ _ _ _ p); [exact Hfind|]. unfold ix_ids_of. cbn [rp_igs pol_set_sgs pol_set_igs].
        eapply Permutation_trans; [apply Permutation_flat_map, insert_ig_perm|]. apply Permutation_refl.
      * rewrite (Inew eq_refl). cbn [new_igroup ig_indexes]. rewrite map_map. cbn [ix_id]. fold n.
        eapply Forall_impl; [|apply (zseq_shift_bounds (max_ix c + 1) n)]. cbv beta. intros. lia.
    + rewrite updf_flat_map_same in Hin by reflexivity. left. exact Hin.
  - rewrite updf_flat_map_same in Hin; [left; exact Hin|]. intros x _. destruct isnew; reflexivity.
  - left. exact Hin.
Qed.

Lemma ids_step_create_node : forall c h t, ids_step c (fst (create_node c h t)).
Proof.
  intros c h t k id Hin. unfold create_node in Hin.
  destruct (existsb (fun n => nd_http n =? h) (nodes c)); [|destruct (existsb (fun n => nd_tcp n =? t) (nodes c))]; cbn [fst ok] in Hin;
    destruct k; cbn [ids issued] in *; try (left; exact Hin); unfold node_ids in *; cbn [nodes set_nodes] in Hin.
  - rewrite updf_map_same in Hin by reflexivity. left. exact Hin.
  - rewrite updf_map_same in Hin by reflexivity. left. exact Hin.
  - rewrite map_app in Hin. apply in_app_iff in Hin. destruct Hin as [Hin|Hin]; [left; exact Hin|right]. cbn in Hin. lia.
Qed.

Lemma step_ids : forall c x, wf c -> ids_step c (fst (apply true true c x)).
Proof.
  intros c x H. destruct (is_keeping x) eqn:K; [apply keeps_ids_step, keeps_step; exact K|]. destruct x; try discriminate; cbn [apply].
  - destruct (create_mst_shape c db rp m) as [->|(p & v & Eg & ->)]; [apply ids_step_refl|].
    destruct (get_pol_spec _ _ _ _ Eg) as (Hf & _ & Edb & _). rewrite <- Edb in Hf. apply ids_step_add_mst. exact Hf.
  - apply ids_step_create_sg. exact H.
  - apply ids_step_create_node.
  - cbn [fst ok]. intros k id Hin. rewrite ids_restore in Hin. left. exact Hin.
  - destruct (create_mst_bad_shape c db rp m) as [->|(p & v & Eg & ->)]; [apply ids_step_refl|].
    destruct (get_pol_spec _ _ _ _ Eg) as (Hf & _ & Edb & _). rewrite <- Edb in Hf. apply ids_step_add_mst. exact Hf.
Qed.

Lemma issued_mono : forall k c x, wf c -> issued k c <= issued k (fst (apply true true c x)).
Proof.
  intros k c x H. pose proof (nonneg_get _ H) as NN.
  destruct (counters_mono true true c x) as (A & B & C & D & E & F & _); [lia|]. destruct k; cbn [issued]; lia.
Qed.

Lemma ids_le_issued : forall k c id, wf c -> In id (ids k c) -> id <= issued k c.
Proof.
  intros k c id H Hin.
  assert (L : forall l m, uniq_le l m -> In id l -> id <= m) by (intros l m [_ F] X; rewrite Forall_forall in F; apply (F _ X)).
  destruct k; cbn [ids issued] in *;
    [apply (L _ _ (wf_sg _ H) Hin) | apply (L _ _ (wf_sh _ H) Hin) | apply (L _ _ (wf_ig _ H) Hin) | apply (L _ _ (wf_ix _ H) Hin) | | apply (L _ _ (wf_node _ H) Hin)].
  destruct (wf_mst _ H) as [_ F]. rewrite Forall_forall in F. specialize (F _ Hin). cbn in F. lia.
Qed.

Lemma gone_stays_gone : forall xs c k id, good c -> env_run c xs -> id <= issued k c -> ~ In id (ids k c) ->
  ~ In id (ids k (run true true c xs)).
Proof.
  induction xs; intros c k id G E Hle Hnot; cbn [run]; [exact Hnot|]. destruct E as [E1 E2]. pose proof (proj1 G) as H.
  apply IHxs; [apply good_step; assumption | exact E2 | |].
  - eapply Z.le_trans; [exact Hle | apply issued_mono; exact H].
  - intro Hin. destruct (step_ids c a H k id Hin) as [Hold|Hnew]; [contradiction | lia].
Qed.

Lemma issued_run : forall xs c k, good c -> env_run c xs -> issued k c <= issued k (run true true c xs).
Proof.
  induction xs; intros c k G E; cbn [run]; [lia|]. destruct E as [E1 E2].
  eapply Z.le_trans; [apply issued_mono; exact (proj1 G) | apply IHxs; [apply good_step; assumption | exact E2]].
Qed.

Theorem ids_never_reused : forall xs ys c k id, good c -> env_run c (xs ++ ys) ->
  In id (ids k c) -> ~ In id (ids k (run true true c xs)) -> ~ In id (ids k (run true true c (xs ++ ys))).
Proof.
  intros xs ys c k id G E Hin Hgone. destruct (env_run_app _ _ _ E) as [Ex Ey]. rewrite run_app.
  apply gone_stays_gone; [apply good_run; assumption | exact Ey | | exact Hgone].
  (* id <= issued at the start <= issued after xs *)
  eapply Z.le_trans; [apply ids_le_issued; [exact (proj1 G) | exact Hin] | apply issued_run; assumption].
Qed.
