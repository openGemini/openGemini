(* C15 on the C16 command model: map iteration order made explicit.
   The two modelled commands whose implementation ranges over a Go map and keeps what it reaches first -
   Data.CreateShardGroup (`for _, mst := range rpi.Measurements { msti = mst; break }`) and
   RetentionPolicyInfo.validMeasurementShardType inside Data.CreateMeasurement (any OTHER measurement of the policy) -
   take an ORACLE that returns an element of the collection, standing for whatever order the runtime chooses. What the
   code does with the picked measurement is its sharding type: HASH (0) leads to the modelled creation, another type to
   the RANGE branch, which is not modelled and is kept abstract (a function of the state, the policy and the instant,
   not of the pick). Under uniform sharding (all measurements of a policy have one type: what validMeasurementShardType aims
   at but does not fully maintain, see the note at the end) the outcome, result value included, does not depend on the oracle; a
   snapshot/restore inserted anywhere is invisible (Props.C16_restore_transparent). Every other modelled command has no
   map range whose order matters (the model implements them with order-free list functions): 22 of the 24. *)
From Coq Require Import ZArith List Lia.
From OG Require Import C16.Model C16.Proofs.
Import ListNotations.
Open Scope Z_scope.

Section Order.
  (* the sharding type of a measurement (fixed when it is created; 0 = HASH) *)
  Variable shard_type : mst -> Z.
  (* the unmodelled RANGE-sharding branch of CreateShardGroup *)
  Variable range_create : cat -> policy -> Z -> Z -> cat * bool.
  Variables clip cleardef : bool.

  (* an oracle returns some element of a non-empty collection *)
  Definition oracle := list mst -> option mst.
  Definition valid (o : oracle) : Prop :=
    forall l, match o l with Some m => In m l | None => l = [] end.

  Definition create_sgO (o : oracle) (c : cat) (db rp t eng : Z) : cat * bool :=
    if ptnum c =? 0 then err c else
    match get_pol c db rp with
    | None => err c
    | Some p =>
        if existsb (fun g => covers g t eng) (rp_sgs p) then ok c else
        match o (rp_msts p) with
        | None => err c                                           (* no measurement in the policy *)
        | Some m => if shard_type m =? 0 then create_sg clip c db rp t eng else range_create c p t eng
        end
    end.

  (* the measurement CreateMeasurement would add *)
  Definition next_mst (c : cat) (p : policy) (m : Z) : option mst :=
    let mk v := Some {| ms_name := m; ms_ver := v; ms_id := max_mst c; ms_mark := false |} in
    match assoc m (rp_vers p) with
    | None => mk 0
    | Some v => match find_mst p m v with
                | None => mk (Z.land (v + 1) 65535)
                | Some x => if ms_mark x then mk (Z.land (v + 1) 65535) else None
                end
    end.

  Definition create_mstO (o : oracle) (c : cat) (db rp m : Z) : cat * bool :=
    match get_pol c db rp with
    | None => err c
    | Some p =>
        match next_mst c p m with
        | None => create_mst c db rp m
        | Some nm =>
            (* validMeasurementShardType: any other measurement of the policy must have the new one's type *)
            match o (filter (fun x => negb (ms_name x =? m)) (rp_msts p)) with
            | Some other => if shard_type other =? shard_type nm then create_mst c db rp m else err c
            | None => create_mst c db rp m
            end
        end
    end.

  Definition applyO (o : oracle) (c : cat) (x : cmd) : cat * bool :=
    match x with
    | CreateSg db rp t eng => create_sgO o c db rp t eng
    | CreateMst db rp m => create_mstO o c db rp m
    | _ => apply clip cleardef c x
    end.

  Definition uniform_sharding (c : cat) : Prop :=
    forall p m1 m2, In p (pols c) -> In m1 (rp_msts p) -> In m2 (rp_msts p) -> shard_type m1 = shard_type m2.

  Lemma apply_order_independent_lemma : forall c x o1 o2, valid o1 -> valid o2 -> uniform_sharding c ->
    applyO o1 c x = applyO o2 c x.
  Proof.
    intros c x o1 o2 V1 V2 U. destruct x; try reflexivity; cbn [applyO].
    - unfold create_mstO. destruct (get_pol c db rp) as [p|] eqn:Eg; [|reflexivity].
      destruct (get_pol_spec _ _ _ _ Eg) as (_ & Hp & _).
      destruct (next_mst c p m) as [nm|]; [|reflexivity].
      set (l := filter (fun x => negb (ms_name x =? m)) (rp_msts p)).
      pose proof (V1 l) as A1. pose proof (V2 l) as A2.
      destruct (o1 l) as [a|] eqn:E1, (o2 l) as [b|] eqn:E2.
      + assert (shard_type a = shard_type b).
        { apply (U p); [exact Hp | |]; [apply filter_In in A1 | apply filter_In in A2]; tauto. }
        rewrite H. reflexivity.
      + subst l. rewrite A2 in A1. contradiction.
      + rewrite A1 in A2. contradiction.
      + reflexivity.
    - unfold create_sgO. destruct (ptnum c =? 0); [reflexivity|].
      destruct (get_pol c db rp) as [p|] eqn:Eg; [|reflexivity].
      destruct (get_pol_spec _ _ _ _ Eg) as (_ & Hp & _).
      destruct (existsb _ (rp_sgs p)); [reflexivity|].
      pose proof (V1 (rp_msts p)) as A1. pose proof (V2 (rp_msts p)) as A2.
      destruct (o1 (rp_msts p)) as [a|] eqn:E1, (o2 (rp_msts p)) as [b|] eqn:E2.
      + rewrite (U p a b Hp A1 A2). reflexivity.
      + rewrite A2 in A1. contradiction.
      + rewrite A1 in A2. contradiction.
      + reflexivity.
  Qed.

  (* with the HASH-only catalogue of the C16 model the oracle step is the C16 step *)
  Lemma applyO_hash : forall o c x, valid o -> (forall m, shard_type m = 0) -> applyO o c x = apply clip cleardef c x.
  Proof.
    intros o c x V Hh. destruct x; try reflexivity; cbn [applyO apply].
    - unfold create_mstO. destruct (get_pol c db rp) as [p|] eqn:Eg; [|unfold create_mst; rewrite Eg; reflexivity].
      destruct (next_mst c p m); [|reflexivity].
      destruct (o _); [rewrite !Hh; reflexivity | reflexivity].
    - unfold create_sgO, create_sg. destruct (ptnum c =? 0) eqn:Ept; [reflexivity|].
      destruct (get_pol c db rp) as [p|] eqn:Eg; [|reflexivity].
      destruct (existsb _ (rp_sgs p)) eqn:Ex; [reflexivity|].
      pose proof (V (rp_msts p)) as A. destruct (o (rp_msts p)) as [a|].
      + rewrite Hh. reflexivity.
      + rewrite A. reflexivity.
  Qed.

  (* runs: one oracle per step (and per replica); results are collected *)
  Fixpoint runO (os : list oracle) (c : cat) (xs : list cmd) : cat * list bool :=
    match xs, os with
    | x :: r, o :: os' => let '(c1, b) := applyO o c x in let '(c2, bs) := runO os' c1 r in (c2, b :: bs)
    | _, _ => (c, [])
    end.

  (* uniform sharding holds in every state the first replica goes through *)
  Fixpoint uniform_along (os : list oracle) (c : cat) (xs : list cmd) : Prop :=
    match xs, os with
    | x :: r, o :: os' => uniform_sharding c /\ uniform_along os' (fst (applyO o c x)) r
    | _, _ => True
    end.

  Lemma convergence_lemma : forall xs os1 os2 c, length os1 = length xs -> length os2 = length xs ->
    Forall valid os1 -> Forall valid os2 -> uniform_along os1 c xs -> runO os1 c xs = runO os2 c xs.
  Proof.
    induction xs as [|x r IH]; intros os1 os2 c L1 L2 V1 V2 U; destruct os1 as [|o1 t1], os2 as [|o2 t2]; try discriminate; [reflexivity|].
    cbn [runO]. cbn [uniform_along] in U. destruct U as [U0 U1].
    inversion V1; subst. inversion V2; subst.
    rewrite (apply_order_independent_lemma c x o1 o2) in * by assumption.
    destruct (applyO o2 c x) as [c1 b] eqn:E. cbn [fst] in U1.
    cbn in L1, L2. rewrite (IH t1 t2 c1) by (assumption || lia). reflexivity.
  Qed.

  (* NOTE: uniform sharding is NOT an invariant of the code. validMeasurementShardType compares the new measurement only
     with measurements of OTHER names, so a measurement that is marked deleted and re-created under the same name may come
     back with another sharding type while its old version is still in the policy; CreateShardGroup then picks between the
     two in map order (the case "no other name in the policy" is the counterexample; finding
     C15-recreated-measurement-sharding-map-order). The convergence theorem therefore carries uniform_along as a hypothesis;
     C15/Uniform.v discharges it under a stated guarantee of the environment. *)
End Order.
