(* C16: shard-group creation preserves well-formedness whenever the new group is aligned and disjoint from the live ones
   (wf_create_sg_gen). The creation that clips the new group to its live neighbours is so for every instant of the time
   domain; the creation without clipping is while the live groups are whole cells of the current duration. *)
From Coq Require Import ZArith List Bool Lia Sorting.Sorted Sorting.Permutation.
From OG Require Import C16.Model C16.Wf C16.Lists C16.Proofs C16.ProofsCmd.
Import ListNotations.
Open Scope Z_scope.

Lemma trunc_le : forall t d, 0 < d -> trunc t d <= t.
Proof. intros. unfold trunc. destruct (Z.leb_spec d 0); [lia|]. pose proof (Z.mod_pos_bound (t + YEAR1) d). lia. Qed.

Lemma trunc_gt : forall t d, 0 < d -> t < trunc t d + d.
Proof. intros. unfold trunc. destruct (Z.leb_spec d 0); [lia|]. pose proof (Z.mod_pos_bound (t + YEAR1) d). lia. Qed.

Lemma trunc_idem : forall t d x, 0 < d -> trunc t d <= x -> x < trunc t d + d -> trunc x d = trunc t d.
Proof.
  intros t d x Hd. unfold trunc. destruct (Z.leb_spec d 0); [lia|]. intros H1 H2.
  set (s := t - (t + YEAR1) mod d) in *.
  assert (E : (x + YEAR1) mod d = x - s).
  { symmetry. apply (Z.mod_unique_pos _ _ ((t + YEAR1) / d)); [lia|].
    pose proof (Z.div_mod (t + YEAR1) d). unfold s. lia. }
  rewrite E. lia.
Qed.

Lemma clip_lo_ge : forall l eng t s, s <= clip_lo l eng t s.
Proof.
  unfold clip_lo. induction l; intros; cbn [fold_left]; [lia|].
  destruct (_ && _); [eapply Z.le_trans; [|apply IHl]; lia | apply IHl].
Qed.

Lemma clip_lo_le : forall l eng t s, s <= t -> clip_lo l eng t s <= t.
Proof.
  unfold clip_lo. induction l; intros eng t s Hs; cbn [fold_left]; [lia|].
  destruct ((sg_eng a =? eng) && negb (sg_del a) && (sg_end a <=? t)) eqn:E; apply IHl; lia.
Qed.

Lemma clip_lo_bound : forall l eng t s g, In g l -> sg_eng g = eng -> sg_del g = false -> sg_end g <= t ->
  sg_end g <= clip_lo l eng t s.
Proof.
  unfold clip_lo. induction l; intros eng t s g Hin He Hd Ht; cbn [fold_left]; [contradiction|].
  destruct Hin as [->|Hin].
  - replace ((sg_eng g =? eng) && negb (sg_del g) && (sg_end g <=? t)) with true by (rewrite Hd; lia).
    eapply Z.le_trans; [|apply (clip_lo_ge l eng t)]. lia.
  - apply IHl; assumption.
Qed.

Lemma clip_hi_le : forall l eng t e, clip_hi l eng t e <= e.
Proof.
  unfold clip_hi. induction l; intros; cbn [fold_left]; [lia|].
  destruct (_ && _); [eapply Z.le_trans; [apply IHl|]; lia | apply IHl].
Qed.

Lemma clip_hi_gt : forall l eng t e, t < e -> t < clip_hi l eng t e.
Proof.
  unfold clip_hi. induction l; intros eng t e He; cbn [fold_left]; [lia|].
  destruct ((sg_eng a =? eng) && negb (sg_del a) && (t <? sg_start a)) eqn:E; apply IHl; lia.
Qed.

Lemma clip_hi_bound : forall l eng t e g, In g l -> sg_eng g = eng -> sg_del g = false -> t < sg_start g ->
  clip_hi l eng t e <= sg_start g.
Proof.
  unfold clip_hi. induction l; intros eng t e g Hin He Hd Ht; cbn [fold_left]; [contradiction|].
  destruct Hin as [->|Hin].
  - replace ((sg_eng g =? eng) && negb (sg_del g) && (t <? sg_start g)) with true by (rewrite Hd; lia).
    eapply Z.le_trans; [apply (clip_hi_le l eng t)|]. lia.
  - apply IHl; assumption.
Qed.

Lemma insert_sg_perm : forall g l, Permutation (insert_sg g l) (g :: l).
Proof.
  induction l; cbn; [apply Permutation_refl|]. destruct (key_lt _ _ _ _); [apply Permutation_refl|].
  eapply Permutation_trans; [apply perm_skip; exact IHl | apply perm_swap].
Qed.

Lemma insert_ig_perm : forall g l, Permutation (insert_ig g l) (g :: l).
Proof.
  induction l; cbn; [apply Permutation_refl|]. destruct (key_lt _ _ _ _); [apply Permutation_refl|].
  eapply Permutation_trans; [apply perm_skip; exact IHl | apply perm_swap].
Qed.

Lemma insert_sg_sorted : forall g l, LocallySorted key_leP l -> LocallySorted key_leP (insert_sg g l).
Proof.
  intros g l. induction l as [|x r IH]; intros HS; cbn [insert_sg]; [constructor|].
  destruct (key_lt (sg_end g) (sg_start g) (sg_end x) (sg_start x)) eqn:E.
  - constructor; [exact HS|]. unfold key_lt in E. unfold key_leP. lia.
  - assert (Kx : key_leP x g) by (unfold key_lt in E; unfold key_leP; lia).
    inversion HS; subst.
    + cbn. constructor; [constructor | exact Kx].
    + specialize (IH H1). cbn [insert_sg] in *.
      destruct (key_lt (sg_end g) (sg_start g) (sg_end b) (sg_start b)) eqn:E2.
      * constructor; [exact IH | exact Kx].
      * constructor; [exact IH | exact H2].
Qed.

Lemma disjoint2_sym : forall a b, disjoint2 a b -> disjoint2 b a.
Proof. unfold disjoint2. intros a b H Hb Ha He. destruct (H Ha Hb (eq_sym He)); [right | left]; assumption. Qed.

Lemma insert_sg_pairs : forall g l, Forall (disjoint2 g) l -> ForallOrdPairs disjoint2 l -> ForallOrdPairs disjoint2 (insert_sg g l).
Proof.
  intros g l. induction l as [|x r IH]; intros HF HP; cbn [insert_sg]; [constructor; constructor|].
  destruct (key_lt _ _ _ _); [constructor; assumption|].
  inversion HF; subst. inversion HP; subst. constructor.
  - eapply Permutation_Forall; [apply Permutation_sym, insert_sg_perm|]. constructor; [apply disjoint2_sym; assumption | assumption].
  - apply IH; assumption.
Qed.

Lemma not_covered : forall l t eng g, existsb (fun g => covers g t eng) l = false -> In g l -> sg_eng g = eng -> sg_del g = false ->
  t < sg_start g \/ sg_end g <= t.
Proof.
  intros l t eng g Hex Hin He Hd. destruct (covers g t eng) eqn:E.
  - assert (existsb (fun g => covers g t eng) l = true) by (apply existsb_exists; exists g; auto). congruence.
  - unfold covers, sg_contains in E. rewrite Hd in E. lia.
Qed.

Lemma new_sgroup_ok : forall c p ig t eng, existsb (fun g => covers g t eng) (rp_sgs p) = false -> 0 < rp_sgdur p ->
  MINNANO <= t < MAXNANO1 ->
  let g := new_sgroup true c p ig t eng in
  aligned_any g /\ Forall (disjoint2 g) (rp_sgs p).
Proof.
  intros c p ig t eng Hex Hd Ht g. unfold new_sgroup, new_sg_end in g.
  set (d := rp_sgdur p) in *. set (s := trunc t d) in *. set (e := cell_end s d) in *.
  set (s0 := if clampst c then Z.max s MINNANO else s).
  assert (Hs : s <= t) by (apply trunc_le; assumption).
  assert (Hs0 : s <= s0 <= t) by (unfold s0; destruct (clampst c); lia).
  assert (He : t < e) by (unfold e, cell_end; pose proof (trunc_gt t d Hd); fold s in H; lia).
  pose proof (clip_lo_ge (rp_sgs p) eng t s0) as L1. pose proof (clip_lo_le (rp_sgs p) eng t s0 (proj2 Hs0)) as L2.
  pose proof (clip_hi_le (rp_sgs p) eng t e) as U1. pose proof (clip_hi_gt (rp_sgs p) eng t e He) as U2.
  split.
  - unfold aligned_any. cbn [g sg_start sg_end sg_dur]. fold s0. split; [lia|]. split; [exact Hd|].
    assert (E : trunc (clip_lo (rp_sgs p) eng t s0) d = s).
    { apply trunc_idem; [exact Hd | lia|]. pose proof (trunc_gt t d Hd). fold s in H. lia. }
    rewrite E. fold e. exact U1.
  - apply Forall_forall. intros x Hx Hdg Hdx Hex'. cbn [g sg_start sg_end sg_eng sg_del] in *. fold s0.
    destruct (not_covered _ _ _ _ Hex Hx (eq_sym Hex') Hdx) as [A|A].
    + left. apply clip_hi_bound; auto.
    + right. apply clip_lo_bound; auto.
Qed.

Lemma zseq_shift_NoDup : forall a n, NoDup (map (fun i => a + i) (zseq 0 n)).
Proof.
  intros. apply NoDup_map_inj_in; [intros; lia | apply NoDup_zseq].
Qed.

Lemma zseq_shift_bounds : forall a n, Forall (fun x => a <= x < a + Z.of_nat n) (map (fun i => a + i) (zseq 0 n)).
Proof.
  intros. rewrite Forall_map. apply Forall_forall. intros x Hx. apply (in_zseq _ n 0 x eq_refl) in Hx. lia.
Qed.

Lemma uniq_le_perm_extend : forall extra l m m', uniq_le l m -> NoDup extra -> Forall (fun x => m < x <= m') extra -> m <= m' -> 0 <= m ->
  forall l', Permutation l' (extra ++ l) -> uniq_le l' m'.
Proof. intros. eapply uniq_le_perm; [eassumption|]. eapply uniq_le_extend; eassumption. Qed.

Lemma In_insert_sg : forall g l x, In x (insert_sg g l) <-> x = g \/ In x l.
Proof.
  intros. split; intros Hx.
  - apply (Permutation_in _ (insert_sg_perm g l)) in Hx. cbn in Hx. intuition.
  - apply (Permutation_in _ (Permutation_sym (insert_sg_perm g l))). cbn. intuition.
Qed.

Lemma In_insert_ig : forall g l x, In x (insert_ig g l) <-> x = g \/ In x l.
Proof.
  intros. split; intros Hx.
  - apply (Permutation_in _ (insert_ig_perm g l)) in Hx. cbn in Hx. intuition.
  - apply (Permutation_in _ (Permutation_sym (insert_ig_perm g l))). cbn. intuition.
Qed.

Lemma ensure_ig_spec : forall c p t e eng ig isnew, ensure_ig c p t e eng = (ig, isnew) -> 0 <= ptnum c ->
  ptnum c <= Z.of_nat (length (ig_indexes ig)) /\
  (isnew = false -> In ig (rp_igs p) /\ e <= ig_end ig) /\
  (isnew = true -> ig = new_igroup c p t e eng).
Proof.
  intros c p t e eng ig isnew E Hn. unfold ensure_ig in E.
  assert (N : Z.of_nat (length (ig_indexes (new_igroup c p t e eng))) = ptnum c).
  { cbn [new_igroup ig_indexes]. rewrite map_length, length_zseq. lia. }
  destruct (find_last (ig_match t e eng) (rp_igs p)) as [g|] eqn:Ef.
  - destruct (Z.of_nat (length (ig_indexes g)) >=? ptnum c) eqn:El; inversion E; subst.
    + split; [lia|]. split; [|discriminate]. intros _. unfold find_last in Ef. apply find_some in Ef.
      destruct Ef as [Ef1 Ef2]. unfold ig_match in Ef2. split; [apply in_rev; exact Ef1 | lia].
    + split; [lia|]. split; [discriminate | reflexivity].
  - inversion E; subst. split; [lia|]. split; [discriminate | reflexivity].
Qed.

Definition sg_upd (g : sgroup) (ig : igroup) (isnew : bool) (q : policy) : policy :=
  pol_set_sgs (if isnew then pol_set_igs q (insert_ig ig (rp_igs q)) else q) (insert_sg g (rp_sgs q)).

Lemma create_sg_shape : forall clip c db rp t eng,
  fst (create_sg clip c db rp t eng) = c \/
  exists p ig isnew, get_pol c db rp = Some p /\ existsb (fun g => covers g t eng) (rp_sgs p) = false /\
    ensure_ig c p t (new_sg_end clip p t eng) eng = (ig, isnew) /\
    fst (create_sg clip c db rp t eng) =
      set_sg_counters (upd_pol c db (rp_name p) (sg_upd (new_sgroup clip c p ig t eng) ig isnew)) (max_sg c + 1) (max_sh c + ptnum c)
        (if isnew then max_ig c + 1 else max_ig c) (if isnew then max_ix c + ptnum c else max_ix c).
Proof.
  intros. unfold create_sg. destruct (ptnum c =? 0); [left; reflexivity|]. destruct (get_pol c db rp) as [p|]; [|left; reflexivity].
  destruct (existsb _ (rp_sgs p)) eqn:Ecov; [left; reflexivity|]. destruct (rp_msts p); [left; reflexivity|].
  destruct (ensure_ig c p t (new_sg_end clip p t eng) eng) as [ig isnew] eqn:Eig. right. exists p, ig, isnew. auto.
Qed.

Lemma wf_create_sg_gen : forall clip c db rp t eng, wf c ->
  (forall p ig, get_pol c db rp = Some p -> existsb (fun g => covers g t eng) (rp_sgs p) = false ->
     aligned (new_sgroup clip c p ig t eng) /\ Forall (disjoint2 (new_sgroup clip c p ig t eng)) (rp_sgs p)) ->
  wf (fst (create_sg clip c db rp t eng)).
Proof.
  intros clip c db rp t eng H Hnew.
  destruct (create_sg_shape clip c db rp t eng) as [->|(p & ig & isnew & Eg & Ecov & Eig & ->)]; [exact H|].
  pose proof (nonneg_get _ H) as NN.
  destruct (get_pol_spec _ _ _ _ Eg) as (Hfind & Hp & Edb & _). unfold find_pol in Hfind.
  destruct (ensure_ig_spec _ _ _ _ _ _ _ Eig) as (Ilen & Iold & Inew); [lia|].
  destruct (Hnew p ig Eg Ecov) as [Gal Gdis].
  set (g := new_sgroup clip c p ig t eng) in *.
  set (n := Z.to_nat (ptnum c)).
  assert (En : Z.of_nat n = ptnum c) by (unfold n; lia).
  set (upd := sg_upd g ig isnew).
  assert (Hkeys : forall q, rp_db (upd q) = rp_db q /\ rp_name (upd q) = rp_name q /\ rp_sgdur (upd q) = rp_sgdur q /\ rp_msts (upd q) = rp_msts q).
  { intros q. unfold upd, sg_upd. destruct isnew; cbn; tauto. }
  assert (Higs : forall q x, In x (rp_igs q) -> In x (rp_igs (upd q))).
  { intros q x Hx. unfold upd, sg_upd. destruct isnew; cbn [rp_igs pol_set_sgs pol_set_igs]; [apply In_insert_ig; right|]; exact Hx. }
  assert (Hig_in : In ig (rp_igs (upd p))).
  { unfold upd, sg_upd. destruct isnew; cbn [rp_igs pol_set_sgs pol_set_igs]; [apply In_insert_ig; left; reflexivity | apply Iold; reflexivity]. }
  unfold upd_pol.
  match goal with |- wf ?cc => set (c' := cc) end.
  assert (Epols : pols c' = upd_first (is_pol db (rp_name p)) upd (pols c)) by reflexivity.
  assert (Ek : pol_keys c' = pol_keys c).
  { unfold pol_keys. rewrite Epols. apply updf_map_same. intros x _. destruct (Hkeys x) as (-> & -> & _). reflexivity. }
  constructor.
  - rewrite Epols. apply (updf_Forall_first _ _ _ _ p Hfind (wf_groups _ H)).
    pose proof (wf_groups _ H) as GG. rewrite Forall_forall in GG. destruct (GG p Hp) as (S1 & S2 & S3).
    unfold upd, sg_upd. cbn [rp_sgs pol_set_sgs]. split; [|split].
    + apply insert_sg_sorted. exact S1.
    + eapply Permutation_Forall; [apply Permutation_sym, insert_sg_perm|]. constructor; assumption.
    + apply insert_sg_pairs; assumption.
  - unfold sg_ids. rewrite Epols. cbn [max_sg c' set_sg_counters].
    apply (uniq_le_perm_extend [max_sg c + 1] (sg_ids c) (max_sg c)); [exact (wf_sg _ H) | repeat constructor; cbn; tauto | | lia | lia |].
    + constructor; [lia | constructor].
    + apply (updf_flat_map_perm _ _ _ _ p); [exact Hfind|]. unfold upd, sg_upd. cbn [rp_sgs pol_set_sgs].
      eapply Permutation_trans; [apply Permutation_map, insert_sg_perm|]. apply Permutation_refl.
  - unfold sh_ids. rewrite Epols. cbn [max_sh c' set_sg_counters].
    apply (uniq_le_perm_extend (map sh_id (sg_shards g)) (sh_ids c) (max_sh c)); [exact (wf_sh _ H) | | | lia | lia |].
    + cbn [g new_sgroup sg_shards]. rewrite map_map. cbn [sh_id]. apply (zseq_shift_NoDup (max_sh c + 1)).
    + cbn [g new_sgroup sg_shards]. rewrite map_map. cbn [sh_id]. fold n.
      eapply Forall_impl; [|apply (zseq_shift_bounds (max_sh c + 1) n)]. cbv beta. intros. lia.
    + apply (updf_flat_map_perm _ _ _ _ p); [exact Hfind|]. unfold upd, sg_upd, sh_ids_of. cbn [rp_sgs pol_set_sgs].
      eapply Permutation_trans; [apply Permutation_flat_map, insert_sg_perm|]. apply Permutation_refl.
  - unfold ig_ids. rewrite Epols. cbn [max_ig c' set_sg_counters]. destruct isnew.
    + apply (uniq_le_perm_extend [max_ig c + 1] (ig_ids c) (max_ig c)); [exact (wf_ig _ H) | repeat constructor; cbn; tauto | | lia | lia |].
      * constructor; [lia | constructor].
      * apply (updf_flat_map_perm _ _ _ _ p); [exact Hfind|]. unfold upd, sg_upd. cbn [rp_igs pol_set_sgs pol_set_igs].
        eapply Permutation_trans; [apply Permutation_map, insert_ig_perm|]. rewrite (Inew eq_refl). apply Permutation_refl.
    + rewrite updf_flat_map_same; [exact (wf_ig _ H) | reflexivity].
  - unfold ix_ids. rewrite Epols. cbn [max_ix c' set_sg_counters]. destruct isnew.
    + apply (uniq_le_perm_extend (map ix_id (ig_indexes ig)) (ix_ids c) (max_ix c)); [exact (wf_ix _ H) | | | lia | lia |].
      * rewrite (Inew eq_refl). cbn [new_igroup ig_indexes]. rewrite map_map. cbn [ix_id]. apply (zseq_shift_NoDup (max_ix c + 1)).
      * rewrite (Inew eq_refl). cbn [new_igroup ig_indexes]. rewrite map_map. cbn [ix_id]. fold n.
        eapply Forall_impl; [|apply (zseq_shift_bounds (max_ix c + 1) n)]. cbv beta. intros. lia.
      * apply (updf_flat_map_perm _ _ _ _ p); [exact Hfind|]. unfold upd, sg_upd, ix_ids_of. cbn [rp_igs pol_set_sgs pol_set_igs].
        eapply Permutation_trans; [apply Permutation_flat_map, insert_ig_perm|]. apply Permutation_refl.
    + rewrite updf_flat_map_same; [exact (wf_ix _ H) | reflexivity].
  - unfold mst_ids. rewrite Epols. rewrite updf_flat_map_same; [exact (wf_mst _ H)|].
    intros x _. destruct (Hkeys x) as (_ & _ & _ & ->). reflexivity.
  - exact (wf_node _ H).
  - exact (wf_dbn _ H).
  - rewrite Ek. exact (wf_poln _ H).
  - rewrite Epols. apply updf_Forall; [|exact (wf_poldb _ H)]. intros x _ Q. destruct (Hkeys x) as (-> & _). exact Q.
  - rewrite Epols. apply (updf_Forall_first _ _ _ _ p Hfind).
    + eapply Forall_impl; [|exact (wf_refs _ H)]. intros q. apply refs_ok_same. reflexivity.
    + pose proof (wf_refs _ H) as RR. rewrite Forall_forall in RR. specialize (RR p Hp).
      assert (Hix : forall i, In i (ix_ids_of p) -> In i (ix_ids_of (upd p))).
      { intros i Hi. unfold ix_ids_of in *. apply in_flat_map in Hi. destruct Hi as [x [Hx Hi]]. apply in_flat_map. exists x. split; [apply Higs; exact Hx | exact Hi]. }
      intros g' s Hg' Hs. unfold upd, sg_upd in Hg'. cbn [rp_sgs pol_set_sgs] in Hg'. apply In_insert_sg in Hg'. destruct Hg' as [->|Hg'].
      * cbn [g new_sgroup sg_shards] in Hs. apply in_map_iff in Hs. destruct Hs as [i [<- Hi]]. cbn [sh_index sh_owners].
        apply (in_zseq _ n 0 i eq_refl) in Hi. split; [|split].
        -- unfold ix_ids_of. apply in_flat_map. exists ig. split; [exact Hig_in|]. apply in_map. apply nth_In. lia.
        -- discriminate.
        -- constructor; [|constructor]. cbn [ptnum c' set_sg_counters set_pols]. lia.
      * destruct (RR g' s Hg' Hs) as (R1 & R2 & R3). split; [apply Hix; exact R1|]. split; [exact R2 | exact R3].
  - cbn [dbs c' set_sg_counters set_pols]. eapply Forall_impl; [|exact (wf_def _ H)]. intros d. unfold default_ok. rewrite Ek. auto.
  - exact (wf_ptv _ H).
  - cbn [max_sg max_sh max_ig max_ix max_mst max_node ptnum c' set_sg_counters set_pols]. destruct isnew; repeat (constructor; [lia|]); constructor.
  - rewrite Epols. apply updf_Forall; [|exact (wf_dur _ H)]. intros x _ Q. destruct (Hkeys x) as (_ & _ & -> & _). exact Q.
  - rewrite Epols. apply updf_Forall; [|exact (wf_nm _ H)]. intros x _ Q. unfold upd, sg_upd. destruct isnew; cbn; exact Q.
Qed.

Lemma wf_create_sg : forall c db rp t eng, wf c -> MINNANO <= t < MAXNANO1 -> wf (fst (create_sg true c db rp t eng)).
Proof.
  intros c db rp t eng H Ht. apply wf_create_sg_gen; [exact H|]. intros p ig Eg Ecov.
  destruct (get_pol_spec _ _ _ _ Eg) as (_ & Hp & _).
  pose proof (wf_dur _ H) as DUR. rewrite Forall_forall in DUR.
  destruct (new_sgroup_ok c p ig t eng Ecov (DUR p Hp) Ht) as [A B]. split; [apply aligned_any_aligned; exact A | exact B].
Qed.

Lemma cells_apart : forall a b d, 0 < d -> a = trunc a d -> b = trunc b d -> a = b \/ a + d <= b \/ b + d <= a.
Proof.
  intros a b d Hd Ha Hb. unfold trunc in *. destruct (Z.leb_spec d 0); [lia|].
  assert (A : (a + YEAR1) mod d = 0) by lia. assert (B : (b + YEAR1) mod d = 0) by lia.
  apply Z.mod_divide in A; [|lia]. apply Z.mod_divide in B; [|lia]. destruct A as [q1 A]. destruct B as [q2 B].
  assert (q1 = q2 \/ q1 + 1 <= q2 \/ q2 + 1 <= q1) as [E|[E|E]] by lia; [left | right; left | right; right]; nia.
Qed.

(* the live groups of that engine type are whole cells of the policy's CURRENT shard-group duration *)
Definition full_cells (p : policy) (eng : Z) : Prop :=
  forall g, In g (rp_sgs p) -> sg_del g = false -> sg_eng g = eng ->
    sg_start g = trunc (sg_start g) (rp_sgdur p) /\ sg_end g = cell_end (sg_start g) (rp_sgdur p).

Lemma new_sgroup_ok_unclipped : forall c p ig t eng, existsb (fun g => covers g t eng) (rp_sgs p) = false -> 0 < rp_sgdur p ->
  MINNANO <= t < MAXNANO1 -> full_cells p eng ->
  let g := new_sgroup false c p ig t eng in aligned_any g /\ Forall (disjoint2 g) (rp_sgs p).
Proof.
  intros c p ig t eng Hex Hd Ht Hfull g. unfold new_sgroup, new_sg_end in g.
  set (d := rp_sgdur p) in *. set (s := trunc t d) in *. set (e := cell_end s d) in *.
  set (s0 := if clampst c then Z.max s MINNANO else s).
  assert (Hs : s <= t) by (apply trunc_le; assumption).
  assert (Hs0 : s <= s0 <= t) by (unfold s0; destruct (clampst c); lia).
  pose proof (trunc_gt t d Hd) as Hg. fold s in Hg.
  assert (He : t < e) by (unfold e, cell_end; lia).
  assert (Es : trunc s d = s) by (apply trunc_idem; [exact Hd | apply Z.le_refl | lia]).
  assert (Es0 : trunc s0 d = s) by (apply trunc_idem; [exact Hd | lia | lia]).
  split.
  - unfold aligned_any. cbn [g sg_start sg_end sg_dur]. fold s0. split; [lia|]. split; [exact Hd|]. rewrite Es0. fold e. lia.
  - apply Forall_forall. intros x Hx Hdg Hdx Hex'. cbn [g sg_start sg_end sg_eng sg_del] in *. fold s0.
    destruct (Hfull x Hx Hdx (eq_sym Hex')) as [F1 F2]. fold d in F1, F2.
    destruct (not_covered _ _ _ _ Hex Hx (eq_sym Hex') Hdx) as [A|A].
    + destruct (cells_apart s (sg_start x) d Hd (eq_sym Es) F1) as [E|[E|E]]; [lia | left; unfold e, cell_end; lia | lia].
    + destruct (cells_apart s (sg_start x) d Hd (eq_sym Es) F1) as [E|[E|E]].
      * exfalso. rewrite F2, <- E in A. fold e in A. lia.
      * exfalso. rewrite F2 in A. unfold cell_end in A. lia.
      * right. rewrite F2. unfold cell_end. lia.
Qed.
