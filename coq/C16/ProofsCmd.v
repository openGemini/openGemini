(* C16: well-formedness is preserved by the commands on databases, policies, measurements, nodes and the partition view and by
   deleting and pruning groups, through a few frames: one database entry changes, one policy changes but not its groups, what
   the policies hold shrinks, policies are dropped, an empty policy is added. Shard-group creation is in ProofsSg.v; rename,
   cancelled deletion, node removal and the half-applied CreateMeasurement in ProofsNew.v; Restore in ProofsRun.v. *)
From Coq Require Import ZArith List Bool Lia Sorting.Permutation.
From OG Require Import C16.Model C16.Wf C16.Lists C16.Proofs.
Import ListNotations.
Open Scope Z_scope.

Lemma uniq_le_subl : forall l1 l2 m, subl l1 l2 -> uniq_le l2 m -> uniq_le l1 m.
Proof. intros l1 l2 m S [H1 H2]. split; [eapply subl_NoDup | eapply subl_Forall]; eassumption. Qed.
Lemma uniq_lt_subl : forall l1 l2 m, subl l1 l2 -> uniq_lt l2 m -> uniq_lt l1 m.
Proof. intros l1 l2 m S [H1 H2]. split; [eapply subl_NoDup | eapply subl_Forall]; eassumption. Qed.

Lemma uniq_le_perm : forall l1 l2 m, Permutation l1 l2 -> uniq_le l2 m -> uniq_le l1 m.
Proof.
  intros l1 l2 m HP [H1 H2]. split.
  - eapply Permutation_NoDup; [apply Permutation_sym; exact HP | assumption].
  - eapply Permutation_Forall; [apply Permutation_sym; exact HP | assumption].
Qed.

Lemma uniq_le_extend : forall extra l m m', uniq_le l m -> NoDup extra -> Forall (fun x => m < x <= m') extra -> m <= m' -> 0 <= m ->
  uniq_le (extra ++ l) m'.
Proof.
  intros extra l m m' [H1 H2] HN HF Hm H0. split.
  - apply (NoDup_app_bound extra l m); try assumption.
    + eapply Forall_impl; [|exact HF]. cbn. intros. lia.
    + eapply Forall_impl; [|exact H2]. cbn. intros. lia.
  - apply Forall_app. split.
    + eapply Forall_impl; [|exact HF]. cbn. intros. lia.
    + eapply Forall_impl; [|exact H2]. cbn. intros. lia.
Qed.

Lemma uniq_le_weaken : forall l m m', uniq_le l m -> m <= m' -> uniq_le l m'.
Proof. intros l m m' [H1 H2] Hm. split; [assumption|]. eapply Forall_impl; [|exact H2]. cbn. intros. lia. Qed.

Ltac same H :=
  first [ exact (wf_groups _ H) | exact (wf_sg _ H) | exact (wf_sh _ H) | exact (wf_ig _ H) | exact (wf_ix _ H)
        | exact (wf_mst _ H) | exact (wf_node _ H) | exact (wf_dbn _ H) | exact (wf_poln _ H) | exact (wf_poldb _ H)
        | exact (wf_refs _ H) | exact (wf_def _ H) | exact (wf_ptv _ H) | exact (wf_nonneg _ H) | exact (wf_dur _ H)
        | exact (wf_nm _ H) ].

Definition same_ctrs (c c' : cat) : Prop :=
  max_sg c' = max_sg c /\ max_sh c' = max_sh c /\ max_ig c' = max_ig c /\ max_ix c' = max_ix c /\ max_mst c' = max_mst c /\ max_node c' = max_node c.

Lemma nonneg_get : forall c, wf c ->
  0 <= max_sg c /\ 0 <= max_sh c /\ 0 <= max_ig c /\ 0 <= max_ix c /\ 0 <= max_mst c /\ 0 <= max_node c /\ 0 <= ptnum c.
Proof.
  intros c H. pose proof (wf_nonneg _ H) as N. repeat (apply Forall_cons_iff in N; destruct N as [? N]). tauto.
Qed.

Lemma wf_update_pt : forall c db pt co cs o s, wf c -> wf (fst (update_pt c db pt co cs o s)).
Proof.
  intros c db pt co cs o s H. unfold update_pt.
  destruct (find _ (ptview c)) as [e|] eqn:Ef; [|exact H].
  destruct ((pt <? 0) || _); [exact H|].
  destruct (nth_error _ _); [|exact H].
  destruct (negb _); [exact H|].
  destruct (_ && _); [exact H|].
  cbn [fst ok]. constructor; try (same H).
  cbn [ptview set_ptview ptnum].
  apply updf_Forall; [|exact (wf_ptv _ H)].
  intros x _ Hx. cbn [fst snd]. rewrite <- Hx. f_equal.
  clear. generalize (Z.to_nat pt). induction (snd x); intros [|n]; cbn; auto.
Qed.

Lemma wf_create_ptview : forall c db, wf c -> wf (fst (create_ptview c db)).
Proof.
  intros c db H. unfold create_ptview.
  destruct (existsb _ _); [exact H|].
  destruct (nodes c) as [|n0 r] eqn:En; [exact H|].
  destruct (ptnum c =? 0) eqn:E0; [exact H|].
  cbn [fst ok]. constructor; try (same H).
  cbn [ptview set_ptview ptnum]. apply Forall_app. split; [exact (wf_ptv _ H)|].
  constructor; [|constructor]. cbn [snd]. rewrite map_length, length_zseq. pose proof (nonneg_get _ H). lia.
Qed.

Lemma wf_create_node : forall c h t, wf c -> wf (fst (create_node c h t)).
Proof.
  intros c h t H. unfold create_node.
  destruct (existsb (fun n => nd_http n =? h) (nodes c)).
  { cbn [fst ok]. constructor; try (same H).
    unfold node_ids. cbn [nodes set_nodes max_node]. rewrite updf_map_same; [exact (wf_node _ H) | reflexivity]. }
  destruct (existsb (fun n => nd_tcp n =? t) (nodes c)).
  { cbn [fst ok]. constructor; try (same H).
    unfold node_ids. cbn [nodes set_nodes max_node]. rewrite updf_map_same; [exact (wf_node _ H) | reflexivity]. }
  cbn [fst ok].
  set (l := nodes c ++ _). set (want := ptper c * Z.of_nat (length l)).
  set (pn := if ptnum c <? want then want else ptnum c).
  assert (Hpn : ptnum c <= pn) by (unfold pn; destruct (ptnum c <? want) eqn:E; lia).
  pose proof (nonneg_get _ H) as NN.
  constructor; try (same H).
  - unfold node_ids. cbn [nodes set_nodes max_node]. unfold l. rewrite map_app. cbn [map nd_id].
    apply (uniq_le_perm _ ([max_node c + 1] ++ map nd_id (nodes c))); [apply Permutation_app_comm|].
    apply (uniq_le_extend _ _ (max_node c)); [exact (wf_node _ H) | constructor; [cbn; tauto | constructor] | constructor; [lia | constructor] | lia | lia].
  - (* references: the partition count only grows *)
    cbn [pols set_nodes]. eapply Forall_impl; [|exact (wf_refs _ H)]. intros p Hp.
    eapply refs_ok_mono; [| |exact Hpn|exact Hp]; [|auto].
    intros g' Hg'. exists g'. split; [assumption | apply sg_sim0_refl].
  - (* partition views are extended to the new count *)
    cbn [ptview set_nodes ptnum]. rewrite Forall_map. eapply Forall_impl; [|exact (wf_ptv _ H)].
    intros e He. cbn [snd ptnum set_nodes]. rewrite app_length, repeat_length. cbv beta in He. clearbody pn. lia.
  - cbn [max_sg max_sh max_ig max_ix max_mst max_node ptnum set_nodes]. repeat constructor; lia.
Qed.

Lemma wf_upd_db_gen : forall c db g, wf c -> (forall x, db_name (g x) = db_name x) ->
  (forall x, db_name x = db -> default_ok c x -> default_ok c (g x)) -> wf (upd_db c db g).
Proof.
  intros c db g H Hn Hd. unfold upd_db. constructor; try (same H).
  - cbn [dbs set_dbs]. rewrite updf_map_same; [exact (wf_dbn _ H) | intros; apply Hn].
  - cbn [dbs set_dbs pols]. rewrite updf_map_same; [exact (wf_poldb _ H) | intros; apply Hn].
  - cbn [dbs set_dbs]. apply updf_Forall; [|exact (wf_def _ H)].
    intros x Px Qx. apply Hd; [lia | exact Qx].
Qed.

Lemma refs_ok_same : forall c c' p, ptnum c = ptnum c' -> refs_ok c p -> refs_ok c' p.
Proof.
  intros c c' p E HR. eapply refs_ok_mono; [| |rewrite E; apply Z.le_refl|exact HR]; [|auto].
  intros g' Hg'. exists g'. split; [assumption | apply sg_sim0_refl].
Qed.

(* the policy may change its key and the databases their default names, as long as keys stay unique and defaults resolve *)
Lemma wf_pols_meta : forall c c' P g, wf c ->
  pols c' = upd_first P g (pols c) ->
  (forall q, rp_db (g q) = rp_db q /\ rp_sgs (g q) = rp_sgs q /\ rp_igs (g q) = rp_igs q) ->
  (forall q, 0 < rp_sgdur q -> 0 < rp_sgdur (g q)) ->
  (forall q, rp_nm q = rp_name q -> rp_nm (g q) = rp_name (g q)) ->
  NoDup (pol_keys c') -> map db_name (dbs c') = map db_name (dbs c) -> Forall (default_ok c') (dbs c') ->
  nodes c' = nodes c -> ptview c' = ptview c -> ptnum c' = ptnum c ->
  (max_sg c' = max_sg c /\ max_sh c' = max_sh c /\ max_ig c' = max_ig c /\ max_ix c' = max_ix c /\ max_node c' = max_node c) ->
  uniq_lt (mst_ids c') (max_mst c') -> 0 <= max_mst c' ->
  wf c'.
Proof.
  intros c c' P g H Ep Hg Hdur Hnm Hkeys Ed Hdef End Epv Epn (E1 & E2 & E3 & E4 & E6) Hm Hm0.
  constructor.
  - rewrite Ep. apply updf_Forall; [|exact (wf_groups _ H)]. intros x _ Q. destruct (Hg x) as (_ & -> & _). exact Q.
  - unfold sg_ids. rewrite Ep, E1. rewrite updf_flat_map_same; [exact (wf_sg _ H)|].
    intros x _. destruct (Hg x) as (_ & -> & _). reflexivity.
  - unfold sh_ids, sh_ids_of. rewrite Ep, E2. rewrite updf_flat_map_same; [exact (wf_sh _ H)|].
    intros x _. destruct (Hg x) as (_ & -> & _). reflexivity.
  - unfold ig_ids. rewrite Ep, E3. rewrite updf_flat_map_same; [exact (wf_ig _ H)|].
    intros x _. destruct (Hg x) as (_ & _ & ->). reflexivity.
  - unfold ix_ids, ix_ids_of. rewrite Ep, E4. rewrite updf_flat_map_same; [exact (wf_ix _ H)|].
    intros x _. destruct (Hg x) as (_ & _ & ->). reflexivity.
  - exact Hm.
  - unfold node_ids. rewrite End, E6. exact (wf_node _ H).
  - rewrite Ed. exact (wf_dbn _ H).
  - exact Hkeys.
  - rewrite Ep, Ed. apply updf_Forall; [|exact (wf_poldb _ H)]. intros x _ Q. destruct (Hg x) as (-> & _). exact Q.
  - rewrite Ep. apply updf_Forall.
    + intros x _ Q. destruct (Hg x) as (_ & E1' & E2').
      eapply refs_ok_mono; [| |apply Z.le_refl|exact Q].
      * intros g' Hg'. rewrite E1' in Hg'. exists g'. split; [assumption | apply sg_sim0_refl].
      * unfold ix_ids_of. rewrite E2'. auto.
    + eapply Forall_impl; [|exact (wf_refs _ H)]. intros p. apply refs_ok_same. symmetry. exact Epn.
  - exact Hdef.
  - rewrite Epv, Epn. exact (wf_ptv _ H).
  - pose proof (nonneg_get _ H). rewrite E1, E2, E3, E4, E6, Epn. repeat (constructor; [lia|]). constructor.
  - rewrite Ep. apply updf_Forall; [|exact (wf_dur _ H)]. intros x _ Q. apply Hdur. exact Q.
  - rewrite Ep. apply updf_Forall; [|exact (wf_nm _ H)]. intros x _ Q. apply Hnm. exact Q.
Qed.

Lemma groups_ok_subl : forall l1 l2, subl l1 l2 -> groups_ok l2 -> groups_ok l1.
Proof.
  intros l1 l2 S [H1 [H2 H3]]. split; [|split].
  - apply (LocallySorted_Strongly _ key_leP_trans). eapply subl_StronglySorted; [exact S|].
    apply (LocallySorted_Strongly _ key_leP_trans). exact H1.
  - eapply subl_Forall; eassumption.
  - eapply subl_ForallOrdPairs; eassumption.
Qed.

(* what a policy holds only shrinks. Its groups in two steps, as pruning does it: [mid] is every group of p changed along S
   (marked), p' keeps a sublist of [mid] (the groups that are gone are filtered out) *)
Definition pol_shrink_by (S : sgroup -> sgroup -> Prop) (p p' : policy) : Prop :=
  (0 < rp_sgdur p -> 0 < rp_sgdur p') /\ rp_db p' = rp_db p /\ rp_name p' = rp_name p /\ rp_nm p' = rp_nm p /\
  (exists mid, Forall2 S (rp_sgs p) mid /\ subl (rp_sgs p') mid) /\
  subl (map ig_id (rp_igs p')) (map ig_id (rp_igs p)) /\ subl (ix_ids_of p') (ix_ids_of p) /\
  subl (map ms_id (rp_msts p')) (map ms_id (rp_msts p)) /\
  (forall g s, In g (rp_sgs p) -> In s (sg_shards g) -> In (sh_index s) (ix_ids_of p) -> In (sh_index s) (ix_ids_of p')).
Definition pol_shrink := pol_shrink_by sg_sim.

Lemma sgs_shrink_refl : forall (S : sgroup -> sgroup -> Prop), (forall a, S a a) -> forall l, exists mid, Forall2 S l mid /\ subl l mid.
Proof. intros S HS l. exists l. split; [|apply subl_refl]. induction l; constructor; [apply HS | assumption]. Qed.

Lemma pol_shrink_by_refl : forall (S : sgroup -> sgroup -> Prop), (forall a, S a a) -> forall p, pol_shrink_by S p p.
Proof. intros S HS p. unfold pol_shrink_by. repeat split; try apply subl_refl; [auto | apply sgs_shrink_refl, HS | auto]. Qed.

Lemma pol_shrink_refl : forall p, pol_shrink p p.
Proof. apply pol_shrink_by_refl, sg_sim_refl. Qed.

(* S may clear a deletion mark: then that the groups stay sorted, aligned and disjoint is to be shown apart *)
Lemma wf_pols_shrink_by : forall (S : sgroup -> sgroup -> Prop) c c', (forall a b, S a b -> sg_sim0 a b) -> wf c -> Forall2 (pol_shrink_by S) (pols c) (pols c') ->
  Forall (fun p => groups_ok (rp_sgs p)) (pols c') ->
  dbs c' = dbs c -> nodes c' = nodes c -> ptview c' = ptview c -> ptnum c' = ptnum c ->
  same_ctrs c c' ->
  wf c'.
Proof.
  intros S c c' HS0 H HS HG Ed End Epv Epn (E1 & E2 & E3 & E4 & E5 & E6).
  assert (Ek : pol_keys c' = pol_keys c).
  { unfold pol_keys. eapply Forall2_map_eq; [|exact HS]. intros x y (_ & -> & -> & _). reflexivity. }
  constructor.
  - exact HG.
  - unfold sg_ids. rewrite E1. eapply uniq_le_subl; [|exact (wf_sg _ H)]. apply Forall2_flat_map_subl.
    eapply (Forall2_impl (pol_shrink_by S)); [|exact HS]. intros x y (_ & _ & _ & _ & (mid & M1 & M2) & _). cbv beta.
    rewrite <- (sg_sim0_ids _ _ (Forall2_impl _ _ _ _ HS0 M1)). apply subl_map. exact M2.
  - unfold sh_ids, sh_ids_of. rewrite E2. eapply uniq_le_subl; [|exact (wf_sh _ H)]. apply Forall2_flat_map_subl.
    eapply (Forall2_impl (pol_shrink_by S)); [|exact HS]. intros x y (_ & _ & _ & _ & (mid & M1 & M2) & _). cbv beta.
    rewrite <- (sg_sim0_sh_ids _ _ (Forall2_impl _ _ _ _ HS0 M1)). apply subl_flat_map. exact M2.
  - unfold ig_ids. rewrite E3. eapply uniq_le_subl; [|exact (wf_ig _ H)]. apply Forall2_flat_map_subl.
    eapply (Forall2_impl (pol_shrink_by S)); [|exact HS]. intros x y (_ & _ & _ & _ & _ & X & _). exact X.
  - unfold ix_ids. rewrite E4. eapply uniq_le_subl; [|exact (wf_ix _ H)]. apply Forall2_flat_map_subl.
    eapply (Forall2_impl (pol_shrink_by S)); [|exact HS]. intros x y (_ & _ & _ & _ & _ & _ & X & _). exact X.
  - unfold mst_ids. rewrite E5. eapply uniq_lt_subl; [|exact (wf_mst _ H)]. apply Forall2_flat_map_subl.
    eapply (Forall2_impl (pol_shrink_by S)); [|exact HS]. intros x y (_ & _ & _ & _ & _ & _ & _ & X & _). exact X.
  - unfold node_ids. rewrite End, E6. exact (wf_node _ H).
  - rewrite Ed. exact (wf_dbn _ H).
  - rewrite Ek. exact (wf_poln _ H).
  - rewrite Ed. eapply Forall2_Forall; [|exact HS|exact (wf_poldb _ H)]. intros x y (_ & -> & _) Q. exact Q.
  - apply Forall_forall. intros p' Hp'. destruct (Forall2_In_r _ _ _ _ HS Hp') as [p [Hp (_ & _ & _ & _ & (mid & M1 & M2) & _ & _ & _ & Keep)]].
    pose proof (wf_refs _ H) as Q. rewrite Forall_forall in Q. specialize (Q p Hp). intros g' s' Hg' Hs'.
    apply (subl_In _ _ _ M2) in Hg'. destruct (Forall2_In_r _ _ _ _ M1 Hg') as [g [Hg Hsim]].
    destruct (HS0 _ _ Hsim) as (_ & _ & _ & _ & _ & X7). destruct (Forall2_In_r _ _ _ _ X7 Hs') as [s [Hs (_ & I1 & I2)]].
    destruct (Q g s Hg Hs) as (R1 & R2 & R3). rewrite I1, I2, Epn. split; [|split; assumption]. eapply Keep; eassumption.
  - rewrite Ed. eapply Forall_impl; [|exact (wf_def _ H)]. intros d. unfold default_ok. rewrite Ek. auto.
  - rewrite Epv, Epn. exact (wf_ptv _ H).
  - rewrite E1, E2, E3, E4, E5, E6, Epn. exact (wf_nonneg _ H).
  - eapply Forall2_Forall; [|exact HS|exact (wf_dur _ H)]. intros x y (D & _) Q. exact (D Q).
  - eapply Forall2_Forall; [|exact HS|exact (wf_nm _ H)]. intros x y (_ & _ & -> & -> & _) Q. exact Q.
Qed.

Lemma wf_pols_shrink_gen : forall c c', wf c -> Forall2 pol_shrink (pols c) (pols c') ->
  dbs c' = dbs c -> nodes c' = nodes c -> ptview c' = ptview c -> ptnum c' = ptnum c ->
  same_ctrs c c' ->
  wf c'.
Proof.
  intros c c' H HS. apply (wf_pols_shrink_by sg_sim); [intros a b [X _]; exact X | exact H | exact HS|].
  eapply Forall2_Forall; [|exact HS|exact (wf_groups _ H)]. intros x y (_ & _ & _ & _ & (mid & M1 & M2) & _) Q. cbv beta in *.
  eapply groups_ok_subl; [exact M2|]. eapply sg_sim_groups_ok; eassumption.
Qed.

Lemma wf_upd_pol_meta : forall c db n g, wf c ->
  (forall q, rp_db (g q) = rp_db q /\ rp_name (g q) = rp_name q /\ rp_nm (g q) = rp_nm q /\ rp_sgs (g q) = rp_sgs q /\ rp_igs (g q) = rp_igs q /\
             subl (map ms_id (rp_msts (g q))) (map ms_id (rp_msts q))) ->
  (forall q, 0 < rp_sgdur q -> 0 < rp_sgdur (g q)) ->
  wf (upd_pol c db n g).
Proof.
  intros c db n g H Hg Hdur. unfold upd_pol.
  eapply (wf_pols_shrink_gen c); try reflexivity; [exact H | | repeat split].
  cbn [pols set_pols]. apply updf_Forall2; [apply pol_shrink_refl|]. intros q _. destruct (Hg q) as (E1 & E2 & E3 & E4 & E5 & S).
  unfold pol_shrink, pol_shrink_by, ix_ids_of. rewrite E1, E2, E3, E4, E5. repeat split; try apply subl_refl; auto using sgs_shrink_refl, sg_sim_refl.
Qed.

Lemma pol_keys_upd_pol : forall c db n g, (forall q, rp_db (g q) = rp_db q /\ rp_name (g q) = rp_name q) ->
  pol_keys (upd_pol c db n g) = pol_keys c.
Proof.
  intros. unfold pol_keys, upd_pol. cbn [pols set_pols]. apply updf_map_same. intros x _. destruct (H x) as (-> & ->). reflexivity.
Qed.

Lemma wf_set_default : forall c db n, wf c -> n = 0 \/ In (db, n) (pol_keys c) -> wf (set_default c db n).
Proof.
  intros c db n H Hn. unfold set_default. apply wf_upd_db_gen; [assumption | reflexivity|].
  intros x Ex _. unfold default_ok. cbn [db_default db_name]. rewrite Ex. assumption.
Qed.

Lemma wf_mark_db : forall c db, wf c -> wf (fst (mark_db c db)).
Proof.
  intros c db H. unfold mark_db. destruct (find_db c db) as [x|]; [|exact H]. destruct (db_mark x); [exact H|].
  cbn [fst ok]. apply wf_upd_db_gen; [assumption | reflexivity|]. intros y _ Q. exact Q.
Qed.

Lemma wf_filter : forall c c' f, wf c -> pols c' = filter f (pols c) ->
  NoDup (map db_name (dbs c')) -> Forall (fun p => In (rp_db p) (map db_name (dbs c'))) (pols c') -> Forall (default_ok c') (dbs c') ->
  nodes c' = nodes c -> subl (ptview c') (ptview c) -> ptnum c' = ptnum c ->
  same_ctrs c c' ->
  wf c'.
Proof.
  intros c c' f H Ep Hdbn Hpoldb Hdef End Spv Epn (E1 & E2 & E3 & E4 & E5 & E6). constructor.
  - rewrite Ep. eapply subl_Forall; [apply subl_filter | exact (wf_groups _ H)].
  - unfold sg_ids. rewrite Ep, E1. eapply uniq_le_subl; [|exact (wf_sg _ H)]. apply subl_flat_map, subl_filter.
  - unfold sh_ids. rewrite Ep, E2. eapply uniq_le_subl; [|exact (wf_sh _ H)]. apply subl_flat_map, subl_filter.
  - unfold ig_ids. rewrite Ep, E3. eapply uniq_le_subl; [|exact (wf_ig _ H)]. apply subl_flat_map, subl_filter.
  - unfold ix_ids. rewrite Ep, E4. eapply uniq_le_subl; [|exact (wf_ix _ H)]. apply subl_flat_map, subl_filter.
  - unfold mst_ids. rewrite Ep, E5. eapply uniq_lt_subl; [|exact (wf_mst _ H)]. apply subl_flat_map, subl_filter.
  - unfold node_ids. rewrite End, E6. exact (wf_node _ H).
  - exact Hdbn.
  - unfold pol_keys. rewrite Ep. eapply subl_NoDup; [|exact (wf_poln _ H)]. apply subl_map, subl_filter.
  - exact Hpoldb.
  - rewrite Ep. eapply subl_Forall; [apply subl_filter|].
    eapply Forall_impl; [|exact (wf_refs _ H)]. intros p. apply refs_ok_same. symmetry. exact Epn.
  - exact Hdef.
  - rewrite Epn. eapply subl_Forall; [exact Spv | exact (wf_ptv _ H)].
  - rewrite E1, E2, E3, E4, E5, E6, Epn. exact (wf_nonneg _ H).
  - rewrite Ep. eapply subl_Forall; [apply subl_filter | exact (wf_dur _ H)].
  - rewrite Ep. eapply subl_Forall; [apply subl_filter | exact (wf_nm _ H)].
Qed.

Lemma wf_filter_names : forall c c' f, wf c -> pols c' = filter f (pols c) -> map db_name (dbs c') = map db_name (dbs c) ->
  Forall (default_ok c') (dbs c') -> nodes c' = nodes c -> ptview c' = ptview c -> ptnum c' = ptnum c ->
  same_ctrs c c' ->
  wf c'.
Proof.
  intros c c' f H Ep Edn Hdef End Epv. apply (wf_filter c c' f H Ep); [| |exact Hdef|exact End|rewrite Epv; apply subl_refl].
  - rewrite Edn. exact (wf_dbn _ H).
  - rewrite Ep, Edn. eapply subl_Forall; [apply subl_filter | exact (wf_poldb _ H)].
Qed.

Lemma wf_drop_db : forall c db, wf c -> wf (fst (drop_db c db)).
Proof.
  intros c db H. unfold drop_db. destruct (find_db c db) as [x0|]; [|exact H]. clear x0. cbn [fst ok].
  eapply (wf_filter c); [exact H | reflexivity | | | | reflexivity | apply subl_filter | reflexivity | repeat split];
    cbn [pols dbs set_ptview set_pols set_dbs].
  - eapply subl_NoDup; [|exact (wf_dbn _ H)]. apply subl_map, subl_filter.
  - apply Forall_forall. intros p Hp. apply filter_In in Hp. destruct Hp as [Hp Hf].
    pose proof (wf_poldb _ H) as PD. rewrite Forall_forall in PD. specialize (PD p Hp).
    apply in_map_iff in PD. destruct PD as [d [Ed Hd]]. apply in_map_iff. exists d. split; [assumption|].
    apply filter_In. split; [assumption|]. lia.
  - apply Forall_forall. intros d Hd. apply filter_In in Hd. destruct Hd as [Hd Hf].
    pose proof (wf_def _ H) as D. rewrite Forall_forall in D. destruct (D d Hd) as [E|Hin]; [left; assumption|right].
    unfold pol_keys in *. cbn [pols set_ptview set_pols]. apply in_map_iff in Hin. destruct Hin as [p [Ep Hp]].
    apply in_map_iff. exists p. split; [assumption|]. apply filter_In. split; [assumption|]. inversion Ep. cbv beta in Hf. lia.
Qed.

Lemma groups_ok_nil : groups_ok [].
Proof. repeat split; constructor. Qed.

Lemma refs_ok_new : forall c db n d sgd igd, refs_ok c (new_policy db n d sgd igd).
Proof. intros c db n d sgd igd g s Hg. cbn in Hg. contradiction. Qed.

Lemma wf_add_pol : forall c c' db n d sgd igd, wf c ->
  pols c' = pols c ++ [new_policy db n d sgd igd] ->
  (exists extra, dbs c' = dbs c ++ extra /\ NoDup (map db_name (dbs c')) /\ Forall (default_ok c') extra) ->
  In db (map db_name (dbs c')) -> ~ In (db, n) (pol_keys c) -> 0 < sgd ->
  ptnum c' = ptnum c -> ptview c' = ptview c -> nodes c' = nodes c ->
  same_ctrs c c' ->
  wf c'.
Proof.
  intros c c' db n d sgd igd H Ep (extra & Ed & Hnd & Hdef) Hdb Hkey Hsgd Epn Epv End (E1 & E2 & E3 & E4 & E5 & E6).
  assert (Ek : pol_keys c' = pol_keys c ++ [(db, n)]).
  { unfold pol_keys. rewrite Ep, map_app. reflexivity. }
  constructor.
  - rewrite Ep. apply Forall_app. split; [exact (wf_groups _ H)|]. constructor; [apply groups_ok_nil | constructor].
  - unfold sg_ids. rewrite Ep, E1, flat_map_snoc_nil by reflexivity. exact (wf_sg _ H).
  - unfold sh_ids. rewrite Ep, E2, flat_map_snoc_nil by reflexivity. exact (wf_sh _ H).
  - unfold ig_ids. rewrite Ep, E3, flat_map_snoc_nil by reflexivity. exact (wf_ig _ H).
  - unfold ix_ids. rewrite Ep, E4, flat_map_snoc_nil by reflexivity. exact (wf_ix _ H).
  - unfold mst_ids. rewrite Ep, E5, flat_map_snoc_nil by reflexivity. exact (wf_mst _ H).
  - unfold node_ids. rewrite End, E6. exact (wf_node _ H).
  - exact Hnd.
  - rewrite Ek. apply NoDup_snoc; [exact (wf_poln _ H) | exact Hkey].
  - rewrite Ep. apply Forall_app. split.
    + eapply Forall_impl; [|exact (wf_poldb _ H)]. intros p Hp. cbv beta in Hp. rewrite Ed, map_app, in_app_iff. left. exact Hp.
    + constructor; [exact Hdb | constructor].
  - rewrite Ep. apply Forall_app. split.
    + eapply Forall_impl; [|exact (wf_refs _ H)]. intros p. apply refs_ok_same. symmetry. exact Epn.
    + constructor; [apply refs_ok_new | constructor].
  - rewrite Ed. apply Forall_app. split; [|exact Hdef].
    eapply Forall_impl; [|exact (wf_def _ H)]. intros x. unfold default_ok. rewrite Ek, in_app_iff. tauto.
  - rewrite Epv, Epn. exact (wf_ptv _ H).
  - rewrite E1, E2, E3, E4, E5, E6, Epn. exact (wf_nonneg _ H).
  - rewrite Ep. apply Forall_app. split; [exact (wf_dur _ H)|]. constructor; [exact Hsgd | constructor].
  - rewrite Ep. apply Forall_app. split; [exact (wf_nm _ H)|]. constructor; [reflexivity | constructor].
Qed.

Lemma norm_sgd_pos : forall sgd d, 0 < norm_sgd sgd d.
Proof.
  intros. unfold norm_sgd, sg_default, DAY. unfold HOUR. destruct (sgd =? 0); cbv iota.
  - destruct (_ || _); cbv iota; [lia|]. destruct (d >=? _); cbv iota; lia.
  - destruct (Z.ltb_spec sgd 3600000000000); lia.
Qed.

Lemma find_db_none : forall c db, find_db c db = None -> ~ In db (map db_name (dbs c)).
Proof.
  unfold find_db. intros c db Hf Hin. apply in_map_iff in Hin. destruct Hin as [d [E Hd]].
  pose proof (find_none _ _ Hf d Hd) as X. cbv beta in X. lia.
Qed.

Lemma find_pol_none : forall c db n, find_pol c db n = None -> ~ In (db, n) (pol_keys c).
Proof.
  unfold find_pol, pol_keys. intros c db n Hf Hin. apply in_map_iff in Hin. destruct Hin as [p [E Hp]].
  pose proof (find_none _ _ Hf p Hp) as X. unfold is_pol in X. inversion E. lia.
Qed.

Lemma wf_create_db : forall c db rp d sgd, wf c -> wf (fst (create_db c db rp d sgd)).
Proof.
  intros c db rp d sgd H. unfold create_db.
  destruct (db =? 0); [exact H|]. destruct (ptnum c =? 0); [exact H|].
  destruct (find_db c db) as [x|] eqn:Ef; [destruct (db_mark x); exact H|].
  destruct (rp =? 0); [exact H|]. destruct (negb _); [exact H|].
  cbn [fst ok]. pose proof (find_db_none _ _ Ef) as Hn.
  eapply (wf_add_pol c _ db rp); [exact H | reflexivity | | | | apply norm_sgd_pos | reflexivity | reflexivity | reflexivity | repeat split].
  - eexists. split; [reflexivity|]. cbn [dbs set_dbs set_pols]. split.
    + rewrite map_app. apply NoDup_snoc; [exact (wf_dbn _ H) | exact Hn].
    + constructor; [|constructor]. right. unfold pol_keys. cbn [pols set_pols db_name db_default].
      rewrite map_app, in_app_iff. right. left. reflexivity.
  - cbn [dbs set_dbs set_pols]. rewrite map_app, in_app_iff. right. left. reflexivity.
  - intro Hin. unfold pol_keys in Hin. apply in_map_iff in Hin. destruct Hin as [p [E Hp]].
    pose proof (wf_poldb _ H) as PD. rewrite Forall_forall in PD. specialize (PD p Hp). inversion E. subst. contradiction.
Qed.

Lemma wf_create_rp : forall c db rp d sgd k, wf c -> wf (fst (create_rp c db rp d sgd k)).
Proof.
  intros c db rp d sgd k H. unfold create_rp.
  destruct (get_db c db) as [x|] eqn:Eg; [|exact H].
  destruct (rp =? 0) eqn:Erp; [exact H|]. destruct (negb (spec_valid _ _)); [exact H|].
  destruct (find_pol c db rp) as [q|] eqn:Ef.
  { destruct (negb _); [exact H|]. destruct (_ && _); exact H. }
  cbn [fst ok]. destruct (get_db_spec _ _ _ Eg) as (Hx & Ex & _).
  assert (W : wf (set_pols c (pols c ++ [new_policy db rp d (norm_sgd sgd d) (norm_igd 0 (norm_sgd sgd d))]))).
  { eapply (wf_add_pol c _ db rp); [exact H | reflexivity | | | | apply norm_sgd_pos | reflexivity | reflexivity | reflexivity | repeat split].
    - exists []. cbn [dbs set_pols]. rewrite app_nil_r. split; [reflexivity|]. split; [exact (wf_dbn _ H) | constructor].
    - cbn [dbs set_pols]. rewrite <- Ex. apply in_map. exact Hx.
    - apply find_pol_none. exact Ef. }
  destruct k; [|exact W].
  apply wf_set_default; [exact W|]. right. unfold pol_keys. cbn [pols set_pols]. rewrite map_app, in_app_iff. right. left. reflexivity.
Qed.

Lemma wf_update_rp : forall c db rp d sgd k, wf c -> wf (fst (update_rp c db rp d sgd k)).
Proof.
  intros c db rp d sgd k H. unfold update_rp.
  destruct (get_pol c db rp) as [p|] eqn:Eg; [|exact H]. destruct (negb _); [exact H|].
  cbn [fst ok]. destruct (get_pol_spec _ _ _ _ Eg) as (_ & Hp & Edb & _).
  match goal with |- wf (if k then set_default ?c1 _ _ else _) => assert (W : wf c1) end.
  { apply wf_upd_pol_meta; [exact H| |]; [intros q; cbn; repeat split; apply subl_refl | intros q _; cbn; apply norm_sgd_pos]. }
  destruct k; [|exact W]. apply wf_set_default; [exact W|]. right.
  rewrite pol_keys_upd_pol by (intros; cbn; tauto). rewrite <- Edb. apply In_pol_keys. exact Hp.
Qed.

Lemma wf_mark_rp : forall c db rp, wf c -> wf (fst (mark_rp c db rp)).
Proof.
  intros c db rp H. unfold mark_rp. destruct (get_pol c db rp) as [p|]; [|exact H]. cbn [fst ok].
  apply wf_upd_pol_meta; [exact H| |]; [intros q; cbn; repeat split; apply subl_refl | intros q Q; exact Q].
Qed.

Lemma get_pol_name : forall c db n p, get_pol c db n = Some p -> n = 0 \/ rp_name p = n.
Proof.
  unfold get_pol. intros c db n p H. destruct (get_db c db) as [d|]; [|discriminate].
  destruct (resolve d n =? 0); [discriminate|].
  destruct (find_pol c db (resolve d n)) as [q|] eqn:Eq; [|discriminate].
  destruct (rp_mark q); [discriminate|]. inversion H; subst q.
  destruct (find_is_pol _ _ _ _ Eq) as (_ & _ & E). unfold resolve in E. destruct (n =? 0) eqn:En; [left; lia | right; exact E].
Qed.

Lemma wf_set_default_rp : forall c db rp, wf c -> wf (fst (set_default_rp c db rp)).
Proof.
  intros c db rp H. unfold set_default_rp. destruct (get_pol c db rp) as [p|] eqn:Eg; [|exact H]. cbn [fst ok].
  apply wf_set_default; [exact H|]. destruct (get_pol_name _ _ _ _ Eg) as [E|E]; [left; exact E|right].
  destruct (get_pol_spec _ _ _ _ Eg) as (_ & Hp & Edb & _). rewrite <- E, <- Edb. apply In_pol_keys. exact Hp.
Qed.

(* dropping a policy, with the repair: the default name is cleared when it named the dropped policy *)
Lemma wf_drop_rp : forall c db rp, wf c -> wf (fst (drop_rp true c db rp)).
Proof.
  intros c db rp H. unfold drop_rp. destruct (get_db c db) as [x|] eqn:Eg; [|exact H]. cbn [fst ok andb].
  destruct (get_db_spec _ _ _ Eg) as (Hx & Ex & _).
  set (c1 := set_pols c (filter (fun p => negb (is_pol db rp p)) (pols c))).
  assert (K : forall d, default_ok c d -> (db_name d = db /\ db_default d = rp) \/ default_ok c1 d).
  { intros d [E|Hin]; [right; left; exact E|].
    destruct (Z.eq_dec (db_name d) db) as [E1|E1]; [destruct (Z.eq_dec (db_default d) rp) as [E2|E2]|]; [left; tauto| |];
      right; right; unfold pol_keys in *; cbn [pols c1 set_pols]; apply in_map_iff in Hin; destruct Hin as [p [Ep Hp]];
      apply in_map_iff; exists p; (split; [assumption|]); apply filter_In; (split; [assumption|]); unfold is_pol; inversion Ep; lia. }
  pose proof (wf_def _ H) as D.
  destruct (db_default x =? rp) eqn:Edef.
  - (* the default named the dropped policy: cleared *)
    unfold set_default, upd_db. rewrite (upd_first_as_map db_name db) by exact (wf_dbn _ H).
    eapply (wf_filter_names c); try reflexivity; [exact H | | |repeat split].
    + cbn [dbs set_dbs c1 set_pols]. rewrite map_map. apply map_ext. intros a. destruct (db_name a =? db); reflexivity.
    + cbn [dbs set_dbs c1 set_pols]. rewrite Forall_map. eapply Forall_impl; [|exact D]. intros d Hd. cbv beta.
      destruct (db_name d =? db) eqn:Ed; [left; reflexivity|].
      destruct (K d Hd) as [[E1 _]|Ok1]; [lia|]. exact Ok1.
  - eapply (wf_filter_names c); try reflexivity; [exact H | |repeat split].
    cbn [dbs c1 set_pols]. apply Forall_forall. intros d Hd. rewrite Forall_forall in D.
    destruct (K d (D d Hd)) as [[E1 E2]|Ok1]; [|exact Ok1].
    assert (d = x) by (eapply (NoDup_map_eq db_name); [exact (wf_dbn _ H) | exact Hd | exact Hx | congruence]).
    subst d. lia.
Qed.

Lemma wf_add_mst : forall c p m ver, wf c -> find_pol c (rp_db p) (rp_name p) = Some p -> wf (add_mst c p m ver).
Proof.
  intros c p m ver H Hf. unfold add_mst. pose proof (nonneg_get _ H) as NN.
  match goal with |- wf (set_max_mst (upd_pol _ _ _ ?f) _) => set (g := f) end.
  assert (Ek : pol_keys (upd_pol c (rp_db p) (rp_name p) g) = pol_keys c) by (apply pol_keys_upd_pol; intros; cbn; tauto).
  eapply (wf_pols_meta c _ (is_pol (rp_db p) (rp_name p)) g); try reflexivity; [exact H | | | | | | cbn; tauto | | ].
  - intros q. cbn. tauto.
  - intros q Q. exact Q.
  - intros q Q. exact Q.
  - change (NoDup (pol_keys (upd_pol c (rp_db p) (rp_name p) g))). rewrite Ek. exact (wf_poln _ H).
  - eapply Forall_impl; [|exact (wf_def _ H)]. intros d [E|Hin]; [left; exact E | right].
    change (In (db_name d, db_default d) (pol_keys (upd_pol c (rp_db p) (rp_name p) g))). rewrite Ek. exact Hin.
  - unfold mst_ids, upd_pol, g. cbn [pols set_pols set_max_mst max_mst].
    destruct (wf_mst _ H) as [N1 N2].
    assert (HP : Permutation (flat_map (fun p0 => map ms_id (rp_msts p0))
                 (upd_first (is_pol (rp_db p) (rp_name p))
                    (fun q => pol_set_msts q (rp_msts q ++ [{| ms_name := m; ms_ver := ver; ms_id := max_mst c; ms_mark := false |}])
                                (assoc_set m ver (rp_vers q))) (pols c)))
              ([max_mst c] ++ mst_ids c)).
    { apply (updf_flat_map_perm _ _ _ _ p); [exact Hf|]. cbn [rp_msts pol_set_msts]. rewrite map_app. cbn [map ms_id].
      apply Permutation_app_comm. }
    split.
    + eapply Permutation_NoDup; [apply Permutation_sym; exact HP|]. cbn [app]. constructor; [|exact N1].
      intro Hin. rewrite Forall_forall in N2. specialize (N2 _ Hin). cbn in N2. lia.
    + eapply Permutation_Forall; [apply Permutation_sym; exact HP|]. cbn [app]. constructor; [lia|].
      eapply Forall_impl; [|exact N2]. cbn. intros. lia.
  - cbn [max_mst set_max_mst]. lia.
Qed.

Lemma wf_create_mst : forall c db rp m, wf c -> wf (fst (create_mst c db rp m)).
Proof.
  intros c db rp m H. destruct (create_mst_shape c db rp m) as [->|(p & v & Eg & ->)]; [exact H|].
  destruct (get_pol_spec _ _ _ _ Eg) as (Hf & _ & Edb & _). rewrite <- Edb in Hf. apply wf_add_mst; assumption.
Qed.

Lemma wf_mark_mst : forall c db rp m, wf c -> wf (fst (mark_mst c db rp m)).
Proof.
  intros c db rp m H. unfold mark_mst. destruct (get_pol c db rp) as [p|]; [|exact H].
  destruct (cur_mst p m) as [x|]; [|exact H]. destruct (ms_mark x); [exact H|]. cbn [fst ok].
  apply wf_upd_pol_meta; [exact H| |intros q Q; exact Q]. intros q. cbn [rp_db rp_name rp_sgs rp_igs rp_msts pol_set_msts]. repeat split.
  rewrite updf_map_same; [apply subl_refl | reflexivity].
Qed.

Lemma wf_drop_mst : forall c db rp m v, wf c -> wf (fst (drop_mst c db rp m v)).
Proof.
  intros c db rp m v H. unfold drop_mst. destruct (get_pol c db rp) as [p|]; [|exact H]. cbn [fst ok].
  apply wf_upd_pol_meta; [exact H| |intros q Q; exact Q]. intros q. cbn [rp_db rp_name rp_sgs rp_igs rp_msts pol_set_msts]. repeat split.
  apply subl_map, subl_filter.
Qed.

Lemma sg_sim_set_del : forall g, sg_sim g (sg_set_del g).
Proof. intros. unfold sg_sim, sg_sim0. cbn. repeat split; auto. apply sh_sim_refl. Qed.

Lemma wf_delete_sg : forall c db rp id, wf c -> wf (fst (delete_sg c db rp id)).
Proof.
  intros c db rp id H. unfold delete_sg. destruct (get_pol c db rp) as [p|]; [|exact H]. cbn [fst ok]. unfold upd_pol.
  eapply (wf_pols_shrink_gen c); try reflexivity; [exact H | | repeat split].
  cbn [pols set_pols]. apply updf_Forall2; [apply pol_shrink_refl|]. intros q _.
  unfold pol_shrink, pol_shrink_by. cbn [rp_sgdur rp_db rp_name rp_nm rp_sgs rp_igs rp_msts pol_set_sgs]. repeat split; try apply subl_refl; [auto | | auto].
  eexists. split; [|apply subl_refl]. apply updf_Forall2; [apply sg_sim_refl | intros; apply sg_sim_set_del].
Qed.

Lemma wf_delete_ig : forall c db rp id, wf c -> wf (fst (delete_ig c db rp id)).
Proof.
  intros c db rp id H. unfold delete_ig. destruct (get_pol c db rp) as [p|]; [|exact H]. cbn [fst ok]. unfold upd_pol.
  eapply (wf_pols_shrink_gen c); try reflexivity; [exact H | | repeat split].
  cbn [pols set_pols]. apply updf_Forall2; [apply pol_shrink_refl|]. intros q _.
  assert (EI : ix_ids_of (pol_set_igs q (upd_first (fun g => ig_id g =? id) ig_set_del (rp_igs q))) = ix_ids_of q).
  { unfold ix_ids_of. cbn [rp_igs pol_set_igs]. apply updf_flat_map_same. reflexivity. }
  unfold pol_shrink, pol_shrink_by. rewrite EI. cbn [rp_sgdur rp_db rp_name rp_nm rp_sgs rp_igs rp_msts pol_set_igs]. repeat split; try apply subl_refl; [auto | apply sgs_shrink_refl, sg_sim_refl | |auto].
  rewrite updf_map_same; [apply subl_refl | reflexivity].
Qed.

Lemma sg_sim_prune_mark : forall id g, sg_sim g (prune_mark_sg id g).
Proof.
  intros. unfold prune_mark_sg. destruct (_ && _); [|apply sg_sim_refl]. unfold sg_sim, sg_sim0. cbn. repeat split; auto.
  apply updf_Forall2; unfold sh_sim; [auto | intros x _; destruct (sh_id x =? id); cbn; auto].
Qed.

Lemma prune_sg_pol_shrink : forall c id p, pol_shrink p (prune_sg_pol c id p).
Proof.
  intros c id p. unfold prune_sg_pol.
  assert (B : pol_shrink p (pol_set_sgs p (filter (fun g => negb (sg_gone g)) (map (prune_mark_sg id) (rp_sgs p))))).
  { unfold pol_shrink, pol_shrink_by. cbn [rp_sgdur rp_db rp_name rp_nm rp_sgs rp_igs rp_msts pol_set_sgs]. repeat split; try apply subl_refl; [auto | | auto].
    exists (map (prune_mark_sg id) (rp_sgs p)). split; [|apply subl_filter]. apply Forall2_map_r. apply sg_sim_prune_mark. }
  destruct (_ && _); [|exact B].
  destruct B as (B0 & B1 & B2 & B2' & B3 & B4 & B5 & B6 & B7). unfold pol_shrink, pol_shrink_by. cbn [rp_sgdur rp_db rp_name rp_nm rp_sgs rp_igs rp_msts pol_set_sgs pol_set_msts] in *.
  repeat split; try assumption.
  rewrite map_map. erewrite map_ext; [apply subl_refl|]. intros a. cbv beta.
  destruct (assoc (ms_name a) (rp_vers p)); [destruct (ms_ver a =? z)|]; reflexivity.
Qed.

Lemma wf_prune_sg : forall c id, wf c -> wf (fst (prune_sg c id)).
Proof.
  intros c id H. unfold prune_sg. cbn [fst ok].
  eapply (wf_pols_shrink_gen c); try reflexivity; [exact H | | repeat split].
  cbn [pols set_pols]. apply Forall2_map_r. apply prune_sg_pol_shrink.
Qed.

(* environment assumption of index pruning: an index group that the command removes is not referred to by any shard *)
Definition prune_ig_env (c : cat) (id : Z) : Prop :=
  forall p g ix sg s, In p (pols c) -> In g (rp_igs p) -> ig_gone (prune_mark_ig id g) = true -> In ix (ig_indexes g) ->
    In sg (rp_sgs p) -> In s (sg_shards sg) -> sh_index s <> ix_id ix.

Lemma prune_mark_ig_ids : forall id g, map ix_id (ig_indexes (prune_mark_ig id g)) = map ix_id (ig_indexes g) /\ ig_id (prune_mark_ig id g) = ig_id g.
Proof.
  intros. unfold prune_mark_ig. destruct (_ && _); [|auto]. cbn. split; [|reflexivity]. apply updf_map_same.
  intros x _. destruct (ix_id x =? id); reflexivity.
Qed.

Lemma wf_prune_ig : forall c id, wf c -> prune_ig_env c id -> wf (fst (prune_ig c id)).
Proof.
  intros c id H Env. unfold prune_ig. cbn [fst ok].
  eapply (wf_pols_shrink_gen c); try reflexivity; [exact H | | repeat split].
  cbn [pols set_pols].
  assert (G : forall p, In p (pols c) -> pol_shrink p (prune_ig_pol id p)).
  { intros p Hp. unfold pol_shrink, pol_shrink_by, prune_ig_pol. cbn [rp_sgdur rp_db rp_name rp_nm rp_sgs rp_igs rp_msts pol_set_igs]. repeat split; try apply subl_refl.
    - auto.
    - apply sgs_shrink_refl, sg_sim_refl.
    - eapply subl_trans; [apply subl_map, subl_filter|]. rewrite map_map. erewrite map_ext; [apply subl_refl|].
      intros a. apply prune_mark_ig_ids.
    - unfold ix_ids_of. cbn [rp_igs pol_set_igs]. eapply subl_trans; [apply subl_flat_map, subl_filter|].
      rewrite flat_map_concat_map, map_map, <- flat_map_concat_map. erewrite flat_map_ext; [apply subl_refl|].
      intros a. apply prune_mark_ig_ids.
    - intros sg s Hsg Hs Hin. unfold ix_ids_of in *. cbn [rp_igs pol_set_igs]. apply in_flat_map in Hin.
      destruct Hin as [g [Hg Hix]]. apply in_map_iff in Hix. destruct Hix as [ix [Eix Hix]].
      apply in_flat_map. exists (prune_mark_ig id g). split.
      + apply filter_In. split; [apply in_map; exact Hg|]. destruct (ig_gone (prune_mark_ig id g)) eqn:Eg; [|reflexivity].
        exfalso. eapply (Env p g ix sg s); eauto.
      + rewrite (proj1 (prune_mark_ig_ids id g)). apply in_map_iff. exists ix. auto. }
  clear - G. induction (pols c); cbn; constructor; [apply G; left; reflexivity | apply IHl; intros; apply G; right; assumption].
Qed.
