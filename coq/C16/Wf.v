(* C16: the well-formedness statement as a proposition, and its equivalence with the boolean wf_b of Model.v that the
   correspondence evaluates on dumps of the real catalogue. *)
From Coq Require Import ZArith List Bool Lia Sorting.Sorted.
From OG Require Import C16.Model.
Import ListNotations.
Open Scope Z_scope.

Definition uniq_le (l : list Z) (m : Z) : Prop := NoDup l /\ Forall (fun x => 0 < x <= m) l.
Definition uniq_lt (l : list Z) (m : Z) : Prop := NoDup l /\ Forall (fun x => 0 <= x < m) l.

(* a live group is a non-empty span inside one cell [k*d, (k+1)*d) (anchored like time.Truncate, capped at the end of the time
   domain) of the shard-group duration d in force when it was created *)
Definition aligned (g : sgroup) : Prop :=
  sg_del g = false ->
  sg_start g < sg_end g /\ 0 < sg_dur g /\ sg_end g <= cell_end (trunc (sg_start g) (sg_dur g)) (sg_dur g).
(* the same of any group, deleted or not: every group the commands create is born this way and spans never change *)
Definition aligned_any (g : sgroup) : Prop :=
  sg_start g < sg_end g /\ 0 < sg_dur g /\ sg_end g <= cell_end (trunc (sg_start g) (sg_dur g)) (sg_dur g).
Definition all_aligned (c : cat) : Prop := forall p g, In p (pols c) -> In g (rp_sgs p) -> aligned_any g.
Lemma aligned_any_aligned : forall g, aligned_any g -> aligned g.
Proof. intros g A _. exact A. Qed.
(* two live groups of one engine type do not overlap *)
Definition disjoint2 (a b : sgroup) : Prop :=
  sg_del a = false -> sg_del b = false -> sg_eng a = sg_eng b -> sg_end a <= sg_start b \/ sg_end b <= sg_start a.
(* the order the rest of the system relies on: by end, then start *)
Definition key_leP (a b : sgroup) : Prop := sg_end a < sg_end b \/ (sg_end a = sg_end b /\ sg_start a <= sg_start b).

Definition groups_ok (l : list sgroup) : Prop :=
  LocallySorted key_leP l /\ Forall aligned l /\ ForallOrdPairs disjoint2 l.

(* every shard names an index of its own policy and at least one partition, all of them existing *)
Definition refs_ok (c : cat) (p : policy) : Prop :=
  forall g s, In g (rp_sgs p) -> In s (sg_shards g) ->
    In (sh_index s) (ix_ids_of p) /\ sh_owners s <> [] /\ Forall (fun o => 0 <= o < ptnum c) (sh_owners s).

Definition default_ok (c : cat) (d : database) : Prop :=
  db_default d = 0 \/ In (db_name d, db_default d) (pol_keys c).

Record wf (c : cat) : Prop := {
  wf_groups : Forall (fun p => groups_ok (rp_sgs p)) (pols c);
  wf_sg : uniq_le (sg_ids c) (max_sg c);
  wf_sh : uniq_le (sh_ids c) (max_sh c);
  wf_ig : uniq_le (ig_ids c) (max_ig c);
  wf_ix : uniq_le (ix_ids c) (max_ix c);
  wf_mst : uniq_lt (mst_ids c) (max_mst c);
  wf_node : uniq_le (node_ids c) (max_node c);
  wf_dbn : NoDup (map db_name (dbs c));
  wf_poln : NoDup (pol_keys c);
  wf_poldb : Forall (fun p => In (rp_db p) (map db_name (dbs c))) (pols c);
  wf_refs : Forall (refs_ok c) (pols c);
  wf_def : Forall (default_ok c) (dbs c);
  wf_ptv : Forall (fun e => Z.of_nat (length (snd e)) = ptnum c) (ptview c);
  wf_nonneg : Forall (fun x => 0 <= x) [max_sg c; max_sh c; max_ig c; max_ix c; max_mst c; max_node c; ptnum c];
  wf_dur : Forall (fun p => 0 < rp_sgdur p) (pols c);  (* shard-group durations are normalised to at least one hour *)
  wf_nm : Forall (fun p => rp_nm p = rp_name p) (pols c)   (* a policy is stored under its name *)
}.

(* the C14 invariant as a clause about the catalogue: the index group holding a shard's index does not end before the shard's
   own group (an index must not expire before a shard that uses it) *)
Definition covered_pol (p : policy) : Prop :=
  forall g s ig i, In g (rp_sgs p) -> In s (sg_shards g) -> In ig (rp_igs p) -> In i (ig_indexes ig) -> ix_id i = sh_index s ->
    sg_end g <= ig_end ig.
Definition covered (c : cat) : Prop := Forall covered_pol (pols c).

Lemma existsb_In_gen : forall {A} (eqb : A -> A -> bool), (forall a b, eqb a b = true <-> a = b) ->
  forall x l, existsb (eqb x) l = true <-> In x l.
Proof.
  intros A eqb E x l. rewrite existsb_exists. split.
  - intros [y [Hy Ey]]. apply E in Ey. subst. assumption.
  - intros H. exists x. split; [assumption | apply E; reflexivity].
Qed.

Lemma nodup_gen_iff : forall {A} (eqb : A -> A -> bool) (nd : list A -> bool), (forall a b, eqb a b = true <-> a = b) ->
  nd [] = true -> (forall x r, nd (x :: r) = negb (existsb (eqb x) r) && nd r) -> forall l, nd l = true <-> NoDup l.
Proof.
  intros A eqb nd E N0 N1. induction l as [|x r IH]; [rewrite N0; split; [constructor | reflexivity]|].
  rewrite N1, andb_true_iff, negb_true_iff, IH. split.
  - intros [H1 H2]. constructor; [|assumption]. intro Hin. apply (existsb_In_gen eqb E) in Hin. congruence.
  - intros H. inversion H; subst. split; [|assumption].
    destruct (existsb (eqb x) r) eqn:Ex; [|reflexivity]. apply (existsb_In_gen eqb E) in Ex. contradiction.
Qed.

Lemma existsb_eqb_In : forall x l, existsb (Z.eqb x) l = true <-> In x l.
Proof. exact (existsb_In_gen Z.eqb Z.eqb_eq). Qed.

Lemma nodup_b_iff : forall l, nodup_b l = true <-> NoDup l.
Proof. apply (nodup_gen_iff Z.eqb); [exact Z.eqb_eq | reflexivity | reflexivity]. Qed.

Lemma pair_eqb_eq : forall a b, pair_eqb a b = true <-> a = b.
Proof.
  intros [a1 a2] [b1 b2]. unfold pair_eqb. cbn [fst snd]. rewrite andb_true_iff, !Z.eqb_eq.
  split; [intros [-> ->]; reflexivity | intros H; inversion H; auto].
Qed.

Lemma existsb_pair_In : forall x l, existsb (pair_eqb x) l = true <-> In x l.
Proof. exact (existsb_In_gen pair_eqb pair_eqb_eq). Qed.

Lemma nodup_pairs_b_iff : forall l, nodup_pairs_b l = true <-> NoDup l.
Proof. apply (nodup_gen_iff pair_eqb); [exact pair_eqb_eq | reflexivity | reflexivity]. Qed.

Lemma forallb_Forall : forall {A} (f : A -> bool) (P : A -> Prop) l,
  (forall x, f x = true <-> P x) -> (forallb f l = true <-> Forall P l).
Proof.
  intros A f P l H. induction l as [|x r IH]; cbn [forallb].
  - split; [constructor | reflexivity].
  - rewrite andb_true_iff, IH, H. split; [intros [? ?]; constructor; assumption | intros X; inversion X; auto].
Qed.

Lemma uniq_le_b_iff : forall l m, uniq_le_b l m = true <-> uniq_le l m.
Proof.
  intros. unfold uniq_le_b, uniq_le. rewrite andb_true_iff, nodup_b_iff.
  rewrite (forallb_Forall _ (fun x => 0 < x <= m)); [reflexivity | intros; lia].
Qed.
Lemma uniq_lt_b_iff : forall l m, uniq_lt_b l m = true <-> uniq_lt l m.
Proof.
  intros. unfold uniq_lt_b, uniq_lt. rewrite andb_true_iff, nodup_b_iff.
  rewrite (forallb_Forall _ (fun x => 0 <= x < m)); [reflexivity | intros; lia].
Qed.

Lemma aligned_b_iff : forall g, aligned_b g = true <-> aligned g.
Proof.
  intros g. unfold aligned_b, aligned. destruct (sg_del g); cbn [orb].
  - split; [intros _ H; discriminate | reflexivity].
  - rewrite !andb_true_iff. split.
    + intros [[H1 H2] H3] _. lia.
    + intros H. specialize (H eq_refl). lia.
Qed.

Lemma disjoint2_b_iff : forall a b, disjoint2_b a b = true <-> disjoint2 a b.
Proof.
  intros a b. unfold disjoint2_b, disjoint2.
  destruct (sg_del a); cbn [orb]; [split; [intros _ H; discriminate | reflexivity]|].
  destruct (sg_del b); cbn [orb]; [split; [intros _ _ H; discriminate | reflexivity]|].
  destruct (Z.eqb_spec (sg_eng a) (sg_eng b)) as [E|E]; cbn [negb orb].
  - rewrite orb_true_iff. split; [intros H _ _ _; lia | intros H; specialize (H eq_refl eq_refl E); lia].
  - split; [intros _ _ _ H; contradiction | reflexivity].
Qed.

Lemma pairwise_b_iff : forall {A} (f : A -> A -> bool) (P : A -> A -> Prop) l,
  (forall x y, f x y = true <-> P x y) -> (pairwise_b f l = true <-> ForallOrdPairs P l).
Proof.
  intros A f P l H. induction l as [|x r IH]; cbn [pairwise_b].
  - split; [constructor | reflexivity].
  - rewrite andb_true_iff, IH, (forallb_Forall (f x) (P x)) by (intro; apply H).
    split; [intros [? ?]; constructor; assumption | intros X; inversion X; auto].
Qed.

Lemma key_le_iff : forall a b, key_le a b = true <-> key_leP a b.
Proof. intros. unfold key_le, key_lt, key_leP. lia. Qed.

Lemma sorted_b_iff : forall l, sorted_b l = true <-> LocallySorted key_leP l.
Proof.
  induction l as [|x r IH].
  - split; [constructor | reflexivity].
  - destruct r as [|y r'].
    + split; [constructor | reflexivity].
    + change (sorted_b (x :: y :: r')) with (key_le x y && sorted_b (y :: r')).
      rewrite andb_true_iff, IH, key_le_iff. split.
      * intros [? ?]. constructor; assumption.
      * intros X. inversion X; subst. auto.
Qed.

Lemma groups_ok_b_iff : forall l, groups_ok_b l = true <-> groups_ok l.
Proof.
  intros. unfold groups_ok_b, groups_ok. rewrite !andb_true_iff, sorted_b_iff.
  rewrite (forallb_Forall _ _ l aligned_b_iff), (pairwise_b_iff _ _ l disjoint2_b_iff). tauto.
Qed.

Lemma refs_ok_b_iff : forall c p, refs_ok_b c p = true <-> refs_ok c p.
Proof.
  intros c p. unfold refs_ok_b, refs_ok. rewrite forallb_forall. split.
  - intros H g s Hg Hs. specialize (H g Hg). rewrite forallb_forall in H. specialize (H s Hs).
    rewrite !andb_true_iff in H. destruct H as [[H1 H2] H3].
    apply existsb_eqb_In in H1. split; [assumption|]. split.
    + destruct (sh_owners s); [discriminate | discriminate].
    + apply (forallb_Forall _ (fun o => 0 <= o < ptnum c)) in H3; [assumption | intros; lia].
  - intros H g Hg. rewrite forallb_forall. intros s Hs. destruct (H g s Hg Hs) as [H1 [H2 H3]].
    rewrite !andb_true_iff. split; [split|].
    + apply existsb_eqb_In. assumption.
    + destruct (sh_owners s); [contradiction | reflexivity].
    + apply (forallb_Forall _ (fun o => 0 <= o < ptnum c)); [intros; lia | assumption].
Qed.

Lemma default_ok_b_iff : forall c d, default_ok_b c d = true <-> default_ok c d.
Proof.
  intros. unfold default_ok_b, default_ok. rewrite orb_true_iff, Z.eqb_eq, existsb_pair_In. reflexivity.
Qed.

Theorem wf_b_iff : forall c, wf_b c = true <-> wf c.
Proof.
  intros c. unfold wf_b. rewrite !andb_true_iff.
  rewrite (forallb_Forall _ (fun p => groups_ok (rp_sgs p))) by (intro; apply groups_ok_b_iff).
  rewrite !uniq_le_b_iff, uniq_lt_b_iff, nodup_b_iff, nodup_pairs_b_iff.
  rewrite (forallb_Forall _ (fun p => In (rp_db p) (map db_name (dbs c)))) by (intro; apply existsb_eqb_In).
  rewrite (forallb_Forall _ (refs_ok c)) by (intro; apply refs_ok_b_iff).
  rewrite (forallb_Forall _ (default_ok c)) by (intro; apply default_ok_b_iff).
  rewrite (forallb_Forall _ (fun e => Z.of_nat (length (snd e)) = ptnum c)) by (intro; apply Z.eqb_eq).
  rewrite (forallb_Forall _ (fun x => 0 <= x)) by (intro; lia).
  rewrite (forallb_Forall _ (fun p => 0 < rp_sgdur p)) by (intro; lia).
  rewrite (forallb_Forall _ (fun p => rp_nm p = rp_name p)) by (intro; apply Z.eqb_eq).
  split.
  - intros H. decompose [and] H. constructor; assumption.
  - intros [? ? ? ? ? ? ? ? ? ? ? ? ? ? ? ?]. tauto.
Qed.

Lemma covered_pol_b_iff : forall p, covered_pol_b p = true <-> covered_pol p.
Proof.
  intros p. unfold covered_pol_b, covered_pol, ig_of. rewrite forallb_forall. split.
  - intros H g s ig i Hg Hs Hig Hi E. specialize (H g Hg). rewrite forallb_forall in H. specialize (H s Hs).
    rewrite forallb_forall in H. assert (X : (sg_end g <=? ig_end ig) = true); [|lia].
    apply H. apply filter_In. split; [exact Hig|]. apply existsb_exists. exists i. split; [exact Hi | lia].
  - intros H g Hg. rewrite forallb_forall. intros s Hs. rewrite forallb_forall. intros ig Hig.
    apply filter_In in Hig. destruct Hig as [Hig Hex]. apply existsb_exists in Hex. destruct Hex as [i [Hi E]].
    assert (sg_end g <= ig_end ig); [|lia]. apply (H g s ig i); auto. lia.
Qed.

Lemma covered_b_iff : forall c, covered_b c = true <-> covered c.
Proof. intros c. unfold covered_b, covered. apply forallb_Forall. apply covered_pol_b_iff. Qed.
