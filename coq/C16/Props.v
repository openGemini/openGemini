(* C16 property theorems: statements with Print Assumptions and non-vacuity Examples; proofs of more than a few lines are in Proofs*.v.
   apply true true on a catalogue with rekey = safecancel = true ([repaired]) is the repaired step function: new shard groups
   clipped to their live neighbours, dropping the default policy clears the default name, a rename moves the map entry, a
   cancelled deletion does not revive a group under a live one. The variants without a repair are refuted in Refuted.v.
   [good] = wf (the statement) + all_aligned (every group, deleted or not, lies in one cell: needed to revive a group) +
   covered (the C14 clause) + repaired; it is the inductive invariant. *)
From Coq Require Import ZArith List Bool Lia.
From OG Require Import C16.Model C16.Wf C16.Proofs C16.ProofsCmd C16.ProofsSg C16.ProofsNew C16.ProofsInv C16.ProofsRun C16.ProofsIds C16.Order
  C16.Expand C16.ProofsExpandWf.
Import ListNotations.
Open Scope Z_scope.

(* the boolean the correspondence evaluates on dumps of the REAL catalogue is the statement *)
Theorem C16_wf_b_is_wf : forall c, wf_b c = true <-> wf c.
Proof. exact wf_b_iff. Qed.
Print Assumptions C16_wf_b_is_wf.

Theorem C16_covered_b_is_covered : forall c, covered_b c = true <-> covered c.
Proof. exact covered_b_iff. Qed.
Print Assumptions C16_covered_b_is_covered.

Theorem C16_wf_init : forall per sc cl sf rk sca, wf (init_cat_o per sc cl sf rk sca).
Proof. exact wf_init_o. Qed.
Print Assumptions C16_wf_init.

Theorem C16_good_init : forall per sc cl sf, good (init_cat_o per sc cl sf true true).
Proof. exact good_init. Qed.
Print Assumptions C16_good_init.

(* every one of the 24 modelled commands, with any arguments (valid or not), preserves well-formedness:
   live groups of a policy and engine type pairwise disjoint, inside one cell of their creation-time duration, list sorted;
   all ids unique, positive, at most their counters; every shard's index and owner partitions exist; defaults resolve;
   every policy is stored under its name. *)
Theorem C16_wf_preserved : forall c x, wf c -> all_aligned c -> repaired c -> env_ok c x -> wf (fst (apply_repaired c x)).
Proof. exact wf_step. Qed.
Print Assumptions C16_wf_preserved.

(* ... and the whole invariant is inductive *)
Theorem C16_good_preserved : forall c x, good c -> env_ok c x -> good (fst (apply_repaired c x)).
Proof. exact good_step. Qed.
Print Assumptions C16_good_preserved.

(* after every single step of every command sequence *)
Theorem C16_wf_every_prefix : forall xs k per sc cl sf, env_run (init_cat_o per sc cl sf true true) xs ->
  wf (run true true (init_cat_o per sc cl sf true true) (firstn k xs)).
Proof. intros xs k per sc cl sf E. apply (good_run_prefix xs _ k (good_init per sc cl sf) E). Qed.
Print Assumptions C16_wf_every_prefix.

(* cancelling the deletion of a shard group (DeleteShardGroup with CancelDelete) behind the interval-overlap guard of the code
   (/repo b51128b: no live group of the same engine kind overlaps the revived span, wherever it lies in it): the live groups stay
   pairwise disjoint, sorted, inside their cells - whatever durations the groups were created under. A guard that only looks at who
   serves the start of the revived group is refuted in Refuted.v (C16_cancel_start_only_refuted). *)
Theorem C16_cancel_keeps_disjoint : forall c db rp id, wf c -> all_aligned c -> safecancel c = true ->
  wf (fst (cancel_delete_sg c db rp id)).
Proof. exact wf_cancel_delete_sg. Qed.
Print Assumptions C16_cancel_keeps_disjoint.

(* the C14 clause as a clause about the catalogue: the index group of every shard does not end before the shard's group;
   preserved by every command (index groups created as in /repo 76d3742) *)
Theorem C16_cover_preserved : forall c x, wf c -> covered c -> env_ok c x -> covered (fst (apply_repaired c x)).
Proof. exact covered_step. Qed.
Print Assumptions C16_cover_preserved.

Theorem C16_cover_every_prefix : forall xs k per sc cl sf, env_run (init_cat_o per sc cl sf true true) xs ->
  covered (run true true (init_cat_o per sc cl sf true true) (firstn k xs)).
Proof. intros xs k per sc cl sf E. apply (good_run_prefix xs _ k (good_init per sc cl sf) E). Qed.
Print Assumptions C16_cover_every_prefix.

(* with group starts clamped to models.MinNanoTime (/repo 3695b47) the catalogue stays representable in int64 nanoseconds, so
   the hypothesis env_ok makes about Restore holds by itself: env_run0 = env_run without the clause for Restore *)
Theorem C16_representable_preserved : forall c x, wf c -> clampst c = true -> representable c -> env_ok c x ->
  representable (fst (apply_repaired c x)).
Proof. exact representable_step. Qed.
Print Assumptions C16_representable_preserved.

Theorem C16_clamped_restore_needs_no_assumption : forall xs c, good c -> clampst c = true -> representable c ->
  env_run0 c xs -> env_run c xs.
Proof.
  induction xs as [|x r IH]; intros c G CL R E; cbn [env_run env_run0] in *; [exact I|]. destruct E as [E1 E2].
  assert (E1' : env_ok c x) by (destruct x; try exact E1; exact R). split; [exact E1'|].
  apply IH; [apply good_step; assumption | | | exact E2].
  - pose proof (apply_switches true true c x) as S. inversion S as [[S1 S2 S3 S4]]. rewrite S1. exact CL.
  - destruct G as (W & _). apply representable_step; assumption.
Qed.
Print Assumptions C16_clamped_restore_needs_no_assumption.

(* a command that fails leaves the catalogue unchanged (every variant in which CreateMeasurement checks its schema list
   first, /repo f21700b; without it: Refuted.v, C16_half_applied_refuted) *)
Theorem C16_failed_identity : forall clip cleardef c x, schemafirst c = true ->
  snd (apply clip cleardef c x) = false -> fst (apply clip cleardef c x) = c.
Proof. exact failed_is_identity. Qed.
Print Assumptions C16_failed_identity.

(* id counters never decrease (both variants of the step function) *)
Theorem C16_counters_monotone : forall clip cleardef c x, 0 <= ptnum c -> 0 <= ptper c ->
  counters_le c (fst (apply clip cleardef c x)).
Proof. intros clip cleardef c x Hp _. exact (counters_mono clip cleardef c x Hp). Qed.
Print Assumptions C16_counters_monotone.

(* a command only introduces identifiers above everything issued so far (kinds: shard group, shard, index group, index,
   measurement, node) *)
Theorem C16_new_ids_fresh : forall c x k id, wf c ->
  In id (ids k (fst (apply_repaired c x))) -> In id (ids k c) \/ issued k c < id.
Proof. intros c x k id H. exact (step_ids c x H k id). Qed.
Print Assumptions C16_new_ids_fresh.

(* identifiers are never handed out twice, even after deletions: an identifier present at some point and gone after the
   commands xs is absent after any continuation ys *)
Theorem C16_ids_never_reused : forall xs ys c k id, good c -> env_run c (xs ++ ys) ->
  In id (ids k c) -> ~ In id (ids k (run true true c xs)) -> ~ In id (ids k (run true true c (xs ++ ys))).
Proof. exact ids_never_reused. Qed.
Print Assumptions C16_ids_never_reused.

(* the repaired creation: the new group contains the instant, is inside one cell, and is disjoint from every live group *)
Theorem C16_new_group_disjoint : forall c p ig t eng,
  existsb (fun g => covers g t eng) (rp_sgs p) = false -> 0 < rp_sgdur p -> MINNANO <= t < MAXNANO1 ->
  aligned_any (new_sgroup true c p ig t eng) /\ Forall (disjoint2 (new_sgroup true c p ig t eng)) (rp_sgs p).
Proof. exact new_sgroup_ok. Qed.
Print Assumptions C16_new_group_disjoint.

(* the creation without clipping (the code before /repo 2b62e48) also preserves well-formedness as long as the live groups of that
   engine type are whole cells of the policy's current shard-group duration, i.e. the duration was not changed since they were
   created. PARTIAL with respect to the statement: without that hypothesis it is refuted (Refuted.v, C16_overlap_refuted). *)
Theorem C16_disjoint_partial : forall c db rp t eng, wf c -> MINNANO <= t < MAXNANO1 ->
  (forall p, get_pol c db rp = Some p -> full_cells p eng) ->
  wf (fst (create_sg false c db rp t eng)).
Proof.
  intros c db rp t eng H Ht Hfull. apply wf_create_sg_gen; [exact H|]. intros p ig Eg Ecov.
  destruct (get_pol_spec _ _ _ _ Eg) as (_ & Hp & _).
  pose proof (wf_dur _ H) as DUR. rewrite Forall_forall in DUR.
  destruct (new_sgroup_ok_unclipped c p ig t eng Ecov (DUR p Hp) Ht (Hfull p Eg)) as [A B].
  split; [apply aligned_any_aligned; exact A | exact B].
Qed.
Print Assumptions C16_disjoint_partial.

(* C15 on this command model: the step function is a function of (state, command) - replicas applying the same log hold the
   same state - and a snapshot/restore inserted at any position of a log is invisible, provided every instant of the catalogue
   at that position is representable as int64 nanoseconds (both variants of the step function) *)
Theorem C16_restore_transparent : forall clip cleardef l1 l2 c, representable (run clip cleardef c l1) ->
  run clip cleardef c (l1 ++ Restore :: l2) = run clip cleardef c (l1 ++ l2).
Proof. intros clip cd l1 l2 c R. rewrite !run_app. cbn [run apply fst ok]. rewrite restore_state_id by exact R. reflexivity. Qed.
Print Assumptions C16_restore_transparent.

(* C15 on this command model: explicit map-iteration-order oracles (Order.v).
   shard_type: the sharding type of a measurement; range_create: the unmodelled RANGE branch, abstract; an oracle returns some
   element of a non-empty collection. Under uniform sharding one step gives the same state AND the same result for any two
   valid oracles, for all 24 commands (only CreateShardGroup and CreateMeasurement consult the oracle). *)
Theorem apply_order_independent : forall shard_type range_create clip cleardef c x o1 o2,
  valid o1 -> valid o2 -> uniform_sharding shard_type c ->
  applyO shard_type range_create clip cleardef o1 c x = applyO shard_type range_create clip cleardef o2 c x.
Proof. exact apply_order_independent_lemma. Qed.
Print Assumptions apply_order_independent.

(* two replicas applying the same log, each under its own sequence of oracles, end in the same state and return the same
   result for every command, provided uniform sharding holds in the states one of them goes through (the code does not
   maintain that invariant by itself: see the note in Order.v) *)
Theorem C15_convergence : forall shard_type range_create clip cleardef xs os1 os2 c,
  length os1 = length xs -> length os2 = length xs -> Forall valid os1 -> Forall valid os2 ->
  uniform_along shard_type range_create clip cleardef os1 c xs ->
  runO shard_type range_create clip cleardef os1 c xs = runO shard_type range_create clip cleardef os2 c xs.
Proof. exact convergence_lemma. Qed.
Print Assumptions C15_convergence.

(* for the HASH-only catalogues of the correspondence the oracle step IS the step function compared with the real code *)
Theorem C15_oracle_step_is_model_step : forall range_create clip cleardef o c x, valid o ->
  applyO (fun _ => 0) range_create clip cleardef o c x = apply clip cleardef c x.
Proof. intros. apply applyO_hash; [assumption | reflexivity]. Qed.
Print Assumptions C15_oracle_step_is_model_step.

(* ExpandGroups (outside [cmd]; see Expand.v): one expansion keeps every identifier and adds only identifiers above the counters,
   and counters do not decrease - the two step facts C16_ids_never_reused rests on for [cmd]. No theorem here states non-reuse
   along runs of [xcmd]. *)
Theorem C16_expand_ids_fresh : forall c k id, 0 <= ptnum c ->
  In id (ids k (expand_groups c)) -> In id (ids k c) \/ issued k c < id.
Proof. exact expand_ids_step. Qed.
Print Assumptions C16_expand_ids_fresh.

Theorem C16_expand_counters_monotone : forall c, 0 <= ptnum c -> counters_le c (expand_groups c).
Proof. exact expand_counters_le. Qed.
Print Assumptions C16_expand_counters_monotone.

(* ExpandGroups preserves the whole invariant: well-formedness (new shards and indexes get unique ids below the raised counters,
   name partitions that exist and an index of their own policy), the C14 clause (the index group looked up or created for a shard
   does not end before the shard's group) and the one-cell shape of every group *)
Theorem C16_expand_preserves_good : forall c, good c -> good (expand_groups c).
Proof. exact good_expand_groups. Qed.
Print Assumptions C16_expand_preserves_good.

(* hence every command of the correspondence - the 24 of [cmd], the expansion, a node join on a store that expands - preserves it *)
Theorem C16_good_preserved_x : forall c x, good c -> env_okx c x -> good (fst (applyx true true c x)).
Proof. exact good_stepx. Qed.
Print Assumptions C16_good_preserved_x.

Theorem C16_wf_every_prefix_x : forall xs k per sc cl sf, env_runx (init_cat_o per sc cl sf true true) xs ->
  wf (runx (init_cat_o per sc cl sf true true) (firstn k xs)) /\ covered (runx (init_cat_o per sc cl sf true true) (firstn k xs)).
Proof.
  intros xs k per sc cl sf E. destruct (good_runx_prefix xs _ k (good_init per sc cl sf) E) as (W & _ & C & _). split; assumption.
Qed.
Print Assumptions C16_wf_every_prefix_x.

Example C16_example_x :
  let xs := [Base (CreateNode 1 1); Base (CreateDb 1 1 0 HOUR); Base (CreateMst 1 1 1); Base (CreateSg 1 1 1700042400000000005 0);
             XJoin 2 2; Base (CreateSg 1 1 1700053200000000000 1); XJoin 3 3; XExpand; Base (PruneSg 2); Base Restore] in
  env_runx (init_cat_rep 2 true) xs /\ wf_b (runx (init_cat_rep 2 true) xs) = true /\ covered_b (runx (init_cat_rep 2 true) xs) = true.
Proof. cbv zeta. split; [apply env_runx_b_sound; vm_compute; reflexivity | vm_compute; split; reflexivity]. Qed.

(* non-vacuity: the environment hypotheses are satisfiable on a run that creates, alters, renames, deletes, revives and prunes *)
Definition example_run : list cmd :=
  [CreateNode 1 1; CreateDb 1 1 0 HOUR; CreateMst 1 1 1; CreateSg 1 1 1700042400000000005 0;
   UpdateRp 1 1 None (Some DAY) false; CreateSg 1 1 1700053200000000000 0; CreateNode 2 2; CreateSg 1 1 0 0;
   DeleteSg 1 1 1; CreateSg 1 1 1700042400000000005 0; CancelDeleteSg 1 1 1; PruneSg 1; PruneIg 77; Restore;
   CreateMstBad 1 1 2; RenameRp 1 1 2 None None false; RenameRp 1 0 0 None None false; SetDefault 1 2; RemoveNode 1; CreateSg 1 0 MINNANO 1; Restore;
   MarkRp 1 2; DropRp 1 2; CreateSg 1 0 5 0; DropDb 3].

Example C16_example_env : env_run (init_cat_rep 1 true) example_run.
Proof. apply env_run_b_sound. vm_compute. reflexivity. Qed.

Example C16_example_env0 : env_run0 (init_cat_rep 1 true) example_run /\ representable (init_cat_rep 1 true).
Proof. split; [apply env_run_env_run0; exact C16_example_env | constructor]. Qed.

Example C16_example_state :
  let c := run true true (init_cat_rep 1 true) example_run in
  wf_b c = true /\ covered_b c = true /\ map db_default (dbs c) = [0] /\ map rp_name (pols c) = [0].
Proof. vm_compute. repeat split. Qed.
