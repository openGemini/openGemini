(* C16: two further invariants of the repaired step function.
   all_aligned - EVERY group (deleted or not) is a non-empty span inside one cell of its creation-time duration: groups are
                 born that way and spans never change. Needed to revive a deleted group (CancelDeleteSg).
   covered     - the index group holding a shard's index does not end before the shard's own group (the C14 invariant, /repo
                 76d3742, seen from the catalogue).
   Both follow the origin of every group: but for the creation of a shard group, a measurement or a node and for Restore, a
   command only keeps, marks or drops what the policies hold ([keeps]); ProofsIds.v and C15/Uniform.v read the freshness of
   identifiers and the preservation of uniform sharding off the same description. *)
From Coq Require Import ZArith List Bool Lia.
From OG Require Import C16.Model C16.Wf C16.Lists C16.Proofs C16.ProofsCmd C16.ProofsSg C16.ProofsNew.
Import ListNotations.
Open Scope Z_scope.

Definition from {A} (R : A -> A -> Prop) (l l' : list A) : Prop := forall y, In y l' -> exists x, In x l /\ R x y.

Lemma from_incl : forall {A} (R : A -> A -> Prop) l l1 l', from R l l1 -> incl l' l1 -> from R l l'.
Proof. intros A R l l1 l' F I y Hy. apply F, I, Hy. Qed.

Lemma from_map : forall {A} (R : A -> A -> Prop) f l, (forall x, R x (f x)) -> from R l (map f l).
Proof. intros A R f l H y Hy. apply in_map_iff in Hy. destruct Hy as [x [<- Hx]]. exists x. auto. Qed.

Lemma from_refl : forall {A} (R : A -> A -> Prop) l, (forall x, R x x) -> from R l l.
Proof. intros A R l H y Hy. exists y. auto. Qed.

Lemma from_updf : forall {A} (R : A -> A -> Prop) P f l, (forall x, R x x) -> (forall x, R x (f x)) -> from R l (upd_first P f l).
Proof. intros A R P f l Hr Hf y Hy. apply updf_In in Hy. destruct Hy as [Hy|[x [Hx [_ ->]]]]; [exists y | exists x]; auto. Qed.

Definition ig_orig (g g' : igroup) : Prop :=
  ig_id g' = ig_id g /\ ig_start g' = ig_start g /\ ig_end g' = ig_end g /\ map ix_id (ig_indexes g') = map ix_id (ig_indexes g).
Definition ms_orig (m m' : mst) : Prop := m' = m \/ m' = mark_one m.
Definition pol_from (p p' : policy) : Prop := from sg_sim0 (rp_sgs p) (rp_sgs p') /\ from ig_orig (rp_igs p) (rp_igs p').
Definition pol_keep (p p' : policy) : Prop := pol_from p p' /\ from ms_orig (rp_msts p) (rp_msts p').
Definition pols_from (c c' : cat) : Prop :=
  forall p', In p' (pols c') -> (rp_sgs p' = [] /\ rp_igs p' = []) \/ exists p, In p (pols c) /\ pol_from p p'.
(* what a command that issues no identifier does: every policy afterwards is a policy from before, possibly with groups, index
   groups or measurements marked or dropped, or is new and empty; no node appears *)
Definition keeps (c c' : cat) : Prop :=
  (forall p', In p' (pols c') -> (rp_sgs p' = [] /\ rp_igs p' = [] /\ rp_msts p' = []) \/ exists p, In p (pols c) /\ pol_keep p p') /\
  incl (node_ids c') (node_ids c).

Lemma ig_orig_refl : forall g, ig_orig g g. Proof. intros. unfold ig_orig. tauto. Qed.
Lemma ms_orig_refl : forall m, ms_orig m m. Proof. intros. left. reflexivity. Qed.

Lemma pol_keep_msts : forall p p', rp_sgs p' = rp_sgs p -> rp_igs p' = rp_igs p -> from ms_orig (rp_msts p) (rp_msts p') -> pol_keep p p'.
Proof.
  intros p p' E1 E2 M. split; [split|exact M]; [rewrite E1; apply from_refl, sg_sim0_refl | rewrite E2; apply from_refl, ig_orig_refl].
Qed.
Lemma pol_keep_same : forall p p', rp_sgs p' = rp_sgs p -> rp_igs p' = rp_igs p -> rp_msts p' = rp_msts p -> pol_keep p p'.
Proof. intros p p' E1 E2 E3. apply pol_keep_msts; [exact E1 | exact E2|]. rewrite E3. apply from_refl, ms_orig_refl. Qed.
Lemma pol_keep_refl : forall p, pol_keep p p. Proof. intros. apply pol_keep_same; reflexivity. Qed.
Lemma pol_from_refl : forall p, pol_from p p. Proof. intros. apply pol_keep_refl. Qed.

Lemma keeps_from : forall c c', keeps c c' -> pols_from c c'.
Proof. intros c c' [K _] p' Hp'. destruct (K p' Hp') as [(E1 & E2 & _)|(p & Hp & F & _)]; [left; tauto | right; exists p; tauto]. Qed.

Lemma pols_from_eq : forall c c', pols c' = pols c -> pols_from c c'.
Proof. intros c c' E p' Hp'. right. exists p'. rewrite E in Hp'. split; [exact Hp' | apply pol_from_refl]. Qed.

Lemma pols_from_updf : forall c c' P g, pols c' = upd_first P g (pols c) -> (forall q, pol_from q (g q)) -> pols_from c c'.
Proof.
  intros c c' P g E Hg p' Hp'. right. rewrite E in Hp'. apply updf_In in Hp'. destruct Hp' as [Hp'|[q [Hq [_ ->]]]].
  - exists p'. split; [exact Hp' | apply pol_from_refl].
  - exists q. split; [exact Hq | apply Hg].
Qed.

Lemma keeps_incl : forall c c', incl (pols c') (pols c) -> nodes c' = nodes c -> keeps c c'.
Proof.
  intros c c' I En. split; [|unfold node_ids; rewrite En; apply incl_refl].
  intros p' Hp'. right. exists p'. split; [apply I; exact Hp' | apply pol_keep_refl].
Qed.

Lemma keeps_eq : forall c c', pols c' = pols c -> nodes c' = nodes c -> keeps c c'.
Proof. intros c c' E. apply keeps_incl. rewrite E. apply incl_refl. Qed.

Lemma keeps_filter : forall c c' f, pols c' = filter f (pols c) -> nodes c' = nodes c -> keeps c c'.
Proof. intros c c' f E. apply keeps_incl. rewrite E. apply incl_filter. Qed.

Lemma keeps_snoc : forall c c' db n d sgd igd, pols c' = pols c ++ [new_policy db n d sgd igd] -> nodes c' = nodes c -> keeps c c'.
Proof.
  intros c c' db n d sgd igd E En. split; [|unfold node_ids; rewrite En; apply incl_refl].
  intros p' Hp'. rewrite E in Hp'. apply in_app_iff in Hp'. destruct Hp' as [Hp'|[<-|[]]].
  - right. exists p'. split; [exact Hp' | apply pol_keep_refl].
  - left. repeat split.
Qed.

Lemma keeps_updf : forall c c' P g l, pols c' = upd_first P g l -> incl l (pols c) -> nodes c' = nodes c ->
  (forall q, pol_keep q (g q)) -> keeps c c'.
Proof.
  intros c c' P g l E I En Hg. split; [|unfold node_ids; rewrite En; apply incl_refl].
  intros p' Hp'. right. rewrite E in Hp'. apply updf_In in Hp'. destruct Hp' as [Hp'|[q [Hq [_ ->]]]].
  - exists p'. split; [apply I; exact Hp' | apply pol_keep_refl].
  - exists q. split; [apply I; exact Hq | apply Hg].
Qed.

Lemma keeps_map : forall c c' g, pols c' = map g (pols c) -> nodes c' = nodes c -> (forall q, pol_keep q (g q)) -> keeps c c'.
Proof.
  intros c c' g E En Hg. split; [|unfold node_ids; rewrite En; apply incl_refl].
  intros p' Hp'. right. rewrite E in Hp'. apply in_map_iff in Hp'. destruct Hp' as [q [<- Hq]]. exists q. split; [exact Hq | apply Hg].
Qed.

Lemma pol_keep_sgs : forall q l, from sg_sim0 (rp_sgs q) l -> pol_keep q (pol_set_sgs q l).
Proof. intros q l F. split; [split; [exact F | apply from_refl, ig_orig_refl] | apply from_refl, ms_orig_refl]. Qed.

Lemma pol_keep_igs : forall q l, from ig_orig (rp_igs q) l -> pol_keep q (pol_set_igs q l).
Proof. intros q l F. split; [split; [apply from_refl, sg_sim0_refl | exact F] | apply from_refl, ms_orig_refl]. Qed.

Lemma ig_orig_prune_mark : forall id g, ig_orig g (prune_mark_ig id g).
Proof.
  intros. unfold prune_mark_ig. destruct (_ && _); [|apply ig_orig_refl]. unfold ig_orig. cbn. repeat split.
  apply updf_map_same. intros x _. destruct (ix_id x =? id); reflexivity.
Qed.

Lemma pol_keep_prune_sg : forall c id q, pol_keep q (prune_sg_pol c id q).
Proof.
  intros c id q. unfold prune_sg_pol.
  assert (S : from sg_sim0 (rp_sgs q) (filter (fun g => negb (sg_gone g)) (map (prune_mark_sg id) (rp_sgs q)))).
  { eapply from_incl; [apply from_map; intros g; apply sg_sim_prune_mark | apply incl_filter]. }
  destruct (_ && _); [|apply pol_keep_sgs; exact S].
  split; [split; [exact S | apply from_refl, ig_orig_refl]|]. cbn [rp_msts pol_set_msts pol_set_sgs]. apply from_map.
  intros x. unfold ms_orig. destruct (assoc (ms_name x) (rp_vers q)); [destruct (ms_ver x =? z)|]; auto.
Qed.

Lemma pol_keep_prune_ig : forall id q, pol_keep q (prune_ig_pol id q).
Proof.
  intros id q. apply pol_keep_igs. eapply from_incl; [apply from_map, ig_orig_prune_mark | apply incl_filter].
Qed.

Lemma pol_from_aligned : forall p p', pol_from p p' -> (forall g, In g (rp_sgs p) -> aligned_any g) -> forall g', In g' (rp_sgs p') -> aligned_any g'.
Proof.
  intros p p' [A _] Hp g' Hg'. destruct (A g' Hg') as [g [Hg (_ & E1 & E2 & _ & E3 & _)]]. specialize (Hp g Hg).
  unfold aligned_any in *. rewrite E1, E2, E3. exact Hp.
Qed.

Lemma pol_from_covered : forall p p', pol_from p p' -> covered_pol p -> covered_pol p'.
Proof.
  intros p p' [A B] Hc g' s' ig' i' Hg' Hs' Hig' Hi' E.
  destruct (A g' Hg') as [g [Hg (_ & _ & E2 & _ & _ & E4)]]. apply sh_sim_indexes in E4. destruct (B ig' Hig') as [ig [Hig (_ & _ & F1 & F2)]].
  rewrite E2, F1.
  assert (S : In (sh_index s') (map sh_index (sg_shards g))) by (rewrite <- E4; apply in_map; exact Hs').
  apply in_map_iff in S. destruct S as [s [Es Hs]].
  assert (I : In (ix_id i') (map ix_id (ig_indexes ig))) by (rewrite <- F2; apply in_map; exact Hi').
  apply in_map_iff in I. destruct I as [i [Ei Hi]].
  apply (Hc g s ig i Hg Hs Hig Hi). congruence.
Qed.

Lemma all_aligned_from : forall c c', pols_from c c' -> all_aligned c -> all_aligned c'.
Proof.
  intros c c' F A p' g' Hp' Hg'. destruct (F p' Hp') as [[E _]|[p [Hp Fp]]]; [rewrite E in Hg'; contradiction|].
  eapply pol_from_aligned; [exact Fp | intros g Hg; exact (A p g Hp Hg) | exact Hg'].
Qed.

Lemma covered_from : forall c c', pols_from c c' -> covered c -> covered c'.
Proof.
  intros c c' F C. unfold covered in *. rewrite Forall_forall in *. intros p' Hp'.
  destruct (F p' Hp') as [[E _]|[p [Hp Fp]]].
  - intros g s ig i Hg. rewrite E in Hg. contradiction.
  - eapply pol_from_covered; [exact Fp | exact (C p Hp)].
Qed.

Ltac pk_meta := intros; apply pol_keep_same; reflexivity.

Definition is_create_sg (x : cmd) : bool := match x with CreateSg _ _ _ _ => true | _ => false end.
Definition is_keeping (x : cmd) : bool :=
  match x with CreateSg _ _ _ _ | CreateMst _ _ _ | CreateMstBad _ _ _ | CreateNode _ _ | Restore => false | _ => true end.

Lemma keeps_step : forall clip cd c x, is_keeping x = true -> keeps c (fst (apply clip cd c x)).
Proof.
  intros clip cd c x Hx. destruct x; try discriminate; cbn [apply].
  - unfold create_db. destruct (db =? 0); [apply keeps_eq; reflexivity|]. destruct (ptnum c =? 0); [apply keeps_eq; reflexivity|].
    destruct (find_db c db) as [y|]; [destruct (db_mark y); apply keeps_eq; reflexivity|].
    destruct (rp =? 0); [apply keeps_eq; reflexivity|]. destruct (negb _); [apply keeps_eq; reflexivity|].
    cbn [fst ok]. eapply keeps_snoc; reflexivity.
  - unfold mark_db. destruct (find_db c db) as [y|]; [|apply keeps_eq; reflexivity]. destruct (db_mark y); apply keeps_eq; reflexivity.
  - unfold drop_db. destruct (find_db c db); [|apply keeps_eq; reflexivity]. cbn [fst ok]. eapply keeps_filter; reflexivity.
  - unfold create_rp. destruct (get_db c db); [|apply keeps_eq; reflexivity]. destruct (rp =? 0); [apply keeps_eq; reflexivity|].
    destruct (negb (spec_valid _ _)); [apply keeps_eq; reflexivity|].
    destruct (find_pol c db rp).
    { destruct (negb _); [apply keeps_eq; reflexivity|]. destruct (_ && _); apply keeps_eq; reflexivity. }
    cbn [fst ok]. destruct mkdef; eapply keeps_snoc; reflexivity.
  - unfold update_rp. destruct (get_pol c db rp) as [p|]; [|apply keeps_eq; reflexivity]. destruct (negb _); [apply keeps_eq; reflexivity|].
    cbn [fst ok]. destruct mkdef; (eapply keeps_updf; [reflexivity | apply incl_refl | reflexivity | pk_meta]).
  - unfold mark_rp. destruct (get_pol c db rp) as [p|]; [|apply keeps_eq; reflexivity]. cbn [fst ok].
    eapply keeps_updf; [reflexivity | apply incl_refl | reflexivity | pk_meta].
  - unfold drop_rp. destruct (get_db c db) as [y|]; [|apply keeps_eq; reflexivity]. cbn [fst ok].
    destruct (cd && _); eapply keeps_filter; reflexivity.
  - unfold set_default_rp. destruct (get_pol c db rp); apply keeps_eq; reflexivity.
  - unfold mark_mst. destruct (get_pol c db rp) as [p|]; [|apply keeps_eq; reflexivity].
    destruct (cur_mst p m) as [y|]; [|apply keeps_eq; reflexivity]. destruct (ms_mark y); [apply keeps_eq; reflexivity|]. cbn [fst ok].
    eapply keeps_updf; [reflexivity | apply incl_refl | reflexivity|]. intros q. apply pol_keep_msts; [reflexivity | reflexivity|].
    apply from_updf; [apply ms_orig_refl | right; reflexivity].
  - unfold drop_mst. destruct (get_pol c db rp) as [p|]; [|apply keeps_eq; reflexivity]. cbn [fst ok].
    eapply keeps_updf; [reflexivity | apply incl_refl | reflexivity|]. intros q. apply pol_keep_msts; [reflexivity | reflexivity|].
    eapply from_incl; [apply from_refl, ms_orig_refl | apply incl_filter].
  - unfold delete_sg. destruct (get_pol c db rp) as [p|]; [|apply keeps_eq; reflexivity]. cbn [fst ok].
    eapply keeps_updf; [reflexivity | apply incl_refl | reflexivity|]. intros q. apply pol_keep_sgs.
    apply from_updf; [apply sg_sim0_refl | intros g; apply sg_sim_set_del].
  - unfold prune_sg. cbn [fst ok]. eapply keeps_map; [reflexivity | reflexivity | apply pol_keep_prune_sg].
  - unfold delete_ig. destruct (get_pol c db rp) as [p|]; [|apply keeps_eq; reflexivity]. cbn [fst ok].
    eapply keeps_updf; [reflexivity | apply incl_refl | reflexivity|]. intros q. apply pol_keep_igs.
    apply from_updf; [apply ig_orig_refl | intros g; unfold ig_orig; cbn; tauto].
  - unfold prune_ig. cbn [fst ok]. eapply keeps_map; [reflexivity | reflexivity | apply pol_keep_prune_ig].
  - unfold create_ptview. destruct (existsb _ _); [apply keeps_eq; reflexivity|]. destruct (nodes c); [apply keeps_eq; reflexivity|].
    destruct (ptnum c =? 0); apply keeps_eq; reflexivity.
  - unfold update_pt. destruct (find _ (ptview c)); [|apply keeps_eq; reflexivity]. destruct (_ || _); [apply keeps_eq; reflexivity|].
    destruct (nth_error _ _); [|apply keeps_eq; reflexivity]. destruct (negb _); [apply keeps_eq; reflexivity|].
    destruct (_ && _); apply keeps_eq; reflexivity.
  - unfold rename_rp. destruct (get_db c db) as [y|]; [|apply keeps_eq; reflexivity].
    destruct (get_pol c db rp) as [p|]; [|apply keeps_eq; reflexivity].
    match goal with |- context [if ?t then err c else _] => destruct t end; [apply keeps_eq; reflexivity|].
    destruct (negb (spec_valid _ _)); [apply keeps_eq; reflexivity|].
    (* with rekey an entry stored under the new name is overwritten: a filter before the update *)
    destruct (rekey c); [destruct (mkdef || _); destruct (nn =? rp_name p) | destruct mkdef]; cbn [fst ok];
      (eapply keeps_updf; [reflexivity | apply incl_refl || apply incl_filter | reflexivity | pk_meta]).
  - unfold cancel_delete_sg. destruct (get_pol c db rp) as [p|]; [|apply keeps_eq; reflexivity].
    destruct (find _ (rp_sgs p)) as [g|]; [|apply keeps_eq; reflexivity]. destruct (negb (sg_del g)); [apply keeps_eq; reflexivity|].
    destruct (_ && _); [apply keeps_eq; reflexivity|]. cbn [fst ok].
    eapply keeps_updf; [reflexivity | apply incl_refl | reflexivity|]. intros q. apply pol_keep_sgs.
    apply from_updf; [apply sg_sim0_refl | intros g0; unfold sg_sim0; cbn; repeat split; apply sh_sim_refl].
  - unfold remove_node. split; [intros p' Hp'; right; exists p'; split; [exact Hp' | apply pol_keep_refl]|].
    unfold node_ids. cbn [fst ok nodes set_nodes]. intros i Hi. apply in_map_iff in Hi. destruct Hi as [n [<- Hn]]. apply filter_In in Hn. apply in_map. tauto.
Qed.

Lemma pols_from_add_mst : forall c p m v, pols_from c (add_mst c p m v).
Proof.
  intros. unfold add_mst, upd_pol. eapply pols_from_updf; [reflexivity|]. intros q. split; [apply from_refl, sg_sim0_refl | apply from_refl, ig_orig_refl].
Qed.

Lemma pols_from_step : forall c x, is_create_sg x = false -> (x = Restore -> restore_state c = c) ->
  pols_from c (fst (apply true true c x)).
Proof.
  intros c x Hx Hr. destruct (is_keeping x) eqn:K; [apply keeps_from, keeps_step; exact K|]. destruct x; try discriminate; cbn [apply].
  - destruct (create_mst_shape c db rp m) as [->|(p & v & _ & ->)]; [apply pols_from_eq; reflexivity | apply pols_from_add_mst].
  - unfold create_node. destruct (existsb _ _); [|destruct (existsb _ _)]; apply pols_from_eq; reflexivity.
  - cbn [fst ok]. rewrite (Hr eq_refl). apply pols_from_eq. reflexivity.
  - destruct (create_mst_bad_shape c db rp m) as [->|(p & v & _ & ->)]; [apply pols_from_eq; reflexivity | apply pols_from_add_mst].
Qed.

Lemma all_aligned_create_sg : forall c db rp t eng, wf c -> all_aligned c -> MINNANO <= t < MAXNANO1 ->
  all_aligned (fst (create_sg true c db rp t eng)).
Proof.
  intros c db rp t eng H AA Ht.
  destruct (create_sg_shape true c db rp t eng) as [->|(p & ig & isnew & Eg & Ecov & _ & ->)]; [exact AA|].
  destruct (get_pol_spec _ _ _ _ Eg) as (_ & Hp & _).
  pose proof (wf_dur _ H) as DUR. rewrite Forall_forall in DUR.
  destruct (new_sgroup_ok c p ig t eng Ecov (DUR p Hp) Ht) as [Anew _].
  intros p' g' Hp' Hg'. unfold upd_pol in Hp'. cbn [pols set_pols set_sg_counters] in Hp'. apply updf_In in Hp'.
  destruct Hp' as [Hp'|[q [Hq [Pq ->]]]]; [exact (AA p' g' Hp' Hg')|].
  cbn [sg_upd rp_sgs pol_set_sgs] in Hg'. apply In_insert_sg in Hg'. destruct Hg' as [->|Hg'].
  - exact Anew.
  - apply (AA q g' Hq). destruct isnew; exact Hg'.
Qed.

Lemma In_ix_ids_of : forall p ig i, In ig (rp_igs p) -> In i (ig_indexes ig) -> In (ix_id i) (ix_ids_of p).
Proof. intros. unfold ix_ids_of. apply in_flat_map. exists ig. split; [assumption | apply in_map; assumption]. Qed.

Lemma ix_owner_unique : forall c p ig1 ig2 i1 i2, wf c -> In p (pols c) -> In ig1 (rp_igs p) -> In ig2 (rp_igs p) ->
  In i1 (ig_indexes ig1) -> In i2 (ig_indexes ig2) -> ix_id i1 = ix_id i2 -> ig1 = ig2.
Proof.
  intros c p ig1 ig2 i1 i2 H Hp H1 H2 Hi1 Hi2 E.
  destruct (wf_ix _ H) as [ND _]. unfold ix_ids in ND.
  assert (NDp : NoDup (ix_ids_of p)).
  { clear - ND Hp. induction (pols c) as [|a l IH]; [contradiction|]. cbn in ND. destruct (NoDup_app_parts _ _ ND) as (N1 & N2 & _).
    destruct Hp as [->|Hp]; [exact N1 | apply IH; assumption]. }
  unfold ix_ids_of in NDp. clear - NDp H1 H2 Hi1 Hi2 E.
  induction (rp_igs p) as [|g l IH]; [contradiction|]. cbn in NDp. destruct (NoDup_app_parts _ _ NDp) as (N1 & N2 & D).
  destruct H1 as [->|H1], H2 as [->|H2]; [reflexivity| | |].
  - exfalso. apply (D (ix_id i1)); [apply in_map; exact Hi1|].
    rewrite E. apply in_flat_map. exists ig2. split; [exact H2 | apply in_map; exact Hi2].
  - exfalso. apply (D (ix_id i2)); [apply in_map; exact Hi2|].
    rewrite <- E. apply in_flat_map. exists ig1. split; [exact H1 | apply in_map; exact Hi1].
  - apply IH; [exact H1 | exact H2 | exact N2].
Qed.

Lemma new_sg_end_le : forall p t eng, new_sg_end true p t eng <= MAXNANO1.
Proof.
  intros. unfold new_sg_end. eapply Z.le_trans; [apply clip_hi_le|]. unfold cell_end. lia.
Qed.

Lemma covered_create_sg : forall c db rp t eng, wf c -> covered c -> MINNANO <= t < MAXNANO1 ->
  covered (fst (create_sg true c db rp t eng)).
Proof.
  intros c db rp t eng H CV Ht.
  pose proof (wf_create_sg c db rp t eng H Ht) as W'. revert W'.
  destruct (create_sg_shape true c db rp t eng) as [->|(p & ig & isnew & Eg & Ecov & Eig & ->)]; [intros _; exact CV|]. intros W'.
  pose proof (nonneg_get _ H) as NN.
  destruct (get_pol_spec _ _ _ _ Eg) as (Hfind & Hp & _). unfold find_pol in Hfind.
  destruct (ensure_ig_spec _ _ _ _ _ _ _ Eig) as (Ilen & Iold & Inew); [lia|].
  set (g := new_sgroup true c p ig t eng) in *.
  set (upd := sg_upd g ig isnew) in *.
  unfold upd_pol in *. match type of W' with wf ?cc => set (c' := cc) in * end.
  assert (Hup : In (upd p) (pols c')) by (cbn [c' pols set_sg_counters set_pols]; apply In_updf_first; exact Hfind).
  assert (Hig_in : In ig (rp_igs (upd p))).
  { unfold upd, sg_upd. destruct isnew; cbn [rp_igs pol_set_sgs pol_set_igs]; [apply In_insert_ig; left; reflexivity | apply Iold; reflexivity]. }
  assert (Hend : sg_end g <= ig_end ig).
  { cbn [g new_sgroup sg_end]. destruct isnew.
    - rewrite (Inew eq_refl). cbn [new_igroup ig_end]. pose proof (new_sg_end_le p t eng). lia.
    - apply Iold. reflexivity. }
  unfold covered in *. rewrite Forall_forall in *. intros p' Hp'.
  cbn [c' pols set_sg_counters set_pols] in Hp'. apply updf_In in Hp'. destruct Hp' as [Hp'|[q [Hq [Pq ->]]]]; [exact (CV p' Hp')|].
  assert (q = p) by (eapply find_is_pol_unique; [exact H | exact Hfind | exact Hq | exact Pq]). subst q.
  intros g' s ig' i Hg' Hs Hig' Hi E.
  unfold upd, sg_upd in Hg'. cbn [rp_sgs pol_set_sgs] in Hg'. apply In_insert_sg in Hg'. destruct Hg' as [->|Hg'].
  - (* the new group: its shards use indexes of ig *)
    cbn [g new_sgroup sg_shards] in Hs. apply in_map_iff in Hs. destruct Hs as [k [<- Hk]]. cbn [sh_index] in E.
    apply (in_zseq _ (Z.to_nat (ptnum c)) 0 k eq_refl) in Hk.
    set (i0 := nth (Z.to_nat k) (ig_indexes ig) {| ix_id := 0; ix_owners := []; ix_mark := false |}) in *.
    assert (Hi0 : In i0 (ig_indexes ig)) by (apply nth_In; lia).
    assert (ig' = ig) by (eapply (ix_owner_unique c' (upd p)); [exact W' | exact Hup | exact Hig' | exact Hig_in | exact Hi | exact Hi0 | exact E]).
    subst ig'. exact Hend.
  - pose proof (wf_refs _ H) as RR. rewrite Forall_forall in RR. destruct (RR p Hp g' s Hg' Hs) as (R1 & _).
    assert (Hold : In ig' (rp_igs p) \/ (isnew = true /\ ig' = ig)).
    { unfold upd, sg_upd in Hig'. destruct isnew; cbn [rp_igs pol_set_sgs pol_set_igs] in Hig'; [|left; exact Hig'].
      apply In_insert_ig in Hig'. destruct Hig' as [->|Hig']; [right; auto | left; exact Hig']. }
    destruct Hold as [Hold|[En ->]]; [exact (CV p Hp g' s ig' i Hg' Hs Hold Hi E)|].
    exfalso. rewrite (Inew En) in Hi. cbn [new_igroup ig_indexes] in Hi. apply in_map_iff in Hi. destruct Hi as [k [<- Hk]].
    cbn [ix_id] in E. apply (in_zseq _ (Z.to_nat (ptnum c)) 0 k eq_refl) in Hk.
    destruct (wf_ix _ H) as [_ F]. rewrite Forall_forall in F.
    assert (In (sh_index s) (ix_ids c)) by (unfold ix_ids; apply in_flat_map; exists p; split; assumption).
    specialize (F _ H0). cbv beta in F. lia.
Qed.
