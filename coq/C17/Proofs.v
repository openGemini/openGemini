(* C17: lemmas about the specification alone: the size limit of a read, the three answers of Entries, logs of consecutive
   indexes and Append on them. *)
From Coq Require Import NArith List Bool Lia ZifyBool ZifyN.
From OG Require Import C17.Model.
Import ListNotations.
Open Scope N_scope.

Lemma rev_append_nil : forall {T} (l : list T), rev_append l [] = rev l.
Proof. intros T l. rewrite rev_append_rev. apply app_nil_r. Qed.

Lemma Forall_firstn : forall {T} (Q : T -> Prop) k l, Forall Q l -> Forall Q (firstn k l).
Proof. intros T Q k l H. revert k. induction H as [|x r Hx Hr IH]; intro k; destruct k; cbn [firstn]; auto. Qed.

Lemma Forall_skipn : forall {T} (Q : T -> Prop) k l, Forall Q l -> Forall Q (skipn k l).
Proof. intros T Q k l H. revert k. induction H as [|x r Hx Hr IH]; intro k; destruct k; cbn [skipn]; auto. Qed.

Lemma limit_from_prefix : forall l max size, exists k, limit_from max size l = firstn k l.
Proof.
  induction l as [|e r IH]; intros max size; cbn [limit_from].
  - exists 0%nat. reflexivity.
  - destruct (max <? size + entry_size e).
    + exists 0%nat. reflexivity.
    + destruct (IH max (size + entry_size e)) as [k Hk]. exists (S k). cbn [firstn]. now rewrite Hk.
Qed.

Lemma limit_size_prefix : forall max l, exists k, limit_size max l = firstn k l.
Proof.
  intros max [|e r]; cbn [limit_size].
  - exists 0%nat. reflexivity.
  - destruct (limit_from_prefix r max (entry_size e)) as [k Hk]. exists (S k). cbn [firstn]. now rewrite Hk.
Qed.

Lemma limit_size_at_least_one : forall max e r, exists t, limit_size max (e :: r) = e :: t.
Proof. intros. cbn [limit_size]. eexists. reflexivity. Qed.

Fixpoint total_size (l : list entry) : N := match l with [] => 0 | e :: r => entry_size e + total_size r end.

Lemma limit_from_all : forall l max size, size + total_size l <= max -> limit_from max size l = l.
Proof.
  induction l as [|e r IH]; intros max size H; cbn [limit_from total_size] in *; [reflexivity|].
  destruct (max <? size + entry_size e) eqn:E; [lia|]. rewrite IH; [reflexivity|lia].
Qed.

Lemma limit_size_all : forall max l, total_size l <= max -> limit_size max l = l.
Proof.
  intros max [|e r] H; cbn [limit_size total_size] in *; [reflexivity|]. now rewrite limit_from_all.
Qed.

(* the cut is exactly where the running size first exceeds max *)
Lemma limit_from_cut : forall l max size k,
  limit_from max size l = firstn k l -> (k < length l)%nat ->
  max < size + total_size (firstn (S k) l).
Proof.
  induction l as [|e r IH]; intros max size k H Hk; cbn [length] in Hk; [lia|].
  cbn [limit_from] in H. destruct (max <? size + entry_size e) eqn:E.
  - destruct k; [|cbn in H; discriminate]. cbn [firstn total_size]. lia.
  - destruct k; [cbn in H; discriminate|]. cbn [firstn] in H. injection H as H.
    specialize (IH max (size + entry_size e) k H ltac:(lia)).
    cbn [firstn total_size] in *. lia.
Qed.

Lemma s_entries_compacted : forall lo hi max l, lo < first_of l -> s_entries lo hi max l = (Compacted, []).
Proof. intros. unfold s_entries. destruct (lo <? first_of l) eqn:E; [reflexivity|lia]. Qed.

Lemma s_entries_unavailable : forall lo hi max l, first_of l <= lo -> last_of l + 1 < hi -> s_entries lo hi max l = (Unavailable, []).
Proof.
  intros. unfold s_entries. destruct (lo <? first_of l) eqn:E; [lia|].
  destruct (last_of l + 1 <? hi) eqn:E2; [reflexivity|lia].
Qed.

Lemma s_entries_ok : forall lo hi max l, first_of l <= lo -> hi <= last_of l + 1 ->
  s_entries lo hi max l = (Ok, limit_size max (slice lo hi l)).
Proof.
  intros. unfold s_entries. destruct (lo <? first_of l) eqn:E; [lia|].
  destruct (last_of l + 1 <? hi) eqn:E2; [lia|reflexivity].
Qed.

Fixpoint consec (i : N) (l : list entry) : Prop :=
  match l with [] => True | e :: r => e_index e = i /\ consec (i + 1) r end.
Definition wf_log (l : list entry) : Prop := consec (first_of l) l /\ 1 <= first_of l.

Lemma consec_app : forall a b i, consec i a -> consec (i + N.of_nat (length a)) b -> consec i (a ++ b).
Proof.
  induction a as [|e r IH]; intros b i Ha Hb; cbn [app length] in *.
  - now replace (i + N.of_nat 0) with i in Hb by lia.
  - destruct Ha as [He Hr]. split; [exact He|]. apply IH; [exact Hr|].
    now replace (i + 1 + N.of_nat (length r)) with (i + N.of_nat (S (length r))) by lia.
Qed.

Lemma consec_firstn : forall l i k, consec i l -> consec i (firstn k l).
Proof.
  induction l as [|e r IH]; intros i k H; destruct k; cbn [firstn consec] in *; auto.
  destruct H. split; auto.
Qed.

Lemma consec_nth : forall l i k e, consec i l -> nth_error l k = Some e -> e_index e = i + N.of_nat k.
Proof.
  induction l as [|x r IH]; intros i k e H Hn; destruct k; cbn in Hn; try discriminate.
  - injection Hn as <-. destruct H. lia.
  - destruct H as [_ H]. rewrite (IH _ _ _ H Hn). lia.
Qed.

Lemma consec_last : forall l i, consec i l -> l <> [] -> last_of l = i + N.of_nat (length l) - 1.
Proof.
  intros l i H Hne. unfold last_of. destruct l as [|x r]; [congruence|].
  assert (Hl : nth_error (x :: r) (length r) = Some (last (x :: r) (mkent 0 0 0 empty_pay))).
  { clear. revert x. induction r as [|y r IH]; intro x; [reflexivity|]. cbn [length nth_error]. rewrite (IH y). reflexivity. }
  rewrite (consec_nth _ _ _ _ H Hl). cbn [length]. lia.
Qed.

Lemma last_app_ne : forall (a b : list entry) d, b <> [] -> last (a ++ b) d = last b d.
Proof.
  induction a as [|x a IH]; intros b d Hb; [reflexivity|]. cbn [app]. 
  destruct (a ++ b) eqn:E; [destruct a; cbn in E; congruence|]. rewrite <- E. cbn [last]. 
  rewrite E. rewrite <- E. now apply IH.
Qed.

Lemma first_of_app : forall a b, a <> [] -> first_of (a ++ b) = first_of a.
Proof. intros [|x a] b H; [congruence|reflexivity]. Qed.

(* appending a batch that starts inside [first, last+1] keeps the log well formed, discards exactly the entries
   from the first new index on, and ends with the batch *)
Lemma s_append_wf : forall es l e0 r,
  es = e0 :: r -> wf_log l -> consec (e_index e0) es -> 1 <= e_index e0 ->
  (l = [] \/ (first_of l <= e_index e0 /\ e_index e0 <= last_of l + 1)) ->
  wf_log (s_append es l)
  /\ s_append es l = filter (fun e => e_index e <? e_index e0) l ++ es
  /\ last_of (s_append es l) = e_index e0 + N.of_nat (length es) - 1.
Proof.
  intros es l e0 r -> [Hc Hf] Hes H1 Hrange. cbn [s_append].
  assert (Hfil : firstn (N.to_nat (e_index e0 - first_of l)) l = filter (fun e => e_index e <? e_index e0) l).
  { destruct Hrange as [->|[Hlo Hhi]]; [now destruct (N.to_nat _)|].
    remember (first_of l) as f eqn:Ef. clear Ef Hf Hhi. revert f Hc Hlo.
    induction l as [|x t IH]; intros f Hc Hlo; [now destruct (N.to_nat _)|].
    destruct Hc as [Hx Ht]. cbn [filter].
    destruct (e_index x <? e_index e0) eqn:E.
    - replace (N.to_nat (e_index e0 - f)) with (S (N.to_nat (e_index e0 - (f + 1)))) by lia.
      cbn [firstn]. f_equal. apply IH; [exact Ht|lia].
    - replace (N.to_nat (e_index e0 - f)) with 0%nat by lia. cbn [firstn].
      (* every later entry has a larger index *)
      clear IH. assert (forall j, f + 1 <= j -> consec j t -> filter (fun e => e_index e <? e_index e0) t = []) as Hn.
      { clear -E Hx. induction t as [|y t IH]; intros j Hj Hc; [reflexivity|]. destruct Hc as [Hy Hc]. cbn [filter].
        destruct (e_index y <? e_index e0) eqn:E2; [lia|]. apply (IH (j + 1)); [lia|exact Hc]. }
      symmetry. apply (Hn (f + 1)); [lia|exact Ht]. }
  split; [|split].
  - destruct (firstn (N.to_nat (e_index e0 - first_of l)) l) as [|y k] eqn:Ek.
    + cbn [app]. split; cbn [first_of]; [exact Hes|exact H1].
    + unfold wf_log. assert (Hfk : first_of (y :: k) = first_of l).
      { destruct l as [|x t]; [now destruct (N.to_nat _)|]. destruct (N.to_nat _); cbn in Ek; [discriminate|]. now injection Ek as -> _. }
      rewrite first_of_app by discriminate. rewrite Hfk. split; [|exact Hf].
      apply consec_app; [rewrite <- Ek; now apply consec_firstn|].
      destruct Hrange as [->|[Hlo Hhi]]; [now destruct (N.to_nat _)|].
      assert (Hlen : length (y :: k) = N.to_nat (e_index e0 - first_of l)).
      { rewrite <- Ek. apply firstn_length_le.
        destruct l as [|x t]; [now destruct (N.to_nat _)|].
        rewrite (consec_last _ _ Hc) in Hhi by discriminate. lia. }
      rewrite Hlen. now replace (first_of l + N.of_nat (N.to_nat (e_index e0 - first_of l))) with (e_index e0) by lia.
  - now rewrite Hfil.
  - assert (Hne : firstn (N.to_nat (e_index e0 - first_of l)) l ++ e0 :: r <> []) by (now destruct (firstn _ _)).
    unfold last_of at 1. destruct (firstn (N.to_nat (e_index e0 - first_of l)) l ++ e0 :: r) eqn:E; [congruence|].
    rewrite <- E. rewrite last_app_ne by discriminate.
    change (e_index (last (e0 :: r) (mkent 0 0 0 empty_pay))) with (last_of (e0 :: r)). rewrite (consec_last _ _ Hes) by discriminate. reflexivity.
Qed.
