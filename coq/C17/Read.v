(* C17: the read path. The scan over the files is [take_scan] over their entries, and [take_scan] is limit_size of the
   slice of the abstract log. *)
From Coq Require Import NArith PeanoNat List Bool Lia ZifyBool ZifyN ZifyNat.
From OG Require Import C17.Model C17.Proofs C17.Refine C17.Inv C17.Search.
Import ListNotations.
Open Scope N_scope.

Definition nonempty (l : list entry) : bool := match l with [] => false | _ => true end.

(* the loop of allEntries on plain entries *)
Fixpoint take_scan (hi max size : N) (acc : list entry) (es : list entry) : scan_status * N * list entry :=
  match es with
  | [] => (NextFile, size, acc)
  | e :: t =>
      if hi <=? e_index e then (Stop, size, acc)
      else let size' := size + entry_size e in
           if nonempty acc && (max <? size') then (Stop, size', acc) else take_scan hi max size' (e :: acc) t
  end.

Lemma take_scan_app : forall hi max a b size acc,
  take_scan hi max size acc (a ++ b) =
  match take_scan hi max size acc a with
  | (Stop, s, c) => (Stop, s, c)
  | (NextFile, s, c) => take_scan hi max s c b
  end.
Proof.
  induction a as [|e t IH]; intros b size acc; cbn [app take_scan]; [reflexivity|].
  destruct (hi <=? e_index e); [reflexivity|].
  destruct (nonempty acc && (max <? size + entry_size e)); [reflexivity|]. apply IH.
Qed.

Lemma take_scan_limit_from : forall hi max S size acc i,
  consec i S -> acc <> [] ->
  rev (snd (take_scan hi max size acc S)) = rev acc ++ limit_from max size (firstn (N.to_nat (hi - i)) S).
Proof.
  induction S as [|e t IH]; intros size acc i C Hacc; cbn [take_scan].
  - destruct (N.to_nat (hi - i)); cbn [firstn limit_from snd]; now rewrite app_nil_r.
  - destruct C as [He Ct]. rewrite He.
    destruct (hi <=? i) eqn:E.
    + replace (N.to_nat (hi - i)) with 0%nat by lia. cbn [firstn limit_from snd]. now rewrite app_nil_r.
    + replace (N.to_nat (hi - i)) with (S (N.to_nat (hi - (i + 1)))) by lia. cbn [firstn limit_from].
      assert (Hne : nonempty acc = true) by (destruct acc; [congruence|reflexivity]). rewrite Hne. cbn [andb].
      destruct (max <? size + entry_size e) eqn:E2; cbn [snd]; [now rewrite app_nil_r|].
      rewrite (IH (size + entry_size e) (e :: acc) (i + 1) Ct) by discriminate.
      cbn [rev]. now rewrite <- app_assoc.
Qed.

Lemma take_scan_limit : forall hi max S i,
  consec i S -> rev (snd (take_scan hi max 0 [] S)) = limit_size max (firstn (N.to_nat (hi - i)) S).
Proof.
  intros hi max [|e t] i C; cbn [take_scan].
  - destruct (N.to_nat (hi - i)); reflexivity.
  - destruct C as [He Ct]. rewrite He. destruct (hi <=? i) eqn:E.
    + replace (N.to_nat (hi - i)) with 0%nat by lia. reflexivity.
    + replace (N.to_nat (hi - i)) with (S (N.to_nat (hi - (i + 1)))) by lia. cbn [firstn limit_size nonempty andb].
      rewrite (take_scan_limit_from hi max t (0 + entry_size e) [e] (i + 1) Ct) by discriminate.
      cbn [rev app]. now rewrite N.add_0_l.
Qed.

Definition c0ok (c0 : option N) (As : list row) : Prop :=
  match c0 with Some n => exists r t, As = r :: t /\ n = c_lenw (r_cell r) | None => True end.

Lemma scan_rows_spec : forall P fsize hi max As D p size acc c0,
  1 <= hi -> Forall (good fsize) As -> Forall dead D -> (p = 0 -> c0ok c0 As) ->
  exists c0',
    scan_rows P fsize hi max (As ++ D) p size acc c0
    = (fst (fst (take_scan hi max size acc (map row_entry As))), snd (fst (take_scan hi max size acc (map row_entry As))),
       snd (take_scan hi max size acc (map row_entry As)), c0')
    /\ (c0' = c0 \/ (p = 0 /\ exists r t, As = r :: t /\ c0' = Some (c_lenw (r_cell r)))).
Proof.
  intros P fsize hi max As. induction As as [|a t IH]; intros D p size acc c0 Hhi HG HD Hc0.
  - cbn [app map take_scan fst snd]. destruct D as [|d D']; cbn [scan_rows]; [eauto|].
    inversion HD as [|? ? [Hi Ho] _]; subst. rewrite Ho, Hi. cbn [N.ltb N.compare andb].
    replace (0 <? 0) with false by reflexivity. cbn [andb].
    destruct (hi <=? 0) eqn:E; [lia|]. cbn [N.eqb]. rewrite andb_false_r. eauto.
  - inversion HG as [|? ? Ga Gt]; subst. destruct Ga as (G1 & G2 & G3 & G4).
    cbn [app map take_scan scan_rows].
    destruct (0 <? s_off (r_slot a)) eqn:E1; [|lia]. destruct (fsize <=? s_off (r_slot a)) eqn:E2; [lia|]. cbn [andb].
    set (lenw := if p =? 0 then match c0 with Some n => n | None => c_lenw (r_cell a) end else c_lenw (r_cell a)).
    assert (Hlenw : lenw = c_lenw (r_cell a)).
    { unfold lenw. destruct (p =? 0) eqn:Ep; [|reflexivity]. destruct c0 as [n|]; [|reflexivity].
      destruct (Hc0 ltac:(lia)) as (r & t' & Hr & Hn). injection Hr as <- <-. exact Hn. }
    rewrite Hlenw. fold (row_entry a).
    assert (Hidx : e_index (row_entry a) = s_index (r_slot a)) by reflexivity. rewrite Hidx.
    set (c0' := if (p =? 0) && true then Some (c_lenw (r_cell a)) else c0).
    assert (Hc0' : c0' = c0 \/ (p = 0 /\ exists r t', a :: t = r :: t' /\ c0' = Some (c_lenw (r_cell r)))).
    { unfold c0'. destruct (p =? 0) eqn:Ep; cbn [andb]; [right; split; [lia|eauto]|left; reflexivity]. }
    destruct (hi <=? s_index (r_slot a)) eqn:E3; cbn [fst snd]; [eauto|].
    destruct (s_index (r_slot a) =? 0) eqn:E4; [lia|].
    change (match acc with [] => false | _ :: _ => true end) with (nonempty acc).
    destruct (nonempty acc && (max <? size + entry_size (row_entry a))) eqn:E5; cbn [fst snd]; [eauto|].
    destruct (IH D (p + 1) (size + entry_size (row_entry a)) (row_entry a :: acc) c0' Hhi Gt HD ltac:(lia)) as (c0'' & Hs & Hc).
    exists c0''. split; [exact Hs|]. destruct Hc as [->|[Hp _]]; [exact Hc0'|lia].
Qed.

Lemma set_c0_view : forall P f A D c0',
  fview P f A D -> (c0' = f_c0 f \/ exists r t, A = r :: t /\ c0' = Some (c_lenw (r_cell r))) ->
  fview P (set_c0 f c0') A D.
Proof.
  intros P f A D c0' V H. destruct V as [V1 V2 V3 V4 V5 V6 V7]. constructor; auto.
  cbn [set_c0 f_c0]. destruct H as [->|(r & t & -> & ->)]; [exact V7|eauto].
Qed.

Lemma set_c0_entries : forall f c, file_entries (set_c0 f c) = file_entries f.
Proof. reflexivity. Qed.

Lemma skipn_app_le : forall {T} k (a b : list T), (k <= length a)%nat -> skipn k (a ++ b) = skipn k a ++ b.
Proof. intros T k a b H. rewrite skipn_app. replace (k - length a)%nat with 0%nat by lia. reflexivity. Qed.

Lemma scan_file_spec : forall P hi max f A D p size acc,
  fview P f A D -> (p <= length A)%nat -> 1 <= hi ->
  exists f',
    scan_file P hi max f (N.of_nat p) size acc
    = (fst (fst (take_scan hi max size acc (map row_entry (skipn p A)))),
       snd (fst (take_scan hi max size acc (map row_entry (skipn p A)))),
       snd (take_scan hi max size acc (map row_entry (skipn p A))), f')
    /\ fview P f' A D /\ f_rows f' = f_rows f.
Proof.
  intros P hi max f A D p size acc V Hp Hhi. unfold scan_file.
  rewrite (fv_asc _ _ _ _ V), Nat2N.id, skipn_app_le by exact Hp.
  assert (HG : Forall (good (f_size f)) (skipn p A)).
  { pose proof (fv_good _ _ _ _ V) as G. rewrite Forall_forall in *. intros x Hx. apply G.
    rewrite <- (firstn_skipn p A). apply in_or_app. now right. }
  assert (Hc : N.of_nat p = 0 -> c0ok (f_c0 f) (skipn p A)).
  { intro E. assert (p = 0)%nat by lia. subst p. cbn [skipn]. exact (fv_c0 _ _ _ _ V). }
  destruct (scan_rows_spec P (f_size f) hi max (skipn p A) D (N.of_nat p) size acc (f_c0 f) Hhi HG (fv_dead _ _ _ _ V) Hc)
    as (c0' & Hs & Hc0').
  rewrite Hs. eexists. split; [reflexivity|]. split; [|reflexivity].
  apply set_c0_view; [exact V|]. destruct Hc0' as [->|[E (r & t & Hr & ->)]]; [now left|right].
  assert (p = 0)%nat by lia. subst p. cbn [skipn] in Hr. eauto.
Qed.

Definition ts3 (x : scan_status * N * list entry) := (fst (fst x), snd (fst x), snd x).
Lemma ts3_id : forall x, ts3 x = x. Proof. intros [[a b] c]. reflexivity. Qed.

Lemma scan_files_spec : forall P hi max fs i size acc,
  chain P i fs -> 1 <= hi ->
  exists fs',
    scan_files P hi max fs size acc
    = (fst (fst (take_scan hi max size acc (concat (map file_entries fs)))),
       snd (fst (take_scan hi max size acc (concat (map file_entries fs)))),
       snd (take_scan hi max size acc (concat (map file_entries fs))), fs')
    /\ chain P i fs' /\ map file_entries fs' = map file_entries fs /\ map f_rows fs' = map f_rows fs.
Proof.
  intros P hi max fs. induction fs as [|f t IH]; intros i size acc Hc Hhi.
  - exists []. cbn. repeat split.
  - cbn [chain] in Hc. destruct Hc as (A & D & V & HA & C & R).
    destruct (scan_file_spec P hi max f A D 0%nat size acc V (Nat.le_0_l _) Hhi) as (f' & Hs & V' & R').
    cbn [skipn N.of_nat] in Hs. cbn [scan_files map concat]. rewrite Hs.
    rewrite (fv_entries P f A D V). rewrite take_scan_app.
    destruct (take_scan hi max size acc (map row_entry A)) as [[st sz] ac] eqn:ET. cbn [fst snd].
    assert (Hfe : file_entries f' = file_entries f) by (rewrite (fv_entries P f' A D V'), (fv_entries P f A D V); reflexivity).
    destruct st.
    + exists (f' :: t). cbn [fst snd]. split; [reflexivity|]. split; [|split].
      * cbn [chain]. exists A, D. auto.
      * cbn [map]. rewrite (fv_entries P f' A D V'). try rewrite (fv_entries P f A D V). reflexivity.
      * cbn [map]. now rewrite R'.
    + destruct (IH (i + N.of_nat (length A)) sz ac R Hhi) as (t' & Ht & Rt & Mt & Rw).
      rewrite Ht. exists (f' :: t'). split; [reflexivity|]. split; [|split].
      * cbn [chain]. exists A, D. auto.
      * cbn [map]. rewrite (fv_entries P f' A D V'), Mt. try rewrite (fv_entries P f A D V). reflexivity.
      * cbn [map]. now rewrite R', Rw.
Qed.

Lemma chain_locate : forall P fs i0 lo,
  chain P i0 fs -> i0 <= lo -> lo < i0 + flen fs ->
  exists pre f post A D, fs = pre ++ f :: post /\ chain P i0 pre /\ fview P f A D /\ A <> []
                         /\ consec (i0 + flen pre) (map row_entry A) /\ chain P (i0 + flen pre + N.of_nat (length A)) post
                         /\ i0 + flen pre <= lo /\ lo < i0 + flen pre + N.of_nat (length A).
Proof.
  intros P fs. induction fs as [|f t IH]; intros i0 lo Hc Hlo Hhi.
  - rewrite flen_nil in Hhi. lia.
  - cbn [chain] in Hc. destruct Hc as (A & D & V & HA & C & R).
    rewrite (flen_cons P f A D t V) in Hhi.
    destruct (lo <? i0 + N.of_nat (length A)) eqn:E.
    + exists [], f, t, A, D. rewrite flen_nil, N.add_0_r. cbn [app chain]. repeat (split; [assumption || reflexivity || lia|]). lia.
    + destruct (IH (i0 + N.of_nat (length A)) lo R ltac:(lia) ltac:(lia))
        as (pre & g & post & A' & D' & -> & Hpre & V' & HA' & C' & Hpost & H1 & H2).
      exists (f :: pre), g, post, A', D'. rewrite (flen_cons P f A D pre V), N.add_assoc. cbn [app chain].
      split; [reflexivity|]. split; [exists A, D; auto|]. auto 7.
Qed.

Lemma log_of_eq : forall d, log_of d = concat (map file_entries (d_files d)) ++ file_entries (d_cur d).
Proof. intro d. unfold log_of. apply log_of_snoc. Qed.

Lemma flen_length : forall fs, flen fs = N.of_nat (length (concat (map file_entries fs))).
Proof. reflexivity. Qed.

Lemma flen_map : forall a b, map file_entries a = map file_entries b -> flen a = flen b.
Proof. intros a b H. unfold flen. now rewrite H. Qed.

Lemma all_live_rows : forall f g, f_rows g = f_rows f -> all_live f -> all_live g.
Proof. intros f g H. unfold all_live. now rewrite H. Qed.

Lemma Forall_all_live_rows : forall a b, map f_rows a = map f_rows b -> Forall all_live b -> Forall all_live a.
Proof.
  induction a as [|x a IH]; intros [|y b] H Hb; try discriminate; [constructor|].
  cbn [map] in H. injection H as H1 H2. inversion Hb; subst. constructor; [now apply (all_live_rows y)|now apply (IH b)].
Qed.

Lemma dinv_replace : forall P i0 d Ac fs' c',
  dinv P i0 d Ac -> chain P i0 fs' -> map file_entries fs' = map file_entries (d_files d) ->
  map f_rows fs' = map f_rows (d_files d) -> fview P c' Ac [] ->
  dinv P i0 (mkdisk fs' c' (d_next d) (d_meta d)) Ac
  /\ log_of (mkdisk fs' c' (d_next d) (d_meta d)) = log_of d
  /\ map f_rows (d_files (mkdisk fs' c' (d_next d) (d_meta d))) = map f_rows (d_files d).
Proof.
  intros P i0 d Ac fs' c' (H1 & Hch & V & C & Hn & HKl) Hch' Hm Hr V'. split; [|split; [|exact Hr]].
  - unfold dinv. cbn [d_files d_cur d_next]. rewrite (flen_map _ _ Hm). repeat (split; [assumption|]).
    intro E. apply (Forall_all_live_rows _ _ Hr). now apply HKl.
  - rewrite !log_of_eq. cbn [d_files d_cur]. rewrite Hm, (fv_entries P c' Ac [] V'), (fv_entries P (d_cur d) Ac [] V). reflexivity.
Qed.
