(* C17: the byte layer under the model. The model works on slot records and length-prefixed cells; here is how they
   are laid out in the files - big-endian fixed-width words (lib/raftlog/log.go marshalEntry, meta.go) and the protobuf
   bytes of the hard state (raftpb.HardState.Marshal: three varint fields, always written) - with round-trip theorems,
   so that what the model says about a slot table or a meta record is a statement about file bytes. The harness dumps
   the real bytes of every entry file's slot table, the length words of the cells and the meta records at the end of
   cases; Corr.check_bytes compares them, eight bytes at a time as big-endian words, with the slot records
   ([Corr.window_words]; [Corr.window_bytes_words] says these are the bytes), [hs_record] and [snap_header] of the model
   state. *)
From Coq Require Import NArith PeanoNat List Bool Lia ZifyBool ZifyN ZifyNat.
From OG Require Import C17.Model.
Import ListNotations.
Open Scope N_scope.

Fixpoint be_enc (k : nat) (x : N) : list N :=
  match k with O => [] | S k' => (x / 256 ^ N.of_nat k') mod 256 :: be_enc k' x end.
Definition be_dec (l : list N) : N := fold_left (fun a b => a * 256 + b) l 0.

Lemma be_enc_length : forall k x, length (be_enc k x) = k.
Proof. induction k as [|k IH]; intro x; cbn [be_enc length]; [reflexivity|now rewrite IH]. Qed.

Lemma be_enc_bytes : forall k x, Forall (fun b => b < 256) (be_enc k x).
Proof. induction k as [|k IH]; intro x; cbn [be_enc]; constructor; [apply N.mod_lt; lia|apply IH]. Qed.

Lemma be_dec_acc : forall l a, fold_left (fun a b => a * 256 + b) l a = a * 256 ^ N.of_nat (length l) + be_dec l.
Proof.
  induction l as [|b l IH]; intro a; cbn [fold_left length]; [unfold be_dec; cbn; lia|].
  unfold be_dec. cbn [fold_left]. rewrite (IH (a * 256 + b)), (IH (0 * 256 + b)).
  replace (N.of_nat (S (length l))) with (N.succ (N.of_nat (length l))) by lia. rewrite N.pow_succ_r'. lia.
Qed.

Lemma pow256_pos : forall k, 0 < 256 ^ k.
Proof. intro k. pose proof (N.pow_nonzero 256 k ltac:(lia)). lia. Qed.

Lemma be_dec_enc : forall k x, be_dec (be_enc k x) = x mod 256 ^ N.of_nat k.
Proof.
  induction k as [|k IH]; intro x.
  - cbn. now rewrite N.mod_1_r.
  - cbn [be_enc]. unfold be_dec. cbn [fold_left]. rewrite be_dec_acc, be_enc_length, IH.
    replace (N.of_nat (S k)) with (N.succ (N.of_nat k)) by lia. rewrite N.pow_succ_r'.
    set (q := 256 ^ N.of_nat k). pose proof (pow256_pos (N.of_nat k)) as Hq. fold q in Hq.
    rewrite (N.mul_comm 256 q), N.mod_mul_r by lia. cbn. lia.
Qed.

Lemma be_round : forall k x, x < 256 ^ N.of_nat k -> be_dec (be_enc k x) = x.
Proof. intros k x H. rewrite be_dec_enc. now apply N.mod_small. Qed.

(* a slot record: term, index, type, offset; 4 x 8 bytes *)

Definition slot_bytes (s : slotrec) : list N :=
  be_enc 8 (s_term_ s) ++ be_enc 8 (s_index s) ++ be_enc 8 (s_type s) ++ be_enc 8 (s_off s).
Definition slot_of_bytes (l : list N) : slotrec :=
  mkslot (be_dec (firstn 8 l)) (be_dec (firstn 8 (skipn 8 l))) (be_dec (firstn 8 (skipn 8 (skipn 8 l))))
         (be_dec (firstn 8 (skipn 8 (skipn 8 (skipn 8 l))))).
Definition u64 (x : N) : Prop := x < 256 ^ 8.
Definition slot_u64 (s : slotrec) : Prop := u64 (s_term_ s) /\ u64 (s_index s) /\ u64 (s_type s) /\ u64 (s_off s).

Lemma skipn_add : forall {T} a b (l : list T), skipn (a + b) l = skipn b (skipn a l).
Proof. induction a as [|a IH]; intros b l; [reflexivity|]. destruct l; cbn [Nat.add skipn]; [now rewrite skipn_nil|apply IH]. Qed.

Lemma slot_bytes_length : forall s, length (slot_bytes s) = 32%nat.
Proof. intro s. unfold slot_bytes. rewrite !app_length, !be_enc_length. reflexivity. Qed.

Lemma take_n : forall n (a b : list N), length a = n -> firstn n (a ++ b) = a.
Proof. intros n a b L. rewrite firstn_app, L, Nat.sub_diag, <- L, firstn_all. cbn. apply app_nil_r. Qed.
Lemma drop_n : forall n (a b : list N), length a = n -> skipn n (a ++ b) = b.
Proof. intros n a b L. rewrite skipn_app, L, Nat.sub_diag, <- L, skipn_all. reflexivity. Qed.

Theorem slot_round : forall s rest, slot_u64 s -> slot_of_bytes (slot_bytes s ++ rest) = s.
Proof.
  intros [t i y o] rest (H1 & H2 & H3 & H4). unfold slot_of_bytes, slot_bytes. cbn [s_term_ s_index s_type s_off] in *.
  rewrite <- !app_assoc.
  repeat (rewrite ?(take_n 8), ?(drop_n 8) by apply be_enc_length).
  unfold u64 in *. change (256 ^ 8) with (256 ^ N.of_nat 8) in *.
  now rewrite !be_round.
Qed.

(* the first n slot records of a file, as they lie at offset 0 *)
Definition table_bytes (f : file) (n : nat) : list N :=
  concat (map (fun p => slot_bytes (slot_at f (N.of_nat p))) (seq 0 n)).

Fixpoint chunks32 (n : nat) (l : list N) : list (list N) :=
  match n with O => [] | S n' => firstn 32 l :: chunks32 n' (skipn 32 l) end.

Theorem table_round : forall f n, (forall p, slot_u64 (slot_at f p)) ->
  map slot_of_bytes (chunks32 n (table_bytes f n)) = map (fun p => slot_at f (N.of_nat p)) (seq 0 n).
Proof.
  intros f n H. unfold table_bytes. generalize 0%nat as st. induction n as [|n IH]; intro st; [reflexivity|].
  cbn [seq map concat chunks32].
  rewrite (take_n 32 _ _ (slot_bytes_length _)), (drop_n 32 _ _ (slot_bytes_length _)).
  f_equal; [|apply IH].
  rewrite <- (app_nil_r (slot_bytes _)). now apply slot_round.
Qed.

(* protobuf base-128 varint, least significant group first; fuel 10 covers uint64 *)
Fixpoint varint_enc (fuel : nat) (x : N) : list N :=
  match fuel with
  | O => []
  | S k => if x <? 128 then [x] else (x mod 128 + 128) :: varint_enc k (x / 128)
  end.
Fixpoint varint_dec (l : list N) : option (N * list N) :=
  match l with
  | [] => None
  | b :: t => if b <? 128 then Some (b, t)
              else match varint_dec t with Some (v, r) => Some (b - 128 + 128 * v, r) | None => None end
  end.

Theorem varint_round : forall fuel x rest, x < 128 ^ N.of_nat (S fuel) ->
  varint_dec (varint_enc (S fuel) x ++ rest) = Some (x, rest).
Proof.
  induction fuel as [|k IH]; intros x rest Hx.
  - change (128 ^ N.of_nat 1) with 128 in Hx. cbn [varint_enc]. destruct (x <? 128) eqn:E; [|lia].
    cbn [app varint_dec]. now rewrite E.
  - remember (S k) as k1. cbn [varint_enc]. destruct (x <? 128) eqn:E.
    + cbn [app varint_dec]. now rewrite E.
    + cbn [app varint_dec]. assert (Hm : x mod 128 < 128) by (apply N.mod_lt; lia).
      destruct (x mod 128 + 128 <? 128) eqn:E2; [lia|].
      replace (N.of_nat (S k1)) with (N.succ (N.of_nat k1)) in Hx by lia. rewrite N.pow_succ_r' in Hx.
      subst k1. rewrite (IH (x / 128) rest) by (apply N.div_lt_upper_bound; lia).
      f_equal. f_equal. pose proof (N.div_mod x 128 ltac:(lia)). lia.
Qed.

(* raftpb.HardState.Marshal: tag 0x08 term, 0x10 vote, 0x18 commit - all three always present *)
Definition hs_pb (h : hardstate) : list N :=
  [8] ++ varint_enc 10 (hs_term h) ++ [16] ++ varint_enc 10 (hs_vote h) ++ [24] ++ varint_enc 10 (hs_commit h).
Definition hs_of_pb (l : list N) : option hardstate :=
  match l with
  | 8 :: l1 =>
      match varint_dec l1 with
      | Some (t, 16 :: l2) =>
          match varint_dec l2 with
          | Some (v, 24 :: l3) => match varint_dec l3 with Some (c, []) => Some (mkhs t v c) | _ => None end
          | _ => None
          end
      | _ => None
      end
  | _ => None
  end.

Lemma u64_varint : forall x, u64 x -> x < 128 ^ N.of_nat (S 9).
Proof. intros x H. unfold u64 in H. assert (256 ^ 8 < 128 ^ N.of_nat (S 9)) by (vm_compute; reflexivity). lia. Qed.

Theorem hs_pb_round : forall h, u64 (hs_term h) -> u64 (hs_vote h) -> u64 (hs_commit h) -> hs_of_pb (hs_pb h) = Some h.
Proof.
  intros [t v c] Ht Hv Hc. unfold hs_pb, hs_of_pb. cbn [hs_term hs_vote hs_commit app] in *.
  rewrite (varint_round 9 t _ (u64_varint t Ht)). rewrite (varint_round 9 v _ (u64_varint v Hv)).
  rewrite <- (app_nil_r (varint_enc 10 c)). rewrite (varint_round 9 c [] (u64_varint c Hc)). reflexivity.
Qed.

(* a length-prefixed record of raft.meta: [len:4][bytes] *)
Definition lp_record (payload : list N) : list N := be_enc 4 (N.of_nat (length payload)) ++ payload.
Definition lp_read (l : list N) : list N := firstn (N.to_nat (be_dec (firstn 4 l))) (skipn 4 l).

Theorem lp_round : forall payload rest, N.of_nat (length payload) < 256 ^ 4 -> lp_read (lp_record payload ++ rest) = payload.
Proof.
  intros p rest H. unfold lp_read, lp_record. rewrite <- app_assoc.
  rewrite (take_n 4 _ _ (be_enc_length 4 _)), (drop_n 4 _ _ (be_enc_length 4 _)).
  change (256 ^ 4) with (256 ^ N.of_nat 4) in H. rewrite (be_round 4 _ H), Nat2N.id.
  now apply take_n.
Qed.

(* the hard state record at offset 512 of raft.meta; an empty hard state (never stored) reads as length 0 *)
Definition hs_record (h : hardstate) : list N := if hs_is_empty h then be_enc 4 0 else lp_record (hs_pb h).
(* the two words in front of the snapshot record at offset 1024: index and term of the stored snapshot *)
Definition snap_header (s : snapshot) : list N := be_enc 8 (sn_index s) ++ be_enc 8 (sn_term s).

Theorem hs_record_round : forall h rest, u64 (hs_term h) -> u64 (hs_vote h) -> u64 (hs_commit h) -> hs_is_empty h = false ->
  hs_of_pb (lp_read (hs_record h ++ rest)) = Some h.
Proof.
  intros h rest Ht Hv Hc He. unfold hs_record. rewrite He. rewrite lp_round; [now apply hs_pb_round|].
  unfold hs_pb. rewrite !app_length. cbn [length].
  assert (L : forall x, (length (varint_enc 10 x) <= 10)%nat).
  { intro x. generalize 10%nat as k. intro k. revert x. induction k as [|k IH]; intro x; cbn [varint_enc length]; [lia|].
    destruct (x <? 128); cbn [length]; [lia|]. specialize (IH (x / 128)). lia. }
  pose proof (L (hs_term h)). pose proof (L (hs_vote h)). pose proof (L (hs_commit h)).
  assert (256 ^ 4 = 4294967296) by reflexivity. lia.
Qed.
