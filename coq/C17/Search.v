(* C17: correctness of the slot search (logFile.slotGe, entryLog.slotGe) under the invariant: every file is a run of
   strictly consecutive indexes, files are ordered without gaps. *)
From Coq Require Import NArith PeanoNat List Bool Lia ZifyBool ZifyN ZifyNat.
From OG Require Import C17.Model C17.Proofs C17.Refine C17.Inv.
Import ListNotations.
Open Scope N_scope.

Lemma nth_error_map_row : forall A p, (p < length A)%nat ->
  nth_error (map row_entry A) p = Some (row_entry (nth p A zero_row)).
Proof. intros A p Hp. rewrite nth_error_map, (nth_error_nth' A zero_row Hp). reflexivity. Qed.

Lemma consec_idx : forall A i k, consec i (map row_entry A) -> (k < length A)%nat ->
  s_index (r_slot (nth k A zero_row)) = i + N.of_nat k.
Proof. intros A i k H Hk. exact (consec_nth _ _ _ _ H (nth_error_map_row A k Hk)). Qed.

Lemma find_pos_fail_app : forall pred A D p,
  Forall (fun r => pred (r_slot r) = false) A -> find_pos pred (A ++ D) p = find_pos pred D (p + N.of_nat (length A)).
Proof.
  induction A as [|a t IH]; intros D p H; cbn [app length find_pos].
  - f_equal. lia.
  - inversion H as [|? ? Ha Ht]; subst. rewrite Ha, IH by exact Ht. f_equal. lia.
Qed.

Lemma nil_or_not : forall {T} (l : list T), l = [] \/ l <> [].
Proof. intros T [|x l]; [left; reflexivity|right; discriminate]. Qed.

Lemma length_pos_ne : forall {T} (l : list T), l <> [] -> (0 < length l)%nat.
Proof. intros T [|x l] H; [congruence|cbn; lia]. Qed.

Section OneFile.
  Variable P : params.
  Variables (f : file) (A D : list row) (i0 : N).
  Hypothesis V : fview P f A D.
  Hypothesis C : consec i0 (map row_entry A).
  Hypothesis Hi0 : 1 <= i0.

  Lemma view_first_empty : A = [] -> file_first f = 0.
  Proof using V.
    clear C Hi0. intros ->. unfold file_first. change 0 with (N.of_nat 0) at 1. apply (fv_row_at_beyond P f [] D 0 V). cbn. lia.
  Qed.

  Lemma view_first : A <> [] -> file_first f = i0.
  Proof.
    intros HA. unfold file_first, slot_at. change 0 with (N.of_nat 0) at 1.
    pose proof (length_pos_ne A HA).
    rewrite (fv_row_at_live P f A D 0 V) by lia.
    rewrite (consec_idx A i0 0 C) by lia. lia.
  Qed.

  Lemma view_index : forall k, (k < length A)%nat -> s_index (slot_at f (N.of_nat k)) = i0 + N.of_nat k.
  Proof.
    intros k Hk. unfold slot_at. rewrite (fv_row_at_live P f A D k V Hk). now apply consec_idx.
  Qed.

  Lemma view_len_max : N.of_nat (length A) <= max_entries P.
  Proof using V. clear C Hi0. pose proof (fv_max _ _ _ _ V). pose proof (fv_n _ _ _ _ V) as Hn. rewrite app_length in Hn. lia. Qed.

  Lemma file_slot_ge_empty : A = [] -> forall i, file_slot_ge P f i = None.
  Proof using V. intros HA i. unfold file_slot_ge. rewrite (view_first_empty HA). reflexivity. Qed.

  Lemma file_slot_ge_below : forall i, i < i0 -> file_slot_ge P f i = None.
  Proof.
    intros i Hi. destruct (nil_or_not A) as [EA|EA]; [now apply file_slot_ge_empty|].
    unfold file_slot_ge. rewrite (view_first EA).
    destruct (i0 =? 0) eqn:E0; [reflexivity|]. destruct (i <? i0) eqn:E1; [reflexivity|lia].
  Qed.

  Lemma file_slot_ge_inside : forall i, A <> [] -> i0 <= i -> i < i0 + N.of_nat (length A) ->
    file_slot_ge P f i = Some (i - i0).
  Proof.
    intros i HA Hlo Hhi. unfold file_slot_ge. rewrite (view_first HA).
    destruct (i0 =? 0) eqn:E0; [lia|]. destruct (i <? i0) eqn:E1; [lia|]. cbn [orb].
    pose proof view_len_max.
    assert (Hk : i - i0 = N.of_nat (N.to_nat (i - i0))) by lia.
    rewrite Hk. rewrite view_index by lia.
    destruct (N.of_nat (N.to_nat (i - i0)) <? max_entries P) eqn:E2; [|lia].
    destruct (i0 + N.of_nat (N.to_nat (i - i0)) =? i) eqn:E3; [reflexivity|lia].
  Qed.

  (* a search whose predicate fails on every live row and holds for an empty slot ends at the first slot that is not live *)
  Lemma search_first_dead : forall pred,
    (forall r, In r A -> pred (r_slot r) = false) -> (forall s, s_index s = 0 -> pred s = true) ->
    search_slots P f pred = N.of_nat (length A).
  Proof using V.
    clear C Hi0. intros pred Hlive Hzero. unfold search_slots. rewrite (fv_asc _ _ _ _ V).
    pose proof view_len_max as HM. pose proof (fv_n _ _ _ _ V) as Hn. pose proof (fv_dead _ _ _ _ V) as HD.
    rewrite find_pos_fail_app by (apply Forall_forall; exact Hlive).
    destruct D as [|d D'].
    - cbn [find_pos]. unfold nrows. rewrite Hn, app_nil_r, (Hzero zero_slot eq_refl).
      destruct (N.of_nat (length A) <? max_entries P) eqn:E; cbn [andb]; lia.
    - cbn [find_pos]. inversion HD as [|? ? [Hd _] _]; subst. rewrite (Hzero _ Hd). lia.
  Qed.

  Lemma search_beyond : forall i, i0 + N.of_nat (length A) <= i ->
    search_slots P f (fun s => (s_index s =? 0) || (i <=? s_index s)) = N.of_nat (length A).
  Proof.
    intros i Hi. apply search_first_dead; [|intros s ->; reflexivity].
    intros r Hr. destruct (In_nth _ _ zero_row Hr) as (k & Hk & <-). rewrite (consec_idx A i0 k C Hk).
    destruct (i0 + N.of_nat k =? 0) eqn:E1; [lia|]. destruct (i <=? i0 + N.of_nat k) eqn:E2; [lia|reflexivity].
  Qed.

  Lemma file_slot_ge_beyond : forall i, A <> [] -> i0 + N.of_nat (length A) <= i ->
    file_slot_ge P f i = Some (N.of_nat (length A)).
  Proof.
    intros i HA Hi. unfold file_slot_ge. rewrite (view_first HA).
    destruct (i0 =? 0) eqn:E0; [lia|]. destruct (i <? i0) eqn:E1; [lia|]. cbn [orb].
    rewrite search_beyond by exact Hi.
    assert (Hk : i - i0 = N.of_nat (N.to_nat (i - i0))) by lia.
    rewrite Hk. rewrite (fv_row_at_beyond P f A D _ V) by lia.
    destruct (0 =? i) eqn:E3; [lia|]. now rewrite andb_false_r.
  Qed.

  Lemma first_empty_view : first_empty_slot P f = N.of_nat (length A).
  Proof using V.
    clear C Hi0. apply search_first_dead; [|intros s ->; reflexivity].
    intros r Hr. pose proof (fv_good _ _ _ _ V) as G. rewrite Forall_forall in G.
    destruct (G r Hr) as (G1 & _). destruct (s_index (r_slot r) =? 0) eqn:E; [lia|reflexivity].
  Qed.
End OneFile.

Fixpoint chain (P : params) (i : N) (fs : list file) : Prop :=
  match fs with
  | [] => True
  | f :: t => exists A D, fview P f A D /\ A <> [] /\ consec i (map row_entry A)
                          /\ chain P (i + N.of_nat (length A)) t
  end.

Definition flen (fs : list file) : N := N.of_nat (length (concat (map file_entries fs))).

Lemma flen_cons : forall P f A D t, fview P f A D -> flen (f :: t) = N.of_nat (length A) + flen t.
Proof.
  intros P f A D t V. unfold flen. cbn [map concat]. rewrite app_length, (fv_entries P f A D V), map_length. lia.
Qed.

Lemma flen_nil : flen [] = 0.
Proof. reflexivity. Qed.

Lemma chain_app : forall P a b i, chain P i (a ++ b) <-> chain P i a /\ chain P (i + flen a) b.
Proof.
  induction a as [|f t IH]; intros b i; cbn [app chain].
  - rewrite flen_nil, N.add_0_r. tauto.
  - split.
    + intros (A & D & V & HA & C & R). apply IH in R as [R1 R2]. split; [exists A, D; auto|].
      rewrite (flen_cons P f A D t V). now rewrite N.add_assoc.
    + intros [(A & D & V & HA & C & R1) R2]. exists A, D. split; [exact V|]. split; [exact HA|]. split; [exact C|].
      apply IH. split; [exact R1|].
      rewrite (flen_cons P f A D t V) in R2. now rewrite N.add_assoc in R2.
Qed.

(* the disk invariant between operations; [Ac] are the rows of the current file, [i0] the first index of the log.
   [i0] is a parameter and not [first_of] of the log because an empty store fixes none: there every [i0 >= 1] does
   (Step.dinv_empty_any), and the first Save chooses it *)
Definition dinv (P : params) (i0 : N) (d : disk) (Ac : list row) : Prop :=
  1 <= i0 /\ chain P i0 (d_files d) /\ fview P (d_cur d) Ac []
  /\ consec (i0 + flen (d_files d)) (map row_entry Ac)
  /\ d_next d = N.of_nat (length Ac)
  (* an empty current file beside older files (left behind by a failed Save): those files hold no dead slot *)
  /\ (Ac = [] -> Forall all_live (d_files d)).

Lemma find_file_skip : forall P pre rest i0 i k, chain P i0 pre -> 1 <= i0 -> i0 + flen pre <= i ->
  find_file i (pre ++ rest) k = find_file i rest (k + length pre)%nat.
Proof.
  induction pre as [|f t IH]; intros rest i0 i k Hc H1 Hi; cbn [app length find_file].
  - f_equal. lia.
  - destruct Hc as (A & D & V & HA & C & R).
    rewrite (view_first P f A D i0 V C H1 HA).
    rewrite (flen_cons P f A D t V) in Hi. pose proof (length_pos_ne A HA).
    destruct (i <=? i0) eqn:E; [lia|].
    rewrite (IH rest (i0 + N.of_nat (length A)) i (S k) R) by lia. f_equal. lia.
Qed.

Section SlotGe.
  Variable P : params.
  Variables (d : disk) (i0 : N) (Ac : list row).
  Hypothesis I : dinv P i0 d Ac.

  Let c0 := i0 + flen (d_files d).

  Lemma slot_ge_cur_inside : forall i, c0 <= i -> i < c0 + N.of_nat (length Ac) ->
    slot_ge P d i = (InCur, Some (i - c0)).
  Proof.
    intros i Hlo Hhi. destruct I as (H1 & Hch & V & C & Hn & HKl).
    unfold slot_ge. assert (HA : Ac <> []) by (intro E; rewrite E in Hhi; cbn in Hhi; lia).
    rewrite (file_slot_ge_inside P (d_cur d) Ac [] c0 V C ltac:(unfold c0; lia) i HA Hlo Hhi). reflexivity.
  Qed.

  Lemma slot_ge_cur_beyond : forall i, Ac <> [] -> c0 + N.of_nat (length Ac) <= i ->
    slot_ge P d i = (InCur, Some (N.of_nat (length Ac))).
  Proof.
    intros i HA Hi. destruct I as (H1 & Hch & V & C & Hn & HKl).
    unfold slot_ge. rewrite (file_slot_ge_beyond P (d_cur d) Ac [] c0 V C ltac:(unfold c0; lia) i HA Hi). reflexivity.
  Qed.

  Lemma slot_ge_empty : Ac = [] -> d_files d = [] -> forall i, slot_ge P d i = (InCur, None).
  Proof.
    intros HA Hf i. destruct I as (H1 & Hch & V & C & Hn & HKl).
    unfold slot_ge. rewrite (file_slot_ge_empty P (d_cur d) Ac [] V HA i). now rewrite Hf.
  Qed.

  (* the current file is empty but older files exist (the state a failed first write into a fresh file, or a failed
     Save that had cleared the current file from slot 0, leaves behind): an index beyond the log is looked up in the
     newest rotated file and answered with its first empty slot *)
  Lemma slot_ge_files_beyond : Ac = [] -> d_files d <> [] -> forall i, c0 <= i ->
    exists pre f A, d_files d = pre ++ [f] /\ chain P i0 pre /\ fview P f A [] /\ A <> []
                    /\ consec (i0 + flen pre) (map row_entry A) /\ c0 = i0 + flen pre + N.of_nat (length A)
                    /\ slot_ge P d i = (InOld (length pre), Some (N.of_nat (length A))).
  Proof.
    intros HA Hne i Hi. destruct I as (H1 & Hch & V & C & Hn & HKl).
    destruct (exists_last Hne) as (pre & f & Hf). exists pre, f.
    pose proof Hch as Hch0.
    rewrite Hf in Hch. apply chain_app in Hch as [Hpre Hrest]. cbn [chain] in Hrest.
    destruct Hrest as (A & D & Vf & HAf & Cf & _).
    assert (ED : D = []).
    { apply (all_live_no_dead P f A D Vf). specialize (HKl HA). rewrite Hf in HKl. apply Forall_app in HKl as [_ K]. now inversion K. }
    subst D. exists A. repeat (split; [assumption|]).
    set (fi := i0 + flen pre) in *.
    assert (Hc0 : c0 = fi + N.of_nat (length A)).
    { unfold c0, fi. rewrite Hf. unfold flen. rewrite map_app, concat_app, app_length. cbn [map concat].
      rewrite app_nil_r, (fv_entries P f A [] Vf), map_length. lia. }
    split; [exact Hc0|].
    unfold slot_ge. rewrite (file_slot_ge_empty P (d_cur d) Ac [] V HA i).
    assert (Hfind : find_file i (pre ++ [f]) 0 = length (pre ++ [f])).
    { rewrite <- (app_nil_r (pre ++ [f])) at 1. rewrite <- Hf.
      rewrite (find_file_skip P (d_files d) [] i0 i 0 Hch0 H1) by (fold c0; lia). reflexivity. }
    rewrite Hf. destruct (pre ++ [f]) eqn:Enil; [destruct pre; discriminate|]. rewrite <- Enil in *. clear Enil.
    rewrite Hfind, Nat.ltb_irrefl. cbn [andb].
    rewrite app_length. cbn [length]. replace (Nat.pred (length pre + 1)) with (length pre) by lia.
    rewrite app_nth2 by lia. rewrite Nat.sub_diag. cbn [nth].
    rewrite (file_slot_ge_beyond P f A [] fi Vf Cf ltac:(unfold fi; lia) i HAf) by lia. reflexivity.
  Qed.

  Lemma slot_ge_old : forall pre f post A D i,
    d_files d = pre ++ f :: post -> fview P f A D ->
    i0 + flen pre <= i -> i < i0 + flen pre + N.of_nat (length A) ->
    slot_ge P d i = (InOld (length pre), Some (i - (i0 + flen pre))).
  Proof.
    intros pre f post A D i Hf Vf Hlo Hhi. destruct I as (H1 & Hch & V & C & Hn & HKl).
    rewrite Hf in Hch. apply chain_app in Hch as [Hpre Hrest]. cbn [chain] in Hrest.
    destruct Hrest as (A' & D' & V' & HA' & C' & Hpost).
    assert (EA : length A' = length A).
    { pose proof (fv_entries P f A D Vf) as E1. pose proof (fv_entries P f A' D' V') as E2.
      rewrite E1 in E2. apply (f_equal (@length _)) in E2. now rewrite !map_length in E2. }
    rewrite EA in *.
    set (fi := i0 + flen pre) in *.
    assert (Hc0 : fi + N.of_nat (length A) <= c0).
    { unfold c0, fi. rewrite Hf. unfold flen. rewrite map_app, concat_app, app_length. cbn [map concat].
      rewrite app_length, (fv_entries P f A D Vf), map_length. lia. }
    unfold slot_ge.
    rewrite (file_slot_ge_below P (d_cur d) Ac [] c0 V C ltac:(unfold c0; lia) i) by lia.
    rewrite Hf. destruct (pre ++ f :: post) eqn:Enil; [destruct pre; discriminate|]. rewrite <- Enil. clear Enil.
    rewrite (find_file_skip P pre (f :: post) i0 i 0 Hpre H1) by (fold fi; lia).
    cbn [find_file Nat.add]. rewrite (view_first P f A' D' fi V' C' ltac:(unfold fi; lia) HA').
    assert (Hnth : nth (length pre) (pre ++ f :: post) (d_cur d) = f).
    { rewrite app_nth2 by lia. rewrite Nat.sub_diag. reflexivity. }
    destruct (i <=? fi) eqn:E.
    - assert (i = fi) by lia. subst i.
      assert (Hlt : Nat.ltb (length pre) (length (pre ++ f :: post)) = true)
        by (apply Nat.ltb_lt; rewrite app_length; cbn; lia).
      rewrite Hlt, Hnth, (view_first P f A' D' fi V' C' ltac:(unfold fi; lia) HA'), N.eqb_refl. cbn [andb]. now rewrite N.sub_diag.
    - assert (Hk : find_file i post (S (length pre)) = S (length pre)).
      { destruct post as [|h post']; [reflexivity|]. cbn [find_file chain] in *.
        destruct Hpost as (Ah & Dh & Vh & HAh & Ch & _).
        rewrite (view_first P h Ah Dh (fi + N.of_nat (length A)) Vh Ch ltac:(unfold fi; lia) HAh).
        destruct (i <=? fi + N.of_nat (length A)) eqn:E2; [reflexivity|lia]. }
      rewrite Hk.
      assert (Hcond : Nat.ltb (S (length pre)) (length (pre ++ f :: post))
                      && (file_first (nth (S (length pre)) (pre ++ f :: post) (d_cur d)) =? i) = false).
      { destruct post as [|h post'].
        - replace (Nat.ltb (S (length pre)) (length (pre ++ [f]))) with false; [reflexivity|].
          symmetry. apply Nat.ltb_ge. rewrite app_length. cbn. lia.
        - cbn [chain] in Hpost. destruct Hpost as (Ah & Dh & Vh & HAh & Ch & _).
          rewrite app_nth2 by lia. replace (S (length pre) - length pre)%nat with 1%nat by lia. cbn [nth].
          rewrite (view_first P h Ah Dh (fi + N.of_nat (length A)) Vh Ch ltac:(unfold fi; lia) HAh).
          destruct (fi + N.of_nat (length A) =? i) eqn:E3; [lia|]. now rewrite andb_false_r. }
      rewrite Hcond. cbn [Nat.pred]. rewrite Hnth.
      rewrite (file_slot_ge_inside P f A' D' fi V' C' ltac:(unfold fi; lia) i HA') by lia. reflexivity.
  Qed.

  Lemma slot_ge_below : forall i, i < i0 -> exists sel, slot_ge P d i = (sel, None).
  Proof.
    intros i Hi. destruct I as (H1 & Hch & V & C & Hn & HKl).
    unfold slot_ge. rewrite (file_slot_ge_below P (d_cur d) Ac [] c0 V C ltac:(unfold c0; lia) i) by (unfold c0; lia).
    destruct (d_files d) as [|f t] eqn:Ef; [eauto|]. cbn [chain] in Hch.
    destruct Hch as (A & D & Vf & HA & Cf & _).
    cbn [find_file]. rewrite (view_first P f A D i0 Vf Cf H1 HA).
    destruct (i <=? i0) eqn:E; [|lia]. cbn [length nth].
    rewrite (view_first P f A D i0 Vf Cf H1 HA). destruct (i0 =? i) eqn:E2; [lia|]. rewrite andb_false_r.
    cbn [Nat.pred nth].
    rewrite (file_slot_ge_below P f A D i0 Vf Cf H1 i Hi). eauto.
  Qed.
End SlotGe.
