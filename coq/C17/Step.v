(* C17: facts of the invariant [dinv] (Search.v), where an index falls, and every operation but Save (SaveStep.v):
   it refines the specification and keeps the invariant. *)
From Coq Require Import NArith PeanoNat List Bool Lia ZifyBool ZifyN ZifyNat.
From OG Require Import C17.Model C17.Proofs C17.Refine C17.Inv C17.Search C17.Read.
Import ListNotations.
Open Scope N_scope.

Lemma abs_log : forall d, abs d = mkalog (log_of d) (d_meta d).
Proof. reflexivity. Qed.

Lemma chain_consec : forall P fs i, chain P i fs -> consec i (concat (map file_entries fs)).
Proof.
  intros P fs. induction fs as [|f t IH]; intros i H; [exact I|].
  cbn [chain] in H. destruct H as (A & D & V & HA & C & R). cbn [map concat].
  rewrite (fv_entries P f A D V). apply consec_app; [exact C|]. rewrite map_length. now apply IH.
Qed.

Lemma flen_app : forall a b, flen (a ++ b) = flen a + flen b.
Proof. intros. unfold flen. rewrite map_app, concat_app, app_length. lia. Qed.

Section Facts.
  Variable P : params.
  Variables (d : disk) (i0 : N) (Ac : list row).
  Hypothesis I : dinv P i0 d Ac.

  Lemma inv_log : log_of d = concat (map file_entries (d_files d)) ++ map row_entry Ac.
  Proof. destruct I as (H1 & Hch & V & C & Hn & HKl). rewrite log_of_eq, (fv_entries P (d_cur d) Ac [] V). reflexivity. Qed.

  Lemma inv_len : N.of_nat (length (log_of d)) = flen (d_files d) + N.of_nat (length Ac).
  Proof. rewrite inv_log, app_length, map_length. unfold flen. lia. Qed.

  Lemma inv_consec : consec i0 (log_of d).
  Proof.
    destruct I as (H1 & Hch & V & C & Hn & HKl). rewrite inv_log. apply consec_app; [now apply (chain_consec P)|].
    unfold flen in C. exact C.
  Qed.

  Lemma inv_first : log_of d <> [] -> first_of (log_of d) = i0.
  Proof.
    intro Hne. pose proof inv_consec as C. destruct (log_of d) as [|e r]; [congruence|]. destruct C as [He _]. exact He.
  Qed.

  Lemma inv_disk_first : disk_first d = first_of (log_of d).
  Proof.
    pose proof I as (H1 & Hch & V & C & Hn & HKl). unfold disk_first.
    destruct (d_files d) as [|f t] eqn:Ef.
    - rewrite flen_nil, N.add_0_r in C.
      destruct (nil_or_not Ac) as [EA|EA].
      + rewrite (view_first_empty P (d_cur d) Ac [] V EA). cbn [N.eqb].
        rewrite inv_log, Ef, EA. reflexivity.
      + rewrite (view_first P (d_cur d) Ac [] i0 V C H1 EA). destruct (i0 =? 0) eqn:E; [lia|].
        symmetry. apply inv_first. rewrite inv_log, Ef. cbn [map concat app]. destruct Ac; [congruence|discriminate].
    - cbn [chain] in Hch. destruct Hch as (A & D & Vf & HA & Cf & _).
      rewrite (view_first P f A D i0 Vf Cf H1 HA). destruct (i0 =? 0) eqn:E; [lia|].
      symmetry. apply inv_first. rewrite inv_log, Ef. cbn [map concat]. rewrite (fv_entries P f A D Vf).
      destruct A; [congruence|discriminate].
  Qed.

  Lemma inv_log_nil : log_of d = [] -> Ac = [] /\ d_files d = [].
  Proof.
    intro E. rewrite inv_log in E. apply app_eq_nil in E as [E1 E2]. split; [destruct Ac; [reflexivity|discriminate]|].
    destruct I as (_ & Hch & _). destruct (d_files d) as [|f t]; [reflexivity|]. cbn [chain] in Hch.
    destruct Hch as (A & D & V & HA & _). cbn [map concat] in E1. rewrite (fv_entries P f A D V) in E1.
    apply app_eq_nil in E1 as [E1 _]. destruct A; [congruence|discriminate].
  Qed.

  (* either nothing at all is stored, or the log is not empty (the current file may still be empty beside older files) *)
  Lemma inv_cases : (Ac = [] /\ d_files d = [] /\ log_of d = []) \/ log_of d <> [].
  Proof.
    destruct (nil_or_not (log_of d)) as [E|E]; [left|right; exact E]. destruct (inv_log_nil E) as [E1 E2]. auto.
  Qed.

  Lemma inv_ne_cur : Ac <> [] -> log_of d <> [].
  Proof. intros EA. rewrite inv_log. destruct Ac; [congruence|]. intro X. apply app_eq_nil in X as [_ X]. discriminate. Qed.

  Lemma inv_files_ne : Ac = [] -> log_of d <> [] -> d_files d <> [].
  Proof. intros EA Hne Ef. apply Hne. rewrite inv_log, Ef, EA. reflexivity. Qed.

  Lemma inv_log_last : log_last P d = last_of (log_of d).
  Proof.
    pose proof I as (H1 & Hch & V & C & Hn & HKl). unfold log_last. rewrite Hn.
    destruct (nil_or_not Ac) as [EA|EA].
    - rewrite EA. cbn [length N.of_nat]. replace (0 <? 0) with false by reflexivity.
      destruct (nil_or_not (d_files d)) as [Ef|Ef].
      + rewrite Ef. cbn. rewrite inv_log, Ef, EA. reflexivity.
      + (* empty current file beside older files: the last entry of the newest rotated file *)
        destruct (exists_last Ef) as (pre & f & Hf). rewrite Hf, rev_app_distr. cbn [rev app map find].
        rewrite Hf in Hch. apply chain_app in Hch as [Hpre Hrest]. cbn [chain] in Hrest.
        destruct Hrest as (A & D & Vf & HA & Cf & _). pose proof (length_pos_ne A HA) as Hpos.
        unfold last_entry_index. rewrite (first_empty_view P f A D Vf).
        destruct (0 <? N.of_nat (length A)) eqn:E0; [|lia].
        replace (N.of_nat (length A) - 1) with (N.of_nat (length A - 1)) by lia.
        rewrite (view_index P f A D (i0 + flen pre) Vf Cf) by lia.
        destruct (0 <? i0 + flen pre + N.of_nat (length A - 1)) eqn:E1; [|lia].
        assert (Hne : log_of d <> []).
        { rewrite inv_log, Hf, map_app, concat_app. cbn [map concat]. rewrite (fv_entries P f A D Vf).
          destruct A; [congruence|]. intro X. apply app_eq_nil in X as [X _]. apply app_eq_nil in X as [_ X].
          cbn in X. discriminate. }
        rewrite (consec_last _ _ inv_consec Hne). pose proof inv_len as L. rewrite EA, Hf in L. cbn [length] in L.
        rewrite flen_app in L. rewrite (flen_cons P f A D [] Vf), flen_nil in L. lia.
    - pose proof (length_pos_ne Ac EA) as Hpos.
      destruct (0 <? N.of_nat (length Ac)) eqn:E; [|lia].
      replace (N.of_nat (length Ac) - 1) with (N.of_nat (length Ac - 1)) by lia.
      rewrite (view_index P (d_cur d) Ac [] (i0 + flen (d_files d)) V C) by lia.
      pose proof (inv_ne_cur EA) as Hne.
      rewrite (consec_last _ _ inv_consec Hne). pose proof inv_len. lia.
  Qed.

  Lemma inv_disk_last : disk_last P d = a_last (abs d).
  Proof. unfold disk_last, a_last. rewrite inv_log_last. reflexivity. Qed.

End Facts.

Lemma dinv_empty_any : forall P i0 d, dinv P i0 d [] -> d_files d = [] -> forall j, 1 <= j -> dinv P j d [].
Proof.
  intros P i0 d (H1 & Hch & V & C & Hn & HKl) He j Hj.
  unfold dinv. rewrite He in *. cbn [chain map]. repeat (split; auto).
Qed.

(* slotGe on a store that holds entries, for an index at or above the first: the file it selects ([pre] are the files
   before it, [A]/[D] its rows, [rest] what the log holds behind it) and the slot [lo] it answers - the slot of the
   index when the file holds it, the first empty slot of the last file that holds entries otherwise *)
Lemma slot_ge_locate : forall P d i0 Ac b, dinv P i0 d Ac -> log_of d <> [] -> i0 <= b ->
  exists sel pre A D rest lo,
    slot_ge P d b = (sel, Some (N.of_nat lo))
    /\ chain P i0 pre /\ fview P (sel_file d sel) A D /\ A <> [] /\ consec (i0 + flen pre) (map row_entry A)
    /\ log_of d = concat (map file_entries pre) ++ map row_entry A ++ rest
    /\ ((lo < length A)%nat /\ b = i0 + flen pre + N.of_nat lo
        \/ lo = length A /\ rest = [] /\ D = [] /\ i0 + flen pre + N.of_nat lo <= b)
    /\ match sel with
       | InCur => pre = d_files d /\ A = Ac /\ D = [] /\ rest = []
       | InOld k => k = length pre /\ firstn k (d_files d) = pre /\ (rest = [] -> Ac = [])
                    /\ exists post, d_files d = pre ++ sel_file d sel :: post
                                    /\ chain P (i0 + flen pre + N.of_nat (length A)) post
       end.
Proof.
  intros P d i0 Ac b I Hne Hb. pose proof I as (H1 & Hch & V & C & Hn & HKl). set (c0 := i0 + flen (d_files d)).
  assert (Hold : forall pre f post, d_files d = pre ++ f :: post ->
            sel_file d (InOld (length pre)) = f /\ firstn (length pre) (d_files d) = pre).
  { intros pre f post E. cbn [sel_file]. rewrite E, app_nth2, Nat.sub_diag, firstn_app, firstn_all, Nat.sub_diag by lia.
    cbn [nth firstn]. now rewrite app_nil_r. }
  destruct (b <? c0) eqn:E1; [|destruct (nil_or_not Ac) as [EA|EA]; [|destruct (b <? c0 + N.of_nat (length Ac)) eqn:E2]].
  - destruct (chain_locate P (d_files d) i0 b Hch Hb ltac:(unfold c0 in E1; lia))
      as (pre & f & post & A & D & Hfs & Hpre & Vf & HA & Cf & Hpost & Hfi1 & Hfi2).
    destruct (Hold pre f post Hfs) as [Hsel Hfn].
    exists (InOld (length pre)), pre, A, D, (concat (map file_entries post) ++ map row_entry Ac), (N.to_nat (b - (i0 + flen pre))).
    rewrite Hsel, (slot_ge_old P d i0 Ac I pre f post A D b Hfs Vf Hfi1 Hfi2), N2Nat.id.
    repeat (split; [assumption || reflexivity|]). split; [|split; [left; lia|]].
    + rewrite (inv_log P d i0 Ac I), Hfs, map_app, concat_app. cbn [map concat].
      now rewrite (fv_entries P f A D Vf), <- !app_assoc.
    + repeat (split; [assumption || reflexivity|]). split; [|eauto].
      intro E. apply app_eq_nil in E as [_ E]. now apply map_eq_nil in E.
  - destruct (slot_ge_files_beyond P d i0 Ac I EA (inv_files_ne P d i0 Ac I EA Hne) b ltac:(fold c0; lia))
      as (pre & f & A & Hfs & Hpre & Vf & HAf & Cf & Hc0 & Hs). fold c0 in Hc0.
    destruct (Hold pre f [] Hfs) as [Hsel Hfn].
    exists (InOld (length pre)), pre, A, [], [], (length A). rewrite Hsel.
    repeat (split; [assumption|]). split; [|split; [right; repeat split; lia|]].
    + rewrite (inv_log P d i0 Ac I), Hfs, EA, map_app, concat_app. cbn [map concat].
      now rewrite (fv_entries P f A [] Vf), !app_nil_r.
    + repeat (split; [auto|]). exists []. split; [exact Hfs|exact Logic.I].
  - exists InCur, (d_files d), Ac, [], [], (N.to_nat (b - c0)).
    rewrite (slot_ge_cur_inside P d i0 Ac I b) by (fold c0; lia). fold c0. rewrite N2Nat.id. cbn [sel_file].
    repeat (split; [assumption || reflexivity|]). split; [now rewrite app_nil_r, (inv_log P d i0 Ac I)|].
    split; [left; unfold c0 in *; lia|auto].
  - exists InCur, (d_files d), Ac, [], [], (length Ac).
    rewrite (slot_ge_cur_beyond P d i0 Ac I b EA) by (fold c0; lia). cbn [sel_file].
    repeat (split; [assumption || reflexivity|]). split; [now rewrite app_nil_r, (inv_log P d i0 Ac I)|].
    split; [right; unfold c0 in *; repeat split; lia|auto].
Qed.

(* a read answers with the scan of the log from [lo] on; the store it leaves differs only in cached lengths of slot 0
   (the slot tables are the same: what [ZeroSlots.alivef] needs) *)
Lemma all_entries_spec : forall P lo hi max d i0 Ac,
  dinv P i0 d Ac -> 1 <= hi -> i0 <= lo ->
  exists d',
    all_entries P lo hi max d = (rev (snd (take_scan hi max 0 [] (skipn (N.to_nat (lo - i0)) (log_of d)))), d')
    /\ dinv P i0 d' Ac /\ log_of d' = log_of d /\ d_meta d' = d_meta d /\ d_next d' = d_next d
    /\ map f_rows (d_files d') = map f_rows (d_files d).
Proof.
  intros P lo hi max d i0 Ac I Hhi Hlo. pose proof I as (H1 & Hch & V & C & Hn & HKl). unfold all_entries.
  destruct (inv_cases P d i0 Ac I) as [(EA & Ef & Hl)|Hne].
  - rewrite (slot_ge_empty P d i0 Ac I EA Ef lo), Hl, skipn_nil.
    destruct (scan_file_spec P hi max (d_cur d) Ac [] 0%nat 0 [] V (Nat.le_0_l _) Hhi) as (c' & Hs & Vc' & _).
    rewrite EA in Hs. cbn [skipn N.of_nat map take_scan fst snd] in Hs. rewrite Hs.
    destruct (dinv_replace P i0 d Ac (d_files d) c' I Hch eq_refl eq_refl Vc') as (I' & L' & R').
    rewrite Hl in L'. eexists. split; [reflexivity|]. auto 7.
  - destruct (slot_ge_locate P d i0 Ac lo I Hne Hlo)
      as (sel & pre & A & D & rest & p & -> & Hpre & Vf & HA & Cf & Hlog & Hpos & Hsel).
    assert (Hstream : skipn (N.to_nat (lo - i0)) (log_of d) = map row_entry (skipn p A) ++ rest).
    { assert (Hlp : length (concat (map file_entries pre)) = N.to_nat (flen pre)) by (unfold flen; lia).
      rewrite Hlog. destruct Hpos as [[Hp Hb]|(-> & -> & _ & Hb)].
      - rewrite skipn_app, skipn_all2 by lia. cbn [app].
        replace (N.to_nat (lo - i0) - length (concat (map file_entries pre)))%nat with p by lia.
        rewrite skipn_app_le by (rewrite map_length; lia). now rewrite skipn_map.
      - rewrite skipn_all, !skipn_all2; [reflexivity|]. rewrite !app_length, map_length. cbn [length]. lia. }
    assert (Hp : (p <= length A)%nat) by (destruct Hpos as [[? _]|[-> _]]; lia).
    destruct (scan_file_spec P hi max (sel_file d sel) A D p 0 [] Vf Hp Hhi) as (f' & Hs & Vf' & Rf').
    rewrite Hstream. destruct sel as [|k]; cbv beta iota zeta.
    + destruct Hsel as (-> & -> & -> & ->). cbn [sel_file] in Hs, Vf'. rewrite Hs, app_nil_r, rev_append_nil.
      destruct (dinv_replace P i0 d Ac (d_files d) f' I Hch eq_refl eq_refl Vf') as (I' & L' & R').
      eexists. split; [reflexivity|]. auto 7.
    + destruct Hsel as (-> & Hfk & _ & post & Hfs & Hpost). set (f := sel_file d (InOld (length pre))) in *.
      assert (Hrest : rest = concat (map file_entries post) ++ map row_entry Ac).
      { rewrite (inv_log P d i0 Ac I), Hfs, map_app, concat_app in Hlog. cbn [map concat] in Hlog.
        rewrite (fv_entries P f A D Vf), <- !app_assoc in Hlog. apply app_inv_head in Hlog. now apply app_inv_head in Hlog. }
      assert (Hnew : forall post' c', chain P (i0 + flen pre + N.of_nat (length A)) post' ->
                map file_entries post' = map file_entries post -> map f_rows post' = map f_rows post -> fview P c' Ac [] ->
                let d' := mkdisk (pre ++ f' :: post') c' (d_next d) (d_meta d) in
                dinv P i0 d' Ac /\ log_of d' = log_of d /\ map f_rows (d_files d') = map f_rows (d_files d)).
      { intros post' c' Hc Hm Hr Vc'. apply dinv_replace; [exact I| | | |exact Vc'].
        - apply chain_app. split; [exact Hpre|]. cbn [chain]. exists A, D. auto.
        - rewrite Hfs, !map_app. cbn [map]. now rewrite Hm, (fv_entries P f' A D Vf'), (fv_entries P f A D Vf).
        - rewrite Hfs, !map_app. cbn [map]. now rewrite Hr, Rf'. }
      rewrite Hfk. replace (skipn (length pre) (d_files d)) with (f :: post)
        by (rewrite Hfs, skipn_app, skipn_all, Nat.sub_diag; reflexivity).
      rewrite Hs, Hrest, take_scan_app.
      destruct (take_scan hi max 0 [] (map row_entry (skipn p A))) as [[st1 sz1] ac1]. cbn [fst snd].
      destruct st1.
      * destruct (Hnew post (d_cur d) Hpost eq_refl eq_refl V) as (I' & L' & R').
        eexists. split; [rewrite rev_append_nil; reflexivity|]. auto 7.
      * destruct (scan_files_spec P hi max post _ sz1 ac1 Hpost Hhi) as (post' & Hs2 & Hpost' & Hm2 & Hr2).
        rewrite Hs2, take_scan_app.
        destruct (take_scan hi max sz1 ac1 (concat (map file_entries post))) as [[st2 sz2] ac2]. cbn [fst snd].
        destruct st2.
        -- destruct (Hnew post' (d_cur d) Hpost' Hm2 Hr2 V) as (I' & L' & R').
           eexists. split; [rewrite rev_append_nil; reflexivity|]. auto 7.
        -- destruct (scan_file_spec P hi max (d_cur d) Ac [] 0%nat sz2 ac2 V (Nat.le_0_l _) Hhi) as (c' & Hs3 & Vc' & _).
           cbn [skipn N.of_nat] in Hs3. rewrite Hs3.
           destruct (Hnew post' c' Hpost' Hm2 Hr2 Vc') as (I' & L' & R').
           eexists. split; [rewrite rev_append_nil; reflexivity|]. auto 7.
Qed.

Lemma row_entry_term : forall r, e_term (row_entry r) = s_term_ (r_slot r).
Proof. reflexivity. Qed.

Lemma seek_entry_spec : forall P d i0 Ac i,
  dinv P i0 d Ac -> 1 <= i ->
  match lookup i (log_of d) with
  | Some e => exists s, seek_entry P d i = (Ok, s) /\ s_term_ s = e_term e
  | None => seek_entry P d i =
            ((if (i <? first_of (log_of d)) || (match log_of d with [] => true | _ => false end)
              then Compacted else Unavailable), zero_slot)
  end.
Proof.
  intros P d i0 Ac i I Hi. pose proof I as (H1 & Hch & V & C & Hn & HKl).
  unfold seek_entry. destruct (i =? 0) eqn:Ei0; [lia|].
  destruct (inv_cases P d i0 Ac I) as [(EA & Ef & Hl)|Hne].
  - rewrite Hl. unfold lookup. cbn [first_of]. destruct (i <? 1); [|destruct (N.to_nat (i - 1)); cbn [nth_error]];
      rewrite (slot_ge_empty P d i0 Ac I EA Ef i); cbn; rewrite ?orb_true_r; reflexivity.
  - assert (Hf : first_of (log_of d) = i0) by (apply (inv_first P d i0 Ac I Hne)).
    assert (Hnel : (match log_of d with [] => true | _ => false end) = false) by (destruct (log_of d); [congruence|reflexivity]).
    rewrite Hnel, orb_false_r. unfold lookup. rewrite Hf.
    destruct (i <? i0) eqn:E1.
    + destruct (slot_ge_below P d i0 Ac I i ltac:(lia)) as (sel & ->). reflexivity.
    + destruct (slot_ge_locate P d i0 Ac i I Hne ltac:(lia))
        as (sel & pre & A & D & rest & lo & -> & _ & Vf & _ & Cf & Hlog & Hpos & _).
      pose proof (view_len_max P _ A D Vf) as HM.
      assert (Hlp : length (concat (map file_entries pre)) = N.to_nat (flen pre)) by (unfold flen; lia).
      destruct Hpos as [[Hlo Hb]|(-> & -> & -> & Hb)].
      * (* the file holds the index *)
        destruct (max_entries P <=? N.of_nat lo) eqn:E3; [lia|].
        rewrite (view_index P _ A D (i0 + flen pre) Vf Cf lo Hlo).
        destruct (i0 + flen pre + N.of_nat lo =? 0) eqn:E4; [lia|].
        destruct (i0 + flen pre + N.of_nat lo =? i) eqn:E5; [|lia].
        rewrite Hlog, nth_error_app2 by lia.
        replace (N.to_nat (i - i0) - length (concat (map file_entries pre)))%nat with lo by lia.
        rewrite nth_error_app1 by (rewrite map_length; exact Hlo). rewrite (nth_error_map_row A lo Hlo).
        eexists. split; [reflexivity|]. unfold slot_at. rewrite (fv_row_at_live P _ A D lo Vf Hlo). reflexivity.
      * (* beyond the last index: the first empty slot of the last file that holds entries *)
        assert (Hnone : nth_error (log_of d) (N.to_nat (i - i0)) = None).
        { apply nth_error_None. rewrite Hlog, app_nil_r, app_length, map_length. lia. }
        rewrite Hnone. destruct (max_entries P <=? N.of_nat (length A)) eqn:E4; [reflexivity|].
        rewrite (fv_row_at_beyond P _ A [] (length A) Vf) by lia. reflexivity.
Qed.

Definition fits (P : params) (e : entry) : Prop := data_off P + 4 + p_len (e_data e) <= max_size P.

(* what the Raft contract (and the model's arithmetic) asks of an operation in abstract state [a] *)
Definition valid_op (P : params) (o : sop) (a : alog) : Prop :=
  match o with
  | Save es _ _ =>
      match es with
      | [] => True
      | e0 :: _ => consec (e_index e0) es /\ 1 <= e_index e0 /\ Forall (fits P) es
                   /\ (a_ents a = [] \/ (first_of (a_ents a) <= e_index e0 /\ e_index e0 <= last_of (a_ents a) + 1))
      end
  | Entries _ hi _ => 1 <= hi
  | Sum => total_size (a_ents a) <= 18446744073709551615
  | _ => True
  end.

Definition step_ok (P : params) (o : sop) (d : disk) : Prop :=
  let '(d', r) := step_disk VRepaired P o d in
  let '(a', r') := step_spec o (r_first r) (abs d) in
  (exists i0' Ac', dinv P i0' d' Ac') /\ abs d' = a' /\ r = r'.

Lemma dres_res : forall P d i0 Ac e es t m, dinv P i0 d Ac -> dres P d e es t m = res_of (abs d) e es t m.
Proof.
  intros. unfold dres, res_of. rewrite (inv_disk_first P d i0 Ac H), (inv_disk_last P d i0 Ac H). reflexivity.
Qed.

Lemma disk_term_spec : forall P d i0 Ac i, dinv P i0 d Ac -> disk_term P d i = s_term i (abs d).
Proof.
  intros P d i0 Ac i I. unfold disk_term, s_term. destruct (i =? 0) eqn:E0.
  - assert (i = 0) by lia. subst i. reflexivity.
  - pose proof (seek_entry_spec P d i0 Ac i I ltac:(lia)) as S. rewrite abs_log. unfold a_first. cbn [a_ents a_meta].
    destruct (lookup i (log_of d)) as [e|].
    + destruct S as (s & -> & Hs). now rewrite Hs.
    + rewrite S.
      destruct ((i <? first_of (log_of d)) || match log_of d with [] => true | _ => false end); reflexivity.
Qed.

Lemma step_term : forall P d i0 Ac i, dinv P i0 d Ac -> step_ok P (Term i) d.
Proof.
  intros P d i0 Ac i I. unfold step_ok. cbn [step_disk step_spec].
  rewrite (disk_term_spec P d i0 Ac i I). destruct (s_term i (abs d)) as [e t].
  split; [eauto|]. split; [reflexivity|]. apply (dres_res P d i0 Ac); exact I.
Qed.

Lemma step_getmeta : forall P d i0 Ac, dinv P i0 d Ac -> step_ok P GetMeta d.
Proof.
  intros P d i0 Ac I. unfold step_ok. cbn [step_disk step_spec].
  split; [eauto|]. split; [reflexivity|]. apply (dres_res P d i0 Ac); exact I.
Qed.

Lemma step_csnap : forall P d i0 Ac i v dt, dinv P i0 d Ac -> step_ok P (CreateSnap i v dt) d.
Proof.
  intros P d i0 Ac i v dt I. unfold step_ok. cbn [step_disk step_spec].
  unfold disk_csnap, s_csnap. rewrite (inv_disk_first P d i0 Ac I). rewrite abs_log. unfold a_first. cbn [a_ents a_meta].
  destruct (i <? first_of (log_of d)) eqn:E1.
  - split; [eauto|]. split; [reflexivity|]. apply (dres_res P d i0 Ac); exact I.
  - assert (Hi : 1 <= i).
    { destruct (log_of d) eqn:El; cbn [first_of] in E1; [lia|].
      pose proof (inv_first P d i0 Ac I ltac:(rewrite El; discriminate)) as F. rewrite El in F. cbn [first_of] in F.
      destruct I as (H1 & _). lia. }
    pose proof (seek_entry_spec P d i0 Ac i I Hi) as S.
    destruct (lookup i (log_of d)) as [e|].
    + destruct S as (s & -> & Hs). rewrite Hs.
      set (d' := mkdisk (d_files d) (d_cur d) (d_next d) (store_snap (Some (mksnap i (e_term e) v dt)) (d_meta d))).
      assert (I' : dinv P i0 d' Ac) by exact I.
      split; [eauto|]. split; [reflexivity|]. apply (dres_res P d' i0 Ac); exact I'.
    + rewrite S. rewrite E1. cbn [orb].
      destruct (log_of d) eqn:El; (split; [eauto|]; split; [rewrite <- El; reflexivity|]; rewrite <- El;
        change (mkalog (log_of d) (d_meta d)) with (abs d); apply (dres_res P d i0 Ac); exact I).
Qed.

Lemma consec_skipn : forall l i k, consec i l -> consec (i + N.of_nat k) (skipn k l).
Proof.
  induction l as [|e r IH]; intros i k H; [now rewrite skipn_nil|].
  destruct k; cbn [skipn]; [now rewrite N.add_0_r|]. destruct H as [_ H].
  replace (i + N.of_nat (S k)) with (i + 1 + N.of_nat k) by lia. now apply IH.
Qed.

Lemma dinv_at_first : forall P i0 d Ac, dinv P i0 d Ac -> dinv P (first_of (log_of d)) d Ac.
Proof.
  intros P i0 d Ac I. destruct (nil_or_not (log_of d)) as [E|E].
  - destruct (inv_log_nil P d i0 Ac I E) as [EA Ef].
    subst Ac. rewrite E. apply (dinv_empty_any P i0 d I Ef). cbn. lia.
  - now rewrite (inv_first P d i0 Ac I E).
Qed.

Lemma abs_same : forall d d', log_of d' = log_of d -> d_meta d' = d_meta d -> abs d' = abs d.
Proof. intros d d' H1 H2. rewrite !abs_log. now rewrite H1, H2. Qed.

(* Entries answers like the specification; only the cached length of slot 0 may change *)
Lemma disk_entries_spec : forall P d i0 Ac lo hi max, dinv P i0 d Ac -> 1 <= hi ->
  exists d', disk_entries P lo hi max d = (s_entries lo hi max (log_of d), d')
             /\ dinv P (first_of (log_of d)) d' Ac /\ log_of d' = log_of d /\ d_meta d' = d_meta d
             /\ map f_rows (d_files d') = map f_rows (d_files d).
Proof.
  intros P d i0 Ac lo hi max I0 Hhi. pose proof (dinv_at_first P i0 d Ac I0) as I. clear I0.
  unfold disk_entries, s_entries.
  rewrite (inv_disk_first P d (first_of (log_of d)) Ac I), (inv_log_last P d (first_of (log_of d)) Ac I).
  destruct (lo <? first_of (log_of d)) eqn:E1; [exists d; auto 6|].
  destruct (last_of (log_of d) + 1 <? hi) eqn:E2; [exists d; auto 6|].
  destruct (all_entries_spec P lo hi max d (first_of (log_of d)) Ac I Hhi ltac:(lia)) as (d' & Hall & I' & L' & M' & _ & R').
  exists d'. rewrite Hall. split; [|auto 6]. do 2 f_equal. unfold slice. apply take_scan_limit.
  replace lo with (first_of (log_of d) + N.of_nat (N.to_nat (lo - first_of (log_of d)))) at 1 by lia.
  apply consec_skipn. exact (inv_consec P d (first_of (log_of d)) Ac I).
Qed.

Lemma step_entries : forall P d i0 Ac lo hi max, dinv P i0 d Ac -> 1 <= hi -> step_ok P (Entries lo hi max) d.
Proof.
  intros P d i0 Ac lo hi max I Hhi. unfold step_ok. cbn [step_disk step_spec].
  destruct (disk_entries_spec P d i0 Ac lo hi max I Hhi) as (d' & -> & I' & L' & M' & _).
  change (a_ents (abs d)) with (log_of d). destruct (s_entries lo hi max (log_of d)) as [e es].
  split; [eauto|]. split; [now apply abs_same|].
  rewrite (dres_res P d' _ Ac _ _ _ _ I'). now rewrite (abs_same d d' L' M').
Qed.

Lemma firstn_whole_log : forall l i, consec i l -> l <> [] -> first_of l = i ->
  firstn (N.to_nat (last_of l + 1 - i)) l = l.
Proof.
  intros l i C Hne Hf. rewrite (consec_last l i C Hne). apply firstn_all2.
  destruct l; [congruence|]. cbn [length] in *. lia.
Qed.

(* a full scan reads the whole log when its protobuf size fits the uint64 limit of the scan *)
Lemma disk_all_spec : forall P d i0 Ac, dinv P i0 d Ac -> total_size (log_of d) <= 18446744073709551615 ->
  exists d', disk_all P d = (log_of d, d')
             /\ dinv P (first_of (log_of d)) d' Ac /\ log_of d' = log_of d /\ d_meta d' = d_meta d
             /\ map f_rows (d_files d') = map f_rows (d_files d).
Proof.
  intros P d i0 Ac I0 Hsz. pose proof (dinv_at_first P i0 d Ac I0) as I. clear I0. unfold disk_all.
  rewrite (inv_disk_first P d (first_of (log_of d)) Ac I), (inv_log_last P d (first_of (log_of d)) Ac I).
  destruct (all_entries_spec P (first_of (log_of d)) (last_of (log_of d) + 1) 18446744073709551615 d
              (first_of (log_of d)) Ac I ltac:(lia) ltac:(lia)) as (d' & Hall & I' & L' & M' & _ & R').
  exists d'. rewrite Hall, N.sub_diag. split; [|auto 6]. f_equal. cbn [N.to_nat skipn].
  rewrite (take_scan_limit _ _ (log_of d) (first_of (log_of d)) (inv_consec P d _ Ac I)).
  destruct (nil_or_not (log_of d)) as [E|E].
  - rewrite E. now destruct (N.to_nat _).
  - rewrite (firstn_whole_log _ _ (inv_consec P d _ Ac I) E eq_refl). now apply limit_size_all.
Qed.

Lemma step_sum : forall P d i0 Ac, dinv P i0 d Ac -> total_size (log_of d) <= 18446744073709551615 -> step_ok P Sum d.
Proof.
  intros P d i0 Ac I Hsz. unfold step_ok. cbn [step_disk step_spec].
  destruct (disk_all_spec P d i0 Ac I Hsz) as (d' & -> & I' & L' & M' & _).
  split; [eauto|]. split; [now apply abs_same|].
  rewrite (dres_res P d' _ Ac _ _ _ _ I'). now rewrite (abs_same d d' L' M').
Qed.

Lemma skipn_exact : forall {T} (a b : list T), skipn (length a) (a ++ b) = b.
Proof. intros. rewrite skipn_app, skipn_all, Nat.sub_diag. reflexivity. Qed.

Lemma dinv_skip_files : forall P i0 d Ac i, dinv P i0 d Ac -> (i <= length (d_files d))%nat ->
  let d1 := mkdisk (skipn i (d_files d)) (d_cur d) (d_next d) (d_meta d) in
  dinv P (i0 + flen (firstn i (d_files d))) d1 Ac
  /\ log_of d1 = skipn (N.to_nat (flen (firstn i (d_files d)))) (log_of d).
Proof.
  intros P i0 d Ac i I Hi d1. pose proof I as (H1 & Hch & V & C & Hn & HKl).
  assert (Hsplit : d_files d = firstn i (d_files d) ++ skipn i (d_files d)) by (symmetry; apply firstn_skipn).
  set (pre := firstn i (d_files d)) in *. set (post := skipn i (d_files d)) in *.
  assert (Hch2 : chain P i0 pre /\ chain P (i0 + flen pre) post) by (apply chain_app; rewrite <- Hsplit; exact Hch).
  assert (Hfl : flen (d_files d) = flen pre + flen post) by (rewrite Hsplit at 1; apply flen_app).
  assert (I1 : dinv P (i0 + flen pre) d1 Ac).
  { unfold dinv, d1. cbn [d_files d_cur d_next]. split; [lia|]. split; [tauto|]. split; [exact V|].
    split; [replace (i0 + flen pre + flen post) with (i0 + flen (d_files d)) by lia; exact C|].
    split; [exact Hn|]. intro E. specialize (HKl E). rewrite Hsplit in HKl. apply Forall_app in HKl. tauto. }
  split; [exact I1|].
  rewrite (inv_log P d1 _ Ac I1), (inv_log P d i0 Ac I). unfold d1. cbn [d_files]. fold post.
  replace (concat (map file_entries (d_files d))) with (concat (map file_entries pre) ++ concat (map file_entries post))
    by (rewrite Hsplit, map_app, concat_app; reflexivity).
  rewrite <- app_assoc.
  replace (N.to_nat (flen pre)) with (length (concat (map file_entries pre))) by (unfold flen; lia).
  now rewrite skipn_exact.
Qed.

Lemma delete_before_state : forall P d i0 Ac j,
  dinv P i0 d Ac ->
  (exists i0', dinv P i0' (snd (delete_before P j d)) Ac)
  /\ log_of (snd (delete_before P j d)) = drop_below (disk_first (snd (delete_before P j d))) (log_of d)
  /\ d_meta (snd (delete_before P j d)) = d_meta d
  /\ fst (delete_before P j d)
     = (if (j <? first_of (log_of d)) || (match log_of d with [] => true | _ => false end) then OtherErr else Ok).
Proof.
  intros P d i0 Ac j I.
  assert (Hsame : log_of d = drop_below (disk_first d) (log_of d)).
  { unfold drop_below. rewrite (inv_disk_first P d i0 Ac I), N.sub_diag. reflexivity. }
  unfold delete_before.
  destruct (inv_cases P d i0 Ac I) as [(EA & Ef & Hl)|Hne].
  - rewrite (slot_ge_empty P d i0 Ac I EA Ef j). cbn [fst snd].
    split; [eauto|]. split; [exact Hsame|]. split; [reflexivity|]. rewrite Hl, orb_true_r. reflexivity.
  - assert (Hf : first_of (log_of d) = i0) by (apply (inv_first P d i0 Ac I Hne)).
    assert (Hnel : (match log_of d with [] => true | _ => false end) = false) by (destruct (log_of d); [congruence|reflexivity]).
    rewrite Hnel, orb_false_r, Hf.
    destruct (j <? i0) eqn:E1.
    + destruct (slot_ge_below P d i0 Ac I j ltac:(lia)) as (sel & Hs). rewrite Hs. destruct sel; cbn [fst snd]; (split; [exists i0; exact I|]; split; [exact Hsame|]; split; reflexivity).
    + destruct (slot_ge_locate P d i0 Ac j I Hne ltac:(lia))
        as (sel & pre & A & D & rest & lo & -> & _ & _ & HA & _ & Hlog & _ & Hsel).
      (* the files before the selected one go *)
      assert (G : forall k, (k <= length (d_files d))%nat -> firstn k (d_files d) = pre ->
                let d1 := mkdisk (skipn k (d_files d)) (d_cur d) (d_next d) (d_meta d) in
                (exists i0', dinv P i0' d1 Ac) /\ log_of d1 = drop_below (disk_first d1) (log_of d)).
      { intros k Hk Hfk d1. destruct (dinv_skip_files P i0 d Ac k I Hk) as [I1 L1]. fold d1 in I1, L1. rewrite Hfk in I1, L1.
        split; [eauto|].
        assert (Hne1 : log_of d1 <> []).
        { rewrite L1, Hlog. unfold flen. rewrite Nat2N.id, skipn_exact. destruct A; [congruence|discriminate]. }
        rewrite (inv_disk_first P d1 _ Ac I1), (inv_first P d1 _ Ac I1 Hne1), L1. unfold drop_below. rewrite Hf. f_equal. lia. }
      destruct sel as [|k]; cbn [fst snd].
      * destruct Hsel as (-> & _). destruct (G (length (d_files d)) (le_n _) (firstn_all _)) as [G1 G2].
        rewrite skipn_all in G1, G2. auto.
      * destruct Hsel as (Hk & Hfk & _ & _). destruct (G k) as [G1 G2]; [|exact Hfk|auto].
        pose proof (f_equal (@length _) Hfk) as L. rewrite firstn_length in L. lia.
Qed.

Lemma step_delete : forall P d i0 Ac j, dinv P i0 d Ac -> step_ok P (DeleteBefore j) d.
Proof.
  intros P d i0 Ac j I. unfold step_ok. cbn [step_disk step_spec].
  destruct (delete_before_state P d i0 Ac j I) as ((i0' & I') & L' & M' & E').
  destruct (delete_before P j d) as [e d'] eqn:Ed. cbn [fst snd] in *.
  unfold a_first. change (a_ents (abs d)) with (log_of d). change (r_first (dres P d' e [] 0 None)) with (disk_first d').
  rewrite E'.
  destruct ((j <? first_of (log_of d)) || match log_of d with [] => true | _ => false end) eqn:Ec.
  - assert (Hd : d' = d).
    { unfold delete_before in Ed. destruct (slot_ge P d j) as [sel [p|]] eqn:Es.
      - destruct sel; injection Ed as <- <-; discriminate E'.
      - destruct sel; now injection Ed. }
    subst d'. split; [eauto|]. split; [reflexivity|]. apply (dres_res P d i0' Ac); exact I'.
  - split; [eauto|]. split.
    + rewrite abs_log, L', M'. reflexivity.
    + rewrite (dres_res P d' i0' Ac _ _ _ _ I'). rewrite abs_log, L', M'. reflexivity.
Qed.

Lemma filter_all : forall {T} (p : T -> bool) l, Forall (fun x => p x = true) l -> filter p l = l.
Proof. intros T p l H. induction H as [|x t Hx Ht IH]; [reflexivity|]. cbn [filter]. now rewrite Hx, IH. Qed.

Lemma forget_view : forall P f A D, fview P f A D -> fview P (forget f) A D.
Proof. intros P f A D [V1 V2 V3 V4 V5 V6 V7]. constructor; auto. exact Logic.I. Qed.

Lemma forget_entries : forall f, file_entries (forget f) = file_entries f.
Proof. reflexivity. Qed.

Lemma forget_first : forall f, file_first (forget f) = file_first f.
Proof. reflexivity. Qed.

Lemma chain_forget : forall P fs i, chain P i fs -> chain P i (map forget fs).
Proof.
  intros P fs. induction fs as [|f t IH]; intros i H; [exact Logic.I|]. cbn [chain map] in *.
  destruct H as (A & D & V & HA & C & R). exists A, D. split; [now apply forget_view|]. auto.
Qed.

Lemma map_forget_entries : forall fs, map file_entries (map forget fs) = map file_entries fs.
Proof. intros. rewrite map_map. apply map_ext. intro. reflexivity. Qed.

Lemma insert_file_last : forall f l, Forall (fun g => file_first g <= file_first f) l -> insert_file f l = l ++ [f].
Proof.
  intros f l H. induction H as [|g t Hg Ht IH]; [reflexivity|]. cbn [insert_file app].
  destruct (file_first g <=? file_first f) eqn:E; [now rewrite IH|lia].
Qed.

Lemma sort_files_sorted : forall l acc,
  (forall a f b, acc ++ l = a ++ f :: b -> Forall (fun g => file_first g <= file_first f) a) ->
  fold_left (fun acc f => insert_file f acc) l acc = acc ++ l.
Proof.
  induction l as [|f t IH]; intros acc H; cbn [fold_left]; [now rewrite app_nil_r|].
  rewrite insert_file_last by (apply (H acc f t); reflexivity).
  rewrite IH; [now rewrite <- app_assoc|]. intros a g b E. apply (H a g b). rewrite <- E, <- app_assoc. reflexivity.
Qed.

Lemma chain_firsts : forall P fs i, chain P i fs -> 1 <= i ->
  Forall (fun g => i <= file_first g /\ file_first g < i + flen fs) fs.
Proof.
  intros P fs. induction fs as [|f t IH]; intros i H Hi; [constructor|].
  cbn [chain] in H. destruct H as (A & D & V & HA & C & R). rewrite (flen_cons P f A D t V).
  pose proof (length_pos_ne A HA). constructor.
  - rewrite (view_first P f A D i V C Hi HA). lia.
  - eapply Forall_impl; [|apply (IH _ R); lia]. cbn. intros g [G1 G2]. lia.
Qed.

Lemma chain_sorted : forall P fs i a f b, chain P i fs -> 1 <= i -> fs = a ++ f :: b ->
  Forall (fun g => file_first g <= file_first f) a.
Proof.
  intros P fs i a f b H Hi ->. apply chain_app in H as [Ha Hb].
  pose proof (chain_firsts P a i Ha Hi) as Fa.
  cbn [chain] in Hb. destruct Hb as (A & D & V & HA & C & _).
  rewrite (view_first P f A D (i + flen a) V C ltac:(lia) HA).
  eapply Forall_impl; [|exact Fa]. cbn. intros g [_ G]. lia.
Qed.

Lemma insert_file_first : forall f l, Forall (fun g => file_first f < file_first g) l -> insert_file f l = f :: l.
Proof.
  intros f l H. destruct H as [|g t Hg Ht]; [reflexivity|]. cbn [insert_file].
  destruct (file_first g <=? file_first f) eqn:E; [lia|reflexivity].
Qed.

Lemma open_logs_inv : forall P d i0 Ac,
  dinv P i0 d Ac ->
  (exists Ac', dinv P i0 (open_logs P d) Ac') /\ log_of (open_logs P d) = log_of d /\ d_meta (open_logs P d) = d_meta d
  /\ (Ac <> [] -> dinv P i0 (open_logs P d) Ac).
Proof.
  intros P d i0 Ac I. pose proof I as (H1 & Hch & V & C & Hn & HKl). unfold open_logs.
  destruct (nil_or_not Ac) as [EA|EA]; [destruct (nil_or_not (d_files d)) as [Ef|Ef]|].
  - (* nothing on disk but an empty file: it is removed and a new one created *)
    rewrite Ef. cbn [app map]. unfold sort_files. cbn [fold_left insert_file filter].
    rewrite forget_first, (view_first_empty P (d_cur d) Ac [] V EA).
    cbn [N.eqb negb rev].
    split; [|split; [|split; [reflexivity|congruence]]].
    + exists []. unfold dinv. cbn [d_files d_cur d_next chain].
      split; [exact H1|]. split; [exact Logic.I|]. split; [apply new_file_view|]. split; [exact Logic.I|]. split; [reflexivity|]. intros _. constructor.
    + rewrite !log_of_eq. cbn [d_files d_cur map concat app]. rewrite Ef. cbn [map concat app].
      rewrite (fv_entries P (d_cur d) Ac [] V), EA. reflexivity.
  - (* the empty current file beside older files is dropped; the newest rotated file becomes the current one *)
    destruct (exists_last Ef) as (pre & f & Hf).
    pose proof (HKl EA) as Hal.
    pose proof Hch as Hch0. rewrite Hf in Hch. apply chain_app in Hch as [Hpre Hrest]. cbn [chain] in Hrest.
    destruct Hrest as (A & D & Vf & HA & Cf & _).
    assert (ED : D = []).
    { apply (all_live_no_dead P f A D Vf). rewrite Hf in Hal. apply Forall_app in Hal as [_ Hal]. now inversion Hal. }
    subst D.
    set (files' := map forget (d_files d)).
    assert (Hall : map forget (d_files d ++ [d_cur d]) = files' ++ [forget (d_cur d)]) by (rewrite map_app; reflexivity).
    assert (Hchf : chain P i0 files') by (now apply chain_forget).
    assert (Hc0 : file_first (forget (d_cur d)) = 0).
    { rewrite forget_first. apply (view_first_empty P (d_cur d) Ac [] V EA). }
    assert (Hsort : sort_files (files' ++ [forget (d_cur d)]) = forget (d_cur d) :: files').
    { unfold sort_files. rewrite fold_left_app. cbn [fold_left].
      rewrite (sort_files_sorted files' []); [cbn [app]|].
      - apply insert_file_first. pose proof (chain_firsts P files' i0 Hchf H1) as F.
        eapply Forall_impl; [|exact F]. cbn. intros g [G1 _]. rewrite Hc0. lia.
      - cbn [app]. intros a g b E. exact (chain_sorted P files' i0 a g b Hchf H1 E). }
    assert (Hfilter : filter (fun g => negb (file_first g =? 0)) (forget (d_cur d) :: files') = files').
    { cbn [filter]. rewrite Hc0. cbn [N.eqb negb]. apply filter_all. pose proof (chain_firsts P files' i0 Hchf H1) as F.
      eapply Forall_impl; [|exact F]. cbn. intros g [G1 G2]. destruct (file_first g =? 0) eqn:E; [lia|reflexivity]. }
    rewrite Hall, Hsort, Hfilter. unfold files'. rewrite Hf, map_app, rev_app_distr. cbn [map rev app]. rewrite rev_involutive.
    rewrite (first_empty_view P (forget f) A [] (forget_view P _ _ _ Vf)).
    split; [|split; [|split; [reflexivity|congruence]]].
    + exists A. unfold dinv. cbn [d_files d_cur d_next].
      rewrite (flen_map _ pre (map_forget_entries _)).
      split; [exact H1|]. split; [now apply chain_forget|]. split; [now apply forget_view|]. split; [exact Cf|].
      split; [reflexivity|]. intro E. congruence.
    + rewrite !log_of_eq. cbn [d_files d_cur]. rewrite map_forget_entries, Hf, map_app, concat_app. cbn [map concat].
      rewrite app_nil_r, (fv_entries P (d_cur d) Ac [] V), EA. cbn [map]. rewrite app_nil_r. reflexivity.
  - set (all := map forget (d_files d ++ [d_cur d])).
    assert (Hall : all = map forget (d_files d) ++ [forget (d_cur d)]) by (unfold all; rewrite map_app; reflexivity).
    assert (Hchain_all : chain P i0 all).
    { rewrite Hall. apply chain_app. split; [now apply chain_forget|]. cbn [chain].
      exists Ac, []. split; [now apply forget_view|]. split; [exact EA|]. split; [|exact Logic.I].
      rewrite (flen_map _ (d_files d) (map_forget_entries _)). exact C. }
    assert (Hsort : sort_files all = all).
    { unfold sort_files. rewrite sort_files_sorted; [reflexivity|]. cbn [app]. intros a f b E.
      exact (chain_sorted P all i0 a f b Hchain_all H1 E). }
    assert (Hfilter : filter (fun f => negb (file_first f =? 0)) all = all).
    { apply filter_all. pose proof (chain_firsts P all i0 Hchain_all H1) as F.
      eapply Forall_impl; [|exact F]. cbn. intros g [G1 G2]. destruct (file_first g =? 0) eqn:E; [lia|reflexivity]. }
    rewrite Hsort, Hfilter, Hall, rev_app_distr. cbn [rev app]. rewrite rev_involutive.
    rewrite (first_empty_view P (forget (d_cur d)) Ac [] (forget_view P _ _ _ V)).
    assert (Inew : dinv P i0 (mkdisk (map forget (d_files d)) (forget (d_cur d)) (N.of_nat (length Ac)) (d_meta d)) Ac).
    { unfold dinv. cbn [d_files d_cur d_next]. rewrite (flen_map _ (d_files d) (map_forget_entries _)).
      split; [exact H1|]. split; [now apply chain_forget|]. split; [now apply forget_view|]. split; [exact C|].
      split; [reflexivity|]. intro E. congruence. }
    split; [|split; [|split; [reflexivity|intros _; exact Inew]]].
    + exists Ac. exact Inew.
    + rewrite !log_of_eq. cbn [d_files d_cur]. rewrite map_forget_entries. reflexivity.
Qed.

Lemma step_reopen : forall P d i0 Ac, dinv P i0 d Ac -> step_ok P Reopen d.
Proof.
  intros P d i0 Ac I. unfold step_ok. cbn [step_disk step_spec]. unfold reopen.
  destruct (open_logs_inv P d i0 Ac I) as ((Ac1 & I1) & L1 & M1 & _).
  set (d1 := open_logs P d) in *.
  set (j := (if 0 <? snap_i (d_meta d1) then snap_i (d_meta d1) + 1 else disk_first d1) - 1).
  destruct (delete_before_state P d1 i0 Ac1 j I1) as ((i0' & I') & L' & M' & _).
  set (d' := snd (delete_before P j d1)) in *.
  change (r_first (dres P d' Ok [] 0 None)) with (disk_first d').
  split; [eauto|]. split.
  - rewrite abs_log, L', M', L1, M1. reflexivity.
  - rewrite (dres_res P d' i0' Ac1 _ _ _ _ I'). rewrite abs_log, L', M', L1, M1. reflexivity.
Qed.
