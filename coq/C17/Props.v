(* C17 property theorems: the statements, each closed by the lemma of a proof file, by a line or two from one, or by
   evaluation; and Print Assumptions. *)
From Coq Require Import NArith List Bool.
From OG Require Import C17.Model C17.Proofs C17.Refine C17.Corr C17.Scope C17.ScopeProofs C17.Gen_Consts C17.Crash.
From OG Require Import C17.Inv C17.Search C17.Read C17.Step C17.SaveStep C17.ZeroSlots C17.Fault C17.Tear C17.Bytes C17.DelFault.
Import ListNotations.
Open Scope N_scope.

(* Specification level (alog = etcd MemoryStorage as the store exposes it). *)

(* appending at an index that already exists discards that entry and everything after it; the log stays a run of
   consecutive indexes; the last index is the end of the batch *)
Theorem C17_spec_append : forall es l e0 r,
  es = e0 :: r -> wf_log l -> consec (e_index e0) es -> 1 <= e_index e0 ->
  (l = [] \/ (first_of l <= e_index e0 /\ e_index e0 <= last_of l + 1)) ->
  wf_log (s_append es l)
  /\ s_append es l = filter (fun e => e_index e <? e_index e0) l ++ es
  /\ last_of (s_append es l) = e_index e0 + N.of_nat (length es) - 1.
Proof. exact s_append_wf. Qed.
Print Assumptions C17_spec_append.

(* compacted prefixes report 'compacted', ranges beyond the end report 'unavailable', everything else is answered *)
Theorem C17_spec_entries_compacted : forall lo hi max l, lo < first_of l -> s_entries lo hi max l = (Compacted, []).
Proof. exact s_entries_compacted. Qed.
Theorem C17_spec_entries_unavailable : forall lo hi max l,
  first_of l <= lo -> last_of l + 1 < hi -> s_entries lo hi max l = (Unavailable, []).
Proof. exact s_entries_unavailable. Qed.
Theorem C17_spec_entries_ok : forall lo hi max l, first_of l <= lo -> hi <= last_of l + 1 ->
  s_entries lo hi max l = (Ok, limit_size max (slice lo hi l)).
Proof. exact s_entries_ok. Qed.
Print Assumptions C17_spec_entries_ok.

(* the size limit returns a prefix, never less than one entry, everything when it fits, and cuts exactly where the
   running size first exceeds the limit *)
Theorem C17_spec_limit_prefix : forall max l, exists k, limit_size max l = firstn k l.
Proof. exact limit_size_prefix. Qed.
Theorem C17_spec_limit_at_least_one : forall max e r, exists t, limit_size max (e :: r) = e :: t.
Proof. exact limit_size_at_least_one. Qed.
Theorem C17_spec_limit_all : forall max l, total_size l <= max -> limit_size max l = l.
Proof. exact limit_size_all. Qed.
Print Assumptions C17_spec_limit_all.

(* On-disk model, repaired zero-fill. *)

(* The repaired zero-fill clears exactly the slots [lo, n) of a file: rows below lo keep slot record AND payload cell
   (in particular the length word at data_off), slot lo holds only the 4-byte length prefix (index 0 = empty slot),
   nothing above survives. Holds for the current file (endb = 32*next) and for a rotated one (endb = data_off). *)
Theorem C17_zero_fill_repaired_exact : forall P endb lo f top r bottom,
  f_rows f = top ++ r :: bottom -> N.of_nat (length bottom) = lo -> rows_ok f ->
  entry_sz * f_n f <= endb -> endb <= data_off P ->
  f_rows (zero_fill VRepaired P endb lo f) = garbage_row (endb - entry_sz * lo - 4) :: bottom
  /\ rows_ok (zero_fill VRepaired P endb lo f).
Proof. exact zero_fill_repaired_rows. Qed.
Print Assumptions C17_zero_fill_repaired_exact.

(* The append loop - rotation on the slot-count or size limit included, for every batch and every starting offset -
   extends the log read back from the files by exactly the batch, and leaves hard state and snapshot alone. *)
Theorem C17_append_loop_refines : forall P es off d,
  rows_ok (d_cur d) -> all_live (d_cur d) -> d_next d = f_n (d_cur d) ->
  Forall (fun e => e_index e <> 0) es ->
  let d' := append_loop P es off d in
  log_of d' = log_of d ++ es /\ d_meta d' = d_meta d
  /\ rows_ok (d_cur d') /\ all_live (d_cur d') /\ d_next d' = f_n (d_cur d').
Proof. exact append_loop_refines. Qed.
Print Assumptions C17_append_loop_refines.

(* A whole Save (AddEntries) with the repaired zero-fill, in its three shapes: pure append; conflict in the current
   file; conflict in a rotated file (later files deleted, that file reused). The log read back from the files is the
   kept prefix (the rows below the slot slotGe answered) followed by the batch - which is Append of the specification
   (C17_spec_append) once slotGe's answer is the position of the first new index.
   PARTIAL: the statement takes as given (1) that slot_ge's search returns that position (consecutive-index invariant +
   search correctness), and says nothing of (2) the read path (all_entries = limit_size of the slice) and (3) reopen and
   prefix deletion. C17_refines_prefix_fill is the complete statement. *)
Theorem C17_save_refines_partial : forall P e0 r d,
  wf_params P = true -> Forall (fun e => e_index e <> 0) (e0 :: r) ->
  let es := e0 :: r in
  let d' := add_entries VRepaired P es d in
  ((slot_ge P d (e_index e0) = (InCur, Some (d_next d)) \/ snd (slot_ge P d (e_index e0)) = None) ->
   rows_ok (d_cur d) -> all_live (d_cur d) -> d_next d = f_n (d_cur d) ->
   log_of d' = log_of d ++ es)
  /\
  (forall lo top x bottom,
   slot_ge P d (e_index e0) = (InCur, Some lo) -> lo < d_next d -> d_next d = f_n (d_cur d) -> rows_ok (d_cur d) ->
   f_n (d_cur d) <= max_entries P ->
   f_rows (d_cur d) = top ++ x :: bottom -> N.of_nat (length bottom) = lo -> forallb live_row bottom = true ->
   log_of d' = concat (map file_entries (d_files d)) ++ map row_entry (rev bottom) ++ es)
  /\
  (forall k lo top x bottom,
   slot_ge P d (e_index e0) = (InOld k, Some lo) ->
   let f := nth k (d_files d) (d_cur d) in
   rows_ok f -> f_n f <= max_entries P ->
   f_rows f = top ++ x :: bottom -> N.of_nat (length bottom) = lo -> forallb live_row bottom = true ->
   log_of d' = concat (map file_entries (firstn k (d_files d))) ++ map row_entry (rev bottom) ++ es).
Proof. exact add_entries_repaired. Qed.
Print Assumptions C17_save_refines_partial.

(* the layout hypotheses hold for the constants the Go code is compiled with (Gen_Consts is regenerated every run) *)
Example C17_real_params_wf : wf_params real_params = true.
Proof. vm_compute. reflexivity. Qed.

(* Small scope: every history of up to 4 operations over the alphabet of Scope.ops_for (saves appending / conflicting
   at the first, last and next index with batches of 1, 2 and 4 entries, snapshots, prefix deletions, reopen) with 3
   slots and 42 data bytes per file: the repaired disk model and the specification give the same answer at every
   step, a full read of the disk equals the specification's log, Term and Entries agree at the boundaries. An
   instance of the refinement: the alphabet respects [valid_op], so this holds at every depth and for all layout
   parameters whose files take a 10-byte payload (ScopeProofs.explore_sound). The number of histories, and that
   the zero-fill of the pinned tree (VCurrent) fails the same check, are evaluated. *)
Example C17_refines_small_scope : explore VRepaired tiny_params 4 (empty_disk tiny_params) empty_alog = true.
Proof. apply explore_prefix_fill; [reflexivity|discriminate..]. Qed.
Example C17_small_scope_size : count_hist VRepaired tiny_params 4 (empty_disk tiny_params) empty_alog = 20197.
Proof. vm_compute. reflexivity. Qed.
Example C17_small_scope_rejects_current : explore VCurrent tiny_params 4 (empty_disk tiny_params) empty_alog = false.
Proof. vm_compute. reflexivity. Qed.

(* Crash points inside Save (granularity: the store's write operations; order of RaftDiskStorage.Save = entries, hard
   state, snapshot). Whatever the number k of steps completed when the process dies: below the first new index the
   log is untouched; hard state and snapshot are the old or the new ones; a new hard state or snapshot is visible only
   together with the complete batch (so a commit index that refers to entries of the batch never outruns the log). *)
Theorem C17_crash_inside_save : forall st0 es h s k,
  Forall (fun e => match es with [] => True | e0 :: _ => e_index e0 <= e_index e end) es ->
  inside_ok st0 es h s (crash_state k (save_steps es h s) st0).
Proof. exact crash_entries_first. Qed.
Print Assumptions C17_crash_inside_save.

(* the contract is not vacuous: writing the meta file first breaks it (hard state commits 5, log ends at 3) *)
Example C17_crash_meta_first_breaks :
  exists k, let st := crash_state k (save_steps_meta_first demo_es demo_hs None) demo_st0 in
            ~ inside_ok demo_st0 demo_es demo_hs None st
            /\ hs_commit (p_hs st) = 5 /\ last_of (p_log st) = 3.
Proof. exact crash_meta_first_breaks. Qed.

(* The refinement, for every history. For all layout parameters satisfying the layout inequalities and every list of
   operations (Save, Entries, Term, CreateSnapshot, DeleteBefore, Reopen, GetMeta, full scan) whose arguments respect
   [valid_op] in the state where they are issued:
     - every answer of the on-disk model of what /repo implements (VZeroSlots) equals the answer of the specification
       (error class, entries, term, first and last index after the operation, hard state, snapshot);
     - the log read back from the files (abstraction [abs]) equals the specification's state at the end.
   The specification is told how far the store compacted at DeleteBefore / Reopen (the first index it reported) and
   takes that as it comes: that the store keeps every entry at or above the requested index is NOT part of this
   statement.
   [valid_op] asks (and nothing else):
     Save     - Raft's contract for a non-empty batch: consecutive indexes, first index >= 1 and inside
                [first index, last index + 1] of the log (any start on an empty log), every payload fits in a fresh
                file (data_off + 4 + len <= max_size);
     Entries  - hi >= 1 (hi = 0 is not proved; raft never asks it);
     full scan- the total protobuf size of the log is below 2^64 (the scan of the model uses a uint64 size limit);
     all other operations - nothing (all arguments).
   Proof: invariant [dinvz] = [dinv] (every file = good live rows + dead rows; files ordered by first index, strictly
   consecutive indexes without gaps; offsets increasing and inside the file; cached length of slot 0 agrees with the
   file) and no dead row in a rotated file, preserved by every operation (Step.v, SaveStep.v, ZeroSlots.v); slot search
   correctness (Search.v); read path allEntries = limit_size of the slice (Read.v). *)
Theorem C17_refines : forall (P : params) (ops : list sop),
  wf_params P = true ->
  let out := outputs_disk VZeroSlots P ops (empty_disk P) in
  valid_spec P ops (map r_first out) empty_alog ->
  out = outputs_spec ops (map r_first out) empty_alog
  /\ abs (run_disk VZeroSlots P ops (empty_disk P)) = run_spec ops (map r_first out) empty_alog.
Proof.
  intros P ops HP out Hv.
  destruct (refines_run VZeroSlots P _ (step_zeroslots P HP) ops (empty_disk P) (ex_intro _ 1 (ex_intro _ [] (empty_disk_invz P))) Hv)
    as (O & R & _).
  split; assumption.
Qed.
Print Assumptions C17_refines.

(* The same statement for the fallback of zeroSlots (a file wrapper without ZeroSlots: WriteSlice with a buffer 4
   bytes shorter than the range, the zero-fill of /repo 6bd4b1a), which leaves the 4-byte prefix in the first cleared
   slot. *)
Theorem C17_refines_prefix_fill : forall (P : params) (ops : list sop),
  wf_params P = true ->
  let out := outputs_disk VRepaired P ops (empty_disk P) in
  valid_spec P ops (map r_first out) empty_alog ->
  out = outputs_spec ops (map r_first out) empty_alog
  /\ abs (run_disk VRepaired P ops (empty_disk P)) = run_spec ops (map r_first out) empty_alog.
Proof.
  intros P ops HP out Hv.
  destruct (refines_run VRepaired P _ (step_prefix_fill P HP) ops (empty_disk P)
              (conj (ex_intro _ 1 (ex_intro _ [] (empty_disk_inv P))) (empty_disk_sd P)) Hv) as (O & R & _).
  split; assumption.
Qed.
Print Assumptions C17_refines_prefix_fill.

(* the hypotheses are satisfiable: a history with rotation (4 slots per file), a conflict into the rotated file, a
   snapshot, a prefix deletion, reopen, size-limited reads, full scan *)
Definition demo_params := mkparams 4 160 4096.
Definition demo_ops : list sop :=
  [ Save (seg 1 6 1 0 5 7) (Some (mkhs 1 1 6)) None; Save (seg 3 1 2 0 5 900) None (Some (mksnap 2 1 (Some [1;2]) 9));
    Entries 1 3 1000; Term 2; CreateSnap 3 None 4; DeleteBefore 3; Reopen; Entries 2 4 20; Sum; GetMeta ].
Example C17_refines_hyp_satisfiable :
  wf_params demo_params = true /\
  let out := outputs_disk VZeroSlots demo_params demo_ops (empty_disk demo_params) in
  valid_spec demo_params demo_ops (map r_first out) empty_alog.
Proof.
  split; [reflexivity|]. vm_compute.
  repeat match goal with
         | |- _ /\ _ => split
         | |- Forall _ _ => constructor
         | |- _ \/ _ => first [left; reflexivity | right]
         | |- True => exact I
         | |- _ = _ => reflexivity
         | |- _ -> False => let H := fresh in intro H; discriminate H
         end.
Qed.

(* one step, from any state satisfying the invariant: invariant kept, same abstract state, same answer. For the
   variant /repo implements the invariant also says that no rotated file holds a dead (cleared but not rewritten) slot. *)
Theorem C17_step_refines : forall P, wf_params P = true -> forall o d i0 Ac,
  dinvz P i0 d Ac -> valid_op P o (abs d) -> step_ok_z P o d.
Proof. exact step_all_z. Qed.
Print Assumptions C17_step_refines.
Theorem C17_step_refines_prefix_fill : forall P, wf_params P = true -> forall o d i0 Ac,
  dinv P i0 d Ac -> Sd d -> valid_op P o (abs d) -> step_ok P o d /\ Sd (fst (step_disk VRepaired P o d)).
Proof. exact step_all. Qed.

(* ZeroSlots(lo, hi) with hi at or beyond the written part of a file keeps exactly the live rows below lo - slot
   records AND payload cells - and leaves no dead slot behind (nothing outside the slot records [lo, hi) is touched:
   no prefix in slot lo, no overrun into the data area). *)
Theorem C17_zero_slots_exact : forall P hi lo f A D,
  fview P f A D -> (lo < length A)%nat -> f_n f <= hi ->
  fview P (zero_slots hi (N.of_nat lo) f) (firstn lo A) [].
Proof. exact zero_slots_view. Qed.
Print Assumptions C17_zero_slots_exact.

(* A Save that fails (Model.save_fail: the write that clears the discarded slots, the payload or slot write of entry
   number j or the rotation before it, the hard state write, the snapshot write). For every state of the invariant,
   every batch that respects Raft's contract and every fault:
   - a fault that does not apply is no fault (the result is the ordinary Save);
   - otherwise the error is reported and the abstract log is, depending on the fault (Fault.failed_log):
       clearing write  : a prefix [firstn n] of the old log with n beyond the position of the first new index b:
                         everything below b and - whenever the old log holds it - the entry at b itself (pieces
                         cleared from the top, and the files after the one that holds b, are gone); never anything
                         of the batch; meta untouched. (The old log does not hold b when the batch starts right
                         behind it; a clearing write meets that only in a state a failed Save left with an empty
                         current file beside older files, and then keeps the whole log.)
       entry j         : the specification's truncation prefix (everything below the first new index) followed by the
                         first j entries of the batch; meta untouched;
       hard state      : the specification's Append result; meta untouched;
       snapshot        : the specification's Append result; the new hard state is stored, the snapshot is the old one. *)
Theorem C17_failed_save_log : forall P, wf_params P = true -> forall d i0 Ac e0 r h s ft,
  dinvz P i0 d Ac -> valid_batch P e0 r (log_of d) ->
  let es := e0 :: r in
  let res := save_fail VZeroSlots P es h s ft d in
  (fst res = false -> snd res = fst (step_disk VZeroSlots P (Save es h s) d))
  /\ (fst res = true -> failed_log ft e0 r h (abs d) (abs (snd res))).
Proof. exact failed_save_log. Qed.
Print Assumptions C17_failed_save_log.

(* ... and the caller's retry (RaftNode.SaveToStorage repeats the Save until it succeeds): EVERY failure state satisfies
   the invariant again (so every theorem above - reads, snapshots, prefix deletion, reopen - applies to operations issued
   before the retry, or to a restart instead of it), the same batch is a valid Save in it, and saving it again yields
   exactly the answer and the abstract state of the specification's Save on the state before the failure. The invariant
   covers the two shapes a failure can leave that no successful operation produces: an empty current file beside older
   files (the first write into a file just created by a rotation failed; or nothing of the batch is visible and the
   first new index is the first index of a file that is not the oldest). *)
Theorem C17_failed_save_retry : forall P, wf_params P = true -> forall d i0 Ac e0 r h s ft,
  dinvz P i0 d Ac -> valid_batch P e0 r (log_of d) ->
  let es := e0 :: r in
  let res := save_fail VZeroSlots P es h s ft d in
  fst res = true ->
  (exists i1 Ac1, dinvz P i1 (snd res) Ac1)
  /\ valid_op P (Save es h s) (abs (snd res))
  /\ step_spec (Save es h s) 0 (abs (snd res)) = step_spec (Save es h s) 0 (abs d)
  /\ let '(d2, x2) := step_disk VZeroSlots P (Save es h s) (snd res) in
     (abs d2, x2) = step_spec (Save es h s) 0 (abs d).
Proof. exact failed_save_retry. Qed.
Print Assumptions C17_failed_save_retry.

(* Process death inside the entry loop of a Save, then restart: killed before the slot record of entry j is written (with
   or without any part of its payload - a payload without slot record belongs to no row), the directory is the state of
   save_fail (FEntry j _); Init answers with everything below the first new index followed by the first j entries of the
   batch, minus what Init compacts; hard state and snapshot are the old ones; the invariant holds again. *)
Theorem C17_crash_in_loop_then_reopen : forall P, wf_params P = true -> forall d i0 Ac e0 r h s j rot,
  dinvz P i0 d Ac -> valid_batch P e0 r (log_of d) -> (j < length (e0 :: r))%nat ->
  let d1 := snd (save_fail VZeroSlots P (e0 :: r) h s (FEntry j rot) d) in
  let d2 := reopen P d1 in
  abs d2 = mkalog (drop_below (disk_first d2) (below_idx (e_index e0) (log_of d) ++ firstn j (e0 :: r))) (d_meta d)
  /\ exists i2 Ac2, dinvz P i2 d2 Ac2.
Proof. exact crash_in_loop_then_reopen. Qed.
Print Assumptions C17_crash_in_loop_then_reopen.

(* hypotheses satisfiable, every fault kind reported at least once: three files of 4 slots, a conflicting Save into
   the first one with hard state and snapshot *)
Definition fault_ops : list sop := [ Save (seg 1 10 1 0 5 7) (Some (mkhs 1 1 9)) None ].
Definition fault_d := run_disk VZeroSlots demo_params fault_ops (empty_disk demo_params).
Definition fault_es := seg 3 2 2 0 6 50.
Example C17_failed_save_hyp_satisfiable :
  length (d_files fault_d) = 2%nat
  /\ map (fun ft => fst (save_fail VZeroSlots demo_params fault_es (Some (mkhs 2 2 4)) (Some (mksnap 2 1 (Some [1]) 9)) ft fault_d))
         [FClear 0; FEntry 0 false; FEntry 1 true; FHs; FSnap; FEntry 2 false]
     = [true; true; true; true; true; false]
  /\ map (fun ft => map e_index (a_ents (abs (snd (save_fail VZeroSlots demo_params fault_es (Some (mkhs 2 2 4)) None ft fault_d)))))
         [FClear 0; FEntry 0 false; FEntry 1 true; FHs]
     = [[1; 2; 3; 4]; [1; 2]; [1; 2; 3]; [1; 2; 3; 4]].
Proof. vm_compute. repeat split. Qed.

(* exploration with faults: in every state reached by up to 2 operations of
   Scope.ops_for (3 slots and 42 data bytes per file), every Save of the alphabet with every fault: a reported failure
   leaves a state that reads like Fault.failed_log says (first/last index, full scan, Term and Entries at the
   boundaries) and the retry gives the specification's answer and state; an unreported one must be
   indistinguishable from a Save, also after reopen. An instance of the three theorems above (every depth, all such
   layout parameters: ScopeProofs.explore_f_sound); the number of reported faults, and that the WriteSlice variants -
   which drop the error of the clearing write - fail this check, are evaluated. Depth 3 is
   ThoroughScope.C17_faults_small_scope_3. *)
Example C17_faults_small_scope : explore_f VZeroSlots tiny_params 2 (empty_disk tiny_params) empty_alog = true.
Proof. apply explore_f_zeroslots; [reflexivity|discriminate..]. Qed.
Example C17_faults_small_scope_size : count_faults VZeroSlots tiny_params 2 (empty_disk tiny_params) empty_alog = 4805.
Proof. vm_compute. reflexivity. Qed.
Example C17_faults_small_scope_rejects_prefix_fill : explore_f VRepaired tiny_params 2 (empty_disk tiny_params) empty_alog = false.
Proof. vm_compute. reflexivity. Qed.
Example C17_refines_small_scope_zeroslots : explore VZeroSlots tiny_params 4 (empty_disk tiny_params) empty_alog = true.
Proof. apply explore_zeroslots; [reflexivity|discriminate..]. Qed.

Theorem C17_slot_search_old : forall P d i0 Ac, dinv P i0 d Ac -> forall pre f post A D i,
  d_files d = pre ++ f :: post -> fview P f A D ->
  i0 + flen pre <= i -> i < i0 + flen pre + N.of_nat (length A) ->
  slot_ge P d i = (InOld (length pre), Some (i - (i0 + flen pre))).
Proof. exact slot_ge_old. Qed.
Theorem C17_read_path : forall P lo hi max d i0 Ac,
  dinv P i0 d Ac -> 1 <= hi -> i0 <= lo ->
  exists d',
    all_entries P lo hi max d = (rev (snd (take_scan hi max 0 [] (skipn (N.to_nat (lo - i0)) (log_of d)))), d')
    /\ dinv P i0 d' Ac /\ log_of d' = log_of d /\ d_meta d' = d_meta d /\ d_next d' = d_next d.
Proof.
  intros P lo hi max d i0 Ac I Hhi Hlo.
  destruct (all_entries_spec P lo hi max d i0 Ac I Hhi Hlo) as (d' & H1 & H2 & H3 & H4 & H5 & _). exists d'. auto.
Qed.
Theorem C17_read_limit : forall hi max S i,
  consec i S -> rev (snd (take_scan hi max 0 [] S)) = limit_size max (firstn (N.to_nat (hi - i)) S).
Proof. exact take_scan_limit. Qed.
Print Assumptions C17_read_path.

(* Tears inside one write call (Tear.v). A write that spans several pages is cut at a page boundary when the process is
   killed; a write inside one page arrives or does not. *)

(* sort.Search as the Go library implements it, on a table that is false up to position k and true from there on,
   answers k; for the predicate of firstEmptySlot every file of the invariant (live rows, then dead rows, then never
   written slots) is such a table, so the "first position" search of the model is that binary search. For the
   predicate of slotGe only the first half is stated. *)
Theorem C17_binsearch_first : forall n k f, mono_at n k f -> bsearch n f = k.
Proof. exact bsearch_first. Qed.
Theorem C17_first_empty_is_binsearch : forall P f A D i0,
  fview P f A D -> 1 <= i0 -> first_empty_bin P f = first_empty_slot P f.
Proof. intros P f A D i0 V _. exact (first_empty_bin_view P f A D V). Qed.
Print Assumptions C17_first_empty_is_binsearch.

(* the slot record of an entry lies inside one page: its write is never torn (so an entry is there or not - the
   granularity of Crash.v) *)
Theorem C17_slot_in_one_page : forall p, (entry_sz * p) / page = (entry_sz * p + entry_sz - 1) / page.
Proof. exact slot_in_one_page. Qed.

(* clearing the discarded slots in pieces from the top down (/repo 9ca27cd; each piece inside one page): after any number of
   pieces the file is exactly the live rows below the lowest cleared slot - a prefix of the old entries, no hole, no
   dead slot - whatever the piece boundaries *)
Theorem C17_clear_topdown_crash : forall P cuts f A D,
  fview P f A D -> descending (length A) cuts ->
  fview P (clear_down (map N.of_nat cuts) f) (firstn (last cuts (length A)) A) (match cuts with [] => D | _ => [] end).
Proof. exact clear_down_view. Qed.
Print Assumptions C17_clear_topdown_crash.

(* removing the later files of a conflict newest first (/repo 9bfc733): every crash point leaves a prefix of the file list *)
Theorem C17_remove_newest_first_prefix : forall (kept later : list (list entry)) j,
  exists n, kept ++ removed_newest_first j later = firstn n (kept ++ later) /\ (length kept <= n)%nat.
Proof. exact remove_newest_first_prefix. Qed.

(* a meta record written with one write call (/repo 8446840) is the old or the new one at every crash point *)
Theorem C17_meta_one_write_atomic : forall old new k,
  mcrash k (snap_writes_repaired new) old = old \/ mcrash k (snap_writes_repaired new) old = new.
Proof. exact meta_one_write_atomic. Qed.
Print Assumptions C17_meta_one_write_atomic.

(* The byte layer (Bytes.v). The model speaks of slot records and length-prefixed records; these are their bytes in the
   files, and reading the bytes back gives the records. The correspondence compares the slot records ([Corr.window_words], eight bytes a word: Corr.window_bytes_words),
   [hs_record] and [snap_header] of the model state with the bytes of the real files on every run (Corr.check_bytes), so the refinement
   statements above are statements about file contents. *)

(* a slot record: 4 big-endian uint64 (term, index, type, offset) *)
Theorem C17_slot_bytes_round : forall s rest, slot_u64 s -> slot_of_bytes (slot_bytes s ++ rest) = s.
Proof. exact slot_round. Qed.
(* the slot table of a file, read back 32 bytes at a time, is the model's slot table *)
Theorem C17_table_bytes_round : forall f n, (forall p, slot_u64 (slot_at f p)) ->
  map slot_of_bytes (chunks32 n (table_bytes f n)) = map (fun p => slot_at f (N.of_nat p)) (seq 0 n).
Proof. exact table_round. Qed.
(* protobuf varints (up to 70 bits, uint64 included) and length-prefixed records *)
Theorem C17_varint_round : forall fuel x rest, x < 128 ^ N.of_nat (S fuel) ->
  varint_dec (varint_enc (S fuel) x ++ rest) = Some (x, rest).
Proof. exact varint_round. Qed.
Theorem C17_lp_record_round : forall payload rest, N.of_nat (length payload) < 256 ^ 4 -> lp_read (lp_record payload ++ rest) = payload.
Proof. exact lp_round. Qed.
(* the hard state record at offset 512 of raft.meta: [len:4] + raftpb.HardState.Marshal; whatever follows it in the file,
   reading the record and parsing it gives the hard state back *)
Theorem C17_hs_record_round : forall h rest, u64 (hs_term h) -> u64 (hs_vote h) -> u64 (hs_commit h) -> hs_is_empty h = false ->
  hs_of_pb (lp_read (hs_record h ++ rest)) = Some h.
Proof. exact hs_record_round. Qed.
Print Assumptions C17_hs_record_round.
Print Assumptions C17_table_bytes_round.

(* A DeleteBefore in which a removal fails (Model.delete_fail; /repo 9bfc733 removes oldest first, stops at the first failed
   removal and reports it): the invariant holds, the log is the old log without some of its first entries - all below the
   requested index -, meta is untouched, and every file the undisturbed call keeps is still there. *)
Theorem C17_delete_fault : forall P d i0 Ac j i d1,
  dinv P i0 d Ac -> delete_fail P j i d = Some d1 ->
  (exists i1, dinv P i1 d1 Ac /\ i1 <= j)
  /\ (exists n, log_of d1 = skipn n (log_of d) /\ (N.of_nat n + first_of (log_of d) <= j \/ n = 0%nat))
  /\ d_meta d1 = d_meta d
  /\ exists k, (i < k)%nat /\ d_files (snd (delete_before P j d)) = skipn k (d_files d) /\ d_files d1 = skipn i (d_files d).
Proof. exact delete_fail_state. Qed.
Print Assumptions C17_delete_fault.
