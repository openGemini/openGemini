(* C17: the zero-fill of the pinned tree (VCurrent, before /repo 6bd4b1a), for ALL layout parameters and files: a conflict truncation into a rotated file
   at a slot > 0 zeroes the length word of the cell stored at data_off, so the entry of slot 0 is read back with an
   empty payload. (Refuted.v has the concrete witnesses.) *)
From Coq Require Import NArith PeanoNat List Bool Lia ZifyBool ZifyN ZifyNat.
From OG Require Import C17.Model C17.Proofs C17.Refine C17.Inv.
Import ListNotations.
Open Scope N_scope.

Definition clobber (P : params) (r : row) : row :=
  if (s_off (r_slot r) =? data_off P) && negb (s_index (r_slot r) =? 0)
  then mkrow (r_slot r) (mkcell 0 (c_pay (r_cell r))) else r.

Lemma zero_fill_current_rows : forall P lo f top r bottom,
  f_rows f = top ++ r :: bottom -> N.of_nat (length bottom) = lo -> rows_ok f ->
  entry_sz * f_n f <= data_off P ->
  f_rows (zero_fill VCurrent P (data_off P) lo f) = garbage_row (data_off P - entry_sz * lo) :: map (clobber P) bottom.
Proof.
  intros P lo f top r bottom Hrows Hlo Hn Hend.
  assert (Hlen : f_n f = N.of_nat (length top) + 1 + lo).
  { rewrite Hn, Hrows, app_length. cbn [length]. lia. }
  unfold entry_sz in *.
  set (L := data_off P - 32 * lo).
  assert (HL : 32 <= L) by (unfold L; lia).
  assert (He : 32 * lo + 4 + L = data_off P + 4) by (unfold L; lia).
  unfold zero_fill, entry_sz. cbn [f_rows fill_len]. fold L. rewrite He.
  destruct (data_off P + 4 <=? data_off P + 4) eqn:E1; [|lia].
  unfold nrows. destruct (f_n f <=? lo) eqn:E2; [lia|].
  rewrite map_pos_spec, Hrows.
  rewrite (map_with_pos_top _ zero_row).
  - cbn [map_with_pos]. rewrite Hlo, N.ltb_irrefl, N.eqb_refl.
    rewrite map_with_pos_id; [|intros p x Hp; destruct (p <? lo) eqn:E3; [reflexivity|lia]].
    fold (garbage_row L).
    rewrite map_app. cbn [map].
    assert (Hz : forall k, map (fun r0 => if true && (s_off (r_slot r0) =? data_off P) && negb (s_index (r_slot r0) =? 0)
                                then mkrow (r_slot r0) (mkcell 0 (c_pay (r_cell r0))) else r0)
                     (repeat zero_row k) = repeat zero_row k).
    { clear. induction k as [|k IH]; [reflexivity|]. cbn [repeat map]. rewrite IH. f_equal.
      unfold zero_row, zero_slot. cbn [r_slot s_index s_off N.eqb negb]. rewrite andb_false_r. reflexivity. }
    rewrite Hz. cbn [garbage_row r_slot s_index N.eqb negb]. rewrite andb_false_r.
    fold (garbage_row L).
    rewrite trim_zero_repeat.
    + reflexivity.
    + unfold garbage_row, is_zero_slot. cbn [r_slot s_term_]. destruct (L * 4294967296 =? 0) eqn:E3; [lia|reflexivity].
  - intros p x Hp. rewrite app_length in Hp. cbn [length] in Hp.
    destruct (p <? lo) eqn:E3; [lia|]. destruct (p =? lo) eqn:E4; [lia|].
    destruct (32 * p + 32 <=? data_off P + 4) eqn:E5; [reflexivity|lia].
Qed.

Lemma clobber_live : forall P r, live_row (clobber P r) = live_row r.
Proof. intros P r. unfold clobber. destruct (_ && _); reflexivity. Qed.

Theorem zero_fill_current_clobbers : forall P f A D lo a t,
  fview P f A D -> A = a :: t -> (0 < lo)%nat -> (lo < length A)%nat ->
  entry_sz * f_n f <= data_off P ->
  s_off (r_slot a) = data_off P -> p_len (c_pay (r_cell a)) <> 0 ->
  exists rest,
    file_entries (zero_fill VCurrent P (data_off P) (N.of_nat lo) f)
    = mkent (s_index (r_slot a)) (s_term_ (r_slot a)) (s_type (r_slot a)) empty_pay :: rest
    /\ hd_error (file_entries f)
       = Some (mkent (s_index (r_slot a)) (s_term_ (r_slot a)) (s_type (r_slot a)) (c_pay (r_cell a))).
Proof.
  intros P f A D lo a t V HA Hlo0 Hlo Hend Hoff Hlen.
  assert (HloX : (lo < length (A ++ D))%nat) by (rewrite app_length; lia).
  destruct (nth_split (A ++ D) zero_row HloX) as (l1 & l2 & HX & Hl1).
  assert (Hl1A : l1 = firstn lo A).
  { assert (H : firstn lo (A ++ D) = l1) by (rewrite HX, <- Hl1, firstn_app, firstn_all, Nat.sub_diag; cbn; now rewrite app_nil_r).
    rewrite firstn_app in H. replace (lo - length A)%nat with 0%nat in H by lia. cbn [firstn] in H. now rewrite app_nil_r in H. }
  assert (Hrows : f_rows f = rev l2 ++ nth lo (A ++ D) zero_row :: rev l1).
  { rewrite (fv_rows _ _ _ _ V). rewrite HX at 1. rewrite rev_app_distr. cbn [rev]. now rewrite <- app_assoc. }
  pose proof (zero_fill_current_rows P (N.of_nat lo) f (rev l2) (nth lo (A ++ D) zero_row) (rev l1) Hrows
                ltac:(rewrite rev_length; lia) (fv_rows_ok _ _ _ _ V) Hend) as Z.
  pose proof (fv_good _ _ _ _ V) as G.
  assert (Ga : good (f_size f) a) by (rewrite HA in G; now inversion G).
  exists (map row_entry (map (clobber P) (firstn (lo - 1) t))). split.
  - unfold file_entries. rewrite asc_rows_rev, Z. cbn [rev]. rewrite <- map_rev, rev_involutive, Hl1A.
    rewrite live_rows_stop; [| |reflexivity].
    + rewrite HA. destruct lo as [|lo']; [lia|]. cbn [firstn map]. replace (S lo' - 1)%nat with lo' by lia.
      f_equal. unfold clobber. rewrite Hoff, N.eqb_refl. destruct Ga as (G1 & _).
      destruct (s_index (r_slot a) =? 0) eqn:E; [lia|]. cbn [andb negb].
      unfold row_entry, read_cell. cbn [r_slot r_cell c_lenw c_pay].
      destruct (0 =? p_len (c_pay (r_cell a))) eqn:E2; [lia|]. reflexivity.
    + rewrite forallb_forall. intros x Hx. apply in_map_iff in Hx as (y & <- & Hy). rewrite clobber_live.
      eapply good_live. rewrite Forall_forall in G. apply G. rewrite <- (firstn_skipn lo A). apply in_or_app. now left.
  - rewrite (fv_entries P f A D V), HA. cbn [map hd_error]. now rewrite (row_entry_good _ _ Ga).
Qed.
