(* C17: DeleteBefore in which a removal fails (Model.delete_fail): the error is reported, the state left behind is the
   state of a DeleteBefore that stopped earlier - the invariant holds, the log is a suffix of the old log that still
   holds everything from the requested index on - and asking again ends exactly where the undisturbed call ends. *)
From Coq Require Import NArith PeanoNat List Bool Lia ZifyBool ZifyN ZifyNat.
From OG Require Import C17.Model C17.Proofs C17.Refine C17.Inv C17.Search C17.Read C17.Step.
Import ListNotations.
Open Scope N_scope.

Lemma skipn_skipn_ : forall {T} a b (l : list T), skipn a (skipn b l) = skipn (b + a) l.
Proof. intros T a b. induction b as [|b IH]; intro l; [reflexivity|]. destruct l; [now rewrite !skipn_nil|]. cbn [Nat.add skipn]. apply IH. Qed.

Theorem delete_fail_state : forall P d i0 Ac j i d1,
  dinv P i0 d Ac -> delete_fail P j i d = Some d1 ->
  (* the invariant holds; the log is the old log without its first n entries, all of them below j; meta untouched *)
  (exists i1, dinv P i1 d1 Ac /\ i1 <= j)
  /\ (exists n, log_of d1 = skipn n (log_of d) /\ (N.of_nat n + first_of (log_of d) <= j \/ n = 0%nat))
  /\ d_meta d1 = d_meta d
  (* fewer files are gone than the undisturbed call removes: what it keeps is still there *)
  /\ exists k, (i < k)%nat /\ d_files (snd (delete_before P j d)) = skipn k (d_files d) /\ d_files d1 = skipn i (d_files d).
Proof.
  intros P d i0 Ac j i d1 I Hdf. pose proof I as (H1 & Hch & V & C & Hn & HKl).
  unfold delete_fail in Hdf.
  destruct (inv_cases P d i0 Ac I) as [(EA & Ef & Hl)|Hne].
  { rewrite (slot_ge_empty P d i0 Ac I EA Ef j) in Hdf. discriminate. }
  assert (Hf : first_of (log_of d) = i0) by (apply (inv_first P d i0 Ac I Hne)).
  (* k = number of files DeleteBefore j removes; in both shapes the kept files are skipn k *)
  assert (Hk : exists k, (i < k)%nat /\ (k <= length (d_files d))%nat /\ i0 + flen (firstn k (d_files d)) <= j
                         /\ snd (delete_before P j d) = mkdisk (skipn k (d_files d)) (d_cur d) (d_next d) (d_meta d)
                         /\ d1 = mkdisk (skipn i (d_files d)) (d_cur d) (d_next d) (d_meta d)).
  { destruct (j <? i0) eqn:E1.
    { destruct (slot_ge_below P d i0 Ac I j ltac:(lia)) as (sel & Hs). rewrite Hs in Hdf. destruct sel; discriminate. }
    destruct (slot_ge_locate P d i0 Ac j I Hne ltac:(lia)) as (sel & pre & A & D & rest & lo & Hs & _ & _ & _ & _ & _ & Hpos & Hsel).
    assert (Hj : i0 + flen pre <= j) by (destruct Hpos as [[_ ->]|(_ & _ & _ & Hj)]; lia).
    rewrite Hs in Hdf. destruct sel as [|k].
    - destruct Hsel as (-> & _).
      destruct (Nat.ltb i (length (d_files d))) eqn:Ei; [|discriminate]. apply Nat.ltb_lt in Ei. injection Hdf as <-.
      exists (length (d_files d)). split; [exact Ei|]. split; [lia|]. split; [now rewrite firstn_all|].
      split; [unfold delete_before; rewrite Hs; cbn [snd]; now rewrite skipn_all|reflexivity].
    - destruct Hsel as (Hk & Hfk & _ & post & Hfs & _).
      destruct (Nat.ltb i k) eqn:Ei; [|discriminate]. apply Nat.ltb_lt in Ei. injection Hdf as <-.
      apply (f_equal (@length _)) in Hfs. rewrite app_length in Hfs. cbn [length] in Hfs.
      exists k. split; [exact Ei|]. split; [lia|]. split; [now rewrite Hfk|].
      split; [unfold delete_before; rewrite Hs; reflexivity|reflexivity]. }
  destruct Hk as (k & Hik & Hkl & Hkj & Hdone & ->).
  destruct (dinv_skip_files P i0 d Ac i I ltac:(lia)) as [I1 L1]. cbv zeta in I1, L1.
  assert (Hmono : flen (firstn i (d_files d)) <= flen (firstn k (d_files d))).
  { replace (firstn i (d_files d)) with (firstn i (firstn k (d_files d))) by (rewrite firstn_firstn; f_equal; lia).
    pose proof (flen_app (firstn i (firstn k (d_files d))) (skipn i (firstn k (d_files d)))) as F. rewrite firstn_skipn in F. lia. }
  split; [eexists; split; [exact I1|lia]|]. split.
  { eexists. split; [exact L1|]. rewrite Hf. left. lia. }
  split; [reflexivity|].
  exists k. rewrite Hdone. cbn [d_files]. auto.
Qed.
