(* C17: the bounded explorations of Scope.v hold at every depth, as corollaries of the one-step refinement theorems:
   every operation of Scope.ops_for respects [valid_op], so from a state of the invariant each step answers like the
   specification and lands in the invariant again; the read-backs that [agree] compares are the read operations of the
   refinement. The only arithmetic is the uint64 size limit of the full scan: the alphabet adds at most 4 entries per
   step, with indexes and terms at most 4 above those present ([small]).
   Why prove a boolean sweep: evaluated, an exploration visits every history anew whenever the file is checked, and
   the deeper ones are slow; as instances of the theorems they say the same, and they show that the alphabet of Scope.v
   lies inside the hypotheses of the theorems. *)
From Coq Require Import NArith PeanoNat List Bool Lia ZifyBool ZifyN ZifyNat.
From OG Require Import C17.Model C17.Corr C17.Scope C17.Proofs C17.Refine C17.Inv C17.Search C17.Read C17.Step C17.SaveStep
  C17.ZeroSlots C17.Fault.
Import ListNotations.
Open Scope N_scope.

Lemma list_eqb_refl : forall {A} (eqb : A -> A -> bool), (forall x, eqb x x = true) -> forall l, list_eqb eqb l l = true.
Proof. intros A eqb H l. induction l as [|x t IH]; [reflexivity|]. cbn [list_eqb]. now rewrite H, IH. Qed.

Lemma entry_eqb_refl : forall e, entry_eqb e e = true.
Proof. intro e. unfold entry_eqb, pay_eqb. now rewrite !N.eqb_refl. Qed.

Lemma ents_eqb_refl : forall l, ents_eqb l l = true.
Proof. exact (list_eqb_refl entry_eqb entry_eqb_refl). Qed.

Lemma err_eqb_refl : forall e, err_eqb e e = true.
Proof. now intros []. Qed.

Lemma meta_eqb_refl : forall m, meta_eqb m m = true.
Proof.
  intro m. unfold meta_eqb, hs_eqb, snap_eqb. rewrite !N.eqb_refl.
  destruct (sn_voters (m_snap m)) as [l|]; [|reflexivity]. cbn [opt_eqb]. now rewrite (list_eqb_refl N.eqb N.eqb_refl l).
Qed.

Lemma result_eqb_refl : forall r, result_eqb r r = true.
Proof.
  intro r. unfold result_eqb. rewrite err_eqb_refl, !N.eqb_refl, (list_eqb_refl entry_eqb entry_eqb_refl).
  destruct (r_meta r) as [m|]; [|reflexivity]. cbn [opt_eqb]. now rewrite meta_eqb_refl.
Qed.

Lemma seg_consec : forall k b t y l g, consec b (seg_entries k b t y l g).
Proof. induction k as [|k IH]; intros; cbn [seg_entries consec]; [exact I|]. split; [reflexivity|apply IH]. Qed.

Lemma seg_length : forall k b t y l g, length (seg_entries k b t y l g) = k.
Proof. induction k as [|k IH]; intros; cbn [seg_entries length]; [reflexivity|]. now rewrite IH. Qed.

Lemma seg_Forall : forall (Q : entry -> Prop) t y l k b g,
  (forall i g', b <= i -> i < b + N.of_nat k -> Q (mkent i t y (mkpay l (tag_of g' l)))) ->
  Forall Q (seg_entries k b t y l g).
Proof.
  intros Q t y l. induction k as [|k IH]; intros b g H; cbn [seg_entries]; constructor.
  - apply H; lia.
  - apply IH. intros i g' H1 H2. apply H; lia.
Qed.

Lemma seg_valid : forall P a k b t y l g h s,
  1 <= b -> data_off P + 4 + l <= max_size P ->
  (a_ents a = [] \/ (first_of (a_ents a) <= b /\ b <= last_of (a_ents a) + 1)) ->
  valid_op P (Save (seg_entries k b t y l g) h s) a.
Proof.
  intros P a k b t y l g h s Hb Hl Hr. destruct k as [|k]; [exact I|].
  change (valid_op P (Save (seg_entries (S k) b t y l g) h s) a)
    with (consec b (seg_entries (S k) b t y l g) /\ 1 <= b /\ Forall (fits P) (seg_entries (S k) b t y l g)
          /\ (a_ents a = [] \/ (first_of (a_ents a) <= b /\ b <= last_of (a_ents a) + 1))).
  split; [apply seg_consec|]. split; [exact Hb|]. split; [|exact Hr].
  apply seg_Forall. intros i g' _ _. exact Hl.
Qed.

Lemma dedup_In : forall x l, In x (dedup l) -> In x l.
Proof.
  intros x l. induction l as [|y t IH]; cbn [dedup fold_right]; [auto|]. fold (dedup t).
  destruct (existsb (N.eqb y) (dedup t)); cbn [In]; tauto.
Qed.

Definition last_term (a : alog) : N :=
  match lookup (last_of (a_ents a)) (a_ents a) with Some e => e_term e | None => 1 end.

(* an operation of the alphabet is a Save of a run of 1 to 4 like entries that starts inside the log or right behind
   it, or one of CreateSnap, DeleteBefore, Reopen *)
Lemma ops_for_cases : forall a o, In o (ops_for a) ->
  (exists k b t y l g h, o = Save (seg_entries k b t y l g) h None
      /\ (1 <= k <= 4)%nat /\ 1 <= b /\ a_first a <= b /\ b <= last_of (a_ents a) + 1
      /\ t <= last_term a + 1 /\ y <= 1 /\ l <= 10)
  \/ match o with CreateSnap _ _ _ | DeleteBefore _ | Reopen => True | _ => False end.
Proof.
  intros a o H. unfold ops_for in H. apply in_app_or in H as [H|H].
  - left. apply in_flat_map in H as (b & Hb & H). apply dedup_In, filter_In in Hb as [_ Hb].
    assert (R : 1 <= b /\ a_first a <= b /\ b <= last_of (a_ents a) + 1) by lia. clear Hb.
    fold (last_term a) in H. unfold seg in H.
    destruct H as [<-|[<-|[<-|[<-|[]]]]]; do 7 eexists; (split; [reflexivity|]); (split; [vm_compute; lia|lia]).
  - right. apply in_app_or in H as [H|[<-|[]]]; [|exact I].
    destruct (last_of (a_ents a) <? a_first a); [destruct H|].
    destruct H as [<-|[<-|[<-|[<-|[<-|[]]]]]]; exact I.
Qed.

Lemma ops_for_valid : forall P a o, data_off P + 14 <= max_size P -> In o (ops_for a) -> valid_op P o a.
Proof.
  intros P a o HP H. destruct (ops_for_cases a o H) as [(k & b & t & y & l & g & h & -> & _ & Hb & Hf & Hl & _ & _ & Hlen)|H'].
  - apply seg_valid; [exact Hb|lia|right; split; [exact Hf|exact Hl]].
  - destruct o; try contradiction; exact I.
Qed.

Definition small (B : N) (l : list entry) : Prop :=
  N.of_nat (length l) <= B
  /\ Forall (fun e => e_index e <= B /\ e_term e <= B /\ e_type e <= 1 /\ p_len (e_data e) <= 10) l.

Lemma sov_le : forall x, sov x <= x + 1.
Proof.
  intro x. unfold sov.
  assert (H : N.size (N.lor x 1) <= x + 1).
  { destruct x as [|p]; [cbn; lia|].
    rewrite N.size_log2 by (intro E; apply (f_equal (fun z => N.testbit z 0)) in E; rewrite N.lor_spec in E;
                             cbn in E; now rewrite orb_true_r in E).
    rewrite N.log2_lor. change (N.log2 1) with 0. rewrite N.max_0_r. pose proof (N.log2_lt_lin (N.pos p) eq_refl). lia. }
  apply N.div_le_upper_bound; lia.
Qed.

(* 10^6 is any bound that keeps B * (3 * B + 40) below 2^64 - 1, the size limit of the full scan (Model.disk_all) *)
Lemma small_total : forall B l, small B l -> B <= 1000000 -> total_size l <= 18446744073709551615.
Proof.
  intros B l [Hn H] HB.
  assert (T : total_size l <= N.of_nat (length l) * (3 * B + 40)).
  { clear Hn. induction H as [|e t (H1 & H2 & H3 & H4) _ IH]; cbn [total_size length]; [lia|].
    assert (entry_size e <= 3 * B + 40); [|lia]. unfold entry_size.
    pose proof (sov_le (e_type e)). pose proof (sov_le (e_term e)). pose proof (sov_le (e_index e)).
    pose proof (sov_le (p_len (e_data e))). destruct (p_len (e_data e) =? 0); lia. }
  assert (N.of_nat (length l) * (3 * B + 40) <= 1000000 * 3000040); [|lia]. apply N.mul_le_mono; lia.
Qed.

Lemma small_mono : forall B B' l, small B l -> B <= B' -> small B' l.
Proof. intros B B' l [Hn H] HB. split; [lia|]. eapply Forall_impl; [|exact H]. cbn. intros e ?. lia. Qed.

Lemma small_firstn : forall B k l, small B l -> small B (firstn k l).
Proof. intros B k l [Hn H]. split; [rewrite firstn_length; lia|now apply Forall_firstn]. Qed.

Lemma small_skipn : forall B k l, small B l -> small B (skipn k l).
Proof. intros B k l [Hn H]. split; [rewrite skipn_length; lia|now apply Forall_skipn]. Qed.

Lemma last_In : forall {T} (l : list T) d, l <> [] -> In (last l d) l.
Proof.
  intros T l d. induction l as [|x t IH]; intro H; [congruence|]. destruct t as [|y t]; [now left|].
  right. apply IH. discriminate.
Qed.

Lemma small_last : forall B l, small B l -> last_of l <= B.
Proof.
  intros B l [_ H]. unfold last_of. destruct l as [|x t]; [lia|]. rewrite Forall_forall in H.
  apply (H (last (x :: t) (mkent 0 0 0 empty_pay))). apply last_In. discriminate.
Qed.

Lemma last_term_small : forall B a, small B (a_ents a) -> last_term a <= N.max B 1.
Proof.
  intros B a [_ H]. unfold last_term, lookup. destruct (_ <? _); [lia|].
  destruct (nth_error _ _) as [e|] eqn:E; [|lia]. apply nth_error_In in E. rewrite Forall_forall in H.
  specialize (H e E). lia.
Qed.

Lemma small_append : forall B B' es l, small B l -> small B' es -> B + N.of_nat (length es) <= B' -> small B' (s_append es l).
Proof.
  intros B B' es l Hl He HB. destruct es as [|e r]; [apply (small_mono B); [exact Hl|lia]|]. cbn [s_append].
  pose proof (small_firstn B (N.to_nat (e_index e - first_of l)) l Hl) as [F1 F2]. destruct He as [E1 E2].
  split; [rewrite app_length; lia|]. apply Forall_app. split; [|exact E2].
  eapply Forall_impl; [|exact F2]. cbn. intros x ?. lia.
Qed.

Lemma small_step : forall B a o c, small B (a_ents a) -> In o (ops_for a) -> small (B + 4) (a_ents (fst (step_spec o c a))).
Proof.
  intros B a o c HS H.
  assert (M : small (B + 4) (a_ents a)) by (apply (small_mono B); [exact HS|lia]).
  destruct (ops_for_cases a o H) as [(k & b & t & y & l & g & h & -> & Hk & Hb & Hf & Hl & Ht & Hy & Hlen)|H'].
  - cbn [step_spec fst a_ents]. pose proof (small_last B _ HS). pose proof (last_term_small B a HS).
    apply (small_append B); [exact HS| |rewrite seg_length; lia].
    split; [rewrite seg_length; lia|]. apply seg_Forall. intros i g' Hi1 Hi2. cbn. lia.
  - destruct o as [| | |i vo dt|i| | |]; try contradiction; cbn [step_spec].
    + unfold s_csnap. destruct (i <? a_first a); [exact M|]. destruct (lookup i (a_ents a)); exact M.
    + destruct (_ || _); [exact M|]. now apply small_skipn.
    + now apply small_skipn.
Qed.

Lemma agree_sound : forall v P d i0 Ac,
  dinv P i0 d Ac -> total_size (log_of d) <= 18446744073709551615 -> agree v P d (abs d) = true.
Proof.
  intros v P d i0 Ac I Hsz. unfold agree. destruct (disk_all_spec P d i0 Ac I Hsz) as (d' & -> & I' & L' & M' & _).
  pose proof (abs_same d d' L' M') as Ea.
  change (a_ents (abs d)) with (log_of d). change (a_meta (abs d)) with (d_meta d).
  rewrite ents_eqb_refl, meta_eqb_refl. cbn [andb]. apply andb_true_iff. split.
  - apply forallb_forall. intros i _. rewrite (disk_term_spec P d' _ Ac i I'), Ea. destruct (s_term i (abs d)).
    now rewrite err_eqb_refl, N.eqb_refl.
  - destruct (disk_entries_spec P d' _ Ac (a_first (abs d)) (a_last (abs d) + 1) 30 I' ltac:(lia)) as (d'' & -> & _).
    rewrite L'. destruct (s_entries _ _ _ _) as [e es]. now rewrite err_eqb_refl, ents_eqb_refl.
Qed.

(* the exploration without faults, for a variant whose steps refine the specification under an invariant *)

Section Explore.
  Variables (v : variant) (P : params) (Inv : disk -> Prop).
  Hypothesis Hfit : data_off P + 14 <= max_size P.
  Hypothesis Inv_dinv : forall d, Inv d -> exists i0 Ac, dinv P i0 d Ac.
  Hypothesis Inv_step : refines_step v P Inv.

  Theorem explore_sound : forall fuel B d,
    Inv d -> small B (log_of d) -> B + 4 * N.of_nat fuel <= 1000000 -> explore v P fuel d (abs d) = true.
  Proof.
    induction fuel as [|k IH]; intros B d HI HS HB; [reflexivity|]. cbn [explore]. apply forallb_forall. intros o Ho.
    pose proof (Inv_step o d HI (ops_for_valid P (abs d) o Hfit Ho)) as S.
    pose proof (small_step B (abs d) o (r_first (snd (step_disk v P o d))) HS Ho) as HS'.
    destruct (step_disk v P o d) as [d' rd]. cbn [snd] in HS'.
    destruct (step_spec o (r_first rd) (abs d)) as [a' ra]. destruct S as (HI' & <- & <-). cbn [fst] in HS'.
    destruct (Inv_dinv d' HI') as (i0' & Ac' & I').
    rewrite result_eqb_refl, (agree_sound v P d' i0' Ac' I'), (IH (B + 4) d' HI' HS'); [reflexivity|lia|].
    apply (small_total (B + 4)); [exact HS'|lia].
  Qed.
End Explore.

Theorem explore_zeroslots : forall P fuel, wf_params P = true -> data_off P + 14 <= max_size P ->
  4 * N.of_nat fuel <= 1000000 -> explore VZeroSlots P fuel (empty_disk P) empty_alog = true.
Proof.
  intros P fuel HP Hfit Hf.
  refine (explore_sound VZeroSlots P _ Hfit _ (step_zeroslots P HP) fuel 0 (empty_disk P) _ _ _).
  - intros d (i0 & Ac & I & _). eauto.
  - exists 1, []. apply empty_disk_invz.
  - split; [cbn; lia|constructor].
  - lia.
Qed.

Theorem explore_prefix_fill : forall P fuel, wf_params P = true -> data_off P + 14 <= max_size P ->
  4 * N.of_nat fuel <= 1000000 -> explore VRepaired P fuel (empty_disk P) empty_alog = true.
Proof.
  intros P fuel HP Hfit Hf.
  refine (explore_sound VRepaired P _ Hfit _ (step_prefix_fill P HP) fuel 0 (empty_disk P) _ _ _).
  - intros d [H _]. exact H.
  - split; [exists 1, []; apply empty_disk_inv|apply empty_disk_sd].
  - split; [cbn; lia|constructor].
  - lia.
Qed.

Lemma failed_small : forall B ft e0 r h old new, failed_log ft e0 r h old new ->
  small B (a_ents old) -> small B (s_append (e0 :: r) (a_ents old)) -> small B (a_ents new).
Proof.
  intros B ft e0 r h old new FL Ho Hs. unfold failed_log in FL. destruct ft as [c|j rot| |].
  - destruct FL as ((n & -> & _) & _). now apply small_firstn.
  - destruct FL as [-> _]. rewrite s_append_below in Hs. destruct Hs as [Hn HF]. apply Forall_app in HF as [F1 F2].
    split; [rewrite app_length in *; rewrite firstn_length; lia|].
    apply Forall_app. split; [exact F1|now apply Forall_firstn].
  - destruct FL as [-> _]. exact Hs.
  - destruct FL as [-> _]. exact Hs.
Qed.

Lemma failed_ok_sound : forall ft e0 r h old new, failed_log ft e0 r h old new ->
  (N.to_nat (e_index e0 - first_of (a_ents old)) < length (a_ents old))%nat
  \/ match ft with FClear _ => False | _ => True end ->
  failed_ok ft (e0 :: r) h old new = true.
Proof.
  intros ft e0 r h old new FL Hin. unfold failed_ok, failed_log in *. cbv zeta in *. destruct ft as [c|j rot| |].
  - destruct FL as ((n & Hn & Hlt) & ->). destruct Hin as [Hin|[]]. rewrite meta_eqb_refl, Hn, firstn_length.
    assert (E : firstn (Nat.min n (length (a_ents old))) (a_ents old) = firstn n (a_ents old)).
    { destruct (Nat.le_ge_cases n (length (a_ents old))); [now rewrite Nat.min_l|].
      rewrite Nat.min_r by lia. now rewrite firstn_all, firstn_all2. }
    rewrite E, ents_eqb_refl. cbn [andb]. rewrite andb_true_r. apply N.ltb_lt. lia.
  - destruct FL as [-> ->]. now rewrite ents_eqb_refl, meta_eqb_refl.
  - destruct FL as [-> ->]. now rewrite ents_eqb_refl, meta_eqb_refl.
  - destruct FL as [-> ->]. now rewrite ents_eqb_refl, meta_eqb_refl.
Qed.

(* one Save with one fault, from a state reached without a failed Save: the state a reported failure leaves is a state
   of the invariant that reads like Fault.failed_log says, the retry is the specification's Save (failed_save_retry), a
   restart is a step of the refinement; an unreported fault is the Save itself (failed_save_log) *)
Lemma check_fault_sound : forall P, wf_params P = true -> forall B d i0 Ac e0 r h s ft,
  dinvz P i0 d Ac -> Sd d -> valid_batch P e0 r (log_of d) ->
  small B (log_of d) -> small B (s_append (e0 :: r) (log_of d)) -> B <= 1000000 ->
  check_fault VZeroSlots P d (abs d) (Save (e0 :: r) h s) ft = true.
Proof.
  intros P HP B d i0 Ac e0 r h s ft Iz HS Hvb Sm Sm' HB. pose proof Iz as [I Hal].
  assert (RO : forall d1 i1 Ac1, dinvz P i1 d1 Ac1 -> small B (log_of d1) ->
               let '(d3, r3) := step_disk VZeroSlots P Reopen d1 in
               let '(a3, _) := step_spec Reopen (r_first r3) (abs d1) in agree VZeroSlots P d3 a3 = true).
  { intros d1 i1 Ac1 J Sm1. pose proof (step_all_z P HP Reopen d1 i1 Ac1 J Logic.I) as R. unfold step_ok_z in R.
    destruct (step_disk VZeroSlots P Reopen d1) as [d3 r3].
    assert (S3 : small B (a_ents (fst (step_spec Reopen (r_first r3) (abs d1))))) by now apply small_skipn.
    destruct (step_spec Reopen (r_first r3) (abs d1)) as [a3 x3]. destruct R as ((i3 & Ac3 & [J3 _]) & <- & _).
    apply (agree_sound VZeroSlots P d3 i3 Ac3 J3). now apply (small_total B). }
  pose proof (step_save_z P HP d i0 Ac (e0 :: r) h s Iz Hvb) as S. unfold step_ok_z in S.
  destruct (failed_save_log P HP d i0 Ac e0 r h s ft Iz Hvb) as [FN FL].
  pose proof (failed_save_retry P HP d i0 Ac e0 r h s ft Iz Hvb) as FR. cbv zeta in FR.
  assert (Hin : fst (save_fail VZeroSlots P (e0 :: r) h s ft d) = true ->
                (N.to_nat (e_index e0 - first_of (log_of d)) < length (log_of d))%nat
                \/ match ft with FClear _ => False | _ => True end).
  { destruct ft as [c| | |]; try (right; exact Logic.I). left. unfold save_fail in H.
    destruct (clear_failed P (e_index e0) c d) as [d1|] eqn:Ecf; [|discriminate H].
    destruct Hvb as (_ & _ & _ & Hr). exact (clear_failed_inside P d i0 Ac _ c d1 I HS Hr Ecf). }
  unfold check_fault.
  destruct (save_fail VZeroSlots P (e0 :: r) h s ft d) as [rep d1]. cbn [fst snd] in *.
  assert (S2 : small B (a_ents (fst (step_spec (Save (e0 :: r) h s) 0 (abs d))))) by exact Sm'.
  destruct (step_spec (Save (e0 :: r) h s) 0 (abs d)) as [a2 ra] eqn:E2. cbn [fst] in S2.
  destruct rep.
  - destruct (FR eq_refl) as ((i1 & Ac1 & J) & Hv1 & _ & R2). specialize (FL eq_refl). pose proof J as [J0 _].
    assert (Sm1 : small B (log_of d1)) by exact (failed_small B ft e0 r h (abs d) (abs d1) FL Sm Sm').
    destruct (disk_all_spec P d1 i1 Ac1 J0 (small_total B _ Sm1 HB)) as (d1' & -> & _).
    change (mkalog (log_of d1) (d_meta d1)) with (abs d1).
    rewrite (failed_ok_sound ft e0 r h (abs d) (abs d1) FL (Hin eq_refl)), (agree_sound VZeroSlots P d1 i1 Ac1 J0 (small_total B _ Sm1 HB)).
    rewrite (inv_disk_first P d1 i1 Ac1 J0), (inv_disk_last P d1 i1 Ac1 J0).
    change (a_first (abs d1)) with (first_of (log_of d1)). rewrite !N.eqb_refl. cbn [andb].
    apply andb_true_iff. split; [|exact (RO d1 i1 Ac1 J Sm1)].
    pose proof (step_save_z P HP d1 i1 Ac1 (e0 :: r) h s J Hv1) as S1. unfold step_ok_z in S1.
    destruct (step_disk VZeroSlots P (Save (e0 :: r) h s) d1) as [d2 r2]. injection R2 as <- <-.
    destruct (step_spec (Save (e0 :: r) h s) (r_first r2) (abs d1)) as [a' r']. destruct S1 as ((i2 & Ac2 & [J2 _]) & _ & _).
    rewrite result_eqb_refl. cbn [andb]. apply (agree_sound VZeroSlots P d2 i2 Ac2 J2). now apply (small_total B).
  - rewrite (FN eq_refl). clear FN FL FR Hin.
    destruct (step_disk VZeroSlots P (Save (e0 :: r) h s) d) as [dS rS]. cbn [fst].
    change (step_spec (Save (e0 :: r) h s) (r_first rS) (abs d)) with (step_spec (Save (e0 :: r) h s) 0 (abs d)) in S.
    rewrite E2 in S. destruct S as ((iS & AcS & JS) & <- & _). pose proof JS as [JS0 _].
    rewrite (agree_sound VZeroSlots P dS iS AcS JS0 (small_total B _ S2 HB)). exact (RO dS iS AcS JS S2).
Qed.

Lemma faults_ok_sound : forall P, wf_params P = true -> data_off P + 14 <= max_size P -> forall B d i0 Ac,
  dinvz P i0 d Ac -> Sd d -> small B (log_of d) -> B + 4 <= 1000000 -> faults_ok VZeroSlots P d (abs d) = true.
Proof.
  intros P HP Hfit B d i0 Ac Iz HS Sm HB. unfold faults_ok. apply forallb_forall. intros o Ho.
  pose proof (ops_for_valid P (abs d) o Hfit Ho) as Hv. pose proof (small_step B (abs d) o 0 Sm Ho) as Sm'.
  destruct (ops_for_cases (abs d) o Ho) as [(k & b & t & y & l & g & h & -> & Hk & _)|Hn];
    [|destruct o; try contradiction; reflexivity].
  destruct k as [|k]; [lia|]. cbn [seg_entries] in *. apply forallb_forall. intros ft _.
  apply (check_fault_sound P HP (B + 4) d i0 Ac); try assumption. apply (small_mono B); [exact Sm|lia].
Qed.

Theorem explore_f_sound : forall P, wf_params P = true -> data_off P + 14 <= max_size P -> forall fuel B d i0 Ac,
  dinvz P i0 d Ac -> Sd d -> small B (log_of d) -> B + 4 * N.of_nat (S fuel) <= 1000000 ->
  explore_f VZeroSlots P fuel d (abs d) = true.
Proof.
  intros P HP Hfit. induction fuel as [|k IH]; intros B d i0 Ac Iz HS Sm HB; cbn [explore_f];
    rewrite (faults_ok_sound P HP Hfit B d i0 Ac Iz HS Sm) by lia; [reflexivity|].
  apply forallb_forall. intros o Ho. pose proof (ops_for_valid P (abs d) o Hfit Ho) as Hv.
  pose proof (step_all_z P HP o d i0 Ac Iz Hv) as S. unfold step_ok_z in S.
  pose proof (step_z_sd P HP o d i0 Ac Iz HS Hv) as HS'.
  pose proof (small_step B (abs d) o (r_first (snd (step_disk VZeroSlots P o d))) Sm Ho) as Sm'.
  destruct (step_disk VZeroSlots P o d) as [d' rd]. cbn [fst snd] in *.
  destruct (step_spec o (r_first rd) (abs d)) as [a' ra]. destruct S as ((i0' & Ac' & Iz') & <- & _).
  apply (IH (B + 4) d' i0' Ac' Iz' HS' Sm'). lia.
Qed.

Theorem explore_f_zeroslots : forall P fuel, wf_params P = true -> data_off P + 14 <= max_size P ->
  4 * N.of_nat (S fuel) <= 1000000 -> explore_f VZeroSlots P fuel (empty_disk P) empty_alog = true.
Proof.
  intros P fuel HP Hfit Hf. apply (explore_f_sound P HP Hfit fuel 0 (empty_disk P) 1 []).
  - apply empty_disk_invz.
  - apply empty_disk_sd.
  - split; [cbn; lia|constructor].
  - lia.
Qed.
