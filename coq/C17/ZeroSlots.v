(* C17: the variant /repo implements since fe68fb6 - the slots of a discarded tail are cleared by ONE plain
   positioned write of zeros (ZeroSlots), without the length prefix of WriteSlice. No dead slot is ever left behind,
   so besides the invariant [dinv] every rotated file consists of live rows only ([alivef]): the invariant [dinvz],
   under which every operation of this variant refines the specification. *)
From Coq Require Import NArith PeanoNat List Bool Lia ZifyBool ZifyN ZifyNat.
From OG Require Import C17.Model C17.Proofs C17.Refine C17.Inv C17.Search C17.Read C17.Step C17.SaveStep.
Import ListNotations.
Open Scope N_scope.

Lemma trim_zero_zeros : forall k, trim_zero (repeat zero_row k) = [].
Proof. induction k as [|k IH]; [reflexivity|]. cbn [repeat trim_zero]. cbn. exact IH. Qed.

Lemma live_not_zero : forall r, live_row r = true -> is_zero_slot (r_slot r) = false.
Proof.
  intros r H. unfold live_row in H. unfold is_zero_slot. destruct (s_index (r_slot r) =? 0); [discriminate|].
  now rewrite andb_false_r.
Qed.

Lemma trim_zero_repeat_any : forall k rest,
  match rest with [] => True | g :: _ => is_zero_slot (r_slot g) = false end ->
  trim_zero (repeat zero_row k ++ rest) = rest.
Proof.
  intros k [|g rest] H; [rewrite app_nil_r; apply trim_zero_zeros|now apply trim_zero_repeat].
Qed.

(* ZeroSlots(lo, hi) with hi at or beyond the written part keeps exactly the rows below lo *)
Lemma zero_slots_rows : forall hi lo f top bottom,
  f_rows f = top ++ bottom -> N.of_nat (length bottom) = lo -> rows_ok f -> f_n f <= hi ->
  match bottom with [] => True | g :: _ => live_row g = true end ->
  f_rows (zero_slots hi lo f) = bottom /\ f_n (zero_slots hi lo f) = lo.
Proof.
  intros hi lo f top bottom Hrows Hlo Hn Hhi Hb. unfold rows_ok in Hn.
  assert (Hlen : f_n f = N.of_nat (length top) + lo) by (rewrite Hn, Hrows, app_length; lia).
  unfold zero_slots. cbn [f_rows f_n]. rewrite map_pos_spec, Hrows.
  rewrite (map_with_pos_top _ zero_row).
  - rewrite map_with_pos_id.
    + rewrite trim_zero_repeat_any; [split; [reflexivity|exact Hlo]|].
      destruct bottom as [|g t]; [exact I|now apply live_not_zero].
    + intros p x Hp. destruct (lo <=? p) eqn:E; [lia|reflexivity].
  - intros p x Hp. rewrite app_length in Hp.
    destruct (lo <=? p) eqn:E1; [|lia]. destruct (p <? hi) eqn:E2; [reflexivity|lia].
Qed.

Lemma zero_slots_view : forall P hi lo f A D,
  fview P f A D -> (lo < length A)%nat -> f_n f <= hi ->
  fview P (zero_slots hi (N.of_nat lo) f) (firstn lo A) [].
Proof.
  intros P hi lo f A D V Hlo Hhi.
  assert (HX : A ++ D = firstn lo A ++ skipn lo (A ++ D)).
  { rewrite <- (firstn_skipn lo (A ++ D)) at 1. f_equal. rewrite firstn_app.
    replace (lo - length A)%nat with 0%nat by lia. cbn [firstn]. now rewrite app_nil_r. }
  assert (Hrows : f_rows f = rev (skipn lo (A ++ D)) ++ rev (firstn lo A)).
  { rewrite (fv_rows _ _ _ _ V). rewrite HX at 1. now rewrite rev_app_distr. }
  assert (Hlen : length (firstn lo A) = lo) by (apply firstn_length_le; lia).
  pose proof (fv_good _ _ _ _ V) as G.
  destruct (zero_slots_rows hi (N.of_nat lo) f _ _ Hrows ltac:(rewrite rev_length; lia) (fv_rows_ok _ _ _ _ V) Hhi) as [Z1 Z2].
  { destruct (rev (firstn lo A)) as [|g t] eqn:E; [exact I|].
    assert (Hin : In g (firstn lo A)) by (apply in_rev; rewrite E; now left).
    assert (Hg : In g A) by (rewrite <- (firstn_skipn lo A); apply in_or_app; now left).
    rewrite Forall_forall in G. eapply good_live. exact (G g Hg). }
  constructor.
  - rewrite asc_rows_rev, Z1, rev_involutive, app_nil_r. reflexivity.
  - rewrite Z2, app_nil_r, Hlen. reflexivity.
  - rewrite Z2. pose proof (fv_max _ _ _ _ V). pose proof (fv_n _ _ _ _ V) as Hn. rewrite app_length in Hn. lia.
  - apply Forall_firstn. exact G.
  - constructor.
  - apply incr_offs_firstn. exact (fv_offs _ _ _ _ V).
  - unfold zero_slots. cbn [f_c0]. destruct (N.of_nat lo =? 0) eqn:E; [exact I|].
    pose proof (fv_c0 _ _ _ _ V) as C. destruct (f_c0 f) as [n|]; [|exact I].
    destruct C as (r & t & -> & Hn). destruct lo; [lia|]. cbn [firstn]. eauto.
Qed.

(* clearing [m, hi) of a file without dead rows, for ANY m: the live rows below m stay, nothing else *)
Lemma zero_slots_view_any : forall P hi f A m,
  fview P f A [] -> f_n f <= hi -> fview P (zero_slots hi m f) (firstn (N.to_nat m) A) [].
Proof.
  intros P hi f A m V Hhi.
  destruct (Nat.ltb (N.to_nat m) (length A)) eqn:E.
  - apply Nat.ltb_lt in E. replace m with (N.of_nat (N.to_nat m)) at 1 by lia. now apply (zero_slots_view P hi (N.to_nat m) f A []).
  - apply Nat.ltb_ge in E. rewrite firstn_all2 by lia.
    pose proof (fv_n _ _ _ _ V) as Hn. rewrite app_nil_r in Hn.
    pose proof (fv_good _ _ _ _ V) as G.
    assert (Hrows : f_rows (zero_slots hi m f) = f_rows f /\ f_n (zero_slots hi m f) = f_n f).
    { unfold zero_slots. cbn [f_rows f_n]. rewrite map_pos_spec.
      rewrite map_with_pos_id.
      - assert (T : trim_zero (f_rows f) = f_rows f).
        { rewrite (fv_rows _ _ _ _ V), app_nil_r. destruct (rev A) as [|g t] eqn:Er; [reflexivity|].
          cbn [trim_zero]. assert (Hin : In g A) by (apply in_rev; rewrite Er; now left).
          rewrite Forall_forall in G. rewrite (live_not_zero g (good_live _ _ (G g Hin))). reflexivity. }
        rewrite T. split; [reflexivity|]. symmetry. exact (fv_rows_ok _ _ _ _ V).
      - intros p x Hp. rewrite (fv_rows _ _ _ _ V), rev_length, app_nil_r in Hp.
        destruct (m <=? p) eqn:E1; [lia|reflexivity]. }
    destruct Hrows as [R1 R2].
    constructor.
    + rewrite asc_rows_rev, R1, <- asc_rows_rev. exact (fv_asc _ _ _ _ V).
    + rewrite R2. exact (fv_n _ _ _ _ V).
    + rewrite R2. exact (fv_max _ _ _ _ V).
    + exact G.
    + constructor.
    + exact (fv_offs _ _ _ _ V).
    + unfold zero_slots. cbn [f_c0]. destruct (m =? 0) eqn:E0; [exact I|]. exact (fv_c0 _ _ _ _ V).
Qed.

Lemma clear_part_view_all : forall P hi c f A,
  fview P f A [] -> f_n f <= hi -> fview P (clear_part hi c f) (firstn (N.to_nat (hi - c)) A) [].
Proof.
  intros P hi c f A V Hhi. unfold clear_part. destruct (c =? 0) eqn:E; [|now apply zero_slots_view_any].
  pose proof (fv_n _ _ _ _ V) as Hn. rewrite app_nil_r in Hn. rewrite firstn_all2 by lia. exact V.
Qed.

Lemma clears_end_zeroslots : forall P, clears_end VZeroSlots P.
Proof.
  intros P endb hi f A V _ Hhi. cbn [clear_slots].
  pose proof (zero_slots_view_any P hi f A (N.of_nat (length A)) V Hhi) as Z. now rewrite Nat2N.id, firstn_all in Z.
Qed.

Lemma clears_zeroslots : forall P, clears VZeroSlots P true.
Proof.
  intros P endb hi lo f A D V Hlo _ _ Hhi. cbn [clear_slots]. exists []. split; [cbn; lia|]. split; [reflexivity|].
  now apply (zero_slots_view P hi lo f A D).
Qed.

Definition alivef (d : disk) : Prop := Forall all_live (d_files d).
Definition dinvz (P : params) (i0 : N) (d : disk) (Ac : list row) : Prop := dinv P i0 d Ac /\ alivef d.

Lemma insert_file_Forall : forall (Q : file -> Prop) f l, Q f -> Forall Q l -> Forall Q (insert_file f l).
Proof.
  intros Q f l Hf H. induction H as [|g t Hg Ht IH]; cbn [insert_file]; [auto|].
  destruct (file_first g <=? file_first f); auto.
Qed.

Lemma sort_files_Forall : forall (Q : file -> Prop) l, Forall Q l -> Forall Q (sort_files l).
Proof.
  intros Q l H. unfold sort_files.
  assert (G : forall acc, Forall Q acc -> Forall Q (fold_left (fun acc f => insert_file f acc) l acc)).
  { induction H as [|f t Hf Ht IH]; intros acc Ha; cbn [fold_left]; [exact Ha|]. apply IH. now apply insert_file_Forall. }
  apply G. constructor.
Qed.

Lemma Forall_filter : forall {T} (Q : T -> Prop) p l, Forall Q l -> Forall Q (filter p l).
Proof.
  intros T Q p l H. rewrite Forall_forall in *. intros x Hx. apply filter_In in Hx as [Hx _]. now apply H.
Qed.

Lemma delete_before_alive : forall P j d, alivef d -> alivef (snd (delete_before P j d)).
Proof.
  intros P j d H. unfold delete_before. destruct (slot_ge P d j) as [sel [p|]]; [|destruct sel; exact H].
  destruct sel as [|k]; cbn [snd]; unfold alivef; cbn [d_files]; [constructor|now apply Forall_skipn].
Qed.

Lemma open_logs_alive : forall P d, alivef d -> all_live (d_cur d) -> alivef (open_logs P d).
Proof.
  intros P d H Hc. unfold open_logs.
  set (all := map forget (d_files d ++ [d_cur d])).
  assert (Hall : Forall all_live all).
  { unfold all. rewrite Forall_forall. intros x Hx. apply in_map_iff in Hx as (y & <- & Hy).
    change (all_live y). apply in_app_or in Hy as [Hy|[<-|[]]]; [|exact Hc].
    unfold alivef in H. rewrite Forall_forall in H. now apply H. }
  pose proof (Forall_filter all_live (fun f => negb (file_first f =? 0)) _ (sort_files_Forall all_live all Hall)) as HL.
  apply Forall_rev in HL.
  destruct (rev (filter (fun f => negb (file_first f =? 0)) (sort_files all))) as [|c older].
  - unfold alivef. cbn [d_files]. constructor.
  - unfold alivef. cbn [d_files]. inversion HL; subst. now apply Forall_rev.
Qed.

Definition step_ok_z (P : params) (o : sop) (d : disk) : Prop :=
  let '(d', r) := step_disk VZeroSlots P o d in
  let '(a', r') := step_spec o (r_first r) (abs d) in
  (exists i0' Ac', dinvz P i0' d' Ac') /\ abs d' = a' /\ r = r'.

(* operations other than Save do not depend on the variant *)
Lemma step_other : forall P o d i0 Ac,
  (match o with Save _ _ _ => False | _ => True end) ->
  dinvz P i0 d Ac -> step_ok P o d -> alivef (fst (step_disk VZeroSlots P o d)) -> step_ok_z P o d.
Proof.
  intros P o d i0 Ac Ho I S Hal. unfold step_ok_z, step_ok in *.
  assert (E : step_disk VZeroSlots P o d = step_disk VRepaired P o d) by (destruct o; [contradiction|reflexivity..]).
  rewrite E in *. destruct (step_disk VRepaired P o d) as [d' r]. cbn [fst] in Hal.
  destruct (step_spec o (r_first r) (abs d)) as [a' r']. destruct S as ((i0' & Ac' & I') & Ha & Hr).
  split; [exists i0', Ac'; split; assumption|]. split; assumption.
Qed.

Lemma step_save_z : forall P, wf_params P = true -> forall d i0 Ac es h s,
  dinvz P i0 d Ac -> valid_op P (Save es h s) (abs d) -> step_ok_z P (Save es h s) d.
Proof.
  intros P HP d i0 Ac es h s [I Hal] Hv. unfold step_ok_z.
  pose proof (save_refines VZeroSlots P true HP (clears_zeroslots P) d i0 Ac es h s I (or_introl (clears_end_zeroslots P)) Hv) as S.
  destruct (step_disk VZeroSlots P (Save es h s) d) as [d' r]. destruct (step_spec (Save es h s) (r_first r) (abs d)) as [a' r'].
  destruct S as ((i0' & Ac' & J) & Ha & Hr & _ & A'). split; [exists i0', Ac'; split; [exact J|now apply A']|auto].
Qed.

Lemma step_z_sd : forall P, wf_params P = true -> forall o d i0 Ac,
  dinvz P i0 d Ac -> Sd d -> valid_op P o (abs d) -> Sd (fst (step_disk VZeroSlots P o d)).
Proof.
  intros P HP o d i0 Ac [I Hal] HS Hv. pose proof (sd_other P o d i0 Ac I HS Hv) as SO.
  destruct o as [es h s| | | | | | |]; try exact SO.
  pose proof (save_refines VZeroSlots P true HP (clears_zeroslots P) d i0 Ac es h s I (or_introl (clears_end_zeroslots P)) Hv) as S.
  destruct (step_disk VZeroSlots P (Save es h s) d) as [d' r]. destruct (step_spec (Save es h s) (r_first r) (abs d)) as [a' r'].
  destruct S as (_ & _ & _ & S' & _). now apply S'.
Qed.

Lemma step_all_z : forall P, wf_params P = true -> forall o d i0 Ac,
  dinvz P i0 d Ac -> valid_op P o (abs d) -> step_ok_z P o d.
Proof.
  intros P HP o d i0 Ac I Hv. pose proof I as [I0 Hal].
  destruct o as [es h s|lo hi max|i|i vo dt|i| | |].
  - now apply (step_save_z P HP d i0 Ac).
  - apply (step_other P _ d i0 Ac); [exact Logic.I|exact I|now apply (step_entries P d i0 Ac)|].
    cbn [step_disk]. destruct (disk_entries_spec P d i0 Ac lo hi max I0 Hv) as (d' & -> & _ & _ & _ & R').
    destruct (s_entries lo hi max (log_of d)). exact (Forall_all_live_rows _ _ R' Hal).
  - apply (step_other P _ d i0 Ac); [exact Logic.I|exact I|now apply (step_term P d i0 Ac)|].
    cbn [step_disk]. destruct (disk_term P d i). exact Hal.
  - apply (step_other P _ d i0 Ac); [exact Logic.I|exact I|now apply (step_csnap P d i0 Ac)|].
    cbn [step_disk]. unfold disk_csnap. destruct (i <? disk_first d); [exact Hal|].
    destruct (seek_entry P d i) as [[] sl]; exact Hal.
  - apply (step_other P _ d i0 Ac); [exact Logic.I|exact I|now apply (step_delete P d i0 Ac)|].
    cbn [step_disk]. pose proof (delete_before_alive P i d Hal) as A. destruct (delete_before P i d). exact A.
  - apply (step_other P _ d i0 Ac); [exact Logic.I|exact I|now apply (step_reopen P d i0 Ac)|].
    cbn [step_disk fst]. unfold reopen. apply delete_before_alive. apply open_logs_alive; [exact Hal|].
    destruct I0 as (_ & _ & V & _). exact (view_all_live P (d_cur d) Ac V).
  - apply (step_other P _ d i0 Ac); [exact Logic.I|exact I|now apply (step_getmeta P d i0 Ac)|]. exact Hal.
  - apply (step_other P _ d i0 Ac); [exact Logic.I|exact I|now apply (step_sum P d i0 Ac)|].
    cbn [step_disk]. destruct (disk_all_spec P d i0 Ac I0 Hv) as (d' & -> & _ & _ & _ & R').
    exact (Forall_all_live_rows _ _ R' Hal).
Qed.

Lemma empty_disk_invz : forall P, dinvz P 1 (empty_disk P) [].
Proof. intro P. split; [apply empty_disk_inv|constructor]. Qed.

Lemma step_zeroslots : forall P, wf_params P = true -> refines_step VZeroSlots P (fun d => exists i0 Ac, dinvz P i0 d Ac).
Proof. intros P HP o d (i0 & Ac & I) Hv. exact (step_all_z P HP o d i0 Ac I Hv). Qed.
