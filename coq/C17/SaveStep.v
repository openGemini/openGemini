(* C17: Save (AddEntries with the repaired zero-fill) refines Append and keeps the invariant. *)
From Coq Require Import NArith PeanoNat List Bool Lia ZifyBool ZifyN ZifyNat.
From OG Require Import C17.Model C17.Proofs C17.Refine C17.Inv C17.Search C17.Read C17.Step.
Import ListNotations.
Open Scope N_scope.

Lemma wf_params_facts : forall P, wf_params P = true ->
  1 <= max_entries P /\ entry_sz * max_entries P + 4 <= data_off P /\ data_off P + 4 <= max_size P.
Proof.
  intros P H. unfold wf_params in H. apply andb_true_iff in H as [H H4]. apply andb_true_iff in H as [H H3].
  apply andb_true_iff in H as [H1 H2]. clear H3. apply N.leb_le in H1, H2, H4. auto.
Qed.

Lemma row_entry_new : forall off e, row_entry (new_row off e) = e.
Proof.
  intros off e. unfold row_entry, new_row. cbn [r_slot r_cell s_index s_term_ s_type c_lenw].
  rewrite read_cell_intact. now destruct e.
Qed.

Lemma resize_view : forall P f A D sz,
  fview P f A D -> (forall x, In x A -> s_off (r_slot x) < sz) ->
  fview P (mkfile (f_id f) (f_n f) (f_rows f) sz (f_c0 f) (f_fresh f)) A D.
Proof.
  intros P f A D sz [V1 V2 V3 V4 V5 V6 V7] H. constructor; auto.
  cbn [f_size]. apply Forall_forall. intros x Hx. rewrite Forall_forall in V4.
  destruct (V4 x Hx) as (G1 & G2 & G3 & G4). repeat split; auto.
Qed.

Lemma view_all_live : forall P f A, fview P f A [] -> all_live f.
Proof.
  intros P f A V. unfold all_live. rewrite (fv_rows P f A [] V), forallb_rev, app_nil_r.
  eapply Forall_good_live. exact (fv_good _ _ _ _ V).
Qed.

(* the state inside the append loop: the current file is (A, D), [off] is where the next payload goes *)
Definition linv (P : params) (i0 : N) (d : disk) (A D : list row) (off : N) : Prop :=
  1 <= i0 /\ chain P i0 (d_files d) /\ fview P (d_cur d) A D
  /\ consec (i0 + flen (d_files d)) (map row_entry A)
  /\ d_next d = N.of_nat (length A) /\ 0 < off
  /\ (forall x, In x A -> s_off (r_slot x) < off) /\ (A = [] -> off = data_off P) /\ (length D <= 1)%nat.

(* the last premise: with nothing left to write the loop state must already be a state of [dinv] *)
Lemma append_loop_inv : forall P, wf_params P = true -> forall es off d i0 A D,
  linv P i0 d A D off ->
  consec (i0 + flen (d_files d) + N.of_nat (length A)) es ->
  Forall (fun e => e_index e <> 0) es -> Forall (fits P) es ->
  (es = [] -> D = [] /\ (A = [] -> d_files d = [])) ->
  exists Ac', dinv P i0 (append_loop P es off d) Ac'
              /\ log_of (append_loop P es off d) = concat (map file_entries (d_files d)) ++ map row_entry A ++ es
              /\ d_meta (append_loop P es off d) = d_meta d
              /\ (D = [] -> Forall all_live (d_files d) -> Forall all_live (d_files (append_loop P es off d)))
              /\ (A <> [] \/ es <> [] -> Ac' <> []).
Proof.
  intros P HP. destruct (wf_params_facts P HP) as (Hmax & Hoffp & Hsz).
  induction es as [|e r IH]; intros off d i0 A D L C Hnz Hfit Hend.
  - destruct L as (H1 & Hch & V & Cc & Hn & Hoff & Hlt & Hnil & HD). destruct (Hend eq_refl) as [-> HA].
    cbn [append_loop]. exists A. split; [|split; [|split; [reflexivity|split; [auto|intros [X|X]; congruence]]]].
    + unfold dinv. repeat (split; [assumption|]). intro E. rewrite (HA E). constructor.
    + rewrite log_of_eq, (fv_entries P (d_cur d) A [] V), app_nil_r. reflexivity.
  - destruct L as (H1 & Hch & V & Cc & Hn & Hoff & Hlt & Hnil & HD).
    inversion Hnz as [|? ? He Hnz']; subst. inversion Hfit as [|? ? Hfe Hfit']; subst.
    destruct C as [Hei Cr].
    cbn [append_loop].
    destruct ((max_entries P <=? d_next d) || (max_size P <? off + 4 + p_len (e_data e))) eqn:Erot.
    + assert (HA : A <> []).
      { intro E. subst A. rewrite (Hnil eq_refl) in Erot. cbn [length N.of_nat] in Hn. rewrite Hn in Erot.
        unfold fits in Hfe. destruct (max_entries P <=? 0) eqn:E1; [lia|]. destruct (max_size P <? data_off P + 4 + p_len (e_data e)) eqn:E2; [lia|].
        discriminate. }
      cbn [rotate d_files d_cur d_next d_meta].
      set (c' := mkfile (f_id (d_cur d)) (f_n (d_cur d)) (f_rows (d_cur d)) off (f_c0 (d_cur d)) (f_fresh (d_cur d))).
      set (nf := new_file P (max_fid d + 1) true).
      assert (Vc' : fview P c' A D) by (apply resize_view; assumption).
      destruct (write_row_view P nf [] [] (data_off P) e (new_file_view P _ _) He ltac:(lia)
                  ltac:(intros x []) ltac:(intros _; cbn; lia)) as (Vw & _ & _).
      cbn [length N.of_nat app tl] in Vw.
      assert (Hflen : flen (d_files d ++ [c']) = flen (d_files d) + N.of_nat (length A)).
      { rewrite flen_app, (flen_cons P c' A D [] Vc'), flen_nil. lia. }
      assert (Hch' : chain P i0 (d_files d ++ [c'])).
      { apply chain_app. split; [exact Hch|]. cbn [chain]. exists A, D. auto. }
      set (d2 := mkdisk (d_files d ++ [c']) (write_row 0 (data_off P) e nf) (0 + 1) (d_meta d)).
      assert (L2 : linv P i0 d2 [new_row (data_off P) e] [] (data_off P + 4 + p_len (e_data e))).
      { unfold linv, d2. cbn [d_files d_cur d_next]. rewrite Hflen.
        split; [exact H1|]. split; [exact Hch'|]. split; [exact Vw|].
        split; [cbn [map consec]; rewrite row_entry_new; split; [lia|exact Logic.I]|].
        split; [reflexivity|]. split; [lia|].
        split; [intros x [<-|[]]; cbn; lia|]. split; [discriminate|]. cbn. lia. }
      destruct (IH (data_off P + 4 + p_len (e_data e)) d2 i0 [new_row (data_off P) e] [] L2) as (Ac' & I' & Lg & Mt & Al & Ne); auto.
      * unfold d2. cbn [d_files length]. rewrite Hflen. replace (i0 + (flen (d_files d) + N.of_nat (length A)) + N.of_nat 1) with (i0 + flen (d_files d) + N.of_nat (length A) + 1) by lia. exact Cr.
      * intros _. split; [reflexivity|discriminate].
      * exists Ac'. split; [exact I'|]. split; [|split; [exact Mt|split; [|intros _; apply Ne; left; discriminate]]].
        -- rewrite Lg. unfold d2. cbn [d_files map]. rewrite row_entry_new, map_app, concat_app. cbn [map concat].
           rewrite (fv_entries P c' A D Vc'), app_nil_r, <- !app_assoc. reflexivity.
        -- intros ED Hal. apply Al; [reflexivity|]. unfold d2. cbn [d_files]. apply Forall_app. split; [exact Hal|].
           constructor; [|constructor]. subst D. exact (view_all_live P c' A Vc').
    + apply orb_false_iff in Erot as [E1 E2].
      destruct (write_row_view P (d_cur d) A D off e V He Hoff Hlt) as (Vw & _ & _).
      { intros ->. rewrite (fv_n _ _ _ _ V), app_nil_r. rewrite Hn in E1. lia. }
      rewrite Hn.
      set (d2 := mkdisk (d_files d) (write_row (N.of_nat (length A)) off e (d_cur d)) (N.of_nat (length A) + 1) (d_meta d)).
      assert (L2 : linv P i0 d2 (A ++ [new_row off e]) (tl D) (off + 4 + p_len (e_data e))).
      { unfold linv, d2. cbn [d_files d_cur d_next].
        split; [exact H1|]. split; [exact Hch|]. split; [exact Vw|].
        split; [rewrite map_app; apply consec_app; [exact Cc|]; rewrite map_length; cbn [map consec]; rewrite row_entry_new; split; [lia|exact Logic.I]|].
        split; [rewrite app_length; cbn [length]; lia|]. split; [lia|].
        split; [intros x Hx; apply in_app_or in Hx as [Hx|[<-|[]]]; [specialize (Hlt x Hx); lia|cbn; lia]|].
        split; [intro E; destruct A; discriminate|]. destruct D as [|? [|? ?]]; cbn in *; lia. }
      destruct (IH (off + 4 + p_len (e_data e)) d2 i0 (A ++ [new_row off e]) (tl D) L2) as (Ac' & I' & Lg & Mt & Al & Ne); auto.
      * unfold d2. cbn [d_files]. rewrite app_length. cbn [length].
        replace (i0 + flen (d_files d) + N.of_nat (length A + 1)) with (i0 + flen (d_files d) + N.of_nat (length A) + 1) by lia. exact Cr.
      * intros _. split; [destruct D as [|? [|? ?]]; cbn in *; [reflexivity|reflexivity|lia]|intro E; destruct A; discriminate].
      * exists Ac'. split; [exact I'|]. split; [|split; [exact Mt|split; [|intros _; apply Ne; left; intro X; destruct A; discriminate]]].
        -- rewrite Lg. unfold d2. cbn [d_files]. rewrite map_app. cbn [map]. rewrite row_entry_new, <- !app_assoc. reflexivity.
        -- intros ED Hal. apply Al; [subst D; reflexivity|exact Hal].
Qed.

Lemma append_loop_inv_ne : forall P, wf_params P = true -> forall e r off d i0 A D,
  linv P i0 d A D off ->
  consec (i0 + flen (d_files d) + N.of_nat (length A)) (e :: r) ->
  Forall (fun e => e_index e <> 0) (e :: r) -> Forall (fits P) (e :: r) ->
  exists Ac', dinv P i0 (append_loop P (e :: r) off d) Ac'
              /\ log_of (append_loop P (e :: r) off d) = concat (map file_entries (d_files d)) ++ map row_entry A ++ e :: r
              /\ d_meta (append_loop P (e :: r) off d) = d_meta d
              /\ (D = [] -> Forall all_live (d_files d) -> Forall all_live (d_files (append_loop P (e :: r) off d)))
              /\ Ac' <> [].
Proof.
  intros P HP e r off d i0 A D L C Hnz Hfit.
  destruct (append_loop_inv P HP (e :: r) off d i0 A D L C Hnz Hfit ltac:(discriminate)) as (Ac' & X1 & X2 & X3 & X4 & X5).
  exists Ac'. repeat (split; [assumption|]). apply X5. right. discriminate.
Qed.

Lemma incr_offs_le_last : forall A x, incr_offs A -> In x A ->
  s_off (r_slot x) <= s_off (r_slot (nth (length A - 1) A zero_row)).
Proof.
  intros A x H Hx. destruct (nil_or_not A) as [->|HA]; [contradiction|].
  rewrite (app_removelast_last zero_row HA) in H, Hx |- *.
  set (R := removelast A) in *. set (l := last A zero_row) in *.
  rewrite app_length. cbn [length]. rewrite app_nth2 by lia.
  replace (length R + 1 - 1 - length R)%nat with 0%nat by lia. cbn [nth].
  apply in_app_or in Hx as [Hx|[<-|[]]]; [|lia].
  pose proof (incr_offs_lt_last R l x H Hx). lia.
Qed.

Lemma cell_len_view : forall P f A D p,
  fview P f A D -> (p < length A)%nat ->
  fst (cell_len f (N.of_nat p)) = c_lenw (r_cell (nth p A zero_row))
  /\ fview P (snd (cell_len f (N.of_nat p))) A D.
Proof.
  intros P f A D p V Hp. unfold cell_len.
  destruct (N.of_nat p =? 0) eqn:E.
  - assert (p = 0)%nat by lia. subst p. pose proof (fv_c0 _ _ _ _ V) as C0.
    destruct (f_c0 f) as [n|] eqn:Ec.
    + cbn [fst snd]. destruct C0 as (r & t & -> & ->). split; [reflexivity|exact V].
    + cbn [fst snd]. change 0 with (N.of_nat 0). rewrite (fv_row_at_live P f A D 0 V Hp). split; [reflexivity|].
      change (mkfile (f_id f) (f_n f) (f_rows f) (f_size f) (Some (c_lenw (r_cell (nth 0 A zero_row)))) false)
        with (set_c0 f (Some (c_lenw (r_cell (nth 0 A zero_row))))).
      apply set_c0_view; [exact V|]. right. destruct A as [|a t]; [cbn in Hp; lia|]. exists a, t. split; reflexivity.
  - cbn [fst snd]. rewrite (fv_row_at_live P f A D p V Hp). split; [reflexivity|exact V].
Qed.

Lemma after_conflict_inv : forall P, wf_params P = true -> forall e r d1 i0 A D,
  1 <= i0 -> chain P i0 (d_files d1) -> fview P (d_cur d1) A D ->
  consec (i0 + flen (d_files d1)) (map row_entry A) -> d_next d1 = N.of_nat (length A) -> (length D <= 1)%nat ->
  consec (i0 + flen (d_files d1) + N.of_nat (length A)) (e :: r) ->
  Forall (fun x => e_index x <> 0) (e :: r) -> Forall (fits P) (e :: r) ->
  exists Ac', dinv P i0 (after_conflict P (e :: r) d1) Ac'
              /\ log_of (after_conflict P (e :: r) d1)
                 = concat (map file_entries (d_files d1)) ++ map row_entry A ++ e :: r
              /\ d_meta (after_conflict P (e :: r) d1) = d_meta d1
              /\ (D = [] -> Forall all_live (d_files d1) -> Forall all_live (d_files (after_conflict P (e :: r) d1)))
              /\ Ac' <> [].
Proof.
  intros P HP e r d1 i0 A D H1 Hch V C Hn HD Ces Hnz Hfit.
  destruct (wf_params_facts P HP) as (Hmax & Hoffp & Hsz).
  unfold after_conflict. rewrite Hn.
  destruct (N.of_nat (length A) =? 0) eqn:E0.
  - assert (EA : A = []) by (destruct A; [reflexivity|cbn in E0; lia]).
    apply (append_loop_inv_ne P HP e r (data_off P) (mkdisk (d_files d1) (d_cur d1) (N.of_nat (length A)) (d_meta d1)) i0 A D); auto.
    unfold linv. cbn [d_files d_cur d_next]. subst A.
      split; [exact H1|]. split; [exact Hch|]. split; [exact V|]. split; [exact C|]. split; [reflexivity|].
      split; [unfold entry_sz in Hoffp; lia|]. split; [intros x []|]. split; [reflexivity|exact HD].
  - set (p := (length A - 1)%nat). assert (Hp : (p < length A)%nat) by (unfold p; lia).
    replace (N.of_nat (length A) - 1) with (N.of_nat p) by (unfold p; lia).
    destruct (cell_len_view P (d_cur d1) A D p V Hp) as [Hn1 Vc].
    destruct (cell_len (d_cur d1) (N.of_nat p)) as [n c] eqn:Ecl. cbn [fst snd] in Hn1, Vc.
    unfold slot_at. rewrite (fv_row_at_live P (d_cur d1) A D p V Hp).
    pose proof (fv_good _ _ _ _ V) as G. rewrite Forall_forall in G.
    destruct (G (nth p A zero_row) (nth_In _ _ Hp)) as (_ & G2 & _).
    apply (append_loop_inv_ne P HP e r _ (mkdisk (d_files d1) c (N.of_nat (length A)) (d_meta d1)) i0 A D); auto.
    unfold linv. cbn [d_files d_cur d_next].
      split; [exact H1|]. split; [exact Hch|]. split; [exact Vc|]. split; [exact C|]. split; [reflexivity|].
      split; [lia|]. split.
      * intros x Hx. pose proof (incr_offs_le_last A x (fv_offs _ _ _ _ V) Hx). fold p in H. lia.
      * split; [intro EA; subst A; cbn in E0; lia|exact HD].
Qed.

Lemma consec_nz : forall es b, consec b es -> 1 <= b -> Forall (fun e => e_index e <> 0) es.
Proof.
  induction es as [|e r IH]; intros b C Hb; [constructor|]. destruct C as [He Cr]. constructor; [lia|].
  apply (IH (b + 1)); [exact Cr|lia].
Qed.

Lemma consec_firstn_rows : forall A i k, consec i (map row_entry A) -> consec i (map row_entry (firstn k A)).
Proof. intros A i k H. rewrite <- firstn_map. now apply consec_firstn. Qed.

Lemma add_entries_eq : forall v P e0 r d,
  add_entries v P (e0 :: r) d = after_conflict P (e0 :: r) (conflict_step v P (e_index e0) d).
Proof. reflexivity. Qed.

(* what the refinement needs of the way a variant clears the slot records [lo, hi) of a file: the live rows below lo
   stay, nothing above them is live, at most one dead slot (the prefix slot of the WriteSlice variants) remains.
   [endb] is the byte where the cleared range ends: 32 * next slot in the current file, [data_off] in a rotated one *)
Definition clears (v : variant) (P : params) (nodead : bool) : Prop :=
  forall endb hi lo f A D, fview P f A D -> (lo < length A)%nat ->
    entry_sz * f_n f <= endb -> endb <= data_off P -> f_n f <= hi ->
    exists D', (length D' <= 1)%nat /\ (nodead = true -> D' = [])
               /\ fview P (clear_slots v P endb hi (N.of_nat lo) f) (firstn lo A) D'.

Lemma clears_repaired : forall P, clears VRepaired P false.
Proof.
  intros P endb hi lo f A D V Hlo He1 He2 _. cbn [clear_slots].
  destruct (zero_fill_view P endb lo f A D V Hlo He1 He2) as (Vz & _ & _). eexists. split; [|split; [discriminate|exact Vz]]. cbn. lia.
Qed.

(* clearing from the first empty slot of a file without dead rows changes nothing (the conflict handling of a Save that
   starts right behind the newest rotated file while the current file is empty) *)
Definition clears_end (v : variant) (P : params) : Prop :=
  forall endb hi f A, fview P f A [] -> A <> [] -> f_n f <= hi ->
    fview P (clear_slots v P endb hi (N.of_nat (length A)) f) A [].

(* the current file holds an entry, or nothing is stored at all: true in every state reached without a failed Save *)
Definition Sd (d : disk) : Prop := file_entries (d_cur d) = [] -> log_of d = [].

Lemma Sd_char : forall P d i0 Ac, dinv P i0 d Ac -> (Sd d <-> (Ac = [] -> log_of d = [])).
Proof.
  intros P d i0 Ac I. pose proof I as (_ & _ & V & _). unfold Sd. rewrite (fv_entries P (d_cur d) Ac [] V).
  split; intros H E; apply H; [now rewrite E|destruct Ac; [reflexivity|discriminate]].
Qed.

(* the state [d1] after the conflict handling of a batch that starts at index [b], on the way from [d]: a store of the
   invariant whose current file may still carry the one dead slot of a WriteSlice clear ([D'], none when [nd]), that
   ends right below [b] and holds exactly what Append keeps of the log of [d] *)
Definition cstate (P : params) (nd : bool) (b : N) (d d1 : disk) (i0' : N) (A' D' : list row) : Prop :=
  1 <= i0' /\ chain P i0' (d_files d1) /\ fview P (d_cur d1) A' D'
  /\ consec (i0' + flen (d_files d1)) (map row_entry A') /\ d_next d1 = N.of_nat (length A') /\ (length D' <= 1)%nat
  /\ (nd = true -> D' = [])
  /\ b = i0' + flen (d_files d1) + N.of_nat (length A')
  /\ concat (map file_entries (d_files d1)) ++ map row_entry A' = firstn (N.to_nat (b - first_of (log_of d))) (log_of d)
  /\ d_meta d1 = d_meta d
  /\ (Forall all_live (d_files d) -> Forall all_live (d_files d1)).

Lemma conflict_step_state : forall v P nd, wf_params P = true -> clears v P nd -> forall d i0 Ac b,
  dinv P i0 d Ac -> clears_end v P \/ Sd d -> 1 <= b ->
  (log_of d = [] \/ (first_of (log_of d) <= b /\ b <= last_of (log_of d) + 1)) ->
  exists i0' A' D', cstate P nd b d (conflict_step v P b d) i0' A' D'.
Proof.
  intros v P nd HP Hclr d i0 Ac b I HE Hb Hrange.
  destruct (wf_params_facts P HP) as (Hmax & Hoffp & Hsz). unfold entry_sz in Hoffp.
  pose proof I as (H1 & Hch & V & C & Hn & HKl).
  unfold conflict_step.
  destruct (inv_cases P d i0 Ac I) as [(EA & Ef & Hl)|Hne].
  - unfold cstate. rewrite (slot_ge_empty P d i0 Ac I EA Ef b), Hl.
    subst Ac. pose proof (dinv_empty_any P i0 d I Ef b Hb) as (_ & Hch' & V' & _ & Hn' & _).
    exists b, [], []. rewrite Ef in *. rewrite flen_nil. cbn [length N.of_nat map concat app firstn].
    split; [exact Hb|]. split; [exact Logic.I|]. split; [exact V'|]. split; [exact Logic.I|]. split; [exact Hn'|].
    split; [lia|]. split; [reflexivity|]. split; [lia|]. split; [now rewrite firstn_nil|]. split; [reflexivity|auto].
  - destruct Hrange as [E|[Hlo Hhi]]; [congruence|]. rewrite (inv_first P d i0 Ac I Hne) in Hlo.
    destruct (slot_ge_locate P d i0 Ac b I Hne Hlo)
      as (sel & pre & A & D & rest & lo & -> & Hpre & Vf & HA & Cf & Hlog & Hpos & Hsel).
    assert (Hal : Forall all_live (d_files d) -> Forall all_live pre).
    { destruct sel; [destruct Hsel as (-> & _); auto|destruct Hsel as (_ & <- & _); apply Forall_firstn]. }
    pose proof (f_equal (@length _) Hlog) as Hll. rewrite !app_length, map_length in Hll.
    rewrite (consec_last _ _ (inv_consec P d i0 Ac I) Hne) in Hhi.
    (* whatever the file and the way it is cleared: the files before it, and its rows below lo *)
    assert (G : forall cur' D', fview P cur' (firstn lo A) D' -> (length D' <= 1)%nat -> (nd = true -> D' = []) ->
                cstate P nd b d (mkdisk pre cur' (N.of_nat lo) (d_meta d)) i0 (firstn lo A) D').
    { intros cur' D' V' HD' Hnd'. unfold cstate. cbn [d_files d_cur d_next d_meta].
      assert (Hlen : length (firstn lo A) = lo) by (apply firstn_length_le; lia).
      rewrite Hlen. split; [exact H1|]. split; [exact Hpre|]. split; [exact V'|]. split; [now apply consec_firstn_rows|].
      split; [reflexivity|]. split; [exact HD'|]. split; [exact Hnd'|]. unfold flen in *.
      split; [|split; [|split; [reflexivity|exact Hal]]].
      - destruct Hpos as [[_ ->]|(-> & -> & _ & Hbb)]; cbn [length] in *; lia.
      - rewrite (inv_first P d i0 Ac I Hne), Hlog. destruct Hpos as [[Hl ->]|(-> & -> & _ & Hbb)].
        + replace (N.to_nat (_ - i0)) with (length (concat (map file_entries pre)) + lo)%nat by lia.
          rewrite firstn_app_2, firstn_app, map_length. replace (lo - length A)%nat with 0%nat by lia.
          cbn [firstn]. now rewrite app_nil_r, firstn_map.
        + rewrite firstn_all, app_nil_r. symmetry. apply firstn_all2. rewrite app_length, map_length. lia. }
    destruct sel as [|k]; cbn [sel_file] in Vf.
    + destruct Hsel as (-> & -> & -> & _). rewrite Hn.
      pose proof (fv_n _ _ _ _ V) as Hfn. rewrite app_nil_r in Hfn. pose proof (fv_max _ _ _ _ V) as Hfm.
      destruct (N.of_nat lo <? N.of_nat (length Ac)) eqn:E3.
      * (* conflict in the current file *)
        destruct (Hclr (entry_sz * N.of_nat (length Ac)) (N.of_nat (length Ac)) lo (d_cur d) Ac [] V ltac:(lia)
                    ltac:(rewrite Hfn; lia) ltac:(unfold entry_sz; lia) ltac:(rewrite Hfn; lia)) as (Dz & HDz & HDn & Vz).
        exists i0, (firstn lo Ac), Dz. now apply G.
      * (* pure append *)
        exists i0, (firstn lo Ac), []. apply G; [|cbn; lia|reflexivity]. rewrite firstn_all2 by lia. exact V.
    + destruct Hsel as (_ & -> & HAc & _). pose proof (fv_max _ _ _ _ Vf) as Hfm.
      destruct Hpos as [[Hl _]|(Hl & Hr & -> & _)].
      * (* conflict in a rotated file *)
        destruct (Hclr (data_off P) (max_entries P) lo _ A D Vf Hl ltac:(unfold entry_sz; lia) ltac:(lia) Hfm)
          as (Dz & HDz & HDn & Vz).
        exists i0, (firstn lo A), Dz. now apply G.
      * (* empty current file beside older files: the newest rotated file is found behind its last entry and becomes the
           current file again; nothing has to be cleared *)
        destruct HE as [Hend|HS]; [|elim Hne; exact (proj1 (Sd_char P d i0 Ac I) HS (HAc Hr))].
        exists i0, (firstn lo A), []. apply G; [|cbn; lia|reflexivity].
        rewrite Hl, firstn_all. exact (Hend (data_off P) (max_entries P) _ A Vf HA Hfm).
Qed.

Lemma add_entries_inv : forall v P nd, wf_params P = true -> clears v P nd -> forall d i0 Ac e0 r,
  dinv P i0 d Ac -> (clears_end v P \/ Sd d) ->
  consec (e_index e0) (e0 :: r) -> 1 <= e_index e0 -> Forall (fits P) (e0 :: r) ->
  (log_of d = [] \/ (first_of (log_of d) <= e_index e0 /\ e_index e0 <= last_of (log_of d) + 1)) ->
  exists i0' Ac', dinv P i0' (add_entries v P (e0 :: r) d) Ac'
                  /\ log_of (add_entries v P (e0 :: r) d) = s_append (e0 :: r) (log_of d)
                  /\ d_meta (add_entries v P (e0 :: r) d) = d_meta d
                  /\ (nd = true -> Forall all_live (d_files d) -> Forall all_live (d_files (add_entries v P (e0 :: r) d)))
                  /\ Ac' <> [].
Proof.
  intros v P nd HP Hclr d i0 Ac e0 r I HE Ces Hb Hfit Hrange.
  destruct (conflict_step_state v P nd HP Hclr d i0 Ac (e_index e0) I HE Hb Hrange)
    as (i0' & A' & D' & K1 & Kch & V' & KC & Kn & KD & Knd & Kb & KL & KM & Kal).
  rewrite add_entries_eq. rewrite Kb in Ces.
  destruct (after_conflict_inv P HP e0 r _ i0' A' D' K1 Kch V' KC Kn KD Ces (consec_nz _ _ Ces ltac:(lia)) Hfit)
    as (Ac' & I' & L' & M' & N' & Ne').
  exists i0', Ac'. split; [exact I'|]. split; [|split; [now rewrite M'|split; [auto|exact Ne']]].
  rewrite L', app_assoc, KL. reflexivity.
Qed.

Lemma Sd_meta : forall d m, Sd d -> Sd (mkdisk (d_files d) (d_cur d) (d_next d) m).
Proof. intros d m H. exact H. Qed.

(* Save refines Append for every variant that clears the discarded slots; the current file holds an entry afterwards,
   and a variant that leaves no dead slot leaves none in the rotated files *)
Lemma save_refines : forall v P nd, wf_params P = true -> clears v P nd -> forall d i0 Ac es h s,
  dinv P i0 d Ac -> clears_end v P \/ Sd d -> valid_op P (Save es h s) (abs d) ->
  let '(d', r) := step_disk v P (Save es h s) d in
  let '(a', r') := step_spec (Save es h s) (r_first r) (abs d) in
  (exists i0' Ac', dinv P i0' d' Ac') /\ abs d' = a' /\ r = r' /\ (Sd d -> Sd d')
  /\ (nd = true -> Forall all_live (d_files d) -> Forall all_live (d_files d')).
Proof.
  intros v P nd HP Hclr d i0 Ac es h s I HE Hv. cbn [step_disk step_spec].
  assert (H : exists i0' Ac', dinv P i0' (add_entries v P es d) Ac'
                              /\ log_of (add_entries v P es d) = s_append es (log_of d)
                              /\ d_meta (add_entries v P es d) = d_meta d
                              /\ (Sd d -> Sd (add_entries v P es d))
                              /\ (nd = true -> Forall all_live (d_files d) -> Forall all_live (d_files (add_entries v P es d)))).
  { destruct es as [|e0 r].
    - exists i0, Ac. cbn [add_entries s_append]. auto.
    - cbn [valid_op] in Hv. destruct Hv as (Ces & Hb & Hfit & Hrange). change (a_ents (abs d)) with (log_of d) in Hrange.
      destruct (add_entries_inv v P nd HP Hclr d i0 Ac e0 r I HE Ces Hb Hfit Hrange) as (a & b & X1 & X2 & X3 & X4 & X5).
      exists a, b. repeat (split; [assumption|]). split; [|exact X4]. intros _. apply (proj2 (Sd_char P _ a b X1)). congruence. }
  destruct H as (i0' & Ac' & I' & L' & M' & S' & A').
  set (d1 := add_entries v P es d) in *.
  set (d2 := mkdisk (d_files d1) (d_cur d1) (d_next d1) (store_snap s (store_hs h (d_meta d1)))).
  assert (I2 : dinv P i0' d2 Ac') by exact I'.
  assert (Habs : abs d2 = mkalog (s_append es (a_ents (abs d))) (store_snap s (store_hs h (a_meta (abs d))))).
  { rewrite abs_log. change (log_of d2) with (log_of d1). rewrite L'. unfold d2. cbn [d_meta]. rewrite M'. reflexivity. }
  split; [eauto|]. split; [exact Habs|]. split; [|split; [exact S'|exact A']].
  rewrite (dres_res P d2 i0' Ac' _ _ _ _ I2), Habs. reflexivity.
Qed.

Lemma step_save : forall P, wf_params P = true -> forall d i0 Ac es h s,
  dinv P i0 d Ac -> Sd d -> valid_op P (Save es h s) (abs d) ->
  step_ok P (Save es h s) d /\ Sd (fst (step_disk VRepaired P (Save es h s) d)).
Proof.
  intros P HP d i0 Ac es h s I HS Hv. unfold step_ok.
  pose proof (save_refines VRepaired P false HP (clears_repaired P) d i0 Ac es h s I (or_intror HS) Hv) as S.
  destruct (step_disk VRepaired P (Save es h s) d) as [d' r]. destruct (step_spec (Save es h s) (r_first r) (abs d)) as [a' r'].
  destruct S as (J & Ha & Hr & S' & _). auto.
Qed.

Lemma sd_other : forall P o d i0 Ac, dinv P i0 d Ac -> Sd d -> valid_op P o (abs d) ->
  match o with Save _ _ _ => True | _ => Sd (fst (step_disk VRepaired P o d)) end.
Proof.
  intros P o d i0 Ac I0 HS Hv. destruct o as [es h s|lo hi max|i|i vo dt|j| | |]; try exact Logic.I; cbn [step_disk].
  - destruct (disk_entries_spec P d i0 Ac lo hi max I0 Hv) as (d' & -> & I' & L' & _).
    destruct (s_entries lo hi max (log_of d)) as [e es]. cbn [fst].
    apply (proj2 (Sd_char P d' _ Ac I')). rewrite L'. exact (proj1 (Sd_char P d _ Ac I0) HS).
  - destruct (disk_term P d i). exact HS.
  - unfold disk_csnap. destruct (i <? disk_first d); [exact HS|]. destruct (seek_entry P d i) as [[] sl]; exact HS.
  - destruct (delete_before_state P d i0 Ac j I0) as ((i0' & I') & L' & _).
    destruct (delete_before P j d) as [e d']. cbn [fst snd] in *.
    apply (proj2 (Sd_char P d' i0' Ac I')). intro EA. rewrite L', (proj1 (Sd_char P d i0 Ac I0) HS EA).
    unfold drop_below. apply skipn_nil.
  - cbn [fst]. unfold reopen.
    destruct (open_logs_inv P d i0 Ac I0) as ((Ac1 & I1) & L1 & M1 & Isame).
    set (d1 := open_logs P d) in *.
    set (j := (if 0 <? snap_i (d_meta d1) then snap_i (d_meta d1) + 1 else disk_first d1) - 1).
    destruct (nil_or_not Ac) as [EA|EA].
    + pose proof (proj1 (Sd_char P d i0 Ac I0) HS EA) as Hl.
      destruct (delete_before_state P d1 i0 Ac1 j I1) as ((i0' & I') & L' & _).
      apply (proj2 (Sd_char P _ i0' Ac1 I')). intros _. rewrite L', L1, Hl. unfold drop_below. apply skipn_nil.
    + specialize (Isame EA).
      destruct (delete_before_state P d1 i0 Ac j Isame) as ((i0' & I') & L' & _).
      apply (proj2 (Sd_char P _ i0' Ac I')). congruence.
  - exact HS.
  - destruct (disk_all_spec P d i0 Ac I0 Hv) as (d' & -> & I' & L' & _). cbn [fst].
    apply (proj2 (Sd_char P d' _ Ac I')). rewrite L'. exact (proj1 (Sd_char P d _ Ac I0) HS).
Qed.

Lemma step_all : forall P, wf_params P = true -> forall o d i0 Ac,
  dinv P i0 d Ac -> Sd d -> valid_op P o (abs d) -> step_ok P o d /\ Sd (fst (step_disk VRepaired P o d)).
Proof.
  intros P HP o d i0 Ac I HS Hv. pose proof (sd_other P o d i0 Ac I HS Hv) as SO.
  destruct o.
  - now apply (step_save P HP d i0 Ac).
  - split; [now apply (step_entries P d i0 Ac)|exact SO].
  - split; [now apply (step_term P d i0 Ac)|exact SO].
  - split; [now apply (step_csnap P d i0 Ac)|exact SO].
  - split; [now apply (step_delete P d i0 Ac)|exact SO].
  - split; [now apply (step_reopen P d i0 Ac)|exact SO].
  - split; [now apply (step_getmeta P d i0 Ac)|exact SO].
  - split; [now apply (step_sum P d i0 Ac)|exact SO].
Qed.

Fixpoint valid_spec (P : params) (ops : list sop) (choices : list N) (a : alog) : Prop :=
  match ops, choices with
  | o :: r, c :: cs => valid_op P o a /\ valid_spec P r cs (fst (step_spec o c a))
  | _, _ => True
  end.

Lemma empty_disk_inv : forall P, dinv P 1 (empty_disk P) [].
Proof.
  intro P. unfold dinv, empty_disk. cbn [d_files d_cur d_next chain].
  split; [lia|]. split; [exact Logic.I|]. split; [apply new_file_view|]. split; [exact Logic.I|]. split; [reflexivity|]. intros _. constructor.
Qed.

Lemma empty_disk_sd : forall P, Sd (empty_disk P).
Proof. intros P _. reflexivity. Qed.

(* every step of variant [v] from a state of [Inv] answers like the specification and ends in [Inv] *)
Definition refines_step (v : variant) (P : params) (Inv : disk -> Prop) : Prop :=
  forall o d, Inv d -> valid_op P o (abs d) ->
    let '(d', r) := step_disk v P o d in
    let '(a', r') := step_spec o (r_first r) (abs d) in Inv d' /\ abs d' = a' /\ r = r'.

Lemma refines_run : forall v P Inv, refines_step v P Inv -> forall ops d, Inv d ->
  valid_spec P ops (map r_first (outputs_disk v P ops d)) (abs d) ->
  outputs_disk v P ops d = outputs_spec ops (map r_first (outputs_disk v P ops d)) (abs d)
  /\ abs (run_disk v P ops d) = run_spec ops (map r_first (outputs_disk v P ops d)) (abs d)
  /\ Inv (run_disk v P ops d).
Proof.
  intros v P Inv Hstep. induction ops as [|o r IH]; intros d I Hv; [auto|].
  cbn [outputs_disk run_disk] in *. specialize (Hstep o d I).
  destruct (step_disk v P o d) as [d' x]. cbn [map fst] in *.
  cbn [valid_spec outputs_spec run_spec] in *. destruct Hv as [Hv1 Hv2].
  destruct (step_spec o (r_first x) (abs d)) as [a' y]. cbn [fst] in *.
  destruct (Hstep Hv1) as (I' & <- & <-).
  destruct (IH d' I' Hv2) as (O & R & J). split; [now rewrite <- O|]. split; [exact R|exact J].
Qed.

Lemma step_prefix_fill : forall P, wf_params P = true ->
  refines_step VRepaired P (fun d => (exists i0 Ac, dinv P i0 d Ac) /\ Sd d).
Proof.
  intros P HP o d [(i0 & Ac & I) HS] Hv. destruct (step_all P HP o d i0 Ac I HS Hv) as [S S2]. unfold step_ok in S.
  destruct (step_disk VRepaired P o d) as [d' r]. destruct (step_spec o (r_first r) (abs d)) as [a' r'].
  destruct S as (J & Ha & Hr). auto.
Qed.
