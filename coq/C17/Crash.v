(* C17: crash points inside Save, on the granularity of the store's own write operations (discard from the first new
   index, one step per entry - its slot is written last, so an entry is either there or not -, hard state, snapshot).
   A process killed after k steps leaves the state reached by the first k steps. The Raft storage contract
   ("entries first, then hard state and snapshot") is: whatever k, the log below the first new index is untouched,
   hard state and snapshot are the old or the new ones, and a NEW hard state or snapshot is visible only together with
   the complete batch. [save_steps] is the order of RaftDiskStorage.Save; [save_steps_meta_first] is the reversed
   order (meta file first), which breaks the contract. Tears inside one write operation (two write calls of
   WriteSlice) are below this granularity: Tear.v (findings C17-meta-torn-update, C17-zerofill-torn). *)
From Coq Require Import NArith PeanoNat List Bool Lia.
From OG Require Import C17.Model C17.Proofs.
Import ListNotations.
Open Scope N_scope.

Inductive wstep := WDiscard (b : N) | WEntry (e : entry) | WHs (h : hardstate) | WSnap (s : snapshot).
Record pstate := mkp { p_log : list entry; p_hs : hardstate; p_snap : snapshot }.

Definition below (b : N) (l : list entry) : list entry := filter (fun e => e_index e <? b) l.

Definition apply_step (st : pstate) (w : wstep) : pstate :=
  match w with
  | WDiscard b => mkp (below b (p_log st)) (p_hs st) (p_snap st)
  | WEntry e => mkp (p_log st ++ [e]) (p_hs st) (p_snap st)
  | WHs h => mkp (p_log st) h (p_snap st)
  | WSnap s => mkp (p_log st) (p_hs st) s
  end.

Definition entry_steps (es : list entry) : list wstep :=
  match es with [] => [] | e :: _ => WDiscard (e_index e) :: map WEntry es end.
(* StoreHardState ignores an empty hard state, StoreSnapshot an invalid snapshot *)
Definition meta_steps (h : option hardstate) (s : option snapshot) : list wstep :=
  (match h with Some h => if hs_is_empty h then [] else [WHs h] | None => [] end)
  ++ (match s with Some s => if snap_valid s then [WSnap (canon_snap s)] else [] | None => [] end).

Definition save_steps (es : list entry) h s := entry_steps es ++ meta_steps h s.
Definition save_steps_meta_first (es : list entry) h s := meta_steps h s ++ entry_steps es.

Definition crash_state (k : nat) (steps : list wstep) (st : pstate) : pstate := fold_left apply_step (firstn k steps) st.

(* the log once the batch is complete: Append of the specification (C17_spec_append: = s_append es l) *)
Definition complete_log (es : list entry) (l : list entry) : list entry :=
  match es with [] => l | e :: _ => below (e_index e) l ++ es end.
Definition new_hs (h : option hardstate) (old : hardstate) :=
  match h with Some h => if hs_is_empty h then old else h | None => old end.
Definition new_snap (s : option snapshot) (old : snapshot) :=
  match s with Some s => if snap_valid s then canon_snap s else old | None => old end.

Definition inside_ok (st0 : pstate) (es : list entry) h s (st : pstate) : Prop :=
  (* below the first new index nothing changes *)
  (match es with [] => p_log st = p_log st0 | e :: _ => below (e_index e) (p_log st) = below (e_index e) (p_log st0) end)
  (* hard state and snapshot are the old or the new ones *)
  /\ (p_hs st = p_hs st0 \/ p_hs st = new_hs h (p_hs st0))
  /\ (p_snap st = p_snap st0 \/ p_snap st = new_snap s (p_snap st0))
  (* something new in the meta file is visible only together with the complete batch *)
  /\ ((p_hs st = p_hs st0 /\ p_snap st = p_snap st0) \/ p_log st = complete_log es (p_log st0)).

Lemma run_entries : forall es l h s, fold_left apply_step (map WEntry es) (mkp l h s) = mkp (l ++ es) h s.
Proof.
  induction es as [|e r IH]; intros l h s; cbn [map fold_left apply_step p_log p_hs p_snap].
  - now rewrite app_nil_r.
  - rewrite IH. now rewrite <- app_assoc.
Qed.

Lemma below_app : forall b l1 l2, below b (l1 ++ l2) = below b l1 ++ below b l2.
Proof. intros. unfold below. apply filter_app. Qed.

Lemma below_idem : forall b l, below b (below b l) = below b l.
Proof.
  intros b l. unfold below. induction l as [|e r IH]; [reflexivity|]. cbn [filter].
  destruct (e_index e <? b) eqn:E; cbn [filter]; [rewrite E; now rewrite IH|exact IH].
Qed.

Lemma below_none : forall b l, Forall (fun e => b <= e_index e) l -> below b l = [].
Proof.
  intros b l H. induction H as [|e r He Hr IH]; [reflexivity|]. unfold below in *. cbn [filter].
  destruct (e_index e <? b) eqn:E; [apply N.ltb_lt in E; lia|exact IH].
Qed.

Lemma meta_prefix : forall h s j l oh os,
  let st := fold_left apply_step (firstn j (meta_steps h s)) (mkp l oh os) in
  p_log st = l /\ (p_hs st = oh \/ p_hs st = new_hs h oh) /\ (p_snap st = os \/ p_snap st = new_snap s os).
Proof.
  intros h s j l oh os. unfold meta_steps, new_hs, new_snap.
  destruct h as [x|]; [destruct (hs_is_empty x)|]; (destruct s as [y|]; [destruct (snap_valid y)|]);
    cbn [app]; destruct j as [|[|[|j]]]; cbn; auto.
Qed.

Theorem crash_entries_first : forall st0 es h s k,
  Forall (fun e => match es with [] => True | e0 :: _ => e_index e0 <= e_index e end) es ->
  inside_ok st0 es h s (crash_state k (save_steps es h s) st0).
Proof.
  intros [l oh os] es h s k Hge. unfold crash_state, save_steps. rewrite firstn_app, fold_left_app.
  destruct es as [|e0 r].
  - cbn [entry_steps firstn length]. rewrite firstn_nil. cbn [fold_left]. rewrite Nat.sub_0_r.
    destruct (meta_prefix h s k l oh os) as (L & H1 & H2). unfold inside_ok. cbn [p_log p_hs p_snap complete_log].
    repeat split; auto.
  - set (b := e_index e0) in *.
    destruct k as [|k].
    + cbn [firstn fold_left Nat.sub]. unfold inside_ok. cbn [p_log p_hs p_snap]. repeat split; auto.
    + cbn [entry_steps firstn fold_left apply_step p_log p_hs p_snap length]. fold b.
      rewrite firstn_map, run_entries.
      replace (S k - S (length (map WEntry (e0 :: r))))%nat with (k - length (e0 :: r))%nat by (rewrite map_length; reflexivity).
      destruct (meta_prefix h s (k - length (e0 :: r)) (below b l ++ firstn k (e0 :: r)) oh os) as (L & H1 & H2).
      assert (Hpre : below b (firstn k (e0 :: r)) = []) by (apply below_none, Forall_firstn, Hge).
      unfold inside_ok. cbn [p_log p_hs p_snap complete_log]. fold b. rewrite L.
      split; [now rewrite below_app, below_idem, Hpre, app_nil_r|].
      split; [exact H1|]. split; [exact H2|].
      destruct (Nat.leb k (length (e0 :: r))) eqn:E.
      * apply Nat.leb_le in E. left.
        replace (k - length (e0 :: r))%nat with 0%nat by lia. cbn [firstn fold_left p_hs p_snap]. auto.
      * apply Nat.leb_gt in E. right. rewrite firstn_all2 by lia. reflexivity.
Qed.

(* the reversed order (meta file first, then the entries) breaks the contract: a kill after the meta write shows a
   hard state that commits index 5 while the log still ends at 3 *)
Definition demo_st0 := mkp [mkent 1 1 0 empty_pay; mkent 2 1 0 empty_pay; mkent 3 1 0 empty_pay] (mkhs 1 1 3) empty_snap.
Definition demo_es := [mkent 4 2 0 empty_pay; mkent 5 2 0 empty_pay].
Definition demo_hs := Some (mkhs 2 2 5).

Lemma crash_meta_first_breaks :
  exists k, let st := crash_state k (save_steps_meta_first demo_es demo_hs None) demo_st0 in
            ~ inside_ok demo_st0 demo_es demo_hs None st
            /\ hs_commit (p_hs st) = 5 /\ last_of (p_log st) = 3.
Proof.
  exists 1%nat. cbv zeta. split; [|split; reflexivity].
  unfold inside_ok. intros (_ & _ & _ & [[H _]|H]); vm_compute in H; discriminate H.
Qed.
