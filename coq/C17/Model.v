(* C17 - replication log store vs. the Raft storage contract. Executable definitions only.

   Part 1: the abstract specification [alog] = the semantics of etcd's MemoryStorage as far as the store exposes it
           (entry list with first/last index, Append truncating at the first conflicting index, Entries with
           Compacted / Unavailable and the "at least one entry" size limit, Term, CreateSnapshot, prefix compaction).
   Part 2: a concrete model of lib/raftlog's on-disk entry log: files made of a slot table of
           (term, index, type, offset) records and a data area of [len:4][payload] cells, AddEntries with slotGe,
           conflict handling (zero the slots of the current file / delete later files and reuse an earlier one),
           rotation on the slot-count or size limit, reopen (re-derive everything from the files), prefix deletion.
           Granularity: slot records and length-prefixed payload cells; the effect of the zero-fill being written with
           WriteSlice (a 4-byte length prefix, hence 4 bytes more than intended) is expressed on that granularity:
           the prefix lands in the first cleared slot, the overrun lands either in the next slot's first 4 bytes or on
           the length word of the cell at [data_off].
   Three variants of clearing the discarded slots ([variant] below): [VCurrent] is the code of the pinned tree (before
   /repo 6bd4b1a), [VRepaired] the minimal repair (the buffer is 4 bytes shorter, so prefix + zeros cover exactly the
   intended range), [VZeroSlots] what /repo does since fe68fb6. *)
From Coq Require Import NArith List Bool.
Import ListNotations.
Open Scope N_scope.

(* ------------------------------------------------------------------------------------------------------------ *)
(* entries *)

Record payload := mkpay { p_len : N; p_tag : N }.       (* p_tag identifies the bytes; length 0 <-> tag 0 *)
Definition empty_pay := mkpay 0 0.
Record entry := mkent { e_index : N; e_term : N; e_type : N; e_data : payload }.

(* protobuf size of raftpb.Entry (gogo): 1+sov(type) + 1+sov(term) + 1+sov(index) + (data <> nil ? 1+len+sov(len)) *)
Definition sov (x : N) : N := (N.size (N.lor x 1) + 6) / 7.
Definition entry_size (e : entry) : N :=
  3 + sov (e_type e) + sov (e_term e) + sov (e_index e)
  + (if p_len (e_data e) =? 0 then 0 else 1 + p_len (e_data e) + sov (p_len (e_data e))).

(* ------------------------------------------------------------------------------------------------------------ *)
(* meta file: hard state and snapshot, stored and returned as they are *)

Record hardstate := mkhs { hs_term : N; hs_vote : N; hs_commit : N }.
Record snapshot := mksnap { sn_index : N; sn_term : N; sn_voters : option (list N); sn_data : N }.
Record meta := mkmeta { m_hs : hardstate; m_snap : snapshot }.
Definition empty_hs := mkhs 0 0 0.
Definition empty_snap := mksnap 0 0 None 0.
Definition empty_meta := mkmeta empty_hs empty_snap.

Definition hs_is_empty (h : hardstate) := (hs_term h =? 0) && (hs_vote h =? 0) && (hs_commit h =? 0).
(* raftlog.IsValidSnapshot: index <> 0, or the voters field is present *)
Definition snap_valid (s : snapshot) := negb (sn_index s =? 0) || match sn_voters s with Some _ => true | None => false end.
(* what comes back after marshal/unmarshal: an empty voter list and an absent one are the same *)
Definition canon_snap (s : snapshot) :=
  mksnap (sn_index s) (sn_term s) (match sn_voters s with Some [] => None | v => v end) (sn_data s).

Definition store_hs (h : option hardstate) (m : meta) : meta :=
  match h with
  | Some h => if hs_is_empty h then m else mkmeta h (m_snap m)
  | None => m
  end.
Definition store_snap (s : option snapshot) (m : meta) : meta :=
  match s with
  | Some s => if snap_valid s then mkmeta (m_hs m) (canon_snap s) else m
  | None => m
  end.
Definition snap_i (m : meta) := sn_index (m_snap m).
Definition snap_t (m : meta) := sn_term (m_snap m).

(* ------------------------------------------------------------------------------------------------------------ *)
(* operations and results, shared by specification and disk model *)

Inductive err := Ok | Compacted | Unavailable | SnapOutOfDate | OtherErr.

Inductive sop :=
| Save (es : list entry) (h : option hardstate) (s : option snapshot)
| Entries (lo hi max : N)
| Term (i : N)
| CreateSnap (i : N) (voters : option (list N)) (data : N)
| DeleteBefore (i : N)
| Reopen
| GetMeta
| Sum.

(* what an operation answers; [r_first]/[r_last] are FirstIndex()/LastIndex() right after it *)
Record result := mkres { r_err : err; r_first : N; r_last : N; r_ents : list entry; r_term : N; r_meta : option meta }.

(* ------------------------------------------------------------------------------------------------------------ *)
(* Part 1: specification *)

Record alog := mkalog { a_ents : list entry; a_meta : meta }.
Definition empty_alog := mkalog [] empty_meta.

Definition first_of (l : list entry) : N := match l with [] => 1 | e :: _ => e_index e end.
Definition last_of (l : list entry) : N := match l with [] => 0 | _ => e_index (List.last l (mkent 0 0 0 empty_pay)) end.
Definition a_first (a : alog) := first_of (a_ents a).
(* LastIndex(): the last entry, but never below the snapshot index *)
Definition a_last (a : alog) := N.max (last_of (a_ents a)) (snap_i (a_meta a)).

(* Append: everything from the first new index on is discarded, then the batch is appended *)
Definition s_append (es : list entry) (l : list entry) : list entry :=
  match es with
  | [] => l
  | e :: _ => firstn (N.to_nat (e_index e - first_of l)) l ++ es
  end.

(* limitSize: at least one entry, then as long as the running protobuf size stays <= max *)
Fixpoint limit_from (max size : N) (l : list entry) : list entry :=
  match l with
  | [] => []
  | e :: r => let size' := size + entry_size e in
              if max <? size' then [] else e :: limit_from max size' r
  end.
Definition limit_size (max : N) (l : list entry) : list entry :=
  match l with
  | [] => []
  | e :: r => e :: limit_from max (entry_size e) r
  end.

Definition slice (lo hi : N) (l : list entry) : list entry :=
  firstn (N.to_nat (hi - lo)) (skipn (N.to_nat (lo - first_of l)) l).

Definition lookup (i : N) (l : list entry) : option entry :=
  if (i <? first_of l) then None else nth_error l (N.to_nat (i - first_of l)).

Definition s_entries (lo hi max : N) (l : list entry) : err * list entry :=
  if lo <? first_of l then (Compacted, [])
  else if last_of l + 1 <? hi then (Unavailable, [])
  else (Ok, limit_size max (slice lo hi l)).

(* Term: index 0 answers 0; an index inside the log answers its term; otherwise the store falls back on the
   snapshot index/term it keeps in the meta file. A store that holds no entry at all answers 'compacted' for every
   index >= 1 (etcd's MemoryStorage says 'unavailable' there; raft never asks beyond the last index). *)
Definition s_term (i : N) (a : alog) : err * N :=
  if i =? 0 then (Ok, 0)
  else match lookup i (a_ents a) with
       | Some e => (Ok, e_term e)
       | None =>
           if i <? snap_i (a_meta a) then (Compacted, 0)
           else if i =? snap_i (a_meta a) then (Ok, snap_t (a_meta a))
           else if (i <? a_first a) || (match a_ents a with [] => true | _ => false end) then (Compacted, 0)
           else (Unavailable, 0)
       end.

Definition s_csnap (i : N) (v : option (list N)) (d : N) (a : alog) : err * alog :=
  if i <? a_first a then (SnapOutOfDate, a)
  else match lookup i (a_ents a) with
       | None => (match a_ents a with [] => Compacted | _ => Unavailable end, a)   (* an empty store says 'compacted' *)
       | Some e => (Ok, mkalog (a_ents a) (store_snap (Some (mksnap i (e_term e) v d)) (a_meta a)))
       end.

(* prefix compaction up to a new first index [c]; the store decides how far it goes (whole files only) and the
   specification is told. Raft's contract bounds it (nothing at or above the requested index may disappear); that bound
   is NOT part of [step_spec]: [c] is taken as it comes *)
Definition drop_below (c : N) (l : list entry) : list entry := skipn (N.to_nat (c - first_of l)) l.

Definition poly_step (h x : N) : N := N.land (h * 31 + x) 18446744073709551615.   (* uint64 wrap-around *)
Definition checksum (l : list entry) : N :=
  fold_left (fun h e => poly_step (poly_step (poly_step (poly_step (poly_step h (e_index e)) (e_term e)) (e_type e))
                                      (p_len (e_data e))) (p_tag (e_data e))) l 0.

Definition sum_of (l : list entry) : N := poly_step (checksum l) (N.of_nat (length l)).

Definition res_of (a : alog) (e : err) (es : list entry) (t : N) (m : option meta) : result :=
  mkres e (a_first a) (a_last a) es t m.

(* [choice]: the new first index the store picked for DeleteBefore / Reopen (ignored by the other operations) *)
Definition step_spec (o : sop) (choice : N) (a : alog) : alog * result :=
  match o with
  | Save es h s =>
      let a' := mkalog (s_append es (a_ents a)) (store_snap s (store_hs h (a_meta a))) in
      (a', res_of a' Ok [] 0 None)
  | Entries lo hi max =>
      let '(e, es) := s_entries lo hi max (a_ents a) in (a, res_of a e es 0 None)
  | Term i => let '(e, t) := s_term i a in (a, res_of a e [] t None)
  | CreateSnap i v d => let '(e, a') := s_csnap i v d a in (a', res_of a' e [] 0 None)
  | DeleteBefore i =>
      if (i <? a_first a) || (match a_ents a with [] => true | _ => false end) then (a, res_of a OtherErr [] 0 None)
      else let a' := mkalog (drop_below choice (a_ents a)) (a_meta a) in (a', res_of a' Ok [] 0 None)
  | Reopen => let a' := mkalog (drop_below choice (a_ents a)) (a_meta a) in (a', res_of a' Ok [] 0 None)
  | GetMeta => (a, res_of a Ok [] 0 (Some (a_meta a)))
  | Sum => (a, res_of a Ok [] (sum_of (a_ents a)) None)
  end.

(* ------------------------------------------------------------------------------------------------------------ *)
(* Part 2: the on-disk entry log *)

Record params := mkparams { max_entries : N; data_off : N; max_size : N }.
Definition entry_sz : N := 32.     (* bytes per slot; four big-endian uint64 *)

(* VCurrent: the zero-fill written with WriteSlice over the whole range (4 bytes too long; /repo before 6bd4b1a).
   VRepaired: the same with a buffer 4 bytes shorter (6bd4b1a; still the fallback of zeroSlots for a file wrapper
   without ZeroSlots). VZeroSlots: one plain positioned write of zeros without a prefix, and a failed clear fails the
   Save (what /repo does since fe68fb6). *)
Inductive variant := VCurrent | VRepaired | VZeroSlots.

Record slotrec := mkslot { s_term_ : N; s_index : N; s_type : N; s_off : N }.
(* a cell of the data area: the 4-byte length word and the payload bytes written after it *)
Record cell := mkcell { c_lenw : N; c_pay : payload }.
(* one row = slot record + the cell found at the offset the slot names *)
Record row := mkrow { r_slot : slotrec; r_cell : cell }.
Definition zero_slot := mkslot 0 0 0 0.
Definition zero_row := mkrow zero_slot (mkcell 0 empty_pay).
Definition is_zero_slot (s : slotrec) := (s_term_ s =? 0) && (s_index s =? 0) && (s_type s =? 0) && (s_off s =? 0).

Record file := mkfile {
  f_id : N;
  f_n : N;                (* number of rows below (kept beside the list so that appending costs O(1)) *)
  f_rows : list row;      (* slot table, HIGHEST written slot first; slot number of the head = f_n-1; all slots
                             above are zero bytes *)
  f_size : N;             (* file size in bytes *)
  f_c0 : option N;        (* volatile: cached payload length of slot 0 (fileSlotCache.sz) *)
  f_fresh : bool          (* volatile: the slot cache of this file object is still empty (just created by rotate) *)
}.

Record disk := mkdisk {
  d_files : list file;    (* rotated files, oldest first *)
  d_cur : file;           (* file being written *)
  d_next : N;             (* nextEntryIdx *)
  d_meta : meta
}.

Definition new_file (P : params) (fid : N) (fresh : bool) := mkfile fid 0 [] (data_off P) None fresh.
Definition empty_disk (P : params) := mkdisk [] (new_file P 1 false) 0 empty_meta.

Definition nrows (f : file) : N := f_n f.
(* the slot table in slot order (List.rev is quadratic under vm_compute, rev_append is linear) *)
Definition asc_rows (f : file) : list row := rev_append (f_rows f) [].
(* slot at position p (zero beyond the written part) *)
Definition row_at (f : file) (p : N) : row :=
  if p <? nrows f then nth (N.to_nat (nrows f - 1 - p)) (f_rows f) zero_row else zero_row.
Definition slot_at (f : file) (p : N) := r_slot (row_at f p).
Definition file_first (f : file) : N := s_index (slot_at f 0).

(* sort.Search(n, pred) on a table whose predicate is monotone = position of the first slot satisfying it *)
Fixpoint find_pos (pred : slotrec -> bool) (asc : list row) (p : N) : option N :=
  match asc with
  | [] => None
  | r :: t => if pred (r_slot r) then Some p else find_pos pred t (p + 1)
  end.
(* over the whole table of [max_entries] slots: the rows, then zero slots *)
Definition search_slots (P : params) (f : file) (pred : slotrec -> bool) : N :=
  match find_pos pred (asc_rows f) 0 with
  | Some p => p
  | None => if (nrows f <? max_entries P) && pred zero_slot then nrows f else max_entries P
  end.

Definition first_empty_slot (P : params) (f : file) : N := search_slots P f (fun s => s_index s =? 0).

(* logFile.slotGe: None = -1 *)
Definition file_slot_ge (P : params) (f : file) (i : N) : option N :=
  let fi := file_first f in
  if (fi =? 0) || (i <? fi) then None
  else if (i - fi <? max_entries P) && (s_index (slot_at f (i - fi)) =? i) then Some (i - fi)
  else Some (search_slots P f (fun s => (s_index s =? 0) || (i <=? s_index s))).

Inductive fsel := InCur | InOld (k : nat).

Fixpoint find_file (i : N) (fs : list file) (k : nat) : nat :=
  match fs with
  | [] => k
  | f :: t => if i <=? file_first f then k else find_file i t (S k)
  end.

(* entryLog.slotGe *)
Definition slot_ge (P : params) (d : disk) (i : N) : fsel * option N :=
  match file_slot_ge P (d_cur d) i with
  | Some p => (InCur, Some p)
  | None =>
      match d_files d with
      | [] => (InCur, None)
      | _ =>
          let k := find_file i (d_files d) 0 in
          if (Nat.ltb k (length (d_files d))) && (file_first (nth k (d_files d) (d_cur d)) =? i) then (InOld k, Some 0)
          else let k' := Nat.pred k in
               (InOld k', file_slot_ge P (nth k' (d_files d) (d_cur d)) i)
      end
  end.

(* --- writing --- *)

Definition map_pos (g : N -> row -> row) (f : file) : list row :=
  snd (fold_right (fun r acc => let p := fst acc in (p + 1, g p r :: snd acc)) (0, []) (f_rows f)).

Fixpoint trim_zero (rows : list row) : list row :=
  match rows with
  | r :: t => if is_zero_slot (r_slot r) then trim_zero t else rows
  | [] => []
  end.

Definition fill_len (v : variant) (bytes : N) : N := match v with VRepaired => bytes - 4 | _ => bytes end.

(* WriteSlice(lo, .., entrySize*lo, make([]byte, L)) with L = fill_len v (endb - 32*lo): bytes [32lo, 32lo+4) receive the
   big-endian L, bytes [32lo+4, 32lo+4+L) receive zero. *)
Definition zero_fill (v : variant) (P : params) (endb lo : N) (f : file) : file :=
  let L := fill_len v (endb - entry_sz * lo) in
  let e := entry_sz * lo + 4 + L in
  let g p r :=
    if p <? lo then r
    else if p =? lo then mkrow (mkslot (L * 4294967296) 0 0 0) (mkcell 0 empty_pay)
    else if entry_sz * p + entry_sz <=? e then zero_row
    else if entry_sz * p + 4 <=? e then
      mkrow (mkslot (s_term_ (r_slot r) mod 4294967296) (s_index (r_slot r)) (s_type (r_slot r)) (s_off (r_slot r))) (r_cell r)
    else r in
  let rows1 :=
    (* the first cleared slot always receives the prefix, also when it lies above the written part *)
    if nrows f <=? lo then
      mkrow (mkslot (L * 4294967296) 0 0 0) (mkcell 0 empty_pay) :: repeat zero_row (N.to_nat (lo - nrows f)) ++ f_rows f
    else map_pos g f in
  (* the overrun reaches the length word of the cell stored at data_off *)
  let clob r := if (data_off P + 4 <=? e) && (s_off (r_slot r) =? data_off P) && negb (s_index (r_slot r) =? 0)
                then mkrow (r_slot r) (mkcell 0 (c_pay (r_cell r))) else r in
  let rows2 := if data_off P + 4 <=? e then map clob rows1 else rows1 in
  let rows3 := trim_zero rows2 in
  mkfile (f_id f) (N.of_nat (length rows3)) rows3 (f_size f) (if lo =? 0 then None else f_c0 f) false.

(* ZeroSlots(lo, hi): one positioned write of 32*(hi-lo) zero bytes at 32*lo; everything cached for these slots is
   dropped. Nothing outside the slot records [lo, hi) is touched. *)
Definition zero_slots (hi lo : N) (f : file) : file :=
  let g p r := if (lo <=? p) && (p <? hi) then zero_row else r in
  let rows := trim_zero (map_pos g f) in
  mkfile (f_id f) (N.of_nat (length rows)) rows (f_size f) (if lo =? 0 then None else f_c0 f) false.

(* clearing the slot records [lo, hi) (= the bytes [32*lo, endb)) the way variant v does it *)
Definition clear_slots (v : variant) (P : params) (endb hi lo : N) (f : file) : file :=
  match v with
  | VZeroSlots => zero_slots hi lo f
  | _ => zero_fill v P endb lo f
  end.

(* write the cell and the slot of one entry at position p, offset off *)
Definition write_row (p off : N) (e : entry) (f : file) : file :=
  let r := mkrow (mkslot (e_term e) (e_index e) (e_type e) off) (mkcell (p_len (e_data e)) (e_data e)) in
  let n := nrows f in
  let rows :=
    if p <? n then firstn (N.to_nat (n - 1 - p)) (f_rows f) ++ r :: skipn (N.to_nat (n - p)) (f_rows f)
    else r :: repeat zero_row (N.to_nat (p - n)) ++ f_rows f in
  mkfile (f_id f) (if p <? n then n else p + 1) rows (N.max (f_size f) (off + 4 + p_len (e_data e)))
         (if p =? 0 then (if f_fresh f then Some (p_len (e_data e)) else f_c0 f) else f_c0 f) false.

(* SliceSize(p, off) - 4: the payload length of slot p, from the cache or from the length word; caches it *)
Definition cell_len (f : file) (p : N) : N * file :=
  if p =? 0 then
    match f_c0 f with
    | Some n => (n, f)
    | None => let n := c_lenw (r_cell (row_at f 0)) in
              (n, mkfile (f_id f) (f_n f) (f_rows f) (f_size f) (Some n) false)
    end
  else (c_lenw (r_cell (row_at f p)), f).

Definition max_fid (d : disk) : N := fold_right (fun f m => N.max (f_id f) m) (f_id (d_cur d)) (d_files d).

(* rotate: truncate the current file to the end of its data, start the next file *)
Definition rotate (P : params) (off : N) (d : disk) : disk :=
  let c := d_cur d in
  let c' := mkfile (f_id c) (f_n c) (f_rows c) off (f_c0 c) (f_fresh c) in
  mkdisk (d_files d ++ [c']) (new_file P (max_fid d + 1) true) 0 (d_meta d).

Fixpoint append_loop (P : params) (es : list entry) (off : N) (d : disk) : disk :=
  match es with
  | [] => d
  | e :: r =>
      let '(d1, off1) :=
        if (max_entries P <=? d_next d) || (max_size P <? off + 4 + p_len (e_data e))
        then (rotate P off d, data_off P) else (d, off) in
      let c := write_row (d_next d1) off1 e (d_cur d1) in
      append_loop P r (off1 + 4 + p_len (e_data e)) (mkdisk (d_files d1) c (d_next d1 + 1) (d_meta d1))
  end.

(* entryLog.AddEntries, first part: the conflict handling for a batch whose first index is b *)
Definition conflict_step (v : variant) (P : params) (b : N) (d : disk) : disk :=
  match slot_ge P d b with
  | (_, None) => d
  | (InCur, Some lo) =>
      if lo <? d_next d
      then mkdisk (d_files d) (clear_slots v P (entry_sz * d_next d) (d_next d) lo (d_cur d)) lo (d_meta d)
      else mkdisk (d_files d) (d_cur d) lo (d_meta d)
  | (InOld k, Some lo) =>
      let f := nth k (d_files d) (d_cur d) in
      mkdisk (firstn k (d_files d)) (clear_slots v P (data_off P) (max_entries P) lo f) lo (d_meta d)
  end.

(* second part: the offset after the previous entry of the current file, then the loop *)
Definition after_conflict (P : params) (es : list entry) (d1 : disk) : disk :=
  let '(off, c) :=
    if d_next d1 =? 0 then (data_off P, d_cur d1)
    else let p := d_next d1 - 1 in
         let '(n, c) := cell_len (d_cur d1) p in
         (s_off (slot_at (d_cur d1) p) + 4 + n, c) in
  append_loop P es off (mkdisk (d_files d1) c (d_next d1) (d_meta d1)).

Definition add_entries (v : variant) (P : params) (es : list entry) (d : disk) : disk :=
  match es with
  | [] => d
  | e0 :: _ => after_conflict P es (conflict_step v P (e_index e0) d)
  end.

(* --- a Save in which one file-system step fails (granularity: the store's own write operations) ---
   FClear c:    a write that clears slots of the discarded tail fails. The range is cleared in pieces from the top down
                (/repo 9ca27cd); c = number of slots already cleared by completed pieces (0: the first piece fails).
   FEntry j r:  entry number j of the batch (from 0) does not become visible: its payload or slot write fails (r = true
                when a rotation that had to precede it was completed), or that rotation itself fails (r = false).
   FHs / FSnap: all entries are written; the write of the hard state / of the snapshot fails.
   The result is (error reported to the caller?, state left behind). The code since fe68fb6 (VZeroSlots) reports every one of
   them; before fe68fb6 the result of the clearing write was dropped: the Save went on over the stale slots and
   reported success. A fault that does not apply to the Save at hand (nothing to clear, j beyond the batch, nothing to
   store) is no fault: an ordinary Save. *)
Inductive fault := FClear (c : N) | FEntry (j : nat) (rotated : bool) | FHs | FSnap.

Definition store_meta (h : option hardstate) (s : option snapshot) (d : disk) : disk :=
  mkdisk (d_files d) (d_cur d) (d_next d) (store_snap s (store_hs h (d_meta d))).

(* the state in which a clearing write of VZeroSlots fails after c slots have been cleared from the top: for a conflict in
   the current file the log ends at the first empty slot; for a conflict in a rotated file the later files are gone and
   that file is the current one, up to its first empty slot. None: nothing is cleared at all, or c does not leave the
   slot of the conflicting index for the failing piece *)
Definition clear_part (hi c : N) (f : file) : file := if c =? 0 then f else zero_slots hi (hi - c) f.
Definition clear_failed (P : params) (b c : N) (d : disk) : option disk :=
  match slot_ge P d b with
  | (InCur, Some lo) =>
      if (lo <? d_next d) && (lo + c <? d_next d)
      then Some (mkdisk (d_files d) (clear_part (d_next d) c (d_cur d)) (d_next d - c) (d_meta d))
      else None
  | (InOld k, Some lo) =>
      let f := nth k (d_files d) (d_cur d) in
      if (lo <? max_entries P) && (lo + c <? max_entries P)
      then let f' := clear_part (max_entries P) c f in
           Some (mkdisk (firstn k (d_files d)) f' (first_empty_slot P f') (d_meta d))
      else None
  | _ => None
  end.

(* the conflict handling when the clearing write fails and the error is dropped (before fe68fb6): nothing is cleared *)
Definition conflict_noclear (P : params) (b : N) (d : disk) : disk :=
  match slot_ge P d b with
  | (_, None) => d
  | (InCur, Some lo) => mkdisk (d_files d) (d_cur d) lo (d_meta d)
  | (InOld k, Some lo) => mkdisk (firstn k (d_files d)) (nth k (d_files d) (d_cur d)) lo (d_meta d)
  end.

Definition needs_rotate (P : params) (d : disk) (off : N) (e : entry) : bool :=
  (max_entries P <=? d_next d) || (max_size P <? off + 4 + p_len (e_data e)).
(* where the next payload of the current file goes *)
Definition end_off (P : params) (d : disk) : N :=
  if d_next d =? 0 then data_off P
  else s_off (slot_at (d_cur d) (d_next d - 1)) + 4 + fst (cell_len (d_cur d) (d_next d - 1)).

Definition save_fail (v : variant) (P : params) (es : list entry) (h : option hardstate) (s : option snapshot)
           (ft : fault) (d : disk) : bool * disk :=
  let whole := store_meta h s (add_entries v P es d) in
  match es, ft with
  | e0 :: _, FClear c =>
      match clear_failed P (e_index e0) c d with
      | None => (false, whole)
      | Some d1 =>
          match v with
          | VZeroSlots => (true, d1)
          | _ => (false, store_meta h s (after_conflict P es (conflict_noclear P (e_index e0) d)))
          end
      end
  | e0 :: _, FEntry j rotated =>
      if Nat.ltb j (length es) then
        let d1 := after_conflict P (firstn j es) (conflict_step v P (e_index e0) d) in
        let e := nth j es e0 in
        (true, if rotated && needs_rotate P d1 (end_off P d1) e then rotate P (end_off P d1) d1 else d1)
      else (false, whole)
  | _, FHs =>
      match h with
      | Some x => if hs_is_empty x then (false, whole) else (true, add_entries v P es d)
      | None => (false, whole)
      end
  | _, FSnap =>
      match s with
      | Some x => if snap_valid x then (true, store_meta h None (add_entries v P es d)) else (false, whole)
      | None => (false, whole)
      end
  | [], _ => (false, whole)
  end.

(* --- reading --- *)

(* firstIndex(): slot 0 of the oldest file, 1 when that is zero *)
Definition disk_first (d : disk) : N :=
  let fi := match d_files d with f :: _ => file_first f | [] => file_first (d_cur d) end in
  if fi =? 0 then 1 else fi.

Definition last_entry_index (P : params) (f : file) : N :=
  let p := first_empty_slot P f in s_index (slot_at f (if 0 <? p then p - 1 else p)).

Definition log_last (P : params) (d : disk) : N :=
  if 0 <? d_next d then s_index (slot_at (d_cur d) (d_next d - 1))
  else match find (fun x => 0 <? x) (map (last_entry_index P) (rev (d_files d))) with Some x => x | None => 0 end.
Definition disk_last (P : params) (d : disk) : N := N.max (log_last P d) (snap_i (d_meta d)).

(* getRaftEntry at position p: the payload is what [ReadSlice] finds: for slot 0 the cached length wins *)
Definition read_cell (lenw : N) (c : cell) : payload :=
  if lenw =? p_len (c_pay c) then c_pay c
  else if lenw =? 0 then empty_pay
  else mkpay lenw 1048576.   (* foreign bytes; never produced by the repaired model *)

Inductive scan_status := Stop | NextFile.

(* allEntries inside one file, positions ascending from [p]; [asc] are the rows from position p on.
   Returns the status, the running size, the entries collected (reversed), and the cached length of slot 0. *)
Fixpoint scan_rows (P : params) (fsize hi max : N) (asc : list row) (p : N) (size : N) (acc : list entry) (c0 : option N)
  : scan_status * N * list entry * option N :=
  match asc with
  | [] => (NextFile, size, acc, c0)     (* a zero slot, or the end of the table *)
  | r :: t =>
      let s := r_slot r in
      if (0 <? s_off s) && (fsize <=? s_off s) then (Stop, size, acc, c0)      (* "valid offset error" *)
      else
        let lenw := if p =? 0 then match c0 with Some n => n | None => c_lenw (r_cell r) end else c_lenw (r_cell r) in
        let c0' := if (p =? 0) && (0 <? s_off s) then Some lenw else c0 in
        let e := mkent (s_index s) (s_term_ s) (s_type s) (if 0 <? s_off s then read_cell lenw (r_cell r) else empty_pay) in
        if hi <=? s_index s then (Stop, size, acc, c0')
        else if s_index s =? 0 then (NextFile, size, acc, c0')
        else
          let size' := size + entry_size e in
          if (match acc with [] => false | _ => true end) && (max <? size') then (Stop, size', acc, c0')
          else scan_rows P fsize hi max t (p + 1) size' (e :: acc) c0'
  end.

Definition set_c0 (f : file) (c0 : option N) : file := mkfile (f_id f) (f_n f) (f_rows f) (f_size f) c0 false.

Definition scan_file (P : params) (hi max : N) (f : file) (p : N) (size : N) (acc : list entry)
  : scan_status * N * list entry * file :=
  let asc := skipn (N.to_nat p) (asc_rows f) in
  let '(st, size', acc', c0) := scan_rows P (f_size f) hi max asc p size acc (f_c0 f) in
  (st, size', acc', set_c0 f c0).

(* continue through the remaining rotated files, then the current file *)
Fixpoint scan_files (P : params) (hi max : N) (fs : list file) (size : N) (acc : list entry)
  : scan_status * N * list entry * list file :=
  match fs with
  | [] => (NextFile, size, acc, [])
  | f :: t =>
      let '(st, size', acc', f') := scan_file P hi max f 0 size acc in
      match st with
      | Stop => (Stop, size', acc', f' :: t)
      | NextFile => let '(st2, size2, acc2, t') := scan_files P hi max t size' acc' in (st2, size2, acc2, f' :: t')
      end
  end.

(* entryLog.allEntries(lo, hi, max) *)
Definition all_entries (P : params) (lo hi max : N) (d : disk) : list entry * disk :=
  let '(sel, off) := slot_ge P d lo in
  let p := match off with Some p => p | None => 0 end in
  match sel with
  | InCur =>
      let '(_, _, acc, c) := scan_file P hi max (d_cur d) p 0 [] in
      (rev_append acc [], mkdisk (d_files d) c (d_next d) (d_meta d))
  | InOld k =>
      let before := firstn k (d_files d) in
      match skipn k (d_files d) with
      | [] => ([], d)
      | f :: rest =>
          let '(st, size, acc, f') := scan_file P hi max f p 0 [] in
          match st with
          | Stop => (rev_append acc [], mkdisk (before ++ f' :: rest) (d_cur d) (d_next d) (d_meta d))
          | NextFile =>
              let '(st2, size2, acc2, rest') := scan_files P hi max rest size acc in
              match st2 with
              | Stop => (rev_append acc2 [], mkdisk (before ++ f' :: rest') (d_cur d) (d_next d) (d_meta d))
              | NextFile =>
                  let '(_, _, acc3, c) := scan_file P hi max (d_cur d) 0 size2 acc2 in
                  (rev_append acc3 [], mkdisk (before ++ f' :: rest') c (d_next d) (d_meta d))
              end
          end
      end
  end.

Definition disk_entries (P : params) (lo hi max : N) (d : disk) : err * list entry * disk :=
  if lo <? disk_first d then (Compacted, [], d)
  else if log_last P d + 1 <? hi then (Unavailable, [], d)
  else let '(es, d') := all_entries P lo hi max d in (Ok, es, d').

Definition sel_file (d : disk) (sel : fsel) : file :=
  match sel with InCur => d_cur d | InOld k => nth k (d_files d) (d_cur d) end.

(* seekEntry *)
Definition seek_entry (P : params) (d : disk) (i : N) : err * slotrec :=
  if i =? 0 then (Ok, zero_slot)
  else match slot_ge P d i with
       | (_, None) => (Compacted, zero_slot)
       | (sel, Some p) =>
           if max_entries P <=? p then (Unavailable, zero_slot)
           else let s := slot_at (sel_file d sel) p in
                if s_index s =? 0 then (Unavailable, zero_slot)
                else if s_index s =? i then (Ok, s) else (OtherErr, zero_slot)
       end.

Definition disk_term (P : params) (d : disk) (i : N) : err * N :=
  match seek_entry P d i with
  | (Ok, s) => (Ok, s_term_ s)
  | (e, _) =>
      let si := snap_i (d_meta d) in
      if i <? si then (Compacted, 0)
      else if i =? si then (Ok, snap_t (d_meta d))
      else (e, 0)
  end.

Definition disk_csnap (P : params) (i : N) (v : option (list N)) (dt : N) (d : disk) : err * disk :=
  if i <? disk_first d then (SnapOutOfDate, d)
  else match seek_entry P d i with
       | (Ok, s) => (Ok, mkdisk (d_files d) (d_cur d) (d_next d) (store_snap (Some (mksnap i (s_term_ s) v dt)) (d_meta d)))
       | (e, _) => (e, d)
       end.

(* deleteBefore *)
Definition delete_before (P : params) (i : N) (d : disk) : err * disk :=
  match slot_ge P d i with
  | (_, None) => (OtherErr, d)
  | (InCur, Some _) => (Ok, mkdisk [] (d_cur d) (d_next d) (d_meta d))
  | (InOld k, Some _) => (Ok, mkdisk (skipn k (d_files d)) (d_cur d) (d_next d) (d_meta d))
  end.

(* DeleteBefore in which the removal of the (i+1)-th of the files to delete fails (/repo 9bfc733: the files are removed
   oldest first, the first failure stops the loop and is reported, the files still on disk stay part of the log).
   None: no such removal in this call. *)
Definition delete_fail (P : params) (j : N) (i : nat) (d : disk) : option disk :=
  let keep := mkdisk (skipn i (d_files d)) (d_cur d) (d_next d) (d_meta d) in
  match slot_ge P d j with
  | (_, None) => None
  | (InCur, Some _) => if Nat.ltb i (length (d_files d)) then Some keep else None
  | (InOld k, Some _) => if Nat.ltb i k then Some keep else None
  end.

(* --- reopen: everything volatile is forgotten and re-derived from the files --- *)

Definition forget (f : file) : file := mkfile (f_id f) (f_n f) (f_rows f) (f_size f) None false.

Fixpoint insert_file (f : file) (l : list file) : list file :=
  match l with
  | [] => [f]
  | g :: t => if file_first g <=? file_first f then g :: insert_file f t else f :: l
  end.
Definition sort_files (l : list file) : list file := fold_left (fun acc f => insert_file f acc) l [].

Definition open_logs (P : params) (d : disk) : disk :=
  let all := map forget (d_files d ++ [d_cur d]) in
  let mfid := fold_right (fun f m => N.max (f_id f) m) 0 all in
  let live := filter (fun f => negb (file_first f =? 0)) (sort_files all) in
  match rev live with
  | [] => mkdisk [] (new_file P (mfid + 1) false) 0 (d_meta d)
  | c :: older => mkdisk (rev older) c (first_empty_slot P c) (d_meta d)
  end.

(* Init: open, then re-apply the prefix deletion up to the snapshot index *)
Definition reopen (P : params) (d : disk) : disk :=
  let d1 := open_logs P d in
  let si := snap_i (d_meta d1) in
  let first := if 0 <? si then si + 1 else disk_first d1 in
  snd (delete_before P (first - 1) d1).

(* every entry of the log, read like NumEntries / a full scan does *)
Definition disk_all (P : params) (d : disk) : list entry * disk :=
  all_entries P (disk_first d) (log_last P d + 1) 18446744073709551615 d.

Definition dres (P : params) (d : disk) (e : err) (es : list entry) (t : N) (m : option meta) : result :=
  mkres e (disk_first d) (disk_last P d) es t m.

Definition step_disk (v : variant) (P : params) (o : sop) (d : disk) : disk * result :=
  match o with
  | Save es h s =>
      let d1 := add_entries v P es d in
      let d2 := mkdisk (d_files d1) (d_cur d1) (d_next d1) (store_snap s (store_hs h (d_meta d1))) in
      (d2, dres P d2 Ok [] 0 None)
  | Entries lo hi max =>
      let '(e, es, d') := disk_entries P lo hi max d in (d', dres P d' e es 0 None)
  | Term i => let '(e, t) := disk_term P d i in (d, dres P d e [] t None)
  | CreateSnap i vo dt => let '(e, d') := disk_csnap P i vo dt d in (d', dres P d' e [] 0 None)
  | DeleteBefore i => let '(e, d') := delete_before P i d in (d', dres P d' e [] 0 None)
  | Reopen => let d' := reopen P d in (d', dres P d' Ok [] 0 None)
  | GetMeta => (d, dres P d Ok [] 0 (Some (d_meta d)))
  | Sum => let '(es, d') := disk_all P d in (d', dres P d' Ok [] (sum_of es) None)
  end.

(* abstraction: the entries a reader finds, file by file, up to the first empty slot of each *)
Fixpoint live_rows (asc : list row) : list row :=
  match asc with
  | [] => []
  | r :: t => if s_index (r_slot r) =? 0 then [] else r :: live_rows t
  end.
Definition row_entry (r : row) : entry :=
  mkent (s_index (r_slot r)) (s_term_ (r_slot r)) (s_type (r_slot r)) (read_cell (c_lenw (r_cell r)) (r_cell r)).
Definition file_entries (f : file) : list entry := map row_entry (live_rows (asc_rows f)).
Definition abs (d : disk) : alog :=
  mkalog (concat (map file_entries (d_files d ++ [d_cur d]))) (d_meta d).

(* ------------------------------------------------------------------------------------------------------------ *)
(* histories *)

Fixpoint outputs_disk (v : variant) (P : params) (ops : list sop) (d : disk) : list result :=
  match ops with
  | [] => []
  | o :: r => let '(d', x) := step_disk v P o d in x :: outputs_disk v P r d'
  end.
Fixpoint run_disk (v : variant) (P : params) (ops : list sop) (d : disk) : disk :=
  match ops with
  | [] => d
  | o :: r => run_disk v P r (fst (step_disk v P o d))
  end.
(* the specification replays the same operations; for DeleteBefore/Reopen it is told how far the store compacted
   (the first index the store reported after that operation) *)
Fixpoint outputs_spec (ops : list sop) (choices : list N) (a : alog) : list result :=
  match ops, choices with
  | o :: r, c :: cs => let '(a', x) := step_spec o c a in x :: outputs_spec r cs a'
  | _, _ => []
  end.
Fixpoint run_spec (ops : list sop) (choices : list N) (a : alog) : alog :=
  match ops, choices with
  | o :: r, c :: cs => run_spec r cs (fst (step_spec o c a))
  | _, _ => a
  end.

(* layout inequalities the code relies on *)
Definition wf_params (P : params) : bool :=
  (1 <=? max_entries P) && (entry_sz * max_entries P + 4 <=? data_off P) && (data_off P mod entry_sz =? 0)
  && (data_off P + 4 <=? max_size P).
