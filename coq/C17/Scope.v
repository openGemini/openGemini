(* C17: bounded exploration of ALL histories up to a depth over a small alphabet and tiny layout parameters: does the
   disk model of a variant answer like the specification - rotation by count and by size, conflicts into the current
   and into rotated files, snapshots, prefix deletion and reopen all occur within three or four steps when a file
   holds 3 slots. For the variants that refine the specification the explorations are true at every depth, as
   corollaries of the refinement theorems (ScopeProofs.v); the numbers of histories and that the other variants are
   rejected are evaluated (Props.v). *)
From Coq Require Import NArith List Bool.
From OG Require Import C17.Model C17.Corr.
Import ListNotations.
Open Scope N_scope.

Definition tiny_params := mkparams 3 128 170.   (* 3 slots per file; data area of 42 bytes: two 10-byte payloads *)

Definition dedup (l : list N) : list N := fold_right (fun x acc => if existsb (N.eqb x) acc then acc else x :: acc) [] l.

(* operations that respect the Raft contract in state [a] *)
Definition ops_for (a : alog) : list sop :=
  let f := a_first a in
  let l := last_of (a_ents a) in
  let si := snap_i (a_meta a) in
  let lowest := N.max f (si + 1) in
  let starts := dedup (filter (fun b => (lowest <=? b) && (b <=? l + 1)) [lowest; l; l + 1]) in
  let t := match lookup l (a_ents a) with Some e => e_term e | None => 1 end in
  flat_map (fun b => [ Save (seg b 1 (t + 1) 0 10 b) None None;
                       Save (seg b 2 t 0 0 b) None None;
                       Save (seg b 2 (t + 1) 1 10 (b + 7)) (Some (mkhs t 1 b)) None;
                       Save (seg b 4 t 0 3 (b + 3)) None None ]) starts
  ++ (if l <? f then [] else
        [ CreateSnap l (Some [1; 2]) 5; CreateSnap f None 6;
          DeleteBefore l; DeleteBefore (l + 1); DeleteBefore (N.max f si) ])
  ++ [ Reopen ].

Definition ents_eqb := list_eqb entry_eqb.

(* after every step: same answer, same first/last, and a full read of the disk gives exactly the specification's log;
   Term agrees at the boundaries *)
Definition agree (v : variant) (P : params) (d : disk) (a : alog) : bool :=
  let '(es, d') := disk_all P d in
  ents_eqb es (a_ents a) && meta_eqb (d_meta d) (a_meta a)
  && forallb (fun i => let '(e1, t1) := disk_term P d' i in let '(e2, t2) := s_term i a in err_eqb e1 e2 && (t1 =? t2))
             [a_first a - 1; a_first a; a_last a; a_last a + 1]
  && (let '(e1, es1, _) := disk_entries P (a_first a) (a_last a + 1) 30 d' in
      let '(e2, es2) := s_entries (a_first a) (a_last a + 1) 30 (a_ents a) in err_eqb e1 e2 && ents_eqb es1 es2).

Fixpoint explore (v : variant) (P : params) (fuel : nat) (d : disk) (a : alog) : bool :=
  match fuel with
  | O => true
  | S k =>
      forallb (fun o =>
                 let '(d', rd) := step_disk v P o d in
                 let '(a', ra) := step_spec o (r_first rd) a in
                 result_eqb rd ra && agree v P d' a' && explore v P k d' a') (ops_for a)
  end.

(* number of histories visited *)
Fixpoint count_hist (v : variant) (P : params) (fuel : nat) (d : disk) (a : alog) : N :=
  match fuel with
  | O => 1
  | S k => fold_left (fun n o => let '(d', rd) := step_disk v P o d in
                                  let '(a', _) := step_spec o (r_first rd) a in n + count_hist v P k d' a') (ops_for a) 0
  end.

(* ---- the same exploration with a failing write inside a Save ---- *)

Definition faults_for (es : list entry) : list fault :=
  FClear 0 :: FClear 1 :: FClear 2 :: FHs :: FSnap :: flat_map (fun j => [FEntry j false; FEntry j true]) (seq 0 (length es)).

(* boolean form of Fault.failed_log *)
Definition failed_ok (ft : fault) (es : list entry) (h : option hardstate) (old new : alog) : bool :=
  match es with
  | [] => true
  | e0 :: _ =>
      let b := e_index e0 in
      let l := a_ents old in
      let keep := firstn (N.to_nat (b - first_of l)) l in
      match ft with
      | FClear _ => ents_eqb (a_ents new) (firstn (length (a_ents new)) l) && (b - first_of l <? N.of_nat (length (a_ents new)))
                  && meta_eqb (a_meta new) (a_meta old)
      | FEntry j _ => ents_eqb (a_ents new) (keep ++ firstn j es) && meta_eqb (a_meta new) (a_meta old)
      | FHs => ents_eqb (a_ents new) (keep ++ es) && meta_eqb (a_meta new) (a_meta old)
      | FSnap => ents_eqb (a_ents new) (keep ++ es) && meta_eqb (a_meta new) (store_hs h (a_meta old))
      end
  end.

(* one Save of state (d, a) with fault ft:
   reported  -> the state left behind reads like the log Fault.failed_log describes (first/last index, full scan, Term
                and Entries at the boundaries), saving the batch again gives the answer and the state of the
                specification's Save, and opening the directory again (the process died instead) reads like that log too;
   unreported-> the Save counts as done: now and after a reopen the store must read like the specification's result. *)
Definition check_fault (v : variant) (P : params) (d : disk) (a : alog) (o : sop) (ft : fault) : bool :=
  match o with
  | Save es h s =>
      let '(rep, d1) := save_fail v P es h s ft d in
      let '(a2, ra) := step_spec o 0 a in
      if rep then
        let '(es1, _) := disk_all P d1 in
        let a1 := mkalog es1 (d_meta d1) in
        failed_ok ft es h a a1 && agree v P d1 a1
        && (disk_first d1 =? a_first a1) && (disk_last P d1 =? a_last a1)
        && (let '(d2, r2) := step_disk v P o d1 in result_eqb r2 ra && agree v P d2 a2)
        (* the process dies instead of returning the error: the directory is opened again *)
        && (let '(d3, r3) := step_disk v P Reopen d1 in
            let '(a3, _) := step_spec Reopen (r_first r3) a1 in agree v P d3 a3)
      else
        agree v P d1 a2
        && (let '(d3, r3) := step_disk v P Reopen d1 in
            let '(a3, _) := step_spec Reopen (r_first r3) a2 in agree v P d3 a3)
  | _ => true
  end.

Definition faults_ok (v : variant) (P : params) (d : disk) (a : alog) : bool :=
  forallb (fun o => match o with
                    | Save es _ _ => forallb (check_fault v P d a o) (faults_for es)
                    | _ => true
                    end) (ops_for a).

Fixpoint explore_f (v : variant) (P : params) (fuel : nat) (d : disk) (a : alog) : bool :=
  faults_ok v P d a &&
  match fuel with
  | O => true
  | S k =>
      forallb (fun o =>
                 let '(d', rd) := step_disk v P o d in
                 let '(a', ra) := step_spec o (r_first rd) a in
                 explore_f v P k d' a') (ops_for a)
  end.

Fixpoint count_faults (v : variant) (P : params) (fuel : nat) (d : disk) (a : alog) : N :=
  fold_left (fun n o => match o with Save es h s =>
                          n + N.of_nat (length (filter (fun ft => fst (save_fail v P es h s ft d)) (faults_for es)))
                        | _ => n end) (ops_for a) 0 +
  match fuel with
  | O => 0
  | S k => fold_left (fun n o => let '(d', rd) := step_disk v P o d in
                                  let '(a', _) := step_spec o (r_first rd) a in n + count_faults v P k d' a') (ops_for a) 0
  end.
