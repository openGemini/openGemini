(* C17: refinement lemmas between the on-disk model (repaired zero-fill) and the specification. *)
From Coq Require Import NArith List Bool Lia ZifyBool ZifyN ZifyNat.
From OG Require Import C17.Model C17.Proofs.
Import ListNotations.
Open Scope N_scope.

Definition live_row (r : row) : bool := negb (s_index (r_slot r) =? 0).
Definition all_live (f : file) : Prop := forallb live_row (f_rows f) = true.
Definition rows_ok (f : file) : Prop := f_n f = N.of_nat (length (f_rows f)).
Definition log_of (d : disk) : list entry := concat (map file_entries (d_files d ++ [d_cur d])).

Lemma asc_rows_rev : forall f, asc_rows f = rev (f_rows f).
Proof. intro f. apply rev_append_nil. Qed.

Lemma live_rows_all : forall l, forallb live_row l = true -> live_rows l = l.
Proof.
  induction l as [|r t IH]; intro H; [reflexivity|]. cbn [forallb] in H. apply andb_true_iff in H as [Hr Ht].
  cbn [live_rows]. unfold live_row in Hr. destruct (s_index (r_slot r) =? 0); [discriminate|]. now rewrite IH.
Qed.

Lemma forallb_rev : forall (l : list row) p, forallb p (rev l) = forallb p l.
Proof.
  induction l as [|x t IH]; intro p; [reflexivity|]. cbn [rev forallb]. rewrite forallb_app, IH. cbn [forallb].
  rewrite andb_true_r. apply andb_comm.
Qed.

Lemma live_rows_stop : forall a g x, forallb live_row a = true -> s_index (r_slot g) = 0 -> live_rows (a ++ g :: x) = a.
Proof.
  induction a as [|r t IH]; intros g x Ha Hg; cbn [app live_rows].
  - now rewrite Hg.
  - cbn [forallb] in Ha. apply andb_true_iff in Ha as [Hr Ht]. unfold live_row in Hr.
    destruct (s_index (r_slot r) =? 0); [discriminate|]. now rewrite IH.
Qed.

(* a file whose written slots are live rows [bottom] below slots with index 0 [top] (what a zero-fill leaves in the
   first cleared slot) reads as the entries of [bottom] *)
Lemma entries_below : forall f top bottom,
  f_rows f = top ++ bottom -> Forall (fun g => s_index (r_slot g) = 0) top -> forallb live_row bottom = true ->
  file_entries f = map row_entry (rev bottom).
Proof.
  intros f top bottom Hr Ht Hb. unfold file_entries. rewrite asc_rows_rev, Hr, rev_app_distr. f_equal.
  rewrite <- forallb_rev in Hb. apply Forall_rev in Ht. destruct (rev top) as [|g x].
  - rewrite app_nil_r. now apply live_rows_all.
  - inversion Ht; subst. now apply live_rows_stop.
Qed.

Lemma read_cell_intact : forall p, read_cell (p_len p) (mkcell (p_len p) p) = p.
Proof. intro p. unfold read_cell. cbn [c_pay]. now rewrite N.eqb_refl. Qed.

(* writing one entry at the slot above [bottom] (the first free slot, or the slot a zero-fill left its prefix in) *)

Lemma write_row_at : forall f top bottom off e,
  f_rows f = top ++ bottom -> (length top <= 1)%nat -> f_n f = N.of_nat (length (top ++ bottom)) ->
  forallb live_row bottom = true -> e_index e <> 0 ->
  let f' := write_row (N.of_nat (length bottom)) off e f in
  rows_ok f' /\ all_live f' /\ f_n f' = N.of_nat (length bottom) + 1
  /\ file_entries f' = map row_entry (rev bottom) ++ [e].
Proof.
  intros f top bottom off e Hr Ht Hn Hb He f'.
  set (x := mkrow (mkslot (e_term e) (e_index e) (e_type e) off) (mkcell (p_len (e_data e)) (e_data e))).
  assert (Hx : live_row x = true) by (unfold live_row; cbn; destruct (e_index e =? 0) eqn:E; [lia|reflexivity]).
  assert (H : f_rows f' = x :: bottom /\ f_n f' = N.of_nat (length bottom) + 1).
  { unfold f', write_row, nrows. rewrite Hn, Hr. cbn [f_rows f_n]. destruct top as [|g [|? ?]]; cbn [app length] in *; [| |lia].
    - rewrite N.ltb_irrefl, N.sub_diag. split; reflexivity.
    - destruct (N.of_nat (length bottom) <? N.of_nat (S (length bottom))) eqn:E; [|lia].
      replace (N.to_nat (N.of_nat (S (length bottom)) - 1 - N.of_nat (length bottom))) with 0%nat by lia.
      replace (N.to_nat (N.of_nat (S (length bottom)) - N.of_nat (length bottom))) with 1%nat by lia.
      split; [reflexivity|lia]. }
  destruct H as [H1 H2]. unfold rows_ok, all_live. rewrite H1, H2. cbn [length forallb]. rewrite Hx, Hb.
  repeat split; [lia|]. rewrite (entries_below f' [] (x :: bottom) H1 (Forall_nil _)) by (cbn [forallb]; now rewrite Hx, Hb).
  cbn [rev]. rewrite map_app. cbn [map]. do 2 f_equal.
  unfold row_entry, x. cbn [r_slot r_cell s_index s_term_ s_type c_lenw]. rewrite read_cell_intact. now destruct e.
Qed.

Lemma log_of_snoc : forall fs c, concat (map file_entries (fs ++ [c])) = concat (map file_entries fs) ++ file_entries c.
Proof. intros. rewrite map_app, concat_app. cbn [map concat]. now rewrite app_nil_r. Qed.

Lemma append_loop_log : forall P es off d top bottom,
  f_rows (d_cur d) = top ++ bottom -> (length top <= 1)%nat -> Forall (fun g => s_index (r_slot g) = 0) top ->
  forallb live_row bottom = true -> f_n (d_cur d) = N.of_nat (length (top ++ bottom)) -> d_next d = N.of_nat (length bottom) ->
  Forall (fun e => e_index e <> 0) es ->
  let d' := append_loop P es off d in
  log_of d' = concat (map file_entries (d_files d)) ++ map row_entry (rev bottom) ++ es /\ d_meta d' = d_meta d
  /\ (top = [] \/ es <> [] -> rows_ok (d_cur d') /\ all_live (d_cur d') /\ d_next d' = f_n (d_cur d')).
Proof.
  intros P es. induction es as [|e r IH]; intros off d top bottom Hr Ht Hg Hb Hn Hx Hes; cbn [append_loop].
  - rewrite app_nil_r. unfold log_of. rewrite log_of_snoc, (entries_below _ top bottom Hr Hg Hb).
    split; [reflexivity|]. split; [reflexivity|]. intros [->|X]; [|congruence]. cbn [app] in *.
    unfold rows_ok, all_live. rewrite Hr. repeat split; congruence.
  - inversion Hes as [|? ? He Hrr]; subst.
    (* after the first entry the current file is live rows only *)
    assert (Hnext : forall fs c, rows_ok c -> all_live c -> forall off',
              let d2 := mkdisk fs c (f_n c) (d_meta d) in
              log_of (append_loop P r off' d2) = concat (map file_entries fs) ++ file_entries c ++ r
              /\ d_meta (append_loop P r off' d2) = d_meta d
              /\ rows_ok (d_cur (append_loop P r off' d2)) /\ all_live (d_cur (append_loop P r off' d2))
              /\ d_next (append_loop P r off' d2) = f_n (d_cur (append_loop P r off' d2))).
    { intros fs c Hc1 Hc2 off' d2.
      destruct (IH off' d2 [] (f_rows c) eq_refl (le_0_n _) (Forall_nil _) Hc2 Hc1 Hc1 Hrr) as (I1 & I2 & I3).
      rewrite (entries_below c [] (f_rows c) eq_refl (Forall_nil _) Hc2). split; [exact I1|]. split; [exact I2|]. exact (I3 (or_introl eq_refl)). }
    destruct ((max_entries P <=? d_next d) || (max_size P <? off + 4 + p_len (e_data e))) eqn:Erot.
    + cbn [rotate d_files d_cur d_next d_meta].
      set (c' := mkfile (f_id (d_cur d)) (f_n (d_cur d)) (f_rows (d_cur d)) off (f_c0 (d_cur d)) (f_fresh (d_cur d))).
      set (nf := new_file P (max_fid d + 1) true).
      destruct (write_row_at nf [] [] (data_off P) e eq_refl (le_0_n _) eq_refl eq_refl He) as (W1 & W2 & W3 & W4).
      cbn [length N.of_nat rev map app] in W1, W2, W3, W4.
      destruct (Hnext (d_files d ++ [c']) _ W1 W2 (data_off P + 4 + p_len (e_data e))) as (I1 & I2 & I3).
      rewrite W3 in I1, I2, I3. split; [|split; [exact I2|intros _; exact I3]].
      rewrite I1, log_of_snoc, W4, (entries_below c' top bottom Hr Hg Hb), <- !app_assoc. reflexivity.
    + rewrite Hx.
      destruct (write_row_at (d_cur d) top bottom off e Hr Ht Hn Hb He) as (W1 & W2 & W3 & W4).
      destruct (Hnext (d_files d) _ W1 W2 (off + 4 + p_len (e_data e))) as (I1 & I2 & I3).
      rewrite W3 in I1, I2, I3. split; [|split; [exact I2|intros _; exact I3]].
      rewrite I1, W4, <- !app_assoc. reflexivity.
Qed.

Lemma append_loop_refines : forall P es off d,
  rows_ok (d_cur d) -> all_live (d_cur d) -> d_next d = f_n (d_cur d) ->
  Forall (fun e => e_index e <> 0) es ->
  let d' := append_loop P es off d in
  log_of d' = log_of d ++ es /\ d_meta d' = d_meta d
  /\ rows_ok (d_cur d') /\ all_live (d_cur d') /\ d_next d' = f_n (d_cur d').
Proof.
  intros P es off d Hn Hl Hx Hes.
  destruct (append_loop_log P es off d [] (f_rows (d_cur d)) eq_refl (le_0_n _) (Forall_nil _) Hl Hn ltac:(congruence) Hes)
    as (I1 & I2 & I3).
  split; [|split; [exact I2|exact (I3 (or_introl eq_refl))]].
  rewrite I1. unfold log_of. rewrite log_of_snoc, (entries_below _ [] _ eq_refl (Forall_nil _) Hl), app_assoc. reflexivity.
Qed.

Fixpoint map_with_pos (g : N -> row -> row) (rows : list row) : list row :=
  match rows with [] => [] | r :: t => g (N.of_nat (length t)) r :: map_with_pos g t end.

Lemma map_pos_spec : forall g f, map_pos g f = map_with_pos g (f_rows f).
Proof.
  intros g f. unfold map_pos.
  set (F := fun (r : row) (acc : N * list row) => let p := fst acc in (p + 1, g p r :: snd acc)).
  assert (H : forall rows, fold_right F (0, []) rows = (N.of_nat (length rows), map_with_pos g rows)).
  { induction rows as [|r t IH]; [reflexivity|].
    change (fold_right F (0, []) (r :: t)) with (F r (fold_right F (0, []) t)). rewrite IH. unfold F.
    cbn [fst snd length map_with_pos]. f_equal. lia. }
  now rewrite H.
Qed.

Lemma map_with_pos_id : forall g rows, (forall p r, p < N.of_nat (length rows) -> g p r = r) -> map_with_pos g rows = rows.
Proof.
  induction rows as [|r t IH]; intro H; [reflexivity|]. cbn [map_with_pos]. rewrite H by (cbn [length]; lia).
  f_equal. apply IH. intros p x Hp. apply H. cbn [length]. lia.
Qed.

Lemma map_with_pos_top : forall g z top rest,
  (forall p r, N.of_nat (length rest) <= p < N.of_nat (length (top ++ rest)) -> g p r = z) ->
  map_with_pos g (top ++ rest) = repeat z (length top) ++ map_with_pos g rest.
Proof.
  induction top as [|x t IH]; intros rest H; [reflexivity|]. cbn [app map_with_pos length repeat].
  rewrite H by (cbn [app length]; rewrite app_length; lia). f_equal. apply IH.
  intros p r Hp. apply H. cbn [app length]. lia.
Qed.

Lemma trim_zero_repeat : forall k g rest, is_zero_slot (r_slot g) = false ->
  trim_zero (repeat zero_row k ++ g :: rest) = g :: rest.
Proof.
  induction k as [|k IH]; intros g rest Hg; cbn [repeat app trim_zero].
  - now rewrite Hg.
  - cbn. now apply IH.
Qed.

Definition garbage_row (L : N) : row := mkrow (mkslot (L * 4294967296) 0 0 0) (mkcell 0 empty_pay).

(* The repaired zero-fill clears exactly the slots [lo, n): the rows below lo - slot records AND payload cells - are
   untouched, slot lo holds only the length prefix (index 0, i.e. an empty slot), nothing above survives. *)
Lemma zero_fill_repaired_rows : forall P endb lo f top r bottom,
  f_rows f = top ++ r :: bottom -> N.of_nat (length bottom) = lo -> rows_ok f ->
  entry_sz * f_n f <= endb -> endb <= data_off P ->
  f_rows (zero_fill VRepaired P endb lo f) = garbage_row (endb - entry_sz * lo - 4) :: bottom
  /\ rows_ok (zero_fill VRepaired P endb lo f).
Proof.
  intros P endb lo f top r bottom Hrows Hlo Hn Hend Hoff.
  assert (Hlen : f_n f = N.of_nat (length top) + 1 + lo).
  { rewrite Hn, Hrows, app_length. cbn [length]. lia. }
  unfold entry_sz in *.
  set (L := endb - 32 * lo - 4).
  assert (HL : 28 <= L) by (unfold L; lia).
  assert (He : 32 * lo + 4 + L = endb) by (unfold L; lia).
  assert (Hf : fill_len VRepaired (endb - 32 * lo) = L) by (unfold fill_len, L; lia).
  unfold zero_fill, entry_sz, rows_ok. cbn [f_rows f_n].
  rewrite Hf, He.
  destruct (data_off P + 4 <=? endb) eqn:E1; [lia|].
  unfold nrows. destruct (f_n f <=? lo) eqn:E2; [lia|].
  rewrite map_pos_spec, Hrows.
  rewrite (map_with_pos_top _ zero_row).
  - cbn [map_with_pos]. rewrite Hlo, N.ltb_irrefl, N.eqb_refl.
    rewrite map_with_pos_id.
    + fold (garbage_row L). rewrite trim_zero_repeat; [split; reflexivity|].
      unfold garbage_row, is_zero_slot. cbn [r_slot s_term_].
      destruct (L * 4294967296 =? 0) eqn:E3; [lia|reflexivity].
    + intros p x Hp. destruct (p <? lo) eqn:E3; [reflexivity|lia].
  - intros p x Hp. rewrite app_length in Hp. cbn [length] in Hp.
    destruct (p <? lo) eqn:E3; [lia|]. destruct (p =? lo) eqn:E4; [lia|].
    destruct (32 * p + 32 <=? endb) eqn:E5; [reflexivity|lia].
Qed.

Lemma cell_len_same : forall f p, f_rows (snd (cell_len f p)) = f_rows f /\ f_n (snd (cell_len f p)) = f_n f.
Proof.
  intros f p. unfold cell_len. destruct (p =? 0); [|split; reflexivity].
  destruct (f_c0 f); split; reflexivity.
Qed.

(* [after_conflict] (Model.v) is the part of add_entries after the conflict handling *)
Lemma after_conflict_log : forall P es d1 top bottom,
  f_rows (d_cur d1) = top ++ bottom -> (length top <= 1)%nat -> Forall (fun g => s_index (r_slot g) = 0) top ->
  forallb live_row bottom = true -> f_n (d_cur d1) = N.of_nat (length (top ++ bottom)) -> d_next d1 = N.of_nat (length bottom) ->
  Forall (fun e => e_index e <> 0) es ->
  log_of (after_conflict P es d1) = concat (map file_entries (d_files d1)) ++ map row_entry (rev bottom) ++ es.
Proof.
  intros P es d1 top bottom Hr Ht Hg Hb Hn Hx Hes. unfold after_conflict.
  destruct (d_next d1 =? 0).
  - now apply (append_loop_log P es _ (mkdisk (d_files d1) (d_cur d1) (d_next d1) (d_meta d1)) top bottom).
  - destruct (cell_len (d_cur d1) (d_next d1 - 1)) as [n c] eqn:Ec.
    pose proof (cell_len_same (d_cur d1) (d_next d1 - 1)) as [S1 S2]. rewrite Ec in S1, S2. cbn [snd] in S1, S2.
    apply (append_loop_log P es _ (mkdisk (d_files d1) c (d_next d1) (d_meta d1)) top bottom); cbn [d_cur d_next]; auto; congruence.
Qed.

(* Save, the three shapes of AddEntries, for the repaired zero-fill. [lo] is what slotGe answered for the first new
   index; [bottom] are the rows of the slots below [lo] (highest first). *)
Lemma add_entries_repaired : forall P e0 r d,
  wf_params P = true -> Forall (fun e => e_index e <> 0) (e0 :: r) ->
  let es := e0 :: r in
  let d' := add_entries VRepaired P es d in
  (* (a) nothing to discard: the first new index is at the first free slot of the current file, or the log is empty *)
  ((slot_ge P d (e_index e0) = (InCur, Some (d_next d)) \/ snd (slot_ge P d (e_index e0)) = None) ->
   rows_ok (d_cur d) -> all_live (d_cur d) -> d_next d = f_n (d_cur d) ->
   log_of d' = log_of d ++ es)
  /\
  (* (b) conflict in the current file at slot lo *)
  (forall lo top x bottom,
   slot_ge P d (e_index e0) = (InCur, Some lo) -> lo < d_next d -> d_next d = f_n (d_cur d) -> rows_ok (d_cur d) ->
   f_n (d_cur d) <= max_entries P ->
   f_rows (d_cur d) = top ++ x :: bottom -> N.of_nat (length bottom) = lo -> forallb live_row bottom = true ->
   log_of d' = concat (map file_entries (d_files d)) ++ map row_entry (rev bottom) ++ es)
  /\
  (* (c) conflict in the rotated file number k at slot lo: later files disappear, that file becomes current *)
  (forall k lo top x bottom,
   slot_ge P d (e_index e0) = (InOld k, Some lo) ->
   let f := nth k (d_files d) (d_cur d) in
   rows_ok f -> f_n f <= max_entries P ->
   f_rows f = top ++ x :: bottom -> N.of_nat (length bottom) = lo -> forallb live_row bottom = true ->
   log_of d' = concat (map file_entries (firstn k (d_files d))) ++ map row_entry (rev bottom) ++ es).
Proof.
  intros P e0 r d HP Hes es d'.
  assert (HP' : entry_sz * max_entries P + 4 <= data_off P).
  { unfold wf_params in HP. repeat (apply andb_true_iff in HP as [HP ?]). lia. }
  unfold entry_sz in HP'.
  assert (Hadd : d' = after_conflict P es
            (match slot_ge P d (e_index e0) with
             | (_, None) => d
             | (InCur, Some lo) =>
                 if lo <? d_next d
                 then mkdisk (d_files d) (zero_fill VRepaired P (entry_sz * d_next d) lo (d_cur d)) lo (d_meta d)
                 else mkdisk (d_files d) (d_cur d) lo (d_meta d)
             | (InOld k, Some lo) =>
                 mkdisk (firstn k (d_files d)) (zero_fill VRepaired P (data_off P) lo (nth k (d_files d) (d_cur d))) lo (d_meta d)
             end)) by reflexivity.
  split; [|split].
  - intros Hs Hn Hl Hx. rewrite Hadd.
    assert (Hplain : forall nx, nx = d_next d ->
              log_of (after_conflict P es (mkdisk (d_files d) (d_cur d) nx (d_meta d))) = log_of d ++ es).
    { intros nx ->. rewrite (after_conflict_log P es _ [] (f_rows (d_cur d))); cbn [d_cur d_next d_files app]; auto; try congruence.
      unfold log_of. now rewrite log_of_snoc, (entries_below _ [] _ eq_refl (Forall_nil _) Hl), app_assoc. }
    destruct Hs as [Hs|Hs].
    + rewrite Hs, N.ltb_irrefl. now apply Hplain.
    + destruct (slot_ge P d (e_index e0)) as [sel o]. cbn [snd] in Hs. subst o. destruct d. destruct sel; now apply Hplain.
  - intros lo top x bottom Hs Hlo Hx Hn Hmax Hrows Hlen Hb. rewrite Hadd, Hs.
    destruct (lo <? d_next d) eqn:E; [|lia].
    destruct (zero_fill_repaired_rows P (entry_sz * d_next d) lo (d_cur d) top x bottom Hrows Hlen Hn) as [Z1 Z2].
    { rewrite Hx. lia. } { unfold entry_sz. rewrite Hx. lia. }
    rewrite (after_conflict_log P es _ [garbage_row (entry_sz * d_next d - entry_sz * lo - 4)] bottom);
      cbn [d_cur d_next d_files]; auto.
    unfold rows_ok in Z2. now rewrite Z2, Z1.
  - intros k lo top x bottom Hs f Hn Hmax Hrows Hlen Hb. rewrite Hadd, Hs. fold f.
    destruct (zero_fill_repaired_rows P (data_off P) lo f top x bottom Hrows Hlen Hn) as [Z1 Z2].
    { unfold entry_sz. lia. } { lia. }
    rewrite (after_conflict_log P es _ [garbage_row (data_off P - entry_sz * lo - 4)] bottom);
      cbn [d_cur d_next d_files]; auto.
    unfold rows_ok in Z2. now rewrite Z2, Z1.
Qed.
