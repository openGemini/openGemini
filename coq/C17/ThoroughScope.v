(* C17: the explorations of Props.v one level deeper (instances of the same theorems), compiled by the thorough tier only. *)
From Coq Require Import NArith List Bool.
From OG Require Import C17.Model C17.Corr C17.Scope C17.ScopeProofs.
Open Scope N_scope.
Example C17_refines_small_scope_5 : explore VZeroSlots tiny_params 5 (empty_disk tiny_params) empty_alog = true.
Proof. apply explore_zeroslots; [reflexivity|discriminate..]. Qed.
Example C17_faults_small_scope_3 : explore_f VZeroSlots tiny_params 3 (empty_disk tiny_params) empty_alog = true.
Proof. apply explore_f_zeroslots; [reflexivity|discriminate..]. Qed.
