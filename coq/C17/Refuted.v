(* C17: the zero-fill of the pinned tree (VCurrent: written with WriteSlice, i.e. 4 bytes longer than the range it is
   meant to clear; /repo before 6bd4b1a) breaks the contract. The witness is the confirmed one scaled down through the
   parameters: with 4 slots per file instead of 30000, saving 6 small entries rotates file 1 after 4 entries; a
   conflicting save at index 3 truncates into file 1 at slot 2 > 0; the zero-fill's overrun lands on the length word of
   the first payload at [data_off], and entry 1 is read back with an EMPTY payload - before and after reopen. With the
   real constants (30000, 1 MiB, 32 MiB; Gen_Consts.real_params) the same run is: save 30005 entries, conflicting save
   at 29990, Entries(1,3); it is evaluated below and, against the implementation, on every run of the check (witness
   case W0 of the harness). *)
From Coq Require Import NArith List Bool.
From OG Require Import C17.Model C17.Corr C17.Refine C17.Inv C17.Clobber C17.Tear.
Import ListNotations.
Open Scope N_scope.

Definition small_params := mkparams 4 160 4096.

Definition witness_ops : list sop :=
  [ Save (seg 1 6 1 0 5 7) None None;        (* entries 1..6, payloads of 5 bytes: file 1 = 1..4, file 2 = 5..6 *)
    Save (seg 3 1 2 0 5 900) None None;      (* conflicting entry at index 3, term 2 *)
    Entries 1 3 1000;
    Reopen;
    Entries 1 3 1000 ].

Definition ents_of (rs : list result) : list (list (N * N * N)) :=
  map (fun r => map (fun e => (e_index e, p_len (e_data e), p_tag (e_data e))) (r_ents r)) rs.

(* the repaired model and the specification answer entry 1 with its 5 bytes; VCurrent answers it empty *)
Theorem C17_zerofill_refuted :
  exists (P : params) (ops : list sop),
    wf_params P = true /\
    let out := outputs_disk VCurrent P ops (empty_disk P) in
    let spec := outputs_spec ops (map r_first out) empty_alog in
    out <> spec /\
    ents_of out = [ []; []; [(1, 0, 0); (2, 5, 8)]; []; [(1, 0, 0); (2, 5, 8)] ] /\
    ents_of spec = [ []; []; [(1, 5, 7); (2, 5, 8)]; []; [(1, 5, 7); (2, 5, 8)] ].
Proof.
  exists small_params, witness_ops. split; [reflexivity|].
  split; [|split; vm_compute; reflexivity].
  intro H. apply (f_equal ents_of) in H. vm_compute in H. discriminate H.
Qed.
Print Assumptions C17_zerofill_refuted.

(* the same run with the repaired zero-fill agrees with the specification *)
Example C17_witness_repaired_ok :
  let out := outputs_disk VRepaired small_params witness_ops (empty_disk small_params) in
  out = outputs_spec witness_ops (map r_first out) empty_alog.
Proof. vm_compute. reflexivity. Qed.

(* the full-size witness, evaluated by the virtual machine with the constants of the Go code: both answers to
   Entries(1,3) of VCurrent start with an empty payload for entry 1 *)
From OG Require Import C17.Gen_Consts.
Definition real_witness : list sop :=
  [ Save (seg 1 30005 1 0 5 7) None None; Save (seg 29990 1 2 0 5 900) None None; Entries 1 3 1000; Reopen; Entries 1 3 1000 ].
Theorem C17_zerofill_refuted_real_constants :
  ents_of (outputs_disk VCurrent real_params real_witness (empty_disk real_params))
  = [ []; []; [(1, 0, 0); (2, 5, 8)]; []; [(1, 0, 0); (2, 5, 8)] ]
  /\ ents_of (outputs_disk VRepaired real_params real_witness (empty_disk real_params))
  = [ []; []; [(1, 5, 7); (2, 5, 8)]; []; [(1, 5, 7); (2, 5, 8)] ].
Proof. split; vm_compute; reflexivity. Qed.
Print Assumptions C17_zerofill_refuted_real_constants.

(* Not only a witness: for ALL layout parameters and every well-formed file whose first payload sits at data_off
   and is not empty, the zero-fill of VCurrent at a conflict truncation at any slot lo > 0 of that (rotated) file returns the
   entry of slot 0 with an EMPTY payload. *)
Theorem C17_zerofill_current_clobbers : forall P f A D lo a t,
  fview P f A D -> A = a :: t -> (0 < lo)%nat -> (lo < length A)%nat ->
  entry_sz * f_n f <= data_off P ->
  s_off (r_slot a) = data_off P -> p_len (c_pay (r_cell a)) <> 0 ->
  exists rest,
    file_entries (zero_fill VCurrent P (data_off P) (N.of_nat lo) f)
    = mkent (s_index (r_slot a)) (s_term_ (r_slot a)) (s_type (r_slot a)) empty_pay :: rest
    /\ hd_error (file_entries f)
       = Some (mkent (s_index (r_slot a)) (s_term_ (r_slot a)) (s_type (r_slot a)) (c_pay (r_cell a))).
Proof. exact zero_fill_current_clobbers. Qed.
Print Assumptions C17_zerofill_current_clobbers.

(* The clearing write of the WriteSlice variants (before /repo fe68fb6) had its result dropped: when it fails, the
   Save goes on over the stale slots and reports success. Witness (4 slots per file): entries 1..3, then a Save of
   a single conflicting entry at index 2 whose clearing write fails: the Save is not reported as failed, the live
   store answers correctly (nextEntryIdx hides the stale slot), but after reopen the discarded entry 3 is back. The
   variant /repo has since fe68fb6 reports the failure and keeps the log unchanged. *)
Definition swallow_d := run_disk VRepaired small_params [Save (seg 1 3 1 0 5 7) None None] (empty_disk small_params).
Definition swallow_es := seg 2 1 2 0 5 900.
Theorem C17_clear_error_swallowed_refuted :
  let '(rep, d1) := save_fail VRepaired small_params swallow_es None None (FClear 0) swallow_d in
  rep = false
  /\ map e_index (a_ents (abs d1)) = [1; 2; 3]
  /\ map e_index (s_append swallow_es (a_ents (abs swallow_d))) = [1; 2]
  /\ map e_index (fst (disk_all small_params (reopen small_params d1))) = [1; 2; 3]
  /\ (let '(rep', d1') := save_fail VZeroSlots small_params swallow_es None None (FClear 0) swallow_d in
      rep' = true /\ abs d1' = abs swallow_d).
Proof. vm_compute. repeat split. Qed.
Print Assumptions C17_clear_error_swallowed_refuted.

(* Findings about torn writes, all fixed in /repo since, as far as the models express them (Tear.v). *)

(* C17-clear-torn-pages: the clearing write, bottom-up in one call, cut after two of seven slots: empty slots followed by
   stale ones; the binary search answers 8 (LastIndex = the stale entry 8), a reader finds entry 1 and the hole *)
Theorem C17_clear_cut_refuted :
  let f := clear_cut 1 3 tear_file in
  first_empty_bin tear_params tear_file = 8 /\ first_empty_bin tear_params f = 8 /\ first_empty_slot tear_params f = 1
  /\ map e_index (file_entries f) = [1] /\ s_index (slot_at f 7) = 8.
Proof. exact clear_cut_refuted. Qed.

(* C17-delete-order-hole: removing the later files oldest first, killed after the first of two removals *)
Theorem C17_remove_oldest_first_refuted :
  concat ([[1; 2]] ++ removed_oldest_first 1 [[3; 4]; [5; 6]]) = [1; 2; 5; 6]
  /\ forall n, firstn n (concat [[1; 2]; [3; 4]; [5; 6]]) <> [1; 2; 5; 6].
Proof. exact remove_oldest_first_hole. Qed.

(* C17-meta-torn-update: the snapshot record written with four calls: every crash point strictly inside is a mixture *)
Theorem C17_meta_several_writes_refuted :
  let old := mkmrec 10 100 5 1 in let new := mkmrec 12 200 9 2 in
  forall k, (0 < k < 4)%nat -> mcrash k (snap_writes_current new) old <> old /\ mcrash k (snap_writes_current new) old <> new.
Proof. exact meta_several_writes_refuted. Qed.

(* not a finding (a 32-byte record inside one page is not torn by the death of a process), but the reason why the
   claim "any byte prefix" cannot be made: 15 bytes of a slot record decode as a live slot with a foreign index *)
Theorem C17_slot_byte_tear_refuted :
  let s := mkslot 7 4660 0 1048576 in
  let t := slot_dec (torn_bytes 15 (slot_enc zero_slot) (slot_enc s)) in
  s_index t = 4608 /\ s_index t <> 0 /\ s_index t <> s_index s /\ s_off t = 0.
Proof. exact slot_byte_tear_refuted. Qed.
Print Assumptions C17_clear_cut_refuted.
