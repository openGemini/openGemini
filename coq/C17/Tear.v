(* C17: what a process that dies INSIDE one write call can leave behind, and what the next start makes of it.
   Granularity of a tear: a write that spans several pages of the file is copied page by page by the kernel and is cut
   at a page boundary by a fatal signal; a write inside one page arrives or does not.
   1. sort.Search, the binary search of firstEmptySlot / slotGe, modelled exactly ([bsearch]); on a monotone table it is
      the "first position" search the model uses ([bsearch_first]) - and for the predicate of firstEmptySlot every
      table of the invariant is monotone ([first_empty_bin_view]). The predicate of slotGe is not treated here.
   2. The slot record of an entry (32 bytes at a multiple of 32) never crosses a page boundary: it is never torn. With
      arbitrary byte tears it could be: a prefix of the big-endian index is a different, non-zero index.
   3. The clearing write of a conflicting Save (ZeroSlots) can span up to 235 pages. Bottom-up in one write (fe68fb6), a cut
      leaves live slots, EMPTY slots, then STALE slots: not monotone, the binary search lands behind the stale slots
      (refuted). In page-sized pieces from the top down (/repo 9ca27cd) every prefix of the operation leaves live slots
      followed by empty ones: a prefix of the old log.
   4. Removing the later files of a conflict newest first (/repo 9bfc733) leaves a prefix of the file list at every crash
      point; oldest first (before it) leaves a hole.
   5. The meta records written with one write call (/repo 8446840) are old or new at every crash point; with two (hard
      state) or four (snapshot) calls there are crash points with a mixture. *)
From Coq Require Import NArith PeanoNat List Bool Lia ZifyBool ZifyN ZifyNat.
From OG Require Import C17.Model C17.Proofs C17.Refine C17.Inv C17.Search C17.ZeroSlots.
Import ListNotations.
Open Scope N_scope.

(* func Search(n int, f func(int) bool) int { i, j := 0, n; for i < j { h := int(uint(i+j) >> 1); if !f(h) { i = h + 1 } else { j = h } }; return i } *)
Fixpoint bsearch_go (fuel : nat) (f : N -> bool) (i j : N) : N :=
  match fuel with
  | O => i
  | S k => if i <? j then let h := (i + j) / 2 in if f h then bsearch_go k f i h else bsearch_go k f (h + 1) j else i
  end.
Definition bsearch (n : N) (f : N -> bool) : N := bsearch_go (S (N.to_nat n)) f 0 n.

(* monotone on [0, n): false up to position k, true from there on *)
Definition mono_at (n k : N) (f : N -> bool) : Prop :=
  k <= n /\ (forall p, p < k -> f p = false) /\ (forall p, k <= p -> p < n -> f p = true).

Lemma bsearch_go_first : forall fuel f n k i j,
  mono_at n k f -> i <= k -> k <= j -> j <= n -> (N.to_nat (j - i) < fuel)%nat ->
  bsearch_go fuel f i j = k.
Proof.
  induction fuel as [|fuel IH]; intros f n k i j M Hi Hj Hn Hf; [lia|].
  cbn [bsearch_go]. destruct (i <? j) eqn:E.
  - set (h := (i + j) / 2).
    assert (Hh : i <= h /\ h < j).
    { unfold h. split; [apply N.div_le_lower_bound; lia|apply N.div_lt_upper_bound; lia]. }
    destruct M as (Mk & Mf & Mt).
    destruct (f h) eqn:Eh.
    + assert (k <= h). { destruct (N.lt_ge_cases h k) as [L|L]; [rewrite (Mf h L) in Eh; discriminate|exact L]. }
      apply (IH f n k i h); [repeat split; assumption|lia..].
    + assert (h < k). { destruct (N.lt_ge_cases h k) as [L|L]; [exact L|rewrite (Mt h L) in Eh; [discriminate|lia]]. }
      apply (IH f n k (h + 1) j); [repeat split; assumption|lia..].
  - lia.
Qed.

Theorem bsearch_first : forall n k f, mono_at n k f -> bsearch n f = k.
Proof.
  intros n k f M. unfold bsearch. pose proof M as (Mk & _).
  apply (bsearch_go_first _ f n k 0 n M); lia.
Qed.

(* firstEmptySlot with the real search *)
Definition first_empty_bin (P : params) (f : file) : N :=
  bsearch (max_entries P) (fun p => s_index (slot_at f p) =? 0).

(* every file of the invariant (live rows, then dead rows, then never written slots) is a monotone table: the real
   binary search and the model's first-position search agree *)
Theorem first_empty_bin_view : forall P f A D, fview P f A D -> first_empty_bin P f = first_empty_slot P f.
Proof.
  intros P f A D V. rewrite (first_empty_view P f A D V). unfold first_empty_bin.
  apply bsearch_first. pose proof (view_len_max P f A D V) as HM.
  split; [exact HM|]. split.
  - intros p Hp. replace p with (N.of_nat (N.to_nat p)) by lia. unfold slot_at.
    rewrite (fv_row_at_live P f A D (N.to_nat p) V) by lia.
    pose proof (fv_good _ _ _ _ V) as G. rewrite Forall_forall in G.
    destruct (G (nth (N.to_nat p) A zero_row)) as (G1 & _); [apply nth_In; lia|].
    destruct (s_index (r_slot (nth (N.to_nat p) A zero_row)) =? 0) eqn:E; [lia|reflexivity].
  - intros p Hp _. replace p with (N.of_nat (N.to_nat p)) by lia.
    rewrite (fv_row_at_beyond P f A D (N.to_nat p) V) by lia. reflexivity.
Qed.

Definition page : N := 4096.

(* a 32-byte record at a multiple of 32 lies inside one page *)
Theorem slot_in_one_page : forall p, (entry_sz * p) / page = (entry_sz * p + entry_sz - 1) / page.
Proof.
  intro p. unfold entry_sz, page.
  replace (32 * p) with (p * 32) by lia.
  assert (H : p = 128 * (p / 128) + p mod 128) by (apply N.div_mod; lia).
  pose proof (N.mod_lt p 128 ltac:(lia)) as Hm.
  set (q := p / 128) in *. set (r := p mod 128) in *.
  rewrite H.
  replace ((128 * q + r) * 32) with (r * 32 + q * 4096) by lia.
  replace (r * 32 + q * 4096 + 32 - 1) with ((r * 32 + 31) + q * 4096) by lia.
  rewrite !N.div_add by lia. f_equal. rewrite !N.div_small by lia. reflexivity.
Qed.

(* big-endian bytes of a uint64, and back *)
Fixpoint be_bytes (k : nat) (x : N) : list N :=
  match k with O => [] | S k' => (x / 256 ^ N.of_nat k') mod 256 :: be_bytes k' x end.
Definition be_val (l : list N) : N := fold_left (fun a b => a * 256 + b) l 0.

Definition slot_enc (s : slotrec) : list N := be_bytes 8 (s_term_ s) ++ be_bytes 8 (s_index s) ++ be_bytes 8 (s_type s) ++ be_bytes 8 (s_off s).
Definition slot_dec (l : list N) : slotrec :=
  mkslot (be_val (firstn 8 l)) (be_val (firstn 8 (skipn 8 l))) (be_val (firstn 8 (skipn 16 l))) (be_val (firstn 8 (skipn 24 l))).
(* the first k bytes of the new record over the old one *)
Definition torn_bytes (k : nat) (old new : list N) : list N := firstn k new ++ skipn k old.

(* with arbitrary byte tears a slot write over an empty slot could leave a live slot with a foreign index: 15 bytes of
   the record of entry 4660 = 0x1234 decode as index 0x1200 = 4608, offset 0 *)
Example slot_byte_tear_refuted :
  let s := mkslot 7 4660 0 1048576 in
  let t := slot_dec (torn_bytes 15 (slot_enc zero_slot) (slot_enc s)) in
  s_index t = 4608 /\ s_index t <> 0 /\ s_index t <> s_index s /\ s_off t = 0.
Proof. vm_compute. repeat split; discriminate. Qed.

(* bottom-up in one write (fe68fb6, before 9ca27cd), cut after the slots [lo, m) *)
Definition clear_cut (lo m : N) (f : file) : file := zero_slots m lo f.

(* eight live slots, conflict at slot 1, the write is cut after slot 2: slots 1-2 are empty, 3-7 stale. The binary search
   answers 8 (the log "ends" at the stale entry of slot 7) while a reader finds one entry and then the hole *)
Definition tear_params := mkparams 8 512 4096.
Definition tear_file : file :=
  fold_left (fun f k => write_row k (512 + 10 * k) (mkent (k + 1) 1 0 (mkpay 6 (k + 1))) f) [0; 1; 2; 3; 4; 5; 6; 7]
            (new_file tear_params 1 false).
Example clear_cut_refuted :
  let f := clear_cut 1 3 tear_file in
  first_empty_bin tear_params tear_file = 8
  /\ first_empty_bin tear_params f = 8
  /\ first_empty_slot tear_params f = 1
  /\ map e_index (file_entries f) = [1]
  /\ s_index (slot_at f 7) = 8.
Proof. vm_compute. repeat split. Qed.

(* top-down in pieces: [cuts] are the starts of the pieces done so far, highest first; each piece clears from its start
   up to everything still written *)
Fixpoint clear_down (cuts : list N) (f : file) : file :=
  match cuts with
  | [] => f
  | m :: r => clear_down r (zero_slots (f_n f) m f)
  end.

Fixpoint descending (hi : nat) (cuts : list nat) : Prop :=
  match cuts with [] => True | m :: r => (m < hi)%nat /\ descending m r end.

Lemma last_default_irrel : forall (l : list nat) a b, l <> [] -> last l a = last l b.
Proof.
  induction l as [|x l IH]; intros a b H; [congruence|]. destruct l as [|y l']; [reflexivity|].
  change (last (x :: y :: l') a) with (last (y :: l') a). change (last (x :: y :: l') b) with (last (y :: l') b).
  apply IH. discriminate.
Qed.

Lemma last_descending_le : forall r m, descending m r -> (last r m <= m)%nat.
Proof.
  induction r as [|x r IH]; intros m H; [cbn; lia|]. destruct H as [Hx Hr]. specialize (IH x Hr).
  destruct r as [|y r']; [cbn; lia|].
  change (last (x :: y :: r') m) with (last (y :: r') m).
  rewrite (last_default_irrel (y :: r') m x) by discriminate. lia.
Qed.

(* whatever number of pieces has been done: the file is the live rows below the lowest cleared slot, nothing else *)
Theorem clear_down_view : forall P cuts f A D,
  fview P f A D -> descending (length A) cuts ->
  fview P (clear_down (map N.of_nat cuts) f) (firstn (last cuts (length A)) A) (match cuts with [] => D | _ => [] end).
Proof.
  intros P cuts. induction cuts as [|m r IH]; intros f A D V Hd.
  - cbn [map clear_down last]. now rewrite firstn_all.
  - cbn [map clear_down]. destruct Hd as [Hm Hr].
    pose proof (zero_slots_view P (f_n f) m f A D V Hm (N.le_refl _)) as V1.
    assert (Hl : length (firstn m A) = m) by (apply firstn_length_le; lia).
    specialize (IH _ (firstn m A) [] V1 ltac:(now rewrite Hl)).
    rewrite Hl in IH.
    assert (E : firstn (last r m) (firstn m A) = firstn (last (m :: r) (length A)) A).
    { rewrite firstn_firstn. f_equal. pose proof (last_descending_le r m Hr) as Hle. rewrite (Nat.min_l _ _ Hle).
      destruct r as [|x r']; [reflexivity|].
      change (last (m :: x :: r') (length A)) with (last (x :: r') (length A)).
      apply last_default_irrel. discriminate. }
    rewrite <- E. destruct r; exact IH.
Qed.

(* the files of the log, oldest first, as their entry lists; [kept] stay, [later] are to be removed. What is left of
   [later] after j removals: *)
Definition removed_oldest_first {T} (j : nat) (later : list T) : list T := skipn j later.
Definition removed_newest_first {T} (j : nat) (later : list T) : list T := firstn (length later - j) later.

(* newest first: at every crash point the directory holds a prefix of the old file list *)
Theorem remove_newest_first_prefix : forall {T} (kept later : list T) j,
  exists n, kept ++ removed_newest_first j later = firstn n (kept ++ later) /\ (length kept <= n)%nat.
Proof.
  intros T kept later j. exists (length kept + (length later - j))%nat. split; [|lia].
  unfold removed_newest_first. now rewrite firstn_app_2.
Qed.

(* oldest first: after one of two removals the middle file is missing *)
Example remove_oldest_first_hole :
  let files := [[1; 2]; [3; 4]; [5; 6]] in
  concat ([[1; 2]] ++ removed_oldest_first 1 [[3; 4]; [5; 6]]) = [1; 2; 5; 6]
  /\ forall n, firstn n (concat files) <> [1; 2; 5; 6].
Proof.
  split; [reflexivity|]. intros [|[|[|[|[|[|[|n]]]]]]]; cbn; discriminate.
Qed.

(* a length-prefixed record of the meta file; the two words beside the snapshot record *)
Record mrec := mkmrec { mr_len : N; mr_data : N; mr_idx : N; mr_term : N }.
(* what a reader accepts: the length belongs to the bytes (mr_data identifies them together with their length), and the
   index word is the index of the stored snapshot *)
Definition mrec_of (len data idx term : N) := mkmrec len data idx term.
Inductive mwrite := WLen (n : N) | WData (d : N) | WIdx (i : N) | WTerm (t : N) | WAll (r : mrec).
Definition mapply (r : mrec) (w : mwrite) : mrec :=
  match w with
  | WLen n => mkmrec n (mr_data r) (mr_idx r) (mr_term r)
  | WData d => mkmrec (mr_len r) d (mr_idx r) (mr_term r)
  | WIdx i => mkmrec (mr_len r) (mr_data r) i (mr_term r)
  | WTerm t => mkmrec (mr_len r) (mr_data r) (mr_idx r) t
  | WAll x => x
  end.
Definition mcrash (k : nat) (ws : list mwrite) (r : mrec) : mrec := fold_left mapply (firstn k ws) r.

(* StoreSnapshot before /repo 8446840: SetUint(index), SetUint(term), WriteSlice = length, bytes; since then: one write *)
Definition snap_writes_current (new : mrec) := [WIdx (mr_idx new); WTerm (mr_term new); WLen (mr_len new); WData (mr_data new)].
Definition snap_writes_repaired (new : mrec) := [WAll new].

Theorem meta_one_write_atomic : forall old new k, mcrash k (snap_writes_repaired new) old = old \/ mcrash k (snap_writes_repaired new) old = new.
Proof. intros old new [|k]; [left; reflexivity|right]. cbn. now destruct k. Qed.

Example meta_several_writes_refuted :
  let old := mkmrec 10 100 5 1 in let new := mkmrec 12 200 9 2 in
  forall k, (0 < k < 4)%nat -> mcrash k (snap_writes_current new) old <> old /\ mcrash k (snap_writes_current new) old <> new.
Proof. intros old new [|[|[|[|k]]]] Hk; try lia; split; vm_compute; discriminate. Qed.
