(* C17: the invariant of one file ([fview]; that of the whole store is Search.dinv) and the "view" lemmas: every file is a run of good live rows [A] (in slot
   order) followed by dead rows [D] (index 0: the prefix slot a zero-fill leaves behind); reads and writes are
   re-expressed on (A, D). *)
From Coq Require Import NArith PeanoNat List Bool Lia ZifyBool ZifyN ZifyNat.
From OG Require Import C17.Model C17.Proofs C17.Refine.
Import ListNotations.
Open Scope N_scope.

Definition dead (r : row) : Prop := s_index (r_slot r) = 0 /\ s_off (r_slot r) = 0.
Definition good (size : N) (r : row) : Prop :=
  s_index (r_slot r) <> 0 /\ 0 < s_off (r_slot r) /\ s_off (r_slot r) < size
  /\ c_lenw (r_cell r) = p_len (c_pay (r_cell r)).
Fixpoint incr_offs (a : list row) : Prop :=
  match a with
  | r :: t => match t with r' :: _ => s_off (r_slot r) < s_off (r_slot r') | [] => True end /\ incr_offs t
  | [] => True
  end.

Record fview (P : params) (f : file) (A D : list row) : Prop := mkfview {
  fv_asc : asc_rows f = A ++ D;
  fv_n : f_n f = N.of_nat (length (A ++ D));
  fv_max : f_n f <= max_entries P;
  fv_good : Forall (good (f_size f)) A;
  fv_dead : Forall dead D;
  fv_offs : incr_offs A;
  fv_c0 : match f_c0 f with Some n => exists r t, A = r :: t /\ n = c_lenw (r_cell r) | None => True end
}.

Lemma good_live : forall s r, good s r -> live_row r = true.
Proof. intros s r (H & _). unfold live_row. destruct (s_index (r_slot r) =? 0) eqn:E; [lia|reflexivity]. Qed.

Lemma Forall_good_live : forall s A, Forall (good s) A -> forallb live_row A = true.
Proof. intros s A H. apply forallb_forall. intros r Hr. rewrite Forall_forall in H. eapply good_live; eauto. Qed.

Lemma live_rows_app_dead : forall A D, forallb live_row A = true -> Forall dead D -> live_rows (A ++ D) = A.
Proof.
  intros A D HA HD. destruct D as [|g x]; [rewrite app_nil_r; now apply live_rows_all|].
  apply live_rows_stop; [exact HA|]. inversion HD as [|? ? [Hg _] _]; subst. exact Hg.
Qed.

Lemma row_entry_good : forall s r, good s r ->
  row_entry r = mkent (s_index (r_slot r)) (s_term_ (r_slot r)) (s_type (r_slot r)) (c_pay (r_cell r)).
Proof.
  intros s r (_ & _ & _ & H). unfold row_entry, read_cell. rewrite H, N.eqb_refl. reflexivity.
Qed.

Lemma fv_entries : forall P f A D, fview P f A D -> file_entries f = map row_entry A.
Proof.
  intros P f A D V. unfold file_entries. rewrite (fv_asc _ _ _ _ V).
  rewrite live_rows_app_dead; [reflexivity| |exact (fv_dead _ _ _ _ V)].
  eapply Forall_good_live. exact (fv_good _ _ _ _ V).
Qed.

Lemma fv_rows : forall P f A D, fview P f A D -> f_rows f = rev (A ++ D).
Proof.
  intros P f A D V. pose proof (fv_asc _ _ _ _ V) as H. rewrite asc_rows_rev in H.
  rewrite <- H. now rewrite rev_involutive.
Qed.

Lemma fv_row_at : forall P f A D p, fview P f A D -> (p < length (A ++ D))%nat ->
  row_at f (N.of_nat p) = nth p (A ++ D) zero_row.
Proof.
  intros P f A D p V Hp. unfold row_at, nrows. rewrite (fv_n _ _ _ _ V).
  destruct (N.of_nat p <? N.of_nat (length (A ++ D))) eqn:E; [|lia].
  rewrite (fv_rows _ _ _ _ V).
  replace (N.to_nat (N.of_nat (length (A ++ D)) - 1 - N.of_nat p)) with (length (A ++ D) - S p)%nat by lia.
  rewrite rev_nth by lia.
  replace (length (A ++ D) - S (length (A ++ D) - S p))%nat with p by lia. reflexivity.
Qed.

Lemma fv_row_at_live : forall P f A D p, fview P f A D -> (p < length A)%nat ->
  row_at f (N.of_nat p) = nth p A zero_row.
Proof.
  intros P f A D p V Hp. rewrite (fv_row_at P f A D p V) by (rewrite app_length; lia).
  now rewrite app_nth1.
Qed.

Lemma fv_row_at_beyond : forall P f A D p, fview P f A D -> (length A <= p)%nat ->
  s_index (slot_at f (N.of_nat p)) = 0.
Proof.
  intros P f A D p V Hp. unfold slot_at.
  destruct (Nat.ltb p (length (A ++ D))) eqn:E.
  - apply Nat.ltb_lt in E. rewrite (fv_row_at P f A D p V E). rewrite app_nth2 by lia.
    pose proof (fv_dead _ _ _ _ V) as HD. rewrite Forall_forall in HD.
    rewrite app_length in E.
    destruct (HD (nth (p - length A) D zero_row)) as [H _]; [apply nth_In; lia|exact H].
  - apply Nat.ltb_ge in E. unfold row_at, nrows. rewrite (fv_n _ _ _ _ V).
    destruct (N.of_nat p <? N.of_nat (length (A ++ D))) eqn:E2; [lia|reflexivity].
Qed.

Definition new_row (off : N) (e : entry) : row :=
  mkrow (mkslot (e_term e) (e_index e) (e_type e) off) (mkcell (p_len (e_data e)) (e_data e)).

Lemma incr_offs_snoc : forall A r, incr_offs A ->
  (forall x, In x A -> s_off (r_slot x) < s_off (r_slot r)) -> incr_offs (A ++ [r]).
Proof.
  induction A as [|a t IH]; intros r HA Hlt; cbn [app incr_offs]; [auto|].
  destruct HA as [Ha Ht]. split.
  - destruct t as [|b t']; cbn [app]; [apply Hlt; now left|exact Ha].
  - apply IH; [exact Ht|]. intros x Hx. apply Hlt. now right.
Qed.

Lemma incr_offs_lt_last : forall A r x, incr_offs (A ++ [r]) -> In x A -> s_off (r_slot x) < s_off (r_slot r).
Proof.
  induction A as [|a t IH]; intros r x H Hx; [contradiction|].
  cbn [app incr_offs] in H. destruct H as [Ha Ht]. destruct Hx as [<-|Hx].
  - destruct t as [|b t']; cbn [app] in *; [exact Ha|].
    specialize (IH r b Ht (or_introl eq_refl)). lia.
  - now apply IH.
Qed.

(* writing the slot above the live rows: it replaces the dead slot if there is one ([tl D]); if there is none the
   table must have room for one more *)
Lemma write_row_view : forall P f A D off e,
  fview P f A D -> e_index e <> 0 -> 0 < off ->
  (forall x, In x A -> s_off (r_slot x) < off) ->
  (D = [] -> f_n f < max_entries P) ->
  let f' := write_row (N.of_nat (length A)) off e f in
  fview P f' (A ++ [new_row off e]) (tl D)
  /\ f_size f' = N.max (f_size f) (off + 4 + p_len (e_data e)) /\ f_id f' = f_id f.
Proof.
  intros P f A D off e V He Hoff Hlt Hroom f'.
  assert (Hrows := fv_rows _ _ _ _ V). assert (Hn := fv_n _ _ _ _ V).
  assert (Hsz : f_size f' = N.max (f_size f) (off + 4 + p_len (e_data e))) by reflexivity.
  assert (Hgood' : Forall (good (f_size f')) (A ++ [new_row off e])).
  { apply Forall_app. split.
    - eapply Forall_impl; [|exact (fv_good _ _ _ _ V)]. intros r (G1 & G2 & G3 & G4). repeat split; auto. rewrite Hsz. lia.
    - constructor; [|constructor]. unfold good, new_row. cbn [r_slot r_cell s_index s_off c_lenw c_pay].
      repeat split; auto. rewrite Hsz. lia. }
  assert (Hoffs' : incr_offs (A ++ [new_row off e])).
  { apply incr_offs_snoc; [exact (fv_offs _ _ _ _ V)|]. intros x Hx. cbn. now apply Hlt. }
  assert (Hc0' : match f_c0 f' with Some n => exists r t, A ++ [new_row off e] = r :: t /\ n = c_lenw (r_cell r) | None => True end).
  { unfold f', write_row. cbn [f_c0]. pose proof (fv_c0 _ _ _ _ V) as C.
    destruct A as [|a t].
    - cbn [length N.of_nat]. rewrite N.eqb_refl. destruct (f_fresh f).
      + exists (new_row off e), []. split; reflexivity.
      + destruct (f_c0 f) as [n|]; [|exact I]. destruct C as (r & t & Hnil & _). discriminate.
    - destruct (N.of_nat (length (a :: t)) =? 0) eqn:E; [cbn [length] in E; lia|].
      destruct (f_c0 f) as [n|]; [|exact I]. destruct C as (r & t' & Hc & Hn'). injection Hc as <- <-.
      exists a, (t ++ [new_row off e]). split; [reflexivity|exact Hn']. }
  destruct D as [|d D'].
  - rewrite app_nil_r in *. specialize (Hroom eq_refl).
    assert (Hasc' : asc_rows f' = A ++ [new_row off e]).
    { unfold f', write_row, nrows. rewrite Hn, N.ltb_irrefl, N.sub_diag. cbn [N.to_nat repeat app].
      rewrite asc_rows_rev. cbn [f_rows rev]. rewrite Hrows, rev_involutive. reflexivity. }
    split; [|split; reflexivity]. constructor; cbn [tl]; try rewrite app_nil_r; auto.
    + unfold f', write_row, nrows. rewrite Hn, N.ltb_irrefl. cbn [f_n]. rewrite app_length. cbn [length]. lia.
    + unfold f', write_row, nrows. rewrite Hn, N.ltb_irrefl. cbn [f_n]. lia.
  - assert (Hlen : N.of_nat (length A) < f_n f) by (rewrite Hn, app_length; cbn [length]; lia).
    assert (Hasc' : asc_rows f' = (A ++ [new_row off e]) ++ D').
    { unfold f', write_row, nrows. destruct (N.of_nat (length A) <? f_n f) eqn:E; [|lia].
      rewrite asc_rows_rev. cbn [f_rows]. rewrite Hrows.
      assert (HR : rev (A ++ d :: D') = (rev D' ++ [d]) ++ rev A) by (rewrite rev_app_distr; reflexivity).
      rewrite Hn, app_length. cbn [length].
      replace (N.to_nat (N.of_nat (length A + S (length D')) - 1 - N.of_nat (length A))) with (length (rev D')) by (rewrite rev_length; lia).
      replace (N.to_nat (N.of_nat (length A + S (length D')) - N.of_nat (length A))) with (length (rev D' ++ [d])) by (rewrite app_length, rev_length; cbn; lia).
      rewrite HR.
      rewrite skipn_app, skipn_all, Nat.sub_diag. cbn [skipn app].
      rewrite <- app_assoc. rewrite firstn_app, firstn_all, Nat.sub_diag. cbn [firstn]. rewrite app_nil_r.
      rewrite rev_app_distr. cbn [rev]. rewrite !rev_involutive. rewrite <- !app_assoc. reflexivity. }
    split; [|split; reflexivity]. constructor; cbn [tl]; auto.
    + unfold f', write_row, nrows. destruct (N.of_nat (length A) <? f_n f) eqn:E; [|lia]. cbn [f_n].
      rewrite Hn, !app_length. cbn [length]. lia.
    + unfold f', write_row, nrows. destruct (N.of_nat (length A) <? f_n f) eqn:E; [|lia]. cbn [f_n].
      exact (fv_max _ _ _ _ V).
    + pose proof (fv_dead _ _ _ _ V) as HD. now inversion HD.
Qed.

Lemma incr_offs_firstn : forall k A, incr_offs A -> incr_offs (firstn k A).
Proof.
  induction k as [|k IH]; intros A H; [exact I|]. destruct A as [|a t]; [exact I|].
  cbn [firstn incr_offs] in *. destruct H as [Ha Ht]. split; [|now apply IH].
  destruct t as [|b t']; destruct k; cbn [firstn]; auto.
Qed.

Lemma new_file_view : forall P x b, fview P (new_file P x b) [] [].
Proof. intros. constructor; cbn; try reflexivity; try constructor. lia. Qed.

Lemma fv_rows_ok : forall P f A D, fview P f A D -> rows_ok f.
Proof. intros P f A D V. unfold rows_ok. rewrite (fv_n _ _ _ _ V), (fv_rows _ _ _ _ V), rev_length. reflexivity. Qed.

Lemma zero_fill_view : forall P endb lo f A D,
  fview P f A D -> (lo < length A)%nat -> entry_sz * f_n f <= endb -> endb <= data_off P ->
  let f' := zero_fill VRepaired P endb (N.of_nat lo) f in
  fview P f' (firstn lo A) [garbage_row (endb - entry_sz * N.of_nat lo - 4)]
  /\ f_size f' = f_size f /\ f_id f' = f_id f.
Proof.
  intros P endb lo f A D V Hlo Hend Hoff f'.
  assert (HloX : (lo < length (A ++ D))%nat) by (rewrite app_length; lia).
  destruct (nth_split (A ++ D) zero_row HloX) as (l1 & l2 & HX & Hl1).
  assert (Hl1A : l1 = firstn lo A).
  { assert (H : firstn lo (A ++ D) = l1) by (rewrite HX, <- Hl1, firstn_app, firstn_all, Nat.sub_diag; cbn; now rewrite app_nil_r).
    rewrite firstn_app in H. replace (lo - length A)%nat with 0%nat in H by lia. cbn [firstn] in H. now rewrite app_nil_r in H. }
  assert (Hrows : f_rows f = rev l2 ++ nth lo (A ++ D) zero_row :: rev l1).
  { rewrite (fv_rows _ _ _ _ V). rewrite HX at 1. rewrite rev_app_distr. cbn [rev]. now rewrite <- app_assoc. }
  destruct (zero_fill_repaired_rows P endb (N.of_nat lo) f (rev l2) (nth lo (A ++ D) zero_row) (rev l1) Hrows
              ltac:(rewrite rev_length; lia) (fv_rows_ok _ _ _ _ V) Hend Hoff) as [Z1 Z2].
  fold f' in Z1, Z2.
  split; [|split; reflexivity].
  constructor.
  - rewrite asc_rows_rev, Z1. cbn [rev]. rewrite rev_involutive, Hl1A. reflexivity.
  - unfold rows_ok in Z2. rewrite Z2, Z1. cbn [length]. rewrite rev_length, app_length, Hl1A. cbn [length]. lia.
  - unfold rows_ok in Z2. rewrite Z2, Z1. cbn [length]. rewrite rev_length, Hl1.
    pose proof (fv_max _ _ _ _ V). pose proof (fv_n _ _ _ _ V) as Hn. rewrite app_length in Hn. lia.
  - apply Forall_firstn. exact (fv_good _ _ _ _ V).
  - constructor; [|constructor]. split; reflexivity.
  - apply incr_offs_firstn. exact (fv_offs _ _ _ _ V).
  - unfold f', zero_fill. cbn [f_c0]. destruct (N.of_nat lo =? 0) eqn:E; [exact I|].
    pose proof (fv_c0 _ _ _ _ V) as C. destruct (f_c0 f) as [n|]; [|exact I].
    destruct C as (r & t & -> & Hn). destruct lo; [lia|]. cbn [firstn]. eauto.
Qed.

Lemma all_live_no_dead : forall P f A D, fview P f A D -> all_live f -> D = [].
Proof.
  intros P f A D V H. unfold all_live in H. rewrite (fv_rows _ _ _ _ V), forallb_rev, forallb_app in H.
  apply andb_true_iff in H as [_ H]. destruct D as [|g t]; [reflexivity|].
  cbn [forallb] in H. apply andb_true_iff in H as [H _].
  pose proof (fv_dead _ _ _ _ V) as HD. inversion HD as [|? ? [Hg _] _]; subst.
  unfold live_row in H. rewrite Hg in H. discriminate.
Qed.
