(* C17: a Save in which one write fails (Model.save_fail), for the variant /repo implements since fe68fb6 (VZeroSlots: every
   failed write is reported). What the abstract log and the meta record are afterwards, that the store is back in
   its invariant, and that the retry of the caller (RaftNode.SaveToStorage loops until Save succeeds) ends in exactly
   the state a Save without fault would have produced. *)
From Coq Require Import NArith PeanoNat List Bool Lia ZifyBool ZifyN ZifyNat.
From OG Require Import C17.Model C17.Proofs C17.Refine C17.Inv C17.Search C17.Read C17.Step C17.SaveStep C17.ZeroSlots.
Import ListNotations.
Open Scope N_scope.

(* the entries below index b: what Append keeps *)
Definition below_idx (b : N) (l : list entry) : list entry := firstn (N.to_nat (b - first_of l)) l.

Lemma s_append_below : forall e0 r l, s_append (e0 :: r) l = below_idx (e_index e0) l ++ e0 :: r.
Proof. reflexivity. Qed.

Lemma rotate_log : forall P off d, log_of (rotate P off d) = log_of d.
Proof.
  intros P off d. unfold log_of, rotate. cbn [d_files d_cur]. rewrite !log_of_snoc.
  change (file_entries (new_file P (max_fid d + 1) true)) with (@nil entry). rewrite app_nil_r. reflexivity.
Qed.

Lemma after_conflict_nil : forall P d1,
  log_of (after_conflict P [] d1) = log_of d1 /\ d_meta (after_conflict P [] d1) = d_meta d1.
Proof.
  intros P d1. unfold after_conflict. destruct (d_next d1 =? 0); [split; reflexivity|].
  destruct (cell_len (d_cur d1) (d_next d1 - 1)) as [n c] eqn:Ec. cbn [append_loop].
  pose proof (cell_len_same (d_cur d1) (d_next d1 - 1)) as [S1 S2]. rewrite Ec in S1, S2. cbn [snd] in S1, S2.
  split; [|reflexivity]. unfold log_of. cbn [d_files d_cur]. rewrite !log_of_snoc. unfold file_entries, asc_rows. now rewrite S1.
Qed.

Definition valid_batch (P : params) (e0 : entry) (r : list entry) (l : list entry) : Prop :=
  consec (e_index e0) (e0 :: r) /\ 1 <= e_index e0 /\ Forall (fits P) (e0 :: r)
  /\ (l = [] \/ (first_of l <= e_index e0 /\ e_index e0 <= last_of l + 1)).

(* what a reported failure leaves behind, as a function of the fault *)
Definition failed_log (ft : fault) (e0 : entry) (r : list entry) (h : option hardstate) (old : alog) (new : alog) : Prop :=
  let es := e0 :: r in
  let b := e_index e0 in
  match ft with
  | FClear _ =>
      (* a prefix of the old log that still holds the conflicting index: nothing of the batch, nothing discarded
         below or at b; meta untouched *)
      (exists n, a_ents new = firstn n (a_ents old) /\ (N.to_nat (b - first_of (a_ents old)) < n)%nat)
      /\ a_meta new = a_meta old
  | FEntry j _ =>
      (* the truncation prefix of the specification, followed by the first j entries of the batch *)
      a_ents new = below_idx b (a_ents old) ++ firstn j es /\ a_meta new = a_meta old
  | FHs => a_ents new = s_append es (a_ents old) /\ a_meta new = a_meta old
  | FSnap => a_ents new = s_append es (a_ents old) /\ a_meta new = store_hs h (a_meta old)
  end.

Lemma save_whole : forall v P es h s d,
  store_meta h s (add_entries v P es d) = fst (step_disk v P (Save es h s) d).
Proof. reflexivity. Qed.

Lemma clear_failed_state : forall P, wf_params P = true -> forall d i0 Ac b c d1,
  dinvz P i0 d Ac -> 1 <= b ->
  (log_of d = [] \/ (first_of (log_of d) <= b /\ b <= last_of (log_of d) + 1)) ->
  clear_failed P b c d = Some d1 ->
  (exists Ac1, dinvz P i0 d1 Ac1) /\ d_meta d1 = d_meta d
  /\ exists n, log_of d1 = firstn n (log_of d) /\ (N.to_nat (b - first_of (log_of d)) < n)%nat.
Proof.
  intros P HP d i0 Ac b c d1 [I Hal] Hb Hrange Hcf.
  pose proof I as (H1 & Hch & V & C & Hn & HKl).
  unfold clear_failed in Hcf.
  destruct (inv_cases P d i0 Ac I) as [(EA & Ef & Hl)|Hne].
  - rewrite (slot_ge_empty P d i0 Ac I EA Ef b) in Hcf. discriminate.
  - destruct Hrange as [E|[Hlo Hhi]]; [congruence|]. rewrite (inv_first P d i0 Ac I Hne) in *.
    rewrite (consec_last _ _ (inv_consec P d i0 Ac I) Hne) in Hhi.
    destruct (slot_ge_locate P d i0 Ac b I Hne Hlo)
      as (sel & pre & A & D & rest & lo & Hs & Hpre & Vf & HA & Cf & Hlog & Hpos & Hsel). rewrite Hs in Hcf.
    assert (Hal' : Forall all_live pre).
    { destruct sel; [destruct Hsel as (-> & _); exact Hal|destruct Hsel as (_ & <- & _); now apply Forall_firstn]. }
    pose proof (f_equal (@length _) Hlog) as Hll. rewrite !app_length, map_length in Hll.
    (* the selected file, cleared from the top down to slot hi - c, keeps its rows below that slot; the files before it stay *)
    assert (G : forall f hi nx, fview P f A [] -> f_n f <= hi -> N.of_nat lo + c < hi ->
                nx = N.of_nat (length (firstn (N.to_nat (hi - c)) A)) ->
                let dz := mkdisk pre (clear_part hi c f) nx (d_meta d) in
                (exists Ac1, dinvz P i0 dz Ac1)
                /\ exists n, log_of dz = firstn n (log_of d) /\ (N.to_nat (b - i0) < n)%nat).
    { intros f hi nx Vf0 Hfh Hc -> dz.
      pose proof (fv_n _ _ _ _ Vf0) as Hfn. rewrite app_nil_r in Hfn.
      pose proof (clear_part_view_all P hi c f A Vf0 Hfh) as Vf'.
      set (m := N.to_nat (hi - c)) in *. set (A1 := firstn m A) in *.
      assert (Hlen1 : length A1 = Nat.min m (length A)) by (unfold A1; apply firstn_length).
      assert (HA1 : A1 <> []) by (intro E; rewrite E in Hlen1; cbn in Hlen1; destruct A; [congruence|cbn in Hlen1; lia]).
      split.
      - exists A1. split; [|exact Hal'].
        unfold dinv, dz. cbn [d_files d_cur d_next]. split; [exact H1|]. split; [exact Hpre|]. split; [exact Vf'|].
        split; [unfold A1; now apply consec_firstn_rows|]. split; [reflexivity|]. congruence.
      - assert (Hlog1 : log_of dz = firstn (length (concat (map file_entries pre)) + length A1) (log_of d)).
        { rewrite log_of_eq. unfold dz. cbn [d_files d_cur]. rewrite (fv_entries P _ A1 [] Vf'), Hlog.
          rewrite firstn_app_2, firstn_app, map_length.
          replace (length A1 - length A)%nat with 0%nat by lia. cbn [firstn]. rewrite app_nil_r, firstn_map.
          do 2 f_equal. rewrite Hlen1. unfold A1.
          destruct (Nat.le_ge_cases m (length A)); [now rewrite Nat.min_l|]. rewrite Nat.min_r, !firstn_all2 by lia. reflexivity. }
        unfold flen in *. destruct Hpos as [[Hl Hbb]|(Hl & -> & _ & Hbb)].
        + exists (length (concat (map file_entries pre)) + length A1)%nat. split; [exact Hlog1|lia].
        + (* the batch starts right behind the file: the whole log is kept *)
          exists (S (length (log_of d))). cbn [length] in Hll. split; [|lia].
          rewrite Hlog1, (firstn_all2 (n := S _)) by lia. apply firstn_all2. lia. }
    destruct sel as [|k]; cbn [sel_file] in Vf.
    + destruct Hsel as (-> & -> & -> & _). rewrite Hn in Hcf.
      destruct ((N.of_nat lo <? N.of_nat (length Ac)) && (N.of_nat lo + c <? N.of_nat (length Ac))) eqn:E3; [|discriminate].
      injection Hcf as <-. apply andb_true_iff in E3 as [E3 E4].
      pose proof (fv_n _ _ _ _ V) as Hfn. rewrite app_nil_r in Hfn.
      destruct (G (d_cur d) (N.of_nat (length Ac)) (N.of_nat (length Ac) - c) V ltac:(lia) ltac:(lia)) as [X1 X2].
      { rewrite firstn_length_le; lia. }
      split; [exact X1|]. split; [reflexivity|exact X2].
    + destruct Hsel as (_ & Hfk & _ & post & Hfs & _). rewrite Hfk in Hcf. set (f := nth k (d_files d) (d_cur d)) in *.
      destruct ((N.of_nat lo <? max_entries P) && (N.of_nat lo + c <? max_entries P)) eqn:E3; [|discriminate].
      injection Hcf as <-. apply andb_true_iff in E3 as [E3 E4].
      assert (ED : D = []).
      { apply (all_live_no_dead P f A D Vf). unfold alivef in Hal. rewrite Forall_forall in Hal. apply Hal.
        rewrite Hfs. apply in_or_app. right. now left. }
      subst D. pose proof (fv_max _ _ _ _ Vf) as Hfm.
      pose proof (clear_part_view_all P (max_entries P) c f A Vf Hfm) as Vf'.
      rewrite (first_empty_view P _ _ [] Vf').
      destruct (G f (max_entries P) _ Vf Hfm ltac:(lia) eq_refl) as [X1 X2].
      split; [exact X1|]. split; [reflexivity|exact X2].
Qed.

Lemma needs_rotate_next : forall P d e, wf_params P = true -> fits P e ->
  needs_rotate P d (end_off P d) e = true -> d_next d <> 0.
Proof.
  intros P d e HP Hf H E. destruct (wf_params_facts P HP) as (Hmax & _ & _).
  unfold needs_rotate, end_off, fits in *. rewrite E in H. cbn [N.eqb] in H.
  destruct (max_entries P <=? 0) eqn:E1; [lia|]. destruct (max_size P <? data_off P + 4 + p_len (e_data e)) eqn:E2; [lia|].
  discriminate.
Qed.

Lemma rotate_inv : forall P d i0 Ac, dinvz P i0 d Ac -> Ac <> [] -> dinvz P i0 (rotate P (end_off P d) d) [].
Proof.
  intros P d i0 Ac [I Hal] HA. pose proof I as (H1 & Hch & V & C & Hn & HKl).
  pose proof (length_pos_ne Ac HA) as Hpos.
  set (p := (length Ac - 1)%nat). assert (Hp : (p < length Ac)%nat) by (unfold p; lia).
  assert (Hoff : forall x, In x Ac -> s_off (r_slot x) < end_off P d).
  { intros x Hx. unfold end_off. rewrite Hn. destruct (N.of_nat (length Ac) =? 0) eqn:E0; [lia|].
    replace (N.of_nat (length Ac) - 1) with (N.of_nat p) by (unfold p; lia).
    unfold slot_at. rewrite (fv_row_at_live P (d_cur d) Ac [] p V Hp).
    pose proof (incr_offs_le_last Ac x (fv_offs _ _ _ _ V) Hx) as L. fold p in L. lia. }
  set (c' := mkfile (f_id (d_cur d)) (f_n (d_cur d)) (f_rows (d_cur d)) (end_off P d) (f_c0 (d_cur d)) (f_fresh (d_cur d))).
  assert (Vc' : fview P c' Ac []) by (apply resize_view; assumption).
  assert (Hall : Forall all_live (d_files d ++ [c'])).
  { apply Forall_app. split; [exact Hal|]. constructor; [exact (view_all_live P c' Ac Vc')|constructor]. }
  split; [|exact Hall].
  unfold dinv, rotate. cbn [d_files d_cur d_next]. fold c'.
  split; [exact H1|]. split.
  { apply chain_app. split; [exact Hch|]. cbn [chain]. exists Ac, []. auto. }
  split; [apply new_file_view|]. split; [exact Logic.I|]. split; [reflexivity|]. intros _. exact Hall.
Qed.

(* every fault: one that does not apply leaves the ordinary Save; a reported one leaves a state of the invariant whose
   log is the one [failed_log] describes *)
Lemma save_fail_state : forall P, wf_params P = true -> forall d i0 Ac e0 r h s ft,
  dinvz P i0 d Ac -> valid_batch P e0 r (log_of d) ->
  let res := save_fail VZeroSlots P (e0 :: r) h s ft d in
  (fst res = false -> snd res = fst (step_disk VZeroSlots P (Save (e0 :: r) h s) d))
  /\ (fst res = true -> failed_log ft e0 r h (abs d) (abs (snd res)) /\ exists i1 Ac1, dinvz P i1 (snd res) Ac1).
Proof.
  intros P HP d i0 Ac e0 r h s ft Iz (Ces & Hb & Hfit & Hrange) res. pose proof Iz as [I Hal].
  assert (Hadd : forall n, let d1 := add_entries VZeroSlots P (e0 :: firstn n r) d in
            exists i1 Ac1, dinvz P i1 d1 Ac1
                           /\ log_of d1 = below_idx (e_index e0) (log_of d) ++ e0 :: firstn n r /\ d_meta d1 = d_meta d).
  { intros n d1.
    destruct (add_entries_inv VZeroSlots P true HP (clears_zeroslots P) d i0 Ac e0 (firstn n r) I (or_introl (clears_end_zeroslots P))
                (consec_firstn _ _ (S n) Ces) Hb (Forall_firstn _ (S n) _ Hfit) Hrange) as (a & b & X1 & X2 & X3 & X4 & _).
    exists a, b. split; [split; [exact X1|now apply X4]|split; assumption]. }
  pose proof (Hadd (length r)) as Hwhole. rewrite firstn_all in Hwhole. cbv zeta in Hwhole.
  subst res. unfold save_fail, failed_log. cbv zeta. rewrite abs_log. cbn [a_ents a_meta].
  destruct ft as [c|j rot| |].
  - destruct (clear_failed P (e_index e0) c d) as [d1|] eqn:Ecf; cbn [fst snd]; [|split; [intros _; apply save_whole|discriminate]].
    split; [discriminate|]. intros _.
    destruct (clear_failed_state P HP d i0 Ac (e_index e0) c d1 Iz Hb Hrange Ecf) as ((Ac1 & J) & M & n & L & Hn).
    rewrite abs_log. cbn [a_ents a_meta]. split; [split; [exists n; split; assumption|exact M]|eauto].
  - destruct (Nat.ltb j (length (e0 :: r))) eqn:Ej; cbn [fst snd]; [|split; [intros _; apply save_whole|discriminate]].
    split; [discriminate|]. intros _.
    set (d1 := after_conflict P (firstn j (e0 :: r)) (conflict_step VZeroSlots P (e_index e0) d)).
    assert (H : exists i1 Ac1, dinvz P i1 d1 Ac1
                  /\ log_of d1 = below_idx (e_index e0) (log_of d) ++ firstn j (e0 :: r) /\ d_meta d1 = d_meta d).
    { destruct j as [|j]; [|exact (Hadd j)].
      (* nothing of the batch is visible: the truncation prefix *)
      destruct (conflict_step_state VZeroSlots P true HP (clears_zeroslots P) d i0 Ac (e_index e0) I (or_introl (clears_end_zeroslots P)) Hb Hrange)
        as (i0' & A' & D' & K1 & Kch & V' & KC & Kn & _ & KD & _ & KL & KM & Kal).
      rewrite (KD eq_refl) in V'. clear KD.
      set (dc := conflict_step VZeroSlots P (e_index e0) d) in *. pose proof (Kal Hal) as Hal'.
      destruct (after_conflict_nil P dc) as [L1 M1]. exists i0', A'.
      split; [|split; [|unfold d1; cbn [firstn]; rewrite M1; exact KM]].
      2:{ unfold d1. cbn [firstn]. rewrite L1, app_nil_r, log_of_eq, (fv_entries P _ A' [] V'). exact KL. }
      unfold d1, after_conflict. cbn [firstn]. rewrite Kn.
      destruct (N.of_nat (length A') =? 0) eqn:E0.
      - cbn [append_loop]. split; [|exact Hal'].
        unfold dinv. cbn [d_files d_cur d_next]. auto 7.
      - set (p := (length A' - 1)%nat). assert (Hp : (p < length A')%nat) by (unfold p; lia).
        replace (N.of_nat (length A') - 1) with (N.of_nat p) by (unfold p; lia).
        destruct (cell_len_view P (d_cur dc) A' [] p V' Hp) as [_ Vc].
        destruct (cell_len (d_cur dc) (N.of_nat p)) as [n c]. cbn [snd] in Vc. cbn [append_loop].
        split; [|exact Hal']. unfold dinv. cbn [d_files d_cur d_next]. auto 7. }
    destruct H as (i1 & Ac1 & J1 & L & M).
    destruct (rot && needs_rotate P d1 (end_off P d1) (nth j (e0 :: r) e0)) eqn:ER;
      rewrite abs_log; cbn [a_ents a_meta]; [rewrite rotate_log|]; (split; [split; assumption|]); [|eauto].
    apply andb_true_iff in ER as [_ ER].
    assert (Hfj : fits P (nth j (e0 :: r) e0)).
    { rewrite Forall_forall in Hfit. apply Hfit. apply nth_In. now apply Nat.ltb_lt. }
    pose proof (needs_rotate_next P d1 _ HP Hfj ER) as Hnx.
    assert (HA1 : Ac1 <> []).
    { destruct J1 as [(_ & _ & _ & _ & Hn1 & _) _]. intro E. rewrite E in Hn1. cbn in Hn1. congruence. }
    exists i1, []. exact (rotate_inv P d1 i1 Ac1 J1 HA1).
  - destruct h as [x|]; [destruct (hs_is_empty x) eqn:Eh|]; cbn [fst snd];
      try (split; [intros _; apply save_whole|discriminate]).
    split; [discriminate|]. intros _. destruct Hwhole as (a & b & J & L & M).
    rewrite abs_log. cbn [a_ents a_meta]. split; [split; assumption|eauto].
  - destruct s as [x|]; [destruct (snap_valid x) eqn:Es|]; cbn [fst snd];
      try (split; [intros _; apply save_whole|discriminate]).
    split; [discriminate|]. intros _. destruct Hwhole as (a & b & J & L & M).
    rewrite abs_log. unfold store_meta. cbn [a_ents a_meta d_meta store_snap]. rewrite M.
    split; [split; [exact L|reflexivity]|exists a, b; exact J].
Qed.

Theorem failed_save_log : forall P, wf_params P = true -> forall d i0 Ac e0 r h s ft,
  dinvz P i0 d Ac -> valid_batch P e0 r (log_of d) ->
  let es := e0 :: r in
  let res := save_fail VZeroSlots P es h s ft d in
  (fst res = false -> snd res = fst (step_disk VZeroSlots P (Save es h s) d))
  /\ (fst res = true -> failed_log ft e0 r h (abs d) (abs (snd res))).
Proof.
  intros P HP d i0 Ac e0 r h s ft Iz Hvb. destruct (save_fail_state P HP d i0 Ac e0 r h s ft Iz Hvb) as [H1 H2].
  split; [exact H1|]. intro H. exact (proj1 (H2 H)).
Qed.

Lemma first_of_firstn : forall n (l : list entry), (0 < n)%nat -> first_of (firstn n l) = first_of l.
Proof. intros [|n] [|x t] H; try reflexivity; lia. Qed.

Lemma consec_length_last : forall l i, consec i l -> l <> [] -> last_of l + 1 = i + N.of_nat (length l).
Proof. intros l i C H. rewrite (consec_last l i C H). destruct l; [congruence|cbn [length]; lia]. Qed.

Lemma consec_first : forall l i, consec i l -> l <> [] -> first_of l = i.
Proof. intros [|e t] i C H; [congruence|]. destruct C as [He _]. exact He. Qed.

Definition in_range (b : N) (l : list entry) : Prop := l = [] \/ (first_of l <= b /\ b <= last_of l + 1).

(* (A) a prefix of the old log that still reaches the conflicting index *)
Lemma retry_prefix : forall l b n, consec (first_of l) l -> in_range b l ->
  (N.to_nat (b - first_of l) < n)%nat ->
  in_range b (firstn n l) /\ below_idx b (firstn n l) = below_idx b l.
Proof.
  intros l b n C R Hn. destruct l as [|x t]; [rewrite firstn_nil; split; [now left|reflexivity]|].
  destruct R as [R|[R1 R2]]; [discriminate|].
  assert (Hne : x :: t <> []) by discriminate.
  rewrite (consec_length_last _ _ C Hne) in R2.
  assert (Hf : first_of (firstn n (x :: t)) = first_of (x :: t)) by (apply first_of_firstn; lia).
  assert (Hne1 : firstn n (x :: t) <> []) by (destruct n; [lia|discriminate]).
  split.
  - right. rewrite Hf. split; [exact R1|].
    pose proof (consec_firstn _ _ n C) as C1. rewrite <- Hf in C1.
    rewrite (consec_length_last _ _ C1 Hne1), Hf, firstn_length. lia.
  - unfold below_idx. rewrite Hf, firstn_firstn. f_equal. lia.
Qed.

(* (B) the truncation prefix followed by the first j entries of the batch *)
Lemma retry_partial : forall l e0 r j, consec (first_of l) l -> in_range (e_index e0) l -> consec (e_index e0) (e0 :: r) ->
  let b := e_index e0 in
  let l1 := below_idx b l ++ firstn j (e0 :: r) in
  in_range b l1 /\ below_idx b l1 = below_idx b l.
Proof.
  intros l e0 r j C R Ces b l1.
  assert (Hk : below_idx b l = [] \/ (below_idx b l <> [] /\ first_of (below_idx b l) = first_of l
                                      /\ N.of_nat (length (below_idx b l)) = b - first_of l /\ l <> [])).
  { unfold below_idx. destruct l as [|x t]; [left; now rewrite firstn_nil|].
    destruct R as [R|[R1 R2]]; [discriminate|].
    rewrite (consec_length_last _ _ C ltac:(discriminate)) in R2.
    destruct (N.to_nat (b - first_of (x :: t))) as [|m] eqn:Em; [now left|right].
    split; [discriminate|]. split; [reflexivity|]. split; [|discriminate].
    rewrite firstn_length. cbn [length] in *. lia. }
  destruct Hk as [Hk|(Hk1 & Hk2 & Hk3 & Hl)].
  - unfold l1. rewrite Hk. cbn [app]. destruct j as [|j]; [cbn [firstn]; split; [now left|unfold below_idx; now rewrite firstn_nil]|].
    cbn [firstn]. split.
    + right. cbn [first_of]. fold b. split; [lia|].
      pose proof (consec_firstn _ _ (S j) Ces) as C1. cbn [firstn] in C1.
      rewrite (consec_length_last _ _ C1 ltac:(discriminate)). lia.
    + unfold below_idx. cbn [first_of]. fold b. rewrite N.sub_diag. reflexivity.
  - assert (Hf : first_of l1 = first_of l) by (unfold l1; rewrite first_of_app; assumption).
    destruct R as [R|[R1 R2]]; [congruence|].
    assert (C1 : consec (first_of l) l1).
    { unfold l1. apply consec_app; [unfold below_idx; now apply consec_firstn|].
      rewrite Hk3. replace (first_of l + (b - first_of l)) with b by lia. now apply consec_firstn. }
    assert (Hne1 : l1 <> []) by (unfold l1; intro X; apply app_eq_nil in X as [X _]; congruence).
    split.
    + right. rewrite Hf. split; [exact R1|]. rewrite <- Hf in C1.
      rewrite (consec_length_last _ _ C1 Hne1), Hf. unfold l1. rewrite app_length. lia.
    + unfold below_idx at 1. rewrite Hf. unfold l1.
      replace (N.to_nat (b - first_of l)) with (length (below_idx b l) + 0)%nat by lia.
      rewrite firstn_app_2. cbn [firstn]. now rewrite app_nil_r.
Qed.

Lemma store_hs_idem : forall h m, store_hs h (store_hs h m) = store_hs h m.
Proof. intros [x|] m; [|reflexivity]. cbn [store_hs]. destruct (hs_is_empty x) eqn:E; cbn [store_hs]; now rewrite ?E. Qed.

Lemma in_range_log : forall l b, in_range b l <-> (l = [] \/ (first_of l <= b /\ b <= last_of l + 1)).
Proof. reflexivity. Qed.

(* a state whose current file holds an entry, or that holds nothing: what no failed Save has disturbed. A failure can
   leave the current file empty beside older files (the write that failed was the first one into a file just created
   by a rotation, or the conflicting index is the first index of a file that is not the oldest and nothing of the
   batch is visible yet); [dinv] covers that shape too, so nothing below asks for [settled] *)
Definition settled (d : disk) : Prop := file_entries (d_cur d) <> [] \/ d_files d = [].

Lemma log_consec_first : forall P d i0 Ac, dinv P i0 d Ac -> consec (first_of (log_of d)) (log_of d).
Proof.
  intros P d i0 Ac I. destruct (nil_or_not (log_of d)) as [E|E]; [rewrite E; exact Logic.I|].
  rewrite (inv_first P d i0 Ac I E). exact (inv_consec P d i0 Ac I).
Qed.

(* from a state reached without a failed Save, a clearing write exists only when the first new index is in the log *)
Lemma clear_failed_inside : forall P d i0 Ac b c d1, dinv P i0 d Ac -> Sd d ->
  (log_of d = [] \/ (first_of (log_of d) <= b /\ b <= last_of (log_of d) + 1)) ->
  clear_failed P b c d = Some d1 -> (N.to_nat (b - first_of (log_of d)) < length (log_of d))%nat.
Proof.
  intros P d i0 Ac b c d1 I HS Hrange Hcf. pose proof I as (_ & _ & _ & _ & Hn & _). unfold clear_failed in Hcf.
  destruct (inv_cases P d i0 Ac I) as [(EA & Ef & Hl)|Hne].
  - rewrite (slot_ge_empty P d i0 Ac I EA Ef b) in Hcf. discriminate.
  - destruct Hrange as [E|[Hlo Hhi]]; [congruence|].
    rewrite (consec_length_last _ _ (inv_consec P d i0 Ac I) Hne) in Hhi. rewrite (inv_first P d i0 Ac I Hne) in *.
    pose proof (inv_len P d i0 Ac I) as L.
    destruct (b <? i0 + N.of_nat (length (log_of d))) eqn:E; [lia|].
    destruct (nil_or_not Ac) as [EA|EA]; [elim Hne; exact (proj1 (Sd_char P d i0 Ac I) HS EA)|].
    rewrite (slot_ge_cur_beyond P d i0 Ac I b EA) in Hcf by lia.
    rewrite Hn, N.ltb_irrefl in Hcf. discriminate.
Qed.

(* the retry: from every failure state, saving the same batch again ends in the state - and gives the answer - of a
   Save that never failed, which is the specification's Append *)
Theorem failed_save_retry : forall P, wf_params P = true -> forall d i0 Ac e0 r h s ft,
  dinvz P i0 d Ac -> valid_batch P e0 r (log_of d) ->
  let es := e0 :: r in
  let res := save_fail VZeroSlots P es h s ft d in
  fst res = true ->
  (exists i1 Ac1, dinvz P i1 (snd res) Ac1)
  /\ valid_op P (Save es h s) (abs (snd res))
  /\ step_spec (Save es h s) 0 (abs (snd res)) = step_spec (Save es h s) 0 (abs d)
  /\ let '(d2, x2) := step_disk VZeroSlots P (Save es h s) (snd res) in
     (abs d2, x2) = step_spec (Save es h s) 0 (abs d).
Proof.
  intros P HP d i0 Ac e0 r h s ft Iz Hvb es res Hrep. pose proof Iz as [I Hal]. pose proof Hvb as (Ces & Hb & Hfit & Hrange).
  destruct (save_fail_state P HP d i0 Ac e0 r h s ft Iz Hvb) as [_ FL]. destruct (FL Hrep) as (FL' & i1 & Ac1 & J).
  clear FL. rename FL' into FL. fold es res in FL, J. set (d1 := snd res) in *.
  pose proof (log_consec_first P d i0 Ac I) as Ccl.
  assert (Hrange' : in_range (e_index e0) (log_of d)) by exact Hrange.
  assert (K : in_range (e_index e0) (log_of d1) /\ below_idx (e_index e0) (log_of d1) = below_idx (e_index e0) (log_of d)
              /\ store_snap s (store_hs h (d_meta d1)) = store_snap s (store_hs h (d_meta d))).
  { unfold failed_log in FL. rewrite !abs_log in FL. cbn [a_ents a_meta] in FL.
    destruct ft as [c|j rot| |].
    - destruct FL as ((n & L & Hn) & M). rewrite L, M. destruct (retry_prefix _ _ n Ccl Hrange' Hn) as [R1 R2]. auto.
    - destruct FL as (L & M). rewrite L, M. destruct (retry_partial (log_of d) e0 r j Ccl Hrange' Ces) as [R1 R2]. auto.
    - destruct FL as (L & M). rewrite L, M. rewrite s_append_below.
      replace (e0 :: r) with (firstn (length (e0 :: r)) (e0 :: r)) at 1 2 by apply firstn_all.
      destruct (retry_partial (log_of d) e0 r (length (e0 :: r)) Ccl Hrange' Ces) as [R1 R2]. auto.
    - destruct FL as (L & M). rewrite L, M, store_hs_idem. rewrite s_append_below.
      replace (e0 :: r) with (firstn (length (e0 :: r)) (e0 :: r)) at 1 2 by apply firstn_all.
      destruct (retry_partial (log_of d) e0 r (length (e0 :: r)) Ccl Hrange' Ces) as [R1 R2]. auto. }
  destruct K as (K1 & K2 & K3).
  assert (Hv : valid_op P (Save es h s) (abs d1)).
  { unfold es. cbn [valid_op]. rewrite abs_log. cbn [a_ents]. auto. }
  assert (Hsp : step_spec (Save es h s) 0 (abs d1) = step_spec (Save es h s) 0 (abs d)).
  { unfold es. cbn [step_spec]. rewrite !abs_log. cbn [a_ents a_meta]. rewrite !s_append_below, K2, K3. reflexivity. }
  split; [eauto|]. split; [exact Hv|]. split; [exact Hsp|].
  pose proof (step_save_z P HP d1 i1 Ac1 es h s J Hv) as S. unfold step_ok_z in S.
  destruct (step_disk VZeroSlots P (Save es h s) d1) as [d2 x2].
  assert (Hch : forall c, step_spec (Save es h s) c (abs d1) = step_spec (Save es h s) 0 (abs d1)) by reflexivity.
  rewrite Hch, Hsp in S. destruct (step_spec (Save es h s) 0 (abs d)) as [a' r'].
  destruct S as (_ & Ha & Hx). now subst.
Qed.

(* Process death inside the entry loop of a Save, then restart. The directory a process leaves behind when it is killed
   before the slot record of entry number j is written - whether or not the payload of that entry (any part of it) has
   arrived: a payload without its slot record is not part of any row - is the state of [save_fail .. (FEntry j _)].
   Opening it again (Init) answers with: everything below the first new index, then the first j entries of the batch,
   minus the prefix Init compacts (everything below [disk_first] of the reopened store; the statement does not bound
   it); hard state and snapshot are the old ones. *)
Theorem crash_in_loop_then_reopen : forall P, wf_params P = true -> forall d i0 Ac e0 r h s j rot,
  dinvz P i0 d Ac -> valid_batch P e0 r (log_of d) -> (j < length (e0 :: r))%nat ->
  let d1 := snd (save_fail VZeroSlots P (e0 :: r) h s (FEntry j rot) d) in
  let d2 := reopen P d1 in
  abs d2 = mkalog (drop_below (disk_first d2) (below_idx (e_index e0) (log_of d) ++ firstn j (e0 :: r))) (d_meta d)
  /\ exists i2 Ac2, dinvz P i2 d2 Ac2.
Proof.
  intros P HP d i0 Ac e0 r h s j rot Iz Hvb Hj d1 d2.
  assert (Hrep : fst (save_fail VZeroSlots P (e0 :: r) h s (FEntry j rot) d) = true).
  { unfold save_fail. apply Nat.ltb_lt in Hj. now rewrite Hj. }
  destruct (save_fail_state P HP d i0 Ac e0 r h s (FEntry j rot) Iz Hvb) as [_ FL]. destruct (FL Hrep) as (FL' & i1 & Ac1 & J).
  clear FL. rename FL' into FL.
  fold d1 in FL, J. unfold failed_log in FL. rewrite !abs_log in FL. cbn [a_ents a_meta] in FL. destruct FL as [L M].
  pose proof (step_all_z P HP Reopen d1 i1 Ac1 J Logic.I) as S. unfold step_ok_z in S. cbn [step_disk step_spec] in S.
  fold d2 in S. destruct S as (Inv & Ha & _). split; [|exact Inv].
  rewrite Ha. change (r_first (dres P d2 Ok [] 0 None)) with (disk_first d2).
  rewrite abs_log. cbn [a_ents a_meta]. now rewrite L, M.
Qed.
