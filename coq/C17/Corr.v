(* C17 correspondence evaluator: runs the disk model (all three variants) and the specification on a harness
   case and reports the first operation whose answer differs from what the implementation answered. *)
From Coq Require Import NArith List Bool.
From OG Require Import C17.Model C17.Bytes.
Import ListNotations.
Open Scope N_scope.

Definition tag_of (x l : N) : N := if l =? 0 then 0 else if l =? 1 then x mod 256 else x mod 65536.

Fixpoint seg_entries (n : nat) (f t y l g : N) : list entry :=
  match n with
  | O => []
  | S n' => mkent f t y (mkpay l (tag_of g l)) :: seg_entries n' (f + 1) t y l (g + 1)
  end.
Definition seg (f n t y l g : N) : list entry := seg_entries (N.to_nat n) f t y l g.

Definition err_of (c : N) : err :=
  match c with 0 => Ok | 1 => Compacted | 2 => Unavailable | 3 => SnapOutOfDate | _ => OtherErr end.
Definition err_eqb (a b : err) : bool :=
  match a, b with
  | Ok, Ok | Compacted, Compacted | Unavailable, Unavailable | SnapOutOfDate, SnapOutOfDate | OtherErr, OtherErr => true
  | _, _ => false
  end.

Fixpoint list_eqb {A} (eqb : A -> A -> bool) (a b : list A) : bool :=
  match a, b with
  | [], [] => true
  | x :: a', y :: b' => eqb x y && list_eqb eqb a' b'
  | _, _ => false
  end.
Definition pay_eqb (a b : payload) := (p_len a =? p_len b) && (p_tag a =? p_tag b).
Definition entry_eqb (a b : entry) :=
  (e_index a =? e_index b) && (e_term a =? e_term b) && (e_type a =? e_type b) && pay_eqb (e_data a) (e_data b).
Definition opt_eqb {A} (eqb : A -> A -> bool) (a b : option A) : bool :=
  match a, b with None, None => true | Some x, Some y => eqb x y | _, _ => false end.
Definition hs_eqb (a b : hardstate) := (hs_term a =? hs_term b) && (hs_vote a =? hs_vote b) && (hs_commit a =? hs_commit b).
Definition snap_eqb (a b : snapshot) :=
  (sn_index a =? sn_index b) && (sn_term a =? sn_term b) && opt_eqb (list_eqb N.eqb) (sn_voters a) (sn_voters b)
  && (sn_data a =? sn_data b).
Definition meta_eqb (a b : meta) := hs_eqb (m_hs a) (m_hs b) && snap_eqb (m_snap a) (m_snap b).

Definition result_eqb (a b : result) : bool :=
  err_eqb (r_err a) (r_err b) && (r_first a =? r_first b) && (r_last a =? r_last b)
  && list_eqb entry_eqb (r_ents a) (r_ents b) && (r_term a =? r_term b) && opt_eqb meta_eqb (r_meta a) (r_meta b).

(* observed answer of the implementation: (code, first, last, entries, term-or-checksum, meta) *)
Definition obs (code f l : N) (es : list entry) (t : N) (m : option meta) : result := mkres (err_of code) f l es t m.
Definition ent (i t y l g : N) : entry := mkent i t y (mkpay l g).

(* one operation of a case: an ordinary operation with the observed answer, or a Save in which the harness made one
   file-system step fail: [rep] = the Save reported an error; then the first index, last index and full-scan checksum
   of the live store right after the failure, and [want] = the answer of the retry (or of the Save itself when no
   error was reported) *)
Inductive cop :=
| Plain (o : sop) (want : result)
| Faulty (es : list entry) (h : option hardstate) (s : option snapshot) (ft : fault) (rep : bool) (ff fl fsum : N)
         (want : result)
(* raw bytes read from the directory: for entry file number [fi] (ordered by first index, empty files last) the slot records
   [st, st+n) as they lie in the file (eight bytes at a time as big-endian words), and the length words of the cells of the live ones among them; the hard state record
   at offset 512 and the two words at offset 1024 of raft.meta *)
| RawBytes (wins : list (nat * nat * nat * list N * list N)) (hsrec : list N) (snaphdr : list N)
(* DeleteBefore j in which the harness made one removal fail: i removals had been done, [rep] = the error was reported,
   [ff] = the first index of the live store right after it, [want] = the answer of the second call *)
| FaultyDel (j : N) (i : nat) (rep : bool) (ff : N) (want : result).

Definition window_bytes (f : file) (st n : nat) : list N :=
  concat (map (fun p => slot_bytes (slot_at f (N.of_nat p))) (seq st n)).
(* the same bytes taken eight at a time as big-endian words (what the harness prints): the four fields of each slot *)
Definition slot_words (s : slotrec) : list N := [s_term_ s; s_index s; s_type s; s_off s].
Definition window_words (f : file) (st n : nat) : list N :=
  concat (map (fun p => slot_words (slot_at f (N.of_nat p))) (seq st n)).
Definition window_lens (f : file) (st n : nat) : list N :=
  flat_map (fun p => let r := row_at f (N.of_nat p) in if s_index (r_slot r) =? 0 then [] else [c_lenw (r_cell r)]) (seq st n).

Definition check_bytes (d : disk) (wins : list (nat * nat * nat * list N * list N)) (hsrec snaphdr : list N) : bool :=
  let files := d_files d ++ [d_cur d] in
  forallb (fun w => let '(fi, st, n, bytes, lens) := w in
                    match nth_error files fi with
                    | Some f => list_eqb N.eqb (window_words f st n) bytes && list_eqb N.eqb (window_lens f st n) lens
                    | None => false
                    end) wins
  && list_eqb N.eqb (hs_record (m_hs (d_meta d))) hsrec
  && list_eqb N.eqb (snap_header (m_snap (d_meta d))) snaphdr.

Fixpoint check_disk (v : variant) (P : params) (i : nat) (d : disk) (ops : list cop) : option nat :=
  match ops with
  | [] => None
  | Plain o want :: r =>
      let '(d', got) := step_disk v P o d in
      if result_eqb got want then check_disk v P (S i) d' r else Some i
  | Faulty es h s ft rep ff fl fsum want :: r =>
      let '(rep', d1) := save_fail v P es h s ft d in
      if rep' then
        if negb rep then Some i else
        let '(es1, d1') := disk_all P d1 in
        if (disk_first d1' =? ff) && (disk_last P d1' =? fl) && (sum_of es1 =? fsum) then
          let '(d2, got) := step_disk v P (Save es h s) d1' in
          if result_eqb got want then check_disk v P (S i) d2 r else Some i
        else Some i
      else
        if rep then Some i else
        if result_eqb (dres P d1 Ok [] 0 None) want then check_disk v P (S i) d1 r else Some i
  | RawBytes wins hsrec snaphdr :: r =>
      if check_bytes d wins hsrec snaphdr then check_disk v P (S i) d r else Some i
  | FaultyDel j k rep ff want :: r =>
      match delete_fail P j k d with
      | Some d1 =>
          if rep && (disk_first d1 =? ff) then
            let '(d2, got) := step_disk v P (DeleteBefore j) d1 in
            if result_eqb got want then check_disk v P (S i) d2 r else Some i
          else Some i
      | None => Some i
      end
  end.

(* the specification is told the first index the implementation reported after the operation (its compaction choice);
   a failed and retried Save is one Save *)
Fixpoint check_spec (i : nat) (a : alog) (ops : list cop) : option nat :=
  match ops with
  | [] => None
  | RawBytes _ _ _ :: r => check_spec (S i) a r
  | c :: r =>
      let '(o, want) := match c with Plain o w => (o, w) | Faulty es h s _ _ _ _ _ w => (Save es h s, w)
                                     | FaultyDel j _ _ _ w => (DeleteBefore j, w)
                                     | RawBytes _ _ _ => (GetMeta, mkres Ok 0 0 [] 0 None) end in
      let '(a', got) := step_spec o (r_first want) a in
      if result_eqb got want then check_spec (S i) a' r else Some i
  end.

Definition code (x : option nat) : N := match x with None => 0 | Some i => N.of_nat (S i) end.

(* verdicts (zero-fill before 6bd4b1a, zero-fill of 6bd4b1a, ZeroSlots of fe68fb6, specification):
   0 = agrees, k+1 = first differing op k *)
Definition run_case (P : params) (ops : list cop) : N * N * N * N :=
  (code (check_disk VCurrent P 0 (empty_disk P) ops),
   code (check_disk VRepaired P 0 (empty_disk P) ops),
   code (check_disk VZeroSlots P 0 (empty_disk P) ops),
   code (check_spec 0 empty_alog ops)).

Definition run_cases (P : params) (cs : list (list cop)) : list (N * N * N * N) := map (run_case P) cs.

(* the words compared by check_bytes are the file bytes: the bytes of a window are the big-endian encodings of its words *)
Lemma window_bytes_words : forall f st n, window_bytes f st n = flat_map (be_enc 8) (window_words f st n).
Proof.
  intros f st n. unfold window_bytes, window_words. generalize st. induction n as [|n IH]; intro s0; [reflexivity|].
  cbn [seq map concat]. rewrite flat_map_app, <- IH.
  assert (E : slot_bytes (slot_at f (N.of_nat s0)) = flat_map (be_enc 8) (slot_words (slot_at f (N.of_nat s0)))).
  { unfold slot_bytes, slot_words. cbn [flat_map]. now rewrite app_nil_r. }
  now rewrite E.
Qed.
