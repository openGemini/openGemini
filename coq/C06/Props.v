(* C06 property theorems: statements closed by a lemma of the Proofs*.v files or by a few lines from them, Print
   Assumptions, and non-vacuity Examples. *)
From Coq Require Import ZArith NArith List Bool String Lia Permutation.
From OG Require Import C06.Model C06.ModelStream C06.Proofs C06.ProofsInt C06.ProofsDec C06.ProofsRender C06.ProofsStream C06.ProofsFloat C06.ProofsFloatAll C06.ProofsDecParse C06.ProofsValidGrammar C06.ModelWriter C06.ProofsWriter.
Import ListNotations.
Open Scope Z_scope.

(* escape_roundtrip: EVERY byte string - commas, spaces, '=', quotes, backslashes, UTF-8 included - survives the
   escaper of measurement / tag key / tag value / field key followed by the parser's unescaping (the escaper alone: in
   a whole line a quote in a field key is not covered, see [valid] in C06_parse_render) ... *)
Theorem C06_escape_roundtrip_tag : forall s, unescape_tag (escape_tag s) = s.
Proof. exact unescape_escape_tag. Qed.
Print Assumptions C06_escape_roundtrip_tag.

(* ... the parser finds the end of the escaped text exactly at the delimiter that follows it (space, comma, '=') ... *)
Theorem C06_escape_delimits : forall ch s r,
  is_esc ch = true -> (ch =? c_bs)%N = false ->
  split_unesc ch false (escape_tag s ++ ch :: r) = Some (escape_tag s, r).
Proof. exact split_unesc_escape_tag. Qed.
Print Assumptions C06_escape_delimits.

(* ... and every byte string survives string-field escaping (quote and backslash) and unescaping *)
Theorem C06_escape_roundtrip_str : forall s, unesc_str 0 (escape_str s) = s.
Proof. exact unesc_escape_str. Qed.
Print Assumptions C06_escape_roundtrip_str.

(* batch_reports_every_invalid_line (repaired parser, any float conversion): a refused line anywhere in a block makes
   the block report an error ... *)
Theorem C06_batch_reports_every_invalid_line : forall d s l,
  In l (split_lines s) -> parse_row d cfg_repaired l = Some Err ->
  snd (parse_batch d cfg_repaired s) = true.
Proof. intros d s l. exact (batch_repaired_reports d cfg_repaired s l eq_refl). Qed.
Print Assumptions C06_batch_reports_every_invalid_line.

(* ... hence the write endpoint stores nothing of that block (the callback returns before the points writer) ... *)
Theorem C06_invalid_line_block_rejected : forall d mult s l,
  In l (split_lines s) -> parse_row d cfg_repaired l = Some Err ->
  accept_block d cfg_repaired mult s = Err.
Proof.
  intros d mult s l Hin Hl. unfold accept_block.
  pose proof (batch_repaired_reports d cfg_repaired s l eq_refl Hin Hl) as H.
  destruct (parse_batch d cfg_repaired s) as [rows err]. cbn in H. subst err. reflexivity.
Qed.
Print Assumptions C06_invalid_line_block_rejected.

(* ... and in every configuration the rows handed on are exactly the rows of the lines that parse: a refused line
   contributes nothing (invalid_rejected_stores_nothing, batch level) *)
Theorem C06_rows_are_exactly_the_parsed_lines : forall d c s,
  fst (parse_batch d c s) = flat_map (line_rows d c) (split_lines s).
Proof. exact batch_rows_exact. Qed.
Print Assumptions C06_rows_are_exactly_the_parsed_lines.

(* the block reader may cut a request body at any newline: the rows of the body are the rows of the first block
   (newline-terminated) followed by the rows of the rest - every line is delivered exactly once, in order *)
Theorem C06_rows_independent_of_block_cut : forall d c a b,
  fst (parse_batch d c (a ++ c_nl :: b)) = fst (parse_batch d c (a ++ [c_nl])) ++ fst (parse_batch d c b).
Proof.
  intros d c a b. rewrite !batch_rows_exact. unfold split_lines. rewrite split_lines_aux_cut.
  apply flat_map_app.
Qed.
Print Assumptions C06_rows_independent_of_block_cut.

(* timestamps keep their instant: the repaired scaling by the precision factor stores exactly t * factor, and only when
   that is within int64 *)
Theorem C06_timestamp_scaled_exactly : forall mult r r',
  scale_row cfg_repaired mult r = Ok r' ->
  r_name r' = r_name r /\ r_tags r' = r_tags r /\ r_fields r' = r_fields r /\
  match r_ts r with
  | None => r_ts r' = None
  | Some t => r_ts r' = Some (t * mult) /\ t * mult <= max_int64
  end.
Proof.
  intros mult r r' H. unfold scale_row in H. destruct (r_ts r) as [t|] eqn:E.
  - cbn [cfg_repaired c_tswrap] in H. destruct (t * mult <=? max_int64) eqn:L; [|discriminate].
    inversion H; subst. cbn. apply Z.leb_le in L. auto.
  - inversion H; subst. rewrite E. auto.
Qed.
Print Assumptions C06_timestamp_scaled_exactly.

(* the body framing between the socket and the parser (ModelStream: ReadLinesBlockExt, truncateReader, the read loop of
   serveWrite).  Every statement is for EVERY schedule of buffer capacities, every max-line-size, every body. *)

(* the block reader: when it ends without an error, the data lines (non-empty lines) of the blocks it delivered, in
   order, are exactly the data lines of the body - nothing lost, nothing twice, nothing cut ... *)
Theorem C06_blocks_deliver_every_line : forall e maxline sched body bl,
  read_blocks e maxline sched [] body = (bl, true) ->
  flat_map dlines (map fst bl) = dlines body.
Proof. intros e maxline sched body bl. exact (read_blocks_complete e maxline sched [] body bl). Qed.
Print Assumptions C06_blocks_deliver_every_line.

(* ... hence, in every configuration of the parser, the rows of the blocks are the rows of the body ... *)
Theorem C06_blocks_rows_are_body_rows : forall d c e maxline sched body bl,
  read_blocks e maxline sched [] body = (bl, true) ->
  flat_map (fun b => fst (parse_batch d c b)) (map fst bl) = fst (parse_batch d c body).
Proof.
  intros d c e maxline sched body bl H. rewrite rows_dlines.
  pose proof (read_blocks_complete _ _ _ _ _ _ H) as Hc. cbn [app] in Hc. rewrite <- Hc. clear Hc H.
  induction (map fst bl) as [|b r IH]; [reflexivity|].
  cbn [flat_map]. rewrite flat_map_app, <- IH, rows_dlines. reflexivity.
Qed.
Print Assumptions C06_blocks_rows_are_body_rows.

(* ... and however the loop ends, blocks are cut at newlines of the body only: the blocks joined by newlines are a
   prefix of the body, or (regular end) the last block is the rest of the body *)
Theorem C06_blocks_cut_only_at_newlines : forall e maxline sched body bl ok,
  read_blocks e maxline sched [] body = (bl, ok) ->
  (exists Y, body = join_nl (map fst bl) ++ Y) \/
  (e = EndEOF /\ exists bl' b cap, bl = bl' ++ [(b, cap)] /\ body = join_nl (map fst bl') ++ b).
Proof.
  intros e maxline sched body bl ok H.
  destruct (read_blocks_spec _ _ _ [] _ _ _ H) as [(Y & HY & _)|R]; [left; now exists Y|right; exact R].
Qed.
Print Assumptions C06_blocks_cut_only_at_newlines.

(* the write endpoint: an acknowledged request stored exactly what accepting its whole body as one block stores (every
   line, with the value its text denotes by C06_accepted_means_written), and its body was within max-body-size *)
Theorem C06_acknowledged_write_stores_every_line : forall d limit declared gz maxline sched mult body stored,
  serve_write d cfg_repaired limit declared gz maxline sched mult body = (WAck, stored) ->
  accept_block d cfg_repaired mult body = Ok stored /\
  match stream_limit limit gz with Some n => (List.length body <= n)%nat | None => True end.
Proof. intros d limit declared gz maxline sched mult. exact (serve_write_ack d cfg_repaired eq_refl mult limit declared gz maxline sched). Qed.
Print Assumptions C06_acknowledged_write_stores_every_line.

(* conversely, the answer does not depend on how the body is cut into blocks: a body within the limits that the reader
   gets through and that is acceptable as one block is acknowledged with exactly those rows *)
Theorem C06_acceptable_body_acknowledged : forall d limit declared gz maxline sched mult body bl rows,
  match limit, declared with Some n, Some dd => (n <? dd)%nat | _, _ => false end = false ->
  match stream_limit limit gz with Some n => (List.length body <= n)%nat | None => True end ->
  read_blocks EndEOF maxline sched [] body = (bl, true) ->
  accept_block d cfg_repaired mult body = Ok rows ->
  serve_write d cfg_repaired limit declared gz maxline sched mult body = (WAck, rows).
Proof. intros d limit declared gz maxline sched mult. exact (serve_write_complete d cfg_repaired eq_refl mult limit declared gz maxline sched). Qed.
Print Assumptions C06_acceptable_body_acknowledged.

(* a streamed body (no usable Content-Length) longer than max-body-size is never acknowledged *)
Theorem C06_oversized_stream_refused : forall d n declared maxline sched mult body,
  (n < List.length body)%nat ->
  fst (serve_write d cfg_repaired (Some n) declared false maxline sched mult body) = WRefused.
Proof. intros d n declared maxline sched mult. exact (serve_write_oversized d cfg_repaired mult n declared maxline sched). Qed.
Print Assumptions C06_oversized_stream_refused.

(* whatever the answer: the data lines of the body fall into consecutive groups and a dropped remainder, and what is
   stored is, group by group, everything the group's lines denote or nothing - never a part of a line, never a row
   that is not the row of a complete line of the body *)
Theorem C06_write_stores_whole_lines_only : forall d limit declared gz maxline sched mult body st stored,
  serve_write d cfg_repaired limit declared gz maxline sched mult body = (st, stored) ->
  exists groups dropped,
    dlines body = List.concat groups ++ dropped /\ stored = flat_map (group_rows d cfg_repaired mult) groups.
Proof. intros d limit declared gz maxline sched mult. exact (serve_write_stores_whole_lines d cfg_repaired eq_refl mult limit declared gz maxline sched). Qed.
Print Assumptions C06_write_stores_whole_lines_only.

(* non-vacuity: a body of three lines read with 16-byte buffers arrives in three blocks and is acknowledged with its
   three rows; the same body against max-body-size 20 is refused and leaves the rows of its first block only *)
Example C06_example_stream :
  let body := bs "m x=1i 1" ++ [c_nl] ++ bs "m x=2i 2" ++ [c_nl] ++ bs "m x=3i 3" in
  let sched := repeat ([16; 32; 64]%nat, false) 6 in
  map fst (fst (read_blocks EndEOF 1000 sched [] body)) = [bs "m x=1i 1"; bs "m x=2i 2"; bs "m x=3i 3"] /\
  snd (read_blocks EndEOF 1000 sched [] body) = true /\
  fst (serve_write dec2f_exact cfg_repaired (Some 100%nat) None false 1000 sched 1 body) = WAck /\
  List.length (snd (serve_write dec2f_exact cfg_repaired (Some 100%nat) None false 1000 sched 1 body)) = 3%nat /\
  fst (serve_write dec2f_exact cfg_repaired (Some 20%nat) None false 1000 sched 1 body) = WRefused /\
  List.length (snd (serve_write dec2f_exact cfg_repaired (Some 20%nat) None false 1000 sched 1 body)) = 1%nat /\
  serve_write dec2f_exact cfg_repaired (Some 20%nat) (Some 26%nat) false 1000 sched 1 body = (WRefused, []).
Proof. vm_compute. repeat split. Qed.

(* the points writer's per-row glue (ModelWriter: stable sort of the fields, fixFields, schema check, partial errors) *)

(* a row with distinct keys, none of them `time`, whose field types agree with the measurement's schema, is handed on
   without an error with its measurement, tag set, timestamp and exactly its fields (a permutation: sorted by key) -
   for every schema, in every configuration of the writer (wcfg_current and wcfg_repaired alike) *)
Theorem C06_writer_clean_row_handed_on_exactly : forall c s r, clean_row s r ->
  exists s',
    writer_row c s r = (s', {| wo_err := false;
                               wo_row := Some {| r_name := r_name r; r_tags := r_tags r; r_fields := sort_fields (r_fields r); r_ts := r_ts r |} |}) /\
    Permutation (r_fields r) (sort_fields (r_fields r)).
Proof. exact writer_row_clean. Qed.
Print Assumptions C06_writer_clean_row_handed_on_exactly.

(* repaired writer, EVERY row and schema: a row that is handed on has the measurement, the whole tag set and the timestamp
   that were written; every field handed on was written; every key that was written is handed on, except keys whose type
   conflicts with the schema - and then an error is reported for the row *)
Theorem C06_writer_repaired_sound : forall s r s' o r',
  writer_row wcfg_repaired s r = (s', o) -> wo_row o = Some r' ->
  r_name r' = r_name r /\ r_tags r' = r_tags r /\ r_ts r' = r_ts r /\
  (forall f, In f (r_fields r') -> In f (r_fields r)) /\
  (forall f, In f (r_fields r) ->
     (exists f', In f' (r_fields r') /\ fst f' = fst f) \/
     (wo_err o = true /\ exists f', In f' (r_fields r) /\ fst f' = fst f /\ conflicts s f' = true)).
Proof. exact writer_row_repaired_sound. Qed.
Print Assumptions C06_writer_repaired_sound.

(* ... in particular nothing is lost silently: no error reported for a row => it is handed on with every key it was written with *)
Theorem C06_writer_repaired_no_silent_loss : forall s r s' o,
  writer_row wcfg_repaired s r = (s', o) -> wo_err o = false ->
  exists r', wo_row o = Some r' /\ r_name r' = r_name r /\ r_tags r' = r_tags r /\ r_ts r' = r_ts r /\
             (forall f, In f (r_fields r') -> In f (r_fields r)) /\
             (forall f, In f (r_fields r) -> exists f', In f' (r_fields r') /\ fst f' = fst f).
Proof. exact writer_row_repaired_no_silent_loss. Qed.
Print Assumptions C06_writer_repaired_no_silent_loss.

Example C06_example_writer :
  match accept_block dec2f_exact cfg_repaired 1 (bs "w,b=2,a=1 y=2i,x=1.5 10") with
  | Ok [r] => clean_row [] r /\
              snd (writer_row wcfg_repaired [] r) =
                {| wo_err := false;
                   wo_row := Some {| r_name := bs "w"; r_tags := [(bs "a", bs "1"); (bs "b", bs "2")];
                                     r_fields := [(bs "x", VFloat (bs "1.5") (FFin false 6755399441055744 (-52))); (bs "y", VInt 2 2)];
                                     r_ts := Some 10 |} |}
  | _ => False
  end.
Proof.
  vm_compute. split; [|reflexivity].
  repeat split; try (repeat constructor; cbn; intuition congruence); try discriminate.
Qed.

(* int_exact_iff: the int64 -> float64 -> int64 passage the code applies to every integer field (c_int53, not
   repaired in /repo) returns the integer written iff it is a 53-bit mantissa times a power of two (so: every |n| <= 2^53, and beyond that only the
   multiples of the matching power of two) *)
Theorem C06_int_exact_iff : forall n,
  in_int64 n = true -> (f64_to_z (z_to_f64 n) = n <-> representable53 n).
Proof. exact int_exact_iff. Qed.
Print Assumptions C06_int_exact_iff.

Theorem C06_int_exact_below_2_53 : forall n, Z.abs n <= 2 ^ 53 -> store_int cfg_current n = n.
Proof.
  intros n H. change (2 ^ 53) with 9007199254740992 in H.
  apply int_exact_iff.
  - unfold in_int64, min_int64, max_int64. change (2 ^ 63) with 9223372036854775808.
    apply andb_true_iff; split; apply Z.leb_le; lia.
  - destruct (Z.eq_dec (Z.abs n) 9007199254740992) as [E|E].
    + exists (if n <? 0 then -1 else 1), 53. split; [lia|]. split.
      * destruct (n <? 0); cbn; lia.
      * change (2 ^ 53) with 9007199254740992.
        destruct (n <? 0) eqn:L; [apply Z.ltb_lt in L | apply Z.ltb_ge in L]; lia.
    + exists n, 0. split; [lia|]. split; [change (2 ^ 53) with 9007199254740992; lia | cbn; lia].
Qed.
Print Assumptions C06_int_exact_below_2_53.

(* the repaired parser stores integers as written *)
Theorem C06_int_repaired_exact : forall n, store_int cfg_repaired n = n.
Proof. reflexivity. Qed.

(* accepted_means_written (repaired parser, any float conversion d): every field of an accepted line carries the
   value its text denotes under the line-protocol reference relation [denotes] - integers digit for digit, floats as
   d of the literal, booleans by spelling, strings unescaped; nothing else is ever stored *)
Theorem C06_accepted_means_written : forall d s r,
  parse_line d cfg_repaired s = Ok r ->
  Forall2 (fun seg kv => exists kraw vtxt, seg = kraw ++ c_eq :: vtxt /\ fst kv = unescape_tag kraw /\ denotes d vtxt (snd kv))
          (line_field_segments s) (r_fields r).
Proof. exact accepted_means_written. Qed.
Print Assumptions C06_accepted_means_written.

(* invalid_rejected_stores_nothing, line level, for the malformed classes:
   no field section; a field that does not parse (missing '=', empty key, bad value); a value text that denotes
   nothing (bad number, junk before 'f', unterminated quote, quote not in first position); a bad timestamp *)
Theorem C06_invalid_no_field_section : forall d c s,
  split_unesc c_sp false (drop_while is_lead_ws s) = None -> parse_line d c s = Err.
Proof.
  intros d c s H. unfold parse_line. rewrite H. reflexivity.
Qed.
Theorem C06_invalid_field : forall d c s seg,
  In seg (line_field_segments s) -> parse_field d c seg = Err -> parse_line d c s = Err.
Proof. exact bad_field_rejected. Qed.
Theorem C06_invalid_value : forall d kraw v,
  (forall x, ~ denotes d v x) -> split_unesc c_eq false (kraw ++ c_eq :: v) = Some (kraw, v) ->
  parse_field d cfg_repaired (kraw ++ c_eq :: v) = Err.
Proof. exact undenoted_value_rejected. Qed.
Theorem C06_invalid_timestamp : forall d c s mt rest0 fstr tsr,
  split_unesc c_sp false (drop_while is_lead_ws s) = Some (mt, rest0) ->
  split_unq c_sp false false (drop_while is_sp rest0) = Some (fstr, tsr) ->
  parse_ts (drop_while is_sp tsr) = Err ->
  parse_line d c s = Err.
Proof. exact bad_timestamp_rejected. Qed.
Print Assumptions C06_invalid_value.
Print Assumptions C06_invalid_timestamp.

Example C06_example_malformed :
  parse_line dec2f_exact cfg_repaired (bs "m") = Err /\
  parse_line dec2f_exact cfg_repaired (bs "m x=1.2.3") = Err /\
  parse_line dec2f_exact cfg_repaired (bs "m x=zzf") = Err /\
  parse_line dec2f_exact cfg_repaired (bs "m x=""abc") = Err /\
  parse_line dec2f_exact cfg_repaired (bs "m x=1 12a") = Err /\
  parse_line dec2f_exact cfg_repaired (bs "m x=9223372036854775808i") = Err.
Proof. vm_compute. repeat split. Qed.

(* parse of render, field level (repaired parser, ANY float conversion d): the canonical rendering of a field - key
   escaped, value in its documented spelling - parses back to exactly the key and the value it denotes *)
Theorem C06_parse_render_field : forall d k v,
  valid_key k -> valid_val d v ->
  parse_field d cfg_repaired (render_field (k, v)) = Ok (k, store_val d v).
Proof. exact parse_field_render. Qed.
Print Assumptions C06_parse_render_field.

(* parse_render (repaired parser, ANY float conversion d): for every valid point - [valid]: measurement non-empty, at most
   250 bytes, not starting with TAB or NUL; any number of tags with non-empty keys and values within the length limits;
   at least one field, keys non-empty, within the limit and WITHOUT a double quote; every int64, every valid finite float
   literal, every string, every timestamp 0..max int64 - the canonical rendering parses back to exactly that point:
   same measurement, the tags sorted by key, every field with the value it denotes, the timestamp. No premises
   beyond [valid]. *)
Theorem C06_parse_render : forall d p, valid d p -> parse_line d cfg_repaired (render p) = Ok (store d p).
Proof. exact parse_render. Qed.
Print Assumptions C06_parse_render.

(* the same with the stored floats spelled out as the correctly rounded binary64 of their literals, under the single
   hypothesis about the conversion the parser calls *)
Theorem C06_parse_render_exact : forall dec2f,
  (forall s, valid_number s = true -> dec2f s = dec2f_exact s) ->
  forall p, valid dec2f p -> parse_line dec2f cfg_repaired (render p) = Ok (store dec2f_exact p).
Proof.
  intros dec2f Hc p H. rewrite (parse_render dec2f p H). unfold store. do 2 f_equal.
  destruct H as (_ & _ & _ & Hf & _). induction Hf as [|[k v] r (_ & _ & Hv) _ IH]; [reflexivity|].
  cbn [map]. rewrite IH. unfold store_field. cbn [fst snd]. do 2 f_equal.
  destruct v as [n|lit|b|s]; cbn [store_val]; try reflexivity. destruct Hv as [Hv _]. now rewrite (Hc lit Hv).
Qed.
Print Assumptions C06_parse_render_exact.

(* 64-bit integers keep every digit, timestamps too: the decimal round trips, for every value *)
Theorem C06_int_decimal_roundtrip : forall n, in_int64 n = true -> parse_int64 (render_int n) = Ok n.
Proof. exact parse_int64_render_int. Qed.
Theorem C06_ts_decimal_roundtrip : forall t, 0 <= t <= max_int64 -> parse_ts (render_nat t) = Ok (Some t).
Proof. exact parse_ts_render_nat. Qed.
Print Assumptions C06_ts_decimal_roundtrip.

Theorem C06_parse_render_tag : forall k v,
  k <> [] -> v <> [] -> (List.length k <= max_key_len)%nat -> (Z.of_nat (List.length v) <= max_tagval_len) ->
  parse_tag (escape_tag k ++ c_eq :: escape_tag v) = Ok (Some (k, v)).
Proof. exact parse_tag_render. Qed.

(* floats keep their exact value: under the single hypothesis that the conversion the parser calls is the correctly
   rounded one, an accepted float literal is stored as the correctly rounded binary64 of its text *)
Theorem C06_float_stored_correctly_rounded : forall dec2f,
  (forall s, valid_number s = true -> dec2f s = dec2f_exact s) ->
  forall lit, valid_number lit = true -> f64_is_finite (dec2f_exact lit) = true ->
  parse_value dec2f cfg_repaired lit = Ok (VFloat lit (dec2f_exact lit)).
Proof.
  intros dec2f Hc lit Hv Hf.
  pose proof (parse_value_render dec2f (PFloat lit)) as H. cbn [valid_val render_val store_val] in H.
  rewrite (Hc lit Hv) in H. apply H. split; assumption.
Qed.
Print Assumptions C06_float_stored_correctly_rounded.

(* the reference conversion itself: dec2f_exact hands the literal's value, as a ratio of integers, to round_ratio; for every
   positive ratio round_ratio finds the binade (2^e <= num/den < 2^(e+1), written by cross-multiplication with An/Bd) and
   returns num/den rounded to the nearest multiple q * 2^sh of the spacing 2^sh = 2^max(e-52,-1074) binary64 has there,
   ties to the even q, normalised (2^52 <= q unless subnormal; q = 2^53 moves to the next binade), infinite beyond the
   largest exponent - i.e. the correctly rounded binary64.  (dec2f_exact decides literals of at least 10^310 / below
   10^-400 from their digit count without this function: C06_dec2f_shortcuts_sound below.) *)
Theorem C06_dec2f_round_ratio_correct : forall neg num den, 0 < num -> 0 < den ->
  exists e q,
    let sh := Z.max (e - 52) (-1074) in
    (Bd den e <= An num e /\ An num (e + 1) < Bd den (e + 1)) /\
    nearest_even (An num sh) (Bd den sh) q /\
    0 <= q <= 2 ^ 53 /\ (-1074 <= e - 52 -> 2 ^ 52 <= q) /\
    round_ratio neg num den =
      (if q =? 2 ^ 53 then (if 971 <? sh + 1 then FInf neg else FFin neg (2 ^ 52) (sh + 1))
       else if 971 <? sh then FInf neg else FFin neg q sh).
Proof. exact round_ratio_correct. Qed.
Print Assumptions C06_dec2f_round_ratio_correct.

(* floats keep their exact value, the reference side with NO premise: for EVERY text, dec2f_exact - the value every stored
   float is compared with on every run - is zero with the literal's sign when the mantissa is zero, and otherwise the
   binary64 nearest to mantissa * 10^(exponent - number of fraction digits) among ALL binary64 values (distances in units
   of 2^-1074, times den), or infinity exactly from the IEEE overflow threshold (2^53 - 1/2) * 2^971 on.  The magnitude
   shortcuts of dec2f_exact are proved away (C06_dec2f_shortcuts_sound). *)
Theorem C06_dec2f_exact_nearest_binary64 : forall s,
  let d := dec_parse s in
  if d_mant d =? 0 then dec2f_exact s = f64_zero (d_neg d)
  else
    let num := fst (dec_ratio d) in let den := snd (dec_ratio d) in
    0 < num /\ 0 < den /\
    match dec2f_exact s with
    | FFin sg m ex =>
        sg = d_neg d /\ 0 <= m < 2 ^ 53 /\ -1074 <= ex <= 971 /\
        forall m2 e2, 0 <= m2 < 2 ^ 53 -> -1074 <= e2 <= 971 ->
          Z.abs (num * 2 ^ 1074 - m * 2 ^ (ex + 1074) * den) <= Z.abs (num * 2 ^ 1074 - m2 * 2 ^ (e2 + 1074) * den)
    | FInf sg => sg = d_neg d /\ (2 ^ 54 - 1) * 2 ^ 2044 * den <= num * 2 ^ 1074
    | FNaN => False
    end.
Proof.
  intro s. cbv zeta. rewrite dec2f_exact_full. unfold dec2f_full.
  destruct (Z.eqb_spec (d_mant (dec_parse s)) 0) as [|Z0]; [reflexivity|].
  destruct (dec_ratio_pos (dec_parse s)) as [Hn Hd]; [pose proof (dec_mant_nonneg s); lia|].
  exact (conj Hn (conj Hd (round_ratio_nearest 1074 _ _ _ (Z.le_refl _) Hn Hd))).
Qed.
Print Assumptions C06_dec2f_exact_nearest_binary64.

Theorem C06_dec2f_shortcuts_sound : forall s, dec2f_exact s = dec2f_full s.
Proof. exact dec2f_exact_full. Qed.
Print Assumptions C06_dec2f_shortcuts_sound.

(* dec_parse against the grammar of decimal literals  [sign] digits [. digits] [(e|E) [sign] digits]  (the integer digits may be
   missing when there are fraction digits): it returns the sign, the value of the integer and fraction digits read as one number,
   the number of fraction digits, the exponent's sign and value - so dec_ratio is the decimal value of the literal *)
Theorem C06_dec_parse_int : forall sg I, all_digits I = true ->
  dec_parse (sign_text sg ++ I) = mk (sign_neg sg) (dec_val I) 0 false 0.
Proof.
  intros sg I HI. pose proof (dec_parse_literal sg I None None HI eq_refl Logic.I) as H.
  unfold mtext, etext, frac_of in H. rewrite !app_nil_r in H. exact H.
Qed.
Theorem C06_dec_parse_point : forall sg I F, all_digits I = true -> all_digits F = true ->
  dec_parse (sign_text sg ++ I ++ c_dot :: F) = mk (sign_neg sg) (dec_val (I ++ F)) (Z.of_nat (List.length F)) false 0.
Proof.
  intros sg I F HI HF. pose proof (dec_parse_literal sg I (Some F) None HI HF Logic.I) as H.
  unfold mtext, etext in H. rewrite app_nil_r in H. exact H.
Qed.
Theorem C06_dec_parse_point_exp : forall sg I F ec es X,
  all_digits I = true -> all_digits F = true -> all_digits X = true -> (I <> [] \/ F <> []) -> is_e ec = true ->
  dec_parse (sign_text sg ++ I ++ c_dot :: F ++ ec :: sign_text es ++ X) =
  mk (sign_neg sg) (dec_val (I ++ F)) (Z.of_nat (List.length F)) (sign_neg es) (dec_val X).
Proof.
  intros sg I F ec es X HI HF HX Hne He.
  pose proof (dec_parse_literal sg I (Some F) (Some (ec, es, X)) HI HF) as H.
  unfold mtext, etext in H. rewrite <- !app_assoc in H. apply H. repeat split; auto.
  cbn [frac_of]. destruct I; [destruct Hne as [[]|Hne]; [reflexivity|exact Hne]|discriminate].
Qed.
Theorem C06_dec_parse_int_exp : forall sg I ec es X,
  all_digits I = true -> all_digits X = true -> I <> [] -> is_e ec = true ->
  dec_parse (sign_text sg ++ I ++ ec :: sign_text es ++ X) = mk (sign_neg sg) (dec_val I) 0 (sign_neg es) (dec_val X).
Proof.
  intros sg I ec es X HI HX Hne He.
  pose proof (dec_parse_literal sg I None (Some (ec, es, X)) HI eq_refl) as H.
  unfold mtext, etext, frac_of in H. rewrite !app_nil_r, <- !app_assoc in H. apply H. auto.
Qed.
Print Assumptions C06_dec_parse_point_exp.

(* ... and every text IsValidNumber accepts is a literal of that grammar (so the four theorems above give the value of every
   float literal the parser can accept) *)
Theorem C06_valid_number_is_grammar_literal : forall s, valid_number s = true ->
  exists sg I, all_digits I = true /\
    ((I <> [] /\ s = sign_text sg ++ I) \/
     (exists F, all_digits F = true /\ (I <> [] \/ F <> []) /\ s = sign_text sg ++ I ++ c_dot :: F) \/
     (exists ec es X, I <> [] /\ is_e ec = true /\ all_digits X = true /\ X <> [] /\ s = sign_text sg ++ I ++ ec :: sign_text es ++ X) \/
     (exists F ec es X, all_digits F = true /\ (I <> [] \/ F <> []) /\ is_e ec = true /\ all_digits X = true /\ X <> [] /\
                        s = sign_text sg ++ I ++ c_dot :: F ++ ec :: sign_text es ++ X)).
Proof. exact valid_number_grammar. Qed.
Print Assumptions C06_valid_number_is_grammar_literal.

Example C06_example_round_ratio :
  round_ratio false 1 10 = FFin false 7205759403792794 (-56) /\                 (* 0.1 = 0x1.999999999999ap-4 *)
  dec2f_exact (bs "0.1") = FFin false 7205759403792794 (-56) /\
  dec2f_exact (bs "9007199254740993") = FFin false 4503599627370496 1 /\      (* 2^53 + 1: a tie, to even *)
  dec2f_exact (bs "4.9e-324") = FFin false 1 (-1074) /\
  dec2f_exact (bs "2.4703282292062327e-324") = FFin false 0 (-1074) /\        (* just below half the smallest subnormal *)
  dec2f_exact (bs "2.4703282292062328e-324") = FFin false 1 (-1074) /\
  dec2f_exact (bs "1.7976931348623159e308") = FInf false.
Proof.
  (* each significand is confirmed by dec_round, which multiplies where dec2f_exact divides *)
  split; [vm_compute; reflexivity|].
  split; [apply (dec_round_sound _ 7205759403792794); vm_compute; reflexivity|].
  split; [apply (dec_round_sound _ 4503599627370496); vm_compute; reflexivity|].
  split; [apply (dec_round_sound _ 1); vm_compute; reflexivity|].
  split; [apply (dec_round_sound _ 0); vm_compute; reflexivity|].
  split; [apply (dec_round_sound _ 1); vm_compute; reflexivity|].
  apply (dec_round_sound _ (2 ^ 53)); vm_compute; reflexivity.
Qed.

(* the hypothesis about the conversion is satisfiable: by the exact conversion itself *)
Example C06_dec2f_hypothesis_satisfiable : forall s, valid_number s = true -> dec2f_exact s = dec2f_exact s.
Proof. reflexivity. Qed.
Example C06_valid_satisfiable :
  valid dec2f_exact
    {| p_name := bs "m 1"; p_tags := [(bs "t=k", bs "v,w"); (bs "a", bs "\")];
       p_fields := [(bs "s", PStr (bs "q"" e\")); (bs "i", PInt (-9223372036854775808)); (bs "f", PFloat (bs "2.5e-1")); (bs "b", PBool true)];
       p_ts := 9223372036854775807 |}.
Proof.
  unfold valid. cbn [p_name p_tags p_fields p_ts]. split; [|split; [|split; [|split]]].
  - unfold valid_name. split; [discriminate|]. split; [vm_compute; lia|]. split; reflexivity.
  - constructor; [|constructor; [|constructor]]; unfold valid_tag; cbn [fst snd];
      (split; [discriminate|split; [discriminate|split; [vm_compute; lia|apply Z.leb_le; reflexivity]]]).
  - discriminate.
  - constructor; [|constructor; [|constructor; [|constructor; [|constructor]]]];
      unfold valid_pfield, valid_key, no_quote; cbn [fst snd valid_pval];
      (split; [split; [discriminate|vm_compute; lia]|split; [repeat constructor|]]).
    + exact I.
    + reflexivity.
    + split; vm_compute; reflexivity.
    + exact I.
  - unfold max_int64. change (2 ^ 63) with 9223372036854775808. lia.
Qed.
Example C06_example_render :
  render {| p_name := bs "m 1"; p_tags := [(bs "t=k", bs "v,w")];
            p_fields := [(bs "s", PStr (bs "q"" e\")); (bs "i", PInt (-42)); (bs "f", PFloat (bs "2.5e-1"))]; p_ts := 7 |}
  = bs "m\ 1,t\=k=v\,w s=""q\"" e\\"",i=-42i,f=2.5e-1 7".
Proof. vm_compute. reflexivity. Qed.

(* non-vacuity: a line using every escape form parses to the point it denotes *)
Example C06_example_escapes :
  parse_line dec2f_exact cfg_repaired (bs "m\ 1\,a,t\=k=v\\\,w s=""q\""\\ e"",i=-42i,b=T,f=2.5e-1 1600000000000000000") =
  Ok {| r_name := bs "m 1,a"; r_tags := [(bs "t=k", bs "v\,w")];
        r_fields := [(bs "s", VStr (bs "q""\ e")); (bs "i", VInt (-42) (-42)); (bs "b", VBool true);
                     (bs "f", VFloat (bs "2.5e-1") (FFin false 4503599627370496 (-54)))];
        r_ts := Some 1600000000000000000 |}.
Proof. vm_compute. reflexivity. Qed.
