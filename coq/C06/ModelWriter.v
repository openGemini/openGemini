(* C06 - executable model of what the points writer does to a parsed row before it is routed to a shard.

   Mirrors coordinator/points_writer.go (routeAndMapOriginRows: sort.Stable of the fields, fixFields, the partial-error /
   dropped-row decision) and coordinator/write_helper.go (updateSchemaIfNeeded, updateSchemaCheck: a tag named `time` is
   taken off the row, CheckDuplicateTag, new tags and fields enter the schema, a field whose type differs from the
   schema's is taken off the row, a row left without fields is dropped).  Time-series engine, schema cleaning off
   (the defaults).  [wcfg] selects per finding between the behaviour when it was found (true) and the repair (false);
   /repo carries the repair of w_timetag (commit 4067963: a point with a tag named time is refused), not that of
   w_timefield. *)
From Coq Require Import ZArith NArith List Bool.
From OG Require Import C06.Model.
Import ListNotations.
Open Scope Z_scope.

Definition field := (bytes * fval)%type.

(* influx.Field_Type_* (compared with the source on every run) *)
Definition ty_int : Z := 1.
Definition ty_float : Z := 3.
Definition ty_string : Z := 4.
Definition ty_bool : Z := 5.
Definition ty_tag : Z := 6.
Definition ftype (v : fval) : Z :=
  match v with
  | VInt _ _ => ty_int
  | VFloat _ _ | VFloatBits _ | VFloatJunk => ty_float
  | VStr _ => ty_string
  | VBool _ => ty_bool
  end.

Definition time_key : bytes := [116; 105; 109; 101]%N.      (* "time" *)
Definition is_time (k : bytes) : bool := list_beq k time_key.

Record wcfg := {
  w_timefield : bool;   (* a field named time is taken off the row silently *)
  w_timetag : bool      (* a tag named time is taken off the row and the rest of the row is stored although an error is reported *)
}.
Definition wcfg_current : wcfg := {| w_timefield := true; w_timetag := true |}.
Definition wcfg_repaired : wcfg := {| w_timefield := false; w_timetag := false |}.

(* sort.Stable(&r.Fields): by key, equal keys keep their order *)
Fixpoint insert_field (t : field) (l : list field) : list field :=
  match l with
  | [] => [t]
  | u :: r => if bytes_leb (fst t) (fst u) then t :: l else u :: insert_field t r
  end.
Definition sort_fields (l : list field) : list field := fold_right insert_field [] l.

(* fixFields on the sorted fields; [prev] = the last field kept so far.  A `time` field is skipped (repaired: refuses the
   row); of neighbours with one key the later one stays when the types agree, otherwise the row is refused. *)
Fixpoint fix_go (c : wcfg) (prev : option field) (fs : list field) : result (list field) :=
  match fs with
  | [] => Ok (match prev with Some p => [p] | None => [] end)
  | f :: r =>
      if is_time (fst f) then (if w_timefield c then fix_go c prev r else Err)
      else match prev with
           | None => fix_go c (Some f) r
           | Some p =>
               if list_beq (fst p) (fst f) then
                 (if ftype (snd p) =? ftype (snd f) then fix_go c (Some f) r else Err)
               else bind (fix_go c (Some f) r) (fun l => Ok (p :: l))
           end
  end.
Definition fix_fields (c : wcfg) (fs : list field) : result (list field) := fix_go c None (sort_fields fs).

(* the schema of the measurement: key -> type *)
Definition schema := list (bytes * Z).
Fixpoint sch_get (s : schema) (k : bytes) : option Z :=
  match s with [] => None | (k', t) :: r => if list_beq k' k then Some t else sch_get r k end.
Definition sch_add (s : schema) (k : bytes) (t : Z) : schema :=
  match sch_get s k with Some _ => s | None => s ++ [(k, t)] end.

(* CheckDuplicateTag over the (sorted) tags: two neighbours with one key, the first of which is not `time` *)
Fixpoint has_dup_tag (tags : list (bytes * bytes)) : bool :=
  match tags with
  | t :: ((u :: _) as r) => (negb (is_time (fst t)) && list_beq (fst t) (fst u)) || has_dup_tag r
  | _ => false
  end.

Definition conflicts (s : schema) (f : field) : bool :=
  match sch_get s (fst f) with Some t => negb (t =? ftype (snd f)) | None => false end.

Record wout := { wo_err : bool; wo_row : option row }.    (* an error is reported for the row; what is handed on to be stored *)

Definition sch_add_tags (s : schema) (tags : list (bytes * bytes)) : schema :=
  fold_left (fun s t => sch_add s (fst t) ty_tag) tags s.
Definition sch_add_fields (s : schema) (fs : list field) : schema :=
  fold_left (fun s f => sch_add s (fst f) (ftype (snd f))) fs s.

(* one row through the writer *)
Definition writer_row (c : wcfg) (s : schema) (r : row) : schema * wout :=
  let dropped := (s, {| wo_err := true; wo_row := None |}) in
  match fix_fields c (r_fields r) with
  | Err => dropped
  | Ok fs =>
      if has_dup_tag (r_tags r) then dropped
      else
        let timetag := existsb (fun t => is_time (fst t)) (r_tags r) in
        let tags := filter (fun t => negb (is_time (fst t))) (r_tags r) in
        let keep := filter (fun f => negb (conflicts s f)) fs in
        let conflict := existsb (conflicts s) fs in
        match keep with
        | [] =>
            (* every field conflicts with the schema: the row is dropped before the schema is touched.  No field at all
               (all of them were named time): the tags still enter the schema, and the row without fields is refused
               further down ("point without fields is unsupported") *)
            match fs with
            | [] => (sch_add_tags s tags, {| wo_err := true; wo_row := None |})
            | _ => dropped
            end
        | _ =>
            let s' := sch_add_fields (sch_add_tags s tags) keep in
            let r' := {| r_name := r_name r; r_tags := tags; r_fields := keep; r_ts := r_ts r |} in
            if timetag && negb (w_timetag c) then (s', {| wo_err := true; wo_row := None |})
            else (s', {| wo_err := timetag || conflict; wo_row := Some r' |})
        end
  end.

(* a request's rows, one after the other, against the evolving schema *)
Fixpoint writer_rows (c : wcfg) (s : schema) (rows : list row) : schema * list wout :=
  match rows with
  | [] => (s, [])
  | r :: rest => let '(s1, o) := writer_row c s r in
                 let '(s2, os) := writer_rows c s1 rest in (s2, o :: os)
  end.
