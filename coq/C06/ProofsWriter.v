(* C06 - the points writer's per-row glue: proofs about ModelWriter. *)
From Coq Require Import ZArith NArith List Bool Permutation.
From OG Require Import C06.Model C06.ModelWriter C06.Proofs.
Import ListNotations.
Open Scope Z_scope.

Lemma insert_field_perm : forall t l, Permutation (t :: l) (insert_field t l).
Proof.
  induction l as [|u r IH]; [reflexivity|]. cbn [insert_field].
  destruct (bytes_leb (fst t) (fst u)); [reflexivity|].
  rewrite perm_swap. now apply perm_skip.
Qed.

Lemma sort_fields_perm : forall l, Permutation l (sort_fields l).
Proof.
  induction l as [|t r IH]; [reflexivity|]. cbn [sort_fields fold_right].
  rewrite <- insert_field_perm. now apply perm_skip.
Qed.

Definition opt_list (p : option field) : list field := match p with Some x => [x] | None => [] end.

Lemma fix_go_subset : forall c fs prev out, fix_go c prev fs = Ok out ->
  forall f, In f out -> In f (opt_list prev ++ fs).
Proof.
  intros c fs. induction fs as [|x r IH]; intros prev out H f Hin.
  - cbn in H. inversion H; subst. now rewrite app_nil_r.
  - cbn [fix_go] in H. destruct (is_time (fst x)).
    + destruct (w_timefield c); [|discriminate]. specialize (IH _ _ H f Hin).
      apply in_app_or in IH. apply in_or_app. destruct IH; [now left|right; now right].
    + destruct prev as [p|].
      * destruct (list_beq (fst p) (fst x)).
        -- destruct (ftype (snd p) =? ftype (snd x)); [|discriminate].
           specialize (IH _ _ H f Hin). cbn [opt_list app] in IH. destruct IH as [E|E]; apply in_or_app; right; [left|right]; assumption.
        -- destruct (fix_go c (Some x) r) as [l|] eqn:E; [|discriminate]. cbn in H. inversion H; subst.
           destruct Hin as [Hp|Hl]; [subst; now left|].
           specialize (IH _ _ E f Hl). cbn [opt_list app] in IH. apply in_or_app; right. exact IH.
      * specialize (IH _ _ H f Hin). exact IH.
Qed.

Lemma list_beq_refl : forall a, list_beq a a = true.
Proof. induction a as [|x a IH]; [reflexivity|]. cbn. now rewrite N.eqb_refl. Qed.

(* repaired: every key that went in comes out (under the same key; of several fields with one key the last one) *)
Lemma fix_go_keys_repaired : forall fs prev out, fix_go wcfg_repaired prev fs = Ok out ->
  forall f, In f (opt_list prev ++ fs) -> exists f', In f' out /\ fst f' = fst f.
Proof.
  induction fs as [|x r IH]; intros prev out H f Hin.
  - cbn in H. inversion H; subst. rewrite app_nil_r in Hin. exists f. split; [exact Hin|reflexivity].
  - cbn [fix_go] in H. destruct (is_time (fst x)); [discriminate|].
    destruct prev as [p|].
    + destruct (list_beq (fst p) (fst x)) eqn:K.
      * destruct (ftype (snd p) =? ftype (snd x)); [|discriminate].
        apply list_beq_eq in K. cbn [opt_list app] in Hin.
        destruct Hin as [E|[E|E]].
        -- subst f. destruct (IH _ _ H x (or_introl eq_refl)) as (f' & I & Kf). exists f'. split; [exact I|congruence].
        -- subst f. exact (IH _ _ H x (or_introl eq_refl)).
        -- exact (IH _ _ H f (or_intror E)).
      * destruct (fix_go wcfg_repaired (Some x) r) as [l|] eqn:E; [|discriminate]. cbn in H. inversion H; subst.
        cbn [opt_list app] in Hin. destruct Hin as [Ef|Hr].
        -- subst. exists f. split; [now left|reflexivity].
        -- destruct (IH _ _ E f Hr) as (f' & I & Kf). exists f'. split; [now right|exact Kf].
    + exact (IH _ _ H f Hin).
Qed.

Lemma fix_go_distinct : forall c fs prev,
  NoDup (map fst (opt_list prev ++ fs)) -> Forall (fun f => is_time (fst f) = false) fs ->
  fix_go c prev fs = Ok (opt_list prev ++ fs).
Proof.
  intros c fs. induction fs as [|x r IH]; intros prev Hnd Ht.
  - cbn. now rewrite app_nil_r.
  - inversion Ht as [|? ? Hx Hr]; subst. cbn [fix_go]. rewrite Hx.
    destruct prev as [p|]; cbn [opt_list app] in *.
    + destruct (list_beq (fst p) (fst x)) eqn:K.
      * apply list_beq_eq in K. inversion Hnd as [|? ? Hn _]; subst. exfalso. apply Hn. cbn. now left.
      * inversion Hnd as [|? ? _ Hnd']; subst. rewrite (IH (Some x) Hnd' Hr). reflexivity.
    + exact (IH (Some x) Hnd Hr).
Qed.

Theorem fix_fields_distinct : forall c fs,
  NoDup (map fst fs) -> Forall (fun f => is_time (fst f) = false) fs ->
  fix_fields c fs = Ok (sort_fields fs) /\ Permutation fs (sort_fields fs).
Proof.
  intros c fs Hnd Ht. pose proof (sort_fields_perm fs) as P. split; [|exact P].
  unfold fix_fields. rewrite (fix_go_distinct c (sort_fields fs) None).
  - reflexivity.
  - cbn [opt_list app]. eapply Permutation_NoDup; [apply Permutation_map; exact P|exact Hnd].
  - eapply Permutation_Forall; [exact P|exact Ht].
Qed.

Definition clean_row (s : schema) (r : row) : Prop :=
  NoDup (map fst (r_fields r)) /\ Forall (fun f => is_time (fst f) = false) (r_fields r) /\
  r_fields r <> [] /\
  has_dup_tag (r_tags r) = false /\ Forall (fun t => is_time (fst t) = false) (r_tags r) /\
  Forall (fun f => conflicts s f = false) (r_fields r).

Lemma filter_all : forall (A : Type) (p : A -> bool) l, Forall (fun x => p x = true) l -> filter p l = l.
Proof. intros A p l H. induction H as [|x l Hx _ IH]; [reflexivity|]. cbn. now rewrite Hx, IH. Qed.

Lemma existsb_none : forall (A : Type) (p : A -> bool) l, Forall (fun x => p x = false) l -> existsb p l = false.
Proof. intros A p l H. induction H as [|x l Hx _ IH]; [reflexivity|]. cbn. now rewrite Hx, IH. Qed.

(* a row with distinct keys, none of them `time`, whose types agree with the schema, is handed on without an error with
   its measurement, tags and timestamp and exactly its fields (sorted by key) - in every configuration of the writer *)
Theorem writer_row_clean : forall c s r, clean_row s r ->
  exists s',
    writer_row c s r = (s', {| wo_err := false;
                               wo_row := Some {| r_name := r_name r; r_tags := r_tags r; r_fields := sort_fields (r_fields r); r_ts := r_ts r |} |}) /\
    Permutation (r_fields r) (sort_fields (r_fields r)).
Proof.
  intros c s r (Hnd & Ht & Hne & Hdup & Htt & Hc).
  destruct (fix_fields_distinct c (r_fields r) Hnd Ht) as [Hfix P].
  unfold writer_row. rewrite Hfix, Hdup.
  assert (Hc' : Forall (fun f => conflicts s f = false) (sort_fields (r_fields r))) by (eapply Permutation_Forall; eauto).
  rewrite (existsb_none _ _ _ Htt), (existsb_none _ _ _ Hc').
  rewrite (filter_all _ (fun t => negb (is_time (fst t))) (r_tags r)).
  2:{ eapply Forall_impl; [|exact Htt]. cbn. intros a Ha. now rewrite Ha. }
  rewrite (filter_all _ (fun f => negb (conflicts s f)) (sort_fields (r_fields r))).
  2:{ eapply Forall_impl; [|exact Hc']. cbn. intros a Ha. now rewrite Ha. }
  destruct (sort_fields (r_fields r)) as [|x l] eqn:E.
  - exfalso. apply Hne. apply Permutation_sym in P. now apply Permutation_nil in P.
  - eexists. split; [reflexivity|exact P].
Qed.

(* repaired writer, every row, every schema: a row that is handed on keeps its measurement, its whole tag set and its
   timestamp; every field handed on is a field that was written; and every key that was written is handed on (of several
   fields with one key one of them) unless an error is reported for the row and that key's type conflicts with the
   schema.  In particular: no error reported => nothing was lost. *)
Theorem writer_row_repaired_sound : forall s r s' o r',
  writer_row wcfg_repaired s r = (s', o) -> wo_row o = Some r' ->
  r_name r' = r_name r /\ r_tags r' = r_tags r /\ r_ts r' = r_ts r /\
  (forall f, In f (r_fields r') -> In f (r_fields r)) /\
  (forall f, In f (r_fields r) ->
     (exists f', In f' (r_fields r') /\ fst f' = fst f) \/
     (wo_err o = true /\ exists f', In f' (r_fields r) /\ fst f' = fst f /\ conflicts s f' = true)).
Proof.
  intros s r s' o r' H Hr. unfold writer_row in H.
  destruct (fix_fields wcfg_repaired (r_fields r)) as [fs|] eqn:F; [|inversion H; subst; discriminate].
  destruct (has_dup_tag (r_tags r)); [inversion H; subst; discriminate|].
  set (tags := filter (fun t => negb (is_time (fst t))) (r_tags r)) in *.
  set (keep := filter (fun f => negb (conflicts s f)) fs) in *.
  destruct keep as [|k0 kr] eqn:K.
  { destruct fs; inversion H; subst; discriminate. }
  destruct (existsb (fun t => is_time (fst t)) (r_tags r)) eqn:T; cbn [andb negb wcfg_repaired w_timetag] in H.
  { inversion H; subst. discriminate. }
  inversion H; subst. cbn [wo_row] in Hr. inversion Hr; subst. cbn [r_name r_tags r_ts r_fields wo_err].
  assert (Htags : tags = r_tags r).
  { unfold tags. apply filter_all. apply Forall_forall. intros t Ht.
    destruct (is_time (fst t)) eqn:E; [|reflexivity]. exfalso.
    assert (existsb (fun t => is_time (fst t)) (r_tags r) = true) by (apply existsb_exists; exists t; auto). congruence. }
  split; [reflexivity|]. split; [exact Htags|]. split; [reflexivity|].
  unfold fix_fields in F. pose proof (sort_fields_perm (r_fields r)) as P.
  split.
  - intros f Hin. rewrite <- K in Hin. apply filter_In in Hin. destruct Hin as [Hin _].
    pose proof (fix_go_subset _ _ _ _ F f Hin) as Hs. cbn [opt_list app] in Hs.
    eapply Permutation_in; [apply Permutation_sym; exact P|exact Hs].
  - intros f Hin.
    assert (Hs : In f (opt_list None ++ sort_fields (r_fields r))) by (cbn; eapply Permutation_in; eauto).
    destruct (fix_go_keys_repaired _ _ _ F f Hs) as (f' & Hf' & Kf).
    destruct (conflicts s f') eqn:C.
    + right. split.
      * cbn [orb]. apply existsb_exists. exists f'. auto.
      * exists f'. split; [|auto].
        pose proof (fix_go_subset _ _ _ _ F f' Hf') as Hs'. cbn [opt_list app] in Hs'.
        eapply Permutation_in; [apply Permutation_sym; exact P|exact Hs'].
    + left. exists f'. split; [|exact Kf]. rewrite <- K. apply filter_In. split; [exact Hf'|now rewrite C].
Qed.

Lemma writer_row_dropped_err : forall c s r s' o, writer_row c s r = (s', o) -> wo_row o = None -> wo_err o = true.
Proof.
  intros c s r s' o H. unfold writer_row in H.
  destruct (fix_fields c (r_fields r)) as [fs|]; [|now inversion H].
  destruct (has_dup_tag (r_tags r)); [now inversion H|].
  destruct (filter (fun f => negb (conflicts s f)) fs); [destruct fs; now inversion H|].
  destruct (existsb (fun t => is_time (fst t)) (r_tags r) && negb (w_timetag c)); inversion H; [reflexivity|discriminate].
Qed.

(* repaired: when no error is reported for a row it is handed on and every written key is in it *)
Corollary writer_row_repaired_no_silent_loss : forall s r s' o,
  writer_row wcfg_repaired s r = (s', o) -> wo_err o = false ->
  exists r', wo_row o = Some r' /\ r_name r' = r_name r /\ r_tags r' = r_tags r /\ r_ts r' = r_ts r /\
             (forall f, In f (r_fields r') -> In f (r_fields r)) /\
             (forall f, In f (r_fields r) -> exists f', In f' (r_fields r') /\ fst f' = fst f).
Proof.
  intros s r s' o H He. destruct (wo_row o) as [r'|] eqn:Hr; [|rewrite (writer_row_dropped_err _ _ _ _ _ H Hr) in He; discriminate].
  exists r'. split; [reflexivity|].
  destruct (writer_row_repaired_sound _ _ _ _ _ H Hr) as (A & B & C & D & E).
  repeat (split; [assumption|]). intros f Hin. destruct (E f Hin) as [X|[X _]]; [exact X|congruence].
Qed.
