(* C06 - executable model of the line-protocol write path of openGemini.

   Mirrors lib/util/lifted/vm/protoparser/influx/parser.go (Row.unmarshal, unmarshalTags, Tag.unmarshal,
   unmarshalInfluxFields, Field.unmarshal, unescapeTagValue, parseFieldStrValue, parseFieldNumValue,
   nextUnescapedChar, nextUnquotedChar, nextTimestamp, unmarshalRows, unmarshalRow), valid_number.go
   (IsValidNumber), streamparser.go (unmarshalWork.Unmarshal: CheckValid and timestamp scaling) and
   lib/record/record_group.go (AppendFieldToCol: every non-string value travels as float64 and is converted
   back by declared type).

   Bytes are N (< 256 for well-formed input; nothing depends on the bound).  Definitions only; total; computable.

   A configuration record [cfg] selects, defect by defect, between the behaviour the code had when the defect was found
   ([true]) and the minimal repair ([false]); [cfg_current] is the code before any of the repairs, [cfg_repaired] the
   repaired parser.  /repo carries the repairs of all flags but c_int53 (known_findings.json: commits 42f1282, 3f8fcbd,
   8629b74, 422a977, 31db7b0): parseFieldNumValue now calls IsValidNumber and strconv.ParseFloat, unmarshalRows keeps the
   first error, Unmarshal tests the timestamp against MaxInt64 / tsMultiplier. *)
From Coq Require Import ZArith NArith List Bool.
Import ListNotations.
Open Scope Z_scope.

Definition bytes := list N.

Inductive result (A : Type) : Type := Ok (a : A) | Err.
Arguments Ok {A} a.
Arguments Err {A}.

Definition bind {A B} (r : result A) (f : A -> result B) : result B :=
  match r with Ok a => f a | Err => Err end.

(* ------------------------------------------------------------------------------------------------ *)
(* characters *)
Definition c_bs : N := 92%N.      (* backslash *)
Definition c_sp : N := 32%N.
Definition c_comma : N := 44%N.
Definition c_eq : N := 61%N.
Definition c_quote : N := 34%N.
Definition c_nl : N := 10%N.
Definition c_cr : N := 13%N.
Definition c_hash : N := 35%N.
Definition c_tab : N := 9%N.
Definition ch_minus : N := 45%N.
Definition ch_plus : N := 43%N.
Definition c_dot : N := 46%N.

Definition is_digit (c : N) : bool := (48 <=? c)%N && (c <=? 57)%N.
Definition digit_val (c : N) : Z := Z.of_N (c - 48).

(* the characters a backslash escapes in measurement / tag key / tag value / field key *)
Definition is_esc (c : N) : bool :=
  (c =? c_sp)%N || (c =? c_comma)%N || (c =? c_eq)%N || (c =? c_bs)%N.

(* ------------------------------------------------------------------------------------------------ *)
(* nextUnescapedChar: first occurrence of ch preceded by an even number of backslashes.
   [par] = parity of the run of backslashes immediately before the current position.
   Returns the text before and after that occurrence. *)
Fixpoint split_unesc (ch : N) (par : bool) (s : bytes) : option (bytes * bytes) :=
  match s with
  | [] => None
  | c :: r =>
      if (c =? ch)%N && negb par then Some ([], r)
      else match split_unesc ch (if (c =? c_bs)%N then negb par else false) r with
           | Some (a, b) => Some (c :: a, b)
           | None => None
           end
  end.

Definition next_unescaped (ch : N) (s : bytes) : option nat :=
  match split_unesc ch false s with Some (a, _) => Some (length a) | None => None end.

(* nextUnquotedChar: same, but occurrences between unescaped double quotes do not count *)
Fixpoint split_unq (ch : N) (inq par : bool) (s : bytes) : option (bytes * bytes) :=
  match s with
  | [] => None
  | c :: r =>
      if (c =? ch)%N && negb par && negb inq then Some ([], r)
      else
        let inq' := if (c =? c_quote)%N && negb par then negb inq else inq in
        let par' := if (c =? c_bs)%N then negb par else false in
        match split_unq ch inq' par' r with
        | Some (a, b) => Some (c :: a, b)
        | None => None
        end
  end.

(* split a string at every unescaped, unquoted ch; fuel = length bound *)
Fixpoint split_all_unq (fuel : nat) (ch : N) (s : bytes) : list bytes :=
  match fuel with
  | O => [s]
  | S f => match split_unq ch false false s with
           | None => [s]
           | Some (a, b) => a :: split_all_unq f ch b
           end
  end.

Fixpoint split_all_unesc (fuel : nat) (ch : N) (s : bytes) : list bytes :=
  match fuel with
  | O => [s]
  | S f => match split_unesc ch false s with
           | None => [s]
           | Some (a, b) => a :: split_all_unesc f ch b
           end
  end.

(* unescapeTagValue *)
Fixpoint unescape_tag (s : bytes) : bytes :=
  match s with
  | [] => []
  | c :: r =>
      if (c =? c_bs)%N then
        match r with
        | [] => [c_bs]
        | d :: r' => if is_esc d then d :: unescape_tag r' else c_bs :: d :: unescape_tag r'
        end
      else c :: unescape_tag r
  end.

(* the inverse used by the canonical renderer: a backslash before space, comma, '=' and backslash *)
Fixpoint escape_tag (s : bytes) : bytes :=
  match s with
  | [] => []
  | c :: r => if is_esc c then c_bs :: c :: escape_tag r else c :: escape_tag r
  end.

(* body of parseFieldStrValue between the outer quotes. k = number of pending backslashes. *)
Fixpoint unesc_str (k : nat) (s : bytes) : bytes :=
  match s with
  | [] => repeat c_bs (Nat.div2 (S k))
  | c :: r =>
      if (c =? c_bs)%N then unesc_str (S k) r
      else if (c =? c_quote)%N && negb (Nat.eqb k 0) then repeat c_bs (Nat.div2 k) ++ c_quote :: unesc_str 0 r
      else repeat c_bs (Nat.div2 (S k)) ++ c :: unesc_str 0 r
  end.

Fixpoint escape_str (s : bytes) : bytes :=
  match s with
  | [] => []
  | c :: r => if (c =? c_quote)%N || (c =? c_bs)%N then c_bs :: c :: escape_str r else c :: escape_str r
  end.

Definition has_unesc_quote (s : bytes) : bool :=
  match split_unesc c_quote false s with Some _ => true | None => false end.

(* ------------------------------------------------------------------------------------------------ *)
(* binary64 *)
Inductive f64 : Type :=
| FFin (neg : bool) (m : Z) (e : Z)   (* (-1)^neg * m * 2^e ; 0 <= m < 2^53 ; -1074 <= e <= 971 ; m < 2^52 -> e = -1074 *)
| FInf (neg : bool)
| FNaN.

Definition f64_is_finite (x : f64) : bool := match x with FFin _ _ _ => true | _ => false end.

Definition f64_bits (x : f64) : Z :=
  match x with
  | FFin neg m e =>
      (if neg then 2 ^ 63 else 0) +
      (if m <? 2 ^ 52 then m else (e + 1075) * 2 ^ 52 + (m - 2 ^ 52))
  | FInf neg => (if neg then 2 ^ 63 else 0) + 2047 * 2 ^ 52
  | FNaN => 2047 * 2 ^ 52 + 2 ^ 51 + 1
  end.

Definition f64_zero (neg : bool) : f64 := FFin neg 0 (-1074).

(* correctly rounded (nearest, ties to even) binary64 of num/den, num > 0, den > 0 *)
Definition round_ratio (neg : bool) (num den : Z) : f64 :=
  let e0 := Z.log2 num - Z.log2 den in
  let ge := if 0 <=? e0 then den * 2 ^ e0 <=? num else den <=? num * 2 ^ (- e0) in
  let e := if ge then e0 else e0 - 1 in
  let sh := Z.max (e - 52) (-1074) in
  let n' := if 0 <=? sh then num else num * 2 ^ (- sh) in
  let d' := if 0 <=? sh then den * 2 ^ sh else den in
  let q := n' / d' in
  let r := n' mod d' in
  let up := (d' <? 2 * r) || ((2 * r =? d') && Z.odd q) in
  let q' := if up then q + 1 else q in
  let m := if q' =? 2 ^ 53 then 2 ^ 52 else q' in
  let ex := if q' =? 2 ^ 53 then sh + 1 else sh in
  if 971 <? ex then FInf neg else FFin neg m ex.

(* int64 -> float64 (Go: float64(n)); written out directly: keep the top 53 bits, round half to even *)
Definition round53 (a : Z) : Z * Z :=       (* a > 0 ; returns (m, e) with value m * 2^e *)
  let k := Z.log2 a in
  if k <=? 52 then (a * 2 ^ (52 - k), k - 52)
  else
    let sh := k - 52 in
    let q := a / 2 ^ sh in
    let r := a mod 2 ^ sh in
    let half := 2 ^ (sh - 1) in
    let up := (half <? r) || ((r =? half) && Z.odd q) in
    let q' := if up then q + 1 else q in
    if q' =? 2 ^ 53 then (2 ^ 52, sh + 1) else (q', sh).

Definition z_to_f64 (n : Z) : f64 :=
  if n =? 0 then f64_zero false
  else let '(m, e) := round53 (Z.abs n) in FFin (n <? 0) m e.

Definition min_int64 : Z := - 2 ^ 63.
Definition max_int64 : Z := 2 ^ 63 - 1.
Definition in_int64 (n : Z) : bool := (min_int64 <=? n) && (n <=? max_int64).

(* float64 -> int64 (Go: int64(f)) as amd64 does it (CVTTSD2SQ): truncation toward zero; NaN, infinities and
   values outside the int64 range give 0x8000000000000000 *)
Definition f64_to_z (x : f64) : Z :=
  match x with
  | FFin neg m e =>
      let v := if 0 <=? e then m * 2 ^ e else m / 2 ^ (- e) in
      let sv := if neg then - v else v in
      if in_int64 sv then sv else min_int64
  | _ => min_int64
  end.

(* a 53-bit integer times a non-negative power of two *)
Definition representable53 (n : Z) : Prop := exists m e, 0 <= e /\ Z.abs m < 2 ^ 53 /\ n = m * 2 ^ e.

(* ------------------------------------------------------------------------------------------------ *)
(* numbers *)
Fixpoint all_digits (s : bytes) : bool :=
  match s with [] => true | c :: r => is_digit c && all_digits r end.

Definition dec_val (s : bytes) : Z := fold_left (fun a c => a * 10 + digit_val c) s 0.

(* fastfloat.ParseInt64: optional '-', at least one digit, digits only, value within int64 *)
Definition parse_int64 (s : bytes) : result Z :=
  match s with
  | [] => Err
  | c :: r =>
      let neg := (c =? ch_minus)%N in
      let ds := if neg then r else s in
      match ds with
      | [] => Err
      | _ => if all_digits ds then
               let v := dec_val ds in
               let sv := if neg then - v else v in
               if in_int64 sv then Ok sv else Err
             else Err
      end
  end.

(* IsValidNumber: the automaton of valid_number.go *)
Inductive nst := SInit | SSign | SInt | SPoint | SPointNoInt | SFrac | SExp | SExpSign | SExpNum.

Definition is_e (c : N) : bool := (c =? 101)%N || (c =? 69)%N.
Definition is_sign (c : N) : bool := (c =? ch_plus)%N || (c =? ch_minus)%N.

Definition nstep (st : nst) (c : N) : option nst :=
  if is_digit c then
    match st with
    | SInit | SSign | SInt => Some SInt
    | SPoint | SPointNoInt | SFrac => Some SFrac
    | SExp | SExpSign | SExpNum => Some SExpNum
    end
  else if is_e c then match st with SInt | SPoint | SFrac => Some SExp | _ => None end
  else if (c =? c_dot)%N then
    match st with SInit | SSign => Some SPointNoInt | SInt => Some SPoint | _ => None end
  else if is_sign c then match st with SInit => Some SSign | SExp => Some SExpSign | _ => None end
  else None.

Fixpoint nrun (st : nst) (s : bytes) : option nst :=
  match s with
  | [] => Some st
  | c :: r => match nstep st c with Some st' => nrun st' r | None => None end
  end.

Definition valid_number (s : bytes) : bool :=
  match nrun SInit s with
  | Some SInt | Some SPoint | Some SFrac | Some SExpNum => true
  | _ => false
  end.

(* the value a valid decimal literal denotes, as sign, decimal mantissa, decimal exponent *)
Record decnum := { d_neg : bool; d_mant : Z; d_frac : Z; d_eneg : bool; d_exp : Z }.

Fixpoint dec_scan (st : nst) (s : bytes) (d : decnum) : decnum :=
  match s with
  | [] => d
  | c :: r =>
      match nstep st c with
      | None => d
      | Some st' =>
          let d' :=
            match st' with
            | SSign => {| d_neg := (c =? ch_minus)%N; d_mant := d_mant d; d_frac := d_frac d; d_eneg := d_eneg d; d_exp := d_exp d |}
            | SInt => {| d_neg := d_neg d; d_mant := d_mant d * 10 + digit_val c; d_frac := d_frac d; d_eneg := d_eneg d; d_exp := d_exp d |}
            | SFrac => {| d_neg := d_neg d; d_mant := d_mant d * 10 + digit_val c; d_frac := d_frac d + 1; d_eneg := d_eneg d; d_exp := d_exp d |}
            | SExpSign => {| d_neg := d_neg d; d_mant := d_mant d; d_frac := d_frac d; d_eneg := (c =? ch_minus)%N; d_exp := d_exp d |}
            | SExpNum => {| d_neg := d_neg d; d_mant := d_mant d; d_frac := d_frac d; d_eneg := d_eneg d; d_exp := d_exp d * 10 + digit_val c |}
            | _ => d
            end in
          dec_scan st' r d'
      end
  end.

Definition dec_parse (s : bytes) : decnum :=
  dec_scan SInit s {| d_neg := false; d_mant := 0; d_frac := 0; d_eneg := false; d_exp := 0 |}.

(* number of decimal digits of m > 0 *)
Fixpoint ndig (fuel : nat) (m : Z) : Z :=
  match fuel with
  | O => 0
  | S f => if m <? 10 then 1 else 1 + ndig f (m / 10)
  end.
Definition ndigits (m : Z) : Z := ndig (S (Z.to_nat (Z.log2 m))) m.

(* the value of the literal as a ratio of integers: mantissa * 10^e10 *)
Definition dec_e10 (d : decnum) : Z := (if d_eneg d then - d_exp d else d_exp d) - d_frac d.
Definition dec_ratio (d : decnum) : Z * Z :=
  if 0 <=? dec_e10 d then (d_mant d * 10 ^ dec_e10 d, 1) else (d_mant d, 10 ^ (- dec_e10 d)).

(* correctly rounded decimal -> binary64 without any shortcut *)
Definition dec2f_full (s : bytes) : f64 :=
  let d := dec_parse s in
  if d_mant d =? 0 then f64_zero (d_neg d)
  else round_ratio (d_neg d) (fst (dec_ratio d)) (snd (dec_ratio d)).

(* correctly rounded decimal -> binary64 (the reference meaning of a float literal). Magnitudes far outside the binary64
   range are decided from the number of digits without computing the power of ten: a value of at least 10^310 is beyond
   the largest binary64, a value below 10^-400 is below half the smallest one (ProofsFloatAll.dec2f_exact_full: equal to
   dec2f_full for every text) *)
Definition dec2f_exact (s : bytes) : f64 :=
  let d := dec_parse s in
  let m := d_mant d in
  if m =? 0 then f64_zero (d_neg d)
  else
    let e10 := dec_e10 d in
    let nd := ndigits m in
    if 310 <=? nd - 1 + e10 then FInf (d_neg d)
    else if nd + e10 <=? -400 then f64_zero (d_neg d)
    else round_ratio (d_neg d) (fst (dec_ratio d)) (snd (dec_ratio d)).

Definition has_exp_part (s : bytes) : bool := existsb is_e s.

(* ------------------------------------------------------------------------------------------------ *)
(* configuration: which deviations are present (true = the code before the repair of that finding) *)
Record cfg := {
  c_int53 : bool;    (* integer values travel through float64 (Field.NumValue) *)
  c_fsuffix : bool;  (* "...f" value: best-effort parse without validation *)
  c_batch : bool;    (* unmarshalRows overwrites the error line by line *)
  c_plus : bool;     (* a float literal with a leading '+' is accepted and read as 0 *)
  c_strq : bool;     (* a value containing a quote but not starting with one is accepted as "" *)
  c_negdot : bool;   (* "-ddd." (trailing point, at most 17 digits) loses its sign *)
  c_tswrap : bool    (* timestamp * precision factor wraps around int64 instead of being refused *)
}.
Definition cfg_current : cfg := {| c_int53 := true; c_fsuffix := true; c_batch := true; c_plus := true; c_strq := true; c_negdot := true; c_tswrap := true |}.
Definition cfg_repaired : cfg := {| c_int53 := false; c_fsuffix := false; c_batch := false; c_plus := false; c_strq := false; c_negdot := false; c_tswrap := false |}.

(* field values: what is stored for the field *)
Inductive fval : Type :=
| VInt (text stored : Z)              (* integer literal, value finally stored in the int64 column *)
| VFloat (lit : bytes) (x : f64)      (* float denoted by the literal *)
| VFloatBits (x : f64)                (* a float the text does not denote (c_plus: a leading '+' gives 0) *)
| VFloatJunk                          (* accepted as float although the text denotes no number *)
| VBool (b : bool)
| VStr (s : bytes).

Definition store_int (c : cfg) (n : Z) : Z := if c_int53 c then f64_to_z (z_to_f64 n) else n.

Definition list_beq (a b : bytes) : bool :=
  (fix go (a b : bytes) : bool :=
     match a, b with
     | [], [] => true
     | x :: a', y :: b' => (x =? y)%N && go a' b'
     | _, _ => false
     end) a b.

Definition is_true_text (s : bytes) : bool :=
  list_beq s [116%N] || list_beq s [84%N] || list_beq s [116;114;117;101]%N ||
  list_beq s [84;114;117;101]%N || list_beq s [84;82;85;69]%N.
Definition is_false_text (s : bytes) : bool :=
  list_beq s [102%N] || list_beq s [70%N] || list_beq s [102;97;108;115;101]%N ||
  list_beq s [70;97;108;115;101]%N || list_beq s [70;65;76;83;69]%N.

Section WithDec2f.
Variable dec2f : bytes -> f64.

Definition f64_abs (x : f64) : f64 :=
  match x with FFin _ m e => FFin false m e | FInf _ => FInf false | FNaN => FNaN end.

(* fastfloat.ParseBestEffort on a valid number (the conversion before commit 8629b74): a leading '+' gives 0; "-ddd." returns before the sign is
   applied (unless the 19th character is reached, where it falls back to strconv) *)
Definition float_of_valid (c : cfg) (s : bytes) : fval :=
  if c_plus c && (match s with h :: _ => (h =? ch_plus)%N | [] => false end) then VFloatBits (f64_zero false)
  else if c_negdot c && (match s with h :: _ => (h =? ch_minus)%N | [] => false end)
          && (match rev s with l :: _ => (l =? c_dot)%N | [] => false end)
          && (Z.of_nat (length s) <=? 19) then VFloatBits (f64_abs (dec2f s))
  else VFloat s (dec2f s).
Definition fval_finite (v : fval) : bool :=
  match v with VFloat _ x => f64_is_finite x | VFloatBits x => f64_is_finite x | _ => true end.

(* parseFieldNumValue *)
Definition parse_num_field (c : cfg) (s : bytes) : result fval :=
  match rev s with
  | [] => Err
  | last :: rinit =>
      let init := rev rinit in
      if (last =? 105)%N then                       (* 'i' *)
        bind (parse_int64 init) (fun n => Ok (VInt n (store_int c n)))
      else if (last =? 117)%N then Err              (* 'u' *)
      else if (last =? 102)%N && negb (match init with [] => true | _ => false end) then   (* 'f', len > 1 *)
        if valid_number init then
          let v := float_of_valid c init in
          if fval_finite v || c_fsuffix c then Ok v else Err
        else if c_fsuffix c then Ok VFloatJunk else Err
      else if is_true_text s then Ok (VBool true)
      else if is_false_text s then Ok (VBool false)
      else if valid_number s then
        let v := float_of_valid c s in
        if fval_finite v then Ok v else Err
      else Err
  end.

(* parseFieldStrValue *)
Definition parse_str_field (c : cfg) (s : bytes) : result fval :=
  match s with
  | [] => Err
  | h :: t =>
      if (h =? c_quote)%N then
        match rev t with
        | [] => Err
        | l :: rbody => if (l =? c_quote)%N then Ok (VStr (unesc_str 0 (rev rbody))) else Err
        end
      else if c_strq c then Ok (VStr []) else Err
  end.

Definition max_name_len : nat := 250.      (* util.MaxMeasurementLength *)
Definition max_key_len : nat := 255.       (* util.MaxTagNameLength, util.MaxFieldNameLength *)
Definition max_tagval_len : Z := 65536.  (* util.MaxTagValueLength *)

(* the value part of Field.unmarshal: the string path is taken as soon as the text contains an unescaped quote *)
Definition parse_value (c : cfg) (v : bytes) : result fval :=
  if has_unesc_quote v then parse_str_field c v else parse_num_field c v.

(* Field.unmarshal *)
Definition parse_field (c : cfg) (s : bytes) : result (bytes * fval) :=
  match split_unesc c_eq false s with
  | None => Err
  | Some (kraw, v) =>
      let k := unescape_tag kraw in
      match k with
      | [] => Err
      | _ =>
          if Nat.ltb max_key_len (length k) then Err
          else bind (parse_value c v) (fun x => Ok (k, x))
      end
  end.

Fixpoint map_result {A B} (f : A -> result B) (l : list A) : result (list B) :=
  match l with
  | [] => Ok []
  | a :: r => bind (f a) (fun b => bind (map_result f r) (fun bs => Ok (b :: bs)))
  end.

(* unmarshalInfluxFields *)
Definition parse_fields (c : cfg) (s : bytes) : result (list (bytes * fval)) :=
  map_result (parse_field c) (split_all_unq (length s) c_comma s).

(* Tag.unmarshal: Ok None = empty key or value, the tag is skipped *)
Definition parse_tag (s : bytes) : result (option (bytes * bytes)) :=
  match split_unesc c_eq false s with
  | None => Err
  | Some (kraw, vraw) =>
      let k := unescape_tag kraw in
      if Nat.ltb max_key_len (length k) then Err
      else
        let v := unescape_tag vraw in
        if max_tagval_len <? Z.of_nat (length v) then Err
        else match k, v with
             | [], _ | _, [] => Ok None
             | _, _ => Ok (Some (k, v))
             end
  end.

Fixpoint somes {A} (l : list (option A)) : list A :=
  match l with [] => [] | Some a :: r => a :: somes r | None :: r => somes r end.

(* unmarshalTags *)
Definition parse_tags (s : bytes) : result (list (bytes * bytes)) :=
  bind (map_result parse_tag (split_all_unesc (length s) c_comma s)) (fun l => Ok (somes l)).

(* byte-wise lexicographic order (Go string comparison) *)
Fixpoint bytes_leb (a b : bytes) : bool :=
  match a, b with
  | [], _ => true
  | _ :: _, [] => false
  | x :: a', y :: b' => if (x <? y)%N then true else if (y <? x)%N then false else bytes_leb a' b'
  end.

Fixpoint insert_tag (t : bytes * bytes) (l : list (bytes * bytes)) : list (bytes * bytes) :=
  match l with
  | [] => [t]
  | u :: r => if bytes_leb (fst t) (fst u) then t :: l else u :: insert_tag t r
  end.
(* sort.Sort by key; stable here, the library sort is not - callers compare modulo the order of equal keys *)
Definition sort_tags (l : list (bytes * bytes)) : list (bytes * bytes) := fold_right insert_tag [] l.

Definition is_ascii_ws (c : N) : bool :=
  (c =? 32)%N || (c =? 9)%N || (c =? 10)%N || (c =? 11)%N || (c =? 12)%N || (c =? 13)%N.
Fixpoint drop_while (p : N -> bool) (s : bytes) : bytes :=
  match s with [] => [] | c :: r => if p c then drop_while p r else s end.
(* strings.TrimSpace: besides the ASCII white space it removes the other Unicode White_Space characters, UTF-8 encoded:
   U+0085, U+00A0 (two bytes), U+1680, U+2000..U+200A, U+2028, U+2029, U+202F, U+205F, U+3000 (three bytes); a byte
   sequence that is not the encoding of one of them stops the trimming (also an invalid one) *)
Definition is_uws2 (a b : N) : bool := (a =? 194)%N && ((b =? 133)%N || (b =? 160)%N).
Definition is_uws3 (a b c : N) : bool :=
  ((a =? 225)%N && (b =? 154)%N && (c =? 128)%N) ||
  ((a =? 226)%N && (b =? 128)%N && (((128 <=? c)%N && (c <=? 138)%N) || (c =? 168)%N || (c =? 169)%N || (c =? 175)%N)) ||
  ((a =? 226)%N && (b =? 129)%N && (c =? 159)%N) ||
  ((a =? 227)%N && (b =? 128)%N && (c =? 128)%N).
(* fwd = true: from the left; fwd = false: [s] is the reversed text and the sequences are read backwards *)
Fixpoint trim_sp (fwd : bool) (s : bytes) : bytes :=
  match s with
  | [] => []
  | c :: r =>
      if is_ascii_ws c then trim_sp fwd r
      else match r with
           | d :: r2 =>
               if (if fwd then is_uws2 c d else is_uws2 d c) then trim_sp fwd r2
               else match r2 with
                    | e :: r3 => if (if fwd then is_uws3 c d e else is_uws3 e d c) then trim_sp fwd r3 else s
                    | [] => s
                    end
           | [] => s
           end
  end.
Definition trim_ws (s : bytes) : bytes := rev (trim_sp false (rev (trim_sp true s))).

(* nextTimestamp: None = no timestamp given (the server's clock is used) *)
Definition parse_ts (s : bytes) : result (option Z) :=
  match trim_ws s with
  | [] => Ok None
  | t => if all_digits t then
           let v := dec_val t in if v <=? max_int64 then Ok (Some v) else Err
         else Err
  end.

Record row := { r_name : bytes; r_tags : list (bytes * bytes); r_fields : list (bytes * fval); r_ts : option Z }.

Definition is_lead_ws (c : N) : bool := (c =? 32)%N || (c =? 9)%N || (c =? 0)%N.   (* checkWhitespace *)
Definition is_sp (c : N) : bool := (c =? 32)%N.                                    (* stripLeadingWhitespace *)

(* Row.unmarshal *)
Definition parse_line (c : cfg) (s0 : bytes) : result row :=
  let s := drop_while is_lead_ws s0 in
  match split_unesc c_sp false s with
  | None => Err
  | Some (mt, rest0) =>
      let rest := drop_while is_sp rest0 in
      let mtags :=
        match split_unesc c_comma false mt with
        | Some (m, tagstr) => bind (parse_tags tagstr) (fun tags => Ok (m, sort_tags tags))
        | None => Ok (mt, [])
        end in
      bind mtags (fun mt' =>
        let name := unescape_tag (fst mt') in
        if Nat.ltb max_name_len (length name) then Err
        else
          match split_unq c_sp false false rest with
          | None =>
              bind (parse_fields c rest) (fun fs =>
                Ok {| r_name := name; r_tags := snd mt'; r_fields := fs; r_ts := None |})
          | Some (fstr, tsr) =>
              bind (parse_fields c fstr) (fun fs =>
                bind (parse_ts (drop_while is_sp tsr)) (fun ts =>
                  Ok {| r_name := name; r_tags := snd mt'; r_fields := fs; r_ts := ts |}))
          end)
  end.

(* ------------------------------------------------------------------------------------------------ *)
(* batches: unmarshalRows / unmarshalRow *)
Fixpoint split_lines_aux (cur : bytes) (s : bytes) : list bytes :=
  match s with
  | [] => match cur with [] => [] | _ => [rev cur] end     (* no segment after a final newline *)
  | c :: r => if (c =? c_nl)%N then rev cur :: split_lines_aux [] r else split_lines_aux (c :: cur) r
  end.
Definition split_lines (s : bytes) : list bytes := split_lines_aux [] s.

Definition strip_cr (s : bytes) : bytes :=
  match rev s with
  | c :: r => if (c =? c_cr)%N then rev r else s
  | [] => s
  end.

(* None = skipped line (empty or comment) *)
Definition parse_row (c : cfg) (l : bytes) : option (result row) :=
  match strip_cr l with
  | [] => None
  | h :: t => if (h =? c_hash)%N then None else Some (parse_line c (h :: t))
  end.

(* rows parsed so far (in order), error flag *)
Fixpoint batch_go (c : cfg) (ls : list bytes) (acc : list row) (err : bool) : list row * bool :=
  match ls with
  | [] => (rev acc, err)
  | l :: r =>
      match parse_row c l with
      | None => batch_go c r acc (if c_batch c then false else err)
      | Some (Ok x) => batch_go c r (x :: acc) (if c_batch c then false else err)
      | Some Err => batch_go c r acc true
      end
  end.

Definition parse_batch (c : cfg) (s : bytes) : list row * bool := batch_go c (split_lines s) [] false.

(* unmarshalWork.Unmarshal + the write callback of serveWrite: a block with a reported parse error or with a row
   without measurement name is rejected as a whole (nothing of it is stored); otherwise every row is stored with
   its timestamp multiplied by the precision factor (c_tswrap, before commit 31db7b0: wrapping int64 multiplication;
   repaired: a product beyond int64 refuses the block). *)
Definition wrap64 (z : Z) : Z := (z + 2 ^ 63) mod 2 ^ 64 - 2 ^ 63.

Definition scale_row (c : cfg) (mult : Z) (r : row) : result row :=
  match r_ts r with
  | None => Ok r
  | Some t =>
      let v := t * mult in
      if c_tswrap c then
        Ok {| r_name := r_name r; r_tags := r_tags r; r_fields := r_fields r; r_ts := Some (wrap64 v) |}
      else if v <=? max_int64 then
        Ok {| r_name := r_name r; r_tags := r_tags r; r_fields := r_fields r; r_ts := Some v |}
      else Err
  end.

Definition accept_block (c : cfg) (mult : Z) (s : bytes) : result (list row) :=
  let '(rows, err) := parse_batch c s in
  if err then Err
  else if existsb (fun r => match r_name r with [] => true | _ => false end) rows then Err
  else map_result (scale_row c mult) rows.

End WithDec2f.

Definition parse_batch_current := parse_batch dec2f_exact cfg_current.
Definition parse_batch_repaired := parse_batch dec2f_exact cfg_repaired.

(* ------------------------------------------------------------------------------------------------ *)
(* reference side: a point and its canonical rendering (the escaper of the line-protocol documentation) *)
Inductive pval : Type :=
| PInt (n : Z)
| PFloat (lit : bytes)      (* a decimal literal; the value is the correctly rounded binary64 of it *)
| PBool (b : bool)
| PStr (s : bytes).

Record point := { p_name : bytes; p_tags : list (bytes * bytes); p_fields : list (bytes * pval); p_ts : Z }.

Fixpoint nat_digits (fuel : nat) (n : Z) (acc : bytes) : bytes :=
  match fuel with
  | O => acc
  | S f => let acc' := (48 + Z.to_N (n mod 10))%N :: acc in
           if n / 10 =? 0 then acc' else nat_digits f (n / 10) acc'
  end.
Definition render_nat (n : Z) : bytes := nat_digits (S (Z.to_nat (Z.log2 n))) n [].
Definition render_int (n : Z) : bytes := if n <? 0 then ch_minus :: render_nat (- n) else render_nat n.

Definition render_val (v : pval) : bytes :=
  match v with
  | PInt n => render_int n ++ [105%N]
  | PFloat lit => lit
  | PBool true => [116;114;117;101]%N
  | PBool false => [102;97;108;115;101]%N
  | PStr s => c_quote :: escape_str s ++ [c_quote]
  end.

Definition render_tag (t : bytes * bytes) : bytes := c_comma :: escape_tag (fst t) ++ c_eq :: escape_tag (snd t).
Definition render_field (f : bytes * pval) : bytes := escape_tag (fst f) ++ c_eq :: render_val (snd f).

Fixpoint join_fields (l : list bytes) : bytes :=
  match l with
  | [] => []
  | [x] => x
  | x :: r => x ++ c_comma :: join_fields r
  end.

Definition render (p : point) : bytes :=
  escape_tag (p_name p) ++ concat (map render_tag (p_tags p)) ++
  c_sp :: join_fields (map render_field (p_fields p)) ++ c_sp :: render_nat (p_ts p).
