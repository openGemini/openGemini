(* C06 - the body framing between the socket and the parser: proofs about ModelStream. *)
From Coq Require Import ZArith NArith List Bool Arith Lia.
From OG Require Import C06.Model C06.ModelStream C06.Proofs.
Import ListNotations.
Open Scope Z_scope.

(* data lines: the non-empty lines of a text (empty lines carry no point and no error) *)
Definition nonempty (l : bytes) : bool := match l with [] => false | _ => true end.
Definition dlines (s : bytes) : list bytes := filter nonempty (split_lines s).

Lemma dlines_aux_snoc_nl : forall a cur,
  filter nonempty (split_lines_aux cur (a ++ [c_nl])) = filter nonempty (split_lines_aux cur a).
Proof.
  induction a as [|c r IH]; intro cur.
  - cbn [app split_lines_aux]. rewrite N.eqb_refl. cbn [split_lines_aux].
    destruct cur as [|x cur']; reflexivity.
  - cbn [app split_lines_aux]. destruct (c =? c_nl)%N.
    + cbn [filter]. now rewrite IH.
    + apply IH.
Qed.

Lemma dlines_snoc_nl : forall a, dlines (a ++ [c_nl]) = dlines a.
Proof. intro a. apply dlines_aux_snoc_nl. Qed.

Lemma dlines_cut : forall a b, dlines (a ++ c_nl :: b) = dlines a ++ dlines b.
Proof.
  intros a b. unfold dlines, split_lines. rewrite split_lines_aux_cut, filter_app.
  f_equal. apply dlines_aux_snoc_nl.
Qed.

Lemma cut_first_nl_sound : forall s a b, cut_first_nl s = Some (a, b) -> s = a ++ c_nl :: b.
Proof.
  induction s as [|c r IH]; intros a b H; [discriminate|].
  cbn [cut_first_nl] in H. destruct (c =? c_nl)%N eqn:E.
  - inversion H; subst. apply N.eqb_eq in E. now subst.
  - destruct (cut_first_nl r) as [[a' b']|]; [|discriminate]. inversion H; subst.
    cbn [app]. f_equal. now apply IH.
Qed.

Lemma cut_first_nl_none : forall s, cut_first_nl s = None -> ~ In c_nl s.
Proof.
  induction s as [|c r IH]; intros H Hin; [exact Hin|].
  cbn [cut_first_nl] in H. destruct (c =? c_nl)%N eqn:E; [discriminate|].
  destruct (cut_first_nl r) as [[a' b']|] eqn:F; [discriminate|].
  destruct Hin as [Hc|Hr].
  - subst. now rewrite N.eqb_refl in E.
  - now apply IH.
Qed.

Lemma cut_first_nl_first : forall s a b, cut_first_nl s = Some (a, b) -> ~ In c_nl a.
Proof.
  induction s as [|c r IH]; intros a b H; [discriminate|].
  cbn [cut_first_nl] in H. destruct (c =? c_nl)%N eqn:E.
  - inversion H; subst. intros [].
  - destruct (cut_first_nl r) as [[a' b']|] eqn:F; [|discriminate]. inversion H; subst.
    intros [Hc|Hr].
    + subst. now rewrite N.eqb_refl in E.
    + exact (IH a' b eq_refl Hr).
Qed.

Lemma cut_last_nl_sound : forall s a b, cut_last_nl s = Some (a, b) -> s = a ++ c_nl :: b.
Proof.
  intros s a b H. unfold cut_last_nl in H.
  destruct (cut_first_nl (rev s)) as [[x y]|] eqn:E; [|discriminate]. inversion H; subst.
  apply cut_first_nl_sound in E. rewrite <- (rev_involutive s), E, rev_app_distr.
  cbn [rev]. now rewrite <- app_assoc.
Qed.

Lemma cut_last_nl_last : forall s a b, cut_last_nl s = Some (a, b) -> ~ In c_nl b.
Proof.
  intros s a b H. unfold cut_last_nl in H.
  destruct (cut_first_nl (rev s)) as [[x y]|] eqn:E; [|discriminate]. inversion H; subst.
  intro Hin. apply in_rev in Hin. exact (cut_first_nl_first _ _ _ E Hin).
Qed.

Lemma cut_last_nl_none : forall s, cut_last_nl s = None -> ~ In c_nl s.
Proof.
  intros s H Hin. unfold cut_last_nl in H.
  destruct (cut_first_nl (rev s)) as [[x y]|] eqn:E; [discriminate|].
  apply (cut_first_nl_none _ E). now apply in_rev in Hin.
Qed.

(* what a delivered block is: either the unread text up to one of its newlines (the rest is carried or still unread),
   or - at the end of a stream that ends regularly - everything that was left; the reader reports the end only when
   nothing is left *)
Lemma next_block_spec : forall e maxline stall caps tail fresh rest,
  match next_block e maxline stall caps tail fresh rest with
  | BlkData b tail' rest' _ =>
      tail ++ fresh ++ rest = b ++ c_nl :: tail' ++ rest' \/
      (e = EndEOF /\ b = tail ++ fresh ++ rest /\ tail' = [] /\ rest' = [] /\ b <> [])
  | BlkEnd => e = EndEOF /\ tail ++ fresh ++ rest = []
  | BlkFail => True
  end.
Proof.
  intros e maxline stall caps. induction caps as [|cap caps' IH]; intros tail fresh rest; [exact I|].
  cbn [next_block]. set (have := (length tail + length fresh)%nat). set (room := (cap - have)%nat).
  assert (Hlen : forall x : bytes, (length x =? 0)%nat = true -> x = [])
    by (intros [|? ?] Hx; [reflexivity|discriminate]).
  assert (Hhave : forall x, (have + length x =? 0)%nat = (length (tail ++ fresh ++ x) =? 0)%nat)
    by (intro x; unfold have; now rewrite !app_length, Nat.add_assoc).
  destruct (room =? 0)%nat.
  - destruct rest as [|r0 rr]; [|exact I]. destruct e; [|exact I]. destruct stall; [|exact I].
    specialize (Hhave []). rewrite Nat.add_0_r in Hhave. rewrite Hhave, app_nil_r.
    destruct (length (tail ++ fresh) =? 0)%nat eqn:Ez.
    + split; [reflexivity|]. now apply Hlen.
    + right. repeat split. intros E. rewrite E in Ez. discriminate.
  - destruct (length (firstn room rest) <? room)%nat eqn:Eshort.
    + apply Nat.ltb_lt in Eshort. rewrite firstn_length in Eshort.
      rewrite (firstn_all2 rest) by lia. destruct e; [|exact I]. rewrite Hhave.
      destruct (length (tail ++ fresh ++ rest) =? 0)%nat eqn:Ez.
      * split; [reflexivity|]. now apply Hlen.
      * right. repeat split. intros E. rewrite E in Ez. discriminate.
    + destruct (cut_last_nl (fresh ++ firstn room rest)) as [[a bb]|] eqn:Ecut.
      * left. apply cut_last_nl_sound in Ecut.
        rewrite <- (firstn_skipn room rest) at 1.
        rewrite (app_assoc fresh), Ecut, <- !app_assoc. reflexivity.
      * destruct (maxline <? length tail + length (fresh ++ firstn room rest))%nat; [exact I|].
        specialize (IH tail (fresh ++ firstn room rest) (skipn room rest)).
        now rewrite <- app_assoc, firstn_skipn in IH.
Qed.

Lemma next_block_data : forall e maxline stall caps tail fresh rest b tail' rest' cap',
  next_block e maxline stall caps tail fresh rest = BlkData b tail' rest' cap' ->
  tail ++ fresh ++ rest = b ++ c_nl :: tail' ++ rest' \/
  (e = EndEOF /\ b = tail ++ fresh ++ rest /\ tail' = [] /\ rest' = [] /\ b <> []).
Proof. intros e maxline stall caps tail fresh rest b tail' rest' cap' H. pose proof (next_block_spec e maxline stall caps tail fresh rest) as S. now rewrite H in S. Qed.

Lemma next_block_end : forall e maxline stall caps tail fresh rest,
  next_block e maxline stall caps tail fresh rest = BlkEnd -> e = EndEOF /\ tail ++ fresh ++ rest = [].
Proof. intros e maxline stall caps tail fresh rest H. pose proof (next_block_spec e maxline stall caps tail fresh rest) as S. now rewrite H in S. Qed.

Lemma read_blocks_nil : forall e maxline sched bl ok, read_blocks e maxline sched [] [] = (bl, ok) -> bl = [].
Proof.
  intros e maxline sched bl ok H. destruct sched as [|[caps stall] sched']; cbn [read_blocks] in H; [now inversion H|].
  destruct (next_block e maxline stall caps [] [] []) as [b tail' rest' cap'| |] eqn:E.
  - apply next_block_data in E. cbn [app] in E. destruct E as [E|(_ & Eb & _ & _ & Hne)].
    + destruct b; discriminate.
    + now elim Hne.
  - now inversion H.
  - now inversion H.
Qed.

Fixpoint join_nl (l : list bytes) : bytes :=
  match l with [] => [] | b :: r => b ++ c_nl :: join_nl r end.

Lemma dlines_join : forall bs Y, dlines (join_nl bs ++ Y) = flat_map dlines bs ++ dlines Y.
Proof.
  induction bs as [|b r IH]; intro Y; [reflexivity|].
  cbn [join_nl flat_map]. rewrite <- !app_assoc. cbn [app]. now rewrite dlines_cut, IH.
Qed.

(* Every delivered block but the last ends just before a newline of the stream and starts after one, for every schedule of
   buffer capacities and every max-line-size: the blocks joined by newlines are a prefix of the stream - all of it when the
   loop ends cleanly, which only a stream that ends regularly allows - or, at a regular end, the last block is the rest
   of the stream. *)
Lemma read_blocks_spec : forall e maxline sched tail rest bl ok,
  read_blocks e maxline sched tail rest = (bl, ok) ->
  (exists Y, tail ++ rest = join_nl (map fst bl) ++ Y /\ (ok = true -> e = EndEOF /\ Y = [])) \/
  (e = EndEOF /\ exists bl' b cap, bl = bl' ++ [(b, cap)] /\ tail ++ rest = join_nl (map fst bl') ++ b).
Proof.
  intros e maxline sched. induction sched as [|[caps stall] sched' IH]; intros tail rest bl ok H.
  - cbn in H. inversion H; subst. left. exists (tail ++ rest). split; [reflexivity|discriminate].
  - cbn [read_blocks] in H.
    destruct (next_block e maxline stall caps tail [] rest) as [b tail' rest' cap'| |] eqn:E.
    + destruct (read_blocks e maxline sched' tail' rest') as [bl' ok'] eqn:R. inversion H; subst.
      apply next_block_data in E. cbn [app] in E. destruct E as [E|(Ee & Eb & Et & Er & _)].
      * destruct (IH _ _ _ _ R) as [(Y & HY & Hok)|(Ee & bl2 & b2 & cap2 & Hbl & HY)].
        -- left. exists Y. cbn [map fst join_nl]. rewrite E, HY, <- app_assoc. auto.
        -- right. split; [exact Ee|]. exists ((b, cap') :: bl2), b2, cap2. split; [now rewrite Hbl|].
           cbn [map fst join_nl]. rewrite E, HY, <- app_assoc. reflexivity.
      * subst. right. split; [reflexivity|].
        apply read_blocks_nil in R. subst bl'.
        exists [], (tail ++ rest), cap'. split; reflexivity.
    + inversion H; subst. apply next_block_end in E. destruct E as [Ee E]. cbn [app] in E.
      left. exists []. rewrite E. auto.
    + inversion H; subst. left. exists (tail ++ rest). split; [reflexivity|discriminate].
Qed.

Lemma read_blocks_err_not_ok : forall maxline sched tail rest bl ok,
  read_blocks EndErr maxline sched tail rest = (bl, ok) -> ok = false.
Proof.
  intros maxline sched tail rest bl ok H. destruct ok; [|reflexivity].
  destruct (read_blocks_spec _ _ _ _ _ _ _ H) as [(Y & _ & Hok)|(Ee & _)]; [destruct (Hok eq_refl)|]; discriminate.
Qed.

(* what was delivered, read as data lines: a prefix of the data lines of the stream, whatever follows ([more]) in the text
   the stream is a prefix of when it was cut off *)
Lemma read_blocks_prefix : forall e maxline sched tail rest bl ok more,
  read_blocks e maxline sched tail rest = (bl, ok) -> e = EndErr \/ more = [] ->
  exists dropped, dlines (tail ++ rest ++ more) = flat_map dlines (map fst bl) ++ dropped.
Proof.
  intros e maxline sched tail rest bl ok more H Hm. rewrite app_assoc.
  destruct (read_blocks_spec _ _ _ _ _ _ _ H) as [(Y & HY & _)|(Ee & bl' & b & cap & -> & HY)]; rewrite HY.
  - exists (dlines (Y ++ more)). now rewrite <- app_assoc, dlines_join.
  - destruct Hm as [Hm| ->]; [congruence|]. exists []. rewrite app_nil_r, dlines_join, map_app, flat_map_app. cbn. now rewrite !app_nil_r.
Qed.

Lemma read_blocks_complete : forall e maxline sched tail rest bl,
  read_blocks e maxline sched tail rest = (bl, true) ->
  flat_map dlines (map fst bl) = dlines (tail ++ rest).
Proof.
  intros e maxline sched tail rest bl H.
  destruct (read_blocks_spec _ _ _ _ _ _ _ H) as [(Y & HY & Hok)|(Ee & bl' & b & cap & -> & HY)]; rewrite HY, dlines_join.
  - destruct (Hok eq_refl) as [_ ->]. now rewrite app_nil_r.
  - rewrite map_app, flat_map_app. cbn. now rewrite app_nil_r.
Qed.

Lemma rows_dlines : forall d c s, fst (parse_batch d c s) = flat_map (line_rows d c) (dlines s).
Proof.
  intros d c s. rewrite batch_rows_exact. unfold dlines.
  induction (split_lines s) as [|l r IH]; [reflexivity|].
  cbn [filter flat_map]. destruct l as [|x l']; cbn [nonempty]; [exact IH|].
  cbn [flat_map]. now rewrite IH.
Qed.

Section Accept.
Variable d : bytes -> f64.
Variable c : cfg.
Hypothesis Hc : c_batch c = false.
Variable mult : Z.

Definition noname (r : row) : bool := match r_name r with [] => true | _ => false end.

(* accept_block on the list of data lines: refused as a whole when a line is refused or has no measurement name or a
   timestamp leaves the int64 range; otherwise every line's row, scaled *)
Definition accept_lines (ls : list bytes) : result (list row) :=
  if existsb (line_fails d c) ls then Err
  else let rows := flat_map (line_rows d c) ls in
       if existsb noname rows then Err else map_result (scale_row c mult) rows.

Lemma parse_row_nil : parse_row d c [] = None.
Proof. reflexivity. Qed.

Lemma flat_map_filter_nonempty : forall (B : Type) (f : bytes -> list B) ls,
  f [] = [] -> flat_map f (filter nonempty ls) = flat_map f ls.
Proof.
  intros B f ls Hf. induction ls as [|l r IH]; [reflexivity|].
  cbn [filter flat_map]. destruct l as [|x l']; cbn [nonempty].
  - now rewrite Hf, IH.
  - cbn [flat_map]. now rewrite IH.
Qed.

Lemma existsb_filter_nonempty : forall (f : bytes -> bool) ls,
  f [] = false -> existsb f (filter nonempty ls) = existsb f ls.
Proof.
  intros f ls Hf. induction ls as [|l r IH]; [reflexivity|].
  cbn [filter existsb]. destruct l as [|x l']; cbn [nonempty].
  - now rewrite Hf, IH.
  - cbn [existsb]. now rewrite IH.
Qed.

Lemma accept_block_lines : forall s, accept_block d c mult s = accept_lines (dlines s).
Proof.
  intro s. unfold accept_block, accept_lines, dlines.
  pose proof (batch_rows_exact d c s) as Hr.
  pose proof (batch_go_err_sticky d c (split_lines s) [] false Hc) as He.
  unfold parse_batch in *. destruct (batch_go d c (split_lines s) [] false) as [rows err].
  cbn [fst snd] in *. subst rows err. cbn [orb].
  rewrite existsb_filter_nonempty by reflexivity.
  rewrite flat_map_filter_nonempty by reflexivity. reflexivity.
Qed.

Lemma map_result_app : forall (A B : Type) (f : A -> result B) l1 l2,
  map_result f (l1 ++ l2) =
  match map_result f l1, map_result f l2 with Ok a, Ok b => Ok (a ++ b) | _, _ => Err end.
Proof.
  intros A B f l1 l2. induction l1 as [|x r IH]; cbn [app map_result].
  - destruct (map_result f l2); reflexivity.
  - destruct (f x) as [y|]; cbn [bind]; [|reflexivity].
    rewrite IH. destruct (map_result f r); cbn [bind]; [|reflexivity].
    destruct (map_result f l2); reflexivity.
Qed.

Lemma accept_lines_app : forall l1 l2,
  accept_lines (l1 ++ l2) =
  match accept_lines l1, accept_lines l2 with Ok a, Ok b => Ok (a ++ b) | _, _ => Err end.
Proof.
  intros l1 l2. unfold accept_lines. rewrite existsb_app, flat_map_app, existsb_app, map_result_app.
  destruct (existsb (line_fails d c) l1), (existsb noname (flat_map (line_rows d c) l1)),
    (map_result (scale_row c mult) (flat_map (line_rows d c) l1)), (existsb (line_fails d c) l2),
    (existsb noname (flat_map (line_rows d c) l2)), (map_result (scale_row c mult) (flat_map (line_rows d c) l2));
    reflexivity.
Qed.

Lemma accept_lines_nil : accept_lines [] = Ok [].
Proof. reflexivity. Qed.

Definition group_rows (g : list bytes) : list row := match accept_lines g with Ok rows => rows | Err => [] end.

Lemma block_rows_group : forall b, block_rows d c mult b = group_rows (dlines b).
Proof. intro b. unfold block_rows, group_rows. now rewrite accept_block_lines. Qed.

Lemma block_ok_lines : forall b, block_ok d c mult b = match accept_lines (dlines b) with Ok _ => true | Err => false end.
Proof. intro b. unfold block_ok. now rewrite accept_block_lines. Qed.

Lemma accept_all_blocks : forall blocks,
  forallb (block_ok d c mult) blocks = true ->
  accept_lines (flat_map dlines blocks) = Ok (flat_map (block_rows d c mult) blocks).
Proof.
  induction blocks as [|b r IH]; intro H; [reflexivity|].
  cbn [forallb] in H. apply andb_true_iff in H. destruct H as [Hb Hr].
  cbn [flat_map]. rewrite accept_lines_app, (IH Hr).
  rewrite block_ok_lines in Hb. rewrite block_rows_group. unfold group_rows.
  destruct (accept_lines (dlines b)); [reflexivity|discriminate].
Qed.

(* acknowledged (the status is computed from the reader's end and the blocks' errors) means: the body was within
   max-body-size, and what was stored is exactly what accepting the whole body as one block stores *)
Theorem serve_write_ack : forall limit declared gz maxline sched body stored,
  serve_write d c limit declared gz maxline sched mult body = (WAck, stored) ->
  accept_block d c mult body = Ok stored /\
  match stream_limit limit gz with Some n => (length body <= n)%nat | None => True end.
Proof.
  intros limit0 declared gz maxline sched body stored H. unfold serve_write in H.
  destruct (match limit0, declared with Some n, Some dd => (n <? dd)%nat | _, _ => false end); [discriminate|].
  set (limit := stream_limit limit0 gz) in *.
  destruct (limit_stream limit body) as [stream e] eqn:L.
  destruct (read_blocks e maxline sched [] stream) as [bl ok] eqn:R.
  destruct (ok && forallb (block_ok d c mult) (map fst bl)) eqn:A; [|discriminate].
  apply andb_true_iff in A. destruct A as [Hok Hall]. subst ok. inversion H; subst.
  assert (e = EndEOF /\ stream = body /\ match limit with Some n => (length body <= n)%nat | None => True end) as (He & Hs & Hl).
  { unfold limit_stream in L. destruct limit as [n|].
    - destruct (length body <=? n)%nat eqn:Le; inversion L; subst.
      + apply Nat.leb_le in Le. auto.
      + apply read_blocks_err_not_ok in R. discriminate.
    - inversion L; subst. auto. }
  subst. split; [|exact Hl].
  rewrite accept_block_lines. pose proof (read_blocks_complete _ _ _ _ _ _ R) as Hcpl. cbn [app] in Hcpl. rewrite <- Hcpl.
  now apply accept_all_blocks.
Qed.

Lemma accept_lines_parts : forall blocks rows,
  accept_lines (flat_map dlines blocks) = Ok rows ->
  forallb (block_ok d c mult) blocks = true /\ rows = flat_map (block_rows d c mult) blocks.
Proof.
  induction blocks as [|b r IH]; intros rows H.
  - cbn in H. inversion H. split; reflexivity.
  - cbn [flat_map] in H. rewrite accept_lines_app in H.
    destruct (accept_lines (dlines b)) as [ra|] eqn:Ea; [|discriminate].
    destruct (accept_lines (flat_map dlines r)) as [rb|] eqn:Eb; [|discriminate].
    inversion H; subst. destruct (IH rb eq_refl) as [Hall Hrows].
    cbn [forallb flat_map]. rewrite block_ok_lines, Ea, Hall, block_rows_group. unfold group_rows. rewrite Ea, Hrows.
    split; reflexivity.
Qed.

(* conversely: a body the reader gets through without an error and that is acceptable as one block is acknowledged,
   with exactly those rows (so the status and the stored rows do not depend on the schedule of capacities) *)
Theorem serve_write_complete : forall limit declared gz maxline sched body bl rows,
  match limit, declared with Some n, Some dd => (n <? dd)%nat | _, _ => false end = false ->
  match stream_limit limit gz with Some n => (length body <= n)%nat | None => True end ->
  read_blocks EndEOF maxline sched [] body = (bl, true) ->
  accept_block d c mult body = Ok rows ->
  serve_write d c limit declared gz maxline sched mult body = (WAck, rows).
Proof.
  intros limit0 declared gz maxline sched body bl rows Hd Hl R A. unfold serve_write. rewrite Hd.
  assert (limit_stream (stream_limit limit0 gz) body = (body, EndEOF)) as L.
  { unfold limit_stream. destruct (stream_limit limit0 gz) as [n|]; [|reflexivity].
    apply Nat.leb_le in Hl. now rewrite Hl. }
  rewrite L, R. rewrite accept_block_lines in A.
  pose proof (read_blocks_complete _ _ _ _ _ _ R) as Hcpl. cbn [app] in Hcpl. rewrite <- Hcpl in A.
  apply accept_lines_parts in A. destruct A as [Hall Hrows]. rewrite Hall, Hrows. reflexivity.
Qed.

(* a streamed body longer than max-body-size is never acknowledged *)
Theorem serve_write_oversized : forall n declared maxline sched body,
  (n < length body)%nat ->
  fst (serve_write d c (Some n) declared false maxline sched mult body) = WRefused.
Proof.
  intros n declared maxline sched body Hn. unfold serve_write.
  destruct (match declared with Some dd => (n <? dd)%nat | None => false end); [reflexivity|].
  unfold stream_limit, limit_stream. destruct (length body <=? n)%nat eqn:Le; [apply Nat.leb_le in Le; lia|].
  destruct (read_blocks EndErr maxline sched [] (firstn (S n) body)) as [bl ok] eqn:R.
  apply read_blocks_err_not_ok in R. subst. reflexivity.
Qed.

(* whatever the status: the data lines of the body fall into consecutive groups and a dropped remainder; what is stored
   is, group by group, either everything the group's lines denote or nothing. No line is ever stored in part, no
   stored row comes from anything but a complete line of the body. *)
Theorem serve_write_stores_whole_lines : forall limit declared gz maxline sched body st stored,
  serve_write d c limit declared gz maxline sched mult body = (st, stored) ->
  exists groups dropped,
    dlines body = concat groups ++ dropped /\ stored = flat_map group_rows groups.
Proof.
  intros limit0 declared gz maxline sched body st stored H. unfold serve_write in H.
  destruct (match limit0, declared with Some n, Some dd => (n <? dd)%nat | _, _ => false end).
  { inversion H; subst. exists [], (dlines body). split; reflexivity. }
  set (limit := stream_limit limit0 gz) in *.
  destruct (limit_stream limit body) as [stream e] eqn:L.
  destruct (read_blocks e maxline sched [] stream) as [bl ok] eqn:R.
  inversion H; subst. clear H.
  assert (exists more, body = stream ++ more /\ (e = EndErr \/ more = [])) as (more & -> & Hm).
  { unfold limit_stream in L. destruct limit as [n|]; [destruct (length body <=? n)%nat|]; injection L as <- <-.
    - exists []. now rewrite app_nil_r; auto.
    - exists (skipn (S n) body). split; [symmetry; exact (firstn_skipn (S n) body)|now left].
    - exists []. now rewrite app_nil_r; auto. }
  destruct (read_blocks_prefix _ _ _ [] _ _ _ more R Hm) as (dropped & Hd). cbn [app] in Hd.
  exists (map dlines (map fst bl)), dropped. split.
  - rewrite Hd, flat_map_concat_map. reflexivity.
  - rewrite !flat_map_concat_map. f_equal. rewrite (map_map dlines group_rows).
    apply map_ext. intro b. apply block_rows_group.
Qed.

End Accept.
