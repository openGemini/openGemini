(* C06 - dec_parse against the grammar of decimal literals: for every literal written as
     [sign] digits [ . digits ] [ (e|E) [sign] digits ]
   (also without integer digits when there are fraction digits) dec_parse returns the sign, the mantissa
   value(int digits ++ fraction digits), the number of fraction digits, the exponent's sign and the exponent's value - so
   the ratio dec_ratio makes of it is the literal's decimal value  (-1)^s * int.frac * 10^(+-exp). *)
From Coq Require Import ZArith NArith List Bool Lia.
From OG Require Import C06.Model C06.ProofsDec.
Import ListNotations.
Open Scope Z_scope.

Definition mk (n : bool) (m f : Z) (en : bool) (x : Z) : decnum :=
  {| d_neg := n; d_mant := m; d_frac := f; d_eneg := en; d_exp := x |}.

Definition sign_text (sg : option bool) : bytes :=
  match sg with None => [] | Some true => [ch_minus] | Some false => [ch_plus] end.
Definition sign_neg (sg : option bool) : bool := match sg with Some true => true | _ => false end.

Lemma nstep_digit : forall st c, is_digit c = true ->
  nstep st c = Some (match st with
                     | SInit | SSign | SInt => SInt
                     | SPoint | SPointNoInt | SFrac => SFrac
                     | SExp | SExpSign | SExpNum => SExpNum
                     end).
Proof. intros st c H. unfold nstep. rewrite H. destruct st; reflexivity. Qed.

Lemma digit_not_special : forall c, is_digit c = true ->
  is_e c = false /\ (c =? c_dot)%N = false /\ is_sign c = false.
Proof.
  intros c H. apply digit_range in H. unfold is_e, is_sign, c_dot, ch_plus, ch_minus.
  repeat split; repeat (apply orb_false_iff; split); apply N.eqb_neq; lia.
Qed.

Lemma scan_int : forall I st r n m f en x, all_digits I = true -> (st = SInit \/ st = SSign \/ st = SInt) ->
  dec_scan st (I ++ r) (mk n m f en x) = dec_scan (match I with [] => st | _ => SInt end) r (mk n (dfold m I) f en x).
Proof.
  induction I as [|c I IH]; intros st r n m f en x H Hst; [reflexivity|].
  cbn in H. apply andb_true_iff in H. destruct H as [Hc HI].
  cbn [app dec_scan]. rewrite (nstep_digit st c Hc).
  assert (E : match st with SInit | SSign | SInt => SInt | SPoint | SPointNoInt | SFrac => SFrac | _ => SExpNum end = SInt)
    by (destruct Hst as [->|[->| ->]]; reflexivity).
  rewrite E. cbn [d_neg d_mant d_frac d_eneg d_exp mk].
  change {| d_neg := n; d_mant := m * 10 + digit_val c; d_frac := f; d_eneg := en; d_exp := x |} with (mk n (m * 10 + digit_val c) f en x).
  rewrite (IH SInt r n (m * 10 + digit_val c) f en x HI (or_intror (or_intror eq_refl))).
  destruct I; reflexivity.
Qed.

Lemma scan_frac : forall F st r n m f en x, all_digits F = true -> (st = SPoint \/ st = SPointNoInt \/ st = SFrac) ->
  dec_scan st (F ++ r) (mk n m f en x) =
  dec_scan (match F with [] => st | _ => SFrac end) r (mk n (dfold m F) (f + Z.of_nat (length F)) en x).
Proof.
  induction F as [|c F IH]; intros st r n m f en x H Hst.
  - cbn. now rewrite Z.add_0_r.
  - cbn in H. apply andb_true_iff in H. destruct H as [Hc HF].
    cbn [app dec_scan]. rewrite (nstep_digit st c Hc).
    assert (E : match st with SInit | SSign | SInt => SInt | SPoint | SPointNoInt | SFrac => SFrac | _ => SExpNum end = SFrac)
      by (destruct Hst as [->|[->| ->]]; reflexivity).
    rewrite E. cbn [d_neg d_mant d_frac d_eneg d_exp mk].
    change {| d_neg := n; d_mant := m * 10 + digit_val c; d_frac := f + 1; d_eneg := en; d_exp := x |} with (mk n (m * 10 + digit_val c) (f + 1) en x).
    rewrite (IH SFrac r n (m * 10 + digit_val c) (f + 1) en x HF (or_intror (or_intror eq_refl))).
    replace (f + 1 + Z.of_nat (length F)) with (f + Z.of_nat (length (c :: F))) by (cbn [length]; lia).
    destruct F; reflexivity.
Qed.

Lemma scan_exp : forall X st r n m f en x, all_digits X = true -> (st = SExp \/ st = SExpSign \/ st = SExpNum) ->
  dec_scan st (X ++ r) (mk n m f en x) = dec_scan (match X with [] => st | _ => SExpNum end) r (mk n m f en (dfold x X)).
Proof.
  induction X as [|c X IH]; intros st r n m f en x H Hst; [reflexivity|].
  cbn in H. apply andb_true_iff in H. destruct H as [Hc HX].
  cbn [app dec_scan]. rewrite (nstep_digit st c Hc).
  assert (E : match st with SInit | SSign | SInt => SInt | SPoint | SPointNoInt | SFrac => SFrac | _ => SExpNum end = SExpNum)
    by (destruct Hst as [->|[->| ->]]; reflexivity).
  rewrite E. cbn [d_neg d_mant d_frac d_eneg d_exp mk].
  change {| d_neg := n; d_mant := m; d_frac := f; d_eneg := en; d_exp := x * 10 + digit_val c |} with (mk n m f en (x * 10 + digit_val c)).
  rewrite (IH SExpNum r n m f en (x * 10 + digit_val c) HX (or_intror (or_intror eq_refl))).
  destruct X; reflexivity.
Qed.

Lemma scan_exp_end : forall X st n m f en x, all_digits X = true -> (st = SExp \/ st = SExpSign \/ st = SExpNum) ->
  dec_scan st X (mk n m f en x) = mk n m f en (dfold x X).
Proof. intros. pose proof (scan_exp X st [] n m f en x H H0) as E. rewrite app_nil_r in E. exact E. Qed.

Lemma scan_sign : forall sg r,
  dec_scan SInit (sign_text sg ++ r) (mk false 0 0 false 0) =
  dec_scan (match sg with None => SInit | Some _ => SSign end) r (mk (sign_neg sg) 0 0 false 0).
Proof. intros [[|]|] r; reflexivity. Qed.

Lemma scan_dot : forall st r d, (st = SInit \/ st = SSign \/ st = SInt) ->
  dec_scan st (c_dot :: r) d = dec_scan (match st with SInt => SPoint | _ => SPointNoInt end) r d.
Proof. intros st r d [->|[->| ->]]; reflexivity. Qed.

Lemma scan_e : forall st ec r d, is_e ec = true -> (st = SInt \/ st = SPoint \/ st = SFrac) ->
  dec_scan st (ec :: r) d = dec_scan SExp r d.
Proof.
  intros st ec r d He Hst. cbn [dec_scan]. unfold nstep. rewrite He.
  destruct (is_digit ec) eqn:D; [apply digit_not_special in D; destruct D as [D _]; congruence|].
  destruct Hst as [->|[->| ->]]; reflexivity.
Qed.

Lemma scan_esign : forall es X n m f,
  dec_scan SExp (sign_text es ++ X) (mk n m f false 0) =
  dec_scan (match es with None => SExp | Some _ => SExpSign end) X (mk n m f (sign_neg es) 0).
Proof. intros [[|]|] X n m f; reflexivity. Qed.

Lemma dec_scan_nil : forall st d, dec_scan st [] d = d.
Proof. reflexivity. Qed.

Definition mtext (sg : option bool) (I : bytes) (pp : option bytes) : bytes :=
  sign_text sg ++ I ++ match pp with None => [] | Some F => c_dot :: F end.
Definition frac_of (pp : option bytes) : bytes := match pp with Some F => F | None => [] end.
Definition etext (ex : option (N * option bool * bytes)) : bytes :=
  match ex with None => [] | Some (ec, es, X) => ec :: sign_text es ++ X end.

Definition is_e_char (c : N) : Prop := is_e c = true.

(* an exponent needs a digit before it: I ++ frac_of pp <> [] *)
Theorem dec_parse_literal : forall sg I pp ex,
  all_digits I = true -> all_digits (frac_of pp) = true ->
  match ex with
  | Some (ec, es, X) => is_e ec = true /\ all_digits X = true /\ I ++ frac_of pp <> []
  | None => True
  end ->
  dec_parse (mtext sg I pp ++ etext ex) =
  mk (sign_neg sg) (dec_val (I ++ frac_of pp)) (Z.of_nat (length (frac_of pp)))
     (match ex with Some (_, es, _) => sign_neg es | None => false end)
     (match ex with Some (_, _, X) => dec_val X | None => 0 end).
Proof.
  intros sg I pp ex HI HF Hex. unfold dec_parse, mtext. fold (mk false 0 0 false 0).
  rewrite <- !app_assoc, scan_sign, scan_int by (try exact HI; destruct sg; auto).
  set (st := match I with [] => _ | _ => SInt end).
  assert (Hst : st = SInit \/ st = SSign \/ st = SInt) by (unfold st; destruct I; destruct sg; auto).
  (* the mantissa, up to the state st' and the text that follows *)
  assert (Hm : forall r, exists st', (I ++ frac_of pp <> [] -> st' = SInt \/ st' = SPoint \/ st' = SFrac) /\
            dec_scan st (match pp with None => [] | Some F => c_dot :: F end ++ r) (mk (sign_neg sg) (dfold 0 I) 0 false 0) =
            dec_scan st' r (mk (sign_neg sg) (dec_val (I ++ frac_of pp)) (Z.of_nat (length (frac_of pp))) false 0)).
  { intro r. destruct pp as [F|]; cbn [frac_of app length] in *.
    - rewrite scan_dot, scan_frac by (try exact HF; destruct Hst as [->|[->| ->]]; auto).
      eexists. split; [|change (dec_val (I ++ F)) with (dfold 0 (I ++ F)); rewrite dfold_app; reflexivity].
      unfold st. destruct F; [destruct I; [intros []; reflexivity|auto]|auto].
    - exists st. rewrite app_nil_r. split; [|reflexivity]. unfold st. destruct I; [intros []; reflexivity|auto]. }
  destruct ex as [[[ec es] X]|]; cbn [etext].
  - destruct Hex as (He & HX & Hne). destruct (Hm (ec :: sign_text es ++ X)) as (st' & Hst' & ->).
    rewrite (scan_e _ ec _ _ He), scan_esign, scan_exp_end by (try exact HX; destruct es; auto). reflexivity.
  - destruct (Hm []) as (st' & _ & ->). reflexivity.
Qed.
