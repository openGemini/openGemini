(* C06: the canonical rendering of a value / field parses back to what it denotes (repaired parser). *)
From Coq Require Import ZArith NArith List Bool Lia.
From OG Require Import C06.Model C06.Proofs C06.ProofsDec.
Import ListNotations.
Open Scope Z_scope.

(* texts split_unq runs through without stopping, outside quotes and with no backslash pending *)
Definition transq (ch : N) (a : bytes) : Prop :=
  forall r, split_unq ch false false (a ++ r) = lift a (split_unq ch false false r).

Lemma transq_app : forall ch a b, transq ch a -> transq ch b -> transq ch (a ++ b).
Proof. intros ch a b Ha Hb r. rewrite <- app_assoc, Ha, Hb, lift_app. reflexivity. Qed.
Lemma transq_nil : forall ch, transq ch [].
Proof. intros ch r. cbn. now rewrite lift_nil. Qed.

Lemma transq_char : forall ch c,
  (c =? ch)%N = false -> (c =? c_bs)%N = false -> (c =? c_quote)%N = false -> transq ch [c].
Proof.
  intros ch c H1 H2 H3 r. cbn [app split_unq]. rewrite H1, H2, H3. cbn [andb].
  destruct (split_unq ch false false r) as [[x y]|]; reflexivity.
Qed.

Lemma transq_esc : forall ch c, (ch =? c_bs)%N = false -> transq ch [c_bs; c].
Proof.
  intros ch c Hbs r. cbn [app split_unq]. rewrite (N.eqb_sym c_bs ch), Hbs, N.eqb_refl. change (c_bs =? c_quote)%N with false.
  cbn [andb negb]. rewrite !andb_false_r.
  destruct (c =? c_bs)%N; destruct (split_unq ch false false r) as [[x y]|]; reflexivity.
Qed.

Definition no_quote (s : bytes) : Prop := Forall (fun c => (c =? c_quote)%N = false) s.

Lemma transq_escape_tag : forall ch s,
  is_esc ch = true -> (ch =? c_bs)%N = false -> no_quote s -> transq ch (escape_tag s).
Proof.
  intros ch s Hesc Hbs Hq. induction Hq as [|c t Hc Ht IH]; [apply transq_nil|].
  cbn [escape_tag]. destruct (is_esc c) eqn:E.
  - apply (transq_app ch [c_bs; c]); [apply transq_esc; exact Hbs|exact IH].
  - apply (transq_app ch [c]); [apply transq_char; [now apply esc_neq|now apply not_esc_not_bs|exact Hc]|exact IH].
Qed.

Ltac clean := repeat (progress (rewrite ?andb_false_r, ?andb_true_r, ?N.eqb_refl; cbn [andb negb])).

(* inside a quoted string nothing stops the scan; the closing quote returns it to the outer state *)
Lemma split_unq_in_string : forall ch s r, (ch =? c_quote)%N = false ->
  split_unq ch true false (escape_str s ++ c_quote :: r) =
  lift (escape_str s ++ [c_quote]) (split_unq ch false false r).
Proof.
  intros ch s r Hq. assert (Hq' : (c_quote =? ch)%N = false) by (rewrite N.eqb_sym; exact Hq).
  induction s as [|c t IH].
  - cbn [escape_str app split_unq]. rewrite Hq'. change (c_quote =? c_bs)%N with false. clean.
    destruct (split_unq ch false false r) as [[x y]|]; reflexivity.
  - cbn [escape_str]. destruct ((c =? c_quote)%N || (c =? c_bs)%N) eqn:E.
    + cbn [app split_unq]. change (c_bs =? c_quote)%N with false. clean.
      assert (Hp : (if (c =? c_bs)%N then false else false) = false) by (destruct (c =? c_bs)%N; reflexivity).
      rewrite Hp, IH. destruct (split_unq ch false false r) as [[x y]|]; reflexivity.
    + apply orb_false_iff in E. destruct E as [E1 E2].
      cbn [app split_unq]. rewrite E1, E2. clean. rewrite IH.
      destruct (split_unq ch false false r) as [[x y]|]; reflexivity.
Qed.

Lemma transq_string : forall ch s, (ch =? c_quote)%N = false -> (ch =? c_bs)%N = false ->
  transq ch (c_quote :: escape_str s ++ [c_quote]).
Proof.
  intros ch s Hq Hb r. cbn [app split_unq].
  assert (Hq' : (c_quote =? ch)%N = false) by (rewrite N.eqb_sym; exact Hq).
  rewrite Hq'. change (c_quote =? c_bs)%N with false. clean.
  rewrite <- app_assoc. cbn [app]. rewrite (split_unq_in_string ch s r Hq).
  destruct (split_unq ch false false r) as [[x y]|]; cbn; rewrite <- ?app_assoc; reflexivity.
Qed.

Definition plain (ch : N) (s : bytes) : Prop :=
  Forall (fun c => (c =? ch)%N = false /\ (c =? c_bs)%N = false /\ (c =? c_quote)%N = false) s.

Lemma transq_plain : forall ch s, plain ch s -> transq ch s.
Proof.
  intros ch s H. induction H as [|c t [H1 [H2 H3]] Ht IH]; [apply transq_nil|].
  change (c :: t) with ([c] ++ t). apply transq_app; [apply transq_char; assumption | exact IH].
Qed.

Lemma plain_no_unesc_quote : forall ch s, plain ch s -> has_unesc_quote s = false.
Proof.
  intros ch s H. unfold has_unesc_quote.
  assert (G : forall par, split_unesc c_quote par s = None).
  { induction H as [|c t [H1 [H2 H3]] Ht IH]; intro par; [reflexivity|].
    cbn [split_unesc]. rewrite H3. cbn [andb]. rewrite IH. reflexivity. }
  rewrite G. reflexivity.
Qed.

(* what the validity automaton accepts is plain text ending in a digit or a point *)
Definition numch (c : N) : bool := is_digit c || is_e c || (c =? c_dot)%N || is_sign c.

Lemma nstep_numch : forall st c st', nstep st c = Some st' -> numch c = true.
Proof.
  intros st c st' H. unfold nstep in H. unfold numch.
  destruct (is_digit c); [reflexivity|]. destruct (is_e c); [reflexivity|].
  destruct (c =? c_dot)%N; [reflexivity|]. destruct (is_sign c); [apply orb_true_r|discriminate].
Qed.

Lemma numch_plain : forall ch c, numch ch = false -> numch c = true ->
  (c =? ch)%N = false /\ (c =? c_bs)%N = false /\ (c =? c_quote)%N = false.
Proof.
  intros ch c Hch Hc. repeat split.
  - destruct (c =? ch)%N eqn:E; [|reflexivity]. apply N.eqb_eq in E. subst. congruence.
  - destruct (c =? c_bs)%N eqn:E; [|reflexivity]. apply N.eqb_eq in E. subst. discriminate.
  - destruct (c =? c_quote)%N eqn:E; [|reflexivity]. apply N.eqb_eq in E. subst. discriminate.
Qed.

Lemma nrun_numch : forall s st st', nrun st s = Some st' -> Forall (fun c => numch c = true) s.
Proof.
  induction s as [|c r IH]; intros st st' H; [constructor|].
  cbn [nrun] in H. destruct (nstep st c) as [st1|] eqn:S; [|discriminate].
  constructor; [eapply nstep_numch; eauto | eapply IH; eauto].
Qed.

Lemma valid_number_plain : forall ch s, numch ch = false -> valid_number s = true -> plain ch s.
Proof.
  intros ch s Hch H. unfold valid_number in H.
  destruct (nrun SInit s) as [st|] eqn:R; [|discriminate].
  apply nrun_numch in R. unfold plain. eapply Forall_impl; [|exact R].
  intros c Hc. apply numch_plain; assumption.
Qed.

Lemma valid_number_last : forall s l, valid_number (s ++ [l]) = true -> is_digit l = true \/ (l =? c_dot)%N = true.
Proof.
  intros s l H. unfold valid_number in H. rewrite nrun_snoc in H.
  destruct (nrun SInit s) as [st|]; [|discriminate].
  unfold nstep in H. destruct (is_digit l); [left; reflexivity|].
  destruct (is_e l). { destruct st; discriminate. }
  destruct (l =? c_dot)%N; [right; reflexivity|].
  destruct (is_sign l); [destruct st; discriminate | discriminate].
Qed.

Lemma bool_text_head : forall s, is_true_text s = true \/ is_false_text s = true ->
  exists c r, s = c :: r /\ numch c = false.
Proof.
  intros s [H|H]; unfold is_true_text, is_false_text in H;
  repeat (apply orb_true_iff in H; destruct H as [H|H]);
  apply list_beq_eq in H; subst; eexists; eexists; split; reflexivity.
Qed.

Lemma valid_number_not_bool : forall s, valid_number s = true -> is_true_text s = false /\ is_false_text s = false.
Proof.
  intros s H.
  assert (G : is_true_text s = true \/ is_false_text s = true -> False).
  { intros Hb. destruct (bool_text_head s Hb) as [c [r [E Hc]]]. subst s.
    unfold valid_number in H. cbn [nrun] in H. destruct (nstep SInit c) as [st|] eqn:S; [|discriminate].
    apply nstep_numch in S. congruence. }
  split; [destruct (is_true_text s)|destruct (is_false_text s)]; auto; exfalso; auto.
Qed.

Lemma digit_or_dot_not_suffix : forall l, is_digit l = true \/ (l =? c_dot)%N = true ->
  (l =? 105)%N = false /\ (l =? 117)%N = false /\ (l =? 102)%N = false.
Proof.
  intros l H. repeat split.
  - destruct (l =? 105)%N eqn:E; [|reflexivity]. apply N.eqb_eq in E. subst. destruct H; discriminate.
  - destruct (l =? 117)%N eqn:E; [|reflexivity]. apply N.eqb_eq in E. subst. destruct H; discriminate.
  - destruct (l =? 102)%N eqn:E; [|reflexivity]. apply N.eqb_eq in E. subst. destruct H; discriminate.
Qed.

Lemma parse_tag_render : forall k v,
  k <> [] -> v <> [] -> (List.length k <= max_key_len)%nat -> (Z.of_nat (List.length v) <= max_tagval_len) ->
  parse_tag (escape_tag k ++ c_eq :: escape_tag v) = Ok (Some (k, v)).
Proof.
  intros k v Hk Hv Hlk Hlv. unfold parse_tag.
  rewrite (split_unesc_escape_tag c_eq k _ eq_refl eq_refl). rewrite !unescape_escape_tag.
  assert (H1 : Nat.ltb max_key_len (List.length k) = false) by (apply Nat.ltb_ge; exact Hlk). rewrite H1.
  assert (H2 : (max_tagval_len <? Z.of_nat (List.length v)) = false) by (apply Z.ltb_ge; exact Hlv). rewrite H2.
  destruct k; [congruence|]. destruct v; [congruence|]. reflexivity.
Qed.

Definition tag_body (t : bytes * bytes) : bytes := escape_tag (fst t) ++ c_eq :: escape_tag (snd t).

Lemma render_tag_body : forall t, render_tag t = c_comma :: tag_body t.
Proof. reflexivity. Qed.

Lemma transp_tag_body : forall ch t, (ch = c_comma \/ ch = c_sp) -> transp ch (tag_body t).
Proof.
  intros ch t Hch. unfold tag_body.
  apply transp_app; [apply transp_escape_tag; destruct Hch; subst; reflexivity|].
  change (c_eq :: escape_tag (snd t)) with ([c_eq] ++ escape_tag (snd t)).
  apply transp_app; [apply transp_char; destruct Hch; subst; reflexivity|].
  apply transp_escape_tag; destruct Hch; subst; reflexivity.
Qed.

Lemma transp_sp_tags : forall tags, transp c_sp (concat (map render_tag tags)).
Proof.
  induction tags as [|t r IH]; [apply transp_nil|].
  cbn [map concat]. rewrite render_tag_body. change (c_comma :: tag_body t) with ([c_comma] ++ tag_body t).
  apply transp_app; [|exact IH]. apply transp_app; [apply transp_char; reflexivity|].
  apply transp_tag_body. right. reflexivity.
Qed.

Lemma split_all_unesc_tags : forall tags t fuel,
  (List.length (tag_body t ++ concat (map render_tag tags)) <= fuel)%nat ->
  split_all_unesc fuel c_comma (tag_body t ++ concat (map render_tag tags)) = tag_body t :: map tag_body tags.
Proof.
  induction tags as [|u r IH]; intros t fuel Hf.
  - cbn [map concat]. rewrite app_nil_r. destruct fuel as [|f]; [reflexivity|].
    cbn [split_all_unesc]. rewrite (transp_none c_comma (tag_body t)); [reflexivity|].
    apply transp_tag_body. left. reflexivity.
  - cbn [map concat] in *. rewrite render_tag_body in *.
    change ((c_comma :: tag_body u) ++ concat (map render_tag r)) with (c_comma :: (tag_body u ++ concat (map render_tag r))) in *.
    destruct fuel as [|f].
    { rewrite app_length in Hf. cbn [List.length] in Hf. lia. }
    cbn [split_all_unesc]. rewrite (transp_split c_comma (tag_body t)); [|apply transp_tag_body; left; reflexivity].
    f_equal. apply IH. rewrite app_length in Hf. cbn [List.length] in Hf. lia.
Qed.

Definition valid_tag (t : bytes * bytes) : Prop :=
  fst t <> [] /\ snd t <> [] /\ (List.length (fst t) <= max_key_len)%nat /\ Z.of_nat (List.length (snd t)) <= max_tagval_len.

Lemma map_result_tags : forall tags, Forall valid_tag tags ->
  map_result parse_tag (map tag_body tags) = Ok (map Some tags).
Proof.
  intros tags H. induction H as [|[k v] r [Hk [Hv [Hlk Hlv]]] Hr IH]; [reflexivity|].
  cbn [map map_result]. unfold tag_body at 1. cbn [fst snd] in *.
  rewrite (parse_tag_render k v Hk Hv Hlk Hlv). cbn [bind]. rewrite IH. reflexivity.
Qed.

Lemma somes_map_Some : forall (A : Type) (l : list A), somes (map Some l) = l.
Proof. induction l as [|a r IH]; [reflexivity|]. cbn. now rewrite IH. Qed.

Lemma mtags_render : forall name tags, Forall valid_tag tags ->
  match split_unesc c_comma false (escape_tag name ++ concat (map render_tag tags)) with
  | Some (m, tagstr) => bind (parse_tags tagstr) (fun tg => Ok (m, sort_tags tg))
  | None => Ok (escape_tag name ++ concat (map render_tag tags), [])
  end = Ok (escape_tag name, sort_tags tags).
Proof.
  intros name [|t r] H.
  - cbn [map concat]. rewrite app_nil_r. rewrite (split_unesc_escape_tag_none c_comma name eq_refl eq_refl). reflexivity.
  - cbn [map concat]. rewrite render_tag_body.
    change ((c_comma :: tag_body t) ++ concat (map render_tag r)) with (c_comma :: (tag_body t ++ concat (map render_tag r))).
    rewrite (split_unesc_escape_tag c_comma name _ eq_refl eq_refl).
    unfold parse_tags. rewrite split_all_unesc_tags by apply le_n.
    change (tag_body t :: map tag_body r) with (map tag_body (t :: r)).
    rewrite (map_result_tags (t :: r) H). cbn [bind]. rewrite somes_map_Some. reflexivity.
Qed.

Section Render.
Variable dec2f : bytes -> f64.

Definition store_val (v : pval) : fval :=
  match v with
  | PInt n => VInt n n
  | PFloat lit => VFloat lit (dec2f lit)
  | PBool b => VBool b
  | PStr s => VStr s
  end.

(* a value the line protocol can carry. For integers the decimal round trip parse_int64 (render_int n) = Ok n is a
   premise here; it holds for every int64 (ProofsDec.parse_int64_render_int), which valid_pval_val below uses *)
Definition valid_val (v : pval) : Prop :=
  match v with
  | PInt n => parse_int64 (render_int n) = Ok n /\ plain c_comma (render_int n) /\ plain c_sp (render_int n)
  | PFloat lit => valid_number lit = true /\ f64_is_finite (dec2f lit) = true
  | PBool _ => True
  | PStr _ => True
  end.

Lemma parse_value_render : forall v, valid_val v -> parse_value dec2f cfg_repaired (render_val v) = Ok (store_val v).
Proof.
  intros [n|lit|b|s] Hv; cbn [render_val store_val].
  - destruct Hv as [Hp [Hpl _]]. unfold parse_value.
    assert (Hq : has_unesc_quote (render_int n ++ [105%N]) = false).
    { apply (plain_no_unesc_quote c_comma). unfold plain. apply Forall_app. split; [exact Hpl|].
      constructor; [repeat split; reflexivity|constructor]. }
    rewrite Hq. unfold parse_num_field. rewrite rev_unit. rewrite rev_involutive.
    change (105 =? 105)%N with true. cbv iota. rewrite Hp. reflexivity.
  - destruct Hv as [Hvn Hfin]. unfold parse_value.
    rewrite (plain_no_unesc_quote c_comma lit (valid_number_plain c_comma lit eq_refl Hvn)).
    unfold parse_num_field.
    destruct (rev lit) as [|l rinit] eqn:R.
    { assert (lit = []) by (rewrite <- (rev_involutive lit), R; reflexivity). subst. discriminate. }
    apply rev_cons_eq in R.
    assert (Hl : is_digit l = true \/ (l =? c_dot)%N = true) by (apply (valid_number_last (rev rinit)); rewrite <- R; exact Hvn).
    destruct (digit_or_dot_not_suffix l Hl) as [H1 [H2 H3]]. rewrite H1, H2, H3. cbn [andb].
    destruct (valid_number_not_bool lit Hvn) as [Ht Hf]. rewrite Ht, Hf, Hvn.
    unfold float_of_valid. cbn [cfg_repaired c_plus c_negdot andb]. cbn [fval_finite]. rewrite Hfin. reflexivity.
  - destruct b; reflexivity.
  - unfold parse_value. unfold has_unesc_quote. cbn [split_unesc]. rewrite N.eqb_refl. cbn [andb negb].
    unfold parse_str_field. rewrite N.eqb_refl. rewrite rev_unit. rewrite N.eqb_refl. rewrite rev_involutive.
    rewrite unesc_escape_str. reflexivity.
Qed.

Definition valid_key (k : bytes) : Prop := k <> [] /\ (List.length k <= max_key_len)%nat.

Lemma parse_field_render : forall k v,
  valid_key k -> valid_val v ->
  parse_field dec2f cfg_repaired (render_field (k, v)) = Ok (k, store_val v).
Proof.
  intros k v [Hk Hlen] Hv. unfold parse_field, render_field. cbn [fst snd].
  rewrite (split_unesc_escape_tag c_eq k (render_val v) eq_refl eq_refl).
  rewrite unescape_escape_tag. destruct k as [|k0 kr]; [congruence|].
  assert (Hl : Nat.ltb max_key_len (List.length (k0 :: kr)) = false) by (apply Nat.ltb_ge; exact Hlen).
  rewrite Hl. rewrite (parse_value_render v Hv). reflexivity.
Qed.

(* a rendered field is passed over by the comma and space scans of the field section: the section is cut exactly
   where the renderer put its separators *)
Lemma transq_render_val : forall ch v,
  (ch = c_comma \/ ch = c_sp) -> valid_val v -> transq ch (render_val v).
Proof.
  intros ch v Hch Hv. destruct v as [n|lit|b|s]; cbn [render_val].
  - destruct Hv as [_ [Hc Hs]]. apply transq_app.
    + apply transq_plain. destruct Hch; subst; assumption.
    + apply transq_char; destruct Hch; subst; reflexivity.
  - destruct Hv as [Hvn _]. apply transq_plain. apply valid_number_plain; [destruct Hch; subst; reflexivity | exact Hvn].
  - apply transq_plain. destruct b; destruct Hch; subst; repeat constructor.
  - apply transq_string; destruct Hch; subst; reflexivity.
Qed.

Lemma transq_render_field : forall ch k v,
  (ch = c_comma \/ ch = c_sp) -> no_quote k -> valid_val v -> transq ch (render_field (k, v)).
Proof.
  intros ch k v Hch Hq Hv. unfold render_field. cbn [fst snd].
  apply transq_app; [apply transq_escape_tag; [destruct Hch; subst; reflexivity | destruct Hch; subst; reflexivity | exact Hq]|].
  change (c_eq :: render_val v) with ([c_eq] ++ render_val v).
  apply transq_app; [apply transq_char; destruct Hch; subst; reflexivity | apply transq_render_val; assumption].
Qed.

Lemma transq_join : forall ch segs, (ch =? c_comma)%N = false ->
  Forall (transq ch) segs -> transq ch (join_fields segs).
Proof.
  intros ch segs Hc H. induction H as [|x r Hx Hr IH]; [apply transq_nil|].
  destruct r as [|y r']; [exact Hx|].
  change (join_fields (x :: y :: r')) with (x ++ [c_comma] ++ join_fields (y :: r')).
  apply transq_app; [exact Hx|]. apply transq_app; [|exact IH].
  apply transq_char; [rewrite N.eqb_sym; exact Hc | reflexivity | reflexivity].
Qed.

Lemma split_all_unq_join : forall segs fuel,
  segs <> [] -> Forall (transq c_comma) segs -> (List.length (join_fields segs) <= fuel)%nat ->
  split_all_unq fuel c_comma (join_fields segs) = segs.
Proof.
  induction segs as [|x r IH]; intros fuel Hne H Hf; [congruence|].
  inversion H as [|x' r' Hx Hr]; subst.
  destruct r as [|y r'].
  - cbn [join_fields]. destruct fuel as [|f]; [reflexivity|].
    cbn [split_all_unq]. pose proof (Hx []) as E. rewrite app_nil_r in E. cbn in E. rewrite E. reflexivity.
  - change (join_fields (x :: y :: r')) with (x ++ c_comma :: join_fields (y :: r')) in *.
    destruct fuel as [|f].
    { rewrite app_length in Hf. cbn in Hf. lia. }
    cbn [split_all_unq]. rewrite (Hx (c_comma :: join_fields (y :: r'))).
    cbn [split_unq]. rewrite N.eqb_refl. cbn [andb negb lift]. rewrite app_nil_r.
    f_equal. apply IH; [discriminate | exact Hr |].
    rewrite app_length in Hf. cbn [List.length] in Hf. lia.
Qed.

Definition valid_field (kv : bytes * pval) : Prop := valid_key (fst kv) /\ no_quote (fst kv) /\ valid_val (snd kv).
Definition store_field (kv : bytes * pval) : bytes * fval := (fst kv, store_val (snd kv)).

Lemma map_result_render : forall fs, Forall valid_field fs ->
  map_result (parse_field dec2f cfg_repaired) (map render_field fs) = Ok (map store_field fs).
Proof.
  intros fs H. induction H as [|[k v] r [Hk [_ Hv]] Hr IH]; [reflexivity|].
  cbn [map map_result]. rewrite (parse_field_render k v Hk Hv). cbn [bind]. rewrite IH. reflexivity.
Qed.

Lemma parse_fields_render : forall fs, fs <> [] -> Forall valid_field fs ->
  parse_fields dec2f cfg_repaired (join_fields (map render_field fs)) = Ok (map store_field fs).
Proof.
  intros fs Hne H. unfold parse_fields.
  rewrite split_all_unq_join.
  - apply map_result_render. exact H.
  - destruct fs; [congruence|discriminate].
  - apply Forall_map. eapply Forall_impl; [|exact H]. intros [k v] [_ [Hq Hv]].
    apply transq_render_field; [left; reflexivity | exact Hq | exact Hv].
  - apply le_n.
Qed.

Lemma drop_while_head : forall p h t, p h = false -> drop_while p (h :: t) = h :: t.
Proof. intros p h t H. cbn. rewrite H. reflexivity. Qed.

Lemma escape_tag_head : forall k, k <> [] ->
  exists h t, escape_tag k = h :: t /\ is_sp h = false /\
              (match k with c :: _ => (c =? 9)%N = false /\ (c =? 0)%N = false | [] => True end -> is_lead_ws h = false).
Proof.
  intros [|c r] H; [congruence|]. cbn [escape_tag]. destruct (is_esc c) eqn:E.
  - eexists; eexists; split; [reflexivity|]. split; [reflexivity|]. intros _. reflexivity.
  - eexists; eexists; split; [reflexivity|].
    assert (Hs : (c =? 32)%N = false).
    { unfold is_esc in E. destruct (c =? c_sp)%N eqn:S; [discriminate|exact S]. }
    split; [exact Hs|]. intros [H9 H0]. unfold is_lead_ws. rewrite Hs, H9, H0. reflexivity.
Qed.

Lemma drop_sp_ascii : forall t, trim_sp true (drop_while is_sp t) = trim_sp true t.
Proof.
  induction t as [|c r IH]; [reflexivity|]. cbn [drop_while]. destruct (is_sp c) eqn:S.
  - unfold is_sp in S. assert (is_ascii_ws c = true) by (unfold is_ascii_ws; rewrite S; reflexivity).
    cbn [trim_sp]. rewrite H. exact IH.
  - reflexivity.
Qed.

Lemma parse_ts_drop_sp : forall t, parse_ts (drop_while is_sp t) = parse_ts t.
Proof. intro t. unfold parse_ts, trim_ws. rewrite drop_sp_ascii. reflexivity. Qed.

Definition valid_name (n : bytes) : Prop :=
  n <> [] /\ (List.length n <= max_name_len)%nat /\
  match n with c :: _ => (c =? 9)%N = false /\ (c =? 0)%N = false | [] => True end.

(* the rendered line parses back: measurement, tags sorted by key, every field with the value it denotes, timestamp.  The
   decimal round trip of the timestamp is a premise here (and that of the integers is one in valid_val) *)
Lemma parse_line_render : forall name tags fs ts,
  valid_name name -> Forall valid_tag tags -> fs <> [] -> Forall valid_field fs ->
  parse_ts (render_nat ts) = Ok (Some ts) ->
  parse_line dec2f cfg_repaired (render {| p_name := name; p_tags := tags; p_fields := fs; p_ts := ts |}) =
  Ok {| r_name := name; r_tags := sort_tags tags; r_fields := map store_field fs; r_ts := Some ts |}.
Proof.
  intros name tags fs ts [Hn [Hlen Hfirst]] Htags Hne Hfs Hts.
  (* the first unescaped space is the one after name and tags (transp); the tags are cut back by mtags_render; the field
     section ends at the next unquoted space (transq) and is cut back by parse_fields_render; the timestamp remains *)
  unfold render. cbn [p_name p_tags p_fields p_ts].
  set (T := concat (map render_tag tags)). set (F := join_fields (map render_field fs)).
  destruct (escape_tag_head name Hn) as [h [t [Eh [_ Hlead]]]].
  unfold parse_line.
  assert (Hd : drop_while is_lead_ws (escape_tag name ++ T ++ c_sp :: F ++ c_sp :: render_nat ts) =
               escape_tag name ++ T ++ c_sp :: F ++ c_sp :: render_nat ts).
  { rewrite Eh. cbn [app]. apply drop_while_head. apply Hlead. exact Hfirst. }
  rewrite Hd. rewrite app_assoc.
  rewrite (transp_split c_sp (escape_tag name ++ T)).
  2:{ apply transp_app; [apply transp_escape_tag; reflexivity | apply transp_sp_tags]. }
  (* the field section does not start with a space *)
  assert (HF : exists fh ft, F = fh :: ft /\ is_sp fh = false).
  { unfold F. destruct fs as [|[k v] r]; [congruence|].
    inversion Hfs as [|x y [[Hk _] _] _]; subst.
    destruct (escape_tag_head k Hk) as [kh [kt [Ek [Hsp _]]]].
    cbn [map]. unfold render_field at 1. cbn [fst snd]. rewrite Ek.
    destruct (map render_field r); cbn [join_fields app]; eexists; eexists; split; try reflexivity; exact Hsp. }
  destruct HF as [fh [ft [EF Hfh]]].
  assert (Hd2 : drop_while is_sp (F ++ c_sp :: render_nat ts) = F ++ c_sp :: render_nat ts).
  { rewrite EF. cbn [app]. apply drop_while_head. exact Hfh. }
  rewrite Hd2. unfold T.
  match goal with |- bind ?X _ = _ =>
    replace X with (@Ok (bytes * list (bytes * bytes)) (escape_tag name, sort_tags tags))
      by (symmetry; apply mtags_render; exact Htags) end.
  cbn [bind fst snd].
  rewrite unescape_escape_tag.
  assert (Hl : Nat.ltb max_name_len (List.length name) = false) by (apply Nat.ltb_ge; exact Hlen).
  rewrite Hl.
  assert (HT : transq c_sp F).
  { unfold F. apply transq_join; [reflexivity|]. apply Forall_map. eapply Forall_impl; [|exact Hfs].
    intros [k v] [_ [Hq Hv]]. apply transq_render_field; [right; reflexivity | exact Hq | exact Hv]. }
  rewrite (HT (c_sp :: render_nat ts)). cbn [split_unq]. rewrite N.eqb_refl. cbn [andb negb lift]. rewrite app_nil_r.
  unfold F. rewrite (parse_fields_render fs Hne Hfs). cbn [bind].
  rewrite parse_ts_drop_sp, Hts. reflexivity.
Qed.


(* parse_render for points without tags. PARTIAL: (1) tags are not covered here; (2) the decimal round trips
   parse_int64 (render_int n) = Ok n and parse_ts (render_nat ts) = Ok (Some ts) are premises (valid_val, Hts).
   parse_render below has neither restriction. *)
Lemma parse_render_notags_partial : forall name fs ts,
  valid_name name -> fs <> [] -> Forall valid_field fs ->
  parse_ts (render_nat ts) = Ok (Some ts) ->
  parse_line dec2f cfg_repaired (render {| p_name := name; p_tags := []; p_fields := fs; p_ts := ts |}) =
  Ok {| r_name := name; r_tags := []; r_fields := map store_field fs; r_ts := Some ts |}.
Proof.
  intros name fs ts Hn Hne Hfs Hts. exact (parse_line_render name [] fs ts Hn (Forall_nil _) Hne Hfs Hts).
Qed.

End Render.

Section RenderFull.
Variable dec2f : bytes -> f64.

Definition valid_pval (v : pval) : Prop :=
  match v with
  | PInt n => in_int64 n = true
  | PFloat lit => valid_number lit = true /\ f64_is_finite (dec2f lit) = true
  | PBool _ => True
  | PStr _ => True
  end.

Lemma digit_or_minus_plain : forall ch c, numch ch = false -> (is_digit c = true \/ c = ch_minus) ->
  (c =? ch)%N = false /\ (c =? c_bs)%N = false /\ (c =? c_quote)%N = false.
Proof.
  intros ch c Hch Hc. apply numch_plain; [exact Hch|]. unfold numch. destruct Hc as [Hc| ->]; [rewrite Hc|]; reflexivity.
Qed.

Lemma valid_pval_val : forall v, valid_pval v -> valid_val dec2f v.
Proof.
  intros [n|lit|b|s] H; cbn [valid_pval valid_val] in *; auto.
  split; [apply parse_int64_render_int; exact H|].
  split; (eapply Forall_impl; [|apply render_int_chars]); intros c Hc; apply digit_or_minus_plain; auto.
Qed.

Definition valid_pfield (kv : bytes * pval) : Prop := valid_key (fst kv) /\ no_quote (fst kv) /\ valid_pval (snd kv).

(* a point the line protocol can carry *)
Definition valid (p : point) : Prop :=
  valid_name (p_name p) /\ Forall valid_tag (p_tags p) /\ p_fields p <> [] /\ Forall valid_pfield (p_fields p) /\
  0 <= p_ts p <= max_int64.

(* what is stored for it: the same measurement, the tags sorted by key, every field with the value it denotes, the
   timestamp *)
Definition store (p : point) : row :=
  {| r_name := p_name p; r_tags := sort_tags (p_tags p); r_fields := map (store_field dec2f) (p_fields p); r_ts := Some (p_ts p) |}.

Theorem parse_render : forall p, valid p -> parse_line dec2f cfg_repaired (render p) = Ok (store p).
Proof.
  intros [name tags fs ts] (Hn & Htags & Hne & Hfs & Hts). cbn [p_name p_tags p_fields p_ts] in *.
  apply parse_line_render; auto using parse_ts_render_nat.
  eapply Forall_impl; [|exact Hfs]. intros kv (H1 & H2 & H3). split; [exact H1|split; [exact H2|now apply valid_pval_val]].
Qed.

End RenderFull.
