(* C06 - the reference conversion: round_ratio (Model.v) returns num/den rounded to the nearest multiple of the spacing of
   binary64 in the binade of num/den, ties to even.  All arithmetic on Z, quotients by cross-multiplication. *)
From Coq Require Import ZArith Bool Lia.
From OG Require Import C06.Model C06.ProofsInt.
Open Scope Z_scope.

(* num/den / 2^k = An num k / Bd den k for every integer k *)
Definition An (num k : Z) : Z := if k <? 0 then num * 2 ^ (- k) else num.
Definition Bd (den k : Z) : Z := if k <? 0 then den else den * 2 ^ k.

Lemma AnBd_spec : forall n d k,
  (k < 0 /\ An n k = n * 2 ^ (- k) /\ Bd d k = d) \/ (0 <= k /\ An n k = n /\ Bd d k = d * 2 ^ k).
Proof. intros n d k. unfold An, Bd. destruct (Z.ltb_spec k 0); [left|right]; auto. Qed.

Lemma An_pos : forall a k, 0 < a -> 0 < An a k.
Proof.
  intros a k Ha. destruct (AnBd_spec a a k) as [(H & -> & _)|(_ & -> & _)]; [|exact Ha].
  pose proof (pow2_pos (- k) ltac:(lia)). nia.
Qed.
Lemma Bd_pos : forall a k, 0 < a -> 0 < Bd a k.
Proof.
  intros a k Ha. destruct (AnBd_spec a a k) as [(_ & _ & ->)|(H & _ & ->)]; [exact Ha|].
  pose proof (pow2_pos k H). nia.
Qed.

(* dividing by 2^k is multiplying by 2^-k *)
Lemma An_opp : forall a k, An a k = Bd a (- k).
Proof.
  intros a k. destruct (AnBd_spec a a k) as [(H & -> & _)|(H & -> & _)];
    destruct (AnBd_spec a a (- k)) as [(H' & _ & ->)|(H' & _ & ->)]; try lia; try reflexivity.
  replace (- k) with 0 by lia. lia.
Qed.
Lemma Bd_opp : forall a k, Bd a k = An a (- k).
Proof. intros. now rewrite An_opp, Z.opp_involutive. Qed.

(* (num/den)/2^k = 2^j * (num/den)/2^(k+j) *)
Lemma shift : forall num den k j, 0 <= j ->
  An num k * Bd den (k + j) = 2 ^ j * (An num (k + j) * Bd den k).
Proof.
  intros num den k j Hj.
  destruct (AnBd_spec num den k) as [(H & -> & ->)|(H & -> & ->)];
    destruct (AnBd_spec num den (k + j)) as [(H' & -> & ->)|(H' & -> & ->)]; try lia.
  - replace (- k) with (j + - (k + j)) by lia. rewrite Z.pow_add_r by lia. ring.
  - replace j with (- k + (k + j)) at 2 by lia. rewrite (Z.pow_add_r 2 (- k)) by lia. ring.
  - rewrite Z.pow_add_r by lia. ring.
Qed.

(* comparing a * num/den with c * 2^(k+j) at the scales k and k + j: the two differences have one sign *)
Lemma rescale : forall num den k j a c, 0 <= j ->
  (a * An num k - c * 2 ^ j * Bd den k) * Bd den (k + j) =
  2 ^ j * Bd den k * (a * An num (k + j) - c * Bd den (k + j)).
Proof.
  intros num den k j a c Hj.
  transitivity (a * (An num k * Bd den (k + j)) - c * 2 ^ j * Bd den k * Bd den (k + j)); [ring|].
  rewrite shift by exact Hj. ring.
Qed.

Lemma rescale_lt : forall num den k j a c, 0 < den -> 0 <= j ->
  a * An num k < c * 2 ^ j * Bd den k <-> a * An num (k + j) < c * Bd den (k + j).
Proof.
  intros num den k j a c Hd Hj. pose proof (rescale num den k j a c Hj) as R.
  pose proof (Bd_pos den (k + j) Hd). assert (0 < 2 ^ j * Bd den k) by (pose proof (Bd_pos den k Hd); pose proof (pow2_pos j Hj); nia).
  split; intro; nia.
Qed.

Lemma rescale_le : forall num den k j a c, 0 < den -> 0 <= j ->
  c * 2 ^ j * Bd den k <= a * An num k <-> c * Bd den (k + j) <= a * An num (k + j).
Proof. intros. rewrite <- !Z.nlt_ge. apply not_iff_compat. now apply rescale_lt. Qed.

(* num/den < 2^k stays true at every larger k, 2^k <= num/den at every smaller one *)
Lemma below_mono : forall num den k k', 0 < den -> k <= k' ->
  An num k < Bd den k -> An num k' < Bd den k'.
Proof.
  intros num den k k' Hd Hk H. pose proof (rescale_lt num den k (k' - k) 1 1 Hd ltac:(lia)) as R.
  replace (k + (k' - k)) with k' in R by lia.
  pose proof (pow2_pos (k' - k) ltac:(lia)). pose proof (Bd_pos den k Hd). assert (1 * An num k' < 1 * Bd den k') by (apply R; nia). lia.
Qed.
Lemma above_anti : forall num den k k', 0 < den -> k' <= k ->
  Bd den k <= An num k -> Bd den k' <= An num k'.
Proof.
  intros num den k k' Hd Hk H. pose proof (rescale_le num den k' (k - k') 1 1 Hd ltac:(lia)) as R.
  replace (k' + (k - k')) with k in R by lia.
  pose proof (pow2_pos (k - k') ltac:(lia)). pose proof (Bd_pos den k' Hd). assert (1 * 2 ^ (k - k') * Bd den k' <= 1 * An num k') by (apply R; lia). nia.
Qed.

(* 2^p <= x and y < 2^q: y/x < 2^(q-p) *)
Lemma ratio_below : forall x y p q, 0 <= p -> 0 <= q -> 2 ^ p <= x -> y < 2 ^ q -> Bd y (p - q) < An x (p - q).
Proof.
  intros x y p q Hp Hq Hx Hy. destruct (AnBd_spec x y (p - q)) as [(H & -> & ->)|(H & -> & ->)].
  - pose proof (Z.pow_add_r 2 p (- (p - q)) Hp ltac:(lia)) as E. replace (p + - (p - q)) with q in E by lia.
    pose proof (pow2_pos (- (p - q)) ltac:(lia)). nia.
  - pose proof (Z.pow_add_r 2 q (p - q) Hq H) as E. replace (q + (p - q)) with p in E by lia.
    pose proof (pow2_pos (p - q) ltac:(lia)). nia.
Qed.

(* the exponent round_ratio computes *)
Definition rr_exp (num den : Z) : Z :=
  let e0 := Z.log2 num - Z.log2 den in
  let ge := if 0 <=? e0 then den * 2 ^ e0 <=? num else den <=? num * 2 ^ (- e0) in
  if ge then e0 else e0 - 1.

(* 2^e <= num/den < 2^(e+1) *)
Lemma rr_exp_binade : forall num den, 0 < num -> 0 < den ->
  Bd den (rr_exp num den) <= An num (rr_exp num den) /\ An num (rr_exp num den + 1) < Bd den (rr_exp num den + 1).
Proof.
  intros num den Hn Hd. pose proof (Z.log2_spec num Hn) as [Ha1 Ha2]. pose proof (Z.log2_spec den Hd) as [Hb1 Hb2].
  pose proof (Z.log2_nonneg num) as Ha0. pose proof (Z.log2_nonneg den) as Hb0.
  unfold rr_exp. set (a := Z.log2 num) in *. set (b := Z.log2 den) in *. cbv zeta.
  (* 2^(a-b-1) < num/den < 2^(a-b+1) *)
  assert (Hlow : Bd den (a - b - 1) < An num (a - b - 1))
    by (replace (a - b - 1) with (a - Z.succ b) by lia; apply ratio_below; lia).
  assert (Hhigh : An num (a - b + 1) < Bd den (a - b + 1)).
  { rewrite (Bd_opp den), (An_opp num). replace (- (a - b + 1)) with (b - Z.succ a) by lia. apply ratio_below; lia. }
  replace (if 0 <=? a - b then den * 2 ^ (a - b) <=? num else den <=? num * 2 ^ (- (a - b)))
    with (Bd den (a - b) <=? An num (a - b)) by (unfold An, Bd; rewrite (Z.leb_antisym _ 0); now destruct (a - b <? 0)).
  destruct (Z.leb_spec (Bd den (a - b)) (An num (a - b))) as [G|G].
  - split; assumption.
  - split; [lia|]. now replace (a - b - 1 + 1) with (a - b) by lia.
Qed.

Definition nearest_even (n d q : Z) : Prop :=
  Z.abs (2 * n - 2 * q * d) <= d /\ (Z.abs (2 * n - 2 * q * d) = d -> Z.even q = true).

(* no multiple of d is nearer to n than q * d *)
Lemma nearest_even_le : forall n d q k, nearest_even n d q -> Z.abs (n - q * d) <= Z.abs (n - k * d).
Proof.
  intros n d q k [H _]. destruct (Z.eq_dec k q) as [->|Hne]; [lia|].
  assert (d <= Z.abs ((k - q) * d)) by (rewrite Z.abs_mul; assert (1 <= Z.abs (k - q)) by lia; nia).
  replace (n - k * d) with ((n - q * d) - (k - q) * d) by ring. lia.
Qed.

Lemma round_step : forall n d, 0 <= n -> 0 < d ->
  let q := n / d in let r := n mod d in
  let up := (d <? 2 * r) || ((2 * r =? d) && Z.odd q) in
  nearest_even n d (if up then q + 1 else q).
Proof.
  intros n d Hn Hd q r up. pose proof (Z.div_mod n d ltac:(lia)) as Hdm. pose proof (Z.mod_pos_bound n d Hd) as Hr.
  fold q in Hdm. fold r in Hdm, Hr. unfold nearest_even. subst up.
  destruct (Z.ltb_spec d (2 * r)); cbn [orb]; [split; [|intro]; nia|].
  destruct (Z.eqb_spec (2 * r) d); cbn [andb]; [|split; [|intro]; nia].
  destruct (Z.odd q) eqn:O; (split; [nia|]); intros _; [rewrite Z.even_add|]; rewrite <- Z.negb_odd, O; reflexivity.
Qed.

Lemma nearest_even_exists : forall n d, 0 <= n -> 0 < d -> exists q, nearest_even n d q.
Proof. intros n d Hn Hd. eexists. exact (round_step n d Hn Hd). Qed.

Lemma nearest_even_unique : forall n d q q', 0 < d -> nearest_even n d q -> nearest_even n d q' -> q = q'.
Proof.
  intros n d q q' Hd [H1 E1] [H2 E2].
  destruct (Z.eq_dec q q') as [|Hne]; [assumption|exfalso].
  (* two candidates are neighbours, n lies half-way between them, and both are even *)
  assert (T : Z.abs (q - q') = 1 /\ Z.abs (2 * n - 2 * q * d) = d /\ Z.abs (2 * n - 2 * q' * d) = d) by nia.
  destruct T as (T & T1 & T2). apply E1, Z.even_spec in T1. apply E2, Z.even_spec in T2.
  destruct T1 as [a ->], T2 as [b ->]. lia.
Qed.

(* the binary64 with significand q in the binade whose spacing is 2^sh: q = 2^53 is the first value of the next binade *)
Definition rr_result (neg : bool) (q sh : Z) : f64 :=
  if q =? 2 ^ 53 then (if 971 <? sh + 1 then FInf neg else FFin neg (2 ^ 52) (sh + 1))
  else if 971 <? sh then FInf neg else FFin neg q sh.

(* round_ratio is determined by the rounding relation alone: whoever exhibits q (checked by a multiplication) knows the
   result without dividing *)
Theorem round_ratio_by : forall neg num den q, 0 < num -> 0 < den ->
  let sh := Z.max (rr_exp num den - 52) (-1074) in
  nearest_even (An num sh) (Bd den sh) q ->
  0 <= q <= 2 ^ 53 /\ (-1074 <= rr_exp num den - 52 -> 2 ^ 52 <= q) /\ round_ratio neg num den = rr_result neg q sh.
Proof.
  intros neg num den q0 Hn Hd sh Hq0.
  pose proof (rr_exp_binade num den Hn Hd) as [Hlo Hhi]. set (e := rr_exp num den) in *.
  pose proof (An_pos num sh Hn) as HA. pose proof (Bd_pos den sh Hd) as HB.
  pose proof (round_step (An num sh) (Bd den sh) ltac:(lia) HB) as Hne. cbv zeta in Hne.
  rewrite (nearest_even_unique _ _ _ _ HB Hq0 Hne). clear q0 Hq0 Hne.
  set (q := An num sh / Bd den sh). set (up := _ || _).
  (* num/den/2^sh < 2^53 since sh + 53 >= e + 1; >= 2^52 when sh + 52 = e *)
  assert (Hq53 : q < 2 ^ 53).
  { apply Z.div_lt_upper_bound; [exact HB|].
    assert (1 * An num sh < 1 * 2 ^ 53 * Bd den sh); [|lia].
    apply rescale_lt; [exact Hd|lia|].
    pose proof (below_mono num den (e + 1) (sh + 53) Hd ltac:(unfold sh; lia) Hhi). lia. }
  assert (Hq52 : -1074 <= e - 52 -> 2 ^ 52 <= q).
  { intro Hs. apply Z.div_le_lower_bound; [exact HB|].
    assert (1 * 2 ^ 52 * Bd den sh <= 1 * An num sh); [|lia].
    apply rescale_le; [exact Hd|lia|]. replace (sh + 52) with e by (unfold sh; lia). lia. }
  assert (Hq0 : 0 <= q) by (apply Z.div_pos; lia).
  split; [destruct up; lia|]. split; [intro Hs; specialize (Hq52 Hs); destruct up; lia|].
  unfold round_ratio, rr_result. fold (rr_exp num den). fold e. fold sh.
  replace (if 0 <=? sh then num else num * 2 ^ (- sh)) with (An num sh)
    by (unfold An; rewrite Z.leb_antisym; now destruct (sh <? 0)).
  replace (if 0 <=? sh then den * 2 ^ sh else den) with (Bd den sh)
    by (unfold Bd; rewrite Z.leb_antisym; now destruct (sh <? 0)).
  fold q. fold up. destruct ((if up then q + 1 else q) =? 2 ^ 53); reflexivity.
Qed.

Corollary round_ratio_correct : forall neg num den, 0 < num -> 0 < den ->
  exists e q,
    let sh := Z.max (e - 52) (-1074) in
    (Bd den e <= An num e /\ An num (e + 1) < Bd den (e + 1)) /\
    nearest_even (An num sh) (Bd den sh) q /\
    0 <= q <= 2 ^ 53 /\ (-1074 <= e - 52 -> 2 ^ 52 <= q) /\
    round_ratio neg num den = rr_result neg q sh.
Proof.
  intros neg num den Hn Hd. set (sh := Z.max (rr_exp num den - 52) (-1074)).
  destruct (nearest_even_exists (An num sh) (Bd den sh)) as [q Hq];
    [pose proof (An_pos num sh Hn); lia|now apply Bd_pos|].
  exists (rr_exp num den), q. split; [now apply rr_exp_binade|]. split; [exact Hq|]. now apply round_ratio_by.
Qed.
