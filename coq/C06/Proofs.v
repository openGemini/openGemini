(* C06: byte strings from literals (bs); escaping round trips and the scanner's transparency (transp); batch error reporting;
   the reference relation [denotes] with accepted_means_written and the rejection of malformed lines; cutting a text at a
   newline. *)
From Coq Require Import ZArith NArith List Bool Lia String Ascii.
From OG Require Import C06.Model.
Import ListNotations.
Open Scope Z_scope.

Definition bs (s : string) : bytes := map N_of_ascii (list_ascii_of_string s).

Lemma list_beq_eq : forall a b, list_beq a b = true -> a = b.
Proof.
  induction a as [|x a IH]; intros [|y b] H; try discriminate; [reflexivity|].
  cbn in H. apply andb_true_iff in H. destruct H as [H1 H2]. apply N.eqb_eq in H1. subst.
  f_equal. apply IH. exact H2.
Qed.

Lemma is_esc_bs : is_esc c_bs = true.
Proof. reflexivity. Qed.

Lemma not_esc_not_bs : forall c, is_esc c = false -> (c =? c_bs)%N = false.
Proof.
  intros c H. unfold is_esc in H.
  destruct (c =? c_bs)%N; [ rewrite !orb_true_r in H; discriminate | reflexivity ].
Qed.

Lemma unescape_escape_tag : forall s, unescape_tag (escape_tag s) = s.
Proof.
  induction s as [|c r IH]; [reflexivity|].
  cbn [escape_tag]. destruct (is_esc c) eqn:E.
  - cbn [unescape_tag]. rewrite N.eqb_refl. rewrite E. now rewrite IH.
  - cbn [unescape_tag]. rewrite (not_esc_not_bs c E). now rewrite IH.
Qed.

(* the result of a scan that started a bytes earlier *)
Definition lift (a : bytes) (o : option (bytes * bytes)) : option (bytes * bytes) :=
  match o with Some (x, y) => Some (a ++ x, y) | None => None end.

Lemma lift_nil : forall o, lift [] o = o.
Proof. intros [[x y]|]; reflexivity. Qed.
Lemma lift_app : forall a b o, lift (a ++ b) o = lift a (lift b o).
Proof. intros a b [[x y]|]; cbn; [rewrite app_assoc|]; reflexivity. Qed.

(* texts split_unesc runs through without stopping, coming out with no backslash pending *)
Definition transp (ch : N) (a : bytes) : Prop :=
  forall r, split_unesc ch false (a ++ r) = lift a (split_unesc ch false r).

Lemma transp_app : forall ch a b, transp ch a -> transp ch b -> transp ch (a ++ b).
Proof. intros ch a b Ha Hb r. rewrite <- app_assoc, Ha, Hb, lift_app. reflexivity. Qed.
Lemma transp_nil : forall ch, transp ch [].
Proof. intros ch r. cbn. now rewrite lift_nil. Qed.

Lemma transp_char : forall ch c, (c =? ch)%N = false -> (c =? c_bs)%N = false -> transp ch [c].
Proof.
  intros ch c H1 H2 r. cbn [app split_unesc]. rewrite H1, H2. cbn [andb].
  destruct (split_unesc ch false r) as [[x y]|]; reflexivity.
Qed.

Lemma transp_esc : forall ch c, (ch =? c_bs)%N = false -> transp ch [c_bs; c].
Proof.
  intros ch c Hbs r. cbn [app split_unesc]. rewrite (N.eqb_sym c_bs ch), Hbs, N.eqb_refl. cbn [andb negb]. rewrite andb_false_r.
  destruct (c =? c_bs)%N; destruct (split_unesc ch false r) as [[x y]|]; reflexivity.
Qed.

Lemma esc_neq : forall ch c, is_esc ch = true -> is_esc c = false -> (c =? ch)%N = false.
Proof. intros ch c H1 H2. destruct (N.eqb_spec c ch); [subst; congruence|reflexivity]. Qed.

Lemma transp_escape_tag : forall ch s, is_esc ch = true -> (ch =? c_bs)%N = false -> transp ch (escape_tag s).
Proof.
  intros ch s Hesc Hbs. induction s as [|c t IH]; [apply transp_nil|].
  cbn [escape_tag]. destruct (is_esc c) eqn:E.
  - apply (transp_app ch [c_bs; c]); [apply transp_esc; exact Hbs|exact IH].
  - apply (transp_app ch [c]); [apply transp_char; [now apply esc_neq|now apply not_esc_not_bs]|exact IH].
Qed.

Lemma transp_split : forall ch a r, transp ch a -> split_unesc ch false (a ++ ch :: r) = Some (a, r).
Proof.
  intros ch a r H. rewrite H. cbn [split_unesc]. rewrite N.eqb_refl. cbn [andb negb lift]. rewrite app_nil_r. reflexivity.
Qed.
Lemma transp_none : forall ch a, transp ch a -> split_unesc ch false a = None.
Proof. intros ch a H. pose proof (H []) as E. rewrite app_nil_r in E. exact E. Qed.

Lemma split_unesc_escape_tag : forall ch s r,
  is_esc ch = true -> (ch =? c_bs)%N = false ->
  split_unesc ch false (escape_tag s ++ ch :: r) = Some (escape_tag s, r).
Proof. intros. now apply transp_split, transp_escape_tag. Qed.

Lemma split_unesc_escape_tag_none : forall ch s,
  is_esc ch = true -> (ch =? c_bs)%N = false ->
  split_unesc ch false (escape_tag s) = None.
Proof. intros. now apply transp_none, transp_escape_tag. Qed.

Lemma repeat_snoc_app : forall (A : Type) (x : A) j l, repeat x (S j) ++ l = repeat x j ++ x :: l.
Proof.
  intros A x j l. induction j as [|j IH]; [reflexivity|].
  change (repeat x (S (S j))) with (x :: repeat x (S j)). cbn [app]. rewrite IH. reflexivity.
Qed.

Lemma div2_double' : forall j, Nat.div2 (2 * j) = j.
Proof. intro j. apply Nat.div2_double. Qed.

Lemma unesc_escape_str_gen : forall s j, unesc_str (2 * j) (escape_str s) = repeat c_bs j ++ s.
Proof.
  induction s as [|c r IH]; intro j.
  - cbn [escape_str unesc_str]. rewrite Nat.div2_succ_double. now rewrite app_nil_r.
  - cbn [escape_str]. destruct (c =? c_quote)%N eqn:Q.
    + apply N.eqb_eq in Q. subst c. cbn [orb].
      cbn [unesc_str]. rewrite N.eqb_refl.
      change (c_quote =? c_bs)%N with false. change (c_quote =? c_quote)%N with true. cbn [andb negb Nat.eqb].
      rewrite Nat.div2_succ_double.
      specialize (IH 0%nat). change (2 * 0)%nat with 0%nat in IH. rewrite IH. reflexivity.
    + cbn [orb]. destruct (c =? c_bs)%N eqn:S'.
      * apply N.eqb_eq in S'. subst c. cbn [unesc_str]. rewrite N.eqb_refl.
        replace (S (S (2 * j))) with (2 * S j)%nat by lia.
        rewrite IH. apply repeat_snoc_app.
      * cbn [unesc_str]. rewrite S', Q. cbn [andb]. rewrite Nat.div2_succ_double.
        specialize (IH 0%nat). change (2 * 0)%nat with 0%nat in IH. rewrite IH. reflexivity.
Qed.

Lemma unesc_escape_str : forall s, unesc_str 0 (escape_str s) = s.
Proof. intro s. apply (unesc_escape_str_gen s 0). Qed.

Definition line_fails (d : bytes -> f64) (c : cfg) (l : bytes) : bool :=
  match parse_row d c l with Some Err => true | _ => false end.
Definition line_rows (d : bytes -> f64) (c : cfg) (l : bytes) : list row :=
  match parse_row d c l with Some (Ok r) => [r] | _ => [] end.

Lemma batch_go_rows : forall d c ls acc e,
  fst (batch_go d c ls acc e) = rev acc ++ flat_map (line_rows d c) ls.
Proof.
  intros d c ls. induction ls as [|l r IH]; intros acc e.
  - cbn. now rewrite app_nil_r.
  - cbn [batch_go flat_map]. unfold line_rows at 1.
    destruct (parse_row d c l) as [[x|]|].
    + rewrite IH. cbn [rev]. rewrite <- app_assoc. reflexivity.
    + rewrite IH. reflexivity.
    + rewrite IH. reflexivity.
Qed.

Lemma batch_go_err_sticky : forall d c ls acc e,
  c_batch c = false ->
  snd (batch_go d c ls acc e) = e || existsb (line_fails d c) ls.
Proof.
  intros d c ls. induction ls as [|l r IH]; intros acc e Hc.
  - cbn. now rewrite orb_false_r.
  - cbn [batch_go existsb]. unfold line_fails at 1.
    destruct (parse_row d c l) as [[x|]|]; rewrite ?Hc.
    + rewrite IH by exact Hc. reflexivity.
    + rewrite IH by exact Hc. cbn. now rewrite orb_true_r.
    + rewrite IH by exact Hc. reflexivity.
Qed.

Lemma batch_repaired_reports : forall d c s l,
  c_batch c = false ->
  In l (split_lines s) -> parse_row d c l = Some Err ->
  snd (parse_batch d c s) = true.
Proof.
  intros d c s l Hc Hin Hl. unfold parse_batch. rewrite batch_go_err_sticky by exact Hc.
  cbn [orb]. apply existsb_exists. exists l. split; [exact Hin|].
  unfold line_fails. now rewrite Hl.
Qed.

Lemma batch_no_error_all_ok : forall d c s,
  c_batch c = false -> snd (parse_batch d c s) = false ->
  forall l, In l (split_lines s) -> parse_row d c l <> Some Err.
Proof.
  intros d c s Hc Hs l Hin Hl. rewrite (batch_repaired_reports d c s l Hc Hin Hl) in Hs. discriminate.
Qed.

Lemma batch_rows_exact : forall d c s,
  fst (parse_batch d c s) = flat_map (line_rows d c) (split_lines s).
Proof. intros. unfold parse_batch. now rewrite batch_go_rows. Qed.

Lemma split_unesc_sound : forall ch s par a b, split_unesc ch par s = Some (a, b) -> s = a ++ ch :: b.
Proof.
  intros ch. induction s as [|c r IH]; intros par a b H; [discriminate|].
  cbn [split_unesc] in H. destruct ((c =? ch)%N && negb par) eqn:E.
  - inversion H; subst. apply andb_true_iff in E. destruct E as [E _]. apply N.eqb_eq in E. subst. reflexivity.
  - destruct (split_unesc ch (if (c =? c_bs)%N then negb par else false) r) as [[x y]|] eqn:S; [|discriminate].
    inversion H; subst. cbn. f_equal. eapply IH; eauto.
Qed.

Lemma split_unq_sound : forall ch s inq par a b, split_unq ch inq par s = Some (a, b) -> s = a ++ ch :: b.
Proof.
  intros ch. induction s as [|c r IH]; intros inq par a b H; [discriminate|].
  cbn [split_unq] in H. destruct ((c =? ch)%N && negb par && negb inq) eqn:E.
  - inversion H; subst. apply andb_true_iff in E. destruct E as [E _]. apply andb_true_iff in E. destruct E as [E _].
    apply N.eqb_eq in E. subst. reflexivity.
  - match type of H with match ?X with _ => _ end = _ => destruct X as [[x y]|] eqn:S; [|discriminate] end.
    inversion H; subst. cbn. f_equal. eapply IH; eauto.
Qed.

Lemma rev_cons_eq : forall (A : Type) (s : list A) l r, rev s = l :: r -> s = rev r ++ [l].
Proof. intros A s l r H. rewrite <- (rev_involutive s), H. reflexivity. Qed.

(* the value a field text denotes (line-protocol reference; [d] is the decimal -> binary64 conversion) *)
Inductive denotes (d : bytes -> f64) : bytes -> fval -> Prop :=
| den_int : forall t n, parse_int64 t = Ok n -> denotes d (t ++ [105%N]) (VInt n n)
| den_float : forall t, valid_number t = true -> f64_is_finite (d t) = true -> denotes d t (VFloat t (d t))
| den_float_f : forall t, valid_number t = true -> f64_is_finite (d t) = true -> denotes d (t ++ [102%N]) (VFloat t (d t))
| den_true : forall t, is_true_text t = true -> denotes d t (VBool true)
| den_false : forall t, is_false_text t = true -> denotes d t (VBool false)
| den_str : forall body, denotes d (c_quote :: body ++ [c_quote]) (VStr (unesc_str 0 body)).

Lemma parse_num_field_repaired_sound : forall d v x,
  parse_num_field d cfg_repaired v = Ok x -> denotes d v x.
Proof.
  intros d v x H. unfold parse_num_field in H.
  destruct (rev v) as [|l rinit] eqn:R; [discriminate|].
  apply rev_cons_eq in R. subst v.
  destruct (l =? 105)%N eqn:Ei.
  - apply N.eqb_eq in Ei. subst l.
    destruct (parse_int64 (rev rinit)) as [n|] eqn:P; [|discriminate].
    cbn in H. inversion H; subst. apply den_int. exact P.
  - destruct (l =? 117)%N eqn:Eu; [discriminate|].
    destruct ((l =? 102)%N && negb match rev rinit with [] => true | _ :: _ => false end) eqn:Ef.
    + apply andb_true_iff in Ef. destruct Ef as [Ef _]. apply N.eqb_eq in Ef. subst l.
      destruct (valid_number (rev rinit)) eqn:V.
      * unfold float_of_valid in H. cbn [cfg_repaired c_plus c_negdot c_fsuffix andb] in H.
        cbn [fval_finite] in H. rewrite orb_false_r in H.
        destruct (f64_is_finite (d (rev rinit))) eqn:F; [|discriminate].
        inversion H; subst. apply den_float_f; assumption.
      * cbn in H. discriminate.
    + destruct (is_true_text (rev rinit ++ [l])) eqn:T.
      * inversion H; subst. apply den_true. exact T.
      * destruct (is_false_text (rev rinit ++ [l])) eqn:Fa.
        -- inversion H; subst. apply den_false. exact Fa.
        -- destruct (valid_number (rev rinit ++ [l])) eqn:V; [|discriminate].
           unfold float_of_valid in H. cbn [cfg_repaired c_plus c_negdot andb] in H. cbn [fval_finite] in H.
           destruct (f64_is_finite (d (rev rinit ++ [l]))) eqn:F; [|discriminate].
           inversion H; subst. apply den_float; assumption.
Qed.

Lemma parse_str_field_repaired_sound : forall d v x,
  parse_str_field cfg_repaired v = Ok x -> denotes d v x.
Proof.
  intros d v x H. unfold parse_str_field in H.
  destruct v as [|h t]; [discriminate|].
  destruct (h =? c_quote)%N eqn:Q.
  - apply N.eqb_eq in Q. subst h.
    destruct (rev t) as [|l rbody] eqn:R; [discriminate|].
    apply rev_cons_eq in R. subst t.
    destruct (l =? c_quote)%N eqn:Q2; [|discriminate].
    apply N.eqb_eq in Q2. subst l. inversion H; subst. apply den_str.
  - cbn in H. discriminate.
Qed.

Lemma parse_value_repaired_sound : forall d v x,
  parse_value d cfg_repaired v = Ok x -> denotes d v x.
Proof.
  intros d v x H. unfold parse_value in H. destruct (has_unesc_quote v).
  - eapply parse_str_field_repaired_sound; eauto.
  - eapply parse_num_field_repaired_sound; eauto.
Qed.

Lemma parse_field_repaired_sound : forall d seg k x,
  parse_field d cfg_repaired seg = Ok (k, x) ->
  exists kraw vtxt, seg = kraw ++ c_eq :: vtxt /\ k = unescape_tag kraw /\ k <> [] /\ denotes d vtxt x.
Proof.
  intros d seg k x H. unfold parse_field in H.
  destruct (split_unesc c_eq false seg) as [[kraw v]|] eqn:S; [|discriminate].
  apply split_unesc_sound in S.
  destruct (unescape_tag kraw) as [|k0 kr] eqn:K; [discriminate|].
  destruct (Nat.ltb max_key_len (List.length (k0 :: kr))); [discriminate|].
  destruct (parse_value d cfg_repaired v) as [y|] eqn:P; [|discriminate].
  cbn in H. inversion H; subst. exists kraw, v. repeat split; auto. discriminate.
  eapply parse_value_repaired_sound; eauto.
Qed.

Lemma map_result_ok : forall (A B : Type) (f : A -> result B) l bs,
  map_result f l = Ok bs -> Forall2 (fun a b => f a = Ok b) l bs.
Proof.
  intros A B f. induction l as [|a r IH]; intros bs H.
  - inversion H. constructor.
  - cbn in H. destruct (f a) as [b|] eqn:F; [|discriminate]. cbn in H.
    destruct (map_result f r) as [bs'|] eqn:M; [|discriminate]. cbn in H. inversion H; subst.
    constructor; auto.
Qed.

Lemma map_result_err : forall (A B : Type) (f : A -> result B) l a,
  In a l -> f a = Err -> map_result f l = Err.
Proof.
  intros A B f. induction l as [|x r IH]; intros a Hin Hf; [destruct Hin|].
  cbn. destruct Hin as [->|Hin].
  - rewrite Hf. reflexivity.
  - destruct (f x); [|reflexivity]. cbn. rewrite (IH a Hin Hf). reflexivity.
Qed.

(* the pieces of a line as the parser cuts it *)
Definition line_field_text (s : bytes) : option bytes :=
  match split_unesc c_sp false (drop_while is_lead_ws s) with
  | None => None
  | Some (_, rest0) =>
      let rest := drop_while is_sp rest0 in
      match split_unq c_sp false false rest with
      | None => Some rest
      | Some (fstr, _) => Some fstr
      end
  end.
Definition line_field_segments (s : bytes) : list bytes :=
  match line_field_text s with Some f => split_all_unq (List.length f) c_comma f | None => [] end.

Lemma parse_line_ok : forall d c s r, parse_line d c s = Ok r ->
  exists mt rest0, split_unesc c_sp false (drop_while is_lead_ws s) = Some (mt, rest0) /\
    match split_unq c_sp false false (drop_while is_sp rest0) with
    | None => parse_fields d c (drop_while is_sp rest0) = Ok (r_fields r)
    | Some (fstr, tsr) => parse_fields d c fstr = Ok (r_fields r) /\ parse_ts (drop_while is_sp tsr) = Ok (r_ts r)
    end.
Proof.
  intros d c s r H. unfold parse_line in H.
  destruct (split_unesc c_sp false (drop_while is_lead_ws s)) as [[mt rest0]|]; [|discriminate]. exists mt, rest0. split; [reflexivity|].
  match type of H with bind ?X _ = _ => destruct X as [mt'|]; [|discriminate] end. cbn [bind] in H.
  destruct (Nat.ltb max_name_len (List.length (unescape_tag (fst mt')))); [discriminate|].
  destruct (split_unq c_sp false false (drop_while is_sp rest0)) as [[fstr tsr]|].
  - destruct (parse_fields d c fstr) as [fs|]; [|discriminate]. cbn [bind] in H.
    destruct (parse_ts (drop_while is_sp tsr)) as [ts|]; [|discriminate]. now inversion H.
  - destruct (parse_fields d c (drop_while is_sp rest0)) as [fs|]; [|discriminate]. now inversion H.
Qed.

Lemma parse_line_fields : forall d c s r,
  parse_line d c s = Ok r ->
  Forall2 (fun seg kv => parse_field d c seg = Ok kv) (line_field_segments s) (r_fields r).
Proof.
  intros d c s r H. destruct (parse_line_ok d c s r H) as (mt & rest0 & E & P).
  unfold line_field_segments, line_field_text. rewrite E.
  destruct (split_unq c_sp false false (drop_while is_sp rest0)) as [[fstr tsr]|]; apply map_result_ok, P.
Qed.

(* what the repaired parser accepts as a field value is what the text denotes *)
Lemma accepted_means_written : forall d s r,
  parse_line d cfg_repaired s = Ok r ->
  Forall2 (fun seg kv => exists kraw vtxt, seg = kraw ++ c_eq :: vtxt /\ fst kv = unescape_tag kraw /\ denotes d vtxt (snd kv))
          (line_field_segments s) (r_fields r).
Proof.
  intros d s r H. apply parse_line_fields in H.
  induction H as [|seg kv segs kvs Hh Ht IH]; constructor; auto.
  destruct kv as [k x]. apply parse_field_repaired_sound in Hh.
  destruct Hh as [kraw [vtxt [H1 [H2 [_ H3]]]]]. exists kraw, vtxt. auto.
Qed.

Lemma bad_field_rejected : forall d c s seg,
  In seg (line_field_segments s) -> parse_field d c seg = Err -> parse_line d c s = Err.
Proof.
  intros d c s seg Hin Hf. destruct (parse_line d c s) as [r|] eqn:P; [exfalso|reflexivity].
  pose proof (parse_line_fields d c s r P) as F. clear P. induction F as [|x kv l l' Hx _ IH]; [exact Hin|].
  destruct Hin as [->|Hin]; [congruence|auto].
Qed.

(* a value text without denotation makes its field, hence the line, fail: bad numbers, unterminated quotes *)
Lemma undenoted_value_rejected : forall d kraw v,
  (forall x, ~ denotes d v x) -> split_unesc c_eq false (kraw ++ c_eq :: v) = Some (kraw, v) ->
  parse_field d cfg_repaired (kraw ++ c_eq :: v) = Err.
Proof.
  intros d kraw v Hno Hs.
  destruct (parse_field d cfg_repaired (kraw ++ c_eq :: v)) as [[k x]|] eqn:P; [|reflexivity].
  exfalso. unfold parse_field in P. rewrite Hs in P.
  destruct (unescape_tag kraw) as [|k0 kr]; [discriminate|].
  destruct (Nat.ltb max_key_len (List.length (k0 :: kr))); [discriminate|].
  destruct (parse_value d cfg_repaired v) as [y|] eqn:PV; [|discriminate].
  apply parse_value_repaired_sound in PV. exact (Hno y PV).
Qed.

Lemma bad_timestamp_rejected : forall d c s mt rest0 fstr tsr,
  split_unesc c_sp false (drop_while is_lead_ws s) = Some (mt, rest0) ->
  split_unq c_sp false false (drop_while is_sp rest0) = Some (fstr, tsr) ->
  parse_ts (drop_while is_sp tsr) = Err ->
  parse_line d c s = Err.
Proof.
  intros d c s mt rest0 fstr tsr H1 H2 H3. destruct (parse_line d c s) as [r|] eqn:P; [exfalso|reflexivity].
  destruct (parse_line_ok d c s r P) as (mt' & rest0' & E & Q). rewrite H1 in E. injection E as <- <-.
  rewrite H2 in Q. destruct Q as [_ Q]. congruence.
Qed.

(* the block reader: cutting a body at a newline does not change the rows it denotes *)
Lemma split_lines_aux_cut : forall a cur b,
  split_lines_aux cur (a ++ c_nl :: b) = split_lines_aux cur (a ++ [c_nl]) ++ split_lines b.
Proof.
  induction a as [|c r IH]; intros cur b.
  - cbn [app split_lines_aux]. rewrite N.eqb_refl. reflexivity.
  - cbn [app split_lines_aux]. destruct (c =? c_nl)%N.
    + rewrite IH. reflexivity.
    + apply IH.
Qed.

