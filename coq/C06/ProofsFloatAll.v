(* C06 - round_ratio returns the binary64 nearest to num/den among ALL binary64 values (or infinity exactly from the IEEE
   overflow threshold on).  Distances are compared in units of 2^-u (u >= 1074: every binary64 is an integer multiple of
   it), multiplied by den: with N = num * 2^u the distance of num/den to the value k * 2^-u is |N - k * den| / (den * 2^u).
   The exponent u, the decimal exponents and the powers compared with them stay variables in the lemmas: lia evaluates
   every closed power it finds in the context, and nothing here depends on the value of 2^1074. *)
From Coq Require Import ZArith Bool Lia.
From OG Require Import C06.Model C06.ProofsInt C06.ProofsFloat.
Open Scope Z_scope.

(* the scale -u: An num (-u) / Bd den (-u) = N / den *)
Lemma An_neg : forall a u, 0 <= u -> An a (- u) = a * 2 ^ u.
Proof. intros a u H. rewrite An_opp, Z.opp_involutive. destruct (AnBd_spec a a u) as [(? & _)|(_ & _ & ->)]; [lia|reflexivity]. Qed.
Lemma Bd_neg : forall a u, 0 <= u -> Bd a (- u) = a.
Proof. intros a u H. rewrite Bd_opp, Z.opp_involutive. destruct (AnBd_spec a a u) as [(? & _)|(_ & -> & _)]; [lia|reflexivity]. Qed.

Lemma units : forall num den u s a c, 0 <= u -> - u <= s ->
  (a * (num * 2 ^ u) - c * 2 ^ (s + u) * den) * Bd den s = 2 ^ (s + u) * den * (a * An num s - c * Bd den s).
Proof.
  intros num den u s a c Hu Hs. pose proof (rescale num den (- u) (s + u) a c ltac:(lia)) as R.
  rewrite An_neg, Bd_neg in R by exact Hu. now replace (- u + (s + u)) with s in R by lia.
Qed.

(* 2^e <= num/den *)
Lemma binade_units : forall num den u e, 0 < den -> 0 <= u -> - u <= e ->
  Bd den e <= An num e -> 2 ^ (e + u) * den <= num * 2 ^ u.
Proof.
  intros num den u e Hd Hu He H. pose proof (units num den u e 1 1 Hu He) as U.
  pose proof (Bd_pos den e Hd). assert (0 < 2 ^ (e + u) * den) by (pose proof (pow2_pos (e + u) ltac:(lia)); nia). nia.
Qed.

(* the rounding step, read in units: q * 2^(s+u) * den is the multiple of the spacing nearest to N, ties to even *)
Lemma nearest_even_units : forall num den u s q, 0 < den -> 0 <= u -> - u <= s ->
  nearest_even (An num s) (Bd den s) q -> nearest_even (num * 2 ^ u) (2 ^ (s + u) * den) q.
Proof.
  intros num den u s q Hd Hu Hs [H1 H2]. pose proof (units num den u s 2 (2 * q) Hu Hs) as U.
  pose proof (Bd_pos den s Hd). assert (0 < 2 ^ (s + u) * den) by (pose proof (pow2_pos (s + u) ltac:(lia)); nia).
  replace (2 * q * 2 ^ (s + u) * den) with (2 * q * (2 ^ (s + u) * den)) in U by ring.
  set (D := 2 ^ (s + u) * den) in *. set (B := Bd den s) in *.
  set (X := 2 * (num * 2 ^ u) - 2 * q * D) in *. set (Y := 2 * An num s - 2 * q * B) in *.
  assert (E : Z.abs X * B = D * Z.abs Y) by (rewrite <- (Z.abs_eq B), <- Z.abs_mul, U, Z.abs_mul, (Z.abs_eq D); lia).
  split; [nia|]. intro HX. apply H2. nia.
Qed.

Theorem round_ratio_nearest : forall u neg num den, 1074 <= u -> 0 < num -> 0 < den ->
  match round_ratio neg num den with
  | FFin s m ex =>
      s = neg /\ 0 <= m < 2 ^ 53 /\ -1074 <= ex <= 971 /\
      forall m2 e2, 0 <= m2 < 2 ^ 53 -> -1074 <= e2 <= 971 ->
        Z.abs (num * 2 ^ u - m * 2 ^ (ex + u) * den) <= Z.abs (num * 2 ^ u - m2 * 2 ^ (e2 + u) * den)
  | FInf s => s = neg /\ (2 ^ 54 - 1) * 2 ^ (970 + u) * den <= num * 2 ^ u
  | FNaN => False
  end.
Proof.
  intros u neg num den Hu Hn Hd.
  destruct (round_ratio_correct neg num den Hn Hd) as (e & q & H). cbv zeta in H.
  set (sh := Z.max (e - 52) (-1074)) in *.
  destruct H as ((Hlo & _) & Hne & (Hq0 & Hq53) & Hq52 & ->).
  assert (Hsh : -1074 <= sh /\ (-1074 <= e - 52 -> sh = e - 52)) by (unfold sh; lia). destruct Hsh as [Hs Hsh].
  apply (nearest_even_units num den u) in Hne; [|lia..].
  set (N := num * 2 ^ u) in *.
  (* 2^(e+u) = 2^52 spacings when the value is normal *)
  assert (Hnorm : -1074 <= e - 52 -> 2 ^ 52 <= q /\ 2 ^ 52 * (2 ^ (sh + u) * den) <= N).
  { intro He. pose proof (Hsh He). split; [auto|]. pose proof (binade_units num den u e Hd ltac:(lia) ltac:(lia) Hlo) as L. fold N in L.
    replace (e + u) with (52 + (sh + u)) in L by lia. rewrite (Z.pow_add_r 2 52) in L by lia. lia. }
  (* the value q * 2^sh against any binary64 *)
  assert (Hall : forall m2 e2, 0 <= m2 < 2 ^ 53 -> -1074 <= e2 ->
            Z.abs (N - q * 2 ^ (sh + u) * den) <= Z.abs (N - m2 * 2 ^ (e2 + u) * den)).
  { intros m2 e2 Hm2 He2. replace (q * 2 ^ (sh + u) * den) with (q * (2 ^ (sh + u) * den)) by ring.
    destruct (Z_le_gt_dec sh e2) as [L|G].
    - (* a multiple of the spacing *)
      replace (m2 * 2 ^ (e2 + u) * den) with (m2 * 2 ^ (e2 - sh) * (2 ^ (sh + u) * den)).
      + now apply nearest_even_le.
      + replace (e2 + u) with (e2 - sh + (sh + u)) by lia. rewrite (Z.pow_add_r 2 (e2 - sh)) by lia. ring.
    - (* finer than the spacing: then it lies below 2^e, which is 2^52 spacings *)
      destruct Hnorm as [_ Hn52]; [lia|]. pose proof (nearest_even_le _ _ _ (2 ^ 52) Hne) as Hm.
      assert (2 ^ 53 * 2 ^ (e2 + u) <= 2 ^ 52 * 2 ^ (sh + u)).
      { rewrite <- !Z.pow_add_r by lia. apply Z.pow_le_mono_r; lia. }
      pose proof (pow2_pos (e2 + u) ltac:(lia)).
      assert (m2 * 2 ^ (e2 + u) < 2 ^ 52 * 2 ^ (sh + u)) by nia.
      assert (m2 * 2 ^ (e2 + u) * den < 2 ^ 52 * 2 ^ (sh + u) * den) by (apply Z.mul_lt_mono_pos_r; assumption). lia. }
  assert (Hsp : forall k, k <= sh -> 2 ^ (k + u) * den <= 2 ^ (sh + u) * den)
    by (intros; apply Z.mul_le_mono_nonneg_r; [lia|apply Z.pow_le_mono_r; lia]).
  unfold rr_result. destruct (Z.eqb_spec q (2 ^ 53)) as [Q|Q].
  - destruct (Z.ltb_spec 971 (sh + 1)) as [O|O]; (split; [reflexivity|]).
    + (* rounded up to 2^1024 or beyond: N >= (2^53 - 1/2) spacings *)
      destruct Hne as [Hn1 _]. subst q. specialize (Hsp 971 ltac:(lia)).
      replace (971 + u) with (1 + (970 + u)) in Hsp by lia. rewrite (Z.pow_add_r 2 1) in Hsp by lia. lia.
    + split; [lia|]. split; [lia|]. intros m2 e2 Hm2 He2.
      replace (2 ^ 52 * 2 ^ (sh + 1 + u) * den) with (q * 2 ^ (sh + u) * den); [apply Hall; lia|].
      rewrite Q. replace (sh + 1 + u) with (1 + (sh + u)) by lia. rewrite (Z.pow_add_r 2 1) by lia. ring.
  - destruct (Z.ltb_spec 971 sh) as [O|O]; (split; [reflexivity|]).
    + (* the binade itself is beyond the largest exponent *)
      destruct Hnorm as [_ Hn52]; [lia|]. specialize (Hsp 972 ltac:(lia)).
      replace (972 + u) with (2 + (970 + u)) in Hsp by lia. rewrite (Z.pow_add_r 2 2) in Hsp by lia. lia.
    + split; [lia|]. split; [lia|]. intros m2 e2 Hm2 He2. apply Hall; lia.
Qed.

(* num/den >= 2^1024: infinity *)
Lemma round_ratio_huge : forall E neg num den, 1024 <= E -> 0 < num -> 0 < den ->
  den * 2 ^ E <= num -> round_ratio neg num den = FInf neg.
Proof.
  intros E neg num den HE Hn Hd Hbig.
  destruct (round_ratio_correct neg num den Hn Hd) as (e & q & H). cbv zeta in H.
  set (sh := Z.max (e - 52) (-1074)) in *.
  destruct H as ((_ & Hhi) & _ & _ & _ & ->).
  assert (He : E <= e).
  { destruct (Z_lt_ge_dec e E) as [L|G]; [exfalso|lia].
    apply (below_mono num den (e + 1) E) in Hhi; [|lia..].
    destruct (AnBd_spec num den E) as [(? & _)|(_ & E1 & E2)]; lia. }
  unfold rr_result. destruct (q =? 2 ^ 53); [destruct (Z.ltb_spec 971 (sh + 1))|destruct (Z.ltb_spec 971 sh)]; reflexivity || lia.
Qed.

(* num/den < 2^-1076: zero *)
Lemma round_ratio_tiny : forall U neg num den, 1076 <= U -> 0 < num -> 0 < den ->
  num * 2 ^ U < den -> round_ratio neg num den = FFin neg 0 (-1074).
Proof.
  intros U neg num den HU Hn Hd Hsmall.
  destruct (round_ratio_correct neg num den Hn Hd) as (e & q & H). cbv zeta in H.
  set (sh := Z.max (e - 52) (-1074)) in *.
  destruct H as ((Hlo & _) & [Hn1 _] & (Hq0 & _) & _ & ->).
  rewrite <- (An_neg num U), <- (Bd_neg den U) in Hsmall by lia.
  assert (Hsh : sh = -1074).
  { destruct (Z_lt_ge_dec e (- U)) as [L|G]; [lia|exfalso].
    apply (above_anti num den e (- U)) in Hlo; lia. }
  (* 4 * num/den/2^sh < 1 *)
  assert (L : 4 * An num sh < 1 * Bd den sh).
  { replace sh with (- U + (U - 1074)) by lia. apply rescale_lt; [exact Hd|lia|].
    assert (2 ^ 2 <= 2 ^ (U - 1074)) by (apply Z.pow_le_mono_r; lia).
    pose proof (Bd_pos den (- U) Hd). nia. }
  pose proof (An_pos num sh Hn). assert (Hq : q = 0) by nia.
  rewrite Hq, Hsh. reflexivity.
Qed.

Lemma ndig_spec : forall fuel m, 0 < m -> m < 2 ^ Z.of_nat fuel ->
  10 ^ (ndig fuel m - 1) <= m < 10 ^ ndig fuel m /\ 1 <= ndig fuel m.
Proof.
  induction fuel as [|f IH]; intros m Hm Hf.
  - cbn in Hf. lia.
  - cbn [ndig]. destruct (Z.ltb_spec m 10) as [E|E].
    + cbn. lia.
    + assert (Hd : 0 < m / 10) by (apply Z.div_str_pos; lia).
      assert (Hf' : m / 10 < 2 ^ Z.of_nat f).
      { rewrite Nat2Z.inj_succ, Z.pow_succ_r in Hf by lia.
        apply Z.div_lt_upper_bound; lia. }
      destruct (IH (m / 10) Hd Hf') as [[L U] P]. set (k := ndig f (m / 10)) in *.
      pose proof (Z.div_mod m 10 ltac:(lia)) as DM. pose proof (Z.mod_pos_bound m 10 ltac:(lia)) as MB.
      replace (1 + k - 1) with (1 + (k - 1)) by lia.
      rewrite (Z.pow_add_r 10 1 (k - 1)), (Z.pow_add_r 10 1 k) by lia. lia.
Qed.

Lemma ndigits_spec : forall m, 0 < m -> 10 ^ (ndigits m - 1) <= m < 10 ^ ndigits m /\ 1 <= ndigits m.
Proof.
  intros m Hm. unfold ndigits. apply ndig_spec; [exact Hm|].
  rewrite Nat2Z.inj_succ, Z2Nat.id by apply Z.log2_nonneg.
  pose proof (Z.log2_spec m Hm). lia.
Qed.

Lemma pow10_pos : forall k, 0 <= k -> 0 < 10 ^ k.
Proof. intros. apply Z.pow_pos_nonneg; lia. Qed.

Lemma dec_scan_mant_nonneg : forall s st d, 0 <= d_mant d -> 0 <= d_mant (dec_scan st s d).
Proof.
  induction s as [|c r IH]; intros st d H; [exact H|].
  cbn [dec_scan]. destruct (nstep st c) as [st'|]; [|exact H].
  apply IH. assert (0 <= digit_val c) by (unfold digit_val; lia).
  destruct st'; cbn [d_mant]; try exact H; lia.
Qed.

Lemma dec_mant_nonneg : forall s, 0 <= d_mant (dec_parse s).
Proof. intro s. unfold dec_parse. apply dec_scan_mant_nonneg. cbn. lia. Qed.

Lemma dec_ratio_pos : forall d, 0 < d_mant d -> 0 < fst (dec_ratio d) /\ 0 < snd (dec_ratio d).
Proof.
  intros d H. unfold dec_ratio. destruct (Z.leb_spec 0 (dec_e10 d)) as [E|E]; cbn [fst snd].
  - pose proof (pow10_pos _ E). split; [nia|lia].
  - split; [exact H|apply pow10_pos; lia].
Qed.

(* a literal of at least 10^k (k <= digits - 1 + e10) against any P <= 10^k: den * P <= num *)
Lemma dec_ratio_huge : forall P k d, P <= 10 ^ k -> 0 <= k -> 0 < d_mant d ->
  k <= ndigits (d_mant d) - 1 + dec_e10 d -> snd (dec_ratio d) * P <= fst (dec_ratio d).
Proof.
  intros P k d HP Hk Hm A. destruct (ndigits_spec (d_mant d) Hm) as [[NL _] N1].
  set (nd := ndigits (d_mant d)) in *. set (e10 := dec_e10 d) in *. unfold dec_ratio. fold e10.
  destruct (Z.leb_spec 0 e10) as [E|E]; cbn [fst snd].
  - (* m * 10^e10 >= 10^(nd-1+e10) >= 10^k *)
    assert (10 ^ k <= 10 ^ (nd - 1 + e10)) by (apply Z.pow_le_mono_r; lia).
    rewrite Z.pow_add_r in H by lia. pose proof (pow10_pos e10 E). nia.
  - (* m >= 10^(nd-1) >= 10^k * 10^(-e10) *)
    assert (10 ^ (k + - e10) <= 10 ^ (nd - 1)) by (apply Z.pow_le_mono_r; lia).
    rewrite Z.pow_add_r in H by lia. pose proof (pow10_pos (- e10) ltac:(lia)). nia.
Qed.

(* ... and a literal below 10^-k (digits + e10 <= -k): num * P < den *)
Lemma dec_ratio_tiny : forall P k d, P <= 10 ^ k -> 0 <= k -> 0 < d_mant d -> 0 < P ->
  ndigits (d_mant d) + dec_e10 d <= - k -> fst (dec_ratio d) * P < snd (dec_ratio d).
Proof.
  intros P k d HP Hk Hm HP0 B. destruct (ndigits_spec (d_mant d) Hm) as [[_ NU] N1].
  set (nd := ndigits (d_mant d)) in *. set (e10 := dec_e10 d) in *. unfold dec_ratio. fold e10.
  destruct (Z.leb_spec 0 e10) as [E|E]; cbn [fst snd]; [lia|].
  (* m * P < 10^nd * 10^k <= 10^(-e10) *)
  assert (10 ^ (nd + k) <= 10 ^ (- e10)) by (apply Z.pow_le_mono_r; lia).
  rewrite Z.pow_add_r in H by lia. pose proof (pow10_pos nd ltac:(lia)). nia.
Qed.

(* 2^93 < 10^28 (93 log 2 = 27.996 log 10) compares the powers of two and of ten met here without evaluating them *)
Lemma pow2_le_pow10 : forall k n m, 0 <= k -> n <= 93 * k + 3 -> 28 * k + 1 <= m -> 2 ^ n <= 10 ^ m.
Proof.
  intros k n m Hk Hn Hm.
  transitivity (2 ^ (93 * k + 3)); [apply Z.pow_le_mono_r; lia|].
  transitivity (10 ^ (28 * k + 1)); [|apply Z.pow_le_mono_r; lia].
  rewrite !Z.pow_add_r, !Z.pow_mul_r by lia.
  apply Z.mul_le_mono_nonneg; [apply Z.pow_nonneg; lia| |lia|lia].
  apply Z.pow_le_mono_l. lia.
Qed.

(* the shortcuts change nothing: dec2f_exact is dec2f_full, for every text *)
Theorem dec2f_exact_full : forall s, dec2f_exact s = dec2f_full s.
Proof.
  intro s. unfold dec2f_exact, dec2f_full. set (d := dec_parse s).
  destruct (Z.eqb_spec (d_mant d) 0) as [|Z0]; [reflexivity|].
  assert (Hm : 0 < d_mant d) by (pose proof (dec_mant_nonneg s); fold d in H; lia).
  destruct (dec_ratio_pos d Hm) as [Hn Hd].
  destruct (Z.leb_spec 310 (ndigits (d_mant d) - 1 + dec_e10 d)) as [A|A].
  - symmetry. apply (round_ratio_huge 1024); [lia|exact Hn|exact Hd|].
    apply (dec_ratio_huge _ 310); [apply (pow2_le_pow10 11); lia|lia|exact Hm|exact A].
  - destruct (Z.leb_spec (ndigits (d_mant d) + dec_e10 d) (-400)) as [B|B]; [|reflexivity].
    symmetry. apply (round_ratio_tiny 1076); [lia|exact Hn|exact Hd|].
    apply (dec_ratio_tiny _ 400); [apply (pow2_le_pow10 12); lia|lia|exact Hm|apply pow2_pos; lia|exact B].
Qed.

(* round_ratio finds the significand by a division.  Given the significand q the result can be confirmed without
   dividing: q is the rounded quotient iff |2n - 2qd| <= d (ties: q even).  rr_round / dec_round do that and answer
   None when q is not the significand; the examples of Props.v are stated through them. *)
Definition rr_round (neg : bool) (num den q : Z) : option f64 :=
  let sh := Z.max (rr_exp num den - 52) (-1074) in
  let d := Bd den sh in
  let t := Z.abs (2 * An num sh - 2 * q * d) in
  if (0 <? num) && (0 <? den) && ((t <? d) || ((t =? d) && Z.even q)) then Some (rr_result neg q sh) else None.

Lemma rr_round_sound : forall neg num den q x, rr_round neg num den q = Some x -> round_ratio neg num den = x.
Proof.
  intros neg num den q x. unfold rr_round. set (sh := Z.max _ _). set (t := Z.abs _).
  destruct (Z.ltb_spec 0 num) as [Hn|]; [|discriminate]. destruct (Z.ltb_spec 0 den) as [Hd|]; [|discriminate]. cbn [andb].
  intro H. assert (Hq : nearest_even (An num sh) (Bd den sh) q).
  { fold t. split; destruct (Z.ltb_spec t (Bd den sh)); try lia; cbn [orb] in H;
      destruct (Z.eqb_spec t (Bd den sh)); cbn [andb] in H; try discriminate; try lia.
    intros _. now destruct (Z.even q). }
  destruct (round_ratio_by neg num den q Hn Hd Hq) as (_ & _ & ->). fold sh.
  now destruct (_ || _); inversion H.
Qed.

Definition dec_round (s : bytes) (q : Z) : option f64 :=
  let d := dec_parse s in let r := dec_ratio d in
  if 0 <? d_mant d then rr_round (d_neg d) (fst r) (snd r) q else None.

Lemma dec_round_sound : forall s q x, dec_round s q = Some x -> dec2f_exact s = x.
Proof.
  intros s q x. unfold dec_round. destruct (Z.ltb_spec 0 (d_mant (dec_parse s))) as [Hm|]; [|discriminate].
  intro H. rewrite dec2f_exact_full. unfold dec2f_full.
  destruct (Z.eqb_spec (d_mant (dec_parse s)) 0); [lia|]. exact (rr_round_sound _ _ _ _ _ H).
Qed.
