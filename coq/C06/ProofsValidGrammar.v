(* C06 - every text IsValidNumber accepts is a literal of the grammar the dec_parse theorems speak about:
     [sign] digits [ . digits ] [ (e|E) [sign] digits ]      (integer digits may be missing when fraction digits follow,
                                                               fraction digits may be missing after integer digits)
   proved by describing, for every state of the automaton, the texts that reach it. *)
From Coq Require Import ZArith NArith List Bool.
From OG Require Import C06.Model C06.ProofsDec C06.ProofsDecParse.
Import ListNotations.
Open Scope Z_scope.

Inductive shape : nst -> bytes -> Prop :=
| ShInit : shape SInit []
| ShSign : forall b, shape SSign (sign_text (Some b))
| ShInt : forall sg I, all_digits I = true -> I <> [] -> shape SInt (mtext sg I None)
| ShPoint : forall sg I, all_digits I = true -> I <> [] -> shape SPoint (mtext sg I (Some []))
| ShPointNoInt : forall sg, shape SPointNoInt (mtext sg [] (Some []))
| ShFrac : forall sg I F, all_digits I = true -> all_digits F = true -> F <> [] -> shape SFrac (mtext sg I (Some F))
| ShExp : forall sg I pp ec, all_digits I = true ->
    match pp with None => I <> [] | Some F => all_digits F = true /\ (I <> [] \/ F <> []) end ->
    is_e ec = true -> shape SExp (mtext sg I pp ++ [ec])
| ShExpSign : forall sg I pp ec b, all_digits I = true ->
    match pp with None => I <> [] | Some F => all_digits F = true /\ (I <> [] \/ F <> []) end ->
    is_e ec = true -> shape SExpSign (mtext sg I pp ++ ec :: sign_text (Some b))
| ShExpNum : forall sg I pp ec es X, all_digits I = true ->
    match pp with None => I <> [] | Some F => all_digits F = true /\ (I <> [] \/ F <> []) end ->
    is_e ec = true -> all_digits X = true -> X <> [] -> shape SExpNum (mtext sg I pp ++ ec :: sign_text es ++ X).

Lemma all_digits_snoc : forall I c, all_digits I = true -> is_digit c = true -> all_digits (I ++ [c]) = true.
Proof. intros. rewrite all_digits_app, H. cbn. now rewrite H0. Qed.

Lemma snoc_ne : forall (A : Type) (l : list A) x, l ++ [x] <> [].
Proof. intros A l x H. destruct l; discriminate. Qed.

Lemma sign_char : forall c, is_sign c = true -> exists b, [c] = sign_text (Some b).
Proof.
  intros c H. unfold is_sign in H. apply orb_true_iff in H. destruct H as [H|H]; apply N.eqb_eq in H; subst.
  - exists false. reflexivity.
  - exists true. reflexivity.
Qed.

Lemma shape_eq : forall st t s, shape st t -> t = s -> shape st s.
Proof. intros; subst; assumption. Qed.

Ltac norm := unfold mtext; repeat (first [rewrite <- app_assoc | progress cbn [app]]); repeat rewrite app_nil_r; reflexivity.

Lemma shape_step : forall st s c st', shape st s -> nstep st c = Some st' -> shape st' (s ++ [c]).
Proof.
  intros st s c st' Hs Hn. unfold nstep in Hn.
  assert (Hd1 : is_digit c = true -> all_digits [c] = true) by (intro D; cbn; now rewrite D).
  assert (Hne1 : [c] <> []) by discriminate.
  destruct (is_digit c) eqn:D.
  - specialize (Hd1 eq_refl).
    inversion Hs; subst; inversion Hn; subst; clear Hn.
    + eapply shape_eq; [apply (ShInt None [c]); assumption|norm].
    + eapply shape_eq; [apply (ShInt (Some b) [c]); assumption|norm].
    + eapply shape_eq; [apply (ShInt sg (I ++ [c])); [now apply all_digits_snoc|apply snoc_ne]|norm].
    + eapply shape_eq; [apply (ShFrac sg I [c]); assumption|norm].
    + eapply shape_eq; [apply (ShFrac sg [] [c]); [reflexivity|assumption|assumption]|norm].
    + eapply shape_eq; [apply (ShFrac sg I (F ++ [c])); [assumption|now apply all_digits_snoc|apply snoc_ne]|norm].
    + eapply shape_eq; [apply (ShExpNum sg I pp ec None [c]); assumption|norm].
    + eapply shape_eq; [apply (ShExpNum sg I pp ec (Some b) [c]); assumption|norm].
    + eapply shape_eq; [apply (ShExpNum sg I pp ec es (X ++ [c])); try assumption; [now apply all_digits_snoc|apply snoc_ne]|norm].
  - destruct (is_e c) eqn:E.
    + inversion Hs; subst; try discriminate; inversion Hn; subst; clear Hn.
      * eapply shape_eq; [apply (ShExp sg I None c); assumption|norm].
      * eapply shape_eq; [apply (ShExp sg I (Some []) c); [assumption|split; [reflexivity|now left]|assumption]|norm].
      * eapply shape_eq; [apply (ShExp sg I (Some F) c); [assumption|split; [assumption|now right]|assumption]|norm].
    + destruct (c =? c_dot)%N eqn:P.
      * apply N.eqb_eq in P. subst c.
        inversion Hs; subst; try discriminate; inversion Hn; subst; clear Hn.
        -- eapply shape_eq; [apply (ShPointNoInt None)|norm].
        -- eapply shape_eq; [apply (ShPointNoInt (Some b))|norm].
        -- eapply shape_eq; [apply (ShPoint sg I); assumption|norm].
      * destruct (is_sign c) eqn:S; [|discriminate].
        destruct (sign_char c S) as [b Hb].
        inversion Hs; subst; try discriminate; inversion Hn; subst; clear Hn.
        -- eapply shape_eq; [apply (ShSign b)|rewrite <- Hb; reflexivity].
        -- eapply shape_eq; [apply (ShExpSign sg I pp ec b); assumption|rewrite <- Hb; norm].
Qed.

Lemma nrun_shape : forall s st, nrun SInit s = Some st -> shape st s.
Proof.
  induction s as [|c s IH] using rev_ind; intros st H.
  - cbn in H. inversion H; subst. constructor.
  - rewrite nrun_snoc in H. destruct (nrun SInit s) as [st0|] eqn:R; [|discriminate].
    eapply shape_step; [apply IH; reflexivity|exact H].
Qed.

Theorem valid_number_grammar : forall s, valid_number s = true ->
  exists sg I, all_digits I = true /\
    ((I <> [] /\ s = sign_text sg ++ I) \/
     (exists F, all_digits F = true /\ (I <> [] \/ F <> []) /\ s = sign_text sg ++ I ++ c_dot :: F) \/
     (exists ec es X, I <> [] /\ is_e ec = true /\ all_digits X = true /\ X <> [] /\ s = sign_text sg ++ I ++ ec :: sign_text es ++ X) \/
     (exists F ec es X, all_digits F = true /\ (I <> [] \/ F <> []) /\ is_e ec = true /\ all_digits X = true /\ X <> [] /\
                        s = sign_text sg ++ I ++ c_dot :: F ++ ec :: sign_text es ++ X)).
Proof.
  intros s H. unfold valid_number in H. destruct (nrun SInit s) as [st|] eqn:R; [|discriminate].
  apply nrun_shape in R. inversion R; subst; try discriminate.
  - exists sg, I. split; [assumption|]. left. split; [assumption|norm].
  - exists sg, I. split; [assumption|]. right; left. exists []. split; [reflexivity|]. split; [now left|norm].
  - exists sg, I. split; [assumption|]. right; left. exists F. split; [assumption|]. split; [now right|norm].
  - exists sg, I. split; [assumption|]. destruct pp as [F|].
    + right; right; right. destruct H1 as [HF Hne]. exists F, ec, es, X. repeat (split; [assumption|]). norm.
    + right; right; left. exists ec, es, X. repeat (split; [assumption|]). norm.
Qed.

(* ... in the form dec_parse_literal speaks about: so dec_parse returns the decimal value of every text IsValidNumber accepts *)
Theorem valid_number_literal : forall s, valid_number s = true ->
  exists sg I pp ex, s = mtext sg I pp ++ etext ex /\
    dec_parse s = mk (sign_neg sg) (dec_val (I ++ frac_of pp)) (Z.of_nat (length (frac_of pp)))
                     (match ex with Some (_, es, _) => sign_neg es | None => false end)
                     (match ex with Some (_, _, X) => dec_val X | None => 0 end).
Proof.
  intros s H. unfold valid_number in H. destruct (nrun SInit s) as [st|] eqn:R; [|discriminate].
  assert (L : exists sg I pp ex, s = mtext sg I pp ++ etext ex /\ all_digits I = true /\ all_digits (frac_of pp) = true /\
            match ex with Some (ec, es, X) => is_e ec = true /\ all_digits X = true /\ I ++ frac_of pp <> [] | None => True end).
  { apply nrun_shape in R. inversion R; subst; try discriminate.
    - exists sg, I, None, None. rewrite app_nil_r. auto.
    - exists sg, I, (Some []), None. rewrite app_nil_r. auto.
    - exists sg, I, (Some F), None. rewrite app_nil_r. auto.
    - exists sg, I, pp, (Some (ec, es, X)). repeat split; auto.
      + destruct pp as [F|]; [apply H1|reflexivity].
      + destruct pp as [F|]; cbn [frac_of]; [destruct H1 as [_ [Hn|Hn]]|rewrite app_nil_r; exact H1]; destruct I; auto; discriminate. }
  destruct L as (sg & I & pp & ex & -> & HI & HF & Hex). exists sg, I, pp, ex. split; [reflexivity|]. now apply dec_parse_literal.
Qed.
