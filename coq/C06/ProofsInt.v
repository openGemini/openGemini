(* C06: the int64 -> float64 -> int64 passage of integer field values is exact iff the integer is a 53-bit mantissa
   times a power of two. *)
From Coq Require Import ZArith List Bool Lia.
From OG Require Import C06.Model.
Import ListNotations.
Open Scope Z_scope.

Lemma pow2_pos : forall k, 0 <= k -> 0 < 2 ^ k.
Proof. intros. apply Z.pow_pos_nonneg; lia. Qed.

Lemma pow2_split : forall a b, 0 <= a -> 0 <= b -> 2 ^ (a + b) = 2 ^ a * 2 ^ b.
Proof. intros. apply Z.pow_add_r; lia. Qed.

Lemma log2_le_63 : forall a, 0 < a -> a <= 2 ^ 63 -> Z.log2 a <= 63.
Proof.
  intros a Ha Hb. destruct (Z_le_gt_dec (Z.log2 a) 63) as [H|H]; [exact H|exfalso].
  pose proof (Z.log2_spec a Ha) as [H1 _].
  assert (2 ^ 64 <= 2 ^ Z.log2 a) by (apply Z.pow_le_mono_r; lia).
  change (2 ^ 64) with 18446744073709551616 in *. change (2 ^ 63) with 9223372036854775808 in *. lia.
Qed.

(* value of the float produced by round53 *)
Definition fl_value (p : Z * Z) : Z := if 0 <=? snd p then fst p * 2 ^ snd p else fst p / 2 ^ (- snd p).

Lemma round53_small : forall a, 0 < a -> Z.log2 a <= 52 -> fl_value (round53 a) = a.
Proof.
  intros a Ha Hk. unfold round53. apply Z.leb_le in Hk. rewrite Hk. apply Z.leb_le in Hk.
  unfold fl_value. cbn [fst snd].
  pose proof (Z.log2_nonneg a) as Hk0.
  destruct (0 <=? Z.log2 a - 52) eqn:E.
  - apply Z.leb_le in E. assert (Z.log2 a = 52) by lia.
    replace (52 - Z.log2 a) with 0 by lia. replace (Z.log2 a - 52) with 0 by lia. cbn. lia.
  - replace (- (Z.log2 a - 52)) with (52 - Z.log2 a) by lia.
    apply Z.div_mul. pose proof (pow2_pos (52 - Z.log2 a)). lia.
Qed.

(* for 2^53 <= a the result is q' * 2^sh with q' the quotient or the quotient plus one, and it is the quotient
   when the remainder vanishes *)
Lemma round53_big : forall a, 0 < a -> 53 <= Z.log2 a ->
  let sh := Z.log2 a - 52 in
  exists q', fl_value (round53 a) = q' * 2 ^ sh /\
             (q' = a / 2 ^ sh \/ q' = a / 2 ^ sh + 1) /\
             (a mod 2 ^ sh = 0 -> q' = a / 2 ^ sh).
Proof.
  intros a Ha Hk sh. unfold round53.
  assert (Hk' : (Z.log2 a <=? 52) = false) by (apply Z.leb_gt; lia). rewrite Hk'.
  fold sh.
  assert (Hsh : 1 <= sh) by (unfold sh; lia).
  set (q := a / 2 ^ sh). set (r := a mod 2 ^ sh).
  assert (Hhalf : 0 < 2 ^ (sh - 1)) by (apply pow2_pos; lia).
  set (up := (2 ^ (sh - 1) <? r) || ((r =? 2 ^ (sh - 1)) && Z.odd q)).
  set (q' := if up then q + 1 else q).
  exists q'. split; [|split].
  - destruct (q' =? 2 ^ 53) eqn:E.
    + apply Z.eqb_eq in E. unfold fl_value. cbn [fst snd].
      assert (H0 : (0 <=? sh + 1) = true) by (apply Z.leb_le; lia). rewrite H0.
      rewrite E. rewrite pow2_split by lia. change (2 ^ 53) with (2 ^ 52 * 2). change (2 ^ 1) with 2. ring.
    + unfold fl_value. cbn [fst snd].
      assert (H0 : (0 <=? sh) = true) by (apply Z.leb_le; lia). rewrite H0. reflexivity.
  - unfold q'. destruct up; [right|left]; reflexivity.
  - intro Hr. unfold q'. fold r in Hr. unfold up. rewrite Hr.
    assert (H1 : (2 ^ (sh - 1) <? 0) = false) by (apply Z.ltb_ge; lia).
    assert (H2 : (0 =? 2 ^ (sh - 1)) = false) by (apply Z.eqb_neq; lia).
    rewrite H1, H2. reflexivity.
Qed.

Lemma sign_abs : forall n, (if n <? 0 then - Z.abs n else Z.abs n) = n.
Proof. intro n. destruct (Z.ltb_spec n 0); lia. Qed.

Lemma f64_to_z_fin : forall neg m e,
  f64_to_z (FFin neg m e) =
  let sv := if neg then - fl_value (m, e) else fl_value (m, e) in if in_int64 sv then sv else min_int64.
Proof. reflexivity. Qed.

Theorem int_exact_iff : forall n,
  in_int64 n = true -> (f64_to_z (z_to_f64 n) = n <-> representable53 n).
Proof.
  intros n Hn64. pose proof Hn64 as Hr. unfold in_int64, min_int64, max_int64 in Hr.
  apply andb_true_iff in Hr. destruct Hr as [Hlo Hhi]. apply Z.leb_le in Hlo, Hhi.
  change (2 ^ 63) with 9223372036854775808 in Hlo, Hhi.
  unfold z_to_f64. destruct (n =? 0) eqn:Hz.
  - apply Z.eqb_eq in Hz. subst n. split; intros _.
    + exists 0, 0. cbn. lia.
    + vm_compute. reflexivity.
  - apply Z.eqb_neq in Hz.
    assert (Ha : 0 < Z.abs n) by lia.
    assert (Ha63 : Z.abs n <= 2 ^ 63) by (change (2 ^ 63) with 9223372036854775808; lia).
    pose proof (log2_le_63 _ Ha Ha63) as Hk63.
    pose proof (Z.log2_spec _ Ha) as [Hk1 Hk2].
    pose proof (Z.log2_nonneg (Z.abs n)) as Hk0.
    destruct (round53 (Z.abs n)) as [m e] eqn:ER.
    rewrite f64_to_z_fin. cbv zeta.
    destruct (Z_le_gt_dec (Z.log2 (Z.abs n)) 52) as [Hs|Hb].
    + (* below 2^53: always exact, always representable *)
      pose proof (round53_small _ Ha Hs) as Hv. rewrite ER in Hv. rewrite Hv.
      rewrite sign_abs.
      rewrite Hn64. split; intros _; [|reflexivity].
      exists n, 0. split; [lia|]. split; [|cbn; lia].
      assert (2 ^ Z.succ (Z.log2 (Z.abs n)) <= 2 ^ 53) by (apply Z.pow_le_mono_r; lia). lia.
    + assert (Hb' : 53 <= Z.log2 (Z.abs n)) by lia.
      pose proof (round53_big _ Ha Hb') as [q' [Hv [Hq Hq0]]]. cbv zeta in Hv, Hq, Hq0. rewrite ER in Hv.
      set (sh := Z.log2 (Z.abs n) - 52) in *.
      assert (Hsh : 1 <= sh) by (unfold sh; lia).
      assert (Hp : 0 < 2 ^ sh) by (apply pow2_pos; lia).
      pose proof (Z.div_mod (Z.abs n) (2 ^ sh) ltac:(lia)) as Hdm.
      pose proof (Z.mod_pos_bound (Z.abs n) (2 ^ sh) Hp) as Hrb.
      set (q := Z.abs n / 2 ^ sh) in *. set (r := Z.abs n mod 2 ^ sh) in *.
      rewrite Hv. split.
      * intro He.
        destruct (in_int64 (if n <? 0 then - (q' * 2 ^ sh) else q' * 2 ^ sh)) eqn:Hin.
        -- assert (Hva : q' * 2 ^ sh = Z.abs n).
           { destruct (n <? 0) eqn:E; [apply Z.ltb_lt in E | apply Z.ltb_ge in E]; lia. }
           assert (Hr0 : r = 0).
           { destruct Hq as [Hq|Hq]; rewrite Hq in Hva; nia. }
           assert (Hqq : q' = q) by (apply Hq0; exact Hr0).
           assert (Hq53 : q < 2 ^ 53).
           { apply Z.div_lt_upper_bound; [lia|].
             replace (2 ^ sh * 2 ^ 53) with (2 ^ Z.succ (Z.log2 (Z.abs n))); [lia|].
             rewrite <- pow2_split by lia. f_equal. unfold sh. lia. }
           assert (Hq0' : 0 <= q) by (apply Z.div_pos; lia).
           exists (if n <? 0 then - q else q), sh. split; [lia|]. split.
           ++ destruct (n <? 0); lia.
           ++ rewrite Hqq in Hva. destruct (n <? 0) eqn:E; [apply Z.ltb_lt in E | apply Z.ltb_ge in E]; lia.
        -- (* saturated: only min_int64 itself comes back *)
           unfold min_int64 in He. exists (-1), 63. split; [lia|]. split; [cbn; lia|].
           rewrite <- He. reflexivity.
      * intros [m0 [e0 [He0 [Hm0 Hn]]]].
        assert (Hm0nz : m0 <> 0) by (intro; subst m0; lia).
        assert (Habs : Z.abs n = Z.abs m0 * 2 ^ e0).
        { rewrite Hn, Z.abs_mul. f_equal. apply Z.abs_eq. pose proof (pow2_pos e0 He0). lia. }
        assert (Hlog : Z.log2 (Z.abs n) = e0 + Z.log2 (Z.abs m0)).
        { rewrite Habs. apply Z.log2_mul_pow2; lia. }
        assert (Hlm : Z.log2 (Z.abs m0) <= 52).
        { assert (Z.log2 (Z.abs m0) < 53); [|lia]. apply Z.log2_lt_pow2; lia. }
        assert (Hshe : sh <= e0) by (unfold sh; lia).
        assert (Hr0 : r = 0).
        { unfold r. rewrite Habs. replace e0 with ((e0 - sh) + sh) by lia.
          rewrite pow2_split by lia. rewrite Z.mul_assoc. apply Z.mod_mul. lia. }
        assert (Hqq : q' = q) by (apply Hq0; exact Hr0).
        assert (Hva : q' * 2 ^ sh = Z.abs n) by (rewrite Hqq; lia).
        rewrite Hva.
        rewrite sign_abs.
        rewrite Hn64. reflexivity.
Qed.

