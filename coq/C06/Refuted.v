(* C06: the code before the repairs (cfg_current, wcfg_current) violates the property; /repo carries every repair but those
   of the integer passage (C06_int_refuted) and of the `time` field (C06_time_field_refuted).  Witnesses closed by vm_compute. *)
From Coq Require Import ZArith NArith List Bool String.
From OG Require Import C06.ModelWriter C06.Model C06.Proofs.
Import ListNotations.
Open Scope Z_scope.

(* integers above 2^53 travel through float64: 9007199254740993i comes back as ...992, 9223372036854775807i as
   -9223372036854775808 *)
Theorem C06_int_refuted :
  exists n m, in_int64 n = true /\ in_int64 m = true /\
    parse_line dec2f_exact cfg_current (bs "m x=9007199254740993i,y=9223372036854775807i 1") =
      Ok {| r_name := bs "m"; r_tags := []; r_fields := [(bs "x", VInt n 9007199254740992); (bs "y", VInt m (-9223372036854775808))];
            r_ts := Some 1 |} /\
    n = 9007199254740993 /\ m = 9223372036854775807.
Proof. exists 9007199254740993, 9223372036854775807. vm_compute. repeat split; reflexivity. Qed.

(* "x=zzf" is not a number, yet it is accepted as a float field *)
Theorem C06_f_suffix_refuted :
  exists s v, valid_number v = false /\ s = bs "m x=" ++ v ++ bs "f" /\
    parse_line dec2f_exact cfg_current s = Ok {| r_name := bs "m"; r_tags := []; r_fields := [(bs "x", VFloatJunk)]; r_ts := None |} /\
    parse_line dec2f_exact cfg_repaired s = Err.
Proof. exists (bs "m x=zzf"), (bs "zz"). vm_compute. repeat split; reflexivity. Qed.

(* three lines, the middle one invalid, the last one valid: no error is reported and the two valid lines are stored *)
Theorem C06_batch_error_lost_refuted :
  exists s l, In l (split_lines s) /\ parse_row dec2f_exact cfg_current l = Some Err /\
    snd (parse_batch_current s) = false /\ List.length (fst (parse_batch_current s)) = 2%nat /\
    accept_block dec2f_exact cfg_repaired 1 s = Err.
Proof.
  exists (bs "m x=1i 1" ++ [10%N] ++ bs "m bad" ++ [10%N] ++ bs "m x=2i 2"), (bs "m bad").
  vm_compute. repeat split; try reflexivity. right. left. reflexivity.
Qed.

(* a float literal with a leading '+' is accepted and stored as 0 *)
Theorem C06_plus_zero_refuted :
  exists s, parse_line dec2f_exact cfg_current s =
              Ok {| r_name := bs "m"; r_tags := []; r_fields := [(bs "x", VFloatBits (f64_zero false))]; r_ts := None |} /\
            parse_line dec2f_exact cfg_repaired s =
              Ok {| r_name := bs "m"; r_tags := []; r_fields := [(bs "x", VFloat (bs "+1.5") (FFin false 6755399441055744 (-52)))]; r_ts := None |}.
Proof. exists (bs "m x=+1.5"). vm_compute. split; reflexivity. Qed.

(* "-716." loses its sign *)
Theorem C06_neg_dot_refuted :
  exists s, parse_line dec2f_exact cfg_current s =
              Ok {| r_name := bs "m"; r_tags := []; r_fields := [(bs "x", VFloatBits (FFin false 6298002603900928 (-43)))]; r_ts := None |} /\
            parse_line dec2f_exact cfg_repaired s =
              Ok {| r_name := bs "m"; r_tags := []; r_fields := [(bs "x", VFloat (bs "-716.") (FFin true 6298002603900928 (-43)))]; r_ts := None |}.
Proof. exists (bs "m x=-716."). vm_compute. split; reflexivity. Qed.

(* a value that contains a quote but does not start with one is accepted as the empty string *)
Theorem C06_strquote_refuted :
  exists s, parse_line dec2f_exact cfg_current s =
              Ok {| r_name := bs "m"; r_tags := []; r_fields := [(bs "x", VStr [])]; r_ts := None |} /\
            parse_line dec2f_exact cfg_repaired s = Err.
Proof. exists (bs "m x=12""3"""). vm_compute. split; reflexivity. Qed.

(* precision s, timestamp 18446744074: the instant is beyond int64 ns; before commit 31db7b0 it wraps to
   290448384 ns and is stored *)
Theorem C06_ts_overflow_refuted :
  exists s mult, accept_block dec2f_exact cfg_current mult s =
                   Ok [{| r_name := bs "m"; r_tags := []; r_fields := [(bs "x", VInt 1 1)]; r_ts := Some 290448384 |}] /\
                 accept_block dec2f_exact cfg_repaired mult s = Err.
Proof. exists (bs "m x=1i 18446744074"), 1000000000. vm_compute. split; reflexivity. Qed.

(* the writer (wcfg_current; not repaired in /repo) drops a field named `time` without a word: the row is handed on without an error and without the field *)
Theorem C06_time_field_refuted :
  exists s, match accept_block dec2f_exact cfg_repaired 1 s with
            | Ok [r] =>
                snd (writer_row wcfg_current [] r) =
                  {| wo_err := false; wo_row := Some {| r_name := bs "tf"; r_tags := []; r_fields := [(bs "x", VInt 1 1)]; r_ts := Some 1000 |} |} /\
                snd (writer_row wcfg_repaired [] r) = {| wo_err := true; wo_row := None |}
            | _ => False
            end.
Proof. exists (bs "tf time=5i,x=1i 1000"). vm_compute. split; reflexivity. Qed.

(* before commit 4067963 the writer reports an error for a row with a tag named `time` and hands the row on in the series
   without that tag *)
Theorem C06_time_tag_refuted :
  exists s, match accept_block dec2f_exact cfg_repaired 1 s with
            | Ok [r] =>
                snd (writer_row wcfg_current [] r) =
                  {| wo_err := true; wo_row := Some {| r_name := bs "tt"; r_tags := []; r_fields := [(bs "x", VInt 1 1)]; r_ts := Some 1000 |} |} /\
                snd (writer_row wcfg_repaired [] r) = {| wo_err := true; wo_row := None |}
            | _ => False
            end.
Proof. exists (bs "tt,time=a x=1i 1000"). vm_compute. split; reflexivity. Qed.
