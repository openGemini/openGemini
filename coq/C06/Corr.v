(* C06 correspondence evaluator.  For every harness case (precision factor, request block, what the real
   unmarshalWork.Unmarshal + AppendFieldToCol produced) find the configuration of the model with the fewest
   deviations (Model.cfg: a deviation is a flag set to true) that reproduces the implementation's observables exactly.
     code m        (0 <= m < 128)   : configuration m matches (bit 1 int53, 2 fsuffix, 4 batch, 8 plus, 16 strq, 32 negdot, 64 tswrap);
                                     0 = the repaired parser
     code 100 + m                  : matches except for float fields written with an exponent part whose bits differ
     code 999                      : no configuration matches *)
From Coq Require Import ZArith NArith List Bool String Ascii.
From OG Require Import C06.Model C06.ModelStream C06.ModelWriter.
Import ListNotations.
Open Scope Z_scope.

Definition ifield := (bytes * Z * Z * Z * bytes)%type.       (* key, Field.Type, bits of NumValue, stored int64, StrValue *)
Definition irow := (bytes * list (bytes * bytes) * list ifield * option Z)%type.   (* ts None = server clock *)
Definition icase := (Z * bytes * option (list irow))%type.   (* None = block rejected with an error *)

Definition cfg_of_mask (m : Z) : cfg :=
  {| c_int53 := Z.testbit m 0; c_fsuffix := Z.testbit m 1; c_batch := Z.testbit m 2;
     c_plus := Z.testbit m 3; c_strq := Z.testbit m 4; c_negdot := Z.testbit m 5; c_tswrap := Z.testbit m 6 |}.

(* masks ordered by number of deviations *)
Definition masks : list Z :=
  [0; 1; 2; 4; 8; 16; 32; 64; 3; 5; 6; 9; 10; 12; 17; 18; 20; 24; 33; 34; 36; 40; 48; 65; 66; 68; 72; 80; 96; 7; 11; 13; 14; 19; 21; 22; 25; 26; 28; 35; 37; 38; 41; 42; 44; 49; 50; 52; 56; 67; 69; 70; 73; 74; 76; 81; 82; 84; 88; 97; 98; 100; 104; 112; 15; 23; 27; 29; 30; 39; 43; 45; 46; 51; 53; 54; 57; 58; 60; 71; 75; 77; 78; 83; 85; 86; 89; 90; 92; 99; 101; 102; 105; 106; 108; 113; 114; 116; 120; 31; 47; 55; 59; 61; 62; 79; 87; 91; 93; 94; 103; 107; 109; 110; 115; 117; 118; 121; 122; 124; 63; 95; 111; 119; 123; 125; 126; 127].

Definition bits_one : Z := 1023 * 2 ^ 52.    (* 1.0 *)

(* 0 same, 1 same up to an exponent-form float, 2 different *)
Definition cmp_field (mf : bytes * fval) (f : ifield) : Z :=
  let '(k, ty, nb, st, sv) := f in
  if negb (list_beq (fst mf) k) then 2 else
  match snd mf with
  | VInt text stored => if (ty =? 1) && (st =? stored) then 0 else 2
  | VFloat lit x => if negb (ty =? 3) then 2 else if nb =? f64_bits x then 0 else if has_exp_part lit && (Z.abs (nb - f64_bits x) <=? 2) then 1 else 2
  | VFloatBits x => if (ty =? 3) && (nb =? f64_bits x) then 0 else 2
  | VFloatJunk => if ty =? 3 then 0 else 2
  | VBool b => if (ty =? 5) && (nb =? (if b then bits_one else 0)) then 0 else 2
  | VStr s => if (ty =? 4) && list_beq s sv then 0 else 2
  end.

Fixpoint cmp_list {A B} (f : A -> B -> Z) (a : list A) (b : list B) : Z :=
  match a, b with
  | [], [] => 0
  | x :: a', y :: b' => Z.max (f x y) (cmp_list f a' b')
  | _, _ => 2
  end.

Definition pair_leb (a b : bytes * bytes) : bool :=
  if list_beq (fst a) (fst b) then bytes_leb (snd a) (snd b) else bytes_leb (fst a) (fst b).
Fixpoint insert_pair (t : bytes * bytes) (l : list (bytes * bytes)) :=
  match l with
  | [] => [t]
  | u :: r => if pair_leb t u then t :: l else u :: insert_pair t r
  end.
Definition sort_pairs (l : list (bytes * bytes)) := fold_right insert_pair [] l.

Definition cmp_tag (a b : bytes * bytes) : Z :=
  if list_beq (fst a) (fst b) && list_beq (snd a) (snd b) then 0 else 2.

Definition cmp_row (m : row) (r : irow) : Z :=
  let '(name, tags, fields, ts) := r in
  if negb (list_beq (r_name m) name) then 2 else
  if negb (match r_ts m, ts with Some a, Some b => a =? b | None, None => true | _, _ => false end) then 2 else
  Z.max (cmp_list cmp_tag (sort_pairs (r_tags m)) (sort_pairs tags)) (cmp_list cmp_field (r_fields m) fields).

Definition cmp_case (c : cfg) (cs : icase) : Z :=
  let '(mult, input, impl) := cs in
  match accept_block dec2f_exact c mult input, impl with
  | Err, None => 0
  | Ok rows, Some irows => cmp_list cmp_row rows irows
  | _, _ => 2
  end.

Fixpoint first_mask (want : Z) (ms : list Z) (cs : icase) : option Z :=
  match ms with
  | [] => None
  | m :: r => if cmp_case (cfg_of_mask m) cs <=? want then Some m else first_mask want r cs
  end.

Definition classify (cs : icase) : Z :=
  match first_mask 0 masks cs with
  | Some m => m
  | None => match first_mask 1 masks cs with Some m => 100 + m | None => 999 end
  end.

(* (case index, code) for every case whose code is not 0 *)
Fixpoint codes_from (k : nat) (cs : list icase) : list (nat * Z) :=
  match cs with
  | [] => []
  | c :: r => let x := classify c in if x =? 0 then codes_from (S k) r else (k, x) :: codes_from (S k) r
  end.
Definition codes := codes_from 0.

(* ------------------------------------------------------------------------------------------------ *)
(* the block reader.  What the theorems need of it is the cutting discipline proved of the model
   (C06_blocks_cut_only_at_newlines): the delivered blocks, joined by newlines, are a prefix of the stream that ends at
   a newline, or - only at a regular end - the whole stream.  That is checked on every observed run (code 1 when
   violated).  Beyond it the model is run with the capacities the harness replayed and must deliver exactly the observed
   blocks (bytes and final buffer capacity) and end the same way; a difference there alone (code 2) says that the
   cutting strategy of the code is no longer the modelled one, not that anything is lost. *)
Definition scase := (Z * Z * list (list Z) * bytes * list (bytes * Z) * bool)%type.   (* end (0 EOF, 1 error), max-line-size, schedule, stream, blocks, clean end *)

Fixpoint blocks_eq (a : list (bytes * nat)) (b : list (bytes * Z)) : bool :=
  match a, b with
  | [], [] => true
  | (x, cx) :: a', (y, cy) :: b' => list_beq x y && (Z.of_nat cx =? cy) && blocks_eq a' b'
  | _, _ => false
  end.

Fixpoint is_prefix (a s : bytes) : option bytes :=      (* Some rest when s = a ++ rest *)
  match a, s with
  | [], _ => Some s
  | x :: a', y :: s' => if (x =? y)%N then is_prefix a' s' else None
  | _ :: _, [] => None
  end.

(* every block is followed by a newline in the stream; returns what is left of the stream *)
Fixpoint strip_blocks (blocks : list bytes) (s : bytes) : option bytes :=
  match blocks with
  | [] => Some s
  | b :: r => match is_prefix b s with
              | Some (c :: s') => if (c =? c_nl)%N then strip_blocks r s' else None
              | _ => None
              end
  end.

(* all but the last block are followed by a newline, the last one is the rest of the stream (non-empty) *)
Fixpoint strip_blocks_last (blocks : list bytes) (s : bytes) : bool :=
  match blocks with
  | [] => match s with [] => true | _ => false end
  | [b] => match b with [] => false | _ => list_beq b s end
  | b :: r => match is_prefix b s with
              | Some (c :: s') => (c =? c_nl)%N && strip_blocks_last r s'
              | _ => false
              end
  end.

Definition valid_cut (e : Z) (body : bytes) (blocks : list bytes) (ok : bool) : bool :=
  if ok then (e =? 0) && (strip_blocks_last blocks body || match strip_blocks blocks body with Some [] => true | _ => false end)
  else match strip_blocks blocks body with Some _ => true | None => false end.

Definition check_stream (sc : scase) : Z :=
  let '(e, maxline, sched, body, blocks, ok) := sc in
  if negb (valid_cut e body (map fst blocks) ok) then 1
  else
    let '(bl, ok') := read_blocks (if e =? 0 then EndEOF else EndErr) (Z.to_nat maxline)
                                  (map (fun ch => (map Z.to_nat ch, false)) sched) [] body in
    if Bool.eqb ok ok' && blocks_eq bl blocks then 0 else 2.

Fixpoint scodes_from (k : nat) (cs : list scase) : list (nat * Z) :=
  match cs with
  | [] => []
  | c :: r => let x := check_stream c in if x =? 0 then scodes_from (S k) r else (k, x) :: scodes_from (S k) r
  end.
Definition scodes := scodes_from 0.

(* ------------------------------------------------------------------------------------------------ *)
(* the write endpoint against serve_write.  By C06_acceptable_body_acknowledged and C06_acknowledged_write_stores_every_line the
   answer does not depend on the schedule of capacities: acknowledged iff the declared length and (for a body that is not
   gzip-encoded) the streamed length are within max-body-size, the stream does not break off, and the body is acceptable as
   one block - then with exactly those rows; by C06_write_stores_whole_lines_only a refused request leaves rows of complete
   lines of the body only, in order. *)
Definition hcase := (Z * option Z * option Z * bool * bool * bytes * bool * list irow)%type.
   (* factor, max-body-size, Content-Length, gzip, the stream breaks off, decoded body, acknowledged, stored rows in line order *)

Definition line_stored (c : cfg) (mult : Z) (l : bytes) : list row :=
  match parse_row dec2f_exact c l with
  | Some (Ok r) => match scale_row c mult r with Ok r' => [r'] | Err => [] end
  | _ => []
  end.

Fixpoint subseq_rows (rows : list row) (irows : list irow) {struct rows} : bool :=
  match irows with
  | [] => true
  | ir :: irs =>
      match rows with
      | [] => false
      | r :: rs => if cmp_row r ir =? 0 then subseq_rows rs irs else subseq_rows rs irows
      end
  end.

Definition cmp_hcase (c : cfg) (hc : hcase) : Z :=
  let '(mult, limit, declared, gz, broken, body, ack, irows) := hc in
  let toobig := match limit, declared with Some n, Some d => n <? d | _, _ => false end in
  let over := match limit with Some n => negb gz && (n <? Z.of_nat (List.length body)) | None => false end in
  let expect := if toobig || over || broken then Err else accept_block dec2f_exact c mult body in
  match expect, ack with
  | Ok rows, true => cmp_list cmp_row rows irows
  | Err, false => if subseq_rows (flat_map (line_stored c mult) (split_lines body)) irows then 0 else 2
  | _, _ => 2
  end.

Fixpoint first_hmask (want : Z) (ms : list Z) (hc : hcase) : option Z :=
  match ms with
  | [] => None
  | m :: r => if cmp_hcase (cfg_of_mask m) hc <=? want then Some m else first_hmask want r hc
  end.

(* request bodies: only the masks with at most two deviations (the first 29) are tried *)
Definition hmasks : list Z := firstn 29 masks.

Definition hclassify (hc : hcase) : Z :=
  match first_hmask 0 hmasks hc with
  | Some m => m
  | None => match first_hmask 1 hmasks hc with Some m => 100 + m | None => 999 end
  end.

Fixpoint hcodes_from (k : nat) (cs : list hcase) : list (nat * Z) :=
  match cs with
  | [] => []
  | c :: r => let x := hclassify c in if x =? 0 then hcodes_from (S k) r else (k, x) :: hcodes_from (S k) r
  end.
Definition hcodes := hcodes_from 0.

(* ------------------------------------------------------------------------------------------------ *)
(* the points writer's per-row glue: the lines of a request go through the parser model and then, row by row against the
   evolving schema, through writer_rows; per row the reported error, whether the row is handed on, and the row handed on
   must be the observed ones.  code = parser mask + 1000 * (1 if a field named time is dropped silently) + 2000 * (1 if a
   row is handed on without its tag named time); 999 = nothing matches *)
Definition wobs := (bool * bool * option irow)%type.                (* dropped, error reported, row handed on *)
Definition wcase := (bytes * list wobs)%type.

Definition cmp_wout (o : wout) (w : wobs) : Z :=
  let '(dropped, err, ir) := w in
  if negb (Bool.eqb (wo_err o) err) then 2 else
  match wo_row o, ir with
  | None, None => if dropped then 0 else 2
  | Some r, Some i => if dropped then 2 else cmp_row r i
  | _, _ => 2
  end.

Definition cmp_wcase (c : cfg) (wc : wcfg) (cs : wcase) : Z :=
  let '(body, obs) := cs in
  match accept_block dec2f_exact c 1 body with
  | Err => 2
  | Ok rows => cmp_list cmp_wout (snd (writer_rows wc [] rows)) obs
  end.

Definition wcfg_of (w : Z) : wcfg := {| w_timefield := Z.testbit w 0; w_timetag := Z.testbit w 1 |}.

Fixpoint first_wmask (ws ms : list Z) (cs : wcase) : option Z :=
  match ws with
  | [] => None
  | w :: wr =>
      match (fix go (ms : list Z) : option Z :=
               match ms with
               | [] => None
               | m :: r => if cmp_wcase (cfg_of_mask m) (wcfg_of w) cs =? 0 then Some (m + 1000 * w) else go r
               end) ms with
      | Some x => Some x
      | None => first_wmask wr ms cs
      end
  end.

Definition wclassify (cs : wcase) : Z :=
  match first_wmask [0; 1; 2; 3] [0; 1] cs with Some x => x | None => 999 end.

Fixpoint wcodes_from (k : nat) (cs : list wcase) : list (nat * Z) :=
  match cs with
  | [] => []
  | c :: r => let x := wclassify c in if x =? 0 then wcodes_from (S k) r else (k, x) :: wcodes_from (S k) r
  end.
Definition wcodes := wcodes_from 0.

(* helpers for the generated case files (everything in Z scope) *)
Definition B (l : list Z) : bytes := map Z.to_N l.

(* bytes written as a string of lower-case hex digits *)
Definition hexv (a : ascii) : N := let n := N_of_ascii a in if (n <? 58)%N then (n - 48)%N else (n - 87)%N.
Fixpoint H (s : string) : bytes :=
  match s with
  | String a (String b r) => (16 * hexv a + hexv b)%N :: H r
  | _ => []
  end.
