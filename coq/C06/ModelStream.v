(* C06 - executable model of the body framing between the socket and the line parser.

   Mirrors lib/util/lifted/vm/protoparser/influx/streamparser.go (ReadLinesBlockExt, streamContext.Read / Error),
   lib/util/lifted/influx/httpd/io.go (truncateReader: an io.LimitedReader of max-body-size + 1 bytes that answers
   "truncated" once its budget is used up) and the read loop of httpd.Handler.serveWrite (Content-Length test, one
   unmarshal work per block, every block handed to the points writer on its own, status from the reader's error and
   the blocks' errors).

   The capacity of the buffer a block is read into is not a function of the configured block size: serveWrite swaps
   the context's buffer with the buffer of a pooled unmarshal work after every block, bytesutil.Resize and append
   round capacities up. The model therefore takes the capacities as a SCHEDULE (one entry per call of
   ReadLinesBlockExt) and every theorem is for every schedule.  Definitions only; total; computable. *)
From Coq Require Import ZArith NArith List Bool Arith.
From OG Require Import C06.Model.
Import ListNotations.
Open Scope Z_scope.

(* how the byte stream under the reader ends: end of file, or a read error (truncation by max-body-size, a broken
   gzip stream, a closed connection) *)
Inductive rd_end := EndEOF | EndErr.

(* the text before and after the first newline; cut_last_nl (bytes.LastIndexByte(s, '\n'): before and after the last
   newline) is this on the reversed text *)
Fixpoint cut_first_nl (s : bytes) : option (bytes * bytes) :=
  match s with
  | [] => None
  | c :: r =>
      if (c =? c_nl)%N then Some ([], r)
      else match cut_first_nl r with Some (a, b) => Some (c :: a, b) | None => None end
  end.
Definition cut_last_nl (s : bytes) : option (bytes * bytes) :=
  match cut_first_nl (rev s) with Some (a, b) => Some (rev b, rev a) | None => None end.

Inductive blk :=
| BlkData (block tail rest : bytes) (cap : nat)  (* a block for the parser, the carried tail, the unread stream, final capacity *)
| BlkEnd                                         (* io.EOF with nothing buffered: the body is finished *)
| BlkFail.                                       (* read error, line longer than max-line-size, no forward progress *)

(* one call of ReadLinesBlockExt.  [tail] = bytes carried over from the previous call (dstBuf[:originLen]),
   [fresh] = bytes read in this call so far, [rest] = the unread stream.  [caps] = the capacities of dstBuf during this
   call: the head is cap(dstBuf) now, the next entries are what bytesutil.Resize(dstBuf, 2*cap) yields each time a full
   buffer holds no newline (at least the double; append rounds up to a size class).  [stall] = what a read into a buffer
   without room answers at the end of the stream (bufio.Reader: io.EOF when it has seen the end already, otherwise
   nothing, which ReadLinesBlockExt reports as "no forward progress"). *)
Fixpoint next_block (e : rd_end) (maxline : nat) (stall : bool) (caps : list nat) (tail fresh rest : bytes) : blk :=
  match caps with
  | [] => BlkFail
  | cap :: caps' =>
      let have := (length tail + length fresh)%nat in
      let room := (cap - have)%nat in
      if (room =? 0)%nat then
        match rest, e with
        | [], EndEOF => if stall then (if (have =? 0)%nat then BlkEnd else BlkData (tail ++ fresh) [] [] cap) else BlkFail
        | _, _ => BlkFail
        end
      else
        let got := firstn room rest in
        let rest' := skipn room rest in
        if (length got <? room)%nat then
          (* the stream ended before the buffer was full *)
          match e with
          | EndErr => BlkFail
          | EndEOF => if ((have + length got)%nat =? 0)%nat then BlkEnd
                      else BlkData (tail ++ fresh ++ got) [] [] cap
          end
        else
          let fresh' := fresh ++ got in
          match cut_last_nl fresh' with
          | Some (a, b) => BlkData (tail ++ a) b rest' cap
          | None =>
              if (maxline <? length tail + length fresh')%nat then BlkFail
              else next_block e maxline stall caps' tail fresh' rest'
          end
  end.

(* the read loop: blocks in order (each with the final capacity of its buffer), and whether the reader ended without
   an error (streamContext.Error() == nil).  One schedule entry (capacities, stall answer) per call; an exhausted
   schedule counts as a failure. *)
Fixpoint read_blocks (e : rd_end) (maxline : nat) (sched : list (list nat * bool)) (tail rest : bytes) : list (bytes * nat) * bool :=
  match sched with
  | [] => ([], false)
  | (caps, stall) :: sched' =>
      match next_block e maxline stall caps tail [] rest with
      | BlkEnd => ([], true)
      | BlkFail => ([], false)
      | BlkData b tail' rest' cap' =>
          let '(bl, ok) := read_blocks e maxline sched' tail' rest' in ((b, cap') :: bl, ok)
      end
  end.

(* truncateReader(body, limit): at most limit bytes pass; a longer body delivers limit + 1 bytes and then fails *)
Definition limit_stream (limit : option nat) (body : bytes) : bytes * rd_end :=
  match limit with
  | None => (body, EndEOF)
  | Some n => if (length body <=? n)%nat then (body, EndEOF) else (firstn (S n) body, EndErr)
  end.

Inductive wstatus := WAck | WRefused.

Section Serve.
Variable dec2f : bytes -> f64.

Definition block_rows (c : cfg) (mult : Z) (b : bytes) : list row :=
  match accept_block dec2f c mult b with Ok rows => rows | Err => [] end.
Definition block_ok (c : cfg) (mult : Z) (b : bytes) : bool :=
  match accept_block dec2f c mult b with Ok _ => true | Err => false end.

(* serveWrite: [declared] = the Content-Length header when the request has one (a request that declares more than
   max-body-size is answered 413 before anything is read); [gz] = the body arrives gzip-encoded: [body] is the decoded
   text, and the decoder reads the request body directly, so max-body-size bounds only the declared (encoded) length;
   every block the reader delivers goes to the points writer on its own (what a refused request leaves behind are whole
   accepted blocks); the request is acknowledged iff the reader ended cleanly and no block reported an error. *)
Definition stream_limit (limit : option nat) (gz : bool) : option nat := if gz then None else limit.

Definition serve_write (c : cfg) (limit declared : option nat) (gz : bool) (maxline : nat) (sched : list (list nat * bool))
                       (mult : Z) (body : bytes) : wstatus * list row :=
  let too_big := match limit, declared with Some n, Some d => (n <? d)%nat | _, _ => false end in
  if too_big then (WRefused, [])
  else
    let '(stream, e) := limit_stream (stream_limit limit gz) body in
    let '(bl, ok) := read_blocks e maxline sched [] stream in
    let blocks := map fst bl in
    (if ok && forallb (block_ok c mult) blocks then WAck else WRefused, flat_map (block_rows c mult) blocks).

End Serve.
