(* C06: decimal rendering of integers and timestamps parses back to the same number, for every value. *)
From Coq Require Import ZArith NArith List Bool Lia.
From OG Require Import C06.Model.
Import ListNotations.
Open Scope Z_scope.

Definition dstep (a : Z) (c : N) : Z := a * 10 + digit_val c.
Definition dfold (a : Z) (s : bytes) : Z := fold_left dstep s a.

Lemma dec_val_dfold : forall s, dec_val s = dfold 0 s.
Proof. reflexivity. Qed.

Definition dch (d : Z) : N := (48 + Z.to_N d)%N.

Lemma dch_digit : forall d, 0 <= d < 10 -> is_digit (dch d) = true /\ digit_val (dch d) = d.
Proof.
  intros d H. unfold is_digit, digit_val, dch. split.
  - apply andb_true_iff. split; apply N.leb_le; lia.
  - replace (48 + Z.to_N d - 48)%N with (Z.to_N d) by lia. apply Z2N.id. lia.
Qed.

Lemma all_digits_app : forall a b, all_digits (a ++ b) = all_digits a && all_digits b.
Proof.
  induction a as [|c r IH]; intro b; [reflexivity|]. cbn [app all_digits]. rewrite IH. now rewrite andb_assoc.
Qed.

Lemma dfold_app : forall s1 s2 a, dfold a (s1 ++ s2) = dfold (dfold a s1) s2.
Proof. intros. unfold dfold. apply fold_left_app. Qed.

(* the digits produced for n, most significant first, in front of the accumulator *)
Definition digits_of (n : Z) (acc out : bytes) : Prop :=
  exists ds, out = ds ++ acc /\ ds <> [] /\ all_digits ds = true /\
             forall a, dfold a ds = a * 10 ^ Z.of_nat (length ds) + n.

Lemma one_digit : forall n acc, 0 <= n -> n / 10 = 0 -> digits_of n acc (dch (n mod 10) :: acc).
Proof.
  intros n acc Hn Hq. pose proof (Z.div_mod n 10 ltac:(lia)) as Hdm.
  destruct (dch_digit (n mod 10)) as [D1 D2]; [apply Z.mod_pos_bound; lia|].
  exists [dch (n mod 10)]. split; [reflexivity|]. split; [discriminate|]. split; [cbn [all_digits]; rewrite D1; reflexivity|].
  intro a. unfold dfold. cbn [fold_left length]. unfold dstep. rewrite D2. change (10 ^ Z.of_nat 1) with 10. lia.
Qed.

Lemma nat_digits_spec : forall fuel n acc,
  0 <= n < 10 ^ Z.of_nat (S fuel) -> digits_of n acc (nat_digits (S fuel) n acc).
Proof.
  induction fuel as [|f IH]; intros n acc Hn; cbn [nat_digits];
    (destruct (Z.eqb_spec (n / 10) 0) as [Q|Q]; [apply one_digit; lia|]).
  - exfalso. change (10 ^ Z.of_nat 1) with 10 in Hn. apply Q, Z.div_small. lia.
  - assert (Hq : 0 <= n / 10 < 10 ^ Z.of_nat (S f)).
    { split; [apply Z.div_pos; lia|]. apply Z.div_lt_upper_bound; [lia|].
      rewrite (Nat2Z.inj_succ (S f)), Z.pow_succ_r in Hn by lia. lia. }
    destruct (IH (n / 10) (dch (n mod 10) :: acc) Hq) as [ds [E [Hne [Hall Hval]]]].
    destruct (dch_digit (n mod 10)) as [D1 D2]; [apply Z.mod_pos_bound; lia|].
    exists (ds ++ [dch (n mod 10)]).
    split; [change (nat_digits (S f) (n / 10) (dch (n mod 10) :: acc) = (ds ++ [dch (n mod 10)]) ++ acc); now rewrite E, <- app_assoc|].
    split; [destruct ds; discriminate|]. split.
    + rewrite all_digits_app, Hall. cbn [all_digits andb]. rewrite D1. reflexivity.
    + intro a. rewrite dfold_app, Hval. unfold dfold at 1. cbn [fold_left]. unfold dstep. rewrite D2.
      rewrite app_length. cbn [length]. rewrite Nat.add_1_r, Nat2Z.inj_succ, Z.pow_succ_r by lia.
      pose proof (Z.div_mod n 10 ltac:(lia)). lia.
Qed.

Lemma render_nat_spec : forall n, 0 <= n ->
  render_nat n <> [] /\ all_digits (render_nat n) = true /\ dec_val (render_nat n) = n.
Proof.
  intros n Hn. unfold render_nat.
  assert (Hb : 0 <= n < 10 ^ Z.of_nat (S (Z.to_nat (Z.log2 n)))).
  { split; [exact Hn|]. rewrite Nat2Z.inj_succ, Z2Nat.id by apply Z.log2_nonneg.
    destruct (Z.eq_dec n 0) as [->|Hz]; [cbn; lia|].
    pose proof (Z.log2_spec n ltac:(lia)) as [_ H2].
    assert (2 ^ Z.succ (Z.log2 n) <= 10 ^ Z.succ (Z.log2 n)).
    { apply Z.pow_le_mono_l. lia. }
    lia. }
  destruct (nat_digits_spec _ n [] Hb) as [ds [E [Hne [Hall Hval]]]].
  rewrite E, app_nil_r. split; [exact Hne|]. split; [exact Hall|].
  rewrite dec_val_dfold, Hval. lia.
Qed.

Lemma all_digits_Forall : forall s, all_digits s = true <-> Forall (fun c => is_digit c = true) s.
Proof.
  induction s as [|c r IH]; [split; [constructor|reflexivity]|].
  cbn [all_digits]. rewrite andb_true_iff, IH. split.
  - intros [H1 H2]. constructor; assumption.
  - intro H. inversion H; subst. split; assumption.
Qed.

Lemma digit_not_minus : forall c, is_digit c = true -> (c =? ch_minus)%N = false.
Proof.
  intros c H. destruct (c =? ch_minus)%N eqn:E; [|reflexivity]. apply N.eqb_eq in E. subst. discriminate.
Qed.

Lemma digit_not_ws : forall c, is_digit c = true -> is_ascii_ws c = false.
Proof.
  intros c H. destruct (is_ascii_ws c) eqn:W; [|reflexivity]. exfalso. unfold is_ascii_ws in W.
  repeat (apply orb_true_iff in W; destruct W as [W|W]); apply N.eqb_eq in W; subst; discriminate.
Qed.

Theorem parse_int64_render_int : forall n, in_int64 n = true -> parse_int64 (render_int n) = Ok n.
Proof.
  intros n Hin. unfold render_int. destruct (n <? 0) eqn:L.
  - apply Z.ltb_lt in L. destruct (render_nat_spec (- n) ltac:(lia)) as [Hne [Hall Hval]].
    unfold parse_int64. rewrite N.eqb_refl.
    destruct (render_nat (- n)) as [|c r] eqn:E; [congruence|].
    rewrite Hall, Hval. replace (- - n) with n by lia. rewrite Hin. reflexivity.
  - apply Z.ltb_ge in L. destruct (render_nat_spec n L) as [Hne [Hall Hval]].
    unfold parse_int64. destruct (render_nat n) as [|c r] eqn:E; [congruence|].
    assert (Hc : is_digit c = true) by (cbn in Hall; apply andb_true_iff in Hall; tauto).
    rewrite (digit_not_minus c Hc). rewrite Hall, Hval, Hin. reflexivity.
Qed.

Lemma digit_range : forall c, is_digit c = true -> (48 <= c <= 57)%N.
Proof.
  intros c H. unfold is_digit in H. apply andb_true_iff in H. destruct H as [A B].
  apply N.leb_le in A. apply N.leb_le in B. lia.
Qed.

Lemma digit_not_uws2 : forall a b, is_digit a = true \/ is_digit b = true -> is_uws2 a b = false.
Proof.
  intros a b H. unfold is_uws2.
  destruct (a =? 194)%N eqn:A; [|reflexivity]. apply N.eqb_eq in A. cbn [andb].
  destruct (b =? 133)%N eqn:B1; [apply N.eqb_eq in B1; destruct H as [H|H]; apply digit_range in H; lia|].
  destruct (b =? 160)%N eqn:B2; [apply N.eqb_eq in B2; destruct H as [H|H]; apply digit_range in H; lia|].
  reflexivity.
Qed.

Lemma digit_not_uws3 : forall a b c, is_digit a = true \/ is_digit c = true -> is_uws3 a b c = false.
Proof.
  intros a b c H. unfold is_uws3.
  assert (Ha : is_digit a = true -> (a =? 225)%N = false /\ (a =? 226)%N = false /\ (a =? 227)%N = false).
  { intro Hd. apply digit_range in Hd. repeat split; apply N.eqb_neq; lia. }
  assert (Hc : is_digit c = true -> (c =? 128)%N = false /\ (128 <=? c)%N = false /\ (c =? 168)%N = false /\
                                     (c =? 169)%N = false /\ (c =? 175)%N = false /\ (c =? 159)%N = false).
  { intro Hd. apply digit_range in Hd. repeat split; try (apply N.eqb_neq; lia). apply N.leb_gt. lia. }
  destruct H as [H|H].
  - destruct (Ha H) as (A1 & A2 & A3). rewrite A1, A2, A3. reflexivity.
  - destruct (Hc H) as (C1 & C2 & C3 & C4 & C5 & C6). rewrite C1, C2, C3, C4, C5, C6.
    cbn [andb orb]. rewrite !andb_false_r. reflexivity.
Qed.

Lemma drop_ws_digits : forall fwd s, all_digits s = true -> trim_sp fwd s = s.
Proof.
  intros fwd [|c r] H; [reflexivity|]. cbn in H. apply andb_true_iff in H. destruct H as [Hc _].
  cbn [trim_sp]. rewrite (digit_not_ws c Hc).
  destruct r as [|d r2]; [reflexivity|].
  assert (U2 : (if fwd then is_uws2 c d else is_uws2 d c) = false) by (destruct fwd; apply digit_not_uws2; auto).
  rewrite U2. destruct r2 as [|e r3]; [reflexivity|].
  assert (U3 : (if fwd then is_uws3 c d e else is_uws3 e d c) = false) by (destruct fwd; apply digit_not_uws3; auto).
  rewrite U3. reflexivity.
Qed.

Lemma all_digits_rev : forall s, all_digits s = true -> all_digits (rev s) = true.
Proof. intros s H. apply all_digits_Forall. apply Forall_rev. apply all_digits_Forall. exact H. Qed.

Theorem parse_ts_render_nat : forall t, 0 <= t <= max_int64 -> parse_ts (render_nat t) = Ok (Some t).
Proof.
  intros t [H0 H1]. destruct (render_nat_spec t H0) as [Hne [Hall Hval]].
  unfold parse_ts, trim_ws. rewrite (drop_ws_digits true _ Hall).
  rewrite (drop_ws_digits false _ (all_digits_rev _ Hall)). rewrite rev_involutive.
  destruct (render_nat t) as [|c r] eqn:E; [congruence|].
  rewrite Hall, Hval. assert (Hle : (t <=? max_int64) = true) by (apply Z.leb_le; exact H1). rewrite Hle. reflexivity.
Qed.

(* the rendered integer is plain text for every scanner: digits and at most a leading '-' *)
Lemma render_int_chars : forall n, Forall (fun c => is_digit c = true \/ c = ch_minus) (render_int n).
Proof.
  intro n. unfold render_int. destruct (n <? 0) eqn:L.
  - apply Z.ltb_lt in L. destruct (render_nat_spec (- n) ltac:(lia)) as [_ [Hall _]].
    constructor; [right; reflexivity|]. apply all_digits_Forall in Hall.
    eapply Forall_impl; [|exact Hall]. intros c Hc. left. exact Hc.
  - apply Z.ltb_ge in L. destruct (render_nat_spec n L) as [_ [Hall _]]. apply all_digits_Forall in Hall.
    eapply Forall_impl; [|exact Hall]. intros c Hc. left. exact Hc.
Qed.

Lemma nrun_snoc : forall s st c,
  nrun st (s ++ [c]) = match nrun st s with Some st' => nstep st' c | None => None end.
Proof.
  induction s as [|x r IH]; intros st c.
  - cbn. destruct (nstep st c); reflexivity.
  - cbn [app nrun]. destruct (nstep st x); [apply IH|reflexivity].
Qed.
