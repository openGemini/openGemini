(* C11: Go's year-1 anchored Truncate in closed form, and the two bounds of the span newShardGroup creates for a timestamp
   (end clipped at MaxNanoTime + 1) from which Props.v derives that created spans are aligned, ordered like the timestamps
   and pairwise equal or disjoint. *)
From Coq Require Import ZArith Lia.
From OG Require Import C11.Model.
Local Open Scope Z_scope.

Lemma trunc_closed : forall t d, 0 < d -> trunc t d = d * ((t + epoch_shift) / d) - epoch_shift.
Proof.
  intros t d Hd. unfold trunc. destruct (Z.leb_spec d 0); [lia|].
  pose proof (Z.div_mod (t + epoch_shift) d ltac:(lia)). lia.
Qed.

Lemma span_start : forall t d, 0 < d -> fst (span_of t d) = d * ((t + epoch_shift) / d) - epoch_shift.
Proof. intros t d Hd. unfold span_of. cbn [fst]. now apply trunc_closed. Qed.

Lemma span_covers : forall t d, 0 < d -> t <= max_nano -> fst (span_of t d) <= t < snd (span_of t d).
Proof.
  intros t d Hd Ht. unfold span_of. cbn [fst snd]. rewrite trunc_closed by assumption.
  pose proof (Z.mul_div_le (t + epoch_shift) d Hd). pose proof (Z.mul_succ_div_gt (t + epoch_shift) d Hd).
  destruct (Z.ltb_spec max_nano (d * ((t + epoch_shift) / d) - epoch_shift + d)); lia.
Qed.

Lemma span_end_le : forall t d, 0 < d -> snd (span_of t d) <= fst (span_of t d) + d.
Proof. intros t d Hd. unfold span_of. cbn [fst snd]. destruct (Z.ltb_spec max_nano (trunc t d + d)); lia. Qed.

