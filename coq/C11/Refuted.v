(* C11: the read and write paths before their repairs violate the pruning property (each witness names the commit that
   repaired it; the alive-set change and the stream destination with another key are not repaired in /repo).  Witnesses
   closed by evaluation, with the repository's hash (XXH64) so that the shard numbers are those observed on the real code. *)
From Coq Require Import ZArith NArith List Bool.
From OG Require Import C11.Model C11.Proofs C11.Props.
Import ListNotations.
Open Scope Z_scope.

Definition violates (v : variant) : Prop :=
  exists (hash : str -> N) c cond p g s tmin tmax,
    wf_cfg c /\ wf_point p /\ route hash c p = Some (g, s) /\ tmin <= p_time p <= tmax /\ eval_cond c cond p = true /\
    ~ In (s_id s) (map s_id (target_group hash v c g cond)).

(* host = 'a' OR usage > 1, shard key host, 8 shards: the row host=d, usage > 1 is in shard 4, only shard 5 is read
   (getConditionTags before commit 8d07256) *)
Theorem C11_or_refuted : violates current.
Proof.
  exists xxh64, ex_cfg, (Some ex_cond), (ex_point 100 true), ex_group,
         {| s_id := 4%N; s_min := []; s_max := [] |}, 0, max_nano.
  split; [apply ex_wf|]. split; [apply ex_wf|].
  split; [xxh_compute xxh_host_d; reflexivity|]. split; [vm_compute; split; discriminate|]. split; [vm_compute; reflexivity|].
  xxh_compute xxh_host_a. intros [H|[]]; discriminate.
Qed.
Print Assumptions C11_or_refuted.

(* the OR repair alone is not enough: the key buffer is not reset between alternatives (commit 8d07256 repairs both).
   host = 'a' OR host = 'b' with 16 shards: host=b is in shard 13; the keys looked up are host=a and host=a,host=b *)
Definition ex_cfg16 : cfg :=
  {| c_mst := s_cpu; c_tagkeys := [s_dc; s_host]; c_sk := [s_host]; c_typ := Hash; c_dur := 3600000000000;
     c_groups := [{| g_id := 1%N; g_start := 1699999200000000000; g_end := 1700002800000000000; g_deleted := false;
                     g_trunc := None; g_shards := mk_shards 16; g_alive := seq 0 16 |}]; c_mstidx := None |}.
Definition ex_cond_ab : expr := EOr (EEq 0%N s_host [97%N]) (EEq 1%N s_host [98%N]).

Theorem C11_key_accumulation_refuted :
  violates current /\ violates {| v_or := true; v_and := true; v_reset := false |}.
Proof.
  assert (W : forall v, v = current \/ v = {| v_or := true; v_and := true; v_reset := false |} -> violates v).
  { intros v Hv.
    exists xxh64, ex_cfg16, (Some ex_cond_ab), (ex_point 98 false), (hd ex_group (c_groups ex_cfg16)),
           {| s_id := 13%N; s_min := []; s_max := [] |}, 0, max_nano.
    split. { unfold wf_cfg. simpl. constructor; [|constructor]. unfold wf_group. simpl. apply incl_refl. }
    split. { apply sorted_nodup. repeat constructor. }
    split; [xxh_compute xxh_host_b; reflexivity|]. split; [vm_compute; split; discriminate|]. split; [vm_compute; reflexivity|].
    destruct Hv as [-> | ->]; lazy -[N.modulo xxh64]; rewrite xxh_host_a, xxh_host_a_host_b; vm_compute; intros [H|[H|[]]]; discriminate. }
  split; apply W; [left|right]; reflexivity.
Qed.
Print Assumptions C11_key_accumulation_refuted.

(* AND with alternatives on the right: the paren-free tree AND(host='a', OR(dc='3', dc='4')), shard key (dc, host).
   The code's AND (v_and = false) puts dc=3 and dc=4 into the one tag set of host=a; the sorted merge takes the first value per key, so
   only dc=3,host=a is looked up (shard 6) and the row dc=4,host=a (shard 3) is skipped - even with the OR and
   buffer repairs in place. The tree is NOT in the image of the InfluxQL parser (a parenthesised OR arrives as a
   ParenExpr, which getConditionTags treats as unconstrained), so no query reaches it. *)
Definition ex_cfg_dh : cfg :=
  {| c_mst := s_cpu; c_tagkeys := [s_dc; s_host]; c_sk := [s_dc; s_host]; c_typ := Hash; c_dur := 3600000000000; c_groups := [ex_group]; c_mstidx := None |}.
Definition ex_cond_and : expr := EAnd (EEq 0%N s_host [97%N]) (EOr (EEq 1%N s_dc [51%N]) (EEq 2%N s_dc [52%N])).
Definition ex_point_dh : point :=
  {| p_tags := [(s_dc, [52%N]); (s_host, [97%N])]; p_time := 1699999200000000001; p_leaf := fun _ => false |}.

Theorem C11_and_alternatives_refuted :
  violates current /\ violates {| v_or := true; v_and := false; v_reset := true |} /\ ~ parser_image ex_cond_and.
Proof.
  assert (W : forall v, v = current \/ v = {| v_or := true; v_and := false; v_reset := true |} -> violates v).
  { intros v Hv.
    exists xxh64, ex_cfg_dh, (Some ex_cond_and), ex_point_dh, ex_group, {| s_id := 3%N; s_min := []; s_max := [] |}, 0, max_nano.
    split. { unfold wf_cfg. simpl. constructor; [|constructor]. unfold wf_group. simpl. apply incl_refl. }
    split. { apply sorted_nodup. repeat constructor. }
    split; [xxh_compute xxh_dc_4_host_a; reflexivity|]. split; [vm_compute; split; discriminate|]. split; [vm_compute; reflexivity|].
    destruct Hv as [-> | ->]; xxh_compute xxh_dc_3_host_a; intros [H|[]]; discriminate. }
  split; [apply W; left; reflexivity|]. split; [apply W; right; reflexivity|]. simpl. intros [_ H]. exact H.
Qed.
Print Assumptions C11_and_alternatives_refuted.

(* through the parser the same query is sound with that AND: the parenthesised OR is not looked into *)
Example and_alternatives_through_parser_reads_all :
  target xxh64 current ex_cfg_dh 0 max_nano (Some (EAnd (EEq 0%N s_host [97%N]) (EParen (EOr (EEq 1%N s_dc [51%N]) (EEq 2%N s_dc [52%N])))))
  = map (fun i => (1%N, N.of_nat (S i))) (seq 0 8).
Proof. vm_compute. reflexivity. Qed.

(* cpu is sharded by host, mem by region, 4 shards, one group. One batch: a cpu row; a mem row that the schema check
   drops (field type conflict) after mem was resolved; a mem row {host=h0, region=r3}. The bookkeeping before commit 88a85c3 says "same
   measurement as the previous row, same group" and keeps cpu's key: the mem row is hashed by host=h0 into shard 1,
   while a query region='r3' on mem consults shard 3 only - even with every read-side repair. Looked up per row, the
   mem row goes to shard 3. *)
Definition s_region : str := [114; 101; 103; 105; 111; 110]%N.
Definition s_mem : str := [109; 101; 109; 95; 48; 48; 48; 48]%N.
Definition ex_group4 : group :=
  {| g_id := 1%N; g_start := 1699999200000000000; g_end := 1700002800000000000; g_deleted := false; g_trunc := None;
     g_shards := mk_shards 4; g_alive := seq 0 4 |}.
Definition ex_m (name : str) (key : str) : mcfg :=
  {| m_cfg := {| c_mst := name; c_tagkeys := [s_host; s_region]; c_sk := []; c_typ := Hash; c_dur := 3600000000000;
                 c_groups := [ex_group4]; c_mstidx := None |};
     m_vers := [(0%N, [key])]; m_db := [] |}.
Definition ex_row (m : mcfg) (k : rowkind) (t : Z) : brow :=
  {| r_m := m; r_kind := k;
     r_p := {| p_tags := [(s_host, [104; 48]%N); (s_region, [114; 51]%N)]; p_time := t; p_leaf := fun _ => false |} |}.
Definition ex_batch : list brow :=
  [ ex_row (ex_m s_cpu s_host) RRoute 1699999260000000000;
    ex_row (ex_m s_mem s_region) RDrop 1699999261000000000;
    ex_row (ex_m s_mem s_region) RRoute 1699999320000000000 ].
Definition ex_cond_region : expr := EEq 0%N s_region [114; 51]%N.

Theorem C11_stale_key_after_dropped_row_refuted :
  consistent ex_batch /\
  exists g s, nth 2 (batch_run xxh64 true b_empty ex_batch) None = Some (g, s) /\
    wf_group (base_cfg (ex_m s_mem s_region)) g /\ wf_point (r_p (nth 2 ex_batch (ex_row (ex_m s_mem s_region) RRoute 0))) /\
    eval_cond (m_cfg (ex_m s_mem s_region)) (Some ex_cond_region) (r_p (nth 2 ex_batch (ex_row (ex_m s_mem s_region) RRoute 0))) = true /\
    ~ In (s_id s) (map s_id (target_group xxh64 repaired (cfg_at (ex_m s_mem s_region) (g_id g)) g (Some ex_cond_region))) /\
    option_map (fun gs => s_id (snd gs)) (nth 2 (batch_run xxh64 false b_empty ex_batch) None) = Some 3%N.
Proof.
  split.
  - intros r1 r2 H1 H2 Hn. simpl in H1, H2.
    destruct H1 as [<-|[<-|[<-|[]]]]; destruct H2 as [<-|[<-|[<-|[]]]]; try (split; reflexivity); vm_compute in Hn; discriminate.
  - exists ex_group4, {| s_id := 1%N; s_min := []; s_max := [] |}.
    split; [xxh_compute xxh_host_h0; reflexivity|]. split; [unfold wf_group; simpl; apply incl_refl|].
    split. { apply sorted_nodup. repeat constructor. }
    split; [vm_compute; reflexivity|]. split; [xxh_compute xxh_region_r3; intros [H|[]]; discriminate|xxh_compute xxh_region_r3; reflexivity].
Qed.
Print Assumptions C11_stale_key_after_dropped_row_refuted.

(* cpu: shard key host for groups < 2, region from group 2 on (ALTER ... SHARDKEY). The row {host=h1, region=r1} written
   into group 2 is hashed by region into shard 12. Before commit e63fda7 mapMstShards keeps the key of the first selected group (host) for all
   groups: the query host='h1' over both groups consults shards 2 and 10. With the key in force per group, group 2 is not
   constrained by host and all its shards are read. *)
Definition ex_group_b : group :=
  {| g_id := 2%N; g_start := 1700002800000000000; g_end := 1700006400000000000; g_deleted := false; g_trunc := None;
     g_shards := map (fun i => {| s_id := N.of_nat (9 + i); s_min := []; s_max := [] |}) (seq 0 8); g_alive := seq 0 8 |}.
Definition ex_m_altered : mcfg :=
  {| m_cfg := {| c_mst := s_cpu; c_tagkeys := [s_host; s_region]; c_sk := []; c_typ := Hash; c_dur := 3600000000000;
                 c_groups := [ex_group; ex_group_b]; c_mstidx := None |};
     m_vers := [(0%N, [s_host]); (2%N, [s_region])]; m_db := [] |}.
Definition ex_row_b : brow :=
  {| r_m := ex_m_altered; r_kind := RRoute;
     r_p := {| p_tags := [(s_host, [104; 49]%N); (s_region, [114; 49]%N)]; p_time := 1700002920000000000; p_leaf := fun _ => false |} |}.
Definition ex_cond_h1 : expr := EEq 0%N s_host [104; 49]%N.

Theorem C11_stale_key_across_groups_refuted :
  exists g s, snd (batch_step xxh64 false b_empty ex_row_b) = Some (g, s) /\
    eval_cond (m_cfg ex_m_altered) (Some ex_cond_h1) (r_p ex_row_b) = true /\
    In g (query_groups (m_cfg ex_m_altered) 0 max_nano) /\
    ~ In (g_id g, s_id s) (target_m xxh64 repaired false ex_m_altered 0 max_nano (Some ex_cond_h1)) /\
    In (g_id g, s_id s) (target_m xxh64 repaired true ex_m_altered 0 max_nano (Some ex_cond_h1)).
Proof.
  exists ex_group_b, {| s_id := 12%N; s_min := []; s_max := [] |}.
  split; [xxh_compute xxh_region_r1; reflexivity|]. split; [vm_compute; reflexivity|].
  split; [vm_compute; right; left; reflexivity|].
  split.
  - xxh_compute xxh_host_h1. intros [H|[H|[]]]; discriminate.
  - xxh_compute xxh_host_h1. do 4 right. left. reflexivity.
Qed.
Print Assumptions C11_stale_key_across_groups_refuted.

(* cpu sharded by host, 8 shards. SELECT /*+ full_series */ .. WHERE dc='d2' AND host='h4': before commit 60b7ba9 TargetShardsHintQuery
   hashes "dc=d2,host=h4" (all tags of the condition), the row was placed by hash("host=h4"). *)
Definition ex_cond_full : expr := EAnd (EEq 0%N s_dc [100; 50]%N) (EEq 1%N s_host [104; 52]%N).
Definition ex_point_full : point :=
  {| p_tags := [(s_dc, [100; 50]%N); (s_host, [104; 52]%N)]; p_time := 1699999200000000005; p_leaf := fun _ => false |}.

Theorem C11_hint_ignores_shardkey_refuted :
  exists s, route_in xxh64 ex_cfg ex_group ex_point_full = Some s /\
    eval_cond ex_cfg (Some ex_cond_full) ex_point_full = true /\
    ~ In (s_id s) (map s_id (target_hint xxh64 false repaired ex_cfg ex_group (Some ex_cond_full))) /\
    In (s_id s) (map s_id (target_hint xxh64 true repaired ex_cfg ex_group (Some ex_cond_full))).
Proof.
  exists {| s_id := 7%N; s_min := []; s_max := [] |}.
  split; [xxh_compute xxh_host_h4; reflexivity|]. split; [vm_compute; reflexivity|]. split.
  - xxh_compute xxh_dc_d2_host_h4. intros [H|[]]; discriminate.
  - xxh_compute xxh_host_h4. left; reflexivity.
Qed.
Print Assumptions C11_hint_ignores_shardkey_refuted.

(* Database created WITH SHARDKEY region, measurement cpu created WITH SHARDKEY host inside it, 8 shards. The write path
   places the row {host=h2, region=r1} by the database's key: hash("region=r1") -> shard 4. A read path that preferred the
   measurement's own key ("the more specific definition wins") would hash "host=h2" for the query host='h2' and consult
   shard 3 only; with the code's precedence (the database's key first) the condition does not bind region and all 8 shards are read. *)
Definition ex_m_db : mcfg :=
  {| m_cfg := {| c_mst := s_cpu; c_tagkeys := [s_host; s_region]; c_sk := []; c_typ := Hash; c_dur := 3600000000000;
                 c_groups := [ex_group]; c_mstidx := None |};
     m_vers := [(0%N, [s_host])]; m_db := [s_region] |}.
Definition ex_row_db : brow :=
  {| r_m := ex_m_db; r_kind := RRoute;
     r_p := {| p_tags := [(s_host, [104; 50]%N); (s_region, [114; 49]%N)]; p_time := 1699999380000000000; p_leaf := fun _ => false |} |}.
Definition ex_cond_h2 : expr := EEq 0%N s_host [104; 50]%N.

Theorem C11_measurement_key_first_refuted :
  exists g s, snd (batch_step xxh64 false b_empty ex_row_db) = Some (g, s) /\
    eval_cond (m_cfg ex_m_db) (Some ex_cond_h2) (r_p ex_row_db) = true /\
    In g (query_groups (m_cfg ex_m_db) 0 max_nano) /\
    wkey_in_force ex_m_db (g_id g) <> rkey_mst_first ex_m_db (g_id g) /\
    ~ In (g_id g, s_id s) (target_m_by xxh64 rkey_mst_first repaired ex_m_db 0 max_nano (Some ex_cond_h2)) /\
    In (g_id g, s_id s) (target_m_by xxh64 rkey_in_force repaired ex_m_db 0 max_nano (Some ex_cond_h2)).
Proof.
  exists ex_group, {| s_id := 4%N; s_min := []; s_max := [] |}.
  split; [xxh_compute xxh_region_r1; reflexivity|]. split; [vm_compute; reflexivity|].
  split; [vm_compute; left; reflexivity|].
  split; [vm_compute; discriminate|].
  split.
  - xxh_compute xxh_host_h2. intros [H|[]]; discriminate.
  - vm_compute. do 3 right. left. reflexivity.
Qed.
Print Assumptions C11_measurement_key_first_refuted.

(* cpu range-sharded by host, re-sharded at the keys of host=h2 and host=h5 (three key ranges, Props.ex_rgroup). The row
   host=h2 is stored by key range in shard 3. SELECT /*+ full_series */ .. WHERE host='h2': before commit 17a4804
   getShardsAndSeriesKeyForHintQuery hashes "host=h2" over the three shards and consults another one; looked up by range,
   shard 3 is consulted. *)
Definition ex_point_h2 : point :=
  {| p_tags := [(s_host, [104; 50]%N)]; p_time := 1700001180000000000; p_leaf := fun _ => false |}.
Theorem C11_hint_range_hashes_refuted :
  exists s, route_in xxh64 ex_rcfg ex_rgroup ex_point_h2 = Some s /\
    wf_group ex_rcfg ex_rgroup /\ wf_point ex_point_h2 /\
    eval_cond ex_rcfg (Some (EEq 0%N s_host [104; 50]%N)) ex_point_h2 = true /\
    (forall specific, specific = false ->
       ~ In (s_id s) (map s_id (target_hint_kind xxh64 specific false repaired ex_rcfg ex_rgroup (Some (EEq 0%N s_host [104; 50]%N))))) /\
    In (s_id s) (map s_id (target_hint_kind xxh64 false true repaired ex_rcfg ex_rgroup (Some (EEq 0%N s_host [104; 50]%N)))).
Proof.
  exists {| s_id := 3%N; s_min := s_k 50; s_max := s_k 53 |}.
  split; [vm_compute; reflexivity|].
  split. { unfold wf_group. simpl. intros i Hi. simpl. destruct i as [|[|[|i]]]; simpl; auto. exfalso. inversion Hi as [|? H1]. inversion H1 as [|? H2]. inversion H2 as [|? H3]. inversion H3. }
  split. { apply sorted_nodup. repeat constructor. }
  split; [vm_compute; reflexivity|]. split.
  - intros specific ->. xxh_compute xxh_host_h2. intros [H|[]]; discriminate.
  - vm_compute. left; reflexivity.
Qed.
Print Assumptions C11_hint_range_hashes_refuted.

(* cpu sharded by host, 8 shards, every partition online while the row host=d is written: hash mod 8 -> shard 4. Then the
   partition of shard 8 goes offline. The query host='d' hashes over the 7 remaining shards and consults shard 3 only;
   shard 4 - online, holding the row - is not consulted. (Write-available-first policy; the same happens under hard-write,
   where writes always hash over all shards and reads over the online ones.) *)
Theorem C11_alive_set_change_refuted :
  exists s, route_in xxh64 ex_cfg (set_alive ex_group (seq 0 8)) (ex_point 100 false) = Some s /\
    wf_group ex_cfg (set_alive ex_group (seq 0 8)) /\ wf_group ex_cfg (set_alive ex_group (seq 0 7)) /\
    eval_cond ex_cfg (Some (EEq 0%N s_host [100%N])) (ex_point 100 false) = true /\
    In s (all_alive (set_alive ex_group (seq 0 7))) /\
    ~ In (s_id s) (map s_id (target_group xxh64 repaired ex_cfg (set_alive ex_group (seq 0 7)) (Some (EEq 0%N s_host [100%N])))).
Proof.
  exists {| s_id := 4%N; s_min := []; s_max := [] |}.
  split; [xxh_compute xxh_host_d; reflexivity|].
  split; [unfold wf_group; simpl; apply incl_refl|]. split; [unfold wf_group; simpl; apply incl_refl|].
  split; [vm_compute; reflexivity|].
  split; [vm_compute; do 3 right; left; reflexivity|].
  xxh_compute xxh_host_d. intros [H|[]]; discriminate.
Qed.
Print Assumptions C11_alive_set_change_refuted.

(* the same catalogue under hard-write with the read side repaired: the key is looked up among all 8 shards (shard 4) and shard 4
   is alive, so it is consulted although the partition of shard 8 is offline *)
Example hard_write_repaired_finds_the_row :
  map s_id (target_group_hw xxh64 repaired ex_cfg (set_alive ex_group (seq 0 7)) (Some (EEq 0%N s_host [100%N]))) = [4%N].
Proof. xxh_compute xxh_host_d. reflexivity. Qed.

(* source cpu SHARDKEY host, stream GROUP BY host into a destination created WITH SHARDKEY dc (case 3 of routeAndCalculateStreamRows
   looks at the source's key and the dimensions only): the result row is placed by hash("host=a") over the destination's shards,
   the query dc='1' on the destination consults hash("dc=1") *)
Definition ex_cfg_dst : cfg :=
  {| c_mst := s_mem; c_tagkeys := [s_dc; s_host]; c_sk := [s_dc]; c_typ := Hash; c_dur := 3600000000000; c_groups := [ex_group]; c_mstidx := None |}.
Definition ex_prow : point := {| p_tags := [(s_dc, [49%N]); (s_host, [97%N])]; p_time := 1699999200000000003; p_leaf := fun _ => false |}.
Theorem C11_stream_reuse_other_key_refuted :
  exists s, route_reuse xxh64 ex_cfg ex_cfg_dst ex_group ex_prow = Some s /\
    wf_group ex_cfg_dst ex_group /\ wf_point ex_prow /\
    eval_cond ex_cfg_dst (Some (EEq 0%N s_dc [49%N])) ex_prow = true /\
    ~ In (s_id s) (map s_id (target_group xxh64 repaired ex_cfg_dst ex_group (Some (EEq 0%N s_dc [49%N])))).
Proof.
  exists {| s_id := 5%N; s_min := []; s_max := [] |}.
  split; [xxh_compute xxh_host_a; reflexivity|]. split; [unfold wf_group; simpl; apply incl_refl|].
  split. { apply sorted_nodup. repeat constructor. }
  split; [vm_compute; reflexivity|]. xxh_compute xxh_dc_1. intros [H|[]]; discriminate.
Qed.
Print Assumptions C11_stream_reuse_other_key_refuted.
