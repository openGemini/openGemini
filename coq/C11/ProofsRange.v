(* C11, range sharding after re-sharding: several key ranges per shard group.
   - DestShard picks THE shard whose half-open range [Min, Max) contains the key (existence and uniqueness);
   - the groups produced by CreateShardGroupWithBounds (Data.ReSharding) with strictly increasing non-empty split points,
     and the groups CreateShardGroup creates afterwards (ranges copied from the newest group), keep that shape;
   - the read side consults every shard whose range can hold a key that extends the prefix built from the condition.
   Then, for hash and range sharding alike: hint queries (hint_kind_sound_proof), partitions going offline between write
   and read, and hard-write. *)
From Coq Require Import ZArith NArith List Bool.
From OG Require Import C11.Model C11.Proofs.
Import ListNotations.

Lemma str_leb_cmp : forall a b, str_leb a b = true <-> str_cmp a b <> Gt.
Proof. intros a b. unfold str_leb. destruct (str_cmp a b); split; intros H; try reflexivity; try discriminate; congruence. Qed.

Lemma str_leb_refl : forall a, str_leb a a = true.
Proof. intros a. unfold str_leb. rewrite str_cmp_refl. reflexivity. Qed.

Lemma str_nil_leb : forall a, str_leb [] a = true.
Proof. destruct a; reflexivity. Qed.

Lemma str_lt_leb : forall a b, str_lt a b -> str_leb a b = true.
Proof. intros a b H. apply str_lt_cmp in H. unfold str_leb. rewrite H. reflexivity. Qed.

Lemma str_lt_nonnil : forall a b, str_lt a b -> b <> [].
Proof. intros a b H E. subst b. apply str_lt_cmp in H. destruct a; simpl in H; discriminate. Qed.

Lemma str_lt_not_leb : forall a b, str_lt a b -> str_leb b a = false.
Proof.
  intros a b H. apply str_lt_cmp in H. unfold str_leb. rewrite (str_cmp_antisym a b), H. reflexivity.
Qed.

Lemma str_leb_trans : forall a b c, str_leb a b = true -> str_leb b c = true -> str_leb a c = true.
Proof.
  intros a b c H1 H2. unfold str_leb in *.
  destruct (str_cmp a b) eqn:E1; try discriminate.
  - apply str_cmp_eq in E1. subst b. exact H2.
  - destruct (str_cmp b c) eqn:E2; try discriminate.
    + apply str_cmp_eq in E2. subst c. rewrite E1. reflexivity.
    + rewrite (str_cmp_lt_trans _ _ _ E1 E2). reflexivity.
Qed.

Lemma str_lt_leb_trans : forall a b c, str_lt a b -> str_leb b c = true -> str_lt a c.
Proof.
  intros a b c H1 H2. apply str_lt_cmp in H1. apply str_lt_cmp. unfold str_leb in H2.
  destruct (str_cmp b c) eqn:E2; try discriminate.
  - apply str_cmp_eq in E2. subst c. exact H1.
  - exact (str_cmp_lt_trans _ _ _ H1 E2).
Qed.

(* first Min = lo, every shard's Max is the next shard's Min and lies strictly above its own Min, the last Max is open *)
Fixpoint range_chain (lo : str) (shards : list shard) : Prop :=
  match shards with
  | [] => False
  | s :: rest => s_min s = lo /\ match rest with
                                | [] => s_max s = []
                                | _ :: _ => str_lt lo (s_max s) /\ range_chain (s_max s) rest
                                end
  end.

Lemma range_chain_covers : forall shards lo, range_chain lo shards -> covers_from lo shards.
Proof.
  induction shards as [|s rest IH]; intros lo H; [contradiction|]. destruct H as [Hmin Hrest]. split; [exact Hmin|].
  destruct rest as [|s1 rest']; [exact Hrest|]. destruct Hrest as [Hlt Hch]. split; [eapply str_lt_nonnil; eauto|]. apply IH; exact Hch.
Qed.

Lemma chain_min_ge : forall shards lo s, range_chain lo shards -> In s shards -> str_leb lo (s_min s) = true.
Proof.
  induction shards as [|s0 rest IH]; intros lo s H Hin; [contradiction|]. destruct H as [Hmin Hrest].
  destruct Hin as [<-|Hin]; [rewrite Hmin; apply str_leb_refl|].
  destruct rest as [|s1 rest']; [contradiction|]. destruct Hrest as [Hlt Hch].
  apply str_lt_leb. eapply str_lt_leb_trans; [exact Hlt|]. eapply IH; eauto.
Qed.

Lemma chain_head_excludes_rest : forall s0 rest lo key s',
  range_chain lo (s0 :: rest) -> In s' rest -> contain s0 key = true -> contain s' key = true -> False.
Proof.
  intros s0 rest lo key s' H Hin Hc0 Hc'. destruct H as [Hmin Hrest]. destruct rest as [|s1 rest']; [contradiction|].
  destruct Hrest as [Hlt Hch]. unfold contain in Hc0, Hc'.
  apply andb_true_iff in Hc0 as [_ Hmax]. apply andb_true_iff in Hc' as [Hmin' _].
  assert (Hne : is_nil (s_max s0) = false) by (pose proof (str_lt_nonnil _ _ Hlt); destruct (s_max s0); [congruence|reflexivity]).
  rewrite Hne in Hmax. simpl in Hmax.
  pose proof (chain_min_ge _ _ _ Hch Hin) as Hge.
  pose proof (str_leb_trans _ _ _ Hge Hmin') as Hle.
  assert (Hlt' : str_lt key (s_max s0)) by exact Hmax.
  rewrite (str_lt_not_leb _ _ Hlt') in Hle. discriminate.
Qed.

Lemma chain_unique : forall shards lo key s s',
  range_chain lo shards -> In s shards -> In s' shards -> contain s key = true -> contain s' key = true -> s = s'.
Proof.
  induction shards as [|s0 rest IH]; intros lo key s s' H Hs Hs' Hc Hc'; [contradiction|].
  destruct Hs as [<-|Hs]; destruct Hs' as [<-|Hs']; auto.
  - exfalso. eapply chain_head_excludes_rest; eauto.
  - exfalso. eapply chain_head_excludes_rest; eauto.
  - destruct H as [_ Hrest]. destruct rest as [|s1 rest']; [contradiction|]. destruct Hrest as [_ Hch]. eapply IH; eauto.
Qed.

(* split points handed to ReSharding: non-empty and strictly increasing *)
Fixpoint bounds_sorted (lo : str) (bounds : list str) : Prop :=
  match bounds with
  | [] => True
  | b :: r => str_lt lo b /\ bounds_sorted b r
  end.

Definition ranges (shards : list shard) : list (str * str) := map (fun s => (s_min s, s_max s)) shards.

Lemma ranges_of_nonempty : forall bounds lo, ranges_of lo bounds <> [].
Proof. destruct bounds; simpl; discriminate. Qed.

Lemma chain_of_ranges : forall bounds lo shards, bounds_sorted lo bounds -> ranges shards = ranges_of lo bounds -> range_chain lo shards.
Proof.
  induction bounds as [|b r IH]; intros lo shards Hs Hr.
  - simpl in Hr. destruct shards as [|s [|s1 rest]]; simpl in Hr; try discriminate. inversion Hr. simpl. auto.
  - simpl in Hr, Hs. destruct Hs as [Hlt Hs]. destruct shards as [|s rest]; simpl in Hr; [discriminate|].
    injection Hr as Hmin Hmax Hrest. fold (ranges rest) in Hrest.
    destruct rest as [|s1 rest'].
    + simpl in Hrest. exfalso. eapply ranges_of_nonempty; eauto.
    + change (s_min s = lo /\ (str_lt lo (s_max s) /\ range_chain (s_max s) (s1 :: rest'))).
      split; [exact Hmin|]. rewrite Hmax. split; [exact Hlt|]. apply IH; auto.
Qed.

Lemma chain_ranges_ext : forall a b lo, ranges a = ranges b -> range_chain lo a -> range_chain lo b.
Proof.
  induction a as [|x a IH]; intros b lo He H; [contradiction|].
  destruct b as [|y b]; simpl in He; [discriminate|]. injection He as Hmin Hmax Hrest. fold (ranges a) (ranges b) in Hrest.
  destruct H as [Hm Hr].
  destruct a as [|x1 a']; destruct b as [|y1 b']; simpl in Hrest; try discriminate.
  - simpl. split; congruence.
  - destruct Hr as [Hlt Hch].
    change (s_min y = lo /\ (str_lt lo (s_max y) /\ range_chain (s_max y) (y1 :: b'))).
    split; [congruence|]. rewrite <- Hmax. split; [exact Hlt|]. apply (IH (y1 :: b')); auto.
Qed.

Lemma tloop_range_some : forall hash v c g, c_typ c = Range -> forall tss acc, exists res, tloop hash v c g acc tss = Some res.
Proof.
  intros hash v c g Ht. induction tss as [|t tss IH]; intros acc; [eexists; reflexivity|].
  cbn [tloop]. rewrite Ht.
  destruct (IH ((if v_reset v then c_mst c else acc) ++ key_suffix (fst (sel_keys (c_sk c) (sort_tags t))))) as [res Hres].
  rewrite Hres. eexists; reflexivity.
Qed.

Theorem range_candidates_consulted_proof : forall hash v c g e tss ts s rest,
  v_reset v = true -> c_typ c = Range ->
  cond_tags v (c_tagkeys c) e = Some tss -> In ts tss -> In s (g_shards g) ->
  (forall i, (i < length (g_shards g))%nat -> In i (g_alive g)) ->
  contain s ((c_mst c ++ key_suffix (fst (sel_keys (c_sk c) (sort_tags ts)))) ++ rest) = true ->
  In s (target_group hash v c g (Some e)).
Proof.
  intros hash v c g e tss ts s rest Hr Ht Hct Hin Hs Halive Hc.
  pose proof (range_alive g s Halive Hs) as Hall.
  unfold target_group. destruct (c_sk c) as [|k0 sk0] eqn:Esk; [exact Hall|]. rewrite Hct.
  destruct (tloop_range_some hash v c g Ht tss (c_mst c)) as [res Hres]. rewrite Hres.
  eapply (tloop_range_in hash v c g Hr Ht _ _ _ _ Hres Hin); auto.
  rewrite Esk. eapply contain_prefix_of. exact Hc.
Qed.

Lemma hint_range_in : forall hash v c g cond p s,
  v_or v = true -> and_ok v cond ->
  wf_group c g -> wf_point p ->
  hint_full v c cond p ->
  route_in hash c g p = Some s -> eval_cond c cond p = true ->
  In s (target_hint_range hash true v c g cond).
Proof.
  intros hash v c g cond p s Hor Hok Hwf Hwp Hfull Hr Hev.
  unfold target_hint_range. destruct (c_typ c) eqn:Etyp; [eapply hint_prune_sound_proof; eauto|].
  apply route_in_place in Hr as [ps [Ew Hr]].
  pose proof (place_alive _ _ _ _ _ Hwf Hr) as Hall. unfold place in Hr. rewrite Etyp in Hr.
  exact (hint_key_sound v c g cond p ps s (fun ps' => dest_shard (c_mst c ++ key_suffix ps') g) Hor Hok Hwp Hfull Hall Ew Hr Hev).
Qed.

Theorem hint_kind_sound_proof : forall hash v c g cond p s specific,
  v_or v = true -> and_ok v cond ->
  wf_group c g -> wf_point p ->
  hint_full v c cond p ->
  route_in hash c g p = Some s -> eval_cond c cond p = true ->
  In s (target_hint_kind hash specific true v c g cond).
Proof.
  intros hash v c g cond p s specific Hor Hok Hwf Hwp Hfull Hr Hev.
  pose proof (hint_range_in hash v c g cond p s Hor Hok Hwf Hwp Hfull Hr Hev) as Hin.
  destruct (route_in_all_alive hash _ _ _ _ Hwf Hr) as [_ Hall].
  unfold target_hint_kind. destruct specific; [|exact Hin].
  destruct cond as [e|]; [|exact Hall].
  destruct (cond_tags v (c_tagkeys c) e) as [tss|]; [|exact Hall].
  destruct tss as [|ts [|ts2 rest]]; try exact Hall.
  destruct (Nat.eqb (length ts) (length (c_tagkeys c))); [exact Hin|exact Hall].
Qed.

Lemma tloop_hash_sub : forall hash v c g, c_typ c = Hash -> wf_group c g ->
  forall tss acc res, tloop hash v c g acc tss = Some res -> forall s, In s res -> In s (all_alive g).
Proof.
  intros hash v c g Ht Hwf. unfold wf_group in Hwf. rewrite Ht in Hwf.
  induction tss as [|t tss IH]; intros acc res H s Hin.
  - inversion H; subst. contradiction.
  - cbn [tloop] in H. rewrite Ht in H.
    destruct (snd (sel_keys (c_sk c) (sort_tags t))); [|discriminate].
    match type of H with match ?X with _ => _ end = _ => destruct X as [res'|] eqn:El; [|discriminate] end.
    inversion H; subst res; clear H. apply in_app_or in Hin as [Hin|Hin]; [|eapply IH; eauto].
    match type of Hin with In s (match ?X with _ => _ end) => destruct X as [s0|] eqn:Es; [|contradiction] end.
    destruct Hin as [<-|[]]. eapply shard_for_alive; eauto.
Qed.

Lemma route_in_alive_ext : forall hash c g a b p,
  (c_typ c = Range \/ eff_idx c (set_alive g a) = eff_idx c (set_alive g b)) ->
  route_in hash c (set_alive g a) p = route_in hash c (set_alive g b) p.
Proof.
  intros hash c g a b p H. unfold route_in. destruct (wkey c p) as [ps|]; [|reflexivity].
  destruct (c_typ c) eqn:Et.
  - destruct H as [H|H]; [discriminate|]. unfold shard_for. rewrite H. reflexivity.
  - reflexivity.
Qed.

Theorem prune_sound_alive_change_proof : forall hash v c cond p g aw ar s,
  v_or v = true -> v_reset v = true ->
  and_ok v cond ->
  wf_group c (set_alive g ar) -> wf_point p ->
  (c_typ c = Range \/ eff_idx c (set_alive g aw) = eff_idx c (set_alive g ar)) ->
  route_in hash c (set_alive g aw) p = Some s -> eval_cond c cond p = true ->
  In s (target_group hash v c (set_alive g ar) cond).
Proof.
  intros hash v c cond p g aw ar s Hor Hres Hok Hwf Hwp Hsame Hr Hev.
  rewrite (route_in_alive_ext hash c g aw ar p Hsame) in Hr. eapply target_group_sound; eauto.
Qed.

Lemma is_alive_in : forall g s, In s (all_alive g) -> is_alive_b g s = true.
Proof. intros g s H. unfold is_alive_b. apply existsb_exists. exists s. split; auto. apply N.eqb_refl. Qed.

Theorem hard_write_prune_sound_proof : forall hash v c cond p g s,
  v_or v = true -> v_reset v = true ->
  and_ok v cond ->
  wf_group c (set_alive g (full_list g)) -> wf_point p ->
  route_in hash c (set_alive g (full_list g)) p = Some s -> In s (all_alive g) -> eval_cond c cond p = true ->
  In s (target_group_hw hash v c g cond).
Proof.
  intros hash v c cond p g s Hor Hres Hok Hwf Hwp Hr Hal Hev.
  unfold target_group_hw. apply filter_In. split; [|apply is_alive_in; exact Hal].
  eapply target_group_sound; eauto.
Qed.

Lemma target_group_hw_alive : forall hash v c g cond s, In s (target_group_hw hash v c g cond) -> is_alive_b g s = true.
Proof. intros hash v c g cond s H. unfold target_group_hw in H. apply filter_In in H as [_ H]. exact H. Qed.
