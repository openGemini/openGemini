(* C11: the shard-key builders of column-store rows (UnmarshalShardKeyByField), rows with a column index
   (UnmarshalShardKeyByTagOp) and stream results (UnmarshalShardKeyByDimOrTag) against the read side's key construction. *)
From Coq Require Import ZArith NArith List Bool.
From OG Require Import C11.Model C11.Proofs.
Import ListNotations.

Lemma assoc_find_spec : forall {A} k (l : list (str * A)) kv, assoc_find k l = Some kv -> In kv l /\ fst kv = k.
Proof.
  intros A k l kv H. unfold assoc_find in H. apply find_some in H as [H1 H2]. split; auto. apply str_eqb_eq in H2. auto.
Qed.

Lemma by_field_spec : forall sk r ps, by_field sk r = Some ps ->
  map fst ps = sk /\ forall x, In x ps -> In x (x_tags r) \/ (In x (x_fields r) /\ assoc_find (fst x) (x_tags r) = None).
Proof.
  induction sk as [|k sk IH]; intros r ps H; simpl in H.
  - inversion H; subst. split; [reflexivity|intros x []].
  - destruct (assoc_find k (x_tags r)) as [kv|] eqn:Et.
    + destruct (by_field sk r) as [ps'|] eqn:E; [|discriminate]. inversion H; subst ps; clear H.
      destruct (IH r ps' E) as [H1 H2]. apply assoc_find_spec in Et as [Hin Hk]. split.
      * simpl. rewrite H1, Hk. reflexivity.
      * intros x [<-|Hx]; [left; exact Hin|apply H2; exact Hx].
    + destruct (assoc_find k (x_fields r)) as [kv|] eqn:Ef; [|discriminate].
      destruct (by_field sk r) as [ps'|] eqn:E; [|discriminate]. inversion H; subst ps; clear H.
      destruct (IH r ps' E) as [H1 H2]. apply assoc_find_spec in Ef as [Hin Hk]. split.
      * simpl. rewrite H1, Hk. reflexivity.
      * intros x [<-|Hx]; [right; split; [exact Hin|rewrite Hk; exact Et]|apply H2; exact Hx].
Qed.

Lemma by_cols_spec : forall sk r ps, by_cols sk r = Some ps ->
  map fst ps = sk /\ forall x, In x ps -> In x (x_tags r) \/ In x (x_fields r).
Proof.
  induction sk as [|k sk IH]; intros r ps H; simpl in H.
  - inversion H; subst. split; [reflexivity|intros x []].
  - destruct (assoc_find k (x_cols r)) as [[k' id]|]; [|discriminate].
    destruct (if (id <? length (x_tags r))%nat then nth_error (x_tags r) id else nth_error (x_fields r) (id - length (x_tags r)))
      as [kv|] eqn:En; [|discriminate].
    destruct (str_eqb (fst kv) k) eqn:Ek; [|discriminate]. apply str_eqb_eq in Ek.
    destruct (by_cols sk r) as [ps'|] eqn:E; [|discriminate]. inversion H; subst ps; clear H.
    destruct (IH r ps' E) as [H1 H2]. split.
    + simpl. rewrite H1, Ek. reflexivity.
    + intros x [<-|Hx]; [|apply H2; exact Hx].
      destruct (id <? length (x_tags r))%nat; [left|right]; eapply nth_error_In; eauto.
Qed.

Lemma build_key_spec : forall b sk r ps, sk <> [] -> build_key b sk r = Some ps ->
  map fst ps = sk /\ forall x, In x ps -> In x (x_tags r) \/ In x (x_fields r).
Proof.
  intros b sk r ps Hne H. destruct b as [| |dims]; simpl in H.
  - destruct (by_field_spec sk r ps H) as [H1 H2]. split; auto. intros x Hx. destruct (H2 x Hx) as [?|[? _]]; auto.
  - unfold by_tagop in H. destruct sk as [|k sk']; [congruence|]. apply by_cols_spec; exact H.
  - unfold by_dim_or_tag, by_tagop in H. destruct sk as [|k sk']; [congruence|]. apply by_cols_spec; exact H.
Qed.

Theorem builder_key_agrees_proof : forall (tagkeys sk : list str) (tags ps ts : tagset),
  NoDup (map fst tags) -> map fst ps = sk ->
  (forall x, In x ps -> In x tags \/ mem_str (fst x) tagkeys = false) ->
  (forall x, In x ts -> mem_str (fst x) tagkeys = true) ->
  (forall k v, In (k, v) ts -> tag_val tags k = v) ->
  exists m, fst (sel_keys sk (sort_tags ts)) = firstn m ps /\
            (snd (sel_keys sk (sort_tags ts)) = true -> fst (sel_keys sk (sort_tags ts)) = ps).
Proof.
  intros tagkeys sk tags ps ts Hnd Hkeys Hsrc Htk Hsat. apply (read_key_prefix sk tags); auto.
  intros x y Hx Hy E. destruct (Hsrc x Hx) as [Hin|Hf]; [exact Hin|]. rewrite <- E, (Htk y Hy) in Hf. discriminate.
Qed.

Section Builders.
Variable hash : str -> N.

Theorem builders_prune_sound_proof : forall v b c g cond r p s,
  v_or v = true -> v_reset v = true ->
  and_ok v cond ->
  wf_group c g -> wf_point p -> p_tags p = x_tags r ->
  (forall x, In x (x_fields r) -> mem_str (fst x) (c_tagkeys c) = false) ->
  route_in_x hash b c g r = Some s -> eval_cond c cond p = true ->
  In s (target_group hash v c g cond).
Proof.
  intros v b c g cond r p s Hor Hres Hok Hwf Hwp Htags Hfld Hr Hev.
  unfold route_in_x in Hr. destruct (build_key b (c_sk c) r) as [ps|] eqn:Eb; [|discriminate].
  apply (target_group_key_sound hash v c g cond p ps s); auto.
  intros Hne ts Htk Hsat. destruct (build_key_spec b (c_sk c) r ps Hne Eb) as [Hkeys Hsrc].
  apply (builder_key_agrees_proof (c_tagkeys c) (c_sk c) (p_tags p) ps ts); auto.
  intros x Hx. rewrite Htags. destruct (Hsrc x Hx) as [?|Hf]; [left; auto|right; apply Hfld; exact Hf].
Qed.

(* stream destinations that reuse the source's key bytes: with the same non-empty key on both measurements this IS the
   destination's own routing of any row carrying the same key pairs *)
Lemma route_reuse_is_route : forall csrc cdst g psrc pdst,
  c_sk csrc = c_sk cdst -> c_sk cdst <> [] -> c_typ cdst = Hash -> wkey cdst pdst = wkey csrc psrc ->
  route_reuse hash csrc cdst g psrc = route_in hash cdst g pdst.
Proof.
  intros csrc cdst g psrc pdst Hk Hne Ht Hw. unfold route_reuse, route_in. rewrite Hw, Ht.
  destruct (wkey csrc psrc) as [ps|]; [|reflexivity]. unfold hash_arg. rewrite Hk.
  destruct (c_sk cdst); [congruence|reflexivity].
Qed.

Theorem stream_reuse_prune_sound_proof : forall v csrc cdst g cond psrc pdst s,
  v_or v = true -> v_reset v = true ->
  and_ok v cond ->
  c_typ cdst = Hash -> wf_group cdst g -> wf_point pdst ->
  (c_sk cdst = [] \/ (c_sk csrc = c_sk cdst /\ wkey cdst pdst = wkey csrc psrc)) ->
  route_reuse hash csrc cdst g psrc = Some s -> eval_cond cdst cond pdst = true ->
  In s (target_group hash v cdst g cond).
Proof.
  intros v csrc cdst g cond psrc pdst s Hor Hres Hok Ht Hwf Hwp Hcase Hr Hev.
  destruct (c_sk cdst) as [|k0 sk0] eqn:Esk.
  - unfold target_group. rewrite Esk. unfold route_reuse in Hr. destruct (wkey csrc psrc); [|discriminate]. rewrite Ht in Hr.
    unfold wf_group in Hwf. rewrite Ht in Hwf. eapply shard_for_alive; eauto.
  - destruct Hcase as [Hc|[Hk Hw]]; [congruence|].
    assert (Hne : c_sk cdst <> []) by (rewrite Esk; discriminate).
    rewrite <- Esk in Hk. rewrite (route_reuse_is_route csrc cdst g psrc pdst Hk Hne Ht Hw) in Hr.
    eapply target_group_sound; eauto.
Qed.
End Builders.
