(* C11 property theorems: statements closed by a lemma of Proofs*.v or by a few lines from them, Print Assumptions, and
   non-vacuity Examples. *)
From Coq Require Import ZArith NArith List Bool Lia.
From OG Require Import C11.Model C11.Proofs C11.ProofsRange C11.ProofsBuilders C11.ProofsSpan.
Import ListNotations.
Open Scope Z_scope.

(* Write side. A routed point is stored in exactly one shard; that shard belongs to a live group of the catalogue whose
   half-open span contains the timestamp; the result is a function of the catalogue and the point, and inside the group
   it depends on the point only through its shard-key pairs (any other point of the group with the same pairs goes to
   the same shard). For every hash function. *)
Theorem route_unique_covering : forall (hash : str -> N) c p g s,
  route hash c p = Some (g, s) ->
  (In g (c_groups c) /\ g_start g <= p_time p < g_end g /\ g_deleted g = false /\ In s (g_shards g))
  /\ (forall g' s', route hash c p = Some (g', s') -> g' = g /\ s' = s)
  /\ (forall p', find_group (c_groups c) (p_time p') = Some g -> wkey c p' = wkey c p -> route hash c p' = Some (g, s)).
Proof. exact route_unique_covering_proof. Qed.
Print Assumptions route_unique_covering.

(* The batch fast path (the group of the previous row is reused when its span contains the timestamp): the row is still
   stored in one shard of a group whose half-open span contains the timestamp; the group is the cached one or the
   catalogue's. *)
Theorem route_cached_covering : forall (hash : str -> N) cache c p g s,
  route_cached hash cache c p = Some (g, s) ->
  g_start g <= p_time p < g_end g /\ In s (g_shards g) /\ (cache = Some g \/ route hash c p = Some (g, s)).
Proof. exact route_cached_covering_proof. Qed.
Print Assumptions route_cached_covering.

(* Existence. A row as the line-protocol parser delivers it (tag keys strictly ascending) that carries every shard-key tag
   (shard key sorted, as CreateMeasurement stores it), with a timestamp up to MaxNanoTime and a positive group duration,
   HAS a route once CreateShardGroup has run: a writable group containing the timestamp exists (the old one or the new
   [trunc(t,d), +d)), and in it a shard is chosen - hash: non-empty index list with indexes in range; range: key ranges
   that start and end open and share their bounds. Together with route_unique_covering: exactly one shard. *)
Theorem route_total : forall (hash : str -> N) c p gid shards alive,
  0 < c_dur c -> p_time p <= max_nano ->
  keys_sorted (map fst (p_tags p)) -> keys_sorted (c_sk c) -> (forall k, In k (c_sk c) -> In k (map fst (p_tags p))) ->
  (forall g, In g (c_groups (ensure_group c (p_time p) gid shards alive)) -> wf_route c g) ->
  exists g s, route hash (ensure_group c (p_time p) gid shards alive) p = Some (g, s).
Proof. exact route_total_proof. Qed.
Print Assumptions route_total.

(* sorted rows satisfy the hypothesis of the pruning theorems and pass the duplicate check of the write path *)
Theorem sorted_row_is_wf : forall p, keys_sorted (map fst (p_tags p)) -> wf_point p /\ has_adj_dup (p_tags p) = false.
Proof. intros p H. split; [exact (sorted_nodup _ H)|exact (sorted_no_adj_dup _ H)]. Qed.

(* Write side and read side build the same key, for every shard-key definition: from any tag set the row satisfies -
   duplicate keys allowed, the sorted merge takes the first value per key - the read side selects a prefix of the pairs
   the write side selected, and all of them when every shard-key tag is constrained. A tag set with two different
   values for one key is satisfied by no row. *)
Theorem key_construction_agrees : forall sk tags ts,
  NoDup (map fst tags) -> snd (sel_keys sk tags) = true ->
  (forall k v, In (k, v) ts -> tag_val tags k = v) ->
  exists m, fst (sel_keys sk (sort_tags ts)) = firstn m (fst (sel_keys sk tags)) /\
            (snd (sel_keys sk (sort_tags ts)) = true -> fst (sel_keys sk (sort_tags ts)) = fst (sel_keys sk tags)).
Proof. exact sel_keys_agree_proof. Qed.
Theorem contradictory_alternative_matches_no_row : forall tags ts k v1 v2,
  In (k, v1) ts -> In (k, v2) ts -> v1 <> v2 -> ~ (forall k' v, In (k', v) ts -> tag_val tags k' = v).
Proof.
  intros tags ts k v1 v2 H1 H2 Hne Hs. apply Hne. rewrite <- (Hs k v1 H1), <- (Hs k v2 H2). reflexivity.
Qed.
Print Assumptions key_construction_agrees.

(* The group created for a timestamp: [trunc(t,d), +d) with Go's year-1 anchored Truncate; it contains t, its start is
   a multiple of d counted from year 1, and every instant of the span is mapped to the same span (created groups of one
   duration tile the time line: two of them are equal or disjoint). *)
Theorem group_span_covers : forall t d, 0 < d -> t <= max_nano -> fst (span_of t d) <= t < snd (span_of t d).
Proof. exact span_covers. Qed.
Theorem group_span_aligned : forall t d, 0 < d -> (fst (span_of t d) + epoch_shift) mod d = 0.
Proof.
  intros t d Hd. rewrite span_start by assumption.
  replace (d * ((t + epoch_shift) / d) - epoch_shift + epoch_shift) with ((t + epoch_shift) / d * d) by lia.
  apply Z.mod_mul. lia.
Qed.
Theorem group_span_partition : forall t t' d, 0 < d ->
  fst (span_of t d) <= t' < fst (span_of t d) + d -> fst (span_of t' d) = fst (span_of t d).
Proof.
  intros t t' d Hd H. rewrite !span_start in * by assumption.
  f_equal. f_equal. symmetry. apply (Z.div_unique _ _ _ (t' + epoch_shift - d * ((t + epoch_shift) / d))); lia.
Qed.
Print Assumptions group_span_partition.
(* ... the created spans are ordered like the timestamps, and two of them with different starts are disjoint - the end
   clipped at MaxNanoTime + 1 included; equal starts give equal spans *)
Theorem group_span_monotone : forall t1 t2 d, 0 < d -> t1 <= t2 -> fst (span_of t1 d) <= fst (span_of t2 d).
Proof.
  intros t1 t2 d Hd Hle. rewrite !span_start by assumption.
  pose proof (Z.div_le_mono (t1 + epoch_shift) (t2 + epoch_shift) d Hd ltac:(lia)). nia.
Qed.
Print Assumptions group_span_monotone.
Theorem group_span_disjoint : forall t1 t2 d, 0 < d -> fst (span_of t1 d) <> fst (span_of t2 d) ->
  snd (span_of t1 d) <= fst (span_of t2 d) \/ snd (span_of t2 d) <= fst (span_of t1 d).
Proof.
  intros t1 t2 d Hd Hne. pose proof (span_end_le t1 d Hd) as E1. pose proof (span_end_le t2 d Hd) as E2.
  rewrite !span_start in * by assumption.
  destruct (Z.lt_trichotomy ((t1 + epoch_shift) / d) ((t2 + epoch_shift) / d)) as [Hlt|[Heq|Hgt]].
  - left. nia.
  - exfalso. apply Hne. rewrite Heq. reflexivity.
  - right. nia.
Qed.
Print Assumptions group_span_disjoint.
Theorem group_span_start_determines : forall t1 t2 d, fst (span_of t1 d) = fst (span_of t2 d) -> span_of t1 d = span_of t2 d.
Proof.
  intros t1 t2 d H. unfold span_of in *. cbn [fst] in H. rewrite H. reflexivity.
Qed.
Print Assumptions group_span_start_determines.

(* Read side, repaired getConditionTags / TargetShards (OR with an unconstrained operand = unconstrained, AND = cross
   product, key buffer reset per alternative): for every hash function, catalogue, condition tree, time range and
   row: if the write path stored the row in shard s of group g and the row satisfies the query, then g is among the
   groups selected by the time range and s is among the shards TargetShards returns for g. *)
Theorem C11_prune_sound : forall (hash : str -> N) c cond p g s tmin tmax,
  wf_cfg c -> wf_point p ->
  route hash c p = Some (g, s) -> tmin <= p_time p <= tmax -> eval_cond c cond p = true ->
  In g (query_groups c tmin tmax) /\ In s (target_group hash repaired c g cond) /\
  In (g_id g, s_id s) (target hash repaired c tmin tmax cond).
Proof.
  intros hash c cond p g s tmin tmax.
  exact (prune_sound_gen hash repaired c cond p g s tmin tmax eq_refl eq_refl (or_introl eq_refl)).
Qed.
Print Assumptions C11_prune_sound.

(* The same with the code's own AND (v_and = false: every right alternative appended to each left set) as long as the condition is in the
   image of the InfluxQL grammar (an AND never has a bare OR operand): the AND repair is not needed for conditions a
   query can produce. This is the variant props/C11/fix.patch implements. *)
Theorem C11_prune_sound_parser_image : forall (hash : str -> N) c e p g s tmin tmax,
  wf_cfg c -> wf_point p -> parser_image e ->
  route hash c p = Some (g, s) -> tmin <= p_time p <= tmax -> eval_cond c (Some e) p = true ->
  In g (query_groups c tmin tmax) /\
  In s (target_group hash {| v_or := true; v_and := false; v_reset := true |} c g (Some e)) /\
  In (g_id g, s_id s) (target hash {| v_or := true; v_and := false; v_reset := true |} c tmin tmax (Some e)).
Proof.
  intros hash c e p g s tmin tmax Hc Hp Hi.
  exact (prune_sound_gen hash {| v_or := true; v_and := false; v_reset := true |} c (Some e) p g s tmin tmax
           eq_refl eq_refl (or_intror Hi) Hc Hp).
Qed.
Print Assumptions C11_prune_sound_parser_image.

(* Corollary: the rows a query returns out of any set of stored rows do not depend on how the data is spread: two
   catalogues with the same schema (any partition counts, group layouts, alive sets, hash or range sharding) give the
   same answer, namely the stored rows that satisfy the time range and the condition. *)
Theorem partition_count_invariant : forall (hash : str -> N) c1 c2 cond tmin tmax ps,
  wf_cfg c1 -> wf_cfg c2 -> c_tagkeys c1 = c_tagkeys c2 -> Forall wf_point ps ->
  (forall p, In p ps -> route hash c1 p <> None /\ route hash c2 p <> None) ->
  answer hash repaired c1 tmin tmax cond ps = answer hash repaired c2 tmin tmax cond ps.
Proof.
  intros hash c1 c2 cond tmin tmax ps H1 H2 Hk Hps Hr.
  rewrite (answer_is_filter hash c1), (answer_is_filter hash c2); auto; try (intros p Hp; apply (Hr p Hp)).
  apply filter_ext. intros p. unfold eval_cond. rewrite Hk. reflexivity.
Qed.
Print Assumptions partition_count_invariant.

Theorem answer_is_the_matching_rows : forall (hash : str -> N) c cond tmin tmax ps,
  wf_cfg c -> Forall wf_point ps -> (forall p, In p ps -> route hash c p <> None) ->
  answer hash repaired c tmin tmax cond ps =
  filter (fun p => (tmin <=? p_time p) && (p_time p <=? tmax) && eval_cond c cond p) ps.
Proof. exact answer_is_filter. Qed.
Print Assumptions answer_is_the_matching_rows.

(* One ingestion context serves a whole batch and remembers the previous row's shard group, measurement and shard-key
   definition. If no row is dropped between the measurement lookup and the routing step, remembering the shard key is
   invisible: every row is mapped exactly as if its own measurement's key were looked up for it. Rows of any number of
   measurements with any shard keys, in any order and any groups. *)
Theorem batch_cache_transparent : forall (hash : str -> N) all, consistent all -> no_drop all ->
  forall rows st, incl rows all -> cache_inv all st -> batch_run hash true st rows = batch_run hash false st rows.
Proof.
  intros hash all Hc Hnd. induction rows as [|r rows IH]; intros st Hi Hinv; [reflexivity|].
  assert (Hin : In r all) by (apply Hi; left; reflexivity).
  destruct (batch_step_transparent hash all st r Hc Hin (Hnd r Hin) Hinv) as [Heq Hinv'].
  simpl. rewrite Heq. f_equal. apply IH; auto. intros x Hx. apply Hi. right; exact Hx.
Qed.
Print Assumptions batch_cache_transparent.

Theorem batch_starts_consistent : forall all, cache_inv all b_empty.
Proof.
  intros all n g H. discriminate.
Qed.

(* with the key looked up per row, a batch row is routed as a single row: into the remembered group if its span contains
   the timestamp, else the catalogue's, by the shard key in force for the row's database, measurement and that group *)
Theorem batch_uncached_is_route : forall (hash : str -> N) st r g s,
  snd (batch_step hash false st r) = Some (g, s) ->
  r_kind r = RRoute /\ pick_group (b_sg st) (c_groups (m_cfg (r_m r))) (p_time (r_p r)) = Some g /\
  wkey_in_force (r_m r) (g_id g) <> None /\ route_in hash (cfg_at (r_m r) (g_id g)) g (r_p r) = Some s.
Proof. exact batch_uncached_is_route_proof. Qed.

(* ... and pruning with the key in force for the row's group (per-group key in mapMstShards) finds it *)
Theorem batch_prune_sound : forall (hash : str -> N) st r g s cond,
  wf_group (base_cfg (r_m r)) g -> wf_point (r_p r) ->
  snd (batch_step hash false st r) = Some (g, s) -> eval_cond (m_cfg (r_m r)) cond (r_p r) = true ->
  In s (target_group hash repaired (cfg_at (r_m r) (g_id g)) g cond) /\
  (forall tmin tmax, In g (query_groups (m_cfg (r_m r)) tmin tmax) ->
                     In (g_id g, s_id s) (target_m hash repaired true (r_m r) tmin tmax cond)).
Proof.
  intros hash st r g s cond Hwf Hwp H Hev.
  pose proof (batch_prune_sound_proof hash repaired st r g s cond eq_refl eq_refl (or_introl eq_refl) Hwf Hwp H Hev) as Hs.
  split; [exact Hs|]. intros tmin tmax Hq. apply target_m_in; auto.
Qed.
Print Assumptions batch_prune_sound.

(* Which shard-key definition is in force is decided in two places: the write path (updateShardGroupAndShardKey: the
   database's key if it has one, else the measurement's key for the row's group) and the read path (getTargetShardMsg +
   mapMstShards). They are the SAME function of the catalogue - any database key, any key history of the measurement, any
   group. (batch_prune_sound above is proved through this equation; the precedence "measurement first" is refuted.) *)
Theorem key_in_force_write_eq_read : forall m gid, wkey_in_force m gid = rkey_in_force m gid.
Proof. exact key_in_force_agree. Qed.
Print Assumptions key_in_force_write_eq_read.

(* a database-level key overrides every key of the measurement on both sides, and such a key is hashed *)
Theorem database_key_overrides : forall m gid k ks, m_db m = k :: ks ->
  wkey_in_force m gid = Some (k :: ks) /\ rkey_in_force m gid = Some (k :: ks) /\ c_typ (cfg_at m gid) = Hash.
Proof.
  intros m gid k ks H. unfold wkey_in_force, rkey_in_force, db_key_read, cfg_at, cfg_with, base_cfg. rewrite H. repeat split.
Qed.
Theorem without_database_key : forall m gid, m_db m = [] ->
  wkey_in_force m gid = sk_scan (m_vers m) gid /\ rkey_in_force m gid = sk_scan (m_vers m) gid /\
  c_typ (cfg_at m gid) = c_typ (m_cfg m).
Proof.
  intros m gid H. unfold wkey_in_force, rkey_in_force, db_key_read, cfg_at, cfg_with, base_cfg. rewrite H. repeat split.
Qed.

(* A range-sharded group whose key ranges tile the key space (range_chain: first Min open, each Max = the next Min and
   strictly above its own Min, last Max open): DestShard returns a shard for EVERY key, that shard's half-open range
   [Min, Max) contains the key, and no other shard of the group contains it - a key equal to a split point belongs to the
   shard that STARTS there. *)
Theorem range_dest_shard_unique : forall g key, range_chain [] (g_shards g) ->
  exists s, dest_shard key g = Some s /\ In s (g_shards g) /\ contain s key = true /\
            forall s', In s' (g_shards g) -> contain s' key = true -> s' = s.
Proof.
  intros g key H.
  destruct (covers_contains _ [] key (range_chain_covers _ _ H) (str_nil_leb key)) as [x [Hx Hcx]].
  destruct (find_exists (fun s0 => contain s0 key) (g_shards g)) as [y Hy]; [eauto|].
  exists y. unfold dest_shard. split; [exact Hy|]. apply find_some in Hy as [Hin Hc]. split; [exact Hin|]. split; [exact Hc|].
  intros s' Hs' Hc'. eapply chain_unique; eauto.
Qed.
Print Assumptions range_dest_shard_unique.

(* Such groups are what the catalogue operations produce: CreateShardGroupWithBounds (Data.ReSharding) with non-empty,
   strictly increasing split points, and CreateShardGroup afterwards (one shard owning everything for the first group of a
   policy, else the ranges of the newest group). *)
Theorem range_chain_resharded : forall g bounds,
  bounds_sorted [] bounds -> shard_ranges g = ranges_of [] bounds -> range_chain [] (g_shards g).
Proof.
  intros g bounds Hs Hr. eapply chain_of_ranges; eauto.
Qed.
Theorem range_chain_created : forall existing g,
  Forall (fun x => range_chain [] (g_shards x)) existing -> shard_ranges g = created_ranges existing ->
  range_chain [] (g_shards g).
Proof.
  intros existing g Hall Hr. unfold created_ranges in Hr. destruct (rev existing) as [|l rest] eqn:E.
  - unfold shard_ranges in Hr. destruct (g_shards g) as [|s [|s1 r]]; simpl in Hr; inversion Hr. simpl. split; congruence.
  - assert (Hin : In l existing) by (apply in_rev; rewrite E; left; reflexivity).
    rewrite Forall_forall in Hall. apply (chain_ranges_ext (g_shards l)); [symmetry; exact Hr|]. apply Hall; exact Hin.
Qed.
Print Assumptions range_chain_created.

(* ... and such groups satisfy the route-existence premise of route_total: every accepted row of a range-sharded
   measurement has a shard in them *)
Theorem range_chain_is_wf_route : forall c g, c_typ c = Range -> range_chain [] (g_shards g) -> wf_route c g.
Proof. intros c g Ht H. unfold wf_route. rewrite Ht. apply range_chain_covers. exact H. Qed.

(* Read side, range sharding: for every alternative (tag set) the condition yields, EVERY shard of the group whose range
   holds some key extending the prefix built from that alternative (measurement name + the leading shard-key pairs the
   alternative binds) is consulted. With C11_prune_sound: the shard of every matching row is among them. *)
Theorem range_candidates_consulted : forall (hash : str -> N) c g e tss ts s rest,
  c_typ c = Range ->
  cond_tags repaired (c_tagkeys c) e = Some tss -> In ts tss -> In s (g_shards g) ->
  (forall i, (i < length (g_shards g))%nat -> In i (g_alive g)) ->
  contain s ((c_mst c ++ key_suffix (fst (sel_keys (c_sk c) (sort_tags ts)))) ++ rest) = true ->
  In s (target_group hash repaired c g (Some e)).
Proof. intros hash c g e tss ts s rest. exact (range_candidates_consulted_proof hash repaired c g e tss ts s rest eq_refl). Qed.
Print Assumptions range_candidates_consulted.

(* Hint queries (full_series), hash sharding, repaired key construction (the measurement's shard-key tags are selected from
   the single tag set, no pruning if one is not bound): the shard of every row satisfying the condition is consulted. A
   measurement without a shard key hashes name + all tags: sound when the tag set is the row's full tag set, which is what
   the hint asserts. *)
Theorem C11_hint_prune_sound : forall (hash : str -> N) c g cond p s,
  c_typ c = Hash -> wf_group c g -> wf_point p ->
  (c_sk c = [] -> match cond with
                  | Some e => forall ts, cond_tags repaired (c_tagkeys c) e = Some [ts] -> sort_tags ts = p_tags p
                  | None => True end) ->
  route_in hash c g p = Some s -> eval_cond c cond p = true ->
  In s (target_hint hash true repaired c g cond).
Proof.
  intros hash c g cond p s.
  exact (hint_prune_sound_proof hash repaired c g cond p s eq_refl (or_introl eq_refl)).
Qed.
Print Assumptions C11_hint_prune_sound.

(* Hint queries, hash AND range sharding, full_series AND specific_series, with the range repair (the key is looked up by
   key range when the measurement is range-sharded, as the write path does): the shard of every row the hinted query
   promises to return is consulted. *)
Theorem C11_hint_kind_prune_sound : forall (hash : str -> N) c g cond p s specific,
  wf_group c g -> wf_point p ->
  (c_sk c = [] -> match cond with
                  | Some e => forall ts, cond_tags repaired (c_tagkeys c) e = Some [ts] -> sort_tags ts = p_tags p
                  | None => True end) ->
  route_in hash c g p = Some s -> eval_cond c cond p = true ->
  In s (target_hint_kind hash specific true repaired c g cond).
Proof.
  intros hash c g cond p s specific.
  exact (hint_kind_sound_proof hash repaired c g cond p s specific eq_refl (or_introl eq_refl)).
Qed.
Print Assumptions C11_hint_kind_prune_sound.

(* Column-store rows (UnmarshalShardKeyByField), rows with a column index (UnmarshalShardKeyByTagOp), stream results
   (UnmarshalShardKeyByDimOrTag): for a non-empty key each of them selects exactly the key's columns, in key order, each from
   the row's tags or fields - whatever the order of the row's tags. *)
Theorem builders_select_the_key_columns : forall b sk r ps, sk <> [] -> build_key b sk r = Some ps ->
  map fst ps = sk /\ forall x, In x ps -> In x (x_tags r) \/ In x (x_fields r).
Proof. exact build_key_spec. Qed.

(* WRITE-SIDE KEY = READ-SIDE KEY for any such selection ps: from a tag set ts of the condition that names schema tags only and
   that the row satisfies, the read side builds a PREFIX of ps, and ps itself when every key column is bound; key columns that
   are not tags of the row are not tags of the schema (so the condition cannot bind them and no shard is selected by hash). *)
Theorem builder_key_agrees : forall (tagkeys sk : list str) (tags ps ts : tagset),
  NoDup (map fst tags) -> map fst ps = sk ->
  (forall x, In x ps -> In x tags \/ mem_str (fst x) tagkeys = false) ->
  (forall x, In x ts -> mem_str (fst x) tagkeys = true) ->
  (forall k v, In (k, v) ts -> tag_val tags k = v) ->
  exists m, fst (sel_keys sk (sort_tags ts)) = firstn m ps /\
            (snd (sel_keys sk (sort_tags ts)) = true -> fst (sel_keys sk (sort_tags ts)) = ps).
Proof. exact builder_key_agrees_proof. Qed.
Print Assumptions builder_key_agrees.

(* ... hence pruning (repaired reading) consults the shard of every row routed through one of these builders that satisfies the
   query: hash and range sharding, any key, any row whose fields are not schema tags. *)
Theorem C11_builders_prune_sound : forall (hash : str -> N) b c g cond r p s,
  wf_group c g -> wf_point p -> p_tags p = x_tags r ->
  (forall x, In x (x_fields r) -> mem_str (fst x) (c_tagkeys c) = false) ->
  route_in_x hash b c g r = Some s -> eval_cond c cond p = true ->
  In s (target_group hash repaired c g cond).
Proof.
  intros hash b c g cond r p s.
  exact (builders_prune_sound_proof hash repaired b c g cond r p s eq_refl eq_refl (or_introl eq_refl)).
Qed.
Print Assumptions C11_builders_prune_sound.

(* Stream destinations placed with the SOURCE row's key bytes (routeAndCalculateStreamRows cases 2 and 3, hash sharding): pruning
   on the destination finds the result row if the destination has no key in force, or has the SAME key in force as the source and
   the result row carries the same key pairs. (Another key on the destination: Refuted.C11_stream_reuse_other_key_refuted.) *)
Theorem stream_reuse_prune_sound : forall (hash : str -> N) csrc cdst g cond psrc pdst s,
  c_typ cdst = Hash -> wf_group cdst g -> wf_point pdst ->
  (c_sk cdst = [] \/ (c_sk csrc = c_sk cdst /\ wkey cdst pdst = wkey csrc psrc)) ->
  route_reuse hash csrc cdst g psrc = Some s -> eval_cond cdst cond pdst = true ->
  In s (target_group hash repaired cdst g cond).
Proof.
  intros hash csrc cdst g cond psrc pdst s.
  exact (stream_reuse_prune_sound_proof hash repaired csrc cdst g cond psrc pdst s eq_refl eq_refl (or_introl eq_refl)).
Qed.
Print Assumptions stream_reuse_prune_sound.

(* The alive shard list (GetAliveShards) is evaluated when a row is written (list aw) and again when a query runs (list ar).
   1. Hash sharding consults only shards that are alive when the query runs: if the owner of a row is offline then, it is
      not consulted - the shard at position (hash mod |ar|) of the read-time list is. *)
Theorem consulted_are_alive : forall (hash : str -> N) v c g cond s,
  c_typ c = Hash -> wf_group c g -> In s (target_group hash v c g cond) -> In s (all_alive g).
Proof.
  intros hash v c g cond s Ht Hwf. unfold target_group.
  destruct (c_sk c); [auto|]. destruct cond as [e|]; [|auto].
  destruct (cond_tags v (c_tagkeys c) e) as [tss|]; [|auto].
  destruct (tloop hash v c g (c_mst c) tss) as [res|] eqn:El; [|auto].
  intros Hin. eapply tloop_hash_sub; eauto.
Qed.
(* 2. Pruning finds every matching row as long as the index list hashed over is the same at write and at read time (always
      under range sharding; under hash sharding e.g. a measurement with its own shard list, or no change of partition
      status). When the list changed, the code (not repaired in /repo) can skip an ONLINE shard that holds a match:
      Refuted.C11_alive_set_change_refuted. *)
Theorem prune_sound_alive_change : forall (hash : str -> N) c cond p g aw ar s,
  wf_group c (set_alive g ar) -> wf_point p ->
  (c_typ c = Range \/ eff_idx c (set_alive g aw) = eff_idx c (set_alive g ar)) ->
  route_in hash c (set_alive g aw) p = Some s -> eval_cond c cond p = true ->
  In s (target_group hash repaired c (set_alive g ar) cond).
Proof.
  intros hash c cond p g aw ar s.
  exact (prune_sound_alive_change_proof hash repaired c cond p g aw ar s eq_refl eq_refl (or_introl eq_refl)).
Qed.
Print Assumptions prune_sound_alive_change.

(* 3. Hard-write (writes hash over every shard of the group): with the read side repaired to look the key up in that same
      list and then keep the alive shards (target_group_hw, props/C11/fix5.patch), a row whose own shard is alive when the query
      runs is found - for EVERY alive list at query time: other partitions going offline or coming back cannot hide it. *)
Theorem hard_write_prune_sound : forall (hash : str -> N) c cond p g s,
  wf_group c (set_alive g (full_list g)) -> wf_point p ->
  route_in hash c (set_alive g (full_list g)) p = Some s -> In s (all_alive g) -> eval_cond c cond p = true ->
  In s (target_group_hw hash repaired c g cond) /\ (forall s', In s' (target_group_hw hash repaired c g cond) -> is_alive_b g s' = true).
Proof.
  intros hash c cond p g s Hwf Hwp Hr Hal Hev. split.
  - exact (hard_write_prune_sound_proof hash repaired c cond p g s eq_refl eq_refl (or_introl eq_refl) Hwf Hwp Hr Hal Hev).
  - intros s'. apply target_group_hw_alive.
Qed.
Print Assumptions hard_write_prune_sound.

Definition B (l : list N) : str := l.
Definition s_host : str := [104; 111; 115; 116]%N.
Definition s_dc : str := [100; 99]%N.
Definition s_cpu : str := [99; 112; 117; 95; 48; 48; 48; 48]%N.
Definition mk_shards (n : nat) : list shard := map (fun i => {| s_id := N.of_nat (S i); s_min := []; s_max := [] |}) (seq 0 n).
Definition ex_group : group :=
  {| g_id := 1%N; g_start := 1699999200000000000; g_end := 1700002800000000000; g_deleted := false; g_trunc := None;
     g_shards := mk_shards 8; g_alive := seq 0 8 |}.
Definition ex_cfg : cfg :=
  {| c_mst := s_cpu; c_tagkeys := [s_dc; s_host]; c_sk := [s_host]; c_typ := Hash; c_dur := 3600000000000; c_groups := [ex_group]; c_mstidx := None |}.
Definition ex_point (v : N) (other : bool) : point :=
  {| p_tags := [(s_host, [v])]; p_time := 1699999200000000003; p_leaf := fun _ => other |}.
(* host = 'a' OR usage > 1 *)
Definition ex_cond : expr := EOr (EEq 0%N s_host [97%N]) (EOther 1%N).

(* The witnesses below and in Refuted.v are evaluated with the repository's hash.  The XXH64 values they need are
   established once here; xxh_compute F evaluates a goal up to the hash, takes the value from the fact F and finishes. *)
Lemma xxh_host_d : xxh64 [104; 111; 115; 116; 61; 100]%N = 3735182858514498099%N. Proof. vm_compute. reflexivity. Qed.
Lemma xxh_host_a : xxh64 [104; 111; 115; 116; 61; 97]%N = 13533173056147305428%N. Proof. vm_compute. reflexivity. Qed.
Lemma xxh_host_b : xxh64 [104; 111; 115; 116; 61; 98]%N = 3209000102525319180%N. Proof. vm_compute. reflexivity. Qed.
Lemma xxh_host_a_host_b : xxh64 [104; 111; 115; 116; 61; 97; 44; 104; 111; 115; 116; 61; 98]%N = 14798966147256353123%N. Proof. vm_compute. reflexivity. Qed.
Lemma xxh_host_h0 : xxh64 [104; 111; 115; 116; 61; 104; 48]%N = 1501035155778053096%N. Proof. vm_compute. reflexivity. Qed.
Lemma xxh_host_h1 : xxh64 [104; 111; 115; 116; 61; 104; 49]%N = 9855875030002944641%N. Proof. vm_compute. reflexivity. Qed.
Lemma xxh_host_h2 : xxh64 [104; 111; 115; 116; 61; 104; 50]%N = 3194768307286317618%N. Proof. vm_compute. reflexivity. Qed.
Lemma xxh_host_h4 : xxh64 [104; 111; 115; 116; 61; 104; 52]%N = 8266537573943618054%N. Proof. vm_compute. reflexivity. Qed.
Lemma xxh_dc_1 : xxh64 [100; 99; 61; 49]%N = 15198196694517268184%N. Proof. vm_compute. reflexivity. Qed.
Lemma xxh_dc_1_host_a : xxh64 [100; 99; 61; 49; 44; 104; 111; 115; 116; 61; 97]%N = 1491903700913033681%N. Proof. vm_compute. reflexivity. Qed.
Lemma xxh_dc_3_host_a : xxh64 [100; 99; 61; 51; 44; 104; 111; 115; 116; 61; 97]%N = 737121353865465005%N. Proof. vm_compute. reflexivity. Qed.
Lemma xxh_dc_4_host_a : xxh64 [100; 99; 61; 52; 44; 104; 111; 115; 116; 61; 97]%N = 3439850875689746338%N. Proof. vm_compute. reflexivity. Qed.
Lemma xxh_dc_d2_host_h4 : xxh64 [100; 99; 61; 100; 50; 44; 104; 111; 115; 116; 61; 104; 52]%N = 9466962293849803564%N. Proof. vm_compute. reflexivity. Qed.
Lemma xxh_region_r1 : xxh64 [114; 101; 103; 105; 111; 110; 61; 114; 49]%N = 4482842181882739563%N. Proof. vm_compute. reflexivity. Qed.
Lemma xxh_region_r3 : xxh64 [114; 101; 103; 105; 111; 110; 61; 114; 51]%N = 14487823942969005014%N. Proof. vm_compute. reflexivity. Qed.
Ltac xxh_compute F := lazy -[N.modulo xxh64]; rewrite F; vm_compute.

Example ex_wf : wf_cfg ex_cfg /\ wf_point (ex_point 100 true).
Proof.
  split.
  - unfold wf_cfg. simpl. constructor; [|constructor]. unfold wf_group. simpl. apply incl_refl.
  - unfold wf_point. simpl. constructor; [intros []|constructor].
Qed.

(* host=d is stored in shard 4 (as on the real code), satisfies the condition through the field comparison, and the
   repaired read path consults all eight shards *)
Example ex_routed_and_found :
  option_map (fun gs => (g_id (fst gs), s_id (snd gs))) (route xxh64 ex_cfg (ex_point 100 true)) = Some (1%N, 4%N) /\
  eval_cond ex_cfg (Some ex_cond) (ex_point 100 true) = true /\
  target xxh64 repaired ex_cfg 0 max_nano (Some ex_cond) = map (fun i => (1%N, N.of_nat (S i))) (seq 0 8).
Proof. xxh_compute xxh_host_d. repeat split. Qed.

(* pruning does happen under the repaired reading: host = 'a' alone consults one shard, and it is the one host=a is in *)
Example ex_pruned :
  target xxh64 repaired ex_cfg 0 max_nano (Some (EEq 0%N s_host [97%N])) = [(1%N, 5%N)] /\
  option_map (fun gs => s_id (snd gs)) (route xxh64 ex_cfg (ex_point 97 false)) = Some 5%N.
Proof. xxh_compute xxh_host_a. split; reflexivity. Qed.

(* Go's Truncate is anchored at year 1: a 7-day group containing 2023-11-14T22:13:20Z starts on Monday 2023-11-13,
   not on the Thursday an epoch-anchored truncation would give *)
Example ex_week_anchor :
  span_of 1700000000000000000 604800000000000 = (1699833600000000000, 1700438400000000000) /\
  1700000000000000000 - 1700000000000000000 mod 604800000000000 = 1699488000000000000.
Proof. vm_compute. split; reflexivity. Qed.

(* the hypotheses of route_total hold for the example catalogue and row, and the route is the observed one *)
Example ex_route_total_hyps :
  0 < c_dur ex_cfg /\ keys_sorted (map fst (p_tags (ex_point 100 true))) /\ keys_sorted (c_sk ex_cfg) /\
  (forall g, In g (c_groups (ensure_group ex_cfg (p_time (ex_point 100 true)) 2%N (mk_shards 8) (seq 0 8))) -> wf_route ex_cfg g).
Proof.
  split; [reflexivity|]. split; [repeat constructor|]. split; [repeat constructor|].
  intros g [<-|[]]. unfold wf_route. simpl. split; [discriminate|]. repeat constructor.
Qed.

(* range sharding after re-sharding at the shard keys of host=h2 and host=h5: the split points are non-empty and strictly
   increasing, the three shards tile the key space, the series host=h2 - whose key EQUALS the first split point - is
   stored in the shard that starts there (shard 3), and the query host='h2' consults exactly that shard *)
Definition s_k (v : N) : str := s_cpu ++ [44; 104; 111; 115; 116; 61; 104; v]%N.     (* "cpu_0000,host=h<v>" *)
Definition ex_rgroup : group :=
  {| g_id := 2%N; g_start := 1700001000000000001; g_end := 1700002800000000000; g_deleted := false; g_trunc := None;
     g_shards := [ {| s_id := 2%N; s_min := []; s_max := s_k 50 |}; {| s_id := 3%N; s_min := s_k 50; s_max := s_k 53 |};
                   {| s_id := 4%N; s_min := s_k 53; s_max := [] |} ];
     g_alive := seq 0 3 |}.
Definition ex_rcfg : cfg :=
  {| c_mst := s_cpu; c_tagkeys := [s_dc; s_host]; c_sk := [s_host]; c_typ := Range; c_dur := 3600000000000;
     c_groups := [ex_rgroup]; c_mstidx := None |}.
Example ex_range_split_point :
  bounds_sorted [] [s_k 50; s_k 53] /\ shard_ranges ex_rgroup = ranges_of [] [s_k 50; s_k 53] /\
  range_chain [] (g_shards ex_rgroup) /\
  option_map s_id (dest_shard (s_k 50) ex_rgroup) = Some 3%N /\
  map s_id (target_group xxh64 repaired ex_rcfg ex_rgroup (Some (EEq 0%N s_host [104; 50]%N))) = [3%N] /\
  map s_id (target_group xxh64 repaired ex_rcfg ex_rgroup (Some (EEq 0%N s_dc [100]%N))) = [2%N; 3%N; 4%N].
Proof.
  assert (Hb : bounds_sorted [] [s_k 50; s_k 53]) by (simpl; repeat split; vm_compute; reflexivity).
  split; [exact Hb|]. split; [reflexivity|]. split; [exact (range_chain_resharded ex_rgroup _ Hb eq_refl)|].
  vm_compute. repeat split.
Qed.

(* a stream result row with its tags in dimension order (host before dc), key (dc, host): the builder selects dc then host, the
   route is the one of the sorted row, and the query dc='1' AND host='a' consults exactly that shard *)
Definition ex_xrow : xrow :=
  {| x_tags := [(s_host, [97%N]); (s_dc, [49%N])]; x_fields := []; x_cols := [(s_host, 0%nat); (s_dc, 1%nat)] |}.
Definition ex_cfg_dh2 : cfg :=
  {| c_mst := s_cpu; c_tagkeys := [s_dc; s_host]; c_sk := [s_dc; s_host]; c_typ := Hash; c_dur := 3600000000000; c_groups := [ex_group]; c_mstidx := None |}.
Example ex_builder_unsorted_row :
  build_key (BDim [s_host; s_dc]) (c_sk ex_cfg_dh2) ex_xrow = Some [(s_dc, [49%N]); (s_host, [97%N])] /\
  NoDup (map fst (x_tags ex_xrow)) /\
  route_in_x xxh64 (BDim [s_host; s_dc]) ex_cfg_dh2 ex_group ex_xrow =
    route_in xxh64 ex_cfg_dh2 ex_group {| p_tags := [(s_dc, [49%N]); (s_host, [97%N])]; p_time := 0; p_leaf := fun _ => false |} /\
  option_map (fun s => [s_id s]) (route_in_x xxh64 (BDim [s_host; s_dc]) ex_cfg_dh2 ex_group ex_xrow) =
    Some (map s_id (target_group xxh64 repaired ex_cfg_dh2 ex_group (Some (EAnd (EEq 0%N s_dc [49%N]) (EEq 1%N s_host [97%N]))))).
Proof.
  split; [vm_compute; reflexivity|]. split.
  - simpl. constructor; [intros [H|[]]; discriminate|constructor; [intros []|constructor]].
  - split; xxh_compute xxh_dc_1_host_a; reflexivity.
Qed.
