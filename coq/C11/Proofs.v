(* C11: the order on byte strings and sorted rows; existence and uniqueness of the route; the write-side key against the
   read-side key (read_key_prefix); getConditionTags (cond_tags_sound); and, for every hash (Section Loop), the TargetShards
   loop, placement (place), soundness of pruning (target_group_key_sound), hint queries, and the batch bookkeeping. *)
From Coq Require Import ZArith NArith List Bool Lia Sorting.Sorted.
From OG Require Import C11.Model C11.ProofsSpan.
Import ListNotations.

(* the index list hashed over is part of what "all shards" means on the read side.  Range sharding: DestShard places a row
   without looking at the alive list while the read side returns alive shards only, so the theorems ask that every shard
   of the group is alive *)
Definition wf_group (c : cfg) (g : group) : Prop :=
  match c_typ c with
  | Hash => incl (eff_idx c g) (g_alive g)
  | Range => forall i, (i < length (g_shards g))%nat -> In i (g_alive g)
  end.
Definition wf_cfg (c : cfg) : Prop := Forall (wf_group c) (c_groups c).
(* what the line-protocol parser guarantees together with the duplicate check of the write path *)
Definition wf_point (p : point) : Prop := NoDup (map fst (p_tags p)).

Lemma str_eqb_eq : forall a b, str_eqb a b = true <-> a = b.
Proof.
  induction a as [|x a IH]; destruct b as [|y b]; simpl; try (split; congruence).
  rewrite andb_true_iff, N.eqb_eq, IH. split.
  - intros [-> ->]; reflexivity.
  - intros H; inversion H; auto.
Qed.

Lemma str_eqb_refl : forall a, str_eqb a a = true.
Proof. intros; apply str_eqb_eq; reflexivity. Qed.

Lemma leb_prefix : forall P R m, str_leb m (P ++ R) = true ->
  if (length P <? length m)%nat then str_leb (firstn (length P) m) P = true else str_leb m P = true.
Proof.
  induction P as [|a P IH]; intros R m H; destruct m as [|x m].
  - reflexivity.
  - reflexivity.
  - reflexivity.
  - change (length (a :: P) <? length (x :: m))%nat with (length P <? length m)%nat.
    specialize (IH R m). unfold str_leb in *. simpl in H.
    destruct (N.compare x a) eqn:C; try discriminate.
    + specialize (IH H). destruct (length P <? length m)%nat; simpl; rewrite C; exact IH.
    + destruct (length P <? length m)%nat; simpl; rewrite C; reflexivity.
Qed.

Lemma ltb_prefix : forall P R mx, str_ltb (P ++ R) mx = true -> str_ltb P mx = true.
Proof.
  induction P as [|a P IH]; intros R mx H; destruct mx as [|y mx]; unfold str_ltb in *; simpl in *.
  - destruct R; simpl in H; discriminate.
  - reflexivity.
  - discriminate.
  - destruct (N.compare a y); try discriminate; auto. eapply IH; eauto.
Qed.

Lemma contain_prefix_of : forall s P R, contain s (P ++ R) = true -> contain_prefix s P = true.
Proof.
  intros s P R. unfold contain, contain_prefix. rewrite !andb_true_iff. intros [H1 H2]. split.
  - pose proof (leb_prefix P R _ H1) as H. destruct (length P <? length (s_min s))%nat; auto.
    rewrite H. apply orb_true_r.
  - apply orb_true_iff in H2 as [H2|H2].
    + rewrite H2; reflexivity.
    + rewrite (ltb_prefix _ _ _ H2). apply orb_true_r.
Qed.


Lemma str_cmp_refl : forall a, str_cmp a a = Eq.
Proof. induction a as [|x a IH]; simpl; auto. rewrite N.compare_refl. exact IH. Qed.

Lemma str_cmp_eq : forall a b, str_cmp a b = Eq -> a = b.
Proof.
  induction a as [|x a IH]; destruct b as [|y b]; simpl; intros H; try discriminate; auto.
  destruct (N.compare x y) eqn:C; try discriminate. apply N.compare_eq in C. subst. f_equal. auto.
Qed.

Lemma str_cmp_antisym : forall a b, str_cmp b a = CompOpp (str_cmp a b).
Proof.
  induction a as [|x a IH]; destruct b as [|y b]; simpl; auto.
  rewrite (N.compare_antisym x y). destruct (N.compare x y); simpl; auto.
Qed.

Lemma str_cmp_lt_trans : forall a b c, str_cmp a b = Lt -> str_cmp b c = Lt -> str_cmp a c = Lt.
Proof.
  induction a as [|x a IH]; destruct b as [|y b]; destruct c as [|z c]; simpl; intros H1 H2; try discriminate; auto.
  destruct (N.compare x y) eqn:C1; destruct (N.compare y z) eqn:C2; try discriminate.
  - apply N.compare_eq in C1. apply N.compare_eq in C2. subst. rewrite N.compare_refl. eapply IH; eauto.
  - apply N.compare_eq in C1. subst. rewrite C2. reflexivity.
  - apply N.compare_eq in C2. subst. rewrite C1. reflexivity.
  - apply N.compare_lt_iff in C1. apply N.compare_lt_iff in C2.
    assert (Hl : (x < z)%N) by (eapply N.lt_trans; eauto). apply N.compare_lt_iff in Hl. rewrite Hl. reflexivity.
Qed.

Definition str_lt (a b : str) : Prop := str_ltb a b = true.
Lemma str_lt_cmp : forall a b, str_lt a b <-> str_cmp a b = Lt.
Proof. intros a b. unfold str_lt, str_ltb. destruct (str_cmp a b); split; intros H; try discriminate; auto. Qed.
Lemma str_lt_trans : forall a b c, str_lt a b -> str_lt b c -> str_lt a c.
Proof. intros a b c H1 H2. apply str_lt_cmp. eapply str_cmp_lt_trans; apply str_lt_cmp; eauto. Qed.
Lemma str_lt_irrefl : forall a, ~ str_lt a a.
Proof. intros a H. apply str_lt_cmp in H. rewrite str_cmp_refl in H. discriminate. Qed.
Lemma str_ltb_false_leb : forall a b, str_ltb a b = false -> str_leb b a = true.
Proof.
  intros a b H. unfold str_ltb in H. unfold str_leb. rewrite (str_cmp_antisym a b).
  destruct (str_cmp a b); simpl; auto; discriminate.
Qed.
Lemma str_lt_neq_eqb : forall a b, str_lt a b -> str_eqb b a = false.
Proof.
  intros a b H. destruct (str_eqb b a) eqn:E; auto. apply str_eqb_eq in E. subst. exfalso. eapply str_lt_irrefl; eauto.
Qed.
Lemma str_lt_asym_ltb : forall a b, str_lt a b -> str_ltb b a = false.
Proof.
  intros a b H. apply str_lt_cmp in H. unfold str_ltb. rewrite (str_cmp_antisym a b), H. reflexivity.
Qed.

(* sorted rows: what the line-protocol parser delivers *)
Definition keys_sorted (l : list str) : Prop := Sorted str_lt l.

Lemma keys_sorted_strong : forall l, keys_sorted l -> StronglySorted str_lt l.
Proof. intros l H. apply Sorted_StronglySorted; auto. intros a b c. apply str_lt_trans. Qed.

Lemma sorted_nodup : forall l, keys_sorted l -> NoDup l.
Proof.
  intros l H. apply keys_sorted_strong in H. induction H as [|a l Hs IH Hf]; constructor; auto.
  intros Hin. rewrite Forall_forall in Hf. eapply str_lt_irrefl. apply Hf. exact Hin.
Qed.

Lemma sorted_no_adj_dup : forall tags, keys_sorted (map fst tags) -> has_adj_dup tags = false.
Proof.
  induction tags as [|a tags IH]; simpl; intros H; auto. destruct tags as [|b tags']; auto.
  simpl in H. inversion H as [|? ? Hs Hh]; subst. inversion Hh; subst.
  rewrite (IH Hs). rewrite orb_false_r. destruct (str_eqb (fst a) (fst b)) eqn:E; auto.
  apply str_eqb_eq in E. rewrite E in H1. exfalso. eapply str_lt_irrefl; eauto.
Qed.

Lemma sel_keys_complete : forall tags sk,
  keys_sorted (map fst tags) -> keys_sorted sk -> (forall k, In k sk -> In k (map fst tags)) ->
  snd (sel_keys sk tags) = true.
Proof.
  intros tags sk Ht Hs. apply keys_sorted_strong in Ht, Hs. revert sk Hs.
  induction tags as [|[tk tv] tags IH]; intros sk Hs Hin; (destruct sk as [|k sk']; [reflexivity|]).
  - destruct (Hin k (or_introl eq_refl)).
  - simpl in Ht. inversion Ht as [|? ? Ht' Hf]; subst. inversion Hs as [|? ? Hs' Hfs]; subst.
    rewrite Forall_forall in Hf, Hfs. simpl. destruct (str_ltb k tk) eqn:El.
    + (* k is below every tag key, yet among them *)
      exfalso. apply (str_lt_irrefl k). destruct (Hin k (or_introl eq_refl)) as [He|Hi]; [now subst|].
      eapply str_lt_trans; [exact El|]. apply Hf. exact Hi.
    + destruct (str_eqb k tk) eqn:Ee.
      * apply str_eqb_eq in Ee. subst tk. simpl. apply IH; auto.
        intros k' Hk'. destruct (Hin k' (or_intror Hk')) as [He|Hi]; auto.
        simpl in He. subst k'. exfalso. eapply str_lt_irrefl. apply Hfs. exact Hk'.
      * apply IH; auto. intros k' Hk'. destruct (Hin k' Hk') as [He|Hi]; auto. simpl in He. subst k'. exfalso.
        (* tk is in sk but k is the least element of sk and k > tk *)
        destruct Hk' as [Hk'|Hk']; [subst; rewrite str_eqb_refl in Ee; discriminate|].
        pose proof (Hfs _ Hk') as Hlt. unfold str_lt in Hlt. congruence.
Qed.


Lemma find_group_spec : forall gs t g, find_group gs t = Some g -> In g gs /\ g_writable g t = true.
Proof.
  unfold find_group. intros gs t g H. apply find_some in H as [H1 H2]. split; auto. apply in_rev; auto.
Qed.

(* key ranges of a range-sharded group: first Min empty, last Max empty, adjacent shards share the bound *)
Fixpoint covers_from (lo : str) (shards : list shard) : Prop :=
  match shards with
  | [] => False
  | s :: rest => s_min s = lo /\ match rest with
                                | [] => s_max s = []
                                | _ => s_max s <> [] /\ covers_from (s_max s) rest
                                end
  end.
Definition wf_route (c : cfg) (g : group) : Prop :=
  match c_typ c with
  | Hash => eff_idx c g <> [] /\ Forall (fun i => (i < length (g_shards g))%nat) (eff_idx c g)
  | Range => covers_from [] (g_shards g)
  end.

Lemma find_exists : forall {A} (f : A -> bool) l, (exists x, In x l /\ f x = true) -> exists y, find f l = Some y.
Proof.
  induction l as [|a l IH]; intros [x [Hin Hf]]; [contradiction|]. simpl. destruct (f a) eqn:E; eauto.
  destruct Hin as [->|Hin]; [congruence|]. apply IH. eauto.
Qed.

Lemma covers_contains : forall shards lo key, covers_from lo shards -> str_leb lo key = true ->
  exists s, In s shards /\ contain s key = true.
Proof.
  induction shards as [|s rest IH]; intros lo key Hc Hl; [contradiction|]. destruct Hc as [Hmin Hrest].
  destruct rest as [|s' rest'].
  - exists s. split; [left; reflexivity|]. unfold contain. rewrite Hmin, Hl, Hrest. reflexivity.
  - destruct Hrest as [Hne Hcov]. destruct (str_ltb key (s_max s)) eqn:E.
    + exists s. split; [left; reflexivity|]. unfold contain. rewrite Hmin, Hl, E. apply orb_true_r.
    + destruct (IH (s_max s) key Hcov (str_ltb_false_leb _ _ E)) as [x [Hx Hcx]]. exists x. split; [right; exact Hx|exact Hcx].
Qed.

Lemma shard_for_total : forall c h g, eff_idx c g <> [] ->
  Forall (fun i => (i < length (g_shards g))%nat) (eff_idx c g) -> exists s, shard_for c h g = Some s.
Proof.
  intros c h g Hne Hf. unfold shard_for. destruct (eff_idx c g) as [|i0 idx] eqn:E; [congruence|].
  set (n := length (i0 :: idx)).
  assert (Hlt : (N.to_nat (h mod N.of_nat n) < n)%nat).
  { assert (Hn : N.of_nat n <> 0%N) by (unfold n; simpl; lia).
    pose proof (N.mod_lt h (N.of_nat n) Hn). lia. }
  destruct (nth_error (i0 :: idx) (N.to_nat (h mod N.of_nat n))) as [i|] eqn:En.
  - rewrite Forall_forall in Hf. assert (Hi : (i < length (g_shards g))%nat) by (apply Hf; eapply nth_error_In; eauto).
    apply nth_error_Some in Hi. destruct (nth_error (g_shards g) i); [eauto|congruence].
  - apply nth_error_None in En. fold n in En. lia.
Qed.

Lemma ensure_group_finds : forall c t gid shards alive, (0 < c_dur c)%Z -> (t <= max_nano)%Z ->
  exists g, find_group (c_groups (ensure_group c t gid shards alive)) t = Some g /\ g_writable g t = true.
Proof.
  intros c t gid shards alive Hd Ht. unfold ensure_group.
  destruct (find_group (c_groups c) t) as [g|] eqn:Ef.
  - exists g. split; auto. apply find_group_spec in Ef. apply Ef.
  - simpl. exists (new_group gid t (c_dur c) shards alive). unfold find_group. rewrite rev_app_distr. simpl.
    assert (Hw : g_writable (new_group gid t (c_dur c) shards alive) t = true).
    { unfold g_writable, g_contains, new_group. cbn [g_start g_end g_deleted g_trunc]. pose proof (span_covers t (c_dur c) Hd Ht) as [H1 H2].
      apply Z.leb_le in H1. apply Z.ltb_lt in H2. rewrite H1, H2. reflexivity. }
    rewrite Hw. auto.
Qed.

Lemma wkey_total : forall c p,
  keys_sorted (map fst (p_tags p)) -> keys_sorted (c_sk c) -> (forall k, In k (c_sk c) -> In k (map fst (p_tags p))) ->
  exists ps, wkey c p = Some ps.
Proof.
  intros c p Ht Hs Hin. unfold wkey. rewrite (sorted_no_adj_dup _ Ht).
  destruct (c_sk c) as [|k sk] eqn:E; [eauto|]. rewrite (sel_keys_complete _ (k :: sk) Ht Hs Hin). eauto.
Qed.

Lemma tag_val_in : forall tags k v, NoDup (map fst tags) -> In (k, v) tags -> tag_val tags k = v.
Proof.
  induction tags as [|[k' v'] r IH]; simpl; intros k v ND HI; [contradiction|].
  inversion ND as [|? ? Hn ND']; subst. unfold tag_val; simpl.
  destruct (str_eqb k' k) eqn:E.
  - apply str_eqb_eq in E; subst. destruct HI as [H|H]; [inversion H; auto|].
    exfalso; apply Hn. change k with (fst (k, v)). apply in_map; exact H.
  - destruct HI as [H|H].
    + inversion H; subst. rewrite str_eqb_refl in E; discriminate.
    + apply IH; auto.
Qed.

Lemma sel_keys_spec : forall tags sk,
  exists m, map fst (fst (sel_keys sk tags)) = firstn m sk /\ incl (fst (sel_keys sk tags)) tags /\
            (snd (sel_keys sk tags) = true -> map fst (fst (sel_keys sk tags)) = sk).
Proof.
  induction tags as [|[tk tv] tags IH]; intros sk; simpl.
  - exists O; simpl. split; [reflexivity|]. split; [apply incl_refl|]. destruct sk; simpl; [auto|discriminate].
  - destruct sk as [|k sk'].
    + exists O; simpl. split; [reflexivity|]. split; [intros x []|auto].
    + destruct (str_ltb k tk).
      * exists O; simpl. split; [reflexivity|]. split; [intros x []|discriminate].
      * destruct (str_eqb k tk) eqn:E.
        -- apply str_eqb_eq in E; subst. destruct (IH sk') as [m [H1 [H2 H3]]]. exists (S m); simpl.
           split; [rewrite H1; reflexivity|]. split.
           ++ intros x [Hx|Hx]; [left; auto|right; apply H2; auto].
           ++ intros Hs. rewrite (H3 Hs); reflexivity.
        -- destruct (IH (k :: sk')) as [m [H1 [H2 H3]]]. exists m. split; [exact H1|]. split; [|exact H3].
           apply incl_tl; exact H2.
Qed.

Lemma pairs_determined : forall (f : str -> str) (a b : tagset),
  map fst a = map fst b -> (forall x, In x a -> snd x = f (fst x)) -> (forall x, In x b -> snd x = f (fst x)) -> a = b.
Proof.
  induction a as [|[k v] a IH]; destruct b as [|[k' v'] b]; simpl; intros H Ha Hb; try discriminate; auto.
  inversion H; subst. f_equal.
  - pose proof (Ha (k', v) (or_introl eq_refl)) as E1. pose proof (Hb (k', v') (or_introl eq_refl)) as E2.
    simpl in *. congruence.
  - apply IH; auto.
Qed.

Lemma ins_tag_in : forall x y l, In x (ins_tag y l) -> x = y \/ In x l.
Proof.
  induction l as [|z l IH]; simpl; intros H.
  - destruct H as [H|[]]; auto.
  - destruct (str_ltb (fst z) (fst y)).
    + destruct H as [H|H]; [right; left; auto|]. destruct (IH H) as [H'|H']; [left; auto|right; right; auto].
    + destruct H as [H|H]; auto.
Qed.

Lemma sort_tags_in : forall l x, In x (sort_tags l) -> In x l.
Proof.
  induction l as [|y l IH]; simpl; intros x H; [contradiction|].
  apply ins_tag_in in H. destruct H as [H|H]; [left; auto|right; apply IH; auto].
Qed.

Lemma firstn_In : forall {A} n (l : list A) x, In x (firstn n l) -> In x l.
Proof. induction n as [|n IH]; destruct l as [|y l]; simpl; intros x H; try contradiction. destruct H as [H|H]; [left; auto|right; apply IH; auto]. Qed.

Lemma key_suffix_app : forall a b, key_suffix (a ++ b) = key_suffix a ++ key_suffix b.
Proof. intros; unfold key_suffix. rewrite map_app, concat_app. reflexivity. Qed.

Lemma skipn_S_app : forall (a b : str), skipn (S (length a)) (a ++ b) = tl b.
Proof. induction a as [|x a IH]; intros b; [destruct b; reflexivity|]. simpl length. simpl app. exact (IH b). Qed.

(* ps: the pairs the write side selected for the key sk, one per key column in key order; those whose column a tag set ts
   binds are tags of the row.  If the row satisfies ts (duplicate keys allowed: the merge takes the first value per key) the
   read side builds from ts a PREFIX of ps, and ps itself when every key column is bound. *)
Lemma read_key_prefix : forall sk tags ps ts,
  NoDup (map fst tags) -> map fst ps = sk ->
  (forall x y, In x ps -> In y ts -> fst y = fst x -> In x tags) ->
  (forall k v, In (k, v) ts -> tag_val tags k = v) ->
  exists m, fst (sel_keys sk (sort_tags ts)) = firstn m ps /\
            (snd (sel_keys sk (sort_tags ts)) = true -> fst (sel_keys sk (sort_tags ts)) = ps).
Proof.
  intros sk tags ps ts Hnd Hkeys Hsrc Hsat.
  destruct (sel_keys_spec (sort_tags ts) sk) as [mt [Ht1 [Ht2 Ht3]]].
  set (qs := fst (sel_keys sk (sort_tags ts))) in *.
  assert (Hq : forall x, In x qs -> In x ts /\ snd x = tag_val tags (fst x)).
  { intros [k v] Hx. pose proof (sort_tags_in _ _ (Ht2 _ Hx)) as Hin. split; [exact Hin|]. symmetry. apply Hsat; exact Hin. }
  assert (Hpre : qs = firstn mt ps).
  { apply (pairs_determined (tag_val tags)).
    - rewrite Ht1, <- firstn_map, Hkeys. reflexivity.
    - intros x Hx. apply Hq; exact Hx.
    - intros x Hx.
      assert (Hk : In (fst x) (map fst qs)) by (rewrite Ht1, <- Hkeys, firstn_map; apply in_map; exact Hx).
      apply in_map_iff in Hk as [y [Hy1 Hy2]]. destruct (Hq y Hy2) as [Hy _].
      pose proof (Hsrc x y (firstn_In _ _ _ Hx) Hy Hy1) as Hin.
      destruct x as [k v]. symmetry. apply tag_val_in; auto. }
  exists mt. split; [exact Hpre|]. intros Hc. rewrite Hpre.
  assert (Hlen : length qs = length ps) by (rewrite <- (map_length fst qs), (Ht3 Hc), <- Hkeys, map_length; reflexivity).
  rewrite Hpre, firstn_length in Hlen. apply firstn_all2. lia.
Qed.

Theorem sel_keys_agree_proof : forall sk tags ts,
  NoDup (map fst tags) -> snd (sel_keys sk tags) = true ->
  (forall k v, In (k, v) ts -> tag_val tags k = v) ->
  exists m, fst (sel_keys sk (sort_tags ts)) = firstn m (fst (sel_keys sk tags)) /\
            (snd (sel_keys sk (sort_tags ts)) = true -> fst (sel_keys sk (sort_tags ts)) = fst (sel_keys sk tags)).
Proof.
  intros sk tags ts Hnd Hok Hsat. destruct (sel_keys_spec tags sk) as [_ [_ [Hin Hfull]]].
  apply (read_key_prefix sk tags); auto.
Qed.

Definition sat_ts (p : point) (ts : tagset) : Prop := forall k v, In (k, v) ts -> tag_val (p_tags p) k = v.

Lemma sat_ts_app : forall p a b, sat_ts p a -> sat_ts p b -> sat_ts p (a ++ b).
Proof. intros p a b Ha Hb k v H. apply in_app_or in H as [H|H]; auto. Qed.

(* a condition as the InfluxQL grammar produces it: OR binds weaker than AND, so an AND node never has an OR operand
   (a parenthesised one is an EParen); and_pure = no OR reachable without crossing parentheses *)
Fixpoint and_pure (e : expr) : Prop :=
  match e with EOr _ _ => False | EAnd a b => and_pure a /\ and_pure b | _ => True end.
Fixpoint parser_image (e : expr) : Prop :=
  match e with EOr a b => parser_image a /\ parser_image b | EAnd a b => and_pure a /\ and_pure b | _ => True end.

(* the AND of getConditionTags is sound when repaired, or when the condition is one the InfluxQL grammar produces *)
Definition and_ok (v : variant) (cond : option expr) : Prop :=
  v_and v = true \/ match cond with Some e => parser_image e | None => True end.

(* what the full_series hint asserts where there is no shard key: the single tag set of the condition is the row's tag set *)
Definition hint_full (v : variant) (c : cfg) (cond : option expr) (p : point) : Prop :=
  c_sk c = [] -> match cond with
                 | Some e => forall ts, cond_tags v (c_tagkeys c) e = Some [ts] -> sort_tags ts = p_tags p
                 | None => True end.

Lemma and_pure_parser_image : forall e, and_pure e -> parser_image e.
Proof. induction e; simpl; intros H; auto. contradiction. Qed.

Lemma and_pure_single : forall v tagkeys e tss, and_pure e -> cond_tags v tagkeys e = Some tss -> exists ts, tss = [ts].
Proof.
  induction e as [id k val|id|a IHa b IHb|a IHa b IHb|a IHa]; simpl; intros tss Hp H; try discriminate; try contradiction.
  - destruct (is_time_name k); try discriminate. destruct (mem_str k tagkeys); try discriminate.
    inversion H; eauto.
  - destruct Hp as [Hpa Hpb].
    destruct (cond_tags v tagkeys a) as [ls|] eqn:Ea; destruct (cond_tags v tagkeys b) as [rs|] eqn:Eb.
    + destruct (IHa _ Hpa eq_refl) as [l ->]. destruct (IHb _ Hpb eq_refl) as [r ->].
      destruct (v_and v); inversion H; simpl; eauto.
    + inversion H; subst. eauto.
    + eauto.
    + discriminate.
Qed.

Lemma cond_tags_sound : forall v tagkeys p e tss,
  v_or v = true -> (v_and v = true \/ parser_image e) ->
  cond_tags v tagkeys e = Some tss -> eval_expr tagkeys p e = true ->
  exists ts, In ts tss /\ sat_ts p ts.
Proof.
  intros v tagkeys p. induction e as [id k val|id|a IHa b IHb|a IHa b IHb|a IHa]; simpl; intros tss Hor Hok H Hev; try discriminate.
  - destruct (is_time_name k); try discriminate. destruct (mem_str k tagkeys) eqn:M; try discriminate.
    inversion H; subst. apply str_eqb_eq in Hev.
    exists [(k, val)]. split; [left; reflexivity|]. intros k' v' [Heq|[]]. inversion Heq; subst; auto.
  - apply andb_true_iff in Hev as [Hea Heb].
    assert (Hoka : v_and v = true \/ parser_image a).
    { destruct Hok as [Hok|[Hpa _]]; [left; auto|right; apply and_pure_parser_image; auto]. }
    assert (Hokb : v_and v = true \/ parser_image b).
    { destruct Hok as [Hok|[_ Hpb]]; [left; auto|right; apply and_pure_parser_image; auto]. }
    destruct (cond_tags v tagkeys a) as [ls|] eqn:Ea; destruct (cond_tags v tagkeys b) as [rs|] eqn:Eb.
    + destruct (IHa _ Hor Hoka eq_refl Hea) as [l [Hl Hsl]]. destruct (IHb _ Hor Hokb eq_refl Heb) as [r [Hr Hsr]].
      destruct (v_and v) eqn:Va.
      * inversion H; subst. exists (l ++ r). split; [|apply sat_ts_app; auto].
        apply in_flat_map. exists l. split; auto. apply in_map; auto.
      * (* every alternative of b goes into each set of a: sound because an and_pure b has a single alternative *)
        destruct Hok as [Hok|[_ Hpb]]; [discriminate|].
        destruct (and_pure_single _ _ _ _ Hpb Eb) as [r0 ->]. destruct Hr as [<-|[]]. inversion H; subst.
        exists (l ++ concat [r0]). split; [apply (in_map (fun l => l ++ concat [r0])); exact Hl|].
        simpl. rewrite app_nil_r. apply sat_ts_app; auto.
    + inversion H; subst. eapply IHa; eauto.
    + eapply IHb; eauto.
    + discriminate.
  - assert (Hoka : v_and v = true \/ parser_image a) by (destruct Hok as [Hok|[Hpa _]]; auto).
    assert (Hokb : v_and v = true \/ parser_image b) by (destruct Hok as [Hok|[_ Hpb]]; auto).
    rewrite Hor in H.
    destruct (cond_tags v tagkeys a) as [ls|] eqn:Ea; destruct (cond_tags v tagkeys b) as [rs|] eqn:Eb; try discriminate.
    inversion H; subst. apply orb_true_iff in Hev as [Hev|Hev].
    + destruct (IHa _ Hor Hoka eq_refl Hev) as [l [Hl Hsl]]. exists l. split; auto. apply in_or_app; auto.
    + destruct (IHb _ Hor Hokb eq_refl Hev) as [r [Hr Hsr]]. exists r. split; auto. apply in_or_app; auto.
Qed.

Lemma cond_tags_keys : forall v tagkeys e tss, cond_tags v tagkeys e = Some tss ->
  forall ts x, In ts tss -> In x ts -> mem_str (fst x) tagkeys = true.
Proof.
  intros v tagkeys. induction e as [id k val|id|a IHa b IHb|a IHa b IHb|a IHa]; intros tss H ts x Hts Hx; simpl in H; try discriminate.
  - destruct (is_time_name k); [discriminate|]. destruct (mem_str k tagkeys) eqn:Em; [|discriminate].
    inversion H; subst. destruct Hts as [<-|[]]. destruct Hx as [<-|[]]. exact Em.
  - destruct (cond_tags v tagkeys a) as [ls|] eqn:Ea; destruct (cond_tags v tagkeys b) as [rs|] eqn:Eb.
    + destruct (v_and v); inversion H; subst; clear H.
      * apply in_flat_map in Hts as [l [Hl Hts]]. apply in_map_iff in Hts as [r [<- Hr]].
        apply in_app_or in Hx as [Hx|Hx]; [eapply IHa; eauto|eapply IHb; eauto].
      * apply in_map_iff in Hts as [l [<- Hl]]. apply in_app_or in Hx as [Hx|Hx]; [eapply IHa; eauto|].
        apply in_concat in Hx as [r [Hr Hx]]. eapply IHb; eauto.
    + inversion H; subst. eapply IHa; eauto.
    + inversion H; subst. eapply IHb; eauto.
    + discriminate.
  - destruct (cond_tags v tagkeys a) as [ls|] eqn:Ea; destruct (cond_tags v tagkeys b) as [rs|] eqn:Eb.
    + inversion H; subst. apply in_app_or in Hts as [Hts|Hts]; [eapply IHa; eauto|eapply IHb; eauto].
    + destruct (v_or v); [discriminate|]. inversion H; subst. eapply IHa; eauto.
    + destruct (v_or v); [discriminate|]. inversion H; subst. eapply IHb; eauto.
    + destruct (v_or v); discriminate.
Qed.


Lemma nth_alive : forall g i s, In i (g_alive g) -> nth_error (g_shards g) i = Some s -> In s (all_alive g).
Proof. intros g i s Hi Hn. unfold all_alive. apply in_flat_map. exists i. split; [exact Hi|]. rewrite Hn. left; reflexivity. Qed.

Lemma range_alive : forall g s,
  (forall i, (i < length (g_shards g))%nat -> In i (g_alive g)) -> In s (g_shards g) -> In s (all_alive g).
Proof.
  intros g s Hwf Hs. destruct (In_nth_error _ _ Hs) as [i Hn]. apply (nth_alive g i); [|exact Hn].
  apply Hwf, nth_error_Some. rewrite Hn; discriminate.
Qed.

Lemma shard_for_spec : forall c h g s, shard_for c h g = Some s ->
  exists i, In i (eff_idx c g) /\ nth_error (g_shards g) i = Some s.
Proof.
  unfold shard_for. intros c h g s H. destruct (eff_idx c g) as [|i0 idx] eqn:E; [discriminate|].
  destruct (nth_error (i0 :: idx) (N.to_nat (h mod N.of_nat (length (i0 :: idx))))) as [i|] eqn:En; [|discriminate].
  exists i. split; auto. eapply nth_error_In; eauto.
Qed.

Lemma shard_for_alive : forall c h g s, incl (eff_idx c g) (g_alive g) -> shard_for c h g = Some s -> In s (all_alive g).
Proof. intros c h g s Hwf H. apply shard_for_spec in H as [i [Hi Hn]]. eapply nth_alive; eauto. Qed.

Section Loop.
Variable hash : str -> N.

Lemma tloop_hash_in : forall v c g, v_reset v = true -> c_typ c = Hash ->
  forall tss acc res ts, tloop hash v c g acc tss = Some res -> In ts tss ->
  snd (sel_keys (c_sk c) (sort_tags ts)) = true /\
  forall s, shard_for c (hash (after_name c (c_mst c ++ key_suffix (fst (sel_keys (c_sk c) (sort_tags ts)))))) g = Some s ->
            In s res.
Proof.
  intros v c g Hr Ht. induction tss as [|t tss IH]; intros acc res ts H Hin; [contradiction|].
  cbn [tloop] in H. rewrite Ht, Hr in H.
  destruct (snd (sel_keys (c_sk c) (sort_tags t))) eqn:Ok; try discriminate.
  destruct (tloop hash v c g (c_mst c ++ key_suffix (fst (sel_keys (c_sk c) (sort_tags t)))) tss) as [res'|] eqn:El; try discriminate.
  injection H as Hres; subst res. destruct Hin as [<-|Hin].
  - split; [exact Ok|]. intros s Hs. rewrite Hs. left; reflexivity.
  - destruct (IH _ _ _ El Hin) as [H1 H2]. split; [exact H1|]. intros s Hs. apply in_or_app; right. apply H2; exact Hs.
Qed.

Lemma tloop_range_in : forall v c g, v_reset v = true -> c_typ c = Range ->
  forall tss acc res ts, tloop hash v c g acc tss = Some res -> In ts tss ->
  forall s, In s (g_shards g) ->
            contain_prefix s (c_mst c ++ key_suffix (fst (sel_keys (c_sk c) (sort_tags ts)))) = true -> In s res.
Proof.
  intros v c g Hr Ht. induction tss as [|t tss IH]; intros acc res ts H Hin s Hs Hc; [contradiction|].
  cbn [tloop] in H. rewrite Ht, Hr in H.
  destruct (tloop hash v c g (c_mst c ++ key_suffix (fst (sel_keys (c_sk c) (sort_tags t)))) tss) as [res'|] eqn:El; try discriminate.
  injection H as Hres; subst res. destruct Hin as [<-|Hin].
  - apply in_or_app; left. apply filter_In. split; auto.
  - apply in_or_app; right. eapply IH; eauto.
Qed.


(* the shard chosen inside a group for the key pairs ps, whichever builder selected them (updateShardGroupAndShardKey) *)
Definition place (c : cfg) (g : group) (ps : tagset) : option shard :=
  match c_typ c with
  | Range => dest_shard (c_mst c ++ key_suffix ps) g
  | Hash => shard_for c (hash (hash_arg c ps)) g
  end.

Lemma place_shards : forall c g ps s, place c g ps = Some s -> In s (g_shards g).
Proof.
  unfold place. intros c g ps s H. destruct (c_typ c).
  - apply shard_for_spec in H as [i [_ Hn]]. eapply nth_error_In; eauto.
  - apply find_some in H as [Hs _]. exact Hs.
Qed.

Lemma place_alive : forall c g ps s, wf_group c g -> place c g ps = Some s -> In s (all_alive g).
Proof.
  unfold wf_group. intros c g ps s Hwf H. pose proof (place_shards _ _ _ _ H) as Hs. unfold place in H. destruct (c_typ c).
  - eapply shard_for_alive; eauto.
  - apply range_alive; auto.
Qed.

Lemma route_in_place : forall c g p s, route_in hash c g p = Some s -> exists ps, wkey c p = Some ps /\ place c g ps = Some s.
Proof. unfold route_in. intros c g p s H. destruct (wkey c p) as [ps|]; [|discriminate]. eauto. Qed.

Lemma route_in_all_alive : forall c g p s, wf_group c g -> route_in hash c g p = Some s ->
  In s (g_shards g) /\ In s (all_alive g).
Proof.
  intros c g p s Hwf H. apply route_in_place in H as [ps [_ H]]. split; [eapply place_shards|eapply place_alive]; eauto.
Qed.

Lemma route_covering : forall c p g s, route hash c p = Some (g, s) ->
  In g (c_groups c) /\ (g_start g <= p_time p < g_end g)%Z /\ g_deleted g = false /\
  match g_trunc g with None => True | Some tr => (p_time p < tr)%Z end /\ route_in hash c g p = Some s.
Proof.
  unfold route. intros c p g s H. destruct (find_group (c_groups c) (p_time p)) as [g'|] eqn:Ef; [|discriminate].
  destruct (route_in hash c g' p) as [s'|] eqn:Er; [|discriminate]. inversion H; subst.
  apply find_group_spec in Ef as [Hin Hw]. unfold g_writable, g_contains in Hw.
  apply andb_true_iff in Hw as [Hw Htr]. apply andb_true_iff in Hw as [Hc Hd]. apply andb_true_iff in Hc as [Hs He].
  apply Z.leb_le in Hs. apply Z.ltb_lt in He. apply negb_true_iff in Hd.
  repeat split; auto. destruct (g_trunc g); auto. apply Z.ltb_lt in Htr; auto.
Qed.


Lemma route_in_shards : forall c g p s, route_in hash c g p = Some s -> In s (g_shards g).
Proof. intros c g p s H. apply route_in_place in H as [ps [_ H]]. eapply place_shards; eauto. Qed.

Lemma route_by_key : forall c g p p', wkey c p' = wkey c p -> route_in hash c g p' = route_in hash c g p.
Proof. intros c g p p' H. unfold route_in. rewrite H. reflexivity. Qed.

Theorem route_unique_covering_proof : forall c p g s,
  route hash c p = Some (g, s) ->
  (In g (c_groups c) /\ (g_start g <= p_time p < g_end g)%Z /\ g_deleted g = false /\ In s (g_shards g))
  /\ (forall g' s', route hash c p = Some (g', s') -> g' = g /\ s' = s)
  /\ (forall p', find_group (c_groups c) (p_time p') = Some g -> wkey c p' = wkey c p -> route hash c p' = Some (g, s)).
Proof.
  intros c p g s H. pose proof (route_covering _ _ _ _ H) as [Hin [Hc [Hd [_ Hri]]]]. split; [|split].
  - repeat split; auto; try apply Hc. eapply route_in_shards; eauto.
  - intros g' s' H'. rewrite H in H'. inversion H'; auto.
  - intros p' Hf Hk. unfold route. rewrite Hf, (route_by_key _ _ _ _ Hk), Hri. reflexivity.
Qed.

Theorem route_cached_covering_proof : forall cache c p g s,
  route_cached hash cache c p = Some (g, s) ->
  (g_start g <= p_time p < g_end g)%Z /\ In s (g_shards g) /\ (cache = Some g \/ route hash c p = Some (g, s)).
Proof.
  unfold route_cached, pick_group. intros cache c p g s H.
  destruct cache as [g0|].
  - destruct (g_contains g0 (p_time p)) eqn:Ec.
    + destruct (route_in hash c g0 p) as [s0|] eqn:Er; [|discriminate]. inversion H; subst.
      unfold g_contains in Ec. apply andb_true_iff in Ec as [E1 E2]. apply Z.leb_le in E1. apply Z.ltb_lt in E2.
      split; [split; auto|]. split; [eapply route_in_shards; eauto|left; reflexivity].
    + assert (Hr : route hash c p = Some (g, s)) by exact H.
      pose proof (route_unique_covering_proof _ _ _ _ Hr) as [[_ [Hc [_ Hs]]] _]. auto.
  - assert (Hr : route hash c p = Some (g, s)) by exact H.
    pose proof (route_unique_covering_proof _ _ _ _ Hr) as [[_ [Hc [_ Hs]]] _]. auto.
Qed.

Lemma route_exists : forall c p g,
  find_group (c_groups c) (p_time p) = Some g -> wf_route c g -> wkey c p <> None ->
  exists s, route hash c p = Some (g, s).
Proof.
  intros c p g Hf Hwf Hk. unfold route, route_in. rewrite Hf. destruct (wkey c p) as [ps|]; [clear Hk|congruence].
  unfold wf_route in Hwf. destruct (c_typ c).
  - destruct Hwf as [Hne Hfa]. destruct (shard_for_total c (hash (hash_arg c ps)) g Hne Hfa) as [s ->]. eauto.
  - destruct (covers_contains _ [] (c_mst c ++ key_suffix ps) Hwf) as [s Hs]; [destruct (c_mst c ++ key_suffix ps); reflexivity|].
    destruct (find_exists (fun s0 => contain s0 (c_mst c ++ key_suffix ps)) (g_shards g)) as [y Hy]; [eauto|].
    unfold dest_shard. rewrite Hy. eauto.
Qed.

(* CreateShardGroup touches the list of groups only *)
Definition set_groups (c : cfg) (gs : list group) : cfg :=
  {| c_mst := c_mst c; c_tagkeys := c_tagkeys c; c_sk := c_sk c; c_typ := c_typ c; c_dur := c_dur c;
     c_groups := gs; c_mstidx := c_mstidx c |}.
Lemma ensure_group_groups : forall c t gid shards alive,
  ensure_group c t gid shards alive = set_groups c (c_groups (ensure_group c t gid shards alive)).
Proof. intros c t gid shards alive. unfold ensure_group. destruct (find_group (c_groups c) t); [destruct c|]; reflexivity. Qed.

Theorem route_total_proof : forall c p gid shards alive,
  (0 < c_dur c)%Z -> (p_time p <= max_nano)%Z ->
  keys_sorted (map fst (p_tags p)) -> keys_sorted (c_sk c) -> (forall k, In k (c_sk c) -> In k (map fst (p_tags p))) ->
  (forall g, In g (c_groups (ensure_group c (p_time p) gid shards alive)) -> wf_route c g) ->
  exists g s, route hash (ensure_group c (p_time p) gid shards alive) p = Some (g, s).
Proof.
  intros c p gid shards alive Hd Ht Hst Hss Hin Hwf.
  destruct (ensure_group_finds c (p_time p) gid shards alive Hd Ht) as [g [Hf _]]. exists g.
  destruct (wkey_total c p Hst Hss Hin) as [ps Hps]. rewrite ensure_group_groups.
  apply route_exists; [exact Hf|apply Hwf; apply (find_group_spec _ _ _ Hf)|]. change (wkey c p <> None). congruence.
Qed.

(* a row placed by the key pairs ps is found whenever the read side's key, built from any tag set of schema tags the row
   satisfies, is a prefix of ps and is ps when complete *)
Lemma target_group_key_sound : forall v c g cond p ps s,
  v_or v = true -> v_reset v = true ->
  and_ok v cond ->
  wf_group c g ->
  (c_sk c <> [] -> forall ts, (forall x, In x ts -> mem_str (fst x) (c_tagkeys c) = true) -> sat_ts p ts ->
     exists m, fst (sel_keys (c_sk c) (sort_tags ts)) = firstn m ps /\
               (snd (sel_keys (c_sk c) (sort_tags ts)) = true -> fst (sel_keys (c_sk c) (sort_tags ts)) = ps)) ->
  place c g ps = Some s -> eval_cond c cond p = true ->
  In s (target_group hash v c g cond).
Proof.
  intros v c g cond p ps s Hor Hres Hok Hwf Hkey Hr Hev.
  pose proof (place_alive _ _ _ _ Hwf Hr) as Hall. pose proof (place_shards _ _ _ _ Hr) as Hsg.
  unfold target_group. destruct (c_sk c) as [|k0 sk0] eqn:Esk; [exact Hall|].
  destruct cond as [e|]; [|exact Hall]. simpl in Hev.
  destruct (cond_tags v (c_tagkeys c) e) as [tss|] eqn:Ect; [|exact Hall].
  destruct (tloop hash v c g (c_mst c) tss) as [res|] eqn:El; [|exact Hall].
  assert (Hok' : v_and v = true \/ parser_image e) by (destruct Hok; auto).
  destruct (cond_tags_sound _ _ p _ _ Hor Hok' Ect Hev) as [ts [Hts Hsat]].
  destruct (Hkey ltac:(discriminate) ts) as [mt [Hpre Hfull]]; [intros x Hx; eapply cond_tags_keys; eauto|exact Hsat|].
  unfold place in Hr. destruct (c_typ c) eqn:Etyp.
  - destruct (tloop_hash_in v c g Hres Etyp _ _ _ _ El Hts) as [Hc Hin]. rewrite Esk in Hc, Hin.
    apply Hin. unfold after_name. rewrite skipn_S_app, (Hfull Hc). unfold hash_arg in Hr. rewrite Esk in Hr. exact Hr.
  - apply find_some in Hr as [_ Hcon].
    eapply (tloop_range_in v c g Hres Etyp _ _ _ _ El Hts); auto. rewrite Esk, Hpre.
    rewrite <- (firstn_skipn mt ps), key_suffix_app, app_assoc in Hcon.
    eapply contain_prefix_of; eauto.
Qed.

Lemma target_group_sound : forall v c g cond p s,
  v_or v = true -> v_reset v = true ->
  and_ok v cond ->
  wf_group c g -> wf_point p ->
  route_in hash c g p = Some s -> eval_cond c cond p = true ->
  In s (target_group hash v c g cond).
Proof.
  intros v c g cond p s Hor Hres Hok Hwf Hwp Hr Hev. apply route_in_place in Hr as [ps [Ew Hr]].
  apply (target_group_key_sound v c g cond p ps s); auto.
  intros Hne ts _ Hsat. unfold wkey in Ew. destruct (has_adj_dup (p_tags p)); [discriminate|].
  destruct (c_sk c) as [|k0 sk0]; [congruence|].
  destruct (snd (sel_keys (k0 :: sk0) (p_tags p))) eqn:Okp; inversion Ew; subst ps.
  apply sel_keys_agree_proof; auto.
Qed.

Lemma in_query_groups : forall c g t tmin tmax,
  In g (c_groups c) -> (g_start g <= t < g_end g)%Z -> g_deleted g = false -> (tmin <= t <= tmax)%Z ->
  In g (query_groups c tmin tmax).
Proof.
  intros c g t tmin tmax Hin Hc Hd Ht. unfold query_groups. apply filter_In. split; auto.
  rewrite Hd. simpl. unfold g_overlaps. apply andb_true_iff. split; [apply Z.leb_le|apply Z.ltb_lt]; lia.
Qed.

Theorem prune_sound_gen : forall v c cond p g s tmin tmax,
  v_or v = true -> v_reset v = true ->
  and_ok v cond ->
  wf_cfg c -> wf_point p ->
  route hash c p = Some (g, s) -> (tmin <= p_time p <= tmax)%Z -> eval_cond c cond p = true ->
  In g (query_groups c tmin tmax) /\ In s (target_group hash v c g cond) /\
  In (g_id g, s_id s) (target hash v c tmin tmax cond).
Proof.
  intros v c cond p g s tmin tmax Hor Hres Hok Hwf Hwp Hr Ht Hev.
  apply route_covering in Hr as [Hin [Hc [Hd [_ Hri]]]].
  assert (Hq : In g (query_groups c tmin tmax)) by (eapply in_query_groups; eauto).
  assert (Hs : In s (target_group hash v c g cond)).
  { eapply target_group_sound; eauto. unfold wf_cfg in Hwf. rewrite Forall_forall in Hwf. apply Hwf; auto. }
  split; auto. split; auto. unfold target. apply in_flat_map. exists g. split; auto.
  apply (in_map (fun s0 => (g_id g, s_id s0))); auto.
Qed.

Lemma consulted_true : forall v c tmin tmax cond g s,
  In (g_id g, s_id s) (target hash v c tmin tmax cond) -> consulted hash v c tmin tmax cond (g, s) = true.
Proof.
  intros. unfold consulted. apply existsb_exists. exists (g_id g, s_id s). split; auto. simpl.
  rewrite !N.eqb_refl. reflexivity.
Qed.

Lemma answer_is_filter : forall c cond tmin tmax ps,
  wf_cfg c -> Forall wf_point ps -> (forall p, In p ps -> route hash c p <> None) ->
  answer hash repaired c tmin tmax cond ps =
  filter (fun p => (tmin <=? p_time p)%Z && (p_time p <=? tmax)%Z && eval_cond c cond p) ps.
Proof.
  intros c cond tmin tmax ps Hwf Hps Hr. unfold answer. apply filter_ext_in. intros p Hp.
  destruct (route hash c p) as [[g s]|] eqn:Er; [|exfalso; apply (Hr p Hp); auto].
  destruct ((tmin <=? p_time p)%Z && (p_time p <=? tmax)%Z && eval_cond c cond p) eqn:E.
  - apply andb_true_iff in E as [E Hev]. apply andb_true_iff in E as [E1 E2].
    apply Z.leb_le in E1. apply Z.leb_le in E2. rewrite Forall_forall in Hps.
    destruct (prune_sound_gen repaired c cond p g s tmin tmax eq_refl eq_refl (or_introl eq_refl) Hwf (Hps p Hp) Er (conj E1 E2) Hev)
      as [_ [_ Hin]].
    rewrite (consulted_true _ _ _ _ _ _ _ Hin). simpl.
    apply Z.leb_le in E1. apply Z.leb_le in E2. rewrite E1, E2, Hev. reflexivity.
  - rewrite <- !andb_assoc. rewrite <- !andb_assoc in E. rewrite E. apply andb_false_r.
Qed.

(* the key the hinted read builds from the single tag set (through the write path's own key construction on a pseudo row) is
   the row's key, or there is no key (no pruning) *)
Lemma hint_key_agrees : forall c p ts, wf_point p ->
  (forall k v, In (k, v) ts -> tag_val (p_tags p) k = v) ->
  (c_sk c = [] -> sort_tags ts = p_tags p) ->
  wkey c (hint_point (sort_tags ts)) = None \/ wkey c (hint_point (sort_tags ts)) = wkey c p \/ wkey c p = None.
Proof.
  intros c p ts Hwp Hsat Hfull. unfold wkey. cbn [p_tags hint_point].
  destruct (c_sk c) as [|k0 sk0] eqn:Esk.
  - rewrite (Hfull eq_refl). right; left; reflexivity.
  - destruct (has_adj_dup (sort_tags ts)); [left; reflexivity|].
    destruct (has_adj_dup (p_tags p)); [right; right; reflexivity|].
    destruct (snd (sel_keys (k0 :: sk0) (p_tags p))) eqn:Okp; [|right; right; reflexivity].
    destruct (sel_keys_agree_proof (k0 :: sk0) (p_tags p) ts Hwp Okp Hsat) as [m [_ Hfullk]].
    destruct (snd (sel_keys (k0 :: sk0) (sort_tags ts))) eqn:Okt; [|left; reflexivity].
    right; left. rewrite (Hfullk eq_refl). reflexivity.
Qed.

(* a hinted read prunes to the shard picked for the key of the single tag set; pick = the hashed lookup, or the lookup by key
   range of the repaired range-sharded case *)
Lemma hint_key_sound : forall v c g cond p ps s (pick : tagset -> option shard),
  v_or v = true -> and_ok v cond ->
  wf_point p ->
  hint_full v c cond p ->
  In s (all_alive g) -> wkey c p = Some ps -> pick ps = Some s -> eval_cond c cond p = true ->
  In s (match cond with
        | None => all_alive g
        | Some e => match cond_tags v (c_tagkeys c) e with
                    | Some [ts] => match wkey c (hint_point (sort_tags ts)) with
                                   | Some ps' => opt_shard (pick ps')
                                   | None => all_alive g
                                   end
                    | _ => all_alive g
                    end
        end).
Proof.
  intros v c g cond p ps s pick Hor Hok Hwp Hfull Hall Ew Hr Hev.
  destruct cond as [e|]; [|exact Hall]. simpl in Hev.
  destruct (cond_tags v (c_tagkeys c) e) as [tss|] eqn:Ect; [|exact Hall].
  destruct tss as [|ts [|ts2 rest]]; try exact Hall.
  assert (Hok' : v_and v = true \/ parser_image e) by (destruct Hok; auto).
  destruct (cond_tags_sound _ _ p _ _ Hor Hok' Ect Hev) as [ts' [[<-|[]] Hsat]].
  destruct (hint_key_agrees c p ts Hwp Hsat (fun E => Hfull E ts Ect)) as [Hk|[Hk|Hk]].
  - rewrite Hk. exact Hall.
  - rewrite Hk, Ew, Hr. left; reflexivity.
  - congruence.
Qed.

Theorem hint_prune_sound_proof : forall v c g cond p s,
  v_or v = true -> and_ok v cond ->
  c_typ c = Hash -> wf_group c g -> wf_point p ->
  hint_full v c cond p ->
  route_in hash c g p = Some s -> eval_cond c cond p = true ->
  In s (target_hint hash true v c g cond).
Proof.
  intros v c g cond p s Hor Hok Etyp Hwf Hwp Hfull Hr Hev. apply route_in_place in Hr as [ps [Ew Hr]].
  pose proof (place_alive _ _ _ _ Hwf Hr) as Hall. unfold place in Hr. rewrite Etyp in Hr.
  exact (hint_key_sound v c g cond p ps s (fun ps' => shard_for c (hash (hash_arg c ps')) g) Hor Hok Hwp Hfull Hall Ew Hr Hev).
Qed.

Lemma wf_group_set_sk : forall c sk g, wf_group c g -> wf_group (set_sk c sk) g.
Proof. intros c sk g H. exact H. Qed.

Lemma key_in_force_agree : forall m gid, wkey_in_force m gid = rkey_in_force m gid.
Proof. intros m gid. unfold wkey_in_force, rkey_in_force, db_key_read. destruct (m_db m); reflexivity. Qed.

(* measurement names identify measurements inside a batch (one database: one database-level key) *)
Definition consistent (rows : list brow) : Prop :=
  forall r1 r2, In r1 rows -> In r2 rows -> c_mst (m_cfg (r_m r1)) = c_mst (m_cfg (r_m r2)) ->
                m_vers (r_m r1) = m_vers (r_m r2) /\ m_db (r_m r1) = m_db (r_m r2).
Definition no_drop (rows : list brow) : Prop := forall r, In r rows -> r_kind r = RRoute.
(* the remembered shard key is the one in force for the remembered measurement and group *)
Definition cache_inv (all : list brow) (st : bstate) : Prop :=
  forall n g, b_mst st = Some n -> b_sg st = Some g ->
  forall r, In r all -> c_mst (m_cfg (r_m r)) = n -> wkey_in_force (r_m r) (g_id g) = b_sk st.

Lemma base_cfg_mst : forall m, c_mst (base_cfg m) = c_mst (m_cfg m).
Proof. intros m. unfold base_cfg. destruct (m_db m); reflexivity. Qed.
Lemma base_cfg_groups : forall m, c_groups (base_cfg m) = c_groups (m_cfg m).
Proof. intros m. unfold base_cfg. destruct (m_db m); reflexivity. Qed.
Lemma base_cfg_tagkeys : forall m, c_tagkeys (base_cfg m) = c_tagkeys (m_cfg m).
Proof. intros m. unfold base_cfg. destruct (m_db m); reflexivity. Qed.

Lemma wkey_in_force_ext : forall m1 m2 gid, m_vers m1 = m_vers m2 -> m_db m1 = m_db m2 ->
  wkey_in_force m1 gid = wkey_in_force m2 gid.
Proof. intros m1 m2 gid H1 H2. unfold wkey_in_force. rewrite H1, H2. reflexivity. Qed.

Lemma batch_step_transparent : forall all st r,
  consistent all -> In r all -> r_kind r = RRoute -> cache_inv all st ->
  batch_step hash true st r = batch_step hash false st r /\ cache_inv all (fst (batch_step hash false st r)).
Proof.
  intros all st r Hc Hin Hk Hinv. unfold batch_step. rewrite Hk. rewrite !base_cfg_mst, !base_cfg_groups.
  destruct (pick_group (b_sg st) (c_groups (m_cfg (r_m r))) (p_time (r_p r))) as [g|] eqn:Ep.
  - assert (Hsk : (if true && (match b_sg st with Some g0 => g_contains g0 (p_time (r_p r)) | None => false end && b_asis st) &&
                      match b_mst st with Some n => str_eqb n (c_mst (m_cfg (r_m r))) | None => false end
                   then b_sk st else wkey_in_force (r_m r) (g_id g)) = wkey_in_force (r_m r) (g_id g)).
    { destruct (b_sg st) as [g0|] eqn:Eg; simpl; auto.
      destruct (g_contains g0 (p_time (r_p r))) eqn:Ec; simpl; auto.
      destruct (b_asis st); simpl; auto.
      destruct (b_mst st) as [n|] eqn:Em; auto.
      destruct (str_eqb n (c_mst (m_cfg (r_m r)))) eqn:En; auto.
      apply str_eqb_eq in En. unfold pick_group in Ep. rewrite Ec in Ep. inversion Ep; subst g0.
      symmetry. apply (Hinv n g Em Eg r Hin). auto. }
    rewrite Hsk. simpl (false && _ && _). cbv iota. split; [reflexivity|].
    unfold cache_inv.
    destruct (wkey_in_force (r_m r) (g_id g)) as [k|] eqn:Es;
      [destruct (wkey (set_sk (base_cfg (r_m r)) k) (r_p r))|]; cbn [fst b_mst b_sg b_sk];
      intros n g' Hn Hg r' Hin' Hname; injection Hn as Hn; injection Hg as Hg; subst n g';
      destruct (Hc r' r Hin' Hin Hname) as [Hv Hd]; rewrite (wkey_in_force_ext _ _ _ Hv Hd); auto.
  - split; [reflexivity|]. unfold cache_inv. cbn [fst b_mst b_sg b_sk]. intros n g' _ Hg. discriminate.
Qed.

Theorem batch_uncached_is_route_proof : forall st r g s,
  snd (batch_step hash false st r) = Some (g, s) ->
  r_kind r = RRoute /\ pick_group (b_sg st) (c_groups (m_cfg (r_m r))) (p_time (r_p r)) = Some g /\
  wkey_in_force (r_m r) (g_id g) <> None /\ route_in hash (cfg_at (r_m r) (g_id g)) g (r_p r) = Some s.
Proof.
  intros st r g s. unfold batch_step. rewrite !base_cfg_mst, !base_cfg_groups. destruct (r_kind r); simpl; [|discriminate|discriminate].
  destruct (pick_group (b_sg st) (c_groups (m_cfg (r_m r))) (p_time (r_p r))) as [g0|] eqn:Ep; simpl; [|discriminate].
  destruct (wkey_in_force (r_m r) (g_id g0)) as [k|] eqn:Es; simpl; [|discriminate].
  destruct (wkey (set_sk (base_cfg (r_m r)) k) (r_p r)) as [ps|] eqn:Ew; simpl; [|discriminate].
  destruct (route_in hash (set_sk (base_cfg (r_m r)) k) g0 (r_p r)) as [s0|] eqn:Er; [|discriminate].
  intros H. inversion H; subst. repeat split; auto.
  - rewrite Es; discriminate.
  - unfold cfg_at, cfg_with. rewrite <- key_in_force_agree, Es. exact Er.
Qed.

Theorem batch_prune_sound_proof : forall v st r g s cond,
  v_or v = true -> v_reset v = true ->
  and_ok v cond ->
  wf_group (base_cfg (r_m r)) g -> wf_point (r_p r) ->
  snd (batch_step hash false st r) = Some (g, s) -> eval_cond (m_cfg (r_m r)) cond (r_p r) = true ->
  In s (target_group hash v (cfg_at (r_m r) (g_id g)) g cond).
Proof.
  intros v st r g s cond Hor Hres Hok Hwf Hwp H Hev.
  apply batch_uncached_is_route_proof in H as [_ [_ [_ Hr]]].
  eapply target_group_sound; eauto.
  unfold eval_cond in *. unfold cfg_at, cfg_with. cbn [c_tagkeys set_sk]. rewrite base_cfg_tagkeys. exact Hev.
Qed.

Lemma target_m_in : forall v m tmin tmax cond g s,
  In g (query_groups (m_cfg m) tmin tmax) -> In s (target_group hash v (cfg_at m (g_id g)) g cond) ->
  In (g_id g, s_id s) (target_m hash v true m tmin tmax cond).
Proof.
  intros. unfold target_m. apply in_flat_map. exists g. split; auto.
  apply (in_map (fun s0 => (g_id g, s_id s0))); auto.
Qed.

(* the code's rule for the key in force IS mapMstShards with the per-group key *)
Lemma target_m_by_rkey : forall v m tmin tmax cond,
  target_m_by hash rkey_in_force v m tmin tmax cond = target_m hash v true m tmin tmax cond.
Proof. intros. reflexivity. Qed.
End Loop.
