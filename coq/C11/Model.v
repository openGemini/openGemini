(* C11 model: where a point is written (group by timestamp, shard by shard key) and which shards a query consults.
   Executable definitions only. Mirrors
     meta/data.go newShardGroup / CreateShardGroup, retentionpolicy.go ShardGroupByTimestampAndEngineType,
     influx/parser.go UnmarshalShardKeyByTag, coordinator/points_writer.go updateShardGroupAndShardKey,
     meta/shardinfo.go ShardFor / DestShard / TargetShards / getConditionTags / ContainPrefix,
     meta/data.go ShardGroupsByTimeRange. *)
From Coq Require Import ZArith NArith List Bool.
Import ListNotations.

(* ------------------------------------------------------------------ strings = byte lists, Go's byte-wise order *)
Definition str := list N.

Fixpoint str_eqb (a b : str) : bool :=
  match a, b with
  | [], [] => true
  | x :: a', y :: b' => N.eqb x y && str_eqb a' b'
  | _, _ => false
  end.

Fixpoint str_cmp (a b : str) : comparison :=
  match a, b with
  | [], [] => Eq
  | [], _ :: _ => Lt
  | _ :: _, [] => Gt
  | x :: a', y :: b' => match N.compare x y with Eq => str_cmp a' b' | c => c end
  end.
Definition str_ltb (a b : str) : bool := match str_cmp a b with Lt => true | _ => false end.
Definition str_leb (a b : str) : bool := match str_cmp a b with Gt => false | _ => true end.
Definition is_nil (a : str) : bool := match a with [] => true | _ => false end.

Definition lower_byte (c : N) : N := if (N.leb 65 c && N.leb c 90)%bool then (c + 32)%N else c.
(* strings.ToLower(k) == "time" *)
Definition is_time_name (k : str) : bool := str_eqb (map lower_byte k) [116; 105; 109; 101]%N.

Definition mem_str (k : str) (l : list str) : bool := existsb (str_eqb k) l.

(* ------------------------------------------------------------------ time: Go's Time.Truncate is anchored at year 1 *)
Open Scope Z_scope.
Definition epoch_shift : Z := 62135596800 * 1000000000.      (* ns from 0001-01-01T00:00:00Z to the Unix epoch *)
Definition max_nano : Z := 9223372036854775806.              (* models.MaxNanoTime *)
Definition min_nano : Z := -9223372036854775806.             (* models.MinNanoTime *)

Definition trunc (t d : Z) : Z := if d <=? 0 then t else t - ((t + epoch_shift) mod d).
(* newShardGroup: [trunc(t,d), +d), the end clipped to MaxNanoTime+1 *)
Definition span_of (t d : Z) : Z * Z :=
  let s := trunc t d in (s, if max_nano <? s + d then max_nano + 1 else s + d).

(* ------------------------------------------------------------------ catalogue *)
Record shard := { s_id : N; s_min : str; s_max : str }.
Record group := {
  g_id : N; g_start : Z; g_end : Z; g_deleted : bool; g_trunc : option Z;
  g_shards : list shard;
  g_alive : list nat                  (* indexes of the shards whose partition is online (GetAliveShards) *)
}.
(* the same group with another list of alive shard indexes: GetAliveShards is evaluated when a row is written and again when
   a query runs, and partitions go offline and come back in between *)
Definition set_alive (g : group) (a : list nat) : group :=
  {| g_id := g_id g; g_start := g_start g; g_end := g_end g; g_deleted := g_deleted g; g_trunc := g_trunc g;
     g_shards := g_shards g; g_alive := a |}.
Inductive shtype := Hash | Range.
Record cfg := {
  c_mst : str;                        (* measurement name (with version) *)
  c_tagkeys : list str;               (* schema entries of type tag *)
  c_sk : list str;                    (* shard-key tags, sorted; [] = no shard key (nil ShardKey) *)
  c_typ : shtype;
  c_dur : Z;                          (* shard-group duration *)
  c_groups : list group;              (* catalogue order (sorted by end, start) *)
  c_mstidx : option (list (N * list nat))   (* MeasurementInfo.ShardIdexes (group id -> shard indexes) when
                                               InitNumOfShards <> 0, else None *)
}.

Definition tagset := list (str * str).
Record point := { p_tags : tagset; p_time : Z; p_leaf : N -> bool }.
(* p_leaf: truth on this row of every predicate that is not "tag = 'literal'" (field comparisons, other tag
   operators, time bounds, regexes...): the theorems hold for every such valuation *)

Definition g_contains (g : group) (t : Z) : bool := (g_start g <=? t) && (t <? g_end g).
Definition g_writable (g : group) (t : Z) : bool :=
  g_contains g t && negb (g_deleted g) && match g_trunc g with None => true | Some tr => t <? tr end.
(* ShardGroupByTimestampAndEngineType scans from the end of the sorted list *)
Definition find_group (gs : list group) (t : Z) : option group := find (fun g => g_writable g t) (rev gs).

(* ------------------------------------------------------------------ shard key *)
(* the sorted merge of UnmarshalShardKeyByTag (write) and of TargetShards (read): pairs selected so far, and
   whether every shard-key tag was found *)
Definition is_nil_list (l : list str) : bool := match l with [] => true | _ => false end.
Fixpoint sel_keys (sk : list str) (tags : tagset) {struct tags} : tagset * bool :=
  match tags with
  | [] => ([], is_nil_list sk)
  | (tk, tv) :: tags' =>
      match sk with
      | [] => ([], true)
      | k :: sk' =>
          if str_ltb k tk then ([], false)
          else if str_eqb k tk then let r := sel_keys sk' tags' in ((tk, tv) :: fst r, snd r)
          else sel_keys sk tags'
      end
  end.

Fixpoint has_adj_dup (tags : tagset) : bool :=
  match tags with
  | a :: (b :: _) as r => str_eqb (fst a) (fst b) || has_adj_dup r
  | _ => false
  end.

Definition kv_bytes (kv : str * str) : str := (44 :: fst kv ++ 61 :: snd kv)%N.      (* ",k=v" *)
Definition key_suffix (kvs : tagset) : str := concat (map kv_bytes kvs).

(* the pairs that make up Row.ShardKey, None = the point is rejected (missing shard-key tag or duplicate tag) *)
Definition wkey (c : cfg) (p : point) : option tagset :=
  if has_adj_dup (p_tags p) then None
  else match c_sk c with
       | [] => Some (p_tags p)
       | sk => let r := sel_keys sk (p_tags p) in if snd r then Some (fst r) else None
       end.

Definition eff_idx (c : cfg) (g : group) : list nat :=
  match c_mstidx c with
  | Some m => match find (fun x => N.eqb (fst x) (g_id g)) m with Some x => snd x | None => [] end
  | None => g_alive g
  end.

(* ShardFor: shards[idx[h mod len idx]] *)
Definition shard_for (c : cfg) (h : N) (g : group) : option shard :=
  let idx := eff_idx c g in
  match idx with
  | [] => None
  | _ => match nth_error idx (N.to_nat (h mod N.of_nat (length idx))) with
         | Some i => nth_error (g_shards g) i
         | None => None
         end
  end.

Definition contain (s : shard) (key : str) : bool :=
  str_leb (s_min s) key && (is_nil (s_max s) || str_ltb key (s_max s)).
Definition dest_shard (key : str) (g : group) : option shard := find (fun s => contain s key) (g_shards g).

Definition contain_prefix (s : shard) (prefix : str) : bool :=
  (if (length prefix <? length (s_min s))%nat then str_leb (firstn (length prefix) (s_min s)) prefix
   else is_nil (s_min s) || str_leb (s_min s) prefix)
  && (is_nil (s_max s) || str_ltb prefix (s_max s)).

(* key ranges of a range-sharded group. CreateShardGroupWithBounds (Data.ReSharding): len(bounds)+1 shards, shard i owns
   [bounds[i-1], bounds[i]) with the first Min and the last Max empty (= open) *)
Fixpoint ranges_of (lo : str) (bounds : list str) : list (str * str) :=
  match bounds with
  | [] => [(lo, [])]
  | b :: r => (lo, b) :: ranges_of b r
  end.
Definition shard_ranges (g : group) : list (str * str) := map (fun s => (s_min s, s_max s)) (g_shards g).
(* createShards for a range-sharded policy: the first group has one shard owning everything, every later group copies the
   key ranges of the newest group (rpi.ShardGroups[len-1]) *)
Definition created_ranges (existing : list group) : list (str * str) :=
  match rev existing with
  | [] => [([], [])]
  | l :: _ => shard_ranges l
  end.
(* ReSharding at split time `split`: the new group is [split+1, end of the newest group) *)
Definition resharded_span (existing : list group) (split : Z) : option (Z * Z) :=
  match rev existing with
  | [] => None
  | l :: _ => Some (split + 1, g_end l)
  end.

(* ------------------------------------------------------------------ the other shard-key builders of the write path *)
(* rows of column-store measurements, rows with a column index and stream results: tags need not be sorted, a key column may be
   a (string) field; x_cols is Row.ColumnToIndex as an association list (column name -> position among tags ++ fields) *)
Record xrow := { x_tags : tagset; x_fields : list (str * str); x_cols : list (str * nat) }.
Definition assoc_find {A} (k : str) (l : list (str * A)) : option (str * A) := find (fun kv => str_eqb (fst kv) k) l.
(* Row.UnmarshalShardKeyByField (column store): per key column, in the order of the key, the first tag of that name, else the
   first field of that name, else the row is rejected. No duplicate check. An empty key gives the measurement name alone. *)
Fixpoint by_field (sk : list str) (r : xrow) : option tagset :=
  match sk with
  | [] => Some []
  | k :: sk' =>
      match assoc_find k (x_tags r) with
      | Some kv => option_map (cons kv) (by_field sk' r)
      | None => match assoc_find k (x_fields r) with
                | Some kv => option_map (cons kv) (by_field sk' r)
                | None => None
                end
      end
  end.
(* Row.UnmarshalShardKeyByTagOp: an empty key takes every tag in row order; else per key column the position from the column
   index, which must hold a tag or a field of exactly that name *)
Fixpoint by_cols (sk : list str) (r : xrow) : option tagset :=
  match sk with
  | [] => Some []
  | k :: sk' =>
      match assoc_find k (x_cols r) with
      | None => None
      | Some (_, id) =>
          let nt := length (x_tags r) in
          match (if (id <? nt)%nat then nth_error (x_tags r) id else nth_error (x_fields r) (id - nt)) with
          | Some kv => if str_eqb (fst kv) k then option_map (cons kv) (by_cols sk' r) else None
          | None => None
          end
      end
  end.
Definition by_tagop (sk : list str) (r : xrow) : option tagset :=
  match sk with [] => Some (x_tags r) | _ => by_cols sk r end.
(* Row.UnmarshalShardKeyByDimOrTag (stream results): the destination's key, else the stream's dimensions *)
Definition by_dim_or_tag (sk dims : list str) (r : xrow) : option tagset :=
  match sk, dims with
  | [], _ :: _ => by_tagop dims r
  | _, _ => by_tagop sk r
  end.
Inductive builder := BField | BTagOp | BDim (dims : list str).
Definition build_key (b : builder) (sk : list str) (r : xrow) : option tagset :=
  match b with BField => by_field sk r | BTagOp => by_tagop sk r | BDim dims => by_dim_or_tag sk dims r end.

(* ------------------------------------------------------------------ conditions *)
Inductive expr :=
| EEq (id : N) (k v : str)      (* VarRef k = StringLiteral v *)
| EOther (id : N)               (* any other leaf: other operators, field comparisons, time bounds, reversed operands *)
| EAnd (a b : expr)
| EOr (a b : expr)
| EParen (a : expr).

Definition tag_val (tags : tagset) (k : str) : str :=
  match find (fun kv => str_eqb (fst kv) k) tags with Some kv => snd kv | None => [] end.

Fixpoint eval_expr (tagkeys : list str) (p : point) (e : expr) : bool :=
  match e with
  | EEq id k v => if mem_str k tagkeys then str_eqb (tag_val (p_tags p) k) v else p_leaf p id
  | EOther id => p_leaf p id
  | EAnd a b => eval_expr tagkeys p a && eval_expr tagkeys p b
  | EOr a b => eval_expr tagkeys p a || eval_expr tagkeys p b
  | EParen a => eval_expr tagkeys p a
  end.
Definition eval_cond (c : cfg) (cond : option expr) (p : point) : bool :=
  match cond with None => true | Some e => eval_expr (c_tagkeys c) p e end.

(* which repairs of getConditionTags / TargetShards the tree under test carries: all-false is the code before commit 8d07256
   (which /repo carries: OR with an unconstrained side and the key buffer), all-true the repaired one *)
Record variant := { v_or : bool; v_and : bool; v_reset : bool }.
Definition current : variant := {| v_or := false; v_and := false; v_reset := false |}.
Definition repaired : variant := {| v_or := true; v_and := true; v_reset := true |}.

(* getConditionTags; None = nil = no constraint *)
Fixpoint cond_tags (v : variant) (tagkeys : list str) (e : expr) : option (list tagset) :=
  match e with
  | EEq _ k val => if is_time_name k then None else if mem_str k tagkeys then Some [[(k, val)]] else None
  | EOther _ => None
  | EParen _ => None
  | EAnd a b =>
      match cond_tags v tagkeys a, cond_tags v tagkeys b with
      | None, r => r
      | Some ls, None => Some ls
      | Some ls, Some rs =>
          if v_and v then Some (flat_map (fun l => map (fun r => l ++ r) rs) ls)       (* cross product *)
          else Some (map (fun l => l ++ concat rs) ls)                                 (* every alternative into each left set *)
      end
  | EOr a b =>
      match cond_tags v tagkeys a, cond_tags v tagkeys b with
      | Some ls, Some rs => Some (ls ++ rs)
      | None, r => if v_or v then None else r
      | l, None => if v_or v then None else l
      end
  end.
Definition cond_tags_current := cond_tags current.
Definition cond_tags_repaired := cond_tags repaired.

(* sort.Sort(PointTags) by key: insertion sort for short slices (stable: fold_right inserts earlier elements last,
   so an element goes in front of the equal keys already placed) *)
Fixpoint ins_tag (x : str * str) (l : tagset) : tagset :=
  match l with
  | [] => [x]
  | y :: r => if str_ltb (fst y) (fst x) then y :: ins_tag x r else x :: l
  end.
Definition sort_tags (l : tagset) : tagset := fold_right ins_tag [] l.

Definition all_alive (g : group) : list shard :=
  flat_map (fun i => match nth_error (g_shards g) i with Some s => [s] | None => [] end) (g_alive g).

Section WithHash.
Variable hash : str -> N.           (* meta.HashID; nothing is assumed about it *)

Definition hash_arg (c : cfg) (ps : tagset) : str :=
  match c_sk c with [] => c_mst c ++ key_suffix ps | _ => tl (key_suffix ps) end.

Definition route_in (c : cfg) (g : group) (p : point) : option shard :=
  match wkey c p with
  | None => None
  | Some ps =>
      match c_typ c with
      | Range => dest_shard (c_mst c ++ key_suffix ps) g
      | Hash => shard_for c (hash (hash_arg c ps)) g
      end
  end.

(* updateShardGroupAndShardKey with one of the other builders: the bytes hashed are the pairs without the measurement name
   iff the key in force is non-empty (hash_arg), range sharding compares name ++ pairs *)
Definition route_in_x (b : builder) (c : cfg) (g : group) (r : xrow) : option shard :=
  match build_key b (c_sk c) r with
  | None => None
  | Some ps =>
      match c_typ c with
      | Range => dest_shard (c_mst c ++ key_suffix ps) g
      | Hash => shard_for c (hash (hash_arg c ps)) g
      end
  end.

(* routeAndCalculateStreamRows, cases 2 and 3 ("same distribution"): the shard of the stream's DESTINATION measurement is chosen
   by updateShardGroupAndShardKey(.., stream = true, reuseShardKey = true) with the bytes already built for the SOURCE row
   (hash sharding): the destination's index list, the source's key bytes *)
Definition route_reuse (csrc cdst : cfg) (g : group) (p : point) : option shard :=
  match wkey csrc p with
  | None => None
  | Some ps => match c_typ cdst with
               | Hash => shard_for cdst (hash (hash_arg csrc ps)) g
               | Range => None
               end
  end.

(* the write path on a catalogue in which the group for the timestamp exists (after CreateShardGroup) *)
Definition route (c : cfg) (p : point) : option (group * shard) :=
  match find_group (c_groups c) (p_time p) with
  | None => None
  | Some g => match route_in c g p with Some s => Some (g, s) | None => None end
  end.

(* shardKeyAndValue[len(mst.Name)+1:] *)
Definition after_name (c : cfg) (key : str) : str := skipn (S (length (c_mst c))) key.

(* write_helper.go createShardGroup: the group of the previous row of the batch is reused when its span contains the
   timestamp (only the span is looked at), otherwise the catalogue is consulted *)
Definition pick_group (cache : option group) (gs : list group) (t : Z) : option group :=
  match cache with
  | Some g => if g_contains g t then Some g else find_group gs t
  | None => find_group gs t
  end.
Definition route_cached (cache : option group) (c : cfg) (p : point) : option (group * shard) :=
  match pick_group cache (c_groups c) (p_time p) with
  | None => None
  | Some g => match route_in c g p with Some s => Some (g, s) | None => None end
  end.

(* CreateShardGroup when no writable group takes the timestamp: a live group [trunc(t,d), +d) is added (the catalogue is
   kept sorted by the real code; the position does not matter for the lookup of t because no other writable group
   contains t) *)
Definition new_group (gid : N) (t d : Z) (shards : list shard) (alive : list nat) : group :=
  {| g_id := gid; g_start := fst (span_of t d); g_end := snd (span_of t d); g_deleted := false; g_trunc := None;
     g_shards := shards; g_alive := alive |}.
Definition ensure_group (c : cfg) (t : Z) (gid : N) (shards : list shard) (alive : list nat) : cfg :=
  match find_group (c_groups c) t with
  | Some _ => c
  | None => {| c_mst := c_mst c; c_tagkeys := c_tagkeys c; c_sk := c_sk c; c_typ := c_typ c; c_dur := c_dur c;
               c_groups := c_groups c ++ [new_group gid t (c_dur c) shards alive]; c_mstidx := c_mstidx c |}
  end.

(* ------------------------------------------------------------------ several measurements, shard-key history, batches *)
(* a measurement: its configuration (its c_sk is not read: cfg_with overwrites it with the key in force) and MeasurementInfo.ShardKeys as (ShardGroup threshold, key) *)
Record mcfg := {
  m_cfg : cfg; m_vers : list (N * list str);
  m_db : list str     (* DatabaseInfo.ShardKey.ShardKey of the measurement's database, [] = the database has no shard key.
                         CREATE DATABASE .. WITH SHARDKEY stores the tag list without a sharding type, and both the write
                         path and TargetShards treat every type other than "range" as hashing *)
}.
Definition set_sk (c : cfg) (sk : list str) : cfg :=
  {| c_mst := c_mst c; c_tagkeys := c_tagkeys c; c_sk := sk; c_typ := c_typ c; c_dur := c_dur c;
     c_groups := c_groups c; c_mstidx := c_mstidx c |}.
Definition set_typ (c : cfg) (t : shtype) : cfg :=
  {| c_mst := c_mst c; c_tagkeys := c_tagkeys c; c_sk := c_sk c; c_typ := t; c_dur := c_dur c;
     c_groups := c_groups c; c_mstidx := c_mstidx c |}.
(* the measurement's configuration with the sharding type in force: a database-level key is always hashed *)
Definition base_cfg (m : mcfg) : cfg := match m_db m with [] => m_cfg m | _ :: _ => set_typ (m_cfg m) Hash end.
(* GetShardKey(group id): the last entry whose threshold is <= the id *)
Fixpoint sk_scan (vs : list (N * list str)) (gid : N) : option (list str) :=
  match vs with
  | [] => None
  | (thr, sk) :: r => match sk_scan r gid with
                      | Some x => Some x
                      | None => if N.leb thr gid then Some sk else None
                      end
  end.
(* WRITE side, points_writer.go updateShardGroupAndShardKey (and stream.go):
     if len(di.ShardKey.ShardKey) > 0 { si = &di.ShardKey } else { si = mi.GetShardKey(sg.ID) } *)
Definition wkey_in_force (m : mcfg) (gid : N) : option (list str) :=
  match m_db m with _ :: _ => Some (m_db m) | [] => sk_scan (m_vers m) gid end.
(* READ side, shard_mapper.go: getTargetShardMsg sets shardKeyInfo = &dbi.ShardKey iff len(dbi.ShardKey.ShardKey) > 0, once
   per query; mapMstShards, per group: groupShardKeyInfo := shardKeyInfo; if nil, measurements[0].GetShardKey(group id) *)
Definition db_key_read (m : mcfg) : option (list str) := if (0 <? length (m_db m))%nat then Some (m_db m) else None.
Definition rkey_in_force (m : mcfg) (gid : N) : option (list str) :=
  match db_key_read m with Some k => Some k | None => sk_scan (m_vers m) gid end.
(* the other precedence ("the more specific definition wins": the measurement's own key, the database's only when the
   measurement has none) - NOT what the write side does; refuted in Refuted.v *)
Definition rkey_mst_first (m : mcfg) (gid : N) : option (list str) :=
  match sk_scan (m_vers m) gid with
  | Some (k :: r) => Some (k :: r)
  | o => match db_key_read m with Some k => Some k | None => o end
  end.
(* configuration in force for a group on the read side; no entry = nil ShardKeyInfo: the read path consults every shard *)
Definition cfg_with (m : mcfg) (k : option (list str)) : cfg :=
  set_sk (base_cfg m) (match k with Some sk => sk | None => [] end).
Definition cfg_at (m : mcfg) (gid : N) : cfg := cfg_with m (rkey_in_force m gid).

(* routeAndMapOriginRows: one ingestion context per batch remembers the previous row's shard group (preSg), the
   previous row's measurement (preMst / sameMst) and the shard-key definition last looked up (ctx.shardKeyInfo), which is
   looked up again only when the group or the measurement changed *)
Inductive rowkind :=
| RRoute
| RDrop     (* the row is rejected by the schema check, after its measurement was resolved and before it is routed *)
| RSkip.    (* the row is rejected before its measurement is looked at (timestamp outside the retention window) *)
Record brow := { r_m : mcfg; r_kind : rowkind; r_p : point }.
Record bstate := { b_sg : option group; b_mst : option str; b_sk : option (list str);
                   b_asis : bool (* the remembered alive-shard list (ctx.aliveShardIdxes) is non-empty *) }.
Definition b_empty : bstate := {| b_sg := None; b_mst := None; b_sk := None; b_asis := false |}.

(* use_cache = true: the code before commit 88a85c3; false: the shard key is looked up for every row *)
Definition batch_step (use_cache : bool) (st : bstate) (r : brow) : bstate * option (group * shard) :=
  let c0 := base_cfg (r_m r) in
  let same_mst := match b_mst st with Some n => str_eqb n (c_mst c0) | None => false end in
  match r_kind r with
  | RSkip => (st, None)
  | RDrop => ({| b_sg := b_sg st; b_mst := Some (c_mst c0); b_sk := b_sk st; b_asis := b_asis st |}, None)
  | RRoute =>
      let t := p_time (r_p r) in
      (* sameSg: the remembered group takes the timestamp and an alive list was stored for it (a row that failed while its
         shard key was built leaves the list empty) *)
      let same_sg := match b_sg st with Some g => g_contains g t | None => false end && b_asis st in
      match pick_group (b_sg st) (c_groups c0) t with
      | None => ({| b_sg := None; b_mst := Some (c_mst c0); b_sk := b_sk st; b_asis := b_asis st |}, None)
          (* no group: the real loop returns the error and the batch ends; the model goes on without a cached group *)
      | Some g =>
          let sk := if use_cache && same_sg && same_mst then b_sk st else wkey_in_force (r_m r) (g_id g) in
          match sk with
          | None => ({| b_sg := Some g; b_mst := Some (c_mst c0); b_sk := None; b_asis := b_asis st |}, None)
          | Some k =>
              match wkey (set_sk c0 k) (r_p r) with
              | None => ({| b_sg := Some g; b_mst := Some (c_mst c0); b_sk := Some k; b_asis := b_asis st |}, None)
              | Some _ =>
                  ({| b_sg := Some g; b_mst := Some (c_mst c0); b_sk := Some k;
                      b_asis := if same_sg then true else match g_alive g with [] => false | _ => true end |},
                   match route_in (set_sk c0 k) g (r_p r) with Some s => Some (g, s) | None => None end)
              end
          end
      end
  end.

Fixpoint batch_run (use_cache : bool) (st : bstate) (rows : list brow) : list (option (group * shard)) :=
  match rows with
  | [] => []
  | r :: rest => let x := batch_step use_cache st r in snd x :: batch_run use_cache (fst x) rest
  end.

(* the loop of TargetShards over the tag sets; None = "return every alive shard" *)
Fixpoint tloop (v : variant) (c : cfg) (g : group) (acc : str) (tss : list tagset) : option (list shard) :=
  match tss with
  | [] => Some []
  | ts :: rest =>
      let r := sel_keys (c_sk c) (sort_tags ts) in
      let key := (if v_reset v then c_mst c else acc) ++ key_suffix (fst r) in
      match c_typ c with
      | Range => match tloop v c g key rest with
                 | Some res => Some (filter (fun s => contain_prefix s key) (g_shards g) ++ res)
                 | None => None
                 end
      | Hash => if snd r then
                  match tloop v c g key rest with
                  | Some res => Some (match shard_for c (hash (after_name c key)) g with
                                      | Some s => [s] | None => [] end ++ res)
                  | None => None
                  end
                else None
      end
  end.

Definition target_group (v : variant) (c : cfg) (g : group) (cond : option expr) : list shard :=
  match c_sk c with
  | [] => all_alive g
  | _ => match cond with
         | None => all_alive g
         | Some e => match cond_tags v (c_tagkeys c) e with
                     | None => all_alive g
                     | Some tss => match tloop v c g (c_mst c) tss with Some res => res | None => all_alive g end
                     end
         end
  end.

(* TargetShardsHintQuery (full_series hint): only a condition that yields exactly one tag set prunes. Before commit 60b7ba9 (rep = false)
   the hashed key is built from ALL tags of that set (UnmarshalShardKeyByTag(nil)); repaired: from the measurement's shard-key tags, and
   no pruning when the set does not bind all of them. Without a shard key the key is the measurement name and all tags
   of the set, as on the write side when the set is the row's full tag set. *)
Definition hint_point (sorted : tagset) : point := {| p_tags := sorted; p_time := 0; p_leaf := fun _ => false |}.
Definition target_hint (rep : bool) (v : variant) (c : cfg) (g : group) (cond : option expr) : list shard :=
  match cond with
  | None => all_alive g
  | Some e =>
      match cond_tags v (c_tagkeys c) e with
      | Some [ts] =>
          let sorted := sort_tags ts in
          let one := fun key => match shard_for c (hash key) g with Some s => [s] | None => [] end in
          if rep then
            (* the real code builds a Row from the tag set and calls the write path's UnmarshalShardKeyByTag: duplicate
               tags or a missing shard-key tag = no pruning *)
            match wkey c (hint_point sorted) with
            | Some ps => one (hash_arg c ps)
            | None => all_alive g
            end
          else match c_sk c with
               | [] => one (c_mst c ++ key_suffix sorted)
               | _ => one (tl (key_suffix sorted))
               end
      | _ => all_alive g
      end
  end.

(* Hint queries on a RANGE-sharded measurement. Before commit 17a4804 getShardsAndSeriesKeyForHintQuery always hashes (ShardFor), although
   the write path places rows of a range-sharded measurement by key range (DestShard): range_rep = false is target_hint,
   i.e. that code; range_rep = true looks the key (measurement name + shard-key pairs, as on the write side) up by range. *)
Definition opt_shard (o : option shard) : list shard := match o with Some s => [s] | None => [] end.
Definition target_hint_range (range_rep : bool) (v : variant) (c : cfg) (g : group) (cond : option expr) : list shard :=
  match c_typ c, range_rep with
  | Range, true =>
      match cond with
      | None => all_alive g
      | Some e =>
          match cond_tags v (c_tagkeys c) e with
          | Some [ts] =>
              match wkey c (hint_point (sort_tags ts)) with
              | Some ps => opt_shard (dest_shard (c_mst c ++ key_suffix ps) g)
              | None => all_alive g
              end
          | _ => all_alive g
          end
      end
  | _, _ => target_hint true v c g cond
  end.
(* specific_series: prunes only when the single tag set has as many entries as the schema has tags *)
Definition target_hint_kind (specific : bool) (range_rep : bool) (v : variant) (c : cfg) (g : group) (cond : option expr)
  : list shard :=
  if specific then
    match cond with
    | None => all_alive g
    | Some e => match cond_tags v (c_tagkeys c) e with
                | Some [ts] => if Nat.eqb (length ts) (length (c_tagkeys c)) then target_hint_range range_rep v c g cond
                               else all_alive g
                | _ => all_alive g
                end
    end
  else target_hint_range range_rep v c g cond.

(* hard-write (coordinator.hard-write = true): writes hash over EVERY shard of the group, whatever the state of the partitions.
   Before commit 93c95e0 the read side hashes over the shards alive when the query runs. Repair (props/C11/fix5.patch, mapMstShards): look
   the key up in the list the writes use, then keep the shards that are alive. *)
Definition full_list (g : group) : list nat := seq 0 (length (g_shards g)).
Definition is_alive_b (g : group) (s : shard) : bool := existsb (fun x => N.eqb (s_id x) (s_id s)) (all_alive g).
Definition target_group_hw (v : variant) (c : cfg) (g : group) (cond : option expr) : list shard :=
  filter (is_alive_b g) (target_group v c (set_alive g (full_list g)) cond).
Definition target_hint_hw (specific range_rep : bool) (v : variant) (c : cfg) (g : group) (cond : option expr) : list shard :=
  filter (is_alive_b g) (target_hint_kind specific range_rep v c (set_alive g (full_list g)) cond).

Definition g_overlaps (g : group) (tmin tmax : Z) : bool := (g_start g <=? tmax) && (tmin <? g_end g).
Definition query_groups (c : cfg) (tmin tmax : Z) : list group :=
  filter (fun g => negb (g_deleted g) && g_overlaps g tmin tmax) (c_groups c).

(* what the read path consults: (group id, shard id) *)
Definition target (v : variant) (c : cfg) (tmin tmax : Z) (cond : option expr) : list (N * N) :=
  flat_map (fun g => map (fun s => (g_id g, s_id s)) (target_group v c g cond)) (query_groups c tmin tmax).

(* mapMstShards: the shard key used for pruning; before commit e63fda7 the key of the FIRST selected group is kept for all
   groups (per_group_key = false), repaired: the key in force for each group *)
Definition target_m (v : variant) (per_group_key : bool) (m : mcfg) (tmin tmax : Z) (cond : option expr) : list (N * N) :=
  let qs := query_groups (m_cfg m) tmin tmax in
  flat_map (fun g =>
              let gid := if per_group_key then g_id g else match qs with g0 :: _ => g_id g0 | [] => g_id g end in
              map (fun s => (g_id g, s_id s)) (target_group v (cfg_at m gid) g cond)) qs.

(* mapMstShards with an arbitrary rule for the key in force (per group): rkey_in_force is the code's rule *)
Definition target_m_by (keyf : mcfg -> N -> option (list str)) (v : variant) (m : mcfg) (tmin tmax : Z) (cond : option expr)
  : list (N * N) :=
  flat_map (fun g => map (fun s => (g_id g, s_id s)) (target_group v (cfg_with m (keyf m (g_id g))) g cond))
           (query_groups (m_cfg m) tmin tmax).

Definition consulted (v : variant) (c : cfg) (tmin tmax : Z) (cond : option expr) (gs : group * shard) : bool :=
  existsb (fun x => N.eqb (fst x) (g_id (fst gs)) && N.eqb (snd x) (s_id (snd gs))) (target v c tmin tmax cond).

(* rows a query returns out of a set of written rows: those stored in a consulted shard that satisfy the query *)
Definition answer (v : variant) (c : cfg) (tmin tmax : Z) (cond : option expr) (ps : list point) : list point :=
  filter (fun p => match route c p with
                   | Some gs => consulted v c tmin tmax cond gs && (tmin <=? p_time p) && (p_time p <=? tmax) && eval_cond c cond p
                   | None => false
                   end) ps.
End WithHash.

(* ------------------------------------------------------------------ XXH64 (seed 0), the repository's HashID; used by the
   correspondence and the witnesses only - the theorems quantify over the hash *)
Open Scope N_scope.
Definition m64 : N := 18446744073709551616.
Definition P1 : N := 11400714785074694791.
Definition P2 : N := 14029467366897019727.
Definition P3 : N := 1609587929392839161.
Definition P4 : N := 9650029242287828579.
Definition P5 : N := 2870177450012600261.
Definition add64 (a b : N) := (a + b) mod m64.
Definition mul64 (a b : N) := (a * b) mod m64.
Definition rotl64 (x : N) (r : N) := N.lor (N.shiftl x r mod m64) (N.shiftr x (64 - r)).
Fixpoint le_bytes (l : list N) : N := match l with [] => 0 | b :: r => b + 256 * le_bytes r end.
Definition xround (acc inp : N) := mul64 (rotl64 (add64 acc (mul64 inp P2)) 31) P1.
Definition xmerge (acc v : N) := add64 (mul64 (N.lxor acc (xround 0 v)) P1) P4.

Fixpoint stripes (fuel : nat) (l : list N) (v : N * N * N * N) : (N * N * N * N) * list N :=
  match fuel with
  | O => (v, l)
  | S f =>
      if (32 <=? length l)%nat then
        let '(v1, v2, v3, v4) := v in
        stripes f (skipn 32 l)
          (xround v1 (le_bytes (firstn 8 l)), xround v2 (le_bytes (firstn 8 (skipn 8 l))),
           xround v3 (le_bytes (firstn 8 (skipn 16 l))), xround v4 (le_bytes (firstn 8 (skipn 24 l))))
      else (v, l)
  end.
Fixpoint tail8 (fuel : nat) (l : list N) (h : N) : N * list N :=
  match fuel with
  | O => (h, l)
  | S f => if (8 <=? length l)%nat
           then tail8 f (skipn 8 l) (add64 (mul64 (rotl64 (N.lxor h (xround 0 (le_bytes (firstn 8 l)))) 27) P1) P4)
           else (h, l)
  end.
Definition tail4 (l : list N) (h : N) : N * list N :=
  if (4 <=? length l)%nat
  then (add64 (mul64 (rotl64 (N.lxor h (mul64 (le_bytes (firstn 4 l)) P1)) 23) P2) P3, skipn 4 l)
  else (h, l).
Fixpoint tail1 (l : list N) (h : N) : N :=
  match l with [] => h | b :: r => tail1 r (mul64 (rotl64 (N.lxor h (mul64 b P5)) 11) P1) end.
Definition avalanche (h : N) : N :=
  let h := N.lxor h (N.shiftr h 33) in let h := mul64 h P2 in
  let h := N.lxor h (N.shiftr h 29) in let h := mul64 h P3 in N.lxor h (N.shiftr h 32).
Definition xxh64 (l : list N) : N :=
  let n := N.of_nat (length l) in
  let '(h0, rest) :=
    if (32 <=? length l)%nat then
      let '((v1, v2, v3, v4), rest) := stripes (length l) l (add64 P1 P2, P2, 0, (m64 - P1)) in
      let h := add64 (add64 (rotl64 v1 1) (rotl64 v2 7)) (add64 (rotl64 v3 12) (rotl64 v4 18)) in
      (xmerge (xmerge (xmerge (xmerge h v1) v2) v3) v4, rest)
    else (P5, l) in
  let h := add64 h0 n in
  let '(h, rest) := tail8 (length rest) rest h in
  let '(h, rest) := tail4 rest h in
  avalanche (tail1 rest h).
