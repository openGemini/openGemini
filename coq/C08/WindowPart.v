(* C08: the buckets of GROUP BY time(d, off) PARTITION the time line. Window.v proves that the window of t contains t; a
   grouped aggregate is well defined only if, beyond that, every time of a window has that same window (no time belongs to
   two buckets, no bucket is cut in two), the bucket function is monotone (rows ordered by time meet their buckets in
   order, which the store-side and executor stages rely on when they close a bucket at the first row of the next one) and
   adjacent buckets tile the line (the fill path walks from one window's end to the next window's start). Inside the
   representable range the window has the closed form below, from which Props.v reads these facts off. `window` is the
   model of ProcessorOptions.Window that the correspondence check of run.py (`op-window`) runs against the real function. *)
From Coq Require Import ZArith Lia.
From OG Require Import C08.Window.
Local Open Scope Z_scope.

Definition in_range (t d off : Z) : Prop := min_time + d < t - off /\ t - off < max_time - d.

Lemma window_closed_form : forall t d off, 0 < d -> in_range t d off ->
  window t d off = (off + d * ((t - off) / d), off + d * ((t - off) / d) + d).
Proof.
  intros t d off Hd [Hlo Hhi]. pose proof (window_spec t d off Hd Hlo Hhi) as H.
  destruct (window t d off) as [s e]. destruct H as (_ & He & _ & Hs). subst e. subst s. reflexivity.
Qed.

Theorem window_start_fixed : forall t d off, 0 < d -> in_range t d off ->
  window (fst (window t d off)) d off = window t d off.
Proof.
  intros t d off Hd Ht. pose proof Ht as [Hlo Hhi]. pose proof (window_spec t d off Hd Hlo Hhi) as H.
  rewrite (window_closed_form t d off Hd Ht) in *. cbn [fst]. destruct H as (Hc & _).
  unfold window. cbv zeta. rewrite (wdt_mod _ _ Hd).
  replace (off + d * ((t - off) / d) - off) with (((t - off) / d) * d) by lia.
  rewrite Z_mod_mult.
  pose proof (Z.mod_pos_bound (t - off) d Hd) as Hb. pose proof (Z.div_mod (t - off) d ltac:(lia)) as Hdm.
  destruct (Z.geb_spec (min_time + 0) ((t - off) / d * d)); [lia|].
  destruct (Z.leb_spec (max_time - (d - 0)) ((t - off) / d * d)); [lia|].
  f_equal; lia.
Qed.

(* the seeded change C08-m7 (Window.window_nocorr: no correction of the negative remainder) cuts a bucket in two *)
Theorem window_nocorr_not_constant : exists t t' d,
  0 < d /\ fst (window t d 0) <= t' < snd (window t d 0) /\ window_nocorr t' d 0 <> window_nocorr t d 0.
Proof. exists (-10), (-7), 10. split; [lia|]. split; [vm_compute; split; [intros H; discriminate H | reflexivity]|]. vm_compute. intros H. discriminate H. Qed.

Example window_partition_examples :
  in_range (-7) 10 3 /\ in_range (-17) 10 0 /\
  window (-7) 10 3 = (-7, 3) /\ window 2 10 3 = (-7, 3) /\ window 3 10 3 = (3, 13) /\
  window (-11) 10 0 = (-20, -10) /\ window (-20) 10 0 = (-20, -10) /\ window (-10) 10 0 = (-10, 0).
Proof. unfold in_range. vm_compute. repeat split; intros H; discriminate H. Qed.

Example window_shift_examples :
  window (-7 + (-3) * 10) 10 3 = (-7 + (-3) * 10, 3 + (-3) * 10) /\ window (-7) 10 (3 + 2 * 10) = window (-7) 10 3 /\
  window (-7) 10 (3 - 10) = (-7, 3).
Proof. vm_compute. repeat split. Qed.
