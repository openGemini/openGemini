(* C08: behaviour that violates the property, each on its variant of the model: FillTransform as it is today
   (eval_query_current: fill(previous) of a descending query in iteration order; the split path of a descending group),
   FillTransform, the column-store row filter and the LIMIT pruning as they were before their fixes (7eff930, 9647ea6,
   f47e8f7), and the seeded change C08-m7 of the bucket function. *)
From Coq Require Import ZArith List.
From OG Require Import C08.Model C08.Proofs C08.Rpn C08.Prune C08.Window.
Import ListNotations.
Open Scope Z_scope.

Theorem C08_fill_previous_desc_refuted : exists db q,
  has_limit q = false /\
  eval_query_current db (set_desc q true) <> rev_answer (eval_query_current db (set_desc q false)).
Proof.
  exists [([3], [(2, [Some 72]); (6, [Some 8])])].
  exists (mkQ (SelAgg [(FMax, 0%nat, 8)]) (Some 0) (Some 14) PTrue [] 5 FillPrev 0 0 false).
  split; [reflexivity|]. vm_compute. discriminate.
Qed.
Print Assumptions C08_fill_previous_desc_refuted.

(* FillTransform split path, descending (computeGroup): with today's windows the last window of a group of 4
   windows re-cut with ChunkSize 2 lies in no sub-chunk - its row is lost (finding C08-fill-split-path) *)
Theorem C08_desc_subchunks_current_refuted : exists size cs k,
  (0 < cs)%nat /\ (k < size)%nat /\ covered in_subchunk_current size cs k = false.
Proof. exists 4%nat, 2%nat, 3%nat. repeat split; try (cbv; auto with arith). Qed.
Print Assumptions C08_desc_subchunks_current_refuted.

(* fast path of FillTransform.fill before fix 7eff930 (finding C08-fill-null-count-fastpath): with the fast path the output depends on
   the chunking - one chunk holding all 2 windows is forwarded with its null count(), two chunks are filled *)
Theorem C08_fill_fast_path_current_refuted : exists i first last aggs c1 c2,
  concat c1 = concat c2 /\
  fill_group_chunks_fast_current i first last FillNull aggs c1 <> fill_group_chunks_fast_current i first last FillNull aggs c2.
Proof.
  exists 10, 0, 10, [(FCount, 0%nat, 1); (FSum, 1%nat, 1)].
  exists [[(0, [CNull; CVal 5]); (10, [CVal 2; CVal 7])]].
  exists [[(0, [CNull; CVal 5])]; [(10, [CVal 2; CVal 7])]].
  split; [reflexivity|]. vm_compute. discriminate.
Qed.
Print Assumptions C08_fill_fast_path_current_refuted.

(* fill(previous) bookkeeping by "row before the gap", before fix 7eff930 (finding C08-fill-previous-multicolumn): differs from the
   per-column previous value as soon as that row is null in the column *)
Theorem C08_fill_previous_lastrow_current_refuted : exists aggs rows,
  fill_rows_lastrow aggs (null_cells aggs) rows <> fill_rows FillPrev aggs (null_cells aggs) rows.
Proof.
  exists [(FSum, 0%nat, 1); (FMax, 1%nat, 1)].
  exists [(0, [CVal 7; CNull]); (10, [CNull; CVal 36]); (20, [CNull; CNull])].
  vm_compute. discriminate.
Qed.
Print Assumptions C08_fill_previous_lastrow_current_refuted.

(* column-store row filter before fix 9647ea6 (finding C08-columnstore-rowfilter-operand-order): with pending comparisons and results on two
   stacks and the dispatch on the number of pending comparisons, A AND (B OR (C OR D)) is not the value of the tree *)
Theorem C08_rpn_two_stack_refuted : exists (holds : nat -> bool) (t : @ctree nat),
  run2 holds (rpn t) <> Some ([], [teval holds t]).
Proof. exact rpn_two_stack_refuted. Qed.
Print Assumptions C08_rpn_two_stack_refuted.

(* series pruning under LIMIT before fix f47e8f7 (finding C08-limit-prune-time-range): the key of a series is the bound of its first
   chunk overlapping the range, not clipped to the range; a series with an older point displaces the series that holds the
   first row *)
Theorem C08_limit_prune_current_refuted :
  limit_answer 1 (prune_current 1 [wA; wB]) <> limit_answer 1 (map snd [wA; wB]).
Proof. exact prune_current_refuted. Qed.
Print Assumptions C08_limit_prune_current_refuted.

(* the bucket function without the correction of Go's negative remainder (seeded change C08-m7): a time before the epoch
   leaves its bucket *)
Theorem C08_window_nocorr_refuted : exists t d, (0 < d)%Z /\ ~ (fst (window_nocorr t d 0) <= t)%Z.
Proof. exists (-7), 10. split; [reflexivity|]. vm_compute. intros H. apply H. reflexivity. Qed.
Print Assumptions C08_window_nocorr_refuted.
