(* C08 property theorems with Print Assumptions; the longer proofs are in the files imported below.
   PARTIAL: the theorems are about the model (reference semantics L1 and chunk-stream operators L2 of Model.v);
   the repository's operators are tied to it by the black-box correspondence only (props/C08/NOTES.md). *)
From Coq Require Import ZArith List Bool Lia Permutation Sorted.
From OG Require Import C08.Model C08.Order C08.Proofs C08.Pipe C08.DescMerge C08.PipeProofs C08.Rpn C08.Prune C08.Window C08.WindowPart.
Import ListNotations.

(* Every operator that is a state machine over rows gives the same output and final state for every cut of its
   input stream into chunks (chunk sizes arbitrary, cuts may fall inside a group or a time bucket). *)
Theorem C08_machine_chunking_invariant : forall {X Y St} (step : St -> X -> St * list Y) sizes st xs,
  run_chunks step st (cut sizes xs) = run step st xs.
Proof. exact @machine_chunking_invariant. Qed.
Print Assumptions C08_machine_chunking_invariant.

(* Aggregation with the one-chunk look-ahead of StreamAggregateTransform (the pending group / time window is
   emitted with its chunk unless the next chunk continues it): flatten (agg (cut c rows)) = agg_spec rows. *)
Theorem C08_agg_chunking_invariant : forall {K V A} (keq : K -> K -> bool) (inj : V -> A) (op : A -> A -> A) sizes rows,
  concat (agg_chunks keq inj op (same_group keq) None (cut sizes rows)) = agg_spec keq inj op rows.
Proof. exact @agg_chunking_invariant_lemma. Qed.
Print Assumptions C08_agg_chunking_invariant.

Theorem C08_limit_chunking_invariant : forall {X} (off lim : nat) sizes (xs : list X),
  snd (run_chunks (limit_step off lim) 0%nat (cut sizes xs)) = firstn lim (skipn off xs).
Proof. exact @limit_chunking_invariant_lemma. Qed.
Print Assumptions C08_limit_chunking_invariant.

Theorem C08_fill_chunking_invariant : forall i m aggs sizes st rows,
  run_chunks (fill_step i m aggs) st (cut sizes rows) = run (fill_step i m aggs) st rows.
Proof. intros. apply machine_chunking_invariant. Qed.
Print Assumptions C08_fill_chunking_invariant.

(* k-way merge of the per-reader streams: sorted, and exactly the rows of the inputs *)
Theorem C08_merge_k_sorted_perm : forall ls,
  Forall (Sorted row_le) ls -> Sorted row_le (merge_k ls) /\ Permutation (merge_k ls) (concat ls).
Proof. intros ls H. split; [exact (merge_k_sorted ls H) | exact (merge_k_perm ls)]. Qed.
Print Assumptions C08_merge_k_sorted_perm.

(* partial aggregates: for a commutative monoid the answer does not depend on how the rows are partitioned over
   parallel readers, nor on the order inside or between the parts *)
Theorem C08_split_invariant : forall {A} (op : A -> A -> A) (e : A),
  (forall a b c, op a (op b c) = op (op a b) c) -> (forall a b, op a b = op b a) -> (forall a, op e a = a) ->
  forall parts all, Permutation (concat parts) all -> mfold op e (map (mfold op e) parts) = mfold op e all.
Proof. exact @split_invariant_monoid. Qed.
Print Assumptions C08_split_invariant.

(* instances: count and sum (Z,+,0); mean carried as (sum,count) *)
Theorem C08_split_invariant_sum : forall parts all,
  Permutation (concat parts) all -> mfold Z.add 0%Z (map (mfold Z.add 0%Z) parts) = mfold Z.add 0%Z all.
Proof. exact (split_invariant_monoid Z.add 0%Z Z.add_assoc Z.add_comm Z.add_0_l). Qed.
Theorem C08_split_invariant_mean : forall parts all,
  Permutation (concat parts) all ->
  mfold pair_add (0, 0)%Z (map (mfold pair_add (0, 0)%Z) parts) = mfold pair_add (0, 0)%Z all.
Proof. exact (split_invariant_monoid pair_add (0, 0)%Z pair_add_assoc pair_add_comm pair_add_unit). Qed.
Print Assumptions C08_split_invariant_mean.

(* a descending scan aggregates to the same value *)
Theorem C08_agg_desc_scan : forall {A} (op : A -> A -> A) (e : A),
  (forall a b c, op a (op b c) = op (op a b) c) -> (forall a b, op a b = op b a) ->
  forall l, mfold op e (rev l) = mfold op e l.
Proof. exact @mfold_rev. Qed.

(* the reference semantics: a descending query (without limit/offset) is the ascending answer reversed -
   groups in reverse order, rows of each group in reverse order - for every fill mode *)
Theorem C08_desc_is_rev_asc : forall db q,
  has_limit q = false -> eval_query db (set_desc q true) = rev_answer (eval_query db (set_desc q false)).
Proof. exact desc_is_rev_asc_lemma. Qed.
Print Assumptions C08_desc_is_rev_asc.

(* merging the readers' sorted streams = sorting all rows: the k-way merge is fully determined by its inputs' rows *)
Theorem C08_merge_k_eq_sort_rows : forall ls, Forall (Sorted row_le) ls -> merge_k ls = sort_rows (concat ls).
Proof. exact merge_k_eq_sort_rows. Qed.
Print Assumptions C08_merge_k_eq_sort_rows.

(* L2 = L1 for plain selections (split invariance): for every partition of the member series over parallel readers,
   in any order, sorting per reader and merging gives L1's plain_group *)
Theorem C08_plain_pipeline_refines_eval : forall q cols (parts : list (list series)) ms,
  Permutation (concat parts) ms -> merge_k (map (plain_group q cols) parts) = plain_group q cols ms.
Proof. exact plain_pipeline_refines_eval_lemma. Qed.
Print Assumptions C08_plain_pipeline_refines_eval.

(* L2 = L1 for aggregate queries (Pipe.v): the chunked pipeline
        series cursors -> readers (any partition of the group's series) -> ordered merge -> aggregation with one-chunk
        look-ahead over ANY cut -> finalise -> fill machine over ANY cut
   computes the reference semantics. *)

(* aggregation stage: for every partition of the member series over readers (in any order) and every chunking of the
   merged stream, the finalised partial rows are exactly L1's pre-fill bucket rows: one row per non-empty
   epoch-aligned bucket, each cell the documented aggregate of the selected points of that bucket *)
Theorem C08_agg_stage_refines_eval : forall q aggs (parts : list (list series)) ms sizes,
  (q_interval q =? 0)%Z = false -> Permutation (concat parts) ms ->
  finalize aggs (l2_partials q aggs parts sizes) = prefill_rows (q_interval q) (agg_cols_of q aggs ms).
Proof.
  intros q aggs parts ms sizes E P. unfold l2_partials. rewrite (l2_partials_canon (bkey q) q aggs parts ms sizes P). exact (finalize_canonp q aggs ms E).
Qed.
Print Assumptions C08_agg_stage_refines_eval.

(* fill stage: the fill operator (gaps synthesised before a row, the tail at the end of the group, previous values
   carried) over every chunking of the bucket rows = enumerate every bucket of the range and fill cell-wise *)
Theorem C08_fill_stage_refines_eval : forall i m aggs sizes (rows : list arow) first last n,
  (0 < i)%Z -> Sorted key_lt rows ->
  Forall (fun r : arow => (exists g : nat, fst r = first + i * Z.of_nat g)%Z /\ (fst r <= last)%Z /\
                          length (snd r) = length aggs) rows ->
  (last = first + i * Z.of_nat n - i)%Z ->
  fill_group_chunks i first last m aggs (cut sizes rows) =
  fill_rows m aggs (null_cells aggs) (enumerate_buckets n first i aggs rows).
Proof.
  intros i m aggs sizes rows first last n Hi S F Hl. apply fill_stage_lemma; [lia | | | exact Hl].
  - exact (Sorted_impl _ _ (fun a b => key_lt_ahead i a b Hi) _ S).
  - eapply Forall_impl; [|exact F]. intros r [[g Hg] [Hle Hlen]]. split; [|exact Hlen].
    exists g. split; [nia | exact Hg].
Qed.
Print Assumptions C08_fill_stage_refines_eval.

(* one tag group of an ascending aggregate query: pipeline = L1 (count sum mean min max first last; overall or per
   epoch-aligned bucket; fill none/null/number/previous), for every partition and every two chunkings *)
Theorem C08_agg_pipeline_refines_eval : forall q aggs ms cur (parts : list (list series)) sizes sizes2,
  q_desc q = false -> (0 <= q_interval q)%Z -> Permutation (concat parts) ms ->
  l2_agg_group_asc q aggs parts sizes sizes2 = agg_group cur q aggs ms.
Proof. exact l2_agg_group_asc_lemma. Qed.
Print Assumptions C08_agg_pipeline_refines_eval.

(* the whole answer of an ascending query of the core language (plain selections with limit/offset, aggregates per
   tag group and bucket with fill): for EVERY execution plan - partition of each group's series over readers,
   chunking before the aggregation, before the fill and before the limit operator - the pipeline's answer is the
   reference answer. (Descending queries: C08_pipeline_refines_eval_current / _both_orders below.) *)
Theorem C08_pipeline_refines_eval : forall db q pl,
  q_desc q = false -> (0 <= q_interval q)%Z ->
  (forall k, In k (keys_of q db) -> Permutation (concat (pl_parts pl k)) (members q db k)) ->
  l2_eval_asc db q pl = eval_query db q.
Proof.
  intros db q pl Hd Hi HP. unfold eval_query.
  rewrite <- (eval_gen_cur_irrelevant db q), <- (l2_eval_lemma db q pl Hi HP) by now rewrite Hd.
  unfold l2_eval_asc, l2_eval, l2_group_rows_asc, l2_group_rows. rewrite Hd. destruct (q_sel q); reflexivity.
Qed.
Print Assumptions C08_pipeline_refines_eval.

(* hence two plans give the same answer: parallelism and chunk sizes are unobservable *)
Theorem C08_pipeline_plan_invariant : forall db q pl1 pl2,
  q_desc q = false -> (0 <= q_interval q)%Z ->
  (forall k, In k (keys_of q db) -> Permutation (concat (pl_parts pl1 k)) (members q db k)) ->
  (forall k, In k (keys_of q db) -> Permutation (concat (pl_parts pl2 k)) (members q db k)) ->
  l2_eval_asc db q pl1 = l2_eval_asc db q pl2.
Proof.
  intros db q pl1 pl2 Hd Hi H1 H2.
  rewrite (C08_pipeline_refines_eval db q pl1 Hd Hi H1), (C08_pipeline_refines_eval db q pl2 Hd Hi H2). reflexivity.
Qed.
Print Assumptions C08_pipeline_plan_invariant.

(* Descending queries. The pipeline scans time downwards (the same stages over the mirrored key) and the fill operator
   runs in iteration order from the highest bucket to the lowest, as today's code does. *)

(* one tag group of a descending aggregate query: pipeline = today's reference agg_group true (fill(previous) in
   iteration order), for every partition and every two chunkings *)
Theorem C08_agg_pipeline_desc_refines_current : forall q aggs ms (parts : list (list series)) sizes sizes2,
  q_desc q = true -> (0 <= q_interval q)%Z -> Permutation (concat parts) ms ->
  l2_agg_group_desc q aggs parts sizes sizes2 = agg_group true q aggs ms.
Proof. exact l2_agg_group_desc_lemma. Qed.
Print Assumptions C08_agg_pipeline_desc_refines_current.

(* descending plain selections: the descending ordered merge of the readers' descending streams (SortedMergeTransform with
   opt.Ascending = false) is the whole sorted row set, newest first - L1's descending rows, for every partition *)
Theorem C08_merge_kd_eq_rev_sort : forall ls, Forall (Sorted row_ge) ls -> merge_kd ls = rev (sort_rows (concat ls)).
Proof. exact merge_kd_eq_rev_sort. Qed.
Print Assumptions C08_merge_kd_eq_rev_sort.

Theorem C08_plain_pipeline_desc_refines_eval : forall q cols (parts : list (list series)) ms,
  Permutation (concat parts) ms ->
  merge_kd (map (fun p => rev (plain_group q cols p)) parts) = rev (plain_group q cols ms).
Proof. exact plain_pipeline_desc_lemma. Qed.
Print Assumptions C08_plain_pipeline_desc_refines_eval.

(* the whole answer, ascending or descending: the pipeline computes eval_query_current for EVERY plan ... *)
Theorem C08_pipeline_refines_eval_current : forall db q pl,
  (0 <= q_interval q)%Z ->
  (forall k, In k (keys_of q db) -> Permutation (concat (pl_parts pl k)) (members q db k)) ->
  l2_eval db q pl = eval_query_current db q.
Proof. exact l2_eval_lemma. Qed.
Print Assumptions C08_pipeline_refines_eval_current.

(* ... which is the documented semantics eval_query unless the query is descending AND uses fill(previous)
   (finding C08-fill-previous-desc, refuted in Refuted.v) *)
Theorem C08_pipeline_refines_eval_both_orders : forall db q pl,
  (0 <= q_interval q)%Z -> (q_desc q && is_prev (q_fill q))%bool = false ->
  (forall k, In k (keys_of q db) -> Permutation (concat (pl_parts pl k)) (members q db k)) ->
  l2_eval db q pl = eval_query db q.
Proof.
  intros db q pl Hi Hp HP. rewrite (l2_eval_lemma db q pl Hi HP). exact (eval_gen_cur_irrelevant db q Hp).
Qed.
Print Assumptions C08_pipeline_refines_eval_both_orders.

(* hence, at L2: the descending pipeline answer is the ascending pipeline answer reversed (no limit/offset, no
   descending fill(previous)), whatever the two plans *)
Theorem C08_pipeline_desc_is_rev_asc : forall db q pl1 pl2,
  (0 <= q_interval q)%Z -> has_limit q = false -> is_prev (q_fill q) = false ->
  (forall k, In k (keys_of q db) -> Permutation (concat (pl_parts pl1 k)) (members q db k)) ->
  (forall k, In k (keys_of q db) -> Permutation (concat (pl_parts pl2 k)) (members q db k)) ->
  l2_eval db (set_desc q true) pl1 = rev_answer (l2_eval db (set_desc q false) pl2).
Proof.
  intros db q pl1 pl2 Hi HL Hp H1 H2.
  rewrite (C08_pipeline_refines_eval_both_orders db (set_desc q true) pl1 Hi); [| cbn [set_desc q_desc q_fill andb]; exact Hp | exact H1].
  rewrite (C08_pipeline_refines_eval_both_orders db (set_desc q false) pl2 Hi); [| reflexivity | exact H2].
  exact (desc_is_rev_asc_lemma db q HL).
Qed.
Print Assumptions C08_pipeline_desc_is_rev_asc.

(* two stage facts on their own: the limit operator over any chunking is limit_rows, and the cell-wise fill of a
   concatenation carries the previous values across the seam *)
Theorem C08_pipeline_refines_eval_partial :
  (forall q sizes rows, (0 <? q_limit q)%Z = true ->
     limit_rows q rows = snd (run_chunks (limit_step (Z.to_nat (q_offset q)) (Z.to_nat (q_limit q))) 0%nat (cut sizes rows)))
  /\
  (forall m aggs a b prev,
     fill_rows m aggs prev (a ++ b) =
     fill_rows m aggs prev a ++ fill_rows m aggs (fold_left (fun p r => snd (fill_cells m aggs p (snd r))) a prev) b).
Proof.
  split.
  - intros q sizes rows H. unfold limit_rows. rewrite H. symmetry. apply limit_chunking_invariant_lemma.
  - exact fill_rows_app.
Qed.
Print Assumptions C08_pipeline_refines_eval_partial.

(* operator level (one group): the fill operator - machine over the chunks, then the tail - gives the same rows for
   every chunking of the group's bucket rows; this is the operator the real FillTransform is compared with *)
Theorem C08_fill_operator_chunking_invariant : forall i first last m aggs chunks,
  fill_group_chunks i first last m aggs chunks = fill_group_chunks i first last m aggs [concat chunks].
Proof. intros. unfold fill_group_chunks. rewrite !run_chunks_concat. cbn [concat]. now rewrite app_nil_r. Qed.
Print Assumptions C08_fill_operator_chunking_invariant.

(* split path, repaired sub-chunk windows of a descending group: every window of the group lies in some sub-chunk *)
Theorem C08_desc_subchunks_repaired_cover : forall size cs k,
  (0 < cs)%nat -> (k < size)%nat -> covered in_subchunk_repaired size cs k = true.
Proof. exact subchunks_repaired_cover. Qed.
Print Assumptions C08_desc_subchunks_repaired_cover.

(* non-vacuity: a concrete data base and queries *)
Example C08_example :
  let db : database := [([1%Z], [(1, [Some 12]); (2, [Some 20]); (7, [Some 32])]%Z);
                        ([2%Z], [(2, [Some 72]); (6, [Some 8])]%Z)] in
  let q := mkQ (SelAgg [(FSum, 0%nat, 8%Z)]) (Some 0%Z) (Some 14%Z) PTrue [] 5%Z FillPrev 0%Z 0%Z false in
  eval_query db q = [([], [(0, [CVal 104]); (5, [CVal 40]); (10, [CVal 40])]%Z)] /\
  eval_query db (set_desc q true) = [([], [(10, [CVal 40]); (5, [CVal 40]); (0, [CVal 104])]%Z)].
Proof. vm_compute. split; reflexivity. Qed.

(* non-vacuity of the pipeline theorem: a plan with two readers (series split 1 + 2, listed in another order than the
   data base), chunks of 1, 2, 1.. rows before the aggregation and of 2 rows before the fill *)
Example C08_pipeline_example :
  let s1 : series := ([1%Z], [(1, [Some 12]); (2, [Some 20]); (7, [Some 32])]%Z) in
  let s2 : series := ([2%Z], [(2, [Some 72]); (6, [Some 8])]%Z) in
  let s3 : series := ([1%Z], [(3, [None]); (12, [Some 5])]%Z) in
  let db : database := [s1; s2; s3] in
  let q := mkQ (SelAgg [(FSum, 0%nat, 8%Z); (FLast, 0%nat, 8%Z)]) (Some 0%Z) (Some 24%Z) PTrue [] 5%Z FillPrev 0%Z 0%Z false in
  let pl := mkPlan (fun _ => [[s3]; [s2; s1]]) (fun _ => [0; 1; 0]%nat) (fun _ => [1]%nat) (fun _ => []) in
  (forall k, In k (keys_of q db) -> Permutation (concat (pl_parts pl k)) (members q db k)) /\
  l2_eval_asc db q pl = eval_query db q /\
  eval_query db q = [([], [(0, [CVal 104; CVal 72]); (5, [CVal 40; CVal 32]); (10, [CVal 5; CVal 5]);
                           (15, [CVal 5; CVal 5]); (20, [CVal 5; CVal 5])]%Z)].
Proof.
  cbv zeta. split; [|split; vm_compute; reflexivity].
  intros k Hk. vm_compute in Hk. destruct Hk as [<-|[]]. vm_compute.
  apply Permutation_sym. apply (Permutation_cons_app [_; _] []). cbn [app]. apply perm_swap.
Qed.

(* non-vacuity of the descending pipeline theorems: the same data, descending, fill(0): *)
Example C08_pipeline_desc_example :
  let s1 : series := ([1%Z], [(1, [Some 12]); (2, [Some 20]); (7, [Some 32])]%Z) in
  let s2 : series := ([2%Z], [(2, [Some 72]); (6, [Some 8])]%Z) in
  let s3 : series := ([1%Z], [(3, [None]); (12, [Some 5])]%Z) in
  let db : database := [s1; s2; s3] in
  let q := mkQ (SelAgg [(FSum, 0%nat, 8%Z); (FLast, 0%nat, 8%Z)]) (Some 0%Z) (Some 24%Z) PTrue [] 5%Z (FillNum 0) 0%Z 0%Z true in
  let pl := mkPlan (fun _ => [[s3]; [s2; s1]]) (fun _ => [0; 1; 0]%nat) (fun _ => [1]%nat) (fun _ => []) in
  l2_eval db q pl = eval_query db q /\
  eval_query db q = [([], [(20, [CVal 0; CVal 0]); (15, [CVal 0; CVal 0]); (10, [CVal 5; CVal 5]);
                           (5, [CVal 40; CVal 32]); (0, [CVal 104; CVal 72])]%Z)].
Proof. cbv zeta. split; vm_compute; reflexivity. Qed.

(* conditions in reverse Polish notation (column-store row filter): evaluating the RPN of a condition tree with ONE operand
   stack - an operator takes its two most recent operands, whatever they are - gives the value of the tree, for every tree
   and every row. (The two-stack dispatch of the code before fix 9647ea6 is refuted in Refuted.v: C08_rpn_two_stack_refuted.) *)
Theorem C08_rpn_single_stack_eq_tree : forall {Atom} (holds : Atom -> bool) (t : ctree),
  run1 holds (rpn t) (Some []) = Some [teval holds t].
Proof. exact @rpn_single_stack_eq_tree. Qed.
Print Assumptions C08_rpn_single_stack_eq_tree.

(* series pruning under LIMIT (engine/iterators.go itrsInitWithLimit + topNLinkedList; finding C08-limit-prune-time-range).
   General criterion: leaving series out does not change the first m rows of the ordered merge when every row of a series
   left out has at least m kept rows strictly before it. *)
Theorem C08_limit_prune_unobservable : forall m kept dropped,
  (forall d, In d (concat dropped) -> (m <= nlt d (concat kept))%nat) ->
  limit_answer m (kept ++ dropped) = limit_answer m kept.
Proof. exact prune_unobservable. Qed.
Print Assumptions C08_limit_prune_unobservable.

(* the repaired rule (props/C08/fix5.patch, in /repo as f47e8f7): series whose key lies before the range are never left out, the others are
   ranked by their key and the m smallest are kept; a key inside the range is the time of the series' first row. Then the
   LIMIT answer over the pruned set is the answer over all series (no two series with a row at the same instant: the order
   of such rows is finding C08-tie-order). *)
Theorem C08_limit_prune_repaired_sound : forall lo m ks,
  Forall (fun k => Sorted row_le (snd k) /\ snd k <> []) ks ->
  (forall k, In k ks -> (lo <= fst k)%Z -> fst k = first_time (snd k)) ->
  NoDup (map fst (concat (map snd ks))) ->
  limit_answer m (prune_repaired lo m ks) = limit_answer m (map snd ks).
Proof. exact prune_repaired_alg_sound. Qed.
Print Assumptions C08_limit_prune_repaired_sound.

(* characterisation of the rule before that fix (every series ranked): right whenever every key is a first time, i.e. no series holds
   a stored point outside the range on the side the scan starts from - the signature of C08-limit-prune-time-range *)
Theorem C08_limit_prune_current_sound_exact_keys : forall m ks,
  Forall (fun k => Sorted row_le (snd k) /\ snd k <> []) ks ->
  (forall k, In k ks -> fst k = first_time (snd k)) ->
  NoDup (map fst (concat (map snd ks))) ->
  limit_answer m (prune_current m ks) = limit_answer m (map snd ks).
Proof. exact prune_current_sound_exact_keys. Qed.
Print Assumptions C08_limit_prune_current_sound_exact_keys.

(* non-vacuity: range [10, ..), LIMIT 1, series A = {0 (outside), 100}, series B = {50}: the repaired rule keeps A unranked *)
Example C08_limit_prune_example :
  limit_answer 1 (prune_repaired 10 1 [wA; wB]) = limit_answer 1 (map snd [wA; wB]) /\
  limit_answer 1 (map snd [wA; wB]) = [(50, [CVal 2])]%Z.
Proof. split; vm_compute; reflexivity. Qed.

(* the bucket function of GROUP BY time(d, off) (ProcessorOptions.Window, Go arithmetic: truncating %, corrected negative
   remainder, clamps at MinTime / MaxTime): for every t more than d inside the clamps - before the epoch too - the window contains t, is d long, starts at
   off + a multiple of d, and with off = 0 its start is the bucket of the reference semantics *)
Theorem C08_window_spec : forall t d off, (0 < d)%Z ->
  (min_time + d < t - off)%Z -> (t - off < max_time - d)%Z ->
  let (s, e) := window t d off in
  (s <= t < s + d)%Z /\ e = (s + d)%Z /\ ((s - off) mod d = 0)%Z /\ s = (off + d * ((t - off) / d))%Z.
Proof. exact window_spec. Qed.
Print Assumptions C08_window_spec.
Theorem C08_window_start_is_model_bucket : forall t d, (0 < d)%Z -> (min_time + d < t)%Z -> (t < max_time - d)%Z ->
  fst (window t d 0) = bucket d t.
Proof.
  intros t d Hd Hlo Hhi. unfold bucket. rewrite (Z.mul_comm (t / d) d). pose proof (window_spec t d 0 Hd) as H. rewrite !Z.sub_0_r in H. specialize (H Hlo Hhi).
  destruct (window t d 0) as [s e]. cbn. rewrite Z.sub_0_r in H. lia.
Qed.
Print Assumptions C08_window_start_is_model_bucket.
Theorem C08_window_contains : forall t d off, (0 < d)%Z -> (min_time <= t - off <= max_time)%Z ->
  let (s, e) := window t d off in (s <= t)%Z /\ ((t < e)%Z \/ e = (max_time + off)%Z).
Proof.
  intros t d off Hd Hr. unfold window. cbv zeta. rewrite (wdt_mod _ _ Hd).
  pose proof (Z.mod_pos_bound (t - off) d Hd) as Hb.
  destruct (Z.geb_spec (min_time + (t - off) mod d) (t - off));
  destruct (Z.leb_spec (max_time - (d - (t - off) mod d)) (t - off)); lia.
Qed.
Print Assumptions C08_window_contains.

(* the buckets PARTITION the time line (WindowPart.v): every time of a window has that window, different windows are
   disjoint, the bucket function is monotone in t, a window's start is its own window and its end starts the next one *)
Theorem C08_window_constant_on_bucket : forall t t' d off, (0 < d)%Z -> in_range t d off -> in_range t' d off ->
  (fst (window t d off) <= t' < snd (window t d off))%Z -> window t' d off = window t d off.
Proof.
  intros t t' d off Hd Ht Ht' Hin. rewrite (window_closed_form t d off Hd Ht) in *.
  rewrite (window_closed_form t' d off Hd Ht'). cbn [fst snd] in Hin.
  assert (Hq : ((t' - off) / d = (t - off) / d)%Z).
  { symmetry. apply (Z.div_unique_pos (t' - off) d ((t - off) / d) (t' - off - d * ((t - off) / d))); lia. }
  rewrite Hq. reflexivity.
Qed.
Print Assumptions C08_window_constant_on_bucket.
Theorem C08_window_disjoint : forall t1 t2 d off, (0 < d)%Z -> in_range t1 d off -> in_range t2 d off ->
  window t1 d off <> window t2 d off ->
  (snd (window t1 d off) <= fst (window t2 d off))%Z \/ (snd (window t2 d off) <= fst (window t1 d off))%Z.
Proof.
  intros t1 t2 d off Hd H1 H2 Hne.
  rewrite (window_closed_form t1 d off Hd H1) in *. rewrite (window_closed_form t2 d off Hd H2) in *. cbn [fst snd].
  destruct (Z.lt_trichotomy ((t1 - off) / d) ((t2 - off) / d)) as [Hlt|[Heq|Hgt]].
  - left. nia.
  - exfalso. apply Hne. rewrite Heq. reflexivity.
  - right. nia.
Qed.
Print Assumptions C08_window_disjoint.
Theorem C08_window_monotone : forall t1 t2 d off, (0 < d)%Z -> in_range t1 d off -> in_range t2 d off -> (t1 <= t2)%Z ->
  (fst (window t1 d off) <= fst (window t2 d off))%Z.
Proof.
  intros t1 t2 d off Hd H1 H2 Hle.
  rewrite (window_closed_form t1 d off Hd H1), (window_closed_form t2 d off Hd H2). cbn [fst].
  pose proof (Z.div_le_mono (t1 - off) (t2 - off) d Hd ltac:(lia)). nia.
Qed.
Print Assumptions C08_window_monotone.
Theorem C08_window_start_fixed : forall t d off, (0 < d)%Z -> in_range t d off ->
  window (fst (window t d off)) d off = window t d off.
Proof. exact window_start_fixed. Qed.
Print Assumptions C08_window_start_fixed.
Theorem C08_window_next : forall t d off, (0 < d)%Z -> in_range t d off -> in_range (snd (window t d off)) d off ->
  window (snd (window t d off)) d off = (snd (window t d off), (snd (window t d off) + d)%Z).
Proof.
  intros t d off Hd Ht Hn. rewrite (window_closed_form t d off Hd Ht) in *. cbn [snd] in *.
  rewrite (window_closed_form _ d off Hd Hn).
  replace (off + d * ((t - off) / d) + d - off)%Z with (((t - off) / d + 1) * d)%Z by lia.
  rewrite Z_div_mult by lia. f_equal; lia.
Qed.
Print Assumptions C08_window_next.
(* translation invariance (the windows met by the fill path are start + k * d, k of either sign); only the offset modulo
   the interval matters *)
Theorem C08_window_shift : forall t k d off, (0 < d)%Z -> in_range t d off -> in_range (t + k * d)%Z d off ->
  window (t + k * d)%Z d off = ((fst (window t d off) + k * d)%Z, (snd (window t d off) + k * d)%Z).
Proof.
  intros t k d off Hd Ht Hk. rewrite (window_closed_form t d off Hd Ht), (window_closed_form _ d off Hd Hk). cbn [fst snd].
  replace (t + k * d - off)%Z with (t - off + k * d)%Z by lia. rewrite Z.div_add by lia. f_equal; lia.
Qed.
Print Assumptions C08_window_shift.
Theorem C08_window_offset_mod : forall t k d off, (0 < d)%Z -> in_range t d off -> in_range t d (off + k * d)%Z ->
  window t d (off + k * d)%Z = window t d off.
Proof.
  intros t k d off Hd Ht Hk. rewrite (window_closed_form t d off Hd Ht), (window_closed_form _ d _ Hd Hk).
  replace (t - (off + k * d))%Z with (t - off + (- k) * d)%Z by lia. rewrite Z.div_add by lia. f_equal; lia.
Qed.
Print Assumptions C08_window_offset_mod.
