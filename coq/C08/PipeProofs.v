(* C08: the chunked aggregate pipeline L2 (Pipe.v) computes the reference semantics L1 (Model.agg_group).
   The idea: every stage before the fill - sorting a series, folding runs of equal keys, merging readers, the chunked
   aggregation - keeps, for every key k, the total vfold k of the partial rows carried under k, and delivers strictly
   increasing keys. A stream with strictly increasing keys is determined by its totals (ssorted_unique). Hence whatever
   the partition and the chunking, the stream that reaches the fill stage is the canonical list canonp: one row per
   non-empty key with the column totals of the raw rows (l2_partials_canon). The rest compares canonp with L1's prefill
   rows and the fill machine with L1's enumeration of the buckets. *)
From Coq Require Import ZArith List Bool Lia Permutation Sorted.
From OG Require Import C08.Model C08.Order C08.Proofs C08.Pipe C08.DescMerge.
Import ListNotations.
Open Scope Z_scope.

Definition key_le {A} (x y : Z * A) : Prop := fst x <= fst y.
Definition key_lt {A} (x y : Z * A) : Prop := fst x < fst y.

Lemma lift_assoc : forall {A} (op : A -> A -> A), (forall a b c, op a (op b c) = op (op a b) c) ->
  forall a b c, lift op a (lift op b c) = lift op (lift op a b) c.
Proof. intros A op H [a|] [b|] [c|]; cbn; try reflexivity. now rewrite H. Qed.
Lemma lift_comm : forall {A} (op : A -> A -> A), (forall a b, op a b = op b a) -> forall a b, lift op a b = lift op b a.
Proof. intros A op H [a|] [b|]; cbn; try reflexivity. now rewrite H. Qed.

Section KeyedFacts.
  Context {A : Type}.
  Variable op : A -> A -> A.
  Hypothesis op_assoc : forall a b c, op a (op b c) = op (op a b) c.
  Hypothesis op_comm : forall a b, op a b = op b a.
  Notation lop := (lift op).

  Definition lop_assoc := lift_assoc op op_assoc.
  Definition lop_comm := lift_comm op op_comm.
  Lemma lop_unit : forall a, lop None a = a.
  Proof. reflexivity. Qed.
  Lemma lop_unit_r : forall a, lop a None = a.
  Proof. intros [a|]; reflexivity. Qed.

  Definition at_key (k : Z) (x : Z * A) : option A := if fst x =? k then Some (snd x) else None.
  Definition vfold (k : Z) (l : list (Z * A)) : option A := mfold lop None (map (at_key k) l).

  Lemma vfold_cons : forall k x l, vfold k (x :: l) = lop (at_key k x) (vfold k l).
  Proof. reflexivity. Qed.

  Lemma vfold_app : forall k a b, vfold k (a ++ b) = lop (vfold k a) (vfold k b).
  Proof. intros. unfold vfold. rewrite map_app. apply mfold_app; [exact lop_assoc | exact lop_unit]. Qed.

  Lemma vfold_perm : forall k a b, Permutation a b -> vfold k a = vfold k b.
  Proof.
    intros k a b P. unfold vfold. apply mfold_perm; [exact lop_assoc | exact lop_comm |].
    now apply Permutation_map.
  Qed.

  Lemma vfold_concat : forall k ls, vfold k (concat ls) = mfold lop None (map (vfold k) ls).
  Proof.
    induction ls as [|l ls IH]; cbn [concat map]; [reflexivity|].
    rewrite vfold_app, IH. reflexivity.
  Qed.

  Lemma vfold_none : forall k l, Forall (fun x => fst x <> k) l -> vfold k l = None.
  Proof.
    induction l as [|x l IH]; intros H; [reflexivity|]. inversion H; subst.
    rewrite vfold_cons, IH by assumption. unfold at_key.
    destruct (fst x =? k) eqn:E; [apply Z.eqb_eq in E; contradiction | reflexivity].
  Qed.

  Notation agg_go := (agg_go Z.eqb (fun v : A => v) op).
  Definition olist (p : option (Z * A)) : list (Z * A) := match p with Some x => [x] | None => [] end.

  Lemma vfold_single : forall k x, vfold k [x] = at_key k x.
  Proof. intros. unfold vfold. cbn [map mfold fold_right]. apply lop_unit_r. Qed.

  Lemma vfold_agg_go : forall k l p, vfold k (agg_go p l) = lop (vfold k (olist p)) (vfold k l).
  Proof.
    intros k. induction l as [|[k1 v] l IH]; intros p.
    - destruct p as [[k0 a]|]; cbn [Model.agg_go olist]; [|reflexivity].
      change (vfold k []) with (@None A). now rewrite lop_unit_r.
    - destruct p as [[k0 a]|]; cbn [Model.agg_go olist].
      + destruct (k1 =? k0) eqn:E.
        * apply Z.eqb_eq in E. subst k1. rewrite IH. cbn [olist].
          rewrite !vfold_single, (vfold_cons k (k0, v) l), lop_assoc. f_equal.
          unfold at_key. cbn [fst snd]. destruct (k0 =? k); reflexivity.
        * rewrite vfold_cons, IH. cbn [olist]. rewrite !vfold_single, (vfold_cons k (k1, v) l). reflexivity.
      + rewrite IH. cbn [olist]. rewrite vfold_single, vfold_cons. reflexivity.
  Qed.

  Lemma vfold_agg_spec : forall k l, vfold k (agg_spec Z.eqb (fun v : A => v) op l) = vfold k l.
  Proof. intros. unfold agg_spec. now rewrite vfold_agg_go. Qed.

  Lemma agg_go_head : forall l k0 a, exists a' rest, agg_go (Some (k0, a)) l = (k0, a') :: rest.
  Proof.
    induction l as [|[k v] l IH]; intros k0 a; cbn [Model.agg_go]; [eauto|].
    destruct (k =? k0); [apply IH | eauto].
  Qed.

  Lemma agg_go_ssorted : forall l k0 a,
    Sorted key_le ((k0, a) :: l) -> Sorted key_lt (agg_go (Some (k0, a)) l).
  Proof.
    induction l as [|[k v] l IH]; intros k0 a S; cbn [Model.agg_go]; [repeat constructor|].
    inversion S as [|? ? S1 H1]; subst. inversion H1 as [|? ? Hle]; subst. unfold key_le in Hle. cbn [fst] in Hle.
    destruct (k =? k0) eqn:E.
    - apply Z.eqb_eq in E. subst k. apply IH.
      inversion S1 as [|? ? S2 H2]; subst. constructor; [assumption|].
      destruct l as [|y l]; constructor. inversion H2; subst. exact H0.
    - apply Z.eqb_neq in E. constructor; [now apply IH|].
      destruct (agg_go_head l k v) as [a' [rest ->]]. constructor. unfold key_lt. cbn [fst]. lia.
  Qed.

  Lemma agg_spec_ssorted : forall l, Sorted key_le l -> Sorted key_lt (agg_spec Z.eqb (fun v : A => v) op l).
  Proof.
    intros [|[k v] l] S; unfold agg_spec; cbn [Model.agg_go]; [constructor | now apply agg_go_ssorted].
  Qed.

  Definition key_leb (x y : Z * A) : bool := fst x <=? fst y.
  Lemma key_leb_true : forall x y, key_leb x y = true -> key_le x y.
  Proof. intros x y. apply Z.leb_le. Qed.
  Lemma key_leb_false : forall x y, key_leb x y = false -> key_le y x.
  Proof. intros x y H. apply Z.leb_gt in H. unfold key_le. lia. Qed.

  Lemma kmerge2_by : @kmerge2 A = merge_by key_leb.
  Proof. reflexivity. Qed.
  Lemma ksort_by : @ksort A = sort_by key_leb.
  Proof. reflexivity. Qed.

  Lemma kmerge_k_perm : forall ls : list (list (Z * A)), Permutation (kmerge_k ls) (concat ls).
  Proof. unfold kmerge_k. rewrite kmerge2_by. apply merge_k_by_perm. Qed.
  Lemma kmerge_k_sorted : forall ls : list (list (Z * A)), Forall (Sorted key_le) ls -> Sorted key_le (kmerge_k ls).
  Proof. unfold kmerge_k. rewrite kmerge2_by. apply merge_k_by_sorted; [exact key_leb_true | exact key_leb_false]. Qed.
  Lemma ksort_perm : forall l : list (Z * A), Permutation (ksort l) l.
  Proof. rewrite ksort_by. apply sort_by_perm. Qed.
  Lemma ksort_sorted : forall l : list (Z * A), Sorted key_le (ksort l).
  Proof. rewrite ksort_by. apply sort_by_sorted; [exact key_leb_true | exact key_leb_false]. Qed.

  Lemma key_lt_trans : Relations_1.Transitive (@key_lt A).
  Proof. intros a b c. unfold key_lt. lia. Qed.

  Lemma vfold_above : forall k l, Forall (fun x : Z * A => k < fst x) l -> vfold k l = None.
  Proof.
    intros k l H. apply vfold_none. eapply Forall_impl; [|exact H]. cbn. intros; lia.
  Qed.

  Lemma vfold_head : forall k k1 a1 l, Forall (fun x : Z * A => k1 < fst x) l ->
    vfold k ((k1, a1) :: l) = if k1 =? k then Some a1 else vfold k l.
  Proof.
    intros k k1 a1 l F. rewrite vfold_cons. unfold at_key. cbn [fst snd].
    destruct (Z.eqb_spec k1 k) as [->|]; [now rewrite (vfold_above k l F) | reflexivity].
  Qed.

  Lemma ssorted_unique : forall l1 l2 : list (Z * A),
    Sorted key_lt l1 -> Sorted key_lt l2 -> (forall k, vfold k l1 = vfold k l2) -> l1 = l2.
  Proof.
    assert (above : forall k1 k2 a2 l2, k1 < k2 -> Forall (fun x : Z * A => k2 < fst x) l2 -> vfold k1 ((k2, a2) :: l2) = None).
    { intros k1 k2 a2 l2 L F. apply vfold_above. constructor; [exact L|]. eapply Forall_impl; [|exact F]. cbn. intros; lia. }
    induction l1 as [|[k1 a1] l1 IH]; intros [|[k2 a2] l2] S1 S2 H; [reflexivity| | |].
    - specialize (H k2). rewrite (vfold_head k2 k2 a2 l2 (Sorted_Forall _ key_lt_trans _ _ S2)), Z.eqb_refl in H. discriminate.
    - specialize (H k1). rewrite (vfold_head k1 k1 a1 l1 (Sorted_Forall _ key_lt_trans _ _ S1)), Z.eqb_refl in H. discriminate.
    - pose proof (Sorted_Forall _ key_lt_trans _ _ S1 : Forall (fun x => k1 < fst x) l1) as F1.
      pose proof (Sorted_Forall _ key_lt_trans _ _ S2 : Forall (fun x => k2 < fst x) l2) as F2.
      (* the smaller head key has a total on one side only *)
      assert (K : k1 = k2).
      { destruct (Z.lt_trichotomy k1 k2) as [L|[E|G]]; [exfalso | exact E | exfalso].
        - specialize (H k1). rewrite (vfold_head k1 k1 a1 l1 F1), Z.eqb_refl, (above k1 k2 a2 l2 L F2) in H. discriminate.
        - specialize (H k2). rewrite (vfold_head k2 k2 a2 l2 F2), Z.eqb_refl, (above k2 k1 a1 l1 G F1) in H. discriminate. }
      subst k2. pose proof (H k1) as Hk. rewrite !vfold_head, Z.eqb_refl in Hk by assumption. injection Hk as <-.
      f_equal. apply IH; [now inversion S1 | now inversion S2 |].
      intros k. specialize (H k). rewrite !vfold_head in H by assumption.
      destruct (Z.eqb_spec k1 k) as [->|]; [now rewrite !vfold_above | exact H].
  Qed.
End KeyedFacts.

(* the algebra of partial aggregates: a commutative semigroup per column, hence per row *)
Section MinSel.
  Context {X : Type}.
  Variable lt : X -> X -> bool.
  Hypothesis lt_asym : forall x y, lt x y = true -> lt y x = false.
  Hypothesis lt_trans : forall x y z, lt x y = true -> lt y z = true -> lt x z = true.
  Hypothesis lt_total : forall x y, lt x y = false -> x = y \/ lt y x = true.
  Definition bmin (x y : X) : X := if lt y x then y else x.

  Lemma bmin_comm : forall x y, bmin x y = bmin y x.
  Proof.
    intros x y. unfold bmin. destruct (lt y x) eqn:E1; destruct (lt x y) eqn:E2; try reflexivity.
    - apply lt_asym in E1. congruence.
    - destruct (lt_total _ _ E1) as [->|H]; [reflexivity | congruence].
  Qed.

  Lemma bmin_assoc : forall x y z, bmin x (bmin y z) = bmin (bmin x y) z.
  Proof.
    intros x y z. unfold bmin. destruct (lt z y) eqn:Ezy; destruct (lt y x) eqn:Eyx; rewrite ?Ezy; try reflexivity.
    - now rewrite (lt_trans _ _ _ Ezy Eyx).
    - destruct (lt z x) eqn:Ezx; [|reflexivity]. exfalso.
      destruct (lt_total _ _ Ezy) as [->|H]; [congruence|].
      rewrite (lt_trans _ _ _ H Ezx) in Eyx. discriminate.
  Qed.

  Lemma fold_left_bmin : forall r p x, fold_left bmin r (bmin p x) = bmin p (fold_left bmin r x).
  Proof.
    induction r as [|y r IH]; intros p x; cbn [fold_left]; [reflexivity|].
    rewrite <- bmin_assoc. apply IH.
  Qed.
End MinSel.

Ltac zprop :=
  repeat match goal with
         | H : _ = true |- _ => first [rewrite orb_true_iff in H | rewrite andb_true_iff in H | rewrite Z.ltb_lt in H | rewrite Z.eqb_eq in H]
         | H : _ = false |- _ => first [rewrite orb_false_iff in H | rewrite andb_false_iff in H | rewrite Z.ltb_ge in H | rewrite Z.eqb_neq in H]
         | |- _ = true => first [rewrite orb_true_iff | rewrite andb_true_iff | rewrite Z.ltb_lt | rewrite Z.eqb_eq]
         | |- _ = false => first [rewrite orb_false_iff | rewrite andb_false_iff | rewrite Z.ltb_ge | rewrite Z.eqb_neq]
         end.

Lemma better_asym : forall s x y, better s x y = true -> better s y x = false.
Proof. intros s [t v] [t' v'] H. destruct s; cbn [better fst snd] in *; try reflexivity; zprop; lia. Qed.
Lemma better_trans : forall s x y z, better s x y = true -> better s y z = true -> better s x z = true.
Proof. intros s [t v] [t' v'] [t'' v''] H1 H2. destruct s; cbn [better fst snd] in *; try discriminate; zprop; lia. Qed.
Lemma better_total : forall s x y, is_selector s = true -> better s x y = false -> x = y \/ better s y x = true.
Proof.
  intros s [t v] [t' v'] Hs H. destruct s; try discriminate; cbn [better fst snd] in *; zprop;
  (destruct (Z.eq_dec t t'); [destruct (Z.eq_dec v v'); [left; congruence|]|]); right; zprop; lia.
Qed.

Lemma sel_of_selector : forall fn, is_selector (sel_of fn) = true.
Proof. intros []; reflexivity. Qed.
Lemma sel_of_id : forall fn, is_selector fn = true -> sel_of fn = fn.
Proof. intros [] H; try discriminate; reflexivity. Qed.

Definition bsel (fn : aggfn) : point -> point -> point := bmin (fun p b => better (sel_of fn) p b).

Lemma better_sel_total : forall fn x y, better (sel_of fn) x y = false -> x = y \/ better (sel_of fn) y x = true.
Proof. intros fn x y. apply better_total, sel_of_selector. Qed.

Lemma bsel_comm : forall fn x y, bsel fn x y = bsel fn y x.
Proof. intros fn. exact (bmin_comm _ (better_asym _) (better_sel_total fn)). Qed.
Lemma bsel_assoc : forall fn x y z, bsel fn x (bsel fn y z) = bsel fn (bsel fn x y) z.
Proof. intros fn. exact (bmin_assoc _ (better_trans _) (better_sel_total fn)). Qed.

Lemma pop_bsel : forall fn a b, pop fn a b = (p_cnt a + p_cnt b, p_sum a + p_sum b, bsel fn (p_best a) (p_best b)).
Proof. reflexivity. Qed.

Lemma pop_comm : forall fn a b, pop fn a b = pop fn b a.
Proof. intros. rewrite !pop_bsel, bsel_comm. f_equal. f_equal; lia. Qed.
Lemma pop_assoc : forall fn a b c, pop fn a (pop fn b c) = pop fn (pop fn a b) c.
Proof.
  intros. rewrite !pop_bsel. unfold p_cnt, p_sum, p_best. cbn [fst snd]. rewrite bsel_assoc.
  f_equal. f_equal; lia.
Qed.

Lemma rowop_assoc : forall aggs a b c, rowop aggs a (rowop aggs b c) = rowop aggs (rowop aggs a b) c.
Proof.
  induction aggs as [|[[fn f] sc] aggs IH]; intros a b c; [reflexivity|].
  destruct a as [|x a]; [reflexivity|]. destruct b as [|y b]; [reflexivity|]. destruct c as [|z c]; [reflexivity|].
  cbn [rowop]. rewrite IH. f_equal. apply lift_assoc, pop_assoc.
Qed.
Lemma rowop_comm : forall aggs a b, rowop aggs a b = rowop aggs b a.
Proof.
  induction aggs as [|[[fn f] sc] aggs IH]; intros a b; [destruct a, b; reflexivity|].
  destruct a as [|x a]; destruct b as [|y b]; try reflexivity.
  cbn [rowop]. rewrite IH. f_equal. apply lift_comm, pop_comm.
Qed.

Definition pfold (fn : aggfn) (pts : list point) : option part :=
  mfold (lift (pop fn)) None (map (fun p => Some (pinj p)) pts).

Lemma pfold_cons : forall fn p r, pfold fn (p :: r) = lift (pop fn) (Some (pinj p)) (pfold fn r).
Proof. reflexivity. Qed.

Lemma sum_points_shift : forall (r : list (Z * Z)) x, fold_left (fun a (p : Z * Z) => a + snd p) r x = x + sum_points r.
Proof.
  unfold sum_points. induction r as [|p r IH]; intros x; cbn [fold_left]; [lia|].
  rewrite (IH (x + snd p)), (IH (0 + snd p)). lia.
Qed.

Lemma pfold_explicit : forall fn r p,
  pfold fn (p :: r) = Some (Z.of_nat (length (p :: r)), sum_points (p :: r), fold_left (bsel fn) r p).
Proof.
  intros fn. induction r as [|x r IH]; intros p.
  - cbn. unfold pinj. repeat f_equal.
  - rewrite pfold_cons, IH. cbn [lift]. rewrite pop_bsel. unfold p_cnt, p_sum, p_best, pinj. cbn [fst snd].
    f_equal. f_equal; [f_equal|].
    + cbn [length]. lia.
    + unfold sum_points. cbn [fold_left]. rewrite !sum_points_shift. lia.
    + cbn [fold_left]. symmetry. exact (fold_left_bmin _ (better_trans _) (better_sel_total fn) r p x).
Qed.

Definition pfin_opt (fn : aggfn) (o : option part) : cell := match o with Some p => pfin fn p | None => CNull end.

Lemma pfold_fin : forall fn pts, pfin_opt fn (pfold fn pts) = agg_cell fn pts.
Proof.
  intros fn [|p r]; [reflexivity|]. rewrite pfold_explicit. cbn [pfin_opt]. unfold agg_cell, pfin, p_cnt, p_sum, p_best.
  cbn [fst snd]. destruct fn; try reflexivity; cbn [pick]; unfold bsel, bmin; cbn [sel_of is_selector]; reflexivity.
Qed.

Lemma pfold_best : forall fn p r a, is_selector fn = true -> pfold fn (p :: r) = Some a -> pick fn (p :: r) = Some (p_best a).
Proof.
  intros fn p r a Hs H. rewrite pfold_explicit in H. injection H as <-. unfold p_best. cbn [snd pick].
  unfold bsel, bmin. rewrite (sel_of_id fn Hs). reflexivity.
Qed.

Definition fn_of (a : aggcol) : aggfn := fst (fst a).
Definition fld_of (a : aggcol) : nat := snd (fst a).

Definition pt_of (f : nat) (r : row) : list point := match field_of r f with Some v => [(fst r, v)] | None => [] end.
Definition pts_of_rows (f : nat) (rs : list row) : list point := flat_map (pt_of f) rs.
Definition colfold (aggs : list aggcol) (rs : list row) : prow :=
  map (fun a => pfold (fn_of a) (pts_of_rows (fld_of a) rs)) aggs.
Definition hvr (aggs : list aggcol) (r : row) : bool := existsb is_some (row_part aggs r).
Definition row_opt (aggs : list aggcol) (r : row) : option prow := if hvr aggs r then Some (row_part aggs r) else None.

Lemma rowop_map : forall aggs (f g : aggcol -> option part),
  rowop aggs (map f aggs) (map g aggs) = map (fun a => lift (pop (fn_of a)) (f a) (g a)) aggs.
Proof.
  induction aggs as [|[[fn fl] sc] aggs IH]; intros f g; [reflexivity|].
  cbn [map rowop]. now rewrite IH.
Qed.

Lemma colfold_cons : forall aggs r rs, rowop aggs (row_part aggs r) (colfold aggs rs) = colfold aggs (r :: rs).
Proof.
  intros. unfold row_part, colfold. rewrite rowop_map. apply map_ext. intros [[fn fl] sc].
  unfold fn_of, fld_of, pts_of_rows. cbn [fst snd flat_map]. unfold pt_of at 2.
  destruct (field_of r fl); reflexivity.
Qed.

Lemma hvr_iff : forall aggs r, hvr aggs r = true <-> exists a v, In a aggs /\ field_of r (fld_of a) = Some v.
Proof.
  intros aggs r. unfold hvr, row_part, fld_of. rewrite existsb_exists. split.
  - intros [o [Hin Ho]]. apply in_map_iff in Hin. destruct Hin as [a [<- Ha]]. exists a.
    destruct (field_of r (snd (fst a))) as [v|]; [exists v; auto | discriminate].
  - intros [a [v [Ha Hf]]]. exists (Some (pinj (fst r, v))). split; [|reflexivity].
    apply in_map_iff. exists a. now rewrite Hf.
Qed.

Lemma hvr_false : forall aggs r, hvr aggs r = false -> forall a, In a aggs -> field_of r (fld_of a) = None.
Proof.
  intros aggs r H a Ha. destruct (field_of r (fld_of a)) as [v|] eqn:E; [|reflexivity].
  rewrite (proj2 (hvr_iff aggs r)) in H by eauto. discriminate.
Qed.

Lemma colfold_skip : forall aggs r rs, hvr aggs r = false -> colfold aggs (r :: rs) = colfold aggs rs.
Proof.
  intros aggs r rs H. unfold colfold. apply map_ext_in. intros a Ha.
  unfold pts_of_rows. cbn [flat_map]. unfold pt_of at 1. now rewrite (hvr_false aggs r H a Ha).
Qed.

Lemma colfold_none : forall aggs rs, existsb (hvr aggs) rs = false -> colfold aggs rs = map (fun _ => None) aggs.
Proof.
  induction rs as [|r rs IH]; intros H; [reflexivity|].
  cbn [existsb] in H. apply orb_false_iff in H as [H1 H2]. rewrite colfold_skip by assumption. now apply IH.
Qed.

Lemma rowop_none_r : forall aggs (f : aggcol -> option part),
  rowop aggs (map f aggs) (map (fun _ => None) aggs) = map f aggs.
Proof.
  intros. rewrite rowop_map. apply map_ext. intros a. destruct (f a); reflexivity.
Qed.

Lemma rows_total : forall aggs rs,
  mfold (lift (rowop aggs)) None (map (row_opt aggs) rs) =
  if existsb (hvr aggs) rs then Some (colfold aggs rs) else None.
Proof.
  intros aggs. induction rs as [|r rs IH]; [reflexivity|].
  cbn [map mfold fold_right existsb]. fold (mfold (lift (rowop aggs)) None (map (row_opt aggs) rs)). rewrite IH.
  unfold row_opt at 1. destruct (hvr aggs r) eqn:E; cbn [orb].
  - destruct (existsb (hvr aggs) rs) eqn:E2; cbn [lift].
    + now rewrite colfold_cons.
    + rewrite <- colfold_cons, (colfold_none aggs rs E2). unfold row_part. now rewrite rowop_none_r.
  - rewrite colfold_skip by assumption. reflexivity.
Qed.

Lemma fin_row_colfold : forall aggs rs,
  fin_row aggs (colfold aggs rs) = map (fun a => agg_cell (fn_of a) (pts_of_rows (fld_of a) rs)) aggs.
Proof.
  intros aggs rs. unfold colfold. induction aggs as [|[[fn fl] sc] aggs IH]; [reflexivity|].
  cbn [map fin_row]. rewrite IH. f_equal. unfold fn_of, fld_of. cbn [fst snd].
  apply (pfold_fin fn).
Qed.

Definition allrows (q : query) (ms : list series) : list row := flat_map (fun s => filter (row_selected q s) (snd s)) ms.

Lemma raw_items_flat : forall kf q aggs ms,
  flat_map (raw_items kf q aggs) ms = filter has_value (map (raw_item kf aggs) (allrows q ms)).
Proof.
  intros. unfold allrows, raw_items. induction ms as [|s ms IH]; [reflexivity|].
  cbn [flat_map]. rewrite map_app, filter_app, IH. reflexivity.
Qed.

Lemma points_of_rows : forall q f ms, points_of q f ms = pts_of_rows f (allrows q ms).
Proof.
  intros. unfold points_of, pts_of_rows, allrows. induction ms as [|s ms IH]; [reflexivity|].
  cbn [flat_map]. rewrite flat_map_app, IH. reflexivity.
Qed.

Lemma pts_filter_key : forall (key : Z -> Z) k f rs,
  filter (fun p : point => key (fst p) =? k) (pts_of_rows f rs) = pts_of_rows f (filter (fun r : row => key (fst r) =? k) rs).
Proof.
  intros key k f. unfold pts_of_rows. induction rs as [|r rs IH]; [reflexivity|].
  cbn [flat_map filter]. rewrite filter_app, IH.
  assert (P : filter (fun p : point => key (fst p) =? k) (pt_of f r) = if key (fst r) =? k then pt_of f r else []).
  { unfold pt_of. destruct (field_of r f); cbn [filter fst]; destruct (key (fst r) =? k); reflexivity. }
  rewrite P. destruct (key (fst r) =? k); reflexivity.
Qed.

Lemma vfold_raw : forall (kf : Z -> Z) aggs k rows,
  vfold (rowop aggs) k (filter has_value (map (raw_item kf aggs) rows)) =
  mfold (lift (rowop aggs)) None (map (row_opt aggs) (filter (fun r : row => kf (fst r) =? k) rows)).
Proof.
  intros kf aggs k. induction rows as [|r rows IH]; [reflexivity|].
  cbn [map filter]. change (has_value (raw_item kf aggs r)) with (hvr aggs r).
  destruct (hvr aggs r) eqn:E.
  - rewrite vfold_cons, IH. unfold at_key, raw_item. cbn [fst snd].
    destruct (kf (fst r) =? k); [|reflexivity].
    cbn [map mfold fold_right]. unfold row_opt at 2. now rewrite E.
  - rewrite IH. destruct (kf (fst r) =? k); [|reflexivity].
    cbn [map mfold fold_right]. unfold row_opt at 2. now rewrite E.
Qed.

Definition rows_at_k (kf : Z -> Z) (q : query) (ms : list series) (k : Z) : list row :=
  filter (fun r : row => kf (fst r) =? k) (allrows q ms).
Definition rows_at (q : query) : list series -> Z -> list row := rows_at_k (bkey q) q.

Lemma vfold_group : forall kf q aggs ms k,
  vfold (rowop aggs) k (flat_map (raw_items kf q aggs) ms) =
  if existsb (hvr aggs) (rows_at_k kf q ms k) then Some (colfold aggs (rows_at_k kf q ms k)) else None.
Proof. intros. rewrite raw_items_flat, vfold_raw. apply rows_total. Qed.

Lemma insert_z_in : forall k x l, In k (insert_z x l) <-> k = x \/ In k l.
Proof.
  intros k x. induction l as [|y l IH]; cbn [insert_z In]; [intuition|].
  destruct (x <? y) eqn:E1; [cbn [In]; intuition|].
  destruct (x =? y) eqn:E2.
  - apply Z.eqb_eq in E2. subst y. cbn [In]. intuition.
  - cbn [In]. rewrite IH. intuition.
Qed.

Lemma insert_z_sorted : forall x l, Sorted Z.lt l -> Sorted Z.lt (insert_z x l).
Proof.
  intros x. induction l as [|y l IH]; intros S; cbn [insert_z]; [repeat constructor|].
  destruct (x <? y) eqn:E1.
  - apply Z.ltb_lt in E1. constructor; [exact S | now constructor].
  - destruct (x =? y) eqn:E2; [exact S|].
    apply Z.ltb_ge in E1. apply Z.eqb_neq in E2.
    inversion S as [|? ? S1 H1]; subst. constructor; [now apply IH|].
    destruct l as [|z l]; cbn [insert_z]; [constructor; lia|].
    destruct (x <? z); [constructor; lia|]. destruct (x =? z); [exact H1|]. constructor. now inversion H1.
Qed.

Definition zkeys (l : list Z) : list Z := fold_right insert_z [] l.

Lemma zkeys_in : forall k l, In k (zkeys l) <-> In k l.
Proof.
  intros k. induction l as [|x l IH]; cbn [zkeys fold_right In]; [reflexivity|].
  fold (zkeys l). rewrite insert_z_in, IH. intuition.
Qed.
Lemma zkeys_sorted : forall l, Sorted Z.lt (zkeys l).
Proof. induction l as [|x l IH]; cbn [zkeys fold_right]; [constructor | now apply insert_z_sorted]. Qed.

Lemma zlt_trans : Relations_1.Transitive Z.lt.
Proof. intros a b c. apply Z.lt_trans. Qed.

Lemma zsorted_unique : forall l1 l2, Sorted Z.lt l1 -> Sorted Z.lt l2 -> (forall k, In k l1 <-> In k l2) -> l1 = l2.
Proof.
  intros l1 l2 S1 S2 H. apply (Sorted_perm_unique Z.lt zlt_trans); [intros a b; lia | assumption..|].
  apply NoDup_Permutation; [apply (Sorted_NoDup Z.lt zlt_trans Z.lt_irrefl)..|]; assumption.
Qed.

Lemma zkeys_ext : forall l1 l2, (forall k, In k l1 <-> In k l2) -> zkeys l1 = zkeys l2.
Proof.
  intros l1 l2 H. apply zsorted_unique; try apply zkeys_sorted.
  intros k. rewrite !zkeys_in. apply H.
Qed.

Lemma vfold_map_keys : forall {A} (op : A -> A -> A) (G : Z -> A) k bs,
  Sorted Z.lt bs -> vfold op k (map (fun b => (b, G b)) bs) = if existsb (Z.eqb k) bs then Some (G k) else None.
Proof.
  intros A op G k. induction bs as [|b bs IH]; intros S; [reflexivity|].
  apply Sorted_StronglySorted in S; [|exact zlt_trans]. inversion S as [|? ? SS F]; subst.
  cbn [map existsb]. rewrite vfold_cons. unfold at_key. cbn [fst snd]. rewrite (Z.eqb_sym k b).
  destruct (b =? k) eqn:E; cbn [orb].
  - apply Z.eqb_eq in E. subst b. rewrite vfold_none; [reflexivity|].
    apply Forall_forall. intros x Hx. apply in_map_iff in Hx. destruct Hx as [b [<- Hb]]. cbn [fst].
    rewrite Forall_forall in F. specialize (F _ Hb). lia.
  - cbn [lift]. apply IH. now apply StronglySorted_Sorted.
Qed.

Lemma map_keys_ssorted : forall {A} (G : Z -> A) bs, Sorted Z.lt bs -> Sorted key_lt (map (fun b => (b, G b)) bs).
Proof. intros A G. now apply (Sorted_map Z.lt). Qed.

Definition gkeys_k (kf : Z -> Z) (q : query) (aggs : list aggcol) (ms : list series) : list Z :=
  zkeys (map (fun r : row => kf (fst r)) (filter (hvr aggs) (allrows q ms))).
Definition gkeys (q : query) : list aggcol -> list series -> list Z := gkeys_k (bkey q) q.

Definition canonp_k (kf : Z -> Z) (q : query) (aggs : list aggcol) (ms : list series) : list (Z * prow) :=
  map (fun b => (b, colfold aggs (rows_at_k kf q ms b))) (gkeys_k kf q aggs ms).
Definition canonp (q : query) : list aggcol -> list series -> list (Z * prow) := canonp_k (bkey q) q.

Lemma canonp_eq : forall q aggs ms,
  canonp q aggs ms = map (fun b => (b, colfold aggs (rows_at q ms b))) (gkeys q aggs ms).
Proof. reflexivity. Qed.

Lemma gkeys_mem : forall kf q aggs ms k, existsb (Z.eqb k) (gkeys_k kf q aggs ms) = existsb (hvr aggs) (rows_at_k kf q ms k).
Proof.
  intros. apply eq_iff_eq_true. rewrite !existsb_exists. unfold gkeys_k, rows_at_k. split.
  - intros [x [Hin Hx]]. apply Z.eqb_eq in Hx. subst x. apply zkeys_in, in_map_iff in Hin.
    destruct Hin as [r [Hk Hr]]. apply filter_In in Hr. destruct Hr as [Hr Hv].
    exists r. split; [|exact Hv]. apply filter_In. split; [exact Hr | now apply Z.eqb_eq].
  - intros [r [Hr Hv]]. apply filter_In in Hr. destruct Hr as [Hr Hk]. apply Z.eqb_eq in Hk.
    exists k. split; [|apply Z.eqb_refl]. apply zkeys_in, in_map_iff. exists r. split; [exact Hk|].
    apply filter_In. now split.
Qed.

Lemma vfold_canonp : forall kf q aggs ms k,
  vfold (rowop aggs) k (canonp_k kf q aggs ms) = vfold (rowop aggs) k (flat_map (raw_items kf q aggs) ms).
Proof.
  intros. unfold canonp_k. rewrite (vfold_map_keys (rowop aggs) (fun b => colfold aggs (rows_at_k kf q ms b))) by apply zkeys_sorted.
  rewrite gkeys_mem, vfold_group. reflexivity.
Qed.

Lemma ssorted_sorted : forall {A} (l : list (Z * A)), Sorted key_lt l -> Sorted key_le l.
Proof. intros A. apply Sorted_impl. unfold key_lt, key_le. intros; lia. Qed.

Lemma vfold_flat_map : forall {A X} (op : A -> A -> A), (forall a b c, op a (op b c) = op (op a b) c) ->
  forall k (f : X -> list (Z * A)) (g : X -> list (Z * A)) l,
  (forall x, vfold op k (f x) = vfold op k (g x)) -> vfold op k (flat_map f l) = vfold op k (flat_map g l).
Proof.
  intros A X op Ha k f g l H. induction l as [|x l IH]; [reflexivity|].
  cbn [flat_map]. rewrite !vfold_app by exact Ha. now rewrite H, IH.
Qed.

Lemma kmerge_k_flat : forall {A X} (f : X -> list (Z * A)) l, Permutation (kmerge_k (map f l)) (flat_map f l).
Proof. intros. rewrite flat_map_concat_map. apply kmerge_k_perm. Qed.

Section AggStage.
  Variable kf : Z -> Z.
  Variable q : query.
  Variable aggs : list aggcol.
  Notation rop := (rowop aggs).
  Let ra := rowop_assoc aggs.
  Let rc := rowop_comm aggs.

  Lemma kagg_vfold : forall k l, vfold rop k (kagg aggs l) = vfold rop k l.
  Proof. intros. apply vfold_agg_spec. exact ra. Qed.

  Lemma series_partials_vfold : forall k s, vfold rop k (series_partials kf q aggs s) = vfold rop k (raw_items kf q aggs s).
  Proof. intros. unfold series_partials. rewrite kagg_vfold. apply vfold_perm; [exact ra | exact rc | apply ksort_perm]. Qed.

  Lemma series_partials_ssorted : forall s, Sorted key_lt (series_partials kf q aggs s).
  Proof. intros. apply agg_spec_ssorted, ksort_sorted. Qed.

  Lemma reader_partials_vfold : forall k rd,
    vfold rop k (reader_partials kf q aggs rd) = vfold rop k (flat_map (raw_items kf q aggs) rd).
  Proof.
    intros. unfold reader_partials. rewrite kagg_vfold.
    rewrite (vfold_perm rop ra rc k _ _ (kmerge_k_flat (series_partials kf q aggs) rd)).
    apply vfold_flat_map; [exact ra|]. intros s. apply series_partials_vfold.
  Qed.

  Lemma reader_partials_ssorted : forall rd, Sorted key_lt (reader_partials kf q aggs rd).
  Proof.
    intros. apply agg_spec_ssorted, kmerge_k_sorted. apply Forall_forall. intros l Hl.
    apply in_map_iff in Hl. destruct Hl as [s [<- _]]. apply ssorted_sorted, series_partials_ssorted.
  Qed.

  Lemma merged_partials_sorted : forall parts, Sorted key_le (merged_partials kf q aggs parts).
  Proof.
    intros. apply kmerge_k_sorted. apply Forall_forall. intros l Hl.
    apply in_map_iff in Hl. destruct Hl as [rd [<- _]]. apply ssorted_sorted, reader_partials_ssorted.
  Qed.

  Lemma merged_partials_vfold : forall k parts,
    vfold rop k (merged_partials kf q aggs parts) = vfold rop k (flat_map (raw_items kf q aggs) (concat parts)).
  Proof.
    intros. unfold merged_partials.
    rewrite (vfold_perm rop ra rc k _ _ (kmerge_k_flat (reader_partials kf q aggs) parts)).
    rewrite flat_map_concat, <- flat_map_concat_map.
    apply vfold_flat_map; [exact ra|]. intros rd. apply reader_partials_vfold.
  Qed.

  Theorem l2_partials_canon : forall parts ms sizes,
    Permutation (concat parts) ms -> l2_partials_k kf q aggs parts sizes = canonp_k kf q aggs ms.
  Proof.
    intros parts ms sizes P. unfold l2_partials_k, agg_stage. rewrite agg_chunking_invariant_lemma.
    apply (ssorted_unique rop).
    - apply agg_spec_ssorted, merged_partials_sorted.
    - apply map_keys_ssorted, zkeys_sorted.
    - intros k. rewrite vfold_canonp. fold (kagg aggs (merged_partials kf q aggs parts)).
      rewrite kagg_vfold, merged_partials_vfold.
      apply vfold_perm; [exact ra | exact rc |]. now apply Permutation_flat_map.
  Qed.
End AggStage.

Lemma in_pts_of_rows : forall f rs p, In p (pts_of_rows f rs) <-> exists r, In r rs /\ field_of r f = Some (snd p) /\ fst p = fst r.
Proof.
  intros f rs p. unfold pts_of_rows. rewrite in_flat_map. split.
  - intros [r [Hr Hp]]. exists r. unfold pt_of in Hp. destruct (field_of r f) as [v|]; [|contradiction].
    destruct Hp as [<-|[]]. auto.
  - intros [r [Hr [Hf Ht]]]. exists r. split; [exact Hr|]. unfold pt_of. rewrite Hf. left. destruct p; cbn in *. congruence.
Qed.

Section Prefill.
  Variable q : query.
  Variable aggs : list aggcol.
  Variable ms : list series.
  Hypothesis Hiv : (q_interval q =? 0) = false.
  Notation i := (q_interval q).

  Lemma bkey_bucket : forall t, bkey q t = bucket i t.
  Proof. intros. unfold bkey. now rewrite Hiv. Qed.

  Lemma rows_at_bucket : forall b, rows_at q ms b = filter (fun r : row => bucket i (fst r) =? b) (allrows q ms).
  Proof. intros. unfold rows_at, rows_at_k. apply filter_ext. intros r. now rewrite bkey_bucket. Qed.

  Lemma gkeys_prefill :
    gkeys q aggs ms = zkeys (flat_map (fun c : aggcol * list point => map (fun p => bucket i (fst p)) (snd c)) (agg_cols_of q aggs ms)).
  Proof.
    unfold gkeys, gkeys_k. apply zkeys_ext. intros k. rewrite in_map_iff, in_flat_map. split.
    - intros [r [Hk Hr]]. apply filter_In in Hr. destruct Hr as [Hr Hv].
      destruct (proj1 (hvr_iff aggs r) Hv) as [a [v [Ha Hf]]].
      exists (a, points_of q (fld_of a) ms). split.
      + unfold agg_cols_of. apply in_map_iff. exists a. split; [reflexivity | exact Ha].
      + cbn [snd]. apply in_map_iff. exists (fst r, v). cbn [fst]. split; [now rewrite <- bkey_bucket|].
        rewrite points_of_rows. apply in_pts_of_rows. exists r. auto.
    - intros [c [Hc Hk]]. unfold agg_cols_of in Hc. apply in_map_iff in Hc. destruct Hc as [a [<- Ha]].
      cbn [snd] in Hk. apply in_map_iff in Hk. destruct Hk as [p [Hk Hp]].
      rewrite points_of_rows in Hp. apply in_pts_of_rows in Hp. destruct Hp as [r [Hr [Hf Ht]]].
      exists r. split; [rewrite bkey_bucket; congruence|].
      apply filter_In. split; [exact Hr|]. apply hvr_iff. eauto.
  Qed.

  Theorem finalize_canonp : finalize aggs (canonp q aggs ms) = prefill_rows i (agg_cols_of q aggs ms).
  Proof.
    rewrite canonp_eq. unfold finalize, prefill_rows. rewrite map_map, gkeys_prefill.
    apply map_ext. intros b.
    cbn [fst snd]. f_equal. rewrite fin_row_colfold. unfold agg_cols_of. rewrite map_map. apply map_ext. intros a.
    cbn [fst snd]. fold (fn_of a). f_equal.
    rewrite rows_at_bucket, points_of_rows. symmetry. apply (pts_filter_key (bucket i)).
  Qed.
End Prefill.

(* without GROUP BY time(): a single key *)
Lemma agg_cell_nonempty : forall fn p r, is_null (agg_cell fn (p :: r)) = false.
Proof. intros fn p r. destruct fn; reflexivity. Qed.

Lemma pts_none : forall aggs rs a, existsb (hvr aggs) rs = false -> In a aggs -> pts_of_rows (fld_of a) rs = [].
Proof.
  intros aggs rs a H Ha. unfold pts_of_rows. induction rs as [|r rs IH]; [reflexivity|].
  cbn [existsb] in H. apply orb_false_iff in H as [H1 H2]. cbn [flat_map]. rewrite (IH H2), app_nil_r.
  unfold pt_of. now rewrite (hvr_false aggs r H1 a Ha).
Qed.

Section NoInterval.
  Variable q : query.
  Variable aggs : list aggcol.
  Variable ms : list series.
  Hypothesis Hiv : (q_interval q =? 0) = true.

  Lemma rows_at_0 : rows_at q ms 0 = allrows q ms.
  Proof.
    unfold rows_at, rows_at_k, bkey. rewrite Hiv. cbn. induction (allrows q ms) as [|r l IH]; [reflexivity|]. cbn. now rewrite IH.
  Qed.

  Lemma gkeys_0 : gkeys q aggs ms = if existsb (hvr aggs) (allrows q ms) then [0] else [].
  Proof.
    unfold gkeys, gkeys_k, bkey. rewrite Hiv. induction (allrows q ms) as [|r l IH]; [reflexivity|].
    cbn [filter existsb]. destruct (hvr aggs r); cbn [orb map zkeys fold_right]; [|exact IH].
    fold (zkeys (map (fun _ : row => 0) (filter (hvr aggs) l))). rewrite IH.
    destruct (existsb (hvr aggs) l); reflexivity.
  Qed.

  Definition cells0 : list cell := map (fun a => agg_cell (fn_of a) (points_of q (fld_of a) ms)) aggs.

  Lemma cells0_null : forallb is_null cells0 = negb (existsb (hvr aggs) (allrows q ms)).
  Proof.
    unfold cells0. destruct (existsb (hvr aggs) (allrows q ms)) eqn:E; cbn [negb].
    - apply existsb_exists in E. destruct E as [r [Hr Hv]]. destruct (proj1 (hvr_iff aggs r) Hv) as [a [v [Ha Hf]]].
      apply not_true_is_false. intros F. rewrite forallb_forall in F.
      assert (Hin : In (agg_cell (fn_of a) (points_of q (fld_of a) ms))
                       (map (fun a => agg_cell (fn_of a) (points_of q (fld_of a) ms)) aggs)).
      { apply in_map_iff. exists a. auto. }
      specialize (F _ Hin). clear Hin.
      assert (I : In (fst r, v) (points_of q (fld_of a) ms)).
      { rewrite points_of_rows. apply in_pts_of_rows. exists r. auto. }
      revert F I. destruct (points_of q (fld_of a) ms) as [|p l]; intros F I; [contradiction|].
      rewrite agg_cell_nonempty in F. discriminate F.
    - apply forallb_forall. intros c Hc. apply in_map_iff in Hc. destruct Hc as [a [<- Ha]].
      now rewrite points_of_rows, (pts_none aggs _ a E Ha).
  Qed.

  Lemma fin_row_cells0 : fin_row aggs (colfold aggs (allrows q ms)) = cells0.
  Proof.
    rewrite fin_row_colfold. unfold cells0. apply map_ext. intros a. now rewrite points_of_rows.
  Qed.
End NoInterval.

(* the fill stage: the machine over the existing bucket rows (gaps synthesised before a row, the
      tail at the end) = enumerate every bucket of the range, then fill cell-wise. The interval may have
      either sign: a descending scan runs the same operator with a negative interval. *)
Definition bucket_row (aggs : list aggcol) (pre : list arow) (t : Z) : arow :=
  (t, match lookup_bucket t pre with Some cs => cs | None => null_cells aggs end).

Lemma enum_app : forall g n s i aggs rows,
  enumerate_buckets (g + n) s i aggs rows =
  enumerate_buckets g s i aggs rows ++ enumerate_buckets n (s + i * Z.of_nat g) i aggs rows.
Proof.
  induction g as [|g IH]; intros n s i aggs rows; cbn [plus enumerate_buckets app].
  - f_equal. cbn. lia.
  - f_equal. rewrite IH. do 2 f_equal. lia.
Qed.

Lemma enum_snoc : forall n s i aggs rows,
  enumerate_buckets (S n) s i aggs rows = enumerate_buckets n s i aggs rows ++ [bucket_row aggs rows (s + i * Z.of_nat n)].
Proof. intros. rewrite <- Nat.add_1_r, enum_app. reflexivity. Qed.

Lemma enum_ext : forall n s i aggs rows rows',
  (forall j, (j < n)%nat -> lookup_bucket (s + i * Z.of_nat j) rows = lookup_bucket (s + i * Z.of_nat j) rows') ->
  enumerate_buckets n s i aggs rows = enumerate_buckets n s i aggs rows'.
Proof.
  induction n as [|n IH]; intros s i aggs rows rows' H; [reflexivity|].
  cbn [enumerate_buckets]. f_equal.
  - pose proof (H 0%nat ltac:(lia)) as H0. cbn [Z.of_nat] in H0. rewrite Z.mul_0_r, Z.add_0_r in H0. now rewrite H0.
  - apply IH. intros j Hj. specialize (H (S j) ltac:(lia)).
    replace (s + i + i * Z.of_nat j) with (s + i * Z.of_nat (S j)) by lia. exact H.
Qed.

Lemma lookup_none : forall t (rows : list arow), (forall r, In r rows -> fst r <> t) -> lookup_bucket t rows = None.
Proof.
  intros t. induction rows as [|[t' cs] rows IH]; intros H; [reflexivity|].
  cbn [lookup_bucket]. destruct (t =? t') eqn:E.
  - apply Z.eqb_eq in E. exfalso. apply (H (t', cs)); [now left | cbn; congruence].
  - apply IH. intros r Hr. apply H. now right.
Qed.

Section FillStage.
  Variable i : Z.
  Hypothesis Hi : i <> 0.
  Variable m : fillmode.
  Variable aggs : list aggcol.

  Lemma fill_cells_len : forall (al : list aggcol) prev cs, length prev = length al -> length cs = length al ->
    length (snd (fill_cells m al prev cs)) = length al.
  Proof.
    induction al as [|a al IH]; intros prev cs Hp Hc; [reflexivity|].
    destruct prev as [|p prev]; [discriminate|]. destruct cs as [|c cs]; [discriminate|].
    cbn [fill_cells]. specialize (IH prev cs). destruct (fill_cells m al prev cs) as [out prev2].
    cbn [snd] in IH. destruct (is_null c); cbn [snd length]; f_equal; apply IH; cbn in *; lia.
  Qed.

  Lemma fill_cells_null_prev : forall (al : list aggcol) prev, length prev = length al ->
    snd (fill_cells m al prev (null_cells al)) = prev.
  Proof.
    induction al as [|a al IH]; intros prev Hp; [destruct prev; [reflexivity | discriminate]|].
    destruct prev as [|p prev]; [discriminate|]. cbn [null_cells map fill_cells].
    specialize (IH prev). fold (null_cells al). destruct (fill_cells m al prev (null_cells al)) as [out prev2].
    cbn [is_null snd] in *. f_equal. apply IH. cbn in Hp. lia.
  Qed.

  Lemma fill_nullrows : forall n t prev, length prev = length aggs ->
    fill_rows m aggs prev (enumerate_buckets n t i aggs []) = gap_rows n t i m aggs prev.
  Proof.
    induction n as [|n IH]; intros t prev Hp; [reflexivity|].
    cbn [enumerate_buckets lookup_bucket fill_rows gap_rows].
    pose proof (fill_cells_null_prev aggs prev Hp) as E.
    destruct (fill_cells m aggs prev (null_cells aggs)) as [out prev2]. cbn [fst snd] in *. subst prev2.
    f_equal. now apply IH.
  Qed.

  Lemma fold_prev_nullrows : forall n t prev, length prev = length aggs ->
    fold_left (fun p (r : arow) => snd (fill_cells m aggs p (snd r))) (enumerate_buckets n t i aggs []) prev = prev.
  Proof.
    induction n as [|n IH]; intros t prev Hp; [reflexivity|].
    cbn [enumerate_buckets lookup_bucket fold_left snd]. rewrite (fill_cells_null_prev aggs prev Hp). now apply IH.
  Qed.

  Lemma run_fill_cons : forall next prev t cs rest,
    run (fill_step i m aggs) (next, prev) ((t, cs) :: rest) =
    let r := run (fill_step i m aggs) (t + i, snd (fill_cells m aggs prev cs)) rest in
    (fst r, (gap_rows (Z.to_nat ((t - next) / i)) next i m aggs prev ++ [(t, fst (fill_cells m aggs prev cs))]) ++ snd r).
  Proof.
    intros. cbn [run fill_step]. destruct (fill_cells m aggs prev cs) as [out prev2]. cbn [fst snd].
    destruct (run (fill_step i m aggs) (t + i, prev2) rest). reflexivity.
  Qed.

  Definition fill_run (next last : Z) (prev : list cell) (rows : list arow) : list arow :=
    snd (run (fill_step i m aggs) (next, prev) rows) ++ fill_finish i last m aggs (fst (run (fill_step i m aggs) (next, prev) rows)).

  (* the rows arrive in scan order, each at one of the n grid positions s, s + i, ... with a cell per column; comparing
     i * time orders the rows along the scan whatever the sign of i *)
  Definition ahead (r r' : arow) : Prop := i * fst r < i * fst r'.
  Definition on_grid (s : Z) (n : nat) (r : arow) : Prop :=
    (exists g : nat, (g < n)%nat /\ fst r = s + i * Z.of_nat g) /\ length (snd r) = length aggs.

  Lemma ahead_trans : Relations_1.Transitive ahead.
  Proof. intros a b c. unfold ahead. lia. Qed.

  Lemma grid_inj : forall s a b, s + i * Z.of_nat a = s + i * Z.of_nat b -> a = b.
  Proof. intros s a b H. apply Nat2Z.inj, (Z.mul_reg_l _ _ i Hi). lia. Qed.

  Lemma ahead_grid : forall s a b (r r' : arow),
    fst r = s + i * Z.of_nat a -> fst r' = s + i * Z.of_nat b -> ahead r r' -> (a < b)%nat.
  Proof. unfold ahead. intros s a b r r' -> -> H. assert (0 < i * i) by nia. nia. Qed.

  Lemma fill_machine_enum : forall rows next prev n last,
    Sorted ahead rows -> Forall (on_grid next n) rows ->
    last = next + i * Z.of_nat n - i ->
    length prev = length aggs ->
    fill_run next last prev rows = fill_rows m aggs prev (enumerate_buckets n next i aggs rows).
  Proof.
    induction rows as [|[t cs] rest IH]; intros next prev n last Srt F Hl Hp.
    - unfold fill_run. cbn [run fst snd app fill_finish].
      replace (last - next) with ((Z.of_nat n - 1) * i) by (subst last; ring).
      rewrite Z.div_mul by exact Hi. replace (Z.of_nat n - 1 + 1) with (Z.of_nat n) by lia. rewrite Nat2Z.id.
      symmetry. now apply fill_nullrows.
    - inversion F as [|? ? [[g [Hgn Hg]] Hlen] F']; subst. cbn [fst snd] in Hg, Hlen. subst t.
      pose proof (Sorted_Forall ahead ahead_trans _ _ Srt) as FS. rewrite Forall_forall in FS, F'.
      (* every later row sits at a later position *)
      assert (Later : forall r, In r rest -> exists g', (g < g' < n)%nat /\ fst r = next + i * Z.of_nat g').
      { intros r Hr. destruct (F' r Hr) as [[g' [Hg'n Hg']] _]. exists g'. split; [|exact Hg']. split; [|exact Hg'n].
        exact (ahead_grid next g g' (next + i * Z.of_nat g, cs) r eq_refl Hg' (FS r Hr)). }
      destruct (Nat.lt_exists_pred 0 (n - g)) as [n' [Hn' _]]; [lia|].
      assert (En : n = (g + S n')%nat) by lia. clear Hn' Hgn. subst n.
      unfold fill_run. rewrite run_fill_cons. cbn zeta. cbn [fst snd].
      replace (next + i * Z.of_nat g - next) with (Z.of_nat g * i) by ring.
      rewrite Z.div_mul by exact Hi. rewrite Nat2Z.id.
      (* right-hand side: g empty positions, the row, the positions after it *)
      rewrite enum_app, (enum_ext g next i aggs _ []).
      2:{ intros j Hj. apply lookup_none. intros r [<-|Hr] E; cbn [fst] in E.
          - apply grid_inj in E. lia.
          - destruct (Later r Hr) as [g' [Hg' Er]]. rewrite Er in E. apply grid_inj in E. lia. }
      rewrite fill_rows_app, fold_prev_nullrows by assumption. rewrite fill_nullrows by assumption.
      cbn [enumerate_buckets lookup_bucket]. rewrite Z.eqb_refl. cbn [fill_rows].
      rewrite <- !app_assoc. f_equal. cbn [app].
      pose proof (fill_cells_len aggs prev cs Hp Hlen) as Hp2.
      destruct (fill_cells m aggs prev cs) as [out prev2]. cbn [fst snd] in *. f_equal.
      rewrite (enum_ext n' _ i aggs _ rest).
      2:{ intros j Hj. cbn [lookup_bucket].
          destruct (Z.eqb_spec (next + i * Z.of_nat g + i + i * Z.of_nat j) (next + i * Z.of_nat g)) as [E|]; [|reflexivity].
          assert (g + S j = g)%nat by (apply (grid_inj next); lia). lia. }
      apply IH.
      + now inversion Srt.
      + apply Forall_forall. intros r Hr. destruct (Later r Hr) as [g' [Hg' Er]]. split; [|exact (proj2 (F' r Hr))].
        exists (g' - S g)%nat. split; [lia|]. rewrite Er, Nat2Z.inj_sub by lia. lia.
      + lia.
      + exact Hp2.
  Qed.

  Theorem fill_stage_lemma : forall sizes rows first last n,
    Sorted ahead rows -> Forall (on_grid first n) rows ->
    last = first + i * Z.of_nat n - i ->
    fill_group_chunks i first last m aggs (cut sizes rows) =
    fill_rows m aggs (null_cells aggs) (enumerate_buckets n first i aggs rows).
  Proof.
    intros sizes rows first last n S F Hl. unfold fill_group_chunks. rewrite machine_chunking_invariant.
    pose proof (fill_machine_enum rows first (null_cells aggs) n last S F Hl) as H. unfold fill_run in H.
    destruct (run (fill_step i m aggs) (first, null_cells aggs) rows) as [st out]. cbn [fst snd] in H.
    apply H. unfold null_cells. now rewrite map_length.
  Qed.
End FillStage.

Lemma allrows_in_range : forall q ms r, In r (allrows q ms) -> in_range q (fst r) = true.
Proof.
  intros q ms r H. unfold allrows in H. apply in_flat_map in H. destruct H as [s [_ Hr]].
  apply filter_In in Hr. destruct Hr as [_ Hs]. unfold row_selected in Hs. now apply andb_true_iff in Hs.
Qed.

Lemma agg_group_noiv : forall cur q aggs ms, (q_interval q =? 0) = true ->
  agg_group cur q aggs ms =
  match canonp q aggs ms with
  | [] => []
  | (_, pr) :: _ => [(l2_time0 q aggs pr, fin_row aggs pr)]
  end.
Proof.
  intros cur q aggs ms E. unfold agg_group. cbv zeta. rewrite E.
  assert (C : map (fun c : aggfn * nat * Z * list point => agg_cell (fst (fst (fst c))) (snd c)) (agg_cols_of q aggs ms) = cells0 q aggs ms).
  { unfold agg_cols_of, cells0. rewrite map_map. reflexivity. }
  rewrite C, (cells0_null q aggs ms), canonp_eq, (gkeys_0 q aggs ms E).
  destruct (existsb (hvr aggs) (allrows q ms)) eqn:Ex; cbn [negb map]; [|reflexivity].
  rewrite (rows_at_0 q ms E), (fin_row_cells0 q aggs ms). f_equal. f_equal.
  (* the time column *)
  unfold l2_time0, agg_cols_of, colfold.
  destruct aggs as [|[[fn f] sc] [|b al]]; cbn [map]; try reflexivity.
  unfold fn_of, fld_of. cbn [fst snd]. rewrite <- points_of_rows.
  destruct (points_of q f ms) as [|p l] eqn:Ep; [destruct (is_selector fn); reflexivity|].
  destruct (is_selector fn) eqn:Es; [|rewrite pfold_explicit; reflexivity].
  destruct (pfold fn (p :: l)) as [a|] eqn:Ef; [|rewrite pfold_explicit in Ef; discriminate].
  now rewrite (pfold_best fn p l a Es Ef).
Qed.

Section Compose.
  Variable q : query.
  Variable aggs : list aggcol.
  Variable ms : list series.
  Notation i := (q_interval q).
  Notation blo := (bucket i (lo_of q)).
  Notation bhi := (bucket i (hi_of q)).
  Notation nb := (Z.to_nat ((bhi - blo) / i + 1)).
  Notation pre := (prefill_rows i (agg_cols_of q aggs ms)).
  Hypothesis Hpos : 0 < i.

  Lemma pre_is_canonp : pre = finalize aggs (canonp q aggs ms).
  Proof. symmetry. apply finalize_canonp. apply Z.eqb_neq. lia. Qed.

  Lemma nb_spec : lo_of q / i <= hi_of q / i -> Z.of_nat nb = hi_of q / i - lo_of q / i + 1.
  Proof.
    intros H. unfold bucket. replace (hi_of q / i * i - lo_of q / i * i) with ((hi_of q / i - lo_of q / i) * i) by ring.
    rewrite Z.div_mul by lia. lia.
  Qed.

  Lemma pre_on_grid : Forall (on_grid i aggs blo nb) pre.
  Proof.
    rewrite pre_is_canonp. apply Forall_forall. intros x Hx.
    rewrite canonp_eq in Hx. unfold finalize in Hx. rewrite map_map in Hx.
    apply in_map_iff in Hx. destruct Hx as [b [<- Hb]]. cbn [fst snd].
    unfold gkeys_k in Hb. apply zkeys_in, in_map_iff in Hb. destruct Hb as [r [Hk Hr]].
    apply filter_In in Hr. destruct Hr as [Hr _]. apply allrows_in_range in Hr.
    unfold in_range in Hr. apply andb_true_iff in Hr. destruct Hr as [H1 H2]. apply Z.leb_le in H1, H2.
    rewrite (bkey_bucket q) in Hk by (apply Z.eqb_neq; lia). subst b.
    assert (lo_of q / i <= fst r / i <= hi_of q / i) by (split; apply Z.div_le_mono; lia).
    unfold on_grid. cbn [fst snd]. split; [|now rewrite fin_row_colfold, map_length].
    exists (Z.to_nat (fst r / i - lo_of q / i)). split; [apply Nat2Z.inj_lt; rewrite nb_spec; lia|].
    unfold bucket. rewrite Z2Nat.id by lia. ring.
  Qed.

  Lemma pre_last : pre <> [] -> bhi = blo + i * Z.of_nat nb - i.
  Proof.
    intros Hne. pose proof pre_on_grid as F. destruct pre as [|x l]; [congruence|].
    inversion F as [|? ? [[g [Hg Hx]] _] _]; subst.
    assert (H : lo_of q / i <= hi_of q / i).
    { destruct (Z.le_gt_cases (lo_of q / i) (hi_of q / i)) as [|G]; [assumption|]. exfalso.
      unfold bucket in Hg. replace (hi_of q / i * i - lo_of q / i * i) with ((hi_of q / i - lo_of q / i) * i) in Hg by ring.
      rewrite Z.div_mul in Hg by lia. lia. }
    rewrite (nb_spec H). unfold bucket. ring.
  Qed.

  Lemma pre_sorted : Sorted key_lt pre.
  Proof.
    rewrite pre_is_canonp. apply (Sorted_map key_lt); [trivial|].
    apply (Sorted_map Z.lt); [trivial | apply zkeys_sorted].
  Qed.

  Lemma pre_lengths : Forall (fun r : arow => length (snd r) = length aggs) pre.
  Proof. eapply Forall_impl; [|exact pre_on_grid]. intros r H. exact (proj2 H). Qed.
End Compose.

Lemma key_lt_ahead : forall i (a b : arow), 0 < i -> key_lt a b -> ahead i a b.
Proof. intros i a b Hi H. apply Z.mul_lt_mono_pos_l; assumption. Qed.

Theorem l2_agg_group_asc_lemma : forall q aggs ms cur parts sizes sizes2,
  q_desc q = false -> 0 <= q_interval q -> Permutation (concat parts) ms ->
  l2_agg_group_asc q aggs parts sizes sizes2 = agg_group cur q aggs ms.
Proof.
  intros q aggs ms cur parts sizes sizes2 Hd Hi P. unfold l2_agg_group_asc, l2_partials.
  rewrite (l2_partials_canon (bkey q) q aggs parts ms sizes P). fold (canonp q aggs ms).
  destruct (q_interval q =? 0) eqn:E; [symmetry; now apply agg_group_noiv|].
  assert (Hpos : 0 < q_interval q) by (apply Z.eqb_neq in E; lia).
  rewrite <- (pre_is_canonp q aggs ms Hpos). unfold agg_group. cbv zeta. rewrite E.
  pose proof (pre_on_grid q aggs ms Hpos) as F. pose proof (pre_last q aggs ms Hpos) as Hc.
  pose proof (pre_sorted q aggs ms Hpos) as Srt.
  destruct (prefill_rows (q_interval q) (agg_cols_of q aggs ms)) as [|x pre]; [reflexivity|].
  specialize (Hc ltac:(discriminate)).
  rewrite Hd, !andb_false_r. cbn [andb].
  destruct (q_fill q); try reflexivity; (apply fill_stage_lemma; [lia | | assumption..]);
    exact (Sorted_impl _ _ (fun a b => key_lt_ahead _ a b Hpos) _ Srt).
Qed.

Lemma l2_limit_rows : forall q sizes rows, l2_limit q sizes rows = limit_rows q rows.
Proof.
  intros. unfold l2_limit, limit_rows. destruct (0 <? q_limit q); [|reflexivity].
  apply limit_chunking_invariant_lemma.
Qed.

(* the descending pipeline = today's reference (Model.agg_group true): the same stages over the
      mirrored key deliver the partial rows in reverse order, the fill operator then runs over the
      reversed bucket rows with the interval negated *)
Lemma neg_keys_invol : forall {X} (l : list (Z * X)), neg_keys (neg_keys l) = l.
Proof.
  intros X l. unfold neg_keys. rewrite map_map. rewrite <- (map_id l) at 2. apply map_ext.
  intros [k x]. cbn [fst snd]. now rewrite Z.opp_involutive.
Qed.

Lemma neg_keys_rev : forall {X} (l : list (Z * X)), neg_keys (rev l) = rev (neg_keys l).
Proof. intros. unfold neg_keys. apply map_rev. Qed.

Lemma zkeys_opp : forall l, zkeys (map Z.opp l) = map Z.opp (rev (zkeys l)).
Proof.
  intros l. apply zsorted_unique.
  - apply zkeys_sorted.
  - apply (Sorted_map (fun a b => b < a)); [intros; lia|]. apply (Sorted_rev Z.lt zlt_trans), zkeys_sorted.
  - intros k. rewrite zkeys_in, !in_map_iff. split.
    + intros [x [<- Hx]]. exists x. split; [reflexivity|]. rewrite <- in_rev. exact (proj2 (zkeys_in x l) Hx).
    + intros [x [<- Hx]]. exists x. split; [reflexivity|]. rewrite <- in_rev in Hx. exact (proj1 (zkeys_in x l) Hx).
Qed.

Lemma rows_at_dkey : forall q ms b, rows_at_k (dkey q) q ms (- b) = rows_at q ms b.
Proof.
  intros. unfold rows_at, rows_at_k, dkey. apply filter_ext. intros r.
  destruct (Z.eqb_spec (- bkey q (fst r)) (- b)); destruct (Z.eqb_spec (bkey q (fst r)) b); try reflexivity; lia.
Qed.

Lemma canonp_dkey : forall q aggs ms, canonp_k (dkey q) q aggs ms = neg_keys (rev (canonp q aggs ms)).
Proof.
  intros. unfold canonp, canonp_k, gkeys_k, dkey.
  rewrite <- (map_map (fun r : row => bkey q (fst r)) Z.opp), zkeys_opp, map_map.
  fold (gkeys_k (bkey q) q aggs ms). unfold neg_keys. rewrite <- map_rev, map_map. apply map_ext.
  intros b. cbn [fst snd]. f_equal. f_equal. apply rows_at_dkey.
Qed.

Lemma finalize_rev : forall aggs l, finalize aggs (rev l) = rev (finalize aggs l).
Proof. intros. unfold finalize. apply map_rev. Qed.

Definition mir (l : list arow) : list arow := map (fun r : arow => (- fst r, snd r)) l.

Lemma mir_rev : forall l, mir (rev l) = rev (mir l).
Proof. intros. unfold mir. apply map_rev. Qed.

Lemma lookup_app : forall t (a b : list arow),
  lookup_bucket t (a ++ b) = match lookup_bucket t a with Some c => Some c | None => lookup_bucket t b end.
Proof.
  intros t. induction a as [|[t' cs] a IH]; intros b; [reflexivity|].
  cbn [app lookup_bucket]. destruct (t =? t'); [reflexivity | apply IH].
Qed.

Lemma lookup_rev : forall t (l : list arow), Sorted key_lt l -> lookup_bucket t (rev l) = lookup_bucket t l.
Proof.
  intros t. induction l as [|[t' cs] l IH]; intros S; [reflexivity|].
  pose proof (Sorted_Forall key_lt key_lt_trans _ _ S) as F.
  cbn [rev lookup_bucket]. rewrite lookup_app, IH by now inversion S.
  cbn [lookup_bucket]. destruct (t =? t') eqn:E; [|destruct (lookup_bucket t l); reflexivity].
  apply Z.eqb_eq in E. subst t'. rewrite (lookup_none t l); [reflexivity|].
  intros r Hr. rewrite Forall_forall in F. specialize (F r Hr). unfold key_lt in F. cbn [fst] in F. lia.
Qed.

Lemma enum_rev : forall n s i aggs pre, Sorted key_lt pre ->
  enumerate_buckets n (s + i * Z.of_nat n - i) (- i) aggs (rev pre) = rev (enumerate_buckets n s i aggs pre).
Proof.
  induction n as [|n IH]; intros s i aggs pre S; [reflexivity|].
  rewrite (enum_snoc n s), rev_app_distr.
  replace (s + i * Z.of_nat (Datatypes.S n) - i) with (s + i * Z.of_nat n) by lia.
  cbn [enumerate_buckets rev app]. unfold bucket_row. rewrite (lookup_rev _ _ S). f_equal.
  now rewrite <- (IH s i aggs pre S).
Qed.

(* without fill(previous) the cell-wise fill commutes with the reversal *)
Lemma fill_cells_indep : forall m (al : list aggcol) p p' cs, is_prev m = false ->
  length p = length al -> length p' = length al ->
  fst (fill_cells m al p cs) = fst (fill_cells m al p' cs).
Proof.
  intros m. induction al as [|a al IH]; intros p p' cs Hm Hp Hp'; [reflexivity|].
  destruct p as [|x p]; [discriminate|]. destruct p' as [|x' p']; [discriminate|].
  destruct cs as [|c cs]; [reflexivity|]. cbn [fill_cells].
  specialize (IH p p' cs Hm). destruct (fill_cells m al p cs) as [o1 q1]. destruct (fill_cells m al p' cs) as [o2 q2].
  cbn [fst] in IH. rewrite IH by (cbn in *; lia).
  destruct (is_null c); [|reflexivity]. destruct m; try reflexivity. discriminate.
Qed.

Lemma null_cells_length : forall aggs, length (null_cells aggs) = length aggs.
Proof. intros. unfold null_cells. apply map_length. Qed.

Lemma fill_rows_map : forall m aggs l prev, is_prev m = false -> length prev = length aggs ->
  Forall (fun r : arow => length (snd r) = length aggs) l ->
  fill_rows m aggs prev l = map (fun r : arow => (fst r, fst (fill_cells m aggs (null_cells aggs) (snd r)))) l.
Proof.
  intros m aggs. induction l as [|[t cs] l IH]; intros prev Hm Hp F; [reflexivity|].
  inversion F as [|? ? Hc F']; subst. cbn [fill_rows map fst snd] in *.
  pose proof (fill_cells_len m aggs prev cs Hp Hc) as L.
  rewrite <- (fill_cells_indep m aggs prev (null_cells aggs) cs Hm Hp (null_cells_length aggs)).
  destruct (fill_cells m aggs prev cs) as [out prev2]. cbn [fst snd] in *. f_equal. now apply IH.
Qed.

Lemma fill_rows_rev : forall m aggs l, is_prev m = false ->
  Forall (fun r : arow => length (snd r) = length aggs) l ->
  fill_rows m aggs (null_cells aggs) (rev l) = rev (fill_rows m aggs (null_cells aggs) l).
Proof.
  intros m aggs l Hm F.
  rewrite !fill_rows_map; try assumption; try apply null_cells_length; [now rewrite map_rev|].
  apply Forall_forall. intros r Hr. apply in_rev in Hr. rewrite Forall_forall in F. now apply F.
Qed.

Lemma enum_lengths : forall n t i aggs pre, Forall (fun r : arow => length (snd r) = length aggs) pre ->
  Forall (fun r : arow => length (snd r) = length aggs) (enumerate_buckets n t i aggs pre).
Proof.
  induction n as [|n IH]; intros t i aggs pre F; [constructor|].
  cbn [enumerate_buckets]. constructor; [|now apply IH].
  cbn [snd]. destruct (lookup_bucket t pre) as [cs|] eqn:E; [|apply null_cells_length].
  clear IH. induction pre as [|[t' c'] pre IHp]; [discriminate|].
  inversion F; subst. cbn [lookup_bucket] in E. destruct (t =? t'); [injection E as <-; assumption | now apply IHp].
Qed.

Lemma canonp_noiv_short : forall q aggs ms, (q_interval q =? 0) = true ->
  canonp q aggs ms = [] \/ exists pr, canonp q aggs ms = [(0, pr)].
Proof.
  intros q aggs ms E. rewrite canonp_eq, (gkeys_0 q aggs ms E).
  destruct (existsb (hvr aggs) (allrows q ms)); cbn [map]; [right; eauto | now left].
Qed.

Theorem l2_agg_group_desc_lemma : forall q aggs ms parts sizes sizes2,
  q_desc q = true -> 0 <= q_interval q -> Permutation (concat parts) ms ->
  l2_agg_group_desc q aggs parts sizes sizes2 = agg_group true q aggs ms.
Proof.
  intros q aggs ms parts sizes sizes2 Hd Hi P. unfold l2_agg_group_desc.
  rewrite (l2_partials_canon (dkey q) q aggs parts ms sizes P), canonp_dkey.
  destruct (q_interval q =? 0) eqn:E.
  - rewrite (agg_group_noiv true q aggs ms E).
    destruct (canonp_noiv_short q aggs ms E) as [->|[pr ->]]; reflexivity.
  - assert (Hpos : 0 < q_interval q) by (apply Z.eqb_neq in E; lia).
    rewrite neg_keys_invol, finalize_rev, <- (pre_is_canonp q aggs ms Hpos).
    unfold agg_group. cbv zeta. rewrite E.
    pose proof (pre_on_grid q aggs ms Hpos) as F. pose proof (pre_last q aggs ms Hpos) as Hc.
    pose proof (pre_sorted q aggs ms Hpos) as Srt. pose proof (pre_lengths q aggs ms Hpos) as L.
    destruct (prefill_rows (q_interval q) (agg_cols_of q aggs ms)) as [|x pre]; [reflexivity|].
    specialize (Hc ltac:(discriminate)).
    set (i := q_interval q) in *. set (blo := bucket i (lo_of q)) in *. set (bhi := bucket i (hi_of q)) in *.
    set (n := Z.to_nat ((bhi - blo) / i + 1)) in *.
    assert (NE : rev (x :: pre) <> []) by (cbn [rev]; intros H; apply app_eq_nil in H; destruct H; discriminate).
    destruct (rev (x :: pre)) as [|y rp] eqn:Er; [congruence|]. rewrite <- Er. clear NE.
    rewrite Hd. cbn [andb].
    (* the operator over the reversed rows: the same grid walked from its other end *)
    assert (G : forall m, fill_group_chunks (- i) bhi blo m aggs (cut sizes2 (rev (x :: pre))) =
                     fill_rows m aggs (null_cells aggs) (rev (enumerate_buckets n blo i aggs (x :: pre)))).
    { intros m. rewrite <- (enum_rev n blo i aggs (x :: pre) Srt), <- Hc. apply fill_stage_lemma; [lia | | | lia].
      - apply (Sorted_impl (fun a b => key_lt b a)); [|exact (Sorted_rev key_lt key_lt_trans _ Srt)].
        intros a b H. apply Z.mul_lt_mono_neg_l; [lia | exact H].
      - apply Forall_forall. intros r Hr. apply in_rev in Hr. rewrite Forall_forall in F.
        destruct (F r Hr) as [[g [Hg Er']] Hlen]. split; [|exact Hlen].
        exists (n - 1 - g)%nat. split; [lia|]. rewrite Er', !Nat2Z.inj_sub by lia. cbn [Z.of_nat]. lia. }
    pose proof (enum_lengths n blo i aggs (x :: pre) L) as La.
    destruct (q_fill q) eqn:Ef; cbn [andb]; rewrite ?G; try reflexivity; now apply fill_rows_rev.
Qed.

Theorem l2_eval_lemma : forall db q pl,
  0 <= q_interval q ->
  (forall k, In k (keys_of q db) -> Permutation (concat (pl_parts pl k)) (members q db k)) ->
  l2_eval db q pl = eval_gen true db q.
Proof.
  intros db q pl Hi HP. unfold l2_eval, eval_gen.
  assert (G : map (fun k => (k, l2_group_rows q pl k)) (keys_of q db) =
              map (fun k => (k, group_rows true q (members q db k))) (keys_of q db)).
  { apply map_ext_in. intros k Hk. f_equal. unfold l2_group_rows, group_rows. destruct (q_sel q) as [cols|aggs].
    - destruct (q_desc q).
      + apply plain_pipeline_desc_lemma. now apply HP.
      + apply plain_pipeline_refines_eval_lemma. now apply HP.
    - destruct (q_desc q) eqn:Hd.
      + apply l2_agg_group_desc_lemma; auto.
      + apply l2_agg_group_asc_lemma; auto. }
  rewrite G. destruct (has_limit q); [|reflexivity].
  f_equal. apply map_ext. intros g. now rewrite l2_limit_rows.
Qed.

Lemma agg_group_cur_irrelevant : forall q aggs ms,
  (q_desc q && is_prev (q_fill q)) = false -> agg_group true q aggs ms = agg_group false q aggs ms.
Proof.
  intros q aggs ms H. unfold agg_group. cbv zeta.
  destruct (q_interval q =? 0); [reflexivity|].
  destruct (prefill_rows (q_interval q) (agg_cols_of q aggs ms)); [reflexivity|].
  destruct (q_desc q); destruct (q_fill q); cbn [andb is_prev] in *; try reflexivity; discriminate.
Qed.

Lemma eval_gen_cur_irrelevant : forall db q,
  (q_desc q && is_prev (q_fill q)) = false -> eval_gen true db q = eval_gen false db q.
Proof.
  intros db q H. unfold eval_gen.
  assert (G : map (fun k => (k, group_rows true q (members q db k))) (keys_of q db) =
              map (fun k => (k, group_rows false q (members q db k))) (keys_of q db)).
  { apply map_ext. intros k. f_equal. unfold group_rows. destruct (q_sel q); [reflexivity|].
    now apply agg_group_cur_irrelevant. }
  now rewrite G.
Qed.
