(* C08 model, executable definitions only.

   L1  eval_query : database -> query -> answer
       reference semantics of the core of InfluxQL over the logical contents (one measurement; a series is a tag
       vector plus rows (time, value per field, None = null); values are integers in "model units": floats are
       dyadic k/8 carried as k, booleans 0/1, strings by rank).
   L2  operators as state machines over a row stream cut into chunks, with explicit carried state:
       agg (one-chunk look-ahead as in StreamAggregateTransform), fill, limit/offset, k-way merge.               *)
From Coq Require Import ZArith List Bool Lia.
Import ListNotations.
Open Scope Z_scope.

Definition row := (Z * list (option Z))%type.
Definition series := (list Z * list row)%type.
Definition database := list series.

Inductive cmp := CLt | CLe | CGt | CGe | CEq | CNe.
Inductive pred :=
| PTrue | PAnd (a b : pred) | POr (a b : pred)
| PTagEq (k : nat) (v : Z) | PTagNe (k : nat) (v : Z) | PField (f : nat) (c : cmp) (v : Z).
Inductive aggfn := FCount | FSum | FMean | FMin | FMax | FFirst | FLast.
Inductive fillmode := FillNone | FillNull | FillNum (n : Z) | FillPrev.
Inductive cell := CNull | CVal (z : Z) | CRat (n d : Z).
Definition aggcol := (aggfn * nat * Z)%type.   (* function, field, unit scale of the column (for fill(number)) *)
Inductive sel := SelPlain (cols : list nat) | SelAgg (aggs : list aggcol).

Record query := mkQ {
  q_sel : sel; q_tmin : option Z; q_tmax : option Z; q_pred : pred; q_group : list nat;
  q_interval : Z; q_fill : fillmode; q_limit : Z; q_offset : Z; q_desc : bool }.

Definition arow := (Z * list cell)%type.
Definition answer := list (list Z * list arow).

Definition tag_of (s : series) (k : nat) : Z := nth k (fst s) 0.
Definition field_of (r : row) (f : nat) : option Z := nth f (snd r) None.

Definition cmp_holds (c : cmp) (a b : Z) : bool :=
  match c with
  | CLt => a <? b | CLe => a <=? b | CGt => b <? a | CGe => b <=? a | CEq => a =? b | CNe => negb (a =? b)
  end.

Fixpoint eval_pred (p : pred) (s : series) (r : row) : bool :=
  match p with
  | PTrue => true
  | PAnd a b => eval_pred a s r && eval_pred b s r
  | POr a b => eval_pred a s r || eval_pred b s r
  | PTagEq k v => tag_of s k =? v
  | PTagNe k v => negb (tag_of s k =? v)
  | PField f c v => match field_of r f with Some x => cmp_holds c x v | None => false end
  end.

Definition min_time : Z := - 2 ^ 62.
Definition max_time : Z := 2 ^ 62.
Definition lo_of (q : query) : Z := match q_tmin q with Some t => t | None => min_time end.
Definition hi_of (q : query) : Z := match q_tmax q with Some t => t | None => max_time end.
Definition in_range (q : query) (t : Z) : bool := (lo_of q <=? t) && (t <=? hi_of q).
Definition row_selected (q : query) (s : series) (r : row) : bool := in_range q (fst r) && eval_pred (q_pred q) s r.

(* lexicographic comparison of integer lists *)
Fixpoint zlist_compare (a b : list Z) : comparison :=
  match a, b with
  | [], [] => Eq
  | [], _ => Lt
  | _, [] => Gt
  | x :: a', y :: b' => match x ?= y with Eq => zlist_compare a' b' | c => c end
  end.
Definition zlist_eqb (a b : list Z) : bool := match zlist_compare a b with Eq => true | _ => false end.

Definition key_of (q : query) (s : series) : list Z := map (tag_of s) (q_group q).

Fixpoint insert_key (k : list Z) (l : list (list Z)) : list (list Z) :=
  match l with
  | [] => [k]
  | x :: r => match zlist_compare k x with
              | Lt => k :: l
              | Eq => l
              | Gt => x :: insert_key k r
              end
  end.
Definition keys_of (q : query) (db : database) : list (list Z) :=
  fold_right insert_key [] (map (key_of q) db).

Definition members (q : query) (db : database) (k : list Z) : list series :=
  filter (fun s => zlist_eqb (key_of q s) k) db.

Definition cell_compare (a b : cell) : comparison :=
  match a, b with
  | CNull, CNull => Eq
  | CNull, _ => Lt
  | _, CNull => Gt
  | CVal x, CVal y => x ?= y
  | CVal _, CRat _ _ => Lt
  | CRat _ _, CVal _ => Gt
  | CRat n d, CRat n' d' => match n ?= n' with Eq => d ?= d' | c => c end
  end.
Fixpoint cells_compare (a b : list cell) : comparison :=
  match a, b with
  | [], [] => Eq
  | [], _ => Lt
  | _, [] => Gt
  | x :: a', y :: b' => match cell_compare x y with Eq => cells_compare a' b' | c => c end
  end.
Definition arow_compare (a b : arow) : comparison :=
  match fst a ?= fst b with Eq => cells_compare (snd a) (snd b) | c => c end.
Definition arow_leb (a b : arow) : bool := match arow_compare a b with Gt => false | _ => true end.

Fixpoint insert_row (x : arow) (l : list arow) : list arow :=
  match l with
  | [] => [x]
  | y :: r => if arow_leb x y then x :: l else y :: insert_row x r
  end.
Definition sort_rows (l : list arow) : list arow := fold_right insert_row [] l.

Definition cell_of (v : option Z) : cell := match v with Some z => CVal z | None => CNull end.
Definition is_null (c : cell) : bool := match c with CNull => true | _ => false end.

Definition project (cols : list nat) (r : row) : arow := (fst r, map (fun f => cell_of (field_of r f)) cols).

Definition plain_rows_of_series (q : query) (cols : list nat) (s : series) : list arow :=
  filter (fun ar => negb (forallb is_null (snd ar)))
         (map (project cols) (filter (row_selected q s) (snd s))).

Definition plain_group (q : query) (cols : list nat) (ms : list series) : list arow :=
  sort_rows (flat_map (plain_rows_of_series q cols) ms).

Definition point := (Z * Z)%type.   (* time, value *)

Definition points_of (q : query) (f : nat) (ms : list series) : list point :=
  flat_map (fun s => flat_map (fun r => match field_of r f with Some v => [(fst r, v)] | None => [] end)
                              (filter (row_selected q s) (snd s))) ms.

(* selector preference: does p beat the incumbent b? *)
Definition better (fn : aggfn) (p b : point) : bool :=
  match fn with
  | FMin => (snd p <? snd b) || ((snd p =? snd b) && (fst p <? fst b))
  | FMax => (snd b <? snd p) || ((snd p =? snd b) && (fst p <? fst b))
  | FFirst => (fst p <? fst b) || ((fst p =? fst b) && (snd b <? snd p))
  | FLast => (fst b <? fst p) || ((fst p =? fst b) && (snd b <? snd p))
  | _ => false
  end.
Definition pick (fn : aggfn) (pts : list point) : option point :=
  match pts with
  | [] => None
  | p :: r => Some (fold_left (fun b x => if better fn x b then x else b) r p)
  end.

Definition sum_points (pts : list point) : Z := fold_left (fun a p => a + snd p) pts 0.

Definition agg_cell (fn : aggfn) (pts : list point) : cell :=
  match pts with
  | [] => CNull
  | _ =>
    match fn with
    | FCount => CVal (Z.of_nat (length pts))
    | FSum => CVal (sum_points pts)
    | FMean => CRat (sum_points pts) (Z.of_nat (length pts))
    | _ => match pick fn pts with Some p => CVal (snd p) | None => CNull end
    end
  end.

Definition is_selector (fn : aggfn) : bool :=
  match fn with FMin | FMax | FFirst | FLast => true | _ => false end.

Definition bucket (i t : Z) : Z := (t / i) * i.

Fixpoint insert_z (k : Z) (l : list Z) : list Z :=
  match l with
  | [] => [k]
  | x :: r => if k <? x then k :: l else if k =? x then l else x :: insert_z k r
  end.

Definition fill_number (c : aggcol) (n : Z) : cell :=
  match c with
  | (FMean, _, sc) => CRat (n * sc) 1
  | (_, _, sc) => CVal (n * sc)
  end.

(* one step of the fill machine on one row (cells of one bucket); prev = last non-null value per column *)
Fixpoint fill_cells (m : fillmode) (aggs : list aggcol) (prev cells : list cell) : list cell * list cell :=
  match aggs, prev, cells with
  | a :: aggs', p :: prev', c :: cells' =>
      let '(out, prev2) := fill_cells m aggs' prev' cells' in
      if is_null c then
        let v := match m with
                 | FillNone => CNull
                 | FillNull => match a with (FCount, _, _) => CVal 0 | _ => CNull end
                 | FillNum n => fill_number a n
                 | FillPrev => p
                 end in
        (v :: out, p :: prev2)
      else (c :: out, c :: prev2)
  | _, _, _ => ([], [])
  end.

Fixpoint fill_rows (m : fillmode) (aggs : list aggcol) (prev : list cell) (rows : list arow) : list arow :=
  match rows with
  | [] => []
  | (t, cs) :: r => let '(out, prev2) := fill_cells m aggs prev cs in (t, out) :: fill_rows m aggs prev2 r
  end.

Definition null_cells (aggs : list aggcol) : list cell := map (fun _ => CNull) aggs.

Fixpoint lookup_bucket (t : Z) (rows : list arow) : option (list cell) :=
  match rows with
  | [] => None
  | (t', cs) :: r => if t =? t' then Some cs else lookup_bucket t r
  end.

(* all buckets first, first+i, ... (n of them), each with its pre-fill cells or nulls *)
Fixpoint enumerate_buckets (n : nat) (t i : Z) (aggs : list aggcol) (pre : list arow) : list arow :=
  match n with
  | O => []
  | S n' => (t, match lookup_bucket t pre with Some cs => cs | None => null_cells aggs end)
            :: enumerate_buckets n' (t + i) i aggs pre
  end.

Definition agg_cols_of (q : query) (aggs : list aggcol) (ms : list series) : list (aggcol * list point) :=
  map (fun a => (a, points_of q (snd (fst a)) ms)) aggs.

Definition prefill_rows (i : Z) (cols : list (aggcol * list point)) : list arow :=
  let bs := fold_right insert_z [] (flat_map (fun c => map (fun p => bucket i (fst p)) (snd c)) cols) in
  map (fun b => (b, map (fun c => agg_cell (fst (fst (fst c))) (filter (fun p => bucket i (fst p) =? b) (snd c))) cols)) bs.

(* fill_desc_iter = true models today's code: fill(previous) of a descending query runs in iteration order
   (the flag is called cur in group_rows, eval_gen and the proofs) *)
Definition agg_group (fill_desc_iter : bool) (q : query) (aggs : list aggcol) (ms : list series) : list arow :=
  let cols := agg_cols_of q aggs ms in
  if q_interval q =? 0 then
    let cells := map (fun c => agg_cell (fst (fst (fst c))) (snd c)) cols in
    if forallb is_null cells then []
    else
      let t0 := match q_tmin q with Some t => t | None => 0 end in
      let t := match cols with
               | [((fn, _, _), pts)] => if is_selector fn then match pick fn pts with Some p => fst p | None => t0 end else t0
               | _ => t0
               end in
      [(t, cells)]
  else
    let i := q_interval q in
    let pre := prefill_rows i cols in
    match pre with
    | [] => []
    | _ =>
      match q_fill q with
      | FillNone => if q_desc q then rev pre else pre
      | m =>
        let first := bucket i (lo_of q) in
        let last := bucket i (hi_of q) in
        let all := enumerate_buckets (Z.to_nat ((last - first) / i + 1)) first i aggs pre in
        let iter := fill_desc_iter && q_desc q && match m with FillPrev => true | _ => false end in
        if iter then fill_rows m aggs (null_cells aggs) (rev all)
        else let filled := fill_rows m aggs (null_cells aggs) all in
             if q_desc q then rev filled else filled
      end
    end.

Definition group_rows (cur : bool) (q : query) (ms : list series) : list arow :=
  match q_sel q with
  | SelPlain cols => let r := plain_group q cols ms in if q_desc q then rev r else r
  | SelAgg aggs => agg_group cur q aggs ms
  end.

Definition limit_rows (q : query) (rows : list arow) : list arow :=
  let r := skipn (Z.to_nat (q_offset q)) rows in
  if 0 <? q_limit q then firstn (Z.to_nat (q_limit q)) r else r.

Definition has_limit (q : query) : bool :=
  match q_sel q, q_group q with
  | SelPlain _, [] => (0 <? q_limit q) || (0 <? q_offset q)
  | _, _ => false
  end.

Definition eval_gen (cur : bool) (db : database) (q : query) : answer :=
  let groups := filter (fun g => match snd g with [] => false | _ => true end)
                       (map (fun k => (k, group_rows cur q (members q db k))) (keys_of q db)) in
  let ordered := if q_desc q then rev groups else groups in
  if has_limit q then
    filter (fun g => match snd g with [] => false | _ => true end)
           (map (fun g => (fst g, limit_rows q (snd g))) ordered)
  else ordered.

Definition eval_query : database -> query -> answer := eval_gen false.          (* documented semantics (repaired) *)
Definition eval_query_current : database -> query -> answer := eval_gen true.   (* today's fill(previous) desc *)

(* a chunking: an entry n stands for a chunk of n + 1 rows (so every chunk is non-empty: [0;1;0] cuts off 1, 2, 1
   rows); a stream is cut accordingly, the rest goes into a last chunk *)
Fixpoint cut {X} (sizes : list nat) (l : list X) : list (list X) :=
  match l with
  | [] => []
  | _ =>
    match sizes with
    | [] => [l]
    | n :: sizes' => firstn (S n) l :: cut sizes' (skipn (S n) l)
    end
  end.

Section Machines.
  Context {X Y S : Type}.
  Variable step : S -> X -> S * list Y.

  (* run a state machine over a stream, collecting outputs *)
  Fixpoint run (st : S) (xs : list X) : S * list Y :=
    match xs with
    | [] => (st, [])
    | x :: r => let '(st1, o1) := step st x in let '(st2, o2) := run st1 r in (st2, o1 ++ o2)
    end.

  (* the same machine fed chunk by chunk, state carried across chunk boundaries *)
  Fixpoint run_chunks (st : S) (cs : list (list X)) : S * list Y :=
    match cs with
    | [] => (st, [])
    | c :: r => let '(st1, o1) := run st c in let '(st2, o2) := run_chunks st1 r in (st2, o1 ++ o2)
    end.
End Machines.

(* -- aggregation over a keyed stream; A = partial aggregate *)
Section Agg.
  Context {K V A : Type}.
  Variable keq : K -> K -> bool.
  Variable inj : V -> A.
  Variable op : A -> A -> A.

  (* specification: maximal runs of equal keys are folded *)
  Fixpoint agg_go (pending : option (K * A)) (rows : list (K * V)) : list (K * A) :=
    match rows with
    | [] => match pending with Some p => [p] | None => [] end
    | (k, v) :: r =>
      match pending with
      | None => agg_go (Some (k, inj v)) r
      | Some (k0, a) => if keq k k0 then agg_go (Some (k0, op a (inj v))) r
                        else (k0, a) :: agg_go (Some (k, inj v)) r
      end
    end.
  Definition agg_spec (rows : list (K * V)) : list (K * A) := agg_go None rows.

  (* operator: per row step with carried pending group *)
  Definition agg_step (pending : option (K * A)) (x : K * V) : option (K * A) * list (K * A) :=
    let '(k, v) := x in
    match pending with
    | None => (Some (k, inj v), [])
    | Some (k0, a) => if keq k k0 then (Some (k0, op a (inj v)), []) else (Some (k, inj v), [(k0, a)])
    end.

  (* does the pending group continue in the next chunk? (isSameGroup of StreamAggregateTransform) *)
  Definition same_group (pending : option (K * A)) (next : list (K * V)) : bool :=
    match pending, next with
    | Some (k0, _), (k, _) :: _ => keq k k0
    | _, _ => false
    end.

  (* chunk-at-a-time operator with one-chunk look-ahead: after a chunk, the pending group is emitted at once
     unless the look-ahead says it continues. [la] is the look-ahead predicate (the code's is same_group). *)
  Fixpoint agg_chunks (la : option (K * A) -> list (K * V) -> bool)
           (pending : option (K * A)) (cs : list (list (K * V))) : list (list (K * A)) :=
    match cs with
    | [] => []
    | c :: r =>
      let '(p1, out) := run agg_step pending c in
      let next := match r with n :: _ => n | [] => [] end in
      if la p1 next then out :: agg_chunks la p1 r
      else (out ++ match p1 with Some p => [p] | None => [] end) :: agg_chunks la None r
    end.
End Agg.

(* -- limit / offset over a stream: state = rows seen so far *)
Definition limit_step {X} (offset limit : nat) (seen : nat) (x : X) : nat * list X :=
  (Datatypes.S seen, if (Nat.leb offset seen && Nat.ltb seen (offset + limit))%bool then [x] else []).

(* -- fill over the bucket rows of one group: state = (next expected bucket, prev cells).
      rows arrive in bucket order; gaps are synthesised before a row, the tail when the group ends *)
Definition fill_state := (Z * list cell)%type.

Fixpoint gap_rows (n : nat) (t i : Z) (m : fillmode) (aggs : list aggcol) (prev : list cell) : list arow :=
  match n with
  | O => []
  | Datatypes.S n' => (t, fst (fill_cells m aggs prev (null_cells aggs))) :: gap_rows n' (t + i) i m aggs prev
  end.

Definition fill_step (i : Z) (m : fillmode) (aggs : list aggcol) (st : fill_state) (r : arow) : fill_state * list arow :=
  let '(next, prev) := st in
  let '(t, cs) := r in
  let gaps := gap_rows (Z.to_nat ((t - next) / i)) next i m aggs prev in
  let '(out, prev2) := fill_cells m aggs prev cs in
  ((t + i, prev2), gaps ++ [(t, out)]).

Definition fill_finish (i last : Z) (m : fillmode) (aggs : list aggcol) (st : fill_state) : list arow :=
  let '(next, prev) := st in gap_rows (Z.to_nat ((last - next) / i + 1)) next i m aggs prev.

(* -- k-way merge of sorted row lists *)
Fixpoint merge2 (a : list arow) : list arow -> list arow :=
  fix inner (b : list arow) : list arow :=
    match a, b with
    | [], _ => b
    | _, [] => a
    | x :: a', y :: b' => if arow_leb x y then x :: merge2 a' b else y :: inner b'
    end.
Definition merge_k (ls : list (list arow)) : list arow := fold_right merge2 [] ls.

(* Operator-level view of one group: the fill machine over the chunks of the group's bucket rows, then the tail.
   Descending streams use a negative interval: first is the highest bucket, last the lowest. *)
Definition fill_group_chunks (i first last : Z) (m : fillmode) (aggs : list aggcol) (chunks : list (list arow)) : list arow :=
  let '(st, out) := run_chunks (fill_step i m aggs) (first, null_cells aggs) chunks in
  out ++ fill_finish i last m aggs st.

(* `_current` variants: FillTransform where it departs or departed from the machine above - (1) and (2) the code
   before fix 7eff930, (3) today's code (see NOTES, findings) *)

(* (1) fast path of FillTransform.fill: fill(null), no dimensions, the FIRST chunk holds as many rows as the range has
   windows -> the chunk is forwarded untouched (the 0 for a null count() cell is not substituted). *)
Definition fill_group_chunks_fast_current (i first last : Z) (m : fillmode) (aggs : list aggcol)
           (chunks : list (list arow)) : list arow :=
  match m, chunks with
  | FillNull, c :: rest =>
      if (Z.of_nat (length c) =? (last - first) / i + 1) then c ++ concat rest
      else fill_group_chunks i first last m aggs chunks
  | _, _ => fill_group_chunks i first last m aggs chunks
  end.

(* (2) fill(previous) bookkeeping: the value filled into a gap is the cell of the ROW just before the gap
   (prevReadAts = intervalIndex-1), null if that row is null in the column, instead of the last value seen *)
Fixpoint fill_cells_lastrow (aggs : list aggcol) (prev cells : list cell) : list cell * list cell :=
  match aggs, prev, cells with
  | _ :: aggs', p :: prev', c :: cells' =>
      let '(out, prev2) := fill_cells_lastrow aggs' prev' cells' in
      if is_null c then (p :: out, c :: prev2) else (c :: out, c :: prev2)
  | _, _, _ => ([], [])
  end.
Fixpoint fill_rows_lastrow (aggs : list aggcol) (prev : list cell) (rows : list arow) : list arow :=
  match rows with
  | [] => []
  | (t, cs) :: r => let '(out, prev2) := fill_cells_lastrow aggs prev cs in (t, out) :: fill_rows_lastrow aggs prev2 r
  end.

(* (3) split path of a descending query (computeGroup): a group of [size] windows is re-cut into
   n = ceil(size/cs) sub-chunks; window offsets count from the first (highest) window of the group.
   current:  sub-chunk j holds the offsets of [st - j*cs, st - (j-1)*cs), i.e. 0 for j = 0 and (j-1)*cs+1 .. j*cs;
   repaired: sub-chunk j holds j*cs .. (j+1)*cs-1. *)
Definition subchunks (size cs : nat) : nat := (size + cs - 1) / cs.
Definition in_subchunk_current (cs j k : nat) : bool :=
  match j with
  | O => Nat.eqb k 0
  | Datatypes.S j' => Nat.ltb (j' * cs) k && Nat.leb k (j * cs)
  end.
Definition in_subchunk_repaired (cs j k : nat) : bool := Nat.leb (j * cs) k && Nat.ltb k ((j + 1) * cs).
Definition covered (inw : nat -> nat -> nat -> bool) (size cs k : nat) : bool :=
  existsb (fun j => inw cs j k) (seq 0 (subchunks size cs)).

(* -- descending ordered merge (SortedMergeTransform with opt.Ascending = false): the readers deliver their rows newest
      first and the merge compares with the reversed order *)
Definition arow_geb (a b : arow) : bool := arow_leb b a.
Fixpoint merge2d (a : list arow) : list arow -> list arow :=
  fix inner (b : list arow) : list arow :=
    match a, b with
    | [], _ => b
    | _, [] => a
    | x :: a', y :: b' => if arow_geb x y then x :: merge2d a' b else y :: inner b'
    end.
Definition merge_kd (ls : list (list arow)) : list arow := fold_right merge2d [] ls.
