(* C08: evaluation of a condition tree in reverse Polish notation (the column-store row filter, lib/binaryfilterfunc
   ConditionImpl.filterCompoundExpr). With ONE operand stack the evaluation is the evaluation of the tree (the repaired
   discipline of fix 9647ea6: an operator takes its two most recent operands, whatever they are). The code before that fix
   kept pending comparisons and results of evaluated sub-expressions on TWO stacks and let an operator take the two most
   recent pending comparisons whenever there were two: refuted below. *)
From Coq Require Import List Bool.
Import ListNotations.

Section Rpn.
  Context {Atom : Type}.
  Variable holds : Atom -> bool.   (* the comparison on the row at hand *)

  Inductive ctree := Leaf (a : Atom) | And (l r : ctree) | Or (l r : ctree).
  Fixpoint teval (t : ctree) : bool :=
    match t with
    | Leaf a => holds a
    | And l r => teval l && teval r
    | Or l r => teval l || teval r
    end.

  Inductive tok := TAtom (a : Atom) | TAnd | TOr.
  Fixpoint rpn (t : ctree) : list tok :=
    match t with
    | Leaf a => [TAtom a]
    | And l r => rpn l ++ rpn r ++ [TAnd]
    | Or l r => rpn l ++ rpn r ++ [TOr]
    end.

  (* one operand stack of results *)
  Definition step1 (st : option (list bool)) (k : tok) : option (list bool) :=
    match k, st with
    | TAtom a, Some s => Some (holds a :: s)
    | TAnd, Some (y :: x :: s) => Some ((x && y) :: s)
    | TOr, Some (y :: x :: s) => Some ((x || y) :: s)
    | _, _ => None
    end.
  Definition run1 (ks : list tok) (st : option (list bool)) : option (list bool) := fold_left step1 ks st.

  Lemma run1_app : forall a b st, run1 (a ++ b) st = run1 b (run1 a st).
  Proof. intros. unfold run1. apply fold_left_app. Qed.

  Lemma run1_tree : forall t s, run1 (rpn t) (Some s) = Some (teval t :: s).
  Proof.
    induction t as [a|l IHl r IHr|l IHl r IHr]; intros s; cbn [rpn teval].
    - reflexivity.
    - rewrite !run1_app, IHl, IHr. reflexivity.
    - rewrite !run1_app, IHl, IHr. reflexivity.
  Qed.

  Theorem rpn_single_stack_eq_tree : forall t, run1 (rpn t) (Some []) = Some [teval t].
  Proof. intros. apply run1_tree. Qed.

  (* two stacks: pending comparisons (most recent first) and results (most recent first), dispatch on the number of pending
     comparisons as filterForAnd / filterForOr do *)
  Definition bop (k : tok) (x y : bool) : bool := match k with TAnd => x && y | _ => x || y end.
  Definition step2 (st : option (list Atom * list bool)) (k : tok) : option (list Atom * list bool) :=
    match k, st with
    | TAtom a, Some (p, rs) => Some (a :: p, rs)
    | TAtom _, None => None
    | _, Some (e1 :: e2 :: p, rs) => Some (p, bop k (holds e2) (holds e1) :: rs)
    | _, Some ([e1], r :: rs) => Some ([], bop k r (holds e1) :: rs)
    | _, Some ([], y :: x :: rs) => Some ([], bop k x y :: rs)
    | _, _ => None
    end.
  Definition run2 (ks : list tok) : option (list Atom * list bool) := fold_left step2 ks (Some ([], [])).
End Rpn.

(* the two-stack discipline computes another function: A AND (B OR (C OR D)) with A false, B true comes out true *)
Theorem rpn_two_stack_refuted : exists (holds : nat -> bool) (t : @ctree nat),
  run2 holds (rpn t) <> Some ([], [teval holds t]).
Proof.
  exists (fun n => Nat.eqb n 1 || Nat.eqb n 2).
  exists (And (Leaf 0) (Or (Leaf 1) (Or (Leaf 2) (Leaf 3)))).
  vm_compute. discriminate.
Qed.

(* conditions whose compound operands are all on the LEFT are evaluated correctly by the two-stack discipline too
   (one instance; the harness checks the real code on generated shapes) *)
Example rpn_two_stack_left_nested_ok : forall holds : nat -> bool,
  let t := And (Or (Or (Leaf 0) (Leaf 1)) (Leaf 2)) (Leaf 3) in
  run2 holds (rpn t) = Some ([], [teval holds t]).
Proof. intros. reflexivity. Qed.
