(* C08: the descending ordered merge of plain selections (Pipe.l2_group_rows with q_desc): the readers deliver
   DESCENDING streams (each reader's sorted rows, newest first) and the merge compares with the reversed order, as
   SortedMergeTransform does with opt.Ascending = false; the result is L1's descending answer. *)
From Coq Require Import List Permutation Sorted.
From OG Require Import C08.Model C08.Order C08.Proofs.
Import ListNotations.

Definition row_ge (a b : arow) : Prop := row_le b a.

Lemma merge2d_by : merge2d = merge_by arow_geb.
Proof. reflexivity. Qed.

Lemma merge_kd_perm : forall ls, Permutation (merge_kd ls) (concat ls).
Proof. unfold merge_kd. rewrite merge2d_by. apply merge_k_by_perm. Qed.

Lemma merge_kd_sorted : forall ls, Forall (Sorted row_ge) ls -> Sorted row_ge (merge_kd ls).
Proof.
  unfold merge_kd. rewrite merge2d_by. apply merge_k_by_sorted; [trivial|].
  intros x y. apply arow_leb_total.
Qed.

Lemma sorted_le_rev : forall l, Sorted row_le l -> Sorted row_ge (rev l).
Proof. exact (Sorted_rev row_le row_le_transitive). Qed.

Lemma sorted_ge_perm_unique : forall l1 l2, Sorted row_ge l1 -> Sorted row_ge l2 -> Permutation l1 l2 -> l1 = l2.
Proof.
  apply Sorted_perm_unique.
  - intros a b c H1 H2. exact (arow_leb_trans c b a H2 H1).
  - intros a b H1 H2. exact (arow_leb_antisym a b H2 H1).
Qed.

Theorem merge_kd_eq_rev_sort : forall ls, Forall (Sorted row_ge) ls -> merge_kd ls = rev (sort_rows (concat ls)).
Proof.
  intros ls H. apply sorted_ge_perm_unique.
  - now apply merge_kd_sorted.
  - apply sorted_le_rev, sort_rows_sorted.
  - eapply Permutation_trans; [apply merge_kd_perm|].
    eapply Permutation_trans; [apply Permutation_sym, sort_rows_perm | apply Permutation_rev].
Qed.

(* L2 = L1 for descending plain selections: every reader hands out its share newest first, the descending merge gives
   L1's descending rows, for every partition of the member series over readers *)
Theorem plain_pipeline_desc_lemma : forall q cols (parts : list (list series)) ms,
  Permutation (concat parts) ms ->
  merge_kd (map (fun p => rev (plain_group q cols p)) parts) = rev (plain_group q cols ms).
Proof.
  intros q cols parts ms P. unfold plain_group.
  rewrite <- (map_map (flat_map (plain_rows_of_series q cols)) (fun l => rev (sort_rows l))), merge_kd_eq_rev_sort.
  - f_equal. apply sorted_perm_unique; try apply sort_rows_sorted.
    eapply Permutation_trans; [apply sort_rows_perm|].
    eapply Permutation_trans; [apply concat_map_perm|].
    { intros l. eapply Permutation_trans; [apply Permutation_sym, Permutation_rev | apply sort_rows_perm]. }
    eapply Permutation_trans; [|apply Permutation_sym, sort_rows_perm].
    rewrite <- flat_map_concat. now apply Permutation_flat_map.
  - apply Forall_forall. intros l Hl. apply in_map_iff in Hl. destruct Hl as [p [<- _]].
    apply sorted_le_rev, sort_rows_sorted.
Qed.
