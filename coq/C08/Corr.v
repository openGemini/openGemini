(* C08 correspondence evaluator: recomputes with the L1 model the reference answers the harness accepted for the
   implementation, and reports the indices of the cases on which they differ. *)
From Coq Require Import ZArith List Bool.
From OG Require Import C08.Model.
Import ListNotations.
Open Scope Z_scope.

Fixpoint list_eqb {A} (eqb : A -> A -> bool) (a b : list A) : bool :=
  match a, b with
  | [], [] => true
  | x :: a', y :: b' => eqb x y && list_eqb eqb a' b'
  | _, _ => false
  end.

Definition cell_eqb (a b : cell) : bool :=
  match a, b with
  | CNull, CNull => true
  | CVal x, CVal y => x =? y
  | CRat n d, CRat n' d' => (n =? n') && (d =? d')
  | _, _ => false
  end.
Definition arow_eqb (a b : arow) : bool := (fst a =? fst b) && list_eqb cell_eqb (snd a) (snd b).
Definition group_eqb (a b : list Z * list arow) : bool :=
  list_eqb Z.eqb (fst a) (fst b) && list_eqb arow_eqb (snd a) (snd b).
Definition answer_eqb (a b : answer) : bool := list_eqb group_eqb a b.

Fixpoint mismatches_from (k : nat) (db : database) (cs : list (query * answer)) : list nat :=
  match cs with
  | [] => []
  | (q, a) :: r =>
      if answer_eqb (eval_query db q) a then mismatches_from (S k) db r
      else k :: mismatches_from (S k) db r
  end.
Definition mismatches := mismatches_from 0.

(* operator-level cases: (interval, first, last, fill mode, columns, chunks of one group's rows, output of the real
   FillTransform's specification twin). Returns the indices on which the L2 machine differs. *)
Definition opcase := (Z * Z * Z * fillmode * list aggcol * list (list arow) * list arow)%type.
Fixpoint op_mismatches_from (k : nat) (cs : list opcase) : list nat :=
  match cs with
  | [] => []
  | (i, first, last, m, aggs, chunks, want) :: r =>
      if list_eqb arow_eqb (fill_group_chunks i first last m aggs chunks) want then op_mismatches_from (S k) r
      else k :: op_mismatches_from (S k) r
  end.
Definition op_mismatches := op_mismatches_from 0.

(* operator-level cases of the aggregation, limit and merge operators (harness cmd/c08op)             *)
From OG Require Import C08.Pipe C08.Window.

(* aggregation: the columns, the input chunks (key of the (group, window), raw row) and the expected output
   (key, reported time when it is defined by the language - single selector -, cells) *)
Definition aggop_out := (Z * option Z * list cell)%type.
Definition aggop_case := (list aggcol * list (list (Z * row)) * list aggop_out)%type.

Definition aggop_time (aggs : list aggcol) (pr : prow) : option Z :=
  match aggs, pr with
  | [(fn, _, _)], [Some p] => if is_selector fn then Some (fst (p_best p)) else None
  | _, _ => None
  end.

Definition aggop_eval (aggs : list aggcol) (chunks : list (list (Z * row))) : list aggop_out :=
  map (fun x : Z * prow => (fst x, aggop_time aggs (snd x), fin_row aggs (snd x)))
      (concat (agg_chunks Z.eqb (fun v : prow => v) (rowop aggs) (same_group Z.eqb) None
                 (map (map (fun kr : Z * row => (fst kr, row_part aggs (snd kr)))) chunks))).

Definition aggop_out_eqb (model want : aggop_out) : bool :=
  let '(k, t, cs) := model in
  let '(k', t', cs') := want in
  (k =? k') && list_eqb cell_eqb cs cs' &&
  match t' with
  | None => true
  | Some x => match t with Some y => x =? y | None => false end
  end.

Fixpoint aggop_mismatches_from (k : nat) (cs : list aggop_case) : list nat :=
  match cs with
  | [] => []
  | (aggs, chunks, want) :: r =>
      if list_eqb aggop_out_eqb (aggop_eval aggs chunks) want then aggop_mismatches_from (S k) r
      else k :: aggop_mismatches_from (S k) r
  end.
Definition aggop_mismatches := aggop_mismatches_from 0.

(* limit: offset, limit, chunks of row ids, expected ids *)
Definition limitop_case := (nat * nat * list (list Z) * list Z)%type.
Fixpoint limitop_mismatches_from (k : nat) (cs : list limitop_case) : list nat :=
  match cs with
  | [] => []
  | (off, lim, chunks, want) :: r =>
      if list_eqb Z.eqb (snd (run_chunks (limit_step off lim) 0%nat chunks)) want then limitop_mismatches_from (S k) r
      else k :: limitop_mismatches_from (S k) r
  end.
Definition limitop_mismatches := limitop_mismatches_from 0.

(* sorted merge (plain selections): the readers' sorted streams and the operator's output, exactly merge_k *)
Definition sortmerge_case := (list (list arow) * list arow)%type.
Fixpoint sortmerge_mismatches_from (k : nat) (cs : list sortmerge_case) : list nat :=
  match cs with
  | [] => []
  | (inputs, got) :: r =>
      if list_eqb arow_eqb (merge_k inputs) got then sortmerge_mismatches_from (S k) r
      else k :: sortmerge_mismatches_from (S k) r
  end.
Definition sortmerge_mismatches := sortmerge_mismatches_from 0.

(* ordered merge below the aggregation: the output must be ordered by key and carry the same rows under every key as
   kmerge_k of the inputs (the order inside one key is free: the proofs use only sortedness and the permutation) *)
Definition kmerge_case := (list (list (Z * arow)) * list (Z * arow))%type.
Definition enc_keyed (x : Z * arow) : arow := (fst x, CVal (fst (snd x)) :: snd (snd x)).
Fixpoint keys_sorted (l : list Z) : bool :=
  match l with
  | x :: ((y :: _) as r) => (x <=? y) && keys_sorted r
  | _ => true
  end.
Definition kmerge_ok (c : kmerge_case) : bool :=
  let '(inputs, got) := c in
  keys_sorted (map fst got) &&
  list_eqb arow_eqb (sort_rows (map enc_keyed got)) (sort_rows (map enc_keyed (kmerge_k inputs))).
Fixpoint kmerge_mismatches_from (k : nat) (cs : list kmerge_case) : list nat :=
  match cs with
  | [] => []
  | c :: r => if kmerge_ok c then kmerge_mismatches_from (S k) r else k :: kmerge_mismatches_from (S k) r
  end.
Definition kmerge_mismatches := kmerge_mismatches_from 0.

(* store-side cases (harness cmd/c08s): the partial rows the REAL store-side reader emitted for one statement, folded by
   the model's own combination of partial aggregates, against the reference semantics over the logical contents *)
Definition store_cell := option (Z * Z).          (* value, time the cell is stamped with *)
Definition store_row := (Z * list store_cell)%type. (* row time, cells *)
Definition store_case := (database * query * list (list Z * list store_row))%type.

Definition store_part (fn : aggfn) (c : store_cell) : option part :=
  match c with
  | None => None
  | Some (v, t) => Some match fn with
                        | FCount => (v, 0, (0, 0))
                        | FSum => (0, v, (0, 0))
                        | _ => (1, v, (t, v))
                        end
  end.
Fixpoint store_prow (aggs : list aggcol) (cells : list store_cell) : prow :=
  match aggs, cells with
  | (fn, _, _) :: aggs', c :: cells' => store_part fn c :: store_prow aggs' cells'
  | _, _ => []
  end.
Definition store_fold (q : query) (aggs : list aggcol) (rows : list store_row) : list arow :=
  finalize aggs (kagg aggs (ksort (filter has_value (map (fun r : store_row => (bkey q (fst r), store_prow aggs (snd r))) rows)))).
Definition store_expect (q : query) (aggs : list aggcol) (ms : list series) : list arow :=
  let a := agg_group false q aggs ms in
  if q_interval q =? 0 then match a with [(_, cs)] => [(0, cs)] | x => x end else a.

Fixpoint rows_of_key (k : list Z) (parts : list (list Z * list store_row)) : list store_row :=
  match parts with
  | [] => []
  | (k', rows) :: r => if zlist_eqb k k' then rows ++ rows_of_key k r else rows_of_key k r
  end.

Definition store_ok (c : store_case) : bool :=
  let '(db, q, parts) := c in
  match q_sel q with
  | SelAgg aggs =>
      let ks := keys_of q db in
      forallb (fun k => list_eqb arow_eqb (store_fold q aggs (rows_of_key k parts)) (store_expect q aggs (members q db k))) ks
      && forallb (fun p : list Z * list store_row => existsb (zlist_eqb (fst p)) ks || match snd p with [] => true | _ => false end) parts
  | _ => false
  end.
Fixpoint store_mismatches_from (k : nat) (cs : list store_case) : list nat :=
  match cs with
  | [] => []
  | c :: r => if store_ok c then store_mismatches_from (S k) r else k :: store_mismatches_from (S k) r
  end.
Definition store_mismatches := store_mismatches_from 0.

(* descending sorted merge: the operator's output is exactly merge_kd of the readers' descending streams *)
Fixpoint sortmerge_desc_mismatches_from (k : nat) (cs : list sortmerge_case) : list nat :=
  match cs with
  | [] => []
  | (inputs, got) :: r =>
      if list_eqb arow_eqb (merge_kd inputs) got then sortmerge_desc_mismatches_from (S k) r
      else k :: sortmerge_desc_mismatches_from (S k) r
  end.
Definition sortmerge_desc_mismatches := sortmerge_desc_mismatches_from 0.

(* ProcessorOptions.Window on generated (t, interval, offset) triples, negatives and the MinTime / MaxTime neighbourhood
   included: the real function's (start, end) against the model function Window.window *)
Definition window_case := (Z * Z * Z * Z * Z)%type.   (* t, d, off, start, end *)
Fixpoint window_mismatches_from (k : nat) (cs : list window_case) : list nat :=
  match cs with
  | [] => []
  | (t, d, off, s, e) :: r =>
      if (let (ms, me) := window t d off in (ms =? s)%Z && (me =? e)%Z) then window_mismatches_from (S k) r
      else k :: window_mismatches_from (S k) r
  end.
Definition window_mismatches := window_mismatches_from 0.
