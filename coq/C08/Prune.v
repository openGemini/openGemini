(* C08: series pruning under LIMIT (engine/iterators.go itrsInitWithLimit + topNLinkedList).
   For `SELECT * .. LIMIT n OFFSET o` without GROUP BY the store keeps only m = n + o series per reader, ranked by a key
   (seriesCursor.limitFirstTime) that is meant to be the time of the series' first returned row. The answer is the first m
   rows of the ordered merge. This file states when dropping series is unobservable, proves it for the repaired rule
   (a series whose key lies outside the query's time range is never dropped, the others are ranked by their exact first
   time; the rule of /repo since fix f47e8f7) and refutes the rule of the code before that fix (key = bound of the first
   overlapping chunk, not clipped to the range). The model is the ascending scan - smallest keys kept, lower bound of the
   range; a descending scan is its mirror image. *)
From Coq Require Import ZArith List Lia Permutation Sorted.
From OG Require Import C08.Model C08.Order C08.Proofs.
Import ListNotations.
Local Open Scope Z_scope.

(* number of rows of l strictly before d in the row order *)
Definition nlt (d : arow) (l : list arow) : nat := length (filter (fun k => negb (arow_leb d k)) l).

Lemma nlt_app : forall d a b, nlt d (a ++ b) = (nlt d a + nlt d b)%nat.
Proof. intros. unfold nlt. now rewrite filter_app, app_length. Qed.

Lemma nlt_perm : forall d a b, Permutation a b -> nlt d a = nlt d b.
Proof.
  intros d a b P. unfold nlt. induction P; cbn.
  - reflexivity.
  - destruct (negb (arow_leb d x)); cbn; now rewrite IHP.
  - destruct (negb (arow_leb d x)), (negb (arow_leb d y)); reflexivity.
  - congruence.
Qed.

Lemma nlt_all_ge : forall d S, (forall z, In z S -> arow_leb d z = true) -> nlt d S = 0%nat.
Proof.
  intros d. unfold nlt. induction S as [|y S IH]; intros F; [reflexivity|]. cbn.
  rewrite (F y (or_introl eq_refl)). cbn. apply IH. intros z Hz. apply F. now right.
Qed.

Lemma nlt_sorted_head : forall d s S, Sorted row_le (s :: S) -> arow_leb d s = true -> nlt d (s :: S) = 0%nat.
Proof.
  intros d s S HS Hd. apply Sorted_StronglySorted in HS; [|exact row_le_transitive].
  inversion HS as [|? ? SS0 F]; subst. rewrite Forall_forall in F.
  apply nlt_all_ge. intros z [<-|Hz]; [exact Hd|]. eapply arow_leb_trans; [exact Hd | now apply F].
Qed.

Lemma firstn_insert_row : forall d S n, Sorted row_le S -> (n <= nlt d S)%nat -> firstn n (insert_row d S) = firstn n S.
Proof.
  intros d. induction S as [|s S IH]; intros n HS Hn.
  - unfold nlt in Hn. cbn in Hn. assert (n = 0%nat) by lia. subst. reflexivity.
  - cbn [insert_row]. destruct (arow_leb d s) eqn:E.
    + rewrite (nlt_sorted_head d s S HS E) in Hn. assert (n = 0%nat) by lia. subst. reflexivity.
    + destruct n as [|n]; [reflexivity|]. cbn [firstn]. f_equal. apply IH.
      * now inversion HS.
      * unfold nlt in *. cbn in Hn. rewrite E in Hn. cbn in Hn. lia.
Qed.

Lemma firstn_sort_app : forall n D K,
  (forall d, In d D -> (n <= nlt d K)%nat) -> firstn n (sort_rows (D ++ K)) = firstn n (sort_rows K).
Proof.
  intros n. induction D as [|d D IH]; intros K H; [reflexivity|].
  cbn [app sort_rows fold_right]. fold (sort_rows (D ++ K)).
  rewrite firstn_insert_row.
  - apply IH. intros x Hx. apply H. now right.
  - apply sort_rows_sorted.
  - rewrite (nlt_perm d _ _ (sort_rows_perm (D ++ K))), nlt_app. specialize (H d (or_introl eq_refl)). lia.
Qed.

Lemma sort_rows_perm_eq : forall a b, Permutation a b -> sort_rows a = sort_rows b.
Proof.
  intros a b P. apply sorted_perm_unique; try apply sort_rows_sorted.
  eapply Permutation_trans; [apply sort_rows_perm|]. eapply Permutation_trans; [exact P|]. apply Permutation_sym, sort_rows_perm.
Qed.

(* the answer of `LIMIT m` (m = limit + offset rows are needed) over a set of series *)
Definition limit_answer (m : nat) (ss : list (list arow)) : list arow := firstn m (sort_rows (concat ss)).

(* GENERAL CRITERION: dropping series is unobservable when every dropped row has at least m kept rows strictly before it *)
Theorem prune_unobservable : forall m kept dropped,
  (forall d, In d (concat dropped) -> (m <= nlt d (concat kept))%nat) ->
  limit_answer m (kept ++ dropped) = limit_answer m kept.
Proof.
  intros m kept dropped H. unfold limit_answer.
  rewrite (sort_rows_perm_eq (concat (kept ++ dropped)) (concat dropped ++ concat kept)).
  - now apply firstn_sort_app.
  - rewrite concat_app. apply Permutation_app_comm.
Qed.

(* exact key of a series: the time of its first returned row *)
Definition first_time (s : list arow) : Z := match s with [] => 0 | r :: _ => fst r end.

Lemma sorted_first_time_le : forall s x, Sorted row_le s -> In x s -> first_time s <= fst x.
Proof.
  intros [|r s] x HS Hx; [destruct Hx|]. cbn.
  apply Sorted_StronglySorted in HS; [|exact row_le_transitive]. inversion HS as [|? ? SS0 F]; subst.
  destruct Hx as [->|Hx]; [lia|]. rewrite Forall_forall in F. specialize (F x Hx).
  unfold row_le, arow_leb, arow_compare in F.
  destruct (Z.compare_spec (fst r) (fst x)); [lia | lia | cbn in F; discriminate].
Qed.

Lemma lt_time_nleb : forall a b : arow, fst a < fst b -> arow_leb b a = false.
Proof.
  intros a b H. unfold arow_leb, arow_compare. apply Z.compare_gt_iff in H. now rewrite H.
Qed.

(* every ranked series contributes its first row *)
Lemma nlt_ranked : forall x ranked,
  Forall (fun s => s <> [] /\ first_time s < fst x) ranked -> (length ranked <= nlt x (concat ranked))%nat.
Proof.
  intros x. induction ranked as [|s ranked IH]; intros F; [cbn; lia|].
  inversion F as [|? ? [Hne Hlt] F']; subst. cbn [concat length]. rewrite nlt_app. specialize (IH F').
  destruct s as [|r s]; [congruence|]. unfold nlt at 1. cbn [filter]. cbn in Hlt. rewrite (lt_time_nleb r x Hlt). cbn. lia.
Qed.

Lemma nodup_times_apart : forall (l1 l2 : list arow) a b,
  NoDup (map fst (l1 ++ l2)) -> In a l1 -> In b l2 -> fst a <> fst b.
Proof.
  induction l1 as [|y l1 IH]; intros l2 a b ND Ha Hb E; [destruct Ha|].
  inversion ND as [|? ? Hy ND']; subst. destruct Ha as [<-|Ha].
  - apply Hy. rewrite E. apply in_map, in_or_app. now right.
  - exact (IH l2 a b ND' Ha Hb E).
Qed.

(* REPAIRED RULE, relational form: the kept series are `ranked` (key = exact first time, at least m of them unless nothing
   is dropped) and `unranked` (key outside the range: first time unknown, never dropped); only series with an exact key
   that is not smaller than the key of any kept ranked series are dropped. Rows of different series at the same instant
   are excluded (their order is finding C08-tie-order). *)
Theorem prune_repaired_sound : forall m ranked unranked dropped,
  Forall (Sorted row_le) dropped ->
  Forall (fun s => s <> []) ranked ->
  NoDup (map fst (concat (ranked ++ unranked ++ dropped))) ->
  (m <= length ranked)%nat ->
  (forall k d, In k ranked -> In d dropped -> first_time k <= first_time d) ->
  limit_answer m (ranked ++ unranked ++ dropped) = limit_answer m (ranked ++ unranked).
Proof.
  intros m ranked unranked dropped HS Hne ND Hm Hkey.
  rewrite app_assoc. apply prune_unobservable. intros x Hx.
  apply in_concat in Hx. destruct Hx as [d [Hd Hxd]].
  rewrite concat_app, nlt_app.
  assert (length ranked <= nlt x (concat ranked))%nat; [|lia].
  apply nlt_ranked. rewrite Forall_forall in *. intros k Hk. split; [now apply Hne|].
  pose proof (Hkey k d Hk Hd). pose proof (sorted_first_time_le d x (HS d Hd) Hxd).
  (* the first row of k and x lie in different parts of the NoDup list *)
  assert (first_time k <> fst x); [|lia].
  specialize (Hne k Hk). destruct k as [|r k]; [congruence|].
  rewrite concat_app in ND. apply (nodup_times_apart _ _ r x ND); apply in_concat.
  - exists (r :: k). split; [exact Hk | now left].
  - exists d. split; [apply in_or_app; now right | exact Hxd].
Qed.

(* algorithmic form: series with keys; keep the m smallest keys (topNLinkedList) *)

Definition kseries := (Z * list arow)%type.
Fixpoint ins_key (x : kseries) (l : list kseries) : list kseries :=
  match l with
  | [] => [x]
  | y :: r => if fst x <? fst y then x :: l else y :: ins_key x r
  end.
Definition by_key (ks : list kseries) : list kseries := fold_right ins_key [] ks.

(* before fix f47e8f7: every series is ranked by the bound of its first overlapping chunk *)
Definition prune_current (m : nat) (ks : list kseries) : list (list arow) := map snd (firstn m (by_key ks)).
(* repaired: a key below the range's lower bound `lo` is not a first time; such a series is kept *)
Definition prune_ranked (p : kseries -> bool) (m : nat) (ks : list kseries) : list (list arow) :=
  map snd (firstn m (by_key (filter p ks))) ++ map snd (filter (fun k => negb (p k)) ks).
Definition prune_repaired (lo : Z) : nat -> list kseries -> list (list arow) := prune_ranked (fun k => lo <=? fst k).

Lemma ins_key_perm : forall x l, Permutation (ins_key x l) (x :: l).
Proof. exact (insert_by_perm (fun x y => fst x <? fst y)). Qed.
Lemma by_key_perm : forall l, Permutation (by_key l) l.
Proof. exact (sort_by_perm (fun x y => fst x <? fst y)). Qed.
Definition key_le (a b : kseries) : Prop := fst a <= fst b.
Lemma ins_key_sorted : forall x l, StronglySorted key_le l -> StronglySorted key_le (ins_key x l).
Proof.
  intros x l S. apply Sorted_StronglySorted; [intros a b c; unfold key_le; lia|].
  apply (insert_by_sorted (fun x y => fst x <? fst y) key_le); [| | now apply StronglySorted_Sorted].
  - intros a b H. apply Z.ltb_lt in H. unfold key_le. lia.
  - intros a b H. apply Z.ltb_ge in H. exact H.
Qed.
Lemma by_key_sorted : forall l, StronglySorted key_le (by_key l).
Proof. induction l as [|x l IH]; cbn; [constructor | now apply ins_key_sorted]. Qed.

Lemma in_firstn_ : forall A n (l : list A) x, In x (firstn n l) -> In x l.
Proof. intros A n l x H. rewrite <- (firstn_skipn n l). apply in_or_app. now left. Qed.
Lemma in_skipn_ : forall A n (l : list A) x, In x (skipn n l) -> In x l.
Proof. intros A n l x H. rewrite <- (firstn_skipn n l). apply in_or_app. now right. Qed.

Lemma sorted_firstn_skipn : forall m (l : list kseries) a b,
  StronglySorted key_le l -> In a (firstn m l) -> In b (skipn m l) -> key_le a b.
Proof.
  induction m as [|m IH]; intros l a b S Ha Hb; [destruct Ha|].
  destruct l as [|y l]; [destruct Ha|]. inversion S as [|? ? S' F]; subst. cbn in Ha, Hb.
  destruct Ha as [<-|Ha].
  - rewrite Forall_forall in F. apply F. eapply in_skipn_. exact Hb.
  - now apply (IH l).
Qed.

Lemma concat_perm : forall (l l' : list (list arow)), Permutation l l' -> Permutation (concat l) (concat l').
Proof.
  intros l l' P. induction P; cbn.
  - constructor.
  - now apply Permutation_app_head.
  - rewrite !app_assoc. apply Permutation_app_tail, Permutation_app_comm.
  - eapply Permutation_trans; eassumption.
Qed.

Lemma filter_split_perm : forall (p : kseries -> bool) (ks : list kseries),
  Permutation ks (filter p ks ++ filter (fun k => negb (p k)) ks).
Proof.
  intros p. induction ks as [|k ks IH]; cbn; [constructor|].
  destruct (p k); cbn.
  - now constructor.
  - eapply Permutation_trans; [constructor; exact IH|]. apply Permutation_middle.
Qed.

(* algorithmic form: series accepted by `p` are ranked by their key, the others are always kept; the pruned set of series
   gives the same LIMIT answer as all the series provided the key of every RANKED series is its first time *)
Theorem prune_ranked_sound : forall p m ks,
  Forall (fun k => Sorted row_le (snd k) /\ snd k <> []) ks ->
  (forall k, In k ks -> p k = true -> fst k = first_time (snd k)) ->
  NoDup (map fst (concat (map snd ks))) ->
  limit_answer m (prune_ranked p m ks) = limit_answer m (map snd ks).
Proof.
  intros p m ks Hs Hkey ND. unfold prune_ranked.
  set (B := by_key (filter p ks)). set (U := filter (fun k => negb (p k)) ks).
  (* all series = the m best ranked, the unranked, the other ranked *)
  assert (Pall : Permutation (map snd ks) (map snd (firstn m B) ++ map snd U ++ map snd (skipn m B))).
  { rewrite <- !map_app. apply Permutation_map, Permutation_trans with (B ++ U).
    - eapply Permutation_trans; [apply (filter_split_perm p) | apply Permutation_app_tail, Permutation_sym, by_key_perm].
    - rewrite <- (firstn_skipn m B) at 1. rewrite <- app_assoc. apply Permutation_app_head, Permutation_app_comm. }
  assert (HinB : forall k, In k B -> In k ks /\ p k = true).
  { intros k Hk. apply (Permutation_in _ (by_key_perm _)), filter_In in Hk. exact Hk. }
  rewrite Forall_forall in Hs.
  unfold limit_answer at 2. rewrite (sort_rows_perm_eq _ _ (concat_perm _ _ Pall)).
  destruct (Nat.le_gt_cases (length B) m) as [Hlen|Hlen].
  { rewrite (skipn_all2 B Hlen). cbn [map]. now rewrite app_nil_r. }
  symmetry. apply prune_repaired_sound.
  - apply Forall_map, Forall_forall. intros k Hk. now apply Hs, HinB, in_skipn_ with m.
  - apply Forall_map, Forall_forall. intros k Hk. now apply Hs, HinB, in_firstn_ with m.
  - eapply Permutation_NoDup; [|exact ND]. apply Permutation_map, concat_perm. exact Pall.
  - rewrite map_length, firstn_length. apply Nat.min_glb; [apply Nat.le_refl | exact (Nat.lt_le_incl _ _ Hlen)].
  - intros s d Hsx Hdx. apply in_map_iff in Hsx. destruct Hsx as [k [<- Hk]]. apply in_map_iff in Hdx. destruct Hdx as [d' [<- Hd]].
    pose proof (sorted_firstn_skipn m B k d' (by_key_sorted _) Hk Hd) as Hle.
    apply in_firstn_, HinB in Hk. apply in_skipn_, HinB in Hd.
    now rewrite <- (Hkey k), <- (Hkey d').
Qed.

(* REPAIRED RULE: a key inside the range [lo, ..) is the first time of the series (the chunk bound is a stored point) *)
Theorem prune_repaired_alg_sound : forall lo m ks,
  Forall (fun k => Sorted row_le (snd k) /\ snd k <> []) ks ->
  (forall k, In k ks -> lo <= fst k -> fst k = first_time (snd k)) ->
  NoDup (map fst (concat (map snd ks))) ->
  limit_answer m (prune_repaired lo m ks) = limit_answer m (map snd ks).
Proof.
  intros lo m ks Hs Hkey ND. apply prune_ranked_sound; try assumption.
  intros k Hk Hp. apply Hkey; [exact Hk | now apply Z.leb_le].
Qed.

(* CHARACTERISATION of the rule before fix f47e8f7: it is right whenever every key is a first time - i.e. when no series
   holds a stored point outside the range on the side the scan starts from (the signature of C08-limit-prune-time-range) *)
Lemma filter_true : forall (l : list kseries), filter (fun _ => true) l = l.
Proof. induction l as [|x l IH]; cbn; [reflexivity | now rewrite IH]. Qed.
Lemma filter_false : forall (l : list kseries), filter (fun _ => negb true) l = [].
Proof. induction l as [|x l IH]; cbn; [reflexivity | exact IH]. Qed.
Theorem prune_current_sound_exact_keys : forall m ks,
  Forall (fun k => Sorted row_le (snd k) /\ snd k <> []) ks ->
  (forall k, In k ks -> fst k = first_time (snd k)) ->
  NoDup (map fst (concat (map snd ks))) ->
  limit_answer m (prune_current m ks) = limit_answer m (map snd ks).
Proof.
  intros m ks Hs Hkey ND.
  rewrite <- (prune_ranked_sound (fun _ => true) m ks Hs (fun k Hk _ => Hkey k Hk) ND).
  unfold prune_ranked, prune_current. now rewrite filter_true, filter_false, app_nil_r.
Qed.

(* witness: range [10, ..), LIMIT 1. Series A has a point at 0 (outside) in the chunk that also holds its point at 100;
   series B starts at 50. Before the fix A's key is 0, B is dropped and the answer is the row at 100. *)
Definition wA : kseries := (0, [(100, [CVal 1])]).
Definition wB : kseries := (50, [(50, [CVal 2])]).

Theorem prune_current_refuted :
  limit_answer 1 (prune_current 1 [wA; wB]) <> limit_answer 1 (map snd [wA; wB]).
Proof. vm_compute. discriminate. Qed.

Example prune_repaired_witness :
  limit_answer 1 (prune_repaired 10 1 [wA; wB]) = limit_answer 1 (map snd [wA; wB]).
Proof. vm_compute. reflexivity. Qed.
