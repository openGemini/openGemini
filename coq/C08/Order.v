(* C08: lists sorted by a relation, ordered insertion and ordered merge over an arbitrary decidable preorder. The row
   order (Model.arow_leb), its reverse, the bucket keys of the partial streams and the keys of the pruned series are
   instances: Model.insert_row, Model.merge2, Model.merge2d, Pipe.kinsert, Pipe.kmerge2 and Prune.ins_key are
   insert_by / merge_by at their comparison (the definitions unfold to the same fixpoints). *)
From Coq Require Import List Permutation Sorted.
Import ListNotations.

Lemma Sorted_snoc : forall {X} (R : X -> X -> Prop) l x,
  Sorted R l -> Forall (fun y => R y x) l -> Sorted R (l ++ [x]).
Proof.
  intros X R. induction l as [|y l IH]; intros x S F; cbn [app]; [repeat constructor|].
  inversion S as [|? ? S1 H1]; subst. inversion F as [|? ? Hy F1]; subst.
  constructor; [now apply IH|]. destruct l; cbn [app]; constructor; [exact Hy | now inversion H1].
Qed.

Section Sorted.
  Context {X : Type}.
  Variable R : X -> X -> Prop.
  Hypothesis R_trans : Relations_1.Transitive R.

  Lemma Sorted_Forall : forall x l, Sorted R (x :: l) -> Forall (R x) l.
  Proof. intros x l S. apply Sorted_StronglySorted in S; [now inversion S | exact R_trans]. Qed.

  Lemma Sorted_rev : forall l, Sorted R l -> Sorted (fun a b => R b a) (rev l).
  Proof.
    induction l as [|x l IH]; intros S; [constructor|].
    cbn [rev]. apply Sorted_snoc; [apply IH; now inversion S|].
    apply Forall_forall. intros y Hy. apply in_rev in Hy.
    exact (proj1 (Forall_forall _ _) (Sorted_Forall x l S) y Hy).
  Qed.

  Lemma Sorted_NoDup : (forall a, ~ R a a) -> forall l, Sorted R l -> NoDup l.
  Proof.
    intros irrefl. induction l as [|x l IH]; intros S; constructor; [|apply IH; now inversion S].
    intros Hx. exact (irrefl x (proj1 (Forall_forall _ _) (Sorted_Forall x l S) x Hx)).
  Qed.

  Lemma Sorted_perm_unique : (forall a b, R a b -> R b a -> a = b) ->
    forall l1 l2, Sorted R l1 -> Sorted R l2 -> Permutation l1 l2 -> l1 = l2.
  Proof.
    intros antisym. induction l1 as [|x l1 IH]; intros l2 S1 S2 P.
    - apply Permutation_nil in P. now subst.
    - destruct l2 as [|y l2]; [apply Permutation_sym, Permutation_nil in P; discriminate|].
      pose proof (proj1 (Forall_forall _ _) (Sorted_Forall x l1 S1)) as F1.
      pose proof (proj1 (Forall_forall _ _) (Sorted_Forall y l2 S2)) as F2.
      assert (x = y).
      { destruct (Permutation_in x P (or_introl eq_refl)) as [->|Ix]; [reflexivity|].
        destruct (Permutation_in y (Permutation_sym P) (or_introl eq_refl)) as [<-|Iy]; [reflexivity|].
        apply antisym; [now apply F1 | now apply F2]. }
      subst y. f_equal. apply IH; [now inversion S1 | now inversion S2 | exact (Permutation_cons_inv P)].
  Qed.
End Sorted.

Lemma Sorted_map : forall {X Y} (R : X -> X -> Prop) (R' : Y -> Y -> Prop) (f : X -> Y),
  (forall a b, R a b -> R' (f a) (f b)) -> forall l, Sorted R l -> Sorted R' (map f l).
Proof.
  intros X Y R R' f H. induction l as [|x l IH]; intros S; cbn [map]; [constructor|].
  inversion S as [|? ? S1 H1]; subst. constructor; [now apply IH|].
  destruct l; cbn [map]; constructor. inversion H1; subst. now apply H.
Qed.

Section Ordered.
  Context {X : Type}.
  Variable leb : X -> X -> bool.

  Fixpoint insert_by (x : X) (l : list X) : list X :=
    match l with
    | [] => [x]
    | y :: r => if leb x y then x :: l else y :: insert_by x r
    end.
  Definition sort_by (l : list X) : list X := fold_right insert_by [] l.

  Fixpoint merge_by (a : list X) : list X -> list X :=
    fix inner (b : list X) : list X :=
      match a, b with
      | [], _ => b
      | _, [] => a
      | x :: a', y :: b' => if leb x y then x :: merge_by a' b else y :: inner b'
      end.

  Lemma merge_by_cons : forall x a y b,
    merge_by (x :: a) (y :: b) = if leb x y then x :: merge_by a (y :: b) else y :: merge_by (x :: a) b.
  Proof. reflexivity. Qed.
  Lemma merge_by_nil_r : forall a, merge_by a [] = a.
  Proof. destruct a; reflexivity. Qed.
  Lemma merge_by_nil_l : forall b, merge_by [] b = b.
  Proof. destruct b; reflexivity. Qed.

  Lemma insert_by_perm : forall x l, Permutation (insert_by x l) (x :: l).
  Proof.
    intros x. induction l as [|y l IH]; cbn [insert_by]; [apply Permutation_refl|].
    destruct (leb x y); [apply Permutation_refl|].
    eapply Permutation_trans; [constructor; exact IH | apply perm_swap].
  Qed.

  Lemma sort_by_perm : forall l, Permutation (sort_by l) l.
  Proof.
    induction l as [|x l IH]; cbn [sort_by fold_right]; [constructor|].
    eapply Permutation_trans; [apply insert_by_perm | now constructor].
  Qed.

  Lemma merge_by_perm : forall a b, Permutation (merge_by a b) (a ++ b).
  Proof.
    induction a as [|x a IHa]; intros b; [rewrite merge_by_nil_l; apply Permutation_refl|].
    induction b as [|y b IHb]; [rewrite merge_by_nil_r, app_nil_r; apply Permutation_refl|].
    rewrite merge_by_cons. destruct (leb x y).
    - cbn [app]. constructor. apply IHa.
    - eapply Permutation_trans; [constructor; apply IHb | apply Permutation_middle].
  Qed.

  Lemma merge_k_by_perm : forall ls, Permutation (fold_right merge_by [] ls) (concat ls).
  Proof.
    induction ls as [|l ls IH]; cbn [fold_right concat]; [constructor|].
    eapply Permutation_trans; [apply merge_by_perm | now apply Permutation_app_head].
  Qed.

  Variable R : X -> X -> Prop.
  Hypothesis leb_true : forall x y, leb x y = true -> R x y.
  Hypothesis leb_false : forall x y, leb x y = false -> R y x.

  Lemma insert_by_hdrel : forall z x l, R z x -> HdRel R z l -> HdRel R z (insert_by x l).
  Proof.
    intros z x [|y l] Hx Hl; cbn [insert_by]; [now constructor|].
    destruct (leb x y); constructor; [assumption | now inversion Hl].
  Qed.

  Lemma insert_by_sorted : forall x l, Sorted R l -> Sorted R (insert_by x l).
  Proof.
    intros x. induction l as [|y l IH]; intros S; cbn [insert_by]; [repeat constructor|].
    destruct (leb x y) eqn:E.
    - constructor; [exact S | constructor; now apply leb_true].
    - inversion S; subst. constructor; [now apply IH|].
      apply insert_by_hdrel; [now apply leb_false | assumption].
  Qed.

  Lemma sort_by_sorted : forall l, Sorted R (sort_by l).
  Proof. induction l as [|x l IH]; cbn [sort_by fold_right]; [constructor | now apply insert_by_sorted]. Qed.

  Lemma merge_by_hdrel : forall z a b, HdRel R z a -> HdRel R z b -> HdRel R z (merge_by a b).
  Proof.
    intros z a b Ha Hb. destruct a as [|x a]; [rewrite merge_by_nil_l; exact Hb|].
    destruct b as [|y b]; [rewrite merge_by_nil_r; exact Ha|].
    rewrite merge_by_cons. destruct (leb x y); constructor; [now inversion Ha | now inversion Hb].
  Qed.

  Lemma merge_by_sorted : forall a b, Sorted R a -> Sorted R b -> Sorted R (merge_by a b).
  Proof.
    induction a as [|x a IHa]; intros b Sa Sb; [rewrite merge_by_nil_l; exact Sb|].
    induction b as [|y b IHb]; [rewrite merge_by_nil_r; exact Sa|].
    rewrite merge_by_cons. destruct (leb x y) eqn:E.
    - inversion Sa; subst. constructor; [apply IHa; assumption|].
      apply merge_by_hdrel; [assumption | constructor; now apply leb_true].
    - inversion Sb; subst. constructor; [apply IHb; assumption|].
      apply merge_by_hdrel; [constructor; now apply leb_false | assumption].
  Qed.

  Lemma merge_k_by_sorted : forall ls, Forall (Sorted R) ls -> Sorted R (fold_right merge_by [] ls).
  Proof.
    induction ls as [|l ls IH]; intros H; cbn [fold_right]; [constructor|].
    inversion H; subst. apply merge_by_sorted; auto.
  Qed.
End Ordered.

Lemma Sorted_impl : forall {X} (R R' : X -> X -> Prop), (forall a b, R a b -> R' a b) ->
  forall l, Sorted R l -> Sorted R' l.
Proof. intros X R R' H l S. rewrite <- (map_id l). now apply (Sorted_map R). Qed.
