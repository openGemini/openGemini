(* C08 model, part 2: the chunked aggregate pipeline L2 of one tag group (executable definitions only).

     series rows --(store cursor of one series: rows in bucket order, consecutive rows of a bucket folded)-->
     per-series partials --(reader = one partition of the group's series: ordered merge + fold of equal buckets)-->
     per-reader partials --(executor: ordered k-way merge of the readers)-->
     one stream, cut into chunks of ANY sizes --(aggregation with one-chunk look-ahead, Model.agg_chunks)-->
     one partial row per bucket --(finalise: count / sum / mean / selected value)-->
     bucket rows, cut into chunks of ANY sizes --(fill machine Model.fill_step + tail)--> answer rows of the group.

   A partial aggregate of one column is (count, sum, best point); it is what travels between the stages
   (mean is carried as sum and count, a selector as the preferred point).                                      *)
From Coq Require Import ZArith List Bool Lia.
From OG Require Import C08.Model.
Import ListNotations.
Open Scope Z_scope.

Definition part := (Z * Z * point)%type.
Definition p_cnt (a : part) : Z := fst (fst a).
Definition p_sum (a : part) : Z := snd (fst a).
Definition p_best (a : part) : point := snd a.

Definition pinj (p : point) : part := (1, snd p, p).

(* the preference order used for the `best` component: the column's own order for a selector, min's otherwise
   (then the component is not observed; it only has to be combined in a symmetric way) *)
Definition sel_of (fn : aggfn) : aggfn := if is_selector fn then fn else FMin.

Definition pop (fn : aggfn) (a b : part) : part :=
  (p_cnt a + p_cnt b, p_sum a + p_sum b,
   if better (sel_of fn) (p_best b) (p_best a) then p_best b else p_best a).

Definition pfin (fn : aggfn) (a : part) : cell :=
  match fn with
  | FCount => CVal (p_cnt a)
  | FSum => CVal (p_sum a)
  | FMean => CRat (p_sum a) (p_cnt a)
  | _ => CVal (snd (p_best a))
  end.

(* None = no value yet (unit) *)
Definition lift {A} (op : A -> A -> A) (a b : option A) : option A :=
  match a, b with
  | None, _ => b
  | _, None => a
  | Some x, Some y => Some (op x y)
  end.

(* one partial per aggregate column *)
Definition prow := list (option part).

Fixpoint rowop (aggs : list aggcol) (a b : prow) : prow :=
  match aggs, a, b with
  | (fn, _, _) :: aggs', x :: a', y :: b' => lift (pop fn) x y :: rowop aggs' a' b'
  | _, _, _ => []
  end.

Fixpoint fin_row (aggs : list aggcol) (a : prow) : list cell :=
  match aggs, a with
  | (fn, _, _) :: aggs', x :: a' => match x with Some p => pfin fn p | None => CNull end :: fin_row aggs' a'
  | _, _ => []
  end.

Section Keyed.
  Context {A : Type}.

  (* ordered merge of two streams sorted by key; on equal keys the left stream goes first *)
  Fixpoint kmerge2 (a : list (Z * A)) : list (Z * A) -> list (Z * A) :=
    fix inner (b : list (Z * A)) : list (Z * A) :=
      match a, b with
      | [], _ => b
      | _, [] => a
      | x :: a', y :: b' => if fst x <=? fst y then x :: kmerge2 a' b else y :: inner b'
      end.
  Definition kmerge_k (ls : list (list (Z * A))) : list (Z * A) := fold_right kmerge2 [] ls.

  (* stable insertion sort by key (the store hands out the rows of a series in time order) *)
  Fixpoint kinsert (x : Z * A) (l : list (Z * A)) : list (Z * A) :=
    match l with
    | [] => [x]
    | y :: r => if fst x <=? fst y then x :: l else y :: kinsert x r
    end.
  Definition ksort (l : list (Z * A)) : list (Z * A) := fold_right kinsert [] l.
End Keyed.

(* key of a row: its epoch-aligned bucket; without GROUP BY time() every row has the same key *)
Definition bkey (q : query) (t : Z) : Z := if q_interval q =? 0 then 0 else bucket (q_interval q) t.

Definition row_part (aggs : list aggcol) (r : row) : prow :=
  map (fun a : aggcol => match field_of r (snd (fst a)) with Some v => Some (pinj (fst r, v)) | None => None end) aggs.

(* kf : key of a row's time - bkey q for an ascending scan, its mirror image for a descending one *)
Definition raw_item (kf : Z -> Z) (aggs : list aggcol) (r : row) : Z * prow := (kf (fst r), row_part aggs r).

Definition is_some {X} (o : option X) : bool := match o with Some _ => true | None => false end.
Definition has_value (x : Z * prow) : bool := existsb is_some (snd x).

(* a row that has no value in any of the aggregated fields is not read at all *)
Definition raw_items (kf : Z -> Z) (q : query) (aggs : list aggcol) (s : series) : list (Z * prow) :=
  filter has_value (map (raw_item kf aggs) (filter (row_selected q s) (snd s))).

(* fold maximal runs of equal keys (Model.agg_spec with the column-wise combination of partials) *)
Definition kagg (aggs : list aggcol) : list (Z * prow) -> list (Z * prow) :=
  agg_spec Z.eqb (fun v : prow => v) (rowop aggs).

Definition series_partials (kf : Z -> Z) (q : query) (aggs : list aggcol) (s : series) : list (Z * prow) :=
  kagg aggs (ksort (raw_items kf q aggs s)).

Definition reader_partials (kf : Z -> Z) (q : query) (aggs : list aggcol) (rd : list series) : list (Z * prow) :=
  kagg aggs (kmerge_k (map (series_partials kf q aggs) rd)).

Definition merged_partials (kf : Z -> Z) (q : query) (aggs : list aggcol) (parts : list (list series)) : list (Z * prow) :=
  kmerge_k (map (reader_partials kf q aggs) parts).

(* StreamAggregateTransform: any cut of the merged stream, pending group carried, one-chunk look-ahead *)
Definition agg_stage (aggs : list aggcol) (sizes : list nat) (stream : list (Z * prow)) : list (Z * prow) :=
  concat (agg_chunks Z.eqb (fun v : prow => v) (rowop aggs) (same_group Z.eqb) None (cut sizes stream)).

Definition finalize (aggs : list aggcol) (l : list (Z * prow)) : list arow :=
  map (fun x => (fst x, fin_row aggs (snd x))) l.

Definition l2_partials_k (kf : Z -> Z) (q : query) (aggs : list aggcol) (parts : list (list series)) (sizes : list nat) : list (Z * prow) :=
  agg_stage aggs sizes (merged_partials kf q aggs parts).
Definition l2_partials (q : query) : list aggcol -> list (list series) -> list nat -> list (Z * prow) := l2_partials_k (bkey q) q.

(* time column of an aggregate without GROUP BY time(): the selected point's time for a single selector *)
Definition l2_time0 (q : query) (aggs : list aggcol) (pr : prow) : Z :=
  let t0 := match q_tmin q with Some t => t | None => 0 end in
  match aggs, pr with
  | [(fn, _, _)], [Some p] => if is_selector fn then fst (p_best p) else t0
  | _, _ => t0
  end.

(* time runs downwards in a descending query: the pipeline is the same one over mirrored keys *)
Definition neg_keys {X} (l : list (Z * X)) : list (Z * X) := map (fun x => (- fst x, snd x)) l.

(* the L2 pipeline of one group for an ASCENDING query.
   parts : partition of the group's series over readers;  sizes / sizes2 : chunkings before the aggregation / the fill *)
Definition l2_agg_group_asc (q : query) (aggs : list aggcol) (parts : list (list series)) (sizes sizes2 : list nat) : list arow :=
  let ps := l2_partials q aggs parts sizes in
  if q_interval q =? 0 then
    match ps with
    | [] => []
    | (_, pr) :: _ => [(l2_time0 q aggs pr, fin_row aggs pr)]
    end
  else
    let pre := finalize aggs ps in
    match pre with
    | [] => []
    | _ =>
      match q_fill q with
      | FillNone => pre
      | m => let i := q_interval q in
             fill_group_chunks i (bucket i (lo_of q)) (bucket i (hi_of q)) m aggs (cut sizes2 pre)
      end
    end.

(* An execution plan: for every tag group the partition of its series over readers and the chunkings used before
   the aggregation, before the fill and before the limit operator. Nothing else of the execution is observable. *)
Record plan := mkPlan {
  pl_parts : list Z -> list (list series);
  pl_sizes : list Z -> list nat;
  pl_sizes2 : list Z -> list nat;
  pl_sizes3 : list Z -> list nat }.

Definition l2_group_rows_asc (q : query) (pl : plan) (k : list Z) : list arow :=
  match q_sel q with
  | SelPlain cols => merge_k (map (plain_group q cols) (pl_parts pl k))
  | SelAgg aggs => l2_agg_group_asc q aggs (pl_parts pl k) (pl_sizes pl k) (pl_sizes2 pl k)
  end.

(* LimitTransform: rows seen so far carried across chunks (without LIMIT only the offset is applied) *)
Definition l2_limit (q : query) (sizes : list nat) (rows : list arow) : list arow :=
  if 0 <? q_limit q
  then snd (run_chunks (limit_step (Z.to_nat (q_offset q)) (Z.to_nat (q_limit q))) 0%nat (cut sizes rows))
  else skipn (Z.to_nat (q_offset q)) rows.

Definition nonempty_group (g : list Z * list arow) : bool := match snd g with [] => false | _ => true end.

Definition l2_eval_asc (db : database) (q : query) (pl : plan) : answer :=
  let groups := filter nonempty_group (map (fun k => (k, l2_group_rows_asc q pl k)) (keys_of q db)) in
  if has_limit q
  then filter nonempty_group (map (fun g => (fst g, l2_limit q (pl_sizes3 pl (fst g)) (snd g))) groups)
  else groups.

(* A descending query scans time downwards: the same stages over the mirrored key, then the times are mirrored back;
   the fill operator runs with a negative interval from the highest bucket of the range to the lowest - in ITERATION
   order, as today's code does (fill(previous) therefore takes the value of the LATER bucket: finding
   C08-fill-previous-desc; Model.eval_query_current is the matching reference). *)
Definition dkey (q : query) (t : Z) : Z := - bkey q t.

Definition l2_agg_group_desc (q : query) (aggs : list aggcol) (parts : list (list series)) (sizes sizes2 : list nat) : list arow :=
  let ps := l2_partials_k (dkey q) q aggs parts sizes in
  if q_interval q =? 0 then
    match ps with
    | [] => []
    | (_, pr) :: _ => [(l2_time0 q aggs pr, fin_row aggs pr)]
    end
  else
    let pre := finalize aggs (neg_keys ps) in
    match pre with
    | [] => []
    | _ =>
      match q_fill q with
      | FillNone => pre
      | m => let i := q_interval q in
             fill_group_chunks (- i) (bucket i (hi_of q)) (bucket i (lo_of q)) m aggs (cut sizes2 pre)
      end
    end.

(* the whole answer for both orders. A descending plain selection: every reader hands out its rows newest first and the
   descending ordered merge Model.merge_kd combines them. *)
Definition l2_group_rows (q : query) (pl : plan) (k : list Z) : list arow :=
  match q_sel q with
  | SelPlain cols => if q_desc q then merge_kd (map (fun p => rev (plain_group q cols p)) (pl_parts pl k))
                     else merge_k (map (plain_group q cols) (pl_parts pl k))
  | SelAgg aggs => if q_desc q then l2_agg_group_desc q aggs (pl_parts pl k) (pl_sizes pl k) (pl_sizes2 pl k)
                   else l2_agg_group_asc q aggs (pl_parts pl k) (pl_sizes pl k) (pl_sizes2 pl k)
  end.

Definition l2_eval (db : database) (q : query) (pl : plan) : answer :=
  let groups := filter nonempty_group (map (fun k => (k, l2_group_rows q pl k)) (keys_of q db)) in
  let ordered := if q_desc q then rev groups else groups in
  if has_limit q
  then filter nonempty_group (map (fun g => (fst g, l2_limit q (pl_sizes3 pl (fst g)) (snd g))) ordered)
  else ordered.

Definition is_prev (m : fillmode) : bool := match m with FillPrev => true | _ => false end.
