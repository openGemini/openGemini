(* C08: the bucket function of GROUP BY time(d, off): ProcessorOptions.Window of lib/util/lifted/influx/query/select.go,
   UTC (no Location), modelled with Go's arithmetic: % truncates toward zero (Z.rem), negative remainders are corrected,
   the results are clamped at influxql.MinTime / MaxTime. Every store-side and executor stage takes its bucket boundaries
   from this function. Theorem: for every t, negative ones included, start <= t < start + d, start - off is a multiple
   of d (epoch-aligned) and end = start + d - unless the bucket reaches MinTime / MaxTime. *)
From Coq Require Import ZArith Lia.

Local Open Scope Z_scope.

Definition min_time : Z := - 2 ^ 63 + 2.
Definition max_time : Z := 2 ^ 63 - 2.

Definition wdt (t d : Z) : Z := let r := Z.rem t d in if r <? 0 then r + d else r.

Definition window (t d off : Z) : Z * Z :=
  let t' := t - off in
  let dt := wdt t' d in
  let start := (if min_time + dt >=? t' then min_time else t' - dt) + off in
  let e := d - dt in
  let end_ := (if max_time - e <=? t' then max_time else t' + e) + off in
  (start, end_).

(* the seeded change C08-m7: without the correction of the negative remainder *)
Definition window_nocorr (t d off : Z) : Z * Z :=
  let t' := t - off in
  let dt := Z.rem t' d in
  let start := (if min_time + dt >=? t' then min_time else t' - dt) + off in
  let e := d - dt in
  let end_ := (if max_time - e <=? t' then max_time else t' + e) + off in
  (start, end_).

Lemma rem_neg_bound : forall t d, t < 0 -> 0 < d -> - d < Z.rem t d <= 0.
Proof.
  intros t d Ht Hd. pose proof (Z.rem_bound_pos (- t) d ltac:(lia) Hd) as Hb.
  rewrite Z.rem_opp_l in Hb by lia. lia.
Qed.

Lemma wdt_mod : forall t d, 0 < d -> wdt t d = t mod d.
Proof.
  intros t d Hd. unfold wdt. cbv zeta. pose proof (Z.quot_rem' t d) as Hqr.
  destruct (Z_lt_le_dec t 0) as [Ht|Ht].
  - pose proof (rem_neg_bound t d Ht Hd) as Hb.
    destruct (Z.ltb_spec (Z.rem t d) 0) as [Hn|Hn].
    + apply (Z.mod_unique_pos t d (Z.quot t d - 1)); lia.
    + apply (Z.mod_unique_pos t d (Z.quot t d)); lia.
  - pose proof (Z.rem_nonneg t d ltac:(lia) Ht) as Hb.
    destruct (Z.ltb_spec (Z.rem t d) 0) as [Hn|Hn]; [lia|]. apply Z.rem_mod_nonneg; lia.
Qed.

(* the window of t inside the representable range: exactly the epoch-aligned bucket *)
Theorem window_spec : forall t d off, 0 < d ->
  min_time + d < t - off -> t - off < max_time - d ->
  let (s, e) := window t d off in
  s <= t < s + d /\ e = s + d /\ (s - off) mod d = 0 /\ s = off + d * ((t - off) / d).
Proof.
  intros t d off Hd Hlo Hhi. unfold window. cbv zeta. rewrite (wdt_mod _ _ Hd).
  pose proof (Z.mod_pos_bound (t - off) d Hd) as Hb.
  pose proof (Z.div_mod (t - off) d ltac:(lia)) as Hdm.
  destruct (Z.geb_spec (min_time + (t - off) mod d) (t - off)); [lia|].
  destruct (Z.leb_spec (max_time - (d - (t - off) mod d)) (t - off)); [lia|].
  repeat split; try lia.
  replace ((t - off) - (t - off) mod d + off - off) with (d * ((t - off) / d)) by lia.
  rewrite Z.mul_comm. apply Z_mod_mult.
Qed.

Example window_examples :
  window (-17) 10 0 = (-20, -10) /\ window (-7) 10 0 = (-10, 0) /\ window (-10) 10 0 = (-10, 0) /\
  window 3 10 0 = (0, 10) /\ window (-7) 10 3 = (-7, 3) /\ window (-8) 10 3 = (-17, -7).
Proof. vm_compute. repeat split. Qed.
