(* C14 property theorems with Print Assumptions; the arguments are in the files imported below. *)
From Coq Require Import ZArith List Bool Lia.
From OG Require Import C14.Model C14.Proofs C14.Inv C14.XModel C14.XProofs C14.XInv C14.XNode C14.XAgree C14.XAgreeIx C14.LK C14.XGuard C14.TTL C14.Mono.
Import ListNotations.
Open Scope Z_scope.

(* the decision rule: deleted only if the duration is limited and the whole span ended more than d ago (strict) *)
Theorem C14_expired_iff : forall d e n, expired d e n = true <-> d <> 0 /\ e + d < n.
Proof. exact expired_spec. Qed.
Print Assumptions C14_expired_iff.

(* monotonicity of the rule: the clock only turns kept into expired; a later end never expires earlier (groups of a
   policy leave in the order of their ends); a longer limited duration never expires more; first expired instant = e + d + 1 *)
Theorem C14_expired_mono_now : forall d e n n', n <= n' -> expired d e n = true -> expired d e n' = true.
Proof. intros d e n n' Hle H. exact (expired_monotone d e n n' H Hle). Qed.
Print Assumptions C14_expired_mono_now.
Theorem C14_expired_anti_end : forall d e e' n, e <= e' -> expired d e' n = true -> expired d e n = true.
Proof. exact expired_anti_end. Qed.
Print Assumptions C14_expired_anti_end.
Theorem C14_expired_anti_dur : forall d d' e n, 0 < d <= d' -> expired d' e n = true -> expired d e n = true.
Proof. intros d d' e n [H1 H2]. exact (expired_raise d d' e n H1 H2). Qed.
Print Assumptions C14_expired_anti_dur.
Theorem C14_expired_in_end_order : forall d e1 e2 n, e1 <= e2 -> expired d e1 n = false -> expired d e2 n = false.
Proof.
  intros d e1 e2 n Hle H. destruct (expired d e2 n) eqn:E; [|reflexivity].
  rewrite (expired_anti_end d e1 e2 n Hle E) in H. discriminate H.
Qed.
Print Assumptions C14_expired_in_end_order.
Theorem C14_expired_first_instant : forall d e n, d <> 0 -> (expired d e n = true <-> e + d + 1 <= n).
Proof. intros d e n Hd. rewrite expired_spec. lia. Qed.
Print Assumptions C14_expired_first_instant.

(* Safety over every trace of ticks / policy alterations / group creations / restarts, from any start world:
   every deletion happened at a tick, concerns a shard of the node at that moment, and is justified by the
   duration in force in the catalogue at that very step (listed shard), or - for a loaded shard the catalogue no
   longer lists - by the duration the node last learnt. An unloaded unlisted shard is never deleted. *)
Theorem C14_safety : forall es w0 r,
  In r (snd (run w0 es)) ->
  exists pre post s0,
    es = pre ++ Tick (del_now r) :: post /\
    let w := fst (run w0 pre) in
    In s0 (node w) /\ n_id (del_shard r) = n_id s0 /\ n_end (del_shard r) = n_end s0 /\
    del_dur r = policy_dur (policies w) (n_rp s0) /\ justified w (del_now r) s0.
Proof.
  intros es w0 r Hr. destruct (run_deletion_origin es w0 r Hr) as (pre & now & post & -> & Hin).
  destruct (tick_deletion_justified _ _ _ Hin) as (Hnow & s0 & Hin0 & Hds & Hdd & Hj).
  exists pre, post, s0. rewrite Hnow. split; [reflexivity|]. cbn zeta.
  destruct (refresh_one_id (fst (run w0 pre)) s0) as (Hid & _ & _ & Hend & _).
  rewrite Hds. split; [exact Hin0|]. split; [exact Hid|]. split; [exact Hend|]. split; [exact Hdd|exact Hj].
Qed.
Print Assumptions C14_safety.

Theorem C14_unlimited_never : forall w now s,
  listed (groups w) s = true -> policy_dur (policies w) (n_rp s) = Some 0 ->
  shard_expired (groups (refresh w)) now (refresh_one w s) = false.
Proof.
  intros w now s Hl Hd. destruct (refresh_one_id w s) as (Hid & Hgid & Hrp & Hend & Hld).
  unfold shard_expired. rewrite Hld, (refresh_one_dur w s 0 Hl Hd), expired_unlimited.
  destruct (n_loaded s); [reflexivity|apply andb_false_r].
Qed.
Print Assumptions C14_unlimited_never.

(* a point with t < group end that is still inside the window [now - d, ..) keeps its shard *)
Theorem C14_in_window_survives : forall d e t now, t < e -> now - d <= t -> expired d e now = false.
Proof.
  intros d e t now' H1 H2. destruct (expired d e now') eqn:E; [|reflexivity].
  apply expired_spec in E. lia.
Qed.
Print Assumptions C14_in_window_survives.

Theorem C14_write_window : forall d nowsec t, 0 < d -> write_accept d nowsec t = true <-> nowsec * 1000000000 - d <= t.
Proof. exact write_accept_window. Qed.
Print Assumptions C14_write_window.

(* raising the duration before the tick keeps the data: the decision uses the catalogue's duration at the tick *)
Theorem C14_raise_before_effect_keeps : forall w now s rp d',
  listed (groups w) s = true -> n_rp s = rp -> policy_dur (policies w) rp <> None ->
  ~ (d' <> 0 /\ n_end s + d' < now) ->
  shard_expired (groups (refresh (alter w rp d'))) now (refresh_one (alter w rp d') s) = false.
Proof.
  intros w now s rp d' Hl Hrp Hp Hn.
  assert (Hd : policy_dur (policies (alter w rp d')) (n_rp s) = Some d').
  { rewrite Hrp. cbn [alter policies]. clear -Hp. induction (policies w) as [|p ps IH]; cbn [policy_dur map] in *; [congruence|].
    destruct (Z.eqb_spec (p_id p) rp) as [E|NE]; cbn [p_id]; [now rewrite Z.eqb_refl|].
    destruct (Z.eqb_spec (p_id p) rp); [congruence|]. apply IH, Hp. }
  assert (Hl' : listed (groups (alter w rp d')) s = true) by exact Hl.
  destruct (refresh_one_id (alter w rp d') s) as (Hid & Hgid & Hrp' & Hend & Hld).
  unfold shard_expired. rewrite Hld, Hend, (refresh_one_dur _ s d' Hl' Hd).
  destruct (expired d' (n_end s) now) eqn:E; [apply expired_spec in E; tauto|].
  destruct (n_loaded s); [reflexivity|apply andb_false_r].
Qed.
Print Assumptions C14_raise_before_effect_keeps.

(* progress: after one run of the service no shard that is expired (under the refreshed durations) remains, and a
   listed shard of a finite policy whose span ended more than d ago is gone from the node *)
Theorem C14_tick_removes_expired : forall w now x,
  In x (node (fst (tick w now))) -> shard_expired (groups (refresh w)) now x = false.
Proof.
  intros w now x.
  unfold tick. cbn [fst]. rewrite fold_delete_node. intros [Hin Hno].
  destruct (shard_expired (groups (refresh w)) now x) eqn:E; [|reflexivity]. exfalso.
  apply (Hno x); [|reflexivity]. unfold expired_shards. apply filter_In. split; assumption.
Qed.
Print Assumptions C14_tick_removes_expired.

Theorem C14_eventual_removal_node : forall w now s d,
  In s (node w) -> listed (groups w) s = true -> policy_dur (policies w) (n_rp s) = Some d ->
  d <> 0 -> n_end s + d < now ->
  forall x, In x (node (fst (tick w now))) -> n_id x <> n_id s.
Proof.
  intros w now s d Hin Hl Hd Hd0 Hlt x Hx Heq.
  unfold tick in Hx. cbn [fst] in Hx. rewrite fold_delete_node in Hx. destruct Hx as [_ Hno].
  apply (Hno (refresh_one w s)); [apply (expired_selected w now s d); assumption|].
  destruct (refresh_one_id w s) as (-> & _); exact Heq.
Qed.
Print Assumptions C14_eventual_removal_node.

(* The closed form. `Inv` (C14/Inv.v) is the catalogue/node consistency invariant (every shard of the node is listed
   in the catalogue and has a policy; shard ids ascending inside a group, id ranges of groups disjoint; unmarked
   catalogue entries for the node's shards; node ids unique). It holds initially, is preserved by every event whose
   created groups take fresh larger ids (as the id counters guarantee), and under it EVERY deletion in EVERY trace is
   justified by the policy duration in force in the catalogue at the deciding step: limited, and end + d < now. *)
Theorem C14_inv_init : forall ps, Inv {| policies := ps; groups := []; node := [] |}.
Proof. intros ps. constructor; cbn; try (intros; contradiction). constructor. Qed.
Theorem C14_inv_preserved : forall es w, Inv w -> wf_trace w es -> Inv (fst (run w es)).
Proof. exact Inv_run. Qed.
Print Assumptions C14_inv_preserved.

Theorem C14_safety_closed : forall es w0 r,
  Inv w0 -> wf_trace w0 es -> In r (snd (run w0 es)) ->
  exists d, del_dur r = Some d /\ d <> 0 /\ n_end (del_shard r) + d < del_now r.
Proof.
  intros es w0 r I Hwf Hr. destruct (C14_safety es w0 r Hr) as (pre & post & s0 & Hes & Hin & Hid & Hend & Hdd & Hj).
  cbn zeta in *. rewrite Hes in Hwf. destruct (wf_trace_app pre w0 _ Hwf) as [Hpre _].
  pose proof (Inv_run pre w0 I Hpre) as Iw. set (w := fst (run w0 pre)) in *.
  pose proof (inv_listed w Iw s0 Hin) as Hl. pose proof (inv_policy w Iw s0 Hin) as Hp.
  destruct (policy_dur (policies w) (n_rp s0)) as [d|] eqn:Ed; [|congruence].
  exists d. split; [exact Hdd|]. rewrite Hend. destruct Hj as [Hj _]. exact (Hj Hl d Ed).
Qed.
Print Assumptions C14_safety_closed.

(* progress on the catalogue: one run of the service removes from the catalogue every expired group of a limited
   policy whose live shards are all on this node (single-owner view), because all of them are deleted, marked,
   and the group - now marked deleted with every shard marked - is pruned *)
Theorem C14_eventual_removal_catalogue : forall w now g d,
  Inv w -> In g (groups w) ->
  (forall g2, In g2 (groups w) -> g_id g2 = g_id g -> g2 = g) ->
  policy_dur (policies w) (g_rp g) = Some d -> d <> 0 -> g_end g + d < now ->
  (forall x, In x (g_shards g) -> gs_markdel x = false ->
     exists s, In s (node w) /\ n_id s = gs_id x /\ n_gid s = g_id g /\ n_rp s = g_rp g /\ n_end s = g_end g) ->
  (exists x, In x (g_shards g) /\ gs_markdel x = false) ->
  forall g', In g' (groups (fst (tick w now))) -> g_id g' <> g_id g.
Proof. exact tick_prunes_group. Qed.
Print Assumptions C14_eventual_removal_catalogue.

Theorem C14_boundary_at : forall d e, expired d e (e + d) = false.
Proof. intros d e. unfold expired. rewrite Z.ltb_irrefl. apply andb_false_r. Qed.
Theorem C14_boundary_after : forall d e, d <> 0 -> expired d e (e + d + 1) = true.
Proof. intros d e H. apply expired_spec. lia. Qed.
Print Assumptions C14_boundary_after.

(* non-vacuity: a concrete world in which a tick deletes exactly the expired shard and prunes its group *)
Example C14_example :
  let g1 := {| g_id := 1; g_rp := 7; g_start := 0; g_end := 100; g_deleted := false; g_shards := [{| gs_id := 1; gs_markdel := false |}; {| gs_id := 2; gs_markdel := false |}] |} in
  let g2 := {| g_id := 2; g_rp := 7; g_start := 100; g_end := 200; g_deleted := false; g_shards := [{| gs_id := 3; gs_markdel := false |}] |} in
  let w0 := {| policies := [{| p_id := 7; p_dur := 50 |}]; groups := []; node := [] |} in
  let '(w, log) := run w0 [AddGroup g1 true; AddGroup g2 false; Tick 150; Tick 151; Alter 7 0; Tick 1000] in
  obs_node w = [3] /\ map g_id (groups w) = [2] /\ map (fun r => (n_id (del_shard r), del_now r)) log = [(1, 151); (2, 151)].
Proof. vm_compute. repeat split. Qed.

(* Extended model (XModel.v): catalogue with shard groups AND index groups as meta.Data builds it, ALTER of the three
   durations, ExpandGroups, one store node per partition. `true` = with the fix, `false` = the code before it (XModel.v). *)

(* pruning (catalogue side of "expired shards are eventually removed from the catalogue") *)

(* exactness: after the repaired pruning of id, every surviving group is an old group with the same id / policy /
   span / deleted flag, and a shard's mark differs from before only if the shard has the pruned id *)
Theorem C14_prune_exact : forall c id g',
  In g' (c_sgs (prune_sg true c id)) ->
  exists g, In g (c_sgs c) /\ sg_same_head g g' /\
    Forall2 (fun x y => cs_same x y /\ (cs_md y = cs_md x \/ (cs_md y = true /\ cs_id x = id))) (sg_shards g) (sg_shards g').
Proof.
  intros c id g'. unfold prune_sg; cbn. rewrite filter_In, in_map_iff. intros ((g & <- & Hg) & _).
  exists g. split; [auto|]. split; [apply prune_mark_sg_head|].
  unfold prune_mark_sg. destruct (_ && _); cbn; [apply mark_cs_rep_exact|].
  apply Forall2_refl. unfold cs_same; auto.
Qed.
Print Assumptions C14_prune_exact.

Theorem C14_prune_index_exact : forall c id g',
  In g' (c_igs (prune_ig true c id)) ->
  exists g, In g (c_igs c) /\ ig_same_head g g' /\
    Forall2 (fun x y => ci_same x y /\ (ci_md y = ci_md x \/ (ci_md y = true /\ ci_id x = id))) (ig_ixs g) (ig_ixs g').
Proof.
  intros c id g'. unfold prune_ig; cbn. rewrite filter_In, in_map_iff. intros ((g & <- & Hg) & _).
  exists g. split; [auto|]. split; [apply prune_mark_ig_head|].
  unfold prune_mark_ig. destruct (_ && _); cbn; [apply mark_ci_rep_exact|].
  apply Forall2_refl. unfold ci_same; auto.
Qed.
Print Assumptions C14_prune_index_exact.

(* pruning never drops a group that still has a live shard: a group leaves the catalogue only if it was marked
   deleted and each of its shards was marked before or is the shard being pruned *)
Theorem C14_prune_never_drops_live_group : forall c id g,
  In g (c_sgs c) -> ~ In (prune_mark_sg true id g) (c_sgs (prune_sg true c id)) ->
  sg_del g = true /\ forall s, In s (sg_shards g) -> cs_md s = true \/ cs_id s = id.
Proof.
  intros c id g Hg Hn. unfold prune_sg in Hn; cbn in Hn. rewrite filter_In in Hn.
  destruct (sg_del (prune_mark_sg true id g) && sg_all_marked (prune_mark_sg true id g)) eqn:E.
  - rewrite andb_true_iff in E. destruct E as (Ed & Em). split.
    + destruct (prune_mark_sg_head true id g) as (_ & _ & _ & _ & <-). auto.
    + unfold sg_all_marked in Em. eapply forallb_Forall2_marks; [|exact Em].
      unfold prune_mark_sg. destruct (_ && _); cbn; [apply mark_cs_rep_exact|].
      apply Forall2_refl. unfold cs_same; auto.
  - exfalso. apply Hn. split; [apply in_map; auto|]. reflexivity.
Qed.
Print Assumptions C14_prune_never_drops_live_group.

(* progress, for both variants: a group marked deleted whose shards are all deleted (marked, or the one pruned now)
   is gone after the pruning - given ascending shard ids inside the group and unique group ids, which the id
   counters guarantee *)
Theorem C14_prune_progress : forall rep c id g,
  In g (c_sgs c) -> asc (map cs_id (sg_shards g)) -> sg_del g = true ->
  (forall s, In s (sg_shards g) -> cs_md s = true \/ cs_id s = id) ->
  (forall g2, In g2 (c_sgs c) -> sg_id g2 = sg_id g -> g2 = g) ->
  forall g', In g' (c_sgs (prune_sg rep c id)) -> sg_id g' <> sg_id g.
Proof. exact prune_sg_progress. Qed.
Print Assumptions C14_prune_progress.

Example C14_prune_progress_example :
  let g := {| sg_id := 7; sg_rp := 1; sg_start := 0; sg_end := 10; sg_del := true;
              sg_shards := [{| cs_id := 3; cs_pt := 0; cs_ix := 1; cs_md := true |}; {| cs_id := 4; cs_pt := 1; cs_ix := 2; cs_md := false |}] |} in
  let c := {| c_pols := []; c_sgs := [g]; c_igs := []; c_ptnum := 2; c_maxsg := 7; c_maxsh := 4; c_maxig := 0; c_maxix := 2 |} in
  asc (map cs_id (sg_shards g)) /\ (forall s, In s (sg_shards g) -> cs_md s = true \/ cs_id s = 4) /\ c_sgs (prune_sg false c 4) = [].
Proof. cbn. repeat split; try lia; intros; intuition; subst; cbn; auto. Qed.

(* index groups: an index never expires before a shard that uses it *)

(* the invariant XInv (XInv.v): every index group holding the index of a shard ends no earlier than the shard's group
   and belongs to the same policy (plus the id-freshness facts this needs). It holds for the empty catalogue ... *)
Theorem C14_index_cover_init : forall ps n, XInv (cat0 ps n).
Proof. exact XInv_init. Qed.

(* ... and after EVERY trace of events - group creation for any timestamp, ALTER of duration / shard duration / index
   duration, added partitions (ExpandGroups), stores creating shards and indexes, retention passes of any partition at
   any clock reading, aborted passes, restarts - when the index-group choice is the repaired one; the pruning variant
   does not matter. *)
Theorem C14_index_cover_all_traces : forall repP clip es ps n, XInv (x_cat (fst (xrun true repP clip (xworld0 ps n) es))).
Proof. intros. apply XInv_xrun. apply XInv_init. Qed.
Print Assumptions C14_index_cover_all_traces.

(* consequence, in terms of what the stores are told (IndexDurationInfos / DurationInfos): in every reachable
   catalogue, whenever the duration info of an index makes it expired at a clock reading `now`, every shard whose
   index it is - on any partition - is expired at `now` under its policy's duration in force. So the retention pass
   deletes an index only when every shard referring to it is expired (and is deleted by the same rule). *)
Theorem C14_index_deleted_only_after_its_shards : forall repP clip es ps n pt fi sg s now,
  let c := x_cat (fst (xrun true repP clip (xworld0 ps n) es)) in
  In fi (index_infos c pt) -> In sg (c_sgs c) -> In s (sg_shards sg) -> cs_ix s = si_id fi ->
  expired (si_d fi) (si_end fi) now = true ->
  expired (pol_d c (sg_rp sg)) (sg_end sg) now = true.
Proof. intros repP clip es ps n pt fi sg s now c. apply infos_expiry. apply XInv_xrun. apply XInv_init. Qed.
Print Assumptions C14_index_deleted_only_after_its_shards.

(* non-vacuity: a reachable catalogue (repaired choice) in which one index group serves two shard groups, after an
   ALTER that lengthened the shard duration gave the third group its own, longer index group *)
Example C14_index_cover_example :
  let H := 3600000000000 in
  let c := x_cat (fst (xrun true true false (xworld0 [{| xp_id := 1; xp_d := 0; xp_sgd := H; xp_igd := 4 * H |}] 2)
                        [XCreate 1 (472140 * H); XCreate 1 (472141 * H); XAlter 1 None (Some (12 * H)) None; XCreate 1 (472142 * H)])) in
  map (fun g => (sg_id g, map cs_ix (sg_shards g))) (c_sgs c) = [(1, [1; 2]); (2, [1; 2]); (3, [3; 4])] /\
  map (fun g => (ig_id g, ig_end g - ig_start g)) (c_igs c) = [(1, 4 * H); (2, 12 * H)].
Proof. vm_compute. auto. Qed.

(* two clocks: the sql node admits writes by ITS clock (seconds), the store node expires shards by its own *)
(* a point admitted at sql clock reading nowsec lies in a group ending at e > t; the store does not consider that
   group expired as long as its clock is at most (e - t) ahead of the sql clock. With equal clocks an admitted point
   is never in an expired shard; the code has no margin beyond that (a point at the very end of its group tolerates
   no skew). The safety theorems above hold for arbitrary, even non-monotone, clock readings per pass. *)
Theorem C14_admitted_point_not_expired_under_skew : forall d nowsec t e storenow,
  0 < d -> write_accept d nowsec t = true -> t < e -> storenow <= nowsec * 1000000000 + (e - t) ->
  expired d e storenow = false.
Proof. exact admitted_not_expired_skew. Qed.
Print Assumptions C14_admitted_point_not_expired_under_skew.

(* write admission of a batch (tied to the real coordinator on every run) *)
(* the threshold: a row is admitted iff its timestamp is not below min_time, fixed per batch from the duration the
   policy had when the batch looked it up *)
Theorem C14_admission_threshold : forall d nowsec t, write_accept d nowsec t = negb (t <? min_time d nowsec).
Proof. intros d nowsec t. unfold write_accept, min_time. destruct (0 <? d); reflexivity. Qed.
(* for a limited policy: exactly the points of the window [now - d, ..) are admitted; for each admitted point the shard
   group that receives it (end > t) is not expired at that clock reading *)
Theorem C14_admitted_point_in_live_group : forall d nowsec t e,
  0 < d -> write_accept d nowsec t = true -> t < e -> expired d e (nowsec * 1000000000) = false.
Proof. intros d nowsec t e Hd Ha Ht. apply (admitted_not_expired_skew d nowsec t e); auto; lia. Qed.
Print Assumptions C14_admitted_point_in_live_group.

(* The pass reads the clock anew for each decision: `now` is the reading of its shard decisions, `now2` (later) that of
   its index decisions. When the catalogue satisfies XInv and the node of partition pt agrees with it (NodeOK, XNode.v:
   every shard and index of the node is the one the catalogue lists for this partition with the catalogue's span, every
   shard's index is on the node, shard ids unique), an index deleted by the pass is used only by shards that are
   EXPIRED AT THE INSTANT OF THAT DECISION under their policy's duration in force, and each of them that was already
   expired when the shard decisions were taken is deleted by the same pass (with one clock reading: all of them).
   So no unexpired data ever loses its index; a shard that expires between the two readings keeps its files until the
   next pass. (NodeOK is a precondition of the step; NodeAgree below is the part of it that is an invariant.) *)
Theorem C14_index_deleted_only_with_its_shards : forall rep w pt now now2,
  XInv (x_cat w) -> NodeOK w pt ->
  forall X, In X (l_ixs (snd (xtick rep w pt now now2))) ->
  forall s, In s (x_shards w) -> xs_pt s = pt -> xs_ix s = X ->
    exists sg cs, In sg (c_sgs (x_cat w)) /\ In cs (sg_shards sg) /\ cs_id cs = xs_id s /\ sg_end sg = xs_end s /\
                  expired (pol_d (x_cat w) (sg_rp sg)) (sg_end sg) now2 = true /\
                  (expired (pol_d (x_cat w) (sg_rp sg)) (sg_end sg) now = true ->
                   In (xs_id s) (l_shards (snd (xtick rep w pt now now2)))).
Proof. exact xtick_index_victims. Qed.
Print Assumptions C14_index_deleted_only_with_its_shards.

(* the hypotheses are satisfiable and the conclusion is not vacuous: a reachable world (two shard groups sharing one
   index, one shard loaded, one on disk) that satisfies NodeOK; a pass whose two clock readings straddle the expiry of
   the second shard deletes the first shard and the index now, the second shard only at the next pass *)
Example C14_node_ok_example :
  let H := 3600000000000 in
  let w := fst (xrun true true false (xworld0 [{| xp_id := 1; xp_d := H; xp_sgd := H; xp_igd := 2 * H |}] 1)
                  [XCreate 1 (472140 * H); XCreate 1 (472141 * H); XMat 1 true; XMat 2 false]) in
  NodeOK w 0 /\ XInv (x_cat w) /\
  l_ixs (snd (xtick true w 0 (472142 * H + H + 1) (472142 * H + H + 1))) = [1] /\
  l_shards (snd (xtick true w 0 (472142 * H + H + 1) (472142 * H + H + 1))) = [1; 2] /\
  l_ixs (snd (xtick true w 0 (472142 * H + H) (472142 * H + H + 1))) = [1] /\
  l_shards (snd (xtick true w 0 (472142 * H + H) (472142 * H + H + 1))) = [1].
Proof.
  intros H w. (* w stays a definition: the run is evaluated once per conjunct *)
  split; [apply node_okb_ok; vm_compute; reflexivity|split; [apply XInv_xrun; apply XInv_init|vm_compute; auto]].
Qed.

(* After EVERY trace (repaired index-group choice, any pruning variant): each shard a store node holds has an id the
   catalogue has issued, and agrees with EVERY catalogue entry that still lists that id - same partition, same index
   reference, same group end, same policy. So for the shards that are still listed the events re-establish "the node's
   shard is the listed one, with the catalogue's span" (premise nk_sh of the theorem above); a shard can only drop out
   of that premise by no longer being listed at all. The corresponding fact for indexes is
   C14_node_indexes_agree_all_traces below; the engine's index end is also an observable of the correspondence,
   compared with the running engine after every event of every trace. *)
Theorem C14_node_agrees_all_traces : forall repP clip es ps n s sg cs,
  let w := fst (xrun true repP clip (xworld0 ps n) es) in
  In s (x_shards w) -> xs_id s <= c_maxsh (x_cat w) /\
  (In sg (c_sgs (x_cat w)) -> In cs (sg_shards sg) -> cs_id cs = xs_id s ->
   cs_pt cs = xs_pt s /\ cs_ix cs = xs_ix s /\ sg_end sg = xs_end s /\ sg_rp sg = xs_rp s).
Proof.
  intros repP clip es ps n s sg cs w Hs.
  destruct (NodeAgree_xrun repP clip es (xworld0 ps n) (XInv_init ps n) (NodeAgree_init ps n) s Hs) as (B & A).
  split; [exact B|]. intros H1 H2 E. apply (A sg cs H1 H2 E).
Qed.
Print Assumptions C14_node_agrees_all_traces.

Example C14_node_agrees_example :
  let H := 3600000000000 in
  let w := fst (xrun true true false (xworld0 [{| xp_id := 1; xp_d := H; xp_sgd := H; xp_igd := 2 * H |}] 2)
                  [XCreate 1 (472140 * H); XMat 1 true; XExpand; XAlter 1 (Some (2 * H)) None None; XTick 0 (472141 * H + 2 * H + 1) (472141 * H + 2 * H + 5)]) in
  map xs_id (x_shards w) = [2] /\ map (fun g => map cs_id (sg_shards g)) (c_sgs (x_cat w)) = [[1; 2; 3]].
Proof. vm_compute. auto. Qed.

(* clipped shard groups (fix 2b62e48) *)
(* Every theorem above that runs over traces (C14_index_cover_all_traces, C14_index_deleted_only_after_its_shards,
   C14_node_agrees_all_traces) is quantified over `clip`: it holds both when a new shard group takes the whole cell of
   the current shard duration and when it is cut back to its live neighbours (the index group is then looked up /
   created for the clipped end). The prune, node-pass and admission theorems do not go through group creation.
   Non-vacuity: after ALTER .. SHARD DURATION 12h the second group of the history below is clipped at the end of the
   first one, and still shares the first group's 4h index group, which covers it. *)
Example C14_clip_example :
  let H := 3600000000000 in
  let ps := [{| xp_id := 1; xp_d := H; xp_sgd := H; xp_igd := 4 * H |}] in
  let es := [XCreate 1 (472140 * H + 100); XAlter 1 (Some (168 * H)) (Some (12 * H)) None; XCreate 1 (472141 * H + 100);
             XCreate 1 (472139 * H + 100)] in
  map (fun g => (sg_id g, sg_start g - 472140 * H, sg_end g - 472140 * H)) (c_sgs (x_cat (fst (xrun true true true (xworld0 ps 1) es))))
    = [(1, 0, H); (2, H, 12 * H); (3, - (12 * H), 0)] /\
  map (fun g => (sg_id g, sg_start g - 472140 * H, sg_end g - 472140 * H)) (c_sgs (x_cat (fst (xrun true true false (xworld0 ps 1) es))))
    = [(1, 0, H); (2, 0, 12 * H); (3, - (12 * H), 0)].
Proof. vm_compute. auto. Qed.

(* After EVERY trace (repaired index-group choice, any pruning / clipping variant): each index a store node holds has an
   id the catalogue issued, belongs to the policy of, and ENDS NO EARLIER THAN, every catalogue index group that still
   lists that id. (No earlier, not equal: a store learns the span of a new index through getIndexGroupTimeRange, an
   id-range lookup scanned from the latest-ending group; with interleaved ids it can only err towards a later end. The
   proof uses: index ids ascend inside a group, the policy's groups are kept sorted by end, no id is re-issued.)
   This is why NodeOK's premise nk_ix asks for ig_end <= xi_end only; what remains unproved of that premise is that
   the index sits on the partition the catalogue assigns it to. *)
Theorem C14_node_indexes_agree_all_traces : forall repP clip es ps n i ig ci,
  let w := fst (xrun true repP clip (xworld0 ps n) es) in
  In i (x_ixs w) -> xi_id i <= c_maxix (x_cat w) /\
  (In ig (c_igs (x_cat w)) -> In ci (ig_ixs ig) -> ci_id ci = xi_id i -> ig_end ig <= xi_end i /\ ig_rp ig = xi_rp i).
Proof.
  intros repP clip es ps n i ig ci w Hi.
  destruct (NodeIxAgree_xrun repP clip es (xworld0 ps n) (AI_init ps n) (NodeIxAgree_init ps n) i Hi) as (B & A).
  split; [exact B|]. intros H1 H2 E. apply (A ig ci H1 H2 E).
Qed.
Print Assumptions C14_node_indexes_agree_all_traces.

(* the id-range lookup itself: for an index that a group of the policy really holds, it returns a group that ends no earlier *)
Theorem C14_index_span_lookup_covers : forall c rp ig ci,
  AscIx c -> In ig (c_igs c) -> ig_rp ig = rp -> In ci (ig_ixs ig) ->
  exists g', ix_group_of c rp (ci_id ci) = Some g' /\ ig_end ig <= ig_end g'.
Proof. exact ix_group_of_covers. Qed.

(* LogKeeper flavour (LK.v): two-phase deletion - mark (hidden from every read), physical removal 24h later, recall. *)

(* SAFETY over every history of group creation / ALTER / passes at any clock readings / recalls: whatever is physically
   removed belongs to a group that was marked at a reading t at which it was expired under the duration then in force
   (d <> 0, end + d < t), whose mark was not recalled since, and at least 24h have passed since the mark. *)
Theorem C14_logkeeper_safety : forall es w0 r,
  LInv w0 -> In r (snd (lk_run w0 es)) ->
  exists g t, lg_id g = ld_gid r /\ lg_mark g = Some t /\ lg_markd g <> 0 /\ lg_end g + lg_markd g < t /\ t + DAY <= ld_now r.
Proof.
  intros es w0 r I H. destruct (lk_run_origin es w0 r H) as (pre & post & -> & Hin).
  destruct (lk_tick_deletes _ _ _ Hin) as (g & t & Hg & Eg & Em & Et & _).
  destruct (LInv_run pre w0 I g t Hg Em) as (A & B). exists g, t. auto.
Qed.
Print Assumptions C14_logkeeper_safety.
Theorem C14_logkeeper_inv_init : forall d, LInv {| l_d := d; l_groups := [] |}.
Proof. intros d g t []. Qed.

(* raising (or un-limiting) the duration BEFORE the mark keeps the group; a recall cancels every pending deletion *)
Theorem C14_logkeeper_raise_before_mark_keeps : forall w now g,
  In g (l_groups w) -> lg_mark g = None -> expired (l_d w) (lg_end g) now = false -> In g (l_groups (fst (lk_tick w now))).
Proof.
  intros w now g Hg Hm He. cbn. apply in_map_iff. exists g. split.
  - unfold lk_mark, lk_to_mark. rewrite Hm, He. reflexivity.
  - apply filter_In. split; [auto|]. unfold lk_to_delete. now rewrite Hm.
Qed.
Theorem C14_logkeeper_recall_cancels : forall w now, snd (lk_tick (lk_recall w) now) = [].
Proof. intros w now. cbn. induction (l_groups w) as [|g r IH]; cbn; [reflexivity|]. exact IH. Qed.
(* documented behaviour, not a defect (NOTES section 9): a raise AFTER the mark is not a recall *)
Example C14_logkeeper_raise_after_mark_is_not_a_recall :
  let H := 3600000000000 in
  snd (lk_run {| l_d := H; l_groups := [] |} [LAdd 1 (10 * H) [1; 2]; LTick (11 * H + 1); LAlter 0; LTick (11 * H + 1 + DAY)])
    = [{| ld_gid := 1; ld_sid := 1; ld_now := 11 * H + 1 + DAY |}; {| ld_gid := 1; ld_sid := 2; ld_now := 11 * H + 1 + DAY |}] /\
  snd (lk_run {| l_d := H; l_groups := [] |} [LAdd 1 (10 * H) [1; 2]; LTick (11 * H + 1); LAlter 0; LRecall; LTick (11 * H + 1 + DAY)]) = [].
Proof. vm_compute. auto. Qed.

(* proposed hardening of the engine (props/C14/harden1.patch): an index is not reported expired while a loaded shard
      that holds it is unexpired. REDUNDANT under the repaired catalogue: when the catalogue satisfies XInv and the node
      agrees with it, the guard is true for every index the pass deletes, so the patch changes nothing there (it only
      matters when the catalogue or the node's view is wrong, as under the two defects of Refuted.v). *)
Theorem C14_index_guard_redundant : forall rep w pt now now2,
  XInv (x_cat w) -> NodeOK w pt ->
  forall X, In X (l_ixs (snd (xtick rep w pt now now2))) -> guard_ok (pass_shards w pt) pt now2 X = true.
Proof. exact guard_redundant. Qed.
Print Assumptions C14_index_guard_redundant.

(* measurement TTL: only shards / indexes of the measurement's policy whose span ended more than the TTL ago; TTL 0 never *)
Theorem C14_mst_ttl_rule : forall rp ttl now shards id,
  In id (mst_expired_shards rp ttl now shards) -> exists e, In (id, rp, e) shards /\ ttl <> 0 /\ e + ttl < now.
Proof.
  intros rp ttl now shards id.
  unfold mst_expired_shards. rewrite in_map_iff. intros (((i, r), e) & <- & H). apply filter_In in H. cbn in H.
  destruct H as (H & E). rewrite andb_true_iff in E. destruct E as (E1 & E2). apply expired_spec in E2.
  exists e. assert (r = rp) by lia. subst. auto.
Qed.
Theorem C14_mst_ttl_zero_never : forall rp now shards, mst_expired_shards rp 0 now shards = [].
Proof.
  intros rp now shards.
  unfold mst_expired_shards. induction shards as [|s r IH]; [reflexivity|]. cbn [filter]. rewrite expired_unlimited, andb_false_r. exact IH.
Qed.
(* SchemaClean drops a field only if the latest group it was written to ends less than 2^32 ns (4.29 s) after the pruned
   group; so, group ends of one policy being at least that far apart, only fields all of whose data is expired *)
Theorem C14_schema_clean_bound : forall fe pe, schema_drop fe pe = true -> fe < pe + P32.
Proof. exact schema_drop_bound. Qed.
Theorem C14_schema_clean_only_expired : forall d fe pe now,
  (fe <= pe \/ pe + P32 <= fe) -> schema_drop fe pe = true -> expired d pe now = true -> expired d fe now = true.
Proof.
  intros d fe pe now.
  intros [L|G] Hd He; [|rewrite (schema_keep_later _ _ G) in Hd; discriminate].
  exact (expired_anti_end d fe pe now L He).
Qed.
Print Assumptions C14_schema_clean_only_expired.
Example C14_schema_clean_example : schema_clean [(1, 3600000000000); (2, 7200000000000); (3, 3600000000000 + 1000000000); (4, 3600000000000 + 4294967296)] 3600000000000 = [(2, 7200000000000); (4, 3604294967296)].
Proof. vm_compute. reflexivity. Qed.
