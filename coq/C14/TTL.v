(* C14 - the two other deleters next to the retention pass.
   (1) Measurement TTL (services/retention/mst + engine.ExpiredShardsForMst / ExpiredIndexesForMst): the data of ONE
       measurement is dropped from the shards (and indexes) of its policy whose span ended more than the measurement's
       TTL ago - the same predicate as the policy rule with the TTL in place of the duration; TTL 0 (the default) never.
   (2) SchemaClean (optional, meta.SchemaCleanEn; runs when pruneShardGroups drops groups): a field is removed from a
       measurement's schema when the high 32 bits of the end of the latest shard group it was written to are <= the high
       32 bits of the latest end among the groups just pruned (MeasurementInfo.SchemaClean; a measurement left without
       fields is marked deleted). One unit of the high 32 bits is 2^32 ns = 4.29 s. *)
From Coq Require Import ZArith List Bool Lia ZifyBool.
From OG Require Import C14.Model C14.Proofs.
Import ListNotations.
Open Scope Z_scope.

Definition mst_expired_shards (rp ttl now : Z) (shards : list (Z * Z * Z)) : list Z :=   (* (id, rp, end) *)
  map (fun s => fst (fst s)) (filter (fun s => (snd (fst s) =? rp) && expired ttl (snd s) now) shards).

Definition P32 : Z := 4294967296.
Definition high32 (t : Z) : Z := t / P32.
Definition schema_drop (field_end pruned_end : Z) : bool := high32 field_end <=? high32 pruned_end.
Definition schema_clean (fields : list (Z * Z)) (pruned_end : Z) : list (Z * Z) :=   (* (field id, end of its latest group) *)
  filter (fun f => negb (schema_drop (snd f) pruned_end)) fields.

(* a field is dropped only if the latest group it was written to ends before pruned_end + 4.29 s ... *)
Lemma schema_drop_bound fe pe : schema_drop fe pe = true -> fe < pe + P32.
Proof.
  unfold schema_drop, high32, P32. intros H. apply Z.leb_le in H.
  pose proof (Z.mul_div_le pe 4294967296). pose proof (Z.mod_pos_bound fe 4294967296). pose proof (Z.div_mod fe 4294967296).
  pose proof (Z.mod_pos_bound pe 4294967296). pose proof (Z.div_mod pe 4294967296). nia.
Qed.
(* ... so never when that group ends 4.29 s or more after the pruned one (group ends of one policy are hours apart) *)
Lemma schema_keep_later fe pe : pe + P32 <= fe -> schema_drop fe pe = false.
Proof. intros H. destruct (schema_drop fe pe) eqn:E; [|auto]. apply schema_drop_bound in E. lia. Qed.

(* correspondence evaluators *)
Definition ttlcase := (Z * Z * Z * list (Z * Z * Z) * list Z)%type.          (* rp ttl now shards -> ids reported (sorted) *)
Fixpoint ins_zz (x : Z) (l : list Z) : list Z := match l with [] => [x] | y :: r => if x <=? y then x :: l else y :: ins_zz x r end.
Fixpoint zl_eqb (a b : list Z) : bool := match a, b with [], [] => true | x :: a', y :: b' => (x =? y) && zl_eqb a' b' | _, _ => false end.
Definition ttl_ok (c : ttlcase) : bool :=
  match c with (rp, ttl, now, shards, got) => zl_eqb (fold_right ins_zz [] (mst_expired_shards rp ttl now shards)) got end.
Definition sccase := (list (Z * Z) * Z * list Z)%type.                        (* fields (id, end of latest group), pruned end -> ids left (sorted) *)
Definition sc_ok (c : sccase) : bool :=
  match c with (fields, pe, got) => zl_eqb (fold_right ins_zz [] (map fst (schema_clean fields pe))) got end.
Fixpoint bad_from {A} (ok : A -> bool) (k : nat) (cs : list A) : list nat :=
  match cs with [] => [] | c :: r => if ok c then bad_from ok (S k) r else k :: bad_from ok (S k) r end.
Definition ttl_bad := bad_from ttl_ok 0.
Definition sc_bad := bad_from sc_ok 0.
