(* C14 correspondence evaluator for the extended model (XModel.v): runs the model on a harness trace under each of the
   eight variants (index-group choice, pruning, clipping: each before or with its fix) and reports which variants reproduce the
   implementation's observables after every event. *)
From Coq Require Import ZArith List Bool.
From OG Require Import C14.Model C14.Corr C14.XModel.
Import ListNotations.
Open Scope Z_scope.

Definition z4 := (Z * Z * Z * Z)%type.
Definition o_sg := (Z * Z * Z * Z * bool * list (Z * Z * Z * bool))%type.   (* id rp start end del shards(id pt ix md) *)
Definition o_ig := (Z * Z * Z * Z * bool * list (Z * Z * bool))%type.       (* id rp start end del indexes(id pt md) *)
Record xobs := { o_ok : bool;                 (* the operation was accepted (ALTER) *)
                 o_pols : list z4; o_sgs : list o_sg; o_igs : list o_ig;
                 o_nsh : list (Z * Z) (* shard id, end time held by the node *); o_nix : list (Z * Z) (* index id, end time held by the node *); o_dsh : list Z; o_dix : list Z }.

Definition zsort := sort_by (fun x : Z => x).

Definition obs_of (ok : bool) (w : xworld) (l : xlog) : xobs :=
  let c := x_cat w in
  {| o_ok := ok;
     o_pols := map (fun p => (xp_id p, xp_d p, xp_sgd p, xp_igd p)) (c_pols c);
     o_sgs := sort_by (fun g : o_sg => match g with (id, _, _, _, _, _) => id end)
                (map (fun g => (sg_id g, sg_rp g, sg_start g, sg_end g, sg_del g,
                                map (fun s => (cs_id s, cs_pt s, cs_ix s, cs_md s)) (sg_shards g))) (c_sgs c));
     o_igs := sort_by (fun g : o_ig => match g with (id, _, _, _, _, _) => id end)
                (map (fun g => (ig_id g, ig_rp g, ig_start g, ig_end g, ig_del g,
                                map (fun s => (ci_id s, ci_pt s, ci_md s)) (ig_ixs g))) (c_igs c));
     o_nsh := sort_by (fun p : Z * Z => fst p) (map (fun s => (xs_id s, xs_end s)) (x_shards w));
     o_nix := sort_by (fun p : Z * Z => fst p) (map (fun i => (xi_id i, xi_end i)) (x_ixs w));
     o_dsh := zsort (l_shards l); o_dix := zsort (l_ixs l) |}.

Definition z4_eqb (a b : z4) : bool :=
  match a, b with (a1, a2, a3, a4), (b1, b2, b3, b4) => (a1 =? b1) && (a2 =? b2) && (a3 =? b3) && (a4 =? b4) end.
Definition cs_eqb (a b : Z * Z * Z * bool) : bool :=
  match a, b with (a1, a2, a3, a4), (b1, b2, b3, b4) => (a1 =? b1) && (a2 =? b2) && (a3 =? b3) && Bool.eqb a4 b4 end.
Definition ci_eqb (a b : Z * Z * bool) : bool :=
  match a, b with (a1, a2, a3), (b1, b2, b3) => (a1 =? b1) && (a2 =? b2) && Bool.eqb a3 b3 end.
Definition osg_eqb (a b : o_sg) : bool :=
  match a, b with (a1, a2, a3, a4, a5, a6), (b1, b2, b3, b4, b5, b6) =>
    (a1 =? b1) && (a2 =? b2) && (a3 =? b3) && (a4 =? b4) && Bool.eqb a5 b5 && list_eqb cs_eqb a6 b6 end.
Definition oig_eqb (a b : o_ig) : bool :=
  match a, b with (a1, a2, a3, a4, a5, a6), (b1, b2, b3, b4, b5, b6) =>
    (a1 =? b1) && (a2 =? b2) && (a3 =? b3) && (a4 =? b4) && Bool.eqb a5 b5 && list_eqb ci_eqb a6 b6 end.
Definition xobs_eqb (a b : xobs) : bool :=
  Bool.eqb (o_ok a) (o_ok b) && list_eqb z4_eqb (o_pols a) (o_pols b) && list_eqb osg_eqb (o_sgs a) (o_sgs b)
  && list_eqb oig_eqb (o_igs a) (o_igs b) && list_eqb (fun p q : Z * Z => (fst p =? fst q) && (snd p =? snd q)) (o_nsh a) (o_nsh b) && list_eqb (fun p q : Z * Z => (fst p =? fst q) && (snd p =? snd q)) (o_nix a) (o_nix b)
  && list_eqb Z.eqb (o_dsh a) (o_dsh b) && list_eqb Z.eqb (o_dix a) (o_dix b).

Definition accepted (w : xworld) (e : xevent) : bool :=
  match e with
  | XAlter rp d sgd igd => is_some (alter_cat (x_cat w) rp d sgd igd)
  | _ => true
  end.

(* None = every step agrees; Some i = first disagreeing event *)
Fixpoint xcheck_from (rI rP cl : bool) (i : nat) (w : xworld) (es : list xevent) (os : list xobs) : option nat :=
  match es, os with
  | [], _ => None
  | e :: es', o :: os' =>
      let '(w', l) := xstep rI rP cl w e in
      if xobs_eqb (obs_of (accepted w e) w' l) o then xcheck_from rI rP cl (S i) w' es' os' else Some i
  | _ :: _, [] => Some i
  end.

Definition mk_pols (ps : list z4) : list xpol :=
  map (fun p => match p with (i, d, s, g) => {| xp_id := i; xp_d := d; xp_sgd := s; xp_igd := g |} end) ps.

Definition xcase := (list z4 * nat * list xevent * list xobs)%type.

(* per case: for each variant (I,P,clip) in the order (f,f) (f,t) (t,f) (t,t) without clipping, then the same four with
   clipping: 0 if it agrees, else 1 + index of the first disagreeing event *)
Definition xverdict (c : xcase) : list nat :=
  match c with (ps, ptn, es, os) =>
    map (fun v : bool * bool * bool =>
           match xcheck_from (fst (fst v)) (snd (fst v)) (snd v) 0 (xworld0 (mk_pols ps) ptn) es os with None => O | Some i => S i end)
        [(false, false, false); (false, true, false); (true, false, false); (true, true, false);
         (false, false, true); (false, true, true); (true, false, true); (true, true, true)]
  end.
Definition xverdicts (cs : list xcase) : list (list nat) := map xverdict cs.

(* the model's own observations of a trace (replay/debugging aid) *)
Fixpoint xtrace (rI rP cl : bool) (w : xworld) (es : list xevent) : list xobs :=
  match es with
  | [] => []
  | e :: r => let '(w', l) := xstep rI rP cl w e in obs_of (accepted w e) w' l :: xtrace rI rP cl w' r
  end.

(* write admission: (d at lookup, coordinator clock, minTime the implementation used, rows (t, admitted)) *)
Definition wacase := (Z * Z * Z * list (Z * bool))%type.
Definition wa_ok (c : wacase) : bool :=
  match c with (d, nowsec, mt, rows) =>
    (min_time d nowsec =? mt) && list_eqb Bool.eqb (admit_batch d nowsec (map fst rows)) (map snd rows)
  end.
Fixpoint wa_mismatches_from (k : nat) (cs : list wacase) : list nat :=
  match cs with
  | [] => []
  | c :: r => if wa_ok c then wa_mismatches_from (S k) r else k :: wa_mismatches_from (S k) r
  end.
Definition wa_mismatches := wa_mismatches_from 0.
