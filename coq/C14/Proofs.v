(* C14: the decision rule (expired), one pass of the service (tick) and traces of the basic model: every deletion is
   justified; marking by id; progress on the node. *)
From Coq Require Import ZArith List Bool Lia.
From OG Require Import C14.Model.
Import ListNotations.
Open Scope Z_scope.

Lemma last_map {A B} (f : A -> B) l d : last (map f l) (f d) = f (last l d).
Proof.
  induction l as [|x r IH]; [reflexivity|]. destruct r as [|y r]; [reflexivity|].
  change (last (map f (x :: y :: r)) (f d)) with (last (map f (y :: r)) (f d)).
  change (last (x :: y :: r) d) with (last (y :: r) d). exact IH.
Qed.

Lemma expired_spec d e n : expired d e n = true <-> d <> 0 /\ e + d < n.
Proof.
  unfold expired. rewrite andb_true_iff, negb_true_iff, Z.eqb_neq, Z.ltb_lt. tauto.
Qed.

Lemma expired_unlimited e n : expired 0 e n = false.
Proof. reflexivity. Qed.

Lemma expired_monotone d e n n' : expired d e n = true -> n <= n' -> expired d e n' = true.
Proof. rewrite !expired_spec. lia. Qed.

Lemma expired_raise d d' e n : 0 < d -> d <= d' -> expired d' e n = true -> expired d e n = true.
Proof. rewrite !expired_spec. lia. Qed.

(* a span that ends earlier expires no later: used wherever an index is compared with the shards it serves *)
Lemma expired_anti_end d e e' n : e <= e' -> expired d e' n = true -> expired d e n = true.
Proof. rewrite !expired_spec. lia. Qed.

Lemma write_accept_window d nowsec t :
  0 < d -> write_accept d nowsec t = true <-> nowsec * 1000000000 - d <= t.
Proof.
  intros Hd. unfold write_accept. destruct (0 <? d) eqn:E; [|apply Z.ltb_ge in E; lia].
  rewrite negb_true_iff, Z.ltb_ge. tauto.
Qed.

Lemma refresh_one_id w s : n_id (refresh_one w s) = n_id s /\ n_gid (refresh_one w s) = n_gid s
  /\ n_rp (refresh_one w s) = n_rp s /\ n_end (refresh_one w s) = n_end s /\ n_loaded (refresh_one w s) = n_loaded s.
Proof.
  unfold refresh_one. destruct (listed _ _); [destruct (policy_dur _ _)|]; simpl; auto.
Qed.

Lemma listed_ext gs s s' : n_id s = n_id s' -> n_gid s = n_gid s' -> listed gs s = listed gs s'.
Proof. intros H1 H2. unfold listed. rewrite H1, H2. reflexivity. Qed.

Lemma refresh_one_dur w s d :
  listed (groups w) s = true -> policy_dur (policies w) (n_rp s) = Some d -> n_dur (refresh_one w s) = d.
Proof. intros H1 H2. unfold refresh_one. rewrite H1, H2. reflexivity. Qed.

Lemma refresh_one_unlisted w s : listed (groups w) s = false -> refresh_one w s = s.
Proof. intros H. unfold refresh_one. now rewrite H. Qed.

Definition justified (w : world) (now : Z) (s0 : nshard) : Prop :=
  (listed (groups w) s0 = true ->
     forall d, policy_dur (policies w) (n_rp s0) = Some d -> d <> 0 /\ n_end s0 + d < now)
  /\ (listed (groups w) s0 = false -> n_loaded s0 = true /\ n_dur s0 <> 0 /\ n_end s0 + n_dur s0 < now).

Lemma tick_deletion_justified w now r :
  In r (snd (tick w now)) ->
  del_now r = now /\
  exists s0, In s0 (node w) /\ del_shard r = refresh_one w s0 /\ del_dur r = policy_dur (policies w) (n_rp s0)
             /\ justified w now s0.
Proof.
  unfold tick. cbn [snd]. rewrite in_map_iff. intros (s & <- & Hs). cbn [del_now del_shard del_dur].
  split; [reflexivity|].
  unfold expired_shards in Hs. apply filter_In in Hs. destruct Hs as [Hin Hex].
  cbn [refresh node groups] in Hin, Hex. apply in_map_iff in Hin. destruct Hin as (s0 & <- & Hin0).
  exists s0. destruct (refresh_one_id w s0) as (Hid & Hgid & Hrp & Hend & Hld).
  split; [exact Hin0|]. split; [reflexivity|]. split; [now rewrite Hrp|].
  unfold shard_expired in Hex. rewrite Hld, Hend in Hex.
  rewrite (listed_ext (groups w) (refresh_one w s0) s0 Hid Hgid) in Hex.
  split.
  - intros Hl d Hd. rewrite (refresh_one_dur w s0 d Hl Hd) in Hex.
    destruct (n_loaded s0); [|rewrite Hl in Hex; cbn in Hex]; apply expired_spec in Hex; exact Hex.
  - intros Hl. rewrite (refresh_one_unlisted w s0 Hl) in Hex. rewrite Hl in Hex.
    destruct (n_loaded s0); [|discriminate]. apply expired_spec in Hex. tauto.
Qed.

Lemma run_app w es1 es2 :
  run w (es1 ++ es2) = let '(w1, d1) := run w es1 in let '(w2, d2) := run w1 es2 in (w2, d1 ++ d2).
Proof.
  revert w. induction es1 as [|e es1 IH]; intros w; cbn [run app].
  - destruct (run w es2); reflexivity.
  - destruct (step w e) as [w1 d1]. rewrite IH. destruct (run w1 es1) as [w2 d2].
    destruct (run w2 es2) as [w3 d3]. now rewrite app_assoc.
Qed.

Lemma run_deletion_origin es : forall w r,
  In r (snd (run w es)) ->
  exists pre now post, es = pre ++ Tick now :: post /\ In r (snd (tick (fst (run w pre)) now)).
Proof.
  induction es as [|e es IH]; intros w r Hr; cbn [run] in Hr.
  - destruct Hr.
  - destruct (step w e) as [w1 d1] eqn:Es. destruct (run w1 es) as [w2 d2] eqn:Er. cbn [snd] in Hr.
    apply in_app_or in Hr. destruct Hr as [Hr|Hr].
    + destruct e as [now|rp d|g l|now'|]; cbn [step] in Es; try (inversion Es; subst; destruct Hr).
      exists [], now, es. split; [reflexivity|]. cbn [run fst]. rewrite Es. exact Hr.
    + assert (Hr' : In r (snd (run w1 es))) by (rewrite Er; exact Hr).
      destruct (IH w1 r Hr') as (pre & now & post & -> & Hin).
      exists (e :: pre), now, post. split; [reflexivity|]. cbn [run]. rewrite Es.
      destruct (run w1 pre) as [w3 d3] eqn:E3. cbn [fst] in *. exact Hin.
Qed.

Definition ids (g : group) : list Z := map gs_id (g_shards g).

Fixpoint ascending (l : list Z) : Prop :=
  match l with
  | [] => True
  | x :: r => (match r with [] => True | y :: _ => x < y end) /\ ascending r
  end.

Lemma ascending_lt x l : ascending (x :: l) -> forall y, In y l -> x < y.
Proof.
  revert x. induction l as [|a l IH]; intros x H y Hy; [destruct Hy|].
  destruct H as [Hxa Hr]. destruct Hy as [<-|Hy]; [exact Hxa|].
  specialize (IH a Hr y Hy). lia.
Qed.

Lemma mark_first_ge_ids sid l : map gs_id (mark_first_ge sid l) = map gs_id l.
Proof.
  induction l as [|x r IH]; cbn [mark_first_ge map]; [reflexivity|].
  destruct (sid <=? gs_id x); cbn [map gs_id]; [reflexivity| now rewrite IH].
Qed.

Lemma mark_shard_absent sid l : ~ In sid (map gs_id l) -> map (mark_shard sid) l = l.
Proof.
  induction l as [|y r IH]; intros H; [reflexivity|]. cbn [map] in *. f_equal.
  - unfold mark_shard. destruct (Z.eqb_spec (gs_id y) sid) as [E|_]; [|reflexivity]. exfalso. apply H. now left.
  - apply IH. intros Hc. apply H. now right.
Qed.

Lemma mark_first_ge_exact sid l :
  ascending (map gs_id l) -> In sid (map gs_id l) -> mark_first_ge sid l = map (mark_shard sid) l.
Proof.
  induction l as [|x r IH]; intros Hasc Hin; [destruct Hin|].
  cbn [mark_first_ge map]. unfold mark_shard at 1.
  destruct (Z.eqb_spec (gs_id x) sid) as [E|NE].
  - subst sid. rewrite Z.leb_refl. f_equal. symmetry. apply mark_shard_absent.
    cbn [map] in Hasc. intros Hc. pose proof (ascending_lt _ _ Hasc _ Hc). lia.
  - destruct Hin as [E|Hin]; [congruence|].
    cbn [map] in Hasc. assert (Hlt := ascending_lt _ _ Hasc sid Hin).
    destruct (Z.leb_spec sid (gs_id x)); [lia|]. f_equal. apply IH; [apply Hasc|exact Hin].
Qed.

Lemma delete_one_node w s : node (delete_one w s) = filter (fun x => negb (n_id x =? n_id s)) (node w).
Proof. reflexivity. Qed.

Lemma fold_delete_node ex : forall w x,
  In x (node (fold_left delete_one ex w)) <-> In x (node w) /\ forall s, In s ex -> n_id x <> n_id s.
Proof.
  induction ex as [|s ex IH]; intros w x; cbn [fold_left].
  - split; [intros H; split; [exact H|intros s []] | tauto].
  - rewrite IH, delete_one_node, filter_In, negb_true_iff, Z.eqb_neq. split.
    + intros [[H1 H2] H3]. split; [exact H1|]. intros s' [<-|Hs']; [exact H2|apply H3, Hs'].
    + intros [H1 H2]. split; [split; [exact H1|apply H2; now left]|]. intros s' Hs'. apply H2. now right.
Qed.

Lemma tick_node_subset w now x : In x (node (fst (tick w now))) -> In x (node (refresh w)).
Proof. unfold tick. cbn [fst]. rewrite fold_delete_node. tauto. Qed.

Lemma expired_selected w now s d :
  In s (node w) -> listed (groups w) s = true -> policy_dur (policies w) (n_rp s) = Some d ->
  d <> 0 -> n_end s + d < now -> In (refresh_one w s) (expired_shards (refresh w) now).
Proof.
  intros Hin Hl Hd Hd0 Hlt. unfold expired_shards. apply filter_In. split; [cbn [refresh node]; apply in_map; exact Hin|].
  destruct (refresh_one_id w s) as (Hid & Hgid & Hrp & Hend & Hld).
  unfold shard_expired. rewrite Hld, Hend, (refresh_one_dur w s d Hl Hd).
  cbn [refresh groups]. rewrite (listed_ext (groups w) _ s Hid Hgid), Hl.
  assert (E : expired d (n_end s) now = true) by (apply expired_spec; lia).
  rewrite E. now destruct (n_loaded s).
Qed.
