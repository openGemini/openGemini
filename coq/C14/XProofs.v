(* C14 - the extended model (XModel.v): list facts, marking and pruning (exactness, safety, progress), and the
   two-clock admission lemma. The catalogue invariant is in XInv.v. *)
From Coq Require Import ZArith List Bool Lia ZifyBool.
From OG Require Import C14.Model C14.Proofs C14.XModel.
Import ListNotations.
Open Scope Z_scope.

Lemma find_last_in {A} (p : A -> bool) l x : find_last p l = Some x -> In x l /\ p x = true.
Proof.
  induction l as [|y r IH]; cbn; [discriminate|].
  destruct (find_last p r) eqn:E.
  - intros H; inversion H; subst. destruct (IH eq_refl). auto.
  - destruct (p y) eqn:P; [|discriminate]. intros H; inversion H; subst. auto.
Qed.

Lemma in_ins_ig x l y : In y (ins_ig x l) <-> y = x \/ In y l.
Proof.
  induction l as [|z r IH]; cbn; [intuition|].
  destruct (span_less _ _ _ _); cbn; [intuition|]. rewrite IH. intuition.
Qed.
Lemma in_ins_sg x l y : In y (ins_sg x l) <-> y = x \/ In y l.
Proof.
  induction l as [|z r IH]; cbn; [intuition|].
  destruct (span_less _ _ _ _); cbn; [intuition|]. rewrite IH. intuition.
Qed.

Lemma in_fold_ins_ig l : forall acc y, In y (fold_left (fun a g => ins_ig g a) l acc) <-> In y l \/ In y acc.
Proof.
  induction l as [|x r IH]; cbn; intros; [intuition|]. rewrite IH, in_ins_ig. intuition.
Qed.
Lemma in_fold_ins_sg l : forall acc y, In y (fold_left (fun a g => ins_sg g a) l acc) <-> In y l \/ In y acc.
Proof.
  induction l as [|x r IH]; cbn; intros; [intuition|]. rewrite IH, in_ins_sg. intuition.
Qed.

Lemma in_rp_igs c rp g : In g (rp_igs c rp) <-> In g (c_igs c) /\ ig_rp g = rp.
Proof.
  unfold rp_igs. rewrite in_fold_ins_ig, filter_In. cbn. rewrite Z.eqb_eq. intuition.
Qed.
Lemma in_rp_sgs c rp g : In g (rp_sgs c rp) <-> In g (c_sgs c) /\ sg_rp g = rp.
Proof.
  unfold rp_sgs. rewrite in_fold_ins_sg, filter_In. cbn. rewrite Z.eqb_eq. intuition.
Qed.

Lemma Forall2_refl {A} (R : A -> A -> Prop) : (forall x, R x x) -> forall l, Forall2 R l l.
Proof. intros H; induction l; constructor; auto. Qed.

Definition cs_same (x y : cshard) : Prop := cs_id y = cs_id x /\ cs_pt y = cs_pt x /\ cs_ix y = cs_ix x.
Definition ci_same (x y : cindex) : Prop := ci_id y = ci_id x /\ ci_pt y = ci_pt x.

Lemma mark_cs_rep_exact id l :
  Forall2 (fun x y => cs_same x y /\ (cs_md y = cs_md x \/ (cs_md y = true /\ cs_id x = id))) l (mark_cs true id l).
Proof.
  induction l as [|x r IH]; cbn; [constructor|].
  assert (R : forall l0 : list cshard, Forall2 (fun x y => cs_same x y /\ (cs_md y = cs_md x \/ (cs_md y = true /\ cs_id x = id))) l0 l0) by (apply Forall2_refl; unfold cs_same; auto).
  destruct (id <=? cs_id x) eqn:E.
  - destruct (negb (cs_id x =? id)) eqn:N; cbn.
    + apply R.
    + constructor; [|apply R]. unfold cs_same; cbn. split; [auto|]. right. split; [auto|]. lia.
  - constructor; [unfold cs_same; auto|apply IH].
Qed.
Lemma mark_ci_rep_exact id l :
  Forall2 (fun x y => ci_same x y /\ (ci_md y = ci_md x \/ (ci_md y = true /\ ci_id x = id))) l (mark_ci true id l).
Proof.
  induction l as [|x r IH]; cbn; [constructor|].
  assert (R : forall l0 : list cindex, Forall2 (fun x y => ci_same x y /\ (ci_md y = ci_md x \/ (ci_md y = true /\ ci_id x = id))) l0 l0) by (apply Forall2_refl; unfold ci_same; auto).
  destruct (id <=? ci_id x) eqn:E.
  - destruct (negb (ci_id x =? id)) eqn:N; cbn.
    + apply R.
    + constructor; [|apply R]. unfold ci_same; cbn. split; [auto|]. right. split; [auto|]. lia.
  - constructor; [unfold ci_same; auto|apply IH].
Qed.

Lemma mark_cs_same rep id l :
  Forall2 (fun x y => cs_same x y /\ (cs_md x = true -> cs_md y = true)) l (mark_cs rep id l).
Proof.
  induction l as [|x r IH]; cbn; [constructor|].
  assert (R : forall l0 : list cshard, Forall2 (fun x y => cs_same x y /\ (cs_md x = true -> cs_md y = true)) l0 l0) by (apply Forall2_refl; unfold cs_same; auto).
  destruct (id <=? cs_id x).
  - destruct (rep && negb (cs_id x =? id)); [apply R|]. constructor; [|apply R]. unfold cs_same; cbn. auto.
  - constructor; [unfold cs_same; auto|apply IH].
Qed.
Lemma mark_ci_same rep id l :
  Forall2 (fun x y => ci_same x y /\ (ci_md x = true -> ci_md y = true)) l (mark_ci rep id l).
Proof.
  induction l as [|x r IH]; cbn; [constructor|].
  assert (R : forall l0 : list cindex, Forall2 (fun x y => ci_same x y /\ (ci_md x = true -> ci_md y = true)) l0 l0) by (apply Forall2_refl; unfold ci_same; auto).
  destruct (id <=? ci_id x).
  - destruct (rep && negb (ci_id x =? id)); [apply R|]. constructor; [|apply R]. unfold ci_same; cbn. auto.
  - constructor; [unfold ci_same; auto|apply IH].
Qed.

Lemma Forall2_in_r {A B} (R : A -> B -> Prop) l l' y : Forall2 R l l' -> In y l' -> exists x, In x l /\ R x y.
Proof.
  induction 1 as [|a b l l' Hab _ IH]; cbn; [tauto|]. intros [->|H1]; [eauto|]. destruct (IH H1) as (x1 & ? & ?). eauto.
Qed.
Lemma Forall2_in_l {A B} (R : A -> B -> Prop) l l' x : Forall2 R l l' -> In x l -> exists y, In y l' /\ R x y.
Proof.
  induction 1 as [|a b l l' Hab _ IH]; cbn; [tauto|]. intros [->|H1]; [eauto|]. destruct (IH H1) as (x1 & ? & ?). eauto.
Qed.

Definition sg_same_head (g g' : sgroup) : Prop :=
  sg_id g' = sg_id g /\ sg_rp g' = sg_rp g /\ sg_start g' = sg_start g /\ sg_end g' = sg_end g /\ sg_del g' = sg_del g.
Definition ig_same_head (g g' : igroup) : Prop :=
  ig_id g' = ig_id g /\ ig_rp g' = ig_rp g /\ ig_start g' = ig_start g /\ ig_end g' = ig_end g /\ ig_del g' = ig_del g.

Lemma prune_mark_sg_head rep id g : sg_same_head g (prune_mark_sg rep id g).
Proof. unfold prune_mark_sg, sg_same_head. destruct (_ && _); cbn; auto. Qed.
Lemma prune_mark_ig_head rep id g : ig_same_head g (prune_mark_ig rep id g).
Proof. unfold prune_mark_ig, ig_same_head. destruct (_ && _); cbn; auto. Qed.

Lemma prune_mark_sg_shards rep id g :
  Forall2 (fun x y => cs_same x y /\ (cs_md x = true -> cs_md y = true)) (sg_shards g) (sg_shards (prune_mark_sg rep id g)).
Proof.
  unfold prune_mark_sg. destruct (_ && _); cbn; [apply mark_cs_same|].
  apply Forall2_refl. unfold cs_same; auto.
Qed.
Lemma prune_mark_ig_ixs rep id g :
  Forall2 (fun x y => ci_same x y /\ (ci_md x = true -> ci_md y = true)) (ig_ixs g) (ig_ixs (prune_mark_ig rep id g)).
Proof.
  unfold prune_mark_ig. destruct (_ && _); cbn; [apply mark_ci_same|].
  apply Forall2_refl. unfold ci_same; auto.
Qed.

Lemma forallb_Forall2_marks id (l l' : list cshard) :
  Forall2 (fun x y => cs_same x y /\ (cs_md y = cs_md x \/ (cs_md y = true /\ cs_id x = id))) l l' ->
  forallb cs_md l' = true -> forall x, In x l -> cs_md x = true \/ cs_id x = id.
Proof.
  induction 1 as [|x y l l' (Hs & Hm) _ IH]; cbn; [tauto|].
  rewrite andb_true_iff. intros (Hy & Hr) z [->|Hz]; [|auto].
  destruct Hm as [E|(_ & E)]; [left; congruence|auto].
Qed.

(* ascending ids, as the id counter produces them inside a group *)
Fixpoint asc (l : list Z) : Prop :=
  match l with
  | [] => True
  | x :: r => (forall y, In y r -> x < y) /\ asc r
  end.

Lemma mark_cs_marks_member rep id l :
  asc (map cs_id l) -> forall x, In x l -> cs_id x = id ->
  exists y, In y (mark_cs rep id l) /\ cs_id y = id /\ cs_md y = true.
Proof.
  induction l as [|z r IH]; cbn; [tauto|]. intros (Hlt & Ha) x [->|Hx] E.
  - assert (id <=? cs_id x = true) as -> by lia.
    assert (rep && negb (cs_id x =? id) = false) as ->.
    { destruct rep; cbn; [|auto]. rewrite negb_false_iff. lia. }
    exists (cs_mark x). cbn. auto.
  - assert (cs_id z < id) by (apply Hlt; rewrite <- E; apply in_map; auto).
    assert (id <=? cs_id z = false) as -> by lia.
    destruct (IH Ha x Hx E) as (y & ? & ? & ?). exists y. cbn. auto.
Qed.

Lemma asc_range (l : list Z) : asc l -> forall x, In x l -> hd 0 l <= x <= last l 0.
Proof.
  induction l as [|z r IH]; [cbn; tauto|]. intros (Hlt & Ha) x Hx. destruct r as [|z2 r2].
  - cbn in *. destruct Hx as [->|[]]. lia.
  - change (last (z :: z2 :: r2) 0) with (last (z2 :: r2) 0). cbn [hd].
    pose proof (Hlt z2 (or_introl eq_refl)). pose proof (IH Ha z2 (or_introl eq_refl)) as Hz. cbn [hd] in Hz.
    destruct Hx as [->|Hx]; [lia|]. specialize (IH Ha x Hx). cbn [hd] in IH. lia.
Qed.
Lemma cs_range l x : asc (map cs_id l) -> In x l -> cs_first l <= cs_id x <= cs_last l.
Proof.
  intros A H. assert (cs_first l = hd 0 (map cs_id l)) as -> by (destruct l; reflexivity).
  unfold cs_last. rewrite <- (last_map cs_id l). apply asc_range; [exact A|apply in_map; exact H].
Qed.
Lemma ci_range l x : asc (map ci_id l) -> In x l -> ci_first l <= ci_id x <= ci_last l.
Proof.
  intros A H. assert (ci_first l = hd 0 (map ci_id l)) as -> by (destruct l; reflexivity).
  unfold ci_last. rewrite <- (last_map ci_id l). apply asc_range; [exact A|apply in_map; exact H].
Qed.

Lemma mark_cs_all rep id l :
  asc (map cs_id l) -> (forall s, In s l -> cs_md s = true \/ cs_id s = id) ->
  (exists x, In x l /\ cs_id x = id) -> forallb cs_md (mark_cs rep id l) = true.
Proof.
  induction l as [|z r IH]; cbn; [intros _ _ (x & [] & _)|].
  intros (Hlt & Ha) Hall (x & Hx & E).
  destruct (id <=? cs_id z) eqn:Le.
  - (* the first element >= id must be the member with that id *)
    assert (cs_id z = id).
    { destruct Hx as [->|Hx]; [auto|]. assert (cs_id z < cs_id x) by (apply Hlt; apply in_map; auto). lia. }
    assert (rep && negb (cs_id z =? id) = false) as ->.
    { destruct rep; cbn; [|auto]. rewrite negb_false_iff. lia. }
    cbn. apply forallb_forall. intros y Hy. destruct (Hall y (or_intror Hy)) as [|E2]; [auto|].
    assert (cs_id z < cs_id y) by (apply Hlt; apply in_map; auto). lia.
  - cbn. rewrite andb_true_iff. split.
    + destruct (Hall z (or_introl eq_refl)); [auto|lia].
    + apply IH; [auto|intros; apply Hall; auto|].
      destruct Hx as [->|Hx]; [lia|eauto].
Qed.

Lemma cs_id_member_dec id (l : list cshard) : (exists x, In x l /\ cs_id x = id) \/ (forall x, In x l -> cs_id x <> id).
Proof.
  induction l as [|z r [(x & Hx & E)|IH]]; [right; cbn; tauto|left; exists x; cbn; auto|].
  destruct (Z.eq_dec (cs_id z) id) as [E|N]; [left; exists z; cbn; auto|].
  right. intros x [->|Hx]; auto.
Qed.

Lemma prune_sg_progress rep c id g :
  In g (c_sgs c) -> asc (map cs_id (sg_shards g)) -> sg_del g = true ->
  (forall s, In s (sg_shards g) -> cs_md s = true \/ cs_id s = id) ->
  (forall g2, In g2 (c_sgs c) -> sg_id g2 = sg_id g -> g2 = g) ->
  forall g', In g' (c_sgs (prune_sg rep c id)) -> sg_id g' <> sg_id g.
Proof.
  intros Hg Ha Hd Hall Hu g'. unfold prune_sg; cbn. rewrite filter_In, in_map_iff.
  intros ((g0 & <- & Hg0) & Hk) E.
  destruct (prune_mark_sg_head rep id g0) as (Ei & _ & _ & _ & Ed).
  rewrite Ei in E. specialize (Hu g0 Hg0 E). subst g0.
  rewrite negb_true_iff, andb_false_iff in Hk. destruct Hk as [Hk|Hk]; [congruence|].
  unfold sg_all_marked, prune_mark_sg in Hk.
  destruct (cs_id_member_dec id (sg_shards g)) as [(x & Hx & Ex)|Hno].
  - assert (R : (cs_first (sg_shards g) <=? id) && (id <=? cs_last (sg_shards g)) = true).
    { pose proof (cs_range _ _ Ha Hx). lia. }
    rewrite R in Hk. cbn in Hk. rewrite mark_cs_all in Hk; [discriminate|auto|auto|eauto].
  - assert (All : forallb cs_md (sg_shards g) = true).
    { apply forallb_forall. intros s Hs. destruct (Hall s Hs) as [|E2]; [auto|]. exfalso. apply (Hno s); auto. }
    destruct (_ && _) in Hk; cbn in Hk; [|congruence].
    pose proof (mark_cs_same rep id (sg_shards g)) as F.
    assert (forallb cs_md (mark_cs rep id (sg_shards g)) = true); [|congruence].
    apply forallb_forall. intros y Hy. destruct (Forall2_in_r _ _ _ _ F Hy) as (x & Hx & _ & Hm).
    apply Hm. rewrite forallb_forall in All. auto.
Qed.

Lemma admitted_not_expired_skew d nowsec t e storenow :
  0 < d -> write_accept d nowsec t = true -> t < e -> storenow <= nowsec * 1000000000 + (e - t) ->
  expired d e storenow = false.
Proof.
  intros Hd Ha Hte Hs. apply (write_accept_window d nowsec t Hd) in Ha.
  destruct (expired d e storenow) eqn:E; [|auto]. apply expired_spec in E. lia.
Qed.

Lemma admit_batch_nth d nowsec ts k t : nth_error ts k = Some t -> nth_error (admit_batch d nowsec ts) k = Some (write_accept d nowsec t).
Proof. intros H. unfold admit_batch. now rewrite nth_error_map, H. Qed.
