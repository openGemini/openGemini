(* C14 - extended model: the catalogue with SHARD GROUPS and INDEX GROUPS as the meta service builds it, the
   shard -> index reference, and one store node per partition running the retention pass over shards AND indexes.

   Mirrors (lib/util/lifted/influx/meta/data.go unless said otherwise):
     CreateShardGroup = ShardGroupByTimestamp ; createIndexGroupIfNeeded/CreateIndexGroup ; newShardGroup ; createShards
     UpdateRetentionPolicy + RetentionPolicyInfo.CheckSpecValid (retentionpolicy.go, indexinfo.go normalisedIndexDuration)
     ExpandGroups, DeleteShardGroup(MarkDelete), DeleteIndexGroup, PruneGroups = pruneShardGroups / pruneIndexGroups
     DurationInfos / IndexDurationInfos (what a store is told), RetentionPolicyInfo.getIndexGroupTimeRange
     engine.UpdateShardDurationInfo / UpdateIndexDurationInfo / ExpiredShards / ExpiredIndexes, IndexBuilder.Expired,
     services/retention Service.handle = updateDurationInfo ; HandleLocalStorage.
   Every function that had a defect takes a flag  rep : bool  (false = the code before the fix, true = with it: fix
   76d3742 for the index-group choice, fix b988d37 for the pruning; clip: fix 2b62e48); the correspondence check decides
   which one the working tree implements.

   Instants/durations are unbounded Z nanoseconds. Go's time.Truncate rounds down to a multiple of d counted from the
   zero Time (year 1), not from the Unix epoch: EPOCH below is that offset. *)
From Coq Require Import ZArith List Bool.
From OG Require Import C14.Model.
Import ListNotations.
Open Scope Z_scope.

Definition EPOCH : Z := 62135596800 * 1000000000.
Definition HOUR : Z := 3600 * 1000000000.
Definition trunc (t d : Z) : Z := if d <=? 0 then t else t - (t + EPOCH) mod d.

Record cshard := { cs_id : Z; cs_pt : Z; cs_ix : Z; cs_md : bool }.
Record sgroup := { sg_id : Z; sg_rp : Z; sg_start : Z; sg_end : Z; sg_del : bool; sg_shards : list cshard }.
Record cindex := { ci_id : Z; ci_pt : Z; ci_md : bool }.
Record igroup := { ig_id : Z; ig_rp : Z; ig_start : Z; ig_end : Z; ig_del : bool; ig_ixs : list cindex }.
Record xpol := { xp_id : Z; xp_d : Z; xp_sgd : Z; xp_igd : Z }.
Record cat := { c_pols : list xpol; c_sgs : list sgroup; c_igs : list igroup; c_ptnum : nat;
                c_maxsg : Z; c_maxsh : Z; c_maxig : Z; c_maxix : Z }.

Fixpoint find_pol (ps : list xpol) (rp : Z) : option xpol :=
  match ps with
  | [] => None
  | p :: r => if xp_id p =? rp then Some p else find_pol r rp
  end.

(* last element satisfying p (the code scans its slices from the end) *)
Fixpoint find_last {A} (p : A -> bool) (l : list A) : option A :=
  match l with
  | [] => None
  | x :: r => match find_last p r with Some y => Some y | None => if p x then Some x else None end
  end.

(* sort.Sort with Less = (end, then start) *)
Definition span_less (e1 s1 e2 s2 : Z) : bool := (e1 <? e2) || ((e1 =? e2) && (s1 <? s2)).
Fixpoint ins_ig (x : igroup) (l : list igroup) : list igroup :=
  match l with
  | [] => [x]
  | y :: r => if span_less (ig_end x) (ig_start x) (ig_end y) (ig_start y) then x :: l else y :: ins_ig x r
  end.
Fixpoint ins_sg (x : sgroup) (l : list sgroup) : list sgroup :=
  match l with
  | [] => [x]
  | y :: r => if span_less (sg_end x) (sg_start x) (sg_end y) (sg_start y) then x :: l else y :: ins_sg x r
  end.
(* the policy's slices, in the order the code keeps them: each new group is appended and the slice re-sorted; equal
   spans (a deleted group and its successor) stay in creation order, as Go's insertion sort (slices of <= 12) leaves them *)
Definition rp_igs (c : cat) (rp : Z) : list igroup := fold_left (fun acc g => ins_ig g acc) (filter (fun g => ig_rp g =? rp) (c_igs c)) [].
Definition rp_sgs (c : cat) (rp : Z) : list sgroup := fold_left (fun acc g => ins_sg g acc) (filter (fun g => sg_rp g =? rp) (c_sgs c)) [].

Definition sg_contains (g : sgroup) (t : Z) : bool := (sg_start g <=? t) && (t <? sg_end g).
Definition ig_contains (g : igroup) (t : Z) : bool := (ig_start g <=? t) && (t <? ig_end g).

(* n fresh consecutive ids after m, for partitions from, from+1, .. *)
Fixpoint fresh_ixs (n : nat) (from : Z) (m : Z) : list cindex :=
  match n with
  | O => []
  | S k => {| ci_id := m + 1; ci_pt := from; ci_md := false |} :: fresh_ixs k (from + 1) (m + 1)
  end.

(* CreateIndexGroup; the repaired variant never lets the new group end before minEnd *)
Definition create_ig (rep : bool) (c : cat) (rp igd ts minEnd : Z) : cat * igroup :=
  let st := trunc ts igd in
  let en := if rep then Z.max (st + igd) minEnd else st + igd in
  let g := {| ig_id := c_maxig c + 1; ig_rp := rp; ig_start := st; ig_end := en; ig_del := false;
              ig_ixs := fresh_ixs (c_ptnum c) 0 (c_maxix c) |} in
  ({| c_pols := c_pols c; c_sgs := c_sgs c; c_igs := c_igs c ++ [g]; c_ptnum := c_ptnum c;
      c_maxsg := c_maxsg c; c_maxsh := c_maxsh c; c_maxig := c_maxig c + 1;
      c_maxix := c_maxix c + Z.of_nat (c_ptnum c) |}, g).

(* createIndexGroupIfNeeded(rpi, timestamp): the LAST index group containing the timestamp, if it has an index for
   every partition; else a new one. Before fix 76d3742 nothing related the chosen group's end to the shard group's end
   (sgEnd); the fix only accepts a group that ends no earlier than the shard group it will serve. *)
Definition pick_ig (rep : bool) (c : cat) (rp ts sgEnd : Z) : option igroup :=
  find_last (fun g => ig_contains g ts && (if rep then sgEnd <=? ig_end g else true)) (rp_igs c rp).

Definition ig_if_needed (rep : bool) (c : cat) (rp igd ts sgEnd : Z) : cat * igroup :=
  match pick_ig rep c rp ts sgEnd with
  | Some g => if (c_ptnum c <=? length (ig_ixs g))%nat then (c, g) else create_ig rep c rp igd ts sgEnd
  | None => create_ig rep c rp igd ts sgEnd
  end.

Definition nth_ix (g : igroup) (i : nat) : Z := ci_id (nth i (ig_ixs g) {| ci_id := 0; ci_pt := 0; ci_md := false |}).

Fixpoint fresh_shards (n : nat) (i : nat) (m : Z) (g : igroup) : list cshard :=
  match n with
  | O => []
  | S k => {| cs_id := m + 1; cs_pt := Z.of_nat i; cs_ix := nth_ix g i; cs_md := false |} :: fresh_shards k (S i) (m + 1) g
  end.

(* newShardGroup with the clipping of fix 2b62e48: the cell of the CURRENT shard duration may reach into
   live neighbouring groups created under an earlier duration; the new group is cut back to the latest live end <= ts
   and the earliest live start > ts (running max / min over the policy's groups, order-independent). *)
Definition clip_start (c : cat) (rp ts st : Z) : Z :=
  fold_left (fun a g => if negb (sg_del g) && (sg_end g <=? ts) && (a <? sg_end g) then sg_end g else a) (rp_sgs c rp) st.
Definition clip_end (c : cat) (rp ts en : Z) : Z :=
  fold_left (fun a g => if negb (sg_del g) && (ts <? sg_start g) && (sg_start g <? a) then sg_start g else a) (rp_sgs c rp) en.

(* CreateShardGroup(db, policy, timestamp); clip = false: the whole cell (the code before fix 2b62e48), true: clipped *)
Definition create_sg (rep clip : bool) (c : cat) (rp ts : Z) : cat :=
  match find_pol (c_pols c) rp with
  | None => c
  | Some p =>
    if existsb (fun g => sg_contains g ts && negb (sg_del g)) (rp_sgs c rp) then c else
    let st0 := trunc ts (xp_sgd p) in
    let st := if clip then clip_start c rp ts st0 else st0 in
    let en := if clip then clip_end c rp ts (st0 + xp_sgd p) else st0 + xp_sgd p in
    let '(c1, ig) := ig_if_needed rep c rp (xp_igd p) ts en in
    let g := {| sg_id := c_maxsg c1 + 1; sg_rp := rp; sg_start := st; sg_end := en; sg_del := false;
                sg_shards := fresh_shards (c_ptnum c1) 0 (c_maxsh c1) ig |} in
    {| c_pols := c_pols c1; c_sgs := c_sgs c1 ++ [g]; c_igs := c_igs c1; c_ptnum := c_ptnum c1;
       c_maxsg := c_maxsg c1 + 1; c_maxsh := c_maxsh c1 + Z.of_nat (c_ptnum c1); c_maxig := c_maxig c1; c_maxix := c_maxix c1 |}
  end.

(* ---- ALTER RETENTION POLICY: UpdateRetentionPolicy + CheckSpecValid (hot/warm/index-cold/merge durations 0);
   default_sgd = shardGroupDuration, norm_sgd = normalisedShardDuration (retentionpolicy.go), norm_igd =
   normalisedIndexDuration (indexinfo.go) ---- *)
Definition default_sgd (d : Z) : Z :=
  if (180 * 24 * HOUR <=? d) || (d =? 0) then 7 * 24 * HOUR else if 2 * 24 * HOUR <=? d then 24 * HOUR else HOUR.
Definition norm_sgd (sgd d : Z) : Z := if sgd =? 0 then default_sgd d else if sgd <? HOUR then HOUR else sgd.
Definition norm_igd (igd sgd : Z) : Z :=
  if igd <? sgd then sgd else if igd mod sgd =? 0 then igd else (igd / sgd + 1) * sgd.

Definition or_default (o : option Z) (d : Z) : Z := match o with Some x => x | None => d end.

Definition alter_pol (p : xpol) (od osgd oigd : option Z) : option xpol :=
  let d := or_default od (xp_d p) in
  let sgd := norm_sgd (or_default osgd (xp_sgd p)) d in
  let igd := norm_igd (or_default oigd (xp_igd p)) sgd in
  if negb (d =? 0) && (d <? HOUR) then None
  else if negb (d =? 0) && (d <? sgd) then None
  else Some {| xp_id := xp_id p; xp_d := d; xp_sgd := sgd; xp_igd := igd |}.

Definition set_pols (c : cat) (ps : list xpol) : cat :=
  {| c_pols := ps; c_sgs := c_sgs c; c_igs := c_igs c; c_ptnum := c_ptnum c;
     c_maxsg := c_maxsg c; c_maxsh := c_maxsh c; c_maxig := c_maxig c; c_maxix := c_maxix c |}.

Definition alter_cat (c : cat) (rp : Z) (od osgd oigd : option Z) : option cat :=
  match find_pol (c_pols c) rp with
  | None => None
  | Some p => match alter_pol p od osgd oigd with
              | None => None
              | Some p' => Some (set_pols c (map (fun q => if xp_id q =? rp then p' else q) (c_pols c)))
              end
  end.

(* ---- ExpandGroups after the partition count grew: every index group gets an index, every shard group a shard, for
        each new partition; ids come from the same counters, so id ranges of different groups now interleave ---- *)
Definition set_igs (c : cat) (igs : list igroup) (maxig maxix : Z) : cat :=
  {| c_pols := c_pols c; c_sgs := c_sgs c; c_igs := igs; c_ptnum := c_ptnum c;
     c_maxsg := c_maxsg c; c_maxsh := c_maxsh c; c_maxig := maxig; c_maxix := maxix |}.
Definition set_sgs (c : cat) (sgs : list sgroup) (maxsh : Z) : cat :=
  {| c_pols := c_pols c; c_sgs := sgs; c_igs := c_igs c; c_ptnum := c_ptnum c;
     c_maxsg := c_maxsg c; c_maxsh := maxsh; c_maxig := c_maxig c; c_maxix := c_maxix c |}.

Definition grow_ig (c : cat) (gid : Z) : cat :=
  match find (fun g => ig_id g =? gid) (c_igs c) with
  | None => c
  | Some g0 =>
    let have := length (ig_ixs g0) in
    let add := fresh_ixs (c_ptnum c - have) (Z.of_nat have) (c_maxix c) in
    set_igs c (map (fun g => if ig_id g =? gid then
                     {| ig_id := ig_id g; ig_rp := ig_rp g; ig_start := ig_start g; ig_end := ig_end g; ig_del := ig_del g;
                        ig_ixs := ig_ixs g ++ add |} else g) (c_igs c))
            (c_maxig c) (c_maxix c + Z.of_nat (c_ptnum c - have))
  end.

(* one missing shard of group gid for partition i *)
Definition grow_sg_one (rep : bool) (c : cat) (gid : Z) (i : nat) : cat :=
  match find (fun g => sg_id g =? gid) (c_sgs c) with
  | None => c
  | Some g0 =>
    match find_pol (c_pols c) (sg_rp g0) with
    | None => c
    | Some p =>
      let '(c1, ig) := ig_if_needed rep c (sg_rp g0) (xp_igd p) (sg_start g0) (sg_end g0) in
      let s := {| cs_id := c_maxsh c1 + 1; cs_pt := Z.of_nat i; cs_ix := nth_ix ig i; cs_md := false |} in
      set_sgs c1 (map (fun g => if sg_id g =? gid then
                        {| sg_id := sg_id g; sg_rp := sg_rp g; sg_start := sg_start g; sg_end := sg_end g; sg_del := sg_del g;
                           sg_shards := sg_shards g ++ [s] |} else g) (c_sgs c1)) (c_maxsh c1 + 1)
    end
  end.

Definition grow_sg (rep : bool) (c : cat) (gid : Z) : cat :=
  match find (fun g => sg_id g =? gid) (c_sgs c) with
  | None => c
  | Some g0 => let have := length (sg_shards g0) in
               fold_left (fun c' i => grow_sg_one rep c' gid i) (seq have (c_ptnum c - have)) c
  end.

Definition expand_pol (rep : bool) (c : cat) (rp : Z) : cat :=
  let c1 := fold_left grow_ig (map ig_id (rp_igs c rp)) c in
  fold_left (grow_sg rep) (map sg_id (rp_sgs c1 rp)) c1.

Definition expand (rep : bool) (c : cat) : cat :=
  let c0 := {| c_pols := c_pols c; c_sgs := c_sgs c; c_igs := c_igs c; c_ptnum := S (c_ptnum c);
               c_maxsg := c_maxsg c; c_maxsh := c_maxsh c; c_maxig := c_maxig c; c_maxix := c_maxix c |} in
  fold_left (expand_pol rep) (map xp_id (c_pols c)) c0.

(* ---- marking and pruning ---- *)
Definition del_sg (c : cat) (rp gid : Z) : cat :=
  set_sgs c (map (fun g => if (sg_id g =? gid) && (sg_rp g =? rp) then
                    {| sg_id := sg_id g; sg_rp := sg_rp g; sg_start := sg_start g; sg_end := sg_end g; sg_del := true;
                       sg_shards := sg_shards g |} else g) (c_sgs c)) (c_maxsh c).
Definition del_ig (c : cat) (rp gid : Z) : cat :=
  set_igs c (map (fun g => if (ig_id g =? gid) && (ig_rp g =? rp) then
                    {| ig_id := ig_id g; ig_rp := ig_rp g; ig_start := ig_start g; ig_end := ig_end g; ig_del := true;
                       ig_ixs := ig_ixs g |} else g) (c_igs c)) (c_maxig c) (c_maxix c).

Definition cs_mark (x : cshard) : cshard := {| cs_id := cs_id x; cs_pt := cs_pt x; cs_ix := cs_ix x; cs_md := true |}.
Definition ci_mark (x : cindex) : cindex := {| ci_id := ci_id x; ci_pt := ci_pt x; ci_md := true |}.

(* before fix b988d37: if first <= id <= last, mark the first element with id' >= id (sort.Search, no equality test);
   with it: mark only an element whose id IS id *)
Fixpoint mark_cs (rep : bool) (id : Z) (l : list cshard) : list cshard :=
  match l with
  | [] => []
  | x :: r => if id <=? cs_id x then (if rep && negb (cs_id x =? id) then l else cs_mark x :: r) else x :: mark_cs rep id r
  end.
Fixpoint mark_ci (rep : bool) (id : Z) (l : list cindex) : list cindex :=
  match l with
  | [] => []
  | x :: r => if id <=? ci_id x then (if rep && negb (ci_id x =? id) then l else ci_mark x :: r) else x :: mark_ci rep id r
  end.

Definition cs_first (l : list cshard) : Z := match l with [] => 0 | x :: _ => cs_id x end.
Definition cs_last (l : list cshard) : Z := cs_id (last l {| cs_id := 0; cs_pt := 0; cs_ix := 0; cs_md := false |}).
Definition ci_first (l : list cindex) : Z := match l with [] => 0 | x :: _ => ci_id x end.
Definition ci_last (l : list cindex) : Z := ci_id (last l {| ci_id := 0; ci_pt := 0; ci_md := false |}).

Definition prune_mark_sg (rep : bool) (id : Z) (g : sgroup) : sgroup :=
  if (cs_first (sg_shards g) <=? id) && (id <=? cs_last (sg_shards g)) then
    {| sg_id := sg_id g; sg_rp := sg_rp g; sg_start := sg_start g; sg_end := sg_end g; sg_del := sg_del g;
       sg_shards := mark_cs rep id (sg_shards g) |}
  else g.
Definition prune_mark_ig (rep : bool) (id : Z) (g : igroup) : igroup :=
  if (ci_first (ig_ixs g) <=? id) && (id <=? ci_last (ig_ixs g)) then
    {| ig_id := ig_id g; ig_rp := ig_rp g; ig_start := ig_start g; ig_end := ig_end g; ig_del := ig_del g;
       ig_ixs := mark_ci rep id (ig_ixs g) |}
  else g.

Definition sg_all_marked (g : sgroup) : bool := forallb cs_md (sg_shards g).
Definition ig_all_marked (g : igroup) : bool := forallb ci_md (ig_ixs g).

(* pruneShardGroups: a group goes when it is marked deleted AND all its shards are marked *)
Definition prune_sg (rep : bool) (c : cat) (id : Z) : cat :=
  set_sgs c (filter (fun g => negb (sg_del g && sg_all_marked g)) (map (prune_mark_sg rep id) (c_sgs c))) (c_maxsh c).
(* pruneIndexGroups: an index group goes when all its indexes are marked (DeletedAt is not consulted) *)
Definition prune_ig (rep : bool) (c : cat) (id : Z) : cat :=
  set_igs c (filter (fun g => negb (ig_all_marked g)) (map (prune_mark_ig rep id) (c_igs c))) (c_maxig c) (c_maxix c).

(* ---- what the catalogue says about one index id: RetentionPolicyInfo.getIndexGroupTimeRange (id-range test, scanned
        from the end); used when a store creates the index for a shard ---- *)
Definition ix_group_of (c : cat) (rp ix : Z) : option igroup :=
  find_last (fun g => (ci_first (ig_ixs g) <=? ix) && (ix <=? ci_last (ig_ixs g))) (rp_igs c rp).

(* ================= store nodes (one per partition) ================= *)
Record xshard := { xs_id : Z; xs_pt : Z; xs_gid : Z; xs_rp : Z; xs_end : Z; xs_dur : Z; xs_ix : Z; xs_loaded : bool }.
Record xindex := { xi_id : Z; xi_pt : Z; xi_igid : Z; xi_rp : Z; xi_end : Z; xi_dur : Z }.
Record xworld := { x_cat : cat; x_shards : list xshard; x_ixs : list xindex }.

Definition has_shard (w : xworld) (id : Z) : bool := existsb (fun s => xs_id s =? id) (x_shards w).
Definition has_ix (ixs : list xindex) (id pt : Z) : bool := existsb (fun i => (xi_id i =? id) && (xi_pt i =? pt)) ixs.

(* the stores receive the first write for group gid: every catalogue shard of the group not yet present is created,
   together with its index if the partition does not have it yet (NewMergeSetIndex: span from the catalogue's
   index-group lookup, duration = the policy's) *)
Definition mat_one (c : cat) (g : sgroup) (d : Z) (loaded : bool) (acc : list xshard * list xindex) (s : cshard)
  : list xshard * list xindex :=
  let '(shs, ixs) := acc in
  if existsb (fun x => xs_id x =? cs_id s) shs then acc else
  let sh := {| xs_id := cs_id s; xs_pt := cs_pt s; xs_gid := sg_id g; xs_rp := sg_rp g; xs_end := sg_end g; xs_dur := d;
               xs_ix := cs_ix s; xs_loaded := loaded |} in
  let ixs' := if has_ix ixs (cs_ix s) (cs_pt s) then ixs else
              match ix_group_of c (sg_rp g) (cs_ix s) with
              | Some ig => ixs ++ [{| xi_id := cs_ix s; xi_pt := cs_pt s; xi_igid := ig_id ig; xi_rp := sg_rp g;
                                      xi_end := ig_end ig; xi_dur := d |}]
              | None => ixs ++ [{| xi_id := cs_ix s; xi_pt := cs_pt s; xi_igid := 0; xi_rp := sg_rp g; xi_end := 0; xi_dur := d |}]
              end in
  (shs ++ [sh], ixs').

Definition materialise (w : xworld) (gid : Z) (loaded : bool) : xworld :=
  match find (fun g => sg_id g =? gid) (c_sgs (x_cat w)) with
  | None => w
  | Some g =>
    match find_pol (c_pols (x_cat w)) (sg_rp g) with
    | None => w
    | Some p => let '(shs, ixs) := fold_left (mat_one (x_cat w) g (xp_d p) loaded) (sg_shards g) (x_shards w, x_ixs w) in
                {| x_cat := x_cat w; x_shards := shs; x_ixs := ixs |}
    end
  end.

(* -- one pass of the retention service on the node that owns partition pt -- *)
Record sinfo := { si_id : Z; si_gid : Z; si_rp : Z; si_end : Z; si_d : Z }.   (* ShardDurationInfo / IndexDurationInfo *)

Definition pol_d (c : cat) (rp : Z) : Z := match find_pol (c_pols c) rp with Some p => xp_d p | None => 0 end.

Definition shard_infos (c : cat) (pt : Z) : list sinfo :=
  flat_map (fun g => map (fun s => {| si_id := cs_id s; si_gid := sg_id g; si_rp := sg_rp g; si_end := sg_end g; si_d := pol_d c (sg_rp g) |})
                         (filter (fun s => cs_pt s =? pt) (sg_shards g))) (c_sgs c).
Definition index_infos (c : cat) (pt : Z) : list sinfo :=
  flat_map (fun g => map (fun i => {| si_id := ci_id i; si_gid := ig_id g; si_rp := ig_rp g; si_end := ig_end g; si_d := pol_d c (ig_rp g) |})
                         (filter (fun i => ci_pt i =? pt) (ig_ixs g))) (c_igs c).

Definition find_info (l : list sinfo) (id : Z) : option sinfo := find (fun i => si_id i =? id) l.

(* UpdateShardDurationInfo on a loaded shard: duration and group id; the duration is also pushed into the shard's index *)
Definition refresh_shard (infos : list sinfo) (pt : Z) (s : xshard) : xshard :=
  if (xs_pt s =? pt) && xs_loaded s then
    match find_info infos (xs_id s) with
    | Some i => {| xs_id := xs_id s; xs_pt := xs_pt s; xs_gid := si_gid i; xs_rp := xs_rp s; xs_end := xs_end s; xs_dur := si_d i;
                   xs_ix := xs_ix s; xs_loaded := true |}
    | None => s
    end
  else s.
Definition is_some {A} (o : option A) : bool := match o with Some _ => true | None => false end.
Definition push_ix (infos : list sinfo) (shs : list xshard) (pt : Z) (i : xindex) : xindex :=
  if xi_pt i =? pt then
    match find_last (fun s => (xs_pt s =? pt) && xs_loaded s && (xs_ix s =? xi_id i) && is_some (find_info infos (xs_id s))) shs with
    | Some s => {| xi_id := xi_id i; xi_pt := xi_pt i; xi_igid := xi_igid i; xi_rp := xi_rp i; xi_end := xi_end i; xi_dur := xs_dur s |}
    | None => i
    end
  else i.
Definition refresh_ix (infos : list sinfo) (pt : Z) (i : xindex) : xindex :=
  if xi_pt i =? pt then
    match find_info infos (xi_id i) with
    | Some f => {| xi_id := xi_id i; xi_pt := xi_pt i; xi_igid := si_gid f; xi_rp := xi_rp i; xi_end := xi_end i; xi_dur := si_d f |}
    | None => i
    end
  else i.

(* the decisions *)
Record victim := { v_id : Z; v_gid : Z; v_rp : Z }.

Definition expired_shards_x (shs : list xshard) (infos : list sinfo) (pt now : Z) : list victim :=
  map (fun s => {| v_id := xs_id s; v_gid := xs_gid s; v_rp := xs_rp s |})
      (filter (fun s => (xs_pt s =? pt) && xs_loaded s && expired (xs_dur s) (xs_end s) now) shs)
  ++ map (fun i => {| v_id := si_id i; v_gid := si_gid i; v_rp := si_rp i |})
      (filter (fun i => negb (existsb (fun s => (xs_id s =? si_id i) && (xs_pt s =? pt) && xs_loaded s) shs)
                        && expired (si_d i) (si_end i) now) infos).

Definition expired_ixs_x (ixs : list xindex) (infos : list sinfo) (pt now : Z) : list victim :=
  map (fun i => {| v_id := xi_id i; v_gid := xi_igid i; v_rp := xi_rp i |})
      (filter (fun i => (xi_pt i =? pt) && expired (xi_dur i) (xi_end i) now) ixs)
  ++ map (fun i => {| v_id := si_id i; v_gid := si_gid i; v_rp := si_rp i |})
      (filter (fun i => negb (has_ix ixs (si_id i) pt) && expired (si_d i) (si_end i) now) infos).

Record xlog := { l_shards : list Z; l_ixs : list Z }.

(* The service reads the clock anew for every decision; the shard decisions of a pass come first, the index decisions
   later: `now` is the reading of the former, `now2` (>= now in reality) of the latter. *)
Definition xtick (rep : bool) (w : xworld) (pt now now2 : Z) : xworld * xlog :=
  let c := x_cat w in
  let sinf := shard_infos c pt in
  let iinf := index_infos c pt in
  let shs1 := map (refresh_shard sinf pt) (x_shards w) in
  let ixs1 := map (refresh_ix iinf pt) (map (push_ix sinf shs1 pt) (x_ixs w)) in
  let vs := expired_shards_x shs1 sinf pt now in
  let c1 := fold_left (fun c' v => prune_sg rep (del_sg c' (v_rp v) (v_gid v)) (v_id v)) vs c in
  let shs2 := filter (fun s => negb (existsb (fun v => v_id v =? xs_id s) vs)) shs1 in
  let vi := expired_ixs_x ixs1 iinf pt now2 in
  let c2 := fold_left (fun c' v => prune_ig rep (del_ig c' (v_rp v) (v_gid v)) (v_id v)) vi c1 in
  let ixs2 := filter (fun i => negb ((xi_pt i =? pt) && existsb (fun v => v_id v =? xi_id i) vi)) ixs1 in
  ({| x_cat := c2; x_shards := shs2; x_ixs := ixs2 |}, {| l_shards := map v_id vs; l_ixs := map v_id vi |}).

Definition xrestart (w : xworld) (pt : Z) : xworld :=
  {| x_cat := x_cat w;
     x_shards := map (fun s => if xs_pt s =? pt then
                        {| xs_id := xs_id s; xs_pt := xs_pt s; xs_gid := xs_gid s; xs_rp := xs_rp s; xs_end := xs_end s; xs_dur := 0;
                           xs_ix := xs_ix s; xs_loaded := false |} else s) (x_shards w);
     x_ixs := map (fun i => if xi_pt i =? pt then
                        {| xi_id := xi_id i; xi_pt := xi_pt i; xi_igid := 0; xi_rp := xi_rp i; xi_end := xi_end i; xi_dur := 0 |}
                      else i) (x_ixs w) |}.

Inductive xevent :=
| XCreate (rp ts : Z)                       (* a write needs a shard group at ts: CreateShardGroup *)
| XMat (gid : Z) (loaded : bool)            (* the stores create the group's shards and indexes *)
| XAlter (rp : Z) (d sgd igd : option Z)    (* ALTER RETENTION POLICY .. DURATION / SHARD DURATION / INDEX DURATION *)
| XExpand                                   (* a partition is added: ExpandGroups *)
| XTick (pt now now2 : Z)
| XTickAborted (pt now : Z)
| XRestart (pt : Z).

Definition with_cat (w : xworld) (c : cat) : xworld := {| x_cat := c; x_shards := x_shards w; x_ixs := x_ixs w |}.
Definition nolog : xlog := {| l_shards := []; l_ixs := [] |}.

(* repI: index-group choice repaired; repP: pruning repaired; clip: new shard groups clipped to their live neighbours *)
Definition xstep (repI repP clip : bool) (w : xworld) (e : xevent) : xworld * xlog :=
  match e with
  | XCreate rp ts => (with_cat w (create_sg repI clip (x_cat w) rp ts), nolog)
  | XMat gid l => (materialise w gid l, nolog)
  | XAlter rp d sgd igd => (match alter_cat (x_cat w) rp d sgd igd with Some c => with_cat w c | None => w end, nolog)
  | XExpand => (with_cat w (expand repI (x_cat w)), nolog)
  | XTick pt now now2 => xtick repP w pt now now2
  | XTickAborted _ _ => (w, nolog)
  | XRestart pt => (xrestart w pt, nolog)
  end.

Fixpoint xrun (repI repP clip : bool) (w : xworld) (es : list xevent) : xworld * list xlog :=
  match es with
  | [] => (w, [])
  | e :: r => let '(w1, l1) := xstep repI repP clip w e in let '(w2, l2) := xrun repI repP clip w1 r in (w2, l1 :: l2)
  end.

Definition cat0 (ps : list xpol) (ptnum : nat) : cat :=
  {| c_pols := ps; c_sgs := []; c_igs := []; c_ptnum := ptnum; c_maxsg := 0; c_maxsh := 0; c_maxig := 0; c_maxix := 0 |}.
Definition xworld0 (ps : list xpol) (ptnum : nat) : xworld := {| x_cat := cat0 ps ptnum; x_shards := []; x_ixs := [] |}.

(* ================= write admission of one batch (coordinator) =================
   injestionCtx.checkDBRP looks the policy up ONCE per batch and fixes minTime from its duration and the coordinator's
   coarse clock (seconds); routeAndMapOriginRows then turns away every row with Timestamp < minTime. An ALTER that
   lands while the batch is being routed does not change the threshold of that batch. *)
Definition min_time (d nowsec : Z) : Z := if 0 <? d then nowsec * 1000000000 - d else 0.
Definition admit_batch (d_at_lookup nowsec : Z) (ts : list Z) : list bool := map (write_accept d_at_lookup nowsec) ts.
