(* C14: the retention decision rule `expired d end now` (d <> 0 && end + d < now) at the instants around a boundary: one
   step of the clock, of the group's end and of the duration each way (the monotonicity statements are in Props.v). *)
From Coq Require Import ZArith.
From OG Require Import C14.Model.
Local Open Scope Z_scope.

Example expired_mono_examples :
  expired 10 100 110 = false /\ expired 10 100 111 = true /\ expired 10 101 111 = false /\ expired 11 100 111 = false /\
  expired 0 100 1000000 = false.
Proof. vm_compute. repeat split. Qed.
