(* C14 - the part of NodeOK that is an invariant: on every trace, a shard held by a store node agrees with EVERY catalogue
   entry that still lists its id - same partition, same index reference, same group end, same policy (NodeAgree). So the
   premise "the node's shard is the one the catalogue lists, with the catalogue's span" of the node-level theorem is
   re-established by all events for the shards that are still listed. *)
From Coq Require Import ZArith List Bool Lia ZifyBool.
From OG Require Import C14.Model C14.Proofs C14.XModel C14.XProofs C14.XInv.
Import ListNotations.
Open Scope Z_scope.

Definition same_entry (sg sg' : sgroup) (cs cs' : cshard) : Prop :=
  cs_id cs' = cs_id cs /\ cs_pt cs' = cs_pt cs /\ cs_ix cs' = cs_ix cs /\ sg_end sg' = sg_end sg /\ sg_rp sg' = sg_rp sg.

(* every entry of c' whose id is not fresh with respect to c is an entry of c *)
Definition Back (c c' : cat) : Prop :=
  c_maxsh c <= c_maxsh c' /\
  forall sg' cs', In sg' (c_sgs c') -> In cs' (sg_shards sg') -> cs_id cs' <= c_maxsh c ->
    exists sg cs, In sg (c_sgs c) /\ In cs (sg_shards sg) /\ same_entry sg sg' cs cs'.

Lemma Back_same c c' : c_sgs c' = c_sgs c -> c_maxsh c' = c_maxsh c -> Back c c'.
Proof.
  intros E M. split; [lia|]. rewrite E. intros sg cs H1 H2 _. exists sg, cs. unfold same_entry. auto 10.
Qed.
Lemma Back_refl c : Back c c.
Proof. apply Back_same; auto. Qed.
Lemma Back_trans a b c : Back a b -> Back b c -> Back a c.
Proof.
  intros (M1 & B1) (M2 & B2). split; [lia|]. intros sg3 cs3 H1 H2 Hb.
  destruct (B2 sg3 cs3 H1 H2) as (sg2 & cs2 & G1 & G2 & S2); [lia|].
  destruct S2 as (E1 & E2 & E3 & E4 & E5).
  destruct (B1 sg2 cs2 G1 G2) as (sg1 & cs1 & F1 & F2 & S1); [lia|].
  destruct S1 as (D1 & D2 & D3 & D4 & D5).
  exists sg1, cs1. unfold same_entry. repeat split; auto; congruence.
Qed.
Lemma Back_fold {B} (f : cat -> B -> cat) : (forall c b, Back c (f c b)) -> forall l c, Back c (fold_left f l c).
Proof.
  intros H; induction l as [|x r IH]; cbn; intros c; [apply Back_refl|]. eapply Back_trans; [apply H|apply IH].
Qed.

Lemma same_ig_if_needed rep c rp igd ts en :
  c_sgs (fst (ig_if_needed rep c rp igd ts en)) = c_sgs c /\ c_maxsh (fst (ig_if_needed rep c rp igd ts en)) = c_maxsh c.
Proof.
  unfold ig_if_needed. destruct (pick_ig _ _ _ _ _); [destruct (_ <=? _)%nat|]; cbn; auto.
Qed.

Lemma Back_create_sg rep clip c rp ts : Back c (create_sg rep clip c rp ts).
Proof.
  unfold create_sg. destruct (find_pol _ _) as [p|]; [|apply Back_refl]. destruct (existsb _ _); [apply Back_refl|].
  cbv zeta.
  set (en := if clip then clip_end c rp ts (trunc ts (xp_sgd p) + xp_sgd p) else trunc ts (xp_sgd p) + xp_sgd p).
  destruct (same_ig_if_needed rep c rp (xp_igd p) ts en) as (Es & Em).
  destruct (ig_if_needed rep c rp (xp_igd p) ts en) as (c1, ig). cbn in Es, Em.
  split; cbn; [lia|]. intros sg cs H1 H2 Hb. apply in_app_or in H1. destruct H1 as [H1|[<-|[]]].
  - rewrite Es in H1. exists sg, cs. unfold same_entry. auto 10.
  - cbn in H2. apply fresh_shards_id in H2. lia.
Qed.

Lemma Back_grow_ig c gid : Back c (grow_ig c gid).
Proof. unfold grow_ig. destruct (find _ _); [|apply Back_refl]. apply Back_same; reflexivity. Qed.

Lemma Back_grow_sg_one rep c gid k : Back c (grow_sg_one rep c gid k).
Proof.
  unfold grow_sg_one. destruct (find _ _) as [g0|]; [|apply Back_refl]. destruct (find_pol _ _) as [p|]; [|apply Back_refl].
  destruct (same_ig_if_needed rep c (sg_rp g0) (xp_igd p) (sg_start g0) (sg_end g0)) as (Es & Em).
  destruct (ig_if_needed rep c (sg_rp g0) (xp_igd p) (sg_start g0) (sg_end g0)) as (c1, ig). cbn in Es, Em.
  split; cbn; [lia|]. intros sg cs H1 H2 Hb. apply in_map_iff in H1. destruct H1 as (g & <- & Hg). rewrite Es in Hg.
  destruct (sg_id g =? gid); cbn in *.
  - apply in_app_or in H2. destruct H2 as [H2|[<-|[]]].
    + exists g, cs. unfold same_entry. auto 10.
    + cbn in Hb. lia.
  - exists g, cs. unfold same_entry. auto 10.
Qed.

Lemma Back_grow_sg rep c gid : Back c (grow_sg rep c gid).
Proof. unfold grow_sg. destruct (find _ _); [|apply Back_refl]. apply Back_fold. intros. apply Back_grow_sg_one. Qed.

Lemma Back_expand rep c : Back c (expand rep c).
Proof.
  unfold expand.
  set (c0 := {| c_pols := c_pols c; c_sgs := c_sgs c; c_igs := c_igs c; c_ptnum := S (c_ptnum c); c_maxsg := c_maxsg c;
                c_maxsh := c_maxsh c; c_maxig := c_maxig c; c_maxix := c_maxix c |}).
  apply (Back_trans c c0); [apply Back_same; reflexivity|]. apply Back_fold.
  intros a rp. unfold expand_pol.
  apply (Back_trans a (fold_left grow_ig (map ig_id (rp_igs a rp)) a)); [apply Back_fold; intros; apply Back_grow_ig|].
  apply Back_fold. intros. apply Back_grow_sg.
Qed.

Lemma Back_of_sub c c' : sub_sgs (c_sgs c') (c_sgs c) -> c_maxsh c' = c_maxsh c -> Back c c'.
Proof.
  intros S M. split; [lia|]. intros sg' cs' H1 H2 _. destruct (S _ H1) as (g & Hg & _ & Ee & Er & Hs).
  destruct (Hs _ H2) as (s & Hs' & Ex & Ei & Ep). exists g, s. unfold same_entry. repeat split; auto.
Qed.

Lemma Back_xtick rep w pt now now2 : Back (x_cat w) (x_cat (fst (xtick rep w pt now now2))).
Proof.
  unfold xtick. cbn.
  match goal with |- Back ?a (fold_left ?f ?l (fold_left ?g ?m ?a)) => apply (Back_trans a (fold_left g m a)) end;
    apply Back_fold; intros c v.
  - apply (Back_trans c (del_sg c (v_rp v) (v_gid v))); [apply Back_of_sub; [apply sub_del_sg|reflexivity]|].
    apply Back_of_sub; [apply sub_prune_sg|reflexivity].
  - apply (Back_trans c (del_ig c (v_rp v) (v_gid v))); apply Back_same; reflexivity.
Qed.

Definition agrees (c : cat) (s : xshard) : Prop :=
  forall sg cs, In sg (c_sgs c) -> In cs (sg_shards sg) -> cs_id cs = xs_id s ->
    cs_pt cs = xs_pt s /\ cs_ix cs = xs_ix s /\ sg_end sg = xs_end s /\ sg_rp sg = xs_rp s.

Definition NodeAgree (w : xworld) : Prop :=
  forall s, In s (x_shards w) -> xs_id s <= c_maxsh (x_cat w) /\ agrees (x_cat w) s.

Definition same_shard (s s' : xshard) : Prop :=
  xs_id s' = xs_id s /\ xs_pt s' = xs_pt s /\ xs_ix s' = xs_ix s /\ xs_end s' = xs_end s /\ xs_rp s' = xs_rp s.

(* the catalogue moves on (Back), the node keeps or re-labels its shards (each new shard is an old one up to the
   fields the service refreshes) *)
Lemma NodeAgree_step w c' shs' ixs' :
  NodeAgree w -> Back (x_cat w) c' ->
  (forall s', In s' shs' -> exists s, In s (x_shards w) /\ same_shard s s') ->
  NodeAgree {| x_cat := c'; x_shards := shs'; x_ixs := ixs' |}.
Proof.
  intros A (M & B) Hs s' Hs'. cbn in *. destruct (Hs _ Hs') as (s & Hin & E1 & E2 & E3 & E4 & E5).
  destruct (A s Hin) as (Bd & Ag). split; [lia|]. intros sg' cs' H1 H2 E.
  destruct (B sg' cs' H1 H2) as (sg & cs & G1 & G2 & D1 & D2 & D3 & D4 & D5); [lia|].
  destruct (Ag sg cs G1 G2) as (P1 & P2 & P3 & P4); [congruence|]. repeat split; congruence.
Qed.

Lemma same_shard_refl s : same_shard s s.
Proof. unfold same_shard. auto. Qed.

Lemma refresh_shard_same infos pt s : same_shard s (refresh_shard infos pt s).
Proof.
  unfold refresh_shard, same_shard. destruct (_ && _); [|auto]. destruct (find_info _ _); cbn; auto.
Qed.

Lemma NodeAgree_xtick rep w pt now now2 : NodeAgree w -> NodeAgree (fst (xtick rep w pt now now2)).
Proof.
  intros A. pose proof (Back_xtick rep w pt now now2) as B. unfold xtick in *. cbn in *.
  eapply NodeAgree_step; [exact A|exact B|]. intros s' Hs'. apply filter_In in Hs'. destruct Hs' as (Hs' & _).
  apply in_map_iff in Hs'. destruct Hs' as (s & <- & Hs). exists s. split; [auto|apply refresh_shard_same].
Qed.

Lemma NodeAgree_restart w pt : NodeAgree w -> NodeAgree (xrestart w pt).
Proof.
  intros A. unfold xrestart. eapply NodeAgree_step; [exact A|apply Back_refl|]. intros s' Hs'.
  apply in_map_iff in Hs'. destruct Hs' as (s & <- & Hs). exists s. split; [auto|].
  unfold same_shard. destruct (_ =? _); cbn; auto.
Qed.

Lemma NodeAgree_cat w c' : NodeAgree w -> Back (x_cat w) c' -> NodeAgree (with_cat w c').
Proof.
  intros A B. unfold with_cat. eapply NodeAgree_step; [exact A|exact B|]. intros s Hs. exists s. split; [auto|apply same_shard_refl].
Qed.

(* the stores create the shards of a group from the catalogue's own entries *)
Lemma mat_one_shards c g d l acc s :
  fst (mat_one c g d l acc s) = fst acc \/
  fst (mat_one c g d l acc s) = fst acc ++ [{| xs_id := cs_id s; xs_pt := cs_pt s; xs_gid := sg_id g; xs_rp := sg_rp g; xs_end := sg_end g;
                                                 xs_dur := d; xs_ix := cs_ix s; xs_loaded := l |}].
Proof.
  unfold mat_one. destruct acc as (shs, ixs). destruct (existsb _ _); cbn; [auto|]. right. reflexivity.
Qed.

Lemma NodeAgree_materialise w gid l : XInv (x_cat w) -> NodeAgree w -> NodeAgree (materialise w gid l).
Proof.
  intros I A. unfold materialise. destruct (find _ _) as [g|] eqn:F; [|auto]. apply find_some in F. destruct F as (Hg & _).
  destruct (find_pol _ _) as [p|]; [|auto].
  assert (G : forall ss acc, (forall s, In s ss -> In s (sg_shards g)) ->
              (forall x, In x (fst acc) -> xs_id x <= c_maxsh (x_cat w) /\ agrees (x_cat w) x) ->
              forall x, In x (fst (fold_left (mat_one (x_cat w) g (xp_d p) l) ss acc)) -> xs_id x <= c_maxsh (x_cat w) /\ agrees (x_cat w) x).
  { induction ss as [|s r IH]; cbn; intros acc Hss Hacc; [auto|]. apply IH; [auto|].
    intros x Hx. destruct (mat_one_shards (x_cat w) g (xp_d p) l acc s) as [E|E]; rewrite E in Hx; [auto|].
    apply in_app_or in Hx. destruct Hx as [Hx|[<-|[]]]; [auto|]. cbn.
    assert (Hs : In s (sg_shards g)) by auto. split; [apply (xv_shb _ I g s Hg Hs)|].
    intros sg cs H1 H2 E3. cbn in E3.
    destruct (xv_shu _ I sg g cs s H1 Hg H2 Hs E3) as (P & Q & R & T). cbn. auto. }
  specialize (G (sg_shards g) (x_shards w, x_ixs w) (fun s H => H) A).
  destruct (fold_left _ _ _) as (shs, ixs). cbn in G. intros x Hx. cbn in *. auto.
Qed.

Lemma NodeAgree_xstep repP clip w e : XInv (x_cat w) -> NodeAgree w -> NodeAgree (fst (xstep true repP clip w e)).
Proof.
  intros I A. destruct e; cbn [xstep fst].
  - apply NodeAgree_cat; [auto|apply Back_create_sg].
  - apply NodeAgree_materialise; auto.
  - destruct (alter_cat _ _ _ _ _) as [c'|] eqn:E; cbn; [|auto]. apply NodeAgree_cat; [auto|].
    destruct (alter_cat_pols _ _ _ _ _ _ E) as (ps & ->). apply Back_same; reflexivity.
  - apply NodeAgree_cat; [auto|apply Back_expand].
  - apply NodeAgree_xtick; auto.
  - auto.
  - apply NodeAgree_restart; auto.
Qed.

Lemma NodeAgree_xrun repP clip es : forall w, XInv (x_cat w) -> NodeAgree w -> NodeAgree (fst (xrun true repP clip w es)).
Proof.
  intros w I A. refine (proj2 (xrun_inv (fun w => XInv (x_cat w) /\ NodeAgree w) true repP clip _ es w (conj I A))).
  intros w0 e (I0 & A0). split; [apply XInv_xstep|apply NodeAgree_xstep]; assumption.
Qed.

Lemma NodeAgree_init ps n : NodeAgree (xworld0 ps n).
Proof. intros s []. Qed.
