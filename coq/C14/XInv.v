(* C14 - the catalogue invariant of the extended model: "every index group that holds the index of a shard ends no
   earlier than the shard's group and belongs to the same policy" (so the index expires no earlier than the shard),
   with the id-freshness facts it needs; it holds initially and is preserved by EVERY event when the index-group
   choice is the repaired one (whatever the pruning variant). *)
From Coq Require Import ZArith List Bool Lia ZifyBool.
From OG Require Import C14.Model C14.Proofs C14.XModel C14.XProofs.
Import ListNotations.
Open Scope Z_scope.

(* Field names: ..b = bounded by the id counter, ..u = the id determines end and policy; ix = index ids, sh = shard ids,
   ig / sg = group ids, sx = the index reference of a shard. xv_cover is the invariant proper; the others are what its
   preservation needs. *)
Record XInv (c : cat) : Prop := {
  xv_pos : 0 <= c_maxix c;
  xv_ixb : forall ig i, In ig (c_igs c) -> In i (ig_ixs ig) -> 1 <= ci_id i <= c_maxix c;
  xv_sxb : forall sg s, In sg (c_sgs c) -> In s (sg_shards sg) -> cs_ix s <= c_maxix c;
  xv_shb : forall sg s, In sg (c_sgs c) -> In s (sg_shards sg) -> cs_id s <= c_maxsh c;
  xv_shu : forall g1 g2 s1 s2, In g1 (c_sgs c) -> In g2 (c_sgs c) -> In s1 (sg_shards g1) -> In s2 (sg_shards g2) ->
           cs_id s1 = cs_id s2 -> sg_end g1 = sg_end g2 /\ sg_rp g1 = sg_rp g2 /\ cs_ix s1 = cs_ix s2 /\ cs_pt s1 = cs_pt s2;
  xv_igb : forall ig, In ig (c_igs c) -> ig_id ig <= c_maxig c;
  xv_sgb : forall sg, In sg (c_sgs c) -> sg_id sg <= c_maxsg c;
  xv_igu : forall g1 g2, In g1 (c_igs c) -> In g2 (c_igs c) -> ig_id g1 = ig_id g2 -> ig_end g1 = ig_end g2 /\ ig_rp g1 = ig_rp g2;
  xv_sgu : forall g1 g2, In g1 (c_sgs c) -> In g2 (c_sgs c) -> sg_id g1 = sg_id g2 -> sg_end g1 = sg_end g2 /\ sg_rp g1 = sg_rp g2;
  xv_ixu : forall g1 g2 i1 i2, In g1 (c_igs c) -> In g2 (c_igs c) -> In i1 (ig_ixs g1) -> In i2 (ig_ixs g2) ->
           ci_id i1 = ci_id i2 -> ig_end g1 = ig_end g2 /\ ig_rp g1 = ig_rp g2;
  xv_cover : forall sg s ig i, In sg (c_sgs c) -> In s (sg_shards sg) -> In ig (c_igs c) -> In i (ig_ixs ig) ->
           ci_id i = cs_ix s -> sg_end sg <= ig_end ig /\ ig_rp ig = sg_rp sg
}.

Lemma XInv_init ps n : XInv (cat0 ps n).
Proof. constructor; cbn; try tauto; lia. Qed.

(* a catalogue whose groups, shards and indexes all come from those of c (shrinking, re-flagging) keeps the invariant *)
Definition sub_sgs (l' l : list sgroup) : Prop :=
  forall g', In g' l' -> exists g, In g l /\ sg_id g' = sg_id g /\ sg_end g' = sg_end g /\ sg_rp g' = sg_rp g /\
    forall s', In s' (sg_shards g') -> exists s, In s (sg_shards g) /\ cs_ix s' = cs_ix s /\ cs_id s' = cs_id s /\ cs_pt s' = cs_pt s.
Definition sub_igs (l' l : list igroup) : Prop :=
  forall g', In g' l' -> exists g, In g l /\ ig_id g' = ig_id g /\ ig_end g' = ig_end g /\ ig_rp g' = ig_rp g /\
    forall i', In i' (ig_ixs g') -> exists i, In i (ig_ixs g) /\ ci_id i' = ci_id i.

Lemma sub_sgs_refl l : sub_sgs l l.
Proof. intros g Hg. exists g. repeat split; auto. intros s Hs. eauto. Qed.
Lemma sub_igs_refl l : sub_igs l l.
Proof. intros g Hg. exists g. repeat split; auto. intros s Hs. eauto. Qed.

Lemma XInv_sub c c' :
  XInv c -> sub_sgs (c_sgs c') (c_sgs c) -> sub_igs (c_igs c') (c_igs c) ->
  c_maxix c <= c_maxix c' -> c_maxig c <= c_maxig c' -> c_maxsg c <= c_maxsg c' -> c_maxsh c <= c_maxsh c' -> XInv c'.
Proof.
  intros I Ss Si Mx Mi Ms Mh. constructor.
  - pose proof (xv_pos _ I). lia.
  - intros ig i Hg Hi. destruct (Si _ Hg) as (g & Hg0 & _ & _ & _ & Hix). destruct (Hix _ Hi) as (i0 & Hi0 & E).
    pose proof (xv_ixb _ I _ _ Hg0 Hi0). lia.
  - intros sg s Hg Hs. destruct (Ss _ Hg) as (g & Hg0 & _ & _ & _ & Hsh). destruct (Hsh _ Hs) as (s0 & Hs0 & E & _).
    pose proof (xv_sxb _ I _ _ Hg0 Hs0). lia.
  - intros sg s Hg Hs. destruct (Ss _ Hg) as (g & Hg0 & _ & _ & _ & Hsh). destruct (Hsh _ Hs) as (s0 & Hs0 & _ & E & _).
    pose proof (xv_shb _ I _ _ Hg0 Hs0). lia.
  - intros g1 g2 s1 s2 H1 H2 Hs1 Hs2 E.
    destruct (Ss _ H1) as (a & Ha & _ & Eae & Ear & Hsa). destruct (Ss _ H2) as (b & Hb & _ & Ebe & Ebr & Hsb).
    destruct (Hsa _ Hs1) as (t1 & Ht1 & X1 & Y1 & Z1). destruct (Hsb _ Hs2) as (t2 & Ht2 & X2 & Y2 & Z2).
    destruct (xv_shu _ I a b t1 t2 Ha Hb Ht1 Ht2) as (P & Q & R & T); [congruence|]. repeat split; congruence.
  - intros ig Hg. destruct (Si _ Hg) as (g & Hg0 & E & _). pose proof (xv_igb _ I _ Hg0). lia.
  - intros sg Hg. destruct (Ss _ Hg) as (g & Hg0 & E & _). pose proof (xv_sgb _ I _ Hg0). lia.
  - intros g1 g2 H1 H2 E. destruct (Si _ H1) as (a & Ha & Ea & Eae & Ear & _). destruct (Si _ H2) as (b & Hb & Eb & Ebe & Ebr & _).
    destruct (xv_igu _ I a b Ha Hb) as (X & Y); [congruence|]. split; congruence.
  - intros g1 g2 H1 H2 E. destruct (Ss _ H1) as (a & Ha & Ea & Eae & Ear & _). destruct (Ss _ H2) as (b & Hb & Eb & Ebe & Ebr & _).
    destruct (xv_sgu _ I a b Ha Hb) as (X & Y); [congruence|]. split; congruence.
  - intros g1 g2 i1 i2 H1 H2 Hi1 Hi2 E.
    destruct (Si _ H1) as (a & Ha & _ & Eae & Ear & Hxa). destruct (Si _ H2) as (b & Hb & _ & Ebe & Ebr & Hxb).
    destruct (Hxa _ Hi1) as (j1 & Hj1 & E1). destruct (Hxb _ Hi2) as (j2 & Hj2 & E2).
    destruct (xv_ixu _ I a b j1 j2 Ha Hb Hj1 Hj2) as (X & Y); [congruence|]. split; congruence.
  - intros sg s ig i Hsg Hs Hig Hi E.
    destruct (Ss _ Hsg) as (a & Ha & _ & Eae & Ear & Hsa). destruct (Si _ Hig) as (b & Hb & _ & Ebe & Ebr & Hxb).
    destruct (Hsa _ Hs) as (s0 & Hs0 & E1 & _). destruct (Hxb _ Hi) as (i0 & Hi0 & E2).
    destruct (xv_cover _ I a s0 b i0 Ha Hs0 Hb Hi0) as (X & Y); [congruence|]. split; [lia|congruence].
Qed.

Lemma Forall2_cs_ix rep id l s' : In s' (mark_cs rep id l) -> exists s, In s l /\ cs_ix s' = cs_ix s.
Proof.
  intros H. destruct (Forall2_in_r _ _ _ _ (mark_cs_same rep id l) H) as (x & Hx & (_ & _ & E) & _). eauto.
Qed.
Lemma Forall2_ci_id rep id l i' : In i' (mark_ci rep id l) -> exists i, In i l /\ ci_id i' = ci_id i.
Proof.
  intros H. destruct (Forall2_in_r _ _ _ _ (mark_ci_same rep id l) H) as (x & Hx & (E & _) & _). eauto.
Qed.

Lemma sub_prune_sg rep c id : sub_sgs (c_sgs (prune_sg rep c id)) (c_sgs c).
Proof.
  intros g'. unfold prune_sg; cbn. rewrite filter_In, in_map_iff. intros ((g & <- & Hg) & _).
  exists g. destruct (prune_mark_sg_head rep id g) as (A & B & _ & D & _). repeat split; auto.
  intros s' Hs'. destruct (Forall2_in_r _ _ _ _ (prune_mark_sg_shards rep id g) Hs') as (x & Hx & (E0 & E1 & E) & _). eauto 6.
Qed.
Lemma sub_prune_ig rep c id : sub_igs (c_igs (prune_ig rep c id)) (c_igs c).
Proof.
  intros g'. unfold prune_ig; cbn. rewrite filter_In, in_map_iff. intros ((g & <- & Hg) & _).
  exists g. destruct (prune_mark_ig_head rep id g) as (A & B & _ & D & _). repeat split; auto.
  intros s' Hs'. destruct (Forall2_in_r _ _ _ _ (prune_mark_ig_ixs rep id g) Hs') as (x & Hx & (E & _) & _). eauto.
Qed.
Lemma sub_del_sg c rp gid : sub_sgs (c_sgs (del_sg c rp gid)) (c_sgs c).
Proof.
  intros g'. unfold del_sg; cbn. rewrite in_map_iff. intros (g & <- & Hg).
  exists g. destruct (_ && _); cbn; repeat split; auto; intros s Hs; eauto.
Qed.
Lemma sub_del_ig c rp gid : sub_igs (c_igs (del_ig c rp gid)) (c_igs c).
Proof.
  intros g'. unfold del_ig; cbn. rewrite in_map_iff. intros (g & <- & Hg).
  exists g. destruct (_ && _); cbn; repeat split; auto; intros s Hs; eauto.
Qed.

Lemma XInv_prune_sg rep c id : XInv c -> XInv (prune_sg rep c id).
Proof. intros I. eapply XInv_sub; [exact I|apply sub_prune_sg|cbn; apply sub_igs_refl|cbn; lia..]. Qed.
Lemma XInv_prune_ig rep c id : XInv c -> XInv (prune_ig rep c id).
Proof. intros I. eapply XInv_sub; [exact I|cbn; apply sub_sgs_refl|apply sub_prune_ig|cbn; lia..]. Qed.
Lemma XInv_del_sg c rp gid : XInv c -> XInv (del_sg c rp gid).
Proof. intros I. eapply XInv_sub; [exact I|apply sub_del_sg|cbn; apply sub_igs_refl|cbn; lia..]. Qed.
Lemma XInv_del_ig c rp gid : XInv c -> XInv (del_ig c rp gid).
Proof. intros I. eapply XInv_sub; [exact I|cbn; apply sub_sgs_refl|apply sub_del_ig|cbn; lia..]. Qed.

Lemma fold_inv {A B} (P : A -> Prop) (f : A -> B -> A) : (forall a b, P a -> P (f a b)) -> forall l a, P a -> P (fold_left f l a).
Proof. intros H; induction l; cbn; auto. Qed.

Lemma fresh_ixs_spec n : forall from m i, In i (fresh_ixs n from m) -> m < ci_id i <= m + Z.of_nat n.
Proof.
  induction n as [|k IH]; cbn; [tauto|]. intros from m i [<-|H]; cbn; [lia|]. specialize (IH _ _ _ H). lia.
Qed.

Lemma nth_ix_spec g k : nth_ix g k = 0 \/ exists i, In i (ig_ixs g) /\ ci_id i = nth_ix g k.
Proof.
  unfold nth_ix. destruct (Nat.lt_ge_cases k (length (ig_ixs g))) as [L|G].
  - right. eexists. split; [apply nth_In; exact L|reflexivity].
  - left. rewrite nth_overflow; auto.
Qed.

Lemma fresh_shards_ix n : forall k m g s, In s (fresh_shards n k m g) -> exists j, cs_ix s = nth_ix g j.
Proof.
  induction n as [|n IH]; cbn; [tauto|]. intros k m g s [<-|H]; cbn; [eauto|]. eapply IH; eauto.
Qed.

Lemma fresh_shards_id n : forall k m g s, In s (fresh_shards n k m g) -> m < cs_id s <= m + Z.of_nat n.
Proof.
  induction n as [|n IH]; cbn [fresh_shards In]; [tauto|]. intros k m g s [<-|H]; [cbn; lia|]. specialize (IH _ _ _ _ H). lia.
Qed.
Lemma fresh_shards_inj n : forall k m g s1 s2, In s1 (fresh_shards n k m g) -> In s2 (fresh_shards n k m g) -> cs_id s1 = cs_id s2 -> s1 = s2.
Proof.
  induction n as [|n IH]; cbn [fresh_shards In]; [tauto|]. intros k m g s1 s2 [<-|H1] [<-|H2] E; auto.
  - apply fresh_shards_id in H2. cbn in E. lia.
  - apply fresh_shards_id in H1. cbn in E. lia.
  - eapply IH; eauto.
Qed.

Definition same_but_igs (c c1 : cat) : Prop :=
  c_sgs c1 = c_sgs c /\ c_pols c1 = c_pols c /\ c_ptnum c1 = c_ptnum c /\ c_maxsg c1 = c_maxsg c /\ c_maxsh c1 = c_maxsh c.

Lemma XInv_create_ig c rp igd ts minEnd :
  XInv c -> let '(c1, ig) := create_ig true c rp igd ts minEnd in
  XInv c1 /\ In ig (c_igs c1) /\ minEnd <= ig_end ig /\ ig_rp ig = rp /\ same_but_igs c c1.
Proof.
  intros I. unfold create_ig. cbv zeta.
  set (g := {| ig_id := c_maxig c + 1; ig_rp := rp; ig_start := trunc ts igd;
               ig_end := Z.max (trunc ts igd + igd) minEnd; ig_del := false; ig_ixs := fresh_ixs (c_ptnum c) 0 (c_maxix c) |}).
  split; [|split; [cbn; apply in_or_app; right; cbn; auto|split; [cbn; lia|split; [reflexivity|unfold same_but_igs; cbn; auto]]]].
  pose proof (xv_pos _ I) as P0.
  assert (Fr : forall i, In i (ig_ixs g) -> c_maxix c < ci_id i <= c_maxix c + Z.of_nat (c_ptnum c)).
  { intros i Hi. apply (fresh_ixs_spec _ _ _ _ Hi). }
  assert (Old : forall ig i, In ig (c_igs c) -> In i (ig_ixs ig) -> 1 <= ci_id i <= c_maxix c) by (apply (xv_ixb _ I)).
  constructor; cbn.
  - lia.
  - intros ig i Hg Hi. apply in_app_or in Hg. destruct Hg as [Hg|[<-|[]]].
    + specialize (Old _ _ Hg Hi). lia.
    + specialize (Fr _ Hi). lia.
  - intros sg s Hg Hs. pose proof (xv_sxb _ I _ _ Hg Hs). lia.
  - apply (xv_shb _ I).
  - apply (xv_shu _ I).
  - intros ig Hg. apply in_app_or in Hg. destruct Hg as [Hg|[<-|[]]]; [pose proof (xv_igb _ I _ Hg); lia|cbn; lia].
  - apply (xv_sgb _ I).
  - intros g1 g2 H1 H2 E. apply in_app_or in H1. apply in_app_or in H2.
    destruct H1 as [H1|[<-|[]]], H2 as [H2|[<-|[]]]; auto.
    + apply (xv_igu _ I); auto.
    + pose proof (xv_igb _ I _ H1). cbn in E. lia.
    + pose proof (xv_igb _ I _ H2). cbn in E. lia.
  - apply (xv_sgu _ I).
  - intros g1 g2 i1 i2 H1 H2 Hi1 Hi2 E. apply in_app_or in H1. apply in_app_or in H2.
    destruct H1 as [H1|[<-|[]]], H2 as [H2|[<-|[]]]; auto.
    + apply (xv_ixu _ I g1 g2 i1 i2); auto.
    + specialize (Old _ _ H1 Hi1). specialize (Fr _ Hi2). lia.
    + specialize (Old _ _ H2 Hi2). specialize (Fr _ Hi1). lia.
  - intros sg s ig i Hsg Hs Hig Hi E. apply in_app_or in Hig. destruct Hig as [Hig|[<-|[]]].
    + apply (xv_cover _ I sg s ig i); auto.
    + specialize (Fr _ Hi). pose proof (xv_sxb _ I _ _ Hsg Hs). lia.
Qed.

Lemma XInv_ig_if_needed c rp igd ts en :
  XInv c -> let '(c1, ig) := ig_if_needed true c rp igd ts en in
  XInv c1 /\ In ig (c_igs c1) /\ en <= ig_end ig /\ ig_rp ig = rp /\ same_but_igs c c1.
Proof.
  intros I. unfold ig_if_needed.
  destruct (pick_ig true c rp ts en) as [g|] eqn:P.
  - destruct (_ <=? _)%nat; [|apply XInv_create_ig; auto].
    unfold pick_ig in P. apply find_last_in in P. destruct P as (Hin & Hp).
    apply in_rp_igs in Hin. destruct Hin as (Hin & Hrp).
    rewrite andb_true_iff in Hp. destruct Hp as (_ & Hp).
    split; [auto|split; [auto|split; [lia|split; [auto|unfold same_but_igs; auto]]]].
  - apply XInv_create_ig; auto.
Qed.

(* a shard group created with indexes taken from an index group that ends no earlier: the invariant is kept *)
Lemma cover_new_shard c ig s e rp :
  XInv c -> In ig (c_igs c) -> e <= ig_end ig -> ig_rp ig = rp -> (exists j, cs_ix s = nth_ix ig j) ->
  (cs_ix s <= c_maxix c) /\
  forall ig' i', In ig' (c_igs c) -> In i' (ig_ixs ig') -> ci_id i' = cs_ix s -> e <= ig_end ig' /\ ig_rp ig' = rp.
Proof.
  intros I Hig He Hrp (j & Ej). destruct (nth_ix_spec ig j) as [Z0|(i & Hi & Ei)].
  - split; [pose proof (xv_pos _ I); lia|]. intros ig' i' H1 H2 E. pose proof (xv_ixb _ I _ _ H1 H2). lia.
  - split; [pose proof (xv_ixb _ I _ _ Hig Hi); lia|]. intros ig' i' H1 H2 E.
    destruct (xv_ixu _ I ig' ig i' i H1 Hig H2 Hi) as (X & Y); [congruence|]. split; [lia|congruence].
Qed.

Lemma XInv_create_sg clip c rp ts : XInv c -> XInv (create_sg true clip c rp ts).
Proof.
  intros I. unfold create_sg. destruct (find_pol _ _) as [p|]; [|auto]. destruct (existsb _ _); [auto|].
  cbv zeta.
  set (st := if clip then clip_start c rp ts (trunc ts (xp_sgd p)) else trunc ts (xp_sgd p)).
  set (en := if clip then clip_end c rp ts (trunc ts (xp_sgd p) + xp_sgd p) else trunc ts (xp_sgd p) + xp_sgd p).
  pose proof (XInv_ig_if_needed c rp (xp_igd p) ts en I) as H.
  destruct (ig_if_needed true c rp (xp_igd p) ts en) as (c1, ig).
  destruct H as (I1 & Hig & Hen & Hrp & (Esg & _)).
  set (g := {| sg_id := c_maxsg c1 + 1; sg_rp := rp; sg_start := st; sg_end := en;
               sg_del := false; sg_shards := fresh_shards (c_ptnum c1) 0 (c_maxsh c1) ig |}).
  assert (New : forall s, In s (sg_shards g) -> (cs_ix s <= c_maxix c1) /\
            forall ig' i', In ig' (c_igs c1) -> In i' (ig_ixs ig') -> ci_id i' = cs_ix s -> sg_end g <= ig_end ig' /\ ig_rp ig' = rp).
  { intros s Hs. apply (cover_new_shard c1 ig s (sg_end g) rp I1 Hig Hen Hrp). eapply fresh_shards_ix; exact Hs. }
  constructor; cbn.
  - apply (xv_pos _ I1).
  - apply (xv_ixb _ I1).
  - intros sg s Hg Hs. apply in_app_or in Hg. destruct Hg as [Hg|[<-|[]]]; [apply (xv_sxb _ I1 _ _ Hg Hs)|apply (New _ Hs)].
  - intros sg s Hg Hs. apply in_app_or in Hg. destruct Hg as [Hg|[<-|[]]].
    + pose proof (xv_shb _ I1 _ _ Hg Hs). lia.
    + apply fresh_shards_id in Hs. lia.
  - intros g1 g2 s1 s2 H1 H2 Hs1 Hs2 E. apply in_app_or in H1. apply in_app_or in H2.
    destruct H1 as [H1|[<-|[]]], H2 as [H2|[<-|[]]].
    + apply (xv_shu _ I1 g1 g2 s1 s2); auto.
    + pose proof (xv_shb _ I1 _ _ H1 Hs1). apply fresh_shards_id in Hs2. lia.
    + pose proof (xv_shb _ I1 _ _ H2 Hs2). apply fresh_shards_id in Hs1. lia.
    + rewrite (fresh_shards_inj _ _ _ _ _ _ Hs1 Hs2 E). auto.
  - apply (xv_igb _ I1).
  - intros sg Hg. apply in_app_or in Hg. destruct Hg as [Hg|[<-|[]]]; [pose proof (xv_sgb _ I1 _ Hg); lia|cbn; lia].
  - apply (xv_igu _ I1).
  - intros g1 g2 H1 H2 E. apply in_app_or in H1. apply in_app_or in H2.
    destruct H1 as [H1|[<-|[]]], H2 as [H2|[<-|[]]]; auto.
    + apply (xv_sgu _ I1); auto.
    + pose proof (xv_sgb _ I1 _ H1). cbn in E. lia.
    + pose proof (xv_sgb _ I1 _ H2). cbn in E. lia.
  - apply (xv_ixu _ I1).
  - intros sg s ig' i' Hsg Hs Hig' Hi' E. apply in_app_or in Hsg. destruct Hsg as [Hsg|[<-|[]]].
    + apply (xv_cover _ I1 sg s ig' i'); auto.
    + destruct (New _ Hs) as (_ & N). apply (N ig' i'); auto.
Qed.

Lemma XInv_set_pols c ps : XInv c -> XInv (set_pols c ps).
Proof. intros I. destruct I. constructor; cbn; auto. Qed.

Lemma alter_cat_pols c rp d sgd igd c' : alter_cat c rp d sgd igd = Some c' -> exists ps, c' = set_pols c ps.
Proof.
  unfold alter_cat. destruct (find_pol _ _); [|discriminate]. destruct (alter_pol _ _ _ _); [|discriminate].
  intros H; inversion H; subst. eexists; reflexivity.
Qed.

Lemma XInv_alter c rp d sgd igd c' : XInv c -> alter_cat c rp d sgd igd = Some c' -> XInv c'.
Proof. intros I H. destruct (alter_cat_pols _ _ _ _ _ _ H) as (ps & ->). apply XInv_set_pols; auto. Qed.

Lemma XInv_grow_ig c gid : XInv c -> XInv (grow_ig c gid).
Proof.
  intros I. unfold grow_ig. destruct (find _ _) as [g0|] eqn:F; [|auto].
  set (add := fresh_ixs (c_ptnum c - length (ig_ixs g0)) (Z.of_nat (length (ig_ixs g0))) (c_maxix c)).
  set (n := Z.of_nat (c_ptnum c - length (ig_ixs g0))).
  set (f := fun g : igroup => if ig_id g =? gid then
        {| ig_id := ig_id g; ig_rp := ig_rp g; ig_start := ig_start g; ig_end := ig_end g; ig_del := ig_del g; ig_ixs := ig_ixs g ++ add |} else g).
  assert (Fr : forall i, In i add -> c_maxix c < ci_id i <= c_maxix c + n) by (intros i Hi; apply (fresh_ixs_spec _ _ _ _ Hi)).
  assert (Hd : forall g, ig_id (f g) = ig_id g /\ ig_end (f g) = ig_end g /\ ig_rp (f g) = ig_rp g).
  { intros g. unfold f. destruct (ig_id g =? gid); cbn; auto. }
  assert (Hx : forall g i, In i (ig_ixs (f g)) -> In i (ig_ixs g) \/ (ig_id g = gid /\ In i add)).
  { intros g i. unfold f. destruct (ig_id g =? gid) eqn:E; cbn; [|auto]. intros H. apply in_app_or in H. destruct H; [auto|right; split; [lia|auto]]. }
  pose proof (xv_pos _ I) as P0.
  constructor; cbn -[Z.of_nat].
  - unfold n. lia.
  - intros ig i Hg Hi. apply in_map_iff in Hg. destruct Hg as (g & <- & Hg). destruct (Hx _ _ Hi) as [H|(_ & H)].
    + pose proof (xv_ixb _ I _ _ Hg H). unfold n. lia.
    + specialize (Fr _ H). fold n. lia.
  - intros sg s Hg Hs. pose proof (xv_sxb _ I _ _ Hg Hs). unfold n. lia.
  - apply (xv_shb _ I).
  - apply (xv_shu _ I).
  - intros ig Hg. apply in_map_iff in Hg. destruct Hg as (g & <- & Hg). destruct (Hd g) as (-> & _). apply (xv_igb _ I _ Hg).
  - apply (xv_sgb _ I).
  - intros g1 g2 H1 H2 E. apply in_map_iff in H1. apply in_map_iff in H2. destruct H1 as (a & <- & Ha), H2 as (b & <- & Hb).
    destruct (Hd a) as (Ia & -> & ->), (Hd b) as (Ib & -> & ->). apply (xv_igu _ I a b); auto. congruence.
  - apply (xv_sgu _ I).
  - intros g1 g2 i1 i2 H1 H2 Hi1 Hi2 E. apply in_map_iff in H1. apply in_map_iff in H2. destruct H1 as (a & <- & Ha), H2 as (b & <- & Hb).
    destruct (Hd a) as (Ia & -> & ->), (Hd b) as (Ib & -> & ->).
    destruct (Hx _ _ Hi1) as [X1|(G1 & X1)], (Hx _ _ Hi2) as [X2|(G2 & X2)].
    + apply (xv_ixu _ I a b i1 i2); auto.
    + pose proof (xv_ixb _ I _ _ Ha X1). specialize (Fr _ X2). lia.
    + pose proof (xv_ixb _ I _ _ Hb X2). specialize (Fr _ X1). lia.
    + apply (xv_igu _ I a b); auto. congruence.
  - intros sg s ig i Hsg Hs Hig Hi E. apply in_map_iff in Hig. destruct Hig as (b & <- & Hb).
    destruct (Hd b) as (_ & -> & ->). destruct (Hx _ _ Hi) as [X|(_ & X)].
    + apply (xv_cover _ I sg s b i); auto.
    + specialize (Fr _ X). pose proof (xv_sxb _ I _ _ Hsg Hs). lia.
Qed.

Lemma XInv_grow_sg_one c gid k : XInv c -> XInv (grow_sg_one true c gid k).
Proof.
  intros I. unfold grow_sg_one. destruct (find _ _) as [g0|] eqn:F; [|auto].
  apply find_some in F. destruct F as (Hg0 & Eg0). destruct (find_pol _ _) as [p|]; [|auto].
  pose proof (XInv_ig_if_needed c (sg_rp g0) (xp_igd p) (sg_start g0) (sg_end g0) I) as H.
  destruct (ig_if_needed true c (sg_rp g0) (xp_igd p) (sg_start g0) (sg_end g0)) as (c1, ig).
  destruct H as (I1 & Hig & Hen & Hrp & (Esg & _)).
  set (s0 := {| cs_id := c_maxsh c1 + 1; cs_pt := Z.of_nat k; cs_ix := nth_ix ig k; cs_md := false |}).
  set (f := fun g : sgroup => if sg_id g =? gid then
        {| sg_id := sg_id g; sg_rp := sg_rp g; sg_start := sg_start g; sg_end := sg_end g; sg_del := sg_del g; sg_shards := sg_shards g ++ [s0] |} else g).
  assert (Hd : forall g, sg_id (f g) = sg_id g /\ sg_end (f g) = sg_end g /\ sg_rp (f g) = sg_rp g).
  { intros g. unfold f. destruct (sg_id g =? gid); cbn; auto. }
  assert (Hx : forall g s, In s (sg_shards (f g)) -> In s (sg_shards g) \/ (sg_id g = gid /\ s = s0)).
  { intros g s. unfold f. destruct (sg_id g =? gid) eqn:E; cbn; [|auto]. intros H. apply in_app_or in H.
    destruct H as [H|[<-|[]]]; [auto|right; split; [lia|auto]]. }
  rewrite <- Esg in Hg0.
  destruct (cover_new_shard c1 ig s0 (sg_end g0) (sg_rp g0) I1 Hig Hen Hrp (ex_intro _ k eq_refl)) as (Nb & Nc).
  constructor; cbn.
  - apply (xv_pos _ I1).
  - apply (xv_ixb _ I1).
  - intros sg s Hg Hs. apply in_map_iff in Hg. destruct Hg as (g & <- & Hg). destruct (Hx _ _ Hs) as [X|(_ & ->)];
      [apply (xv_sxb _ I1 _ _ Hg X)|exact Nb].
  - intros sg s Hg Hs. apply in_map_iff in Hg. destruct Hg as (g & <- & Hg). destruct (Hx _ _ Hs) as [X|(_ & ->)].
    + pose proof (xv_shb _ I1 _ _ Hg X). lia.
    + cbn. lia.
  - intros g1 g2 s1 s2 H1 H2 Hs1 Hs2 E. apply in_map_iff in H1. apply in_map_iff in H2. destruct H1 as (a & <- & Ha), H2 as (b & <- & Hb).
    destruct (Hd a) as (_ & -> & ->), (Hd b) as (_ & -> & ->).
    destruct (Hx _ _ Hs1) as [X1|(G1 & ->)], (Hx _ _ Hs2) as [X2|(G2 & ->)].
    + apply (xv_shu _ I1 a b s1 s2); auto.
    + pose proof (xv_shb _ I1 _ _ Ha X1). cbn in E. lia.
    + pose proof (xv_shb _ I1 _ _ Hb X2). cbn in E. lia.
    + destruct (xv_sgu _ I1 a b Ha Hb) as (P & Q); [congruence|]. auto.
  - apply (xv_igb _ I1).
  - intros sg Hg. apply in_map_iff in Hg. destruct Hg as (g & <- & Hg). destruct (Hd g) as (-> & _). apply (xv_sgb _ I1 _ Hg).
  - apply (xv_igu _ I1).
  - intros g1 g2 H1 H2 E. apply in_map_iff in H1. apply in_map_iff in H2. destruct H1 as (a & <- & Ha), H2 as (b & <- & Hb).
    destruct (Hd a) as (Ia & -> & ->), (Hd b) as (Ib & -> & ->). apply (xv_sgu _ I1 a b); auto. congruence.
  - apply (xv_ixu _ I1).
  - intros sg s ig' i' Hsg Hs Hig' Hi' E. apply in_map_iff in Hsg. destruct Hsg as (a & <- & Ha).
    destruct (Hd a) as (_ & -> & ->). destruct (Hx _ _ Hs) as [X|(G & ->)].
    + apply (xv_cover _ I1 a s ig' i'); auto.
    + destruct (xv_sgu _ I1 a g0 Ha Hg0) as (Ee & Er); [lia|]. rewrite Ee, Er. apply (Nc ig' i'); auto.
Qed.

Lemma XInv_grow_sg c gid : XInv c -> XInv (grow_sg true c gid).
Proof.
  intros I. unfold grow_sg. destruct (find _ _); [|auto].
  apply fold_inv; [|auto]. intros a b Ha. apply XInv_grow_sg_one; auto.
Qed.

Lemma XInv_expand c : XInv c -> XInv (expand true c).
Proof.
  intros I. unfold expand. apply fold_inv.
  - intros a rp Ha. unfold expand_pol. apply fold_inv; [intros; apply XInv_grow_sg; auto|].
    apply fold_inv; [intros; apply XInv_grow_ig; auto|auto].
  - destruct I. constructor; cbn; auto.
Qed.

Lemma x_cat_materialise w gid l : x_cat (materialise w gid l) = x_cat w.
Proof.
  unfold materialise. destruct (find _ _); [|auto]. destruct (find_pol _ _); [|auto].
  destruct (fold_left _ _ _). reflexivity.
Qed.

Lemma XInv_xtick rep w pt now now2 : XInv (x_cat w) -> XInv (x_cat (fst (xtick rep w pt now now2))).
Proof.
  intros I. unfold xtick. cbn.
  apply fold_inv; [intros a v Ha; apply XInv_prune_ig, XInv_del_ig; auto|].
  apply fold_inv; [intros a v Ha; apply XInv_prune_sg, XInv_del_sg; auto|auto].
Qed.

Lemma XInv_xstep repP clip w e : XInv (x_cat w) -> XInv (x_cat (fst (xstep true repP clip w e))).
Proof.
  intros I. destruct e; cbn [xstep fst].
  - cbn. apply XInv_create_sg; auto.
  - rewrite x_cat_materialise. auto.
  - destruct (alter_cat _ _ _ _ _) eqn:E; cbn; [eapply XInv_alter; eauto|auto].
  - cbn. apply XInv_expand; auto.
  - apply XInv_xtick; auto.
  - auto.
  - cbn. auto.
Qed.

Lemma xrun_inv (P : xworld -> Prop) repI repP clip :
  (forall w e, P w -> P (fst (xstep repI repP clip w e))) -> forall es w, P w -> P (fst (xrun repI repP clip w es)).
Proof.
  intros Hs. induction es as [|e r IH]; cbn; [auto|]. intros w Hw. specialize (Hs w e Hw).
  destruct (xstep repI repP clip w e) as (w1, l1). specialize (IH w1 Hs). destruct (xrun repI repP clip w1 r) as (w2, l2). exact IH.
Qed.

Lemma XInv_xrun repP clip es : forall w, XInv (x_cat w) -> XInv (x_cat (fst (xrun true repP clip w es))).
Proof. apply (xrun_inv (fun w => XInv (x_cat w))). intros w e. apply XInv_xstep. Qed.

Lemma cover_expiry c sg s ig i d now :
  XInv c -> In sg (c_sgs c) -> In s (sg_shards sg) -> In ig (c_igs c) -> In i (ig_ixs ig) -> ci_id i = cs_ix s ->
  expired d (ig_end ig) now = true -> expired d (sg_end sg) now = true.
Proof.
  intros I H1 H2 H3 H4 E. destruct (xv_cover _ I sg s ig i H1 H2 H3 H4 E) as (L & _). apply expired_anti_end, L.
Qed.

(* cover_expiry in terms of what the stores are told *)
Lemma infos_expiry c pt fi sg s now :
  XInv c -> In fi (index_infos c pt) -> In sg (c_sgs c) -> In s (sg_shards sg) -> cs_ix s = si_id fi ->
  expired (si_d fi) (si_end fi) now = true ->
  expired (pol_d c (sg_rp sg)) (sg_end sg) now = true.
Proof.
  intros I Hfi Hsg Hs E. unfold index_infos in Hfi. apply in_flat_map in Hfi. destruct Hfi as (ig & Hig & Hfi).
  apply in_map_iff in Hfi. destruct Hfi as (i & <- & Hi). apply filter_In in Hi. destruct Hi as (Hi & _). cbn in *.
  destruct (xv_cover _ I sg s ig i Hsg Hs Hig Hi) as (L & R); [congruence|]. rewrite R. apply expired_anti_end, L.
Qed.
