(* C14: the catalogue/node consistency invariant Inv and its preservation by every well-formed event (what the closed
   safety theorem Props.C14_safety_closed rests on), and progress on the catalogue side (tick_prunes_group). *)
From Coq Require Import ZArith List Bool Lia.
From OG Require Import C14.Model C14.Proofs.
Import ListNotations.
Open Scope Z_scope.

Definition in_range (g : group) (sid : Z) : bool :=
  (first_id (g_shards g) <=? sid) && (sid <=? last_id (g_shards g)).

(* inv_range is the premise that makes pruning exact: the id-range test of pruneShardGroups (in_range) then hits only the
   group that holds the id (prune_mark_eq). ExpandGroups of the extended model breaks exactly this premise
   (Refuted.C14_prune_neighbour_refuted). *)
Record Inv (w : world) : Prop := {
  inv_listed : forall s, In s (node w) -> listed (groups w) s = true;
  inv_policy : forall s, In s (node w) -> policy_dur (policies w) (n_rp s) <> None;
  inv_asc : forall g, In g (groups w) -> ascending (ids g);
  inv_nonempty : forall g, In g (groups w) -> ids g <> [];
  inv_range : forall g1 g2 sid, In g1 (groups w) -> In g2 (groups w) -> In sid (ids g1) ->
                                in_range g2 sid = true -> In sid (ids g2);
  inv_unmarked : forall s g x, In s (node w) -> In g (groups w) -> In x (g_shards g) -> gs_id x = n_id s ->
                               gs_markdel x = false;
  inv_nodup : NoDup (map n_id (node w))
}.

Lemma ascending_tail x l : ascending (x :: l) -> ascending l.
Proof. intros [_ H]. exact H. Qed.

Lemma ascending_le_last l : ascending l -> forall y d, In y l -> y <= last l d.
Proof.
  induction l as [|x r IH]; intros Ha y d Hy; [destruct Hy|].
  destruct r as [|z r].
  - destruct Hy as [<-|[]]. cbn. lia.
  - change (last (x :: z :: r) d) with (last (z :: r) d).
    destruct Hy as [<-|Hy].
    + pose proof (ascending_lt _ _ Ha z (or_introl eq_refl)) as H1.
      pose proof (IH (ascending_tail _ _ Ha) z d (or_introl eq_refl)) as H2. lia.
    + apply IH; [apply (ascending_tail _ _ Ha)|exact Hy].
Qed.

Lemma ascending_nodup l : ascending l -> NoDup l.
Proof.
  induction l as [|x r IH]; intros Ha; constructor.
  - intros Hin. pose proof (ascending_lt _ _ Ha x Hin). lia.
  - apply IH, (ascending_tail _ _ Ha).
Qed.

Lemma first_id_hd l : first_id l = hd 0 (map gs_id l).
Proof. destruct l; reflexivity. Qed.

Lemma last_id_last l : last_id l = last (map gs_id l) 0.
Proof. unfold last_id. symmetry. apply (last_map gs_id l {| gs_id := 0; gs_markdel := false |}). Qed.

Lemma in_range_member g sid : ascending (ids g) -> In sid (ids g) -> in_range g sid = true.
Proof.
  unfold in_range, ids. intros Ha Hin. rewrite first_id_hd, last_id_last.
  apply andb_true_iff. split; apply Z.leb_le.
  - destruct (map gs_id (g_shards g)) as [|x r]; [destruct Hin|]. cbn [hd].
    destruct Hin as [<-|Hin]; [lia|]. pose proof (ascending_lt _ _ Ha sid Hin). lia.
  - apply ascending_le_last; assumption.
Qed.

Lemma first_in l : l <> [] -> In (hd 0 l) l.
Proof. destruct l; [congruence|]. intros _. now left. Qed.

Lemma last_in (l : list Z) d : l <> [] -> In (last l d) l.
Proof.
  induction l as [|x r IH]; [congruence|]. intros _. destruct r as [|y r]; [now left|].
  right. change (last (x :: y :: r) d) with (last (y :: r) d). apply IH. congruence.
Qed.

Lemma mark_shard_ids sid l : map gs_id (map (mark_shard sid) l) = map gs_id l.
Proof.
  induction l as [|x r IH]; [reflexivity|]. cbn [map]. rewrite IH. f_equal.
  unfold mark_shard. destruct (gs_id x =? sid); reflexivity.
Qed.

Definition mark_in (sid : Z) (g : group) : group :=
  {| g_id := g_id g; g_rp := g_rp g; g_start := g_start g; g_end := g_end g; g_deleted := g_deleted g;
     g_shards := map (mark_shard sid) (g_shards g) |}.

Lemma prune_mark_eq sid g :
  ascending (ids g) -> (in_range g sid = true -> In sid (ids g)) -> prune_mark sid g = mark_in sid g.
Proof.
  intros Ha Hr. unfold prune_mark, mark_in.
  change ((first_id (g_shards g) <=? sid) && (sid <=? last_id (g_shards g))) with (in_range g sid).
  destruct (in_range g sid) eqn:E.
  - rewrite (mark_first_ge_exact sid (g_shards g) Ha (Hr eq_refl)). reflexivity.
  - assert (Hn : ~ In sid (map gs_id (g_shards g))).
    { intros Hin. rewrite (in_range_member g sid Ha Hin) in E. discriminate. }
    rewrite (mark_shard_absent sid (g_shards g) Hn). destruct g; reflexivity.
Qed.

Lemma mark_group_shards gid g : g_shards (mark_group gid g) = g_shards g.
Proof. unfold mark_group. destruct (g_id g =? gid); reflexivity. Qed.
Lemma mark_group_id gid g : g_id (mark_group gid g) = g_id g.
Proof. unfold mark_group. destruct (g_id g =? gid); reflexivity. Qed.
Lemma mark_group_ids gid g : ids (mark_group gid g) = ids g.
Proof. unfold ids. now rewrite mark_group_shards. Qed.
Lemma mark_in_ids sid g : ids (mark_in sid g) = ids g.
Proof. unfold ids, mark_in. cbn [g_shards]. apply mark_shard_ids. Qed.

Lemma in_range_ids g g' sid : ids g = ids g' -> in_range g sid = in_range g' sid.
Proof. unfold in_range, ids. rewrite !first_id_hd, !last_id_last. intros ->. reflexivity. Qed.

Lemma listed_spec gs s :
  listed gs s = true <-> exists g, In g gs /\ g_id g = n_gid s /\ In (n_id s) (ids g).
Proof.
  unfold listed. rewrite existsb_exists. split.
  - intros (g & Hg & H). apply andb_true_iff in H. destruct H as [H1 H2]. apply Z.eqb_eq in H1.
    apply existsb_exists in H2. destruct H2 as (x & Hx & Hx'). apply Z.eqb_eq in Hx'.
    exists g. repeat split; auto. unfold ids. rewrite <- Hx'. apply in_map, Hx.
  - intros (g & Hg & H1 & H2). exists g. split; [exact Hg|]. apply andb_true_iff. split; [now apply Z.eqb_eq|].
    unfold ids in H2. apply in_map_iff in H2. destruct H2 as (x & Hx & Hin). apply existsb_exists. exists x.
    split; [exact Hin|now apply Z.eqb_eq].
Qed.

(* the groups after deleting shard s, under the invariant *)
Definition after (s : nshard) (g : group) : group := mark_in (n_id s) (mark_group (n_gid s) g).
Definition keep (g : group) : bool := negb (g_deleted g && can_delete g).

Lemma delete_one_groups w s :
  Inv w -> In s (node w) ->
  groups (delete_one w s) = filter keep (map (after s) (groups w)).
Proof.
  intros I Hs. unfold delete_one, prune. cbn [groups]. rewrite map_map. f_equal.
  apply map_ext_in. intros g Hg. unfold after. apply prune_mark_eq.
  - rewrite mark_group_ids. apply (inv_asc w I g Hg).
  - rewrite mark_group_ids, (in_range_ids _ g _ (mark_group_ids _ g)). intros Hr.
    destruct (proj1 (listed_spec (groups w) s) (inv_listed w I s Hs)) as (g1 & Hg1 & _ & Hin1).
    exact (inv_range w I g1 g (n_id s) Hg1 Hg Hin1 Hr).
Qed.

Lemma after_ids s g : ids (after s g) = ids g.
Proof. unfold after. now rewrite mark_in_ids, mark_group_ids. Qed.
Lemma after_id s g : g_id (after s g) = g_id g.
Proof. unfold after, mark_in. cbn [g_id]. apply mark_group_id. Qed.
Lemma after_shards s g : g_shards (after s g) = map (mark_shard (n_id s)) (g_shards g).
Proof. unfold after, mark_in. cbn [g_shards]. now rewrite mark_group_shards. Qed.

Lemma NoDup_filter_map {A} (f : A -> Z) (p : A -> bool) l : NoDup (map f l) -> NoDup (map f (filter p l)).
Proof.
  induction l as [|a l IH]; intros H; [constructor|]. cbn [map filter] in *. inversion H; subst.
  destruct (p a); [|apply IH; assumption]. cbn [map]. constructor; [|apply IH; assumption].
  intros Hin. apply H2. apply in_map_iff in Hin. destruct Hin as (y & Hy & Hyin). apply filter_In in Hyin.
  rewrite <- Hy. apply in_map, Hyin.
Qed.

Lemma Inv_delete_one w s : Inv w -> In s (node w) -> Inv (delete_one w s).
Proof.
  intros I Hs. pose proof (delete_one_groups w s I Hs) as HG.
  assert (Hnode : forall s', In s' (node (delete_one w s)) <-> In s' (node w) /\ n_id s' <> n_id s).
  { intros s'. rewrite delete_one_node, filter_In, negb_true_iff, Z.eqb_neq. tauto. }
  assert (Hgrp : forall g', In g' (groups (delete_one w s)) -> exists g, In g (groups w) /\ g' = after s g /\ keep g' = true).
  { intros g'. rewrite HG, filter_In, in_map_iff. intros [(g & <- & Hg) Hk]. exists g. auto. }
  constructor.
  - intros s' Hs'. apply Hnode in Hs'. destruct Hs' as [Hs' Hne].
    destruct (proj1 (listed_spec _ _) (inv_listed w I s' Hs')) as (g & Hg & Hgid & Hin).
    apply listed_spec. exists (after s g). rewrite after_id, after_ids. repeat split; auto.
    rewrite HG. apply filter_In. split; [apply in_map, Hg|].
    unfold keep. apply negb_true_iff. apply andb_false_iff. right.
    unfold can_delete. rewrite after_shards. unfold ids in Hin. apply in_map_iff in Hin.
    destruct Hin as (x & Hx & Hxin).
    assert (Hm : gs_markdel x = false) by exact (inv_unmarked w I s' g x Hs' Hg Hxin Hx).
    apply not_true_is_false. intros Hall. rewrite forallb_forall in Hall.
    specialize (Hall (mark_shard (n_id s) x) (in_map _ _ _ Hxin)).
    unfold mark_shard in Hall. destruct (Z.eqb_spec (gs_id x) (n_id s)) as [E|_]; [congruence|]. congruence.
  - intros s' Hs'. apply Hnode in Hs'. cbn [delete_one policies]. apply (inv_policy w I), Hs'.
  - intros g' Hg'. destruct (Hgrp g' Hg') as (g & Hg & -> & _). rewrite after_ids. apply (inv_asc w I g Hg).
  - intros g' Hg'. destruct (Hgrp g' Hg') as (g & Hg & -> & _). rewrite after_ids. apply (inv_nonempty w I g Hg).
  - intros g1' g2' sid H1 H2 Hin Hr.
    destruct (Hgrp g1' H1) as (g1 & Hg1 & -> & _). destruct (Hgrp g2' H2) as (g2 & Hg2 & -> & _).
    rewrite after_ids in *. rewrite (in_range_ids _ g2 _ (after_ids s g2)) in Hr.
    exact (inv_range w I g1 g2 sid Hg1 Hg2 Hin Hr).
  - intros s' g' x' Hs' Hg' Hx' Hid. apply Hnode in Hs'. destruct Hs' as [Hs' Hne].
    destruct (Hgrp g' Hg') as (g & Hg & -> & _). rewrite after_shards in Hx'.
    apply in_map_iff in Hx'. destruct Hx' as (x & <- & Hx).
    unfold mark_shard in *. destruct (Z.eqb_spec (gs_id x) (n_id s)) as [E|NE]; cbn [gs_id gs_markdel] in *.
    + congruence.
    + exact (inv_unmarked w I s' g x Hs' Hg Hx Hid).
  - rewrite delete_one_node. apply NoDup_filter_map, (inv_nodup w I).
Qed.

Lemma Inv_fold_delete ex : forall w,
  Inv w -> NoDup (map n_id ex) -> (forall s, In s ex -> In s (node w)) -> Inv (fold_left delete_one ex w).
Proof.
  induction ex as [|s ex IH]; intros w I Hnd Hin; cbn [fold_left]; [exact I|].
  cbn [map] in Hnd. inversion Hnd; subst.
  apply IH; [apply Inv_delete_one; [exact I|apply Hin; now left]|assumption|].
  intros s' Hs'. rewrite delete_one_node. apply filter_In. split; [apply Hin; now right|].
  apply negb_true_iff, Z.eqb_neq. intros E. apply H1. rewrite <- E. apply in_map, Hs'.
Qed.

(* the node re-labels its shards (durations, loaded flags) and keeps what identifies them *)
Lemma Inv_node_map w (f : nshard -> nshard) :
  (forall s, n_id (f s) = n_id s /\ n_gid (f s) = n_gid s /\ n_rp (f s) = n_rp s) ->
  Inv w -> Inv {| policies := policies w; groups := groups w; node := map f (node w) |}.
Proof.
  intros Hf I.
  assert (Hn : forall s', In s' (map f (node w)) -> exists s, In s (node w) /\ s' = f s).
  { intros s'. rewrite in_map_iff. intros (s & <- & Hs). eauto. }
  constructor; cbn [groups policies node].
  - intros s' Hs'. destruct (Hn s' Hs') as (s & Hs & ->). destruct (Hf s) as (Hid & Hgid & _).
    rewrite (listed_ext _ _ s Hid Hgid). apply (inv_listed w I s Hs).
  - intros s' Hs'. destruct (Hn s' Hs') as (s & Hs & ->). destruct (Hf s) as (_ & _ & ->). apply (inv_policy w I s Hs).
  - apply (inv_asc w I).
  - apply (inv_nonempty w I).
  - apply (inv_range w I).
  - intros s' g x Hs' Hg Hx Hid. destruct (Hn s' Hs') as (s & Hs & ->). destruct (Hf s) as (Hid' & _).
    rewrite Hid' in Hid. exact (inv_unmarked w I s g x Hs Hg Hx Hid).
  - rewrite map_map. erewrite map_ext; [apply (inv_nodup w I)|]. intros s. apply (Hf s).
Qed.

Lemma Inv_refresh w : Inv w -> Inv (refresh w).
Proof. apply Inv_node_map. intros s. destruct (refresh_one_id w s) as (A & B & C & _). auto. Qed.

Lemma Inv_tick w now : Inv w -> Inv (fst (tick w now)).
Proof.
  intros I. unfold tick. cbn [fst]. pose proof (Inv_refresh w I) as I1.
  apply Inv_fold_delete; [exact I1| |].
  - unfold expired_shards. apply NoDup_filter_map, (inv_nodup _ I1).
  - intros s Hs. unfold expired_shards in Hs. apply filter_In in Hs. apply Hs.
Qed.

Lemma nodup_app_intro (l1 l2 : list Z) :
  NoDup l1 -> NoDup l2 -> (forall z, In z l1 -> In z l2 -> False) -> NoDup (l1 ++ l2).
Proof.
  induction l1 as [|a l1 IH]; intros H1 H2 Hd; [exact H2|]. cbn [app]. inversion H1; subst. constructor.
  - intros Hin. apply in_app_or in Hin. destruct Hin as [Hin|Hin]; [contradiction|]. apply (Hd a); [now left|exact Hin].
  - apply IH; [assumption|assumption|]. intros z Hz1 Hz2. apply (Hd z); [now right|exact Hz2].
Qed.

Definition fresh_group (w : world) (g : group) : Prop :=
  ascending (ids g) /\ ids g <> [] /\ (forall x, In x (g_shards g) -> gs_markdel x = false)
  /\ (forall sid g' y, In sid (ids g) -> In g' (groups w) -> In y (ids g') -> y < sid)
  /\ policy_dur (policies w) (g_rp g) <> None.

Definition wf_event (w : world) (e : event) : Prop :=
  match e with AddGroup g _ => fresh_group w g | _ => True end.

Fixpoint wf_trace (w : world) (es : list event) : Prop :=
  match es with
  | [] => True
  | e :: es' => wf_event w e /\ wf_trace (fst (step w e)) es'
  end.

Lemma policy_dur_alter ps rp d rp' :
  policy_dur ps rp' <> None ->
  policy_dur (map (fun p => if p_id p =? rp then {| p_id := rp; p_dur := d |} else p) ps) rp' <> None.
Proof.
  induction ps as [|p ps IH]; cbn [policy_dur map]; [congruence|]. intros H.
  destruct (Z.eqb_spec (p_id p) rp) as [E|NE]; cbn [p_id].
  - subst rp. destruct (p_id p =? rp'); [congruence|apply IH, H].
  - destruct (p_id p =? rp'); [congruence|apply IH, H].
Qed.

Lemma Inv_add_group w g l : Inv w -> fresh_group w g -> Inv (add_group w g l).
Proof.
  intros I (Ha & Hne & Hum & Hfresh & Hpol).
  set (news := map (fun x => {| n_id := gs_id x; n_gid := g_id g; n_rp := g_rp g; n_end := g_end g;
                               n_dur := match policy_dur (policies w) (g_rp g) with Some d => d | None => 0 end;
                               n_loaded := l |}) (g_shards g)).
  assert (Hnode : node (add_group w g l) = node w ++ news) by reflexivity.
  assert (Hgroups : groups (add_group w g l) = groups w ++ [g]) by reflexivity.
  assert (Hnew : forall s, In s news -> n_gid s = g_id g /\ n_rp s = g_rp g /\ In (n_id s) (ids g)).
  { intros s Hs. unfold news in Hs. apply in_map_iff in Hs. destruct Hs as (x & <- & Hx). cbn.
    repeat split. unfold ids. apply in_map, Hx. }
  assert (Hold_id : forall s, In s (node w) -> exists g', In g' (groups w) /\ In (n_id s) (ids g')).
  { intros s Hs. destruct (proj1 (listed_spec _ _) (inv_listed w I s Hs)) as (g' & Hg' & _ & Hin). eauto. }
  constructor; rewrite ?Hnode, ?Hgroups.
  - intros s Hs. apply in_app_or in Hs. apply listed_spec. destruct Hs as [Hs|Hs].
    + destruct (proj1 (listed_spec _ _) (inv_listed w I s Hs)) as (g' & Hg' & H1 & H2).
      exists g'. split; [apply in_or_app; now left|auto].
    + destruct (Hnew s Hs) as (H1 & _ & H3). exists g. split; [apply in_or_app; right; now left|auto].
  - cbn [add_group policies]. intros s Hs. apply in_app_or in Hs. destruct Hs as [Hs|Hs].
    + apply (inv_policy w I s Hs).
    + destruct (Hnew s Hs) as (_ & -> & _). exact Hpol.
  - intros g' Hg'. apply in_app_or in Hg'. destruct Hg' as [Hg'|[<-|[]]]; [apply (inv_asc w I g' Hg')|exact Ha].
  - intros g' Hg'. apply in_app_or in Hg'. destruct Hg' as [Hg'|[<-|[]]]; [apply (inv_nonempty w I g' Hg')|exact Hne].
  - intros g1 g2 sid H1 H2 Hin Hr. apply in_app_or in H1. apply in_app_or in H2.
    destruct H1 as [H1|[<-|[]]]; destruct H2 as [H2|[<-|[]]].
    + exact (inv_range w I g1 g2 sid H1 H2 Hin Hr).
    + (* g1 old, g2 = g: first id of g > sid *)
      exfalso. unfold in_range in Hr. apply andb_true_iff in Hr. destruct Hr as [Hr _]. apply Z.leb_le in Hr.
      rewrite first_id_hd in Hr. pose proof (first_in (map gs_id (g_shards g)) Hne) as Hf.
      pose proof (Hfresh _ g1 sid Hf H1 Hin). lia.
    + (* g1 = g, g2 old: last id of g2 < sid *)
      exfalso. unfold in_range in Hr. apply andb_true_iff in Hr. destruct Hr as [_ Hr]. apply Z.leb_le in Hr.
      rewrite last_id_last in Hr. pose proof (last_in (map gs_id (g_shards g2)) 0 (inv_nonempty w I g2 H2)) as Hl.
      pose proof (Hfresh sid g2 _ Hin H2 Hl). lia.
    + exact Hin.
  - intros s g' x Hs Hg' Hx Hid. apply in_app_or in Hs. apply in_app_or in Hg'.
    destruct Hg' as [Hg'|[<-|[]]]; [|apply Hum, Hx].
    destruct Hs as [Hs|Hs]; [exact (inv_unmarked w I s g' x Hs Hg' Hx Hid)|].
    exfalso. destruct (Hnew s Hs) as (_ & _ & Hin).
    assert (Hy : In (gs_id x) (ids g')) by (unfold ids; apply in_map, Hx).
    pose proof (Hfresh (n_id s) g' (gs_id x) Hin Hg' Hy). lia.
  - rewrite map_app. apply nodup_app_intro.
    + apply (inv_nodup w I).
    + unfold news. rewrite map_map. cbn [n_id]. apply ascending_nodup, Ha.
    + intros z Hz1 Hz2. apply in_map_iff in Hz1. destruct Hz1 as (s1 & <- & Hs1).
      apply in_map_iff in Hz2. destruct Hz2 as (s2 & E & Hs2).
      destruct (Hold_id s1 Hs1) as (g' & Hg' & Hin'). destruct (Hnew s2 Hs2) as (_ & _ & Hin2).
      rewrite E in Hin2. pose proof (Hfresh _ g' _ Hin2 Hg' Hin'). lia.
Qed.

Lemma Inv_alter w rp d : Inv w -> Inv (alter w rp d).
Proof.
  intros I. constructor; cbn [alter groups node policies];
    [apply (inv_listed w I)| |apply (inv_asc w I)|apply (inv_nonempty w I)|apply (inv_range w I)
     |apply (inv_unmarked w I)|apply (inv_nodup w I)].
  intros s Hs. apply policy_dur_alter, (inv_policy w I s Hs).
Qed.

Lemma Inv_restart w : Inv w -> Inv (restart w).
Proof. apply (Inv_node_map w). intros s. cbn. auto. Qed.

Lemma Inv_step w e : Inv w -> wf_event w e -> Inv (fst (step w e)).
Proof.
  intros I Hwf. destruct e as [now|rp d|g l|now'|]; cbn [step fst].
  - apply Inv_tick, I.
  - apply Inv_alter, I.
  - apply Inv_add_group; assumption.
  - exact I.
  - apply Inv_restart, I.
Qed.

Lemma run_cons w e es : run w (e :: es) = (fst (run (fst (step w e)) es), snd (step w e) ++ snd (run (fst (step w e)) es)).
Proof. cbn [run]. destruct (step w e) as [w1 d1]. cbn [fst snd]. destruct (run w1 es) as [w2 d2]. reflexivity. Qed.

Lemma Inv_run es : forall w, Inv w -> wf_trace w es -> Inv (fst (run w es)).
Proof.
  induction es as [|e es IH]; intros w I Hwf; [exact I|]. rewrite run_cons. cbn [fst].
  destruct Hwf as [He Hes]. apply IH; [apply Inv_step; assumption|exact Hes].
Qed.

Lemma wf_trace_app pre : forall w post, wf_trace w (pre ++ post) -> wf_trace w pre /\ wf_trace (fst (run w pre)) post.
Proof.
  induction pre as [|e pre IH]; intros w post H; [split; [exact I|exact H]|].
  cbn [app wf_trace] in H. destruct H as [He H]. destruct (IH _ _ H) as [H1 H2].
  split; [split; assumption|]. rewrite run_cons. exact H2.
Qed.

Definition marked_by (ex : list nshard) (x : gshard) : gshard :=
  {| gs_id := gs_id x; gs_markdel := gs_markdel x || existsb (fun s => gs_id x =? n_id s) ex |}.

Lemma marked_by_nil x : marked_by [] x = x.
Proof. destruct x as [i m]. unfold marked_by. cbn. now rewrite orb_false_r. Qed.

Lemma marked_by_cons s ex x : marked_by ex (mark_shard (n_id s) x) = marked_by (s :: ex) x.
Proof.
  destruct x as [i m]. unfold marked_by, mark_shard. cbn [gs_id gs_markdel existsb].
  destruct (i =? n_id s), m; reflexivity.
Qed.

Lemma mark_group_deleted gid g : g_deleted (mark_group gid g) = g_deleted g || (g_id g =? gid).
Proof. unfold mark_group. destruct (g_id g =? gid); cbn; [now rewrite orb_true_r|now rewrite orb_false_r]. Qed.

Lemma after_deleted s g : g_deleted (after s g) = g_deleted g || (g_id g =? n_gid s).
Proof. unfold after, mark_in. cbn [g_deleted]. apply mark_group_deleted. Qed.

(* the last conjunct: once a shard has been deleted, every surviving group has passed the prune filter *)
Lemma fold_groups_char ex : forall w,
  Inv w -> NoDup (map n_id ex) -> (forall s, In s ex -> In s (node w)) ->
  forall g', In g' (groups (fold_left delete_one ex w)) ->
  exists g, In g (groups w) /\ g_id g' = g_id g /\ g_shards g' = map (marked_by ex) (g_shards g)
            /\ g_deleted g' = g_deleted g || existsb (fun s => g_id g =? n_gid s) ex
            /\ (ex <> [] -> keep g' = true).
Proof.
  induction ex as [|s ex IH]; intros w I Hnd Hin g' Hg'; cbn [fold_left] in Hg'.
  - exists g'. split; [exact Hg'|]. split; [reflexivity|]. split.
    + rewrite (map_ext _ (fun x => x) marked_by_nil), map_id. reflexivity.
    + split; [cbn; now rewrite orb_false_r|congruence].
  - cbn [map] in Hnd. inversion Hnd as [|? ? Hnotin Hnd']; subst.
    assert (Hs : In s (node w)) by (apply Hin; now left).
    pose proof (Inv_delete_one w s I Hs) as I1.
    assert (Hin1 : forall s', In s' ex -> In s' (node (delete_one w s))).
    { intros s' Hs'. rewrite delete_one_node. apply filter_In. split; [apply Hin; now right|].
      apply negb_true_iff, Z.eqb_neq. intros E. apply Hnotin. rewrite <- E. apply in_map, Hs'. }
    destruct (IH _ I1 Hnd' Hin1 g' Hg') as (g1 & Hg1 & Hid & Hsh & Hdel & Hkeep).
    rewrite (delete_one_groups w s I Hs) in Hg1. apply filter_In in Hg1. destruct Hg1 as [Hg1 Hk1].
    apply in_map_iff in Hg1. destruct Hg1 as (g & <- & Hg).
    exists g. split; [exact Hg|]. split; [now rewrite Hid, after_id|]. split.
    + rewrite Hsh, after_shards, map_map. apply map_ext. intros x. apply marked_by_cons.
    + split.
      * rewrite Hdel, after_deleted, after_id. cbn [existsb]. now rewrite orb_assoc.
      * intros _. destruct ex as [|s2 ex2]; [|apply Hkeep; congruence].
        cbn [fold_left] in Hg'. rewrite (delete_one_groups w s I Hs) in Hg'. apply filter_In in Hg'. apply Hg'.
Qed.

Lemma tick_prunes_group w now g d :
  Inv w -> In g (groups w) ->
  (forall g2, In g2 (groups w) -> g_id g2 = g_id g -> g2 = g) ->
  policy_dur (policies w) (g_rp g) = Some d -> d <> 0 -> g_end g + d < now ->
  (forall x, In x (g_shards g) -> gs_markdel x = false ->
     exists s, In s (node w) /\ n_id s = gs_id x /\ n_gid s = g_id g /\ n_rp s = g_rp g /\ n_end s = g_end g) ->
  (exists x, In x (g_shards g) /\ gs_markdel x = false) ->
  forall g', In g' (groups (fst (tick w now))) -> g_id g' <> g_id g.
Proof.
  intros I Hg Huniq Hpol Hd0 Hexp Hcomplete (x0 & Hx0 & Hm0) g' Hg' Heq.
  unfold tick in Hg'. cbn [fst] in Hg'. set (ex := expired_shards (refresh w) now) in *.
  pose proof (Inv_refresh w I) as I1.
  assert (Hnd : NoDup (map n_id ex)) by (apply NoDup_filter_map, (inv_nodup _ I1)).
  assert (Hin : forall s, In s ex -> In s (node (refresh w))) by (intros s Hs; apply filter_In in Hs; apply Hs).
  destruct (fold_groups_char ex (refresh w) I1 Hnd Hin g' Hg') as (g0 & Hg0 & Hid & Hsh & Hdel & Hkeep).
  cbn [refresh groups] in Hg0. assert (g0 = g) by (apply Huniq; [exact Hg0|congruence]). subst g0.
  assert (Hsel : forall x, In x (g_shards g) -> gs_markdel x = false ->
                 exists s1, In s1 ex /\ n_id s1 = gs_id x /\ n_gid s1 = g_id g).
  { intros x Hx Hm. destruct (Hcomplete x Hx Hm) as (s & Hs & Hsid & Hsgid & Hsrp & Hsend).
    exists (refresh_one w s). destruct (refresh_one_id w s) as (Hid1 & Hgid1 & _).
    split; [|split; congruence]. rewrite <- Hsrp in Hpol. rewrite <- Hsend in Hexp.
    exact (expired_selected w now s d Hs (inv_listed w I s Hs) Hpol Hd0 Hexp). }
  destruct (Hsel x0 Hx0 Hm0) as (s0 & Hs0 & _ & Hgid0).
  assert (Hne : ex <> []) by (intros E; rewrite E in Hs0; destruct Hs0).
  specialize (Hkeep Hne). unfold keep in Hkeep. apply negb_true_iff, andb_false_iff in Hkeep.
  destruct Hkeep as [Hk|Hk].
  - rewrite Hdel in Hk. apply orb_false_iff in Hk. destruct Hk as [_ Hk].
    assert (Ht : existsb (fun s => g_id g =? n_gid s) ex = true).
    { apply existsb_exists. exists s0. split; [exact Hs0|]. apply Z.eqb_eq. congruence. }
    congruence.
  - unfold can_delete in Hk. rewrite Hsh in Hk.
    assert (Ht : forallb gs_markdel (map (marked_by ex) (g_shards g)) = true).
    { apply forallb_forall. intros y Hy. apply in_map_iff in Hy. destruct Hy as (x & <- & Hx).
      unfold marked_by. cbn [gs_markdel]. destruct (gs_markdel x) eqn:Em; [reflexivity|]. cbn [orb].
      destruct (Hsel x Hx Em) as (s1 & Hs1 & Hid1 & _). apply existsb_exists. exists s1.
      split; [exact Hs1|]. apply Z.eqb_eq. congruence. }
    congruence.
Qed.
