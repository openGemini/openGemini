(* C14 - node level: when the catalogue satisfies XInv and the node agrees with it (NodeOK), an index deleted by one
   pass of the retention service (xtick) is used only by shards that are expired at the clock reading of the index
   decisions, and each of them that was already expired at the reading of the shard decisions is deleted by the same
   pass (xtick_index_victims). *)
From Coq Require Import ZArith List Bool Lia ZifyBool.
From OG Require Import C14.Model C14.Proofs C14.XModel C14.XProofs C14.XInv.
Import ListNotations.
Open Scope Z_scope.

(* the node's shard / index is the one the catalogue lists for this partition, with the span the catalogue gives it *)
Definition listed_shard (c : cat) (pt : Z) (s : xshard) : Prop :=
  exists sg cs, In sg (c_sgs c) /\ In cs (sg_shards sg) /\ cs_id cs = xs_id s /\ cs_pt cs = pt /\ cs_ix cs = xs_ix s /\ sg_end sg = xs_end s.
Definition listed_index (c : cat) (pt : Z) (i : xindex) : Prop :=
  exists ig ci, In ig (c_igs c) /\ In ci (ig_ixs ig) /\ ci_id ci = xi_id i /\ ci_pt ci = pt /\ ig_end ig <= xi_end i.

Record NodeOK (w : xworld) (pt : Z) : Prop := {
  nk_sh : forall s, In s (x_shards w) -> xs_pt s = pt -> listed_shard (x_cat w) pt s;
  nk_ix : forall i, In i (x_ixs w) -> xi_pt i = pt -> listed_index (x_cat w) pt i;
  nk_ref : forall s, In s (x_shards w) -> xs_pt s = pt -> has_ix (x_ixs w) (xs_ix s) pt = true;   (* its index is on the node *)
  nk_uniq : forall s s', In s (x_shards w) -> In s' (x_shards w) -> xs_id s = xs_id s' -> s = s'
}.

(* NodeOK of a given world, decided *)
Definition listed_shardb (c : cat) (pt : Z) (s : xshard) : bool :=
  existsb (fun sg => existsb (fun cs => (cs_id cs =? xs_id s) && (cs_pt cs =? pt) && (cs_ix cs =? xs_ix s) && (sg_end sg =? xs_end s))
                             (sg_shards sg)) (c_sgs c).
Definition listed_indexb (c : cat) (pt : Z) (i : xindex) : bool :=
  existsb (fun ig => existsb (fun ci => (ci_id ci =? xi_id i) && (ci_pt ci =? pt) && (ig_end ig <=? xi_end i)) (ig_ixs ig)) (c_igs c).
Fixpoint distinct (l : list Z) : bool :=
  match l with [] => true | x :: r => negb (existsb (Z.eqb x) r) && distinct r end.
Definition node_okb (w : xworld) (pt : Z) : bool :=
  forallb (fun s => negb (xs_pt s =? pt) || (listed_shardb (x_cat w) pt s && has_ix (x_ixs w) (xs_ix s) pt)) (x_shards w) &&
  forallb (fun i => negb (xi_pt i =? pt) || listed_indexb (x_cat w) pt i) (x_ixs w) &&
  distinct (map xs_id (x_shards w)).

Lemma distinct_inj {A} (f : A -> Z) l : distinct (map f l) = true -> forall x y, In x l -> In y l -> f x = f y -> x = y.
Proof.
  induction l as [|a r IH]; cbn; [tauto|]. rewrite andb_true_iff, negb_true_iff. intros (Ha & Hr).
  assert (N : forall z, In z r -> f a <> f z).
  { intros z Hz E. rewrite <- not_true_iff_false in Ha. apply Ha. apply existsb_exists. exists (f z).
    split; [apply in_map; exact Hz|apply Z.eqb_eq; exact E]. }
  intros x y [<-|Hx] [<-|Hy] E; [reflexivity|destruct (N y Hy E)|destruct (N x Hx (eq_sym E))|apply IH; assumption].
Qed.

Lemma node_okb_ok w pt : node_okb w pt = true -> NodeOK w pt.
Proof.
  unfold node_okb. rewrite !andb_true_iff, !forallb_forall. intros ((Hs & Hi) & Hd). constructor.
  - intros s Hin Hpt. specialize (Hs s Hin). rewrite Hpt, Z.eqb_refl in Hs. cbn in Hs. apply andb_prop in Hs. destruct Hs as (L & _).
    apply existsb_exists in L. destruct L as (sg & Hsg & L). apply existsb_exists in L. destruct L as (cs & Hcs & L).
    exists sg, cs. repeat split; auto; lia.
  - intros i Hin Hpt. specialize (Hi i Hin). rewrite Hpt, Z.eqb_refl in Hi. cbn in Hi.
    apply existsb_exists in Hi. destruct Hi as (ig & Hig & L). apply existsb_exists in L. destruct L as (ci & Hci & L).
    exists ig, ci. repeat split; auto; lia.
  - intros s Hin Hpt. specialize (Hs s Hin). rewrite Hpt, Z.eqb_refl in Hs. cbn in Hs. apply andb_prop in Hs. apply Hs.
  - apply distinct_inj. exact Hd.
Qed.

Lemma in_shard_infos c pt f :
  In f (shard_infos c pt) <->
  exists sg cs, In sg (c_sgs c) /\ In cs (sg_shards sg) /\ cs_pt cs = pt /\
    f = {| si_id := cs_id cs; si_gid := sg_id sg; si_rp := sg_rp sg; si_end := sg_end sg; si_d := pol_d c (sg_rp sg) |}.
Proof.
  unfold shard_infos. rewrite in_flat_map. split.
  - intros (sg & Hsg & H). apply in_map_iff in H. destruct H as (cs & <- & H). apply filter_In in H. destruct H as (H & E).
    exists sg, cs. repeat split; auto. lia.
  - intros (sg & cs & Hsg & Hcs & E & ->). exists sg. split; [auto|]. apply in_map_iff. exists cs. split; [auto|].
    apply filter_In. split; [auto|lia].
Qed.
Lemma in_index_infos c pt f :
  In f (index_infos c pt) <->
  exists ig ci, In ig (c_igs c) /\ In ci (ig_ixs ig) /\ ci_pt ci = pt /\
    f = {| si_id := ci_id ci; si_gid := ig_id ig; si_rp := ig_rp ig; si_end := ig_end ig; si_d := pol_d c (ig_rp ig) |}.
Proof.
  unfold index_infos. rewrite in_flat_map. split.
  - intros (ig & Hig & H). apply in_map_iff in H. destruct H as (ci & <- & H). apply filter_In in H. destruct H as (H & E).
    exists ig, ci. repeat split; auto. lia.
  - intros (ig & ci & Hig & Hci & E & ->). exists ig. split; [auto|]. apply in_map_iff. exists ci. split; [auto|].
    apply filter_In. split; [auto|lia].
Qed.

Lemma find_info_some l id : (exists f, In f l /\ si_id f = id) -> exists f', find_info l id = Some f' /\ In f' l /\ si_id f' = id.
Proof.
  intros (f & Hf & E). unfold find_info. destruct (find (fun i => si_id i =? id) l) as [f'|] eqn:F.
  - apply find_some in F. destruct F. exists f'. repeat split; auto. lia.
  - exfalso. pose proof (find_none _ _ F f Hf) as N. cbn in N. lia.
Qed.

Lemma refresh_shard_fields infos pt s :
  xs_id (refresh_shard infos pt s) = xs_id s /\ xs_pt (refresh_shard infos pt s) = xs_pt s /\
  xs_end (refresh_shard infos pt s) = xs_end s /\ xs_ix (refresh_shard infos pt s) = xs_ix s /\
  xs_loaded (refresh_shard infos pt s) = xs_loaded s.
Proof.
  unfold refresh_shard. destruct ((xs_pt s =? pt) && xs_loaded s) eqn:E; [|auto].
  destruct (find_info infos (xs_id s)); cbn; repeat split; auto. rewrite andb_true_iff in E. symmetry. tauto.
Qed.
Lemma push_ix_fields infos shs pt i :
  xi_id (push_ix infos shs pt i) = xi_id i /\ xi_pt (push_ix infos shs pt i) = xi_pt i /\ xi_end (push_ix infos shs pt i) = xi_end i.
Proof. unfold push_ix. destruct (xi_pt i =? pt); [|auto]. destruct (find_last _ _); cbn; auto. Qed.
Lemma refresh_ix_fields infos pt i :
  xi_id (refresh_ix infos pt i) = xi_id i /\ xi_pt (refresh_ix infos pt i) = xi_pt i /\ xi_end (refresh_ix infos pt i) = xi_end i.
Proof. unfold refresh_ix. destruct (xi_pt i =? pt); [|auto]. destruct (find_info _ _); cbn; auto. Qed.

Lemma has_ix_map (f : xindex -> xindex) l id pt :
  (forall i, xi_id (f i) = xi_id i /\ xi_pt (f i) = xi_pt i) -> has_ix (map f l) id pt = has_ix l id pt.
Proof.
  intros H. unfold has_ix. induction l as [|x r IH]; cbn; [auto|]. destruct (H x) as (-> & ->). now rewrite IH.
Qed.

Lemma refresh_shard_loaded infos pt s f :
  xs_pt s = pt -> xs_loaded s = true -> find_info infos (xs_id s) = Some f ->
  refresh_shard infos pt s = {| xs_id := xs_id s; xs_pt := xs_pt s; xs_gid := si_gid f; xs_rp := xs_rp s; xs_end := xs_end s;
                                xs_dur := si_d f; xs_ix := xs_ix s; xs_loaded := true |}.
Proof. intros <- L F. unfold refresh_shard. rewrite Z.eqb_refl, L, F. reflexivity. Qed.

(* what the store of partition pt is told about a shard the catalogue lists for it: the span and the duration in force
   of the shard's group (ids are unique under XInv, so it does not matter which entry the lookup finds) *)
Lemma listed_shard_info c pt sg cs :
  XInv c -> In sg (c_sgs c) -> In cs (sg_shards sg) -> cs_pt cs = pt ->
  exists f, find_info (shard_infos c pt) (cs_id cs) = Some f /\ si_end f = sg_end sg /\ si_d f = pol_d c (sg_rp sg).
Proof.
  intros I Hsg Hcs Ept.
  destruct (find_info_some (shard_infos c pt) (cs_id cs)) as (f & Ff & Hf & Ef).
  { eexists. split; [apply in_shard_infos; exists sg, cs; repeat split; eauto|reflexivity]. }
  apply in_shard_infos in Hf. destruct Hf as (sg2 & cs2 & Hsg2 & Hcs2 & _ & ->). cbn in Ef.
  destruct (xv_shu _ I sg2 sg cs2 cs Hsg2 Hsg Hcs2 Hcs Ef) as (V1 & V2 & _).
  eexists. split; [exact Ff|]. cbn. rewrite V1, V2. split; reflexivity.
Qed.

(* `now` is the clock reading of the pass's shard decisions, `now2` that of its index decisions. The idea: the deleted
   index X sits in an index group that ends no earlier than the group of any shard using X (xv_cover), so X expired at
   now2 makes that group expired at now2 (expired_anti_end); the rest identifies the node's refreshed entries with the
   catalogue's through the uniqueness fields of XInv. *)
Lemma xtick_index_victims rep w pt now now2 :
  XInv (x_cat w) -> NodeOK w pt ->
  forall X, In X (l_ixs (snd (xtick rep w pt now now2))) ->
  forall s, In s (x_shards w) -> xs_pt s = pt -> xs_ix s = X ->
    exists sg cs, In sg (c_sgs (x_cat w)) /\ In cs (sg_shards sg) /\ cs_id cs = xs_id s /\ sg_end sg = xs_end s /\
                  expired (pol_d (x_cat w) (sg_rp sg)) (sg_end sg) now2 = true /\
                  (expired (pol_d (x_cat w) (sg_rp sg)) (sg_end sg) now = true ->
                   In (xs_id s) (l_shards (snd (xtick rep w pt now now2)))).
Proof.
  intros I N X HX s Hs Hpt HsX.
  set (c := x_cat w) in *.
  set (sinf := shard_infos c pt). set (iinf := index_infos c pt).
  set (shs1 := map (refresh_shard sinf pt) (x_shards w)).
  set (ixs1 := map (refresh_ix iinf pt) (map (push_ix sinf shs1 pt) (x_ixs w))).
  assert (EX : l_ixs (snd (xtick rep w pt now now2)) = map v_id (expired_ixs_x ixs1 iinf pt now2)) by reflexivity.
  assert (ES : l_shards (snd (xtick rep w pt now now2)) = map v_id (expired_shards_x shs1 sinf pt now)) by reflexivity.
  rewrite EX in HX. rewrite ES. clear EX ES.
  destruct (nk_sh _ _ N s Hs Hpt) as (sg & cs & Hsg & Hcs & Ecs & Ecpt & Ecix & Eend).
  apply in_map_iff in HX. destruct HX as (v & Ev & Hv). unfold expired_ixs_x in Hv. apply in_app_or in Hv.
  assert (Hix : has_ix ixs1 X pt = has_ix (x_ixs w) X pt).
  { unfold ixs1. rewrite has_ix_map; [|intros i; destruct (refresh_ix_fields iinf pt i) as (A & B & _); auto].
    apply has_ix_map. intros i; destruct (push_ix_fields sinf shs1 pt i) as (A & B & _); auto. }
  destruct Hv as [Hv|Hv].
  2:{ exfalso. apply in_map_iff in Hv. destruct Hv as (f & <- & Hf). apply filter_In in Hf. destruct Hf as (_ & Hf).
      cbn in Ev. rewrite andb_true_iff, negb_true_iff in Hf. destruct Hf as (Hf & _).
      rewrite Ev, Hix in Hf. pose proof (nk_ref _ _ N s Hs Hpt) as R. rewrite HsX in R. congruence. }
  apply in_map_iff in Hv. destruct Hv as (i1 & <- & Hi1). apply filter_In in Hi1. destruct Hi1 as (Hi1 & Fi1). cbn in Ev.
  rewrite andb_true_iff in Fi1. destruct Fi1 as (Ept1 & Exp1).
  unfold ixs1 in Hi1. apply in_map_iff in Hi1. destruct Hi1 as (i2 & <- & Hi2). apply in_map_iff in Hi2. destruct Hi2 as (i0 & <- & Hi0).
  set (ip := push_ix sinf shs1 pt i0) in *.
  destruct (push_ix_fields sinf shs1 pt i0) as (P1 & P2 & P3). fold ip in P1, P2, P3.
  destruct (refresh_ix_fields iinf pt ip) as (R1 & R2 & R3).
  assert (Ei0 : xi_id i0 = X) by congruence. assert (Ei0pt : xi_pt i0 = pt) by (apply Z.eqb_eq in Ept1; congruence).
  destruct (nk_ix _ _ N i0 Hi0 Ei0pt) as (ig & ci & Hig & Hci & Eci & Ecipt & Eigend).
  assert (Hfi : exists f, In f iinf /\ si_id f = xi_id ip).
  { eexists. split; [apply in_index_infos; exists ig, ci; repeat split; eauto|]. cbn. congruence. }
  destruct (find_info_some _ _ Hfi) as (f' & Ff & Hf' & Ef').
  assert (Edur : xi_dur (refresh_ix iinf pt ip) = si_d f').
  { unfold refresh_ix. rewrite P2, Ei0pt, Z.eqb_refl, Ff. reflexivity. }
  apply in_index_infos in Hf'. destruct Hf' as (ig' & ci' & Hig' & Hci' & _ & ->). cbn in Ef', Edur.
  destruct (xv_ixu _ I ig' ig ci' ci Hig' Hig Hci' Hci) as (U1 & U2); [congruence|].
  destruct (xv_cover _ I sg cs ig ci Hsg Hcs Hig Hci) as (Cv & Crp); [congruence|].
  rewrite Edur, R3, P3 in Exp1. rewrite U2, Crp in Exp1.
  assert (Hexp : expired (pol_d c (sg_rp sg)) (sg_end sg) now2 = true).
  { exact (expired_anti_end _ _ _ _ (Z.le_trans _ _ _ Cv Eigend) Exp1). }
  exists sg, cs. repeat split; auto. clear Hexp. intros Hexp.
  apply in_map_iff. unfold expired_shards_x.
  destruct (listed_shard_info c pt sg cs I Hsg Hcs Ecpt) as (f & Fs & Fend & Fd). rewrite Ecs in Fs.
  destruct (xs_loaded s) eqn:L.
  - pose proof (refresh_shard_loaded sinf pt s f Hpt L Fs) as Er.
    exists {| v_id := xs_id s; v_gid := si_gid f; v_rp := xs_rp s |}. split; [reflexivity|]. apply in_or_app. left.
    apply in_map_iff. exists (refresh_shard sinf pt s). split; [rewrite Er; reflexivity|].
    apply filter_In. split; [apply in_map; exact Hs|].
    rewrite Er. cbn. rewrite Hpt, Z.eqb_refl, Fd, <- Eend. exact Hexp.
  - assert (Hfs : In {| si_id := cs_id cs; si_gid := sg_id sg; si_rp := sg_rp sg; si_end := sg_end sg; si_d := pol_d c (sg_rp sg) |} sinf)
      by (apply in_shard_infos; exists sg, cs; repeat split; auto).
    eexists. split; [|apply in_or_app; right; apply in_map_iff; eexists; split; [reflexivity|apply filter_In; split; [exact Hfs|]]].
    + exact Ecs.
    + cbn. rewrite Hexp, andb_true_r. apply negb_true_iff.
      destruct (existsb _ shs1) eqn:Ex; [|reflexivity]. exfalso. apply existsb_exists in Ex. destruct Ex as (s1 & Hs1 & Q).
      unfold shs1 in Hs1. apply in_map_iff in Hs1. destruct Hs1 as (s0 & <- & Hs0).
      destruct (refresh_shard_fields sinf pt s0) as (A & B & _ & _ & D). rewrite A, B, D in Q.
      apply andb_prop in Q. destruct Q as (Q & Ql). apply andb_prop in Q. destruct Q as (Qi & _). apply Z.eqb_eq in Qi.
      assert (s0 = s) by (apply (nk_uniq _ _ N); [assumption|assumption|congruence]). subst s0. congruence.
Qed.
