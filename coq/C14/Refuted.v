(* C14 - what the code violated before fixes 76d3742 and b988d37 (the `false` variants of the extended model mirror it;
   the correspondence check confirms on every run which variant the working tree implements). Witnesses closed by
   vm_compute. *)
From Coq Require Import ZArith List Bool.
From OG Require Import C14.Model C14.XModel C14.XInv.
Import ListNotations.
Open Scope Z_scope.

Definition HR : Z := 3600000000000.

(* finding C14-index-outlived-by-shard. Policy: duration 1h, shard groups 1h, index groups 4h. A first group is
   written; ALTER raises the duration to 7d and the shard duration to 12h; the next write (one hour later) gets a
   12h shard group whose index is taken from the old 4h index group. One nanosecond after indexgroup.end + 7d the
   retention pass deletes the index although the 12h shard that uses it stays on the node, unexpired for 8 more hours. *)
Definition w1_pols := [{| xp_id := 1; xp_d := HR; xp_sgd := HR; xp_igd := 4 * HR |}].
Definition w1_events := [XCreate 1 (472140 * HR + 100); XAlter 1 (Some (168 * HR)) (Some (12 * HR)) None;
                         XCreate 1 (472141 * HR + 100); XMat 1 true; XMat 2 true].
Definition w1_now := 472144 * HR + 168 * HR + 1.

Theorem C14_index_outlived_by_shard_refuted :
  exists ps n es pt now,
    let r := xrun false false false (xworld0 ps n) (es ++ [XTick pt now now]) in
    exists s, In s (x_shards (fst r)) /\ xs_pt s = pt /\
              In (xs_ix s) (l_ixs (last (snd r) nolog)) /\            (* its index was deleted by this pass *)
              has_ix (x_ixs (fst r)) (xs_ix s) pt = false /\          (* and is gone from the node *)
              expired (pol_d (x_cat (fst r)) (xs_rp s)) (xs_end s) now = false.   (* while the shard has not expired *)
Proof.
  exists w1_pols, 1%nat, w1_events, 0, w1_now. intros r. (* r stays a definition: the run is evaluated once *)
  exists {| xs_id := 2; xs_pt := 0; xs_gid := 2; xs_rp := 1; xs_end := 1699747200000000000; xs_dur := 604800000000000;
            xs_ix := 1; xs_loaded := true |}.
  vm_compute. intuition.
Qed.
Print Assumptions C14_index_outlived_by_shard_refuted.

(* the same history under the repaired index-group choice: the 12h group gets a fresh index group, the pass deletes
   only the expired 1h shard and ITS index, and the 12h shard keeps its index *)
Example C14_index_kept_when_repaired :
  let r := xrun true false false (xworld0 w1_pols 1) (w1_events ++ [XTick 0 w1_now w1_now]) in
  map xs_id (x_shards (fst r)) = [2] /\ map xi_id (x_ixs (fst r)) = [2] /\ l_ixs (last (snd r) nolog) = [1].
Proof. vm_compute. auto. Qed.

(* the index-group choice before fix 76d3742 breaks the invariant of XInv.v *)
Theorem C14_index_cover_refuted :
  exists ps n es, let c := x_cat (fst (xrun false false false (xworld0 ps n) es)) in
    exists sg s ig i, In sg (c_sgs c) /\ In s (sg_shards sg) /\ In ig (c_igs c) /\ In i (ig_ixs ig) /\ ci_id i = cs_ix s /\
                      ig_end ig < sg_end sg.
Proof.
  exists w1_pols, 1%nat, w1_events. intros c.
  exists {| sg_id := 2; sg_rp := 1; sg_start := 1699704000000000000; sg_end := 1699747200000000000; sg_del := false;
            sg_shards := [{| cs_id := 2; cs_pt := 0; cs_ix := 1; cs_md := false |}] |},
         {| cs_id := 2; cs_pt := 0; cs_ix := 1; cs_md := false |},
         {| ig_id := 1; ig_rp := 1; ig_start := 1699704000000000000; ig_end := 1699718400000000000; ig_del := false;
            ig_ixs := [{| ci_id := 1; ci_pt := 0; ci_md := false |}] |},
         {| ci_id := 1; ci_pt := 0; ci_md := false |}.
  vm_compute. intuition.
Qed.
Print Assumptions C14_index_cover_refuted.

(* finding C14-prune-marks-neighbour. Two partitions, groups {1,2} (old) and {3,4} (20 hours younger); a third
   partition is added: ExpandGroups gives the groups the shards 5 and 6, so the id ranges are [1,5] and [3,6]. The
   retention pass of partition 2 expires shard 5 of the old group and prunes it; the catalogue also marks shard 6 of
   the younger group - not expired, not deleted by anyone - as deleted. *)
Definition w2_pols := [{| xp_id := 1; xp_d := HR; xp_sgd := HR; xp_igd := HR |}].
Definition w2_events := [XCreate 1 (472140 * HR); XCreate 1 (472160 * HR); XExpand; XMat 1 true; XMat 2 true].
Definition w2_now := 472141 * HR + HR + 1.

Theorem C14_prune_neighbour_refuted :
  exists ps n es pt now,
    let r := xrun false false false (xworld0 ps n) (es ++ [XTick pt now now]) in
    exists sg s, In sg (c_sgs (x_cat (fst r))) /\ In s (sg_shards sg) /\ cs_md s = true /\
                 ~ In (cs_id s) (l_shards (last (snd r) nolog)) /\                      (* the pass did not delete it *)
                 expired (pol_d (x_cat (fst r)) (sg_rp sg)) (sg_end sg) now = false /\  (* its group has not expired *)
                 has_shard (fst r) (cs_id s) = true.                                    (* and it is still on its node *)
Proof.
  exists w2_pols, 2%nat, w2_events, 2, w2_now. intros r.
  exists {| sg_id := 2; sg_rp := 1; sg_start := 1699776000000000000; sg_end := 1699779600000000000; sg_del := false;
            sg_shards := [{| cs_id := 3; cs_pt := 0; cs_ix := 3; cs_md := false |}; {| cs_id := 4; cs_pt := 1; cs_ix := 4; cs_md := false |};
                          {| cs_id := 6; cs_pt := 2; cs_ix := 6; cs_md := true |}] |},
         {| cs_id := 6; cs_pt := 2; cs_ix := 6; cs_md := true |}.
  vm_compute. intuition; try discriminate.
Qed.
Print Assumptions C14_prune_neighbour_refuted.

(* the same history with the repaired pruning marks nothing but shard 5 *)
Example C14_prune_exact_when_repaired :
  let r := xrun false true false (xworld0 w2_pols 2) (w2_events ++ [XTick 2 w2_now w2_now]) in
  flat_map (fun g => map cs_id (filter cs_md (sg_shards g))) (c_sgs (x_cat (fst r))) = [5].
Proof. vm_compute. auto. Qed.
