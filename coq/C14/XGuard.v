(* C14 - a proposed engine-side hardening (props/C14/harden1.patch): ExpiredIndexes does not report a loaded index as
   long as a loaded shard of the partition that holds this index builder is itself not expired. Modelled as a filter on
   the index victims of a pass; proved REDUNDANT (it never filters anything) when the catalogue satisfies XInv and the
   node agrees with it - i.e. harmless under the repaired catalogue, a second line of defence otherwise. *)
From Coq Require Import ZArith List Bool Lia ZifyBool.
From OG Require Import C14.Model C14.Proofs C14.XModel C14.XProofs C14.XInv C14.XNode.
Import ListNotations.
Open Scope Z_scope.

(* the shards of the node as the pass sees them after the duration refresh *)
Definition pass_shards (w : xworld) (pt : Z) : list xshard := map (refresh_shard (shard_infos (x_cat w) pt) pt) (x_shards w).

(* no loaded shard of the partition that uses index X is unexpired at the reading of the index decisions *)
Definition guard_ok (shs : list xshard) (pt now2 X : Z) : bool :=
  forallb (fun s => negb ((xs_pt s =? pt) && xs_loaded s && (xs_ix s =? X)) || expired (xs_dur s) (xs_end s) now2) shs.

Lemma guard_redundant rep w pt now now2 :
  XInv (x_cat w) -> NodeOK w pt ->
  forall X, In X (l_ixs (snd (xtick rep w pt now now2))) -> guard_ok (pass_shards w pt) pt now2 X = true.
Proof.
  intros I N X HX. unfold guard_ok. apply forallb_forall. intros s1 Hs1.
  unfold pass_shards in Hs1. apply in_map_iff in Hs1. destruct Hs1 as (s & <- & Hs).
  set (sinf := shard_infos (x_cat w) pt).
  destruct (refresh_shard_fields sinf pt s) as (F1 & F2 & F3 & F4 & F5). rewrite F2, F4, F5, F3.
  destruct ((xs_pt s =? pt) && xs_loaded s && (xs_ix s =? X)) eqn:U; [|reflexivity]. cbn [negb orb].
  apply andb_prop in U. destruct U as (U & Hx). apply andb_prop in U. destruct U as (Hpt & Hl).
  apply Z.eqb_eq in Hpt, Hx.
  destruct (xtick_index_victims rep w pt now now2 I N X HX s Hs Hpt Hx) as (sg & cs & Hsg & Hcs & Ecs & Eend & Hexp & _).
  destruct (nk_sh _ _ N s Hs Hpt) as (sg0 & cs0 & Hsg0 & Hcs0 & Ecs0 & Ept0 & _).
  destruct (xv_shu _ I sg0 sg cs0 cs Hsg0 Hsg Hcs0 Hcs) as (V1 & V2 & _); [congruence|].
  destruct (listed_shard_info _ pt sg0 cs0 I Hsg0 Hcs0 Ept0) as (f & Ff & _ & Fd). rewrite Ecs0 in Ff.
  rewrite (refresh_shard_loaded sinf pt s f Hpt Hl Ff). cbn. rewrite Fd, V2, <- Eend. exact Hexp.
Qed.
