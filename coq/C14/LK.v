(* C14 - the LogKeeper flavour of the retention service (services/retention Service.HandleSharedStorage with
   metaclient.Client.GetExpiredShards / GetExpiredIndexes): deletion in two phases.
     phase 1  a shard group that is not marked and is expired under the policy's CURRENT duration (d <> 0, end + d < now)
              is marked deleted, DeletedAt := the clock reading of the pass (DelayDeleteShardGroup); from then on every
              read path skips it (Deleted()).
     phase 2  a group whose mark is at least RetentionDelayedTime (24h) old has the files of its unmarked shards removed
              and the shards pruned; THE POLICY DURATION IS NOT CONSULTED AGAIN.
     recall   RevertRetentionPolicyDelete (HTTP "recall data") clears the marks of a policy.
   Both lists of a pass are computed from one snapshot of the catalogue taken before the pass changes anything.
   The ghost field lg_markd remembers the duration in force when the mark was set (not in the code; used by the proofs). *)
From Coq Require Import ZArith List Bool Lia ZifyBool.
From OG Require Import C14.Model C14.Proofs.
Import ListNotations.
Open Scope Z_scope.

Definition DAY : Z := 24 * 3600 * 1000000000.

Record lshard := { ls_id : Z; ls_md : bool }.
Record lgroup := { lg_id : Z; lg_end : Z; lg_mark : option Z (* DeletedAt *); lg_markd : Z (* ghost *); lg_shards : list lshard }.
Record lworld := { l_d : Z; l_groups : list lgroup }.

Definition lk_to_mark (d now : Z) (g : lgroup) : bool :=
  match lg_mark g with None => expired d (lg_end g) now | Some _ => false end.
Definition lk_to_delete (now : Z) (g : lgroup) : bool :=
  match lg_mark g with None => false | Some t => negb (now <? t + DAY) end.

Definition lk_mark (d now : Z) (g : lgroup) : lgroup :=
  if lk_to_mark d now g then {| lg_id := lg_id g; lg_end := lg_end g; lg_mark := Some now; lg_markd := d; lg_shards := lg_shards g |} else g.

(* deletion record: group, shard, clock reading *)
Record ldel := { ld_gid : Z; ld_sid : Z; ld_now : Z }.

Definition lk_tick (w : lworld) (now : Z) : lworld * list ldel :=
  let dels := flat_map (fun g => if lk_to_delete now g
                                 then map (fun s => {| ld_gid := lg_id g; ld_sid := ls_id s; ld_now := now |})
                                          (filter (fun s => negb (ls_md s)) (lg_shards g))
                                 else []) (l_groups w) in
  (* every unmarked shard of such a group is removed and pruned: all its shards are then marked and the group goes *)
  ({| l_d := l_d w; l_groups := map (lk_mark (l_d w) now) (filter (fun g => negb (lk_to_delete now g)) (l_groups w)) |}, dels).

Definition lk_recall (w : lworld) : lworld :=
  {| l_d := l_d w;
     l_groups := map (fun g => {| lg_id := lg_id g; lg_end := lg_end g; lg_mark := None; lg_markd := 0; lg_shards := lg_shards g |}) (l_groups w) |}.

Inductive levent :=
| LAdd (gid endT : Z) (shards : list Z)
| LAlter (d : Z)
| LTick (now : Z)
| LRecall.

Definition lk_step (w : lworld) (e : levent) : lworld * list ldel :=
  match e with
  | LAdd gid e sh => ({| l_d := l_d w; l_groups := l_groups w ++ [{| lg_id := gid; lg_end := e; lg_mark := None; lg_markd := 0;
                                                                    lg_shards := map (fun s => {| ls_id := s; ls_md := false |}) sh |}] |}, [])
  | LAlter d => ({| l_d := d; l_groups := l_groups w |}, [])
  | LTick now => lk_tick w now
  | LRecall => (lk_recall w, [])
  end.

Fixpoint lk_run (w : lworld) (es : list levent) : lworld * list ldel :=
  match es with
  | [] => (w, [])
  | e :: r => let '(w1, d1) := lk_step w e in let '(w2, d2) := lk_run w1 r in (w2, d1 ++ d2)
  end.

(* every mark was justified when it was set: the group was expired under the duration then in force *)
Definition LInv (w : lworld) : Prop :=
  forall g t, In g (l_groups w) -> lg_mark g = Some t -> lg_markd g <> 0 /\ lg_end g + lg_markd g < t.

Lemma LInv_step w e : LInv w -> LInv (fst (lk_step w e)).
Proof.
  intros I. destruct e; cbn.
  - intros g t Hg Hm. apply in_app_or in Hg. destruct Hg as [Hg|[<-|[]]]; [eauto|discriminate].
  - exact I.
  - intros g t Hg Hm. apply in_map_iff in Hg. destruct Hg as (g0 & <- & Hg0). apply filter_In in Hg0. destruct Hg0 as (Hg0 & _).
    unfold lk_mark in *. destruct (lk_to_mark (l_d w) now g0) eqn:E; [|eauto].
    cbn in *. inversion Hm; subst. unfold lk_to_mark in E. destruct (lg_mark g0); [discriminate|]. apply expired_spec in E. exact E.
  - intros g t Hg Hm. apply in_map_iff in Hg. destruct Hg as (g0 & <- & _). discriminate.
Qed.

Lemma LInv_run es : forall w, LInv w -> LInv (fst (lk_run w es)).
Proof.
  induction es as [|e r IH]; cbn; [auto|]. intros w I. pose proof (LInv_step w e I) as H.
  destruct (lk_step w e) as (w1, d1). cbn in H. specialize (IH w1 H). destruct (lk_run w1 r) as (w2, d2). auto.
Qed.

Lemma lk_tick_deletes w now r :
  In r (snd (lk_tick w now)) ->
  exists g t, In g (l_groups w) /\ lg_id g = ld_gid r /\ lg_mark g = Some t /\ t + DAY <= now /\ ld_now r = now.
Proof.
  cbn. intros H. apply in_flat_map in H. destruct H as (g & Hg & H). destruct (lk_to_delete now g) eqn:E; [|destruct H].
  apply in_map_iff in H. destruct H as (s & <- & _). unfold lk_to_delete in E. destruct (lg_mark g) as [t|] eqn:M; [|discriminate].
  exists g, t. repeat split; auto. apply negb_true_iff in E. apply Z.ltb_ge in E. exact E.
Qed.

Lemma lk_run_app w es1 es2 :
  lk_run w (es1 ++ es2) = (fst (lk_run (fst (lk_run w es1)) es2), snd (lk_run w es1) ++ snd (lk_run (fst (lk_run w es1)) es2)).
Proof.
  revert w. induction es1 as [|e r IH]; intros w; cbn; [destruct (lk_run w es2); reflexivity|].
  destruct (lk_step w e) as (w1, d1). rewrite IH. destruct (lk_run w1 r) as (w2, d2). cbn. now rewrite app_assoc.
Qed.

Lemma lk_run_origin es : forall w r, In r (snd (lk_run w es)) ->
  exists pre post, es = pre ++ LTick (ld_now r) :: post /\ In r (snd (lk_tick (fst (lk_run w pre)) (ld_now r))).
Proof.
  induction es as [|e es IH]; cbn; intros w r H; [destruct H|].
  destruct (lk_step w e) as (w1, d1) eqn:S. destruct (lk_run w1 es) as (w2, d2) eqn:R. cbn in H.
  apply in_app_or in H. destruct H as [H|H].
  - destruct e; cbn [lk_step] in S; try (injection S as <- <-; destruct H).
    assert (Ed : d1 = snd (lk_tick w now)) by (rewrite S; reflexivity). subst d1.
    assert (En : ld_now r = now) by (destruct (lk_tick_deletes w now r H) as (_ & _ & _ & _ & _ & _ & E); exact E).
    exists [], es. rewrite En. split; [reflexivity|exact H].
  - specialize (IH w1 r). rewrite R in IH. destruct (IH H) as (pre & post & -> & Hin).
    exists (e :: pre), post. split; [reflexivity|]. cbn. rewrite S. destruct (lk_run w1 pre). exact Hin.
Qed.

(* "raising the duration after the mark does not cancel the deletion without an explicit recall": a group expired under
   d = 1h is marked; the policy is made unlimited; 24h after the mark the pass deletes the group's shards all the same.
   The mark is the moment the deletion takes effect for readers (every read path skips Deleted() groups); the 24h are a
   grace period in which "recall data" (LRecall) brings the group back - see NOTES. *)
Example lk_raise_after_mark_is_not_a_recall :
  let H := 3600000000000 in
  snd (lk_run {| l_d := H; l_groups := [] |} [LAdd 1 (10 * H) [1; 2]; LTick (11 * H + 1); LAlter 0; LTick (11 * H + 1 + DAY)])
    = [{| ld_gid := 1; ld_sid := 1; ld_now := 11 * H + 1 + DAY |}; {| ld_gid := 1; ld_sid := 2; ld_now := 11 * H + 1 + DAY |}] /\
  snd (lk_run {| l_d := H; l_groups := [] |} [LAdd 1 (10 * H) [1; 2]; LTick (11 * H + 1); LAlter 0; LRecall; LTick (11 * H + 1 + DAY)]) = [] /\
  snd (lk_run {| l_d := H; l_groups := [] |} [LAdd 1 (10 * H) [1; 2]; LAlter 0; LTick (11 * H + 1); LTick (11 * H + 1 + DAY)]) = [].
Proof. vm_compute. auto. Qed.

Definition lobs := (list (Z * Z * option Z * list (Z * bool)) * list Z)%type.
Fixpoint ins_z (x : Z) (l : list Z) : list Z := match l with [] => [x] | y :: r => if x <=? y then x :: l else y :: ins_z x r end.
Definition lk_obs (w : lworld) (dl : list ldel) : lobs :=
  (map (fun g => (lg_id g, lg_end g, lg_mark g, map (fun s => (ls_id s, ls_md s)) (lg_shards g))) (l_groups w),
   fold_right ins_z [] (map ld_sid dl)).
Fixpoint eqb_list {A} (e : A -> A -> bool) (a b : list A) : bool :=
  match a, b with [], [] => true | x :: a', y :: b' => e x y && eqb_list e a' b' | _, _ => false end.
Definition oz_eqb (a b : option Z) : bool := match a, b with None, None => true | Some x, Some y => x =? y | _, _ => false end.
Definition lobs_eqb (a b : lobs) : bool :=
  eqb_list (fun x y => match x, y with (i1, e1, m1, s1), (i2, e2, m2, s2) =>
              (i1 =? i2) && (e1 =? e2) && oz_eqb m1 m2 && eqb_list (fun p q : Z * bool => (fst p =? fst q) && Bool.eqb (snd p) (snd q)) s1 s2 end)
           (fst a) (fst b) && eqb_list Z.eqb (snd a) (snd b).
(* groups are compared in id order: the harness sorts, the model keeps creation order = id order *)
Fixpoint lk_check_from (i : nat) (w : lworld) (es : list levent) (os : list lobs) : option nat :=
  match es, os with
  | [], _ => None
  | e :: es', o :: os' => let '(w', dl) := lk_step w e in if lobs_eqb (lk_obs w' dl) o then lk_check_from (S i) w' es' os' else Some i
  | _ :: _, [] => Some i
  end.
Definition lkcase := (Z * list levent * list lobs)%type.
Definition lk_verdict (c : lkcase) : nat :=
  match c with (d0, es, os) => match lk_check_from 0 {| l_d := d0; l_groups := [] |} es os with None => O | Some i => S i end end.
Definition lk_verdicts (cs : list lkcase) : list nat := map lk_verdict cs.
