(* C14 - the index part of "the node agrees with the catalogue", as an invariant over all traces: an index held by a
   store node ends no earlier than EVERY catalogue index group that still lists its id, and belongs to the same policy
   (NodeIxAgree). "No earlier" rather than "equal": a store learns the span of a new index through
   getIndexGroupTimeRange, an id-RANGE lookup scanned from the latest-ending group, which after ExpandGroups may hit a
   later-ending group than the one that really holds the id - the safe direction. *)
From Coq Require Import ZArith List Bool Lia ZifyBool.
From OG Require Import C14.Model C14.Proofs C14.XModel C14.XProofs C14.XInv C14.XAgree.
Import ListNotations.
Open Scope Z_scope.

Definition AscIx (c : cat) : Prop := forall ig, In ig (c_igs c) -> asc (map ci_id (ig_ixs ig)).

Lemma asc_app l1 l2 : asc l1 -> asc l2 -> (forall x y, In x l1 -> In y l2 -> x < y) -> asc (l1 ++ l2).
Proof.
  induction l1 as [|a r IH]; [cbn; auto|]. intros (H1 & H2) A2 L. change ((a :: r) ++ l2) with (a :: (r ++ l2)). split.
  - intros y Hy. apply in_app_or in Hy. destruct Hy as [Hy|Hy]; [apply H1; exact Hy|apply L; [left; reflexivity|exact Hy]].
  - apply IH; [exact H2|exact A2|]. intros x y Hx Hy. apply L; [right; exact Hx|exact Hy].
Qed.
Lemma fresh_ixs_asc n : forall from m, asc (map ci_id (fresh_ixs n from m)).
Proof.
  induction n as [|n IH]; cbn; [auto|]. intros from m. split; [|apply IH].
  intros y Hy. apply in_map_iff in Hy. destruct Hy as (i & <- & Hi). apply fresh_ixs_spec in Hi. lia.
Qed.

Lemma mark_ci_ids rep id l : map ci_id (mark_ci rep id l) = map ci_id l.
Proof.
  induction l as [|x r IH]; cbn; [auto|]. destruct (id <=? ci_id x).
  - destruct (rep && negb (ci_id x =? id)); reflexivity.
  - cbn. now rewrite IH.
Qed.

Lemma AscIx_create_ig rep c rp igd ts e : AscIx c -> AscIx (fst (create_ig rep c rp igd ts e)).
Proof.
  intros A ig H. cbn in H. apply in_app_or in H. destruct H as [H|[<-|[]]]; [auto|cbn; apply fresh_ixs_asc].
Qed.
Lemma AscIx_ig_if_needed rep c rp igd ts e : AscIx c -> AscIx (fst (ig_if_needed rep c rp igd ts e)).
Proof.
  intros A. unfold ig_if_needed. destruct (pick_ig _ _ _ _ _); [destruct (_ <=? _)%nat|]; cbn [fst]; auto; apply AscIx_create_ig; auto.
Qed.
Lemma ix_side_create_sg rep clip c rp ts :
  (c_igs (create_sg rep clip c rp ts) = c_igs c /\ c_maxix (create_sg rep clip c rp ts) = c_maxix c) \/
  exists igd e, c_igs (create_sg rep clip c rp ts) = c_igs (fst (ig_if_needed rep c rp igd ts e)) /\
                c_maxix (create_sg rep clip c rp ts) = c_maxix (fst (ig_if_needed rep c rp igd ts e)).
Proof.
  unfold create_sg. destruct (find_pol _ _) as [p|]; [|auto]. destruct (existsb _ _); [auto|]. cbv zeta.
  right. eexists _, _. destruct (ig_if_needed _ _ _ _ _ _) eqn:E. cbn. rewrite E. auto.
Qed.
Lemma AscIx_create_sg rep clip c rp ts : AscIx c -> AscIx (create_sg rep clip c rp ts).
Proof.
  intros A. destruct (ix_side_create_sg rep clip c rp ts) as [(E & _)|(igd & e & E & _)]; intros ig H; rewrite E in H; [auto|].
  apply (AscIx_ig_if_needed rep c rp igd ts e A); auto.
Qed.
Lemma AscIx_grow_ig c gid : XInv c -> AscIx c -> AscIx (grow_ig c gid).
Proof.
  intros I A. unfold grow_ig. destruct (find _ _) as [g0|]; [|auto]. intros ig H. cbn in H.
  apply in_map_iff in H. destruct H as (g & <- & Hg). destruct (ig_id g =? gid); [|auto]. cbn. rewrite map_app.
  apply asc_app; [auto|apply fresh_ixs_asc|].
  intros x y Hx Hy. apply in_map_iff in Hx. apply in_map_iff in Hy. destruct Hx as (i & <- & Hi), Hy as (j & <- & Hj).
  pose proof (xv_ixb _ I _ _ Hg Hi). apply fresh_ixs_spec in Hj. lia.
Qed.
Lemma ix_side_grow_sg_one rep c gid k :
  (c_igs (grow_sg_one rep c gid k) = c_igs c /\ c_maxix (grow_sg_one rep c gid k) = c_maxix c) \/
  exists rp igd ts e, c_igs (grow_sg_one rep c gid k) = c_igs (fst (ig_if_needed rep c rp igd ts e)) /\
                      c_maxix (grow_sg_one rep c gid k) = c_maxix (fst (ig_if_needed rep c rp igd ts e)).
Proof.
  unfold grow_sg_one. destruct (find _ _) as [g0|]; [|auto]. destruct (find_pol _ _) as [p|]; [|auto].
  right. eexists _, _, _, _. destruct (ig_if_needed _ _ _ _ _ _) eqn:E. cbn. rewrite E. auto.
Qed.
Lemma AscIx_grow_sg_one rep c gid k : AscIx c -> AscIx (grow_sg_one rep c gid k).
Proof.
  intros A. destruct (ix_side_grow_sg_one rep c gid k) as [(E & _)|(rp & igd & ts & e & E & _)]; intros ig H; rewrite E in H; [auto|].
  apply (AscIx_ig_if_needed rep c rp igd ts e A); auto.
Qed.

(* what the index side carries along a trace: the catalogue invariant with ascending index ids *)
Definition AI (c : cat) : Prop := XInv c /\ AscIx c.

Lemma AI_expand c : AI c -> AI (expand true c).
Proof.
  intros (I & A). unfold expand. apply (fold_inv AI).
  - intros a rp Ha. unfold expand_pol. apply (fold_inv AI).
    + intros b gid (Ib & Ab). unfold grow_sg. destruct (find _ _); [|split; auto]. apply (fold_inv AI); [|split; auto].
      intros d k (Id & Ad). split; [apply XInv_grow_sg_one; auto|apply AscIx_grow_sg_one; auto].
    + apply (fold_inv AI); [|auto]. intros b gid (Ib & Ab). split; [apply XInv_grow_ig; auto|apply AscIx_grow_ig; auto].
  - split; [destruct I; constructor; cbn; auto|exact A].
Qed.

Lemma AscIx_sub c c' : AscIx c -> (forall g', In g' (c_igs c') -> exists g, In g (c_igs c) /\ map ci_id (ig_ixs g') = map ci_id (ig_ixs g)) -> AscIx c'.
Proof. intros A S g' H. destruct (S _ H) as (g & Hg & E). rewrite E. auto. Qed.

Lemma AscIx_xtick rep w pt now now2 : AscIx (x_cat w) -> AscIx (x_cat (fst (xtick rep w pt now now2))).
Proof.
  intros A. unfold xtick. cbn.
  assert (F : forall (l : list victim) c, AscIx c -> AscIx (fold_left (fun c' v => prune_ig rep (del_ig c' (v_rp v) (v_gid v)) (v_id v)) l c)).
  { induction l as [|v r IH]; cbn; [auto|]. intros c Ac. apply IH. eapply AscIx_sub; [exact Ac|].
    intros g'. unfold prune_ig, del_ig; cbn. rewrite filter_In, in_map_iff. intros ((g1 & <- & H1) & _).
    apply in_map_iff in H1. destruct H1 as (g & <- & Hg). exists g. split; [auto|].
    unfold prune_mark_ig. destruct (_ && _); cbn.
    - rewrite mark_ci_ids. destruct (_ && _); reflexivity.
    - destruct (_ && _); reflexivity. }
  apply F.
  assert (G : forall (l : list victim) c, AscIx c -> AscIx (fold_left (fun c' v => prune_sg rep (del_sg c' (v_rp v) (v_gid v)) (v_id v)) l c)).
  { induction l as [|v r IH]; cbn; [auto|]. intros c Ac. apply IH. intros ig H. cbn in H. auto. }
  apply G. exact A.
Qed.

Lemma AI_xstep repP clip w e : AI (x_cat w) -> AI (x_cat (fst (xstep true repP clip w e))).
Proof.
  intros (I & A). split; [apply XInv_xstep; auto|].
  destruct e; cbn [xstep fst].
  - cbn. apply AscIx_create_sg; auto.
  - rewrite x_cat_materialise. auto.
  - destruct (alter_cat _ _ _ _ _) eqn:E; cbn; [|auto]. destruct (alter_cat_pols _ _ _ _ _ _ E) as (ps & ->). exact A.
  - cbn. apply AI_expand. split; auto.
  - apply AscIx_xtick; auto.
  - auto.
  - cbn. auto.
Qed.

(* the id-range lookup returns a group that ends no earlier: the policy's groups are kept sorted by end *)
Fixpoint sorted_end (l : list igroup) : Prop :=
  match l with [] => True | x :: r => (forall y, In y r -> ig_end x <= ig_end y) /\ sorted_end r end.

Lemma ins_ig_sorted x l : sorted_end l -> sorted_end (ins_ig x l).
Proof.
  induction l as [|y r IH]; [cbn; intros _; split; [intros ? []|exact I]|]. cbn. intros (Hy & Hr).
  destruct (span_less (ig_end x) (ig_start x) (ig_end y) (ig_start y)) eqn:E; cbn.
  - split; [|auto]. unfold span_less in E. intros z [<-|Hz]; [lia|]. specialize (Hy z Hz). lia.
  - split; [|auto]. unfold span_less in E. intros z Hz. apply in_ins_ig in Hz. destruct Hz as [->|Hz]; [lia|auto].
Qed.
Lemma rp_igs_sorted c rp : sorted_end (rp_igs c rp).
Proof.
  unfold rp_igs. generalize (filter (fun g => ig_rp g =? rp) (c_igs c)).
  assert (G : forall l acc, sorted_end acc -> sorted_end (fold_left (fun a g => ins_ig g a) l acc)).
  { induction l as [|x r IH]; cbn; [auto|]. intros acc H. apply IH. apply ins_ig_sorted; auto. }
  intros l. apply G. cbn. auto.
Qed.
Lemma find_last_none {A} (p : A -> bool) l : find_last p l = None -> forall x, In x l -> p x = false.
Proof.
  induction l as [|y r IH]; cbn; [tauto|]. destruct (find_last p r); [discriminate|]. destruct (p y) eqn:E; [discriminate|].
  intros _ x [<-|H]; auto.
Qed.
Lemma find_last_sorted p l : sorted_end l -> forall x, In x l -> p x = true ->
  exists y, find_last p l = Some y /\ ig_end x <= ig_end y.
Proof.
  induction l as [|z r IH]; cbn; [tauto|]. intros (Hz & Hr) x [->|Hx] Px.
  - destruct (find_last p r) as [y|] eqn:F.
    + exists y. split; [auto|]. apply find_last_in in F. destruct F. auto.
    + rewrite Px. exists x. split; [auto|lia].
  - destruct (IH Hr x Hx Px) as (y & -> & L). exists y. auto.
Qed.

Lemma ix_group_of_covers c rp ig ci :
  AscIx c -> In ig (c_igs c) -> ig_rp ig = rp -> In ci (ig_ixs ig) ->
  exists g', ix_group_of c rp (ci_id ci) = Some g' /\ ig_end ig <= ig_end g'.
Proof.
  intros A Hig Hrp Hci. unfold ix_group_of. apply find_last_sorted; [apply rp_igs_sorted|apply in_rp_igs; auto|].
  pose proof (ci_range _ _ (A ig Hig) Hci). lia.
Qed.

(* BackI c c': the catalogue c' has not re-issued or re-labelled an index id of c (the index counterpart of XAgree.Back) *)
Definition BackI (c c' : cat) : Prop :=
  c_maxix c <= c_maxix c' /\
  forall ig' ci', In ig' (c_igs c') -> In ci' (ig_ixs ig') -> ci_id ci' <= c_maxix c ->
    exists ig ci, In ig (c_igs c) /\ In ci (ig_ixs ig) /\ ci_id ci = ci_id ci' /\ ig_end ig = ig_end ig' /\ ig_rp ig = ig_rp ig'.

Lemma BackI_same c c' : c_igs c' = c_igs c -> c_maxix c' = c_maxix c -> BackI c c'.
Proof. intros E M. split; [lia|]. rewrite E. intros ig ci H1 H2 _. exists ig, ci. auto. Qed.
Lemma BackI_refl c : BackI c c.
Proof. apply BackI_same; auto. Qed.
Lemma BackI_trans a b c : BackI a b -> BackI b c -> BackI a c.
Proof.
  intros (M1 & B1) (M2 & B2). split; [lia|]. intros g3 i3 H1 H2 Hb.
  destruct (B2 g3 i3 H1 H2) as (g2 & i2 & G1 & G2 & E1 & E2 & E3); [lia|].
  destruct (B1 g2 i2 G1 G2) as (g1 & i1 & F1 & F2 & D1 & D2 & D3); [lia|].
  exists g1, i1. repeat split; auto; congruence.
Qed.
Lemma BackI_fold {B} (f : cat -> B -> cat) : (forall c b, BackI c (f c b)) -> forall l c, BackI c (fold_left f l c).
Proof.
  intros H; induction l as [|x r IH]; cbn; intros c; [apply BackI_refl|]. eapply BackI_trans; [apply H|apply IH].
Qed.

Lemma BackI_create_ig rep c rp igd ts e : BackI c (fst (create_ig rep c rp igd ts e)).
Proof.
  split; cbn; [lia|]. intros ig ci H1 H2 Hb. apply in_app_or in H1. destruct H1 as [H1|[<-|[]]].
  - exists ig, ci. auto.
  - cbn in H2. apply fresh_ixs_spec in H2. lia.
Qed.
Lemma BackI_ig_if_needed rep c rp igd ts e : BackI c (fst (ig_if_needed rep c rp igd ts e)).
Proof.
  unfold ig_if_needed. destruct (pick_ig _ _ _ _ _); [destruct (_ <=? _)%nat|]; cbn [fst];
    try apply BackI_refl; apply BackI_create_ig.
Qed.
Lemma BackI_create_sg rep clip c rp ts : BackI c (create_sg rep clip c rp ts).
Proof.
  destruct (ix_side_create_sg rep clip c rp ts) as [(E & M)|(igd & e & E & M)]; [apply BackI_same; auto|].
  eapply BackI_trans; [apply (BackI_ig_if_needed rep c rp igd ts e)|apply BackI_same; auto].
Qed.
Lemma BackI_grow_ig c gid : BackI c (grow_ig c gid).
Proof.
  unfold grow_ig. destruct (find _ _) as [g0|]; [|apply BackI_refl]. split; cbn -[Z.of_nat]; [lia|].
  intros ig ci H1 H2 Hb. apply in_map_iff in H1. destruct H1 as (g & <- & Hg). destruct (ig_id g =? gid); cbn in *.
  - apply in_app_or in H2. destruct H2 as [H2|H2]; [exists g, ci; auto|]. apply fresh_ixs_spec in H2. lia.
  - exists g, ci. auto.
Qed.
Lemma BackI_grow_sg_one rep c gid k : BackI c (grow_sg_one rep c gid k).
Proof.
  destruct (ix_side_grow_sg_one rep c gid k) as [(E & M)|(rp & igd & ts & e & E & M)]; [apply BackI_same; auto|].
  eapply BackI_trans; [apply (BackI_ig_if_needed rep c rp igd ts e)|apply BackI_same; auto].
Qed.
Lemma BackI_expand rep c : BackI c (expand rep c).
Proof.
  unfold expand.
  set (c0 := {| c_pols := c_pols c; c_sgs := c_sgs c; c_igs := c_igs c; c_ptnum := S (c_ptnum c); c_maxsg := c_maxsg c;
                c_maxsh := c_maxsh c; c_maxig := c_maxig c; c_maxix := c_maxix c |}).
  apply (BackI_trans c c0); [apply BackI_same; reflexivity|]. apply BackI_fold.
  intros a rp. unfold expand_pol.
  apply (BackI_trans a (fold_left grow_ig (map ig_id (rp_igs a rp)) a)); [apply BackI_fold; intros; apply BackI_grow_ig|].
  apply BackI_fold. intros b gid. unfold grow_sg. destruct (find _ _); [|apply BackI_refl]. apply BackI_fold. intros. apply BackI_grow_sg_one.
Qed.
Lemma BackI_of_sub c c' : sub_igs (c_igs c') (c_igs c) -> c_maxix c' = c_maxix c -> BackI c c'.
Proof.
  intros S M. split; [lia|]. intros ig' ci' H1 H2 _. destruct (S _ H1) as (g & Hg & _ & Ee & Er & Hs).
  destruct (Hs _ H2) as (i & Hi & Ei). exists g, i. repeat split; auto.
Qed.
Lemma BackI_xtick rep w pt now now2 : BackI (x_cat w) (x_cat (fst (xtick rep w pt now now2))).
Proof.
  unfold xtick. cbn.
  match goal with |- BackI ?a (fold_left ?f ?l (fold_left ?g ?m ?a)) => apply (BackI_trans a (fold_left g m a)) end;
    apply BackI_fold; intros c v.
  - apply (BackI_trans c (del_sg c (v_rp v) (v_gid v))); apply BackI_same; reflexivity.
  - apply (BackI_trans c (del_ig c (v_rp v) (v_gid v))); [apply BackI_of_sub; [apply sub_del_ig|reflexivity]|].
    apply BackI_of_sub; [apply sub_prune_ig|reflexivity].
Qed.

Definition NodeIxAgree (w : xworld) : Prop :=
  forall i, In i (x_ixs w) -> xi_id i <= c_maxix (x_cat w) /\
    forall ig ci, In ig (c_igs (x_cat w)) -> In ci (ig_ixs ig) -> ci_id ci = xi_id i -> ig_end ig <= xi_end i /\ ig_rp ig = xi_rp i.

Definition same_index (i i' : xindex) : Prop := xi_id i' = xi_id i /\ xi_end i' = xi_end i /\ xi_rp i' = xi_rp i.

Lemma NodeIxAgree_step w c' shs' ixs' :
  NodeIxAgree w -> BackI (x_cat w) c' ->
  (forall i', In i' ixs' -> exists i, In i (x_ixs w) /\ same_index i i') ->
  NodeIxAgree {| x_cat := c'; x_shards := shs'; x_ixs := ixs' |}.
Proof.
  intros A (M & B) Hs i' Hi'. cbn in *. destruct (Hs _ Hi') as (i & Hin & E1 & E2 & E3).
  destruct (A i Hin) as (Bd & Ag). split; [lia|]. intros ig' ci' H1 H2 E.
  destruct (B ig' ci' H1 H2) as (ig & ci & G1 & G2 & D1 & D2 & D3); [lia|].
  destruct (Ag ig ci G1 G2) as (P1 & P2); [congruence|]. split; [lia|congruence].
Qed.

Lemma NodeIxAgree_cat w c' : NodeIxAgree w -> BackI (x_cat w) c' -> NodeIxAgree (with_cat w c').
Proof.
  intros A B. unfold with_cat. eapply NodeIxAgree_step; [exact A|exact B|]. intros i Hi. exists i. unfold same_index. auto.
Qed.

Lemma NodeIxAgree_xtick rep w pt now now2 : NodeIxAgree w -> NodeIxAgree (fst (xtick rep w pt now now2)).
Proof.
  intros A. pose proof (BackI_xtick rep w pt now now2) as B. unfold xtick in *. cbn in *.
  eapply NodeIxAgree_step; [exact A|exact B|]. intros i' Hi'. apply filter_In in Hi'. destruct Hi' as (Hi' & _).
  apply in_map_iff in Hi'. destruct Hi' as (i1 & <- & Hi1). apply in_map_iff in Hi1. destruct Hi1 as (i0 & <- & Hi0).
  exists i0. split; [auto|]. unfold same_index, refresh_ix, push_ix.
  destruct (xi_pt i0 =? pt) eqn:P; cbn.
  - destruct (find_last _ _); cbn; rewrite ?P; destruct (find_info _ _); cbn; auto.
  - rewrite P. auto.
Qed.

Lemma NodeIxAgree_restart w pt : NodeIxAgree w -> NodeIxAgree (xrestart w pt).
Proof.
  intros A. unfold xrestart. eapply NodeIxAgree_step; [exact A|apply BackI_refl|]. intros i' Hi'.
  apply in_map_iff in Hi'. destruct Hi' as (i & <- & Hi). exists i. split; [auto|]. unfold same_index. destruct (_ =? _); cbn; auto.
Qed.

(* the stores create an index with the span the catalogue's id-range lookup returns *)
Lemma mat_one_ixs c g d l acc s :
  snd (mat_one c g d l acc s) = snd acc \/
  exists ge gi, snd (mat_one c g d l acc s) = snd acc ++ [{| xi_id := cs_ix s; xi_pt := cs_pt s; xi_igid := gi; xi_rp := sg_rp g; xi_end := ge; xi_dur := d |}] /\
            (forall g', ix_group_of c (sg_rp g) (cs_ix s) = Some g' -> ge = ig_end g').
Proof.
  unfold mat_one. destruct acc as (shs, ixs). destruct (existsb _ _); cbn; [auto|]. destruct (has_ix _ _ _); cbn; [auto|].
  right. destruct (ix_group_of c (sg_rp g) (cs_ix s)) as [g'|]; eexists _, _; (split; [reflexivity|]); intros g2 E; inversion E; auto.
Qed.

Lemma NodeIxAgree_materialise w gid l : AI (x_cat w) -> NodeIxAgree w -> NodeIxAgree (materialise w gid l).
Proof.
  intros (I & As) A. unfold materialise. destruct (find _ _) as [g|] eqn:F; [|auto]. apply find_some in F. destruct F as (Hg & _).
  destruct (find_pol _ _) as [p|]; [|auto].
  set (P := fun x : xindex => xi_id x <= c_maxix (x_cat w) /\
    forall ig ci, In ig (c_igs (x_cat w)) -> In ci (ig_ixs ig) -> ci_id ci = xi_id x -> ig_end ig <= xi_end x /\ ig_rp ig = xi_rp x).
  assert (G : forall ss acc, (forall s, In s ss -> In s (sg_shards g)) -> (forall x, In x (snd acc) -> P x) ->
              forall x, In x (snd (fold_left (mat_one (x_cat w) g (xp_d p) l) ss acc)) -> P x).
  { induction ss as [|s r IH]; cbn; intros acc Hss Hacc; [auto|]. apply IH; [auto|].
    intros x Hx. destruct (mat_one_ixs (x_cat w) g (xp_d p) l acc s) as [E|(ge & gi & E & Hge)]; rewrite E in Hx; [auto|].
    apply in_app_or in Hx. destruct Hx as [Hx|[<-|[]]]; [auto|].
    assert (Hs : In s (sg_shards g)) by auto. unfold P; cbn. split; [apply (xv_sxb _ I g s Hg Hs)|].
    intros ig ci H1 H2 E3.
    destruct (xv_cover _ I g s ig ci Hg Hs H1 H2 E3) as (_ & Rp).
    destruct (ix_group_of_covers (x_cat w) (sg_rp g) ig ci As H1 Rp H2) as (g' & Eg & Le).
    rewrite E3 in Eg. rewrite (Hge g' Eg). split; [exact Le|exact Rp]. }
  specialize (G (sg_shards g) (x_shards w, x_ixs w) (fun s H => H) A).
  destruct (fold_left _ _ _) as (shs, ixs). cbn in G. intros x Hx. cbn in *. apply G. exact Hx.
Qed.

Lemma NodeIxAgree_xstep repP clip w e : AI (x_cat w) -> NodeIxAgree w -> NodeIxAgree (fst (xstep true repP clip w e)).
Proof.
  intros AIw A. destruct e; cbn [xstep fst].
  - apply NodeIxAgree_cat; [auto|apply BackI_create_sg].
  - apply NodeIxAgree_materialise; auto.
  - destruct (alter_cat _ _ _ _ _) as [c'|] eqn:E; cbn; [|auto]. apply NodeIxAgree_cat; [auto|].
    destruct (alter_cat_pols _ _ _ _ _ _ E) as (ps & ->). apply BackI_same; reflexivity.
  - apply NodeIxAgree_cat; [auto|apply BackI_expand].
  - apply NodeIxAgree_xtick; auto.
  - auto.
  - apply NodeIxAgree_restart; auto.
Qed.

Lemma NodeIxAgree_xrun repP clip es : forall w, AI (x_cat w) -> NodeIxAgree w -> NodeIxAgree (fst (xrun true repP clip w es)).
Proof.
  intros w I A. refine (proj2 (xrun_inv (fun w => AI (x_cat w) /\ NodeIxAgree w) true repP clip _ es w (conj I A))).
  intros w0 e (I0 & A0). split; [apply AI_xstep|apply NodeIxAgree_xstep]; assumption.
Qed.

Lemma AI_init ps n : AI (cat0 ps n).
Proof. split; [apply XInv_init|intros ig []]. Qed.
Lemma NodeIxAgree_init ps n : NodeIxAgree (xworld0 ps n).
Proof. intros i []. Qed.
