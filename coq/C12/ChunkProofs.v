(* C12 chunk codec: round trip and size theorems for the model of chunk_codec.gen.go. *)
From Coq Require Import NArith List Bool Lia ZifyBool ZifyNat ZifyN.
From OG Require Import C12.Chunk.
Import ListNotations.
Open Scope N_scope.

Lemma enc_be_length : forall k n, length (enc_be k n) = k.
Proof. induction k as [|k IH]; intro n; cbn [enc_be length]; [reflexivity | rewrite IH; reflexivity]. Qed.
Lemma enc_le_length : forall k n, length (enc_le k n) = k.
Proof. induction k as [|k IH]; intro n; cbn [enc_le length]; [reflexivity | rewrite IH; reflexivity]. Qed.

Lemma pow_succ : forall k, 256 ^ N.of_nat (S k) = 256 * 256 ^ N.of_nat k.
Proof. intro k. rewrite Nat2N.inj_succ, N.pow_succ_r'. reflexivity. Qed.

Lemma be_roundtrip : forall k n acc rest, n < 256 ^ N.of_nat k ->
  dec_be k (enc_be k n ++ rest) acc = Some (acc * 256 ^ N.of_nat k + n, rest).
Proof.
  induction k as [|k IH]; intros n acc rest H.
  - cbn in H. cbn [enc_be app dec_be]. f_equal. f_equal. cbn. lia.
  - cbn [enc_be app dec_be]. set (p := 256 ^ N.of_nat k) in *.
    assert (Hp : 0 < p) by (subst p; apply N.neq_0_lt_0; apply N.pow_nonzero; discriminate).
    rewrite IH by (apply N.mod_lt; lia). f_equal. f_equal.
    rewrite pow_succ. fold p. pose proof (N.div_mod n p ltac:(lia)). nia.
Qed.

Lemma le_roundtrip : forall k n rest, n < 256 ^ N.of_nat k -> dec_le k (enc_le k n ++ rest) = Some (n, rest).
Proof.
  induction k as [|k IH]; intros n rest H.
  - cbn in H. cbn [enc_le app dec_le]. f_equal. f_equal. lia.
  - cbn [enc_le app dec_le]. rewrite pow_succ in H.
    rewrite IH by (apply N.div_lt_upper_bound; lia). f_equal. f_equal.
    pose proof (N.div_mod n 256 ltac:(lia)). lia.
Qed.

Lemma zigzag_bound : forall u, u < two64 -> zigzag u < two64.
Proof. intros u H. unfold zigzag, two64, two63 in *. destruct (u <? 9223372036854775808) eqn:E; lia. Qed.

Lemma zigzag_inv : forall u, u < two64 -> unzigzag (zigzag u) = u.
Proof.
  intros u H. unfold zigzag, unzigzag, two64, two63 in *. destruct (u <? 9223372036854775808) eqn:E.
  - rewrite N.even_mul. cbn [N.even orb]. rewrite N.mul_comm. apply N.div_mul. discriminate.
  - assert (Hodd : N.even (2 * 18446744073709551616 - 1 - 2 * u) = false).
    { replace (2 * 18446744073709551616 - 1 - 2 * u) with (2 * (18446744073709551616 - 1 - u) + 1) by lia.
      rewrite N.even_add, N.even_mul. reflexivity. }
    rewrite Hodd. replace (2 * 18446744073709551616 - 1 - (2 * 18446744073709551616 - 1 - 2 * u)) with (u * 2) by lia.
    apply N.div_mul. discriminate.
Qed.

(* the side conditions are the comparisons of wf_bitmap / wf_column / wf_chunk, as they stand there *)
Lemma u16_roundtrip : forall n rest, (n <? two16) = true -> dec_u16 (enc_u16 n ++ rest) = Some (n, rest).
Proof. intros n rest H. apply N.ltb_lt in H. unfold dec_u16, enc_u16. rewrite be_roundtrip by exact H. reflexivity. Qed.
Lemma u32_roundtrip : forall n rest, (n <? two32) = true -> dec_u32 (enc_u32 n ++ rest) = Some (n, rest).
Proof. intros n rest H. apply N.ltb_lt in H. unfold dec_u32, enc_u32. rewrite be_roundtrip by exact H. reflexivity. Qed.
Lemma int_roundtrip : forall u rest, (u <? two64) = true -> dec_int (enc_int u ++ rest) = Some (u, rest).
Proof.
  intros u rest H. apply N.ltb_lt in H. unfold dec_int, enc_int. rewrite be_roundtrip by (apply zigzag_bound; exact H).
  rewrite N.mul_0_l, N.add_0_l. rewrite zigzag_inv by exact H. reflexivity.
Qed.

Lemma len_app : forall (A : Type) (a b : list A), len (a ++ b) = len a + len b.
Proof. intros. unfold len. rewrite app_length. lia. Qed.
Lemma len_u16 : forall n, len (enc_u16 n) = 2.
Proof. intro n. unfold len, enc_u16. rewrite enc_be_length. reflexivity. Qed.
Lemma len_u32 : forall n, len (enc_u32 n) = 4.
Proof. intro n. unfold len, enc_u32. rewrite enc_be_length. reflexivity. Qed.
Lemma len_int : forall n, len (enc_int n) = 8.
Proof. intro n. unfold len, enc_int. rewrite enc_be_length. reflexivity. Qed.

Lemma elems_roundtrip : forall k l rest, all_lt (256 ^ N.of_nat k) l = true ->
  dec_elems k (length l) (flat_map (enc_le k) l ++ rest) = Some (l, rest).
Proof.
  induction l as [|x l IH]; intros rest H; [reflexivity|].
  cbn [all_lt forallb] in H. apply andb_prop in H. destruct H as [Hx Hl]. apply N.ltb_lt in Hx.
  cbn [length flat_map dec_elems]. rewrite <- app_assoc. rewrite le_roundtrip by exact Hx. rewrite IH by exact Hl. reflexivity.
Qed.

Lemma len_nat : forall (A : Type) (l : list A), N.to_nat (len l) = length l.
Proof. intros. unfold len. lia. Qed.

(* b is the bound as wf_* writes it: two16, two32 or two64 *)
Lemma slice_roundtrip : forall k b l rest, 256 ^ N.of_nat k = b -> all_lt b l = true -> (len l <? two32) = true ->
  dec_slice k (enc_slice k l ++ rest) = Some (l, rest).
Proof.
  intros k b l rest Hb H Hl. subst b. unfold dec_slice, enc_slice. rewrite <- app_assoc. rewrite u32_roundtrip by exact Hl.
  rewrite len_nat. apply elems_roundtrip. exact H.
Qed.

Lemma len_flat_le : forall k l, len (flat_map (enc_le k) l) = N.of_nat k * len l.
Proof.
  intros k l. unfold len. induction l as [|x l IH]; [cbn; lia|].
  cbn [flat_map length]. rewrite app_length, enc_le_length. lia.
Qed.
Lemma len_slice : forall k l, len (enc_slice k l) = N.of_nat k * len l + 4.
Proof. intros. unfold enc_slice. rewrite len_app, len_u32, len_flat_le. lia. Qed.

Lemma take_app : forall l rest, take (length l) (l ++ rest) = Some (l, rest).
Proof. induction l as [|x l IH]; intro rest; [reflexivity|]. cbn [length app take]. rewrite IH. reflexivity. Qed.

Lemma bools_roundtrip : forall l rest, (len l <? two32) = true -> dec_bools (enc_bools l ++ rest) = Some (l, rest).
Proof.
  intros l rest H. unfold dec_bools, enc_bools. rewrite <- app_assoc. rewrite u32_roundtrip by exact H.
  rewrite len_nat. rewrite <- (map_length bool_byte l). rewrite take_app. f_equal. f_equal.
  rewrite map_map. rewrite <- (map_id l) at 2. apply map_ext. intros []; reflexivity.
Qed.
Lemma len_bools : forall l, len (enc_bools l) = len l + 4.
Proof. intro l. unfold enc_bools. rewrite len_app, len_u32. unfold len. rewrite map_length. lia. Qed.

Lemma bytes_roundtrip : forall l rest, (len l <? two32) = true -> dec_bytes (enc_bytes l ++ rest) = Some (l, rest).
Proof.
  intros l rest H. unfold dec_bytes, enc_bytes. rewrite <- app_assoc. rewrite u32_roundtrip by exact H.
  rewrite len_nat. apply take_app.
Qed.
Lemma len_bytes : forall l, len (enc_bytes l) = len l + 4.
Proof. intro l. unfold enc_bytes. rewrite len_app, len_u32. lia. Qed.

Lemma string_roundtrip : forall l rest, (len l <? two16) = true -> dec_string (enc_string l ++ rest) = Some (l, rest).
Proof.
  intros l rest H. unfold dec_string, enc_string. rewrite <- app_assoc. rewrite u16_roundtrip by exact H.
  rewrite len_nat. apply take_app.
Qed.
Lemma len_string : forall l, len (enc_string l) = len l + 2.
Proof. intro l. unfold enc_string. rewrite len_app, len_u16. lia. Qed.

(* a message type: encoder, decoder, Size(), and the part of well-formedness that does not speak of the size; wf_column
   and wf_chunk ask of every sub-message that it is well-formed and that its size fits the prefix *)
Section Sub.
Variable A : Type.
Variable e : A -> bytes.
Variable d : dec A.
Variable sz : A -> N.
Variable wf : A -> bool.
Hypothesis Hlaw : forall a rest, wf a = true -> (sz a <? two32) = true -> d (e a ++ rest) = Some (a, rest).
Hypothesis Hsz : forall a, wf a = true -> len (e a) = sz a.
Hypothesis Hpos : forall a, 0 < sz a.

Definition enc_o (o : option A) : bytes := match o with None => enc_u32 0 | Some a => enc_u32 (sz a) ++ e a end.
Definition wf_o (o : option A) : bool := match o with None => true | Some a => wf a && (sz a <? two32) end.

Lemma osub_roundtrip : forall o rest, wf_o o = true -> dec_sub d (enc_o o ++ rest) = Some (o, rest).
Proof.
  intros [a|] rest H; cbn [enc_o wf_o] in *; unfold dec_sub.
  - apply andb_prop in H. destruct H as [Hw H1]. rewrite <- app_assoc, u32_roundtrip by exact H1.
    assert (E : (sz a =? 0) = false) by (specialize (Hpos a); lia). rewrite E.
    rewrite <- (Hsz a Hw), len_nat, take_app.
    rewrite <- (app_nil_r (e a)), (Hlaw a [] Hw H1). reflexivity.
  - rewrite u32_roundtrip by reflexivity. reflexivity.
Qed.

Lemma many_osub : forall l rest, forallb wf_o l = true ->
  dec_many (dec_sub d) (length l) (flat_map enc_o l ++ rest) = Some (l, rest).
Proof.
  induction l as [|o l IH]; intros rest H; [reflexivity|].
  cbn [forallb] in H. apply andb_prop in H. destruct H as [Ho Hl]. cbn [length flat_map dec_many]. rewrite <- app_assoc.
  rewrite osub_roundtrip by exact Ho. rewrite IH by exact Hl. reflexivity.
Qed.

(* sub-messages that are never absent *)
Lemma many_sub : forall l rest, forallb (fun a => wf a && (sz a <? two32)) l = true ->
  dec_many (dec_sub d) (length l) (flat_map (fun a => enc_u32 (sz a) ++ e a) l ++ rest) = Some (map Some l, rest).
Proof.
  induction l as [|a l IH]; intros rest H; [reflexivity|].
  cbn [forallb] in H. apply andb_prop in H. destruct H as [Ha Hl]. cbn [length flat_map dec_many map]. rewrite <- app_assoc.
  change (enc_u32 (sz a) ++ e a) with (enc_o (Some a)). rewrite osub_roundtrip by exact Ha. rewrite IH by exact Hl. reflexivity.
Qed.

Lemma len_flat_o : forall l, forallb wf_o l = true ->
  len (flat_map enc_o l) = fold_right (fun o s => 4 + match o with None => 0 | Some a => sz a end + s) 0 l.
Proof.
  clear Hlaw Hpos d.
  induction l as [|o l IH]; intro H; [reflexivity|]. cbn [forallb] in H. apply andb_prop in H. destruct H as [Ho Hl].
  cbn [flat_map fold_right]. rewrite len_app, IH by exact Hl.
  destruct o as [a|]; cbn [enc_o wf_o] in *.
  - apply andb_prop in Ho. rewrite len_app, len_u32, (Hsz a (proj1 Ho)). lia.
  - rewrite len_u32. lia.
Qed.

Lemma len_flat_sub : forall l, forallb (fun a => wf a && (sz a <? two32)) l = true ->
  len (flat_map (fun a => enc_u32 (sz a) ++ e a) l) = fold_right (fun a s => 4 + sz a + s) 0 l.
Proof.
  clear Hlaw Hpos d.
  induction l as [|a l IH]; intro H; [reflexivity|]. cbn [forallb] in H. apply andb_prop in H. destruct H as [Ha Hl].
  apply andb_prop in Ha. cbn [flat_map fold_right]. rewrite !len_app, len_u32, (Hsz a (proj1 Ha)), IH by exact Hl. lia.
Qed.
End Sub.

Ltac split_wf H := repeat (apply andb_prop in H; let H' := fresh "W" in destruct H as [H H']).

Lemma bitmap_roundtrip : forall m rest, wf_bitmap m = true -> dec_bitmap (enc_bitmap m ++ rest) = Some (m, rest).
Proof.
  intros [bits arr l nc] rest H. unfold wf_bitmap in H. cbn [bm_bits bm_array bm_length bm_nil] in H. split_wf H.
  unfold dec_bitmap, enc_bitmap. cbn [bm_bits bm_array bm_length bm_nil].
  repeat rewrite <- app_assoc.
  rewrite bytes_roundtrip by assumption. rewrite (slice_roundtrip 2 two16) by (reflexivity || assumption).
  rewrite int_roundtrip by assumption. rewrite int_roundtrip by assumption. reflexivity.
Qed.
Lemma len_bitmap : forall m, len (enc_bitmap m) = size_bitmap m.
Proof.
  intro m. unfold enc_bitmap, size_bitmap. repeat rewrite len_app. rewrite len_bytes, len_slice, !len_int. lia.
Qed.
Lemma size_bitmap_pos : forall m, 0 < size_bitmap m.
Proof. intro m. unfold size_bitmap. lia. Qed.

Lemma tuple_roundtrip : forall t rest, all_lt two64 t = true -> (size_tuple t <? two32) = true ->
  dec_slice 8 (enc_tuple t ++ rest) = Some (t, rest).
Proof.
  intros t rest H1 H2. apply (slice_roundtrip 8 two64); [reflexivity | exact H1|]. unfold size_tuple in H2. lia.
Qed.
Lemma len_tuple : forall t, len (enc_tuple t) = size_tuple t.
Proof. intro t. unfold enc_tuple, size_tuple. rewrite len_slice. lia. Qed.
Lemma size_tuple_pos : forall t, 0 < size_tuple t.
Proof. intro t. unfold size_tuple. lia. Qed.

Lemma map_tuple_of : forall l : list (list N), map tuple_of (map Some l) = l.
Proof. intro l. rewrite map_map. cbn [tuple_of]. apply map_id. Qed.

Lemma len_column : forall c, wf_column c = true -> len (enc_column c) = size_column c.
Proof.
  intros c H. unfold wf_column in H. split_wf H. unfold enc_column, size_column. repeat rewrite len_app.
  rewrite len_int, !len_slice, len_bytes, len_bools, len_u32.
  rewrite (len_flat_sub _ enc_tuple size_tuple (all_lt two64) (fun t _ => len_tuple t)) by assumption.
  destruct (c_nils c) as [m|]; [rewrite len_app, len_u32, len_bitmap | rewrite len_u32]; clear; lia.
Qed.
Lemma size_column_pos : forall c, 0 < size_column c.
Proof. intro c. unfold size_column. lia. Qed.

Lemma column_roundtrip : forall c rest, wf_column c = true -> dec_column (enc_column c ++ rest) = Some (c, rest).
Proof.
  intros c rest H. unfold wf_column in H. split_wf H.
  unfold dec_column, enc_column. repeat rewrite <- app_assoc.
  rewrite int_roundtrip by assumption.
  rewrite (slice_roundtrip 8 two64) by (reflexivity || assumption).
  rewrite (slice_roundtrip 8 two64) by (reflexivity || assumption).
  rewrite bytes_roundtrip by assumption.
  rewrite (slice_roundtrip 4 two32) by (reflexivity || assumption).
  rewrite bools_roundtrip by assumption.
  rewrite (slice_roundtrip 8 two64) by (reflexivity || assumption).
  rewrite u32_roundtrip by assumption. rewrite len_nat.
  rewrite (many_sub _ enc_tuple (dec_slice 8) size_tuple (all_lt two64) tuple_roundtrip (fun t _ => len_tuple t) size_tuple_pos)
    by assumption.
  change (match c_nils c with None => enc_u32 0 | Some m => enc_u32 (size_bitmap m) ++ enc_bitmap m end)
    with (enc_o bitmap enc_bitmap size_bitmap (c_nils c)).
  rewrite (osub_roundtrip _ enc_bitmap dec_bitmap size_bitmap wf_bitmap (fun m r Hm _ => bitmap_roundtrip m r Hm)
             (fun m _ => len_bitmap m) size_bitmap_pos) by assumption.
  rewrite map_tuple_of. destruct c; reflexivity.
Qed.

Lemma tags_roundtrip : forall t rest, all_lt 256 t = true -> (size_tags t <? two32) = true ->
  dec_bytes (enc_tags t ++ rest) = Some (t, rest).
Proof. intros t rest _ H. apply bytes_roundtrip. unfold size_tags in H. lia. Qed.
Lemma size_tags_pos : forall t, 0 < size_tags t.
Proof. intro t. unfold size_tags. lia. Qed.

Lemma map_bytes_of : forall l : list bytes, map bytes_of (map Some l) = l.
Proof. intro l. rewrite map_map. cbn [bytes_of]. apply map_id. Qed.

Theorem chunk_roundtrip : forall k rest, wf_chunk k = true -> dec_chunk (enc_chunk k ++ rest) = Some (k, rest).
Proof.
  intros k rest H. unfold wf_chunk in H. split_wf H.
  pose proof (many_osub _ enc_column dec_column size_column wf_column (fun c r Hc _ => column_roundtrip c r Hc)
                len_column size_column_pos) as Mc.
  change (enc_o column enc_column size_column) with enc_ocolumn in Mc.
  change (wf_o column size_column wf_column) with wf_ocolumn in Mc.
  unfold dec_chunk, enc_chunk. repeat rewrite <- app_assoc.
  rewrite string_roundtrip by assumption.
  rewrite u32_roundtrip by assumption. rewrite len_nat.
  rewrite (many_sub _ enc_tags dec_bytes size_tags (all_lt 256) tags_roundtrip (fun t _ => len_bytes t) size_tags_pos)
    by assumption.
  rewrite (slice_roundtrip 8 two64) by (reflexivity || assumption).
  rewrite (slice_roundtrip 8 two64) by (reflexivity || assumption).
  rewrite (slice_roundtrip 8 two64) by (reflexivity || assumption).
  rewrite u32_roundtrip by assumption. rewrite len_nat, Mc by assumption.
  rewrite u32_roundtrip by assumption. rewrite len_nat, Mc by assumption.
  rewrite map_bytes_of. destruct k; reflexivity.
Qed.

(* Size() is the marshalled length (it is what the writer puts in front of every sub-message and what the sender uses to
   allocate the frame) *)
Theorem chunk_size : forall k, wf_chunk k = true -> len (enc_chunk k) = size_chunk k.
Proof.
  intros k H. unfold wf_chunk in H. split_wf H.
  pose proof (len_flat_o _ enc_column size_column wf_column len_column) as Lc.
  change (enc_o column enc_column size_column) with enc_ocolumn in Lc.
  change (wf_o column size_column wf_column) with wf_ocolumn in Lc.
  change (fun (o : option column) s => 4 + match o with None => 0 | Some a => size_column a end + s)
    with (fun o s => size_ocolumn o + s) in Lc.
  unfold enc_chunk, size_chunk. repeat rewrite len_app. rewrite len_string, !len_u32, !len_slice.
  rewrite (len_flat_sub _ enc_tags size_tags (all_lt 256) (fun t _ => len_bytes t)) by assumption.
  rewrite !Lc by assumption. clear. lia.
Qed.
