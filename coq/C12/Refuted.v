(* C12: where the code violated the property when this work started.  Witnesses against the _current variants: the
   printers as they were (num_repaired = dur_repaired = false) and hand-written copies of the precedence table and operator
   map of that time, so that these theorems do not change when the repository is repaired (the generated tables do); only
   the last, C12_string_cr_nul_refuted, is about the live tables (Inst).
   Repaired in /repo since: the ns duration (9108a17), IN sets (11ba2aa), and on the text that is shipped to the stores
   (ShipString, ae9ddba) integral floats, AND/OR grouping and the unary minus.  Open: bitwise operators, identifiers
   inf/nan, a raw line feed in a regex, CR/NUL in a string. *)
From Coq Require Import ZArith NArith List Bool.
From OG Require Import C12.Model.
From OG Require C12.Gen_Tokens C12.Inst.
Import ListNotations.
Open Scope N_scope.

Definition prec_current (o : op) : N :=
  match o with
  | OOr => 1 | OAnd => 2
  | OEq | ONeq | OEqRegex | ONeqRegex | OLt | OLte | OGt | OGte => 3
  | OAdd | OSub | OBitOr | OBitXor => 4
  | OMul | ODiv | OMod | OBitAnd => 5
  | OLike | OMatch | OMatchPhrase | OIpInRange => 6
  end.
Definition isop_current (o : op) : bool := match o with OBitAnd | OBitOr | OBitXor => false | _ => true end.
Definition isop_repaired (o : op) : bool := true.

Definition va := EVar [97] DUnknown.
Definition vb := EVar [98] DUnknown.
Definition vc := EVar [99] DUnknown.

(* a / 2.0 > 1.2: canonical for the repaired printer, but NumberLiteral.String() emits "2" (the shipped text has "2.0"
   since ae9ddba) and the parser reads an IntegerLiteral *)
Theorem C12_integral_float_refuted : exists e,
  canon prec_current isop_current [] true true false e = true /\
  parse prec_current isop_current (print_toks false false e) <> Some e.
Proof.
  exists (EBin OGt (EBin ODiv va (ENum false 2 [])) (ENum false 1 [2])).
  split; [vm_compute; reflexivity | vm_compute; discriminate].
Qed.
Print Assumptions C12_integral_float_refuted.

(* FormatDuration before fix 9108a17: 1ns prints "0u" and is read back as 0 *)
Theorem C12_duration_ns_refuted : exists z,
  format_duration_current z = [48; 117] /\ parse_duration (format_duration_current z) = Some 0%Z /\ z <> 0%Z /\
  canon prec_current isop_current [] true true false (EDur z) = true /\
  parse prec_current isop_current (print_toks false false (EDur z)) <> Some (EDur z).
Proof.
  exists 1%Z. repeat split; try (vm_compute; reflexivity); vm_compute; discriminate.
Qed.
Print Assumptions C12_duration_ns_refuted.

(* the statement parser (sql.y: %left AND OR on one level) builds (a = 1 OR b = 2) AND c = 3 for
   `a = 1 OR b = 2 AND c = 3`; printing adds no parentheses; ParseExpr regroups it *)
Definition and_or_tree : expr :=
  EBin OAnd (EBin OOr (EBin OEq va (EInt 1)) (EBin OEq vb (EInt 2))) (EBin OEq vc (EInt 3)).
Theorem C12_and_or_refuted :
  parse prec_current isop_current (print_toks true true and_or_tree)
  = Some (EBin OOr (EBin OEq va (EInt 1)) (EBin OAnd (EBin OEq vb (EInt 2)) (EBin OEq vc (EInt 3)))).
Proof. vm_compute. reflexivity. Qed.
Print Assumptions C12_and_or_refuted.

(* the image of ParseExpr itself is not closed under print/parse: `b / -a` *)
Theorem C12_unary_minus_refuted : exists toks e,
  parse prec_current isop_current toks = Some e /\ parse prec_current isop_current (print_toks true true e) <> Some e.
Proof.
  exists [TIdent [98]; TWs; TOp ODiv; TWs; TOp OSub; TIdent [97]], (EBin ODiv vb (EBin OMul (EInt (-1)) va)).
  split; [vm_compute; reflexivity | vm_compute; discriminate].
Qed.
Print Assumptions C12_unary_minus_refuted.

(* & | ^ have a precedence but are not in operatorMap: ParseExpr silently returns the left operand only *)
Theorem C12_bitwise_refuted :
  parse prec_current isop_current (print_toks true true (EBin OEq (EBin OBitAnd va (EInt 1)) (EInt 1))) = Some va /\
  parse prec_current isop_repaired (print_toks true true (EBin OEq (EBin OBitAnd va (EInt 1)) (EInt 1)))
  = Some (EBin OEq (EBin OBitAnd va (EInt 1)) (EInt 1)).
Proof. split; vm_compute; reflexivity. Qed.
Print Assumptions C12_bitwise_refuted.

(* a field called nan is read back as the number NaN *)
Theorem C12_ident_nan_refuted :
  parse prec_current isop_current (print_toks true true (EBin OGt (EVar [110;97;110] DUnknown) (EInt 1)))
  = Some (EBin OGt (ESpecial 2) (EInt 1)).
Proof. vm_compute. reflexivity. Qed.
Print Assumptions C12_ident_nan_refuted.

(* parseSet before fix 11ba2aa: a negative member of an IN set changes sign, the sign token is skipped *)
Theorem C12_in_set_negative_refuted :
  parse_set (set_print_toks [SNum true 1 []; SNum false 2 []]) = Some [SNum false 1 []; SNum false 2 []].
Proof. vm_compute. reflexivity. Qed.
Print Assumptions C12_in_set_negative_refuted.

(* and the empty string is dropped *)
Theorem C12_in_set_empty_string_refuted :
  parse_set (set_print_toks [SNum false 1 []; SStr []]) = Some [SNum false 1 []].
Proof. vm_compute. reflexivity. Qed.
Print Assumptions C12_in_set_empty_string_refuted.

(* a regex literal with a raw line feed prints verbatim and is rejected by the delimited regex reader *)
Theorem C12_regex_newline_refuted :
  regex_delim (regex_escape [97; 10; 98] ++ [47]) [] = None /\ regex_raw ([97; 10; 98] ++ [47]) true [] = Some ([97; 10; 98], []).
Proof. split; vm_compute; reflexivity. Qed.
Print Assumptions C12_regex_newline_refuted.

(* a string literal with a carriage return or a NUL (a bound parameter or a PromQL label matcher can hold one; the
   statement text itself cannot: the reader turns CR into LF and stops at NUL): QuoteString writes the character raw, the
   store's reader turns CR into LF / ends at NUL and ScanString reports a bad string: the shipped condition does not parse.
   These are exactly the characters the lexing theorem excludes (wf_str). *)
Theorem C12_string_cr_nul_refuted : forall c, c = 13 \/ c = 0 ->
  let e := EBin OEq (EVar [104] DUnknown) (EStr [97; c; 98]) in
  Inst.parse (Inst.scan (Inst.print_text_v true true e)) <> Some e.
Proof. intros c [H|H]; subst c; vm_compute; discriminate. Qed.
Print Assumptions C12_string_cr_nul_refuted.
