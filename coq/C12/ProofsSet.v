(* C12: IN sets at token level.  Model.parse_set is parseSet as it was before fix 11ba2aa of /repo, which skipped sign
   tokens and the empty string: members without a sign survive (Refuted.v has the others). *)
From Coq Require Import ZArith NArith List Bool Lia ZifyBool ZifyNat ZifyN.
From OG Require Import C12.Model C12.Proofs.
Import ListNotations.
Open Scope N_scope.

Lemma parse_set_items_print : forall vs rest, forallb setval_nonneg vs = true ->
  parse_set_items (set_items_toks vs ++ TRParen :: rest) = Some vs.
Proof.
  induction vs as [|v vs IH]; intros rest H; [reflexivity|].
  cbn [forallb] in H. apply andb_prop in H. destruct H as [Hv Hvs].
  assert (Hone : forall tail, parse_set_items tail = Some vs ->
                 parse_set_items (setval_toks v ++ tail) = Some (v :: vs)).
  { intros tail Ht. destruct v as [neg ip fp|s]; cbn [setval_nonneg] in Hv.
    - apply andb_prop in Hv. destruct Hv as [Hn Hf]. apply negb_true_iff in Hn. subst neg.
      cbn [setval_toks app]. destruct fp as [|d fp'].
      + cbn [app parse_set_items]. rewrite Ht. rewrite app_nil_r.
        unfold parse_number. rewrite (split_dot_nodot (digits ip) [] (digits_all ip)). cbn [rev app].
        rewrite ipart_digits. reflexivity.
      + cbn [app parse_set_items]. rewrite Ht.
        pose proof (parse_number_print ip (d :: fp') Hf) as Hp. cbn beta iota in Hp. rewrite Hp. reflexivity.
    - cbn [setval_toks app parse_set_items]. rewrite Ht. destruct s; [discriminate | reflexivity]. }
  destruct vs as [|v2 vs'].
  - cbn [set_items_toks]. apply Hone. reflexivity.
  - change (set_items_toks (v :: v2 :: vs')) with (setval_toks v ++ TComma :: set_items_toks (v2 :: vs')).
    rewrite <- app_assoc. apply Hone. cbn [app parse_set_items]. rewrite (IH rest Hvs). reflexivity.
Qed.
