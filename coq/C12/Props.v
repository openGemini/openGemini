(* C12 property theorems: statements, closed from the lemmas of the proof files, and Print Assumptions. *)
From Coq Require Import ZArith NArith List Bool Lia.
From OG Require Import C12.Model C12.Proofs C12.ProofsParse C12.ProofsSet C12.ProofsLex C12.ProofsLexMain C12.Chunk C12.ChunkProofs C12.Regroup C12.Stmt C12.StmtProofs C12.StmtCorr C12.Gen_Tokens C12.Inst.
Import ListNotations.
Open Scope N_scope.

(* For every precedence table, operator map and keyword list, and either printer variant: an expression in
   canonical form (what a round trip can produce: parenthesisation consistent with the table, every operator known
   to ParseExpr, literals in range, regex only where the parser reads one) prints to a token sequence that the
   spine-insertion parser reads back as exactly the same tree - same operators, grouping, literal types and values,
   identifiers, casts, regex sources, call names and arities. *)
Theorem C12_print_parse : forall prec isop kws nr dr e,
  canon prec isop kws nr dr false e = true -> Model.parse prec isop (print_toks nr dr e) = Some e.
Proof. exact print_parse. Qed.
Print Assumptions C12_print_parse.

(* the same for the repository's live tables (Gen_Tokens.v) and the repaired printers *)
Theorem C12_print_parse_repo : forall e, canon_v true true e = true -> Inst.parse (print_toks_v true true e) = Some e.
Proof. exact (fun e => print_parse Inst.prec Inst.isop keywords true true e). Qed.
Print Assumptions C12_print_parse_repo.

(* For all tables that satisfy the (decidable) table condition lex_tables - every operator ParseExpr knows is
   printed as the text the scanner reads as that operator, cast names / true / false scan as themselves, Inf and NaN are
   not keywords - and every canonical expression: the scanner run on the printed TEXT (String()) yields exactly the
   printed token sequence.  Canonical strings/identifiers exclude NUL and CR (the reader maps CR to LF and ends at NUL),
   canonical regex sources also LF and a trailing backslash. *)
Theorem C12_scan_print : forall prec isop op_text kws op_of_code ct cf cfield ctag cdistinct nr dr,
  lex_tables isop op_text kws op_of_code ct cf cfield ctag cdistinct ->
  forall e, canon prec isop kws nr dr false e = true ->
  Model.scan kws op_of_code ct cf cfield ctag cdistinct (Model.print_text op_text kws nr dr e) = print_toks nr dr e.
Proof.
  intros prec isop op_text kws op_of_code ct cf cfield ctag cdistinct nr dr HT e Hc.
  apply lexes_scan. rewrite <- (app_nil_r (Model.print_text op_text kws nr dr e)).
  apply (lex_main prec isop op_text kws op_of_code ct cf cfield ctag cdistinct nr dr HT e false [] st0); [exact Hc | reflexivity|].
  intro Hx. rewrite (canon_not_regex prec isop kws nr dr e Hc) in Hx. discriminate.
Qed.
Print Assumptions C12_scan_print.

(* on text: print with String(), scan, parse with the precedence parser: the same tree *)
Theorem C12_print_scan_parse : forall prec isop op_text kws op_of_code ct cf cfield ctag cdistinct nr dr,
  lex_tables isop op_text kws op_of_code ct cf cfield ctag cdistinct ->
  forall e, canon prec isop kws nr dr false e = true ->
  Model.parse prec isop (Model.scan kws op_of_code ct cf cfield ctag cdistinct (Model.print_text op_text kws nr dr e)) = Some e.
Proof.
  intros prec isop op_text kws op_of_code ct cf cfield ctag cdistinct nr dr HT e Hc.
  rewrite (C12_scan_print prec isop op_text kws op_of_code ct cf cfield ctag cdistinct nr dr HT e Hc).
  apply (print_parse prec isop kws nr dr), Hc.
Qed.
Print Assumptions C12_print_scan_parse.

(* the repository's live tables (Gen_Tokens.v, regenerated on every run) satisfy the table condition *)
Theorem C12_lex_tables_repo :
  lex_tables Inst.isop Inst.op_text keywords Inst.op_of_code code_true code_false code_field code_tag code_distinct.
Proof.
  split; [|split; [|repeat split; vm_compute; reflexivity]].
  - intros o Ho. destruct o; vm_compute in Ho |- *; try discriminate Ho; auto.
  - intros d Hp Hd. destruct d; try discriminate Hp; try discriminate Hd; vm_compute; reflexivity.
Qed.
Print Assumptions C12_lex_tables_repo.

(* hence, for the live tables and either printer variant *)
Theorem C12_print_scan_parse_repo : forall nr dr e, canon_v nr dr e = true ->
  Inst.parse (Inst.scan (print_text_v nr dr e)) = Some e.
Proof.
  exact (fun nr dr => C12_print_scan_parse Inst.prec Inst.isop Inst.op_text keywords Inst.op_of_code code_true code_false
           code_field code_tag code_distinct nr dr C12_lex_tables_repo).
Qed.
Print Assumptions C12_print_scan_parse_repo.

(* the insertion algorithm of ParseExpr rebuilds every tree whose parenthesisation agrees with the table *)
Theorem C12_spine_rebuild : forall prec e, pcanon prec e = true -> build prec (fst (spine e)) (snd (spine e)) = e.
Proof. exact build_spine. Qed.
Print Assumptions C12_spine_rebuild.

Theorem C12_int_digits : forall n, digits_val (digits n) = Some n.
Proof. exact digits_roundtrip. Qed.
Print Assumptions C12_int_digits.

(* a printed duration is read back by parseUnaryExpr: here for the repaired printer (dur_repaired = true, hence the
   `true ||`); for either printer it is Proofs.duration_parse *)
Theorem C12_duration_roundtrip : forall prec isop z f rest,
  ((- Z.of_N max_int64 <=? z) && (z <=? Z.of_N max_int64))%Z && (true || (Z.rem z ns_us =? 0)%Z) = true ->
  parse_unary prec isop (S (S f)) (duration_toks true z ++ rest) = Some (EDur z, rest).
Proof. exact (fun prec isop => duration_parse prec isop true). Qed.
Print Assumptions C12_duration_roundtrip.

Theorem C12_number_roundtrip : forall ip fp, frac_ok fp = true ->
  parse_number (digits ip ++ match fp with [] => [46; 48] | _ => 46 :: frac_text fp end) = Some (ip, fp).
Proof. exact parse_number_print. Qed.
Print Assumptions C12_number_roundtrip.

Theorem C12_quote_string_roundtrip : forall s rest, wf_str s = true ->
  match quote_string s ++ rest with
  | q :: body => q = 39 /\ unquote 39 body [] = Some (s, rest)
  | [] => False
  end.
Proof. exact quote_string_roundtrip. Qed.
Print Assumptions C12_quote_string_roundtrip.

Theorem C12_quote_ident_roundtrip : forall kws s rest, wf_str s = true ->
  if ident_needs_quotes kws s
  then match Model.quote_ident kws s ++ rest with
       | q :: body => q = 34 /\ unquote 34 body [] = Some (s, rest)
       | [] => False
       end
  else bare_ok s = true /\ kw_lookup kws (lower s) = None.
Proof. exact quote_ident_roundtrip. Qed.
Print Assumptions C12_quote_ident_roundtrip.

(* IN sets, for parseSet as it was before fix 11ba2aa of /repo (Model.parse_set): non-empty strings and numbers without a
   sign survive print -> parseSet (the others did not: Refuted.v) *)
Theorem C12_set_roundtrip_nonneg : forall vs, forallb setval_nonneg vs = true -> parse_set (set_print_toks vs) = Some vs.
Proof. intros vs H. unfold parse_set, set_print_toks. cbn [skip_ws]. apply parse_set_items_print, H. Qed.
Print Assumptions C12_set_roundtrip_nonneg.

(* non-vacuity: canonical expressions exist (64-bit limits, quotes, casts, calls, regexes, nested parentheses) *)
Definition ex1 : expr :=
  EBin OOr
    (EBin OAnd (EBin OGt (EBin ODiv (EVar [97] DUnknown) (ENum false 2 [])) (ENum false 1 [2]))
               (EBin OEqRegex (EVar [104;111;115;116] DTag) (ERegex [97;47;98])))
    (EParen (EBin OEq (ECall [102] [EInt (-9223372036854775808); EUnsigned 18446744073709551615; EWild WField; ERegex [120]])
                      (EBin OMul (EInt (-1)) (EParen (EBin OAdd (EDur 1) (EStr [105;116;39;115;10;92])))))).
Example C12_ex1_canonical : canon_v true true ex1 = true.
Proof. vm_compute. reflexivity. Qed.
Example C12_ex1_roundtrip : Inst.parse (Inst.scan (print_text_v true true ex1)) = Some ex1.
Proof. vm_compute. reflexivity. Qed.
Example C12_int_limits :
  Inst.parse (print_toks_v true true (EBin OSub (EInt (-9223372036854775808)) (EInt 9223372036854775807)))
  = Some (EBin OSub (EInt (-9223372036854775808)) (EInt 9223372036854775807)).
Proof. vm_compute. reflexivity. Qed.

(* The regrouping printer (the repaired BinaryExpr printer: an operand that a reader would group differently is printed in
   parentheses; as a tree transformation `fixp`).  For ALL trees whose atoms are printable (`canon_np`: no condition on
   the parenthesisation at all - in particular the statement parser's `(A OR B) AND C` without a ParenExpr and the
   `b / (-1 * a)` of a unary minus) the printed text scans and parses back to the tree plus exactly the parentheses that
   were printed: same operators, same grouping (`strip` removes ParenExpr nodes). *)
Theorem C12_regroup_print_scan_parse : forall prec isop op_text kws op_of_code ct cf cfield ctag cdistinct nr dr,
  lex_tables isop op_text kws op_of_code ct cf cfield ctag cdistinct ->
  forall e, canon_np prec isop kws nr dr false e = true ->
  Model.parse prec isop (Model.scan kws op_of_code ct cf cfield ctag cdistinct (Model.print_text op_text kws nr dr (fixp prec e)))
    = Some (fixp prec e) /\ strip (fixp prec e) = strip e.
Proof.
  intros prec isop op_text kws op_of_code ct cf cfield ctag cdistinct nr dr HT e H. split.
  - apply (C12_print_scan_parse prec isop op_text kws op_of_code ct cf cfield ctag cdistinct nr dr HT).
    apply (fixp_canon prec isop kws nr dr), H.
  - apply strip_fixp.
Qed.
Print Assumptions C12_regroup_print_scan_parse.

(* non-vacuity: the two trees of the findings C12-and-or-precedence and C12-unary-minus-operand (repaired in /repo by
   ae9ddba) satisfy the hypothesis under the live tables, and their repaired text reads back with the same grouping *)
Definition ex_and_or : expr :=
  EBin OAnd (EBin OOr (EBin OEq (EVar [97] DUnknown) (EInt 1)) (EBin OEq (EVar [98] DUnknown) (EInt 2))) (EBin OEq (EVar [99] DUnknown) (EInt 3)).
Definition ex_unary_minus : expr := EBin ODiv (EVar [98] DUnknown) (EBin OMul (EInt (-1)) (EVar [97] DUnknown)).
Example C12_ex_regroup_hyp : canon_np Inst.prec Inst.isop keywords true true false ex_and_or = true /\
                             canon_np Inst.prec Inst.isop keywords true true false ex_unary_minus = true.
Proof. split; vm_compute; reflexivity. Qed.
Example C12_ex_regroup_roundtrip :
  option_map strip (Inst.parse (Inst.scan (print_text_v true true (fixp Inst.prec ex_and_or)))) = Some ex_and_or /\
  option_map strip (Inst.parse (Inst.scan (print_text_v true true (fixp Inst.prec ex_unary_minus)))) = Some ex_unary_minus.
Proof. split; vm_compute; reflexivity. Qed.

(* The model of the hand-written statement parser the storage node uses (parseSelectStatement and its parts,
   Stmt.v) reads the token-level print of every canonical statement back as that statement: select list with aliases and
   regex fields, measurement sources in every db.rp.name form, regex sources, sub-queries to ANY depth with alias, WHERE,
   GROUP BY (expressions, time(), regexes), fill, ORDER BY, LIMIT/OFFSET/SLIMIT/SOFFSET, TZ - for all precedence tables,
   operator maps, keyword lists and every injective assignment of token codes to the statement keywords. *)
Theorem C12_parse_source_roundtrip : forall prec isop kws (K : kwid -> N) nr dr,
  (forall a b, K a = K b -> a = b) ->
  forall src f, canon_source prec isop kws nr dr src = true -> (need_src src <= f)%nat ->
  exists R', parse_source prec isop K f (source_toks K nr dr src) = Some (src, R') /\ skip_ws R' = [].
Proof.
  intros prec isop kws K nr dr Kinj src f Hc Hf.
  destruct (src_all prec isop kws K nr dr Kinj src Hc f [] Hf (as_tail K [] [] (tl_nil K []) (fun H => H))) as [R' [E1 E2]].
  rewrite app_nil_r in E1. exists R'. split; assumption.
Qed.
Print Assumptions C12_parse_source_roundtrip.

(* hybridqp.ParseFields(Fields.String()): SELECT <fields> FROM mock through the same parser *)
Theorem C12_parse_fields_roundtrip : forall prec isop kws (K : kwid -> N) nr dr,
  (forall a b, K a = K b -> a = b) ->
  forall fields f, fields <> [] -> forallb (canon_field prec isop kws nr dr) fields = true -> (length fields + 3 <= f)%nat ->
  parse_stmt prec isop K f (TWs :: sep_toks (field_toks K nr dr) fields ++ [TWs; TKeyword (K KFrom); TWs; TIdent StmtProofs.mock]) =
  Some (Stmt fields [SMst [] [] StmtProofs.mock None] None [] FNull [] 0 0 0 0 None, []).
Proof.
  intros prec isop kws K nr dr Kinj fields f Hne Hc Hf.
  set (st := Stmt fields [SMst [] [] StmtProofs.mock None] None [] FNull [] 0 0 0 0 None).
  assert (Hcs : canon_stmt prec isop kws nr dr st = true).
  { subst st. cbn [canon_stmt]. rewrite Hc. destruct fields; [congruence | reflexivity]. }
  assert (Hn : (need_stmt st <= f)%nat) by (subst st; cbn [need_stmt need_src length]; lia).
  pose proof (stmt_all prec isop kws K nr dr Kinj st Hcs f [] Hn (or_introl eq_refl)) as H.
  subst st. cbn [stmt_toks] in H. rewrite app_nil_r in H. unfold kw in H. cbn [app mst_toks fill_toks opt_int_toks N.eqb] in H.
  repeat rewrite app_nil_r in H. exact H.
Qed.
Print Assumptions C12_parse_fields_roundtrip.

(* ParseSortFields(SortFields.String()) *)
Theorem C12_sort_fields_roundtrip : forall (K : kwid -> N), (forall a b, K a = K b -> a = b) ->
  forall sl R, sl <> [] -> hd_is_comma (skip_ws R) = false ->
  parse_sort_fields K (length sl) (sep_toks (sort_toks K) sl ++ R) = Some (sl, skip_ws R).
Proof.
  intros K Kinj sl R Hne Hc. apply (sort_fields_ok K Kinj); [exact Hne | exact Hc | apply le_n|].
  destruct sl as [|a l]; [congruence|]. rewrite sep_toks_cons. reflexivity.
Qed.
Print Assumptions C12_sort_fields_roundtrip.

(* the live keyword table gives the statement keywords pairwise different token codes *)
Theorem C12_stmt_keywords_repo : forall a b, KI a = KI b -> a = b.
Proof. intros a b H. destruct a, b; try reflexivity; vm_compute in H; discriminate H. Qed.
Print Assumptions C12_stmt_keywords_repo.

(* non-vacuity: a statement with every clause and a nested aliased sub-query is canonical and parses back *)
Definition ex_inner : stmt :=
  Stmt [(ECall [109;101;97;110] [EVar [118] DUnknown], [97])] [SMst [100;98] [] [109] None; SMst [] [114;112] [] (Some [94;99])]
       (Some (EBin OGt (EVar [118] DUnknown) (ENum false 1 [5]))) [ECall [116;105;109;101] [EDur 60000000000]; ERegex [104]]
       FPrev [] 0 0 0 0 None.
Definition ex_stmt_src : source :=
  SSub (Stmt [(ERegex [97], []); (EBin OMul (EVar [97] DUnknown) (EInt 2), [120;32;121])]
             [SSub ex_inner [116;49]; SMst [100;98] [114;112] [109;32;109] None]
             (Some (EBin OEq (EVar [104] DUnknown) (EStr [105;116;39;115]))) [EVar [104] DUnknown] (FNumber (ENum true 1 [5]))
             [([116;105;109;101], false); ([118], true)] 10 2 3 1 (Some [85;84;67])) [].
Example C12_ex_stmt_canonical : canon_source Inst.prec Inst.isop keywords true true ex_stmt_src = true.
Proof. vm_compute. reflexivity. Qed.
Example C12_ex_stmt_roundtrip :
  parse_source Inst.prec Inst.isop KI 20 (source_toks KI true true ex_stmt_src) = Some (ex_stmt_src, []).
Proof. vm_compute. reflexivity. Qed.

(* Result chunks: the generated codec (ChunkImpl / ColumnImpl / Bitmap / ChunkTags / floatTuple Marshal, Unmarshal, Size
   over lib/codec) modelled at byte level.  For every chunk whose parts fit the wire format (counts below 2^32, name below
   2^16 bytes, values 64-bit patterns): Unmarshal (Marshal c) = c, also when other bytes follow; and Size() is exactly
   the marshalled length (the writer puts Size() in front of each sub-message, the reader cuts by it). *)
Theorem C12_chunk_roundtrip : forall k rest, wf_chunk k = true -> dec_chunk (enc_chunk k ++ rest) = Some (k, rest).
Proof. exact chunk_roundtrip. Qed.
Print Assumptions C12_chunk_roundtrip.

Theorem C12_chunk_size : forall k, wf_chunk k = true -> len (enc_chunk k) = size_chunk k.
Proof. exact chunk_size. Qed.
Print Assumptions C12_chunk_size.

Theorem C12_column_roundtrip : forall c rest, wf_column c = true -> dec_column (enc_column c ++ rest) = Some (c, rest).
Proof. exact column_roundtrip. Qed.
Print Assumptions C12_column_roundtrip.

(* scalar ints travel zig-zag coded: the coding is a bijection on 64-bit patterns (MinInt64 and -1 included) *)
Theorem C12_zigzag : forall u, u < two64 -> zigzag u < two64 /\ unzigzag (zigzag u) = u.
Proof. exact (fun u H => conj (zigzag_bound u H) (zigzag_inv u H)). Qed.
Print Assumptions C12_zigzag.

(* non-vacuity: a chunk with a nil column slot, a string column with offsets, a float column holding NaN / -0.0 / +Inf
   patterns with a nil bitmap, float tuples, MinInt64 times, tags and a dimension column *)
Definition ex_chunk : chunk :=
  {| k_name := [109;115;116]; k_tags := [[1;0;2;0;104;0;97;0]; []]; k_tagindex := [0; 1]; k_time := [9223372036854775808; 18446744073709551615; 0];
     k_intervalindex := [0];
     k_columns := [None;
        Some {| c_type := 1; c_floats := [9221120237041090561; 9223372036854775808; 9218868437227405312]; c_ints := []; c_strbytes := [];
                c_offset := []; c_bools := []; c_times := [5]; c_tuples := []; c_nils := Some {| bm_bits := [224]; bm_array := []; bm_length := 3; bm_nil := 0 |} |};
        Some {| c_type := 5; c_floats := []; c_ints := []; c_strbytes := [97;98;99]; c_offset := [0;0;3]; c_bools := []; c_times := [];
                c_tuples := [[1;2];[]]; c_nils := Some {| bm_bits := [160]; bm_array := [0;2]; bm_length := 3; bm_nil := 1 |} |}];
     k_dims := [Some {| c_type := 3; c_floats := []; c_ints := [9223372036854775808;1;18446744073709551615]; c_strbytes := []; c_offset := [];
                        c_bools := [true;false]; c_times := []; c_tuples := []; c_nils := None |}] |}.
Example C12_ex_chunk_wf : wf_chunk ex_chunk = true.
Proof. vm_compute. reflexivity. Qed.
Example C12_ex_chunk_roundtrip : dec_chunk (enc_chunk ex_chunk) = Some (ex_chunk, []).
Proof. vm_compute. reflexivity. Qed.
