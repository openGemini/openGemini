(* C12 statement model: print / parse theorems for the hand-written statement parser (Stmt.v). *)
From Coq Require Import ZArith NArith List Bool Lia ZifyBool ZifyNat ZifyN.
From OG Require Import C12.Model C12.Proofs C12.ProofsParse C12.Stmt.
Import ListNotations.
Open Scope N_scope.

Lemma skip_ws_idem : forall t, skip_ws (skip_ws t) = skip_ws t.
Proof. induction t as [|x t IH]; [reflexivity|]. destruct x; try reflexivity. exact IH. Qed.

Section ExprInStatement.
Variable prec : op -> N.
Variable isop : op -> bool.
Variable kws : list (str * N).
Variables nr dr : bool.
Notation PU := (parse_unary prec isop).
Notation PE := (parse_expr prec isop).
Notation PT := (print_toks nr dr).
Notation CANON := (canon prec isop kws nr dr).

Lemma fuel_enough : forall e pre rest, (cost e + 2 <= parse_fuel (pre ++ PT e ++ rest))%nat.
Proof.
  clear prec isop kws. intros e pre rest. unfold parse_fuel. rewrite !app_length.
  pose proof (cost_le nr dr e). lia.
Qed.

Lemma pexpr_ok : forall e rest, CANON false e = true -> after_expr rest = true ->
  pexpr prec isop (PT e ++ rest) = Some (e, skip_ws rest).
Proof. intros e rest Hc Hr. unfold pexpr. apply (pe_ok prec isop kws nr dr); [exact Hc | apply (fuel_enough e []) | exact Hr]. Qed.

(* the same after a leading blank (the parser has just read a keyword) *)
Lemma pexpr_ok_ws : forall e rest, CANON false e = true -> after_expr rest = true ->
  pexpr prec isop (TWs :: PT e ++ rest) = Some (e, skip_ws rest).
Proof.
  intros e rest Hc Hr. unfold pexpr.
  pose proof (fuel_enough e [TWs] rest) as Hf. cbn [app] in Hf.
  destruct (parse_fuel (TWs :: PT e ++ rest)) as [|f] eqn:E; [lia|].
  rewrite PE_S, PU_ws, <- PE_S. apply (pe_ok prec isop kws nr dr); [exact Hc | lia | exact Hr].
Qed.

End ExprInStatement.

Lemma sep_toks_cons : forall (A : Type) (f : A -> list token) (a : A) (l : list A),
  sep_toks f (a :: l) = f a ++ flat_map (fun x => TComma :: TWs :: f x) l.
Proof. intros A f a l. revert l a. apply (sep_cons _ _ f [TComma; TWs] (sep_toks f)). intros a [|b l]; reflexivity. Qed.

Definition hd_is_comma (t : list token) : bool := match t with TComma :: _ => true | _ => false end.
Definition hd_kw (t : list token) : option N := match t with TKeyword c :: _ => Some c | _ => None end.

(* the measurement hybridqp.ParseFields wraps a select list with: SELECT <fields> FROM mock *)
Definition mock : str := [109;111;99;107].

Section StatementParser.
Variable prec : op -> N.
Variable isop : op -> bool.
Variable kws : list (str * N).
Variable K : kwid -> N.
Variables nr dr : bool.
Hypothesis Kinj : forall a b, K a = K b -> a = b.
Notation PT := (print_toks nr dr).
Notation CANON := (canon prec isop kws nr dr).

Ltac kne := apply N.eqb_neq; let HK := fresh in intro HK; apply Kinj in HK; discriminate.

(* a clause of a statement: its parser starts by skipping blanks, so only the tokens after them matter, and what it
   leaves is the rest R up to blanks *)
Definition clause_ok (A : Type) (p : list token -> option (A * list token)) (toks : list token) (v : A) (R : list token) : Prop :=
  forall T, skip_ws T = skip_ws (toks ++ R) -> exists R', p T = Some (v, R') /\ skip_ws R' = skip_ws R.

(* a clause that is absent: the parser looks at the next keyword and leaves it *)
Lemma absent_kw : forall (A : Type) (k : kwid) (R : list token) (yes : list token -> option (A * list token)) (dflt : A),
  hd_kw (skip_ws R) <> Some (K k) ->
  exists R', match skip_ws R with
             | TKeyword c :: r => if c =? K k then yes r else Some (dflt, skip_ws R)
             | _ => Some (dflt, skip_ws R)
             end = Some (dflt, R') /\ skip_ws R' = skip_ws R.
Proof.
  intros A k R yes dflt H. exists (skip_ws R). split; [|apply skip_ws_idem].
  destruct (skip_ws R) as [|t r]; [reflexivity|]. destruct t; try reflexivity.
  cbn [hd_kw] in H. assert (E : (code =? K k) = false) by (apply N.eqb_neq; congruence). rewrite E. reflexivity.
Qed.

(* ParseSortFields on SortFields.String() *)
Lemma sort_field_ok : forall sf R T, skip_ws T = sort_toks K sf ++ R -> parse_sort_field K T = Some (sf, R).
Proof.
  intros [n b] R T HT. unfold parse_sort_field. rewrite HT. unfold sort_toks, asc_desc, kw. cbn [fst snd app skip_ws].
  destruct b.
  - rewrite N.eqb_refl. reflexivity.
  - assert (E : (K KDesc =? K KAsc) = false) by kne. rewrite E, N.eqb_refl. reflexivity.
Qed.

Lemma more_sort_ok : forall l R f, (length l < f)%nat -> hd_is_comma (skip_ws R) = false ->
  parse_more_sort K f (flat_map (fun x => TComma :: TWs :: sort_toks K x) l ++ R) = Some (l, skip_ws R).
Proof.
  induction l as [|a l IH]; intros R f Hf Hc; (destruct f as [|f]; [cbn in Hf; lia|]).
  - cbn [flat_map app parse_more_sort]. destruct (skip_ws R) as [|t r]; [reflexivity|]. destruct t; try reflexivity. discriminate.
  - cbn [flat_map parse_more_sort app skip_ws]. rewrite <- app_assoc.
    rewrite (sort_field_ok a (flat_map (fun x => TComma :: TWs :: sort_toks K x) l ++ R)) by reflexivity.
    rewrite IH; [reflexivity | cbn [length] in Hf; lia | exact Hc].
Qed.

Lemma sort_fields_ok : forall sl R f T, sl <> [] -> hd_is_comma (skip_ws R) = false -> (length sl <= f)%nat ->
  skip_ws T = sep_toks (sort_toks K) sl ++ R -> parse_sort_fields K f T = Some (sl, skip_ws R).
Proof.
  intros [|a l] R f T Hne Hc Hf HT; [congruence|]. rewrite sep_toks_cons, <- app_assoc in HT.
  unfold parse_sort_fields. rewrite HT. unfold sort_toks at 1. cbn [app].
  rewrite (sort_field_ok a (flat_map (fun x => TComma :: TWs :: sort_toks K x) l ++ R) T HT).
  rewrite more_sort_ok; [reflexivity | cbn [length] in Hf; lia | exact Hc].
Qed.

(* ParseSource on Measurement.String(): a measurement has a name or a regex, not both; every database and retention
   policy prints and reads back, so db and rp are not constrained *)
Definition canon_mst (db rp name : str) (re : option str) : bool :=
  match name, re with
  | _ :: _, None => true
  | [], Some _ => true
  | _, _ => false
  end.

(* the select list: parseFields / parseField / parseAlias *)
Definition canon_field (fa : expr * str) : bool :=
  is_regex (fst fa) || (CANON false (fst fa) && field_ops_ok (fst fa)).
Definition after_field (R : list token) : bool :=
  match R with
  | TComma :: _ => true
  | TWs :: TKeyword c :: _ => negb (c =? K KAs)
  | _ => false
  end.

Lemma regex_first_head_ok : forall T, head_ok T = true -> regex_first T = None /\ regex_first (TWs :: T) = None.
Proof. intros [|t T] H; [discriminate|]. destruct t; try discriminate; split; reflexivity. Qed.

(* parseAlias: [AS ident] *)
Definition alias_toks (al : str) : list token :=
  match al with [] => [] | x :: a => [TWs; kw (K KAs); TWs; TIdent (x :: a)] end.

Lemma alias_ok : forall al R, after_field R = true -> clause_ok _ (parse_alias K) (alias_toks al) al R.
Proof.
  intros al R HR T HT. unfold parse_alias. rewrite HT. destruct al as [|x a]; cbn [alias_toks app].
  - refine (absent_kw _ KAs R _ _ _). destruct R as [|t r]; [discriminate|]. destruct t; try discriminate HR.
    + destruct r as [|t2 r2]; [discriminate|]. destruct t2; try discriminate HR. cbn [after_field skip_ws hd_kw] in *.
      apply negb_true_iff, N.eqb_neq in HR. congruence.
    + discriminate.
  - unfold kw. cbn [skip_ws]. rewrite N.eqb_refl. exists R. split; reflexivity.
Qed.

Lemma after_field_expr : forall al R, after_field R = true -> after_expr (alias_toks al ++ R) = true.
Proof.
  intros [|x a] R HR; [|reflexivity]. destruct R as [|t r]; [discriminate|]. destruct t; try discriminate HR; try reflexivity.
  destruct r as [|t2 r2]; [discriminate|]. destruct t2; try discriminate HR. reflexivity.
Qed.

(* a field of the select list, after the blank that follows SELECT or a comma *)
Lemma field_ok : forall fa R, canon_field fa = true -> after_field R = true ->
  parse_field prec isop K (TWs :: field_toks K nr dr fa ++ R) = Some (fa, skip_ws R).
Proof.
  intros [e al] R Hc HR. unfold canon_field in Hc. cbn [fst snd] in Hc.
  change (field_toks K nr dr (e, al)) with (PT e ++ alias_toks al). unfold parse_field.
  rewrite <- app_assoc. destruct (is_regex e) eqn:Er.
  - destruct e; try discriminate Er. cbn [print_toks app regex_first skip_ws].
    destruct (alias_ok al R HR _ eq_refl) as [r' [E S]]. rewrite E, S. reflexivity.
  - cbn [orb] in Hc. apply andb_prop in Hc. destruct Hc as [Hce Hops]. set (X := _ ++ R).
    destruct (regex_first_head_ok _ (head_ok_print prec isop kws nr dr e X Hce)) as [_ R2]. rewrite R2.
    rewrite (pexpr_ok_ws prec isop kws nr dr e X Hce (after_field_expr al R HR)), Hops.
    destruct (alias_ok al R HR (skip_ws X) (skip_ws_idem X)) as [r' [E S]]. rewrite E, S. reflexivity.
Qed.

Lemma from_not_as : (K KFrom =? K KAs) = false.
Proof. kne. Qed.

Lemma fields_ok : forall fl r f, fl <> [] -> forallb canon_field fl = true -> (length fl <= f)%nat ->
  parse_fields prec isop K f (TWs :: sep_toks (field_toks K nr dr) fl ++ TWs :: TKeyword (K KFrom) :: r) =
  Some (fl, TKeyword (K KFrom) :: r).
Proof.
  induction fl as [|a l IH]; intros r f Hne Hc Hf; [congruence|].
  cbn [forallb] in Hc. apply andb_prop in Hc. destruct Hc as [Ha Hl].
  destruct f as [|f]; [cbn in Hf; lia|]. cbn [parse_fields].
  destruct l as [|b l'].
  - cbn [sep_toks]. rewrite field_ok; [reflexivity | exact Ha|]. cbn [after_field]. rewrite from_not_as. reflexivity.
  - change (sep_toks (field_toks K nr dr) (a :: b :: l')) with
      (field_toks K nr dr a ++ TComma :: TWs :: sep_toks (field_toks K nr dr) (b :: l')).
    rewrite <- app_assoc. rewrite field_ok by (exact Ha || reflexivity). cbn [app skip_ws].
    rewrite IH; [reflexivity | discriminate | exact Hl | cbn [length] in *; lia].
Qed.

(* what follows a clause of a statement: the end, a closing parenthesis, a later clause (ks: the keywords of the
   clauses that may still come) or TZ( *)
Inductive tl (ks : list kwid) : list token -> Prop :=
| tl_nil : tl ks []
| tl_par : forall r, tl ks (TRParen :: r)
| tl_kw : forall k r, In k ks -> tl ks (TWs :: TKeyword (K k) :: r)
| tl_tz : forall r, tl ks (TWs :: TIdent s_TZ :: TLParen :: r).

Lemma tl_mono : forall ks ks' R, tl ks R -> incl ks ks' -> tl ks' R.
Proof. intros ks ks' R H Hi. destruct H; constructor. apply Hi. assumption. Qed.
Lemma tl_after_expr : forall ks R, tl ks R -> after_expr R = true.
Proof. intros ks R H. destruct H; reflexivity. Qed.
Lemma tl_no_comma : forall ks R, tl ks R -> hd_is_comma (skip_ws R) = false /\ hd_is_comma R = false.
Proof. intros ks R H. destruct H; split; reflexivity. Qed.
Lemma tl_not_kw : forall ks R k, tl ks R -> ~ In k ks -> hd_kw (skip_ws R) <> Some (K k).
Proof.
  intros ks R k H Hn. destruct H; cbn [skip_ws hd_kw]; try discriminate.
  intro E. inversion E as [E']. apply Kinj in E'. subst. contradiction.
Qed.
Lemma tl_skip : forall ks R, tl ks R -> skip_ws (skip_ws R) = skip_ws R.
Proof. intros. apply skip_ws_idem. Qed.

Definition cond_toks (c : option expr) : list token :=
  match c with Some e => TWs :: kw (K KWhere) :: TWs :: PT e | None => [] end.
Lemma cond_ok : forall c ks R, tl ks R -> ~ In KWhere ks ->
  match c with Some e => CANON false e = true | None => True end ->
  clause_ok _ (parse_condition prec isop K) (cond_toks c) c R.
Proof.
  intros c ks R HR Hn Hc T HT. unfold parse_condition. rewrite HT. destruct c as [e|]; cbn [cond_toks app].
  - unfold kw. cbn [skip_ws]. rewrite N.eqb_refl.
    rewrite (pexpr_ok_ws prec isop kws nr dr e R Hc (tl_after_expr ks R HR)).
    exists (skip_ws R). split; [reflexivity | apply skip_ws_idem].
  - refine (absent_kw _ KWhere R _ _ _). apply (tl_not_kw ks); assumption.
Qed.

Definition canon_dim (d : expr) : bool := is_regex d || CANON false d.
Definition dims_toks (dims : list expr) : list token :=
  match dims with [] => [] | _ => TWs :: kw (K KGroup) :: TWs :: kw (K KBy) :: TWs :: sep_toks PT dims end.

Lemma dim_ok : forall d R, canon_dim d = true -> after_expr R = true ->
  parse_dimension prec isop (TWs :: PT d ++ R) = Some (d, if is_regex d then R else skip_ws R).
Proof.
  intros d R Hc HR. unfold canon_dim in Hc. unfold parse_dimension. destruct (is_regex d) eqn:Er.
  - destruct d; try discriminate Er. reflexivity.
  - cbn [orb] in Hc. pose proof (head_ok_print prec isop kws nr dr d R Hc) as Hh.
    destruct (regex_first_head_ok _ Hh) as [_ R2]. rewrite R2.
    rewrite (pexpr_ok_ws prec isop kws nr dr d R Hc HR). rewrite skip_ws_idem. reflexivity.
Qed.

Lemma dim_list_ok : forall dl ks R f, dl <> [] -> forallb canon_dim dl = true -> tl ks R -> (length dl <= f)%nat ->
  exists R', parse_dim_list prec isop f (TWs :: sep_toks PT dl ++ R) = Some (dl, R') /\ skip_ws R' = skip_ws R.
Proof.
  induction dl as [|a l IH]; intros ks R f Hne Hc HR Hf; [congruence|].
  cbn [forallb] in Hc. apply andb_prop in Hc. destruct Hc as [Ha Hl].
  destruct f as [|f]; [cbn in Hf; lia|].
  destruct l as [|b l'].
  - cbn [sep_toks parse_dim_list].
    rewrite (dim_ok a R Ha (tl_after_expr ks R HR)).
    destruct (tl_no_comma ks R HR) as [N1 N2].
    remember (if is_regex a then R else skip_ws R) as R' eqn:ER'.
    assert (H1 : hd_is_comma R' = false) by (subst R'; destruct (is_regex a); assumption).
    assert (H2 : skip_ws R' = skip_ws R) by (subst R'; destruct (is_regex a); [reflexivity | apply skip_ws_idem]).
    exists R'. split; [|exact H2].
    destruct R' as [|t r]; [reflexivity|]. destruct t; try reflexivity. discriminate H1.
  - change (sep_toks PT (a :: b :: l')) with (PT a ++ TComma :: TWs :: sep_toks PT (b :: l')).
    rewrite <- app_assoc. cbn [app parse_dim_list].
    rewrite (dim_ok a (TComma :: TWs :: sep_toks PT (b :: l') ++ R) Ha eq_refl).
    assert (E : (if is_regex a then TComma :: TWs :: sep_toks PT (b :: l') ++ R
                 else skip_ws (TComma :: TWs :: sep_toks PT (b :: l') ++ R)) = TComma :: TWs :: sep_toks PT (b :: l') ++ R)
      by (destruct (is_regex a); reflexivity).
    rewrite E.
    destruct (IH ks R f ltac:(discriminate) Hl HR ltac:(cbn [length] in *; lia)) as [R' [I1 I2]].
    rewrite I1. exists R'. split; [reflexivity | exact I2].
Qed.

Lemma by_not_group : (K KBy =? K KGroup) = false. Proof. kne. Qed.

Lemma dims_ok : forall dl ks R f, forallb canon_dim dl = true -> tl ks R -> ~ In KGroup ks -> (length dl <= f)%nat ->
  clause_ok _ (parse_dimensions prec isop K f) (dims_toks dl) dl R.
Proof.
  intros dl ks R f Hc HR Hn Hf T HT. unfold parse_dimensions. rewrite HT. destruct dl as [|a l].
  - refine (absent_kw _ KGroup R _ _ _). apply (tl_not_kw ks); assumption.
  - unfold dims_toks, kw. cbn [app skip_ws]. rewrite !N.eqb_refl.
    apply (dim_list_ok (a :: l) ks R f); [discriminate | exact Hc | exact HR | exact Hf].
Qed.

Definition canon_fill (fl : fillopt) : bool :=
  match fl with
  | FNumber v => (match v with EInt _ | ENum _ _ _ => true | _ => false end) && canon prec isop kws false dr false v
  | _ => true
  end.

Lemma fill_word : forall w R, canon prec isop kws false dr false (EVar w DUnknown) = true ->
  pexpr prec isop (TIdent w :: TRParen :: R) = Some (EVar w DUnknown, TRParen :: R).
Proof. intros w R Hc. exact (pexpr_ok prec isop kws false dr (EVar w DUnknown) (TRParen :: R) Hc eq_refl). Qed.

Lemma fill_ok : forall fl ks R, tl ks R -> ~ In KFill ks -> canon_fill fl = true ->
  clause_ok _ (parse_fill prec isop K) (fill_toks K dr fl) fl R.
Proof.
  intros fl ks R HR Hn Hc T HT. unfold parse_fill. rewrite HT.
  destruct fl as [| | | |v]; cbn [fill_toks app]; unfold kw; cbn [skip_ws]; try rewrite N.eqb_refl.
  - refine (absent_kw _ KFill R _ _ _). apply (tl_not_kw ks); assumption.
  - rewrite (fill_word s_none R eq_refl). exists R. split; reflexivity.
  - rewrite (fill_word s_previous R eq_refl). exists R. split; reflexivity.
  - rewrite (fill_word s_linear R eq_refl). exists R. split; reflexivity.
  - cbn [canon_fill] in Hc. apply andb_prop in Hc. destruct Hc as [Hv Hcv].
    rewrite <- app_assoc. cbn [app].
    rewrite (pexpr_ok prec isop kws false dr v (TRParen :: R) Hcv eq_refl). cbn [skip_ws].
    exists R. destruct v; try discriminate Hv; split; reflexivity.
Qed.

Definition order_toks (sl : list (str * bool)) : list token :=
  match sl with [] => [] | _ => TWs :: kw (K KOrder) :: TWs :: kw (K KBy) :: TWs :: sep_toks (sort_toks K) sl end.

Lemma order_ok : forall sl ks R f, tl ks R -> ~ In KOrder ks -> (length sl <= f)%nat ->
  clause_ok _ (parse_order_by K f) (order_toks sl) sl R.
Proof.
  intros sl ks R f HR Hn Hf T HT. unfold parse_order_by. rewrite HT. destruct sl as [|a l].
  - refine (absent_kw _ KOrder R _ _ _). apply (tl_not_kw ks); assumption.
  - unfold order_toks, kw. cbn [app skip_ws]. rewrite !N.eqb_refl.
    rewrite (sort_fields_ok (a :: l) R f); [|discriminate | apply (tl_no_comma ks R HR) | exact Hf | rewrite sep_toks_cons; reflexivity].
    exists (skip_ws R). split; [reflexivity | apply skip_ws_idem].
Qed.

Lemma opt_int_ok : forall k n ks R, tl ks R -> ~ In k ks -> n <= max_int64 ->
  clause_ok _ (parse_opt_int (K k)) (opt_int_toks (K k) n) n R.
Proof.
  intros k n ks R HR Hk Hn T HT. unfold parse_opt_int. rewrite HT. unfold opt_int_toks. destruct (N.eqb_spec n 0) as [E|E].
  - subst n. refine (absent_kw _ k R _ _ (tl_not_kw ks R k HR Hk)).
  - cbn [app]. unfold kw. cbn [skip_ws]. rewrite N.eqb_refl, digits_roundtrip.
    apply N.leb_le in Hn. rewrite Hn. exists R. split; reflexivity.
Qed.

Definition tz_toks (tz : option str) : list token :=
  match tz with Some z => [TWs; TIdent s_TZ; TLParen; TString z; TRParen] | None => [] end.

Lemma loc_ok : forall tz X T, (X = [] \/ exists r, X = TRParen :: r) -> skip_ws T = skip_ws (tz_toks tz ++ X) ->
  parse_location prec isop T = Some (tz, X).
Proof.
  intros tz X T HX HT. unfold parse_location. rewrite HT. destruct tz as [z|]; cbn [tz_toks app skip_ws].
  - change (str_eqb (lower s_TZ) s_tz) with true. cbv iota.
    unfold pexpr. destruct HX as [HX|[r HX]]; subst X; reflexivity.
  - destruct HX as [HX|[r HX]]; subst X; reflexivity.
Qed.

Definition srcs_toks := fix go (l : list source) : list token :=
  match l with
  | [] => []
  | [a] => source_toks K nr dr a
  | a :: r => source_toks K nr dr a ++ TComma :: TWs :: go r
  end.

Definition tail_toks (cond : option expr) (dims : list expr) (fl : fillopt) (sort : list (str * bool))
                     (limit offset slimit soffset : N) (tz : option str) : list token :=
  cond_toks cond ++ dims_toks dims ++ fill_toks K dr fl ++ order_toks sort ++
  opt_int_toks (K KLimit) limit ++ opt_int_toks (K KOffset) offset ++
  opt_int_toks (K KSlimit) slimit ++ opt_int_toks (K KSoffset) soffset ++ tz_toks tz.

Lemma stmt_toks_shape : forall fields sources cond dims fl sort limit offset slimit soffset tz,
  sources <> [] ->
  stmt_toks K nr dr (Stmt fields sources cond dims fl sort limit offset slimit soffset tz) =
  kw (K KSelect) :: TWs :: sep_toks (field_toks K nr dr) fields ++
  TWs :: kw (K KFrom) :: TWs :: srcs_toks sources ++ tail_toks cond dims fl sort limit offset slimit soffset tz.
Proof.
  intros fields sources cond dims fl sort limit offset slimit soffset tz Hne.
  destruct sources as [|a l]; [congruence|].
  unfold tail_toks, cond_toks, dims_toks, order_toks, tz_toks. cbn [stmt_toks]. fold srcs_toks.
  repeat rewrite <- app_assoc. cbn [app]. reflexivity.
Qed.

(* fuel that parse_source / parse_stmt need: one level per statement and per source, and one step per field, dimension
   and sort field for the list parsers *)
Fixpoint need_src (s : source) : nat :=
  match s with
  | SMst _ _ _ _ => 1
  | SSub st _ => S (need_stmt st)
  end
with need_stmt (s : stmt) : nat :=
  match s with
  | Stmt fields sources _ dims _ sort _ _ _ _ _ =>
      S (length fields + length dims + length sort +
         (fix go (l : list source) : nat := match l with [] => O | a :: r => S (need_src a + go r) end) sources)
  end.
Definition need_srcs := fix go (l : list source) : nat := match l with [] => O | a :: r => S (need_src a + go r) end.

Fixpoint canon_source (s : source) : bool :=
  match s with
  | SMst db rp name re => canon_mst db rp name re
  | SSub st _ => canon_stmt st
  end
with canon_stmt (s : stmt) : bool :=
  match s with
  | Stmt fields sources cond dims fl sort limit offset slimit soffset tz =>
      match fields with [] => false | _ => true end && forallb canon_field fields &&
      match sources with [] => false | _ => true end &&
      (fix go (l : list source) : bool := match l with [] => true | a :: r => canon_source a && go r end) sources &&
      match cond with Some c => CANON false c | None => true end &&
      forallb canon_dim dims && canon_fill fl &&
      (limit <=? max_int64) && (offset <=? max_int64) && (slimit <=? max_int64) && (soffset <=? max_int64)
  end.
Definition canon_srcs := fix go (l : list source) : bool := match l with [] => true | a :: r => canon_source a && go r end.

(* what follows a source inside a FROM list: the next source, or the rest of the statement *)
Inductive after_src : list token -> Prop :=
| as_comma : forall r, after_src (TComma :: r)
| as_tail : forall ks R, tl ks R -> ~ In KAs ks -> after_src R.

Lemma after_src_not_as : forall R, after_src R -> hd_kw (skip_ws R) <> Some (K KAs).
Proof. intros R0 [r|ks R HR Hn]; [discriminate | apply (tl_not_kw ks); assumption]. Qed.

Lemma parse_source_S : forall f toks,
  parse_source prec isop K (S f) toks =
  match regex_first toks with
  | Some (s, r) => Some (SMst [] [] [] (Some s), r)
  | None =>
    match skip_ws toks with
    | TLParen :: r =>
        match skip_ws r with
        | TKeyword c :: r1 =>
            if c =? K KSelect then
              match parse_stmt prec isop K f r1 with
              | Some (st, r2) => sub_after K st r2
              | None => None
              end
            else None
        | _ => None
        end
    | _ => parse_mst toks
    end
  end.
Proof. reflexivity. Qed.

Lemma ms_dot_ident : forall n acc s r, more_segments (S n) acc (TDot :: TIdent s :: r) = more_segments n (acc ++ [s]) r.
Proof. reflexivity. Qed.
Lemma ms_dot_dot : forall n acc r, more_segments (S n) acc (TDot :: TDot :: r) = more_segments n (acc ++ [[]]) (TDot :: r).
Proof. reflexivity. Qed.
Lemma ms_dot_regex : forall n acc s r, more_segments (S n) acc (TDot :: TRegex s :: r) = Some (acc, TRegex s :: r).
Proof. reflexivity. Qed.

Lemma mst_roundtrip : forall db rp name re R f,
  canon_mst db rp name re = true -> after_src R ->
  parse_source prec isop K (S f) (mst_toks db rp name re ++ R) = Some (SMst db rp name re, R).
Proof.
  intros db rp name re R f Hc HR. unfold canon_mst in Hc. rewrite parse_source_S.
  assert (HRdot : forall n acc, more_segments (S n) acc R = Some (acc, R)) by (intros n acc; destruct HR as [r|ks R0 []]; reflexivity).
  assert (HRre : regex_first R = None) by (destruct HR as [r|ks R0 []]; reflexivity).
  destruct name as [|c nm]; destruct re as [r0|]; try discriminate Hc;
    destruct db as [|d db']; destruct rp as [|p rp']; cbn [mst_toks app regex_first skip_ws]; try reflexivity;
    unfold parse_mst, segmented_idents; cbn [skip_ws];
    repeat (rewrite ms_dot_ident || rewrite ms_dot_dot || rewrite ms_dot_regex);
    try rewrite HRdot; cbn [app length Nat.leb regex_first skip_ws]; try rewrite HRre; reflexivity.
Qed.

Lemma parse_source_ws : forall f T, parse_source prec isop K f (TWs :: T) = parse_source prec isop K f T.
Proof. intros [|f] T; reflexivity. Qed.

Definition source_read_back (src : source) : Prop :=
  canon_source src = true -> forall f R, (need_src src <= f)%nat -> after_src R ->
  exists R', parse_source prec isop K f (source_toks K nr dr src ++ R) = Some (src, R') /\ skip_ws R' = skip_ws R.
(* parse_source has consumed ( and SELECT when it calls parse_stmt: hence the tokens after the first; X is what follows
   the statement, the end or the closing parenthesis of the sub-query *)
Definition stmt_read_back (st : stmt) : Prop :=
  canon_stmt st = true -> forall f X, (need_stmt st <= f)%nat -> (X = [] \/ exists r, X = TRParen :: r) ->
  match stmt_toks K nr dr st with
  | _ :: body => parse_stmt prec isop K f (body ++ X) = Some (st, X)
  | [] => False
  end.

Lemma sources_ok : forall l f R ks, Forall source_read_back l -> l <> [] -> canon_srcs l = true ->
  (need_srcs l <= f)%nat -> tl ks R -> ~ In KAs ks ->
  parse_sources prec isop K f (TWs :: srcs_toks l ++ R) = Some (l, skip_ws R).
Proof.
  induction l as [|a l IH]; intros f R ks HP Hne Hc Hf HR Hn; [congruence|].
  inversion HP as [|? ? Pa Pl]; subst.
  cbn [canon_srcs] in Hc. apply andb_prop in Hc. destruct Hc as [Ha Hl].
  cbn [need_srcs] in Hf. fold need_srcs in Hf.
  destruct f as [|f]; [lia|]. cbn [parse_sources]. rewrite parse_source_ws.
  destruct l as [|b l'].
  - cbn [srcs_toks].
    destruct (Pa Ha f R ltac:(lia) (as_tail ks R HR Hn)) as [R' [E1 E2]]. rewrite E1, E2.
    destruct (tl_no_comma ks R HR) as [N1 _].
    destruct (skip_ws R) as [|t r]; [reflexivity|]. destruct t; try reflexivity. discriminate N1.
  - change (srcs_toks (a :: b :: l')) with (source_toks K nr dr a ++ TComma :: TWs :: srcs_toks (b :: l')).
    rewrite <- app_assoc. cbn [app].
    destruct (Pa Ha f (TComma :: TWs :: srcs_toks (b :: l') ++ R) ltac:(lia) (as_comma _)) as [R' [E1 E2]].
    rewrite E1, E2. cbn [app skip_ws].
    rewrite (IH f R ks); [reflexivity | exact Pl | discriminate | exact Hl | lia | exact HR | exact Hn].
Qed.

Lemma parse_stmt_S : forall f toks,
  parse_stmt prec isop K (S f) toks =
  match parse_fields prec isop K (S f) toks with
  | Some (fields, r0) =>
      match skip_ws r0 with
      | TKeyword c :: r1 =>
          if c =? K KFrom then
            match parse_sources prec isop K f r1 with
            | Some (sources, r2) => parse_tail prec isop K (S f) fields sources r2
            | None => None
            end
          else None
      | _ => None
      end
  | None => None
  end.
Proof. reflexivity. Qed.

Lemma tl_opt_int : forall k ks n R, tl ks R -> tl (k :: ks) (opt_int_toks (K k) n ++ R).
Proof.
  intros k ks n R H. unfold opt_int_toks. destruct (n =? 0); cbn [app].
  - apply (tl_mono ks); [exact H | intros x Hx; right; exact Hx].
  - apply tl_kw. left. reflexivity.
Qed.
Lemma tl_order : forall ks sl R, tl ks R -> tl (KOrder :: ks) (order_toks sl ++ R).
Proof.
  intros ks sl R H. destruct sl; cbn [order_toks app].
  - apply (tl_mono ks); [exact H | intros x Hx; right; exact Hx].
  - apply tl_kw. left. reflexivity.
Qed.
Lemma tl_fill : forall ks fl R, tl ks R -> tl (KFill :: ks) (fill_toks K dr fl ++ R).
Proof.
  intros ks fl R H. destruct fl; cbn [fill_toks app]; try (apply tl_kw; left; reflexivity).
  apply (tl_mono ks); [exact H | intros x Hx; right; exact Hx].
Qed.
Lemma tl_dims : forall ks dl R, tl ks R -> tl (KGroup :: ks) (dims_toks dl ++ R).
Proof.
  intros ks dl R H. destruct dl; cbn [dims_toks app].
  - apply (tl_mono ks); [exact H | intros x Hx; right; exact Hx].
  - apply tl_kw. left. reflexivity.
Qed.
Lemma tl_cond : forall ks c R, tl ks R -> tl (KWhere :: ks) (cond_toks c ++ R).
Proof.
  intros ks c R H. destruct c; cbn [cond_toks app].
  - apply tl_kw. left. reflexivity.
  - apply (tl_mono ks); [exact H | intros x Hx; right; exact Hx].
Qed.
Lemma tl_tzX : forall tz X, (X = [] \/ exists r, X = TRParen :: r) -> tl [] (tz_toks tz ++ X).
Proof.
  intros tz X HX. destruct tz; cbn [tz_toks app]; [apply tl_tz|].
  destruct HX as [HX|[r HX]]; subst X; constructor.
Qed.

Ltac notin := cbn [In]; intuition discriminate.

Lemma canon_stmt_spec : forall fields sources cond dims fl sort limit offset slimit soffset tz,
  canon_stmt (Stmt fields sources cond dims fl sort limit offset slimit soffset tz) = true ->
  (fields <> [] /\ forallb canon_field fields = true) /\ (sources <> [] /\ canon_srcs sources = true) /\
  match cond with Some c => CANON false c = true | None => True end /\
  forallb canon_dim dims = true /\ canon_fill fl = true /\
  (limit <= max_int64 /\ offset <= max_int64) /\ (slimit <= max_int64 /\ soffset <= max_int64).
Proof.
  intros fields sources cond dims fl sort limit offset slimit soffset tz H. cbn [canon_stmt] in H. fold canon_srcs in H.
  repeat (apply andb_prop in H; let C := fresh "C" in destruct H as [H C]).
  repeat split; try assumption; try (apply N.leb_le; assumption).
  - destruct fields; discriminate.
  - destruct sources; discriminate.
  - destruct cond; [assumption | exact I].
Qed.

(* T2..T9 are the suffixes of the printed tail and Li says which keywords may still follow Ti: each clause parser, run
   on what the one before left, stops at the first token of Ti *)
Lemma tail_ok : forall fields sources cond dims fl sort limit offset slimit soffset tz X f T0,
  canon_stmt (Stmt fields sources cond dims fl sort limit offset slimit soffset tz) = true ->
  (X = [] \/ exists r, X = TRParen :: r) -> (length dims <= f)%nat -> (length sort <= f)%nat ->
  skip_ws T0 = skip_ws (tail_toks cond dims fl sort limit offset slimit soffset tz ++ X) ->
  parse_tail prec isop K f fields sources T0 = Some (Stmt fields sources cond dims fl sort limit offset slimit soffset tz, X).
Proof.
  intros fields sources cond dims fl sort limit offset slimit soffset tz X f T0 Hc HX Hfd Hfs HT0.
  apply canon_stmt_spec in Hc. destruct Hc as [_ [_ [Hcond [Hdims [Hfill [[Hl Ho] [Hsl Hso]]]]]]].
  unfold tail_toks in HT0. repeat rewrite <- app_assoc in HT0.
  set (T9 := tz_toks tz ++ X) in *.
  set (T8 := opt_int_toks (K KSoffset) soffset ++ T9) in *.
  set (T7 := opt_int_toks (K KSlimit) slimit ++ T8) in *.
  set (T6 := opt_int_toks (K KOffset) offset ++ T7) in *.
  set (T5 := opt_int_toks (K KLimit) limit ++ T6) in *.
  set (T4 := order_toks sort ++ T5) in *.
  set (T3 := fill_toks K dr fl ++ T4) in *.
  set (T2 := dims_toks dims ++ T3) in *.
  assert (L9 : tl [] T9) by (apply tl_tzX; exact HX).
  assert (L8 : tl [KSoffset] T8) by (apply tl_opt_int; exact L9).
  assert (L7 : tl [KSlimit; KSoffset] T7) by (apply tl_opt_int; exact L8).
  assert (L6 : tl [KOffset; KSlimit; KSoffset] T6) by (apply tl_opt_int; exact L7).
  assert (L5 : tl [KLimit; KOffset; KSlimit; KSoffset] T5) by (apply tl_opt_int; exact L6).
  assert (L4 : tl [KOrder; KLimit; KOffset; KSlimit; KSoffset] T4) by (apply tl_order; exact L5).
  assert (L3 : tl [KFill; KOrder; KLimit; KOffset; KSlimit; KSoffset] T3) by (apply tl_fill; exact L4).
  unfold parse_tail.
  destruct (cond_ok cond _ T2 (tl_dims _ dims T3 L3) ltac:(notin) Hcond T0 HT0) as [R2 [E2 S2]]. rewrite E2.
  destruct (dims_ok dims _ T3 f Hdims L3 ltac:(notin) Hfd R2 S2) as [R3 [E3 S3]]. rewrite E3.
  destruct (fill_ok fl _ T4 L4 ltac:(notin) Hfill R3 S3) as [R4 [E4 S4]]. rewrite E4.
  destruct (order_ok sort _ T5 f L5 ltac:(notin) Hfs R4 S4) as [R5 [E5 S5]]. rewrite E5.
  destruct (opt_int_ok KLimit limit _ T6 L6 ltac:(notin) Hl R5 S5) as [R6 [E6 S6]]. rewrite E6.
  destruct (opt_int_ok KOffset offset _ T7 L7 ltac:(notin) Ho R6 S6) as [R7 [E7 S7]]. rewrite E7.
  destruct (opt_int_ok KSlimit slimit _ T8 L8 ltac:(notin) Hsl R7 S7) as [R8 [E8 S8]]. rewrite E8.
  destruct (opt_int_ok KSoffset soffset _ T9 L9 ltac:(notin) Hso R8 S8) as [R9 [E9 S9]]. rewrite E9.
  rewrite (loc_ok tz X R9 HX S9). reflexivity.
Qed.

Lemma sub_ok : forall st al, stmt_read_back st -> source_read_back (SSub st al).
Proof.
  intros st al HB Hc f R Hf HR. pose proof (after_src_not_as R HR) as F3.
  cbn [canon_source need_src] in *. destruct f as [|f]; [lia|]. specialize (HB Hc f).
  set (AL := match al with [] => [] | _ :: _ => [TWs; kw (K KAs); TWs; TIdent al] end).
  change (source_toks K nr dr (SSub st al)) with (TLParen :: stmt_toks K nr dr st ++ TRParen :: AL).
  destruct (stmt_toks K nr dr st) as [|t0 body] eqn:Est; [destruct (HB [] ltac:(lia) (or_introl eq_refl))|].
  assert (Ht0 : t0 = kw (K KSelect)) by (destruct st; inversion Est; reflexivity). subst t0.
  specialize (HB (TRParen :: AL ++ R) ltac:(lia) (or_intror (ex_intro _ (AL ++ R) eq_refl))).
  rewrite parse_source_S. unfold kw in *. cbn [app regex_first skip_ws]. rewrite N.eqb_refl.
  rewrite <- app_assoc. cbn [app]. rewrite HB. unfold sub_after. cbn [skip_ws].
  destruct al as [|x a]; subst AL; cbn [app].
  - refine (absent_kw _ KAs R _ _ F3).
  - cbn [skip_ws]. rewrite N.eqb_refl. exists R. split; reflexivity.
Qed.

Lemma stmt_ok : forall fields sources cond dims fl sort limit offset slimit soffset tz,
  Forall source_read_back sources -> stmt_read_back (Stmt fields sources cond dims fl sort limit offset slimit soffset tz).
Proof.
  intros fields sources cond dims fl sort limit offset slimit soffset tz HA Hc f X Hf HX.
  destruct (canon_stmt_spec _ _ _ _ _ _ _ _ _ _ _ Hc) as [[Hfne Hfc] [[Hsne Hsc] _]].
  rewrite (stmt_toks_shape fields sources cond dims fl sort limit offset slimit soffset tz Hsne). unfold kw at 1.
  cbn [need_stmt] in Hf. fold need_srcs in Hf.
  destruct f as [|f]; [lia|].
  assert (Hfu : (length fields <= S f /\ need_srcs sources <= f /\ length dims <= S f /\ length sort <= S f)%nat) by (clear - Hf; lia).
  destruct Hfu as [Hf1 [Hf2 [Hf3 Hf4]]].
  rewrite parse_stmt_S. repeat (rewrite <- app_assoc || rewrite <- app_comm_cons).
  set (T1 := tail_toks cond dims fl sort limit offset slimit soffset tz ++ X).
  unfold kw. rewrite (fields_ok fields (TWs :: srcs_toks sources ++ T1) (S f) Hfne Hfc Hf1). cbn [skip_ws]. rewrite N.eqb_refl.
  assert (LT : tl [KWhere; KGroup; KFill; KOrder; KLimit; KOffset; KSlimit; KSoffset] T1).
  { unfold T1, tail_toks. repeat rewrite <- app_assoc.
    apply tl_cond, tl_dims, tl_fill, tl_order, tl_opt_int, tl_opt_int, tl_opt_int, tl_opt_int, tl_tzX. exact HX. }
  rewrite (sources_ok sources f T1 _ HA Hsne Hsc Hf2 LT ltac:(notin)).
  apply tail_ok; [exact Hc | exact HX | exact Hf3 | exact Hf4 | apply skip_ws_idem].
Qed.

Lemma mst_ok : forall db rp name re, source_read_back (SMst db rp name re).
Proof.
  intros db rp name re Hc f R Hf HR.
  destruct f as [|f]; [cbn in Hf; lia|]. exists R. split; [apply mst_roundtrip; assumption | reflexivity].
Qed.

(* induction over statements, through the sub-queries of the FROM list *)
Lemma stmt_all : forall st, stmt_read_back st.
Proof.
  fix IH 1. intros [fields sources cond dims fl sort limit offset slimit soffset tz]. apply stmt_ok.
  induction sources as [|a l IHl]; constructor; [|exact IHl].
  destruct a as [db rp name re|st al]; [apply mst_ok | apply sub_ok, IH].
Qed.

(* ParseSource (Source.String()): every canonical source - measurement or sub-query to any depth, every clause *)
Lemma src_all : forall src, source_read_back src.
Proof. intros [db rp name re|st al]; [apply mst_ok | apply sub_ok, stmt_all]. Qed.

End StatementParser.
