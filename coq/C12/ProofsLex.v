(* C12 lexing: the scanner (Model.scan) reads the TEXT printed by the String methods (Model.print_text) back as exactly
   the token sequence of the token-level printer (Model.print_toks), for every canonical expression.
   Here: the scanner state as a fold over tokens, and one lemma per token class. *)
From Coq Require Import ZArith NArith List Bool Lia ZifyBool ZifyNat ZifyN.
From OG Require Import C12.Model C12.Proofs.
Import ListNotations.
Open Scope N_scope.

Lemma hd_sat_app : forall p s rest, s <> [] -> hd_sat p (s ++ rest) = hd_sat p s.
Proof. intros p [|c s] rest H; [congruence | reflexivity]. Qed.

Lemma hd_sat_imp : forall (p q : N -> bool) s, (forall c, q c = true -> p c = true) -> hd_sat p s = false -> hd_sat q s = false.
Proof.
  intros p q [|c s] H Hp; [reflexivity|]. cbn [hd_sat] in *. destruct (q c) eqn:E; [|reflexivity].
  apply H in E. congruence.
Qed.

Record sst := { s_prev : option token; s_ws : bool; s_last : option token; s_stk : list bool }.

(* what the scanner's state is after it has produced token t (in the contexts where the printers put it: a regex
   token always comes from the delimited reader, which leaves the previous-token register alone) *)
Definition advance (st : sst) (t : token) : sst :=
  match t with
  | TWs => {| s_prev := s_prev st; s_ws := true; s_last := s_last st; s_stk := s_stk st |}
  | TRegex _ => {| s_prev := s_prev st; s_ws := false; s_last := Some t; s_stk := s_stk st |}
  | TLParen => {| s_prev := Some t; s_ws := false; s_last := Some t; s_stk := call_ctx (s_last st) (s_ws st) :: s_stk st |}
  | TRParen => {| s_prev := Some t; s_ws := false; s_last := Some t; s_stk := tl (s_stk st) |}
  | _ => {| s_prev := Some t; s_ws := false; s_last := Some t; s_stk := s_stk st |}
  end.
Definition run (toks : list token) (st : sst) : sst := fold_left advance toks st.

Lemma run_app : forall a b st, run (a ++ b) st = run b (run a st).
Proof. intros. apply fold_left_app. Qed.

Definition st0 : sst := {| s_prev := None; s_ws := false; s_last := None; s_stk := [] |}.

Lemma ident_first_class : forall c, is_ident_first c = true ->
  is_ws c = false /\ (is_letter c || (c =? 95)) = true.
Proof. intros c H. unfold is_ident_first, is_ws, is_letter in *. lia. Qed.

Lemma digit_class : forall c, is_digit c = true ->
  is_ws c = false /\ (is_letter c || (c =? 95)) = false.
Proof. intros c H. unfold is_ws, is_letter, is_digit in *. lia. Qed.

Lemma bare_ok_chars : forall w, bare_ok w = true ->
  exists c w', w = c :: w' /\ is_ident_first c = true /\ forallb is_ident_or_dot w = true.
Proof.
  intros [|c w'] H; [discriminate|]. cbn [bare_ok] in H. apply andb_prop in H. destruct H as [H1 H2].
  exists c, w'. split; [reflexivity|]. split; [exact H1|].
  cbn [forallb]. apply andb_true_intro. split.
  - unfold is_ident_or_dot, is_ident_char, is_ident_first in *. lia.
  - clear H1. induction w' as [|x w' IH]; [reflexivity|]. cbn [forallb] in *. apply andb_prop in H2. destruct H2 as [Hx Hw].
    rewrite IH by exact Hw. unfold is_ident_or_dot. rewrite Hx. reflexivity.
Qed.

Lemma escape_bare : forall s, forallb is_ident_or_dot s = true -> escape 34 s = s.
Proof.
  induction s as [|c s IH]; intro H; [reflexivity|]. cbn [forallb] in H. apply andb_prop in H. destruct H as [Hc Hs].
  cbn [escape]. rewrite IH by exact Hs.
  assert (E : (c =? 10) = false /\ (c =? 92) = false /\ (c =? 34) = false).
  { unfold is_ident_or_dot, is_ident_char, is_letter, is_digit in Hc. lia. }
  destruct E as [E1 [E2 E3]]. rewrite E1, E2, E3. reflexivity.
Qed.

Lemma digits_first : forall d, d <> [] -> forallb is_digit d = true -> exists c d', d = c :: d' /\ is_digit c = true.
Proof.
  intros [|c d'] Hne H; [congruence|]. cbn [forallb] in H. apply andb_prop in H. destruct H as [Hc _].
  exists c, d'. split; [reflexivity | exact Hc].
Qed.

Lemma wf_regex_tail : forall c r, wf_regex (c :: r) = true -> r <> [] -> wf_regex r = true.
Proof.
  intros c r H Hne. unfold wf_regex in *. cbn [forallb] in H. apply andb_prop in H. destruct H as [H1 H2].
  apply andb_prop in H1. destruct H1 as [_ H1]. rewrite H1. destruct r as [|x r']; [congruence|].
  cbn [last_is] in H2. exact H2.
Qed.

Lemma regex_delim_escape : forall src acc rest, wf_regex src = true ->
  regex_delim (regex_escape src ++ 47 :: rest) acc = Some (rev acc ++ src, rest).
Proof.
  induction src as [|c r IH]; intros acc rest H.
  - cbn [regex_escape app regex_delim]. rewrite app_nil_r. reflexivity.
  - assert (Hc : (c =? 10) = false /\ (c =? 13) = false /\ (c =? 0) = false).
    { unfold wf_regex in H. cbn [forallb] in H. unfold wf_char in H. lia. }
    destruct Hc as [H10 [H13 H0]].
    assert (IH' : r <> [] -> forall x, regex_delim (regex_escape r ++ 47 :: rest) (x :: acc) = Some (rev acc ++ x :: r, rest)).
    { intros Hne x. rewrite IH by (apply (wf_regex_tail c); assumption). cbn [rev]. rewrite <- app_assoc. reflexivity. }
    cbn [regex_escape]. destruct (c =? 47) eqn:E47.
    + apply N.eqb_eq in E47. subst c. cbn [app regex_delim]. cbn -[regex_delim regex_escape app rev].
      destruct r as [|x r'].
      * cbn [regex_escape app regex_delim]. rewrite N.eqb_refl. reflexivity.
      * apply IH'. discriminate.
    + cbn [app regex_delim]. rewrite E47, H10, H13, H0. cbn [orb].
      destruct (c =? 92) eqn:E92.
      * apply N.eqb_eq in E92. subst c.
        destruct r as [|x r'].
        { vm_compute in H. discriminate. }
        assert (Hne : x :: r' <> []) by discriminate.
        specialize (IH' Hne 92). cbn [regex_escape] in *. destruct (x =? 47) eqn:Ex.
        -- cbn [app] in *. change (92 =? 47) with false. cbv iota. exact IH'.
        -- cbn [app] in *. rewrite Ex. exact IH'.
      * destruct r as [|x r'].
        -- cbn [regex_escape app regex_delim]. change (47 =? 47) with true. cbv iota. reflexivity.
        -- apply IH'. discriminate.
Qed.

(* the spellings the scanner reads as each symbolic operator ([] = the operator is a keyword) *)
Definition sym_texts (o : op) : list str :=
  match o with
  | OEq => [[61]] | ONeq => [[33; 61]; [60; 62]] | OEqRegex => [[61; 126]] | ONeqRegex => [[33; 126]]
  | OLt => [[60]] | OLte => [[60; 61]] | OGt => [[62]] | OGte => [[62; 61]]
  | OAdd => [[43]] | OSub => [[45]] | OMul => [[42]] | ODiv => [[47]] | OMod => [[37]]
  | OBitAnd => [[38]] | OBitOr => [[124]] | OBitXor => [[94]]
  | OOr | OAnd | OLike | OMatch | OMatchPhrase | OIpInRange => []
  end.

Section Lex.
Variable kws : list (str * N).
Variable op_of_code : N -> option op.
Variables ct cf cfield ctag cdistinct : N.

Definition SF (f : nat) (s : str) (st : sst) : list token :=
  scan_fuel kws op_of_code ct cf cfield ctag cdistinct f s (s_prev st) (s_ws st) (s_last st) (s_stk st).
Notation KT := (keyword_tok op_of_code ct cf cfield ctag cdistinct).

(* the scanner, given enough fuel, turns text s into toks and goes on with s'.  The fuel that is left is quantified
   anew, so that two such facts compose (lexes_trans) without counting the steps each takes *)
Definition lexes (s : str) (toks : list token) (s' : str) (st : sst) : Prop :=
  forall f, (length s < f)%nat -> exists f', (length s' < f')%nat /\ SF f s st = toks ++ SF f' s' (run toks st).

Lemma lexes_refl : forall s st, lexes s [] s st.
Proof. intros s st f H. exists f. split; [exact H | reflexivity]. Qed.

Lemma lexes_trans : forall s1 t1 s2 t2 s3 st,
  lexes s1 t1 s2 st -> lexes s2 t2 s3 (run t1 st) -> lexes s1 (t1 ++ t2) s3 st.
Proof.
  intros s1 t1 s2 t2 s3 st H1 H2 f Hf. destruct (H1 f Hf) as [f1 [Hf1 E1]]. destruct (H2 f1 Hf1) as [f2 [Hf2 E2]].
  exists f2. split; [exact Hf2|]. rewrite E1, E2, run_app, app_assoc. reflexivity.
Qed.

Lemma lexes_scan : forall s toks, lexes s toks [] st0 ->
  scan kws op_of_code ct cf cfield ctag cdistinct s = toks.
Proof.
  intros s toks H. destruct (H (S (length s)) (Nat.lt_succ_diag_r _)) as [f' [Hf' E]].
  unfold scan. unfold SF in E. cbn [st0 s_prev s_ws s_last s_stk] in E. rewrite E.
  destruct f'; [cbn in Hf'; lia|]. cbn [scan_fuel]. apply app_nil_r.
Qed.

Lemma lexes_one : forall s t s' st, (length s' < length s)%nat ->
  (forall f, SF (S f) s st = t :: SF f s' (advance st t)) -> lexes s [t] s' st.
Proof.
  intros s t s' st Hl H f Hf. destruct f as [|f]; [lia|]. exists f. split; [lia|]. rewrite H. reflexivity.
Qed.

Lemma lex_ws : forall rest st, hd_sat is_ws rest = false -> lexes (32 :: rest) [TWs] rest st.
Proof.
  intros rest st H. apply lexes_one; [cbn [length]; lia|]. intro f. unfold SF. cbn [scan_fuel].
  change (is_ws 32) with true. cbv iota.
  pose proof (take_while_app is_ws [] [] rest eq_refl H) as E. cbn [app rev] in E. rewrite E. reflexivity.
Qed.

Lemma lex_lparen : forall rest st, lexes (40 :: rest) [TLParen] rest st.
Proof. intros rest st. apply lexes_one; [cbn [length]; lia | reflexivity]. Qed.
Lemma lex_rparen : forall rest st, lexes (41 :: rest) [TRParen] rest st.
Proof. intros rest st. apply lexes_one; [cbn [length]; lia | reflexivity]. Qed.
Lemma lex_comma : forall rest st, lexes (44 :: rest) [TComma] rest st.
Proof. intros rest st. apply lexes_one; [cbn [length]; lia | reflexivity]. Qed.
Lemma lex_plus : forall rest st, lexes (43 :: rest) [TOp OAdd] rest st.
Proof. intros rest st. apply lexes_one; [cbn [length]; lia | reflexivity]. Qed.
Lemma lex_star : forall rest st, lexes (42 :: rest) [TOp OMul] rest st.
Proof. intros rest st. apply lexes_one; [cbn [length]; lia | reflexivity]. Qed.
Lemma lex_dcolon : forall rest st, lexes (58 :: 58 :: rest) [TDColon] rest st.
Proof. intros rest st. apply lexes_one; [cbn [length]; lia | reflexivity]. Qed.
Lemma lex_minus : forall rest st, hd_is 45 rest = false -> lexes (45 :: rest) [TOp OSub] rest st.
Proof.
  intros rest st H. apply lexes_one; [cbn [length]; lia|]. intro f. unfold SF. cbn [scan_fuel].
  cbn -[hd_is scan_fuel]. rewrite H. reflexivity.
Qed.

Definition word_tok (w : str) : token :=
  match kw_lookup kws (lower w) with Some c => KT c | None => TIdent w end.

Lemma advance_KT : forall st c, advance st (KT c) =
  {| s_prev := Some (KT c); s_ws := false; s_last := Some (KT c); s_stk := s_stk st |}.
Proof.
  intros st c. unfold keyword_tok. destruct (op_of_code c); [reflexivity|].
  repeat match goal with |- context [if ?b then _ else _] => destruct b end; reflexivity.
Qed.

Lemma advance_word : forall st w, advance st (word_tok w) =
  {| s_prev := Some (word_tok w); s_ws := false; s_last := Some (word_tok w); s_stk := s_stk st |}.
Proof. intros st w. unfold word_tok. destruct (kw_lookup kws (lower w)); [apply advance_KT | reflexivity]. Qed.

Lemma lex_word : forall w rest st, bare_ok w = true -> hd_sat is_ident_or_dot rest = false -> hd_is 34 rest = false ->
  lexes (w ++ rest) [word_tok w] rest st.
Proof.
  intros w rest st Hb Hr Hq. destruct (bare_ok_chars w Hb) as [c [w' [E [Hc Hall]]]]. subst w.
  destruct (ident_first_class c Hc) as [Hws Hl].
  apply lexes_one; [rewrite app_length; cbn [length]; lia|]. intro f.
  rewrite advance_word. unfold SF. cbn [s_prev s_ws s_last s_stk app scan_fuel]. rewrite Hws, Hl.
  pose proof (take_while_app is_ident_or_dot (c :: w') [] rest Hall Hr) as E. cbn [app rev] in E. rewrite E.
  rewrite Hq. unfold word_tok. destruct (kw_lookup kws (lower (c :: w'))); reflexivity.
Qed.

Lemma lex_quoted : forall s rest st, wf_str s = true -> lexes (34 :: escape 34 s ++ 34 :: rest) [TIdent s] rest st.
Proof.
  intros s rest st H. apply lexes_one; [cbn [length]; rewrite app_length; cbn [length]; lia|]. intro f.
  unfold SF. cbn [scan_fuel]. cbn -[unquote scan_fuel escape app]. rewrite unquote_escape by auto. reflexivity.
Qed.

Lemma lex_string : forall s rest st, wf_str s = true -> lexes (quote_string s ++ rest) [TString s] rest st.
Proof.
  intros s rest st H. unfold quote_string. cbn [app]. rewrite <- app_assoc. cbn [app].
  apply lexes_one; [cbn [length]; rewrite app_length; cbn [length]; lia|]. intro f.
  unfold SF. cbn [scan_fuel]. cbn -[unquote scan_fuel escape app]. rewrite unquote_escape by auto. reflexivity.
Qed.

Lemma quote_ident_cases : forall s, wf_str s = true ->
  quote_ident kws s = 34 :: escape 34 s ++ [34] \/
  (bare_ok s = true /\ kw_lookup kws (lower s) = None /\ quote_ident kws s = s).
Proof.
  intros s Hwf. pose proof (quote_ident_roundtrip kws s [] Hwf) as R.
  unfold quote_ident in *. destruct (ident_needs_quotes kws s); [left; reflexivity|].
  destruct R as [Hb Hk]. right. split; [exact Hb|]. split; [exact Hk|].
  destruct (bare_ok_chars s Hb) as [c [w' [_ [_ Hall]]]]. apply escape_bare, Hall.
Qed.

Lemma lex_ident : forall name rest st, wf_str name = true ->
  hd_sat is_ident_or_dot rest = false -> hd_is 34 rest = false ->
  lexes (quote_ident kws name ++ rest) [TIdent name] rest st.
Proof.
  intros name rest st Hwf Hr Hq. destruct (quote_ident_cases name Hwf) as [E|[Hb [Hk E]]]; rewrite E.
  - cbn [app]. rewrite <- app_assoc. cbn [app]. apply lex_quoted. exact Hwf.
  - pose proof (lex_word name rest st Hb Hr Hq) as L. unfold word_tok in L. rewrite Hk in L. exact L.
Qed.

(* the scanner's first step on a digit: it collects the digits, then looks at what follows them *)
Lemma lex_digits : forall d rest t s' st, d <> [] -> forallb is_digit d = true -> hd_sat is_digit rest = false ->
  (length s' <= length rest)%nat ->
  (forall f, (if hd_is 46 rest then
                let r2 := tl rest in
                let '(d2, r3) := take_while is_digit r2 [] in
                match d2 with
                | [] => TNumber d :: SF f r2 (advance st (TNumber d))
                | _ => TNumber (d ++ 46 :: d2) :: SF f r3 (advance st (TNumber (d ++ 46 :: d2)))
                end
              else if hd_sat is_dur_first rest then
                let '(w, r3) := take_while is_dur_char rest [] in
                TDuration (d ++ w) :: SF f r3 (advance st (TDuration (d ++ w)))
              else TInteger d :: SF f rest (advance st (TInteger d))) = t :: SF f s' (advance st t)) ->
  lexes (d ++ rest) [t] s' st.
Proof.
  intros d rest t s' st Hne Hd Hr Hl H. destruct (digits_first d Hne Hd) as [c [d' [E Hc]]]. subst d.
  destruct (digit_class c Hc) as [Hws Hlt].
  apply lexes_one; [rewrite app_length; cbn [length]; lia|]. intro f. rewrite <- H.
  unfold SF. cbn [app scan_fuel]. rewrite Hws, Hlt, Hc. cbn [orb].
  pose proof (take_while_app is_digit (c :: d') [] rest Hd Hr) as E. cbn [app rev] in E. rewrite E. reflexivity.
Qed.

Lemma lex_integer : forall d rest st, d <> [] -> forallb is_digit d = true ->
  hd_sat is_digit rest = false -> hd_is 46 rest = false -> hd_sat is_dur_first rest = false ->
  lexes (d ++ rest) [TInteger d] rest st.
Proof.
  intros d rest st Hne Hd H1 H2 H3. apply lex_digits; [exact Hne | exact Hd | exact H1 | apply le_n|].
  intro f. rewrite H2, H3. reflexivity.
Qed.

Lemma lex_number : forall d1 d2 rest st, d1 <> [] -> forallb is_digit d1 = true -> d2 <> [] -> forallb is_digit d2 = true ->
  hd_sat is_digit rest = false ->
  lexes (d1 ++ 46 :: d2 ++ rest) [TNumber (d1 ++ 46 :: d2)] rest st.
Proof.
  intros d1 d2 rest st Hne Hd Hne2 Hd2 H1.
  apply lex_digits; [exact Hne | exact Hd | reflexivity | cbn [length]; rewrite app_length; lia|].
  intro f. change (hd_is 46 (46 :: d2 ++ rest)) with true. cbv iota. cbn [tl]. cbv zeta.
  pose proof (take_while_app is_digit d2 [] rest Hd2 H1) as E2. cbn [app rev] in E2. rewrite E2.
  destruct d2 as [|x d2']; [congruence | reflexivity].
Qed.

Lemma lex_duration : forall d w rest st, d <> [] -> forallb is_digit d = true ->
  hd_sat is_dur_first w = true -> forallb is_dur_char w = true -> hd_sat is_dur_char rest = false ->
  lexes (d ++ w ++ rest) [TDuration (d ++ w)] rest st.
Proof.
  intros d w rest st Hne Hd Hw1 Hw H1. destruct w as [|x w']; [discriminate|]. cbn [hd_sat] in Hw1.
  assert (Hx : is_digit x = false /\ (x =? 46) = false).
  { unfold is_dur_first, is_letter, is_digit in *. lia. }
  destruct Hx as [Hx1 Hx2].
  apply lex_digits; [exact Hne | exact Hd | exact Hx1 | rewrite app_length; lia|].
  intro f. unfold hd_is at 1. cbn [app hd_sat]. rewrite Hx2, Hw1.
  pose proof (take_while_app is_dur_char (x :: w') [] rest Hw H1) as E2. cbn [app rev] in E2. rewrite E2. reflexivity.
Qed.

Lemma lex_symop : forall o t rest st, In t (sym_texts o) ->
  (o = ODiv -> delim_ctx (s_last st) (s_stk st) = false /\ div_after (s_prev st) = true) ->
  lexes (t ++ 32 :: rest) [TOp o] (32 :: rest) st.
Proof.
  intros o t rest st Ht Hdiv.
  destruct o; cbn [sym_texts In] in Ht; repeat (destruct Ht as [Ht|Ht]); try contradiction; subst t;
    (apply lexes_one; [cbn [length app]; lia|]); try reflexivity.
  (* division *)
  destruct (Hdiv eq_refl) as [H1 H2]. intro f. unfold SF. cbn [app scan_fuel].
  cbn -[scan_fuel delim_ctx div_after]. rewrite H1, H2. reflexivity.
Qed.

Lemma lex_regex : forall src rest st, delim_ctx (s_last st) (s_stk st) = true -> wf_regex src = true ->
  lexes (47 :: regex_escape src ++ 47 :: rest) [TRegex src] rest st.
Proof.
  intros src rest st Hd Hwf. apply lexes_one; [cbn [length]; rewrite app_length; cbn [length]; lia|]. intro f.
  unfold SF. cbn [scan_fuel]. cbn -[scan_fuel delim_ctx regex_delim regex_escape app]. rewrite Hd.
  rewrite regex_delim_escape by exact Hwf. reflexivity.
Qed.

End Lex.
