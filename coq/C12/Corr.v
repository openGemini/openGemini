(* C12 correspondence evaluator: runs the model on the harness' cases and reports disagreements with the
   implementation's observed behaviour. *)
From Coq Require Import ZArith NArith List Bool.
From OG Require Import C12.Model C12.Gen_Tokens C12.Inst C12.Regroup.
Import ListNotations.
Open Scope N_scope.

Fixpoint expr_eqb (a b : expr) {struct a} : bool :=
  match a, b with
  | EVar n t, EVar n' t' => str_eqb n n' && dtype_eqb t t'
  | EInt z, EInt z' => Z.eqb z z'
  | EUnsigned n, EUnsigned n' => n =? n'
  | ENum s i f, ENum s' i' f' => Bool.eqb s s' && (i =? i') && str_eqb f f'
  | ESpecial k, ESpecial k' => k =? k'
  | EStr s, EStr s' => str_eqb s s'
  | EBool b, EBool b' => Bool.eqb b b'
  | EDur z, EDur z' => Z.eqb z z'
  | ERegex s, ERegex s' => str_eqb s s'
  | EWild w, EWild w' => match w, w' with WAny, WAny | WField, WField | WTag, WTag => true | _, _ => false end
  | EParen e, EParen e' => expr_eqb e e'
  | ECall n l, ECall n' l' =>
      str_eqb n n' &&
      (fix go (x y : list expr) : bool :=
         match x, y with
         | [], [] => true
         | p :: x', q :: y' => expr_eqb p q && go x' y'
         | _, _ => false
         end) l l'
  | EBin o l r, EBin o' l' r' => op_eqb o o' && expr_eqb l l' && expr_eqb r r'
  | _, _ => false
  end.

Definition oexpr_eqb (a b : option expr) : bool :=
  match a, b with
  | Some x, Some y => expr_eqb x y
  | None, None => true
  | _, _ => false
  end.

Definition tok_eqb (a b : token) : bool :=
  match a, b with
  | TWs, TWs | TTrue, TTrue | TFalse, TFalse | TLParen, TLParen | TRParen, TRParen | TComma, TComma
  | TDColon, TDColon | TDot, TDot | TField, TField | TTag, TTag | TDistinct, TDistinct | TIllegal, TIllegal => true
  | TIdent s, TIdent s' | TString s, TString s' | TInteger s, TInteger s' | TNumber s, TNumber s'
  | TDuration s, TDuration s' | TRegex s, TRegex s' => str_eqb s s'
  | TOp o, TOp o' => op_eqb o o'
  | TKeyword c, TKeyword c' => c =? c'
  | _, _ => false
  end.
Fixpoint toks_eqb (a b : list token) : bool :=
  match a, b with
  | [], [] => true
  | x :: a', y :: b' => tok_eqb x y && toks_eqb a' b'
  | _, _ => false
  end.

(* a case: source text given to the hand-written parser (if any), the tree, its printed text, the re-parsed tree *)
Record xcase := { c_src : option str; c_e : option expr; c_printed : str; c_re : option expr }.

(* failure codes:
   1 parse (scan src) differs from the implementation's ParseExpr(src)
   2 print_text e differs from the implementation's String()
   3 scan (printed) differs from print_toks e                 (the implementation's text against the token printer, canonical e only)
   4 parse (scan printed) differs from the implementation's ParseExpr(printed)
   5 e is canonical (the theorem applies) but the implementation did not return e on re-parsing *)
(* pr: the working tree's BinaryExpr printer puts regrouped operands in parentheses (Regroup.fixp) *)
Definition printed_tree (pr : bool) (e : expr) : expr := if pr then fixp Inst.prec e else e.

Definition check_case (nr dr pr : bool) (c : xcase) : list N :=
  (match c_src c with
   | Some s => if oexpr_eqb (parse (scan s)) (c_e c) then [] else [1]
   | None => []
   end) ++
  match c_e c with
  | None => []
  | Some e0 =>
      let e := printed_tree pr e0 in
      (if str_eqb (print_text_v nr dr e) (c_printed c) then [] else [2]) ++
      (if canon_v nr dr e then
         (if toks_eqb (scan (c_printed c)) (print_toks_v nr dr e) then [] else [3]) ++
         (if oexpr_eqb (c_re c) (Some e) then [] else [5])
       else []) ++
      (if oexpr_eqb (parse (scan (c_printed c))) (c_re c) then [] else [4])
  end.

Fixpoint mismatches_from (k : N) (nr dr pr : bool) (cs : list xcase) : list (N * list N) :=
  match cs with
  | [] => []
  | c :: r => match check_case nr dr pr c with
              | [] => mismatches_from (k + 1) nr dr pr r
              | l => (k, l) :: mismatches_from (k + 1) nr dr pr r
              end
  end.
Definition mismatches := mismatches_from 0.

(* which cases are canonical (for the coverage statistics) *)
Definition canon_flags (nr dr pr : bool) (cs : list xcase) : list bool :=
  map (fun c => match c_e c with Some e => canon_v nr dr (printed_tree pr e) | None => false end) cs.
