(* C12 model: InfluxQL expression AST, token type, the printers (String methods of ast.go: text and token level),
   the scanner (scanner.go) and the hand-written precedence parser (ParseExpr / parseUnaryExpr / parseCall /
   ParseVarRef of parser.go).  Executable definitions only.
   Characters are code points (N); strings are lists of code points.
   Variants: the number printer and the duration printer exist as _current (NumberLiteral.String, which prints 2.0 as 2;
   FormatDuration as it was before fix 9108a17 of /repo, without the ns branch) and _repaired. *)
From Coq Require Import ZArith NArith List Bool.
Import ListNotations.
Open Scope N_scope.

Definition str := list N.

Fixpoint str_eqb (a b : str) : bool :=
  match a, b with
  | [], [] => true
  | x :: a', y :: b' => (x =? y) && str_eqb a' b'
  | _, _ => false
  end.

(* ---------------------------------------------------------------- operators, data types *)
Inductive op := OOr | OAnd | OEq | ONeq | OEqRegex | ONeqRegex | OLt | OLte | OGt | OGte
  | OAdd | OSub | OMul | ODiv | OMod | OBitAnd | OBitOr | OBitXor | OLike | OMatch | OMatchPhrase | OIpInRange.

Definition all_ops : list op := [OOr; OAnd; OEq; ONeq; OEqRegex; ONeqRegex; OLt; OLte; OGt; OGte;
  OAdd; OSub; OMul; ODiv; OMod; OBitAnd; OBitOr; OBitXor; OLike; OMatch; OMatchPhrase; OIpInRange].

Definition op_idx (o : op) : N :=
  match o with
  | OOr => 0 | OAnd => 1 | OEq => 2 | ONeq => 3 | OEqRegex => 4 | ONeqRegex => 5 | OLt => 6 | OLte => 7 | OGt => 8
  | OGte => 9 | OAdd => 10 | OSub => 11 | OMul => 12 | ODiv => 13 | OMod => 14 | OBitAnd => 15 | OBitOr => 16
  | OBitXor => 17 | OLike => 18 | OMatch => 19 | OMatchPhrase => 20 | OIpInRange => 21
  end.
Definition op_eqb (a b : op) : bool := op_idx a =? op_idx b.
Definition is_regex_op (o : op) : bool := match o with OEqRegex | ONeqRegex => true | _ => false end.

(* DataType of a VarRef cast. *)
Inductive dtype := DUnknown | DFloat | DFloatTuple | DInteger | DUnsigned | DString | DBoolean | DTag | DAnyField
  | DTime | DDuration | DGraph.
Definition dtype_idx (d : dtype) : N :=
  match d with DUnknown => 0 | DFloat => 1 | DFloatTuple => 2 | DInteger => 3 | DUnsigned => 4 | DString => 5
  | DBoolean => 6 | DTag => 7 | DAnyField => 8 | DTime => 9 | DDuration => 10 | DGraph => 11 end.
Definition dtype_eqb (a b : dtype) := dtype_idx a =? dtype_idx b.

Inductive wild := WAny | WField | WTag.

(* ---------------------------------------------------------------- AST *)
Inductive expr :=
| EVar (name : str) (t : dtype)
| EInt (z : Z)                                   (* IntegerLiteral, int64 *)
| EUnsigned (n : N)                              (* UnsignedLiteral, uint64 *)
| ENum (neg : bool) (ip : N) (fp : list N)       (* NumberLiteral as its exact shortest decimal: sign, integer part,
                                                    fraction digits *)
| ESpecial (k : N)                               (* NumberLiteral +Inf (0), -Inf (1), NaN (2) *)
| EStr (s : str)
| EBool (b : bool)
| EDur (z : Z)                                   (* DurationLiteral, nanoseconds *)
| ERegex (src : str)                             (* RegexLiteral, source text of the pattern *)
| EWild (w : wild)
| EParen (e : expr)
| ECall (name : str) (args : list expr)
| EBin (o : op) (l r : expr).

(* ---------------------------------------------------------------- tokens *)
Inductive token :=
| TWs
| TIdent (s : str) | TString (s : str) | TInteger (s : str) | TNumber (s : str) | TDuration (s : str) | TRegex (s : str)
| TTrue | TFalse | TOp (o : op) | TLParen | TRParen | TComma | TDColon | TDot | TField | TTag | TDistinct
| TKeyword (code : N) | TIllegal.

(* ---------------------------------------------------------------- characters *)
Definition is_digit (c : N) := (48 <=? c) && (c <=? 57).
Definition is_letter (c : N) := ((97 <=? c) && (c <=? 122)) || ((65 <=? c) && (c <=? 90)).
Definition is_ident_char (c : N) := is_letter c || is_digit c || (c =? 95).
Definition is_ident_first (c : N) := is_letter c || (c =? 95).
Definition is_ws (c : N) := (c =? 32) || (c =? 9) || (c =? 10).
Definition lower_c (c : N) := if (65 <=? c) && (c <=? 90) then c + 32 else c.
Definition lower (s : str) : str := map lower_c s.

(* decimal digits of a natural number, most significant first *)
Fixpoint digits_fuel (fuel : nat) (n : N) (acc : str) : str :=
  match fuel with
  | O => acc
  | S f => let acc' := (48 + n mod 10) :: acc in
           if n <? 10 then acc' else digits_fuel f (n / 10) acc'
  end.
Definition digits (n : N) : str := digits_fuel (S (N.to_nat (N.size n))) n [].

(* strconv.ParseInt/ParseUint on a digit string (value; None if empty or a non-digit occurs) *)
Fixpoint digits_val_acc (a : N) (s : str) : option N :=
  match s with
  | [] => Some a
  | c :: r => if is_digit c then digits_val_acc (10 * a + (c - 48)) r else None
  end.
Definition digits_val (s : str) : option N := match s with [] => None | _ => digits_val_acc 0 s end.

Definition max_int64 : N := 9223372036854775807.
Definition max_uint64 : N := 18446744073709551615.

(* ---------------------------------------------------------------- quoting *)
(* qsReplacer / qiReplacer of parser.go:  newline, backslash, quote  *)
Fixpoint escape (q : N) (s : str) : str :=
  match s with
  | [] => []
  | c :: r => if c =? 10 then 92 :: 110 :: escape q r
              else if c =? 92 then 92 :: 92 :: escape q r
              else if c =? q then 92 :: q :: escape q r
              else c :: escape q r
  end.
Definition quote_string (s : str) : str := 39 :: escape 39 s ++ [39].

(* Scanner.ScanString after the opening quote: returns (value, rest) *)
Fixpoint unquote (q : N) (s : str) (acc : str) : option (str * str) :=
  match s with
  | [] => None
  | c :: r =>
      if c =? q then Some (rev acc, r)
      else if (c =? 10) || (c =? 13) || (c =? 0) then None
      else if c =? 92 then
        match r with
        | c1 :: r' => if c1 =? 110 then unquote q r' (10 :: acc)
                      else if c1 =? 92 then unquote q r' (92 :: acc)
                      else if c1 =? 34 then unquote q r' (34 :: acc)
                      else if c1 =? 39 then unquote q r' (39 :: acc)
                      else None
        | [] => None
        end
      else unquote q r (c :: acc)
  end.

(* keyword table: lower-case word -> token code (generated from the live table of the repository) *)
Fixpoint kw_lookup (kws : list (str * N)) (s : str) : option N :=
  match kws with
  | [] => None
  | (w, c) :: r => if str_eqb w s then Some c else kw_lookup r s
  end.

Definition bare_ok (s : str) : bool :=
  match s with
  | [] => false
  | c :: r => is_ident_first c && forallb is_ident_char r
  end.

(* ---------------------------------------------------------------- durations *)
Definition ns_us := 1000%Z.
Definition ns_ms := 1000000%Z.
Definition ns_s := 1000000000%Z.
Definition ns_m := 60000000000%Z.
Definition ns_h := 3600000000000%Z.
Definition ns_d := 86400000000000%Z.
Definition ns_w := 604800000000000%Z.

Definition zdigits (z : Z) : str :=
  if (z <? 0)%Z then 45 :: digits (Z.to_N (- z)) else digits (Z.to_N z).

(* FormatDuration; Go's % and / truncate toward zero: Z.rem / Z.quot.  The unit chosen and its suffix. *)
Definition dur_unit (repaired : bool) (z : Z) : Z * str :=
  if (Z.rem z ns_w =? 0)%Z then (ns_w, [119])
  else if (Z.rem z ns_d =? 0)%Z then (ns_d, [100])
  else if (Z.rem z ns_h =? 0)%Z then (ns_h, [104])
  else if (Z.rem z ns_m =? 0)%Z then (ns_m, [109])
  else if (Z.rem z ns_s =? 0)%Z then (ns_s, [115])
  else if (Z.rem z ns_ms =? 0)%Z then (ns_ms, [109; 115])
  else if repaired && negb (Z.rem z ns_us =? 0)%Z then (1%Z, [110; 115])
  else (ns_us, [117]).
Definition format_duration_gen (repaired : bool) (z : Z) : str :=
  if (z =? 0)%Z then [48; 115]
  else let '(u, suffix) := dur_unit repaired z in zdigits (Z.quot z u) ++ suffix.
Definition format_duration_current := format_duration_gen false.
Definition format_duration_repaired := format_duration_gen true.

(* ParseDuration on the text of a DURATIONVAL token (no sign: the scanner never includes one). Sequence of
   <digits><unit>; int64 wrap-around is not modelled: a result outside int64 is reported as None. *)
Fixpoint take_digits (s : str) (acc : str) : str * str :=
  match s with
  | c :: r => if is_digit c then take_digits r (c :: acc) else (rev acc, s)
  | [] => (rev acc, [])
  end.

Fixpoint parse_duration_fuel (fuel : nat) (s : str) (acc : Z) : option Z :=
  match fuel with
  | O => None
  | S f =>
    match s with
    | [] => Some acc
    | _ =>
      let '(ds, r) := take_digits s [] in
      match digits_val ds, r with
      | Some n, c :: r' =>
          if N.ltb max_int64 n then None else
          let n := Z.of_N n in
          if c =? 110 then match r' with
                           | c2 :: r'' => if c2 =? 115 then parse_duration_fuel f r'' (acc + n)%Z else None
                           | [] => None end
          else if (c =? 117) || (c =? 181) then parse_duration_fuel f r' (acc + n * ns_us)%Z
          else if c =? 109 then match r' with
                                | c2 :: r'' => if c2 =? 115 then parse_duration_fuel f r'' (acc + n * ns_ms)%Z
                                               else parse_duration_fuel f r' (acc + n * ns_m)%Z
                                | [] => parse_duration_fuel f r' (acc + n * ns_m)%Z end
          else if c =? 115 then parse_duration_fuel f r' (acc + n * ns_s)%Z
          else if c =? 104 then parse_duration_fuel f r' (acc + n * ns_h)%Z
          else if c =? 100 then parse_duration_fuel f r' (acc + n * ns_d)%Z
          else if c =? 119 then parse_duration_fuel f r' (acc + n * ns_w)%Z
          else None
      | _, _ => None
      end
    end
  end.
Definition parse_duration (s : str) : option Z :=
  match s with
  | [] | [_] => None
  | _ => match parse_duration_fuel (S (length s)) s 0%Z with
         | Some z => if (z <=? Z.of_N max_int64)%Z then Some z else None
         | None => None
         end
  end.

(* ---------------------------------------------------------------- numbers *)
Fixpoint strip_trailing_zeros_rev (r : list N) : list N :=   (* on the reversed digit list *)
  match r with
  | d :: r' => if d =? 0 then strip_trailing_zeros_rev r' else r
  | [] => []
  end.
Definition strip_trailing_zeros (l : list N) : list N := rev (strip_trailing_zeros_rev (rev l)).

Definition frac_text (fp : list N) : str := map (fun d => 48 + d) fp.

(* NumberLiteral.RenderBytes: FormatFloat(v,'f',-1) below or at MaxInt (as float64: 2^63), one decimal above. *)
Definition two63 : N := 9223372036854775808.
(* shortest decimal of float64(math.MaxInt) = 2^63; every larger float64 has a larger integer part *)
Definition maxint_float_ip : N := 9223372036854776000.
Definition number_text_gen (repaired : bool) (neg : bool) (ip : N) (fp : list N) : str :=
  (if neg then [45] else []) ++ digits ip ++
  match fp with
  | [] => if repaired || (negb neg && (maxint_float_ip <? ip)) then [46; 48] else []
  | _ => 46 :: frac_text fp
  end.

(* text of a NUMBER token -> (ip, fp) canonical; None when malformed *)
Fixpoint split_dot (s : str) (acc : str) : str * option str :=
  match s with
  | [] => (rev acc, None)
  | c :: r => if c =? 46 then (rev acc, Some r) else split_dot r (c :: acc)
  end.
Definition digit_vals (s : str) : option (list N) :=
  if forallb is_digit s then Some (map (fun c => c - 48) s) else None.
Definition parse_number (s : str) : option (N * list N) :=
  let '(a, b) := split_dot s [] in
  let ipv := match a with [] => Some 0 | _ => digits_val a end in
  match ipv, b with
  | Some ip, None => Some (ip, [])
  | Some ip, Some fr => match digit_vals fr with Some ds => Some (ip, strip_trailing_zeros ds) | None => None end
  | None, _ => None
  end.

(* ---------------------------------------------------------------- parameters taken from the repository
   (token table, precedence, operator map, keyword list): passed explicitly; instantiated in Inst.v from Gen_Tokens.v *)
Section WithTables.
Variable prec : op -> N.
Variable isop : op -> bool.
Variable op_text : op -> str.
Variable keywords : list (str * N).
Variable op_of_code : N -> option op.     (* keyword codes that are operators (AND OR LIKE MATCH ...) *)
Variable code_true code_false code_field code_tag code_distinct : N.
Variable num_repaired dur_repaired : bool.

Definition ident_needs_quotes (s : str) : bool :=
  match kw_lookup keywords (lower s) with
  | Some _ => true
  | None => negb (bare_ok s)
  end.
(* QuoteIdent with one segment *)
Definition quote_ident (s : str) : str :=
  if ident_needs_quotes s then 34 :: escape 34 s ++ [34] else escape 34 s.

Definition dtype_text (d : dtype) : str :=
  match d with
  | DUnknown => [117;110;107;110;111;119;110]
  | DFloat => [102;108;111;97;116]
  | DFloatTuple => [102;108;111;97;116;84;117;112;108;101]
  | DInteger => [105;110;116;101;103;101;114]
  | DUnsigned => [117;110;115;105;103;110;101;100]
  | DString => [115;116;114;105;110;103]
  | DBoolean => [98;111;111;108;101;97;110]
  | DTag => [116;97;103]
  | DAnyField => [102;105;101;108;100]
  | DTime => [116;105;109;101]
  | DDuration => [100;117;114;97;116;105;111;110]
  | DGraph => [103;114;97;112;104]
  end.

Fixpoint regex_escape (s : str) : str :=
  match s with
  | [] => []
  | c :: r => if c =? 47 then 92 :: 47 :: regex_escape r else c :: regex_escape r
  end.

Definition special_text (k : N) : str :=
  if k =? 0 then [43;73;110;102] else if k =? 1 then [45;73;110;102] else [78;97;78].

(* ---- text printer (the String methods) *)
Fixpoint print_text (e : expr) : str :=
  match e with
  | EVar name t => quote_ident name ++ (if dtype_eqb t DUnknown then [] else 58 :: 58 :: dtype_text t)
  | EInt z => zdigits z
  | EUnsigned n => digits n
  | ENum neg ip fp => number_text_gen num_repaired neg ip fp
  | ESpecial k => special_text k
  | EStr s => quote_string s
  | EBool b => if b then [116;114;117;101] else [102;97;108;115;101]
  | EDur z => format_duration_gen dur_repaired z
  | ERegex src => 47 :: regex_escape src ++ [47]
  | EWild w => match w with WAny => [42] | WField => [42;58;58;102;105;101;108;100] | WTag => [42;58;58;116;97;103] end
  | EParen e' => 40 :: print_text e' ++ [41]
  | ECall name args =>
      name ++ 40 ::
      (fix pa (l : list expr) : str :=
         match l with
         | [] => []
         | [a] => print_text a
         | a :: l' => print_text a ++ 44 :: 32 :: pa l'
         end) args ++ [41]
  | EBin o l r => print_text l ++ 32 :: op_text o ++ 32 :: print_text r
  end.

(* ---- token printer: the token sequence the scanner yields on print_text e *)
Definition number_toks (neg : bool) (ip : N) (fp : list N) : list token :=
  let body := digits ip ++ match fp with
                           | [] => if num_repaired || (negb neg && (maxint_float_ip <? ip)) then [46; 48] else []
                           | _ => 46 :: frac_text fp end in
  (if neg then [TOp OSub] else []) ++
  [match fp with
   | [] => if num_repaired || (negb neg && (maxint_float_ip <? ip)) then TNumber body else TInteger body
   | _ => TNumber body end].

Definition duration_toks (z : Z) : list token :=
  let t := format_duration_gen dur_repaired z in
  match t with
  | 45 :: t' => [TOp OSub; TDuration t']
  | _ => [TDuration t]
  end.

Definition dtype_tok (d : dtype) : token :=
  match d with DTag => TTag | DAnyField => TField | _ => TIdent (dtype_text d) end.

Definition op_tok (o : op) : token := TOp o.

Fixpoint print_toks (e : expr) : list token :=
  match e with
  | EVar name t => TIdent name :: (if dtype_eqb t DUnknown then [] else [TDColon; dtype_tok t])
  | EInt z => if (z <? 0)%Z then [TOp OSub; TInteger (digits (Z.to_N (- z)))] else [TInteger (digits (Z.to_N z))]
  | EUnsigned n => [TInteger (digits n)]
  | ENum neg ip fp => number_toks neg ip fp
  | ESpecial k => if k =? 0 then [TOp OAdd; TIdent [73;110;102]] else if k =? 1 then [TOp OSub; TIdent [73;110;102]]
                  else [TIdent [78;97;78]]
  | EStr s => [TString s]
  | EBool b => [if b then TTrue else TFalse]
  | EDur z => duration_toks z
  | ERegex src => [TRegex src]
  | EWild w => match w with WAny => [TOp OMul] | WField => [TOp OMul; TDColon; TField] | WTag => [TOp OMul; TDColon; TTag] end
  | EParen e' => TLParen :: print_toks e' ++ [TRParen]
  | ECall name args =>
      TIdent name :: TLParen ::
      (fix pa (l : list expr) : list token :=
         match l with
         | [] => []
         | [a] => print_toks a
         | a :: l' => print_toks a ++ TComma :: TWs :: pa l'
         end) args ++ [TRParen]
  | EBin o l r => print_toks l ++ TWs :: TOp o :: TWs :: print_toks r
  end.

(* ---------------------------------------------------------------- scanner (Scanner.Scan, ScanRegex) *)
Fixpoint take_while (p : N -> bool) (s : str) (acc : str) : str * str :=
  match s with
  | c :: r => if p c then take_while p r (c :: acc) else (rev acc, s)
  | [] => (rev acc, [])
  end.

(* skipUntilEndRegex: the body is kept verbatim, a slash ends it unless the previous character was a backslash *)
Fixpoint regex_raw (s : str) (skip : bool) (acc : str) : option (str * str) :=
  match s with
  | [] => None
  | c :: r => if (c =? 47) && skip then Some (rev acc, r)
              else if c =? 0 then None
              else regex_raw r (negb (c =? 92)) (c :: acc)
  end.
(* ScanDelimited with escapes {'/'} and pass-through of other backslashes *)
Fixpoint regex_delim (s : str) (acc : str) : option (str * str) :=
  match s with
  | [] => None
  | c :: r => if c =? 47 then Some (rev acc, r)
              else if (c =? 10) || (c =? 13) || (c =? 0) then None
              else if c =? 92 then
                match r with
                | c1 :: r' => if c1 =? 47 then regex_delim r' (47 :: acc) else regex_delim r (92 :: acc)
                | [] => None
                end
              else regex_delim r (c :: acc)
  end.

Definition keyword_tok (code : N) : token :=
  match op_of_code code with
  | Some o => TOp o
  | None => if code =? code_true then TTrue else if code =? code_false then TFalse
            else if code =? code_field then TField else if code =? code_tag then TTag
            else if code =? code_distinct then TDistinct else TKeyword code
  end.

(* does a slash after this token mean division?  (preToken rule of Scan; None = start of input).  The scanner also reads
   a slash after the keyword `duration` as division; the model takes a regex to follow every keyword, and no printed
   expression contains that one *)
Definition div_after (prev : option token) : bool :=
  match prev with
  | None => true
  | Some TRParen | Some (TIdent _) | Some (TInteger _) | Some (TNumber _) => true
  | Some (TKeyword c) => false
  | _ => false
  end.

Definition is_ident_or_dot (c : N) := is_ident_char c || (c =? 46).

(* tests on the first character *)
Definition hd_sat (p : N -> bool) (s : str) : bool := match s with x :: _ => p x | [] => false end.
Definition hd_is (c : N) (s : str) : bool := hd_sat (fun x => x =? c) s.
Definition is_dur_first (c : N) := is_letter c || (c =? 181).
Definition is_dur_char (c : N) := is_letter c || is_digit c || (c =? 181).

(* where the parser calls parseRegex (ScanDelimited) instead of Scan: after =~ !~, and at the start of a call argument *)
Definition delim_ctx (last : option token) (stack : list bool) : bool :=
  match last with
  | Some (TOp OEqRegex) | Some (TOp ONeqRegex) => true
  | Some TLParen | Some TComma => match stack with true :: _ => true | _ => false end
  | _ => false
  end.
(* does this parenthesis open a call's argument list?  (identifier immediately followed by it) *)
Definition call_ctx (last : option token) (ws_before : bool) : bool :=
  match last with Some (TIdent _) | Some TDistinct => negb ws_before | _ => false end.

(* scanner state: prev, the previous non-whitespace token as Scan records it (the delimited regex reader leaves it
   alone); whether whitespace was just seen; last, the last token whoever read it; and the stack of open parentheses
   (true = the parenthesis opens a call's argument list).  last and the stack decide where the parser calls parseRegex
   (ScanDelimited) instead of Scan *)
Fixpoint scan_fuel (fuel : nat) (s : str) (prev : option token) (ws_before : bool) (last : option token)
                   (stack : list bool) : list token :=
  match fuel with
  | O => [TIllegal]
  | S f =>
    match s with
    | [] => []
    | c :: r =>
      let emit (t : token) (rest : str) (stk : list bool) := t :: scan_fuel f rest (Some t) false (Some t) stk in
      if is_ws c then
        let '(_, rest) := take_while is_ws r [] in TWs :: scan_fuel f rest prev true last stack
      else if is_letter c || (c =? 95) then
        let '(w, rest) := take_while is_ident_or_dot s [] in
        if hd_is 34 rest then    (* bare prefix immediately followed by a quoted part: the quoted part wins *)
            match unquote 34 (tl rest) [] with
            | Some (v, rest'') => emit (TIdent v) rest'' stack
            | None => [TIllegal]
            end
        else match kw_lookup keywords (lower w) with
             | Some code => emit (keyword_tok code) rest stack
             | None => emit (TIdent w) rest stack
             end
      else if is_digit c || ((c =? 46) && hd_sat is_digit r) then
        let '(d1, r1) := take_while is_digit s [] in
        if hd_is 46 r1 then
            let r2 := tl r1 in
            let '(d2, r3) := take_while is_digit r2 [] in
            match d2 with
            | [] => emit (TNumber d1) r2 stack
            | _ => emit (TNumber (d1 ++ 46 :: d2)) r3 stack
            end
        else if hd_sat is_dur_first r1 then
              let '(w, r3) := take_while is_dur_char r1 [] in
              emit (TDuration (d1 ++ w)) r3 stack
        else emit (TInteger d1) r1 stack
      else if c =? 34 then
        match unquote 34 r [] with
        | Some (v, rest) => emit (TIdent v) rest stack
        | None => [TIllegal]
        end
      else if c =? 39 then
        match unquote 39 r [] with
        | Some (v, rest) => emit (TString v) rest stack
        | None => [TIllegal]
        end
      else if c =? 47 then
        if delim_ctx last stack then
          match regex_delim r [] with
          | Some (v, rest) => TRegex v :: scan_fuel f rest prev false (Some (TRegex v)) stack
          | None => [TIllegal]
          end
        else if div_after prev then emit (TOp ODiv) r stack
        else if hd_is 42 r then [TIllegal]    (* comment: outside the modelled domain *)
        else match regex_raw r true [] with
             | Some (v, rest) => emit (TRegex v) rest stack
             | None => [TIllegal]
             end
      else if c =? 40 then emit TLParen r (call_ctx last ws_before :: stack)
      else if c =? 41 then emit TRParen r (tl stack)
      else if c =? 44 then emit TComma r stack
      else if c =? 43 then emit (TOp OAdd) r stack
      else if c =? 45 then if hd_is 45 r then [TIllegal] else emit (TOp OSub) r stack
      else if c =? 42 then emit (TOp OMul) r stack
      else if c =? 37 then emit (TOp OMod) r stack
      else if c =? 38 then emit (TOp OBitAnd) r stack
      else if c =? 124 then emit (TOp OBitOr) r stack
      else if c =? 94 then emit (TOp OBitXor) r stack
      else if c =? 61 then if hd_is 126 r then emit (TOp OEqRegex) (tl r) stack else emit (TOp OEq) r stack
      else if c =? 33 then if hd_is 61 r then emit (TOp ONeq) (tl r) stack
                           else if hd_is 126 r then emit (TOp ONeqRegex) (tl r) stack
                           else [TIllegal]
      else if c =? 62 then if hd_is 61 r then emit (TOp OGte) (tl r) stack else emit (TOp OGt) r stack
      else if c =? 60 then if hd_is 61 r then emit (TOp OLte) (tl r) stack
                           else if hd_is 62 r then emit (TOp ONeq) (tl r) stack
                           else emit (TOp OLt) r stack
      else if c =? 58 then if hd_is 58 r then emit TDColon (tl r) stack else [TIllegal]
      else if c =? 46 then emit TDot r stack
      else [TIllegal]
    end
  end.
Definition scan (s : str) : list token := scan_fuel (S (length s)) s None false None [].

(* ---------------------------------------------------------------- parser *)
Fixpoint skip_ws (t : list token) : list token :=
  match t with TWs :: r => skip_ws r | _ => t end.

(* the spine insertion of ParseExpr *)
Fixpoint ins (root : expr) (o : op) (rhs : expr) : expr :=
  match root with
  | EBin o' l r => if prec o' <? prec o then EBin o' l (ins r o rhs) else EBin o root rhs
  | _ => EBin o root rhs
  end.

Definition str_inf : str := [105;110;102].
Definition str_nan : str := [110;97;110].

Definition dtype_of_name (s : str) : option dtype :=
  let l := lower s in
  if str_eqb l (dtype_text DFloat) then Some DFloat
  else if str_eqb l (lower (dtype_text DFloatTuple)) then Some DFloatTuple
  else if str_eqb l (dtype_text DInteger) then Some DInteger
  else if str_eqb l (dtype_text DUnsigned) then Some DUnsigned
  else if str_eqb l (dtype_text DString) then Some DString
  else if str_eqb l (dtype_text DBoolean) then Some DBoolean
  else if str_eqb l (dtype_text DTag) then Some DTag
  else None.

(* ParseVarRef after the first identifier: more segments, then an optional cast *)
Fixpoint varref_segments (n : nat) (acc : str) (t : list token) : str * list token :=
  match n, t with
  | S n', TDot :: r => match skip_ws r with
                       | TIdent s :: r' => varref_segments n' (acc ++ 46 :: s) r'
                       | _ => (acc, t)
                       end
  | _, _ => (acc, t)
  end.
Definition parse_varref (s : str) (t : list token) : option (expr * list token) :=
  let '(name, r) := varref_segments 2 s t in
  match r with
  | TDot :: _ => None
  | TDColon :: TIdent ty :: r' => match dtype_of_name ty with Some d => Some (EVar name d, r') | None => None end
  | TDColon :: TField :: r' => Some (EVar name DAnyField, r')
  | TDColon :: TTag :: r' => Some (EVar name DTag, r')
  | TDColon :: _ => None
  | _ => Some (EVar name DUnknown, r)
  end.

Definition int_of_text (s : str) : option expr :=
  match digits_val s with
  | Some n => if n <=? max_int64 then Some (EInt (Z.of_N n))
              else if n <=? max_uint64 then Some (EUnsigned n) else None
  | None => None
  end.

Definition apply_sign (sub : bool) (lit : expr) : option expr :=
  match lit with
  | ENum neg ip fp => Some (if sub then ENum (negb neg) ip fp else lit)
  | ESpecial k => Some (if sub then (if k =? 0 then ESpecial 1 else if k =? 1 then ESpecial 0 else ESpecial 2) else lit)
  | EInt z => Some (if sub then EInt (- z) else lit)
  | EUnsigned n => if sub then (if n =? two63 then Some (EInt (- Z.of_N two63)) else None) else Some lit
  | EDur z => Some (if sub then EDur (- z) else lit)
  | EVar _ _ | ECall _ _ | EParen _ => Some (EBin OMul (EInt (if sub then (-1) else 1)) lit)
  | _ => None
  end.

Fixpoint parse_unary (fuel : nat) (toks : list token) {struct fuel} : option (expr * list token) :=
  match fuel with
  | O => None
  | S f =>
    match skip_ws toks with
    | TLParen :: r =>
        match parse_expr f r with
        | Some (e, r') => match skip_ws r' with TRParen :: r'' => Some (EParen e, r'') | _ => None end
        | None => None
        end
    | TIdent s :: r =>
        if str_eqb (lower s) str_inf then Some (ESpecial 0, r)
        else if str_eqb (lower s) str_nan then Some (ESpecial 2, r)
        else match r with
             | TLParen :: r' => parse_call f (lower s) r'
             | _ => parse_varref s r
             end
    | TDistinct :: TLParen :: r' => parse_call f [100;105;115;116;105;110;99;116] r'
    | TString s :: r => Some (EStr s, r)
    | TNumber s :: r => match parse_number s with Some (ip, fp) => Some (ENum false ip fp, r) | None => None end
    | TInteger s :: r => match int_of_text s with Some e => Some (e, r) | None => None end
    | TTrue :: r => Some (EBool true, r)
    | TFalse :: r => Some (EBool false, r)
    | TDuration s :: r => match parse_duration s with Some z => Some (EDur z, r) | None => None end
    | TOp OMul :: r =>
        match r with
        | TDColon :: TField :: r' => Some (EWild WField, r')
        | TDColon :: TTag :: r' => Some (EWild WTag, r')
        | TDColon :: _ => None
        | _ => Some (EWild WAny, r)
        end
    | TRegex s :: r => Some (ERegex s, r)
    | TOp OAdd :: r | TOp OSub :: r =>
        let sub := match skip_ws toks with TOp OSub :: _ => true | _ => false end in
        match skip_ws r with
        | TNumber _ :: _ | TInteger _ :: _ | TDuration _ :: _ | TLParen :: _ | TIdent _ :: _ =>
            match parse_unary f r with
            | Some (lit, r') => match apply_sign sub lit with Some e => Some (e, r') | None => None end
            | None => None
            end
        | _ => None
        end
    | _ => None
    end
  end
with parse_expr (fuel : nat) (toks : list token) {struct fuel} : option (expr * list token) :=
  match fuel with
  | O => None
  | S f => match parse_unary f toks with
           | Some (e0, r) => parse_loop f e0 r
           | None => None
           end
  end
with parse_loop (fuel : nat) (root : expr) (toks : list token) {struct fuel} : option (expr * list token) :=
  match fuel with
  | O => None
  | S f =>
    match skip_ws toks with
    | TOp o :: r =>
        if isop o then
          if is_regex_op o then
            match skip_ws r with
            | TRegex s :: r' => parse_loop f (ins root o (ERegex s)) r'
            | _ => None
            end
          else match parse_unary f r with
               | Some (rhs, r') => parse_loop f (ins root o rhs) r'
               | None => None
               end
        else Some (root, skip_ws toks)
    | _ => Some (root, skip_ws toks)
    end
  end
with parse_call (fuel : nat) (name : str) (toks : list token) {struct fuel} : option (expr * list token) :=
  match fuel with
  | O => None
  | S f =>
    match skip_ws toks with
    | TRParen :: r => Some (ECall name [], r)
    | TRegex s :: r => parse_args f name [ERegex s] r
    | _ => match parse_expr f (skip_ws toks) with
           | Some (a, r) => parse_args f name [a] r
           | None => None
           end
    end
  end
with parse_args (fuel : nat) (name : str) (acc : list expr) (toks : list token) {struct fuel} : option (expr * list token) :=
  match fuel with
  | O => None
  | S f =>
    match skip_ws toks with
    | TComma :: r =>
        match skip_ws r with
        | TRegex s :: r' => parse_args f name (acc ++ [ERegex s]) r'
        | _ => match parse_expr f (skip_ws r) with
               | Some (a, r') => parse_args f name (acc ++ [a]) r'
               | None => None
               end
        end
    | TRParen :: r => Some (ECall name acc, r)
    | _ => None
    end
  end.

Definition parse_fuel (toks : list token) : nat := 4 * length toks + 8.
(* ParseExpr: the first complete expression; whatever follows is ignored (as the Go function does) *)
Definition parse (toks : list token) : option expr :=
  match parse_expr (parse_fuel toks) toks with
  | Some (e, _) => Some e
  | None => None
  end.

(* ---------------------------------------------------------------- canonical form (decidable) *)
Definition wf_char (c : N) : bool := negb ((c =? 0) || (c =? 13)).
Definition wf_str (s : str) : bool := forallb wf_char s.

Definition printable_dtype (d : dtype) : bool :=
  match d with DTime | DDuration | DGraph => false | _ => true end.

Definition name_ok (s : str) : bool :=
  let l := lower s in negb (str_eqb l str_inf) && negb (str_eqb l str_nan).

Definition call_name_ok (s : str) : bool :=
  bare_ok s && str_eqb (lower s) s && name_ok s &&
  match kw_lookup keywords s with Some _ => false | None => true end.

Fixpoint last_is (c : N) (s : str) : bool :=
  match s with [] => false | [x] => x =? c | _ :: r => last_is c r end.
Definition wf_regex (s : str) : bool :=
  forallb (fun c => wf_char c && negb (c =? 10)) s && negb (last_is 92 s).

Definition frac_ok (fp : list N) : bool :=
  forallb (fun d => d <? 10) fp && negb (last_is 0 fp).

Definition is_bin (e : expr) : bool := match e with EBin _ _ _ => true | _ => false end.
Definition is_regex (e : expr) : bool := match e with ERegex _ => true | _ => false end.
Definition top_prec (e : expr) : option N := match e with EBin o _ _ => Some (prec o) | _ => None end.

(* the scanner reads a slash as division only after ) identifier integer number: the left operand of / must end so *)
Fixpoint div_left_ok (e : expr) : bool :=
  match e with
  | EVar _ t => match t with DTag | DAnyField => false | _ => true end
  | EInt _ | EUnsigned _ | ENum _ _ _ | ESpecial _ | EParen _ | ECall _ _ => true
  | EBin _ _ r => div_left_ok r
  | _ => false
  end.

(* canonical: in the image of print/parse round trips.  arg = true when a bare RegexLiteral is allowed here
   (call argument or right operand of a regex operator) *)
Fixpoint canon (arg : bool) (e : expr) : bool :=
  match e with
  | EVar name t => wf_str name && name_ok name && printable_dtype t
  | EInt z => ((- Z.of_N two63 <=? z) && (z <=? Z.of_N max_int64))%Z
  | EUnsigned n => (max_int64 <? n) && (n <=? max_uint64)
  | ENum neg ip fp => frac_ok fp && (num_repaired || negb (match fp with [] => true | _ => false end) || (negb neg && (maxint_float_ip <? ip)))
  | ESpecial k => k <? 3
  | EStr s => wf_str s
  | EBool _ => true
  | EDur z => ((- Z.of_N max_int64 <=? z) && (z <=? Z.of_N max_int64))%Z && (dur_repaired || (Z.rem z ns_us =? 0)%Z)
  | ERegex src => arg && wf_regex src
  | EWild _ => true
  | EParen e' => canon false e'
  | ECall name args => call_name_ok name && forallb (canon true) args
  | EBin o l r =>
      isop o && canon false l && (if op_eqb o ODiv then div_left_ok l else true) &&
      (if is_regex_op o then is_regex r && canon true r else canon false r) &&
      match top_prec l with Some p => prec o <=? p | None => true end &&
      match top_prec r with Some p => prec o <? p | None => true end
  end.

End WithTables.

(* ---------------------------------------------------------------- IN sets (SetLiteral / parseSet), token level *)
Inductive setval := SNum (neg : bool) (ip : N) (fp : list N) | SStr (s : str).

(* SetLiteral.RenderBytes: ( v , v , ... ) with numbers printed like NumberLiteral (current printer) and everything else
   through QuoteString; the order is Go's map order, here the list order *)
Definition setval_toks (v : setval) : list token :=
  match v with
  | SNum neg ip fp =>
      let body := digits ip ++ match fp with [] => [] | _ => 46 :: frac_text fp end in
      (if neg then [TOp OSub] else []) ++ [match fp with [] => TInteger body | _ => TNumber body end]
  | SStr s => [TString s]
  end.
Fixpoint set_items_toks (vs : list setval) : list token :=
  match vs with
  | [] => []
  | [v] => setval_toks v
  | v :: r => setval_toks v ++ TComma :: set_items_toks r
  end.
Definition set_print_toks (vs : list setval) : list token := TLParen :: set_items_toks vs ++ [TRParen].

(* parseSet as it was before fix 11ba2aa of /repo (it now keeps the sign and the empty string): after the opening
   parenthesis every token with a literal text is recorded (INTEGER/NUMBER through ParseFloat, the others verbatim);
   tokens without text - commas, SIGNS and the EMPTY STRING - are skipped; stops at ) *)
Fixpoint parse_set_items (toks : list token) : option (list setval) :=
  match toks with
  | [] => None
  | TRParen :: _ => Some []
  | t :: r =>
      match parse_set_items r with
      | None => None
      | Some vs =>
          match t with
          | TInteger s | TNumber s => match parse_number s with Some (ip, fp) => Some (SNum false ip fp :: vs) | None => Some vs end
          | TString s | TIdent s | TDuration s => match s with [] => Some vs | _ => Some (SStr s :: vs) end
          | _ => Some vs
          end
      end
  end.
Definition parse_set (toks : list token) : option (list setval) :=
  match skip_ws toks with
  | TLParen :: r => parse_set_items r
  | _ => None
  end.

(* the members that old parseSet kept: numbers without a sign (fraction in canonical form) and non-empty strings *)
Definition setval_nonneg (v : setval) : bool :=
  match v with SNum neg _ fp => negb neg && frac_ok fp | SStr s => match s with [] => false | _ => true end end.
