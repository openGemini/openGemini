(* C12 lexing: for every canonical expression the scanner reads the printed TEXT back as the printed TOKENS (lex_main;
   on a whole text Props.C12_scan_print); with ProofsParse.print_parse this closes
   parse (scan (print_text e)) = Some e  (Props.C12_print_scan_parse). *)
From Coq Require Import ZArith NArith List Bool Lia ZifyBool ZifyNat ZifyN.
From OG Require Import C12.Model C12.Proofs C12.ProofsParse C12.ProofsLex.
Import ListNotations.
Open Scope N_scope.

(* what can follow an expression in printed text: nothing, a blank (before an operator), ) or , *)
Definition sepb (rest : str) : bool :=
  match rest with [] => true | c :: _ => (c =? 32) || (c =? 41) || (c =? 44) end.

Lemma sepb_bounds : forall rest, sepb rest = true ->
  hd_sat is_ident_or_dot rest = false /\ hd_is 34 rest = false /\ hd_sat is_digit rest = false /\
  hd_is 46 rest = false /\ hd_sat is_dur_first rest = false /\ hd_sat is_dur_char rest = false.
Proof.
  intros [|c rest] H; [repeat split; reflexivity|]. cbn [sepb] in H. unfold hd_is. cbn [hd_sat].
  unfold is_ident_or_dot, is_ident_char, is_dur_first, is_dur_char, is_letter, is_digit. lia.
Qed.

Lemma digits_hd_not : forall n rest, hd_sat is_ws (digits n ++ rest) = false /\ hd_is 45 (digits n ++ rest) = false.
Proof.
  intros n rest. pose proof (digits_hd n rest) as H. unfold hd_is. destruct (digits n ++ rest) as [|c s]; [split; reflexivity|].
  cbn [hd_sat] in *. unfold is_digit, is_ws in *. lia.
Qed.

Lemma bare_hd_nonws : forall w rest, bare_ok w = true -> hd_sat is_ws (w ++ rest) = false.
Proof.
  intros w rest H. destruct (bare_ok_chars w H) as [c [w' [E [Hc _]]]]. subst w. apply (ident_first_class c Hc).
Qed.

Section LexMain.
Variable prec : op -> N.
Variable isop : op -> bool.
Variable op_text : op -> str.
Variable kws : list (str * N).
Variable op_of_code : N -> option op.
Variables ct cf cfield ctag cdistinct : N.
Variables nr dr : bool.

Notation LX := (lexes kws op_of_code ct cf cfield ctag cdistinct).
Notation WT := (word_tok kws op_of_code ct cf cfield ctag cdistinct).
Notation PTX := (print_text op_text kws nr dr).
Notation PT := (print_toks nr dr).
Notation CANON := (canon prec isop kws nr dr).

(* what the scanner needs from the live tables: every operator ParseExpr knows is printed as the text the scanner
   reads as that operator; the cast names, true/false are read back as themselves; Inf and NaN are not keywords *)
Definition lex_tables : Prop :=
  (forall o, isop o = true ->
     match sym_texts o with
     | [] => bare_ok (op_text o) = true /\ WT (op_text o) = TOp o
     | ts => In (op_text o) ts
     end) /\
  (forall d, printable_dtype d = true -> dtype_eqb d DUnknown = false -> WT (dtype_text d) = dtype_tok d) /\
  WT [116;114;117;101] = TTrue /\ WT [102;97;108;115;101] = TFalse /\
  WT [73;110;102] = TIdent [73;110;102] /\ WT [78;97;78] = TIdent [78;97;78].

Hypothesis HT : lex_tables.

Lemma lexes_cons : forall s1 t s2 ts s3 st, LX s1 [t] s2 st -> LX s2 ts s3 (run [t] st) -> LX s1 (t :: ts) s3 st.
Proof. intros. apply (lexes_trans _ _ _ _ _ _ _ s1 [t] s2 ts s3); assumption. Qed.

Definition pa_text := fix pa (l : list expr) : str :=
  match l with
  | [] => []
  | [a] => PTX a
  | a :: l' => PTX a ++ 44 :: 32 :: pa l'
  end.
Definition sep_items_text (l : list expr) : str := flat_map (fun a => 44 :: 32 :: PTX a) l.

Lemma text_call : forall name args, PTX (ECall name args) = name ++ 40 :: pa_text args ++ [41].
Proof. reflexivity. Qed.
Lemma pa_text_cons : forall l a, pa_text (a :: l) = PTX a ++ sep_items_text l.
Proof. apply (sep_cons _ _ PTX [44; 32] pa_text). intros a [|b l]; reflexivity. Qed.

Lemma call_name_spec : forall name, call_name_ok kws name = true -> bare_ok name = true /\ WT name = TIdent name.
Proof.
  intros name H. unfold call_name_ok in H. apply andb_prop in H. destruct H as [H Hkw]. apply andb_prop in H. destruct H as [H _].
  apply andb_prop in H. destruct H as [Hbare Hlow]. apply str_eqb_eq in Hlow. split; [exact Hbare|].
  unfold word_tok. rewrite Hlow. destruct (kw_lookup kws name); [discriminate | reflexivity].
Qed.

Lemma head_nonws : forall e arg rest, CANON arg e = true -> hd_sat is_ws (PTX e ++ rest) = false.
Proof.
  induction e as [name t|z|n|neg ip fp|k|s|b|z|src|w|e' IHe|name args|o l IHl r IHr]; intros arg rest Hc; cbn [print_text].
  - cbn [canon] in Hc. apply andb_prop in Hc. destruct Hc as [Hc _]. apply andb_prop in Hc. destruct Hc as [Hwf _].
    rewrite <- app_assoc. destruct (quote_ident_cases kws name Hwf) as [E|[Hb [_ E]]]; rewrite E; [reflexivity|].
    apply bare_hd_nonws, Hb.
  - unfold zdigits. destruct (z <? 0)%Z; [reflexivity | apply digits_hd_not].
  - apply digits_hd_not.
  - unfold number_text_gen. destruct neg; [reflexivity|]. cbn [app]. rewrite <- app_assoc. apply digits_hd_not.
  - unfold special_text. destruct (k =? 0); [reflexivity|]. destruct (k =? 1); reflexivity.
  - reflexivity.
  - destruct b; reflexivity.
  - destruct (format_duration_shape dr z) as [neg [q [p [_ [E _]]]]]. rewrite E.
    destruct neg; [reflexivity|]. cbn [app]. rewrite <- app_assoc. apply digits_hd_not.
  - reflexivity.
  - destruct w; reflexivity.
  - reflexivity.
  - cbn [canon] in Hc. apply andb_prop in Hc. destruct Hc as [Hn _].
    rewrite <- app_assoc. apply bare_hd_nonws, (call_name_spec name Hn).
  - rewrite <- app_assoc. apply canon_bin in Hc. apply (IHl false), Hc.
Qed.

Lemma stk_app : forall a b, (forall st, s_stk (run a st) = s_stk st) -> (forall st, s_stk (run b st) = s_stk st) ->
  forall st, s_stk (run (a ++ b) st) = s_stk st.
Proof. intros a b Ha Hb st. rewrite run_app, Hb. apply Ha. Qed.

Lemma stk_sep : forall more, Forall (fun b => forall st, s_stk (run (PT b) st) = s_stk st) more ->
  forall st, s_stk (run (sep_items nr dr more) st) = s_stk st.
Proof.
  induction 1 as [|b more Hb _ IH]; [reflexivity|]. cbn [sep_items flat_map]. fold (sep_items nr dr more).
  apply (stk_app (TComma :: TWs :: PT b)); [|exact IH]. apply (stk_app [TComma; TWs]); [reflexivity | exact Hb].
Qed.

Lemma run_stk : forall e st, s_stk (run (PT e) st) = s_stk st.
Proof.
  induction e as [name t|z|n0|neg ip fp|k|s|b|z|src|w|e' IHe|name args IHargs|o l r IHl IHr] using expr_ind_args;
    cbn [print_toks].
  - intro st. destruct (dtype_eqb t DUnknown); [reflexivity|]. destruct t; reflexivity.
  - intro st. destruct (z <? 0)%Z; reflexivity.
  - reflexivity.
  - intro st. unfold number_toks. destruct neg; destruct fp; cbn [app];
      repeat match goal with |- context [if ?b then _ else _] => destruct b end; reflexivity.
  - intro st. destruct (k =? 0); [reflexivity|]. destruct (k =? 1); reflexivity.
  - reflexivity.
  - intro st. destruct b; reflexivity.
  - intro st. destruct (format_duration_shape dr z) as [neg [q [p [_ [E _]]]]]. rewrite (duration_toks_digits _ _ _ _ _ E).
    destruct neg; reflexivity.
  - reflexivity.
  - intro st. destruct w; reflexivity.
  - intro st. rewrite app_comm_cons, run_app. cbn [run fold_left advance s_stk].
    change (fold_left advance (PT e') ?s) with (run (PT e') s). rewrite IHe. reflexivity.
  - intro st. fold (pa nr dr args). rewrite 2 app_comm_cons, run_app. cbn [run fold_left advance s_stk].
    change (fold_left advance (pa nr dr args) ?s) with (run (pa nr dr args) s).
    destruct IHargs as [|a more Ha Hmore]; [reflexivity|].
    rewrite pa_cons. rewrite (stk_app _ _ Ha (stk_sep more Hmore)). reflexivity.
  - apply stk_app; [exact IHl|]. apply (stk_app [TWs; TOp o; TWs]); [reflexivity | exact IHr].
Qed.

(* after these tokens a slash is a division sign *)
Definition good_end (st : sst) : Prop :=
  exists t, s_prev st = Some t /\ s_last st = Some t /\
            match t with TRParen | TIdent _ | TInteger _ | TNumber _ => True | _ => False end.

Lemma good_end_div : forall st, good_end st -> div_after (s_prev st) = true /\ delim_ctx (s_last st) (s_stk st) = false.
Proof. intros st [t [H1 [H2 H3]]]. rewrite H1, H2. destruct t; try contradiction; split; reflexivity. Qed.

Lemma good_end_snoc : forall toks t st, match t with TRParen | TIdent _ | TInteger _ | TNumber _ => True | _ => False end ->
  good_end (run (toks ++ [t]) st).
Proof. intros toks t st H. rewrite run_app. exists t. destruct t; try contradiction; repeat split. Qed.

Lemma div_state : forall e arg st, CANON arg e = true -> div_left_ok e = true -> good_end (run (PT e) st).
Proof.
  induction e as [name t|z|n|neg ip fp|k|s|b|z|src|w|e' IHe|name args|o l IHl r IHr]; intros arg st Hc Hd;
    cbn [div_left_ok] in Hd; try discriminate; cbn [print_toks].
  - cbn [canon] in Hc. apply andb_prop in Hc. destruct Hc as [_ Hp].
    destruct t; try discriminate Hp; try discriminate Hd;
      first [apply (good_end_snoc []) | apply (good_end_snoc [TIdent name; TDColon])]; exact I.
  - destruct (z <? 0)%Z; [apply (good_end_snoc [TOp OSub]) | apply (good_end_snoc [])]; exact I.
  - apply (good_end_snoc []). exact I.
  - unfold number_toks.
    destruct fp; repeat match goal with |- context [if ?b then _ else _] => destruct b end; apply good_end_snoc; exact I.
  - destruct (k =? 0); [|destruct (k =? 1)];
      first [apply (good_end_snoc [TOp OAdd]) | apply (good_end_snoc [TOp OSub]) | apply (good_end_snoc [])]; exact I.
  - rewrite app_comm_cons. apply good_end_snoc. exact I.
  - fold (pa nr dr args). rewrite 2 app_comm_cons. apply good_end_snoc. exact I.
  - change (PT l ++ TWs :: TOp o :: TWs :: PT r) with (PT l ++ [TWs; TOp o; TWs] ++ PT r). rewrite 2 run_app.
    apply canon_bin in Hc. destruct Hc as [_ [_ [_ [Hr _]]]].
    destruct (is_regex_op o); [apply andb_prop in Hr; apply (IHr true); [apply Hr | exact Hd] | apply (IHr false); [exact Hr | exact Hd]].
Qed.

Lemma lex_kw : forall w t rest st, WT w = t -> bare_ok w = true -> sepb rest = true -> LX (w ++ rest) [t] rest st.
Proof.
  intros w t rest st E Hb Hs. destruct (sepb_bounds rest Hs) as [B1 [B2 _]]. rewrite <- E. apply lex_word; assumption.
Qed.

Lemma lex_signed : forall (neg : bool) n s toks rest st,
  (forall st', LX (digits n ++ s) toks rest st') ->
  LX ((if neg then [45] else []) ++ digits n ++ s) ((if neg then [TOp OSub] else []) ++ toks) rest st.
Proof.
  intros neg n s toks rest st H. destruct neg; cbn [app]; [|apply H].
  eapply lexes_cons; [apply lex_minus, digits_hd_not | apply H].
Qed.

Lemma lex_nat : forall n rest st, sepb rest = true -> LX (digits n ++ rest) [TInteger (digits n)] rest st.
Proof.
  intros n rest st Hs. destruct (sepb_bounds rest Hs) as [_ [_ [B3 [B4 [B5 _]]]]].
  apply lex_integer; [apply digits_nonempty | apply digits_all | exact B3 | exact B4 | exact B5].
Qed.

(* ::type after a variable or a wildcard *)
Lemma lex_cast : forall d rest st, printable_dtype d = true -> dtype_eqb d DUnknown = false -> sepb rest = true ->
  LX (58 :: 58 :: dtype_text d ++ rest) [TDColon; dtype_tok d] rest st.
Proof.
  intros d rest st Hp Hd Hs. eapply lexes_cons; [apply lex_dcolon|].
  apply lex_kw; [apply HT; assumption | destruct d; reflexivity | exact Hs].
Qed.

Lemma lex_var : forall name t arg rest st, CANON arg (EVar name t) = true -> sepb rest = true ->
  LX (PTX (EVar name t) ++ rest) (PT (EVar name t)) rest st.
Proof.
  intros name t arg rest st Hc Hs. destruct (sepb_bounds rest Hs) as [B1 [B2 _]].
  cbn [canon] in Hc. apply andb_prop in Hc. destruct Hc as [Hc Hp]. apply andb_prop in Hc. destruct Hc as [Hwf _].
  cbn [print_text print_toks]. destruct (dtype_eqb t DUnknown) eqn:Et.
  - rewrite app_nil_r. apply lex_ident; assumption.
  - rewrite <- app_assoc. eapply lexes_cons; [apply lex_ident; [exact Hwf | reflexivity | reflexivity]|].
    apply lex_cast; assumption.
Qed.

Lemma lex_int : forall z rest st, sepb rest = true -> LX (PTX (EInt z) ++ rest) (PT (EInt z)) rest st.
Proof.
  intros z rest st Hs. cbn [print_text print_toks]. unfold zdigits.
  destruct (z <? 0)%Z; [apply (lex_signed true _ rest) | apply (lex_signed false _ rest)]; intro st'; apply lex_nat, Hs.
Qed.

Lemma lex_num : forall neg ip fp arg rest st, CANON arg (ENum neg ip fp) = true -> sepb rest = true ->
  LX (PTX (ENum neg ip fp) ++ rest) (PT (ENum neg ip fp)) rest st.
Proof.
  intros neg ip fp arg rest st Hc Hs. destruct (sepb_bounds rest Hs) as [_ [_ [B3 _]]]. cbn [canon] in Hc.
  cbn [print_text print_toks]. destruct (number_canon_print prec isop kws nr dr arg neg ip fp Hc) as [Et Ex]. rewrite Et, Ex.
  apply andb_prop in Hc. destruct Hc as [Hfr _]. apply andb_prop in Hfr. destruct Hfr as [Hfr _].
  rewrite <- !app_assoc. apply lex_signed. intro st'. destruct fp as [|d fp'].
  - apply (lex_number _ _ _ _ _ _ _ (digits ip) [48] rest);
      [apply digits_nonempty | apply digits_all | discriminate | reflexivity | exact B3].
  - cbn [app]. apply (lex_number _ _ _ _ _ _ _ (digits ip) (frac_text (d :: fp')) rest);
      [apply digits_nonempty | apply digits_all | discriminate | apply frac_text_digits; exact Hfr | exact B3].
Qed.

Lemma lex_special : forall k rest st, k < 3 -> sepb rest = true -> LX (PTX (ESpecial k) ++ rest) (PT (ESpecial k)) rest st.
Proof.
  intros k rest st Hk Hs. destruct HT as [_ [_ [_ [_ [HTinf HTnan]]]]].
  assert (Hk' : k = 0 \/ k = 1 \/ k = 2) by lia.
  destruct Hk' as [E|[E|E]]; subst k; cbn [print_text print_toks special_text N.eqb Pos.eqb app].
  - eapply lexes_cons; [apply lex_plus|]. apply (lex_kw [73;110;102]); [exact HTinf | reflexivity | exact Hs].
  - eapply lexes_cons; [apply lex_minus; reflexivity|]. apply (lex_kw [73;110;102]); [exact HTinf | reflexivity | exact Hs].
  - apply (lex_kw [78;97;78]); [exact HTnan | reflexivity | exact Hs].
Qed.

Lemma lex_bool : forall b rest st, sepb rest = true -> LX (PTX (EBool b) ++ rest) (PT (EBool b)) rest st.
Proof.
  intros b rest st Hs. destruct HT as [_ [_ [HTt [HTf _]]]]. destruct b; cbn [print_text print_toks].
  - apply (lex_kw [116;114;117;101]); [exact HTt | reflexivity | exact Hs].
  - apply (lex_kw [102;97;108;115;101]); [exact HTf | reflexivity | exact Hs].
Qed.

Lemma lex_dur : forall z rest st, sepb rest = true -> LX (PTX (EDur z) ++ rest) (PT (EDur z)) rest st.
Proof.
  intros z rest st Hs. destruct (sepb_bounds rest Hs) as [_ [_ [_ [_ [_ B6]]]]]. cbn [print_text print_toks].
  destruct (format_duration_shape dr z) as [neg [q [p [Hin [E _]]]]]. rewrite (duration_toks_digits _ _ _ _ _ E), E.
  destruct (proj1 (Forall_forall _ _) units_ok p Hin) as [_ [S1 [S2 _]]].
  rewrite <- !app_assoc. apply lex_signed. intro st'.
  apply lex_duration; [apply digits_nonempty | apply digits_all | exact S1 | exact S2 | exact B6].
Qed.

Lemma lex_wild : forall w rest st, sepb rest = true -> LX (PTX (EWild w) ++ rest) (PT (EWild w)) rest st.
Proof.
  intros w rest st Hs. destruct w; cbn [print_text print_toks app]; [apply lex_star | |];
    (eapply lexes_cons; [apply lex_star|]).
  - apply (lex_cast DAnyField); [reflexivity | reflexivity | exact Hs].
  - apply (lex_cast DTag); [reflexivity | reflexivity | exact Hs].
Qed.

(* an expression in its place: before a separator, and a regex literal only where the delimited reader is called *)
Definition lexes_expr (e : expr) : Prop :=
  forall arg rest st, CANON arg e = true -> sepb rest = true ->
    (is_regex e = true -> delim_ctx (s_last st) (s_stk st) = true) -> LX (PTX e ++ rest) (PT e) rest st.

Lemma canon_not_regex : forall e, CANON false e = true -> is_regex e = false.
Proof. intros e H. destruct e; try reflexivity. cbn in H. discriminate. Qed.

Lemma sepb_sep_text : forall more rest, sepb (sep_items_text more ++ 41 :: rest) = true.
Proof. intros [|b more] rest; reflexivity. Qed.

(* call arguments after the first.  The top of the parenthesis stack is true: we are inside a call's parentheses, where
   the parser reads an argument that starts with a slash through the delimited regex reader (delim_ctx) *)
Lemma lex_more : forall more rest st,
  Forall lexes_expr more -> forallb (CANON true) more = true -> (exists k, s_stk st = true :: k) ->
  LX (sep_items_text more ++ 41 :: rest) (sep_items nr dr more) (41 :: rest) st.
Proof.
  induction more as [|b more IH]; intros rest st Hall Hc Hstk.
  - apply lexes_refl.
  - inversion Hall as [|? ? Hb Hall']; subst. cbn [forallb] in Hc. apply andb_prop in Hc. destruct Hc as [Hcb Hcm].
    cbn [sep_items_text sep_items flat_map]. fold (sep_items_text more). fold (sep_items nr dr more).
    cbn [app]. rewrite <- app_assoc.
    eapply lexes_cons; [apply lex_comma|].
    eapply lexes_cons; [apply lex_ws, (head_nonws b true), Hcb|].
    destruct Hstk as [k Hk].
    eapply lexes_trans.
    + apply (Hb true); [exact Hcb | apply sepb_sep_text|].
      intros _. cbn [run fold_left advance s_last s_stk]. rewrite Hk. reflexivity.
    + apply IH; [exact Hall' | exact Hcm|]. exists k. rewrite run_stk. exact Hk.
Qed.

Lemma lex_paren : forall e, lexes_expr e -> lexes_expr (EParen e).
Proof.
  intros e IH arg rest st Hc Hs _. cbn [canon] in Hc. cbn [print_text print_toks app]. rewrite <- app_assoc. cbn [app].
  eapply lexes_cons; [apply lex_lparen|].
  eapply lexes_trans; [|apply lex_rparen].
  apply (IH false); [exact Hc | reflexivity|]. intro Hx. rewrite (canon_not_regex e Hc) in Hx. discriminate.
Qed.

Lemma lex_call : forall name args, Forall lexes_expr args -> lexes_expr (ECall name args).
Proof.
  intros name args IH arg rest st Hc Hs _. cbn [canon] in Hc. apply andb_prop in Hc. destruct Hc as [Hname Hargs].
  destruct (call_name_spec name Hname) as [Hbare Hw].
  rewrite text_call, print_call. rewrite <- app_assoc. cbn [app]. rewrite <- app_assoc. cbn [app].
  eapply lexes_cons.
  { rewrite <- Hw. apply lex_word; [exact Hbare | reflexivity | reflexivity]. }
  eapply lexes_cons; [apply lex_lparen|].
  eapply lexes_trans; [|apply lex_rparen].
  destruct IH as [|a more Ha Hmore]; [apply lexes_refl|].
  rewrite pa_text_cons, pa_cons. rewrite <- app_assoc.
  cbn [forallb] in Hargs. apply andb_prop in Hargs. destruct Hargs as [Hca Hcm].
  eapply lexes_trans.
  - apply (Ha true); [exact Hca | apply sepb_sep_text|]. intros _. reflexivity.
  - apply lex_more; [exact Hmore | exact Hcm|]. eexists. rewrite run_stk. reflexivity.
Qed.

(* the operator between two blanks: a keyword or a symbol, and `/` only where the scanner reads it as division *)
Lemma lex_op : forall o rest st, isop o = true -> (o = ODiv -> good_end st) ->
  hd_sat is_ws (op_text o ++ 32 :: rest) = false /\ LX (op_text o ++ 32 :: rest) [TOp o] (32 :: rest) (run [TWs] st).
Proof.
  intros o rest st Hop Hdiv. destruct HT as [HTop _]. specialize (HTop o Hop). destruct (sym_texts o) as [|t0 ts] eqn:Es.
  - destruct HTop as [Hb Hw]. split; [apply bare_hd_nonws, Hb|]. rewrite <- Hw. apply lex_word; [exact Hb | reflexivity | reflexivity].
  - rewrite <- Es in HTop. split.
    + clear - HTop. destruct o; cbn [sym_texts In] in HTop; repeat (destruct HTop as [HTop|HTop]); try contradiction;
        rewrite <- HTop; reflexivity.
    + apply lex_symop; [exact HTop|]. intro Eo. apply and_comm, good_end_div, Hdiv, Eo.
Qed.

Lemma lex_bin : forall o l r, lexes_expr l -> lexes_expr r -> lexes_expr (EBin o l r).
Proof.
  intros o l r IHl IHr arg rest st Hc Hs _.
  apply canon_bin in Hc. destruct Hc as [Hop [Hl [Hdiv [Hr _]]]].
  cbn [print_text print_toks]. rewrite <- app_assoc. cbn [app]. rewrite <- app_assoc. cbn [app].
  assert (Hcr : exists argr, CANON argr r = true /\ (is_regex r = true -> is_regex_op o = true)).
  { destruct (is_regex_op o).
    - apply andb_prop in Hr. exists true. split; [apply Hr | reflexivity].
    - exists false. split; [exact Hr|]. intro Hx. rewrite (canon_not_regex r Hr) in Hx. discriminate. }
  destruct Hcr as [argr [Hcr Hrx]].
  destruct (lex_op o (PTX r ++ rest) (run (PT l) st) Hop) as [Wo Lo].
  { intro Eo. subst o. apply (div_state l false); [exact Hl | exact Hdiv]. }
  eapply lexes_trans.
  { apply (IHl false); [exact Hl | reflexivity|]. intro Hx. rewrite (canon_not_regex l Hl) in Hx. discriminate. }
  eapply lexes_cons; [apply lex_ws, Wo|]. eapply lexes_cons; [exact Lo|].
  eapply lexes_cons; [apply lex_ws, (head_nonws r argr), Hcr|].
  apply (IHr argr); [exact Hcr | exact Hs|].
  intro Hx. specialize (Hrx Hx). cbn [run fold_left advance s_last s_stk].
  destruct o; try discriminate Hrx; reflexivity.
Qed.

Lemma lex_main : forall e, lexes_expr e.
Proof.
  induction e as [name t|z|n|neg ip fp|k|s|b|z|src|w|e' IHe|name args IHargs|o l r IHl IHr] using expr_ind_args.
  1-10: intros arg rest st Hc Hs Hre.
  - apply (lex_var name t arg); assumption.
  - apply lex_int, Hs.
  - apply lex_nat, Hs.
  - apply (lex_num neg ip fp arg); assumption.
  - apply lex_special; [apply N.ltb_lt, Hc | exact Hs].
  - apply lex_string, Hc.
  - apply lex_bool, Hs.
  - apply lex_dur, Hs.
  - cbn [canon] in Hc. apply andb_prop in Hc. cbn [print_text print_toks app]. rewrite <- app_assoc. cbn [app].
    apply lex_regex; [apply Hre; reflexivity | apply Hc].
  - apply lex_wild, Hs.
  - apply lex_paren, IHe.
  - apply lex_call, IHargs.
  - apply lex_bin; assumption.
Qed.

End LexMain.
