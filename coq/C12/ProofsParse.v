(* C12: correctness of the spine-insertion parser on printed canonical expressions. *)
From Coq Require Import ZArith NArith List Bool Lia ZifyBool ZifyNat ZifyN.
From OG Require Import C12.Model C12.Proofs.
Import ListNotations.
Open Scope N_scope.

(* flattening of an expression along its unparenthesised binary nodes: leftmost atom, then (operator, atom) pairs *)
Fixpoint spine (e : expr) : expr * list (op * expr) :=
  match e with
  | EBin o l r => let '(a, xs) := spine l in let '(b, ys) := spine r in (a, xs ++ (o, b) :: ys)
  | _ => (e, [])
  end.

Fixpoint size (e : expr) : nat :=
  match e with
  | EParen e' => S (size e')
  | ECall _ args => S (fold_right (fun a s => (size a + s)%nat) O args)
  | EBin _ l r => S (size l + size r)
  | _ => 1%nat
  end.

(* fuel the parser needs: two levels of parse_unary for an atom (a minus sign takes the second); three more for what is
   inside a parenthesis or for a call argument (parse_unary or parse_call/parse_args, parse_expr, the final turn of
   parse_loop); one turn of parse_loop for an operator.  parse gives 4 per token and 8: enough by cost_le *)
Fixpoint cost (e : expr) : nat :=
  match e with
  | EParen e' => (cost e' + 3)%nat
  | ECall _ args => (fold_right (fun a s => (cost a + 3 + s)%nat) O args + 3)%nat
  | EBin _ l r => (cost l + cost r + 1)%nat
  | _ => 2%nat
  end.

Definition stopb (rest : list token) : bool :=
  match rest with [] | TRParen :: _ | TComma :: _ => true | _ => false end.

(* what may follow an expression: the end, ) or , (stopb), or - inside a statement - a blank and then anything but an
   operator (a keyword, TZ): ParseExpr skips the blanks and stops there *)
Definition nonop (t : list token) : bool := match t with TOp _ :: _ => false | _ => true end.
Definition after_expr (rest : list token) : bool :=
  match rest with
  | [] | TRParen :: _ | TComma :: _ => true
  | TWs :: r => nonop (skip_ws r)
  | _ => false
  end.

Lemma stopb_after : forall r, stopb r = true -> after_expr r = true /\ skip_ws r = r.
Proof. intros [|t r] H; [split; reflexivity|]. destruct t; try discriminate H; split; reflexivity. Qed.
Lemma after_expr_follow : forall r, after_expr r = true -> follow r = true.
Proof. intros [|t r] H; [reflexivity|]. destruct t; try discriminate H; reflexivity. Qed.
Lemma after_expr_nonop : forall r, after_expr r = true -> nonop (skip_ws r) = true.
Proof. intros [|t r] H; [reflexivity|]. destruct t; try discriminate H; try reflexivity. exact H. Qed.

Definition head_ok (t : list token) : bool :=
  match t with [] | TWs :: _ | TRParen :: _ | TRegex _ :: _ | TComma :: _ => false | _ => true end.

Section Insertion.
Variable prec : op -> N.
Notation INS := (ins prec).

Definition build (root : expr) (xs : list (op * expr)) : expr :=
  fold_left (fun r ob => INS r (fst ob) (snd ob)) xs root.

(* when the root does not let o descend, the later higher-precedence operators all go below the new node *)
Lemma build_under : forall xs l o Y,
  (match l with EBin ol _ _ => prec o <= prec ol | _ => True end) ->
  (forall ob, In ob xs -> prec o < prec (fst ob)) ->
  build (EBin o l Y) xs = EBin o l (build Y xs).
Proof.
  induction xs as [|[o' b] xs IH]; intros l o Y Hl Hall; [reflexivity|].
  cbn [build fold_left fst snd].
  assert (Hlt : prec o < prec o') by (apply (Hall (o', b)); left; reflexivity).
  assert (E : INS (EBin o l Y) o' b = EBin o l (INS Y o' b)).
  { cbn [ins]. assert (E1 : (prec o <? prec o') = true) by lia. rewrite E1. reflexivity. }
  rewrite E. apply (IH l o (INS Y o' b) Hl). intros ob Hin. apply Hall. right. exact Hin.
Qed.

Lemma ins_top : forall l o b, (match l with EBin ol _ _ => prec o <= prec ol | _ => True end) -> INS l o b = EBin o l b.
Proof.
  intros l o b H. destruct l; try reflexivity. cbn [ins].
  assert (E : (prec o0 <? prec o) = false) by lia. rewrite E. reflexivity.
Qed.

(* precedence part of canonicity *)
Fixpoint pcanon (e : expr) : bool :=
  match e with
  | EBin o l r =>
      pcanon l && pcanon r &&
      match top_prec prec l with Some p => prec o <=? p | None => true end &&
      match top_prec prec r with Some p => prec o <? p | None => true end
  | _ => true
  end.

(* every operator on the spine binds at least as tightly as the top one *)
Lemma spine_lower : forall e q, pcanon e = true -> match top_prec prec e with Some p => q <= p | None => True end ->
  forall ob, In ob (snd (spine e)) -> q <= prec (fst ob).
Proof.
  induction e as [name t|z|n|neg ip fp|k|s|b|z|src|w|e'|name args|o l IHl r IHr]; intros q Hc Hq ob Hin;
    try (cbn in Hin; contradiction).
  cbn [pcanon] in Hc. apply andb_prop in Hc. destruct Hc as [Hc H4]. apply andb_prop in Hc. destruct Hc as [Hc H3].
  apply andb_prop in Hc. destruct Hc as [H1 H2]. cbn [top_prec] in Hq.
  cbn [spine] in Hin. destruct (spine l) as [a xs]. destruct (spine r) as [b0 ys]. cbn [snd] in *.
  apply in_app_or in Hin. destruct Hin as [Hin|[Hin|Hin]].
  - apply (IHl q H1); [destruct (top_prec prec l); [lia | exact I] | exact Hin].
  - subst ob. exact Hq.
  - apply (IHr q H2); [destruct (top_prec prec r); [lia | exact I] | exact Hin].
Qed.

Lemma build_app : forall xs ys root, build root (xs ++ ys) = build (build root xs) ys.
Proof. intros. unfold build. apply fold_left_app. Qed.

Lemma build_spine : forall e, pcanon e = true -> build (fst (spine e)) (snd (spine e)) = e.
Proof.
  induction e as [name t|z|n|neg ip fp|k|s|b|z|src|w|e'|name args|o l IHl r IHr]; intro Hc; try reflexivity.
  cbn [pcanon] in Hc. apply andb_prop in Hc. destruct Hc as [Hc H4]. apply andb_prop in Hc. destruct Hc as [Hc H3].
  apply andb_prop in Hc. destruct Hc as [H1 H2].
  pose proof (spine_lower r (N.succ (prec o)) H2) as Hr.
  cbn [spine]. destruct (spine l) as [a xs]. destruct (spine r) as [b0 ys]. cbn [fst snd] in *.
  assert (Hl : match l with EBin ol _ _ => prec o <= prec ol | _ => True end).
  { destruct l; try exact I. cbn [top_prec] in H3. lia. }
  rewrite build_app, (IHl H1). cbn [build fold_left fst snd]. rewrite (ins_top l o b0 Hl).
  change (fold_left (fun r0 ob => INS r0 (fst ob) (snd ob)) ys (EBin o l b0)) with (build (EBin o l b0) ys).
  rewrite build_under, (IHr H2); [reflexivity | exact Hl|].
  intros ob Hin. apply N.le_succ_l, Hr; [destruct (top_prec prec r); [lia | exact I] | exact Hin].
Qed.

End Insertion.

Definition sumcost (xs : list (op * expr)) : nat := fold_right (fun ob s => (cost (snd ob) + 1 + s)%nat) O xs.
Lemma sumcost_app : forall xs ys, sumcost (xs ++ ys) = (sumcost xs + sumcost ys)%nat.
Proof. induction xs as [|x xs IH]; intro ys; cbn [app sumcost fold_right]; [reflexivity|]. fold (sumcost (xs ++ ys)). fold (sumcost xs). rewrite IH. lia. Qed.

Lemma cost_spine : forall e, (cost (fst (spine e)) + sumcost (snd (spine e)) = cost e)%nat.
Proof.
  induction e as [name t|z|n|neg ip fp|k|s|b|z|src|w|e'|name args|o l IHl r IHr];
    try (cbn [spine fst snd sumcost fold_right]; lia).
  cbn [spine]. destruct (spine l) as [a xs]. destruct (spine r) as [b0 ys]. cbn [fst snd] in *.
  rewrite sumcost_app. cbn [sumcost fold_right snd]. fold (sumcost ys). cbn [cost]. lia.
Qed.

Section Parser.
Variable prec : op -> N.
Variable isop : op -> bool.
Variable kws : list (str * N).
Variables nr dr : bool.

Notation PU := (parse_unary prec isop).
Notation PE := (parse_expr prec isop).
Notation PL := (parse_loop prec isop).
Notation PC := (parse_call prec isop).
Notation PA := (parse_args prec isop).
Notation PT := (print_toks nr dr).
Notation CANON := (canon prec isop kws nr dr).
Notation INS := (ins prec).

Definition items_toks (xs : list (op * expr)) : list token :=
  flat_map (fun ob => TWs :: TOp (fst ob) :: TWs :: PT (snd ob)) xs.

Lemma print_spine : forall e, PT e = PT (fst (spine e)) ++ items_toks (snd (spine e)).
Proof.
  induction e as [name t|z|n|neg ip fp|k|s|b|z|src|w|e'|name args|o l IHl r IHr];
    try (cbn [spine fst snd]; unfold items_toks; cbn [flat_map]; rewrite app_nil_r; reflexivity).
  cbn [spine]. destruct (spine l) as [a xs]. destruct (spine r) as [b0 ys]. cbn [fst snd] in *.
  cbn [print_toks]. rewrite IHl, IHr. unfold items_toks. rewrite flat_map_app. cbn [flat_map fst snd].
  rewrite <- !app_assoc. reflexivity.
Qed.

Lemma canon_bin : forall arg o l r, CANON arg (EBin o l r) = true <->
  isop o = true /\ CANON false l = true /\ (if op_eqb o ODiv then div_left_ok l else true) = true /\
  (if is_regex_op o then is_regex r && CANON true r else CANON false r) = true /\
  match top_prec prec l with Some p => prec o <=? p | None => true end = true /\
  match top_prec prec r with Some p => prec o <? p | None => true end = true.
Proof. intros arg o l r. cbn [canon]. rewrite !andb_true_iff. tauto. Qed.

Lemma canon_arg : forall e, is_regex e = false -> CANON true e = CANON false e.
Proof. intros e H. destruct e; try reflexivity. discriminate. Qed.

Lemma canon_pcanon : forall e arg, CANON arg e = true -> pcanon prec e = true.
Proof.
  induction e as [name t|z|n|neg ip fp|k|s|b|z|src|w|e'|name args|o l IHl r IHr]; intros arg H; try reflexivity.
  apply canon_bin in H. destruct H as [_ [Hl [_ [Hr [H5 H6]]]]].
  cbn [pcanon]. rewrite (IHl false Hl), H5, H6.
  destruct (is_regex_op o); [apply andb_prop in Hr; rewrite (IHr true) by apply Hr | rewrite (IHr false) by exact Hr]; reflexivity.
Qed.

(* an (operator, operand) pair of the spine of a canonical expression *)
Definition item_ok (ob : op * expr) : Prop :=
  isop (fst ob) = true /\ is_bin (snd ob) = false /\
  (if is_regex_op (fst ob) then is_regex (snd ob) = true else CANON false (snd ob) = true).

Lemma spine_atoms : forall e, CANON false e = true ->
  CANON false (fst (spine e)) = true /\ is_bin (fst (spine e)) = false /\ Forall item_ok (snd (spine e)).
Proof.
  induction e as [name t|z|n|neg ip fp|k|s|b|z|src|w|e'|name args|o l IHl r IHr]; intro H;
    try (cbn [spine fst snd]; repeat split; first [exact H | constructor]).
  apply canon_bin in H. destruct H as [Hop [Hl [_ [Hr _]]]].
  cbn [spine]. specialize (IHl Hl). destruct (spine l) as [a xs]. destruct (spine r) as [b0 ys] eqn:Er. cbn [fst snd] in *.
  destruct IHl as [Ha [Hb Hxs]]. repeat split; try assumption.
  apply Forall_app. split; [exact Hxs|]. destruct (is_regex_op o) eqn:Ero.
  - apply andb_prop in Hr. destruct Hr as [Hr _]. destruct r; try discriminate. inversion Er; subst b0 ys.
    constructor; [|constructor]. unfold item_ok. cbn [fst snd]. rewrite Ero. repeat split; assumption.
  - destruct (IHr Hr) as [Ha' [Hb' Hys]].
    constructor; [|exact Hys]. unfold item_ok. cbn [fst snd]. rewrite Ero. repeat split; assumption.
Qed.

Lemma head_ok_print : forall e R, CANON false e = true -> head_ok (PT e ++ R) = true.
Proof.
  induction e as [name t|z|n|neg ip fp|k|s|b|z|src|w|e'|name args|o l IHl r IHr]; intros R H; cbn [print_toks].
  - reflexivity.
  - destruct (z <? 0)%Z; reflexivity.
  - reflexivity.
  - rewrite (proj1 (number_canon_print prec isop kws nr dr false _ _ _ H)). destruct neg; reflexivity.
  - destruct (k =? 0); [reflexivity|]. destruct (k =? 1); reflexivity.
  - reflexivity.
  - destruct b; reflexivity.
  - destruct (format_duration_shape dr z) as [neg [q [p [_ [E _]]]]]. rewrite (duration_toks_digits _ _ _ _ _ E).
    destruct neg; reflexivity.
  - discriminate H.
  - destruct w; reflexivity.
  - reflexivity.
  - reflexivity.
  - apply canon_bin in H. rewrite <- app_assoc. apply IHl, H.
Qed.

(* unfolding equations of the mutually recursive parser (used instead of cbn, which exposes the whole fixpoint) *)
Lemma PE_S : forall f toks, PE (S f) toks = match PU f toks with Some (e0, r) => PL f e0 r | None => None end.
Proof. reflexivity. Qed.
Lemma PL_S : forall f root toks,
  PL (S f) root toks =
  match skip_ws toks with
  | TOp o :: r =>
      if isop o then
        if is_regex_op o then
          match skip_ws r with
          | TRegex s :: r' => PL f (INS root o (ERegex s)) r'
          | _ => None
          end
        else match PU f r with
             | Some (rhs, r') => PL f (INS root o rhs) r'
             | None => None
             end
      else Some (root, skip_ws toks)
  | _ => Some (root, skip_ws toks)
  end.
Proof. reflexivity. Qed.
Lemma PU_paren : forall f r,
  PU (S f) (TLParen :: r) =
  match PE f r with
  | Some (e, r') => match skip_ws r' with TRParen :: r'' => Some (EParen e, r'') | _ => None end
  | None => None
  end.
Proof. reflexivity. Qed.
(* parseCall: the closing parenthesis, or an argument - a regex literal or an expression - and then parse_args *)
Lemma PC_end : forall f name r, PC (S f) name (TRParen :: r) = Some (ECall name [], r).
Proof. reflexivity. Qed.
Lemma PC_regex : forall f name s r, PC (S f) name (TRegex s :: r) = PA f name [ERegex s] r.
Proof. reflexivity. Qed.
Lemma PC_expr : forall f name X, head_ok X = true ->
  PC (S f) name X = match PE f X with Some (a, r) => PA f name [a] r | None => None end.
Proof. intros f name [|t T] H; [discriminate|]. destruct t; try discriminate H; reflexivity. Qed.
Lemma PA_end : forall f name acc r, PA (S f) name acc (TRParen :: r) = Some (ECall name acc, r).
Proof. reflexivity. Qed.
Lemma PA_regex : forall f name acc s r, PA (S f) name acc (TComma :: TWs :: TRegex s :: r) = PA f name (acc ++ [ERegex s]) r.
Proof. reflexivity. Qed.
Lemma PA_expr : forall f name acc X, head_ok X = true ->
  PA (S f) name acc (TComma :: TWs :: X) = match PE f X with Some (a, r) => PA f name (acc ++ [a]) r | None => None end.
Proof. intros f name acc [|t T] H; [discriminate|]. destruct t; try discriminate H; reflexivity. Qed.

Definition unary_ok (b : expr) : Prop :=
  forall f rest, (cost b <= f)%nat -> follow rest = true -> PU f (PT b ++ rest) = Some (b, rest).

Lemma follow_items : forall xs rest, after_expr rest = true -> follow (items_toks xs ++ rest) = true.
Proof. intros [|x xs] rest H; [apply after_expr_follow; exact H | reflexivity]. Qed.

(* an (operator, operand) pair the loop gets past: a regex literal after a regex operator, else an operand that
   parseUnaryExpr reads back *)
Definition item_read (ob : op * expr) : Prop :=
  isop (fst ob) = true /\ (if is_regex_op (fst ob) then is_regex (snd ob) = true else unary_ok (snd ob)).

Lemma loop_ok : forall xs root f rest, Forall item_read xs ->
  (sumcost xs + 1 <= f)%nat -> after_expr rest = true ->
  PL f root (items_toks xs ++ rest) = Some (build prec root xs, skip_ws rest).
Proof.
  induction xs as [|[o b] xs IH]; intros root f rest Hall Hf Hstop.
  - destruct f as [|f]; [cbn in Hf; lia|]. rewrite PL_S. cbn [items_toks flat_map app build fold_left].
    apply after_expr_nonop in Hstop. destruct (skip_ws rest) as [|t rest']; [reflexivity|]. destruct t; try reflexivity. discriminate.
  - inversion Hall as [|? ? [Hop Hb] Hall']; subst. cbn [fst snd] in *.
    cbn [sumcost fold_right snd] in Hf. fold (sumcost xs) in Hf.
    destruct f as [|f]; [lia|].
    cbn [items_toks flat_map fst snd]. fold (items_toks xs).
    rewrite PL_S. cbn [app skip_ws]. rewrite Hop.
    destruct (is_regex_op o) eqn:Ero.
    + destruct b; try discriminate. cbn [print_toks app skip_ws].
      cbn [build fold_left fst snd]. apply IH; [exact Hall' | cbn [cost] in Hf; lia | exact Hstop].
    + rewrite PU_ws. rewrite <- app_assoc. rewrite Hb; [| lia | apply follow_items; exact Hstop].
      cbn [build fold_left fst snd]. apply IH; [exact Hall' | lia | exact Hstop].
Qed.

(* parseUnaryExpr reads a printed canonical e back, if e is not a binary node *)
Definition A_stmt (e : expr) : Prop :=
  forall arg, CANON arg e = true -> is_bin e = false -> unary_ok e.

(* that holds of the leftmost atom and of every operand on the spine of e *)
Definition spine_read (e : expr) : Prop := A_stmt (fst (spine e)) /\ Forall (fun ob => A_stmt (snd ob)) (snd (spine e)).

(* then ParseExpr reads printed canonical e back: the first atom, then the loop over the spine, and the insertions
   rebuild e *)
Lemma pe_spine : forall e f rest, spine_read e ->
  CANON false e = true -> (cost e + 2 <= f)%nat -> after_expr rest = true ->
  PE f (PT e ++ rest) = Some (e, skip_ws rest).
Proof.
  intros e f rest [HAa HAxs] Hc Hf Hstop.
  pose proof (spine_atoms e Hc) as [Ha [Hb Hxs]].
  pose proof (cost_spine e) as Hcost.
  pose proof (build_spine prec e (canon_pcanon e false Hc)) as Hbuild.
  rewrite print_spine. destruct (spine e) as [a xs]. cbn [fst snd] in *.
  destruct f as [|f]; [lia|]. rewrite PE_S. rewrite <- app_assoc.
  rewrite (HAa false Ha Hb); [| lia | apply follow_items; exact Hstop].
  rewrite (loop_ok xs a f rest); [rewrite Hbuild; reflexivity | | lia | exact Hstop].
  clear - HAxs Hxs. induction Hxs as [|[o b] xs [H1 [H2 H3]] Hxs IH]; constructor.
  - unfold item_read. cbn [fst snd] in *. split; [exact H1|]. destruct (is_regex_op o); [exact H3|].
    inversion HAxs; subst. apply (H4 false H3 H2).
  - apply IH. inversion HAxs; assumption.
Qed.

Definition pa := fix pa (l : list expr) : list token :=
  match l with
  | [] => []
  | [a] => PT a
  | a :: l' => PT a ++ TComma :: TWs :: pa l'
  end.
Definition sep_items (l : list expr) : list token := flat_map (fun a => TComma :: TWs :: PT a) l.

Lemma print_call : forall name args, PT (ECall name args) = TIdent name :: TLParen :: pa args ++ [TRParen].
Proof. reflexivity. Qed.

Lemma pa_cons : forall l a, pa (a :: l) = PT a ++ sep_items l.
Proof. apply (sep_cons _ _ PT [TComma; TWs] pa). intros a [|b l]; reflexivity. Qed.

Definition expr_ok (a : expr) : Prop :=
  forall f rest, (cost a + 2 <= f)%nat -> stopb rest = true -> PE f (PT a ++ rest) = Some (a, rest).
Definition arg_ok (a : expr) : Prop := is_regex a = true \/ (CANON false a = true /\ expr_ok a).
Definition argcost (l : list expr) : nat := fold_right (fun a s => (cost a + 3 + s)%nat) O l.

Lemma stopb_sep : forall l rest, stopb (sep_items l ++ TRParen :: rest) = true.
Proof. intros [|a l] rest; reflexivity. Qed.

Lemma args_ok : forall more acc f name rest,
  Forall arg_ok more -> (argcost more + 1 <= f)%nat ->
  PA f name acc (sep_items more ++ TRParen :: rest) = Some (ECall name (acc ++ more), rest).
Proof.
  induction more as [|a more IH]; intros acc f name rest Hall Hf.
  - destruct f as [|f]; [cbn in Hf; lia|]. cbn [sep_items flat_map app]. rewrite PA_end, app_nil_r. reflexivity.
  - inversion Hall as [|? ? Ha Hall']; subst.
    cbn [argcost fold_right] in Hf. fold (argcost more) in Hf.
    destruct f as [|f]; [lia|].
    cbn [sep_items flat_map]. fold (sep_items more). cbn [app]. rewrite <- app_assoc.
    replace (acc ++ a :: more) with ((acc ++ [a]) ++ more) by (rewrite <- app_assoc; reflexivity).
    destruct Ha as [Hre|[Hc Hok]].
    + destruct a; try discriminate. cbn [print_toks app]. rewrite PA_regex.
      apply IH; [exact Hall' | cbn [cost] in Hf; lia].
    + rewrite PA_expr by (apply head_ok_print; exact Hc). rewrite Hok by (lia || apply stopb_sep).
      apply IH; [exact Hall' | lia].
Qed.

Lemma call_ok : forall args f name rest,
  Forall arg_ok args -> (argcost args + 1 <= f)%nat ->
  PC f name (pa args ++ TRParen :: rest) = Some (ECall name args, rest).
Proof.
  intros [|a more] f name rest Hall Hf; (destruct f as [|f]; [cbn in Hf; lia|]).
  - apply PC_end.
  - inversion Hall as [|? ? Ha Hall']; subst.
    cbn [argcost fold_right] in Hf. fold (argcost more) in Hf. rewrite pa_cons, <- app_assoc.
    destruct Ha as [Hre|[Hc Hok]].
    + destruct a; try discriminate. cbn [print_toks app]. rewrite PC_regex.
      apply (args_ok more [ERegex src]); [exact Hall' | cbn [cost] in Hf; lia].
    + rewrite PC_expr by (apply head_ok_print; exact Hc). rewrite Hok by (lia || apply stopb_sep).
      apply (args_ok more [a]); [exact Hall' | lia].
Qed.

(* ParseExpr reads a printed canonical e back, before the end, ) or , *)
Definition B_stmt (e : expr) : Prop := CANON false e = true -> expr_ok e.

Lemma A_paren : forall e, B_stmt e -> A_stmt (EParen e).
Proof.
  intros e HB arg Hc _ f rest Hf Hfol. cbn [canon] in Hc. cbn [cost] in Hf.
  destruct f as [|f]; [lia|]. cbn [print_toks app]. rewrite PU_paren, <- app_assoc. cbn [app].
  rewrite (HB Hc f (TRParen :: rest)); [reflexivity | lia | reflexivity].
Qed.

Lemma A_call : forall name args, Forall B_stmt args -> A_stmt (ECall name args).
Proof.
  intros name args HB arg Hc _ f rest Hf Hfol.
  cbn [canon] in Hc. apply andb_prop in Hc. destruct Hc as [Hname Hargs].
  unfold call_name_ok in Hname. apply andb_prop in Hname. destruct Hname as [Hname _].
  apply andb_prop in Hname. destruct Hname as [Hname Hok]. apply andb_prop in Hname. destruct Hname as [_ Hlow].
  apply name_ok_spec in Hok. destruct Hok as [Hi Hna]. apply str_eqb_eq in Hlow.
  cbn [cost] in Hf. fold (argcost args) in Hf.
  rewrite print_call. destruct f as [|f]; [lia|]. cbn [app]. rewrite PU_ident, Hi, Hna, Hlow, <- app_assoc.
  apply call_ok; [|lia].
  rewrite forallb_forall in Hargs. rewrite Forall_forall in *. intros a Hin. specialize (Hargs a Hin).
  destruct (is_regex a) eqn:Er; [left; exact Er|]. right. rewrite (canon_arg a Er) in Hargs.
  split; [exact Hargs | exact (HB a Hin Hargs)].
Qed.

(* one structural induction: what is inside a parenthesis or a call is read by ParseExpr (B_stmt), which follows from
   spine_read of that subterm by pe_spine; the spine of a binary node is made of the spines of its operands *)
Lemma spine_unary : forall e, spine_read e.
Proof.
  assert (HB : forall e, spine_read e -> B_stmt e).
  { intros e H Hc f rest Hf Hstop. destruct (stopb_after rest Hstop) as [Hr Hs].
    rewrite (pe_spine e f rest H Hc Hf Hr), Hs. reflexivity. }
  induction e as [name t|z|n|neg ip fp|k|s|b|z|src|w|e' IHe|name args IHargs|o l r IHl IHr] using expr_ind_args;
    try (unfold spine_read; cbn [spine fst snd]; split; [|constructor]; intros arg Hc _ [|[|f]] rest Hf Hfol; try (cbn [cost] in Hf; lia);
         apply (atom_parse prec isop kws nr dr _ arg); [reflexivity | exact Hc | exact Hfol]).
  - split; [|constructor]. apply A_paren, HB, IHe.
  - split; [|constructor]. apply A_call. eapply Forall_impl; [|exact IHargs]. exact HB.
  - unfold spine_read in *. cbn [spine]. destruct (spine l) as [a xs]. destruct (spine r) as [b0 ys]. cbn [fst snd] in *.
    split; [apply IHl|]. apply Forall_app. split; [apply IHl|]. constructor; apply IHr.
Qed.

Lemma A_all : forall e, A_stmt e.
Proof.
  intros e arg Hc Hb. pose proof (proj1 (spine_unary e)) as H.
  destruct e; try discriminate Hb; exact (H arg Hc Hb).
Qed.

(* ParseExpr reads a printed canonical expression back, whatever may follow it *)
Theorem pe_ok : forall e f rest, CANON false e = true -> (cost e + 2 <= f)%nat -> after_expr rest = true ->
  PE f (PT e ++ rest) = Some (e, skip_ws rest).
Proof. intros e f rest. apply pe_spine, spine_unary. Qed.

(* the bound on the size plays no part: A_all, pe_ok *)
Lemma main : forall n, (forall e, (size e <= n)%nat -> A_stmt e) /\ (forall e, (size e <= n)%nat -> B_stmt e).
Proof.
  intro n. split; intros e _; [apply A_all|].
  intros Hc f rest Hf Hstop. destruct (stopb_after rest Hstop) as [Hr Hs].
  rewrite (pe_ok e f rest Hc Hf Hr), Hs. reflexivity.
Qed.

Lemma len_pos : forall e, (1 <= length (PT e))%nat.
Proof.
  clear prec isop kws. (* or lia makes the lemma depend on the tables *)
  destruct e as [name t|z|n0|neg ip fp|k|s|b|z|src|w|e'|name args|o l r]; cbn [print_toks];
    try (cbn [length]; lia).
  - destruct (z <? 0)%Z; cbn [length]; lia.
  - unfold number_toks. rewrite app_length. cbn [length]. lia.
  - destruct (k =? 0); [cbn [length]; lia|]. destruct (k =? 1); cbn [length]; lia.
  - destruct (format_duration_shape dr z) as [neg [q [p [_ [E _]]]]]. rewrite (duration_toks_digits _ _ _ _ _ E).
    rewrite app_length. cbn [length]. lia.
  - destruct w; cbn [length]; lia.
  - rewrite app_length. cbn [length]. lia.
Qed.

Lemma sep_cost : forall more, Forall (fun a => (cost a <= 4 * length (PT a))%nat) more ->
  (argcost more <= 4 * length (sep_items more))%nat.
Proof.
  induction 1 as [|a more Ha _ IH]; [cbn; lia|].
  cbn [argcost fold_right sep_items flat_map]. fold (argcost more). fold (sep_items more).
  rewrite app_length. cbn [length]. lia.
Qed.

Lemma cost_le : forall e, (cost e <= 4 * length (PT e))%nat.
Proof.
  clear prec isop kws.
  induction e as [name t|z|n|neg ip fp|k|s|b|z|src|w|e' IHe|name args IHargs|o l r IHl IHr] using expr_ind_args;
    try (match goal with |- (cost ?a <= _)%nat => pose proof (len_pos a) end; cbn [cost]; lia).
  - cbn [print_toks cost length]. rewrite app_length. cbn [length]. lia.
  - rewrite print_call. cbn [cost]. fold (argcost args). cbn [length]. rewrite app_length. cbn [length].
    destruct IHargs as [|a more Ha Hmore]; [cbn; lia|].
    rewrite pa_cons, app_length. cbn [argcost fold_right]. fold (argcost more). pose proof (sep_cost more Hmore). lia.
  - cbn [print_toks cost]. rewrite app_length. cbn [length]. lia.
Qed.

Theorem print_parse : forall e, CANON false e = true -> parse prec isop (PT e) = Some e.
Proof.
  intros e Hc. unfold parse, parse_fuel. pose proof (cost_le e) as Hcost.
  rewrite <- (app_nil_r (PT e)) at 2.
  rewrite (pe_ok e (4 * length (PT e) + 8)%nat []); [reflexivity | exact Hc | lia | reflexivity].
Qed.

End Parser.
