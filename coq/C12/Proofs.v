(* C12 lemmas: decimal digits, number and duration literals, induction on expressions, what parseUnaryExpr reads back of
   a printed atom, quoting. *)
From Coq Require Import ZArith NArith List Bool Lia ZifyBool ZifyNat ZifyN.
From OG Require Import C12.Model.
Import ListNotations.
Open Scope N_scope.

Lemma str_eqb_eq : forall a b, str_eqb a b = true -> a = b.
Proof.
  induction a as [|x a IH]; destruct b as [|y b]; cbn [str_eqb]; intro H; try discriminate; [reflexivity|].
  apply andb_prop in H. destruct H as [H1 H2]. apply N.eqb_eq in H1. subst y. f_equal. apply IH. exact H2.
Qed.

Lemma take_while_app : forall p s acc rest, forallb p s = true -> hd_sat p rest = false ->
  take_while p (s ++ rest) acc = (rev acc ++ s, rest).
Proof.
  induction s as [|c s IH]; intros acc rest H Hr; cbn [app].
  - rewrite app_nil_r. destruct rest as [|c rest]; cbn [take_while]; [reflexivity|]. cbn [hd_sat] in Hr. rewrite Hr. reflexivity.
  - cbn [forallb] in H. apply andb_prop in H. destruct H as [Hc Hs]. cbn [take_while]. rewrite Hc.
    rewrite IH by assumption. cbn [rev]. rewrite <- app_assoc. reflexivity.
Qed.

Lemma sep_cons : forall (A B : Type) (f : A -> list B) (sep : list B) (go : list A -> list B),
  (forall a l, go (a :: l) = match l with [] => f a | _ => f a ++ sep ++ go l end) ->
  forall l a, go (a :: l) = f a ++ flat_map (fun x => sep ++ f x) l.
Proof.
  intros A B f sep go Hgo. induction l as [|b l IH]; intro a; rewrite Hgo.
  - cbn [flat_map]. rewrite app_nil_r. reflexivity.
  - rewrite IH. cbn [flat_map]. rewrite <- app_assoc. reflexivity.
Qed.

Lemma digits_fuel_app : forall f n acc, digits_fuel f n acc = digits_fuel f n [] ++ acc.
Proof.
  induction f as [|f IH]; intros n acc; cbn [digits_fuel].
  - reflexivity.
  - destruct (n <? 10).
    + reflexivity.
    + rewrite IH. rewrite (IH _ [_]). rewrite <- app_assoc. reflexivity.
Qed.

Lemma digits_val_acc_app : forall s t a,
  digits_val_acc a (s ++ t) = match digits_val_acc a s with Some x => digits_val_acc x t | None => None end.
Proof.
  induction s as [|c s IH]; intros t a; cbn [app digits_val_acc].
  - reflexivity.
  - destruct (is_digit c); [apply IH | reflexivity].
Qed.

Lemma is_digit_48 : forall d, d < 10 -> is_digit (48 + d) = true.
Proof. intros d H. unfold is_digit. lia. Qed.

Lemma is_digit_range : forall c, is_digit c = true -> 48 <= c /\ c <= 57.
Proof. intros c H. unfold is_digit in H. lia. Qed.

Lemma digits_fuel_val : forall f n, n < 2 ^ N.of_nat f -> digits_val_acc 0 (digits_fuel f n []) = Some n.
Proof.
  induction f as [|f IH]; intros n Hn.
  - cbn in Hn. cbn. f_equal. lia.
  - cbn [digits_fuel]. destruct (n <? 10) eqn:E.
    + cbn [digits_val_acc]. rewrite is_digit_48 by (apply N.mod_lt; lia).
      f_equal. rewrite N.mod_small by lia. lia.
    + rewrite digits_fuel_app, digits_val_acc_app.
      assert (Hp : 2 ^ N.of_nat (S f) = 2 * 2 ^ N.of_nat f).
      { rewrite Nat2N.inj_succ, N.pow_succ_r'. reflexivity. }
      rewrite IH.
      * cbn [digits_val_acc]. rewrite is_digit_48 by (apply N.mod_lt; lia).
        f_equal. pose proof (N.div_mod n 10). lia.
      * rewrite Hp in Hn. apply N.div_lt_upper_bound; lia.
Qed.

Lemma digits_nonempty : forall n, digits n <> [].
Proof.
  intro n. unfold digits. cbn [digits_fuel]. destruct (n <? 10).
  - discriminate.
  - rewrite digits_fuel_app. intro H. apply app_eq_nil in H. destruct H as [_ H]. discriminate.
Qed.

Lemma digits_val_acc_digits : forall n, digits_val_acc 0 (digits n) = Some n.
Proof.
  intro n. unfold digits. apply digits_fuel_val.
  rewrite Nat2N.inj_succ, N2Nat.id, N.pow_succ_r'.
  pose proof (N.size_gt n). lia.
Qed.

Theorem digits_roundtrip : forall n, digits_val (digits n) = Some n.
Proof.
  intro n. unfold digits_val. pose proof (digits_nonempty n). destruct (digits n) eqn:E; [congruence|].
  rewrite <- E. apply digits_val_acc_digits.
Qed.

Lemma digits_fuel_all : forall f n acc, forallb is_digit acc = true -> forallb is_digit (digits_fuel f n acc) = true.
Proof.
  induction f as [|f IH]; intros n acc H; cbn [digits_fuel]; [exact H|].
  assert (H1 : forallb is_digit ((48 + n mod 10) :: acc) = true).
  { cbn [forallb]. rewrite H, is_digit_48 by (apply N.mod_lt; lia). reflexivity. }
  destruct (n <? 10); [exact H1 | apply IH; exact H1].
Qed.
Lemma digits_all : forall n, forallb is_digit (digits n) = true.
Proof. intro n. apply digits_fuel_all. reflexivity. Qed.

Lemma int_of_text_small : forall n, n <= max_int64 -> int_of_text (digits n) = Some (EInt (Z.of_N n)).
Proof. intros n H. unfold int_of_text. rewrite digits_roundtrip. apply N.leb_le in H. rewrite H. reflexivity. Qed.

Lemma int_of_text_big : forall n, max_int64 < n -> n <= max_uint64 -> int_of_text (digits n) = Some (EUnsigned n).
Proof.
  intros n H1 H2. unfold int_of_text. rewrite digits_roundtrip.
  apply N.leb_gt in H1. rewrite H1. apply N.leb_le in H2. rewrite H2. reflexivity.
Qed.

Lemma digits_hd : forall n t, hd_sat is_digit (digits n ++ t) = true.
Proof.
  intros n t. pose proof (digits_nonempty n) as Hne. pose proof (digits_all n) as Ha.
  destruct (digits n) as [|c d]; [congruence|]. cbn [forallb] in Ha. apply andb_prop in Ha. apply Ha.
Qed.

Lemma expr_ind_args : forall P : expr -> Prop,
  (forall name t, P (EVar name t)) -> (forall z, P (EInt z)) -> (forall n, P (EUnsigned n)) ->
  (forall neg ip fp, P (ENum neg ip fp)) -> (forall k, P (ESpecial k)) -> (forall s, P (EStr s)) ->
  (forall b, P (EBool b)) -> (forall z, P (EDur z)) -> (forall src, P (ERegex src)) -> (forall w, P (EWild w)) ->
  (forall e, P e -> P (EParen e)) -> (forall name args, Forall P args -> P (ECall name args)) ->
  (forall o l r, P l -> P r -> P (EBin o l r)) -> forall e, P e.
Proof.
  intros P HVar HInt HUns HNum HSpec HStr HBool HDur HRe HWild HParen HCall HBin. fix IH 1.
  intros [name t|z|n|neg ip fp|k|s|b|z|src|w|e'|name args|o l r];
    [apply HVar | apply HInt | apply HUns | apply HNum | apply HSpec | apply HStr | apply HBool | apply HDur | apply HRe
    | apply HWild | apply HParen, IH | apply HCall | apply HBin; apply IH].
  induction args as [|a args IHa]; constructor; [apply IH | exact IHa].
Qed.

Lemma split_dot_digits : forall s acc t, forallb is_digit s = true -> split_dot (s ++ 46 :: t) acc = (rev acc ++ s, Some t).
Proof.
  induction s as [|c s IH]; intros acc t H; cbn [app split_dot].
  - cbn. rewrite app_nil_r. reflexivity.
  - cbn [forallb] in H. apply andb_prop in H. destruct H as [Hc Hs].
    assert (E : (c =? 46) = false) by (apply is_digit_range in Hc; lia).
    rewrite E, IH by exact Hs. cbn [rev]. rewrite <- app_assoc. reflexivity.
Qed.

Lemma split_dot_nodot : forall s acc, forallb is_digit s = true -> split_dot s acc = (rev acc ++ s, None).
Proof.
  induction s as [|c s IH]; intros acc H; cbn [split_dot].
  - rewrite app_nil_r. reflexivity.
  - cbn [forallb] in H. apply andb_prop in H. destruct H as [Hc Hs].
    assert (E : (c =? 46) = false) by (apply is_digit_range in Hc; lia).
    rewrite E, IH by exact Hs. cbn [rev]. rewrite <- app_assoc. reflexivity.
Qed.

Lemma last_is_app : forall c l x, last_is c (l ++ [x]) = (x =? c).
Proof.
  induction l as [|a l IH]; intro x; [reflexivity|].
  cbn [app last_is]. destruct (l ++ [x]) eqn:E.
  - destruct l; discriminate.
  - rewrite <- E. apply IH.
Qed.

Lemma strip_trailing_zeros_id : forall fp, last_is 0 fp = false -> strip_trailing_zeros fp = fp.
Proof.
  intros fp H. unfold strip_trailing_zeros. destruct fp as [|a l] using rev_ind; [reflexivity|].
  rewrite last_is_app in H. rewrite rev_app_distr. cbn [rev app strip_trailing_zeros_rev].
  rewrite H. cbn [rev]. rewrite rev_involutive. reflexivity.
Qed.

Lemma frac_text_digits : forall fp, forallb (fun d => d <? 10) fp = true -> forallb is_digit (frac_text fp) = true.
Proof.
  induction fp as [|d fp IH]; intro H; [reflexivity|]. cbn [forallb frac_text map] in *. apply andb_prop in H. destruct H as [H1 H2].
  rewrite is_digit_48 by lia. apply IH. exact H2.
Qed.

Lemma digit_vals_frac : forall fp, forallb (fun d => d <? 10) fp = true -> digit_vals (frac_text fp) = Some fp.
Proof.
  intros fp H. unfold digit_vals. rewrite frac_text_digits by exact H. f_equal.
  unfold frac_text. rewrite map_map. rewrite <- (map_id fp) at 2. apply map_ext. intro a. lia.
Qed.

(* the integer part of a NUMBER token, as parse_number reads it *)
Lemma ipart_digits : forall ip, match digits ip with [] => Some 0 | _ => digits_val (digits ip) end = Some ip.
Proof.
  intro ip. pose proof (digits_nonempty ip) as Hn. pose proof (digits_roundtrip ip) as Hr.
  destruct (digits ip); [congruence | exact Hr].
Qed.

Lemma parse_number_print : forall ip fp, frac_ok fp = true ->
  parse_number (digits ip ++ match fp with [] => [46; 48] | _ => 46 :: frac_text fp end) = Some (ip, fp).
Proof.
  intros ip fp H. apply andb_prop in H. destruct H as [H1 H2]. apply negb_true_iff in H2. unfold parse_number.
  destruct fp as [|d fp']; rewrite split_dot_digits by apply digits_all; cbn [rev app]; rewrite ipart_digits.
  - reflexivity.
  - rewrite digit_vals_frac by exact H1. rewrite strip_trailing_zeros_id by exact H2. reflexivity.
Qed.

Lemma take_digits_while : forall s acc, take_digits s acc = take_while is_digit s acc.
Proof. induction s as [|c s IH]; intro acc; cbn [take_digits take_while]; [reflexivity|]. rewrite IH. reflexivity. Qed.

(* the units FormatDuration prints, with their suffixes *)
Definition units : list (Z * str) :=
  [(ns_w, [119]); (ns_d, [100]); (ns_h, [104]); (ns_m, [109]); (ns_s, [115]); (ns_ms, [109; 115]); (1%Z, [110; 115]); (ns_us, [117])].

(* what the scanner and ParseDuration need of a unit: the suffix reads as a duration word, and a digit group followed
   by it alone adds that many units *)
Definition unit_ok (p : Z * str) : Prop :=
  (1 <= fst p)%Z /\ hd_sat is_dur_first (snd p) = true /\ forallb is_dur_char (snd p) = true /\
  forall f s ds n acc, s <> [] -> take_digits s [] = (ds, snd p) -> digits_val ds = Some n -> n <= max_int64 ->
    parse_duration_fuel (S f) s acc = parse_duration_fuel f [] (acc + Z.of_N n * fst p)%Z.

Lemma units_ok : Forall unit_ok units.
Proof.
  unfold units.
  repeat (apply Forall_cons;
    [split; [apply Z.leb_le; reflexivity|]; split; [reflexivity|]; split; [reflexivity|];
     intros f s ds n acc Hs Ht Hv Hn; destruct s as [|c s']; [congruence|];
     cbn [parse_duration_fuel]; rewrite Ht; cbv beta iota; rewrite Hv; cbn [snd fst];
     apply N.ltb_ge in Hn; rewrite Hn; cbn [N.eqb Pos.eqb orb]; rewrite ?Z.mul_1_r; reflexivity|]).
  apply Forall_nil.
Qed.

Lemma parse_duration_len2 : forall s, (2 <= length s)%nat ->
  parse_duration s = match parse_duration_fuel (S (length s)) s 0%Z with
                     | Some z => if (z <=? Z.of_N max_int64)%Z then Some z else None
                     | None => None end.
Proof. intros s H. destruct s as [|a [|b s]]; cbn [length] in H; try lia. reflexivity. Qed.

Lemma parse_duration_unit : forall q p, In p units -> (Z.of_N q * fst p <= Z.of_N max_int64)%Z ->
  parse_duration (digits q ++ snd p) = Some (Z.of_N q * fst p)%Z.
Proof.
  intros q p Hin Hb. destruct (proj1 (Forall_forall _ _) units_ok p Hin) as [Hu [Hsfx [_ Hrow]]].
  pose proof (digits_nonempty q) as Hne.
  assert (Hq : q <= max_int64).
  { pose proof (Z.mul_le_mono_nonneg_l 1 (fst p) (Z.of_N q) (N2Z.is_nonneg q) Hu). lia. }
  assert (Hlen : (2 <= length (digits q ++ snd p))%nat).
  { rewrite app_length. destruct (digits q); [congruence|]. destruct (snd p); [discriminate|]. cbn [length]. lia. }
  rewrite parse_duration_len2 by exact Hlen.
  rewrite (Hrow _ _ (digits q) q).
  - destruct (length (digits q ++ snd p)); [lia|]. cbn [parse_duration_fuel]. rewrite Z.add_0_l.
    apply Z.leb_le in Hb. rewrite Hb. reflexivity.
  - destruct (digits q); [congruence | discriminate].
  - rewrite take_digits_while. apply (take_while_app _ _ []); [apply digits_all|].
    destruct (snd p) as [|x w]; [discriminate|]. cbn [hd_sat] in *. unfold is_dur_first, is_letter, is_digit in *. lia.
  - apply digits_roundtrip.
  - exact Hq.
Qed.

(* one step of FormatDuration's cascade: the first unit that divides z is taken *)
Lemma unit_cascade : forall (P : Z * str -> Prop) z u s rest,
  (Z.rem z u = 0%Z -> P (u, s)) -> P rest -> P (if (Z.rem z u =? 0)%Z then (u, s) else rest).
Proof. intros P z u s rest H1 H2. destruct (Z.eqb_spec (Z.rem z u) 0); [apply H1; assumption | exact H2]. Qed.

Lemma dur_unit_spec : forall dr z,
  In (dur_unit dr z) units /\ (dr = true \/ Z.rem z ns_us = 0%Z -> Z.rem z (fst (dur_unit dr z)) = 0%Z).
Proof.
  intros dr z.
  set (P := fun p : Z * str => In p units /\ (dr = true \/ Z.rem z ns_us = 0%Z -> Z.rem z (fst p) = 0%Z)).
  change (P (dur_unit dr z)). unfold dur_unit.
  repeat (apply unit_cascade; [intro E; split; [unfold units; cbn [In]; tauto | intros _; exact E]|]).
  subst P. cbv beta. unfold units. cbn [In]. destruct (Z.eqb_spec (Z.rem z ns_us) 0) as [E|E].
  - rewrite andb_false_r. split; [tauto | intros _; exact E].
  - destruct dr; cbn [andb negb fst]; (split; [tauto|]); intros [H|H]; try discriminate; try contradiction. apply Z.rem_1_r.
Qed.

(* the minus sign of a negative duration is a token of its own *)
Lemma not45_match : forall (c : N) (t : str) (A : Type) (x : str -> A) (y : A), c <> 45 ->
  match c :: t with 45 :: t' => x t' | _ => y end = y.
Proof.
  intros c t A x y H. destruct c as [|p]; [reflexivity|].
  repeat (destruct p as [p|p|]; try reflexivity). contradiction H; reflexivity.
Qed.

Lemma format_duration_shape : forall dr z, exists (neg : bool) q p,
  In p units /\
  format_duration_gen dr z = (if neg then [45] else []) ++ digits q ++ snd p /\
  (dr = true \/ Z.rem z ns_us = 0%Z -> z = if neg then (- (Z.of_N q * fst p))%Z else (Z.of_N q * fst p)%Z).
Proof.
  intros dr z. unfold format_duration_gen. destruct (Z.eqb_spec z 0) as [E0|E0].
  - exists false, 0, (ns_s, [115]). split; [cbn; tauto|]. split; [reflexivity | intros _; subst z; reflexivity].
  - destruct (dur_unit_spec dr z) as [Hin Hrem]. destruct (dur_unit dr z) as [u sfx]. cbn [fst] in Hrem.
    pose proof (Z.quot_rem' z u) as Hqr. unfold zdigits. destruct (Z.ltb_spec (Z.quot z u) 0) as [Eq|Eq].
    + exists true, (Z.to_N (- Z.quot z u)), (u, sfx). split; [exact Hin|]. split; [reflexivity|].
      intro Hd. cbn [fst]. rewrite Z2N.id by (clear - Eq; lia). rewrite Hqr at 1. rewrite (Hrem Hd). ring.
    + exists false, (Z.to_N (Z.quot z u)), (u, sfx). split; [exact Hin|]. split; [reflexivity|].
      intro Hd. cbn [fst]. rewrite Z2N.id by exact Eq. rewrite Hqr at 1. rewrite (Hrem Hd). ring.
Qed.

Lemma duration_toks_digits : forall dr z (neg : bool) q sfx,
  format_duration_gen dr z = (if neg then [45] else []) ++ digits q ++ sfx ->
  duration_toks dr z = (if neg then [TOp OSub] else []) ++ [TDuration (digits q ++ sfx)].
Proof.
  intros dr z neg q sfx E. unfold duration_toks. rewrite E. destruct neg; [reflexivity|]. cbn [app].
  pose proof (digits_hd q sfx) as Hd. destruct (digits q ++ sfx) as [|c t]; [discriminate|].
  apply (not45_match c t _ (fun t' => [TOp OSub; TDuration t'])). cbn [hd_sat] in Hd. unfold is_digit in Hd. lia.
Qed.

(* what may follow an atom in printed text: end, white space (before an operator), ) or , *)
Definition follow (rest : list token) : bool :=
  match rest with [] | TWs :: _ | TRParen :: _ | TComma :: _ => true | _ => false end.

Section Parser.
Variable prec : op -> N.
Variable isop : op -> bool.
Variable kws : list (str * N).
Variables nr dr : bool.

Notation PU := (parse_unary prec isop).
Notation PE := (parse_expr prec isop).
Notation PL := (parse_loop prec isop).
Notation PC := (parse_call prec isop).
Notation PA := (parse_args prec isop).
Notation PT := (print_toks nr dr).
Notation CANON := (canon prec isop kws nr dr).

(* unfolding equations of parse_unary by the first token (used instead of cbn, which exposes the whole mutual fixpoint) *)
Lemma PU_ws : forall f t, PU f (TWs :: t) = PU f t.
Proof. intros [|f] t; reflexivity. Qed.
Lemma PU_ident : forall f s r,
  PU (S f) (TIdent s :: r) =
  if str_eqb (lower s) str_inf then Some (ESpecial 0, r)
  else if str_eqb (lower s) str_nan then Some (ESpecial 2, r)
  else match r with TLParen :: r' => PC f (lower s) r' | _ => parse_varref s r end.
Proof. reflexivity. Qed.
Lemma PU_integer : forall f s r, PU (S f) (TInteger s :: r) = match int_of_text s with Some e => Some (e, r) | None => None end.
Proof. reflexivity. Qed.
Lemma PU_number : forall f s r,
  PU (S f) (TNumber s :: r) = match parse_number s with Some (ip, fp) => Some (ENum false ip fp, r) | None => None end.
Proof. reflexivity. Qed.
Lemma PU_duration : forall f s r, PU (S f) (TDuration s :: r) = match parse_duration s with Some z => Some (EDur z, r) | None => None end.
Proof. reflexivity. Qed.
Lemma PU_minus : forall f t r, match t with TNumber _ | TInteger _ | TDuration _ => True | _ => False end ->
  PU (S f) (TOp OSub :: t :: r) =
  match PU f (t :: r) with
  | Some (lit, r') => match apply_sign true lit with Some e => Some (e, r') | None => None end
  | None => None
  end.
Proof. intros f t r H. destruct t; try contradiction; reflexivity. Qed.

Lemma duration_parse : forall z f rest,
  ((- Z.of_N max_int64 <=? z) && (z <=? Z.of_N max_int64))%Z && (dr || (Z.rem z ns_us =? 0)%Z) = true ->
  PU (S (S f)) (duration_toks dr z ++ rest) = Some (EDur z, rest).
Proof.
  intros z f rest H. apply andb_prop in H. destruct H as [Hr Hd]. apply andb_prop in Hr. destruct Hr as [Hlo Hhi].
  apply Z.leb_le in Hlo. apply Z.leb_le in Hhi.
  assert (Hd' : dr = true \/ Z.rem z ns_us = 0%Z).
  { apply orb_prop in Hd. destruct Hd as [Hd|Hd]; [left; exact Hd | right; apply Z.eqb_eq; exact Hd]. }
  destruct (format_duration_shape dr z) as [neg [q [p [Hin [Hfmt Hz]]]]]. specialize (Hz Hd').
  rewrite (duration_toks_digits dr z neg q (snd p) Hfmt).
  assert (Hp : parse_duration (digits q ++ snd p) = Some (Z.of_N q * fst p)%Z).
  { apply parse_duration_unit; [exact Hin | destruct neg; lia]. }
  destruct neg; cbn [app].
  - rewrite PU_minus by exact I. rewrite PU_duration, Hp. cbn [apply_sign]. rewrite Hz. reflexivity.
  - rewrite PU_duration, Hp, Hz. reflexivity.
Qed.

Lemma name_ok_spec : forall s, name_ok s = true -> str_eqb (lower s) str_inf = false /\ str_eqb (lower s) str_nan = false.
Proof.
  intros s H. unfold name_ok in H. apply andb_prop in H. destruct H as [H1 H2].
  apply negb_true_iff in H1. apply negb_true_iff in H2. split; assumption.
Qed.

(* a canonical number literal is printed with a fraction, so the scanner reads a NUMBER and not an INTEGER *)
Lemma number_canon_print : forall arg neg ip fp, CANON arg (ENum neg ip fp) = true ->
  number_toks nr neg ip fp =
    (if neg then [TOp OSub] else []) ++ [TNumber (digits ip ++ match fp with [] => [46; 48] | _ => 46 :: frac_text fp end)] /\
  number_text_gen nr neg ip fp =
    (if neg then [45] else []) ++ digits ip ++ match fp with [] => [46; 48] | _ => 46 :: frac_text fp end.
Proof.
  intros arg neg ip fp H. cbn [canon] in H. apply andb_prop in H. destruct H as [_ H]. unfold number_toks, number_text_gen.
  destruct fp as [|d fp']; [|split; reflexivity].
  cbn [negb orb] in H. rewrite orb_false_r in H. rewrite H. split; reflexivity.
Qed.

(* the expressions parseUnaryExpr reads from their first token alone *)
Definition is_atom (e : expr) : bool := match e with EParen _ | ECall _ _ | EBin _ _ _ => false | _ => true end.

Lemma atom_parse : forall e arg f rest, is_atom e = true -> CANON arg e = true -> follow rest = true ->
  PU (S (S f)) (PT e ++ rest) = Some (e, rest).
Proof.
  intros e arg f rest Ha Hc Hf. destruct e as [name t|z|n|neg ip fp|k|s|b|z|src|w|e'|name args|o l r]; try discriminate Ha;
    cbn [canon] in Hc; cbn [print_toks].
  - apply andb_prop in Hc. destruct Hc as [Hc Ht]. apply andb_prop in Hc. destruct Hc as [_ Hn].
    apply name_ok_spec in Hn. destruct Hn as [Hi Hn].
    cbn [app]. rewrite PU_ident, Hi, Hn.
    destruct t; try discriminate Ht; try reflexivity.
    destruct rest as [|tk rest']; [reflexivity|]. destruct tk; try discriminate Hf; reflexivity.
  - apply andb_prop in Hc. destruct Hc as [Hlo Hhi]. apply Z.leb_le in Hlo. apply Z.leb_le in Hhi.
    destruct (Z.ltb_spec z 0) as [E|E]; cbn [app].
    + rewrite PU_minus by exact I. rewrite PU_integer.
      destruct (N.eq_dec (Z.to_N (- z)) two63) as [E2|E2].
      * rewrite E2. rewrite int_of_text_big by (unfold max_int64, max_uint64, two63; lia).
        cbn [apply_sign]. rewrite N.eqb_refl. do 3 f_equal. unfold two63 in *. lia.
      * rewrite int_of_text_small by (unfold max_int64, two63 in *; lia).
        cbn [apply_sign]. do 3 f_equal. rewrite Z2N.id by lia. lia.
    + rewrite PU_integer, int_of_text_small by (unfold max_int64 in *; lia). rewrite Z2N.id by lia. reflexivity.
  - apply andb_prop in Hc. destruct Hc as [Hlo Hhi]. apply N.ltb_lt in Hlo. apply N.leb_le in Hhi.
    cbn [app]. rewrite PU_integer, int_of_text_big by assumption. reflexivity.
  - rewrite (proj1 (number_canon_print arg _ _ _ Hc)). apply andb_prop in Hc. destruct Hc as [Hfr _].
    destruct neg; cbn [app]; [rewrite PU_minus by exact I|]; rewrite PU_number, (parse_number_print ip fp Hfr); reflexivity.
  - apply N.ltb_lt in Hc. assert (Hk : k = 0 \/ k = 1 \/ k = 2) by lia. destruct Hk as [Hk|[Hk|Hk]]; subst k; reflexivity.
  - reflexivity.
  - destruct b; reflexivity.
  - apply duration_parse. exact Hc.
  - reflexivity.
  - destruct w; try reflexivity;
      (destruct rest as [|tk rest']; [reflexivity|]; destruct tk; try discriminate Hf; reflexivity).
Qed.

End Parser.

(* QuoteString / QuoteIdent against ScanString *)
Lemma unquote_escape : forall q s acc rest, (q = 34 \/ q = 39) -> wf_str s = true ->
  unquote q (escape q s ++ q :: rest) acc = Some (rev acc ++ s, rest).
Proof.
  intros q s. induction s as [|c s IH]; intros acc rest Hq Hwf.
  - cbn [escape app unquote]. rewrite N.eqb_refl, app_nil_r. reflexivity.
  - cbn [wf_str forallb] in Hwf. apply andb_prop in Hwf. destruct Hwf as [Hc Hs]. unfold wf_char in Hc.
    assert (IH' : forall x, unquote q (escape q s ++ q :: rest) (x :: acc) = Some (rev acc ++ x :: s, rest)).
    { intro x. rewrite IH by assumption. cbn [rev]. rewrite <- app_assoc. reflexivity. }
    assert (E : (92 =? q) = false) by (destruct Hq; subst q; reflexivity).
    cbn [escape]. destruct (c =? 10) eqn:E10; [|destruct (c =? 92) eqn:E92; [|destruct (c =? q) eqn:Eq]].
    + apply N.eqb_eq in E10. subst c. cbn [app unquote]. rewrite E. cbn. apply IH'.
    + apply N.eqb_eq in E92. subst c. cbn [app unquote]. rewrite E. cbn. apply IH'.
    + apply N.eqb_eq in Eq. subst c. cbn [app unquote]. rewrite E. destruct Hq; subst q; cbn; apply IH'.
    + cbn [app unquote]. rewrite Eq, E10, E92.
      assert (E' : ((c =? 13) || (c =? 0)) = false) by lia. cbn [orb]. rewrite E'. apply IH'.
Qed.

Theorem quote_string_roundtrip : forall s rest, wf_str s = true ->
  match quote_string s ++ rest with
  | q :: body => q = 39 /\ unquote 39 body [] = Some (s, rest)
  | [] => False
  end.
Proof.
  intros s rest H. unfold quote_string. cbn [app]. split; [reflexivity|].
  rewrite <- app_assoc. cbn [app]. rewrite unquote_escape by (auto). reflexivity.
Qed.

(* a quoted identifier scans back to the identifier; one printed without quotes is a bare word and not a keyword (that it
   is then printed verbatim is ProofsLex.quote_ident_cases) *)
Theorem quote_ident_roundtrip : forall kws s rest, wf_str s = true ->
  if ident_needs_quotes kws s
  then match quote_ident kws s ++ rest with
       | q :: body => q = 34 /\ unquote 34 body [] = Some (s, rest)
       | [] => False
       end
  else bare_ok s = true /\ kw_lookup kws (lower s) = None.
Proof.
  intros kws s rest H. unfold quote_ident. destruct (ident_needs_quotes kws s) eqn:E.
  - cbn [app]. split; [reflexivity|]. rewrite <- app_assoc. cbn [app]. rewrite unquote_escape by (auto). reflexivity.
  - unfold ident_needs_quotes in E. destruct (kw_lookup kws (lower s)); [discriminate|].
    apply negb_false_iff in E. split; [exact E | reflexivity].
Qed.
