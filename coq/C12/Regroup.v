(* C12: the REPAIRED expression printer (BinaryExpr prints an operand in parentheses when a reader would group it
   differently) as a tree transformation `fixp` followed by the plain printer, and the theorem that lifts the print/parse
   round trip from canonically parenthesised trees to ALL trees whose atoms are printable: the text of `fixp e` parses back
   to `fixp e`, which is e up to ParenExpr nodes - same operators, same grouping.
   Only a right-nested chain of one logical connective (a AND (b AND c) without a ParenExpr; no parser builds it, the
   PromQL transpiler does) is printed without parentheses and comes back left-nested: excluded by the `right_chain` test of
   `canon_np`. *)
From Coq Require Import ZArith NArith List Bool Lia ZifyBool ZifyNat ZifyN.
From OG Require Import C12.Model C12.Proofs C12.ProofsParse.
Import ListNotations.
Open Scope N_scope.

Definition assoc_op (o : op) : bool := match o with OAnd | OOr => true | _ => false end.

(* ParenExpr nodes removed: what an expression means *)
Fixpoint strip (e : expr) : expr :=
  match e with
  | EParen e' => strip e'
  | ECall n args => ECall n (map strip args)
  | EBin o l r => EBin o (strip l) (strip r)
  | _ => e
  end.

Section Regroup.
Variable prec : op -> N.
Variable isop : op -> bool.
Variable kws : list (str * N).
Variables nr dr : bool.
Notation CANON := (canon prec isop kws nr dr).
Notation PT := (print_toks nr dr).

Definition wrap_left (o : op) (c : expr) : bool :=
  match c with EBin oc _ _ => prec oc <? prec o | _ => false end.
Definition right_chain (o : op) (c : expr) : bool :=
  match c with EBin oc _ _ => op_eqb oc o && assoc_op o | _ => false end.
Definition wrap_right (o : op) (c : expr) : bool :=
  match c with
  | EBin oc _ _ => (prec oc <? prec o) || ((prec oc =? prec o) && negb (right_chain o c))
  | _ => false
  end.

(* the parentheses influxql.ShipString puts around an operand of a BinaryExpr, as a tree transformation *)
Fixpoint fixp (e : expr) : expr :=
  match e with
  | EParen e' => EParen (fixp e')
  | ECall n args => ECall n (map fixp args)
  | EBin o l r =>
      EBin o (if wrap_left o l then EParen (fixp l) else fixp l) (if wrap_right o r then EParen (fixp r) else fixp r)
  | _ => e
  end.

(* canonical form WITHOUT the parenthesisation discipline: every tree a parser builds whose atoms are printable *)
Fixpoint canon_np (arg : bool) (e : expr) : bool :=
  match e with
  | EParen e' => canon_np false e'
  | ECall name args => call_name_ok kws name && forallb (canon_np true) args
  | EBin o l r =>
      isop o && canon_np false l && (if op_eqb o ODiv then div_left_ok l else true) &&
      (if is_regex_op o then is_regex r && canon_np true r else canon_np false r) &&
      negb (right_chain o r)
  | _ => CANON arg e
  end.

Lemma strip_fixp : forall e, strip (fixp e) = strip e.
Proof.
  induction e as [name t|z|n|neg ip fp|k|s|b|z|src|w|e' IHe|name args IHargs|o l r IHl IHr] using expr_ind_args;
    try reflexivity; cbn [fixp strip].
  - exact IHe.
  - f_equal. rewrite map_map. apply map_ext_in, Forall_forall, IHargs.
  - destruct (wrap_left o l), (wrap_right o r); cbn [strip]; rewrite IHl, IHr; reflexivity.
Qed.

Lemma fixp_top : forall e, top_prec prec (fixp e) = top_prec prec e.
Proof. destruct e; reflexivity. Qed.
Lemma fixp_is_regex : forall e, is_regex (fixp e) = is_regex e.
Proof. destruct e; reflexivity. Qed.

Lemma div_left_fixp : forall e, div_left_ok e = true -> div_left_ok (fixp e) = true.
Proof.
  induction e as [name t|z|n|neg ip fp|k|s|b|z|src|w|e' IHe|name args|o l IHl r IHr]; intro H; try exact H; try reflexivity.
  cbn [fixp div_left_ok] in *. destruct (wrap_right o r); [reflexivity | apply IHr; exact H].
Qed.

Lemma canon_np_atom_arg : forall e, is_regex e = false -> canon_np true e = canon_np false e.
Proof. intros e H. destruct e; try reflexivity. discriminate. Qed.

(* the parentheses fixp adds are exactly those the parenthesisation discipline of canon asks for *)
Lemma fixp_canon : forall e arg, canon_np arg e = true -> CANON arg (fixp e) = true.
Proof.
  induction e as [name t|z|n|neg ip fp|k|s|b|z|src|w|e' IHe|name args IHargs|o l r IHl IHr] using expr_ind_args;
    intros arg Hc; try exact Hc.
  - apply (IHe false), Hc.
  - cbn [fixp canon canon_np] in *. apply andb_prop in Hc. destruct Hc as [Hname Hargs]. rewrite Hname. cbn [andb].
    rewrite forallb_forall in *. rewrite Forall_forall in IHargs.
    intros x Hx. apply in_map_iff in Hx. destruct Hx as [a [Ea Ha]]. subst x. apply (IHargs a Ha), Hargs, Ha.
  - cbn [canon_np] in Hc.
    apply andb_prop in Hc. destruct Hc as [Hc Hchain]. apply andb_prop in Hc. destruct Hc as [Hc Hr].
    apply andb_prop in Hc. destruct Hc as [Hc Hdiv]. apply andb_prop in Hc. destruct Hc as [Hop Hl].
    apply negb_true_iff in Hchain. specialize (IHl false Hl).
    cbn [fixp]. apply canon_bin. split; [exact Hop|].
    split; [destruct (wrap_left o l); exact IHl|].
    split. { destruct (op_eqb o ODiv); [|reflexivity]. destruct (wrap_left o l); [reflexivity | apply div_left_fixp, Hdiv]. }
    split.
    { destruct (is_regex_op o).
      - apply andb_prop in Hr. destruct Hr as [R1 R2]. destruct r; try discriminate R1. exact R2.
      - specialize (IHr false Hr). destruct (wrap_right o r); exact IHr. }
    split.
    + destruct (wrap_left o l) eqn:W; [reflexivity|]. rewrite fixp_top. destruct l; try reflexivity.
      cbn [wrap_left top_prec] in *. rewrite N.leb_antisym, W. reflexivity.
    + destruct (wrap_right o r) eqn:W; [reflexivity|]. rewrite fixp_top. destruct r; try reflexivity.
      cbn [wrap_right right_chain top_prec] in *. rewrite Hchain in W. clear - W. lia.
Qed.

(* the repaired printer's token sequence parses back to the tree with the parentheses it printed *)
Theorem regroup_print_parse : forall e, canon_np false e = true ->
  parse prec isop (PT (fixp e)) = Some (fixp e) /\ strip (fixp e) = strip e.
Proof.
  intros e H. split.
  - apply (print_parse prec isop kws nr dr), fixp_canon, H.
  - apply strip_fixp.
Qed.

End Regroup.
