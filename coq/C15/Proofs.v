(* C15: coverage of the generated tables implies that restore (snapshot v) equals v on the persistent part. *)
From Coq Require Import ZArith List Bool String.
From OG Require Import C15.Model.
Import ListNotations.
Open Scope string_scope.

Section ValInd.
  Variable P : val -> Prop.
  Hypothesis Hz : P VZero.
  Hypothesis Hl : forall z, P (VLeaf z).
  Hypothesis Hr : forall ty fs, Forall (fun p => P (snd p)) fs -> P (VRec ty fs).
  Hypothesis Hs : forall l, Forall P l -> P (VSeq l).
  Fixpoint val_ind' (v : val) : P v :=
    match v with
    | VZero => Hz
    | VLeaf z => Hl z
    | VRec ty fs => Hr ty fs ((fix go (l : list (string * val)) : Forall (fun p => P (snd p)) l :=
                                 match l with [] => Forall_nil _ | p :: r => Forall_cons p (val_ind' (snd p)) (go r) end) fs)
    | VSeq l => Hs l ((fix go (l : list val) : Forall P l :=
                         match l with [] => Forall_nil _ | x :: r => Forall_cons x (val_ind' x) (go r) end) l)
    end.
End ValInd.

Lemma project_project : forall k1 k2 v, project k2 (project k1 v) = project (fun ty f => k1 ty f && k2 ty f) v.
Proof.
  intros k1 k2. induction v using val_ind'; cbn [project]; try reflexivity.
  - f_equal. induction H as [|[f x] r Hx Hr IH]; [reflexivity|]. cbn [snd] in Hx. rewrite IH. f_equal. f_equal.
    destruct (k1 ty f); cbn [andb]; [rewrite Hx; reflexivity|]. destruct (k2 ty f); reflexivity.
  - f_equal. induction H as [|x r Hx Hr IH]; [reflexivity|]. rewrite IH, Hx. reflexivity.
Qed.

Lemma project_ext : forall k1 k2 v, (forall ty f, k1 ty f = k2 ty f) -> project k1 v = project k2 v.
Proof.
  intros k1 k2 v E. induction v using val_ind'; cbn [project]; try reflexivity.
  - f_equal. induction H as [|[f x] r Hx Hr IH]; [reflexivity|]. cbn [snd] in Hx. rewrite IH, E, Hx. reflexivity.
  - f_equal. induction H as [|x r Hx Hr IH]; [reflexivity|]. rewrite IH, Hx. reflexivity.
Qed.

Lemma mem_In : forall x l, mem x l = true <-> In x l.
Proof.
  induction l; cbn; [split; [discriminate | tauto]|]. rewrite orb_true_iff, IHl, String.eqb_eq. split; intros [?|?]; auto.
Qed.

Lemma lookup_In : forall tbl n t, lookup tbl n = Some t -> In t tbl /\ ty_name t = n.
Proof.
  induction tbl; cbn; [discriminate|]. intros n t. destruct (String.eqb (ty_name a) n) eqn:E.
  - intros H. inversion H; subst. apply String.eqb_eq in E. auto.
  - intros H. destruct (IHtbl _ _ H). auto.
Qed.

Lemma coverage_persistent : forall tbl tr gaps, coverage_ok tbl tr gaps = true ->
  forall ty f, persistent tbl tr gaps ty f = true -> cloned tbl ty f && marshalled tbl ty f && unmarshalled tbl ty f = true.
Proof.
  intros tbl tr gaps HC ty f HP. unfold persistent in HP. destruct (lookup tbl ty) as [t|] eqn:El; [|discriminate].
  destruct (lookup_In _ _ _ El) as [Hin En]. subst ty.
  apply andb_true_iff in HP. destruct HP as [HP G]. apply andb_true_iff in HP. destruct HP as [Hf T].
  unfold coverage_ok in HC. rewrite forallb_forall in HC. specialize (HC t Hin). rewrite forallb_forall in HC.
  apply mem_In in Hf. specialize (HC f Hf). unfold covered in HC.
  apply negb_true_iff in T. apply negb_true_iff in G. rewrite T, G in HC. exact HC.
Qed.

Theorem snapshot_restore_id : forall tbl tr gaps, coverage_ok tbl tr gaps = true ->
  forall v, project (persistent tbl tr gaps) (restore tbl (snapshot tbl v)) = project (persistent tbl tr gaps) v.
Proof.
  intros tbl tr gaps HC v. unfold restore, snapshot, unmarshal, marshal, clone.
  rewrite !project_project. apply project_ext. intros ty f.
  destruct (persistent tbl tr gaps ty f) eqn:HP.
  - pose proof (coverage_persistent _ _ _ HC _ _ HP) as X.
    destruct (cloned tbl ty f), (marshalled tbl ty f), (unmarshalled tbl ty f); cbn in *; congruence.
  - destruct (cloned tbl ty f), (marshalled tbl ty f), (unmarshalled tbl ty f); reflexivity.
Qed.
