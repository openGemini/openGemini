(* C15: the variants of the code before the repair of each recorded finding fail the statement; witnesses closed by vm_compute.
   First the clone step of MeasurementInfo before /repo 5e36229, which loses the identifier: the row mst_cloned_current is that
   code as read (MeasurementInfo.clone copied Name, originName, InitNumOfShards, IndexRelation, MarkDeleted, EngineType,
   tagKeysTotal, Schema, ShardIdexes, ShardKeys, ColStoreInfo, Options, ObsOptions - not ID); props/C15/run.py notes on every
   run if the regenerated row is neither this one nor this one with ID. *)
From Coq Require Import ZArith List Bool String.
From OG Require Import C15.Model.
From OG Require Import C16.Model C15.Cmds C15.CmdsProofs.
Import ListNotations.
Open Scope string_scope.

Definition mst_fields := ["Name"; "originName"; "ShardKeys"; "ShardIdexes"; "InitNumOfShards"; "Schema"; "IndexRelation"; "ColStoreInfo";
  "MarkDeleted"; "EngineType"; "Options"; "ObsOptions"; "tagKeysTotal"; "ID"; "SchemaLock"].
Definition mst_cloned_current := ["ColStoreInfo"; "EngineType"; "IndexRelation"; "InitNumOfShards"; "MarkDeleted"; "Name"; "ObsOptions"; "Options";
  "Schema"; "ShardIdexes"; "ShardKeys"; "originName"; "tagKeysTotal"].
Definition mst_codec := ["ColStoreInfo"; "EngineType"; "ID"; "IndexRelation"; "InitNumOfShards"; "MarkDeleted"; "Name"; "ObsOptions"; "Options";
  "Schema"; "ShardIdexes"; "ShardKeys"].

Definition mst_row (cl : list string) : tyinfo :=
  {| ty_name := "MeasurementInfo"; ty_fields := mst_fields; ty_codec := true; ty_clone := true;
     ty_marshalled := mst_codec; ty_unmarshalled := mst_codec ++ ["originName"; "tagKeysTotal"]; ty_cloned := cl; ty_shallow := [] |}.
Definition tbl_current := [mst_row mst_cloned_current].
Definition tbl_repaired := [mst_row ("ID" :: mst_cloned_current)].

(* the second measurement of a policy: ID 1 *)
Definition witness : val := VRec "MeasurementInfo" [("Name", VLeaf 7); ("ID", VLeaf 1)].

Theorem C15_clone_mstid_refuted :
  exists v, restore tbl_current (snapshot tbl_current v) <> v /\ restore tbl_repaired (snapshot tbl_repaired v) = v.
Proof. exists witness. split; [vm_compute; discriminate | vm_compute; reflexivity]. Qed.
Print Assumptions C15_clone_mstid_refuted.

(* marshal -> unmarshal alone keeps the identifier: the loss is in the deep copy *)
Example C15_codec_keeps_id : unmarshal tbl_current (marshal tbl_current witness) = witness.
Proof. vm_compute. reflexivity. Qed.

(* the hand model (Cmds.v): for each recorded finding the variant without its repair fails the statement, the repaired one does not *)
Open Scope Z_scope.
Definition cfgF : config := {| cfg_expand := false; cfg_expandf := fun c => c; cfg_sgtier := 1 |}.
Definition cfgT : config := {| cfg_expand := true; cfg_expandf := fun c => set_max_mst c (C16.Model.max_mst c + 100); cfg_sgtier := 1 |}.
Definition first_pick : list Z -> option Z := fun l => nth_error l 0.
Definition last_pick : list Z -> option Z := fun l => nth_error (rev l) 0.
Definition cstep0 := apply false true.
Definition s0 := init_x (init_cat 1 true).
Definition E (i : Z) (x : xcmd) : entry := (1, i, x).

(* C15-cq-lastruntime-zero: a continuous query that never ran comes back from a snapshot with a last-run instant *)
Definition log_cq : list entry := [E 2 (Core (CreateNode 1 1)); E 3 (Core (CreateDb 1 1 0 HOUR)); E 4 (CreateCq 1 1 1)].
Definition s_cq v := fst (x_run cstep0 first_pick v cfgF s0 log_cq).
Theorem C15_cq_lastruntime_zero_refuted :
  pp (x_restore v_current (s_cq v_current)) <> pp (s_cq v_current) /\ pp (x_restore v_repaired (s_cq v_repaired)) = pp (s_cq v_repaired).
Proof. split; [vm_compute; discriminate | vm_compute; reflexivity]. Qed.
Print Assumptions C15_cq_lastruntime_zero_refuted.

(* C15-datanode-index-not-persisted: the restored replica accepts an applied index the others refuse *)
Definition log_ix1 : list entry := [E 2 (Core (CreateNode 1 1)); E 3 (UpdateTmpIndex 1 30 1)].
Definition log_ix2 : list entry := [E 4 (UpdateTmpIndex 1 20 1)].
Definition s_ix v := fst (x_run cstep0 first_pick v cfgF s0 log_ix1).
Theorem C15_datanode_index_refuted :
  snd (x_run cstep0 first_pick v_current cfgF (x_restore v_current (s_ix v_current)) log_ix2) <>
  snd (x_run cstep0 first_pick v_current cfgF (s_ix v_current) log_ix2) /\
  snd (x_run cstep0 first_pick v_repaired cfgF (x_restore v_repaired (s_ix v_repaired)) log_ix2) =
  snd (x_run cstep0 first_pick v_repaired cfgF (s_ix v_repaired) log_ix2).
Proof. split; [vm_compute; discriminate | vm_compute; reflexivity]. Qed.
Print Assumptions C15_datanode_index_refuted.

(* C15-dropsubscription-map-order: two policies carry subscription 1; two valid iteration orders drop different ones *)
Definition log_ds : list entry := [E 2 (Core (CreateNode 1 1)); E 3 (Core (CreateDb 1 1 0 HOUR)); E 4 (Core (CreateRp 1 2 0 HOUR false));
  E 5 (CreateSub 1 1 1 1 1); E 6 (CreateSub 1 2 1 1 1)].
Definition s_ds v := fst (x_run cstep0 first_pick v cfgF s0 log_ds).
Lemma first_valid : pick_valid first_pick.
Proof. intros l. unfold first_pick. destruct l; cbn; [reflexivity | left; reflexivity]. Qed.
Lemma last_valid : pick_valid last_pick.
Proof.
  intros l. unfold last_pick. destruct (rev l) eqn:Er; cbn.
  - apply (f_equal (@rev Z)) in Er. rewrite rev_involutive in Er. exact Er.
  - apply in_rev. rewrite Er. left. reflexivity.
Qed.
Theorem C15_dropsubscription_order_refuted :
  pick_valid first_pick /\ pick_valid last_pick /\
  exec cstep0 first_pick v_current cfgF (s_ds v_current) (DropSub 1 0 1) <> exec cstep0 last_pick v_current cfgF (s_ds v_current) (DropSub 1 0 1) /\
  exec cstep0 first_pick v_repaired cfgF (s_ds v_repaired) (DropSub 1 0 1) = exec cstep0 last_pick v_repaired cfgF (s_ds v_repaired) (DropSub 1 0 1).
Proof. split; [exact first_valid|]. split; [exact last_valid|]. split; [vm_compute; discriminate | vm_compute; reflexivity]. Qed.
Print Assumptions C15_dropsubscription_order_refuted.

(* what the generated obligation C15_transient_reads_dominated protects (not a defect of the code; seeded C15-m3): if the
   join handlers did NOT rewrite ExpandShardsEnable - the switch copied once at start-up - a restored replica would join a
   store without expanding the groups while the others expand them *)
Definition v_once : variant := {| v_cqfix := true; v_idxfix := true; v_dsubfix := true; v_rewrite := false |}.
Definition s_started : xstate := witht s0 (set_t_expand (tt s0) true).
Definition s_j := fst (x_run cstep0 first_pick v_once cfgT s_started [E 2 (Core (CreateNode 1 1))]).
Theorem C15_flag_set_once_would_diverge :
  pp (fst (x_run cstep0 first_pick v_once cfgT (x_restore v_once s_j) [E 3 (Core (CreateNode 2 2))])) <>
  pp (fst (x_run cstep0 first_pick v_once cfgT s_j [E 3 (Core (CreateNode 2 2))])).
Proof. vm_compute. discriminate. Qed.
Print Assumptions C15_flag_set_once_would_diverge.

(* C15-database-shardkey-type-dropped: DatabaseInfo.marshal writes the shard key only when the key list is non-nil *)
Record dbski := { k_keys : list Z; k_type : Z }.
Definition ski_persisted (fixed : bool) (s : dbski) : dbski :=
  if fixed then s else match k_keys s with [] => {| k_keys := []; k_type := 0 |} | _ => s end.
Theorem C15_database_shardkey_type_refuted :
  (exists s, ski_persisted false s <> s) /\ (forall s, ski_persisted true s = s).
Proof. split; [exists {| k_keys := []; k_type := 1 |}; vm_compute; discriminate | intros; reflexivity]. Qed.
Print Assumptions C15_database_shardkey_type_refuted.
