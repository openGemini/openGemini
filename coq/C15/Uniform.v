(* C15 - uniform sharding as an invariant. C16.Order proves that the outcome of a step does not depend on the map-iteration
   oracle PROVIDED all measurements of a policy have one sharding type (uniform_sharding). Here: that proviso is preserved by
   every step of the oracle step function C16.Order.applyO (all 24 commands of the C16 model, under any valid oracle), given
   what the environment must guarantee about a measurement that is created while no measurement of ANOTHER name is in the
   policy - the one case RetentionPolicyInfo.validMeasurementShardType does not look at (finding
   C15-recreated-measurement-sharding-map-order): it keeps the type of its predecessors. *)
From Coq Require Import ZArith List.
From OG Require Import C16.Model C16.Lists C16.Proofs C16.ProofsSg C16.ProofsInv C16.Order.
Import ListNotations.
Open Scope Z_scope.

Section Uniform.
  Variable st : mst -> Z.                                         (* the sharding type of a measurement *)
  Variable range_create : cat -> policy -> Z -> Z -> cat * bool.  (* the unmodelled RANGE branch of CreateShardGroup *)
  Variables clip cleardef : bool.
  (* marking a measurement for deletion does not change its sharding type *)
  Hypothesis st_mark : forall x, st (mark_one x) = st x.
  (* the RANGE branch creates groups, it does not touch the measurements of any policy *)
  Hypothesis range_keeps : forall c p t e, map rp_msts (pols (fst (range_create c p t e))) = map rp_msts (pols c).

  Definition tl (p : policy) : list Z := map st (rp_msts p).
  Definition pol_uniform (p : policy) : Prop := forall a b, In a (tl p) -> In b (tl p) -> a = b.
  Definition all_uniform (l : list policy) : Prop := Forall pol_uniform l.
  Definition pol_le (p' p : policy) : Prop := forall t, In t (tl p') -> In t (tl p).
  Definition derived (l' l : list policy) : Prop := Forall (fun p' => exists p, In p l /\ pol_le p' p) l'.

  Lemma uniform_iff : forall c, all_uniform (pols c) <-> uniform_sharding st c.
  Proof.
    intros c. unfold all_uniform, uniform_sharding, pol_uniform, tl. rewrite Forall_forall. split.
    - intros H p m1 m2 Hp H1 H2. apply (H p Hp); apply in_map; assumption.
    - intros H p Hp a b Ha Hb. apply in_map_iff in Ha. apply in_map_iff in Hb.
      destruct Ha as (m1 & <- & H1), Hb as (m2 & <- & H2). apply (H p); assumption.
  Qed.

  Lemma uniform_derived : forall l l', all_uniform l -> derived l' l -> all_uniform l'.
  Proof.
    unfold all_uniform, derived. intros l l' HU HD. rewrite Forall_forall in *. intros p' Hp'. destruct (HD p' Hp') as (p & Hp & Hle).
    intros a b Ha Hb. apply (HU p Hp); apply Hle; assumption.
  Qed.

  Lemma pol_le_refl : forall p, pol_le p p.
  Proof. intros p t H. exact H. Qed.
  Lemma pol_le_same : forall p' p, rp_msts p' = rp_msts p -> pol_le p' p.
  Proof. intros p' p E t H. unfold tl in *. rewrite E in H. exact H. Qed.

  Lemma derived_refl : forall l, derived l l.
  Proof. intros l. apply Forall_forall. intros p Hp. exists p. split; [exact Hp | apply pol_le_refl]. Qed.

  Lemma derived_upd_first : forall f g l, (forall p, pol_le (g p) p) -> derived (upd_first f g l) l.
  Proof.
    intros f g l Hg. induction l as [|x r IH]; cbn; [constructor|]. destruct (f x).
    - constructor; [exists x; split; [left; reflexivity | apply Hg]|].
      apply Forall_forall. intros p Hp. exists p. split; [right; exact Hp | apply pol_le_refl].
    - constructor; [exists x; split; [left; reflexivity | apply pol_le_refl]|].
      eapply Forall_impl; [|exact IH]. intros p' (p & Hp & Hle). exists p. split; [right; exact Hp | exact Hle].
  Qed.

  Lemma derived_map : forall g l, (forall p, pol_le (g p) p) -> derived (map g l) l.
  Proof.
    intros g l Hg. apply Forall_forall. intros p' Hp'. apply in_map_iff in Hp'. destruct Hp' as (p & <- & Hp).
    exists p. split; [exact Hp | apply Hg].
  Qed.

  Lemma derived_filter : forall f l, derived (filter f l) l.
  Proof. intros f l. apply Forall_forall. intros p Hp. apply filter_In in Hp. exists p. split; [tauto | apply pol_le_refl]. Qed.

  Lemma tl_map_mark : forall (h : mst -> mst) l, (forall x, st (h x) = st x) -> map st (map h l) = map st l.
  Proof. intros h l H. rewrite map_map. apply map_ext. exact H. Qed.

  Lemma le_set_msts_map : forall p q (h : mst -> mst) vs, rp_msts q = rp_msts p -> (forall x, st (h x) = st x) ->
    pol_le (pol_set_msts q (map h (rp_msts q)) vs) p.
  Proof. intros p q h vs E H t Ht. unfold tl in *. cbn in Ht. rewrite tl_map_mark in Ht by exact H. rewrite E in Ht. exact Ht. Qed.

  Lemma pol_keep_le : forall p p', pol_keep p p' -> pol_le p' p.
  Proof.
    intros p p' [_ M] t Ht. unfold tl in *. apply in_map_iff in Ht. destruct Ht as (m' & <- & Hm').
    destruct (M m' Hm') as (m & Hm & [->| ->]); [|rewrite st_mark]; apply in_map; exact Hm.
  Qed.

  Lemma uniform_keeps : forall c c', keeps c c' -> all_uniform (pols c) -> all_uniform (pols c').
  Proof.
    unfold all_uniform. intros c c' [K _] HU. rewrite Forall_forall in *. intros p' Hp' a b Ha Hb.
    destruct (K p' Hp') as [(_ & _ & E)|(p & Hp & Kp)].
    - unfold tl in Ha. rewrite E in Ha. destruct Ha.
    - apply (HU p Hp); apply (pol_keep_le _ _ Kp); assumption.
  Qed.

  Lemma create_node_pols : forall c h t, pols (fst (create_node c h t)) = pols c.
  Proof. intros. unfold create_node. repeat (destruct (existsb _ _)); reflexivity. Qed.

  Lemma uniform_create_sg : forall c db rp t eng, all_uniform (pols c) -> all_uniform (pols (fst (create_sg clip c db rp t eng))).
  Proof.
    intros c db rp t eng H. destruct (create_sg_shape clip c db rp t eng) as [->|(p & ig & isnew & _ & _ & _ & ->)]; [exact H|].
    eapply uniform_derived; [exact H|]. apply derived_upd_first. intros q. destruct isnew; apply pol_le_same; reflexivity.
  Qed.

  Definition new_mst (c : cat) (m ver : Z) : mst := {| ms_name := m; ms_ver := ver; ms_id := max_mst c; ms_mark := false |}.

  Lemma uniform_add_mst : forall c p m ver, all_uniform (pols c) -> find_pol c (rp_db p) (rp_name p) = Some p ->
    (forall y, In y (rp_msts p) -> st y = st (new_mst c m ver)) -> all_uniform (pols (add_mst c p m ver)).
  Proof.
    intros c p m ver H Hf Hall. unfold add_mst. cbn. unfold all_uniform. eapply updf_Forall_first; [exact Hf | exact H |].
    intros a b Ha Hb. unfold tl in *. cbn in Ha, Hb. rewrite map_app in Ha, Hb. cbn in Ha, Hb.
    assert (E : forall t, In t (map st (rp_msts p) ++ [st (new_mst c m ver)]) -> t = st (new_mst c m ver)).
    { intros t Ht. apply in_app_or in Ht. destruct Ht as [Ht|[Ht|[]]]; [|symmetry; exact Ht].
      apply in_map_iff in Ht. destruct Ht as (y & <- & Hy). apply Hall. exact Hy. }
    rewrite (E a Ha), (E b Hb). reflexivity.
  Qed.

  (* what the environment guarantees about a measurement created in a policy that holds no measurement of another name (the
     case validMeasurementShardType does not examine): it has the sharding type of the measurements it succeeds. For the
     half-applied creation of the pre-f21700b code (CreateMstBad with schemafirst = false) no type check runs at all. *)
  Definition env_ok (c : cat) (x : cmd) : Prop :=
    match x with
    | CreateMst db rp m =>
        forall p nm, get_pol c db rp = Some p -> next_mst c p m = Some nm ->
          forall y, In y (rp_msts p) -> ms_name y = m -> st y = st nm
    | CreateMstBad db rp m =>
        schemafirst c = true \/
        forall p nm, get_pol c db rp = Some p -> next_mst c p m = Some nm -> forall y, In y (rp_msts p) -> st y = st nm
    | _ => True
    end.

  Lemma create_mst_next : forall c db rp m p, get_pol c db rp = Some p ->
    create_mst c db rp m = match next_mst c p m with Some nm => ok (add_mst c p m (ms_ver nm)) | None => ok c end.
  Proof.
    intros c db rp m p Hg. unfold create_mst, next_mst. rewrite Hg. destruct (assoc m (rp_vers p)) as [v|]; [|reflexivity].
    destruct (find_mst p m v) as [x|]; [|reflexivity]. destruct (ms_mark x); reflexivity.
  Qed.

  Lemma next_mst_new : forall c p m nm, next_mst c p m = Some nm -> nm = new_mst c m (ms_ver nm).
  Proof.
    intros c p m nm. unfold next_mst, new_mst. destruct (assoc m (rp_vers p)) as [v|].
    - destruct (find_mst p m v) as [x|]; [destruct (ms_mark x)|]; intros H; inversion H; reflexivity.
    - intros H; inversion H; reflexivity.
  Qed.

  Lemma uniform_create_mstO : forall o c db rp m, valid o -> all_uniform (pols c) -> env_ok c (CreateMst db rp m) ->
    all_uniform (pols (fst (create_mstO st o c db rp m))).
  Proof.
    intros o c db rp m V H E. unfold create_mstO. destruct (get_pol c db rp) as [p|] eqn:Eg; [|exact H].
    destruct (get_pol_spec _ _ _ _ Eg) as (Hf & Hp & Hdb & _). subst db.
    destruct (next_mst c p m) as [nm|] eqn:En.
    2: { rewrite (create_mst_next c (rp_db p) rp m p Eg), En. exact H. }
    pose proof (next_mst_new c p m nm En) as Enm.
    assert (PU : pol_uniform p) by (unfold all_uniform in H; rewrite Forall_forall in H; apply H; exact Hp).
    (* in every branch that changes the catalogue all measurements of the policy have the new one's type *)
    assert (K : (forall y, In y (rp_msts p) -> st y = st nm) -> all_uniform (pols (fst (create_mst c (rp_db p) rp m)))).
    { intros Hall. rewrite (create_mst_next c (rp_db p) rp m p Eg), En. cbn [fst ok].
      apply uniform_add_mst; [exact H | exact Hf |]. rewrite <- Enm. exact Hall. }
    set (l := filter (fun x => negb (ms_name x =? m)) (rp_msts p)).
    pose proof (V l) as Vl. destruct (o l) as [other|] eqn:Eo.
    - destruct (st other =? st nm) eqn:Et; [|exact H]. apply Z.eqb_eq in Et. apply K. intros y Hy.
      rewrite <- Et. apply PU; unfold tl; apply in_map; [exact Hy|]. subst l. apply filter_In in Vl. tauto.
    - apply K. intros y Hy. apply (E p nm Eg En y Hy).
      destruct (ms_name y =? m) eqn:Ey; [apply Z.eqb_eq; exact Ey|].
      exfalso. assert (In y l) by (subst l; apply filter_In; split; [exact Hy | rewrite Ey; reflexivity]). rewrite Vl in H0. exact H0.
  Qed.

  Lemma uniform_create_mst_bad : forall c db rp m, all_uniform (pols c) -> env_ok c (CreateMstBad db rp m) -> all_uniform (pols (fst (create_mst_bad c db rp m))).
  Proof.
    intros c db rp m H E. unfold create_mst_bad. destruct (get_pol c db rp) as [p|] eqn:Eg; [|exact H].
    destruct (get_pol_spec _ _ _ _ Eg) as (Hf & Hp & Hdb & _). subst db.
    destruct E as [E|E].
    - rewrite E. destruct (assoc m (rp_vers p)) as [v|]; [|exact H]. destruct (find_mst p m v) as [x|]; [destruct (ms_mark x)|]; exact H.
    - destruct (schemafirst c); [destruct (assoc m (rp_vers p)) as [v|]; [destruct (find_mst p m v) as [x|]; [destruct (ms_mark x)|]|]; exact H|].
      specialize (E p). unfold next_mst in E. rewrite Eg in E.
      destruct (assoc m (rp_vers p)) as [v|].
      + destruct (find_mst p m v) as [x|].
        * destruct (ms_mark x); [|exact H]. cbn [fst]. apply uniform_add_mst; [exact H | exact Hf | apply (E _ eq_refl eq_refl)].
        * cbn [fst]. apply uniform_add_mst; [exact H | exact Hf | apply (E _ eq_refl eq_refl)].
      + cbn [fst]. apply uniform_add_mst; [exact H | exact Hf | apply (E _ eq_refl eq_refl)].
  Qed.

  Lemma applyO_uniform : forall o c x, valid o -> uniform_sharding st c -> env_ok c x ->
    uniform_sharding st (fst (applyO st range_create clip cleardef o c x)).
  Proof.
    intros o c x V HU E. apply uniform_iff. apply uniform_iff in HU.
    destruct (is_keeping x) eqn:K.
    { replace (applyO st range_create clip cleardef o c x) with (apply clip cleardef c x) by (destruct x; try discriminate; reflexivity).
      eapply uniform_keeps; [apply keeps_step; exact K | exact HU]. }
    destruct x; try discriminate; cbn [applyO].
    - apply uniform_create_mstO; assumption.
    - unfold create_sgO. destruct (ptnum c =? 0); [exact HU|]. destruct (get_pol c db rp) as [p|]; [|exact HU].
      destruct (existsb _ (rp_sgs p)); [exact HU|]. destruct (o (rp_msts p)) as [y|]; [|exact HU].
      destruct (st y =? 0); [apply uniform_create_sg; exact HU|].
      unfold all_uniform in *. pose proof (range_keeps c p ts eng) as Ek. revert Ek.
      generalize (pols (fst (range_create c p ts eng))). intros l'. revert HU. generalize (pols c). intros l. revert l'.
      induction l as [|a r IH]; intros l' HU Ek; destruct l' as [|a' r']; try discriminate; [constructor|].
      cbn in Ek. inversion Ek. inversion HU; subst. constructor; [|apply IH; assumption].
      intros u w Hu Hw. unfold tl in *. rewrite H0 in Hu, Hw. apply H3; assumption.
    - cbn [apply]. rewrite create_node_pols. exact HU.
    - cbn [apply fst ok]. eapply uniform_derived; [exact HU|]. apply derived_map. intros q. apply pol_le_same. reflexivity.
    - apply uniform_create_mst_bad; assumption.
  Qed.
End Uniform.
