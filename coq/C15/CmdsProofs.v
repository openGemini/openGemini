(* C15 - proofs about the hand model of coq/C15/Cmds.v: the transient part of the state never influences the persistent
   part or a result (non-interference), the persisted image of a state is the state (round trip), hence a snapshot/restore
   at any position of a log is invisible; independence from the map-iteration oracles; the derived admin cache. *)
From Coq Require Import ZArith List Bool Lia.
From OG Require Import C16.Model C16.ProofsRun C16.Order C15.Cmds.
Import ListNotations.
Open Scope Z_scope.

Ltac split_matches :=
  repeat match goal with
         | |- context [match ?e with _ => _ end] => destruct e eqn:?
         end.

(* outside the catalogue core a command is a case tree of record updates: open its definition *)
Ltac open_xcmd :=
  cbn [exec];
  unfold x_create_user, x_drop_user, x_update_user, x_set_privilege, x_create_sub, x_drop_sub, x_create_cq, x_report_cq, x_drop_cq,
    x_create_meta, x_set_meta, create_meta, x_delete_meta, x_create_sql, rewrite_expand, x_tmp_index, x_register_qid, x_pt_version, xok,
    x_node_status, x_sql_status, x_meta_status, x_shard_tier, x_index_tier, x_create_stream, x_drop_stream.

Lemma exec_pp : forall cstep pick v cfg p t1 t2 x, v_rewrite v = true ->
  pp (fst (exec cstep pick v cfg {| pp := p; tt := t1 |} x)) = pp (fst (exec cstep pick v cfg {| pp := p; tt := t2 |} x)) /\
  snd (exec cstep pick v cfg {| pp := p; tt := t1 |} x) = snd (exec cstep pick v cfg {| pp := p; tt := t2 |} x).
Proof.
  intros cstep pick v cfg p t1 t2 x Hv.
  destruct x; [cbn [exec] | open_xcmd; rewrite ?Hv; cbn [pp tt witht withp]; split_matches; cbn; split; reflexivity ..].
  - unfold x_core. cbn [pp tt].
    destruct x; try (destruct (cstep (core p) _) as [c1 r]; cbn; split; reflexivity).
    + (* MarkDb *) destruct (stream_on _ p); [cbn; split; reflexivity|]. destruct (cstep (core p) _) as [c1 r]; cbn; split; reflexivity.
    + (* DropDb *) destruct (find_db (core p) db); [|cbn; split; reflexivity].
      destruct (cstep (core p) (DropDb db)) as [c1 r]. cbn. split; reflexivity.
    + (* MarkRp *) destruct (stream_on _ p); [cbn; split; reflexivity|]. destruct (cstep (core p) _) as [c1 r]; cbn; split; reflexivity.
    + (* MarkMst *) destruct (stream_on _ p); [cbn; split; reflexivity|]. destruct (cstep (core p) _) as [c1 r]; cbn; split; reflexivity.
    + (* CreateNode *)
      unfold x_create_dnode, rewrite_expand. rewrite Hv. cbn [pp tt witht withp set_t_expand t_expand].
      destruct (existsb _ (nodes (core p)) || existsb _ (nodes (core p))); cbn; split; reflexivity.
    + (* UpdatePt *)
      destruct ((status =? 0) && node_alive p owner); destruct (cstep _ _) as [c1 r]; cbn; split; reflexivity.
Qed.

Lemma apply_pp : forall cstep pick v cfg s1 s2 e, v_rewrite v = true -> pp s1 = pp s2 ->
  pp (fst (x_apply cstep pick v cfg s1 e)) = pp (fst (x_apply cstep pick v cfg s2 e)) /\
  snd (x_apply cstep pick v cfg s1 e) = snd (x_apply cstep pick v cfg s2 e).
Proof.
  intros cstep pick v cfg [p t1] [p2 t2] [[tm ix] x] Hv H. cbn [pp] in H. subst p2.
  unfold x_apply. destruct (exec_pp cstep pick v cfg p t1 t2 x Hv) as [A B].
  destruct (exec cstep pick v cfg {| pp := p; tt := t1 |} x) as [a ra], (exec cstep pick v cfg {| pp := p; tt := t2 |} x) as [b rb].
  cbn [fst snd] in A, B. subst rb.
  destruct (ra && negb (is_tmpindex x)); cbn [fst snd pp withp witht]; rewrite A; split; reflexivity.
Qed.

Lemma run_pp : forall cstep pick v cfg l s1 s2, v_rewrite v = true -> pp s1 = pp s2 ->
  pp (fst (x_run cstep pick v cfg s1 l)) = pp (fst (x_run cstep pick v cfg s2 l)) /\
  snd (x_run cstep pick v cfg s1 l) = snd (x_run cstep pick v cfg s2 l).
Proof.
  intros cstep pick v cfg l. induction l as [|e r IH]; intros s1 s2 Hv H; cbn [x_run]; [split; [exact H | reflexivity]|].
  destruct (apply_pp cstep pick v cfg s1 s2 e Hv H) as [A B].
  destruct (x_apply cstep pick v cfg s1 e) as [a ra], (x_apply cstep pick v cfg s2 e) as [b rb]. cbn [fst snd] in A, B. subst rb.
  destruct (IH a b Hv A) as [C D].
  destruct (x_run cstep pick v cfg a r) as [a2 ras], (x_run cstep pick v cfg b r) as [b2 rbs]. cbn [fst snd] in *.
  split; [exact C | rewrite D; reflexivity].
Qed.

(* what the housekeeping after a catalogue command leaves alone *)
Lemma gc_cqs : forall cfg p, cqs (gc cfg p) = cqs p.
Proof. reflexivity. Qed.
Lemma gc_users : forall cfg p, users (gc cfg p) = users p.
Proof. reflexivity. Qed.
Lemma dnode_keeps : forall v cfg s h t,
  cqs (pp (fst (x_create_dnode v cfg s h t))) = cqs (pp s) /\ users (pp (fst (x_create_dnode v cfg s h t))) = users (pp s) /\
  t_admin (tt (fst (x_create_dnode v cfg s h t))) = t_admin (tt s).
Proof.
  intros. unfold x_create_dnode, rewrite_expand. destruct (v_rewrite v); cbn [pp tt witht withp];
    destruct (existsb _ _ || existsb _ _); repeat split.
Qed.

Ltac core_cases cstep s :=
  unfold x_core; cbn zeta;
  repeat match goal with
         | |- context [if ?e then _ else _] => destruct e
         | |- context [match find_db ?a ?b with _ => _ end] => destruct (find_db a b)
         | |- context [cstep ?a ?b] => destruct (cstep a b)
         end.

(* which commands can touch the continuous queries, the users with their cache, the policies of the catalogue *)
Definition cq_cmd (x : xcmd) : bool := match x with Core _ | CreateCq _ _ _ | ReportCq _ _ | DropCq _ _ => true | _ => false end.
Definition user_cmd (x : xcmd) : bool :=
  match x with Core _ | CreateUser _ _ _ _ | DropUser _ | UpdateUser _ _ | SetPrivilege _ _ _ => true | _ => false end.
Definition pols_cmd (x : xcmd) : bool := match x with Core _ | ExpandGroups => true | _ => false end.

Lemma exec_frame : forall cstep pick v cfg s x, let s1 := fst (exec cstep pick v cfg s x) in
  (cq_cmd x = false -> cqs (pp s1) = cqs (pp s)) /\
  (user_cmd x = false -> users (pp s1) = users (pp s) /\ t_admin (tt s1) = t_admin (tt s)) /\
  (pols_cmd x = false -> pols (core (pp s1)) = pols (core (pp s))).
Proof.
  intros cstep pick v cfg s x. destruct x; cbn [cq_cmd user_cmd pols_cmd]; [repeat split; discriminate|..]; open_xcmd;
    split_matches; repeat split; intros; (discriminate || reflexivity).
Qed.

Definition time_ok (o : option Z) : Prop := match o with None => True | Some n => n <> 0 /\ MININT <= n <= MAXNANO1 end.
Definition cq_wf (p : pstate) : Prop := Forall (fun c => time_ok (cq_last c)) (cqs p).
Definition reps (p : pstate) : Prop := representable (core p) /\ cq_wf p.

Lemma time_roundtrip : forall v o, v_cqfix v = true -> time_ok o -> dec_time v (enc_time v o) = o.
Proof.
  intros v o Hv H. unfold dec_time, enc_time. rewrite Hv. destruct o as [n|]; [|reflexivity].
  cbn in H. destruct H as [H0 Hr]. rewrite wrap64_id by exact Hr.
  destruct (n =? 0) eqn:E; [apply Z.eqb_eq in E; contradiction | reflexivity].
Qed.

Lemma persisted_id : forall v p, v_cqfix v = true -> v_idxfix v = true -> reps p -> persisted v p = p.
Proof.
  intros v p H1 H2 [Hc Hq]. unfold persisted. rewrite H2. rewrite (restore_state_id _ Hc).
  assert (E : map (fun c => cq_set_last (dec_time v (enc_time v (cq_last c))) c) (cqs p) = cqs p).
  { rewrite <- (map_id (cqs p)) at 2. apply map_ext_in. intros c Hin. unfold cq_wf in Hq. rewrite Forall_forall in Hq.
    rewrite (time_roundtrip v _ H1 (Hq c Hin)). destruct c. reflexivity. }
  rewrite E. destruct p. reflexivity.
Qed.

(* the environment's guarantee about a log entry: a reported last-run instant is an int64 (it travels in an int64 field) *)
Definition entry_ok (e : entry) : Prop :=
  match snd e with ReportCq _ ts => MININT <= ts <= MAXNANO1 | _ => True end.

Lemma cq_wf_exec : forall cstep pick v cfg s x, v_cqfix v = true ->
  match x with ReportCq _ ts => MININT <= ts <= MAXNANO1 | _ => True end ->
  cq_wf (pp s) -> cq_wf (pp (fst (exec cstep pick v cfg s x))).
Proof.
  intros cstep pick v cfg s x Hv He H. unfold cq_wf in *.
  destruct (cq_cmd x) eqn:T; [|rewrite (proj1 (exec_frame cstep pick v cfg s x) T); exact H].
  destruct x; try discriminate; cbn [exec].
  - destruct x; try (core_cases cstep s; cbn; exact H).
    + (* DropDb *) core_cases cstep s; cbn; try exact H;
        (apply Forall_forall; intros c0 Hin; apply filter_In in Hin; rewrite Forall_forall in H; apply H; tauto).
    + (* CreateNode *) unfold x_core. cbn zeta. destruct (dnode_keeps v cfg s http tcp) as (E & _).
      destruct (x_create_dnode v cfg s http tcp) as [s1 r]. cbn [fst] in *. cbn. rewrite E. exact H.
  - unfold x_create_cq. split_matches; cbn; try exact H.
    apply Forall_app. split; [exact H | constructor; [exact I | constructor]].
  - unfold x_report_cq. cbn. apply Forall_forall. intros c Hin. apply in_map_iff in Hin. destruct Hin as (c0 & Ec & Hin0).
    rewrite Forall_forall in H. specialize (H c0 Hin0). destruct (cq_name c0 =? name); subst c; [|exact H].
    cbn. unfold stat_time. rewrite Hv. destruct (ts =? 0) eqn:E; cbn; [exact I|]. split; [intro Z0; subst ts; discriminate | exact He].
  - unfold x_drop_cq. split_matches; cbn; try exact H.
    apply Forall_forall. intros c Hin. apply filter_In in Hin. rewrite Forall_forall in H. apply H. tauto.
Qed.

Lemma cq_wf_apply : forall cstep pick v cfg s e, v_cqfix v = true -> entry_ok e -> cq_wf (pp s) ->
  cq_wf (pp (fst (x_apply cstep pick v cfg s e))).
Proof.
  intros cstep pick v cfg s [[tm ix] x] Hv He H. unfold x_apply. unfold entry_ok in He. cbn [snd] in He.
  pose proof (cq_wf_exec cstep pick v cfg s x Hv He H) as W.
  destruct (exec cstep pick v cfg s x) as [s1 r]. cbn [fst] in W.
  destruct (r && negb (is_tmpindex x)); cbn; exact W.
Qed.

Lemma cq_wf_run : forall cstep pick v cfg l s, v_cqfix v = true -> Forall entry_ok l -> cq_wf (pp s) ->
  cq_wf (pp (fst (x_run cstep pick v cfg s l))).
Proof.
  intros cstep pick v cfg l. induction l as [|e r IH]; intros s Hv He H; cbn [x_run]; [exact H|].
  inversion He; subst. pose proof (cq_wf_apply cstep pick v cfg s e Hv H2 H) as W.
  destruct (x_apply cstep pick v cfg s e) as [s1 b]. cbn [fst] in W. specialize (IH s1 Hv H3 W).
  destruct (x_run cstep pick v cfg s1 r) as [s2 bs]. exact IH.
Qed.

Lemma restore_pp : forall v s, v_cqfix v = true -> v_idxfix v = true -> reps (pp s) -> pp (x_restore v s) = pp s.
Proof. intros v s H1 H2 R. unfold x_restore. cbn [pp]. apply persisted_id; assumption. Qed.

Lemma x_run_app : forall cstep pick v cfg l1 l2 s,
  x_run cstep pick v cfg s (l1 ++ l2) =
  (fst (x_run cstep pick v cfg (fst (x_run cstep pick v cfg s l1)) l2),
   snd (x_run cstep pick v cfg s l1) ++ snd (x_run cstep pick v cfg (fst (x_run cstep pick v cfg s l1)) l2)).
Proof.
  intros cstep pick v cfg l1. induction l1 as [|e r IH]; intros l2 s; cbn [app x_run fst snd].
  - destruct (x_run cstep pick v cfg s l2); reflexivity.
  - destruct (x_apply cstep pick v cfg s e) as [s1 b]. rewrite IH.
    destruct (x_run cstep pick v cfg s1 r) as [s2 bs]. cbn [fst snd app]. reflexivity.
Qed.

Definition admin_inv (s : xstate) : Prop := t_admin (tt s) = existsb u_admin (users (pp s)).

Lemma existsb_remove_first_nonadmin : forall n l, (forall u, find_user l n = Some u -> u_admin u = false) ->
  existsb u_admin (remove_first (is_user n) l) = existsb u_admin l.
Proof.
  intros n l. induction l as [|x r IH]; intros H; cbn; [reflexivity|].
  unfold find_user in H. cbn in H. destruct (is_user n x) eqn:E.
  - rewrite (H x eq_refl). reflexivity.
  - cbn. rewrite IH; [reflexivity | exact H].
Qed.

Lemma existsb_upd_first_admin : forall (f : user -> bool) (g : user -> user) l, (forall u, u_admin (g u) = u_admin u) ->
  existsb u_admin (upd_first f g l) = existsb u_admin l.
Proof.
  intros f g l Hg. induction l as [|x r IH]; cbn; [reflexivity|]. destruct (f x); cbn; [rewrite Hg; reflexivity | rewrite IH; reflexivity].
Qed.

Lemma existsb_map_admin : forall (g : user -> user) l, (forall u, u_admin (g u) = u_admin u) -> existsb u_admin (map g l) = existsb u_admin l.
Proof. intros g l Hg. induction l as [|x r IH]; cbn; [reflexivity|]. rewrite Hg, IH. reflexivity. Qed.

Lemma admin_inv_exec : forall cstep pick v cfg s x, admin_inv s -> admin_inv (fst (exec cstep pick v cfg s x)).
Proof.
  intros cstep pick v cfg s x H. unfold admin_inv in *.
  destruct (user_cmd x) eqn:T; [|destruct (proj1 (proj2 (exec_frame cstep pick v cfg s x)) T) as [E1 E2]; rewrite E1, E2; exact H].
  destruct x; try discriminate; cbn [exec].
  - destruct x; try (core_cases cstep s; cbn; exact H).
    + (* DropDb *) core_cases cstep s; cbn; try exact H;
        (rewrite existsb_map_admin by (intros; reflexivity); exact H).
    + (* CreateNode *) unfold x_core. cbn zeta. destruct (dnode_keeps v cfg s http tcp) as (_ & E & Ea).
      destruct (x_create_dnode v cfg s http tcp) as [s1 r]. cbn [fst] in *. cbn. rewrite E, Ea. exact H.
  - unfold x_create_user. destruct (name =? 0); [exact H|]. destruct (find_user _ _); [exact H|].
    destruct (admin && existsb u_admin (users (pp s))) eqn:E; [exact H|]. cbn. rewrite existsb_app. cbn.
    destruct admin; cbn in *; [rewrite E; reflexivity | rewrite orb_false_r; exact H].
  - unfold x_drop_user. destruct (find_user (users (pp s)) name) as [u|] eqn:E; [|exact H].
    destruct (u_admin u) eqn:Ea; [exact H|]. cbn. rewrite existsb_remove_first_nonadmin; [exact H|].
    intros u0 Hu. rewrite E in Hu. injection Hu as <-. exact Ea.
  - unfold x_update_user. split_matches; cbn; try exact H. rewrite existsb_upd_first_admin by (intros; reflexivity). exact H.
  - unfold x_set_privilege. split_matches; cbn; try exact H. rewrite existsb_upd_first_admin by (intros; reflexivity). exact H.
Qed.

Lemma admin_inv_apply : forall cstep pick v cfg s e, admin_inv s -> admin_inv (fst (x_apply cstep pick v cfg s e)).
Proof.
  intros cstep pick v cfg s [[tm ix] x] H. unfold x_apply. pose proof (admin_inv_exec cstep pick v cfg s x H) as W.
  destruct (exec cstep pick v cfg s x) as [s1 r]. cbn [fst] in W. destruct (r && negb (is_tmpindex x)); cbn; exact W.
Qed.

Lemma admin_inv_restore : forall v s, admin_inv (x_restore v s).
Proof. intros. reflexivity. Qed.

Definition pick_valid (pick : list Z -> option Z) : Prop :=
  forall l, match pick l with Some k => In k l | None => l = [] end.

(* two step functions of the core that agree on the current catalogue, and (repaired DropSubscription) any two choice
   functions: same state, same result *)
Lemma exec_order : forall cs1 cs2 pk1 pk2 v cfg s x, v_dsubfix v = true ->
  (forall c, cs1 (core (pp s)) c = cs2 (core (pp s)) c) ->
  (forall c db pt co cs o st, cs1 c (UpdatePt db pt co cs o st) = cs2 c (UpdatePt db pt co cs o st)) ->
  exec cs1 pk1 v cfg s x = exec cs2 pk2 v cfg s x.
Proof.
  intros cs1 cs2 pk1 pk2 v cfg s x Hv Hc Hu. destruct x; cbn [exec]; try reflexivity.
  - unfold x_core. destruct x; rewrite ?Hc, ?Hu; reflexivity.
  - unfold x_drop_sub. rewrite Hv. reflexivity.
Qed.

(* DropSubscription before /repo 3a19148: the choice is immaterial when at most one policy carries a subscription of that name *)
Lemma pick_unique : forall pk1 pk2 (l : list Z), pick_valid pk1 -> pick_valid pk2 -> (length l <= 1)%nat -> pk1 l = pk2 l.
Proof.
  intros pk1 pk2 l V1 V2 L. specialize (V1 l). specialize (V2 l).
  destruct l as [|a [|b r]]; cbn in L; try lia.
  - destruct (pk1 []), (pk2 []); try reflexivity; try contradiction.
  - destruct (pk1 [a]) as [x|], (pk2 [a]) as [y|]; try discriminate; try reflexivity.
    destruct V1 as [<-|[]], V2 as [<-|[]]. reflexivity.
Qed.

(* runs under per-step oracles: the core's (C16.Order.applyO) and DropSubscription's *)
Section Oracles.
  Variable shard_type : mst -> Z.
  Variable range_create : cat -> policy -> Z -> Z -> cat * bool.
  Variables clip cleardef : bool.
  Variable v : variant.
  Variable cfg : config.

  Definition stepO (o : oracle) := applyO shard_type range_create clip cleardef o.

  Fixpoint x_runO (os : list (oracle * (list Z -> option Z))) (s : xstate) (l : list entry) : xstate * list bool :=
    match l, os with
    | e :: r, (o, pk) :: os' =>
        let '(s1, b) := x_apply (stepO o) pk v cfg s e in let '(s2, bs) := x_runO os' s1 r in (s2, b :: bs)
    | _, _ => (s, [])
    end.

  (* uniform sharding (C16.Order) holds in every catalogue the first replica goes through *)
  Fixpoint uniform_alongX (os : list (oracle * (list Z -> option Z))) (s : xstate) (l : list entry) : Prop :=
    match l, os with
    | e :: r, (o, pk) :: os' => uniform_sharding shard_type (core (pp s)) /\ uniform_alongX os' (fst (x_apply (stepO o) pk v cfg s e)) r
    | _, _ => True
    end.

  Lemma apply_order : forall o1 o2 pk1 pk2 s e, v_dsubfix v = true -> valid o1 -> valid o2 ->
    uniform_sharding shard_type (core (pp s)) ->
    x_apply (stepO o1) pk1 v cfg s e = x_apply (stepO o2) pk2 v cfg s e.
  Proof.
    intros o1 o2 pk1 pk2 s [[tm ix] x] Hv V1 V2 U. unfold x_apply.
    rewrite (exec_order (stepO o1) (stepO o2) pk1 pk2 v cfg s x Hv); [reflexivity | | reflexivity].
    intros c. apply apply_order_independent_lemma; assumption.
  Qed.

  Lemma convergence : forall l os1 os2 s, v_dsubfix v = true ->
    length os1 = length l -> length os2 = length l ->
    Forall (fun o => valid (fst o)) os1 -> Forall (fun o => valid (fst o)) os2 ->
    uniform_alongX os1 s l -> x_runO os1 s l = x_runO os2 s l.
  Proof.
    induction l as [|e r IH]; intros os1 os2 s Hv L1 L2 V1 V2 U; destruct os1 as [|[o1 pk1] t1], os2 as [|[o2 pk2] t2]; try discriminate; [reflexivity|].
    cbn [x_runO]. cbn [uniform_alongX] in U. destruct U as [U0 U1]. inversion V1; subst. inversion V2; subst. cbn [fst] in *.
    rewrite (apply_order o1 o2 pk1 pk2 s e Hv) in * by assumption.
    destruct (x_apply (stepO o2) pk2 v cfg s e) as [s1 b]. cbn [fst] in U1. cbn in L1, L2.
    rewrite (IH t1 t2 s1) by (assumption || lia). reflexivity.
  Qed.
End Oracles.
