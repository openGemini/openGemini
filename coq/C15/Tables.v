(* C15: the hand-kept, justified lists the generated tables are checked against. *)
From Coq Require Import List String Bool.
From OG Require Import C15.Model.
Import ListNotations.
Open Scope string_scope.

(* fields that are not part of the replicated catalogue *)
Definition transient : list (string * string) := [
  ("Data", "ExpandShardsEnable");             (* copied from the node's configuration before every CreateDataNode/CreateSqlNode *)
  ("Data", "opsMapMu");                       (* lock *)
  ("Data", "OpsMap"); ("Data", "OpsMapMinIndex"); ("Data", "OpsMapMaxIndex"); ("Data", "OpsToMarshalIndex");
                                              (* incremental-sync cache of applied commands; Restore keeps the node's own (SetOps) *)
  ("Data", "UpdateNodeTmpIndexCommandStart"); (* written by Apply only, rebuilt as Index by Unmarshal; no apply function reads it *)
  ("Data", "AdminUserExists");                (* derived: recomputed from Users by Unmarshal *)
  ("Data", "SQLite");                         (* handle on an external store; only its presence is persisted *)
  ("MeasurementInfo", "originName");          (* cache: derived from Name by unmarshal *)
  ("MeasurementInfo", "tagKeysTotal");        (* cache: recounted from the schema by unmarshal *)
  ("MeasurementInfo", "SchemaLock")           (* lock *)
].

(* fields recorded as dropped by clone, marshal or unmarshal, each a finding (props/C15/findings.json). Listing a field takes it
   out of the persistent projection whether or not the code still drops it. *)
Definition known_gaps : list (string * string) := [
  ("MeasurementInfo", "ID");   (* C15-clone-mstid: clone omitted ID before /repo 5e36229; Gen_Fields.v lists it as cloned *)
  ("DataNode", "Index")        (* C15-datanode-index-not-persisted: marshal/unmarshal omit Index *)
].

(* types outside the property's catalogue: reachable only through transient fields (Op, SQLiteWrapper) or through
   Data.MigrateEvents (balancer events, not in the statement's list and not produced by the harness) *)
Definition skip_types : list string :=
  ["Op"; "SQLiteWrapper"; "MigrateEventInfo"; "DbPtInfo"; "DatabaseBriefInfo"; "ShardDurationInfo"; "ShardIdentifier"; "DurationDescriptor"].

Definition in_scope (tbl : list tyinfo) : list tyinfo := filter (fun t => negb (mem (ty_name t) skip_types)) tbl.

(* reference-typed fields that Clone shares with the live catalogue (finding C15-clone-aliasing): harmless only if the
   snapshot is marshalled before the next command is applied *)
Definition known_shallow : list (string * string) := [
  ("Data", "SqlNodes"); ("Data", "ReplicaGroups"); ("Data", "OpsMap"); ("Data", "SQLite");
  ("RetentionPolicyInfo", "Subscriptions"); ("RetentionPolicyInfo", "DownSamplePolicyInfo"); ("IndexGroupInfo", "ClearInfo")
].

Definition shallow_of (tbl : list tyinfo) : list (string * string) :=
  flat_map (fun t => map (fun f => (ty_name t, f)) (ty_shallow t)) tbl.

(* map ranges of the apply path whose outcome syntactically depends on the iteration order, with the reason each is harmless
   (or the finding that records it). A site is named by its function, the map FIELD it ranges over and its position among the
   order-dependent ranges over that field in the function (renaming a variable or touching another loop does not move it). *)
Definition S (f e : string) (n : nat) : site := {| s_func := f; s_expr := e; s_ord := n; s_choice := true |}.
Definition justified_choices : list site := [
  S "Data.CheckStreamExistInDatabase" "Streams" 1;       (* existence test: a disjunction over the elements *)
  S "Data.CheckStreamExistInMst" "Streams" 1;            (* existence test *)
  S "Data.CheckStreamExistInRetention" "Streams" 1;      (* existence test *)
  S "Data.CreateContinuousQueryBase" "Databases" 1;      (* existence test (name already used) *)
  S "Data.checkDDLConflict" "RetentionPolicies" 1;        (* existence test *)
  S "Data.checkDDLConflict" "Measurements" 1;             (* existence test *)
  S "Data.CreateShardGroup" "Measurements" 1;             (* any measurement: only its sharding type is used, uniform per policy *)
  S "RetentionPolicyInfo.validMeasurementShardType" "Measurements" 1; (* any other measurement: sharding type uniform per policy *)
  S "RetentionPolicyInfo.shardingType" "Measurements" 1;  (* last one wins: sharding type uniform per policy *)
  S "Data.DropMeasurement" "Measurements" 1;              (* search for a key: at most one element matches *)
  S "Data.mapShardsToMst" "Measurements" 1;               (* scratch variable declared outside the loop, written and read within one iteration *)
  S "Data.RecoverData" "PtView" 1;                   (* returns on a missing key of the map it ranges over: cannot happen *)
  S "storeFSM.applyDropDatabaseCommand" "ContinuousQueries" 1; (* removes names from the sorted scheduling list: set semantics, not catalogue *)
  S "Data.DropSubscription" "RetentionPolicies" 1          (* finding C15-dropsubscription-map-order; since /repo 3a19148 the walk goes in name order *)
].

(* Every access of the apply path (storeFSM.Apply/ApplyBatch/Restore/Snapshot/executeCmd and everything they reach) to a
   transient field, reviewed: a READ is harmless only because the value is re-established before it on every replica,
   whatever the replica restored from. C15_transient_access_reviewed checks one direction, for the exposable fields: every
   generated READ of one of them is in this list. That a re-establishing write listed here is still in the code is not
   checked by it (Model.access_reviewed would; no theorem uses it); for the other transient fields
   C15_transient_reads_dominated requires the write before every read. *)
Definition R (f fn : string) : access := (f, fn, "read").
Definition W (f fn : string) : access := (f, fn, "write").
Definition reviewed_access : list access := [
  (* derived from Users: recomputed by Unmarshal, maintained by CreateUser *)
  W "AdminUserExists" "Data.CreateUser";
  (* copied from the node's configuration immediately before the only reader (Data.CreateDataNode) runs: both apply
     handlers assign it first, so a restored replica (whose fresh Data has false) still behaves like the others *)
  R "ExpandShardsEnable" "Data.CreateDataNode";
  R "ExpandShardsEnable" "storeFSM.applyCreateDataNodeCommand"; W "ExpandShardsEnable" "storeFSM.applyCreateDataNodeCommand";
  R "ExpandShardsEnable" "storeFSM.applyCreateSqlNodeCommand"; W "ExpandShardsEnable" "storeFSM.applyCreateSqlNodeCommand";
  (* incremental-sync cache of applied commands: written after a command was applied, never consulted by an apply function
     to decide anything about the catalogue; Restore keeps the node's own cache (SetOps) *)
  R "OpsMap" "Data.AddCmdAsOpToOpMap"; R "OpsMap" "Data.SetOps"; W "OpsMap" "Data.SetOps";
  R "OpsMapMaxIndex" "Data.AddCmdAsOpToOpMap"; W "OpsMapMaxIndex" "Data.AddCmdAsOpToOpMap"; R "OpsMapMaxIndex" "Data.SetOps"; W "OpsMapMaxIndex" "Data.SetOps";
  R "OpsMapMinIndex" "Data.AddCmdAsOpToOpMap"; W "OpsMapMinIndex" "Data.AddCmdAsOpToOpMap"; R "OpsMapMinIndex" "Data.SetOps"; W "OpsMapMinIndex" "Data.SetOps";
  R "OpsToMarshalIndex" "Data.AddCmdAsOpToOpMap"; W "OpsToMarshalIndex" "Data.AddCmdAsOpToOpMap"; R "OpsToMarshalIndex" "Data.SetOps"; W "OpsToMarshalIndex" "Data.SetOps";
  R "opsMapMu" "Data.AddCmdAsOpToOpMap";
  (* external store handle: InsertFiles fails identically everywhere when it is absent; Store.close is not an apply function
     (reached by name only) *)
  R "SQLite" "Store.close"; R "SQLite" "storeFSM.applyInsertFilesCommand";
  (* lock *)
  R "SchemaLock" "Data.UpdateSchema"; R "SchemaLock" "MeasurementInfo.SchemaClean";
  (* written by Apply/ApplyBatch only *)
  W "UpdateNodeTmpIndexCommandStart" "storeFSM.ApplyBatch"; W "UpdateNodeTmpIndexCommandStart" "storeFSM.Apply";
  (* cache of the measurement's name without version: set by every constructor and by unmarshal, read by SchemaClean *)
  W "originName" "Data.RecoverDataBase"; W "originName" "Data.RecoverData"; R "originName" "Data.SchemaClean"; W "originName" "NewMeasurementInfo"
].

(* configuration switches read by the apply path. The differential draws the first six per case (all replicas of a case
   share one configuration, as the nodes of one cluster do: expand-shards-enable, retention-autocreate, use-inc-sync-data,
   schema-clean-en, ha-policy in its three values, replica distribution policy node-hard / az-hard); the others are fixed:
   JoinPeers and SQLiteEnabled are read by Store methods that are reached by name only and are not apply functions;
   IsLogKeeper at its default. A new switch read by the apply path breaks C15_switches_known. *)
Definition varied_switches : list string := ["ExpandShardsEnable"; "RetentionAutoCreate"; "UseIncSyncData"; "SchemaCleanEn"; "GetHaPolicy"; "repDisPolicy"].
Definition fixed_switches : list string := ["JoinPeers"; "SQLiteEnabled"; "IsLogKeeper"].

(* fields whose value may reach a reader of the apply path from BEFORE a restore (or as the zero value of a fresh Data)
   without harm. The translator computes the exposures (Gen_Transient.exposed_reads: a root of the apply path from which a
   chain of calls reaches a read of the field with no assignment to it earlier in the reading function or in a caller on
   the chain); every transient field NOT listed here must have none - its readers are dominated by a write on every path.
     OpsMap*, opsMapMu  incremental-sync cache of applied commands: AddCmdAsOpToOpMap and SetOps maintain the cache itself and
                        decide nothing about the catalogue; Restore deliberately keeps the node's own cache (SetOps)
     SQLite             handle on an external store (presence is persisted); InsertFiles is outside the modelled commands
     SchemaLock         a lock
     originName         derived from Name by every constructor and by unmarshal
   Not listed, hence required to be write-dominated or unread: ExpandShardsEnable, AdminUserExists,
   UpdateNodeTmpIndexCommandStart, tagKeysTotal. *)
Definition exposable_fields : list string :=
  ["OpsMap"; "OpsMapMinIndex"; "OpsMapMaxIndex"; "OpsToMarshalIndex"; "opsMapMu"; "SQLite"; "SchemaLock"; "originName"].

(* the command kinds of storeFSM.executeCmd's dispatch table (Gen_Commands.command_kinds, regenerated from the source):
   modelled in Coq (C16.Model.cmd through Cmds.Core, or a constructor of Cmds.xcmd; argument shapes as in NOTES.md) ... *)
Definition modelled_kinds : list string := [
  (* C16 catalogue core *)
  "CreateDatabaseCommand"; "MarkDatabaseDeleteCommand"; "DropDatabaseCommand"; "CreateRetentionPolicyCommand";
  "UpdateRetentionPolicyCommand"; "MarkRetentionPolicyDeleteCommand"; "DropRetentionPolicyCommand";
  "SetDefaultRetentionPolicyCommand"; "CreateMeasurementCommand"; "MarkMeasurementDeleteCommand"; "DropMeasurementCommand";
  "CreateShardGroupCommand"; "DeleteShardGroupCommand"; "PruneGroupsCommand"; "DeleteIndexGroupCommand";
  "CreateDataNodeCommand"; "CreateDbPtViewCommand"; "UpdatePtInfoCommand";
  (* coq/C15/Cmds.v *)
  "CreateUserCommand"; "DropUserCommand"; "UpdateUserCommand"; "SetPrivilegeCommand"; "SetAdminPrivilegeCommand";
  "CreateSubscriptionCommand"; "DropSubscriptionCommand"; "CreateContinuousQueryCommand"; "ContinuousQueryReportCommand";
  "DropContinuousQueryCommand"; "NotifyCQLeaseChangedCommand"; "CreateMetaNodeCommand"; "SetMetaNodeCommand";
  "DeleteMetaNodeCommand"; "CreateSqlNodeCommand"; "UpdateNodeTmpIndexCommand"; "MarkTakeoverCommand"; "MarkBalancerCommand";
  "VerifyDataNodeCommand"; "RegisterQueryIDOffsetCommand";
  "ExpandGroupsCommand";  (* any function of the catalogue in the theorems (config.cfg_expandf); C16.Expand.expand_groups in the correspondence *)
  "UpdatePtVersionCommand"; "UpdateNodeStatusCommand"; "UpdateSqlNodeStatusCommand"; "UpdateMetaNodeStatusCommand";
  "UpdateShardInfoTierCommand"; "UpdateIndexInfoTierCommand"; "CreateStreamCommand"; "DropStreamCommand";
  "RemoveNodeCommand"     (* C16.Model.RemoveNode; the per-node tables of Cmds.v follow the node list *)
].
(* ... or covered by the coverage tables and the five-replica differential only *)
Definition unmodelled_kinds : list string := [
  "SetDataCommand"; "DeleteDataNodeCommand"; "ReShardingCommand"; "UpdateSchemaCommand"; "AlterShardKeyCmd"; "CreateEventCommand"; "UpdateEventCommand"; "RemoveEventCommand";
  "CreateDownSamplePolicyCommand"; "DropDownSamplePolicyCommand"; "UpdateShardDownSampleInfoCommand"; "SetNodeSegregateStatusCommand";
  "UpdateReplicationCommand"; "UpdateMeasurementCommand"; "InsertFilesCommand"; "ReplaceMergeShardsCommand"; "RecoverMetaData"
].

(* ---- value-level gaps of the snapshot encoding ----
   `c15 values` (harness/cmd/c15/values.go) sets every leaf of a populated catalogue, one at a time, to the boundary values
   of its Go type and sends the catalogue through Clone -> MarshalBinary -> UnmarshalBinary. Gen_Values.value_mismatches
   lists (context path, value class, outcome) of every leaf that does not come back. Each must be explained here:
     identity     the field is the key under which unmarshal files the object (the object is found under its new name)
     finding:ID   a recorded finding (open: reported as KNOWN-FINDING; fixed and back: a violation)
     see:ID       an instance of a finding recorded under another property
     unreachable  no registered command can store that value (the reason follows)
     derived      recomputed by Unmarshal
     outside      outside the catalogue parts the statement lists
   "*" stands for every value class of the type. Outcomes other than differs / lost (errors, panics) are never accepted. *)
Definition G (ctx cls outc why : string) : string * string * string * string := (ctx, cls, outc, why).
Definition value_gaps : list (string * string * string * string) := [
  G "/Databases/[*]/Name" "*" "lost" "identity";
  G "/Databases/[*]/RetentionPolicies/[*]/Name" "*" "lost" "identity";
  G "/Databases/[*]/RetentionPolicies/[*]/Measurements/[*]/Name" "*" "lost" "identity";
  G "/Databases/[*]/ContinuousQueries/[*]/Name" "*" "lost" "identity";
  G "/Streams/[*]/Name" "*" "lost" "identity";
  G "/MigrateEvents/[*]/eventId" "*" "lost" "identity";
  G "/AdminUserExists" "false" "differs" "derived";
  G "/DataNodes/[*]/Index" "*" "differs" "finding:C15-datanode-index-not-persisted";
  G "/SqlNodes/[*]/Index" "*" "differs" "finding:C15-datanode-index-not-persisted";
  G "/Databases/[*]/ContinuousQueries/[*]/LastRunTime" "zero-time" "differs" "finding:C15-cq-lastruntime-zero";
  G "/Databases/[*]/ContinuousQueries/[*]/LastRunTime" "epoch" "differs" "unreachable: only with the repaired encoding (0 = never ran), where a reported instant 0 is stored as the zero time; the differential reports instant 0";
  G "/Databases/[*]/ContinuousQueries/[*]/LastRunTime" "after-int64-ns" "differs" "unreachable: set from an int64 of nanoseconds";
  G "/Databases/[*]/ContinuousQueries/[*]/LastRunTime" "before-int64-ns" "differs" "unreachable: set from an int64 of nanoseconds";
  G "/Databases/[*]/ShardKey/Type" "*" "differs" "finding:C15-database-shardkey-type-dropped";
  G "/Databases/[*]/ShardKey/ShardGroup" "*" "differs" "finding:C15-database-shardkey-type-dropped";
  G "/Databases/[*]/ReplicaN" "0" "differs" "unreachable: the handler passes at least 1";
  G "/Databases/[*]/RetentionPolicies/[*]/ReplicaN" "-1" "differs" "unreachable: the command carries a uint32";
  G "/Databases/[*]/RetentionPolicies/[*]/ReplicaN" "max-int64" "differs" "unreachable: the command carries a uint32";
  G "/Databases/[*]/RetentionPolicies/[*]/ReplicaN" "max-uint32+1" "differs" "unreachable: the command carries a uint32";
  G "/Databases/[*]/RetentionPolicies/[*]/ReplicaN" "min-int32-1" "differs" "unreachable: the command carries a uint32";
  G "/Databases/[*]/RetentionPolicies/[*]/ShardGroups/[*]/StartTime" "zero-time" "differs" "unreachable: no group starts in year 1 (0 on the wire is the epoch)";
  G "/Databases/[*]/RetentionPolicies/[*]/ShardGroups/[*]/StartTime" "before-int64-ns" "differs" "see:C16-restore-wraps-early-group-start";
  G "/Databases/[*]/RetentionPolicies/[*]/ShardGroups/[*]/StartTime" "after-int64-ns" "differs" "unreachable: instants of commands are int64 nanoseconds";
  G "/Databases/[*]/RetentionPolicies/[*]/ShardGroups/[*]/EndTime" "zero-time" "differs" "unreachable: no group ends in year 1";
  G "/Databases/[*]/RetentionPolicies/[*]/ShardGroups/[*]/EndTime" "before-int64-ns" "differs" "see:C16-restore-wraps-early-group-start";
  G "/Databases/[*]/RetentionPolicies/[*]/ShardGroups/[*]/EndTime" "after-int64-ns" "differs" "unreachable: ends are capped at MaxNanoTime + 1";
  G "/Databases/[*]/RetentionPolicies/[*]/ShardGroups/[*]/DeletedAt" "epoch" "differs" "unreachable: a wall-clock stamp";
  G "/Databases/[*]/RetentionPolicies/[*]/ShardGroups/[*]/TruncatedAt" "epoch" "differs" "unreachable: no registered command sets TruncatedAt";
  G "/Databases/[*]/RetentionPolicies/[*]/ShardGroups/[*]/TruncatedAt" "before-int64-ns" "differs" "unreachable: no registered command sets TruncatedAt";
  G "/Databases/[*]/RetentionPolicies/[*]/ShardGroups/[*]/TruncatedAt" "after-int64-ns" "differs" "unreachable: no registered command sets TruncatedAt";
  G "/Databases/[*]/RetentionPolicies/[*]/IndexGroups/[*]/StartTime" "zero-time" "differs" "unreachable: no group starts in year 1 (0 on the wire is the epoch)";
  G "/Databases/[*]/RetentionPolicies/[*]/IndexGroups/[*]/StartTime" "before-int64-ns" "differs" "see:C16-restore-wraps-early-group-start";
  G "/Databases/[*]/RetentionPolicies/[*]/IndexGroups/[*]/StartTime" "after-int64-ns" "differs" "unreachable: instants of commands are int64 nanoseconds";
  G "/Databases/[*]/RetentionPolicies/[*]/IndexGroups/[*]/EndTime" "zero-time" "differs" "unreachable: no group ends in year 1";
  G "/Databases/[*]/RetentionPolicies/[*]/IndexGroups/[*]/EndTime" "before-int64-ns" "differs" "see:C16-restore-wraps-early-group-start";
  G "/Databases/[*]/RetentionPolicies/[*]/IndexGroups/[*]/EndTime" "after-int64-ns" "differs" "unreachable: ends are capped at MaxNanoTime + 1";
  G "/Databases/[*]/RetentionPolicies/[*]/IndexGroups/[*]/DeletedAt" "epoch" "differs" "unreachable: a wall-clock stamp";
  G "/Databases/[*]/RetentionPolicies/[*]/Measurements/[*]/Options/ReadThreshold" "max-int32+1" "differs" "unreachable: the command carries an int32";
  G "/Databases/[*]/RetentionPolicies/[*]/Measurements/[*]/Options/ReadThreshold" "max-int64" "differs" "unreachable: the command carries an int32";
  G "/Databases/[*]/RetentionPolicies/[*]/Measurements/[*]/Options/ReadThreshold" "max-uint32+1" "differs" "unreachable: the command carries an int32";
  G "/Databases/[*]/RetentionPolicies/[*]/Measurements/[*]/Options/ReadThreshold" "min-int32-1" "differs" "unreachable: the command carries an int32";
  G "/Databases/[*]/RetentionPolicies/[*]/Measurements/[*]/Options/WriteThreshold" "max-int32+1" "differs" "unreachable: the command carries an int32";
  G "/Databases/[*]/RetentionPolicies/[*]/Measurements/[*]/Options/WriteThreshold" "max-int64" "differs" "unreachable: the command carries an int32";
  G "/Databases/[*]/RetentionPolicies/[*]/Measurements/[*]/Options/WriteThreshold" "max-uint32+1" "differs" "unreachable: the command carries an int32";
  G "/Databases/[*]/RetentionPolicies/[*]/Measurements/[*]/Options/WriteThreshold" "min-int32-1" "differs" "unreachable: the command carries an int32";
  G "/Databases/[*]/RetentionPolicies/[*]/Measurements/[*]/Options/StorageCapacity" "max-int32+1" "differs" "unreachable: the command carries an int32";
  G "/Databases/[*]/RetentionPolicies/[*]/Measurements/[*]/Options/StorageCapacity" "max-int64" "differs" "unreachable: the command carries an int32";
  G "/Databases/[*]/RetentionPolicies/[*]/Measurements/[*]/Options/StorageCapacity" "max-uint32+1" "differs" "unreachable: the command carries an int32";
  G "/Databases/[*]/RetentionPolicies/[*]/Measurements/[*]/Options/StorageCapacity" "min-int32-1" "differs" "unreachable: the command carries an int32";
  G "/MigrateEvents/[*]/preState" "0" "differs" "finding:C15-migrate-event-prestate-on-restore";
  G "/MigrateEvents/[*]/preState" "-1" "differs" "finding:C15-migrate-event-prestate-on-restore";
  G "/MigrateEvents/[*]/preState" "max-int32" "differs" "finding:C15-migrate-event-prestate-on-restore";
  G "/MigrateEvents/[*]/preState" "max-int32+1" "differs" "unreachable: the command carries an int32";
  G "/MigrateEvents/[*]/preState" "max-int64" "differs" "unreachable: the command carries an int32";
  G "/MigrateEvents/[*]/preState" "max-uint32+1" "differs" "unreachable: the command carries an int32";
  G "/MigrateEvents/[*]/preState" "min-int32-1" "differs" "unreachable: the command carries an int32";
  G "/MigrateEvents/[*]/currState" "max-int32+1" "differs" "unreachable: the command carries an int32";
  G "/MigrateEvents/[*]/currState" "max-int64" "differs" "unreachable: the command carries an int32";
  G "/MigrateEvents/[*]/currState" "max-uint32+1" "differs" "unreachable: the command carries an int32";
  G "/MigrateEvents/[*]/currState" "min-int32-1" "differs" "unreachable: the command carries an int32";
  G "/MigrateEvents/[*]/eventType" "max-int32+1" "differs" "unreachable: the command carries an int32";
  G "/MigrateEvents/[*]/eventType" "max-int64" "differs" "unreachable: the command carries an int32";
  G "/MigrateEvents/[*]/eventType" "max-uint32+1" "differs" "unreachable: the command carries an int32";
  G "/MigrateEvents/[*]/eventType" "min-int32-1" "differs" "unreachable: the command carries an int32";
  G "/Databases/[*]/RetentionPolicies/[*]/Measurements/[*]/ShardIdexes/[*]/[*]" "max-int32+1" "differs" "unreachable: positions in a shard list, written as int32";
  G "/Databases/[*]/RetentionPolicies/[*]/Measurements/[*]/ShardIdexes/[*]/[*]" "max-int64" "differs" "unreachable: positions in a shard list, written as int32";
  G "/Databases/[*]/RetentionPolicies/[*]/Measurements/[*]/ShardIdexes/[*]/[*]" "max-uint32+1" "differs" "unreachable: positions in a shard list, written as int32";
  G "/Databases/[*]/RetentionPolicies/[*]/Measurements/[*]/ShardIdexes/[*]/[*]" "min-int32-1" "differs" "unreachable: positions in a shard list, written as int32";
  G "/MigrateEvents/[*]/pt/Shards/[*]/Ident/StartTime" "epoch" "differs" "outside: balancer events; the shard durations a store attaches to an event go through MarshalTime/UnmarshalTime, where 0 is the zero time";
  G "/MigrateEvents/[*]/pt/Shards/[*]/Ident/StartTime" "before-int64-ns" "differs" "outside: balancer events; see:C16-restore-wraps-early-group-start";
  G "/MigrateEvents/[*]/pt/Shards/[*]/Ident/StartTime" "after-int64-ns" "differs" "unreachable: group ends are capped at MaxNanoTime + 1";
  G "/MigrateEvents/[*]/pt/Shards/[*]/Ident/EndTime" "epoch" "differs" "outside: balancer events; the shard durations a store attaches to an event go through MarshalTime/UnmarshalTime, where 0 is the zero time";
  G "/MigrateEvents/[*]/pt/Shards/[*]/Ident/EndTime" "before-int64-ns" "differs" "outside: balancer events; see:C16-restore-wraps-early-group-start";
  G "/MigrateEvents/[*]/pt/Shards/[*]/Ident/EndTime" "after-int64-ns" "differs" "unreachable: group ends are capped at MaxNanoTime + 1";
  G "/MigrateEvents/[*]/pt/DBBriefInfo/Name" "*" "differs" "outside: balancer events; marshal writes the partition's own database name, which is what the stores send";
  G "/MigrateEvents/[*]/pt/DBBriefInfo/Replicas" "max-int32+1" "differs" "unreachable: the command carries an int32";
  G "/MigrateEvents/[*]/pt/DBBriefInfo/Replicas" "max-int64" "differs" "unreachable: the command carries an int32";
  G "/MigrateEvents/[*]/pt/DBBriefInfo/Replicas" "max-uint32+1" "differs" "unreachable: the command carries an int32";
  G "/MigrateEvents/[*]/pt/DBBriefInfo/Replicas" "min-int32-1" "differs" "unreachable: the command carries an int32"
].
Definition gap_matches (m : string * string * string) (g : string * string * string * string) : bool :=
  match m, g with
  | (ctx, cls, outc), (gctx, gcls, goutc, _) => String.eqb ctx gctx && (String.eqb gcls "*" || String.eqb cls gcls) && String.eqb outc goutc
  end.

(* the readers of the exposable fields are reviewed by name: a NEW function of the apply path that reads one of them breaks
   C15_transient_access_reviewed (the other transient fields need no such list: their reads must be write-dominated,
   C15_transient_reads_dominated, whatever the functions are called) *)
Definition reads_reviewed (generated reviewed : list access) : bool :=
  forallb (fun a => negb (String.eqb (snd a) "read" && mem (fst (fst a)) exposable_fields) || existsb (access_eqb a) reviewed) generated.
