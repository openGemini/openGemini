(* C15 - uniform sharding is an invariant of the whole hand model (Cmds.x_apply over the oracle step of the core), so the
   convergence theorem needs it only for the initial catalogue. *)
From Coq Require Import ZArith List Bool Lia.
From OG Require Import C16.Model C16.ProofsInv C16.Order C16.Expand C15.Cmds C15.CmdsProofs C15.Uniform.
Import ListNotations.
Open Scope Z_scope.

(* C16.Expand.expand_groups leaves every policy the measurements it had (the instance of [expand_keeps] below) *)
Lemma expand_shards_msts : forall parts c p g, rp_msts (snd (fst (expand_shards c p g parts))) = rp_msts p.
Proof.
  induction parts as [|i r IH]; intros c p g; cbn [expand_shards]; [reflexivity|].
  destruct (ensure_ig c p (sg_start g) (sg_end g) (sg_eng g)) as [ig isnew]. rewrite IH. destruct isnew; reflexivity.
Qed.

Lemma expand_sgs_msts : forall l c p, rp_msts (snd (fst (expand_sgs c p l))) = rp_msts p.
Proof.
  induction l as [|g r IH]; intros c p; cbn [expand_sgs]; [reflexivity|].
  pose proof (expand_shards_msts (zseq (Z.of_nat (length (sg_shards g))) (Z.to_nat (ptnum c - Z.of_nat (length (sg_shards g))))) c p g) as E1.
  destruct (expand_shards c p g _) as [[c1 p1] g1]. cbn in E1.
  pose proof (IH c1 p1) as E2. destruct (expand_sgs c1 p1 r) as [[c2 p2] r1]. cbn in *. rewrite E2. exact E1.
Qed.

Lemma expand_pol_msts : forall c p, rp_msts (snd (expand_pol c p)) = rp_msts p.
Proof.
  intros c p. unfold expand_pol. destruct (expand_igs (ptnum c) (max_ix c) (rp_igs p)) as [mx igs1].
  pose proof (expand_sgs_msts (rp_sgs p) (set_sg_counters c (max_sg c) (max_sh c) (max_ig c) mx) (pol_set_igs p igs1)) as E.
  destruct (expand_sgs _ _ _) as [[c1 p1] sgs1]. cbn in *. exact E.
Qed.

Lemma expand_pols_msts : forall l c p', In p' (snd (expand_pols c l)) -> exists p, In p l /\ rp_msts p' = rp_msts p.
Proof.
  induction l as [|q r IH]; intros c p'; cbn [expand_pols]; [intros []|].
  pose proof (expand_pol_msts c q) as E. destruct (expand_pol c q) as [c1 q1]. cbn in E.
  specialize (IH c1). destruct (expand_pols c1 r) as [c2 r1]. cbn in *. intros [<-|H].
  - exists q. split; [left; reflexivity | exact E].
  - destruct (IH p' H) as (p & Hp & Ep). exists p. split; [right; exact Hp | exact Ep].
Qed.

Lemma in_insert_pol : forall x l y, In y (insert_pol x l) -> y = x \/ In y l.
Proof.
  intros x l y. induction l as [|a r IH]; cbn; [intros [H|[]]; left; symmetry; exact H|].
  destruct (Expand.pol_le x a); cbn; intros [H|H]; auto. destruct (IH H); auto.
Qed.
Lemma in_sort_pols : forall l y, In y (sort_pols l) -> In y l.
Proof.
  induction l as [|a r IH]; cbn; [tauto|]. intros y H. apply in_insert_pol in H. destruct H as [->|H]; [left; reflexivity | right; apply IH; exact H].
Qed.

Lemma expand_groups_keeps : forall c p', In p' (pols (expand_groups c)) -> exists p, In p (pols c) /\ rp_msts p' = rp_msts p.
Proof.
  intros c p'. unfold expand_groups. pose proof (expand_pols_msts (sort_pols (pols c)) c p') as E.
  destruct (expand_pols c (sort_pols (pols c))) as [c1 l]. cbn in *. intros H. destruct (E H) as (p & Hp & Ep).
  exists p. split; [apply in_sort_pols; exact Hp | exact Ep].
Qed.

Section UniformX.
  Variable st : mst -> Z.
  Variable range_create : cat -> policy -> Z -> Z -> cat * bool.
  Variables clip cleardef : bool.
  Variable v : variant.
  Variable cfg : config.
  (* the sharding type of a measurement does not depend on its deletion mark *)
  Hypothesis st_mark : forall x, st (mark_one x) = st x.
  Hypothesis st_unmark : forall x, st (ms_unmark x) = st x.
  Hypothesis range_keeps : forall c p t e, map rp_msts (pols (fst (range_create c p t e))) = map rp_msts (pols c).
  (* Data.ExpandGroups adds shards and indexes: every policy it leaves has the measurements of a policy it found *)
  Hypothesis expand_keeps : forall c p', In p' (pols (cfg_expandf cfg c)) -> exists p, In p (pols c) /\ rp_msts p' = rp_msts p.

  Notation UU := (all_uniform st).
  Notation DD := (derived st).
  Definition stepo (o : oracle) := stepO st range_create clip cleardef o.

  Lemma derived_trans : forall l1 l2 l3, DD l3 l2 -> DD l2 l1 -> DD l3 l1.
  Proof.
    unfold derived. intros l1 l2 l3 H32 H21. rewrite Forall_forall in *. intros p3 H3. destruct (H32 p3 H3) as (p2 & H2 & L32).
    destruct (H21 p2 H2) as (p1 & H1 & L21). exists p1. split; [exact H1|]. intros t Ht. apply L21, L32, Ht.
  Qed.

  Lemma derived_expand : forall c, DD (pols (cfg_expandf cfg c)) (pols c).
  Proof.
    intros c. apply Forall_forall. intros p' Hp'. destruct (expand_keeps c p' Hp') as (p & Hp & E).
    exists p. split; [exact Hp | apply pol_le_same; exact E].
  Qed.

  Lemma derived_protect : forall p c_old c_new, DD (pols (protect_msts p c_old c_new)) (pols c_new).
  Proof.
    intros p c_old c_new. unfold protect_msts. cbn. apply derived_map. intros q.
    destruct (find _ (pols c_old)); [|apply pol_le_refl].
    intros t Ht. unfold tl in *. cbn in Ht. rewrite map_map in Ht. apply in_map_iff in Ht. destruct Ht as (x & <- & Hx).
    apply in_map_iff. exists x. split; [|exact Hx]. destruct (_ && _ && _); [symmetry; apply st_unmark | reflexivity].
  Qed.

  (* the environment's guarantee about an entry: C15.Uniform.env_ok for a catalogue command *)
  Definition entry_env (s : xstate) (e : entry) : Prop :=
    match snd e with Core x => env_ok st (core (pp s)) x | _ => True end.

  Lemma dnode_uniform : forall s h t, UU (pols (core (pp s))) -> UU (pols (core (pp (fst (x_create_dnode v cfg s h t))))).
  Proof.
    intros s h t H. unfold x_create_dnode, rewrite_expand.
    assert (K : forall c, UU (pols c) -> UU (pols (fst (create_node c h t)))).
    { intros c Hc. rewrite create_node_pols. exact Hc. }
    destruct (v_rewrite v); cbn [pp tt witht withp]; destruct (existsb _ _ || existsb _ _); cbn [fst xok pp withp core];
      try (apply K; exact H);
      destruct (find _ (metas (pp s))); destruct (t_expand _) + idtac; cbn;
      try (eapply uniform_derived; [|apply derived_expand]); try (apply K; exact H); try exact H.
  Qed.

  Lemma x_apply_uniform : forall o pk s e, valid o -> uniform_sharding st (core (pp s)) -> entry_env s e ->
    uniform_sharding st (core (pp (fst (x_apply (stepo o) pk v cfg s e)))).
  Proof.
    intros o pk s [[tm ix] x] V HU E. apply uniform_iff. apply uniform_iff in HU. unfold entry_env in E. cbn [snd] in E.
    unfold x_apply.
    assert (G : UU (pols (core (pp (fst (exec (stepo o) pk v cfg s x)))))).
    { destruct (pols_cmd x) eqn:T; [|rewrite (proj2 (proj2 (exec_frame (stepo o) pk v cfg s x)) T); exact HU].
      destruct x; try discriminate; cbn [exec].
      - (* Core *)
        assert (S1 : forall y, env_ok st (core (pp s)) y -> UU (pols (fst (stepo o (core (pp s)) y)))).
        { intros y Ey. apply uniform_iff. apply applyO_uniform; [exact st_mark | exact range_keeps | exact V | apply uniform_iff; exact HU | exact Ey]. }
        unfold x_core. cbn zeta.
        destruct x; try (specialize (S1 _ E); destruct (stepo o (core (pp s)) _) as [c1 r]; cbn in *; exact S1).
        + (* MarkDb *) destruct (stream_on _ _); [exact HU|]. specialize (S1 _ E). destruct (stepo o _ _) as [c1 r]; cbn in *; exact S1.
        + (* DropDb *) destruct (find_db _ _); [|exact HU]. specialize (S1 _ E). destruct (stepo o _ _) as [c1 r]; cbn in *; exact S1.
        + (* MarkRp *) destruct (stream_on _ _); [exact HU|]. specialize (S1 _ E). destruct (stepo o _ _) as [c1 r]; cbn in *; exact S1.
        + (* MarkMst *) destruct (stream_on _ _); [exact HU|]. specialize (S1 _ E). destruct (stepo o _ _) as [c1 r]; cbn in *; exact S1.
        + (* PruneSg *) specialize (S1 _ E). destruct (stepo o _ _) as [c1 r]. cbn in *.
          eapply uniform_derived; [exact S1 | apply derived_protect].
        + (* CreateNode *) pose proof (dnode_uniform s http tcp HU) as D.
          destruct (x_create_dnode v cfg s http tcp) as [s1 r]. cbn in *. exact D.
        + (* UpdatePt *)
          destruct ((status =? 0) && node_alive (pp s) owner).
          * set (ch := set_nodes (core (pp s)) [] (max_node (core (pp s))) (max_conn (core (pp s))) (ptnum (core (pp s))) (ptview (core (pp s)))).
            assert (D : UU (pols (fst (stepo o ch (UpdatePt db pt cowner cstat owner status)))))
              by exact (uniform_keeps st st_mark ch _ (keeps_step clip cleardef ch (UpdatePt db pt cowner cstat owner status) eq_refl) HU).
            destruct (stepo o ch _) as [c1 r]. cbn in *. exact D.
          * specialize (S1 _ E). destruct (stepo o _ _) as [c1 r]; cbn in *; exact S1.
      - (* ExpandGroups *) cbn. eapply uniform_derived; [exact HU | apply derived_expand]. }
    destruct (exec (stepo o) pk v cfg s x) as [s1 r]. cbn [fst] in G.
    destruct (r && negb (is_tmpindex x)); cbn; exact G.
  Qed.

  (* the environment's guarantee along the run of the first replica *)
  Fixpoint env_along (os : list (oracle * (list Z -> option Z))) (s : xstate) (l : list entry) : Prop :=
    match l, os with
    | e :: r, (o, pk) :: os' => entry_env s e /\ env_along os' (fst (x_apply (stepo o) pk v cfg s e)) r
    | _, _ => True
    end.

  Lemma uniform_along_from_start : forall l os s, length os = length l -> Forall (fun o => valid (fst o)) os ->
    uniform_sharding st (core (pp s)) -> env_along os s l ->
    uniform_alongX st range_create clip cleardef v cfg os s l.
  Proof.
    induction l as [|e r IH]; intros os s L V HU E; destruct os as [|[o pk] os']; try discriminate; cbn; [exact I|].
    cbn in E. destruct E as [E0 E1]. inversion V; subst. cbn [fst] in *.
    split; [exact HU|]. apply IH; [cbn in L; lia | assumption | apply x_apply_uniform; assumption | exact E1].
  Qed.
End UniformX.
