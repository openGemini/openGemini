(* C18 - PromQL compatibility. Executable model over the rationals.

   Time stamps are integers (milliseconds, as in the Prometheus data model and in remote write); values are
   rationals. A binary64 float is a rational, so every stored sample is represented exactly; the arithmetic of
   the model is exact where the engines round (correspondence compares with relative tolerance 1e-9).

   The reference semantics (spec_...) follow the upstream engine pinned by the repository's go.mod
   (github.com/prometheus/prometheus v0.50.1 = Prometheus 2.50): range windows and the look-back window are
   CLOSED on both sides, [t - offset - range, t - offset]  (matrixIterSlice drops samples with T < mint only,
   vectorSelectorSingle rejects t < refTime - lookbackDelta only).  The left-open window of Prometheus 3.x does
   not apply to this version.

   The implementation semantics (impl_...) mirror engine/prom_functions.go: every reducer is a per-record
   `reduce` plus a cross-record `merge`; the window of one evaluation step may be cut into records anywhere. *)
From Coq Require Import String.
From Coq Require Import QArith ZArith List Bool.
Import ListNotations.
Open Scope Q_scope.

Definition sample := (Z * Q)%type.

Definition Qltb (a b : Q) : bool := negb (Qle_bool b a).

(* windows, instant selection                                                                            *)

Definition in_win (lo hi : Z) (s : sample) : bool := ((lo <=? fst s) && (fst s <=? hi))%Z.
Definition win_lo (t range offset : Z) : Z := (t - offset - range)%Z.
Definition win_hi (t offset : Z) : Z := (t - offset)%Z.
Definition window (t range offset : Z) (l : list sample) : list sample :=
  filter (in_win (win_lo t range offset) (win_hi t offset)) l.

Definition last_opt {A} (l : list A) : option A :=
  match l with [] => None | x :: r => Some (last r x) end.

(* upstream's defaultLookbackDelta, 5 minutes *)
Definition lookback : Z := 300000%Z.

(* newest sample not newer than t - offset and not older than the look-back delta, over samples without staleness
   markers (Model4.instant_select_stale is the selector over option-valued samples) *)
Definition instant_select (t offset : Z) (l : list sample) : option sample :=
  last_opt (window t lookback offset l).

(* extrapolatedRate (rate / increase / delta)                                                            *)

Definition ms_to_s (z : Z) : Q := inject_Z z / 1000.

(* one step of the counter-reset correction: state = (previous value, accumulated result) *)
Definition rstep (st : Q * Q) (cur : Q) : Q * Q :=
  (cur, if Qltb cur (fst st) then snd st + fst st else snd st).

(* extrapolation factor extrapolateToInterval / sampledInterval, from the first and last sample, the number
   of samples minus one and the raw (reset-corrected) increase; 11 # 10 is upstream's extrapolationThreshold, 1.1 average
   sample intervals *)
Definition extrap_factor (isCounter : bool) (rangeStart rangeEnd : Z) (t0 : Z) (v0 : Q) (tl : Z) (n1 : Z) (res : Q) : Q :=
  let dStart := ms_to_s (t0 - rangeStart) in
  let dEnd := ms_to_s (rangeEnd - tl) in
  let sampled := ms_to_s (tl - t0) in
  let avgd := sampled / inject_Z n1 in
  let dStart1 :=
    if isCounter && Qltb 0 res && Qle_bool 0 v0 then
      let dz := sampled * (v0 / res) in if Qltb dz dStart then dz else dStart
    else dStart in
  let thr := avgd * (11 # 10) in
  let ext := sampled + (if Qltb dStart1 thr then dStart1 else avgd / 2)
                     + (if Qltb dEnd thr then dEnd else avgd / 2) in
  ext / sampled.

(* upstream promql/functions.go extrapolatedRate on the samples w of one window *)
Definition spec_extrap (isCounter isRate : bool) (t range offset : Z) (w : list sample) : option Q :=
  match w with
  | [] => None
  | (t0, v0) :: rest =>
      match rest with
      | [] => None
      | _ :: _ =>
          let '(tl, vl) := last rest (t0, v0) in
          let n1 := Z.of_nat (length rest) in
          let res0 := vl - v0 in
          let res := if isCounter then snd (fold_left rstep (map snd rest) (v0, res0)) else res0 in
          let f := extrap_factor isCounter (win_lo t range offset) (win_hi t offset) t0 v0 tl n1 res in
          Some (res * (if isRate then f / ms_to_s range else f))
      end
  end.

Definition spec_rate := spec_extrap true true.
Definition spec_increase := spec_extrap true false.
Definition spec_delta := spec_extrap false false.

(* executor.CalcReduceResult on the two slices handed to the merge function *)
Definition calc_first_last (p c : list sample) : option (sample * sample) :=
  match p with
  | pf :: _ => Some (pf, match c with [] => last p pf | cf :: _ => last c cf end)
  | [] => match c with cf :: _ => Some (cf, last c cf) | [] => None end
  end.

(* the divisor applied by rate: the code before fix bd679fa computed float64(rangeDuration/1e9), an INTEGER division of
   the nanosecond range; the repaired code divides the float *)
Definition range_div_current (range : Z) : Q := inject_Z (range / 1000).
Definition range_div_repaired (range : Z) : Q := ms_to_s range.

(* engine/prom_functions.go floatPromRateMerge(isRate, isCounter) on (prev, curr) *)
Definition impl_extrap_merge (range_div : Z -> Q) (isCounter isRate : bool) (t range offset : Z) (p c : list sample) : option Q :=
  if (Z.of_nat (length p + length c) <=? 1)%Z then None else
  match calc_first_last p c with
  | None => None
  | Some ((t0, v0), (tl, vl)) =>
      if (tl =? t0)%Z || (range =? 0)%Z then None else
      let res0 := vl - v0 in
      let res := if isCounter
                 then snd (fold_left rstep (map snd c) (fold_left rstep (map snd p) (v0, res0)))
                 else res0 in
      let n1 := (Z.of_nat (length p + length c) - 1)%Z in
      let f := extrap_factor isCounter (win_lo t range offset) (win_hi t offset) t0 v0 tl n1 res in
      let r := res * f in
      Some (if isRate then r / range_div range else r)
  end.

(* a window cut into records r1 .. rn: the slice reducer keeps r1 ++ .. ++ r(n-1) in its buffer and merges it
   with the current record rn *)
Definition impl_extrap_split (range_div : Z -> Q) (isCounter isRate : bool) (t range offset : Z) (cut : list (list sample)) : option Q :=
  impl_extrap_merge range_div isCounter isRate t range offset (concat (removelast cut)) (last cut []).

Definition impl_rate_current := impl_extrap_split range_div_current true true.
Definition impl_rate_repaired := impl_extrap_split range_div_repaired true true.
Definition impl_increase := impl_extrap_split range_div_repaired true false.
Definition impl_delta := impl_extrap_split range_div_repaired false false.

(* irate / idelta                                                                                        *)

Definition last_two (w : list sample) : option (sample * sample) :=
  match rev w with
  | b :: a :: _ => Some (a, b)
  | _ => None
  end.

Definition instant_value (isRate : bool) (ab : sample * sample) : option Q :=
  let '((ta, va), (tb, vb)) := ab in
  if (tb =? ta)%Z then None else
  let d := if isRate && Qltb vb va then vb else vb - va in
  Some (if isRate then d / ms_to_s (tb - ta) else d).

Definition spec_instant (isRate : bool) (w : list sample) : option Q :=
  match last_two w with None => None | Some ab => instant_value isRate ab end.
Definition spec_irate := spec_instant true.
Definition spec_idelta := spec_instant false.

(* floatIRateReduce: the last two samples of a record (a single sample is duplicated), None for an empty one *)
Definition irate_reduce (r : list sample) : option (sample * sample) :=
  match rev r with
  | [] => None
  | [b] => Some (b, b)
  | b :: a :: _ => Some (a, b)
  end.

(* floatIRateUpdate: combine the state of the earlier records with the reduction of the next one *)
Definition irate_update (s1 s2 : sample * sample) : sample * sample :=
  if (fst (fst s2) <? fst (snd s2))%Z then s2 else (snd s1, snd s2).

Definition omerge {A} (m : A -> A -> A) (a b : option A) : option A :=
  match a, b with
  | None, x => x
  | x, None => x
  | Some x, Some y => Some (m x y)
  end.

Definition impl_instant_split (isRate : bool) (cut : list (list sample)) : option Q :=
  if (Z.of_nat (length (concat cut)) <? 2)%Z then None else
  match fold_left (omerge irate_update) (map irate_reduce cut) None with
  | None => None
  | Some ab => instant_value isRate ab
  end.

(* the *_over_time family: reduce per record, merge across records                                       *)

Definition vals (w : list sample) : list Q := map snd w.
Definition qsum (l : list Q) : Q := fold_left Qplus l 0.
Definition qmin2 (a b : Q) : Q := if Qltb b a then b else a.
Definition qmax2 (a b : Q) : Q := if Qltb a b then b else a.
Definition qlen (l : list Q) : Q := inject_Z (Z.of_nat (length l)).

(* upstream avg_over_time: incremental mean  mean += v/count - mean/count *)
Definition mean_step (st : Q * Q) (v : Q) : Q * Q :=
  let count := Qred (snd st + 1) in (Qred (fst st + (v / count - fst st / count)), count).
(* Qred only normalises the representation (Qred x == x); without it the denominators square at every step *)
Definition mean_inc (l : list Q) : Q := fst (fold_left mean_step l (0, 0)).

Definition nonempty {A B} (f : list A -> B) (l : list A) : option B :=
  match l with [] => None | _ :: _ => Some (f l) end.

Definition spec_sum_over_time (w : list sample) : option Q := nonempty qsum (vals w).
Definition spec_count_over_time (w : list sample) : option Q := nonempty qlen (vals w).
Definition spec_avg_over_time (w : list sample) : option Q := nonempty mean_inc (vals w).
Definition spec_min_over_time (w : list sample) : option Q :=
  match vals w with [] => None | x :: r => Some (fold_left qmin2 r x) end.
Definition spec_max_over_time (w : list sample) : option Q :=
  match vals w with [] => None | x :: r => Some (fold_left qmax2 r x) end.
Definition spec_last_over_time (w : list sample) : option Q := last_opt (vals w).

(* incremental reducers: state (value, count); empty records are skipped (isNil) *)
Definition inc_split {A} (reduce : list sample -> option A) (merge : A -> A -> A) (cut : list (list sample)) : option A :=
  fold_left (omerge merge) (map reduce cut) None.

Definition impl_sum_over_time := inc_split spec_sum_over_time Qplus.
Definition impl_count_over_time := inc_split spec_count_over_time Qplus.
Definition impl_min_over_time := inc_split spec_min_over_time qmin2.
Definition impl_max_over_time := inc_split spec_max_over_time qmax2.
Definition impl_last_over_time := inc_split spec_last_over_time (fun _ b : Q => b).

Definition avg_reduce (r : list sample) : option (Q * Q) :=
  match vals r with [] => None | l => Some (mean_inc l, qlen l) end.
Definition avg_merge (a b : Q * Q) : Q * Q :=
  ((fst a * snd a + fst b * snd b) / (snd a + snd b), snd a + snd b).
Definition impl_avg_over_time (cut : list (list sample)) : option Q :=
  option_map fst (inc_split avg_reduce avg_merge cut).

(* changes / resets                                                                                      *)

Definition count_step (differs : Q -> Q -> bool) (st : Q * Z) (cur : Q) : Q * Z :=
  (cur, if differs (fst st) cur then (snd st + 1)%Z else snd st).
Definition changed (prev cur : Q) : bool := negb (Qeq_bool cur prev).
Definition dropped (prev cur : Q) : bool := Qltb cur prev.

Definition spec_count_pairs (differs : Q -> Q -> bool) (w : list sample) : option Q :=
  match vals w with
  | [] => None
  | x :: r => Some (inject_Z (snd (fold_left (count_step differs) r (x, 0%Z))))
  end.
Definition spec_changes := spec_count_pairs changed.
Definition spec_resets := spec_count_pairs dropped.

(* executor.CalcChange / CalcResets on (prev, curr) *)
Definition impl_count_pairs_merge (differs : Q -> Q -> bool) (p c : list sample) : option Q :=
  match vals p, vals c with
  | [], [] => None
  | x :: r, cv => Some (inject_Z (snd (fold_left (count_step differs) cv (fold_left (count_step differs) r (x, 0%Z)))))
  | [], x :: r => Some (inject_Z (snd (fold_left (count_step differs) r (x, 0%Z))))
  end.
Definition impl_count_pairs_split (differs : Q -> Q -> bool) (cut : list (list sample)) : option Q :=
  impl_count_pairs_merge differs (concat (removelast cut)) (last cut []).
Definition impl_changes := impl_count_pairs_split changed.
Definition impl_resets := impl_count_pairs_split dropped.

(* range queries                                                                                         *)

(* evaluation steps start, start+step, ... <= end  (fuel-free: n = (end-start)/step + 1 steps) *)
Definition steps (start stop step : Z) : list Z :=
  if (step <=? 0)%Z || (stop <? start)%Z then []
  else map (fun k => (start + Z.of_nat k * step)%Z) (seq 0 (Z.to_nat ((stop - start) / step) + 1)).

Section Queries.
  Variable L : Type.                                   (* label sets *)
  Variable eval : list sample -> Z -> option Q.        (* an instant-vector expression on one series at time t *)

  Definition series := (L * list sample)%type.

  (* instant query: one element per series that has a value at t *)
  Definition instant_query (db : list series) (t : Z) : list (L * Q) :=
    flat_map (fun s => match eval (snd s) t with Some v => [(fst s, v)] | None => [] end) db.

  (* range query as the engines return it: per series the list of (step, value) *)
  Definition range_query (db : list series) (start stop step : Z) : list (L * list (Z * Q)) :=
    map (fun s => (fst s, flat_map (fun t => match eval (snd s) t with Some v => [(t, v)] | None => [] end)
                                   (steps start stop step))) db.
End Queries.

(* aggregation by / without                                                                              *)

Definition labels := list (string * string).
Definition name_label : string := "__name__".

Definition mem_str (s : string) (l : list string) : bool := existsb (String.eqb s) l.
Definition key_by (G : list string) (ls : labels) : labels := filter (fun kv => mem_str (fst kv) G) ls.
Definition key_without (G : list string) (ls : labels) : labels :=
  filter (fun kv => negb (mem_str (fst kv) G) && negb (String.eqb (fst kv) name_label)) ls.
Definition group_key (without : bool) (G : list string) (ls : labels) : labels :=
  if without then key_without G ls else key_by G ls.

Definition label_eqb (a b : string * string) : bool := String.eqb (fst a) (fst b) && String.eqb (snd a) (snd b).
Fixpoint labels_eqb (a b : labels) : bool :=
  match a, b with
  | [], [] => true
  | x :: a', y :: b' => label_eqb x y && labels_eqb a' b'
  | _, _ => false
  end.

Definition elem := (labels * Q)%type.

Fixpoint insert_group (k : labels) (e : elem) (gs : list (labels * list elem)) : list (labels * list elem) :=
  match gs with
  | [] => [(k, [e])]
  | (k', es) :: r => if labels_eqb k k' then (k', es ++ [e]) :: r else (k', es) :: insert_group k e r
  end.

Definition groups (without : bool) (G : list string) (vec : list elem) : list (labels * list elem) :=
  fold_left (fun gs e => insert_group (group_key without G (fst e)) e gs) vec [].

Inductive aggop := AggSum | AggAvg | AggMin | AggMax | AggCount.

Definition agg_values (op : aggop) (vs : list Q) : Q :=
  match op with
  | AggSum => qsum vs
  | AggAvg => mean_inc vs
  | AggMin => match vs with [] => 0 | x :: r => fold_left qmin2 r x end
  | AggMax => match vs with [] => 0 | x :: r => fold_left qmax2 r x end
  | AggCount => qlen vs
  end.

Definition aggregate (op : aggop) (without : bool) (G : list string) (vec : list elem) : list elem :=
  map (fun g => (fst g, agg_values op (map snd (snd g)))) (groups without G vec).
