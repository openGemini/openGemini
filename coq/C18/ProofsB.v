(* C18 proofs: the *_over_time family (sum count min max last avg). One theorem: a reducer that is computed record by
   record and merged across records gives the reducer of the whole window as soon as two non-empty pieces combine by
   the merge function; the six functions are instances. *)
From Coq Require Import QArith List Lia Lqa.
From OG Require Import C18.Model.
From OG Require Import C18.ProofsA.
Import ListNotations.
Open Scope Q_scope.

Lemma vals_app x y : vals (x ++ y) = vals x ++ vals y.
Proof. apply map_app. Qed.
Lemma len_vals_app (p c : list sample) : (length p + length c)%nat = length (vals p ++ vals c).
Proof. unfold vals. rewrite app_length, !map_length. reflexivity. Qed.

Section IncFold.
  Variable A : Type.
  Variable eqA : A -> A -> Prop.
  Hypothesis eqA_equiv : Equivalence eqA.
  Variable merge : A -> A -> A.
  Hypothesis merge_proper : Proper (eqA ==> eqA ==> eqA) merge.

  Notation oeq := (oeq A eqA).

  Lemma omerge_proper a a' b b' : oeq a a' -> oeq b b' -> oeq (omerge merge a b) (omerge merge a' b').
  Proof. destruct a, a', b, b'; simpl; auto; try tauto. intros H1 H2. now apply merge_proper. Qed.

  Section Reduce.
    Variable reduce : list sample -> option A.
    Hypothesis reduce_nil : reduce [] = None.
    Hypothesis hom : forall x y, oeq (reduce (x ++ y)) (omerge merge (reduce x) (reduce y)).

    Lemma inc_fold_gen cut : forall acc d, oeq acc (reduce d) ->
      oeq (fold_left (omerge merge) (map reduce cut) acc) (reduce (d ++ concat cut)).
    Proof.
      induction cut as [|x cut IH]; simpl; intros acc d H.
      - rewrite app_nil_r. exact H.
      - rewrite app_assoc. apply IH. eapply (oeq_trans A eqA eqA_equiv); [|apply (oeq_sym A eqA eqA_equiv), hom].
        apply omerge_proper; [exact H|apply (oeq_refl A eqA eqA_equiv)].
    Qed.

    Theorem inc_split_whole cut : oeq (inc_split reduce merge cut) (reduce (concat cut)).
    Proof. apply (inc_fold_gen cut None []). rewrite reduce_nil. exact I. Qed.
  End Reduce.

  (* a reducer of the values only: it is enough that two NON-EMPTY pieces combine by merge *)
  Theorem vals_split_whole (R : list Q -> option A) :
    R [] = None ->
    (forall a l1 b l2, oeq (R ((a :: l1) ++ b :: l2)) (omerge merge (R (a :: l1)) (R (b :: l2)))) ->
    forall cut, oeq (inc_split (fun w => R (vals w)) merge cut) (R (vals (concat cut))).
  Proof.
    intros Hnil H. apply inc_split_whole; [exact Hnil|]. intros x y. cbv beta. rewrite vals_app.
    destruct (vals x) as [|a l1]; [rewrite Hnil; simpl; apply (oeq_refl A eqA eqA_equiv)|].
    destruct (vals y) as [|b l2]; [|apply H].
    rewrite app_nil_r, Hnil. destruct (R (a :: l1)); apply (oeq_refl A eqA eqA_equiv).
  Qed.
End IncFold.

Lemma fold_plus_acc l : forall a, fold_left Qplus l a == a + qsum l.
Proof.
  unfold qsum. induction l as [|x l IH]; simpl; intros a.
  - ring.
  - rewrite IH. rewrite (IH (0 + x)). ring.
Qed.
Lemma qsum_cons x l : qsum (x :: l) == x + qsum l.
Proof. unfold qsum at 1. simpl. rewrite fold_plus_acc. ring. Qed.
Lemma qsum_app l1 l2 : qsum (l1 ++ l2) == qsum l1 + qsum l2.
Proof. induction l1 as [|x l1 IH]; simpl. - unfold qsum at 2. simpl. ring. - rewrite !qsum_cons, IH. ring. Qed.
Lemma qlen_app l1 l2 : qlen (l1 ++ l2) == qlen l1 + qlen l2.
Proof. unfold qlen. rewrite app_length, Nat2Z.inj_add, inject_Z_plus. reflexivity. Qed.
Lemma qlen_cons x l : qlen (x :: l) == 1 + qlen l.
Proof. change (x :: l) with ([x] ++ l). rewrite qlen_app. reflexivity. Qed.
Lemma qlen_nonneg l : 0 <= qlen l.
Proof. unfold qlen. change 0 with (inject_Z 0). rewrite <- Zle_Qle. lia. Qed.
Lemma qlen_pos x l : 0 < qlen (x :: l).
Proof. rewrite qlen_cons. pose proof (qlen_nonneg l). lra. Qed.

Theorem sum_split_equals_whole cut : oQeq (impl_sum_over_time cut) (spec_sum_over_time (concat cut)).
Proof.
  apply (vals_split_whole Q Qeq Q_Setoid Qplus Qplus_comp (nonempty qsum)); [reflexivity|].
  intros a l1 b l2. exact (qsum_app (a :: l1) (b :: l2)).
Qed.

Ltac qcases :=
  repeat match goal with
  | |- context [Qltb ?a ?b] => let E := fresh "E" in destruct (Qltb a b) eqn:E; [apply Qltb_lt in E | apply Qltb_nlt in E]
  | H : context [Qltb ?a ?b] |- _ => let E := fresh "E" in destruct (Qltb a b) eqn:E; [apply Qltb_lt in E | apply Qltb_nlt in E]
  end.

Lemma qmin2_assoc a b c : qmin2 (qmin2 a b) c == qmin2 a (qmin2 b c).
Proof. unfold qmin2. qcases; try reflexivity; lra. Qed.
Lemma qmax2_assoc a b c : qmax2 (qmax2 a b) c == qmax2 a (qmax2 b c).
Proof. unfold qmax2. qcases; try reflexivity; lra. Qed.
Global Instance qmin2_comp : Proper (Qeq ==> Qeq ==> Qeq) qmin2.
Proof. intros a b H c d H'. unfold qmin2. rewrite H, H'. destruct (Qltb d b); auto. Qed.
Global Instance qmax2_comp : Proper (Qeq ==> Qeq ==> Qeq) qmax2.
Proof. intros a b H c d H'. unfold qmax2. rewrite H, H'. destruct (Qltb b d); auto. Qed.

Section FoldAssoc.
  Variable f : Q -> Q -> Q.
  Hypothesis f_comp : Proper (Qeq ==> Qeq ==> Qeq) f.
  Hypothesis f_assoc : forall a b c, f (f a b) c == f a (f b c).
  Lemma fold_comp l : forall a b, a == b -> fold_left f l a == fold_left f l b.
  Proof. induction l; simpl; intros; auto. apply IHl. rewrite H. reflexivity. Qed.
  Lemma fold_assoc l : forall a b, fold_left f l (f a b) == f a (fold_left f l b).
  Proof. induction l as [|x l IH]; simpl; intros. reflexivity. rewrite <- IH. apply fold_comp. apply f_assoc. Qed.
  Lemma fold_app_assoc l1 l2 a b : fold_left f (l1 ++ b :: l2) a == f (fold_left f l1 a) (fold_left f l2 b).
  Proof. rewrite fold_left_app. simpl. apply fold_assoc. Qed.

  Theorem fold_split_whole cut :
    oQeq (inc_split (fun w => match vals w with [] => None | x :: r => Some (fold_left f r x) end) f cut)
         (match vals (concat cut) with [] => None | x :: r => Some (fold_left f r x) end).
  Proof.
    apply (vals_split_whole Q Qeq Q_Setoid f f_comp (fun l => match l with [] => None | x :: r => Some (fold_left f r x) end));
      [reflexivity|].
    intros a l1 b l2. exact (fold_app_assoc l1 l2 a b).
  Qed.
End FoldAssoc.

Lemma last_opt_app {A} (l1 l2 : list A) :
  last_opt (l1 ++ l2) = match last_opt l2 with Some v => Some v | None => last_opt l1 end.
Proof.
  destruct l2 as [|b l2]. - rewrite app_nil_r. reflexivity.
  - destruct l1 as [|a l1]; [reflexivity|]. simpl. f_equal. rewrite last_app_ne by congruence.
    destruct l2 as [|b' l2]; [reflexivity|]. change (last (b :: b' :: l2) a) with (last (b' :: l2) a).
    apply last_indep. congruence.
Qed.

Theorem last_split_equals_whole cut : oQeq (impl_last_over_time cut) (spec_last_over_time (concat cut)).
Proof.
  apply (vals_split_whole Q Qeq Q_Setoid (fun _ b : Q => b) (fun _ _ _ _ _ H => H) last_opt); [reflexivity|].
  intros a l1 b l2. rewrite last_opt_app. apply oQeq_refl.
Qed.

Lemma mean_fold l : forall m c, 0 <= c ->
  snd (fold_left mean_step l (m, c)) == c + qlen l /\
  fst (fold_left mean_step l (m, c)) * snd (fold_left mean_step l (m, c)) == m * c + qsum l.
Proof.
  induction l as [|v l IH]; intros m c Hc.
  - simpl. unfold qlen, qsum. simpl. split; ring.
  - simpl fold_left. unfold mean_step at 2 4 6. simpl fst. simpl snd.
    assert (Hc1 : 0 <= Qred (c + 1)) by (rewrite Qred_correct; lra).
    destruct (IH (Qred (m + (v / Qred (c + 1) - m / Qred (c + 1)))) (Qred (c + 1)) Hc1) as [H1 H2].
    split.
    + rewrite H1, qlen_cons, Qred_correct. ring.
    + rewrite H2, qsum_cons, !Qred_correct. field. lra.
Qed.

Lemma mean_inc_sum l : mean_inc l * qlen l == qsum l.
Proof.
  unfold mean_inc. destruct (mean_fold l 0 0 (Qle_refl 0)) as [H1 H2].
  assert (H1' : snd (fold_left mean_step l (0, 0)) == qlen l) by (rewrite H1; ring).
  rewrite <- H1'. rewrite H2. ring.
Qed.

Definition pair_eq (a b : Q * Q) : Prop := fst a == fst b /\ snd a == snd b.
Lemma pair_eq_equiv : Equivalence pair_eq.
Proof.
  split.
  - intros a; split; reflexivity.
  - intros a b [H1 H2]; split; symmetry; auto.
  - intros a b c [H1 H2] [H3 H4]; split; etransitivity; eauto.
Qed.

Lemma avg_merge_proper : Proper (pair_eq ==> pair_eq ==> pair_eq) avg_merge.
Proof.
  intros a a' [H1 H2] b b' [H3 H4]. unfold pair_eq, avg_merge. cbn [fst snd]. rewrite H1, H2, H3, H4. split; reflexivity.
Qed.

Lemma mean_inc_app u w : 0 < qlen u -> 0 < qlen w ->
  mean_inc (u ++ w) == (mean_inc u * qlen u + mean_inc w * qlen w) / (qlen u + qlen w).
Proof.
  intros Hu Hw. apply (Qmult_inj_r _ _ (qlen u + qlen w)); [lra|].
  rewrite <- qlen_app at 1. rewrite mean_inc_sum, qsum_app, <- !mean_inc_sum. field. lra.
Qed.

