(* C18 proofs, part H: the step-by-step walk of a vector-vector operator in a range query, bounded by the tag group
   (repaired), returns exactly the steps at which both matched series have a value. *)

From Coq Require Import ZArith List Lia.
From OG Require Import C18.Model3 C18.ProofsA.
Import ListNotations.

Lemma join_spec_nil_r f s : join_spec f s [] = [].
Proof. unfold join_spec. induction s as [|r s IH]; simpl; auto. Qed.

Lemma value_at_skip t x p : fst x <> t -> value_at t (x :: p) = value_at t p.
Proof. intros H. unfold value_at. simpl. destruct (fst x =? t)%Z eqn:E; [apply Z.eqb_eq in E; contradiction|reflexivity]. Qed.

Lemma join_spec_skip f s x p : (forall r, In r s -> fst r <> fst x) -> join_spec f s (x :: p) = join_spec f s p.
Proof.
  intros H. unfold join_spec. induction s as [|r s IH]; simpl; [reflexivity|].
  rewrite value_at_skip; [|intro E; apply (H r (or_introl eq_refl)); symmetry; exact E].
  rewrite IH; [reflexivity|]. intros r' Hin. apply H. right. exact Hin.
Qed.

Lemma value_at_none_later t p : (forall r, In r p -> (t < fst r)%Z) -> value_at t p = None.
Proof.
  induction p as [|x p IH]; intros H; [reflexivity|]. rewrite value_at_skip.
  - apply IH. intros r Hin. apply H. right. exact Hin.
  - specialize (H x (or_introl eq_refl)). lia.
Qed.

Lemma join_walk_spec f : forall fuel s p, (length s + length p <= fuel)%nat ->
  times_increasing s -> times_increasing p -> join_walk f fuel s p = join_spec f s p.
Proof.
  induction fuel as [|k IH]; intros s p Hf Hs Hp.
  - destruct s; [reflexivity|simpl in Hf; lia].
  - destruct s as [|[ts vs] s']; [reflexivity|]. destruct p as [|[tp vp] p']; [rewrite join_spec_nil_r; reflexivity|].
    cbn [join_walk]. simpl in Hf.
    destruct (proj1 (times_increasing_cons _ _) Hs) as [Hs' Hsl]. destruct (proj1 (times_increasing_cons _ _) Hp) as [Hp' Hpl].
    cbn [fst] in Hsl, Hpl.
    destruct (tp <? ts)%Z eqn:E1; [|destruct (ts <? tp)%Z eqn:E2].
    + apply Z.ltb_lt in E1. rewrite IH; [|simpl; lia|exact Hs|exact Hp'].
      symmetry. apply join_spec_skip. intros r [<-|Hin]; simpl; [lia|]. specialize (Hsl r Hin). lia.
    + apply Z.ltb_lt in E2. rewrite IH; [|simpl; lia|exact Hs'|exact Hp].
      unfold join_spec at 2. cbn [flat_map fst snd]. rewrite value_at_none_later; [reflexivity|].
      intros r [<-|Hin]; simpl; [lia|]. specialize (Hpl r Hin). lia.
    + apply Z.ltb_ge in E1, E2. assert (ts = tp) by lia. subst tp.
      rewrite IH; [|simpl; lia|exact Hs'|exact Hp'].
      unfold join_spec at 2. cbn [flat_map fst snd]. unfold value_at at 1. cbn [find fst]. rewrite Z.eqb_refl. cbn [option_map snd app].
      f_equal. fold (join_spec f s' ((ts, vp) :: p')). symmetry. apply join_spec_skip.
      intros r Hin. simpl. specialize (Hsl r Hin). lia.
Qed.

