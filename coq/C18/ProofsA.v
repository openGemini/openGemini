(* C18 proofs: equality of optional results up to ==, increasing sample lists, and extrapolatedRate (rate / increase /
   delta): merging the buffered records with the current one = upstream's function on the whole window. *)
From Coq Require Import QArith List Lia Sorted.
From OG Require Import C18.Model.
Import ListNotations.
Open Scope Q_scope.

Section OptEq.
  Variable A : Type.
  Variable eqA : A -> A -> Prop.
  Hypothesis eqA_equiv : Equivalence eqA.

  Definition oeq (x y : option A) : Prop :=
    match x, y with Some a, Some b => eqA a b | None, None => True | _, _ => False end.

  Lemma oeq_refl x : oeq x x.
  Proof. destruct x; simpl; auto. reflexivity. Qed.
  Lemma oeq_sym x y : oeq x y -> oeq y x.
  Proof. destruct x, y; simpl; auto. intros; symmetry; auto. Qed.
  Lemma oeq_trans x y z : oeq x y -> oeq y z -> oeq x z.
  Proof. destruct x, y, z; simpl; auto; try tauto. intros; etransitivity; eauto. Qed.
End OptEq.

Definition oQeq (a b : option Q) : Prop :=
  match a, b with Some x, Some y => x == y | None, None => True | _, _ => False end.

Lemma oQeq_refl a : oQeq a a.
Proof. exact (oeq_refl Q Qeq Q_Setoid a). Qed.
Lemma oQeq_sym a b : oQeq a b -> oQeq b a.
Proof. exact (oeq_sym Q Qeq Q_Setoid a b). Qed.
Lemma oQeq_trans a b c : oQeq a b -> oQeq b c -> oQeq a c.
Proof. exact (oeq_trans Q Qeq Q_Setoid a b c). Qed.

Lemma Qltb_irrefl x : Qltb x x = false.
Proof. unfold Qltb. rewrite (proj2 (Qle_bool_iff x x)); [reflexivity | apply Qle_refl]. Qed.

Lemma Qltb_lt a b : Qltb a b = true <-> a < b.
Proof.
  unfold Qltb. rewrite negb_true_iff. split; intro H.
  - apply Qnot_le_lt. intro Hle. apply Qle_bool_iff in Hle. congruence.
  - destruct (Qle_bool b a) eqn:E; auto. apply Qle_bool_iff in E. exfalso. eapply Qlt_not_le; eauto.
Qed.

Lemma Qltb_nlt a b : Qltb a b = false <-> b <= a.
Proof. unfold Qltb. rewrite negb_false_iff. apply Qle_bool_iff. Qed.

Global Instance Qltb_comp : Proper (Qeq ==> Qeq ==> eq) Qltb.
Proof. intros a b H c d H'. unfold Qltb. rewrite H, H'. reflexivity. Qed.

Definition times_increasing (w : list sample) : Prop := StronglySorted Z.lt (map fst w).

Lemma times_increasing_cons x l :
  times_increasing (x :: l) <-> times_increasing l /\ (forall r, In r l -> (fst x < fst r)%Z).
Proof.
  unfold times_increasing. cbn [map]. split.
  - intros H. apply StronglySorted_inv in H. destruct H as [H1 H2]. split; [exact H1|].
    intros r Hr. rewrite Forall_forall in H2. apply H2, in_map, Hr.
  - intros [H1 H2]. constructor; [exact H1|]. apply Forall_forall. intros y Hy.
    apply in_map_iff in Hy. destruct Hy as [r [<- Hr]]. now apply H2.
Qed.

Lemma last_In {A} (l : list A) d : l <> [] -> In (last l d) l.
Proof. intros H. destruct (exists_last H) as [l' [a ->]]. rewrite last_last. apply in_or_app. right. now left. Qed.

Lemma last_opt_In {A} (l : list A) x : last_opt l = Some x -> In x l.
Proof.
  destruct l as [|y r]; [discriminate|]. intros H. injection H as <-.
  destruct r; [now left|]. right. apply last_In. discriminate.
Qed.

Lemma last_indep {A} (l : list A) d d' : l <> [] -> last l d = last l d'.
Proof. induction l as [|x l IH]; [congruence|]. intros _. destruct l; [reflexivity|]. simpl in *. apply IH. congruence. Qed.

Lemma last_app_ne {A} (l m : list A) d : m <> [] -> last (l ++ m) d = last m d.
Proof.
  intros Hm. induction l as [|x l IH]; [reflexivity|]. simpl app.
  assert (Hn : l ++ m <> []) by (intro E; apply app_eq_nil in E; tauto).
  destruct (l ++ m) eqn:E; [congruence|]. exact IH.
Qed.

Lemma last_cons_self {A} (l : list A) x : last (x :: l) x = last l x.
Proof. destruct l; reflexivity. Qed.

Lemma concat_removelast_last {A} (cut : list (list A)) :
  concat (removelast cut) ++ last cut [] = concat cut.
Proof.
  destruct cut as [|x cut]; [reflexivity|].
  assert (H : x :: cut <> []) by congruence.
  rewrite (app_removelast_last [] H) at 3. rewrite concat_app. simpl. rewrite app_nil_r. reflexivity.
Qed.

(* a slice reducer keeps the earlier records in its buffer and merges the buffer with the current record: what its merge
   function does to any two pieces, the split form does to any cut *)
Lemma split_of_merge {B} (R : B -> B -> Prop) (merge : list sample -> list sample -> B) (spec : list sample -> B) :
  (forall p c, R (merge p c) (spec (p ++ c))) ->
  forall cut, R (merge (concat (removelast cut)) (last cut [])) (spec (concat cut)).
Proof. intros H cut. rewrite <- (concat_removelast_last cut). apply H. Qed.

Lemma calc_first_last_whole p c :
  calc_first_last p c = match p ++ c with [] => None | x :: r => Some (x, last r x) end.
Proof.
  destruct p as [|pf p]; destruct c as [|cf c]; unfold calc_first_last; try reflexivity.
  - rewrite last_cons_self. reflexivity.
  - rewrite app_nil_r. rewrite last_cons_self. reflexivity.
  - change ((pf :: p) ++ cf :: c) with (pf :: (p ++ cf :: c)). cbv iota.
    f_equal. f_equal. rewrite last_app_ne by congruence. apply last_indep. congruence.
Qed.

Lemma rstep_self v a : rstep (v, a) v = (v, a).
Proof. unfold rstep. simpl. rewrite Qltb_irrefl. reflexivity. Qed.

Lemma sorted_last_gt t0 v0 rest d tl vl :
  times_increasing ((t0, v0) :: rest) -> rest <> [] -> last rest d = (tl, vl) -> (t0 < tl)%Z.
Proof.
  intros Hs Hne El. apply times_increasing_cons in Hs. change tl with (fst (tl, vl)). rewrite <- El.
  apply (proj2 Hs), last_In, Hne.
Qed.

Lemma merge_equals_whole ic ir t range offset p c :
  times_increasing (p ++ c) -> (0 < range)%Z ->
  oQeq (impl_extrap_merge range_div_repaired ic ir t range offset p c) (spec_extrap ic ir t range offset (p ++ c)).
Proof.
  intros Hs Hr. unfold impl_extrap_merge. rewrite calc_first_last_whole, <- app_length.
  assert (Hf : forall st, fold_left rstep (map snd c) (fold_left rstep (map snd p) st) = fold_left rstep (map snd (p ++ c)) st)
    by (intros; now rewrite map_app, fold_left_app).
  revert Hs Hf. generalize (p ++ c). intros [|[t0 v0] [|s1 rest]] Hs Hf; [reflexivity..|].
  rewrite (proj2 (Z.leb_gt _ 1)) by (cbn [length]; lia).
  unfold spec_extrap. destruct (last (s1 :: rest) (t0, v0)) as [tl vl] eqn:El.
  assert (Hgt : (t0 < tl)%Z) by (eapply sorted_last_gt; [exact Hs | discriminate | exact El]).
  destruct (Z.eqb_spec tl t0); [lia|]. destruct (Z.eqb_spec range 0); [lia|]. cbn [orb].
  (* the reset correction starts with the first value against itself, which changes nothing *)
  rewrite Hf. change (map snd ((t0, v0) :: s1 :: rest)) with (v0 :: map snd (s1 :: rest)).
  cbn [fold_left]. rewrite rstep_self.
  cbn [length]. rewrite (Nat2Z.inj_succ (S _)), Z.sub_1_r, Z.pred_succ.
  simpl. destruct ir; unfold range_div_repaired, Qdiv; ring.
Qed.

Theorem extrap_split_equals_whole ic ir t range offset cut :
  times_increasing (concat cut) -> (0 < range)%Z ->
  oQeq (impl_extrap_split range_div_repaired ic ir t range offset cut) (spec_extrap ic ir t range offset (concat cut)).
Proof.
  intros Hs Hr. unfold impl_extrap_split. pose proof (concat_removelast_last cut) as E.
  rewrite <- E in Hs. rewrite <- E. apply merge_equals_whole; auto.
Qed.
