(* C18 proofs, part F: quantile_over_time. The result depends only on the MULTISET of the window's values: any two
   arrangements of the same samples (any cut of the window into records, records merged in any order) give the same
   quantile; the model's sort is a sort (sorted permutation of its input). *)

From Coq Require Import QArith Qround List Lia Lqa Sorted Permutation.
From OG Require Import C18.Model C18.Model2.
From OG Require Import C18.ProofsA C18.ProofsB.
Import ListNotations.
Open Scope Q_scope.

(* point-wise ==, not =: Qle_bool ties two different representations of the same rational, so two insertion orders may
   leave them swapped *)
Definition leq (l1 l2 : list Q) : Prop := Forall2 Qeq l1 l2.

Lemma leq_refl l : leq l l.
Proof. induction l; constructor; auto. reflexivity. Qed.
Lemma leq_trans a b c : leq a b -> leq b c -> leq a c.
Proof.
  intros H. revert c. induction H; intros c' H'; inversion H'; subst; constructor.
  - etransitivity; eauto. - apply IHForall2. assumption.
Qed.
Lemma leq_length a b : leq a b -> length a = length b.
Proof. induction 1; simpl; congruence. Qed.

Lemma qinsert_leq x a b : leq a b -> leq (qinsert x a) (qinsert x b).
Proof.
  induction 1 as [|y z a b Hyz Hab IH]; simpl.
  - apply leq_refl.
  - rewrite Hyz. destruct (Qle_bool x z).
    + constructor; [reflexivity|]. constructor; assumption.
    + constructor; assumption.
Qed.

Lemma Qle_bool_false x y : Qle_bool x y = false -> y < x.
Proof. intros H. apply Qnot_le_lt. intro Hle. apply Qle_bool_iff in Hle. congruence. Qed.

Lemma qinsert_swap x y s : leq (qinsert x (qinsert y s)) (qinsert y (qinsert x s)).
Proof.
  induction s as [|z s IH]; simpl.
  - destruct (Qle_bool x y) eqn:E1, (Qle_bool y x) eqn:E2; try apply leq_refl.
    + apply Qle_bool_iff in E1, E2. assert (x == y) by (apply Qle_antisym; assumption).
      constructor; [assumption|]. constructor; [symmetry; assumption|constructor].
    + apply Qle_bool_false in E1, E2. exfalso. lra.
  - destruct (Qle_bool y z) eqn:Eyz, (Qle_bool x z) eqn:Exz; simpl; rewrite ?Eyz, ?Exz.
    + destruct (Qle_bool x y) eqn:E1, (Qle_bool y x) eqn:E2; simpl; rewrite ?Eyz, ?Exz; try apply leq_refl.
      * apply Qle_bool_iff in E1, E2. assert (x == y) by (apply Qle_antisym; assumption).
        constructor; [assumption|]. constructor; [symmetry; assumption|apply leq_refl].
      * apply Qle_bool_false in E1, E2. exfalso. lra.
    + destruct (Qle_bool x y) eqn:E1.
      * apply Qle_bool_iff in E1, Eyz. apply Qle_bool_false in Exz. exfalso. lra.
      * simpl; rewrite ?Exz, ?Eyz; apply leq_refl.
    + destruct (Qle_bool y x) eqn:E2.
      * apply Qle_bool_iff in E2, Exz. apply Qle_bool_false in Eyz. exfalso. lra.
      * simpl; rewrite ?Exz, ?Eyz; apply leq_refl.
    + constructor; [reflexivity|exact IH].
Qed.

Theorem qsort_perm l l' : Permutation l l' -> leq (qsort l) (qsort l').
Proof.
  induction 1; simpl.
  - constructor.
  - apply qinsert_leq. assumption.
  - apply qinsert_swap.
  - eapply leq_trans; eauto.
Qed.

Lemma qinsert_perm x l : Permutation (qinsert x l) (x :: l).
Proof.
  induction l as [|y l IH]; simpl; [reflexivity|]. destruct (Qle_bool x y); [reflexivity|].
  rewrite IH. apply perm_swap.
Qed.
Theorem qsort_is_permutation l : Permutation (qsort l) l.
Proof. induction l as [|x l IH]; simpl; [reflexivity|]. rewrite qinsert_perm, IH. reflexivity. Qed.

Lemma qinsert_sorted x l : StronglySorted Qle l -> StronglySorted Qle (qinsert x l).
Proof.
  induction l as [|y l IH]; simpl; intros H.
  - repeat constructor.
  - apply StronglySorted_inv in H. destruct H as [Hs Hall]. destruct (Qle_bool x y) eqn:E.
    + apply Qle_bool_iff in E. constructor; [constructor; assumption|].
      constructor; [assumption|]. rewrite Forall_forall in *. intros z Hz. eapply Qle_trans; [exact E|]. apply Hall. exact Hz.
    + apply Qle_bool_false in E. constructor; [apply IH; assumption|].
      rewrite Forall_forall in *. intros z Hz. apply (Permutation_in _ (qinsert_perm x l)) in Hz.
      destruct Hz as [<-|Hz]; [lra|apply Hall; exact Hz].
Qed.
Theorem qsort_sorted l : StronglySorted Qle (qsort l).
Proof. induction l as [|x l IH]; simpl; [constructor|]. apply qinsert_sorted. exact IH. Qed.

Lemma nth_leq a b : leq a b -> forall k, nth k a 0 == nth k b 0.
Proof. induction 1; intros [|k]; simpl; auto; reflexivity. Qed.

Theorem quantile_fin_perm q l l' : Permutation l l' -> quantile_fin q l == quantile_fin q l'.
Proof.
  intros H. unfold quantile_fin. rewrite (Permutation_length H).
  pose proof (nth_leq _ _ (qsort_perm _ _ H)) as Hn. rewrite !Hn. reflexivity.
Qed.

Definition xeq (a b : xval) : Prop :=
  match a, b with XFin x, XFin y => x == y | XPosInf, XPosInf => True | XNegInf, XNegInf => True | _, _ => False end.
Definition oxeq (a b : option xval) : Prop :=
  match a, b with Some x, Some y => xeq x y | None, None => True | _, _ => False end.

Theorem quantile_perm q l l' : Permutation l l' -> xeq (quantile q l) (quantile q l').
Proof.
  intros H. unfold quantile. destruct (Qltb q 0); [exact I|]. destruct (Qltb 1 q); [exact I|].
  cbn [xeq]. apply quantile_fin_perm. exact H.
Qed.

Theorem quantile_merge_equals_whole q p c : impl_quantile_merge q p c = spec_quantile_over_time q (p ++ c).
Proof.
  unfold impl_quantile_merge, spec_quantile_over_time. rewrite vals_app, len_vals_app.
  destruct (vals p ++ vals c) as [|x r]; [reflexivity|].
  destruct (Z.of_nat _ =? 0)%Z eqn:EL; [apply Z.eqb_eq in EL; cbn [length] in EL; lia|]. reflexivity.
Qed.

Theorem quantile_split_equals_whole q cut : impl_quantile_split q cut = spec_quantile_over_time q (concat cut).
Proof. exact (split_of_merge eq _ _ (quantile_merge_equals_whole q) cut). Qed.

(* merge = multiset union: the records of a window may be concatenated in ANY order (any permutation of the cut, or of
   the samples) without changing the answer *)
Theorem quantile_any_arrangement q (w w' : list sample) :
  Permutation w w' -> oxeq (spec_quantile_over_time q w) (spec_quantile_over_time q w').
Proof.
  intros H. unfold spec_quantile_over_time. assert (Hv : Permutation (vals w) (vals w')) by (apply Permutation_map; exact H).
  destruct (vals w) as [|x r] eqn:E1; destruct (vals w') as [|x' r'] eqn:E2.
  - exact I.
  - apply Permutation_nil in Hv. discriminate.
  - symmetry in Hv. apply Permutation_nil in Hv. discriminate.
  - cbn [oxeq]. apply quantile_perm. exact Hv.
Qed.

Lemma concat_perm {A} (c c' : list (list A)) : Permutation c c' -> Permutation (concat c) (concat c').
Proof.
  induction 1; simpl.
  - reflexivity.
  - apply Permutation_app_head. assumption.
  - rewrite !app_assoc. apply Permutation_app_tail. apply Permutation_app_comm.
  - etransitivity; eauto.
Qed.

Lemma quantile_zero_is_head l x r : qsort l = x :: r -> quantile_fin 0 l == x.
Proof.
  intros E. unfold quantile_fin. rewrite E.
  assert (R : 0 * inject_Z (Z.of_nat (length l) - 1) == 0) by ring.
  assert (F : Qfloor (0 * inject_Z (Z.of_nat (length l) - 1)) = 0%Z).
  { rewrite R. reflexivity. }
  rewrite F. change (Z.max 0 0) with 0%Z. cbn [Z.to_nat nth]. rewrite R. change (inject_Z 0) with 0. ring.
Qed.
