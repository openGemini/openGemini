(* C18: by / without grouping forms a partition of the input vector. *)
From Coq Require Import String.
From Coq Require Import List Bool Permutation.
From OG Require Import C18.Model.
Import ListNotations.

Lemma label_eqb_eq a b : label_eqb a b = true <-> a = b.
Proof.
  destruct a as [a1 a2], b as [b1 b2]. unfold label_eqb. simpl. rewrite andb_true_iff, !String.eqb_eq.
  split; [intros [-> ->]; reflexivity | intros H; injection H; auto].
Qed.

Lemma labels_eqb_eq a : forall b, labels_eqb a b = true <-> a = b.
Proof.
  induction a as [|x a IH]; destruct b as [|y b]; simpl; try (split; [discriminate|discriminate]); try tauto.
  rewrite andb_true_iff, label_eqb_eq, IH. split; [intros [-> ->]; reflexivity | intros H; injection H; auto].
Qed.

Lemma insert_group_perm k e gs :
  Permutation (concat (map snd (insert_group k e gs))) (e :: concat (map snd gs)).
Proof.
  induction gs as [|[k' es] r IH]; simpl.
  - apply Permutation_refl.
  - destruct (labels_eqb k k'); simpl.
    + rewrite <- app_assoc. simpl. apply Permutation_sym, Permutation_middle.
    + eapply Permutation_trans; [apply Permutation_app_head, IH|]. apply Permutation_sym, Permutation_middle.
Qed.

Lemma insert_group_keys k e gs :
  map fst (insert_group k e gs) =
  if existsb (labels_eqb k) (map fst gs) then map fst gs else map fst gs ++ [k].
Proof.
  induction gs as [|[k' es] r IH]; simpl; [reflexivity|].
  destruct (labels_eqb k k'); simpl; [reflexivity|]. rewrite IH. destruct (existsb _ _); reflexivity.
Qed.

Lemma insert_group_members k e gs g x :
  In g (insert_group k e gs) -> In x (snd g) ->
  (exists g', In g' gs /\ fst g' = fst g /\ In x (snd g')) \/ (x = e /\ fst g = k).
Proof.
  induction gs as [|[k' es] r IH]; simpl; intros Hg Hx.
  - destruct Hg as [<-|[]]. simpl in Hx. destruct Hx as [<-|[]]. right. auto.
  - destruct (labels_eqb k k') eqn:E.
    + destruct Hg as [<-|Hg].
      * simpl in Hx. apply in_app_or in Hx. destruct Hx as [Hx|[<-|[]]].
        -- left. exists (k', es). auto.
        -- right. split; auto. simpl. symmetry. apply labels_eqb_eq. exact E.
      * left. exists g. auto.
    + destruct Hg as [<-|Hg].
      * left. exists (k', es). auto.
      * destruct (IH Hg Hx) as [[g' [H1 [H2 H3]]]|H]; [left; exists g'; auto | right; exact H].
Qed.

Lemma NoDup_snoc {A} (l : list A) k : NoDup l -> ~ In k l -> NoDup (l ++ [k]).
Proof.
  induction l as [|x l IH]; simpl; intros Hn Hk.
  - constructor; [intros []|constructor].
  - inversion Hn as [|? ? Hx Hl]; subst. constructor.
    + intro Hin. apply in_app_or in Hin. destruct Hin as [Hin|[<-|[]]]; [contradiction|]. apply Hk. left. reflexivity.
    + apply IH; auto.
Qed.

Section Partition.
  Variable wo : bool.
  Variable G : list string.
  Let key (e : elem) := group_key wo G (fst e).
  Let step (gs : list (labels * list elem)) (e : elem) := insert_group (key e) e gs.

  Definition part_inv (gs : list (labels * list elem)) (done : list elem) : Prop :=
    Permutation (concat (map snd gs)) done /\ NoDup (map fst gs) /\
    (forall g x, In g gs -> In x (snd g) -> fst g = key x).

  Lemma part_step gs done e : part_inv gs done -> part_inv (step gs e) (e :: done).
  Proof.
    intros [Hp [Hn Hk]]. unfold step. split; [|split].
    - eapply Permutation_trans; [apply insert_group_perm|]. constructor. exact Hp.
    - rewrite insert_group_keys. destruct (existsb (labels_eqb (key e)) (map fst gs)) eqn:E; [exact Hn|].
      apply NoDup_snoc; auto. intro Hin.
      assert (existsb (labels_eqb (key e)) (map fst gs) = true); [|congruence].
      apply existsb_exists. exists (key e). split; auto. apply labels_eqb_eq. reflexivity.
    - intros g x Hg Hx. destruct (insert_group_members _ _ _ _ _ Hg Hx) as [[g' [H1 [H2 H3]]]|[-> H]].
      + rewrite <- H2. apply Hk; auto.
      + exact H.
  Qed.

  Lemma part_fold vec : forall gs done, part_inv gs done -> part_inv (fold_left step vec gs) (vec ++ done).
  Proof.
    induction vec as [|e vec IH]; simpl; intros gs done H; [exact H|].
    destruct (IH _ _ (part_step _ _ e H)) as [Hp [Hn Hk]]. split; [|split]; auto.
    eapply Permutation_trans; [exact Hp|]. apply Permutation_sym, Permutation_middle.
  Qed.

  Theorem by_without_partition vec :
    let gs := groups wo G vec in
    Permutation (concat (map snd gs)) vec /\ NoDup (map fst gs) /\
    (forall g x, In g gs -> In x (snd g) -> fst g = group_key wo G (fst x)).
  Proof.
    pose proof (part_fold vec [] []) as H. rewrite app_nil_r in H. apply H.
    split; [apply Permutation_refl|]. split; [constructor|]. intros g x [].
  Qed.
End Partition.

