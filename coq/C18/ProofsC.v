(* C18 proofs: window membership and one-sample windows, the whole-second divisor of rate, irate / idelta over any cut,
   the steps of a range query and range query = instant queries at the steps. *)
From Coq Require Import QArith List Lia Sorted.
From OG Require Import C18.Model.
From OG Require Import C18.ProofsA.
Import ListNotations.
Open Scope Q_scope.

Lemma window_membership t range offset l s :
  In s (window t range offset l) <-> In s l /\ (t - offset - range <= fst s <= t - offset)%Z.
Proof.
  unfold window, in_win, win_lo, win_hi. rewrite filter_In, andb_true_iff, !Z.leb_le. tauto.
Qed.

Lemma window_single_in t range offset ts v :
  (t - offset - range <= ts <= t - offset)%Z -> window t range offset [(ts, v)] = [(ts, v)].
Proof.
  intros H. unfold window, in_win, win_lo, win_hi. cbn [filter fst].
  now rewrite !(proj2 (Z.leb_le _ _)) by lia.
Qed.
Lemma window_single_out t range offset ts v :
  (ts < t - offset - range \/ t - offset < ts)%Z -> window t range offset [(ts, v)] = [].
Proof.
  intros H. unfold window, in_win, win_lo, win_hi. cbn [filter fst].
  destruct H as [H|H]; rewrite (proj2 (Z.leb_gt _ _) H); [reflexivity | now rewrite andb_false_r].
Qed.

Lemma window_of_records t range offset recs :
  window t range offset (concat recs) = concat (map (window t range offset) recs).
Proof. symmetry. apply concat_filter_map. Qed.

Lemma sorted_filter (f : sample -> bool) l : times_increasing l -> times_increasing (filter f l).
Proof.
  induction l as [|x l IH]; simpl; intros H; [exact H|].
  apply times_increasing_cons in H. destruct H as [H1 H2]. destruct (f x); [|now apply IH].
  apply times_increasing_cons. split; [now apply IH|]. intros r Hr. apply filter_In in Hr. now apply H2.
Qed.

Lemma window_sorted t range offset l : times_increasing l -> times_increasing (window t range offset l).
Proof. apply sorted_filter. Qed.

(* whole seconds: the integer division of the code before fix bd679fa is harmless; otherwise refuted *)
Lemma range_div_whole_seconds range : (range mod 1000 = 0)%Z -> range_div_current range == range_div_repaired range.
Proof.
  intros H. unfold range_div_current, range_div_repaired, ms_to_s.
  rewrite (Z.div_mod range 1000) at 2 by lia. rewrite H, Z.add_0_r, inject_Z_mult. field.
Qed.

Lemma impl_merge_div_ext rd1 rd2 ic ir t range offset p c :
  rd1 range == rd2 range ->
  oQeq (impl_extrap_merge rd1 ic ir t range offset p c) (impl_extrap_merge rd2 ic ir t range offset p c).
Proof.
  intros H. unfold impl_extrap_merge. destruct (_ <=? _)%Z; [exact I|].
  destruct (calc_first_last p c) as [[[t0 v0] [tl vl]]|]; [|exact I].
  destruct (_ || _); [exact I|]. destruct ir; simpl; [rewrite H|]; reflexivity.
Qed.

Lemma sorted_app_l (a b : list sample) : times_increasing (a ++ b) -> times_increasing a.
Proof.
  induction a as [|x a IH]; simpl; intros H; [exact (SSorted_nil _)|].
  apply times_increasing_cons in H. destruct H as [H1 H2].
  apply times_increasing_cons. split; [now apply IH|]. intros r Hr. apply H2, in_or_app. now left.
Qed.
Lemma sorted_last_two (l : list sample) a b : times_increasing (l ++ [a; b]) -> (fst a < fst b)%Z.
Proof.
  induction l as [|x l IH]; simpl; intros H; apply times_increasing_cons in H; [|apply IH, H].
  apply (proj2 H). now left.
Qed.

Lemma irate_step d x :
  times_increasing (d ++ x) ->
  omerge irate_update (irate_reduce d) (irate_reduce x) = irate_reduce (d ++ x).
Proof.
  intros Hs. unfold irate_reduce at 2 3. rewrite rev_app_distr.
  destruct (rev x) as [|b [|a r]] eqn:E.
  - simpl. unfold irate_reduce. destruct (rev d) as [|? [|? ?]]; reflexivity.
  - simpl. unfold irate_reduce. destruct (rev d) as [|b' [|a' r']]; simpl; unfold irate_update; simpl; rewrite ?Z.ltb_irrefl; reflexivity.
  - simpl.
    assert (Hx : x = rev r ++ [a; b]).
    { rewrite <- (rev_involutive x), E. simpl. rewrite <- app_assoc. reflexivity. }
    assert (Hlt : (fst a < fst b)%Z).
    { subst x. rewrite app_assoc in Hs. eapply sorted_last_two. exact Hs. }
    destruct (irate_reduce d); simpl; [|reflexivity].
    unfold irate_update. simpl. apply Z.ltb_lt in Hlt. rewrite Hlt. reflexivity.
Qed.

Lemma irate_fold cut : forall acc d, times_increasing (d ++ concat cut) -> acc = irate_reduce d ->
  fold_left (omerge irate_update) (map irate_reduce cut) acc = irate_reduce (d ++ concat cut).
Proof.
  induction cut as [|x cut IH]; simpl; intros acc d Hs Hacc.
  - rewrite app_nil_r. exact Hacc.
  - rewrite app_assoc in *. apply IH; auto. subst acc. apply irate_step. eapply sorted_app_l. exact Hs.
Qed.

Lemma steps_spec start stop step t :
  In t (steps start stop step) <-> (0 < step)%Z /\ exists k, (0 <= k)%Z /\ t = (start + k * step)%Z /\ (t <= stop)%Z.
Proof.
  unfold steps. destruct (step <=? 0)%Z eqn:E1; simpl.
  - apply Z.leb_le in E1. split; [tauto|]. intros [H _]. lia.
  - apply Z.leb_gt in E1. destruct (stop <? start)%Z eqn:E2.
    + apply Z.ltb_lt in E2. split; [simpl; tauto|]. intros [_ [k [H1 [H2 H3]]]]. nia.
    + apply Z.ltb_ge in E2. rewrite in_map_iff. split.
      * intros [k [Hk Hin]]. apply in_seq in Hin. split; auto. exists (Z.of_nat k). split; [lia|]. split; [lia|].
        assert (Z.of_nat k <= (stop - start) / step)%Z.
        { assert (0 <= (stop - start) / step)%Z by (apply Z.div_pos; lia). lia. }
        pose proof (Z.mul_div_le (stop - start) step E1). nia.
      * intros [_ [k [H1 [H2 H3]]]]. exists (Z.to_nat k). split; [lia|]. apply in_seq.
        assert (k <= (stop - start) / step)%Z by (apply Z.div_le_lower_bound; lia). lia.
Qed.

Section RangeInstants.
  Variable L : Type.
  Variable eval : list sample -> Z -> option Q.

  Theorem range_is_instants (db : list (series L)) start stop step ls t v :
    (exists pts, In (ls, pts) (range_query L eval db start stop step) /\ In (t, v) pts) <->
    (In t (steps start stop step) /\ In (ls, v) (instant_query L eval db t)).
  Proof.
    unfold range_query, instant_query. split.
    - intros [pts [H1 H2]]. apply in_map_iff in H1. destruct H1 as [s [Hs Hin]]. injection Hs as Hl Hp. subst pts.
      apply in_flat_map in H2. destruct H2 as [t' [Ht' H2]].
      destruct (eval (snd s) t') as [v'|] eqn:Ev; simpl in H2; [|tauto]. destruct H2 as [H2|[]]. injection H2 as -> ->.
      split; auto. apply in_flat_map. exists s. split; auto. rewrite Ev. left. congruence.
    - intros [Ht H]. apply in_flat_map in H. destruct H as [s [Hin H]].
      destruct (eval (snd s) t) as [v'|] eqn:Ev; simpl in H; [|tauto]. destruct H as [H|[]]. injection H as <- <-.
      eexists. split. + apply in_map_iff. exists s. split; [reflexivity|exact Hin].
      + apply in_flat_map. exists t. split; auto. rewrite Ev. left. reflexivity.
  Qed.

  (* the points of one series in the range answer are exactly its instant values, in step order *)
  Theorem range_series_points (s : series L) start stop step :
    snd (List.hd (fst s, []) (range_query L eval [s] start stop step)) =
    flat_map (fun t => match eval (snd s) t with Some v => [(t, v)] | None => [] end) (steps start stop step).
  Proof. reflexivity. Qed.
End RangeInstants.
