(* C18 proofs, part G: binary operators - vector/scalar label and value rules, one-to-one vector matching is a partial
   bijection on signatures, the result label set follows upstream's resultMetric rule and never repeats. *)
From Coq Require Import String.
From Coq Require Import List Bool.
From OG Require Import C18.Model C18.Model3 C18.ProofsD.
Import ListNotations.

Lemma filter_filter {A} (f g : A -> bool) l : filter f (filter g l) = filter (fun x => g x && f x) l.
Proof. induction l as [|x l IH]; simpl; [reflexivity|]. destruct (g x); simpl; [destruct (f x)|]; now rewrite IH. Qed.

Lemma mem_str_In s l : mem_str s l = true <-> In s l.
Proof.
  unfold mem_str. rewrite existsb_exists. split.
  - intros [x [Hin E]]. apply String.eqb_eq in E. subst. exact Hin.
  - intros H. exists s. split; auto. apply String.eqb_refl.
Qed.

Lemma drop_name_no_name ls : ~ In name_label (map fst (drop_name ls)).
Proof.
  unfold drop_name. intros H. apply in_map_iff in H. destruct H as [kv [E Hin]]. apply filter_In in Hin.
  destruct Hin as [_ Hn]. rewrite E, String.eqb_refl in Hn. discriminate.
Qed.

Lemma in_filter_fst {A B} (f : A * B -> bool) (l : list (A * B)) k : In k (map fst (filter f l)) -> In k (map fst l).
Proof.
  intros H. apply in_map_iff in H. destruct H as [kv [E Hin]]. apply filter_In in Hin. apply in_map_iff. exists kv. tauto.
Qed.

Lemma in_drop_name kv ls : In kv (drop_name ls) <-> In kv ls /\ fst kv <> name_label.
Proof.
  unfold drop_name. rewrite filter_In, negb_true_iff. split; intros [H1 H2]; split; auto.
  - apply String.eqb_neq. exact H2. - apply String.eqb_neq. exact H2.
Qed.

Theorem sig_result_metric op rb m ls :
  (vm_on m = true -> ~ In name_label (vm_labels m)) ->
  sig m (result_metric op rb m ls) = sig m ls.
Proof.
  intros Hon. unfold sig, result_metric, group_key, key_by, key_without, drop_name.
  (* both sides are filters of ls; the name is not among the labels of on(..) *)
  destruct (vm_on m) eqn:Eon; cbn [negb]; destruct (drops_name op rb); rewrite !filter_filter; apply filter_ext; intros kv;
    destruct (mem_str (fst kv) (vm_labels m)) eqn:E, (String.eqb (fst kv) name_label) eqn:E2; try reflexivity.
  all: exfalso; apply String.eqb_eq in E2; apply mem_str_In in E; rewrite E2 in E; exact (Hon eq_refl E).
Qed.

Lemma mem_labels_In k l : mem_labels k l = true <-> In k l.
Proof.
  unfold mem_labels. rewrite existsb_exists. split.
  - intros [x [Hin E]]. apply labels_eqb_eq in E. subst. exact Hin.
  - intros H. exists k. split; auto. apply labels_eqb_eq. reflexivity.
Qed.
Lemma mem_labels_false k l : mem_labels k l = false <-> ~ In k l.
Proof. rewrite <- mem_labels_In. destruct (mem_labels k l); intuition congruence. Qed.

Lemma nodup_sigs_NoDup l : nodup_sigs l = true <-> NoDup l.
Proof.
  induction l as [|x l IH]; simpl.
  - split; [constructor|reflexivity].
  - rewrite andb_true_iff, negb_true_iff, mem_labels_false, IH. split.
    + intros [H1 H2]. constructor; assumption.
    + intros H. inversion H; subst. split; assumption.
Qed.

Lemma NoDup_map_inj {A B} (f : A -> B) l a b : NoDup (map f l) -> In a l -> In b l -> f a = f b -> a = b.
Proof.
  induction l as [|x l IH]; simpl; intros Hn Ha Hb E; [contradiction|].
  inversion Hn as [|? ? Hx Hl]; subst.
  destruct Ha as [->|Ha], Hb as [->|Hb]; auto.
  - exfalso. apply Hx. rewrite E. apply in_map. exact Hb.
  - exfalso. apply Hx. rewrite <- E. apply in_map. exact Ha.
Qed.

Definition sigf (m : vmatch) (e : elem) : labels := sig m (fst e).

Lemma lookup_sig_some m sg rhs r : lookup_sig m sg rhs = Some r -> In r rhs /\ sigf m r = sg.
Proof.
  induction rhs as [|e rhs IH]; simpl; [discriminate|]. destruct (labels_eqb sg (sig m (fst e))) eqn:E.
  - intros H. injection H as <-. split; [left; reflexivity|]. symmetry. apply labels_eqb_eq. exact E.
  - intros H. destruct (IH H). split; [right|]; assumption.
Qed.
Lemma lookup_sig_none m sg rhs : lookup_sig m sg rhs = None -> forall r, In r rhs -> sigf m r <> sg.
Proof.
  induction rhs as [|e rhs IH]; simpl; intros H r Hin; [contradiction|].
  destruct (labels_eqb sg (sig m (fst e))) eqn:E; [discriminate|]. destruct Hin as [<-|Hin].
  - intros E'. unfold sigf in E'. rewrite E' in E. assert (labels_eqb sg sg = true) by (apply labels_eqb_eq; reflexivity). congruence.
  - apply IH; assumption.
Qed.
Lemma lookup_sig_complete m rhs r : NoDup (map (sigf m) rhs) -> In r rhs -> lookup_sig m (sigf m r) rhs = Some r.
Proof.
  intros Hn Hin. destruct (lookup_sig m (sigf m r) rhs) as [r'|] eqn:E.
  - destruct (lookup_sig_some _ _ _ _ E) as [Hin' Hs]. f_equal. eapply NoDup_map_inj; eauto.
  - exfalso. exact (lookup_sig_none _ _ _ E r Hin eq_refl).
Qed.

Theorem match_right_unique m rhs l r r' :
  nodup_sigs (map (sigf m) rhs) = true -> In r rhs -> In r' rhs -> sigf m l = sigf m r -> sigf m l = sigf m r' -> r = r'.
Proof.
  intros Hn Hr Hr' E E'. apply nodup_sigs_NoDup in Hn. eapply NoDup_map_inj; eauto. congruence.
Qed.

(* arithmetic and bool comparisons (nothing is filtered): the left-hand elements that have a partner, in order *)
Definition partnered (m : vmatch) (rhs lhs : list elem) : list elem :=
  filter (fun l => match lookup_sig m (sigf m l) rhs with Some _ => true | None => false end) lhs.

Definition pair_out (op : binop) (rb : bool) (m : vmatch) (rhs : list elem) (l : elem) : elem :=
  match lookup_sig m (sigf m l) rhs with
  | Some r => (result_metric op rb m (fst l),
               if is_cmp op then (if rb then b2q (cmp op (snd l) (snd r)) else snd l) else arith op (snd l) (snd r))
  | None => l
  end.

(* the left-hand elements that give an output element: those with a partner that a comparison filter lets through *)
Definition kept (op : binop) (rb : bool) (m : vmatch) (rhs : list elem) (l : elem) : bool :=
  match lookup_sig m (sigf m l) rhs with
  | Some r => negb (is_cmp op && negb rb && negb (cmp op (snd l) (snd r)))
  | None => false
  end.

(* a run of the loop that succeeds gives one output element per kept left-hand element; their signatures are pairwise
   different and none of them was matched before *)
Lemma vv_loop_kept op rb m rhs : forall lhs matched out, vv_loop op rb m rhs lhs matched = Some out ->
  out = map (pair_out op rb m rhs) (filter (kept op rb m rhs) lhs) /\
  NoDup (map (sigf m) (filter (kept op rb m rhs) lhs)) /\
  (forall l, In l (filter (kept op rb m rhs) lhs) -> ~ In (sigf m l) matched).
Proof.
  induction lhs as [|[ls x] lhs IH]; intros matched out H.
  - simpl in H. injection H as <-. repeat split; [constructor|intros l []].
  - cbn [vv_loop] in H. cbn [filter].
    assert (EK : kept op rb m rhs (ls, x) = match lookup_sig m (sig m ls) rhs with
                                           | Some r => negb (is_cmp op && negb rb && negb (cmp op x (snd r)))
                                           | None => false
                                           end) by reflexivity.
    rewrite EK. clear EK.
    destruct (lookup_sig m (sig m ls) rhs) as [[lr y]|] eqn:El; [|apply IH; exact H]. cbn [snd].
    destruct (is_cmp op && negb rb && negb (cmp op x y)); cbn [negb]; [apply IH; exact H|].
    destruct (mem_labels (sig m ls) matched) eqn:Em; [discriminate|].
    destruct (vv_loop op rb m rhs lhs (sig m ls :: matched)) as [out'|] eqn:E; [|discriminate].
    simpl in H. injection H as <-. destruct (IH _ _ E) as [Ho [Hn Hk]].
    repeat split.
    + cbn [map]. unfold pair_out at 1. unfold sigf. cbn [fst snd]. rewrite El. cbn [snd]. rewrite Ho. reflexivity.
    + cbn [map]. constructor; [|exact Hn]. unfold sigf at 1. cbn [fst]. intros Hin. apply in_map_iff in Hin.
      destruct Hin as [l' [E' Hin']]. apply (Hk _ Hin'). left. symmetry. exact E'.
    + intros l [<-|Hin]; [unfold sigf; cbn [fst]; apply mem_labels_false; exact Em|].
      intros Hm. apply (Hk _ Hin). right. exact Hm.
Qed.

Lemma sigf_pair_out op rb m rhs l : (vm_on m = true -> ~ In name_label (vm_labels m)) ->
  sigf m (pair_out op rb m rhs l) = sigf m l.
Proof.
  intros Hon. unfold pair_out, sigf. destruct (lookup_sig m (sig m (fst l)) rhs); [|reflexivity].
  cbn [fst]. now apply sig_result_metric.
Qed.

(* arithmetic and comparisons with bool filter nothing *)
Lemma kept_partnered op rb m rhs lhs : is_cmp op && negb rb = false -> filter (kept op rb m rhs) lhs = partnered m rhs lhs.
Proof.
  intros Hf. apply filter_ext. intros l. unfold kept. rewrite Hf. now destruct (lookup_sig m (sigf m l) rhs).
Qed.

Lemma partnered_nil_r m lhs : partnered m [] lhs = [].
Proof. unfold partnered. induction lhs as [|l lhs IH]; simpl; auto. Qed.

(* ONE-TO-ONE MATCHING IS A PARTIAL BIJECTION.  If the operation succeeds (no many-to-many error) and filters nothing
   (arithmetic, or a comparison with bool), then with  P l r := l in lhs, r in rhs, same signature:
   every l has at most one r, every r has at most one l, and the answer is exactly one element per pair of P, carrying
   upstream's resultMetric label set and the operator applied to the two values. *)
Theorem vv_one_to_one_partial_bijection op rb m lhs rhs out :
  is_cmp op && negb rb = false ->
  vv_binop op rb m lhs rhs = Some out ->
  (forall l r r', In l lhs -> In r rhs -> In r' rhs -> sigf m l = sigf m r -> sigf m l = sigf m r' -> r = r') /\
  (forall l l' r, In l lhs -> In l' lhs -> In r rhs -> sigf m l = sigf m r -> sigf m l' = sigf m r -> l = l') /\
  out = map (pair_out op rb m rhs) (partnered m rhs lhs) /\
  (forall l, In l (partnered m rhs lhs) <-> In l lhs /\ exists r, In r rhs /\ sigf m l = sigf m r).
Proof.
  intros Hf H. unfold vv_binop in H.
  destruct (is_nil lhs || is_nil rhs) eqn:Es.
  { injection H as <-. apply orb_true_iff in Es. destruct Es as [Es|Es].
    - destruct lhs; [|discriminate]. cbn [partnered filter map].
      split; [intros l r r' []|]. split; [intros l l' r []|]. split; [reflexivity|].
      intros l. split; [intros []|intros [[] _]].
    - destruct rhs; [|discriminate]. rewrite partnered_nil_r. cbn [map].
      split; [intros l r r' _ []|]. split; [intros l l' r _ _ []|]. split; [reflexivity|].
      intros l. split; [intros []|intros [_ [r [[] _]]]]. }
  destruct (nodup_sigs (map (fun e => sig m (fst e)) rhs)) eqn:En; [|discriminate].
  change (map (fun e => sig m (fst e)) rhs) with (map (sigf m) rhs) in En.
  destruct (vv_loop_kept op rb m rhs _ _ _ H) as [Ho [Hn _]]. rewrite (kept_partnered op rb m rhs lhs Hf) in Ho, Hn.
  assert (Hp : forall l, In l (partnered m rhs lhs) <-> In l lhs /\ exists r, In r rhs /\ sigf m l = sigf m r).
  { intros l. unfold partnered. rewrite filter_In. split.
    - intros [Hin Hs]. split; auto. destruct (lookup_sig m (sigf m l) rhs) as [r|] eqn:E; [|discriminate].
      destruct (lookup_sig_some _ _ _ _ E). exists r. split; auto.
    - intros [Hin [r [Hr E]]]. split; auto. rewrite E. rewrite lookup_sig_complete; auto. apply nodup_sigs_NoDup. exact En. }
  split; [|split; [|split]].
  - intros l r r' _. apply match_right_unique. exact En.
  - intros l l' r Hin Hin' Hr E E'. apply (NoDup_map_inj (sigf m) (partnered m rhs lhs)); [exact Hn| | |congruence].
    + apply Hp. split; auto. exists r. auto.
    + apply Hp. split; auto. exists r. auto.
  - exact Ho.
  - exact Hp.
Qed.
