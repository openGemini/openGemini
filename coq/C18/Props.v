(* C18 property theorems with Print Assumptions, plus non-vacuity Examples; the longer proofs are in ProofsA .. ProofsI.
   PARTIAL claim: the theorems cover the modelled range functions (rate increase delta irate idelta, sum/count/avg/min/
   max/last/stdvar/present/absent/quantile_over_time, changes resets deriv predict_linear), window selection incl. the
   look-back boundary and staleness markers, range-vs-instant evaluation, by/without grouping (partition), and binary
   operators between a vector and a scalar and between two vectors with one-to-one matching. Functions outside this
   list, the other matching modes and label matchers are covered by the differential harness only. *)
From Coq Require Import String.
From Coq Require Import QArith ZArith List Bool Lia Lqa Setoid Morphisms Sorted Permutation.
From OG Require Import C18.Model C18.Model2 C18.Model3 C18.Model4 C18.ProofsA C18.ProofsB C18.ProofsC C18.ProofsD C18.ProofsE C18.ProofsF C18.ProofsG C18.ProofsH C18.ProofsI.
Import ListNotations.
Open Scope Q_scope.

(* window membership: closed on both sides, as in the upstream engine that go.mod requires (v0.50.1) *)
Theorem C18_window_membership : forall t range offset l s,
  In s (window t range offset l) <-> In s l /\ (t - offset - range <= fst s <= t - offset)%Z.
Proof. exact window_membership. Qed.
Print Assumptions C18_window_membership.

Theorem C18_window_left_boundary_included : forall t range offset v, (0 <= range)%Z ->
  window t range offset [((t - offset - range)%Z, v)] = [((t - offset - range)%Z, v)].
Proof. intros. apply window_single_in. lia. Qed.
Theorem C18_window_before_left_excluded : forall t range offset v,
  window t range offset [((t - offset - range - 1)%Z, v)] = [].
Proof. intros. apply window_single_out. lia. Qed.
Theorem C18_window_right_boundary_included : forall t range offset v, (0 <= range)%Z ->
  window t range offset [((t - offset)%Z, v)] = [((t - offset)%Z, v)].
Proof. intros. apply window_single_in. lia. Qed.
Theorem C18_window_after_right_excluded : forall t range offset v,
  window t range offset [((t - offset + 1)%Z, v)] = [].
Proof. intros. apply window_single_out. lia. Qed.
Print Assumptions C18_window_after_right_excluded.

Theorem C18_instant_select_in_lookback : forall t offset l s,
  instant_select t offset l = Some s -> In s l /\ (t - offset - lookback <= fst s <= t - offset)%Z.
Proof.
  intros t offset l s H. apply window_membership, last_opt_In, H.
Qed.
Print Assumptions C18_instant_select_in_lookback.

(* look-back boundary: a sample exactly look-back-delta old is still selected (upstream v0.50.1 rejects only
   t < refTime - lookbackDelta); one millisecond older, or newer than the evaluation time, is not *)
Theorem C18_instant_select_lookback_boundary_included : forall t offset v,
  instant_select t offset [((t - offset - lookback)%Z, v)] = Some ((t - offset - lookback)%Z, v).
Proof. intros. unfold instant_select. rewrite window_single_in by (unfold lookback; lia). reflexivity. Qed.
Theorem C18_instant_select_older_than_lookback_excluded : forall t offset v,
  instant_select t offset [((t - offset - lookback - 1)%Z, v)] = None.
Proof. intros. unfold instant_select. rewrite window_single_out by lia. reflexivity. Qed.
Theorem C18_instant_select_newer_excluded : forall t offset v,
  instant_select t offset [((t - offset + 1)%Z, v)] = None.
Proof. intros. unfold instant_select. rewrite window_single_out by lia. reflexivity. Qed.
Print Assumptions C18_instant_select_lookback_boundary_included.

(* rate / increase / delta: merging the per-record states = upstream's function on the whole window, for EVERY cut of
   the window into records *)
Theorem C18_extrapolated_split_merge_equals_whole : forall isCounter isRate t range offset cut,
  times_increasing (concat cut) -> (0 < range)%Z ->
  oQeq (impl_extrap_split range_div_repaired isCounter isRate t range offset cut)
       (spec_extrap isCounter isRate t range offset (concat cut)).
Proof. exact extrap_split_equals_whole. Qed.
Print Assumptions C18_extrapolated_split_merge_equals_whole.

(* ... and for every cut of the SERIES into records (each record contributes its part of the window) *)
Theorem C18_extrapolated_any_record_layout : forall isCounter isRate t range offset recs,
  times_increasing (concat recs) -> (0 < range)%Z ->
  oQeq (impl_extrap_split range_div_repaired isCounter isRate t range offset (map (window t range offset) recs))
       (spec_extrap isCounter isRate t range offset (window t range offset (concat recs))).
Proof.
  intros ic ir t range offset recs Hs Hr. rewrite window_of_records. apply extrap_split_equals_whole; auto.
  rewrite <- window_of_records. apply window_sorted. exact Hs.
Qed.
Print Assumptions C18_extrapolated_any_record_layout.

(* impl_rate_current = spec_rate for whole-second ranges, with the integer division of the code before fix bd679fa *)
Theorem C18_impl_rate_equals_spec_whole_seconds : forall t range offset cut,
  times_increasing (concat cut) -> (0 < range)%Z -> (range mod 1000 = 0)%Z ->
  oQeq (impl_rate_current t range offset cut) (spec_rate t range offset (concat cut)).
Proof.
  intros t range offset cut Hs Hr Hm. eapply oQeq_trans; [|apply extrap_split_equals_whole; auto].
  unfold impl_rate_current, impl_extrap_split. apply impl_merge_div_ext. apply range_div_whole_seconds. exact Hm.
Qed.
Print Assumptions C18_impl_rate_equals_spec_whole_seconds.

Theorem C18_irate_idelta_split_merge_equals_whole : forall isRate cut,
  times_increasing (concat cut) -> impl_instant_split isRate cut = spec_instant isRate (concat cut).
Proof.
  intros isRate cut Hs. unfold impl_instant_split, spec_instant.
  rewrite (irate_fold cut None []); auto. simpl app.
  unfold last_two, irate_reduce. rewrite <- (rev_length (concat cut)).
  destruct (rev (concat cut)) as [|b [|a r]]; cbn [Datatypes.length]; try reflexivity.
  match goal with |- context [(?x <? 2)%Z] => replace (x <? 2)%Z with false by (symmetry; apply Z.ltb_ge; lia) end.
  reflexivity.
Qed.
Print Assumptions C18_irate_idelta_split_merge_equals_whole.

Theorem C18_sum_over_time_split : forall cut, oQeq (impl_sum_over_time cut) (spec_sum_over_time (concat cut)).
Proof. exact sum_split_equals_whole. Qed.
Theorem C18_count_over_time_split : forall cut, oQeq (impl_count_over_time cut) (spec_count_over_time (concat cut)).
Proof.
  intros cut.
  apply (vals_split_whole Q Qeq Q_Setoid Qplus Qplus_comp (nonempty qlen)); [reflexivity|].
  intros a l1 b l2. exact (qlen_app (a :: l1) (b :: l2)).
Qed.
Theorem C18_avg_over_time_split : forall cut, oQeq (impl_avg_over_time cut) (spec_avg_over_time (concat cut)).
Proof.
  intros cut.
  assert (H : oeq (Q * Q) pair_eq (inc_split avg_reduce avg_merge cut) (avg_reduce (concat cut))).
  { refine (vals_split_whole (Q * Q) pair_eq pair_eq_equiv avg_merge avg_merge_proper
              (fun l => match l with [] => None | x :: r => Some (mean_inc (x :: r), qlen (x :: r)) end) eq_refl _ cut).
    intros a l1 b l2. split; [|exact (qlen_app (a :: l1) (b :: l2))].
    exact (mean_inc_app (a :: l1) (b :: l2) (qlen_pos a l1) (qlen_pos b l2)). }
  unfold impl_avg_over_time, spec_avg_over_time, avg_reduce in *.
  destruct (inc_split _ avg_merge cut) as [[m n]|]; destruct (vals (concat cut)); simpl in *; try tauto.
  exact (proj1 H).
Qed.
Theorem C18_min_over_time_split : forall cut, oQeq (impl_min_over_time cut) (spec_min_over_time (concat cut)).
Proof. intros cut. exact (fold_split_whole qmin2 qmin2_comp qmin2_assoc cut). Qed.
Theorem C18_max_over_time_split : forall cut, oQeq (impl_max_over_time cut) (spec_max_over_time (concat cut)).
Proof. intros cut. exact (fold_split_whole qmax2 qmax2_comp qmax2_assoc cut). Qed.
Theorem C18_last_over_time_split : forall cut, oQeq (impl_last_over_time cut) (spec_last_over_time (concat cut)).
Proof. exact last_split_equals_whole. Qed.
Print Assumptions C18_avg_over_time_split.

Theorem C18_changes_resets_split : forall differs cut,
  impl_count_pairs_split differs cut = spec_count_pairs differs (concat cut).
Proof.
  intros differs cut.
  unfold impl_count_pairs_split. rewrite <- (concat_removelast_last cut) at 1.
  generalize (concat (removelast cut)) (last cut []). intros p c.
  unfold impl_count_pairs_merge, spec_count_pairs. rewrite vals_app.
  destruct (vals p) as [|x r]; simpl.
  - destruct (vals c); reflexivity.
  - rewrite fold_left_app. reflexivity.
Qed.
Print Assumptions C18_changes_resets_split.

(* slice reducers of engine/prom_functions.go: stdvar/stddev, present/absent, quantile, deriv, predict_linear *)

(* stdvar_over_time (stddev = its square root): Welford over (prev, curr) = upstream's Welford pass over the window,
   for every cut *)
Theorem C18_stdvar_over_time_split : forall cut, impl_stdvar_split cut = spec_stdvar_over_time (concat cut).
Proof. exact stdvar_split_equals_whole. Qed.
(* upstream's Welford recurrence is exactly the population variance (sum x^2 - (sum x)^2/n)/n over the rationals *)
Theorem C18_stdvar_is_population_variance : forall w, w <> [] ->
  oQeq (spec_stdvar_over_time w) (Some (var_of_moments (moments (vals w)))).
Proof. exact stdvar_is_population_variance. Qed.
(* the merge law: per-record moment vectors (n, sum x, sum x^2) added component-wise give the whole window's stdvar *)
Theorem C18_stdvar_moment_merge_equals_whole : forall cut, concat cut <> [] ->
  oQeq (spec_stdvar_over_time (concat cut))
       (Some (var_of_moments (fold_right mplus (0, 0, 0) (map (fun r => moments (vals r)) cut)))).
Proof.
  intros cut Hne. eapply oQeq_trans; [apply stdvar_is_population_variance; exact Hne|].
  cbn [oQeq]. unfold vals. rewrite concat_map, <- (map_map (map (@snd Z Q)) moments). apply var_of_moments_fold.
Qed.
Print Assumptions C18_stdvar_moment_merge_equals_whole.

Theorem C18_present_over_time_split : forall cut, impl_present_split cut = spec_present_over_time (concat cut).
Proof. exact present_split_equals_whole. Qed.
Theorem C18_absent_over_time_split : forall cuts,
  impl_absent_over_time cuts = spec_absent_over_time (map (@concat sample) cuts).
Proof.
  intros cuts.
  unfold impl_absent_over_time, spec_absent_over_time.
  assert (E : forallb (fun cut => is_none (impl_present_split cut)) cuts =
              forallb (fun w => is_none (spec_present_over_time w)) (map (@concat sample) cuts)).
  { induction cuts as [|x cuts IH]; [reflexivity|]. cbn [map forallb]. rewrite IH, present_split_equals_whole. reflexivity. }
  rewrite E. reflexivity.
Qed.
Theorem C18_absent_over_time_spec : forall ws, spec_absent_over_time ws = Some 1 <-> (forall w, In w ws -> w = []).
Proof.
  intros ws.
  unfold spec_absent_over_time. destruct (forallb _ ws) eqn:E.
  - split; [|reflexivity]. intros _ w Hin. rewrite forallb_forall in E. specialize (E w Hin). destruct w; [reflexivity|discriminate].
  - split; [discriminate|]. intros H. exfalso. assert (forallb (fun w => is_none (spec_present_over_time w)) ws = true).
    { apply forallb_forall. intros w Hin. rewrite (H w Hin). reflexivity. }
    congruence.
Qed.
Print Assumptions C18_absent_over_time_split.

(* quantile_over_time: (prev, curr) = whole window for every cut; the answer depends only on the MULTISET of the
   samples (records merged in any order = multiset union); the model's sort is a sorted permutation of its input *)
Theorem C18_quantile_over_time_split : forall q cut, impl_quantile_split q cut = spec_quantile_over_time q (concat cut).
Proof. exact quantile_split_equals_whole. Qed.
Theorem C18_quantile_multiset_invariant : forall q (w w' : list sample),
  Permutation w w' -> oxeq (spec_quantile_over_time q w) (spec_quantile_over_time q w').
Proof. exact quantile_any_arrangement. Qed.
Theorem C18_quantile_records_any_order : forall q cut cut',
  Permutation cut cut' -> oxeq (impl_quantile_split q cut) (spec_quantile_over_time q (concat cut')).
Proof.
  intros q cut cut' H. rewrite quantile_split_equals_whole. apply quantile_any_arrangement. apply concat_perm. exact H.
Qed.
Theorem C18_qsort_sorted_permutation : forall l, StronglySorted Qle (qsort l) /\ Permutation (qsort l) l.
Proof. intros l. split; [apply qsort_sorted|apply qsort_is_permutation]. Qed.
Print Assumptions C18_quantile_records_any_order.

(* deriv / predict_linear: least squares over (prev, curr) = upstream's linearRegression on the window for every cut.
   deriv: upstream anchors x at the first sample, the implementation at the evaluation time - the slope is the same;
   predict_linear: both anchor at the evaluation time t (the offset only moves the window) *)
Theorem C18_deriv_split : forall t offset cut, oQeq (impl_deriv t offset cut) (spec_deriv (concat cut)).
Proof.
  intros t offset. exact (split_of_merge oQeq _ _ (deriv_merge_equals_whole t offset)).
Qed.
Theorem C18_predict_linear_split : forall dur t offset cut,
  oQeq (impl_predict_linear dur t offset cut) (spec_predict_linear t dur (concat cut)).
Proof.
  intros dur t offset. exact (split_of_merge oQeq _ _ (predict_linear_merge_equals_whole dur t offset)).
Qed.
Theorem C18_regression_slope_anchor_independent : forall t1 t2 l, fst (lin_regress t2 l) == fst (lin_regress t1 l).
Proof. exact regress_slope_anchor_independent. Qed.
(* the merge law of the regression state (n, sum x, sum y, sum xy, sum x^2): component-wise sum, for every cut *)
Theorem C18_regression_moments_merge : forall tref (cut : list (list sample)),
  lin_eq (lin_sums tref (concat cut)) (fold_right lin_plus lin0 (map (lin_sums tref) cut)).
Proof.
  intros tref cut. exact (lin_eq_via _ _ _ (lin_sums_raw tref (concat cut)) (lin_fold_raw_concat tref cut)).
Qed.
Print Assumptions C18_deriv_split.
Print Assumptions C18_regression_moments_merge.

(* the upstream mean (incremental) is the arithmetic mean *)
Theorem C18_mean_is_sum_over_count : forall l, mean_inc l * qlen l == qsum l.
Proof. exact mean_inc_sum. Qed.

(* a range query is the sequence of instant queries at its steps *)
Theorem C18_steps : forall start stop step t,
  In t (steps start stop step) <-> (0 < step)%Z /\ exists k, (0 <= k)%Z /\ t = (start + k * step)%Z /\ (t <= stop)%Z.
Proof. exact steps_spec. Qed.
Theorem C18_range_is_instants : forall (L : Type) (eval : list sample -> Z -> option Q) (db : list (series L)) start stop step ls t v,
  (exists pts, In (ls, pts) (range_query L eval db start stop step) /\ In (t, v) pts) <->
  (In t (steps start stop step) /\ In (ls, v) (instant_query L eval db t)).
Proof. exact range_is_instants. Qed.
Print Assumptions C18_range_is_instants.

(* by / without: the groups are a partition of the input vector - every element lands in exactly one group (the
   concatenated members are a permutation of the input), group keys are pairwise different, and each member's key is
   the group's key; the aggregated vector carries exactly the group keys as label sets (a comparison or arithmetic
   with a scalar does not touch them: the harness ties the transpiled grouping of `agg op scalar` to that of `agg`) *)
Theorem C18_by_without_partition : forall (without : bool) (G : list string) (vec : list elem),
  let gs := groups without G vec in
  Permutation (concat (map snd gs)) vec /\ NoDup (map fst gs) /\
  (forall g x, In g gs -> In x (snd g) -> fst g = group_key without G (fst x)).
Proof. exact by_without_partition. Qed.
Print Assumptions C18_by_without_partition.
Theorem C18_aggregate_labels : forall op without G vec,
  map fst (aggregate op without G vec) = map fst (groups without G vec).
Proof. intros op wo G vec. unfold aggregate. rewrite map_map. reflexivity. Qed.
Theorem C18_by_without_dual : forall G (ls : labels) kv, In kv ls -> fst kv <> name_label ->
  (In kv (key_by G ls) <-> ~ In kv (key_without G ls)).
Proof.
  intros G ls kv Hin Hn. unfold key_by, key_without. rewrite !filter_In.
  assert (E : String.eqb (fst kv) name_label = false) by (apply String.eqb_neq; exact Hn).
  rewrite E. simpl. rewrite andb_true_r. destruct (mem_str (fst kv) G); simpl; split.
  - intros _ [_ H']. discriminate.
  - intros _. split; auto.
  - intros [_ H]. discriminate.
  - intros H. exfalso. apply H. auto.
Qed.
Print Assumptions C18_by_without_dual.
Example C18_example_groups :
  map fst (aggregate AggSum true ["instance"%string]
    [([("__name__", "m"); ("instance", "a"); ("job", "x")]%string, 1); ([("__name__", "m"); ("instance", "b"); ("job", "x")]%string, 2);
     ([("__name__", "m"); ("instance", "a"); ("job", "y")]%string, 4)])
  = [[("job", "x")]; [("job", "y")]]%string.
Proof. reflexivity. Qed.

(* staleness markers (samples are option-valued; None = marker) *)

(* the range-vector selector drops the markers; dropping commutes with taking the window *)
Theorem C18_stale_window_commutes : forall t range offset l,
  window t range offset (drop_stale l) = range_select t range offset l.
Proof. exact window_drop_stale. Qed.
(* REPAIRED REDUCER PROTOCOL, generic: a reducer whose split form equals its whole-window form for every cut keeps doing
   so when the records are filtered one by one - also when a record holds nothing but markers and becomes EMPTY *)
Theorem C18_stale_repaired_protocol : forall (A : Type) (R : option A -> option A -> Prop)
  (split : list (list sample) -> option A) (spec : list sample -> option A),
  (forall cut, R (split cut) (spec (concat cut))) ->
  forall cut, R (stale_protocol_repaired split cut) (spec (drop_stale (concat cut))).
Proof. exact @stale_repaired_split. Qed.
Theorem C18_stale_count_over_time : forall cut,
  oQeq (stale_protocol_repaired impl_count_over_time cut) (spec_count_over_time (drop_stale (concat cut))).
Proof. exact (stale_repaired_split oQeq _ _ C18_count_over_time_split). Qed.
Theorem C18_stale_avg_over_time : forall cut,
  oQeq (stale_protocol_repaired impl_avg_over_time cut) (spec_avg_over_time (drop_stale (concat cut))).
Proof. exact (stale_repaired_split oQeq _ _ C18_avg_over_time_split). Qed.
Theorem C18_stale_quantile_over_time : forall q cut,
  stale_protocol_repaired (impl_quantile_split q) cut = spec_quantile_over_time q (drop_stale (concat cut)).
Proof. exact (fun q => stale_repaired_split eq _ _ (quantile_split_equals_whole q)). Qed.
Theorem C18_stale_changes_resets : forall differs cut,
  stale_protocol_repaired (impl_count_pairs_split differs) cut = spec_count_pairs differs (drop_stale (concat cut)).
Proof. exact (fun differs => stale_repaired_split eq _ _ (C18_changes_resets_split differs)). Qed.
(* instant selector: the answer is a real sample of the look-back window; a marker as newest sample hides the series; a
   real sample after the marker brings it back *)
Theorem C18_instant_select_stale_in_lookback : forall t offset l s,
  instant_select_stale t offset l = Some s ->
  In (fst s, Some (snd s)) l /\ (t - offset - lookback <= fst s <= t - offset)%Z.
Proof. exact instant_select_stale_spec. Qed.
Theorem C18_instant_select_marker_hides : forall t offset l tm,
  (t - offset - lookback <= tm <= t - offset)%Z -> instant_select_stale t offset (l ++ [(tm, None)]) = None.
Proof. exact (fun t offset l tm => instant_select_stale_snoc t offset l tm None). Qed.
Theorem C18_instant_select_after_marker : forall t offset l tm v,
  (t - offset - lookback <= tm <= t - offset)%Z -> instant_select_stale t offset (l ++ [(tm, Some v)]) = Some (tm, v).
Proof. exact (fun t offset l tm v => instant_select_stale_snoc t offset l tm (Some v)). Qed.
Print Assumptions C18_stale_repaired_protocol.
Print Assumptions C18_instant_select_marker_hides.
Example C18_example_stale :
  stale_protocol_repaired impl_count_over_time wit_stale_cut = Some 2 /\
  spec_count_over_time (drop_stale (concat wit_stale_cut)) = Some 2 /\
  instant_select_stale 100 0 (concat wit_stale_cut) = None /\
  instant_select_stale 50 0 (concat wit_stale_cut) = Some (30%Z, 2).
Proof. vm_compute. repeat split. Qed.

(* vector <op> scalar: arithmetic keeps every element and drops the metric name; a comparison filter returns a
   sub-vector (labels incl. the name and the VECTOR's values untouched, also when the scalar is on the left); with
   bool every element survives with value 0/1 and without the name *)
Theorem C18_vector_scalar_arith_labels : forall op rb swap s v,
  is_cmp op = false -> map fst (vs_binop op rb swap s v) = map (fun e => drop_name (fst e)) v.
Proof.
  intros op rb swap s v H. unfold vs_binop. induction v as [|[ls x] v IH]; simpl; [reflexivity|]. rewrite H. simpl. rewrite IH. reflexivity.
Qed.
Theorem C18_vector_scalar_filter_is_subvector : forall op swap s v, is_cmp op = true ->
  vs_binop op false swap s v = filter (fun e => cmp op (if swap then s else snd e) (if swap then snd e else s)) v.
Proof.
  intros op swap s v H. unfold vs_binop. induction v as [|[ls x] v IH]; simpl; [reflexivity|]. rewrite H. simpl.
  destruct (cmp op _ _); simpl; rewrite IH; reflexivity.
Qed.
Theorem C18_vector_scalar_bool : forall op swap s v, is_cmp op = true ->
  vs_binop op true swap s v = map (fun e => (drop_name (fst e), b2q (cmp op (if swap then s else snd e) (if swap then snd e else s)))) v.
Proof.
  intros op swap s v H. unfold vs_binop. induction v as [|[ls x] v IH]; simpl; [reflexivity|]. rewrite H. simpl. rewrite IH. reflexivity.
Qed.
Print Assumptions C18_vector_scalar_filter_is_subvector.

(* the result label set of a one-to-one vector operation (upstream resultMetric) *)
Theorem C18_result_metric_labels : forall op rb m ls kv,
  In kv (result_metric op rb m ls) <->
  In kv ls /\ (drops_name op rb = true -> fst kv <> name_label) /\
  (if vm_on m then In (fst kv) (vm_labels m) else ~ In (fst kv) (vm_labels m)).
Proof.
  intros op rb m ls kv.
  unfold result_metric, key_by.
  assert (Hneg : negb (mem_str (fst kv) (vm_labels m)) = true <-> ~ In (fst kv) (vm_labels m)).
  { rewrite negb_true_iff, <- not_true_iff_false, mem_str_In. tauto. }
  destruct (drops_name op rb), (vm_on m); rewrite filter_In; rewrite ?in_drop_name, ?mem_str_In, ?Hneg; intuition congruence.
Qed.
Theorem C18_result_metric_no_name : forall op rb m ls,
  drops_name op rb = true -> ~ In name_label (map fst (result_metric op rb m ls)).
Proof.
  intros op rb m ls H. unfold result_metric. rewrite H. destruct (vm_on m); unfold key_by; intros Hin; apply in_filter_fst in Hin;
    exact (drop_name_no_name ls Hin).
Qed.
Theorem C18_result_metric_filter_keeps_labels : forall op ls,
  is_cmp op = true -> result_metric op false {| vm_on := false; vm_labels := [] |} ls = ls.
Proof.
  intros op ls H. unfold result_metric, drops_name. rewrite H. simpl.
  induction ls as [|kv ls IH]; simpl; [reflexivity|]. rewrite IH. reflexivity.
Qed.
Print Assumptions C18_result_metric_labels.

(* one-to-one matching is a partial bijection on signatures, and the answer is one element per matched pair *)
Theorem C18_one_to_one_partial_bijection : forall op rb m lhs rhs out,
  is_cmp op && negb rb = false ->
  vv_binop op rb m lhs rhs = Some out ->
  (forall l r r', In l lhs -> In r rhs -> In r' rhs -> sigf m l = sigf m r -> sigf m l = sigf m r' -> r = r') /\
  (forall l l' r, In l lhs -> In l' lhs -> In r rhs -> sigf m l = sigf m r -> sigf m l' = sigf m r -> l = l') /\
  out = map (pair_out op rb m rhs) (partnered m rhs lhs) /\
  (forall l, In l (partnered m rhs lhs) <-> In l lhs /\ exists r, In r rhs /\ sigf m l = sigf m r).
Proof. exact vv_one_to_one_partial_bijection. Qed.
(* ... and never contains the same label set twice (filters included) *)
Theorem C18_vector_binop_no_duplicate_series : forall op rb m lhs rhs out,
  (vm_on m = true -> ~ In name_label (vm_labels m)) ->
  vv_binop op rb m lhs rhs = Some out -> NoDup (map fst out).
Proof.
  intros op rb m lhs rhs out Hon H. unfold vv_binop in H.
  destruct (is_nil lhs || is_nil rhs); [injection H as <-; constructor|].
  destruct (nodup_sigs _); [|discriminate].
  destruct (vv_loop_kept op rb m rhs _ _ _ H) as [-> [Hn _]].
  apply (NoDup_map_inv (sig m)). rewrite !map_map.
  rewrite (map_ext _ (sigf m)); [exact Hn | intros l; now apply (sigf_pair_out op rb m rhs l)].
Qed.
Print Assumptions C18_one_to_one_partial_bijection.
Print Assumptions C18_vector_binop_no_duplicate_series.

(* range queries: the repaired step-by-step walk of the operator (cursor bounded by the tag group of the matched
   series) returns exactly the steps at which both matched series have a value - the instant evaluations at the steps *)
Theorem C18_binop_walk_repaired_is_stepwise_join : forall f s chunk g,
  times_increasing s -> times_increasing (nth g chunk []) ->
  walk_repaired f s chunk g = join_spec f s (nth g chunk []).
Proof. intros f s chunk g. intros Hs Hp. unfold walk_repaired, walk_rows. apply join_walk_spec; auto. Qed.
Theorem C18_binop_stepwise_join_points : forall f s p t v,
  In (t, v) (join_spec f s p) <-> exists vs vp, In (t, vs) s /\ value_at t p = Some vp /\ v = f vs vp.
Proof.
  intros f s p t v.
  unfold join_spec. rewrite in_flat_map. split.
  - intros [[ts vs] [Hin H]]. cbn [fst snd] in H. destruct (value_at ts p) as [vp|] eqn:E; [|contradiction].
    destruct H as [H|[]]. injection H as <- <-. exists vs, vp. auto.
  - intros [vs [vp [Hin [E ->]]]]. exists (t, vs). split; auto. cbn [fst snd]. rewrite E. left. reflexivity.
Qed.
Print Assumptions C18_binop_walk_repaired_is_stepwise_join.

Example C18_example_binops :
  let a := [([("__name__", "m"); ("instance", "a"); ("job", "x")]%string, 6); ([("__name__", "m"); ("instance", "b"); ("job", "x")]%string, 2)] in
  let b := [([("__name__", "n"); ("instance", "b"); ("job", "y")]%string, 4); ([("__name__", "n"); ("instance", "c"); ("job", "y")]%string, 5)] in
  vs_binop OGt false true 3 a = [([("__name__", "m"); ("instance", "b"); ("job", "x")]%string, 2)] /\
  vs_binop ODiv false false 4 a = [([("instance", "a"); ("job", "x")]%string, 6 / 4); ([("instance", "b"); ("job", "x")]%string, 2 / 4)] /\
  vv_binop OSub false {| vm_on := true; vm_labels := ["instance"%string] |} a b = Some [([("instance", "b")]%string, 2 - 4)] /\
  vv_binop OLt false {| vm_on := false; vm_labels := ["job"%string] |} a b = Some [([("__name__", "m"); ("instance", "b")]%string, 2)] /\
  vv_binop OAdd false {| vm_on := true; vm_labels := ["job"%string] |} a a = None.
Proof. vm_compute. repeat split. Qed.

(* non-vacuity: the hypotheses are satisfiable and the functions compute the upstream values on a small counter
   with a reset (window [0, 60000], samples every 15 s: 10 20 5 15 25) *)
Definition ex_w : list sample := [(0%Z, 10); (15000%Z, 20); (30000%Z, 5); (45000%Z, 15); (60000%Z, 25)].
Example C18_example_sorted : times_increasing ex_w.
Proof. unfold times_increasing, ex_w. simpl. repeat (constructor; [|repeat constructor; reflexivity]). constructor. Qed.
Example C18_example_increase :
  oQeq (spec_increase 60000 60000 0 ex_w) (Some 35) /\
  oQeq (impl_increase 60000 60000 0 [[(0%Z, 10); (15000%Z, 20)]; []; [(30000%Z, 5)]; [(45000%Z, 15); (60000%Z, 25)]]) (Some 35) /\
  oQeq (spec_rate 60000 60000 0 ex_w) (Some (7 # 12)) /\
  spec_resets ex_w = Some 1 /\ spec_changes ex_w = Some 4 /\
  oQeq (spec_irate ex_w) (Some (2 # 3)) /\ oQeq (spec_avg_over_time ex_w) (Some 15).
Proof. vm_compute. repeat split. Qed.
Example C18_example_steps : steps 100 200 30 = [100; 130; 160; 190]%Z.
Proof. reflexivity. Qed.

(* values 2 4 4 4 5 5 7 9: mean 5, variance 4 (stddev 2); median 4.5; 0.9-quantile 7.6; a line y = 3 + 2 x (x in s) *)
Definition ex_v : list sample :=
  [(0%Z, 2); (1000%Z, 4); (2000%Z, 4); (3000%Z, 4); (4000%Z, 5); (5000%Z, 5); (6000%Z, 7); (7000%Z, 9)].
Definition ex_line : list sample := [(1000%Z, 5); (2000%Z, 7); (4000%Z, 11); (7000%Z, 17)].
Example C18_example_slice_functions :
  oQeq (spec_stdvar_over_time ex_v) (Some 4) /\
  oQeq (impl_stdvar_split [[(0%Z, 2); (1000%Z, 4)]; []; [(2000%Z, 4); (3000%Z, 4); (4000%Z, 5)]; [(5000%Z, 5); (6000%Z, 7); (7000%Z, 9)]]) (Some 4) /\
  oxeq (spec_quantile_over_time (1 # 2) ex_v) (Some (XFin (9 # 2))) /\
  oxeq (spec_quantile_over_time (9 # 10) ex_v) (Some (XFin (76 # 10))) /\
  oxeq (spec_quantile_over_time (3 # 2) ex_v) (Some XPosInf) /\
  oQeq (spec_deriv ex_line) (Some 2) /\
  oQeq (impl_deriv 10000 3000 [[(1000%Z, 5)]; [(2000%Z, 7); (4000%Z, 11)]; [(7000%Z, 17)]]) (Some 2) /\
  oQeq (spec_predict_linear 10000 60 ex_line) (Some 143) /\
  oQeq (impl_predict_linear 60 10000 3000 [[(1000%Z, 5); (2000%Z, 7)]; [(4000%Z, 11); (7000%Z, 17)]]) (Some 143) /\
  spec_absent_over_time [[]; []] = Some 1 /\ spec_absent_over_time [[]; ex_line] = None.
Proof. vm_compute. repeat split. Qed.
