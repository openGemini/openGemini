(* C18 proofs, part I: staleness markers - filtering record by record = filtering the whole window, for every cut (also
   when a record becomes empty); selector rules. *)

From Coq Require Import QArith List Lia.
From OG Require Import C18.Model C18.Model2 C18.Model4 C18.ProofsA C18.ProofsB C18.ProofsE.
Import ListNotations.
Open Scope Q_scope.

Lemma drop_stale_app a b : drop_stale (a ++ b) = drop_stale a ++ drop_stale b.
Proof. unfold drop_stale. apply flat_map_app. Qed.

Lemma drop_stale_concat cut : concat (filter_records cut) = drop_stale (concat cut).
Proof.
  unfold filter_records. induction cut as [|r cut IH]; simpl; [reflexivity|]. rewrite IH, drop_stale_app. reflexivity.
Qed.

Lemma window_drop_stale t range offset l : window t range offset (drop_stale l) = range_select t range offset l.
Proof.
  unfold range_select, window, owindow. set (lo := win_lo t range offset). set (hi := win_hi t offset).
  induction l as [|[ts o] l IH]; [reflexivity|].
  change (drop_stale ((ts, o) :: l)) with ((match o with Some v => [(ts, v)] | None => [] end) ++ drop_stale l).
  rewrite filter_app.
  assert (E : forall v, in_win lo hi (ts, v) = oin_win lo hi (ts, o)) by reflexivity.
  destruct o as [v|]; cbn [filter app].
  - rewrite (E v). destruct (oin_win lo hi (ts, Some v)).
    + change (drop_stale ((ts, Some v) :: filter (oin_win lo hi) l)) with ((ts, v) :: drop_stale (filter (oin_win lo hi) l)).
      cbn [app]. f_equal. exact IH.
    + exact IH.
  - destruct (oin_win lo hi (ts, None)); exact IH.
Qed.

(* GENERIC: any reducer whose split form equals its whole-window form for every cut keeps doing so when the records are
   filtered one by one - in particular when a record holds nothing but markers and becomes empty *)
Theorem stale_repaired_split {A} (R : option A -> option A -> Prop) (split : list (list sample) -> option A) (spec : list sample -> option A) :
  (forall cut, R (split cut) (spec (concat cut))) ->
  forall cut, R (stale_protocol_repaired split cut) (spec (drop_stale (concat cut))).
Proof. intros H cut. unfold stale_protocol_repaired. rewrite <- drop_stale_concat. apply H. Qed.

Theorem stale_sum_over_time cut :
  oQeq (stale_protocol_repaired impl_sum_over_time cut) (spec_sum_over_time (drop_stale (concat cut))).
Proof. apply (stale_repaired_split oQeq). exact sum_split_equals_whole. Qed.
Theorem stale_last_over_time cut :
  oQeq (stale_protocol_repaired impl_last_over_time cut) (spec_last_over_time (drop_stale (concat cut))).
Proof. apply (stale_repaired_split oQeq). exact last_split_equals_whole. Qed.
Theorem stale_stdvar_over_time cut :
  stale_protocol_repaired impl_stdvar_split cut = spec_stdvar_over_time (drop_stale (concat cut)).
Proof. apply (stale_repaired_split eq). exact stdvar_split_equals_whole. Qed.

(* a sample that survives the filter is a real sample of the original list *)
Lemma drop_stale_in s l : In s (drop_stale l) -> In (fst s, Some (snd s)) l.
Proof.
  unfold drop_stale. rewrite in_flat_map. intros [[ts [v|]] [Hin H]]; simpl in H; [|contradiction].
  destruct H as [<-|[]]. exact Hin.
Qed.

Theorem instant_select_stale_spec t offset l s :
  instant_select_stale t offset l = Some s ->
  In (fst s, Some (snd s)) l /\ (t - offset - lookback <= fst s <= t - offset)%Z.
Proof.
  unfold instant_select_stale. destruct (last_opt (owindow t lookback offset l)) as [[ts [v|]]|] eqn:E; try discriminate.
  intros H. injection H as <-. cbn [fst snd].
  pose proof (last_opt_In _ _ E) as Hin.
  unfold owindow in Hin. apply filter_In in Hin. destruct Hin as [Hl Hw]. split; [exact Hl|].
  unfold oin_win, win_lo, win_hi in Hw. cbn [fst] in Hw. apply andb_true_iff in Hw. destruct Hw as [H1 H2].
  apply Z.leb_le in H1, H2. lia.
Qed.

Lemma last_opt_snoc {A} (l : list A) x : last_opt (l ++ [x]) = Some x.
Proof.
  now rewrite last_opt_app.
Qed.

(* the newest sample of the look-back window decides: a marker hides the series, whatever came before, and a real
   sample after a marker brings it back *)
Theorem instant_select_stale_snoc t offset l tm o :
  (t - offset - lookback <= tm <= t - offset)%Z ->
  instant_select_stale t offset (l ++ [(tm, o)]) = option_map (pair tm) o.
Proof.
  intros H. unfold instant_select_stale, owindow. rewrite filter_app. cbn [filter].
  replace (oin_win (win_lo t lookback offset) (win_hi t offset) (tm, o)) with true.
  - rewrite last_opt_snoc. destruct o; reflexivity.
  - symmetry. unfold oin_win, win_lo, win_hi. cbn [fst]. apply andb_true_iff. split; apply Z.leb_le; lia.
Qed.

(* the witness of Refuted.C18_stale_protocol_current_refuted: a last record that holds only a marker *)
Definition wit_stale_cut : list (list osample) := [[(0%Z, Some 1); (30%Z, Some 2)]; [(60%Z, None)]].
