(* C18 proofs, part E: stdvar/stddev_over_time (Welford = moment sums), present/absent_over_time,
   deriv / predict_linear (least squares from moment sums; the slope does not depend on the anchor time). *)

From Coq Require Import QArith List Lia Lqa.
From OG Require Import C18.Model C18.Model2.
From OG Require Import C18.ProofsA C18.ProofsB.
Import ListNotations.
Open Scope Q_scope.

Definition sq (x : Q) : Q := x * x.

Theorem stdvar_merge_equals_whole p c : impl_stdvar_merge p c = spec_stdvar_over_time (p ++ c).
Proof.
  unfold impl_stdvar_merge, spec_stdvar_over_time, welford. rewrite vals_app, <- fold_left_app, len_vals_app.
  destruct (vals p ++ vals c) as [|x r]; [reflexivity|].
  replace (Z.of_nat (length (x :: r)) <? 1)%Z with false by (symmetry; apply Z.ltb_ge; cbn [length]; lia).
  reflexivity.
Qed.

Theorem stdvar_split_equals_whole cut : impl_stdvar_split cut = spec_stdvar_over_time (concat cut).
Proof. exact (split_of_merge eq _ _ stdvar_merge_equals_whole cut). Qed.

Theorem present_split_equals_whole cut : impl_present_split cut = spec_present_over_time (concat cut).
Proof.
  unfold impl_present_split, impl_present_merge. rewrite <- app_length, concat_removelast_last.
  destruct (concat cut) as [|x r]; [reflexivity|].
  replace (Z.of_nat (length (x :: r)) <? 1)%Z with false by (symmetry; apply Z.ltb_ge; cbn [length]; lia).
  reflexivity.
Qed.

(* a state (count, mean, aux) stands for the sums  mean * count  and  aux + mean^2 * count  of the values and of their
   squares; one step adds v and v^2 to them, whatever the count *)
Lemma welford_step_moments n m a v : 0 <= n ->
  let '(n', m', a') := welford_step (n, m, a) v in
  n' == n + 1 /\ m' * n' == m * n + v /\ a' + m' * m' * n' == a + m * m * n + sq v.
Proof.
  intros Hn. cbn [welford_step]. unfold sq. rewrite !Qred_correct. split; [reflexivity | split; field; lra].
Qed.

Lemma welford_moments l : forall n m a, 0 <= n ->
  let '(n', m', a') := fold_left welford_step l (n, m, a) in
  n' == n + qlen l /\ m' * n' == m * n + qsum l /\ a' + m' * m' * n' == a + m * m * n + qsum (map sq l).
Proof.
  induction l as [|v l IH]; intros n m a Hn.
  - unfold qlen, qsum. simpl. repeat split; ring.
  - cbn [fold_left]. pose proof (welford_step_moments n m a v Hn) as E.
    destruct (welford_step (n, m, a) v) as [[n1 m1] a1]. destruct E as (E1 & E2 & E3).
    assert (Hn1 : 0 <= n1) by (rewrite E1; lra). specialize (IH n1 m1 a1 Hn1).
    destruct (fold_left welford_step l (n1, m1, a1)) as [[n' m'] a']. destruct IH as (I1 & I2 & I3).
    cbv beta iota. cbn [map]. rewrite I3, I2, I1, E3, E2, E1, qlen_cons, !qsum_cons. repeat split; ring.
Qed.

Lemma welford_var_moments x l :
  welford_var (welford (x :: l)) == var_of_moments (moments (x :: l)).
Proof.
  pose proof (welford_moments (x :: l) 0 0 0 (Qle_refl 0)) as H. unfold welford.
  destruct (fold_left welford_step (x :: l) (0, 0, 0)) as [[n m] a]. destruct H as (I1 & I2 & I3).
  unfold welford_var, var_of_moments, moments. change (fun x0 : Q => x0 * x0) with sq.
  assert (En : qlen (x :: l) == n) by (rewrite I1; ring).
  assert (Es : qsum (x :: l) == m * n) by (rewrite I2; ring).
  assert (Eq : qsum (map sq (x :: l)) == a + m * m * n) by (rewrite I3; ring).
  pose proof (qlen_pos x l) as Hp. rewrite Eq, Es, En in *. field. lra.
Qed.

(* stdvar_over_time is the population variance  (sum x^2 - (sum x)^2 / n) / n  of the window *)
Theorem stdvar_is_population_variance w : w <> [] ->
  oQeq (spec_stdvar_over_time w) (Some (var_of_moments (moments (vals w)))).
Proof.
  intros Hne. unfold spec_stdvar_over_time. destruct w as [|s w]; [congruence|].
  cbn [vals map]. cbn [oQeq]. apply welford_var_moments.
Qed.

Lemma moments_fold (cut : list (list Q)) :
  let '(n, s, q) := fold_right mplus (0, 0, 0) (map moments cut) in
  n == qlen (concat cut) /\ s == qsum (concat cut) /\ q == qsum (map sq (concat cut)).
Proof.
  induction cut as [|x cut IH]; cbn [concat map fold_right].
  - unfold qlen, qsum. simpl. repeat split; reflexivity.
  - destruct (fold_right mplus (0, 0, 0) (map moments cut)) as [[n s] q]. destruct IH as (I1 & I2 & I3).
    unfold moments, mplus. change (fun x0 : Q => x0 * x0) with sq.
    rewrite map_app, qlen_app, !qsum_app, I1, I2, I3. repeat split; reflexivity.
Qed.

Lemma var_of_moments_fold (cut : list (list Q)) :
  var_of_moments (moments (concat cut)) == var_of_moments (fold_right mplus (0, 0, 0) (map moments cut)).
Proof.
  pose proof (moments_fold cut) as H. destruct (fold_right mplus (0, 0, 0) (map moments cut)) as [[n s] q].
  destruct H as (I1 & I2 & I3). unfold var_of_moments, moments. change (fun x0 : Q => x0 * x0) with sq.
  now rewrite I1, I2, I3.
Qed.

Definition lin_eq (a b : lin5) : Prop :=
  let '(n1, a1, b1, c1, d1) := a in let '(n2, a2, b2, c2, d2) := b in
  n1 == n2 /\ a1 == a2 /\ b1 == b2 /\ c1 == c2 /\ d1 == d2.

Definition slen (l : list sample) : Q := qlen (vals l).
Lemma slen_cons s l : slen (s :: l) == 1 + slen l.
Proof. unfold slen. cbn [vals map]. apply qlen_cons. Qed.
Lemma slen_app a b : slen (a ++ b) == slen a + slen b.
Proof. unfold slen. rewrite vals_app. apply qlen_app. Qed.
Lemma slen_pos s l : 0 < slen (s :: l).
Proof. unfold slen. cbn [vals map]. apply qlen_pos. Qed.

Definition raw_sums (tref : Z) (l : list sample) : lin5 :=
  (slen l, qsum (map (xsec tref) l), qsum (map snd l),
   qsum (map (fun s => xsec tref s * snd s) l), qsum (map (fun s => xsec tref s * xsec tref s) l)).

Lemma lin_fold_raw tref l : forall n sx sy sxy sx2,
  lin_eq (fold_left (lin_step tref) l (n, sx, sy, sxy, sx2)) (lin_plus (n, sx, sy, sxy, sx2) (raw_sums tref l)).
Proof.
  induction l as [|s l IH]; intros n sx sy sxy sx2.
  - unfold raw_sums, lin_plus, lin_eq, slen, qlen, qsum. simpl. repeat split; ring.
  - cbn [fold_left lin_step].
    specialize (IH (n + 1) (Qred (sx + xsec tref s)) (Qred (sy + snd s)) (Qred (sxy + xsec tref s * snd s)) (Qred (sx2 + xsec tref s * xsec tref s))).
    destruct (fold_left (lin_step tref) l _) as [[[[n' a'] b'] c'] d'].
    unfold raw_sums, lin_plus, lin_eq in *. cbn [map]. destruct IH as [I1 [I2 [I3 [I4 I5]]]].
    rewrite I1, I2, I3, I4, I5, !Qred_correct, slen_cons, !qsum_cons. repeat split; ring.
Qed.

Lemma lin_sums_raw tref l : lin_eq (lin_sums tref l) (raw_sums tref l).
Proof.
  unfold lin_sums, lin0. pose proof (lin_fold_raw tref l 0 0 0 0 0) as H.
  destruct (fold_left (lin_step tref) l _) as [[[[n' a'] b'] c'] d'].
  unfold raw_sums, lin_plus, lin_eq in *. destruct H as [I1 [I2 [I3 [I4 I5]]]].
  rewrite I1, I2, I3, I4, I5. repeat split; ring.
Qed.

Lemma lin_fold_raw_concat tref (cut : list (list sample)) :
  lin_eq (fold_right lin_plus lin0 (map (lin_sums tref) cut)) (raw_sums tref (concat cut)).
Proof.
  induction cut as [|x cut IH]; cbn [concat map fold_right].
  - unfold raw_sums, lin0, lin_eq, slen, qlen, qsum. simpl. repeat split; reflexivity.
  - pose proof (lin_sums_raw tref x) as A. destruct (lin_sums tref x) as [[[[? ?] ?] ?] ?].
    destruct (fold_right lin_plus lin0 (map (lin_sums tref) cut)) as [[[[? ?] ?] ?] ?].
    unfold lin_eq, lin_plus, raw_sums in *. destruct A as (A1 & A2 & A3 & A4 & A5), IH as (I1 & I2 & I3 & I4 & I5).
    rewrite !map_app, slen_app, !qsum_app, A1, A2, A3, A4, A5, I1, I2, I3, I4, I5. repeat split; reflexivity.
Qed.

Lemma lin_eq_via a b r : lin_eq a r -> lin_eq b r -> lin_eq a b.
Proof.
  destruct a as [[[[? ?] ?] ?] ?], b as [[[[? ?] ?] ?] ?], r as [[[[? ?] ?] ?] ?]. unfold lin_eq.
  intros (A1 & A2 & A3 & A4 & A5) (B1 & B2 & B3 & B4 & B5). rewrite A1, A2, A3, A4, A5, B1, B2, B3, B4, B5.
  repeat split; reflexivity.
Qed.

Lemma lin_finish_proper a b : lin_eq a b -> fst (lin_finish a) == fst (lin_finish b) /\ snd (lin_finish a) == snd (lin_finish b).
Proof.
  destruct a as [[[[? ?] ?] ?] ?], b as [[[[? ?] ?] ?] ?]. unfold lin_eq, lin_finish. cbn [fst snd].
  intros [A1 [A2 [A3 [A4 A5]]]]. rewrite A1, A2, A3, A4, A5. split; reflexivity.
Qed.

(* moving the anchor time by d seconds: x' = x - d *)
Lemma xsec_shift t1 t2 s : xsec t2 s == xsec t1 s - ms_to_s (t2 - t1).
Proof.
  unfold xsec, ms_to_s. unfold Zminus. rewrite !inject_Z_plus, !inject_Z_opp. field.
Qed.

Lemma raw_shift t1 t2 l :
  let d := ms_to_s (t2 - t1) in
  let '(n, sx, sy, sxy, sx2) := raw_sums t1 l in
  lin_eq (raw_sums t2 l) (n, sx - n * d, sy, sxy - d * sy, sx2 - 2 * d * sx + n * d * d).
Proof.
  cbv zeta. unfold raw_sums, lin_eq. induction l as [|s l IH].
  - unfold slen, qlen, qsum. simpl. repeat split; ring.
  - destruct IH as [I1 [I2 [I3 [I4 I5]]]]. cbn [map]. rewrite !qsum_cons, slen_cons, I2, I4, I5, (xsec_shift t1 t2 s).
    repeat split; ring.
Qed.

Lemma slope_shift_raw t1 t2 l : l <> [] -> fst (lin_finish (raw_sums t2 l)) == fst (lin_finish (raw_sums t1 l)).
Proof.
  intros Hne. pose proof (raw_shift t1 t2 l) as H. cbv zeta in H.
  assert (Hn : 0 < slen l) by (destruct l; [congruence|apply slen_pos]).
  unfold raw_sums in *. set (d := ms_to_s (t2 - t1)) in *.
  destruct (lin_finish_proper _ _ H) as [E _]. rewrite E. clear E H.
  unfold lin_finish. cbn [fst].
  set (n := slen l) in *. set (sx := qsum (map (xsec t1) l)). set (sy := qsum (map snd l)).
  set (sxy := qsum (map (fun s => xsec t1 s * snd s) l)). set (sx2 := qsum (map (fun s => xsec t1 s * xsec t1 s) l)).
  assert (E1 : sxy - d * sy - (sx - n * d) * sy / n == sxy - sx * sy / n) by (field; lra).
  assert (E2 : sx2 - 2 * d * sx + n * d * d - (sx - n * d) * (sx - n * d) / n == sx2 - sx * sx / n) by (field; lra).
  rewrite E1, E2. reflexivity.
Qed.

Lemma slope_shift t1 t2 l : l <> [] -> fst (lin_finish (lin_sums t2 l)) == fst (lin_finish (lin_sums t1 l)).
Proof.
  intros Hne.
  destruct (lin_finish_proper _ _ (lin_sums_raw t2 l)) as [E2 _]. destruct (lin_finish_proper _ _ (lin_sums_raw t1 l)) as [E1 _].
  rewrite E2, E1. apply slope_shift_raw. exact Hne.
Qed.

(* the slope of the regression does not depend on the anchor time (deriv: upstream anchors at the first sample, the
   implementation at the evaluation time) *)
Theorem regress_slope_anchor_independent t1 t2 l : fst (lin_regress t2 l) == fst (lin_regress t1 l).
Proof.
  unfold lin_regress. destruct l as [|[t0 v0] r]; [reflexivity|].
  destruct (const_from v0 _); [reflexivity|]. apply slope_shift. congruence.
Qed.

Lemma const_from_app v a b : const_from v (a ++ b) = const_from v a && const_from v b.
Proof. apply forallb_app. Qed.

Lemma first_value_app (p c : list sample) :
  match p with s :: _ => Some (snd s) | [] => match c with s :: _ => Some (snd s) | [] => None end end =
  match p ++ c with s :: _ => Some (snd s) | [] => None end.
Proof. destruct p; reflexivity. Qed.

Lemma linear_merge_whole isDeriv dur t offset p c :
  impl_linear_merge isDeriv dur t offset p c =
  match p ++ c with
  | [] => None
  | [_] => None
  | (_, fv) :: _ =>
      if const_from fv (p ++ c) then Some (if isDeriv then 0 else fv)
      else let '(slope, icpt) := lin_finish (lin_sums t (p ++ c)) in Some (if isDeriv then slope else slope * dur + icpt)
  end.
Proof.
  unfold impl_linear_merge. rewrite first_value_app, <- app_length.
  replace (win_hi t offset + offset)%Z with t by (unfold win_hi; lia).
  rewrite <- fold_left_app. fold (lin_sums t (p ++ c)).
  destruct (p ++ c) as [|[t0 v0] [|s r]] eqn:E; try reflexivity.
  cbn [snd]. rewrite <- const_from_app, E.
  destruct (Z.of_nat _ <=? 1)%Z eqn:EL; [apply Z.leb_le in EL; cbn [length] in EL; lia|].
  reflexivity.
Qed.

Theorem predict_linear_merge_equals_whole dur t offset p c :
  oQeq (impl_linear_merge false dur t offset p c) (spec_predict_linear t dur (p ++ c)).
Proof.
  rewrite linear_merge_whole. unfold spec_predict_linear, lin_regress.
  destruct (p ++ c) as [|[t0 v0] [|s r]]; try exact I.
  destruct (const_from v0 _).
  - cbn [oQeq]. ring.
  - destruct (lin_finish _). cbn [oQeq]. reflexivity.
Qed.

Theorem deriv_merge_equals_whole t offset p c :
  oQeq (impl_linear_merge true 0 t offset p c) (spec_deriv (p ++ c)).
Proof.
  rewrite linear_merge_whole. unfold spec_deriv.
  destruct (p ++ c) as [|[t0 v0] [|s r]] eqn:E; try exact I.
  pose proof (regress_slope_anchor_independent t0 t ((t0, v0) :: s :: r)) as H.
  unfold lin_regress in *. destruct (const_from v0 _).
  - cbn [oQeq fst]. reflexivity.
  - destruct (lin_finish (lin_sums t _)) as [sl ic]. cbn [oQeq fst] in *. exact H.
Qed.

