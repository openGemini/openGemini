(* C18 - third part of the executable model: binary operators between instant vectors and scalars and between two
   instant vectors with one-to-one vector matching (on / ignoring), as upstream promql/engine.go defines them
   (VectorscalarBinop, VectorBinop, signatureFunc, resultMetric) at the version pinned by the repository's go.mod.

   Values are rationals. Division / modulo by zero have no rational value (the engines answer +-Inf / NaN): the model
   returns 0 there and the correspondence skips every case in which an engine returned a non-finite value.
   The power operator and atan2 are not modelled (differential only); group_left / group_right are not modelled. *)
From Coq Require Import String.
From Coq Require Import QArith Qround ZArith List Bool.
From OG Require Import C18.Model.
Import ListNotations.
Open Scope Q_scope.

Inductive binop := OAdd | OSub | OMul | ODiv | OMod | OEq | ONe | OGt | OLt | OGe | OLe.

Definition is_cmp (op : binop) : bool :=
  match op with OEq | ONe | OGt | OLt | OGe | OLe => true | _ => false end.

(* math.Mod: the result has the sign of x and magnitude below |y|:  x - y * trunc(x / y) *)
Definition qtrunc (q : Q) : Z := Z.quot (Qnum q) (Zpos (Qden q)).
Definition qmod (x y : Q) : Q := if Qeq_bool y 0 then 0 else x - y * inject_Z (qtrunc (x / y)).

Definition arith (op : binop) (a b : Q) : Q :=
  match op with
  | OAdd => a + b | OSub => a - b | OMul => a * b
  | ODiv => if Qeq_bool b 0 then 0 else a / b
  | OMod => qmod a b
  | _ => 0
  end.

Definition cmp (op : binop) (a b : Q) : bool :=
  match op with
  | OEq => Qeq_bool a b | ONe => negb (Qeq_bool a b)
  | OGt => Qltb b a | OLt => Qltb a b
  | OGe => Qle_bool b a | OLe => Qle_bool a b
  | _ => true
  end.

Definition drop_name (ls : labels) : labels := filter (fun kv => negb (String.eqb (fst kv) name_label)) ls.
Definition b2q (b : bool) : Q := if b then 1 else 0.

(* the value and label set upstream gives an element that survives:  shouldDropMetricName(op) || returnBool *)
Definition drops_name (op : binop) (retBool : bool) : bool := negb (is_cmp op) || retBool.

(* ---- vector <op> scalar  (swap: the scalar is the LEFT operand) ---- *)
Definition vs_elem (op : binop) (retBool swap : bool) (s : Q) (e : elem) : list elem :=
  let '(ls, x) := e in
  let l := if swap then s else x in
  let r := if swap then x else s in
  if is_cmp op then
    if retBool then [(drop_name ls, b2q (cmp op l r))]
    else if cmp op l r then [(ls, x)] else []      (* a filter keeps the VECTOR element's value and its metric name *)
  else [(drop_name ls, arith op l r)].

Definition vs_binop (op : binop) (retBool swap : bool) (s : Q) (v : list elem) : list elem :=
  flat_map (vs_elem op retBool swap s) v.

(* ---- vector <op> vector, one-to-one ---- *)
Record vmatch := { vm_on : bool; vm_labels : list string }.

(* signatureFunc: on(L) keeps exactly the labels L; ignoring(L) (also the default, L = []) drops L and the metric name *)
Definition sig (m : vmatch) (ls : labels) : labels := group_key (negb (vm_on m)) (vm_labels m) ls.

(* resultMetric for CardOneToOne *)
Definition result_metric (op : binop) (retBool : bool) (m : vmatch) (ls : labels) : labels :=
  let l1 := if drops_name op retBool then drop_name ls else ls in
  if vm_on m then key_by (vm_labels m) l1
  else filter (fun kv => negb (mem_str (fst kv) (vm_labels m))) l1.

Fixpoint lookup_sig (m : vmatch) (sg : labels) (v : list elem) : option elem :=
  match v with
  | [] => None
  | e :: r => if labels_eqb sg (sig m (fst e)) then Some e else lookup_sig m sg r
  end.

Definition mem_labels (k : labels) (l : list labels) : bool := existsb (labels_eqb k) l.

Fixpoint nodup_sigs (l : list labels) : bool :=
  match l with [] => true | x :: r => negb (mem_labels x r) && nodup_sigs r end.

(* the loop of VectorBinop over the left-hand side; matched = signatures that already produced an output element.
   None = "multiple matches for labels: many-to-one matching must be explicit" *)
Fixpoint vv_loop (op : binop) (retBool : bool) (m : vmatch) (rhs lhs : list elem) (matched : list labels) : option (list elem) :=
  match lhs with
  | [] => Some []
  | (ls, x) :: rest =>
      let sg := sig m ls in
      match lookup_sig m sg rhs with
      | None => vv_loop op retBool m rhs rest matched
      | Some (_, y) =>
          let keep := cmp op x y in
          if is_cmp op && negb retBool && negb keep then vv_loop op retBool m rhs rest matched
          else if mem_labels sg matched then None
          else
            let v := if is_cmp op then (if retBool then b2q keep else x) else arith op x y in
            option_map (cons (result_metric op retBool m ls, v)) (vv_loop op retBool m rhs rest (sg :: matched))
      end
  end.

Definition is_nil {A} (l : list A) : bool := match l with [] => true | _ => false end.

(* upstream short-circuits when one side is empty ("nothing is going to match", before any duplicate check); otherwise
   None also for duplicate signatures on the right-hand side ("found duplicate series for the match group") *)
Definition vv_binop (op : binop) (retBool : bool) (m : vmatch) (lhs rhs : list elem) : option (list elem) :=
  if is_nil lhs || is_nil rhs then Some []
  else if nodup_sigs (map (fun e => sig m (fst e)) rhs) then vv_loop op retBool m rhs lhs [] else None.

(* range queries: the operator walks the rows of the two matched series step by step                      *)
(* (engine/executor/prom_binop_transform.go computeMatchResult).  A chunk of the primary side holds the rows  *)
(* (step, value) of consecutive series (tag groups); the secondary series is merged with the rows of its    *)
(* match group g.  The code before fix 744caeb left the group only at the end of the CHUNK                   *)
(* (primaryGroups.add(pChunk.Len())): the cursor ran on into the rows of the following series.  The repaired   *)
(* code stops at the end of the group.  Every step of join_walk drops a row of s or of p, so |s| + |p| steps   *)
(* of fuel are enough (walk_rows).                                                                             *)

Fixpoint join_walk (f : Q -> Q -> Q) (fuel : nat) (s p : list sample) : list sample :=
  match fuel with
  | O => []
  | S k =>
      match s, p with
      | (ts, vs) :: s', (tp, vp) :: p' =>
          if (tp <? ts)%Z then join_walk f k s p'
          else if (ts <? tp)%Z then join_walk f k s' p
          else (tp, f vs vp) :: join_walk f k s' p'
      | _, _ => []
      end
  end.

Definition walk_rows (f : Q -> Q -> Q) (s p : list sample) : list sample := join_walk f (length s + length p) s p.
Definition walk_current (f : Q -> Q -> Q) (s : list sample) (chunk : list (list sample)) (g : nat) : list sample :=
  walk_rows f s (concat (skipn g chunk)).
Definition walk_repaired (f : Q -> Q -> Q) (s : list sample) (chunk : list (list sample)) (g : nat) : list sample :=
  walk_rows f s (nth g chunk []).

(* what the sequence of instant queries gives: a point at every step at which BOTH series have a value *)
Definition value_at (t : Z) (p : list sample) : option Q := option_map snd (find (fun r => (fst r =? t)%Z) p).
Definition join_spec (f : Q -> Q -> Q) (s p : list sample) : list sample :=
  flat_map (fun r => match value_at (fst r) p with Some vp => [(fst r, f (snd r) vp)] | None => [] end) s.
