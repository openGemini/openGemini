(* C18: behaviour that violates the property, each on its variant of the model: the sub-second rate divisor (before fix
   bd679fa), the walk of a range binary operation (before fix 744caeb), the reducer protocol on a last record of
   staleness markers (today's code).
   Before fix bd679fa floatPromRateMerge divided by float64(rangeDuration/1e9) - the integer number of seconds - so a rate
   over a range that is not a whole number of seconds was scaled by range/trunc(range). Witness: rate(m[1500ms]). *)
From Coq Require Import String.
From Coq Require Import QArith ZArith List Bool Sorted.
From OG Require Import C18.Model4 C18.ProofsI C18.Model3 C18.Model C18.ProofsA.
Import ListNotations.
Open Scope Q_scope.

Definition wit_cut : list (list sample) := [[(0%Z, 0); (500%Z, 5)]; [(1000%Z, 10); (1500%Z, 15)]].

Theorem C18_subsecond_range_refuted :
  exists t range offset cut,
    times_increasing (concat cut) /\ (0 < range)%Z /\
    ~ oQeq (impl_rate_current t range offset cut) (spec_rate t range offset (concat cut)).
Proof.
  exists 1500%Z, 1500%Z, 0%Z, wit_cut. split; [|split].
  - unfold times_increasing, wit_cut. simpl. repeat (constructor; [|repeat constructor; reflexivity]). constructor.
  - reflexivity.
  - vm_compute. discriminate.
Qed.
Print Assumptions C18_subsecond_range_refuted.

(* the same input with the repaired divisor agrees with upstream (10 per second) *)
Example C18_subsecond_repaired_agrees :
  oQeq (impl_rate_repaired 1500 1500 0 wit_cut) (Some 10) /\ oQeq (spec_rate 1500 1500 0 (concat wit_cut)) (Some 10) /\
  oQeq (impl_rate_current 1500 1500 0 wit_cut) (Some 15).
Proof. vm_compute. repeat split. Qed.

(* C18-range-binop-pairs-next-series-after-end: before fix 744caeb the walk left the matched series only at the end of the chunk.
   Witness: left series 10 11 12 at steps 0 60 120 (s); the chunk of the right side holds the matched series with a
   single point at step 0 followed by ANOTHER series with points at 0 60 120.  Step-wise (upstream) answer: one point;
   the code before the fix added two points that pair the left series with the other series. *)
Definition wit_s : list sample := [(0%Z, 10); (60%Z, 11); (120%Z, 12)].
Definition wit_chunk : list (list sample) := [[(0%Z, 20)]; [(0%Z, 50); (60%Z, 51); (120%Z, 52)]].
Theorem C18_binop_walk_current_refuted :
  exists s chunk g, walk_current Qplus s chunk g <> join_spec Qplus s (nth g chunk []).
Proof. exists wit_s, wit_chunk, 0%nat. vm_compute. discriminate. Qed.
Print Assumptions C18_binop_walk_current_refuted.
Example C18_binop_walk_witness_values :
  walk_current Qplus wit_s wit_chunk 0 = [(0%Z, 10 + 20); (60%Z, 11 + 51); (120%Z, 12 + 52)] /\
  walk_repaired Qplus wit_s wit_chunk 0 = [(0%Z, 10 + 20)] /\ join_spec Qplus wit_s (nth 0 wit_chunk []) = [(0%Z, 10 + 20)].
Proof. vm_compute. repeat split. Qed.

(* C18-instant-range-function-drops-series-ending-stale: today's reducer protocol drops the deferred window when the LAST
   record holds nothing but staleness markers.  Witness: records [(0,1) (30,2)] and [(60, marker)]: upstream counts 2. *)
Theorem C18_stale_protocol_current_refuted :
  exists cut, stale_protocol_current impl_count_over_time cut <> spec_count_over_time (drop_stale (concat cut)).
Proof. exists wit_stale_cut. vm_compute. discriminate. Qed.
Print Assumptions C18_stale_protocol_current_refuted.
