(* C18 - second part of the executable model: the range functions that engine/prom_functions.go implements with
   slice reducers (buffer of the earlier records + current record, merged by one function of (prev, curr)):

     stdvar_over_time / stddev_over_time   upstream funcStdvarOverTime (Welford's incremental mean / M2)
     present_over_time                     1 for a non-empty window
     absent_over_time                      1 iff NO selected series has a sample in its window (vector level)
     quantile_over_time                    upstream quantile(): linear interpolation between order statistics
     deriv / predict_linear                upstream linearRegression (least squares from the four moment sums)

   Over the rationals the Kahan compensation term of upstream's kahanSumInc is identically 0
   (c += (sum - t) + inc with t = sum + inc), so plain sums are the exact counterpart.  stddev is the non-negative
   square root of stdvar: the model computes stdvar and the correspondence checks r >= 0 /\ r * r = stdvar. *)
From Coq Require Import String.
From Coq Require Import QArith Qround ZArith List Bool.
From OG Require Import C18.Model.
Import ListNotations.
Open Scope Q_scope.

(* stdvar_over_time                                                                                      *)

(* state (count, mean, aux): count++ ; delta = v - mean ; mean += delta/count ; aux += delta * (v - mean) *)
Definition welford_step (st : Q * Q * Q) (v : Q) : Q * Q * Q :=
  let '(count, mean, aux) := st in
  let count' := Qred (count + 1) in
  let delta := v - mean in
  let mean' := Qred (mean + delta / count') in
  (count', mean', Qred (aux + delta * (v - mean'))).

Definition welford (l : list Q) : Q * Q * Q := fold_left welford_step l (0, 0, 0).
Definition welford_var (st : Q * Q * Q) : Q := let '(count, _, aux) := st in aux / count.

Definition spec_stdvar_over_time (w : list sample) : option Q :=
  match vals w with [] => None | l => Some (welford_var (welford l)) end.

(* floatStdVarOverTimeMerger on (prev, curr): one Welford pass over prev, continued over curr *)
Definition impl_stdvar_merge (p c : list sample) : option Q :=
  if (Z.of_nat (length p + length c) <? 1)%Z then None
  else Some (welford_var (fold_left welford_step (vals c) (fold_left welford_step (vals p) (0, 0, 0)))).
Definition impl_stdvar_split (cut : list (list sample)) : option Q :=
  impl_stdvar_merge (concat (removelast cut)) (last cut []).

(* the moment vector (n, sum x, sum x^2): the state whose component-wise sum merges two pieces exactly *)
Definition moments (l : list Q) : Q * Q * Q := (qlen l, qsum l, qsum (map (fun x => x * x) l)).
Definition mplus (a b : Q * Q * Q) : Q * Q * Q :=
  let '(n1, s1, q1) := a in let '(n2, s2, q2) := b in (n1 + n2, s1 + s2, q1 + q2).
Definition var_of_moments (m : Q * Q * Q) : Q := let '(n, s, q) := m in (q - s * s / n) / n.

(* present_over_time / absent_over_time                                                                  *)

Definition spec_present_over_time (w : list sample) : option Q :=
  match w with [] => None | _ :: _ => Some 1 end.
Definition impl_present_merge (p c : list sample) : option Q :=
  if (Z.of_nat (length p + length c) <? 1)%Z then None else Some 1.
Definition impl_present_split (cut : list (list sample)) : option Q :=
  impl_present_merge (concat (removelast cut)) (last cut []).

(* absent_over_time over the windows of all selected series: one element (value 1) iff every window is empty *)
Definition is_none {A} (o : option A) : bool := match o with None => true | Some _ => false end.
Definition spec_absent_over_time (ws : list (list sample)) : option Q :=
  if forallb (fun w => is_none (spec_present_over_time w)) ws then Some 1 else None.
Definition impl_absent_over_time (cuts : list (list (list sample))) : option Q :=
  if forallb (fun cut => is_none (impl_present_split cut)) cuts then Some 1 else None.

(* quantile_over_time                                                                                    *)

Fixpoint qinsert (x : Q) (l : list Q) : list Q :=
  match l with
  | [] => [x]
  | y :: r => if Qle_bool x y then x :: l else y :: qinsert x r
  end.
Definition qsort (l : list Q) : list Q := fold_right qinsert [] l.

(* results that may be infinite: quantile with q outside [0,1] *)
Inductive xval := XFin (v : Q) | XPosInf | XNegInf.

(* upstream quantile(q, values) on a non-empty list *)
Definition quantile_fin (q : Q) (l : list Q) : Q :=
  let s := qsort l in
  let n := Z.of_nat (length l) in
  let rank := q * inject_Z (n - 1) in
  let fl := Qfloor rank in
  let lower := Z.max 0 fl in
  let upper := Z.min (n - 1) (lower + 1) in
  let weight := rank - inject_Z fl in
  nth (Z.to_nat lower) s 0 * (1 - weight) + nth (Z.to_nat upper) s 0 * weight.

Definition quantile (q : Q) (l : list Q) : xval :=
  if Qltb q 0 then XNegInf else if Qltb 1 q then XPosInf else XFin (quantile_fin q l).

Definition spec_quantile_over_time (q : Q) (w : list sample) : option xval :=
  match vals w with [] => None | l => Some (quantile q l) end.

(* floatQuantileOverTimeMerger + executor.CalcQuantile2: tmp = prev ++ curr, sorted *)
Definition impl_quantile_merge (q : Q) (p c : list sample) : option xval :=
  if (Z.of_nat (length p + length c) =? 0)%Z then None else Some (quantile q (vals p ++ vals c)).
Definition impl_quantile_split (q : Q) (cut : list (list sample)) : option xval :=
  impl_quantile_merge q (concat (removelast cut)) (last cut []).

(* deriv / predict_linear                                                                                *)

Definition lin5 := (Q * Q * Q * Q * Q)%type.          (* n, sum x, sum y, sum xy, sum x^2 *)
Definition xsec (tref : Z) (s : sample) : Q := ms_to_s (fst s - tref).
Definition lin_step (tref : Z) (st : lin5) (s : sample) : lin5 :=
  let '(n, sx, sy, sxy, sx2) := st in
  let x := xsec tref s in
  (n + 1, Qred (sx + x), Qred (sy + snd s), Qred (sxy + x * snd s), Qred (sx2 + x * x)).
Definition lin0 : lin5 := (0, 0, 0, 0, 0).
Definition lin_sums (tref : Z) (l : list sample) : lin5 := fold_left (lin_step tref) l lin0.
Definition lin_plus (a b : lin5) : lin5 :=
  let '(n1, a1, b1, c1, d1) := a in let '(n2, a2, b2, c2, d2) := b in (n1 + n2, a1 + a2, b1 + b2, c1 + c2, d1 + d2).

(* all values equal to the first one *)
Definition const_from (v0 : Q) (l : list sample) : bool := forallb (fun s => Qeq_bool (snd s) v0) l.

Definition lin_finish (st : lin5) : Q * Q :=
  let '(n, sx, sy, sxy, sx2) := st in
  let cov := sxy - sx * sy / n in
  let var := sx2 - sx * sx / n in
  let slope := cov / var in
  (slope, sy / n - slope * sx / n).

(* upstream linearRegression(samples, interceptTime): (slope, intercept) *)
Definition lin_regress (tref : Z) (l : list sample) : Q * Q :=
  match l with
  | [] => (0, 0)
  | (_, v0) :: _ => if const_from v0 l then (0, v0) else lin_finish (lin_sums tref l)
  end.

(* upstream funcDeriv: slope of the regression anchored at the FIRST sample's time *)
Definition spec_deriv (w : list sample) : option Q :=
  match w with
  | [] => None
  | [_] => None
  | (t0, _) :: _ => Some (fst (lin_regress t0 w))
  end.

(* upstream funcPredictLinear: regression anchored at the evaluation time t (not shifted by the offset) *)
Definition spec_predict_linear (t : Z) (dur : Q) (w : list sample) : option Q :=
  match w with
  | [] => None
  | [_] => None
  | _ => let '(slope, icpt) := lin_regress t w in Some (slope * dur + icpt)
  end.

(* engine/prom_functions.go linearMergeFunc(isDeriv, scalar) on (prev, curr); ts is the end of the window in sample
   time (t - offset), interceptTime = ts + param.offset *)
Definition impl_linear_merge (isDeriv : bool) (dur : Q) (t offset : Z) (p c : list sample) : option Q :=
  if (Z.of_nat (length p + length c) <=? 1)%Z then None else
  match (match p with s :: _ => Some (snd s) | [] => match c with s :: _ => Some (snd s) | [] => None end end) with
  | None => None
  | Some fv =>
      let icptTime := (win_hi t offset + offset)%Z in
      if const_from fv p && const_from fv c then Some (if isDeriv then 0 else fv)
      else
        let '(slope, icpt) := lin_finish (fold_left (lin_step icptTime) c (fold_left (lin_step icptTime) p lin0)) in
        Some (if isDeriv then slope else slope * dur + icpt)
  end.
Definition impl_linear_split (isDeriv : bool) (dur : Q) (t offset : Z) (cut : list (list sample)) : option Q :=
  impl_linear_merge isDeriv dur t offset (concat (removelast cut)) (last cut []).
Definition impl_deriv := impl_linear_split true 0.
Definition impl_predict_linear (dur : Q) := impl_linear_split false dur.
