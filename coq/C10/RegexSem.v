(* C10 - a relational semantics of the regular expressions (the match relation, by recursion on the syntax tree) and the
   proof that the executable matcher [ends] computes exactly it: j is among [ends w r i] iff r matches w[i..j). *)
From Coq Require Import NArith List Bool Arith Lia.
From OG Require Import C10.Regex C10.RegexProofs.
Import ListNotations.

(* reflexive-transitive closure: zero or more iterations *)
Inductive star (R : nat -> nat -> Prop) : nat -> nat -> Prop :=
| star_refl i : star R i i
| star_step i k j : R i k -> star R k j -> star R i j.
(* exactly n iterations *)
Fixpoint pow (R : nat -> nat -> Prop) (n : nat) (i j : nat) : Prop :=
  match n with O => j = i | S k => exists m, R i m /\ pow R k m j end.

(* [sem w r i j]: r matches the piece w[i..j) of the subject w (position assertions look at the whole subject).
   A counted repetition allows n iterations with mn <= n <= mn + (m - mn): the bound has the shape of the matcher's
   [iter_upto (m - mn)] after mn iterations, the subtraction truncating when m < mn *)
Fixpoint sem (w : list N) (r : re) {struct r} : nat -> nat -> Prop :=
  match r with
  | REmpty => fun i j => j = i
  | RLit f l => fun i j => lit_pre f l (skipn i w) = true /\ j = i + length l
  | RClass rs => fun i j => exists c, nth_error w i = Some c /\ in_ranges c rs = true /\ j = S i
  | RAnyNL => fun i j => exists c, nth_error w i = Some c /\ (c =? 10)%N = false /\ j = S i
  | RAny => fun i j => exists c, nth_error w i = Some c /\ j = S i
  | RBeginText => fun i j => i = 0 /\ j = i
  | REndText => fun i j => i = length w /\ j = i
  | RBeginLine => fun i j => j = i /\ (i = 0 \/ exists k, i = S k /\ nth_error w k = Some 10%N)
  | REndLine => fun i j => j = i /\ (nth_error w i = None \/ nth_error w i = Some 10%N)
  | RWordB => fun i j => j = i /\ xorb (word_before w i) (word_at w i) = true
  | RNoWordB => fun i j => j = i /\ xorb (word_before w i) (word_at w i) = false
  | RCapture a => sem w a
  | RStar a => star (sem w a)
  | RPlus a => fun i j => exists k, sem w a i k /\ star (sem w a) k j
  | RQuest a => fun i j => j = i \/ sem w a i j
  | RRepeat mn mx a => fun i j => exists n, mn <= n /\ match mx with Some m => n <= mn + (m - mn) | None => True end /\
                                            pow (sem w a) n i j
  | RConcat rs => (fix go (l : list re) : nat -> nat -> Prop :=
                     match l with [] => fun i j => j = i | a :: t => fun i j => exists k, sem w a i k /\ go t k j end) rs
  | RAlt rs => (fix go (l : list re) : nat -> nat -> Prop :=
                  match l with [] => fun _ _ => False | a :: t => fun i j => sem w a i j \/ go t i j end) rs
  end.

(* the relation of a concatenation, as a function of the list of its factors *)
Definition semcat (w : list N) : list re -> nat -> nat -> Prop :=
  fix go (l : list re) : nat -> nat -> Prop :=
    match l with [] => fun i j => j = i | a :: t => fun i j => exists k, sem w a i k /\ go t k j end.
Lemma sem_concat_eq w rs : sem w (RConcat rs) = semcat w rs.
Proof. reflexivity. Qed.

Lemma pow_star (R : nat -> nat -> Prop) n i j : pow R n i j -> star R i j.
Proof.
  revert i. induction n as [| k IH]; simpl; intros i H.
  - subst. constructor.
  - destruct H as (m & H1 & H2). econstructor; eauto.
Qed.
Lemma star_pow (R : nat -> nat -> Prop) i j : star R i j -> exists n, pow R n i j.
Proof.
  induction 1 as [i | i k j H1 H2 [n IH]]; [exists 0; reflexivity | exists (S n); simpl; eauto].
Qed.
Lemma pow_refl_n (R : nat -> nat -> Prop) n i : R i i -> pow R n i i.
Proof. intros H. induction n; simpl; [reflexivity | exists i; auto]. Qed.
Lemma pow_split (R : nat -> nat -> Prop) n m i j : pow R (n + m) i j <-> exists k, pow R n i k /\ pow R m k j.
Proof.
  revert i. induction n as [| n IH]; simpl; intros i.
  - split; [intros H; exists i; auto | intros (k & -> & H); exact H].
  - split.
    + intros (x & Hx & H). apply IH in H. destruct H as (k & H1 & H2). exists k. split; eauto.
    + intros (k & (x & Hx & H1) & H2). exists x. split; auto. apply IH. eauto.
Qed.

(* iterations that consume nothing can be dropped: with a bound B on the positions a chain of at most B - i iterations
   reaches the same position *)
Lemma star_short (R : nat -> nat -> Prop) B : (forall i k, i <= B -> R i k -> i <= k <= B) ->
  forall i j, star R i j -> i <= B -> exists n, n <= B - i /\ pow R n i j.
Proof.
  intros Hb i j H. induction H as [i | i k j H1 H2 IH]; intros Hi.
  - exists 0. split; [lia | reflexivity].
  - destruct (Hb i k Hi H1) as [Hik HkB]. destruct (IH HkB) as (n & Hn & Hp).
    destruct (Nat.eq_dec k i) as [-> | Hne].
    + exists n. split; auto.
    + exists (S n). split; [lia |]. simpl. eauto.
Qed.

(* paths of the executable step function *)
Fixpoint fpow (f : nat -> list nat) (n : nat) (i j : nat) : Prop :=
  match n with O => j = i | S k => exists x, In x (f i) /\ fpow f k x j end.

Lemma in_iter_n f n : forall is j, In j (iter_n f n is) <-> exists i, In i is /\ fpow f n i j.
Proof.
  induction n as [| k IH]; intros is j; simpl.
  - split; [intros H; exists j; auto | intros (i & Hi & ->); exact Hi].
  - rewrite IH. split.
    + intros (x & Hx & Hp). apply in_step_all in Hx. destruct Hx as (i & Hi & Hx). exists i. split; auto. exists x. auto.
    + intros (i & Hi & x & Hx & Hp). exists x. split; auto. apply in_step_all. exists i. auto.
Qed.
Lemma in_iter_upto f n : forall is j, In j (iter_upto f n is) <-> exists m i, m <= n /\ In i is /\ fpow f m i j.
Proof.
  induction n as [| k IH]; intros is j; simpl.
  - split.
    + intros H. exists 0, j. repeat split; auto.
    + intros (m & i & Hm & Hi & Hp). assert (m = 0) by lia. subst. simpl in Hp. subst. exact Hi.
  - rewrite in_nunion, IH. split.
    + intros [H | (m & x & Hm & Hx & Hp)].
      * exists 0, j. repeat split; auto. lia.
      * apply in_step_all in Hx. destruct Hx as (i & Hi & Hx). exists (S m), i. repeat split; auto; [lia |]. exists x. auto.
    + intros (m & i & Hm & Hi & Hp). destruct m as [| m]; simpl in Hp.
      * subst. left. exact Hi.
      * destruct Hp as (x & Hx & Hp). right. exists m, x. repeat split; auto; [lia |]. apply in_step_all. exists i. auto.
Qed.

Lemma lit_pre_length f l s : lit_pre f l s = true -> length l <= length s.
Proof.
  revert s. induction l as [| a l IH]; intros [| b s]; simpl; intros H; try lia; try discriminate.
  apply andb_true_iff in H. destruct H as [_ H]. apply IH in H. lia.
Qed.
Lemma nth_error_lt {A} (l : list A) i c : nth_error l i = Some c -> i < length l.
Proof. intros H. apply nth_error_Some. congruence. Qed.

Definition bounded (w : list N) (R : nat -> nat -> Prop) : Prop := forall i j, i <= length w -> R i j -> i <= j <= length w.

Lemma star_bounded w (R : nat -> nat -> Prop) : bounded w R -> bounded w (star R).
Proof.
  intros Hb i j Hi H. induction H as [i | i k j H1 H2 IH]; [lia |].
  destruct (Hb i k Hi H1) as [H3 H4]. specialize (IH H4). lia.
Qed.
Lemma pow_bounded w (R : nat -> nat -> Prop) n : bounded w R -> bounded w (pow R n).
Proof. intros Hb i j Hi H. apply (star_bounded w R Hb i j Hi). apply (pow_star R n). exact H. Qed.

Lemma sem_bounded w r : bounded w (sem w r).
Proof.
  induction r using re_ind'; cbn [sem]; try (intros i j Hi H; lia).
  - intros i j Hi [H ->]. apply lit_pre_length in H. rewrite skipn_length in H. lia.
  - intros i j Hi (c & Hc & _ & ->). apply nth_error_lt in Hc. lia.
  - intros i j Hi (c & Hc & _ & ->). apply nth_error_lt in Hc. lia.
  - intros i j Hi (c & Hc & ->). apply nth_error_lt in Hc. lia.
  - exact IHr.
  - apply star_bounded. exact IHr.
  - intros i j Hi (k & H1 & H2). destruct (IHr i k Hi H1) as [H3 H4]. pose proof (star_bounded w _ IHr k j H4 H2). lia.
  - intros i j Hi [-> | H]; [lia | apply IHr; auto].
  - intros i j Hi (n & _ & _ & H). apply (pow_bounded w _ n IHr i j Hi H).
  - induction H as [| a t Ha Ht IH]; intros i j Hi Hs.
    + lia.
    + destruct Hs as (k & H1 & H2). destruct (Ha i k Hi H1) as [H3 H4]. specialize (IH k j H4 H2). lia.
  - induction H as [| a t Ha Ht IH]; intros i j Hi Hs; [contradiction |].
    destruct Hs as [Hs | Hs]; [apply Ha; auto | apply IH; auto].
Qed.

Definition agrees (w : list N) (r : re) : Prop := forall i j, i <= length w -> (In j (ends w r i) <-> sem w r i j).

Lemma fpow_pow w a : agrees w a -> forall n i j, i <= length w -> (fpow (ends w a) n i j <-> pow (sem w a) n i j).
Proof.
  intros Ha n. induction n as [| k IH]; intros i j Hi; simpl; [tauto |]. split.
  - intros (x & Hx & Hp). apply (Ha i x Hi) in Hx. exists x. split; auto.
    apply IH; auto. apply (sem_bounded w a i x Hi Hx).
  - intros (x & Hx & Hp). exists x. split; [apply (Ha i x Hi); exact Hx |].
    apply IH; auto. apply (sem_bounded w a i x Hi Hx).
Qed.

Lemma in_iter_upto_star w a i is j : agrees w a -> i <= length w ->
  (forall x, In x is -> i <= x <= length w) ->
  (In j (iter_upto (ends w a) (length w - i) is) <-> exists x, In x is /\ star (sem w a) x j).
Proof.
  intros Ha Hi His. rewrite in_iter_upto. split.
  - intros (m & x & _ & Hx & Hp). exists x. split; auto. apply (pow_star _ m). apply (fpow_pow w a Ha); auto. apply His; auto.
  - intros (x & Hx & Hs). destruct (His x Hx) as [Hix HxB].
    destruct (star_short (sem w a) (length w) (sem_bounded w a) x j Hs HxB) as (n & Hn & Hp).
    exists n, x. repeat split; auto; [lia |]. apply (fpow_pow w a Ha); auto.
Qed.

Lemma in_if (c : bool) (a j : nat) : In j (if c then [a] else []) <-> c = true /\ j = a.
Proof. destruct c; simpl; intuition congruence. Qed.
Lemma in_if_not (c : bool) (a j : nat) : In j (if c then [] else [a]) <-> c = false /\ j = a.
Proof. destruct c; simpl; intuition congruence. Qed.

Theorem ends_sem w r : agrees w r.
Proof.
  induction r using re_ind'; intros i j Hi; cbn [ends sem].
  - (* empty *) simpl. intuition congruence.
  - (* literal *) apply in_if.
  - (* class *) destruct (nth_error w i) as [c |]; [rewrite in_if |]; split.
    + intros [Hr ->]. eauto.
    + intros (c' & [= <-] & Hr & ->). auto.
    + intros [].
    + intros (c' & [=] & _).
  - (* any but newline *) destruct (nth_error w i) as [c |]; [rewrite in_if_not |]; split.
    + intros [Hr ->]. eauto.
    + intros (c' & [= <-] & Hr & ->). auto.
    + intros [].
    + intros (c' & [=] & _).
  - (* any *) destruct (nth_error w i) as [c |]; simpl; split.
    + intros [<- | []]. eauto.
    + intros (c' & _ & ->). auto.
    + intros [].
    + intros (c' & [=] & _).
  - (* begin text *) rewrite in_if, Nat.eqb_eq. reflexivity.
  - (* end text *) rewrite in_if, Nat.eqb_eq. reflexivity.
  - (* begin line *) destruct i as [| k]; [simpl; intuition congruence |].
    destruct (nth_error w k) as [c |] eqn:Ec; [rewrite in_if, N.eqb_eq |]; split.
    + intros [-> ->]. split; auto. right. eauto.
    + intros [-> [[=] | (k' & [= <-] & Hc)]]. rewrite Ec in Hc. inversion Hc. auto.
    + intros [].
    + intros [_ [[=] | (k' & [= <-] & Hc)]]. congruence.
  - (* end line *) destruct (nth_error w i) as [c |]; [rewrite in_if, N.eqb_eq | simpl]; intuition congruence.
  - (* word boundary *) rewrite in_if. tauto.
  - (* no word boundary *) rewrite in_if_not. tauto.
  - (* capture *) apply IHr. exact Hi.
  - (* star *) rewrite (in_iter_upto_star w r i [i] j IHr Hi).
    + split; [intros (x & [<- | []] & H); exact H | intros H; exists i; split; [left; reflexivity | exact H]].
    + intros x [<- | []]. lia.
  - (* plus *) rewrite (in_iter_upto_star w r i (ends w r i) j IHr Hi).
    + split; intros (x & Hx & H); exists x; split; auto; apply (IHr i x Hi); exact Hx.
    + intros x Hx. apply (IHr i x Hi) in Hx. apply (sem_bounded w r i x Hi Hx).
  - (* quest *) rewrite in_nunion. simpl. rewrite (IHr i j Hi). split; [intros [[<- | []] | H]; auto | intros [-> | H]; auto].
  - (* repeat *)
    assert (Hstart : forall x, In x (iter_n (ends w r) mn [i]) <-> pow (sem w r) mn i x).
    { intros x. rewrite in_iter_n. split.
      - intros (y & [<- | []] & Hp). apply (fpow_pow w r IHr); auto.
      - intros Hp. exists i. split; [left; reflexivity | apply (fpow_pow w r IHr); auto]. }
    assert (Hsb : forall x, In x (iter_n (ends w r) mn [i]) -> i <= x <= length w).
    { intros x Hx. apply Hstart in Hx. apply (pow_bounded w _ mn (sem_bounded w r) i x Hi Hx). }
    destruct mx as [m |].
    + rewrite in_iter_upto. split.
      * intros (k & x & Hk & Hx & Hp). exists (mn + k). repeat split; [lia | lia |].
        apply pow_split. exists x. split; [apply Hstart; exact Hx |]. apply (fpow_pow w r IHr); auto. apply Hsb; auto.
      * intros (n & Hn1 & Hn2 & Hp). replace n with (mn + (n - mn)) in Hp by lia.
        apply pow_split in Hp. destruct Hp as (z & Hz1 & Hz2).
        exists (n - mn), z. repeat split; [lia | apply Hstart; exact Hz1 |].
        apply (fpow_pow w r IHr); auto. apply (pow_bounded w _ mn (sem_bounded w r) i z Hi Hz1).
    + rewrite (in_iter_upto_star w r i _ j IHr Hi Hsb). split.
      * intros (x & Hx & Hs). apply Hstart in Hx. destruct (star_pow _ _ _ Hs) as (k & Hk).
        exists (mn + k). repeat split; [lia |]. apply pow_split. eauto.
      * intros (n & Hn & _ & Hp). replace n with (mn + (n - mn)) in Hp by lia.
        apply pow_split in Hp. destruct Hp as (z & Hz1 & Hz2).
        exists z. split; [apply Hstart; exact Hz1 | apply (pow_star _ (n - mn)); exact Hz2].
  - (* concat *)
    assert (G : forall is j, (forall x, In x is -> x <= length w) ->
              (In j (ends_cat w rs is) <-> exists x, In x is /\ semcat w rs x j)).
    { clear i j Hi. induction H as [| a t Ha Ht IH]; intros is j His; cbn [ends_cat semcat].
      - split; [intros Hj; exists j; auto | intros (x & Hx & ->); exact Hx].
      - rewrite IH.
        + split.
          * intros (k & Hk & Hg). apply in_step_all in Hk. destruct Hk as (x & Hx & Hk).
            exists x. split; auto. exists k. split; auto. apply (Ha x k (His x Hx)). exact Hk.
          * intros (x & Hx & k & Hk & Hg). exists k. split; auto. apply in_step_all. exists x. split; auto.
            apply (Ha x k (His x Hx)). exact Hk.
        + intros k Hk. apply in_step_all in Hk. destruct Hk as (x & Hx & Hk). apply (Ha x k (His x Hx)) in Hk.
          apply (sem_bounded w a x k (His x Hx) Hk). }
    rewrite G; [| intros x [<- | []]; exact Hi].
    split; [intros (x & [<- | []] & Hg); exact Hg | intros Hg; exists i; split; [left; reflexivity | exact Hg]].
  - (* alt *)
    induction H as [| a t Ha Ht IH]; [simpl; tauto |].
    rewrite in_nunion, (Ha i j Hi), IH. tauto.
Qed.
