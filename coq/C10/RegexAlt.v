(* C10 - the exact shape ^(lit|lit|...)$ (with or without the capture): the translation before /repo f7a71a4 turns it into
   exact-value lookups, which is what the fully anchored alternation means (by the or-values theorem of RegexNew.v, which
   speaks of the matcher, not of a translation); and [current_regex_exact], the theorem over all exact shapes. *)
From Coq Require Import NArith List Bool Arith Lia.
From OG Require Import C10.Regex C10.RegexProofs C10.RegexSem C10.RegexNew.
Import ListNotations.

Definition lits (ls : list (list N)) : list re := map (RLit false) ls.

Lemma map_lits (f : re -> re) ls : (forall l, f (RLit false l) = RLit false l) -> map f (lits ls) = lits ls.
Proof. intros Hf. unfold lits. rewrite map_map. apply map_ext. exact Hf. Qed.
Lemma unalt_lits ls : flat_map unalt (lits ls) = lits ls.
Proof. unfold lits. induction ls; simpl; auto. rewrite IHls. reflexivity. Qed.

Lemma mk_alt_lits a b ls : mk_alt (lits (a :: b :: ls)) = RAlt (lits (a :: b :: ls)).
Proof. reflexivity. Qed.

Lemma simplify_ext_alt hp hs ls : simplify_ext (RAlt (lits ls)) hp hs = RAlt (lits ls).
Proof. cbn [simplify_ext]. rewrite map_lits; reflexivity. Qed.
Lemma norm_alt ls : norm (RAlt (lits ls)) = mk_alt (lits ls).
Proof. cbn [norm]. rewrite map_lits, unalt_lits; reflexivity. Qed.

Lemma simplify_round_alt ls : simplify_round (RAlt (lits ls)) = mk_alt (lits ls).
Proof. unfold simplify_round. rewrite simplify_ext_alt, norm_alt. destruct ls as [| a [| b t]]; reflexivity. Qed.

Lemma simplify_alt a b ls : simplify (RAlt (lits (a :: b :: ls))) = RAlt (lits (a :: b :: ls)).
Proof. apply simplify_fix, simplify_round_alt. Qed.

Lemma simplify_ext_anchored_capture l :
  simplify_ext (RConcat [RBeginText; RCapture (RAlt l); REndText]) false false =
  RConcat [RAlt [RAlt (map (fun a => simplify_ext a true true) l)]].
Proof. reflexivity. Qed.
Lemma simplify_ext_anchored_group l :
  simplify_ext (RConcat [RBeginText; RAlt l; REndText]) false false = RConcat [RAlt (map (fun a => simplify_ext a true true) l)].
Proof. reflexivity. Qed.
Lemma norm_concat1 x : norm (RConcat [x]) = mk_concat (merge_lits (unconcat (norm x))).
Proof. cbn [norm map flat_map]. rewrite app_nil_r. reflexivity. Qed.
Lemma norm_alt1 x : norm (RAlt [x]) = mk_alt (unalt (norm x)).
Proof. cbn [norm map flat_map]. rewrite app_nil_r. reflexivity. Qed.

Lemma simplify_anchored_alt inner a b ls : alt_inner inner = Some (lits (a :: b :: ls)) ->
  simplify (RConcat [RBeginText; inner; REndText]) = RAlt (lits (a :: b :: ls)).
Proof.
  intros Hi. apply simplify_step; [| reflexivity | apply simplify_round_alt].
  pose proof (norm_alt (a :: b :: ls)) as Hn. rewrite mk_alt_lits in Hn. unfold simplify_round.
  remember (lits (a :: b :: ls)) as L eqn:EL.
  destruct inner; try discriminate Hi; [destruct inner; try discriminate Hi |]; injection Hi as ->; subst L.
  - rewrite simplify_ext_anchored_capture, map_lits, norm_concat1, norm_alt1, Hn; reflexivity.
  - rewrite simplify_ext_anchored_group, map_lits, norm_concat1, Hn; reflexivity.
Qed.

(* getOrValues of an alternation of at most 20 literals is the list of the literals *)
Lemma alt_loop_lits ls : forall acc, length acc + length ls <= max_or_values -> alt_loop or_values (lits ls) acc = acc ++ ls.
Proof.
  induction ls as [| x t IH]; intros acc Hlen; cbn [lits map alt_loop].
  - rewrite app_nil_r. reflexivity.
  - cbn [or_values]. cbn [length] in Hlen.
    assert (E : (max_or_values <? length (acc ++ [x])) = false).
    { apply Nat.ltb_ge. rewrite app_length. simpl. lia. }
    cbv zeta. rewrite E. fold (lits t). rewrite IH.
    + rewrite <- app_assoc. reflexivity.
    + rewrite app_length. simpl. lia.
Qed.
Lemma or_values_alt ls : length ls <= max_or_values -> or_values (RAlt (lits ls)) = ls.
Proof. intros H. rewrite or_values_alt_eq, alt_loop_lits; auto. Qed.

Lemma prod_empty_word (l : list (list N)) : flat_map (fun p => map (fun s => p ++ s) [[]]) l = l.
Proof. induction l as [| p r IH]; [reflexivity |]. cbn [flat_map map app] in *. rewrite IH, app_nil_r. reflexivity. Qed.

(* ^X$ with X enumerated by ls (no product to take: X is one factor) matches exactly the values among ls *)
Lemma unanch_anchored_alt inner ls w : or_values inner = ls -> ls <> [] -> length ls <= max_or_values ->
  unanch (RConcat [RBeginText; inner; REndText]) w = existsb (list_eqb w) ls.
Proof.
  intros Ho Hne Hlen.
  assert (E : anchored_or_values (RConcat [RBeginText; inner; REndText]) = ls).
  { unfold anchored_or_values. cbn [rev app]. rewrite or_values_concat_eq. cbn [concat_loop]. rewrite Ho.
    destruct ls as [| l0 t]; [contradiction |]. cbn [length] in *. rewrite Nat.mul_1_r.
    destruct (Nat.ltb_spec max_or_values (S (length t))); [lia |].
    apply prod_empty_word. }
  rewrite <- E. apply anchored_or_values_sound. rewrite E. exact Hne.
Qed.

Lemma lits_of_inv l ls : lits_of l = Some ls -> l = lits ls /\ Forall (fun x => x <> []) ls.
Proof.
  revert ls. induction l as [| a t IH]; intros ls H; cbn [lits_of] in H.
  - inversion H. split; [reflexivity | constructor].
  - destruct a as [| f x | | | | | | | | | | | | | | | |]; try discriminate.
    destruct f; [discriminate |]. destruct x as [| c x]; [discriminate |].
    destruct (lits_of t) as [r |] eqn:E; [| discriminate]. inversion H; subst.
    destruct (IH r eq_refl) as [-> Hf]. split; [reflexivity | constructor; [discriminate | exact Hf]].
Qed.

Lemma existsb_eqb_nil ls : Forall (fun x : list N => x <> []) ls -> existsb (list_eqb []) ls = false.
Proof. induction 1 as [| x t Hx Ht IH]; simpl; auto. destruct x; [contradiction | exact IH]. Qed.

Lemma current_exact_anchored_alt inner ls v :
  alt_inner inner = Some (lits ls) ->
  2 <= length ls -> length ls <= max_or_values -> Forall (fun x => x <> []) ls ->
  match v with Some x => plain x | None => True end ->
  current_match (RConcat [RBeginText; inner; REndText]) v = repaired_match (RConcat [RBeginText; inner; REndText]) v.
Proof.
  intros Hi H2 H20 Hne Hp. destruct ls as [| a [| b t]]; try (simpl in H2; lia).
  assert (Hun : forall w, unanch (RConcat [RBeginText; inner; REndText]) w = existsb (list_eqb w) (a :: b :: t)).
  { intros w. apply unanch_anchored_alt; [| discriminate | exact H20]. rewrite <- (or_values_alt _ H20).
    destruct inner; try discriminate Hi; [destruct inner; try discriminate Hi |]; injection Hi as ->; reflexivity. }
  unfold current_match, repaired_match. rewrite Hun, (existsb_eqb_nil _ Hne).
  destruct v as [x |]; [| rewrite Hun; symmetry; apply existsb_eqb_nil, Hne].
  rewrite (simplify_anchored_alt _ _ _ _ Hi), Hun. cbn [extract_prefix is_literal]. cbn [esc flat_map strip_prefix].
  unfold suffix_match. rewrite (or_values_alt _ H20), (esc_plain x Hp). reflexivity.
Qed.

Lemma as_anchored_alt_inv r ls : as_anchored_alt r = Some ls ->
  exists inner, r = RConcat [RBeginText; inner; REndText] /\ alt_inner inner = Some (lits ls) /\
                2 <= length ls /\ length ls <= max_or_values /\ Forall (fun x => x <> []) ls.
Proof.
  destruct r as [| f l | cr | | | | | | | | | a | a | a | a | mn mx a | rs | rs]; try discriminate.
  destruct rs as [| x0 [| inner [| x2 [| x3 t]]]]; try discriminate; cbn [as_anchored_alt].
  - destruct x0; discriminate.
  - destruct x0; discriminate.
  - destruct x0; try discriminate. destruct x2; try discriminate.
    destruct (alt_inner inner) as [l |] eqn:Ei; [| discriminate].
    destruct (lits_of l) as [ls' |] eqn:El; [| discriminate].
    destruct ((2 <=? length ls') && (length ls' <=? max_or_values) && forallb plainb ls') eqn:Ec; [| discriminate].
    intros H. inversion H; subst ls'. apply andb_true_iff in Ec. destruct Ec as [Ec _]. apply andb_true_iff in Ec.
    destruct Ec as [E2 E20]. apply Nat.leb_le in E2. apply Nat.leb_le in E20.
    destruct (lits_of_inv l ls El) as [-> Hne]. exists inner. auto.
  - destruct x0; try discriminate. destruct x2; discriminate.
Qed.

(* For a pattern of an exact shape and a value without the separator bytes 0, 1, 2 (or the absent tag), what the index
   matched before /repo f7a71a4 is what the language's unanchored matching selects. *)
Theorem current_regex_exact r v :
  exact_shape r = true -> match v with Some x => plain x | None => True end ->
  current_match r v = repaired_match r v.
Proof.
  unfold exact_shape, shape_of. intros Hs Hp.
  destruct (as_literal r) as [x |] eqn:E1.
  - apply as_literal_inv in E1. destruct E1 as (c & l & _ & ->). apply current_exact_literal. exact Hp.
  - destruct (as_begin_literal r) as [x |] eqn:E2.
    + apply as_begin_literal_inv in E2. destruct E2 as (c & l & _ & -> & Ep).
      apply current_exact_begin_literal; [apply plainb_spec; exact Ep | exact Hp].
    + destruct (as_anchored_alt r) as [ls |] eqn:E3.
      * apply as_anchored_alt_inv in E3. destruct E3 as (inner & -> & Hi & H2 & H20 & Hne).
        apply current_exact_anchored_alt with (ls := ls); auto.
      * destruct (negb (has_assert r) && nullable r) eqn:E; [| discriminate].
        apply andb_true_iff in E. destruct E as [Ea En]. apply negb_true_iff in Ea.
        apply current_exact_matchall; assumption.
Qed.
