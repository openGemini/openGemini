(* C10 - lemmas: predicate search over postings = brute force over the series; listings; id invariants. *)
From Coq Require Import NArith List Bool Lia.
From OG Require Import C10.Model.
Import ListNotations.
Open Scope N_scope.

Lemma series_eqb_true a b : series_eqb a b = true <-> a = b.
Proof. unfold series_eqb. destruct (series_eq_dec a b); split; intros; auto; discriminate. Qed.

Lemma mem_spec x l : mem x l = true <-> In x l.
Proof.
  unfold mem. rewrite existsb_exists. split.
  - intros (y & Hy & E). apply N.eqb_eq in E. subst. auto.
  - intros H. exists x. split; auto. apply N.eqb_refl.
Qed.
Lemma in_diff x a b : In x (diff a b) <-> In x a /\ ~ In x b.
Proof.
  unfold diff. rewrite filter_In. rewrite negb_true_iff. split; intros [H1 H2]; split; auto.
  - intro H. apply mem_spec in H. congruence.
  - destruct (mem x b) eqn:E; auto. apply mem_spec in E. contradiction.
Qed.
Lemma in_inter x a b : In x (inter a b) <-> In x a /\ In x b.
Proof. unfold inter. rewrite filter_In. rewrite mem_spec. tauto. Qed.

Lemma in_ids_where f T id : In id (ids_where f T) <-> exists t, In t T /\ f t = true /\ t_id t = id.
Proof.
  unfold ids_where. rewrite in_map_iff. split.
  - intros (t & E & H). apply filter_In in H. destruct H. eauto.
  - intros (t & H1 & H2 & E). exists t. split; auto. apply filter_In; auto.
Qed.

Lemma in_items_of e t : In t (items_of e) <->
  t = (s_mst (fst e), 0, 0, snd e) \/ exists kv, In kv (s_tags (fst e)) /\ t = (s_mst (fst e), fst kv, snd kv, snd e).
Proof.
  unfold items_of. simpl. rewrite in_map_iff. split.
  - intros [H | (kv & E & H)]; [left; auto | right; exists kv; auto].
  - intros [H | (kv & H & E)]; [left; auto | right; exists kv; auto].
Qed.
Lemma items_id e t : In t (items_of e) -> t_id t = snd e.
Proof. rewrite in_items_of. intros [-> | (kv & _ & ->)]; reflexivity. Qed.

Lemma in_ids_where_postings f L id :
  In id (ids_where f (postings L)) <-> exists s, In (s, id) L /\ exists t, In t (items_of (s, id)) /\ f t = true.
Proof.
  rewrite in_ids_where. unfold postings. split.
  - intros (t & Ht & Hf & E). apply in_flat_map in Ht. destruct Ht as (e & He & Hte).
    pose proof (items_id _ _ Hte) as Hid. destruct e as [s i]. simpl in Hid. subst id. rewrite Hid.
    exists s. split; auto. exists t. auto.
  - intros (s & Hs & t & Ht & Hf). exists t. split; [| split; auto].
    + apply in_flat_map. exists (s, id). auto.
    + apply (items_id _ _ Ht).
Qed.

Lemma in_postings L t : In t (postings L) <->
  exists s id, In (s, id) L /\ (t = (s_mst s, 0, 0, id) \/ exists k v, In (k, v) (s_tags s) /\ t = (s_mst s, k, v, id)).
Proof.
  unfold postings. rewrite in_flat_map. split.
  - intros ([s id] & Hin & Ht). apply in_items_of in Ht. simpl in Ht. exists s, id. split; auto.
    destruct Ht as [-> | ([k v] & Hkv & ->)]; [left; auto | right; exists k, v; auto].
  - intros (s & id & Hin & Ht). exists (s, id). split; auto. apply in_items_of. simpl.
    destruct Ht as [-> | (k & v & Hkv & ->)]; [left; auto | right; exists (k, v); auto].
Qed.

Lemma in_tag_items L m k v id : k <> 0 ->
  In (m, k, v, id) (postings L) <-> exists s, In (s, id) L /\ s_mst s = m /\ In (k, v) (s_tags s).
Proof.
  intros Hk. rewrite in_postings. split.
  - intros (s & i & Hin & [E | (k' & v' & Hkv & E)]); inversion E; subst; [contradiction Hk; reflexivity | eauto].
  - intros (s & Hin & <- & Hkv). exists s, id. split; auto. right. eauto.
Qed.

Lemma tag_val_in ts k v : wf_tags ts -> In (k, v) ts -> tag_val ts k = v.
Proof.
  intros [Hnd _]. unfold tag_val. induction ts as [| [k0 v0] r IH]; simpl; intros Hin; [contradiction |].
  inversion Hnd as [| ? ? Hni Hnd']; subst. destruct Hin as [E | Hin].
  - inversion E; subst. rewrite N.eqb_refl. reflexivity.
  - destruct (k0 =? k) eqn:Ek.
    + apply N.eqb_eq in Ek. subst. exfalso. apply Hni. change k with (fst (k, v)). apply in_map. exact Hin.
    + apply IH; auto.
Qed.
Lemma tag_val_nz ts k : tag_val ts k <> 0 -> In (k, tag_val ts k) ts.
Proof.
  unfold tag_val. destruct (find (fun kv => fst kv =? k) ts) as [kv |] eqn:E; [| intros H; contradiction H; reflexivity].
  intros _. apply find_some in E. destruct E as [Hin Hk]. apply N.eqb_eq in Hk. destruct kv as [a b]. simpl in *. subst. exact Hin.
Qed.
Lemma wf_tags_val ts k v : wf_tags ts -> In (k, v) ts -> k <> 0 /\ v <> 0.
Proof. intros [_ Hf] Hin. rewrite Forall_forall in Hf. apply (Hf (k, v) Hin). Qed.

Lemma tag_exists_iff ts k (g : N -> bool) : wf_tags ts ->
  (exists v, In (k, v) ts /\ g v = true) <-> tag_val ts k <> 0 /\ g (tag_val ts k) = true.
Proof.
  intros Hwf. split.
  - intros (v & Hin & Hg). pose proof (tag_val_in _ _ _ Hwf Hin) as E. rewrite E. split; auto.
    apply (wf_tags_val _ _ _ Hwf Hin).
  - intros [Hnz Hg]. exists (tag_val ts k). split; auto. apply tag_val_nz; auto.
Qed.

Definition wfL (L : list entry) : Prop := NoDup (map snd L) /\ Forall (fun e => wf_tags (s_tags (fst e))) L.
Definition sel (L : list entry) (m : N) (P : tagset -> Prop) (id : N) : Prop :=
  exists s, In (s, id) L /\ s_mst s = m /\ P (s_tags s).

Lemma nodup_map_inj {A B} (f : A -> B) (l : list A) x y : NoDup (map f l) -> In x l -> In y l -> f x = f y -> x = y.
Proof.
  induction l as [| a r IH]; simpl; intros Hnd Hx Hy E; [contradiction |]. inversion Hnd as [| ? ? Hni Hnd']; subst.
  destruct Hx as [-> | Hx], Hy as [-> | Hy]; auto; exfalso; apply Hni; [rewrite E | rewrite <- E]; apply in_map; assumption.
Qed.
Lemma uniq_id (L : list entry) s s' id : NoDup (map snd L) -> In (s, id) L -> In (s', id) L -> s = s'.
Proof. intros Hnd H1 H2. pose proof (nodup_map_inj snd L _ _ Hnd H1 H2 eq_refl) as E. congruence. Qed.
Lemma uniq_key (L : list entry) s id id' : NoDup (map fst L) -> In (s, id) L -> In (s, id') L -> id = id'.
Proof. intros Hnd H1 H2. pose proof (nodup_map_inj fst L _ _ Hnd H1 H2 eq_refl) as E. congruence. Qed.
Lemma wfL_tags L s id : wfL L -> In (s, id) L -> wf_tags (s_tags s).
Proof. intros [_ Hf] Hin. rewrite Forall_forall in Hf. apply (Hf (s, id) Hin). Qed.

Lemma sel_diff L m A B PA PB : wfL L ->
  (forall id, In id A <-> sel L m PA id) -> (forall id, In id B <-> sel L m PB id) ->
  forall id, In id (diff A B) <-> sel L m (fun ts => PA ts /\ ~ PB ts) id.
Proof.
  intros [Hnd _] HA HB id. rewrite in_diff, HA, HB. split.
  - intros [(s & Hin & Hm & Hp) Hn]. exists s. repeat split; auto. intro Hb. apply Hn. exists s. auto.
  - intros (s & Hin & Hm & Hp & Hn). split; [exists s; auto |].
    intros (s' & Hin' & _ & Hb). rewrite (uniq_id _ _ _ _ Hnd Hin Hin') in Hn. contradiction.
Qed.
Lemma sel_inter L m A B PA PB : wfL L ->
  (forall id, In id A <-> sel L m PA id) -> (forall id, In id B <-> sel L m PB id) ->
  forall id, In id (inter A B) <-> sel L m (fun ts => PA ts /\ PB ts) id.
Proof.
  intros [Hnd _] HA HB id. rewrite in_inter, HA, HB. split.
  - intros [(s & Hin & Hm & Hp) (s' & Hin' & _ & Hb)]. rewrite <- (uniq_id _ _ _ _ Hnd Hin Hin') in Hb. exists s. auto.
  - intros (s & Hin & Hm & Hp & Hb). split; exists s; auto.
Qed.
Lemma sel_union L m A B PA PB :
  (forall id, In id A <-> sel L m PA id) -> (forall id, In id B <-> sel L m PB id) ->
  forall id, In id (A ++ B) <-> sel L m (fun ts => PA ts \/ PB ts) id.
Proof.
  intros HA HB id. rewrite in_app_iff, HA, HB. split.
  - intros [(s & ? & ? & ?) | (s & ? & ? & ?)]; exists s; auto.
  - intros (s & ? & ? & [? | ?]); [left | right]; exists s; auto.
Qed.
Lemma sel_ext L m P Q id : (forall ts, wf_tags ts -> (P ts <-> Q ts)) -> wfL L -> sel L m P id <-> sel L m Q id.
Proof.
  intros H Hwf. split; intros (s & Hin & Hm & Hp); exists s; repeat split; auto;
    apply (H _ (wfL_tags _ _ _ Hwf Hin)); auto.
Qed.

Lemma sel_all L m id : In id (all_ids (postings L) m) <-> sel L m (fun _ => True) id.
Proof.
  unfold all_ids. rewrite in_ids_where_postings. split.
  - intros (s & Hin & t & Ht & Hf). exists s. repeat split; auto.
    apply N.eqb_eq in Hf. apply in_items_of in Ht. simpl in Ht.
    destruct Ht as [-> | (kv & _ & ->)]; exact Hf.
  - intros (s & Hin & Hm & _). exists s. split; auto. exists (s_mst s, 0, 0, id). split.
    + apply in_items_of. left. reflexivity.
    + apply N.eqb_eq. exact Hm.
Qed.

Lemma sel_kv L m k (g : N -> bool) : wfL L -> k <> 0 -> forall id,
  In id (ids_where (fun t => (t_m t =? m) && (t_k t =? k) && g (t_v t)) (postings L))
  <-> sel L m (fun ts => tag_val ts k <> 0 /\ g (tag_val ts k) = true) id.
Proof.
  intros Hwf Hk id. rewrite in_ids_where. split.
  - intros ([[[m' k'] v] i] & Ht & Hf & <-). unfold t_m, t_k, t_v, t_id in *. simpl in *.
    rewrite !andb_true_iff, !N.eqb_eq in Hf. destruct Hf as [[-> ->] Hg]. apply in_tag_items in Ht; auto.
    destruct Ht as (s & Hin & Hm & Hkv). exists s. repeat split; auto;
      apply (tag_exists_iff _ _ g (wfL_tags _ _ _ Hwf Hin)); eauto.
  - intros (s & Hin & Hm & Hp). apply (tag_exists_iff _ _ g (wfL_tags _ _ _ Hwf Hin)) in Hp. destruct Hp as (v & Hkv & Hg).
    exists (m, k, v, id). split; [apply in_tag_items; eauto |]. unfold t_m, t_k, t_v. simpl. rewrite !N.eqb_refl, Hg. auto.
Qed.

(* [haskey] in the shape of the key-value leaf [sel_kv], with the condition on the value that always holds *)
Lemma haskey_as L m k : haskey (postings L) m k =
  ids_where (fun t => (t_m t =? m) && (t_k t =? k) && (fun _ => true) (t_v t)) (postings L).
Proof. unfold haskey, ids_where. f_equal. apply filter_ext. intros t. rewrite andb_true_r. reflexivity. Qed.

Lemma sel_haskey L m k : wfL L -> k <> 0 -> forall id,
  In id (haskey (postings L) m k) <-> sel L m (fun ts => tag_val ts k <> 0) id.
Proof.
  intros Hwf Hk id. rewrite haskey_as, (sel_kv L m k (fun _ => true) Hwf Hk). apply sel_ext; auto. intros ts _. tauto.
Qed.
Lemma sel_post L m k v : wfL L -> k <> 0 -> v <> 0 -> forall id,
  In id (post (postings L) m k v) <-> sel L m (fun ts => tag_val ts k = v) id.
Proof.
  intros Hwf Hk Hv id. unfold post. rewrite (sel_kv L m k (fun x => x =? v) Hwf Hk). apply sel_ext; auto.
  intros ts _. rewrite N.eqb_eq. split; [tauto |]. intros E. split; auto. congruence.
Qed.
Lemma sel_scan am L m k p : wfL L -> k <> 0 -> forall id,
  In id (scan am (postings L) m k p) <-> sel L m (fun ts => tag_val ts k <> 0 /\ am p (tag_val ts k) = true) id.
Proof. intros Hwf Hk. apply (sel_kv L m k (am p)); auto. Qed.
Lemma sel_compl L m X P : wfL L -> (forall id, In id X <-> sel L m P id) ->
  forall id, In id (diff (all_ids (postings L) m) X) <-> sel L m (fun ts => ~ P ts) id.
Proof. intros Hwf HX id. rewrite (sel_diff L m _ _ _ _ Hwf (sel_all L m) HX). apply sel_ext; auto. intros ts _. tauto. Qed.
Lemma sel_nokey L m k : wfL L -> k <> 0 -> forall id,
  In id (nokey (postings L) m k) <-> sel L m (fun ts => tag_val ts k = 0) id.
Proof.
  intros Hwf Hk id. unfold nokey. rewrite (sel_compl L m _ _ Hwf (sel_haskey L m k Hwf Hk)).
  apply sel_ext; auto. intros ts _. destruct (N.eq_dec (tag_val ts k) 0); tauto.
Qed.
Lemma sel_re am L m k p : wfL L -> k <> 0 -> forall id,
  In id (re_ids am (postings L) m k p) <-> sel L m (fun ts => am p (tag_val ts k) = true) id.
Proof.
  intros Hwf Hk id. unfold re_ids. destruct (am p 0) eqn:E0.
  - rewrite (sel_union L m _ _ _ _ (sel_nokey L m k Hwf Hk) (sel_scan am L m k p Hwf Hk)).
    apply sel_ext; auto. intros ts _. destruct (N.eq_dec (tag_val ts k) 0) as [Ez | Ez]; [rewrite Ez |]; tauto.
  - simpl. rewrite sel_scan; auto. apply sel_ext; auto. intros ts _. split; [tauto |]. intros H. split; auto.
    intros Ez. rewrite Ez in H. congruence.
Qed.

Theorem search_sel am L m : wfL L -> forall e, expr_ok e ->
  forall id, In id (search am (postings L) m e) <-> sel L m (fun ts => eval am e ts = true) id.
Proof.
  intros Hwf. induction e as [a IHa b IHb | a IHa b IHb | a IHa | k c v]; simpl; intros Hok id.
  - destruct Hok as [Ha Hb].
    rewrite (sel_inter L m _ _ _ _ Hwf (IHa Ha) (IHb Hb)). apply sel_ext; auto. intros ts _. rewrite andb_true_iff. tauto.
  - destruct Hok as [Ha Hb].
    rewrite (sel_union L m _ _ _ _ (IHa Ha) (IHb Hb)). apply sel_ext; auto. intros ts _. rewrite orb_true_iff. tauto.
  - apply IHa; auto.
  - destruct c.
    + destruct (v =? 0) eqn:Ev.
      * apply N.eqb_eq in Ev. subst v. rewrite sel_nokey; auto. apply sel_ext; auto. intros ts _. rewrite N.eqb_eq. tauto.
      * apply N.eqb_neq in Ev. rewrite sel_post; auto. apply sel_ext; auto. intros ts _. rewrite N.eqb_eq. tauto.
    + destruct (v =? 0) eqn:Ev.
      * apply N.eqb_eq in Ev. subst v. rewrite sel_haskey; auto. apply sel_ext; auto. intros ts _.
        rewrite negb_true_iff, N.eqb_neq. tauto.
      * apply N.eqb_neq in Ev. rewrite (sel_compl L m _ _ Hwf (sel_post L m k v Hwf Hok Ev)).
        apply sel_ext; auto. intros ts _. rewrite negb_true_iff, N.eqb_neq. tauto.
    + apply sel_re; auto.
    + rewrite (sel_compl L m _ _ Hwf (sel_re am L m k v Hwf Hok)).
      apply sel_ext; auto. intros ts _. rewrite negb_true_iff. destruct (am v (tag_val ts k)); intuition congruence.
Qed.

Lemma bruteforce_sel am L m e id : In id (bruteforce am L m e) <-> sel L m (fun ts => eval am e ts = true) id.
Proof.
  unfold bruteforce. rewrite in_map_iff. split.
  - intros ([s i] & E & H). simpl in E. subst i. apply filter_In in H. destruct H as [Hin Hf]. simpl in Hf.
    apply andb_true_iff in Hf. destruct Hf as [Hm He]. apply N.eqb_eq in Hm. exists s. auto.
  - intros (s & Hin & Hm & He). exists (s, id). split; auto. apply filter_In. split; auto. simpl.
    rewrite He. subst m. rewrite N.eqb_refl. reflexivity.
Qed.

Theorem search_is_bruteforce am L m e : wfL L -> expr_ok e ->
  forall id, In id (search am (postings L) m e) <-> In id (bruteforce am L m e).
Proof. intros Hwf Hok id. rewrite search_sel, bruteforce_sel; auto. tauto. Qed.

Lemma key_of_in L s id : NoDup (map snd L) -> In (s, id) L -> key_of L id = [s].
Proof.
  intros Hnd Hin. unfold key_of. destruct (find (fun e => snd e =? id) L) as [[s' i'] |] eqn:E.
  - apply find_some in E. destruct E as [Hin' Hi]. simpl in Hi. apply N.eqb_eq in Hi. subst i'.
    rewrite (uniq_id _ _ _ _ Hnd Hin Hin'). reflexivity.
  - exfalso. apply (find_none _ _ E) in Hin. simpl in Hin. rewrite N.eqb_refl in Hin. discriminate.
Qed.
Lemma key_of_sound L s id : In s (key_of L id) -> In (s, id) L.
Proof.
  unfold key_of. destruct (find (fun e => snd e =? id) L) as [[s' i'] |] eqn:E; simpl; [| tauto].
  intros [<- | []]. apply find_some in E. destruct E as [Hin Hi]. simpl in Hi. apply N.eqb_eq in Hi. subst. exact Hin.
Qed.

Lemma in_dedup x l : In x (dedup l) <-> In x l.
Proof.
  induction l as [| y r IH]; simpl; [tauto |]. destruct (mem y r) eqn:E.
  - rewrite IH. apply mem_spec in E. split; [auto |]. intros [<- | H]; auto.
  - simpl. rewrite IH. tauto.
Qed.

Lemma in_keys_of L m P ids s : NoDup (map snd L) -> (forall id, In id ids <-> sel L m P id) ->
  In s (flat_map (key_of L) (dedup ids)) <-> exists id, In (s, id) L /\ s_mst s = m /\ P (s_tags s).
Proof.
  intros Hnd Hids. rewrite in_flat_map. split.
  - intros (id & Hid & Hk). apply in_dedup, Hids in Hid. destruct Hid as (s' & Hin' & Hs'). apply key_of_sound in Hk.
    rewrite (uniq_id _ _ _ _ Hnd Hk Hin'). eauto.
  - intros (id & Hin & Hs). exists id. split; [apply in_dedup, Hids; exists s; auto |].
    rewrite (key_of_in _ _ _ Hnd Hin). left. reflexivity.
Qed.

Definition wf (i : index) : Prop :=
  NoDup (map fst (store i)) /\ NoDup (map snd (store i)) /\
  (forall e, In e (store i) -> snd e <= next_id i) /\
  (forall e, In e (cache i) -> In e (store i)).

Lemma assoc_in L s id : assoc L s = Some id -> In (s, id) L.
Proof.
  unfold assoc. destruct (find (fun e => series_eqb (fst e) s) L) as [[s' i'] |] eqn:E; [| discriminate].
  intros H. inversion H; subst. apply find_some in E. destruct E as [Hin Heq]. simpl in Heq.
  apply series_eqb_true in Heq. subst. exact Hin.
Qed.
Lemma assoc_none L s : assoc L s = None -> ~ In s (map fst L).
Proof.
  unfold assoc. destruct (find (fun e => series_eqb (fst e) s) L) eqn:E; [discriminate |].
  intros _ Hin. apply in_map_iff in Hin. destruct Hin as (e & Ef & Hin). apply (find_none _ _ E) in Hin.
  rewrite Ef in Hin. assert (series_eqb s s = true) by (apply series_eqb_true; reflexivity). congruence.
Qed.
Lemma assoc_of_in L s id : NoDup (map fst L) -> In (s, id) L -> assoc L s = Some id.
Proof.
  intros Hnd Hin. destruct (assoc L s) as [id' |] eqn:E.
  - apply assoc_in in E. f_equal. apply (uniq_key L s id' id Hnd E Hin).
  - exfalso. apply (assoc_none _ _ E). change s with (fst (s, id)). apply in_map. exact Hin.
Qed.

Lemma lookup_repaired_iff i s id : wf i -> lookup slow_repaired i s = Some id <-> In (s, id) (store i).
Proof.
  intros (Hk & _ & _ & Hc). unfold lookup, slow_repaired. split.
  - destruct (assoc (cache i) s) as [c |] eqn:E.
    + intros H. inversion H; subst. apply Hc. apply assoc_in. exact E.
    + apply assoc_in.
  - intros Hin. destruct (assoc (cache i) s) as [c |] eqn:E.
    + apply assoc_in in E. apply Hc in E. f_equal. apply (uniq_key _ _ _ _ Hk E Hin).
    + apply assoc_of_in; auto.
Qed.

Lemma wf_empty n : wf (empty_index n).
Proof. unfold wf, store. simpl. repeat split; try constructor; intros e []. Qed.

Lemma nodup_snoc {A} (l : list A) x : NoDup l -> ~ In x l -> NoDup (l ++ [x]).
Proof.
  induction l as [| y r IH]; simpl; intros Hnd Hni.
  - constructor; [intros [] | constructor].
  - inversion Hnd; subst. constructor.
    + rewrite in_app_iff. simpl. intros [H | [H | []]]; [contradiction | apply Hni; left; symmetry; exact H].
    + apply IH; auto.
Qed.

Lemma insert_repaired_wf i s : wf i -> wf (fst (insert slow_repaired i s)).
Proof.
  intros Hwf. pose proof Hwf as (Hk & Hi & Hb & Hc). unfold insert.
  destruct (lookup slow_repaired i s) as [id |] eqn:E; simpl.
  - apply lookup_repaired_iff in E; auto. unfold wf, store in *. simpl. repeat split; auto.
    intros e [<- | He]; auto.
  - assert (Hns : ~ In s (map fst (store i))).
    { unfold lookup, slow_repaired in E. destruct (assoc (cache i) s); [discriminate |]. apply assoc_none. exact E. }
    unfold wf, store in *. simpl. rewrite app_assoc. repeat split.
    + rewrite map_app. simpl. apply nodup_snoc; auto.
    + rewrite map_app. simpl. apply nodup_snoc; auto. intros Hin. apply in_map_iff in Hin.
      destruct Hin as (e & Ee & Hin). apply Hb in Hin. rewrite Ee in Hin. lia.
    + intros e Hin. apply in_app_iff in Hin. destruct Hin as [Hin | [<- | []]]; simpl; [apply Hb in Hin; lia | lia].
    + intros e [<- | He]; apply in_app_iff; [right; left; reflexivity | left; auto].
Qed.

Lemma step_repaired_wf i o : wf i -> wf (fst (step slow_repaired i o)).
Proof.
  intros Hwf. destruct o as [s | | | b]; simpl.
  - pose proof (insert_repaired_wf i s Hwf) as H. destruct (insert slow_repaired i s). exact H.
  - destruct Hwf as (Hk & Hi & Hb & Hc). unfold wf, store in *. simpl. rewrite app_nil_r. auto.
  - destruct Hwf as (Hk & Hi & Hb & Hc). unfold wf, store in *. simpl. repeat split; auto. intros e [].
  - destruct Hwf as (Hk & Hi & Hb & Hc). unfold wf, store in *. simpl. rewrite app_nil_r. repeat split; auto.
    intros e He. apply Hb in He. lia.
Qed.
Lemma run_inv slow (P : index -> Prop) (Q : op -> Prop) :
  (forall i o, Q o -> P i -> P (fst (step slow i o))) -> forall os i, Forall Q os -> P i -> P (fst (run slow i os)).
Proof.
  intros Hstep. induction os as [| o r IH]; simpl; intros i Hos Hi; auto. inversion Hos as [| ? ? Ho Hr]; subst.
  pose proof (Hstep i o Ho Hi) as H1. destruct (step slow i o) as [i1 x].
  pose proof (IH i1 Hr H1) as H2. destruct (run slow i1 r) as [i2 xs]. exact H2.
Qed.
Lemma Forall_True {A} (l : list A) : Forall (fun _ => True) l.
Proof. apply Forall_forall. auto. Qed.

Lemma run_repaired_wf os i : wf i -> wf (fst (run slow_repaired i os)).
Proof. apply (run_inv slow_repaired wf (fun _ => True)); [intros j o _; apply step_repaired_wf | apply Forall_True]. Qed.
Lemma reachable_wf n os : wf (fst (run slow_repaired (empty_index n) os)).
Proof. apply run_repaired_wf, wf_empty. Qed.

Lemma step_store_mono slow i o e : In e (store i) -> In e (store (fst (step slow i o))).
Proof.
  intros Hin. destruct o as [s | | | b]; simpl; unfold store in *; simpl.
  - unfold insert. destruct (lookup slow i s); simpl; auto. rewrite app_assoc. apply in_app_iff. left. exact Hin.
  - rewrite app_nil_r. exact Hin.
  - exact Hin.
  - rewrite app_nil_r. exact Hin.
Qed.
Lemma run_store_mono slow os i e : In e (store i) -> In e (store (fst (run slow i os))).
Proof.
  apply (run_inv slow (fun j => In e (store j)) (fun _ => True)); [intros j o _; apply step_store_mono | apply Forall_True].
Qed.

Lemma insert_repaired_returns i s : wf i ->
  In (s, snd (insert slow_repaired i s)) (store (fst (insert slow_repaired i s))).
Proof.
  intros Hwf. unfold insert. destruct (lookup slow_repaired i s) as [id |] eqn:E; simpl.
  - apply lookup_repaired_iff in E; auto.
  - unfold store. simpl. rewrite app_assoc. apply in_app_iff. right. left. reflexivity.
Qed.
Lemma insert_repaired_known i s id : wf i -> In (s, id) (store i) -> snd (insert slow_repaired i s) = id.
Proof.
  intros Hwf Hin. apply lookup_repaired_iff in Hin; auto. unfold insert. rewrite Hin. reflexivity.
Qed.

Theorem id_injective_store i s1 s2 id : wf i -> In (s1, id) (store i) -> In (s2, id) (store i) -> s1 = s2.
Proof. intros (_ & Hi & _) H1 H2. apply (uniq_id _ _ _ _ Hi H1 H2). Qed.
Theorem id_functional_store i s id1 id2 : wf i -> In (s, id1) (store i) -> In (s, id2) (store i) -> id1 = id2.
Proof. intros (Hk & _) H1 H2. apply (uniq_key _ _ _ _ Hk H1 H2). Qed.

(* once a series has been given an id, any later insert of it - after any operations - returns that id *)
Theorem id_stable i s os : wf i ->
  let r := insert slow_repaired i s in snd (insert slow_repaired (fst (run slow_repaired (fst r) os)) s) = snd r.
Proof.
  intros W r. assert (W2 : wf (fst r)) by (apply insert_repaired_wf; exact W).
  apply insert_repaired_known; [apply run_repaired_wf; exact W2 |]. apply run_store_mono, insert_repaired_returns, W.
Qed.

Theorem cache_agrees i s id : wf i -> assoc (cache i) s = Some id -> slow_repaired i s = Some id.
Proof.
  intros (Hk & _ & _ & Hc) E. apply assoc_in in E. apply Hc in E. unfold slow_repaired. apply assoc_of_in; auto.
Qed.

(* the searchable part of a reachable index satisfies the hypotheses of the search theorem provided every inserted key
   is a well-formed series key *)
Definition op_ok (o : op) : Prop := match o with Insert s => wf_tags (s_tags s) | _ => True end.
(* the second conjunct of [wfL (store i)], as an invariant of the steps *)
Definition tags_ok (i : index) : Prop := Forall (fun e => wf_tags (s_tags (fst e))) (store i).

Lemma step_tags_ok slow i o : op_ok o -> tags_ok i -> tags_ok (fst (step slow i o)).
Proof.
  unfold tags_ok. intros Hop Ht. destruct o as [s | | | b]; simpl; unfold store in *; simpl.
  - unfold insert. destruct (lookup slow i s); simpl; auto. rewrite app_assoc. apply Forall_app. split; auto.
  - rewrite app_nil_r. exact Ht.
  - exact Ht.
  - rewrite app_nil_r. exact Ht.
Qed.

Lemma nodup_map_filter {A B} (f : A -> B) (g : A -> bool) (l : list A) : NoDup (map f l) -> NoDup (map f (filter g l)).
Proof.
  induction l as [| x r IH]; simpl; intros H; [constructor |]. inversion H as [| ? ? Hni Hnd]; subst.
  destruct (g x); simpl; auto. constructor; auto. intros Hin. apply Hni. apply in_map_iff in Hin.
  destruct Hin as (y & E & Hy). apply filter_In in Hy. destruct Hy as [Hy _]. rewrite <- E. apply in_map. exact Hy.
Qed.
Lemma nodup_app_l {A} (a b : list A) : NoDup (a ++ b) -> NoDup a.
Proof. induction a as [| x r IH]; simpl; intros H; [constructor |]. inversion H; subst. constructor; [rewrite in_app_iff in *; tauto | auto]. Qed.

Theorem reachable_wfL n os : Forall op_ok os -> wfL (vis (fst (run slow_repaired (empty_index n) os))).
Proof.
  intros Hos. split.
  - destruct (reachable_wf n os) as (_ & Hi & _). unfold store in Hi. rewrite map_app in Hi. apply nodup_app_l in Hi. exact Hi.
  - assert (T : tags_ok (fst (run slow_repaired (empty_index n) os))) by (apply (run_inv _ tags_ok op_ok); [intros; apply step_tags_ok; assumption | exact Hos | constructor]).
    unfold tags_ok, store in T. apply Forall_app in T. tauto.
Qed.
