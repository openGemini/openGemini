(* C10 - the second evaluator of a tag predicate: the select path checks the remaining filters of an AND-only predicate
   against the SERIES KEY of each candidate (doPrune / matchSeriesKeyTagFilter in search_prune.go) instead of intersecting
   id sets. It is proved equal to the meaning of the predicate (absent tag = empty string, negation, empty values), and
   every plan "id-set search of some filters, key check of the others" is proved to select what brute force selects. *)
From Coq Require Import NArith List Bool.
From OG Require Import C10.Model C10.Proofs.
Import ListNotations.
Open Scope N_scope.

Definition filter_t := (N * cmp * N)%type.                 (* tag key, operator, value or pattern *)
Definition negative (c : cmp) : bool := match c with Neq | Nre => true | _ => false end.
Definition is_re (c : cmp) : bool := match c with Re | Nre => true | _ => false end.

(* matchSeriesKeyTagFilter: look the key up among the tags of the series key; if present compare its value, if absent
   compare with the empty string; a negative filter inverts the answer *)
Definition prune_atom (am : N -> N -> bool) (f : filter_t) (ts : tagset) : bool :=
  let '(k, c, v) := f in
  match find (fun kv => fst kv =? k) ts with
  | Some kv => let m := if is_re c then am v (snd kv) else (snd kv =? v) in if negative c then negb m else m
  | None => let m := if is_re c then am v 0 else (0 =? v) in if negative c then negb m else m
  end.
Definition prune_filters (am : N -> N -> bool) (fs : list filter_t) (ts : tagset) : bool :=
  forallb (fun f => prune_atom am f ts) fs.

Definition atom_of (f : filter_t) : expr := let '(k, c, v) := f in Atom k c v.
(* the AND-only predicate of a non-empty filter list *)
Fixpoint conj (f : filter_t) (fs : list filter_t) : expr :=
  match fs with [] => atom_of f | g :: r => And (atom_of f) (conj g r) end.

Lemma prune_atom_eval am f ts : prune_atom am f ts = eval am (atom_of f) ts.
Proof.
  destruct f as [[k c] v]. unfold prune_atom, atom_of. destruct c; cbn [eval is_re negative]; unfold tag_val;
    destruct (find (fun kv => fst kv =? k) ts) as [kv |]; reflexivity.
Qed.

Lemma eval_conj am f fs ts : eval am (conj f fs) ts = prune_filters am (f :: fs) ts.
Proof.
  revert f. induction fs as [| g r IH]; intros f; cbn [conj eval prune_filters forallb].
  - rewrite prune_atom_eval, andb_true_r. reflexivity.
  - rewrite IH, prune_atom_eval. reflexivity.
Qed.

Lemma expr_ok_conj f fs : Forall (fun g => fst (fst g) <> 0) (f :: fs) -> expr_ok (conj f fs).
Proof.
  revert f. induction fs as [| g r IH]; intros f H; inversion H as [| ? ? Hf Hr]; subst; cbn [conj expr_ok].
  - destruct f as [[k c] v]. exact Hf.
  - split; [destruct f as [[k c] v]; exact Hf | apply IH; exact Hr].
Qed.

(* a plan of the select path for an AND-only predicate: the filters [pre] are answered from the index (id sets), the
   filters [post] are checked against the series key of every candidate *)
Definition plan_ids (am : N -> N -> bool) (L : list entry) (m : N) (p : filter_t) (pre post : list filter_t) : list N :=
  filter (fun id => match key_of L id with s :: _ => prune_filters am post (s_tags s) | [] => false end)
         (search am (postings L) m (conj p pre)).

Lemma forallb_app' {A} (f : A -> bool) a b : forallb f (a ++ b) = forallb f a && forallb f b.
Proof. apply forallb_app. Qed.

Lemma eval_conj_app am p pre post ts :
  eval am (conj p (pre ++ post)) ts = eval am (conj p pre) ts && prune_filters am post ts.
Proof. rewrite !eval_conj. cbn [prune_filters forallb]. rewrite forallb_app', andb_assoc. reflexivity. Qed.

Theorem plan_is_bruteforce am L m p pre post :
  wfL L -> Forall (fun g => fst (fst g) <> 0) (p :: pre ++ post) ->
  forall id, In id (plan_ids am L m p pre post) <-> In id (bruteforce am L m (conj p (pre ++ post))).
Proof.
  intros Hwf Hok id.
  assert (Hok1 : expr_ok (conj p pre)).
  { apply expr_ok_conj. inversion Hok as [| ? ? Hp Hr]; subst. constructor; auto.
    apply Forall_app in Hr. apply Hr. }
  unfold plan_ids. rewrite filter_In, (search_sel am L m Hwf _ Hok1), bruteforce_sel. split.
  - intros [(s & Hin & Hm & He) Hp]. rewrite (key_of_in L s id (proj1 Hwf) Hin) in Hp.
    exists s. rewrite eval_conj_app, He, Hp. auto.
  - intros (s & Hin & Hm & He). rewrite eval_conj_app in He. apply andb_true_iff in He. destruct He as [He Hp].
    split; [exists s; auto | rewrite (key_of_in L s id (proj1 Hwf) Hin); exact Hp].
Qed.

(* a variant of this evaluator that is NOT /repo's code (the trial change /verif/seeded/C10-m4: on an absent tag only
   k = '' can hold); Refuted.v shows it is not the predicate *)
Definition prune_atom_absent_only_empty (am : N -> N -> bool) (f : filter_t) (ts : tagset) : bool :=
  let '(k, c, v) := f in
  match find (fun kv => fst kv =? k) ts with
  | Some _ => prune_atom am f ts
  | None => if is_re c then prune_atom am f ts else (v =? 0) && negb (negative c)
  end.
