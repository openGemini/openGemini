(* C10 - executable model of the series index (engine/index/tsi): one list of (series key, id) entries that is
   either flushed (visible to searches and to the slow key lookup) or pending (written with AddItems, not yet
   flushed into a part), the key->id cache (a partial copy of the store), the id generator, and predicate search
   by set algebra over the tag->ids postings. Strings (measurement names, tag keys, tag values, regex patterns)
   are interned as N by the harness; 0 is the empty string. What a regular-expression atom matches is NOT
   modelled: it is the parameter [am : pattern -> value -> bool] (Go regexp is the oracle). *)
From Coq Require Import NArith List Bool.
Import ListNotations.
Open Scope N_scope.

Definition tagset := list (N * N).                       (* (tag key, tag value) as written; the order is not used *)
Record series := mkS { s_mst : N; s_tags : tagset }.
Definition entry := (series * N)%type.                   (* series key -> id *)

Definition tagset_eq_dec : forall a b : tagset, {a = b} + {a <> b}.
Proof. decide equality. decide equality; apply N.eq_dec. Defined.
Definition series_eq_dec : forall a b : series, {a = b} + {a <> b}.
Proof. decide equality. apply tagset_eq_dec. apply N.eq_dec. Defined.
Definition series_eqb (a b : series) : bool := if series_eq_dec a b then true else false.

Definition assoc (L : list entry) (s : series) : option N :=
  match find (fun e => series_eqb (fst e) s) L with Some e => Some (snd e) | None => None end.

Record index := mkI {
  vis : list entry;        (* flushed items *)
  pend : list entry;       (* raw items of the mergeset table, invisible to TableSearch until the next flush *)
  cache : list entry;      (* series key -> id cache *)
  next_id : N              (* high-water mark of GenerateUUID: (logical clock << 40) | sequence *)
}.
Definition empty_index (n : N) : index := mkI [] [] [] n.
Definition store (i : index) : list entry := vis i ++ pend i.

(* ---- key lookup. getSeriesIdBySeriesKey: cache, then the item store through a TableSearch.
   _current: the TableSearch sees flushed parts only - the lookup of /repo, before and since ce36ae7.
   _repaired: pending items are consulted as well - a repair /repo did not take (ce36ae7 makes the cache clear flush
   first: FlushClear.v, which proves that both hand out the same ids). *)
Definition slow_current (i : index) (s : series) : option N := assoc (vis i) s.
Definition slow_repaired (i : index) (s : series) : option N := assoc (store i) s.

Definition lookup (slow : index -> series -> option N) (i : index) (s : series) : option N :=
  match assoc (cache i) s with Some id => Some id | None => slow i s end.

Inductive op := Insert (s : series) | Flush | ClearCache | Reopen (bump : N).

(* createIndexesIfNotExists: lookup before create under the index mutex; a fresh id is next_id+1 (AddUint64
   returns the incremented value); the new key goes to the cache; a slow-path hit is put in the cache too. *)
Definition insert (slow : index -> series -> option N) (i : index) (s : series) : index * N :=
  match lookup slow i s with
  | Some id => (mkI (vis i) (pend i) ((s, id) :: cache i) (next_id i), id)
  | None => let id := next_id i + 1 in (mkI (vis i) (pend i ++ [(s, id)]) ((s, id) :: cache i) id, id)
  end.

Definition step (slow : index -> series -> option N) (i : index) (o : op) : index * option N :=
  match o with
  | Insert s => let (i', id) := insert slow i s in (i', Some id)
  | Flush => (mkI (vis i ++ pend i) [] (cache i) (next_id i), None)
  | ClearCache => (mkI (vis i) (pend i) [] (next_id i), None)
  (* Close flushes the raw items and saves the caches; a restart moves the logical clock on, so the generator
     restarts strictly above every id handed out before (bump >= 0 on top of the old high-water mark) *)
  | Reopen b => (mkI (vis i ++ pend i) [] (cache i) (next_id i + b), None)
  end.

Fixpoint run (slow : index -> series -> option N) (i : index) (os : list op) : index * list (option N) :=
  match os with
  | [] => (i, [])
  | o :: r => let (i1, x) := step slow i o in let (i2, xs) := run slow i1 r in (i2, x :: xs)
  end.

(* ---- postings: the tag->ids items written by decode for one (key,id): one per tag plus the measurement marker
   (empty key, empty value) *)
Definition titem := (N * N * N * N)%type.                 (* measurement, tag key, tag value, id *)
Definition t_m (t : titem) := fst (fst (fst t)).
Definition t_k (t : titem) := snd (fst (fst t)).
Definition t_v (t : titem) := snd (fst t).
Definition t_id (t : titem) := snd t.

Definition items_of (e : entry) : list titem :=
  (s_mst (fst e), 0, 0, snd e) :: map (fun kv => (s_mst (fst e), fst kv, snd kv, snd e)) (s_tags (fst e)).
Definition postings (L : list entry) : list titem := flat_map items_of L.

Definition ids_where (f : titem -> bool) (T : list titem) : list N := map t_id (filter f T).
Definition all_ids (T : list titem) (m : N) := ids_where (fun t => t_m t =? m) T.
Definition haskey (T : list titem) (m k : N) := ids_where (fun t => (t_m t =? m) && (t_k t =? k)) T.
Definition post (T : list titem) (m k v : N) := ids_where (fun t => (t_m t =? m) && (t_k t =? k) && (t_v t =? v)) T.
Definition scan (am : N -> N -> bool) (T : list titem) (m k p : N) :=
  ids_where (fun t => (t_m t =? m) && (t_k t =? k) && am p (t_v t)) T.

Definition mem (x : N) (l : list N) : bool := existsb (N.eqb x) l.
Definition diff (a b : list N) := filter (fun x => negb (mem x b)) a.
Definition inter (a b : list N) := filter (fun x => mem x b) a.

Inductive cmp := Eq | Neq | Re | Nre.
Inductive expr := And (a b : expr) | Or (a b : expr) | Paren (a : expr) | Atom (k : N) (c : cmp) (v : N).

(* series of measurement m without tag k (they behave as k = "") *)
Definition nokey (T : list titem) (m k : N) := diff (all_ids T m) (haskey T m k).
Definition re_ids (am : N -> N -> bool) (T : list titem) (m k p : N) :=
  (if am p 0 then nokey T m k else []) ++ scan am T m k p.

(* predicate search by set algebra over the postings (seriesByExprIterator / searchTSIDsInternal) *)
Fixpoint search (am : N -> N -> bool) (T : list titem) (m : N) (e : expr) : list N :=
  match e with
  | And a b => inter (search am T m a) (search am T m b)
  | Or a b => search am T m a ++ search am T m b
  | Paren a => search am T m a
  | Atom k Eq v => if v =? 0 then nokey T m k else post T m k v
  | Atom k Neq v => if v =? 0 then haskey T m k else diff (all_ids T m) (post T m k v)
  | Atom k Re p => re_ids am T m k p
  | Atom k Nre p => diff (all_ids T m) (re_ids am T m k p)
  end.

(* the show-series / drop-series path (searchTSIDsInternal) as it was before /repo 0471d6c: a negated regex whose pattern matches the
   empty string yields a nil set, and nil means "no constraint" to the enclosing AND/OR *)
Fixpoint search_ids_current (am : N -> N -> bool) (T : list titem) (m : N) (e : expr) : option (list N) :=
  match e with
  | And a b => match search_ids_current am T m a, search_ids_current am T m b with
               | None, r => r | l, None => l | Some x, Some y => Some (inter x y) end
  | Or a b => match search_ids_current am T m a, search_ids_current am T m b with
              | None, r => r | l, None => l | Some x, Some y => Some (x ++ y) end
  | Paren a => search_ids_current am T m a
  | Atom k Nre p => if am p 0 then None else Some (search am T m e)
  | _ => Some (search am T m e)
  end.
Definition search_ids_top_current am T m e := match search_ids_current am T m e with Some x => x | None => [] end.
Definition search_ids_repaired := search.

(* the meaning of a predicate on one tag set; an absent tag is the empty string *)
Definition tag_val (ts : tagset) (k : N) : N :=
  match find (fun kv => fst kv =? k) ts with Some kv => snd kv | None => 0 end.
Fixpoint eval (am : N -> N -> bool) (e : expr) (ts : tagset) : bool :=
  match e with
  | And a b => eval am a ts && eval am b ts
  | Or a b => eval am a ts || eval am b ts
  | Paren a => eval am a ts
  | Atom k Eq v => tag_val ts k =? v
  | Atom k Neq v => negb (tag_val ts k =? v)
  | Atom k Re p => am p (tag_val ts k)
  | Atom k Nre p => negb (am p (tag_val ts k))
  end.
Definition bruteforce (am : N -> N -> bool) (L : list entry) (m : N) (e : expr) : list N :=
  map snd (filter (fun x => (s_mst (fst x) =? m) && eval am e (s_tags (fst x))) L).

(* ---- regex atoms: the index translation before /repo f7a71a4 (anchored unless a pure literal) versus the language. Both matchers are parameters (Go regexp is
   the oracle for both: MatchString(p) and MatchString("^(?:"+p+")$")); only their use is modelled. *)
Definition atom_match_repaired (unanch : N -> N -> bool) : N -> N -> bool := unanch.
Definition atom_match_current (is_literal : N -> bool) (unanch anch : N -> N -> bool) (p v : N) : bool :=
  if is_literal p then unanch p v else anch p v.

(* ---- listings *)
Definition key_of (L : list entry) (id : N) : list series :=
  match find (fun e => snd e =? id) L with Some e => [fst e] | None => [] end.
Fixpoint dedup (l : list N) : list N :=
  match l with [] => [] | x :: r => if mem x r then dedup r else x :: dedup r end.
Definition list_series (L : list entry) (m : N) : list series := flat_map (key_of L) (dedup (all_ids (postings L) m)).
Definition list_tag_values (L : list entry) (m k : N) : list N :=
  map t_v (filter (fun t => (t_m t =? m) && (t_k t =? k)) (postings L)).
Definition list_tag_keys (L : list entry) (m : N) : list N :=
  map t_k (filter (fun t => (t_m t =? m) && negb (t_k t =? 0)) (postings L)).

(* well-formed series key as the write path produces it: distinct non-empty tag keys, no empty value *)
Definition wf_tags (ts : tagset) : Prop := NoDup (map fst ts) /\ Forall (fun kv => fst kv <> 0 /\ snd kv <> 0) ts.
Fixpoint expr_ok (e : expr) : Prop :=
  match e with
  | And a b | Or a b => expr_ok a /\ expr_ok b
  | Paren a => expr_ok a
  | Atom k _ _ => k <> 0
  end.
