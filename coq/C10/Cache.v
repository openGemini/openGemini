(* C10 - the tag-filter RESULT CACHE of the select path inside the index model. Every tag filter (atom) of a predicate is
   answered from a cache keyed by (generation, measurement, key, operator, value); a miss is computed from the flushed items
   minus the dropped ids and stored. The generation is bumped by the table's flush callback and by DROP SERIES. Ops: insert,
   forced flush, background flush (the table's own periodic flush), the 10 s callback tick, cache clear, close/reopen, drop
   series, search. Theorem: when the flush callback runs with the flush ([cstep true]: /repo since 726371b), every search of
   every op sequence returns what the uncached search returns. Before 726371b the callback of a background flush was deferred
   to the tick ([cstep false]): refuted in Refuted.v. *)
From Coq Require Import NArith List Bool Lia.
From OG Require Import C10.Model C10.Proofs C10.FlushClear.
Import ListNotations.
Open Scope N_scope.

Definition fkey := (N * N * N * cmp * N)%type.            (* generation, measurement, tag key, operator, value/pattern *)
Definition cmp_eqb (a b : cmp) : bool :=
  match a, b with Eq, Eq | Neq, Neq | Re, Re | Nre, Nre => true | _, _ => false end.
Definition fkey_eqb (a b : fkey) : bool :=
  let '(g1, m1, k1, c1, v1) := a in let '(g2, m2, k2, c2, v2) := b in
  (g1 =? g2) && (m1 =? m2) && (k1 =? k2) && cmp_eqb c1 c2 && (v1 =? v2).

Record cstate := mkC {
  ix : index;                          (* store, key cache, id generator (Model.v) *)
  dropped : list N;                    (* ids removed by DROP SERIES *)
  gen : N;                             (* tagFilterKeyGen *)
  need : bool;                         (* needFlushCallbackCall: a background flush has happened, callback pending *)
  fc : list (fkey * list N)            (* tag-filter result cache (unrelated to the _fc of FlushClear.v) *)
}.
Definition cempty (n : N) : cstate := mkC (empty_index n) [] 0 false [].

Inductive cop :=
| OInsert (s : series) | OFlush | OBgFlush | OTick | OClear | OReopen (b : N) | ODrop (ids : list N)
| OSearch (m : N) (e : expr).

(* the uncached answer in a state: set algebra over the flushed items, dropped ids hidden *)
Definition visible_ids (am : N -> N -> bool) (c : cstate) (m : N) (e : expr) : list N :=
  diff (search am (postings (vis (ix c))) m e) (dropped c).

Definition fc_get (f : list (fkey * list N)) (k : fkey) : option (list N) :=
  match find (fun x => fkey_eqb (fst x) k) f with Some x => Some (snd x) | None => None end.

(* one filter through the cache (seriesByBinaryExpr / searchTSIDsWithTagFilter): an entry with a non-empty id list is a hit *)
Definition atom_cached (am : N -> N -> bool) (c : cstate) (f : list (fkey * list N)) (m k : N) (cm : cmp) (v : N)
  : list N * list (fkey * list N) :=
  let key := (gen c, m, k, cm, v) in
  match fc_get f key with
  | Some (x :: r) => (x :: r, f)
  | _ => let a := visible_ids am c m (Atom k cm v) in (a, (key, a) :: f)
  end.
Fixpoint search_cached (am : N -> N -> bool) (c : cstate) (f : list (fkey * list N)) (m : N) (e : expr)
  : list N * list (fkey * list N) :=
  match e with
  | And a b => let (x, f1) := search_cached am c f m a in let (y, f2) := search_cached am c f1 m b in (inter x y, f2)
  | Or a b => let (x, f1) := search_cached am c f m a in let (y, f2) := search_cached am c f1 m b in (x ++ y, f2)
  | Paren a => search_cached am c f m a
  | Atom k cm v => atom_cached am c f m k cm v
  end.
(* the uncached evaluation of the same tree (each filter from the items, dropped ids hidden per filter) *)
Fixpoint search_plain (am : N -> N -> bool) (c : cstate) (m : N) (e : expr) : list N :=
  match e with
  | And a b => inter (search_plain am c m a) (search_plain am c m b)
  | Or a b => search_plain am c m a ++ search_plain am c m b
  | Paren a => search_plain am c m a
  | Atom k cm v => visible_ids am c m (Atom k cm v)
  end.

Definition has_pending (c : cstate) : bool := match pend (ix c) with [] => false | _ => true end.
Definition flush_ix (c : cstate) : index := fst (step_fc (ix c) Flush).

(* [imm]: does the flush callback of a background flush run with the flush (since 726371b) or at the next tick (before)? *)
Definition cstep (imm : bool) (am : N -> N -> bool) (c : cstate) (o : cop) : cstate * option (list N * list N) :=
  match o with
  | OInsert s => (mkC (fst (step_fc (ix c) (Insert s))) (dropped c) (gen c) (need c) (fc c), None)
  (* forced (final) flush: if there were raw items, they become parts and the callback runs at once *)
  | OFlush => (mkC (flush_ix c) (dropped c) (if has_pending c then gen c + 1 else gen c) (need c) (fc c), None)
  | OBgFlush => if has_pending c
                then (mkC (flush_ix c) (dropped c) (if imm then gen c + 1 else gen c) (if imm then need c else true) (fc c), None)
                else (c, None)
  | OTick => (mkC (ix c) (dropped c) (if need c then gen c + 1 else gen c) false (fc c), None)
  (* ClearCache flushes, resets every cache, flushes *)
  | OClear => (mkC (fst (step_fc (ix c) ClearCache)) (dropped c) (if has_pending c then gen c + 1 else gen c) (need c) [], None)
  (* close runs the callback; the result cache lives in memory only *)
  | OReopen b => (mkC (fst (step_fc (ix c) (Reopen b))) (dropped c) (gen c + 1) false [], None)
  | ODrop ids => (mkC (ix c) (ids ++ dropped c) (gen c + 1) (need c) (fc c), None)
  | OSearch m e => let (a, f') := search_cached am c (fc c) m e in
                   (mkC (ix c) (dropped c) (gen c) (need c) f', Some (a, search_plain am c m e))
  end.
Fixpoint crun (imm : bool) (am : N -> N -> bool) (c : cstate) (os : list cop) : list (option (list N * list N)) :=
  match os with [] => [] | o :: r => let (c', x) := cstep imm am c o in x :: crun imm am c' r end.

(* every entry of the current generation holds the uncached answer of its filter; no entry is from a future generation *)
Definition cache_ok (am : N -> N -> bool) (c : cstate) (f : list (fkey * list N)) : Prop :=
  forall g m k cm v ids, In ((g, m, k, cm, v), ids) f ->
    g <= gen c /\ (g = gen c -> ids = visible_ids am c m (Atom k cm v)).

Lemma cmp_eqb_eq a b : cmp_eqb a b = true <-> a = b.
Proof. destruct a, b; simpl; split; intros H; try discriminate; auto. Qed.
Lemma fkey_eqb_eq a b : fkey_eqb a b = true <-> a = b.
Proof.
  destruct a as [[[[g1 m1] k1] c1] v1], b as [[[[g2 m2] k2] c2] v2]. unfold fkey_eqb.
  rewrite !andb_true_iff, !N.eqb_eq, cmp_eqb_eq. split.
  - intros [[[[-> ->] ->] ->] ->]. reflexivity.
  - intros E. inversion E. auto.
Qed.
Lemma fc_get_in f k ids : fc_get f k = Some ids -> In (k, ids) f.
Proof.
  unfold fc_get. destruct (find (fun x => fkey_eqb (fst x) k) f) as [[k' i'] |] eqn:E; [| discriminate].
  intros H. inversion H; subst. apply find_some in E. destruct E as [Hin Hk]. simpl in Hk. apply fkey_eqb_eq in Hk. subst. exact Hin.
Qed.

Lemma atom_cached_ok am c f m k cm v : cache_ok am c f ->
  fst (atom_cached am c f m k cm v) = visible_ids am c m (Atom k cm v) /\ cache_ok am c (snd (atom_cached am c f m k cm v)).
Proof.
  intros Hok. unfold atom_cached. destruct (fc_get f (gen c, m, k, cm, v)) as [[| x r] |] eqn:E; simpl.
  - split; auto. intros g m' k' cm' v' ids [H | H]; [inversion H; subst; split; [lia | auto] | apply (Hok _ _ _ _ _ _ H)].
  - split; auto. apply fc_get_in in E. destruct (Hok _ _ _ _ _ _ E) as [_ H]. apply H. reflexivity.
  - split; auto. intros g m' k' cm' v' ids [H | H]; [inversion H; subst; split; [lia | auto] | apply (Hok _ _ _ _ _ _ H)].
Qed.
(* a tree through the cache: the uncached answer, and the cache stays sound *)
Definition cached_ok am c m e : Prop := forall f, cache_ok am c f ->
  fst (search_cached am c f m e) = search_plain am c m e /\ cache_ok am c (snd (search_cached am c f m e)).
Lemma cached_ok_bin am c m (op : list N -> list N -> list N) a b e :
  (forall f, search_cached am c f m e =
     let (x, f1) := search_cached am c f m a in let (y, f2) := search_cached am c f1 m b in (op x y, f2)) ->
  search_plain am c m e = op (search_plain am c m a) (search_plain am c m b) ->
  cached_ok am c m a -> cached_ok am c m b -> cached_ok am c m e.
Proof.
  intros Ec Ep IHa IHb f Hok. rewrite Ec, Ep. destruct (IHa f Hok) as [E1 H1]. destruct (search_cached am c f m a) as [x f1].
  simpl in *. destruct (IHb f1 H1) as [E2 H2]. destruct (search_cached am c f1 m b) as [y f2]. simpl in *. subst. auto.
Qed.
Lemma search_cached_ok am c m e : cached_ok am c m e.
Proof.
  induction e as [a IHa b IHb | a IHa b IHb | a IHa | k cm v].
  - apply (cached_ok_bin am c m inter a b); auto.
  - apply (cached_ok_bin am c m (@app N) a b); auto.
  - exact IHa.
  - intros f Hok. apply atom_cached_ok. exact Hok.
Qed.

Lemma cache_ok_same am c c' f : gen c' = gen c -> vis (ix c') = vis (ix c) -> dropped c' = dropped c ->
  cache_ok am c f -> cache_ok am c' f.
Proof.
  intros Hg Hv Hd Hok g m k cm v ids Hin. destruct (Hok _ _ _ _ _ _ Hin) as [H1 H2]. rewrite Hg. split; auto.
  intros E. unfold visible_ids. rewrite Hv, Hd. apply H2. exact E.
Qed.
Lemma cache_ok_bump am c c' f : gen c' = gen c + 1 -> cache_ok am c f -> cache_ok am c' f.
Proof.
  intros Hg Hok g m k cm v ids Hin. destruct (Hok _ _ _ _ _ _ Hin) as [H1 _]. rewrite Hg. split; [lia | intros E; lia].
Qed.
Lemma cache_ok_nil am c : cache_ok am c [].
Proof. intros g m k cm v ids []. Qed.

Lemma flush_no_pending c : has_pending c = false -> vis (flush_ix c) = vis (ix c).
Proof. unfold has_pending, flush_ix. destruct (pend (ix c)) eqn:E; [| discriminate]. intros _. simpl. rewrite E, app_nil_r. reflexivity. Qed.
Lemma insert_vis i s : vis (fst (step_fc i (Insert s))) = vis i.
Proof. cbn [step_fc step]. unfold insert. destruct (lookup slow_current i s); reflexivity. Qed.

Lemma cstep_ok am c o : cache_ok am c (fc c) -> cache_ok am (fst (cstep true am c o)) (fc (fst (cstep true am c o))).
Proof.
  intros Hok. destruct o as [s | | | | | b | ids | m e]; cbn [cstep].
  - simpl. apply (cache_ok_same am c); auto. simpl. apply insert_vis.
  - simpl. destruct (has_pending c) eqn:E.
    + apply (cache_ok_bump am c); auto.
    + apply (cache_ok_same am c); auto. simpl. apply flush_no_pending. exact E.
  - destruct (has_pending c) eqn:E; simpl; [apply (cache_ok_bump am c); auto | exact Hok].
  - simpl. destruct (need c); [apply (cache_ok_bump am c); auto | apply (cache_ok_same am c); auto].
  - simpl. apply cache_ok_nil.
  - simpl. apply cache_ok_nil.
  - simpl. apply (cache_ok_bump am c); auto.
  - destruct (search_cached_ok am c m e (fc c) Hok) as [_ H]. destruct (search_cached am c (fc c) m e) as [a f']. simpl in *.
    apply (cache_ok_same am c); auto.
Qed.

(* every search of every operation sequence returns the uncached answer *)
Theorem cache_transparent am os : forall c, cache_ok am c (fc c) ->
  Forall (fun x => match x with Some (a, u) => a = u | None => True end) (crun true am c os).
Proof.
  induction os as [| o r IH]; intros c Hok; cbn [crun]; [constructor |].
  pose proof (cstep_ok am c o Hok) as Hok'. destruct (cstep true am c o) as [c' x] eqn:E. simpl in Hok'. constructor; [| apply IH; exact Hok'].
  destruct o; cbn [cstep] in E; try (inversion E; subst; exact I).
  - destruct (has_pending c); inversion E; subst; exact I.
  - destruct (search_cached_ok am c m e (fc c) Hok) as [H _]. destruct (search_cached am c (fc c) m e) as [a f']. simpl in H.
    inversion E; subst. reflexivity.
Qed.
