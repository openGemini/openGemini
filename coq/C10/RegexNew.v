(* C10 - the translation of an InfluxQL regular expression into a tag filter as tag_filters.go does it since /repo commit
   f7a71a4 (initInfluxRegexp, anchoredOrValues, anchoredLiteralPrefix, regexMatchesEverything, addSeriesWithoutTag,
   unmarshalTagValueNoSeparator), and the proof that for EVERY expression and every value it selects exactly what the
   language's unanchored matching selects. *)
From Coq Require Import NArith List Bool Arith Lia.
From OG Require Import C10.Regex C10.RegexProofs C10.RegexSem.
Import ListNotations.

(* unmarshalTagValueNoSeparator *)
Fixpoint unesc (b : list N) : list N :=
  match b with
  | c :: t =>
      if (c =? 0)%N then
        match t with
        | d :: u => if (d =? 48)%N then 0%N :: unesc u else if (d =? 49)%N then 1%N :: unesc u
                    else if (d =? 50)%N then 2%N :: unesc u else c :: d :: unesc u
        | [] => [c]
        end
      else c :: unesc t
  | [] => []
  end.

(* anchoredOrValues: ^X$ with X enumerable by getOrValuesExt *)
(* Go's Simplify, which the code applies before these structure checks, only rewrites counted repetitions (and degenerate
   repetitions) below the top level; it is not modelled: for ^a{2}$ the model takes the scan where the code takes the lookups,
   and both are proved / observed equal. *)
Definition anchored_or_values (r : re) : list (list N) :=
  match r with
  | RConcat (RBeginText :: rest) =>
      match rev rest with
      | REndText :: mid => match mid with [] => [] | _ => or_values (RConcat (rev mid)) end
      | _ => []
      end
  | _ => []
  end.
(* anchoredLiteralPrefix: ^lit... *)
Fixpoint lit_through (r : re) : list N := match r with RCapture a => lit_through a | RLit _ l => l | _ => [] end.
Definition anchored_literal_prefix (r : re) : list N :=
  match r with
  | RConcat (RBeginText :: a :: _) => if is_literal a then lit_through a else []
  | _ => []
  end.
(* regexMatchesEverything *)
Definition matches_everything (r : re) : bool := unanch r [] && negb (has_assert r).

(* what the index selects for pattern r on a stored value (Some v) / a series without the tag (None) *)
Definition new_match (r : re) (v : option (list N)) : bool :=
  if matches_everything r then true
  else match v with
       | None => unanch r []                                  (* addSeriesWithoutTag: isEmptyMatch *)
       | Some v =>
           match anchored_or_values r with
           | [] => let p := anchored_literal_prefix r in
                   match strip_prefix (esc p) (esc v) with
                   | None => false
                   | Some rest => unanch r (p ++ unesc rest)
                   end
           | vs => existsb (list_eqb (esc v)) (map esc vs)     (* lookups of the marshaled values *)
           end
       end.

Lemma unanch_iff r w : unanch r w = true <-> exists i j, i <= length w /\ sem w r i j.
Proof.
  unfold unanch. rewrite existsb_exists. split.
  - intros (i & Hi & Hn). apply in_seq in Hi. destruct (ends w r i) as [| j t] eqn:E; [discriminate |].
    exists i, j. split; [lia |]. apply (ends_sem w r i j); [lia |]. rewrite E. left. reflexivity.
  - intros (i & j & Hi & Hs). exists i. split; [apply in_seq; lia |].
    apply (ends_sem w r i j Hi) in Hs. destruct (ends w r i); [destruct Hs | reflexivity].
Qed.
Lemma unanch_false_iff r w : unanch r w = false <-> ~ exists i j, i <= length w /\ sem w r i j.
Proof. rewrite <- unanch_iff. destruct (unanch r w); split; intros H; try discriminate; auto. exfalso. apply H. reflexivity. Qed.

Lemma unesc_0 u : unesc (0 :: 48 :: u)%N = 0%N :: unesc u. Proof. reflexivity. Qed.
Lemma unesc_1 u : unesc (0 :: 49 :: u)%N = 1%N :: unesc u. Proof. reflexivity. Qed.
Lemma unesc_2 u : unesc (0 :: 50 :: u)%N = 2%N :: unesc u. Proof. reflexivity. Qed.
Lemma unesc_other c u : (c =? 0)%N = false -> unesc (c :: u) = c :: unesc u.
Proof. intros H. cbn [unesc]. rewrite H. reflexivity. Qed.
(* unescaping undoes the escaping, also in front of other bytes: an escaped value ends at an escape boundary *)
Lemma unesc_esc_app v rest : unesc (esc v ++ rest) = v ++ unesc rest.
Proof.
  induction v as [| c t IH]; [reflexivity |]. change (esc (c :: t)) with (esc1 c ++ esc t). rewrite <- app_assoc. unfold esc1.
  destruct (c =? 0)%N eqn:E0; [apply N.eqb_eq in E0; subst; cbn [app]; rewrite unesc_0, IH; reflexivity |].
  destruct (c =? 1)%N eqn:E1; [apply N.eqb_eq in E1; subst; cbn [app]; rewrite unesc_1, IH; reflexivity |].
  destruct (c =? 2)%N eqn:E2; [apply N.eqb_eq in E2; subst; cbn [app]; rewrite unesc_2, IH; reflexivity |].
  cbn [app]. rewrite (unesc_other c _ E0), IH. reflexivity.
Qed.
Lemma unesc_esc v : unesc (esc v) = v.
Proof. rewrite <- (app_nil_r (esc v)), unesc_esc_app. apply app_nil_r. Qed.
Lemma esc_inj a b : esc a = esc b -> a = b.
Proof. intros H. rewrite <- (unesc_esc a), <- (unesc_esc b), H. reflexivity. Qed.
Lemma existsb_esc v vs : existsb (list_eqb (esc v)) (map esc vs) = existsb (list_eqb v) vs.
Proof.
  induction vs as [| x t IH]; simpl; auto. rewrite IH. f_equal. apply eq_true_iff_eq.
  rewrite !list_eqb_eq. split; [apply esc_inj | intros ->; reflexivity].
Qed.

Lemma strip_prefix_self p z : strip_prefix p (p ++ z) = Some z.
Proof. induction p; simpl; auto. rewrite N.eqb_refl. exact IHp. Qed.
Lemma strip_prefix_split p v v' : strip_prefix p v = Some v' -> v = p ++ v'.
Proof.
  revert v. induction p as [| a p IH]; intros v H; simpl in *; [inversion H; reflexivity |].
  destruct v as [| b v]; [discriminate |]. destruct (a =? b)%N eqn:E; [| discriminate].
  apply N.eqb_eq in E. subst. rewrite (IH v H). reflexivity.
Qed.

Lemma sem_empty_zero r j : sem [] r 0 j -> j = 0.
Proof. intros H. pose proof (sem_bounded [] r 0 j (Nat.le_refl 0) H) as [_ H2]. simpl in H2. lia. Qed.

Lemma sem_empty_transfers r : has_assert r = false -> sem [] r 0 0 -> forall w i, sem w r i i.
Proof.
  induction r using re_ind'; cbn [has_assert sem]; intros Ha Hs w i; try discriminate.
  - reflexivity.
  - destruct Hs as [Hp Hl]. destruct l; [| simpl in Hl; discriminate]. split; [reflexivity | simpl; lia].
  - destruct Hs as (c & Hc & _). discriminate.
  - destruct Hs as (c & Hc & _). discriminate.
  - destruct Hs as (c & Hc & _). discriminate.
  - apply IHr; auto.
  - constructor.
  - destruct Hs as (k & H1 & H2). pose proof (sem_empty_zero r k H1). subst k.
    exists i. split; [apply IHr; auto | constructor].
  - left. reflexivity.
  - destruct Hs as (n & Hn1 & Hn2 & Hp). exists n. repeat split; auto.
    destruct n as [| n]; [reflexivity |]. simpl in Hp. destruct Hp as (m & Hm & _).
    pose proof (sem_empty_zero r m Hm). subst m. apply pow_refl_n. apply IHr; auto.
  - revert Ha Hs. induction H as [| a t Hp Ht IH]; intros Ha Hs; [reflexivity |].
    cbn [existsb] in Ha. apply orb_false_iff in Ha. destruct Ha as [Ha1 Ha2].
    destruct Hs as (k & H1 & H2). pose proof (sem_empty_zero a k H1). subst k.
    exists i. split; [apply Hp; auto | apply IH; auto].
  - revert Ha Hs. induction H as [| a t Hp Ht IH]; intros Ha Hs; [contradiction |].
    cbn [existsb] in Ha. apply orb_false_iff in Ha. destruct Ha as [Ha1 Ha2].
    destruct Hs as [Hs | Hs]; [left; apply Hp; auto | right; apply IH; auto].
Qed.

Lemma matches_everything_sound r w : matches_everything r = true -> unanch r w = true.
Proof.
  unfold matches_everything. intros H. apply andb_true_iff in H. destruct H as [H1 H2]. apply negb_true_iff in H2.
  apply unanch_iff in H1. destruct H1 as (i & j & Hi & Hs). simpl in Hi. assert (i = 0) by lia. subst i.
  pose proof (sem_empty_zero r j Hs). subst j.
  apply unanch_iff. exists 0, 0. split; [lia | apply sem_empty_transfers; auto].
Qed.

Definition litmatch (w v : list N) (i j : nat) : Prop := lit_pre false v (skipn i w) = true /\ j = i + length v.

Lemma lit_pre_app f p s x : lit_pre f (p ++ s) x = lit_pre f p x && lit_pre f s (skipn (length p) x).
Proof.
  revert x. induction p as [| a p IH]; intros x; simpl; [reflexivity |].
  destruct x as [| b x]; [reflexivity |]. rewrite IH, andb_assoc. reflexivity.
Qed.
Lemma skipn_add {A} (l : list A) a b : skipn (a + b) l = skipn b (skipn a l).
Proof. revert l. induction a as [| a IH]; intros l; simpl; [reflexivity |]. destruct l; [destruct b; reflexivity | apply IH]. Qed.
Lemma litmatch_app w p s i j : litmatch w (p ++ s) i j <-> exists k, litmatch w p i k /\ litmatch w s k j.
Proof.
  unfold litmatch. rewrite lit_pre_app, app_length, andb_true_iff. split.
  - intros [[H1 H2] ->]. exists (i + length p). rewrite skipn_add. repeat split; auto. lia.
  - intros (k & [H1 ->] & [H2 ->]). rewrite skipn_add in H2. repeat split; auto. lia.
Qed.
Lemma litmatch_single w c i j : litmatch w [c] i j <-> nth_error w i = Some c /\ j = S i.
Proof.
  unfold litmatch. simpl. assert (E : lit_pre false [c] (skipn i w) = true <-> nth_error w i = Some c).
  { revert w. induction i as [| i IH]; intros w; destruct w as [| b w]; simpl; try (split; intros; discriminate).
    - unfold ceq. rewrite andb_true_r, N.eqb_eq. split; [intros ->; reflexivity | intros H; inversion H; reflexivity].
    - apply IH. }
  rewrite E. split; intros [H ->]; split; auto; lia.
Qed.

Lemma in_class_values rs c : class_values rs <> [] -> (In [c] (class_values rs) <-> in_ranges c rs = true).
Proof.
  unfold class_values. destruct (N.of_nat max_or_values <? _)%N; [intros H; contradiction H; reflexivity |]. intros _.
  unfold in_ranges. rewrite in_flat_map, existsb_exists. split.
  - intros ([lo hi] & Hr & Hin). exists (lo, hi). split; auto. simpl in *. apply in_map_iff in Hin.
    destruct Hin as (k & E & Hk). apply in_seq in Hk. inversion E; subst. apply andb_true_iff. split; apply N.leb_le; lia.
  - intros ([lo hi] & Hr & Hb). simpl in Hb. apply andb_true_iff in Hb. destruct Hb as [H1 H2]. apply N.leb_le in H1, H2.
    exists (lo, hi). split; auto. simpl. apply in_map_iff. exists (N.to_nat (c - lo)). split; [f_equal; lia | apply in_seq; lia].
Qed.
Lemma class_values_single rs v : In v (class_values rs) -> exists c, v = [c].
Proof.
  unfold class_values. destruct (N.of_nat max_or_values <? _)%N; [intros [] |]. rewrite in_flat_map.
  intros (r & _ & Hin). apply in_map_iff in Hin. destruct Hin as (k & <- & _). eauto.
Qed.

Local Arguments Nat.ltb : simpl never.
Local Arguments Nat.mul : simpl never.
(* the two loops of getOrValuesExt as functions of their own (they are the inner fixpoints of [or_values]) *)
Definition alt_loop (ov : re -> list (list N)) : list re -> list (list N) -> list (list N) :=
  fix go (l : list re) (acc : list (list N)) : list (list N) :=
    match l with
    | [] => acc
    | a :: t => match ov a with
                | [] => []
                | ca => let acc' := acc ++ ca in if max_or_values <? length acc' then [] else go t acc'
                end
    end.
Definition concat_loop (ov : re -> list (list N)) : list re -> list (list N) :=
  fix go (l : list re) : list (list N) :=
    match l with
    | [] => [[]]
    | a :: t => match ov a with
                | [] => []
                | ps => match go t with
                        | [] => []
                        | ss => if max_or_values <? length ps * length ss then []
                                else flat_map (fun p => map (fun s => p ++ s) ss) ps
                        end
                end
    end.
Lemma or_values_alt_eq rs : or_values (RAlt rs) = alt_loop or_values rs [].
Proof. reflexivity. Qed.
Lemma or_values_concat_eq rs : or_values (RConcat rs) = concat_loop or_values rs.
Proof. reflexivity. Qed.

Lemma alt_loop_spec ov rs : forall acc, alt_loop ov rs acc <> [] ->
  alt_loop ov rs acc = acc ++ flat_map ov rs /\ Forall (fun a => ov a <> []) rs.
Proof.
  induction rs as [| a t IH]; intros acc H.
  - simpl. rewrite app_nil_r. split; [reflexivity | constructor].
  - simpl in H |- *. destruct (ov a) as [| x ca] eqn:E; [contradiction H; reflexivity |].
    match type of H with context [if ?c then _ else _] => destruct c end; [contradiction H; reflexivity |].
    destruct (IH (acc ++ x :: ca) H) as [H1 H2]. split.
    + rewrite H1, <- app_assoc. reflexivity.
    + constructor; [rewrite E; discriminate | exact H2].
Qed.
Lemma concat_loop_cons ov a t : concat_loop ov (a :: t) <> [] ->
  ov a <> [] /\ concat_loop ov t <> [] /\
  concat_loop ov (a :: t) = flat_map (fun p => map (fun s => p ++ s) (concat_loop ov t)) (ov a).
Proof.
  simpl. intros H. destruct (ov a) as [| p ps] eqn:E; [contradiction H; reflexivity |].
  destruct (concat_loop ov t) as [| s ss] eqn:Eg; [contradiction H; reflexivity |].
  match type of H with context [if ?c then _ else _] => destruct c end; [contradiction H; reflexivity |].
  repeat split; discriminate.
Qed.

Definition lang (w : list N) (V : list (list N)) (i j : nat) : Prop := exists v, In v V /\ litmatch w v i j.
Lemma lang_single w v i j : lang w [v] i j <-> litmatch w v i j.
Proof. split; [intros (v' & [<- | []] & H); exact H | intros H; exists v; split; [left; reflexivity | exact H]]. Qed.
Lemma litmatch_nil w i j : litmatch w [] i j <-> j = i.
Proof. unfold litmatch. simpl. split; [intros [_ ->]; lia | intros ->; split; [reflexivity | lia]]. Qed.
Lemma lang_app w A B i j : lang w (A ++ B) i j <-> lang w A i j \/ lang w B i j.
Proof.
  split.
  - intros (v & Hv & H). apply in_app_or in Hv. destruct Hv; [left | right]; exists v; auto.
  - intros [(v & Hv & H) | (v & Hv & H)]; exists v; split; auto; apply in_or_app; auto.
Qed.
Lemma lang_prod w A B i j :
  lang w (flat_map (fun p => map (fun s => p ++ s) B) A) i j <-> exists k, lang w A i k /\ lang w B k j.
Proof.
  split.
  - intros (v & Hv & Hm). apply in_flat_map in Hv. destruct Hv as (p & Hp & Hv). apply in_map_iff in Hv.
    destruct Hv as (s & <- & Hs). apply litmatch_app in Hm. destruct Hm as (k & Hm1 & Hm2). exists k. split; [exists p | exists s]; auto.
  - intros (k & (p & Hp & Hm1) & (s & Hs & Hm2)). exists (p ++ s). split.
    + apply in_flat_map. exists p. split; auto. apply in_map. exact Hs.
    + apply litmatch_app. exists k. auto.
Qed.

Lemma or_values_sem r : or_values r <> [] -> forall w i j, sem w r i j <-> lang w (or_values r) i j.
Proof.
  induction r using re_ind'; intros Hne w i j; try (contradiction Hne; reflexivity).
  - cbn [sem or_values]. rewrite lang_single, litmatch_nil. reflexivity.
  - destruct f; [contradiction Hne; reflexivity |]. cbn [or_values]. rewrite lang_single. reflexivity.
  - cbn [sem or_values] in *. split.
    + intros (c & Hc & Hr & ->). exists [c]. split; [apply in_class_values; auto | apply litmatch_single; auto].
    + intros (v & Hv & Hm). destruct (class_values_single rs v Hv) as (c & ->). apply litmatch_single in Hm.
      destruct Hm as [Hc ->]. exists c. repeat split; auto. apply in_class_values; auto.
  - cbn [sem or_values] in *. apply IHr. exact Hne.
  - rewrite or_values_concat_eq in Hne |- *. rewrite sem_concat_eq.
    revert Hne i j. induction H as [| a t Ha Ht IH]; intros Hne i j.
    + cbn [semcat concat_loop]. rewrite lang_single, litmatch_nil. reflexivity.
    + destruct (concat_loop_cons or_values a t Hne) as (Hna & Hnt & Eq). rewrite Eq, lang_prod. cbn [semcat].
      split; intros (k & H1 & H2); exists k; (split; [apply (Ha Hna); exact H1 | apply (IH Hnt); exact H2]).
  - rewrite or_values_alt_eq in Hne |- *.
    cbn [sem]. destruct (alt_loop_spec or_values rs [] Hne) as [Eq Hall].
    rewrite Eq. cbn [app]. clear Eq Hne. revert i j. induction H as [| a t Ha Ht IH]; intros i j.
    + simpl. split; [intros [] | intros (v & [] & _)].
    + inversion Hall as [| ? ? Hna Hnt]; subst. cbn [flat_map]. rewrite lang_app, (Ha Hna), (IH Hnt). reflexivity.
Qed.

Lemma semcat_app w l1 l2 i j : semcat w (l1 ++ l2) i j <-> exists k, semcat w l1 i k /\ semcat w l2 k j.
Proof.
  revert i. induction l1 as [| a t IH]; intros i; simpl.
  - split; [intros H; exists i; auto | intros (k & -> & H); exact H].
  - split.
    + intros (k & H1 & H2). apply IH in H2. destruct H2 as (m & H2 & H3). exists m. split; eauto.
    + intros (m & (k & H1 & H2) & H3). exists k. split; auto. apply IH. eauto.
Qed.

Lemma anchored_or_values_sound r w : anchored_or_values r <> [] ->
  unanch r w = existsb (list_eqb w) (anchored_or_values r).
Proof.
  unfold anchored_or_values. destruct r as [| | | | | | | | | | | | | | | | rs |]; try (intros H; contradiction H; reflexivity).
  destruct rs as [| b rest]; [intros H; contradiction H; reflexivity |].
  destruct b; try (intros H; contradiction H; reflexivity).
  destruct (rev rest) as [| e mid] eqn:Er; [intros H; contradiction H; reflexivity |].
  destruct e; try (intros H; contradiction H; reflexivity).
  destruct mid as [| m0 mid']; [intros H; contradiction H; reflexivity |]. intros Hne.
  assert (Erest : rest = rev (m0 :: mid') ++ [REndText]).
  { rewrite <- (rev_involutive rest), Er. reflexivity. }
  set (X := RConcat (rev (m0 :: mid'))) in *.
  apply eq_true_iff_eq. rewrite unanch_iff, existsb_exists. split.
  - intros (i & j & Hi & Hs). rewrite sem_concat_eq in Hs. simpl in Hs. destruct Hs as (k & [Hi0 Hk] & Hs). subst i k.
    rewrite Erest in Hs. apply semcat_app in Hs. destruct Hs as (k & H1 & H2). simpl in H2.
    destruct H2 as (k' & [Hk Hk'] & ->). subst k k'.
    change (semcat w (rev (m0 :: mid')) 0 (length w)) with (sem w X 0 (length w)) in H1.
    apply (or_values_sem X Hne) in H1. destruct H1 as (v & Hv & Hp & Hl). exists v. split; auto.
    rewrite <- lit_pre_eqb. simpl in Hp. rewrite Hp. simpl in Hl. rewrite <- Hl, Nat.eqb_refl. reflexivity.
  - intros (v & Hv & He). rewrite <- lit_pre_eqb in He. apply andb_true_iff in He. destruct He as [Hp Hl]. apply Nat.eqb_eq in Hl.
    exists 0, (length w). split; [lia |]. rewrite sem_concat_eq. simpl. exists 0. split; [auto |].
    rewrite Erest. apply semcat_app. exists (length w). split.
    + change (semcat w (rev (m0 :: mid')) 0 (length w)) with (sem w X 0 (length w)).
      apply (or_values_sem X Hne). exists v. split; auto. split; [exact Hp | simpl; lia].
    + simpl. exists (length w). auto.
Qed.

Lemma is_literal_sem w a i k : is_literal a = true -> sem w a i k -> lit_pre false (lit_through a) (skipn i w) = true.
Proof.
  induction a using re_ind'; cbn [is_literal lit_through sem]; intros Hl Hs; try discriminate.
  - destruct f; [discriminate |]. apply Hs.
  - apply IHa; auto.
Qed.

Lemma anchored_prefix_needed r w : unanch r w = true -> has_prefix (anchored_literal_prefix r) w = true.
Proof.
  unfold anchored_literal_prefix, has_prefix.
  destruct r as [| | | | | | | | | | | | | | | | rs |]; try (intros _; reflexivity).
  destruct rs as [| b rest0]; try (intros _; reflexivity). destruct b; try (intros _; reflexivity).
  destruct rest0 as [| a rest]; try (intros _; reflexivity).
  destruct (is_literal a) eqn:El; [| intros _; reflexivity]. intros H. apply unanch_iff in H.
  destruct H as (i & j & Hi & Hs). rewrite sem_concat_eq in Hs. simpl in Hs.
  destruct Hs as (k & [Hi0 Hk] & k2 & Ha & _). subst i k.
  apply (is_literal_sem w a 0 k2 El Ha).
Qed.

(* What the index selects since f7a71a4 is, for every expression, every stored value and the absent tag, exactly what
   unanchored matching on the value selects (an absent tag being the empty string). *)
Theorem new_match_exact r v : new_match r v = repaired_match r v.
Proof.
  unfold new_match, repaired_match.
  destruct (matches_everything r) eqn:Em; [symmetry; apply matches_everything_sound; exact Em |].
  destruct v as [v |]; [| reflexivity].
  destruct (anchored_or_values r) as [| x vs] eqn:Ev.
  - set (p := anchored_literal_prefix r). destruct (strip_prefix (esc p) (esc v)) as [rest |] eqn:Es.
    + apply strip_prefix_split in Es. rewrite <- (unesc_esc v), Es, unesc_esc_app. reflexivity.
    + (* a value that matches starts with the literal, and then so do the escaped forms *)
      destruct (unanch r v) eqn:Eu; [| reflexivity]. apply anchored_prefix_needed in Eu. unfold has_prefix in Eu.
      rewrite <- strip_prefix_pre in Eu. fold p in Eu. destruct (strip_prefix p v) as [v' |] eqn:E2; [| discriminate].
      apply strip_prefix_split in E2. subst v. unfold esc in Es. rewrite flat_map_app, strip_prefix_self in Es. discriminate.
  - rewrite existsb_esc. symmetry. rewrite <- Ev. apply anchored_or_values_sound. rewrite Ev. discriminate.
Qed.
