(* C10 - the index model with concrete regex atoms: a search whose matcher agrees with the specification on the patterns of
   the predicate is brute force with the specification ([search_exact_upto]; Props.v instantiates it with the translation
   before and since /repo f7a71a4). Then a generic result cache keyed by a function of the query, and the keys under which
   the select path's tag-filter cache files a regex filter. *)
From Coq Require Import NArith List Bool.
From OG Require Import C10.Model C10.Proofs C10.Regex C10.RegexProofs C10.RegexSem C10.RegexNew C10.RegexAlt.
Import ListNotations.
Open Scope N_scope.

Fixpoint re_pats (e : expr) : list N :=
  match e with
  | And a b | Or a b => re_pats a ++ re_pats b
  | Paren a => re_pats a
  | Atom _ Re p | Atom _ Nre p => [p]
  | Atom _ _ _ => []
  end.

Lemma ids_where_ext f g T : (forall t, f t = g t) -> ids_where f T = ids_where g T.
Proof. intros H. unfold ids_where. f_equal. apply filter_ext. exact H. Qed.

Lemma re_ids_ext am1 am2 T m k p : (forall v, am1 p v = am2 p v) -> re_ids am1 T m k p = re_ids am2 T m k p.
Proof.
  intros H. unfold re_ids, scan. rewrite H. f_equal. apply ids_where_ext. intros t. rewrite H. reflexivity.
Qed.

Lemma search_am_ext am1 am2 T m e :
  (forall p v, In p (re_pats e) -> am1 p v = am2 p v) -> search am1 T m e = search am2 T m e.
Proof.
  induction e as [a IHa b IHb | a IHa b IHb | a IHa | k c v]; intros H; cbn [search].
  - rewrite IHa, IHb; auto; intros p v Hp; apply H; cbn [re_pats]; apply in_or_app; auto.
  - rewrite IHa, IHb; auto; intros p v Hp; apply H; cbn [re_pats]; apply in_or_app; auto.
  - apply IHa. exact H.
  - destruct c; auto.
    + apply re_ids_ext. intros x. apply H. left. reflexivity.
    + f_equal. apply re_ids_ext. intros x. apply H. left. reflexivity.
Qed.

Definition all_plain (strs : list (N * list N)) : Prop := Forall (fun x => plain (snd x)) strs.

Lemma str_of_plain strs v : all_plain strs -> match str_of strs v with Some x => plain x | None => True end.
Proof.
  intros H. unfold str_of. destruct (v =? 0); auto.
  destruct (find _ strs) as [x |] eqn:E; [| constructor].
  apply find_some in E. destruct E as [Hin _]. unfold all_plain in H. rewrite Forall_forall in H. apply (H x Hin).
Qed.

Theorem search_exact_upto am1 am2 L m e : wfL L -> expr_ok e ->
  (forall p v, In p (re_pats e) -> am1 p v = am2 p v) ->
  forall id, In id (search am1 (postings L) m e) <-> In id (bruteforce am2 L m e).
Proof. intros Hwf Hok Hext id. rewrite (search_am_ext am1 am2); [apply search_is_bruteforce; assumption | exact Hext]. Qed.

(* the translation since /repo f7a71a4 (RegexNew.new_match) as the atom matcher of the index model *)
Definition am_new (pats : list (N * re)) (strs : list (N * list N)) (p v : N) : bool :=
  new_match (pat_of pats p) (str_of strs v).

(* The select path keeps the id set of a tag filter in a cache. A query is answered from the cache when an entry with the
   query's key exists, otherwise it is computed and stored. Such a cache is transparent for every sequence of queries as
   soon as equal keys imply equal answers. *)
Section result_cache.
  Variables (Q K A : Type) (key : Q -> K) (keqb : K -> K -> bool) (f : Q -> A).
  Hypothesis keqb_eq : forall a b, keqb a b = true <-> a = b.

  Definition cache_get (c : list (K * A)) (k : K) : option A :=
    match find (fun e => keqb (fst e) k) c with Some e => Some (snd e) | None => None end.
  Definition cached_query (c : list (K * A)) (q : Q) : list (K * A) * A :=
    match cache_get c (key q) with Some a => (c, a) | None => ((key q, f q) :: c, f q) end.
  Fixpoint cached_run (c : list (K * A)) (qs : list Q) : list A :=
    match qs with [] => [] | q :: r => let (c', a) := cached_query c q in a :: cached_run c' r end.

  Definition cache_inv (c : list (K * A)) : Prop := forall e q, In e c -> key q = fst e -> snd e = f q.

  Hypothesis key_sound : forall q1 q2, key q1 = key q2 -> f q1 = f q2.

  Lemma cached_query_ok c q : cache_inv c -> cache_inv (fst (cached_query c q)) /\ snd (cached_query c q) = f q.
  Proof.
    intros Hc. unfold cached_query, cache_get. destruct (find _ c) as [e |] eqn:E; simpl.
    - split; auto. apply find_some in E. destruct E as [Hin Hk]. apply keqb_eq in Hk. apply Hc; auto.
    - split; auto. intros e q' [<- | Hin] Hk; simpl in *; [apply key_sound; auto | apply Hc; auto].
  Qed.
  Lemma cached_run_transparent qs : forall c, cache_inv c -> cached_run c qs = map f qs.
  Proof.
    induction qs as [| q r IH]; intros c Hc; simpl; auto.
    destruct (cached_query_ok c q Hc) as [H1 H2]. destruct (cached_query c q) as [c' a]. simpl in *. rewrite H2, IH; auto.
  Qed.
  Theorem result_cache_transparent qs : cached_run [] qs = map f qs.
  Proof. apply cached_run_transparent. intros e q []. Qed.
End result_cache.

(* A regex filter query = (source text of the pattern, negated). [parse] is the parser (a function of the text). *)
Section tagfilter_cache.
  Variable parse : list N -> re.
  Definition tfq := (list N * bool)%type.
  (* _current (before /repo f7a71a4): the literal the translation reduces the pattern to, if any, else the source text
     (tagFilter.Marshal after InfluxRegrep has overwritten tf.value); _repaired: the source text *)
  Definition tf_key_current (q : tfq) : list N * bool :=
    (match cache_literal (parse (fst q)) with Some l => l | None => fst q end, snd q).
  Definition tf_key_repaired (q : tfq) : list N * bool := q.
  Definition tf_keqb (a b : list N * bool) : bool := list_eqb (fst a) (fst b) && Bool.eqb (snd a) (snd b).
  (* the expression the pruning path compiles for a filter: its value text after Init. Before f7a71a4 that was the literal the
     pattern was reduced to, re-read as an expression (_current); _repaired: the pattern itself *)
  Definition tf_prune_tree_current (q : tfq) : re :=
    match cache_literal (parse (fst q)) with Some l => parse l | None => parse (fst q) end.
  Definition tf_prune_tree_repaired (q : tfq) : re := parse (fst q).
  (* the answer of a filter on a stored value, with whichever translation [mt] the index uses *)
  Definition tf_answer (mt : re -> option (list N) -> bool) (q : tfq) (v : option (list N)) : bool :=
    xorb (snd q) (mt (parse (fst q)) v).
End tagfilter_cache.

Lemma tf_keqb_eq a b : tf_keqb a b = true <-> a = b.
Proof.
  unfold tf_keqb. destruct a as [a1 a2], b as [b1 b2]. simpl. rewrite andb_true_iff, list_eqb_eq, Bool.eqb_true_iff.
  split; [intros [-> ->]; reflexivity | intros E; inversion E; auto].
Qed.
