(* C10 - the tag -> ids items as ROWS: the ids of one (measurement, tag key, tag value) are stored in rows of at most 64 ids
   (mergeTagToTSIDsRows). SHOW TAG VALUES ... WHERE (searchTagValuesBySingleKey) scans the rows of a value, records the value
   at the first row that holds an eligible id and may then seek past the value; a row WITHOUT an eligible id - full or not -
   never ends the scan of its value. Here: the row scan of a value succeeds iff one of its ids is eligible; Props.v
   (C10_rows_listing_exact) concludes that the listing is exact however the items are split into rows. *)
From Coq Require Import NArith List Bool.
From OG Require Import C10.Model C10.Proofs.
Import ListNotations.
Open Scope N_scope.

Definition row_cap : nat := 64.
Definition rentry := (N * N * N * list (list N))%type.          (* measurement, tag key, tag value, rows of ids *)
Definition full (r : list N) : bool := Nat.leb row_cap (length r).

Fixpoint scan_rows (elig : N -> bool) (rows : list (list N)) : bool :=
  match rows with
  | [] => false
  | r :: t => if existsb elig r then true        (* recorded; after a full row the scan seeks past the value, else it goes on *)
              else scan_rows elig t              (* a rejected row - full or not - is followed by the next row of the value *)
  end.
(* a variant that is NOT /repo's code (the trial change /verif/seeded/C10-m6): a full row ends the scan of the value also
   when it was rejected; refuted in Refuted.v *)
Fixpoint scan_rows_skip_rejected_full (elig : N -> bool) (rows : list (list N)) : bool :=
  match rows with
  | [] => false
  | r :: t => if existsb elig r then true else if full r then false else scan_rows_skip_rejected_full elig t
  end.

Lemma scan_rows_concat elig rows : scan_rows elig rows = existsb elig (concat rows).
Proof. induction rows as [| r t IH]; simpl; auto. rewrite existsb_app, IH. destruct (existsb elig r); reflexivity. Qed.

Definition flatten (rt : list rentry) : list titem :=
  flat_map (fun x => let '(m, k, v, rows) := x in map (fun id => (m, k, v, id)) (concat rows)) rt.
Definition rows_values (elig : N -> bool) (rt : list rentry) (m k : N) : list N :=
  map (fun x => snd (fst x)) (filter (fun x => let '(m', k', v, rows) := x in (m' =? m) && (k' =? k) && scan_rows elig rows) rt).

Lemma rows_values_spec elig rt m k v :
  In v (rows_values elig rt m k) <-> exists id, In (m, k, v, id) (flatten rt) /\ elig id = true.
Proof.
  unfold rows_values, flatten. rewrite in_map_iff. split.
  - intros ([[[m' k'] v'] rows] & Ev & Hf). simpl in Ev. subst v'. apply filter_In in Hf. destruct Hf as [Hin Hb].
    apply andb_true_iff in Hb. destruct Hb as [Hb Hs]. apply andb_true_iff in Hb. destruct Hb as [Hm Hk].
    apply N.eqb_eq in Hm. apply N.eqb_eq in Hk. subst. rewrite scan_rows_concat in Hs. apply existsb_exists in Hs.
    destruct Hs as (id & Hid & He). exists id. split; auto. apply in_flat_map. exists (m, k, v, rows). split; auto.
    apply in_map. exact Hid.
  - intros (id & Hin & He). apply in_flat_map in Hin. destruct Hin as ([[[m' k'] v'] rows] & Hrt & Hx).
    apply in_map_iff in Hx. destruct Hx as (id' & E & Hid). inversion E; subst.
    exists (m, k, v, rows). split; [reflexivity |]. apply filter_In. split; auto.
    rewrite !N.eqb_refl. simpl. rewrite scan_rows_concat. apply existsb_exists. exists id. auto.
Qed.
