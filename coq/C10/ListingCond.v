(* C10 - listings with a condition (SHOW SERIES ... WHERE, SHOW TAG VALUES ... WHERE) and series cardinality: the series
   keys / tag values / count of exactly the series whose tags satisfy the predicate. *)
From Coq Require Import NArith List Bool PeanoNat.
From OG Require Import C10.Model C10.Proofs.
Import ListNotations.
Open Scope N_scope.

Definition list_series_cond (am : N -> N -> bool) (L : list entry) (m : N) (e : expr) : list series :=
  flat_map (key_of L) (dedup (search am (postings L) m e)).
Definition list_tag_values_cond (am : N -> N -> bool) (L : list entry) (m k : N) (e : expr) : list N :=
  map t_v (filter (fun t => (t_m t =? m) && (t_k t =? k) && mem (t_id t) (search am (postings L) m e)) (postings L)).
Definition cardinality (am : N -> N -> bool) (L : list entry) (m : N) (e : expr) : nat :=
  length (dedup (search am (postings L) m e)).
Definition tag_value_cardinality (L : list entry) (m k : N) : nat := length (dedup (list_tag_values L m k)).

Lemma nodup_dedup l : NoDup (dedup l).
Proof.
  induction l as [| x r IH]; simpl; [constructor |]. destruct (mem x r) eqn:E; auto.
  constructor; auto. intros H. apply (proj1 (in_dedup _ _)) in H. apply mem_spec in H. congruence.
Qed.
Lemma length_dedup ids l : NoDup l -> (forall id, In id ids <-> In id l) -> length (dedup ids) = length l.
Proof.
  intros Hl E. apply Nat.le_antisymm; apply NoDup_incl_length; auto using nodup_dedup; intros id; rewrite in_dedup; apply E.
Qed.
