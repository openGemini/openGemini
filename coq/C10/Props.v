(* C10 property theorems with Print Assumptions, and examples. *)
From Coq Require Import NArith List Bool.
From OG Require Import C10.Model C10.Proofs C10.Regex C10.RegexProofs C10.RegexSem C10.RegexNew C10.RegexAlt C10.RegexSearch C10.FlushClear C10.ListingCond C10.Prune C10.Cache C10.Rows.
Import ListNotations.
Open Scope N_scope.

(* Predicate search by set algebra over the tag->ids postings selects exactly the ids of the series whose tags satisfy the
   predicate (absent tag = empty string), for every set of well-formed series keys with distinct ids, every predicate tree
   over AND / OR / parentheses / = / != / =~ / !~ and EVERY meaning [am] of the regex atoms. *)
Theorem C10_search_is_bruteforce : forall am L m e, wfL L -> expr_ok e ->
  forall id, In id (search am (postings L) m e) <-> In id (bruteforce am L m e).
Proof. exact search_is_bruteforce. Qed.
Print Assumptions C10_search_is_bruteforce.

(* ... in particular with the language's (unanchored) matcher, in every index state reachable by inserts, flushes, cache
   clears and reopens *)
Theorem C10_reachable_search_is_bruteforce : forall unanch n os m e,
  Forall op_ok os -> expr_ok e ->
  let i := fst (run slow_repaired (empty_index n) os) in
  forall id, In id (search (atom_match_repaired unanch) (postings (vis i)) m e) <-> In id (bruteforce unanch (vis i) m e).
Proof. intros unanch n os m e Hos Hok i. apply (search_is_bruteforce (atom_match_repaired unanch)); [apply reachable_wfL |]; assumption. Qed.
Print Assumptions C10_reachable_search_is_bruteforce.

(* two different series never share an id, whatever sequence of operations (incl. cache clear and reopen) was run *)
Theorem C10_id_injective : forall n os s1 s2 id,
  let i := fst (run slow_repaired (empty_index n) os) in
  In (s1, id) (store i) -> In (s2, id) (store i) -> s1 = s2.
Proof. intros n os s1 s2 id i. apply id_injective_store, reachable_wf. Qed.
Print Assumptions C10_id_injective.

(* the same series always gets the same id: insert it after any history os1, run any os2 (flushes, cache clears, reopens,
   other inserts), insert it again - same id *)
Theorem C10_id_stable : forall n os1 s os2,
  let i1 := fst (run slow_repaired (empty_index n) os1) in
  let r := insert slow_repaired i1 s in
  let i3 := fst (run slow_repaired (fst r) os2) in
  snd (insert slow_repaired i3 s) = snd r.
Proof. intros n os1 s os2. apply id_stable, reachable_wf. Qed.
Print Assumptions C10_id_stable.

(* one id per series key in every reachable state *)
Theorem C10_id_functional : forall n os s id1 id2,
  let i := fst (run slow_repaired (empty_index n) os) in
  In (s, id1) (store i) -> In (s, id2) (store i) -> id1 = id2.
Proof. intros n os s id1 id2 i. apply id_functional_store, reachable_wf. Qed.
Print Assumptions C10_id_functional.

(* the cache is a partial copy of the store: a cache hit returns what the item store returns *)
Theorem C10_cache_agrees : forall n os s id,
  let i := fst (run slow_repaired (empty_index n) os) in
  assoc (cache i) s = Some id -> slow_repaired i s = Some id.
Proof. intros n os s id i. apply cache_agrees, reachable_wf. Qed.
Print Assumptions C10_cache_agrees.

(* listings are exactly the projections of what was written *)
Theorem C10_list_series_exact : forall L m s, wfL L -> In s (list_series L m) <-> exists id, In (s, id) L /\ s_mst s = m.
Proof.
  intros L m s [Hnd _]. unfold list_series. rewrite (in_keys_of L m (fun _ => True) _ s Hnd (sel_all L m)).
  split; intros (id & H); exists id; tauto.
Qed.
Theorem C10_list_tag_values_exact : forall L m k v, k <> 0 ->
  In v (list_tag_values L m k) <-> exists s id, In (s, id) L /\ s_mst s = m /\ In (k, v) (s_tags s).
Proof.
  intros L m k v Hk. unfold list_tag_values. rewrite in_map_iff. split.
  - intros ([[[m' k'] v'] id] & <- & Ht). apply filter_In in Ht. unfold t_m, t_k in Ht. simpl in Ht.
    rewrite andb_true_iff, !N.eqb_eq in Ht. destruct Ht as (Ht & -> & ->). apply in_tag_items in Ht; auto.
    destruct Ht as (s & Ht). eauto.
  - intros (s & id & Hin & Hm & Hkv). exists (m, k, v, id). split; [reflexivity |]. apply filter_In. split.
    + apply in_tag_items; eauto.
    + unfold t_m, t_k. simpl. rewrite !N.eqb_refl. reflexivity.
Qed.
Theorem C10_list_tag_keys_exact : forall L m k, wfL L ->
  In k (list_tag_keys L m) <-> exists s id v, In (s, id) L /\ s_mst s = m /\ In (k, v) (s_tags s).
Proof.
  intros L m k Hwf. unfold list_tag_keys. rewrite in_map_iff. split.
  - intros ([[[m' k'] v] id] & <- & Ht). apply filter_In in Ht. unfold t_m, t_k in *. simpl in *.
    rewrite andb_true_iff, negb_true_iff, N.eqb_eq, N.eqb_neq in Ht. destruct Ht as (Ht & -> & Hk).
    apply in_tag_items in Ht; auto. destruct Ht as (s & Ht). eauto.
  - intros (s & id & v & Hin & Hm & Hkv). destruct (wf_tags_val _ _ _ (wfL_tags _ _ _ Hwf Hin) Hkv) as [Hk _].
    exists (m, k, v, id). split; [reflexivity |]. apply filter_In. split.
    + apply in_tag_items; eauto.
    + unfold t_m, t_k. simpl. rewrite N.eqb_refl. apply N.eqb_neq in Hk. rewrite Hk. reflexivity.
Qed.
Print Assumptions C10_list_series_exact.
Print Assumptions C10_list_tag_values_exact.
Print Assumptions C10_list_tag_keys_exact.

(* non-vacuity: a concrete history; strings: measurement 1; keys host=1 region=2; values web=1 db=2 eu=3; pattern 1 matches
   web and db. Ids are stable across flush / cache clear / reopen and the search selects what brute force selects. *)
Example C10_example :
  let s1 := mkS 1 [(1, 1); (2, 3)] in let s2 := mkS 1 [(1, 2)] in let s3 := mkS 1 [] in
  let am := fun p v => (p =? 1) && ((v =? 1) || (v =? 2)) in
  let '(i, out) := run slow_repaired (empty_index 100)
                       [Insert s1; Insert s2; ClearCache; Insert s1; Flush; Insert s3; Reopen 50; Insert s2; Insert s3; Flush] in
  out = [Some 101; Some 102; None; Some 101; None; Some 103; None; Some 102; Some 103; None] /\
  search am (postings (vis i)) 1 (And (Atom 1 Re 1) (Paren (Or (Atom 2 Eq 0) (Atom 1 Neq 2)))) = [101; 102] /\
  bruteforce am (vis i) 1 (And (Atom 1 Re 1) (Paren (Or (Atom 2 Eq 0) (Atom 1 Neq 2)))) = [101; 102] /\
  search am (postings (vis i)) 1 (Atom 1 Nre 1) = [103] /\
  list_series (vis i) 1 = [s1; s2; s3] /\ list_tag_values (vis i) 1 1 = [1; 2] /\ list_tag_keys (vis i) 1 = [1; 2; 1].
Proof. vm_compute. repeat split. Qed.

Example C10_hypotheses_satisfiable :
  wfL [(mkS 1 [(1, 1); (2, 3)], 101); (mkS 1 [(1, 2)], 102)] /\ expr_ok (And (Atom 1 Re 1) (Atom 2 Eq 0)) /\
  Forall op_ok [Insert (mkS 1 [(1, 1); (2, 3)]); Flush].
Proof.
  repeat split; simpl; repeat constructor; simpl; try (intros [H | H]; try discriminate; try contradiction);
    try discriminate; try tauto.
Qed.

(* ---- regex atoms through the model of the tag-filter translation (Regex.v) ----

   C10_search_is_bruteforce at the specification's matcher (am_repaired: unanchored matching on the unescaped value, an
   absent tag is the empty string): for every table of pattern trees, every table of strings, every well-formed key set and
   every predicate tree: = / != / =~ / !~ under AND / OR / parentheses, incl. != and !~ on series without the tag. *)
Theorem C10_repaired_regex_search_is_bruteforce : forall pats strs L m e, wfL L -> expr_ok e ->
  forall id, In id (search (am_repaired pats strs) (postings L) m e) <-> In id (bruteforce (am_repaired pats strs) L m e).
Proof. intros pats strs. exact (search_is_bruteforce (am_repaired pats strs)). Qed.
Print Assumptions C10_repaired_regex_search_is_bruteforce.

(* Characterisation of the translation before /repo f7a71a4 (current_match: simplify loop, literal prefix, or-values, optimised suffix matchers, isAllMatch,
   matching on escaped item bytes): on a pattern of an exact shape - a pure literal, an expression without position
   assertions that can match the empty string, ^literal, ^(lit|..|lit)$ with 2..20 literals - and a value without the separator bytes 0, 1, 2 (or the absent
   tag) it selects exactly what unanchored matching selects. The signatures of the regex findings are the complement. *)
Theorem C10_current_regex_exact : forall r v,
  exact_shape r = true -> match v with Some x => plain x | None => True end ->
  current_match r v = repaired_match r v.
Proof. exact current_regex_exact. Qed.
Print Assumptions C10_current_regex_exact.

(* ... hence the search with that translation equals brute force with the language's matching whenever every pattern of the predicate has an
   exact shape and no stored string contains a separator byte *)
Theorem C10_current_search_exact_on_exact_shapes : forall pats strs L m e,
  wfL L -> expr_ok e -> all_plain strs ->
  (forall p, In p (re_pats e) -> exact_shape (pat_of pats p) = true) ->
  forall id, In id (search (am_current pats strs) (postings L) m e) <-> In id (bruteforce (am_repaired pats strs) L m e).
Proof.
  intros pats strs L m e Hwf Hok Hpl Hsh. apply search_exact_upto; auto. intros p v Hp.
  apply current_regex_exact; [apply Hsh; exact Hp | apply str_of_plain; exact Hpl].
Qed.
Print Assumptions C10_current_search_exact_on_exact_shapes.

(* an assertion-free expression that can match the empty string matches every value (isAllMatch is right for it) *)
Theorem C10_nullable_matches_everything : forall r w, has_assert r = false -> nullable r = true -> unanch r w = true.
Proof. exact nullable_unanch. Qed.
Print Assumptions C10_nullable_matches_everything.

(* The select path's tag-filter result cache is transparent - every sequence of regex filter queries gets the answers it
   would get without the cache - when a filter is filed under its pattern's source text and negation flag (the repaired key),
   for every parser and every translation. *)
Theorem C10_tagfilter_cache_transparent : forall parse mt qs,
  cached_run tfq (list N * bool) _ tf_key_repaired tf_keqb (tf_answer parse mt) [] qs = map (tf_answer parse mt) qs.
Proof.
  intros parse mt qs. apply result_cache_transparent; [apply tf_keqb_eq |]. unfold tf_key_repaired. intros q1 q2 ->. reflexivity.
Qed.
Print Assumptions C10_tagfilter_cache_transparent.

(* non-vacuity: /web/, /.*/, /a*|b/ and /^web/ have exact shapes; "web-1" is plain; the characterisation applies *)
Example C10_exact_shapes_exist :
  exact_shape (RLit false [119; 101; 98]) = true /\ exact_shape (RStar RAnyNL) = true /\
  exact_shape (RAlt [RStar (RLit false [97]); RLit false [98]]) = true /\
  exact_shape (RConcat [RBeginText; RLit false [119; 101; 98]]) = true /\
  exact_shape (RConcat [RBeginText; RCapture (RAlt [RLit false [119; 101; 98]; RLit false [100; 98]]); REndText]) = true /\
  exact_shape (RClass [(100, 100); (119, 119)]) = false /\
  plain [119; 101; 98; 45; 49] /\
  current_match (RConcat [RBeginText; RLit false [119; 101; 98]]) (Some [119; 101; 98; 45; 49]) = true /\
  all_plain [(1, [119; 101; 98]); (2, [100; 98])].
Proof. repeat split; try reflexivity; repeat constructor; discriminate. Qed.

(* ---- the mergeset "visible after flush" contract and the key cache as /repo repairs them since ce36ae7: ClearCache flushes
   the raw items before it resets the caches and the lookup stays what it was (cache, then FLUSHED items only).
   For every sequence of insert / flush / cache clear / close-reopen: ---- *)
Theorem C10_flushclear_id_functional : forall n os s id1 id2,
  let i := fst (run_fc (empty_index n) os) in In (s, id1) (store i) -> In (s, id2) (store i) -> id1 = id2.
Proof. intros n os s id1 id2 i. apply id_functional_store, reachable_wf_fc. Qed.
Theorem C10_flushclear_id_injective : forall n os s1 s2 id,
  let i := fst (run_fc (empty_index n) os) in In (s1, id) (store i) -> In (s2, id) (store i) -> s1 = s2.
Proof. intros n os s1 s2 id i. apply id_injective_store, reachable_wf_fc. Qed.
Theorem C10_flushclear_id_stable : forall n os1 s os2,
  let i1 := fst (run_fc (empty_index n) os1) in
  let r := insert slow_current i1 s in
  let i3 := fst (run_fc (fst r) os2) in
  snd (insert slow_current i3 s) = snd r.
Proof. intros n os1 s os2. apply fc_id_stable, reachable_wf_fc. Qed.
(* the lookup through flushed items is complete under that repair: every stored key is found through the cache or the flushed items *)
Theorem C10_flushclear_lookup_complete : forall n os s id,
  let i := fst (run_fc (empty_index n) os) in In (s, id) (store i) -> lookup slow_current i s = Some id.
Proof. intros n os s id i. apply fc_lookup_complete, reachable_wf_fc. Qed.
(* both repairs hand out the same ids on every operation sequence *)
Theorem C10_flushclear_same_ids_as_pending_lookup : forall n os,
  snd (run_fc (empty_index n) os) = snd (run slow_repaired (empty_index n) os).
Proof. intros n os. apply fc_outputs_equal; [apply wf_fc_empty | repeat split]. Qed.
Print Assumptions C10_flushclear_id_functional.
Print Assumptions C10_flushclear_id_injective.
Print Assumptions C10_flushclear_id_stable.
Print Assumptions C10_flushclear_lookup_complete.
Print Assumptions C10_flushclear_same_ids_as_pending_lookup.

Example C10_flushclear_example :
  let s := mkS 1 [(1, 1)] in
  snd (run_fc (empty_index 0) [Insert s; ClearCache; Insert s; Reopen 5; ClearCache; Insert s]) =
    [Some 1; None; Some 1; None; None; Some 1] /\
  snd (run slow_current (empty_index 0) [Insert s; ClearCache; Insert s]) = [Some 1; None; Some 2].
Proof. vm_compute. split; reflexivity. Qed.

(* ---- listings with a condition and cardinalities (SHOW SERIES ... WHERE, SHOW TAG VALUES ... WHERE, SHOW SERIES CARDINALITY):
   exactly the series keys / tag values / number of the series whose tags satisfy the predicate, for every matcher ---- *)
Theorem C10_list_series_cond_exact : forall am L m e s, wfL L -> expr_ok e ->
  In s (list_series_cond am L m e) <-> exists id, In (s, id) L /\ s_mst s = m /\ eval am e (s_tags s) = true.
Proof.
  intros am L m e s Hwf Hok. apply (in_keys_of L m (fun ts => eval am e ts = true)); [apply Hwf | apply search_sel; assumption].
Qed.
Theorem C10_list_tag_values_cond_exact : forall am L m k e v, wfL L -> expr_ok e -> k <> 0 ->
  In v (list_tag_values_cond am L m k e) <->
  exists s id, In (s, id) L /\ s_mst s = m /\ In (k, v) (s_tags s) /\ eval am e (s_tags s) = true.
Proof.
  intros am L m k e v Hwf Hok Hk. pose proof Hwf as [Hnd _]. unfold list_tag_values_cond. rewrite in_map_iff. split.
  - intros ([[[m' k'] v'] id] & <- & Ht). apply filter_In in Ht. unfold t_m, t_k, t_id in Ht. simpl in Ht.
    rewrite !andb_true_iff, !N.eqb_eq, mem_spec in Ht. destruct Ht as (Ht & (-> & ->) & Hs).
    apply in_tag_items in Ht; auto. destruct Ht as (s & Hin & Hm & Hkv).
    apply (search_sel am L m Hwf e Hok) in Hs. destruct Hs as (s' & Hin' & _ & He).
    rewrite <- (uniq_id _ _ _ _ Hnd Hin Hin') in He. exists s, id. auto.
  - intros (s & id & Hin & Hm & Hkv & He). exists (m, k, v, id). split; [reflexivity |]. apply filter_In. split.
    + apply in_tag_items; eauto.
    + unfold t_m, t_k, t_id. simpl. rewrite !N.eqb_refl. apply mem_spec, (search_sel am L m Hwf e Hok). exists s. auto.
Qed.
Theorem C10_cardinality_exact : forall am L m e, wfL L -> expr_ok e ->
  cardinality am L m e = length (bruteforce am L m e).
Proof.
  intros am L m e Hwf Hok. apply length_dedup; [apply nodup_map_filter, Hwf | intros id; apply search_is_bruteforce; assumption].
Qed.
Print Assumptions C10_list_series_cond_exact.
Print Assumptions C10_list_tag_values_cond_exact.
Print Assumptions C10_cardinality_exact.

Example C10_cond_listing_example :
  let L := [(mkS 1 [(1, 1); (2, 3)], 101); (mkS 1 [(1, 2)], 102); (mkS 1 [], 103)] in
  let am := fun p v => (p =? 1) && ((v =? 1) || (v =? 2)) in
  list_series_cond am L 1 (Atom 2 Eq 0) = [mkS 1 [(1, 2)]; mkS 1 []] /\
  list_tag_values_cond am L 1 1 (Atom 1 Re 1) = [1; 2] /\ cardinality am L 1 (Atom 1 Nre 1) = 1%nat.
Proof. vm_compute. repeat split. Qed.

(* ---- the second evaluator of the select path: filters of an AND-only predicate checked against the SERIES KEY of a
   candidate (doPrune / matchSeriesKeyTagFilter). One filter on one tag set means what the predicate means - absent tag =
   empty string, negation, empty values, any regex matcher ---- *)
Theorem C10_prune_atom_is_eval : forall am f ts, prune_atom am f ts = eval am (atom_of f) ts.
Proof. exact prune_atom_eval. Qed.
(* ... and every plan "answer the filters p :: pre from the index, check the filters post on the series keys of the
   candidates" selects exactly what brute force selects for the whole conjunction, whichever way the cost order splits it *)
Theorem C10_prune_plan_is_bruteforce : forall am L m p pre post,
  wfL L -> Forall (fun g => fst (fst g) <> 0) (p :: pre ++ post) ->
  forall id, In id (plan_ids am L m p pre post) <-> In id (bruteforce am L m (conj p (pre ++ post))).
Proof. exact plan_is_bruteforce. Qed.
Print Assumptions C10_prune_atom_is_eval.
Print Assumptions C10_prune_plan_is_bruteforce.

Example C10_prune_example :
  let L := [(mkS 1 [(1, 1)], 101); (mkS 1 [(1, 2); (2, 5)], 102)] in
  let am := fun _ _ => false in
  (* a = 'x' AND b != 'y' on {a=x} (no tag b) and {a=2, b=5}: plans "a from the index, b on the key" and "both from the index" *)
  plan_ids am L 1 (1, Eq, 1) [] [(2, Neq, 7)] = [101] /\ plan_ids am L 1 (1, Eq, 1) [(2, Neq, 7)] [] = [101] /\
  bruteforce am L 1 (conj (1, Eq, 1) [(2, Neq, 7)]) = [101].
Proof. vm_compute. repeat split. Qed.

(* ---- the matcher is a match relation. [sem w r i j] is the relational semantics of regular expressions (r matches the
   piece w[i..j) of the subject w), defined by recursion on the syntax tree with the usual closure for repetition; the
   executable matcher computes exactly it. What is compared with Go regexp on every run is therefore a proved matcher. ---- *)
Theorem C10_matcher_is_the_match_relation : forall w r i j, (i <= length w)%nat -> (In j (ends w r i) <-> sem w r i j).
Proof. exact ends_sem. Qed.
Theorem C10_unanchored_is_match_somewhere : forall r w, unanch r w = true <-> exists i j, (i <= length w)%nat /\ sem w r i j.
Proof. exact unanch_iff. Qed.
Print Assumptions C10_matcher_is_the_match_relation.
Print Assumptions C10_unanchored_is_match_somewhere.

(* getOrValuesExt: whenever it yields a list (alternations, classes, literals, captures, concatenations, up to 20 values)
   the list is exactly the language of the expression *)
Theorem C10_or_values_exact : forall r, or_values r <> [] ->
  forall w i j, sem w r i j <-> exists v, In v (or_values r) /\ litmatch w v i j.
Proof. exact or_values_sem. Qed.
Print Assumptions C10_or_values_exact.

(* The translation of a regex tag filter since /repo f7a71a4 (new_match: exact-value lookups of the marshaled values for ^X$, literal
   prefix for ^lit.., scan with the compiled expression on the unescaped value, match-everything, series without the tag when
   the expression matches the empty string) selects, for EVERY expression, stored value and the absent tag, exactly what the
   language's unanchored matching selects ... *)
Theorem C10_translation_exact : forall r v, new_match r v = repaired_match r v.
Proof. exact new_match_exact. Qed.
(* ... hence the predicate search with it is brute force for every predicate tree *)
Theorem C10_search_with_translation_is_bruteforce : forall pats strs L m e, wfL L -> expr_ok e ->
  forall id, In id (search (am_new pats strs) (postings L) m e) <-> In id (bruteforce (am_repaired pats strs) L m e).
Proof. intros pats strs L m e Hwf Hok. apply search_exact_upto; auto. intros p v _. apply new_match_exact. Qed.
Print Assumptions C10_translation_exact.
Print Assumptions C10_search_with_translation_is_bruteforce.

Example C10_translation_example :
  (* ^(web|db)$ takes the lookups, ^web-.* the prefix, [wd] the scan; "\x01" is matched unescaped *)
  anchored_or_values (RConcat [RBeginText; RCapture (RAlt [RLit false [119; 101; 98]; RLit false [100; 98]]); REndText]) = [[119; 101; 98]; [100; 98]] /\
  anchored_literal_prefix (RConcat [RBeginText; RLit false [119; 101; 98; 45]; RStar RAnyNL]) = [119; 101; 98; 45]%N /\
  new_match (RClass [(100, 100); (119, 119)]%N) (Some [119; 101; 98]%N) = true /\
  new_match (RPlus (RClass [(48, 57)]%N)) (Some [1]%N) = false /\
  sem [119; 101; 98]%N (RStar RAnyNL) 0%nat 3%nat.
Proof.
  repeat split; try reflexivity.
  apply (star_step _ 0 1 3)%nat; [exists 119%N; auto |]. apply (star_step _ 1 2 3)%nat; [exists 101%N; auto |].
  apply (star_step _ 2 3 3)%nat; [exists 98%N; auto | constructor].
Qed.

(* ---- the tag-filter result cache inside the index model (Cache.v): filters answered from a cache keyed by (generation,
   measurement, key, operator, value), the generation bumped by the flush callback and by DROP SERIES. When the callback
   runs with every flush that made items visible (repaired), EVERY search of EVERY sequence of insert / forced flush /
   background flush / tick / cache clear / reopen / drop series / search returns the uncached answer ... ---- *)
Theorem C10_result_cache_transparent : forall am n os,
  Forall (fun x => match x with Some (a, u) => a = u | None => True end) (crun true am (cempty n) os).
Proof. intros am n os. apply cache_transparent, cache_ok_nil. Qed.
(* ... which is the set-algebra search over the flushed items without the dropped ids (and so, by C10_search_is_bruteforce,
   the predicate's meaning on the live series) *)
Theorem C10_uncached_answer_is_search_minus_dropped : forall am c m e id,
  In id (search_plain am c m e) <-> In id (search am (postings (vis (ix c))) m e) /\ ~ In id (dropped c).
Proof.
  intros am c m e id. induction e as [a IHa b IHb | a IHa b IHb | a IHa | k cm v]; cbn [search_plain search].
  - rewrite !in_inter, IHa, IHb. tauto.
  - rewrite !in_app_iff, IHa, IHb. tauto.
  - exact IHa.
  - unfold visible_ids. rewrite in_diff. reflexivity.
Qed.
Print Assumptions C10_result_cache_transparent.
Print Assumptions C10_uncached_answer_is_search_minus_dropped.

Example C10_cache_example :
  let s1 := mkS 1 [(1, 1)] in let s2 := mkS 1 [(1, 1); (2, 3)] in
  crun true (fun _ _ => false) (cempty 100)
       [OInsert s1; OFlush; OSearch 1 (Atom 1 Eq 1); OInsert s2; OBgFlush; OSearch 1 (Atom 1 Eq 1); ODrop [101]; OSearch 1 (Atom 1 Eq 1)] =
    [None; None; Some ([101], [101]); None; None; Some ([101; 102], [101; 102]); None; Some ([102], [102])].
Proof. vm_compute. reflexivity. Qed.

(* ---- the tag -> ids items as rows of at most 64 ids: however the items of the written series are split into rows, the row
   scan of SHOW TAG VALUES ... WHERE (record the value at the first row with an eligible id; a rejected row, full or not, never
   ends the scan of its value) lists exactly the values of the series that satisfy the predicate ---- *)
Theorem C10_rows_listing_exact : forall am L rt m k e v, wfL L -> expr_ok e -> k <> 0 ->
  (forall t, In t (flatten rt) <-> In t (postings L)) ->
  (In v (rows_values (fun id => mem id (search am (postings L) m e)) rt m k) <->
   exists s id, In (s, id) L /\ s_mst s = m /\ In (k, v) (s_tags s) /\ eval am e (s_tags s) = true).
Proof.
  intros am L rt m k e v Hwf Hok Hk Hrt. rewrite rows_values_spec. split.
  - intros (id & Hin & He). apply Hrt, in_tag_items in Hin; auto. destruct Hin as (s & Hin & Hm & Hkv).
    apply mem_spec, (search_sel am L m Hwf e Hok) in He. destruct He as (s' & Hin' & _ & He).
    rewrite <- (uniq_id _ _ _ _ (proj1 Hwf) Hin Hin') in He. exists s, id. auto.
  - intros (s & id & Hin & Hm & Hkv & He). exists id. split; [apply Hrt, in_tag_items; eauto |].
    apply mem_spec, (search_sel am L m Hwf e Hok). exists s. auto.
Qed.
Theorem C10_row_scan_is_exists : forall elig rows, scan_rows elig rows = existsb elig (concat rows).
Proof. exact scan_rows_concat. Qed.
Print Assumptions C10_rows_listing_exact.
Print Assumptions C10_row_scan_is_exists.
