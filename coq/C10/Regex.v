(* C10 - regular-expression atoms of tag predicates: the syntax tree Go's regexp/syntax parser produces, a matcher over
   rune lists (the meaning of a pattern; compared with Go regexp on every run), and the translation of a pattern into a
   tag filter as engine/index/tsi/tag_filters.go did it before /repo f7a71a4 (simplifyRegexpExt, the simplify loop, literal
   prefix extraction, getOrValues, the optimised suffix matchers, isAllMatch, matching on the escaped item bytes); the
   translation since f7a71a4 is in RegexNew.v.
   Strings are lists of runes (N). Definitions only; lemmas are in RegexProofs.v, RegexSem.v, RegexNew.v and RegexAlt.v. *)
From Coq Require Import NArith List Bool Arith.
Import ListNotations.

Inductive re :=
| REmpty                                   (* OpEmptyMatch *)
| RLit (fold : bool) (l : list N)          (* OpLiteral, FoldCase flag *)
| RClass (rs : list (N * N))               (* OpCharClass: inclusive ranges *)
| RAnyNL                                   (* OpAnyCharNotNL *)
| RAny                                     (* OpAnyChar *)
| RBeginText | REndText | RBeginLine | REndLine | RWordB | RNoWordB
| RCapture (r : re)
| RStar (r : re) | RPlus (r : re) | RQuest (r : re)
| RRepeat (mn : nat) (mx : option nat) (r : re)
| RConcat (rs : list re)
| RAlt (rs : list re).

(* ------------------------------------------------------------------------------------------------ matcher *)
Definition nmem (x : nat) (l : list nat) : bool := existsb (Nat.eqb x) l.
Fixpoint nunion (a b : list nat) : list nat :=
  match a with [] => b | x :: t => if nmem x b then nunion t b else x :: nunion t b end.
Definition step_all (f : nat -> list nat) (is : list nat) : list nat :=
  fold_right (fun i acc => nunion (f i) acc) [] is.

Fixpoint iter_n (f : nat -> list nat) (n : nat) (is : list nat) : list nat :=
  match n with O => is | S k => iter_n f k (step_all f is) end.
(* up to n further iterations, collecting. A repetition is matched with fuel = number of positions left in the subject:
   an iteration that consumes nothing adds nothing, so longer chains reach no new position (proved in RegexSem.v) *)
Fixpoint iter_upto (f : nat -> list nat) (n : nat) (is : list nat) : list nat :=
  match n with O => is | S k => nunion is (iter_upto f k (step_all f is)) end.

Definition lower (c : N) : N := if ((65 <=? c) && (c <=? 90))%N then (c + 32)%N else c.
Definition ceq (fold : bool) (a b : N) : bool := if fold then (lower a =? lower b)%N else (a =? b)%N.
Fixpoint lit_pre (fold : bool) (l s : list N) : bool :=
  match l, s with
  | [], _ => true
  | a :: l', b :: s' => ceq fold a b && lit_pre fold l' s'
  | _ :: _, [] => false
  end.
Definition in_ranges (c : N) (rs : list (N * N)) : bool := existsb (fun r => (fst r <=? c)%N && (c <=? snd r)%N) rs.
Definition is_word (c : N) : bool :=
  ((48 <=? c) && (c <=? 57) || (65 <=? c) && (c <=? 90) || (97 <=? c) && (c <=? 122) || (c =? 95))%N.
Definition word_at (w : list N) (i : nat) : bool := match nth_error w i with Some c => is_word c | None => false end.
Definition word_before (w : list N) (i : nat) : bool := match i with O => false | S j => word_at w j end.

(* [ends w r i]: the positions j such that r matches w[i..j) in the context of the whole subject w *)
Fixpoint ends (w : list N) (r : re) (i : nat) {struct r} : list nat :=
  match r with
  | REmpty => [i]
  | RLit f l => if lit_pre f l (skipn i w) then [i + length l] else []
  | RClass rs => match nth_error w i with Some c => if in_ranges c rs then [S i] else [] | None => [] end
  | RAnyNL => match nth_error w i with Some c => if (c =? 10)%N then [] else [S i] | None => [] end
  | RAny => match nth_error w i with Some _ => [S i] | None => [] end
  | RBeginText => if Nat.eqb i 0 then [i] else []
  | REndText => if Nat.eqb i (length w) then [i] else []
  | RBeginLine => match i with O => [i] | S j => match nth_error w j with Some c => if (c =? 10)%N then [i] else [] | None => [] end end
  | REndLine => match nth_error w i with Some c => if (c =? 10)%N then [i] else [] | None => [i] end
  | RWordB => if xorb (word_before w i) (word_at w i) then [i] else []
  | RNoWordB => if xorb (word_before w i) (word_at w i) then [] else [i]
  | RCapture a => ends w a i
  | RStar a => iter_upto (ends w a) (length w - i) [i]
  | RPlus a => iter_upto (ends w a) (length w - i) (ends w a i)
  | RQuest a => nunion [i] (ends w a i)
  | RRepeat mn mx a =>
      let s := iter_n (ends w a) mn [i] in
      match mx with
      | None => iter_upto (ends w a) (length w - i) s
      | Some m => iter_upto (ends w a) (m - mn) s
      end
  | RConcat rs => (fix go (l : list re) (is : list nat) : list nat :=
                     match l with [] => is | a :: t => go t (step_all (ends w a) is) end) rs [i]
  | RAlt rs => (fix go (l : list re) : list nat :=
                  match l with [] => [] | a :: t => nunion (ends w a i) (go t) end) rs
  end.

Definition nonempty {A} (l : list A) : bool := match l with [] => false | _ => true end.
(* Go regexp.Match: the pattern matches somewhere in the subject *)
Definition unanch (r : re) (w : list N) : bool := existsb (fun i => nonempty (ends w r i)) (seq 0 (S (length w))).
(* whole-subject match *)
Definition anch (r : re) (w : list N) : bool := nmem (length w) (ends w r 0).

(* ------------------------------------------------------------------------------------------------ byte helpers *)
Fixpoint contains (l s : list N) : bool :=
  lit_pre false l s || match s with [] => false | _ :: t => contains l t end.
Fixpoint strip_prefix (p s : list N) : option (list N) :=
  match p, s with
  | [], _ => Some s
  | a :: p', b :: s' => if (a =? b)%N then strip_prefix p' s' else None
  | _ :: _, [] => None
  end.
Definition has_prefix (p s : list N) : bool := lit_pre false p s.
Definition has_suffix (p s : list N) : bool := lit_pre false (rev p) (rev s).
Fixpoint list_eqb (a b : list N) : bool :=
  match a, b with [], [] => true | x :: a', y :: b' => (x =? y)%N && list_eqb a' b' | _, _ => false end.
(* bytes.Index: the rest after the first occurrence of l in s *)
Fixpoint after_first (l s : list N) : option (list N) :=
  if lit_pre false l s then Some (skipn (length l) s)
  else match s with [] => None | _ :: t => after_first l t end.

(* marshalTagValue: the separator bytes 0, 1, 2 are written as 0 followed by '0', '1', '2' *)
Definition esc1 (c : N) : list N :=
  if (c =? 0)%N then [0; 48]%N else if (c =? 1)%N then [0; 49]%N else if (c =? 2)%N then [0; 50]%N else [c].
Definition esc (v : list N) : list N := flat_map esc1 v.
Definition plain (v : list N) : Prop := Forall (fun c => (3 <= c)%N) v.
Definition plainb (v : list N) : bool := forallb (fun c => (3 <=? c)%N) v.

(* ------------------------------------------------------------------------------------------------ translation *)
Definition is_empty (r : re) : bool := match r with REmpty => true | _ => false end.
Definition is_begin (r : re) : bool := match r with RBeginText => true | _ => false end.
Definition is_end (r : re) : bool := match r with REndText => true | _ => false end.
Definition is_oplit (r : re) : bool := match r with RLit _ _ => true | _ => false end.   (* sre.Op == OpLiteral *)
Fixpoint is_literal (r : re) : bool :=                                                   (* isLiteral *)
  match r with RCapture a => is_literal a | RLit false _ => true | _ => false end.
Definition outer_runes (r : re) : list N := match r with RLit _ l => l | _ => [] end.     (* sre.Rune of that node *)
Definition dotstar : re := RStar RAnyNL.                                                  (* syntax.Parse(".*", Perl) *)

Fixpoint drop_begins (l : list re) : list re := match l with a :: t => if is_begin a then drop_begins t else l | [] => [] end.
Definition drop_ends (l : list re) : list re := rev (
  (fix go (l : list re) := match l with a :: t => if is_end a then go t else l | [] => [] end) (rev l)).
Definition last_is (p : re -> bool) (l : list re) : bool := match rev l with a :: _ => p a | [] => false end.
Definition first_is (p : re -> bool) (l : list re) : bool := match l with a :: _ => p a | [] => false end.

(* simplifyRegexpExt. The emptyRegexp sentinel is REmpty (every OpEmptyMatch node is mapped to it and no other result has
   that operator). [begin] and [tail] are the first and last child BEFORE the rewrite. *)
Fixpoint simplify_ext (r : re) (hp hs : bool) {struct r} : re :=
  match r with
  | RCapture a => let a' := simplify_ext a hp hs in if is_empty a' then REmpty else RAlt [a']
  | RStar a => let a' := simplify_ext a hp hs in if is_empty a' then REmpty else RStar a'
  | RPlus a => let a' := simplify_ext a hp hs in if is_empty a' then REmpty else RPlus a'
  | RQuest a => let a' := simplify_ext a hp hs in if is_empty a' then REmpty else RQuest a'
  | RRepeat mn mx a => let a' := simplify_ext a hp hs in if is_empty a' then REmpty else RRepeat mn mx a'
  | RAlt rs => RAlt (map (fun a => simplify_ext a hp hs) rs)
  | RConcat rs =>
      let subs0 := (fix go (l : list re) (first : bool) : list re :=
                      match l with
                      | [] => []
                      | a :: t => let a' := simplify_ext a (negb first) (nonempty t) in
                                  if is_empty a' then go t false else a' :: go t false
                      end) rs true in
      let begin_bt := first_is is_begin rs in
      let tail_et := last_is is_end rs in
      let subs1 := if hp then subs0 else drop_begins subs0 in
      let subs2 := if hs then subs1 else drop_ends subs1 in
      match subs2 with
      | [] => REmpty
      | _ =>
          if begin_bt && tail_et then RConcat subs2
          else
            let subs3 := if negb tail_et && last_is is_oplit subs2 then subs2 ++ [dotstar] else subs2 in
            let subs4 := if tail_et && first_is is_oplit subs3 then dotstar :: subs3 else subs3 in
            let subs5 := if tail_et && negb (last_is is_end subs4) then subs4 ++ [REndText] else subs4 in
            RConcat subs5
      end
  | REmpty => REmpty
  | _ => r
  end.

(* what Simplify / String / Parse do to the rewritten tree, as far as the patterns of the harness need it: singleton and
   nested concatenations and alternations are flattened, adjacent literals of a concatenation are merged. Checked against
   the real loop on every pattern of every run (stage comparison). *)
Fixpoint merge_lits (l : list re) : list re :=
  match l with
  | RLit f1 a :: t =>
      match merge_lits t with
      | RLit f2 b :: t' => if Bool.eqb f1 f2 then RLit f1 (a ++ b) :: t' else RLit f1 a :: RLit f2 b :: t'
      | t' => RLit f1 a :: t'
      end
  | x :: t => x :: merge_lits t
  | [] => []
  end.
Definition mk_concat (l : list re) : re := match l with [] => REmpty | [x] => x | _ => RConcat l end.
Definition mk_alt (l : list re) : re := match l with [] => REmpty | [x] => x | _ => RAlt l end.
Definition unconcat (r : re) : list re := match r with RConcat l => l | _ => [r] end.
Definition unalt (r : re) : list re := match r with RAlt l => l | _ => [r] end.
Definition cat (l : list re) : re := mk_concat (merge_lits (flat_map unconcat l)).
(* Simplify expands counted repetition: x{n,} = x^(n-1) x+ ; x{n,m} = x^n (x (x ...)?)? *)
Fixpoint rep_opt (k : nat) (x : re) : re :=
  match k with O => REmpty | S O => RQuest x | S k' => RQuest (cat [x; rep_opt k' x]) end.
Definition expand_repeat (mn : nat) (mx : option nat) (x : re) : re :=
  match mx with
  | None => match mn with O => RStar x | S O => RPlus x | S k => cat (repeat x k ++ [RPlus x]) end
  | Some m => if Nat.eqb m 0 then REmpty
              else if Nat.eqb m mn then cat (repeat x mn)
              else cat (repeat x mn ++ [rep_opt (m - mn) x])
  end.
Fixpoint norm (r : re) : re :=
  match r with
  | RCapture a => RCapture (norm a)
  | RStar a => RStar (norm a) | RPlus a => RPlus (norm a) | RQuest a => RQuest (norm a)
  | RRepeat mn mx a => expand_repeat mn mx (norm a)
  | RConcat rs => mk_concat (merge_lits (flat_map unconcat (map norm rs)))
  | RAlt rs => mk_alt (flat_map unalt (map norm rs))
  | _ => r
  end.

Fixpoint re_eqb (a b : re) {struct a} : bool :=
  match a, b with
  | REmpty, REmpty | RAnyNL, RAnyNL | RAny, RAny | RBeginText, RBeginText | REndText, REndText
  | RBeginLine, RBeginLine | REndLine, REndLine | RWordB, RWordB | RNoWordB, RNoWordB => true
  | RLit f1 l1, RLit f2 l2 => Bool.eqb f1 f2 && list_eqb l1 l2
  | RClass r1, RClass r2 =>
      (fix go (x y : list (N * N)) : bool :=
         match x, y with
         | [], [] => true
         | p :: x', q :: y' => (fst p =? fst q)%N && (snd p =? snd q)%N && go x' y'
         | _, _ => false
         end) r1 r2
  | RCapture x, RCapture y | RStar x, RStar y | RPlus x, RPlus y | RQuest x, RQuest y => re_eqb x y
  | RRepeat m1 x1 a1, RRepeat m2 x2 a2 =>
      Nat.eqb m1 m2 && match x1, x2 with Some p, Some q => Nat.eqb p q | None, None => true | _, _ => false end && re_eqb a1 a2
  | RConcat l1, RConcat l2 | RAlt l1, RAlt l2 =>
      (fix go (x y : list re) {struct x} : bool :=
         match x, y with
         | [], [] => true
         | p :: x', q :: y' => re_eqb p q && go x' y'
         | _, _ => false
         end) l1 l2
  | _, _ => false
  end.

(* simplifyRegexp: rewrite / normalise until nothing changes; a lone ^ or $ becomes the empty expression. The Go loop is
   unbounded; the model stops after 8 rounds, and stage 20 of Corr.check_stages compares the result with the real loop's
   for every pattern of a run *)
Definition simplify_round (r : re) : re :=
  let x := norm (simplify_ext r false false) in
  if is_begin x || is_end x then REmpty else x.
Fixpoint simplify_loop (fuel : nat) (r : re) : re :=
  match fuel with
  | O => r
  | S k => let x := simplify_round r in if re_eqb x r then x else simplify_loop k x
  end.
Definition simplify (r : re) : re := simplify_loop 8 r.

(* extractRegexpPrefix on the simplified tree: (literal prefix, the rest of the expression if any) *)
Definition extract_prefix (s : re) : list N * option re :=
  match s with
  | REmpty => ([], None)
  | RConcat (a :: rest) =>
      if is_literal a then match rest with [] => ([], None) | _ => (outer_runes a, Some (norm (RConcat rest))) end
      else ([], Some s)
  | _ => if is_literal s then (outer_runes s, None) else ([], Some s)
  end.

(* getOrValuesExt; [] stands for Go's nil (no exact-value list) *)
Definition max_or_values : nat := 20.
Definition class_values (rs : list (N * N)) : list (list N) :=
  let total := fold_right (fun r acc => (acc + (N.succ (snd r) - fst r))%N) 0%N rs in
  if (N.of_nat max_or_values <? total)%N then []
  else flat_map (fun r => map (fun k => [(fst r + N.of_nat k)%N]) (seq 0 (N.to_nat (N.succ (snd r) - fst r)))) rs.
Fixpoint or_values (r : re) {struct r} : list (list N) :=
  match r with
  | RCapture a => or_values a
  | RLit false l => [l]
  | REmpty => [[]]
  | RAlt rs => (fix go (l : list re) (acc : list (list N)) : list (list N) :=
                  match l with
                  | [] => acc
                  | a :: t => match or_values a with
                              | [] => []
                              | ca => let acc' := acc ++ ca in if max_or_values <? length acc' then [] else go t acc'
                              end
                  end) rs []
  | RClass rs => class_values rs
  | RConcat rs => (fix go (l : list re) : list (list N) :=
                     match l with
                     | [] => [[]]
                     | a :: t => match or_values a with
                                 | [] => []
                                 | ps => match go t with
                                         | [] => []
                                         | ss => if max_or_values <? length ps * length ss then []
                                                 else flat_map (fun p => map (fun s => p ++ s) ss) ps
                                         end
                                 end
                     end) rs
  | _ => []
  end.

Fixpoint is_dot_star (r : re) : bool :=
  match r with
  | RCapture a => is_dot_star a
  | RAlt rs => existsb is_dot_star rs
  | RStar RAnyNL | RStar RAny => true
  | _ => false
  end.
Fixpoint is_dot_plus (r : re) : bool :=
  match r with
  | RCapture a => is_dot_plus a
  | RAlt rs => existsb is_dot_plus rs
  | RPlus RAnyNL | RPlus RAny => true
  | _ => false
  end.

Definition tl1 {A} (l : list A) : list A := match l with [] => [] | _ :: t => t end.
Definition butlast {A} (l : list A) : list A := rev (tl1 (rev l)).

(* getOptimizedReMatchFuncExt: None = no optimised matcher (the caller falls back to the compiled expression) *)
Fixpoint opt_match (fallback : list N -> bool) (r : re) {struct r} : option (list N -> bool) :=
  if is_dot_star r then Some (fun _ => true)
  else if is_dot_plus r then Some (fun b => nonempty b)
  else match r with
  | RCapture a => opt_match fallback a
  | RLit false l => Some (fun b => list_eqb b l)
  | RConcat rs =>
      let generic :=
        let lits := map outer_runes (filter is_literal rs) in
        let sfx := if last_is is_literal rs then match rev lits with x :: _ => x | [] => [] end else [] in
        let lits' := if last_is is_literal rs then butlast lits else lits in
        Some (fun b =>
          if nonempty sfx && negb (has_suffix sfx b) then false
          else match fold_left (fun cur l => match cur with Some s => after_first l s | None => None end) lits' (Some b) with
               | None => false
               | Some _ => fallback b
               end) in
      match rs with
      | [a; c] =>
          if is_literal a && is_dot_star c then Some (fun b => has_prefix (outer_runes a) b)
          else if is_literal a && is_dot_plus c then Some (fun b => (length (outer_runes a) <? length b) && has_prefix (outer_runes a) b)
          else if is_literal c && is_dot_star a then Some (fun b => has_suffix (outer_runes c) b)
          else if is_literal c && is_dot_plus a then Some (fun b => (length (outer_runes c) <? length b) && has_suffix (outer_runes c) (tl1 b))
          else generic
      | [a; m; c] =>
          if is_literal m && is_dot_star a && is_dot_star c then Some (fun b => contains (outer_runes m) b)
          else if is_literal m && is_dot_star a && is_dot_plus c then
            Some (fun b => (length (outer_runes m) <? length b) && contains (outer_runes m) (butlast b))
          else if is_literal m && is_dot_plus a && is_dot_star c then
            Some (fun b => (length (outer_runes m) <? length b) && contains (outer_runes m) (tl1 b))
          else if is_literal m && is_dot_plus a && is_dot_plus c then
            Some (fun b => (S (length (outer_runes m)) <? length b) && contains (outer_runes m) (butlast (tl1 b)))
          else generic
      | _ => generic
      end
  | _ => None
  end.

(* the suffix matcher getRegexpFromCache builds for the rest of the expression: exact-value lookups when getOrValues
   yields a list, otherwise the optimised matcher, otherwise the compiled (unanchored) expression *)
Definition suffix_match (s : re) (b : list N) : bool :=
  match or_values s with
  | [] => match opt_match (unanch s) s with Some f => f b | None => unanch s b end
  | ov => existsb (list_eqb b) ov
  end.

(* The three matchers. [current_match]: what the index matched before /repo f7a71a4, for pattern r on a stored tag value
   (Some v) or on a series without the tag (None). [RegexNew.new_match]: what it matches since f7a71a4. [repaired_match]
   (below): the specification both are compared with - it is not a variant of the code. *)
Definition current_match (r : re) (v : option (list N)) : bool :=
  if unanch r [] then true                                   (* isAllMatch: every series of the measurement *)
  else match v with
       | None => false
       | Some v =>
           let ev := esc v in
           match extract_prefix (simplify r) with
           | (p, None) => contains p ev                      (* pure literal (or nothing left): bytes.Contains *)
           | (p, Some s) => match strip_prefix (esc p) ev with
                            | None => false
                            | Some rest => suffix_match s rest
                            end
           end
       end.

(* the text under which the select path's tag-filter result cache files a regex filter (tagFilter.Marshal uses tf.value):
   InfluxRegrep overwrites tf.value with the literal when the translation reduces the pattern to a pure literal, so
   Some l = "filed under l", None = "filed under the pattern's source text" *)
Definition cache_literal (r : re) : option (list N) :=
  match extract_prefix (simplify r) with (p, None) => Some p | _ => None end.

(* the specification: the language's unanchored matching on the value, an absent tag is the empty string *)
Definition repaired_match (r : re) (v : option (list N)) : bool :=
  unanch r (match v with Some v => v | None => [] end).

Fixpoint has_assert (r : re) : bool :=
  match r with
  | RBeginText | REndText | RBeginLine | REndLine | RWordB | RNoWordB => true
  | RCapture a | RStar a | RPlus a | RQuest a | RRepeat _ _ a => has_assert a
  | RConcat rs | RAlt rs => existsb has_assert rs
  | _ => false
  end.

(* can match the empty string (syntactically; for an expression without position assertions this is exact) *)
Fixpoint nullable (r : re) : bool :=
  match r with
  | REmpty => true
  | RLit _ l => match l with [] => true | _ => false end
  | RCapture a | RPlus a => nullable a
  | RStar _ | RQuest _ => true
  | RRepeat mn _ a => match mn with O => true | _ => nullable a end
  | RConcat rs => forallb nullable rs
  | RAlt rs => existsb nullable rs
  | _ => false
  end.

(* pattern shapes for which the translation before f7a71a4 is proved exact (RegexAlt.current_regex_exact): a pure literal; an expression without
   position assertions that can match the empty string (it matches everything); ^literal; ^(lit|lit|...)$ *)
Inductive shape := ShLiteral | ShMatchAll | ShBeginLiteral | ShAnchoredAlt | ShOther.
Definition as_literal (r : re) : option (list N) :=
  match r with RLit false (c :: l) => Some (c :: l) | _ => None end.
Definition as_begin_literal (r : re) : option (list N) :=
  match r with
  | RConcat [RBeginText; b] => match as_literal b with Some l => if plainb l then Some l else None | None => None end
  | _ => None
  end.
Fixpoint lits_of (l : list re) : option (list (list N)) :=
  match l with
  | [] => Some []
  | RLit false (c :: x) :: t => match lits_of t with Some r => Some ((c :: x) :: r) | None => None end
  | _ => None
  end.
Definition alt_inner (r : re) : option (list re) :=
  match r with RCapture (RAlt l) => Some l | RAlt l => Some l | _ => None end.
(* ^(lit|lit|...)$ or ^(?:lit|lit|...)$ with 2..20 non-empty literals free of the bytes 0-2 *)
Definition as_anchored_alt (r : re) : option (list (list N)) :=
  match r with
  | RConcat [RBeginText; inner; REndText] =>
      match alt_inner inner with
      | Some l => match lits_of l with
                  | Some ls => if (2 <=? length ls) && (length ls <=? max_or_values) && forallb plainb ls then Some ls else None
                  | None => None
                  end
      | None => None
      end
  | _ => None
  end.
Definition shape_of (r : re) : shape :=
  match as_literal r with
  | Some _ => ShLiteral
  | None => match as_begin_literal r with
            | Some _ => ShBeginLiteral
            | None => match as_anchored_alt r with
                      | Some _ => ShAnchoredAlt
                      | None => if negb (has_assert r) && nullable r then ShMatchAll else ShOther
                      end
            end
  end.
Definition exact_shape (r : re) : bool := match shape_of r with ShOther => false | _ => true end.

(* ------------------------------------------------------------------------------------------------ atoms of the index model *)
(* The index model (Model.v) takes the meaning of regex atoms as a function  pattern number -> value number -> bool
   (value 0 = the empty string / the absent tag). With a table of pattern trees and a table of value strings the two
   concrete meanings are: *)
Definition pat_of (pats : list (N * re)) (n : N) : re :=
  match find (fun x => (fst x =? n)%N) pats with Some x => snd x | None => RClass [] end.
Definition str_of (strs : list (N * list N)) (v : N) : option (list N) :=
  if (v =? 0)%N then None else match find (fun x => (fst x =? v)%N) strs with Some x => Some (snd x) | None => Some [] end.
Definition am_current (pats : list (N * re)) (strs : list (N * list N)) (p v : N) : bool :=
  current_match (pat_of pats p) (str_of strs v).
Definition am_repaired (pats : list (N * re)) (strs : list (N * list N)) (p v : N) : bool :=
  repaired_match (pat_of pats p) (str_of strs v).
