(* C10: what the _current variants - /repo before the fix commits named below, all fixed since - do NOT satisfy, and two
   variants that never were /repo's code. Witnesses are closed by vm_compute. *)
From Coq Require Import NArith List Bool.
From OG Require Import C10.Model C10.Regex C10.RegexSearch C10.Prune C10.Cache C10.Rows.
Import ListNotations.
Open Scope N_scope.

(* With abstract matchers: for SOME functions unanch and anch (the statement does not tie them to one another) the search
   that uses anch for non-literal patterns misses a series brute force with unanch selects. The witness reads them as
   pattern 1 = [wd] on value web=1: found unanchored, not matched anchored. The statement about the real translation
   (before /repo f7a71a4) is C10_current_refuted_regex_search. *)
Theorem C10_current_refuted_regex :
  exists (is_literal : N -> bool) (unanch anch : N -> N -> bool) (L : list entry) (m : N) (e : expr) (id : N),
    In id (bruteforce unanch L m e) /\
    ~ In id (search (atom_match_current is_literal unanch anch) (postings L) m e).
Proof.
  exists (fun _ => false), (fun p v => (p =? 1) && (v =? 1)), (fun _ _ => false),
         [(mkS 1 [(1, 1)], 5)], 1, (Atom 1 Re 1), 5.
  vm_compute. split; [left; reflexivity | intros []].
Qed.
Print Assumptions C10_current_refuted_regex.

(* Before /repo ce36ae7: a cache clear between an insert and the next index flush makes the same series key get a second id:
   the slow lookup only sees flushed items. *)
Theorem C10_current_refuted_cacheclear :
  exists (os : list op) (s : series) (a b : N),
    snd (run slow_current (empty_index 0) os) = [Some a; None; Some b] /\ os = [Insert s; ClearCache; Insert s] /\ a <> b.
Proof.
  exists [Insert (mkS 1 [(1, 1)]); ClearCache; Insert (mkS 1 [(1, 1)])], (mkS 1 [(1, 1)]), 1, 2.
  vm_compute. repeat split. discriminate.
Qed.
Print Assumptions C10_current_refuted_cacheclear.

(* Before /repo 0471d6c: on the show-series / drop-series path a negated regex whose pattern matches the empty string yields "no constraint"
   under AND instead of the empty set: host = 'web' AND region !~ /.*/ selects the series although nothing satisfies it. *)
Theorem C10_current_refuted_negated_matchall :
  exists (am : N -> N -> bool) (L : list entry) (m : N) (e : expr) (id : N),
    In id (search_ids_top_current am (postings L) m e) /\ ~ In id (bruteforce am L m e).
Proof.
  exists (fun _ _ => true), [(mkS 1 [(1, 1)], 5)], 1, (And (Atom 1 Eq 1) (Atom 2 Nre 1)), 5.
  vm_compute. split; [left; reflexivity | intros []].
Qed.
Print Assumptions C10_current_refuted_negated_matchall.

(* ---- the translation of a regex pattern into a tag filter before /repo f7a71a4 (Regex.current_match) outside the exact shapes.
   Strings: web = [119;101;98], db = [100;98], '-' = 45, '0' = 48, '1' = 49. Each witness: (pattern tree, value, what the
   index matched, what unanchored matching gives). *)
Definition web := [119; 101; 98]%N.
Theorem C10_current_refuted_regex_shapes :
  (* /[wd]/ on "web": a class becomes exact-value lookups *)
  (current_match (RClass [(100, 100); (119, 119)]%N) (Some web) = false /\ repaired_match (RClass [(100, 100); (119, 119)]%N) (Some web) = true) /\
  (* /web|db/ on "web-1": an alternation becomes exact-value lookups *)
  (current_match (RAlt [RLit false web; RLit false [100; 98]%N]) (Some (web ++ [45; 49]%N)) = false /\
   repaired_match (RAlt [RLit false web; RLit false [100; 98]%N]) (Some (web ++ [45; 49]%N)) = true) /\
  (* /web-[0-9]/ on "web-10": literal prefix + exact lookups of the rest *)
  (current_match (RConcat [RLit false (web ++ [45]%N); RClass [(48, 57)]%N]) (Some (web ++ [45; 49; 48]%N)) = false /\
   repaired_match (RConcat [RLit false (web ++ [45]%N); RClass [(48, 57)]%N]) (Some (web ++ [45; 49; 48]%N)) = true) /\
  (* /web.*/ on "xweb": the literal prefix is anchored at the start of the value *)
  (current_match (RConcat [RLit false web; RStar RAnyNL]) (Some (120 :: web)%N) = false /\
   repaired_match (RConcat [RLit false web; RStar RAnyNL]) (Some (120 :: web)%N) = true) /\
  (* /a.c/ on "abxc": the rewrite appends .* and the rest is matched unanchored *)
  (current_match (RConcat [RLit false [97]%N; RAnyNL; RLit false [99]%N]) (Some [97; 98; 120; 99]%N) = true /\
   repaired_match (RConcat [RLit false [97]%N; RAnyNL; RLit false [99]%N]) (Some [97; 98; 120; 99]%N) = false).
Proof. vm_compute. repeat split. Qed.
Print Assumptions C10_current_refuted_regex_shapes.

Theorem C10_current_refuted_regex_anchors :
  (* /^web$/ on "web-1": the anchors are stripped, the literal is searched with bytes.Contains *)
  (current_match (RConcat [RBeginText; RLit false web; REndText]) (Some (web ++ [45; 49]%N)) = true /\
   repaired_match (RConcat [RBeginText; RLit false web; REndText]) (Some (web ++ [45; 49]%N)) = false) /\
  (* /^$/ on "web": it matches the empty string, so isAllMatch selects every series *)
  (current_match (RConcat [RBeginText; REndText]) (Some web) = true /\ repaired_match (RConcat [RBeginText; REndText]) (Some web) = false).
Proof. vm_compute. repeat split. Qed.
Print Assumptions C10_current_refuted_regex_anchors.

Theorem C10_current_refuted_regex_escaped :
  (* /[0-9]+/ on the value "\x01": the item carries 0x00 '1' and the digit of the escape matches *)
  current_match (RPlus (RClass [(48, 57)]%N)) (Some [1]%N) = true /\ repaired_match (RPlus (RClass [(48, 57)]%N)) (Some [1]%N) = false.
Proof. vm_compute. repeat split. Qed.
Print Assumptions C10_current_refuted_regex_escaped.

(* the search with that translation is not brute force: host =~ /[wd]/ over {host=web} (measurement 1, key 1, value 1) *)
Theorem C10_current_refuted_regex_search :
  exists pats strs L m e id,
    In id (bruteforce (am_repaired pats strs) L m e) /\ ~ In id (search (am_current pats strs) (postings L) m e).
Proof.
  exists [(1, RClass [(100, 100); (119, 119)])], [(1, web)], [(mkS 1 [(1, 1)], 5)], 1, (Atom 1 Re 1), 5.
  vm_compute. split; [left; reflexivity | intros []].
Qed.
Print Assumptions C10_current_refuted_regex_search.

(* The tag-filter result cache with the key used before f7a71a4 (the literal the pattern is reduced to): /a.c/ and /a\.c/ are filed under
   the same text "a.c", so after host =~ /a.c/ the query host =~ /a\.c/ is answered with the first one's result. Source
   texts: 1 = a.c, 2 = a\.c (any parser that maps them to these trees). *)
Theorem C10_current_refuted_tagfilter_cache :
  exists (parse : list N -> re) (q1 q2 : tfq) (v : option (list N)),
    tf_key_current parse q1 = tf_key_current parse q2 /\
    tf_answer parse current_match q1 v <> tf_answer parse current_match q2 v /\
    cached_run tfq (list N * bool) _ (tf_key_current parse) tf_keqb (tf_answer parse current_match) [] [q1; q2]
      <> map (tf_answer parse current_match) [q1; q2].
Proof.
  exists (fun s => if list_eqb s [97; 46; 99]%N then RConcat [RLit false [97]%N; RAnyNL; RLit false [99]%N]
                   else RLit false [97; 46; 99]%N),
         ([97; 46; 99]%N, false), ([97; 92; 46; 99]%N, false), (Some [97; 120; 99]%N).
  split; [vm_compute; reflexivity |]. split.
  - vm_compute. discriminate.
  - intros H. apply (f_equal (fun l => map (fun g => g (Some [97; 120; 99]%N)) l)) in H. vm_compute in H. discriminate.
Qed.
Print Assumptions C10_current_refuted_tagfilter_cache.

(* Before f7a71a4 the pruning path compiled the filter's value text, and for a pattern reduced to a literal that text was the literal:
   /\./ (source 92 46) is reduced to the literal "." which, compiled, is "any character" and matches the value "b". *)
Theorem C10_current_refuted_prune_reading :
  exists (parse : list N -> re) (q : tfq) (v : option (list N)),
    repaired_match (tf_prune_tree_current parse q) v <> repaired_match (tf_prune_tree_repaired parse q) v.
Proof.
  exists (fun s => if list_eqb s [92; 46]%N then RLit false [46]%N else RAnyNL), ([92; 46]%N, false), (Some [98]%N).
  vm_compute. discriminate.
Qed.
Print Assumptions C10_current_refuted_prune_reading.

(* A variant of the key evaluator that lets only k = '' hold on a series without tag k (a realistic "simplification") is not
   the predicate: b != 'y' holds on a series without b. Kept as a witness that theorem C10_prune_atom_is_eval is not vacuous
   about absent tags; it never was /repo's code (the trial change /verif/seeded/C10-m4). *)
Theorem C10_prune_variant_refuted :
  exists am f ts, prune_atom_absent_only_empty am f ts <> eval am (atom_of f) ts.
Proof. exists (fun _ _ => false), (2, Neq, 7), [(1, 1)]. vm_compute. discriminate. Qed.
Print Assumptions C10_prune_variant_refuted.

(* Before /repo 726371b the callback of a background flush was deferred to a 10 s tick: the filter cached before the flush keeps its old answer
   although the new series is visible to the uncached search. host = 'a' over {host=a}, then {host=a,region=eu} is written and
   flushed in the background. *)
Theorem C10_current_refuted_result_cache :
  exists am n os, ~ Forall (fun x => match x with Some (a, u) => a = u | None => True end) (crun false am (cempty n) os).
Proof.
  exists (fun _ _ => false), 100,
    [OInsert (mkS 1 [(1, 1)]); OFlush; OSearch 1 (Atom 1 Eq 1); OInsert (mkS 1 [(1, 1); (2, 3)]); OBgFlush; OSearch 1 (Atom 1 Eq 1)].
  vm_compute. intros H. repeat match goal with H : Forall _ (_ :: _) |- _ => inversion H; clear H; subst end. discriminate.
Qed.
Print Assumptions C10_current_refuted_result_cache.

(* a row scan that lets a REJECTED full row end the scan of its value loses a value whose eligible id sits in a later row
   (never /repo's code - the trial change /verif/seeded/C10-m6: a non-vacuity witness for C10_row_scan_is_exists) *)
Theorem C10_row_scan_variant_refuted : exists elig rows, scan_rows_skip_rejected_full elig rows <> existsb elig (concat rows).
Proof. exists (fun id => id =? 100), [map N.of_nat (seq 0 64); [100]]. vm_compute. discriminate. Qed.
Print Assumptions C10_row_scan_variant_refuted.
