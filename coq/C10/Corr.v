(* C10 correspondence evaluator: replays a harness case on the model and reports where the model's observables differ from
   what the implementation produced. Strings are interned by the driver (0 = empty string). The meaning of regex atoms is
   given to the index model as a finite table (pattern id, value id) that [model_tab] computes from the pattern trees of the
   case through the model of the index's translation; [check_rows] compares the rows measured on the implementation with it. *)
From Coq Require Import NArith List Bool.
From OG Require Import C10.Model C10.Regex C10.RegexNew C10.ListingCond.
Import ListNotations.
Open Scope N_scope.

Inductive cop :=
| CInsert (s : series) (id : N)
| CFlush
| CNop            (* an observation the model does not cover (a predicate with a tag = tag comparison): judged by the oracle only *)
| CBgFlush        (* the table's own periodic flush: the raw items become visible like with a forced flush *)
| CClear
| CReopen (b : N)
(* predicate e (regex atoms read through the index's own translation table), alternative readings of e in which some regex
   atoms are read through Go regexp (the pruning path evaluates them that way), ids by the show-series path, ids by the
   select path *)
| CQuery (m : N) (e : expr) (alts : list expr) (ids1 ids2 : list N)
(* the same with alternative readings of the predicate for the show-series path (alts1): code 30 (information, not a
   mismatch) when the show-series path equals one of them and not the predicate itself *)
| CQueryA (m : N) (e : expr) (alts1 alts : list expr) (ids1 ids2 : list N)
| CCondA (m : N) (e : expr) (alts1 : list expr) (card : N) (ss : list series) (vals : list (N * list N)) (vcards : list (N * N))
| CList (m : N) (ss : list series) (keys : list N) (vals : list (N * list N))
(* a predicate with IN / NOT IN atoms (rendered as OR of = / AND of !=): only the select path implements them *)
| CQuery2 (m : N) (e : expr) (alts : list expr) (ids2 : list N)
(* listings with a condition and cardinalities: series cardinality, series keys, tag values per key under the condition,
   number of distinct values per key (unconditional) *)
| CCond (m : N) (e : expr) (card : N) (ss : list series) (vals : list (N * list N)) (vcards : list (N * N)).

Definition am_tab (tab : list (N * N)) (p v : N) : bool :=
  existsb (fun x => (fst x =? p) && (snd x =? v)) tab.

Definition subset (a b : list N) : bool := forallb (fun x => mem x b) a.
Definition set_eqb (a b : list N) : bool := subset a b && subset b a.
Definition smem (s : series) (l : list series) : bool := existsb (series_eqb s) l.
Definition sset_eqb (a b : list series) : bool :=
  (N.of_nat (length a) =? N.of_nat (length b)) && forallb (fun x => smem x b) a && forallb (fun x => smem x a) b.

(* codes: 1 insert id, 3 ids by the show-series path, 5 ids by the select path (no reading matches), 6 series listing,
   7 tag-key listing, 8 tag-value listing, 11 series cardinality with condition, 12 series keys with condition, 13 tag values
   with condition, 14 tag value cardinality *)
Definition cond_codes (cn : bool) (am : N -> N -> bool) (i : index) (m : N) (e : expr) (card : N) (ss : list series)
    (vals : list (N * list N)) (vcards : list (N * N)) : list N :=
  let T := postings (vis i) in
  let p1 := dedup (if cn then search_ids_top_current am T m e else search_ids_repaired am T m e) in
  (if N.of_nat (length p1) =? card then [] else [11]) ++
  (if sset_eqb (flat_map (key_of (vis i)) p1) ss then [] else [12]) ++
  (if forallb (fun kv => set_eqb (map t_v (filter (fun t => (t_m t =? m) && (t_k t =? fst kv) && mem (t_id t) p1) T)) (snd kv)) vals
   then [] else [13]) ++
  (if forallb (fun kc => N.of_nat (tag_value_cardinality (vis i) m (fst kc)) =? snd kc) vcards then [] else [14]).
Definition check_op (cl cn : bool) (tab : list (N * N)) (i : index) (o : cop) : index * list N :=
  let slow := if cl then slow_current else slow_repaired in
  let am := am_tab tab in
  match o with
  | CInsert s id => let (i', id') := insert slow i s in (i', if id' =? id then [] else [1])
  | CFlush => (fst (step slow i Flush), [])
  | CBgFlush => (fst (step slow i Flush), [])
  | CNop => (i, [])
  | CClear => (fst (step slow i ClearCache), [])
  | CReopen b => (fst (step slow i (Reopen b)), [])
  | CQuery m e alts ids1 ids2 =>
      let T := postings (vis i) in
      let p1 := if cn then search_ids_top_current am T m e else search_ids_repaired am T m e in
      (i, (if set_eqb p1 ids1 then [] else [3]) ++
          (if existsb (fun e' => set_eqb (search am T m e') ids2) (e :: alts) then [] else [5]))
  | CQuery2 m e alts ids2 =>
      let T := postings (vis i) in
      (i, if existsb (fun e' => set_eqb (search am T m e') ids2) (e :: alts) then [] else [5])
  | CCond m e card ss vals vcards => (i, cond_codes cn am i m e card ss vals vcards)
  | CCondA m e alts1 card ss vals vcards =>
      let c0 := cond_codes cn am i m e card ss vals vcards in
      (i, match c0 with
          | [] => []
          | _ => if existsb (fun e' => match cond_codes cn am i m e' card ss vals vcards with [] => true | _ => false end) alts1
                 then [30] else c0
          end)
  | CQueryA m e alts1 alts ids1 ids2 =>
      let T := postings (vis i) in
      let p1 := fun x => if cn then search_ids_top_current am T m x else search_ids_repaired am T m x in
      (i, (if set_eqb (p1 e) ids1 then [] else if existsb (fun e' => set_eqb (p1 e') ids1) alts1 then [30] else [3]) ++
          (if existsb (fun e' => set_eqb (search am T m e') ids2) (e :: alts) then [] else [5]))
  | CList m ss keys vals =>
      (i, (if sset_eqb (list_series (vis i) m) ss then [] else [6]) ++
          (if set_eqb (list_tag_keys (vis i) m) keys then [] else [7]) ++
          (if forallb (fun kv => set_eqb (list_tag_values (vis i) m (fst kv)) (snd kv)) vals then [] else [8]))
  end.

(* cl: key lookup through flushed items only (slow_current); cn: show-series path as before /repo 0471d6c (nil = no
   constraint) *)
Fixpoint check_ops (cl cn : bool) (tab : list (N * N)) (k : nat) (i : index) (os : list cop) : list (nat * N) :=
  match os with
  | [] => []
  | o :: r => let (i', bad) := check_op cl cn tab i o in map (fun c => (k, c)) bad ++ check_ops cl cn tab (S k) i' r
  end.

(* ---- regex atoms through the model of the translation (Regex.v). A case carries the syntax tree of every pattern it
   uses (pattern number -> tree), the runes of every interned string, and the rows measured on the implementation:
   (pattern number, string id (0 = the absent tag), Go regexp's answer, the index's answer). Pattern reading 2n is the
   index's translation of pattern n (before or since f7a71a4, switch cr), reading 2n+1 is the language (Go regexp,
   as the pruning path evaluates a regex atom). *)
(* cr = true: the translation before /repo commit f7a71a4 (Regex.current_match); cr = false: the translation since then
   (RegexNew.new_match: or-value lookups for ^X$, literal prefix for ^lit.., scan with the compiled expression on the unescaped
   value, match-everything and empty-match handling), proved equal to unanchored matching *)
Definition index_match (cr : bool) (r : re) (v : option (list N)) : bool :=
  if cr then current_match r v else new_match r v.
(* a pattern of a case: number, its tree, and the tree of the filter's value text after Init (what doPrune compiles; before
   f7a71a4 the literal text re-read as an expression when the pattern was reduced to a literal, else the pattern itself) *)
Definition cpat := (N * re * re)%type.
Definition model_tab (cr : bool) (pats : list cpat) (strs : list (N * list N)) : list (N * N) :=
  flat_map (fun p =>
    flat_map (fun v =>
      (if index_match cr (snd (fst p)) (str_of strs v) then [(2 * fst (fst p), v)] else []) ++
      (if repaired_match (snd p) (str_of strs v) then [(2 * fst (fst p) + 1, v)] else []))
      (0 :: map fst strs)) pats.

Definition arow := (N * N * bool * bool)%type.     (* pattern number, string id, Go regexp, index *)
(* codes: 9 the model's matcher differs from Go regexp; 10 the index's answer differs from the model of the translation *)
Fixpoint check_rows (cr : bool) (pats : list (N * re)) (strs : list (N * list N)) (k : nat) (rows : list arow) : list (nat * N) :=
  match rows with
  | [] => []
  | (p, v, u, i) :: r =>
      let t := pat_of pats p in let sv := str_of strs v in
      (if Bool.eqb (repaired_match t sv) u then [] else [(k, 9)]) ++
      (if Bool.eqb (index_match cr t sv) i then [] else [(k, 10)]) ++
      check_rows cr pats strs (S k) r
  end.

(* initial generator value, pattern trees, strings, measured rows, ops *)
Definition ccase := (N * list cpat * list (N * list N) * list arow * list cop)%type.
Definition check_case (cl cn cr : bool) (c : ccase) : list (nat * N) :=
  let '(base, pats, strs, rows, ops) := c in
  check_ops cl cn (model_tab cr pats strs) 0 (empty_index base) ops ++ check_rows cr (map fst pats) strs 1000 rows.

Fixpoint mismatches_from (cl cn cr : bool) (k : nat) (cs : list ccase) : list (nat * nat * N) :=
  match cs with
  | [] => []
  | c :: r => map (fun x => (k, fst x, snd x)) (check_case cl cn cr c) ++ mismatches_from cl cn cr (S k) r
  end.
Definition mismatches (cl cn cr : bool) := mismatches_from cl cn cr 0.

(* ---- the pattern x value matrix (deterministic part of the tie): every pattern of the alphabet with the results of the
   stages of the real translation and the rows measured on the real index *)
Definition mrow := (option (list N) * bool * bool)%type.     (* value (None = absent tag), Go regexp, index *)
Record mpat := mkMP { mp_src : list N; mp_vtext : list N; mp_ast : re; mp_final : re; mp_prefix : list N; mp_has_sfx : bool;
                      mp_sfx : re; mp_orv : list (list N); mp_aov : list (list N); mp_alp : list N; mp_all : bool;
                      mp_rows : list mrow }.
Definition lsubset (a b : list (list N)) : bool := forallb (fun x => existsb (list_eqb x) b) a.
(* stage codes (diagnostics): 20 simplify loop, 21 literal prefix / presence of a rest, 22 the rest's tree, 23 or-values,
   24 the filter's value text after Init (cache_literal).
   row codes: 9 the model's matcher differs from Go regexp, 10 the index differs from the model of the translation *)
Definition check_stages (p : mpat) : list N :=
  let s := simplify (mp_ast p) in
  let '(pre, sfx) := extract_prefix s in
  (if re_eqb s (mp_final p) then [] else [20]) ++
  (if list_eqb (match cache_literal (mp_ast p) with Some l => l | None => mp_src p end) (mp_vtext p) then [] else [24]) ++
  (if list_eqb pre (mp_prefix p) && Bool.eqb (match sfx with Some _ => true | None => false end) (mp_has_sfx p) then [] else [21]) ++
  match sfx with
  | Some x => (if negb (mp_has_sfx p) || re_eqb x (mp_sfx p) then [] else [22]) ++
              (if negb (mp_has_sfx p) || (lsubset (or_values x) (mp_orv p) && lsubset (mp_orv p) (or_values x)) then [] else [23])
  | None => []
  end.
(* stages of the translation since f7a71a4: 25 anchoredOrValues, 26 anchoredLiteralPrefix, 27 regexMatchesEverything *)
Definition check_stages_new (p : mpat) : list N :=
  let ov := anchored_or_values (mp_ast p) in
  (if lsubset ov (mp_aov p) && lsubset (mp_aov p) ov then [] else [25]) ++
  (if list_eqb (match ov with [] => anchored_literal_prefix (mp_ast p) | _ => mp_alp p end) (mp_alp p) then [] else [26]) ++
  (if Bool.eqb (matches_everything (mp_ast p)) (mp_all p) then [] else [27]).
(* the constants the model copies from the source: maxOrValues and the escaped bytes *)
Definition check_consts (mo e0 e1 e2 : N) : bool :=
  (N.of_nat max_or_values =? mo) && list_eqb (esc [e0; e1; e2]) [0; 48; 0; 49; 0; 50] && list_eqb (unesc [0; 48; 0; 49; 0; 50]) [e0; e1; e2].
Fixpoint check_mrows (cr : bool) (t : re) (k : nat) (rows : list mrow) : list (nat * N) :=
  match rows with
  | [] => []
  | (v, u, i) :: r =>
      (if Bool.eqb (repaired_match t v) u then [] else [(k, 9)]) ++
      (if Bool.eqb (index_match cr t v) i then [] else [(k, 10)]) ++ check_mrows cr t (S k) r
  end.
Fixpoint check_matrix (cr : bool) (k : nat) (ps : list mpat) : list (nat * nat * N) :=
  match ps with
  | [] => []
  | p :: r => map (fun c => (k, 0%nat, c)) (if cr then check_stages p else check_stages_new p) ++
              map (fun x => (k, S (fst x), snd x)) (check_mrows cr (mp_ast p) 0 (mp_rows p)) ++ check_matrix cr (S k) r
  end.
(* per pattern: shape class (0 literal, 1 match-all, 2 ^literal, 3 other, 4 ^(lit|..|lit)$) and whether it has position assertions *)
Definition shape_code (r : re) : N :=
  match shape_of r with ShLiteral => 0 | ShMatchAll => 1 | ShBeginLiteral => 2 | ShOther => 3 | ShAnchoredAlt => 4 end.
Definition pattern_classes (ps : list re) : list (N * bool) := map (fun r => (shape_code r, has_assert r)) ps.
