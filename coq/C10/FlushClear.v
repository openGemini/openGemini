(* C10 - the unflushed-cache-clear defect as /repo repairs it since ce36ae7: ClearCache flushes the raw items before (and
   after) it resets the caches, the key lookup stays what it was (cache, then flushed items only: slow_current). Ids are
   functional, injective and stable for every operation sequence, and they are the ids the other repair (a lookup that
   consults the pending items: slow_repaired) hands out. The invariant that makes the lookup sufficient: every pending
   (unflushed) entry is in the key cache. *)
From Coq Require Import NArith List Bool.
From OG Require Import C10.Model C10.Proofs.
Import ListNotations.
Open Scope N_scope.

Definition clear_flushing (i : index) : index := mkI (vis i ++ pend i) [] [] (next_id i).
Definition step_fc (i : index) (o : op) : index * option N :=
  match o with
  | ClearCache => (clear_flushing i, None)
  | _ => step slow_current i o
  end.
Fixpoint run_fc (i : index) (os : list op) : index * list (option N) :=
  match os with
  | [] => (i, [])
  | o :: r => let (i1, x) := step_fc i o in let (i2, xs) := run_fc i1 r in (i2, x :: xs)
  end.

Definition pend_cached (i : index) : Prop := forall e, In e (pend i) -> In e (cache i).
Definition wf_fc (i : index) : Prop := wf i /\ pend_cached i.

Lemma assoc_app_notin (A B : list entry) s : ~ In s (map fst B) -> assoc (A ++ B) s = assoc A s.
Proof.
  intros Hn. unfold assoc. induction A as [| a A IH]; simpl.
  - destruct (find (fun e => series_eqb (fst e) s) B) as [e |] eqn:E; auto.
    exfalso. apply find_some in E. destruct E as [Hin He]. apply series_eqb_true in He. apply Hn. rewrite <- He. apply in_map. exact Hin.
  - destruct (series_eqb (fst a) s); auto.
Qed.

Lemma lookup_fc_eq i s : wf_fc i -> lookup slow_current i s = lookup slow_repaired i s.
Proof.
  intros [_ Hpc]. unfold lookup, slow_current, slow_repaired, store.
  destruct (assoc (cache i) s) eqn:E; auto. symmetry. apply assoc_app_notin.
  intros Hin. apply in_map_iff in Hin. destruct Hin as ([s' id] & Es & Hin). simpl in Es. subst s'.
  apply Hpc in Hin. apply (assoc_none _ _ E). change s with (fst (s, id)). apply in_map. exact Hin.
Qed.
Lemma insert_fc_eq i s : wf_fc i -> insert slow_current i s = insert slow_repaired i s.
Proof. intros H. unfold insert. rewrite (lookup_fc_eq i s H). reflexivity. Qed.

Lemma wf_fc_empty n : wf_fc (empty_index n).
Proof. split; [apply wf_empty | intros e []]. Qed.

Lemma step_fc_wf i o : wf_fc i -> wf_fc (fst (step_fc i o)).
Proof.
  intros Hw. pose proof Hw as [Hwf Hpc]. destruct o as [s | | | b]; cbn [step_fc step].
  - rewrite (insert_fc_eq i s Hw). pose proof (insert_repaired_wf i s Hwf) as H1. split.
    + destruct (insert slow_repaired i s). exact H1.
    + unfold insert. destruct (lookup slow_repaired i s); simpl; intros e He.
      * right. apply Hpc. exact He.
      * apply in_app_iff in He. destruct He as [He | [<- | []]]; [right; apply Hpc; exact He | left; reflexivity].
  - split; [apply (step_repaired_wf i Flush Hwf) | intros e []].
  - simpl. split; [| intros e []]. destruct Hwf as (Hk & Hi & Hb & Hc). unfold wf, store in *. simpl. rewrite app_nil_r.
    repeat split; auto. intros e [].
  - split; [apply (step_repaired_wf i (Reopen b) Hwf) | intros e []].
Qed.
Lemma run_fc_inv (P : index -> Prop) : (forall i o, P i -> P (fst (step_fc i o))) -> forall os i, P i -> P (fst (run_fc i os)).
Proof.
  intros Hstep. induction os as [| o r IH]; simpl; intros i Hi; auto.
  pose proof (Hstep i o Hi) as H1. destruct (step_fc i o) as [i1 x].
  pose proof (IH i1 H1) as H2. destruct (run_fc i1 r) as [i2 xs]. exact H2.
Qed.
Lemma run_fc_wf os i : wf_fc i -> wf_fc (fst (run_fc i os)).
Proof. apply run_fc_inv, step_fc_wf. Qed.
Lemma reachable_wf_fc n os : wf_fc (fst (run_fc (empty_index n) os)).
Proof. apply run_fc_wf, wf_fc_empty. Qed.

Lemma step_fc_store_mono i o e : In e (store i) -> In e (store (fst (step_fc i o))).
Proof.
  intros Hin. destruct o as [s | | | b]; try apply (step_store_mono slow_current i _ e Hin).
  simpl. unfold store in *. simpl. rewrite app_nil_r. exact Hin.
Qed.
Lemma run_fc_store_mono os i e : In e (store i) -> In e (store (fst (run_fc i os))).
Proof. apply (run_fc_inv (fun j => In e (store j))). intros j o. apply step_fc_store_mono. Qed.

Theorem fc_id_stable i s os : wf_fc i ->
  let r := insert slow_current i s in snd (insert slow_current (fst (run_fc (fst r) os)) s) = snd r.
Proof.
  intros W r.
  assert (W2 : wf_fc (fst r)).
  { pose proof (step_fc_wf i (Insert s) W) as H. cbn [step_fc step] in H. unfold r. destruct (insert slow_current i s). exact H. }
  assert (W3 : wf_fc (fst (run_fc (fst r) os))) by (apply run_fc_wf; exact W2).
  rewrite (insert_fc_eq _ s W3). apply insert_repaired_known; [apply W3 |]. apply run_fc_store_mono.
  unfold r. rewrite (insert_fc_eq i s W). apply insert_repaired_returns, W.
Qed.
(* a cache hit or a hit in the flushed items is all there is: the lookup through flushed items finds every stored key *)
Theorem fc_lookup_complete i s id : wf_fc i -> In (s, id) (store i) -> lookup slow_current i s = Some id.
Proof. intros W Hin. rewrite (lookup_fc_eq i s W). apply lookup_repaired_iff; [apply W | exact Hin]. Qed.

(* the two repairs hand out the same ids: for every operation sequence the flush-before-clear index with the lookup through flushed items
   answers every insert like the index whose lookup consults the pending items *)
Definition sim (i j : index) : Prop := store i = store j /\ cache i = cache j /\ next_id i = next_id j.

Lemma lookup_repaired_sim i j s : sim i j -> lookup slow_repaired i s = lookup slow_repaired j s.
Proof. intros (Hs & Hc & _). unfold lookup, slow_repaired. rewrite Hs, Hc. reflexivity. Qed.

Lemma step_sim i j o : wf_fc i -> sim i j ->
  sim (fst (step_fc i o)) (fst (step slow_repaired j o)) /\ snd (step_fc i o) = snd (step slow_repaired j o).
Proof.
  intros Hw Hs. pose proof Hs as (Hst & Hc & Hn). destruct o as [s | | | b]; cbn [step_fc step].
  - rewrite (insert_fc_eq i s Hw). unfold insert. rewrite (lookup_repaired_sim i j s Hs).
    destruct (lookup slow_repaired j s); simpl.
    + split; auto. unfold sim, store in *. simpl. rewrite Hc. auto.
    + rewrite Hn. split; auto. unfold sim, store in *. simpl. rewrite !app_assoc, Hst, Hc. auto.
  - simpl. split; auto. unfold sim, store in *. simpl. rewrite !app_nil_r. auto.
  - simpl. split; auto. unfold sim, store in *. simpl. rewrite app_nil_r. auto.
  - simpl. split; auto. unfold sim, store in *. simpl. rewrite !app_nil_r, Hn. auto.
Qed.
Theorem fc_outputs_equal os : forall i j, wf_fc i -> sim i j -> snd (run_fc i os) = snd (run slow_repaired j os).
Proof.
  induction os as [| o r IH]; simpl; intros i j Hw Hs; auto.
  pose proof (step_sim i j o Hw Hs) as [H1 H2]. pose proof (step_fc_wf i o Hw) as H3.
  destruct (step_fc i o) as [i1 x]. destruct (step slow_repaired j o) as [j1 y]. simpl in *.
  pose proof (IH i1 j1 H3 H1) as H4. destruct (run_fc i1 r) as [i2 xs]. destruct (run slow_repaired j1 r) as [j2 ys].
  simpl in *. rewrite H2, H4. reflexivity.
Qed.
