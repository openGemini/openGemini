(* C19: the tree before the repairs named below violated the property at exactly these places. The theorems are about the
   frozen `_current` constants (they mirror that tree and do not depend on the generated table, so they keep checking
   now that the repository is repaired); the generated table of a run is classified against them by run.py. *)
From Coq Require Import String List Bool NArith.
From OG Require Import C19.Model C19.Privileges C19.AuthCache C19.Proofs.
Import ListNotations.
Open Scope string_scope.
Open Scope N_scope.

Definition shape_current : shape :=
  mk_shape [mk_wrap SigUser WrapAuth "h.Config.AuthEnabled"; mk_wrap SigPlain WrapPlain ""] 0 true 0 true 1 0.
Definition failpoint_route_current : route := mk_route "failpoint" "POST" "/failpoint" "h.failPoint" SigPlain "".
Definition runtime_config_route_current : route :=
  mk_route "query-runtime-config" "GET" "/runtime_config" "runtimecfg.RuntimeConfigHandler(s.runtimeCfgService, c.Limits)" SigPlain
           "s.runtimeCfgService != nil".
Definition prefixes_current : list prefix_rule :=
  [mk_prefix "/debug/pprof" "h.Config.PprofEnabled" "h.handleProfiles" true false [];
   mk_prefix "/debug/vars" "" "h.serveExpvar" true false [];
   mk_prefix "/debug/query" "" "h.serveDebugQuery" true false []].
Definition cfg_on : config := mk_config true false [].
Definition one_admin : list user := [mk_user "root" "rootpw" true false []].
Definition anonymous : request := mk_request (mk_creds_in "" "" HNone) "".

(* C19-failpoint-public / C19-runtime-config-public (repaired by 8b29366, bbb5325): a route registered with the two-argument signature runs its
   handler for a request without any credentials, although it is not on the statement's whitelist (the witness is /failpoint;
   /runtime_config: C19_runtime_config_refuted) *)
Theorem C19_plain_signature_refuted :
  exists r, (r = failpoint_route_current \/ r = runtime_config_route_current) /\
    public r = false /\ auth_enabled cfg_on = true /\ admin_exists one_admin = true /\
    (forall u, ~ valid_creds cfg_on one_admin (rq_creds anonymous) u) /\
    snd (serve shape_current cfg_on one_admin r KAdminOnly anonymous) <> [].
Proof.
  exists failpoint_route_current. split; [left; reflexivity|]. split; [reflexivity|]. split; [reflexivity|].
  split; [reflexivity|]. split.
  - intros u [(n & p & [(U & _)|(_ & [E|E])] & _)|(t & n & [_ E] & _)]; try discriminate.
    destruct U as [U _]. apply U. reflexivity.
  - vm_compute. discriminate.
Qed.
Print Assumptions C19_plain_signature_refuted.

Theorem C19_runtime_config_refuted :
  public runtime_config_route_current = false /\
  snd (serve shape_current cfg_on one_admin runtime_config_route_current KOpaque anonymous) <> [].
Proof. split; [reflexivity|vm_compute; discriminate]. Qed.

(* C19-debug-public (repaired by a359e60): these paths never reached the mux, hence never `authenticate` *)
Theorem C19_debug_prefix_refuted :
  exists path, snd (serve_path shape_current cfg_on [] prefixes_current one_admin path
                               (mk_route "none" "GET" path "" SigUser "") KOpaque anonymous) <> [].
Proof. exists "/debug/vars". vm_compute. discriminate. Qed.
Print Assumptions C19_debug_prefix_refuted.

Theorem C19_debug_prefix_refuted_each :
  forallb (fun path => match dispatch ["h.Config.PprofEnabled"] prefixes_current path with Some _ => true | None => false end)
          ["/debug/vars"; "/debug/query"; "/debug/pprof"; "/debug/pprof/heap"; "/debug/varsX"] = true.
Proof. vm_compute. reflexivity. Qed.

(* with the repairs the same requests are answered 401 *)
Theorem C19_repaired_rejects :
  serve shape_current cfg_on one_admin (repair_route failpoint_route_current) KAdminOnly anonymous = (401, []) /\
  serve shape_current cfg_on one_admin (repair_route runtime_config_route_current) KOpaque anonymous = (401, []) /\
  repair_prefixes prefixes_current = [].
Proof. vm_compute. repeat split. Qed.

(* C19-create-tsdb-unprivileged: a handler that takes the user but checks nothing (KOpaque,
   servePromCreateTSDB before 21eba35) acts for a user who holds no privilege at all; an administrator check (KAdminOnly) refuses. *)
Definition nobody : user := mk_user "grantee" "Gr#Pw12345xy" false false [].
Definition tsdb_route_current : route := mk_route "prometheus-create-tsdb" "POST" "/api/v1/tsdb/{tsdb}" "h.servePromCreateTSDB" SigUser "".
Theorem C19_unchecked_handler_refuted :
  let us := (one_admin ++ [nobody])%list in
  let rq := mk_request (mk_creds_in "grantee" "Gr#Pw12345xy" HNone) "" in
  snd (serve shape_current cfg_on us tsdb_route_current KOpaque rq) <> [] /\
  u_admin nobody = false /\ u_privs nobody = [] /\
  serve shape_current cfg_on us tsdb_route_current KAdminOnly rq = (403, []).
Proof. vm_compute. repeat split. discriminate. Qed.
Print Assumptions C19_unchecked_handler_refuted.

(* C19-logstore-listing-unprivileged (repaired 3986ddb): the old listing handler returned the whole catalogue to every
   authenticated user; the repaired one returns what the user may read or write. *)
Definition listing_current (u : user) (dbs : list string) : list string := dbs.
Theorem C19_listing_refuted :
  exists d, In d (listing_current nobody ["db1"; "db2"]) /\ ~ (has_priv nobody ReadPriv d \/ has_priv nobody WritePriv d).
Proof.
  exists "db1". split; [left; reflexivity|]. intros [H|H]; apply authorize_database_spec in H; vm_compute in H; discriminate.
Qed.
Print Assumptions C19_listing_refuted.
Theorem C19_listing_repaired : visible_repositories nobody ["db1"; "db2"] = [].
Proof. reflexivity. Qed.

(* C19-logstore-data-unprivileged (repaired by 4df29f6): the log-store record / upload / cursor / consume / stream-task handlers made no
   authorization decision on their user: the handler fact is the empty list, which only the finding, while it was listed as open, excused; such a
   handler (KOpaque) acts for a user without any privilege, while the write check of serveWrite (KWrite) refuses. *)
Definition records_guard_current : hguard := mk_hguard "POST" "/repo/{repository}/logstreams/{logStream}/records" [].
Definition records_route_current : route :=
  mk_route "write-log" "POST" "/repo/{repository}/logstreams/{logStream}/records" "h.serveRecord" SigUser "config2.IsLogKeeper()".
Theorem C19_dataplane_refuted :
  let us := (one_admin ++ [nobody])%list in
  let rq := mk_request (mk_creds_in "grantee" "Gr#Pw12345xy" HNone) "db1" in
  guard_ok [] records_guard_current = false /\
  snd (serve shape_current cfg_on us records_route_current KOpaque rq) <> [] /\
  serve shape_current cfg_on us records_route_current KWrite rq = (403, []) /\
  guard_ok [] (mk_hguard "POST" "/repo/{repository}/logstreams/{logStream}/records" ["write"]) = true.
Proof. vm_compute. repeat split. discriminate. Qed.
Print Assumptions C19_dataplane_refuted.

(* C19-cardinality-no-source-unprivileged (repaired by a1d6f29): with the RequiredPrivileges methods before it a cardinality statement without
   a FROM clause (key cardinalities; EXACT series / measurement cardinality) asks for nothing: a user without any
   privilege is authorized to read the measurement names and counts of any database. *)
Theorem C19_cardinality_refuted :
  exists ty exact, In ty cardinality_types /\
    card_rule model_privs ty exact "db1" [] = Some [] /\
    authorize_query nobody "db1" [[]] = true /\ authorize_database nobody ReadPriv "db1" = false.
Proof.
  exists "ShowTagKeyCardinalityStatement", true. split; [right; right; left; reflexivity|]. vm_compute. repeat split.
Qed.
Print Assumptions C19_cardinality_refuted.

Theorem C19_cardinality_refuted_each :
  forallb (fun te => match card_rule model_privs (fst te) (snd te) "db1" [] with Some [] => true | _ => false end)
    [("ShowTagKeyCardinalityStatement", true); ("ShowTagKeyCardinalityStatement", false); ("ShowFieldKeyCardinalityStatement", false);
     ("ShowTagValuesCardinalityStatement", false); ("ShowSeriesCardinalityStatement", true); ("ShowMeasurementCardinalityStatement", true)] = true.
Proof. vm_compute. reflexivity. Qed.

(* C19-debug-public repaired (a359e60, props/C19/fix6.patch): with the three prefixes behind authenticate and asking for the
   administrator, the anonymous requests of C19_debug_prefix_refuted_each are answered 401, and no prefix rule is left unexempt *)
Definition prefixes_repaired : list prefix_rule :=
  map (fun p => mk_prefix (p_prefix p) (p_guard p) (p_callee p) true true ["admin"]) prefixes_current.
Theorem C19_debug_prefix_repaired :
  forallb (fun path => match serve_path shape_current cfg_on ["h.Config.PprofEnabled"] prefixes_repaired one_admin path
                               (mk_route "none" "GET" path "" SigUser "") KOpaque anonymous with (401, []) => true | _ => false end)
          ["/debug/vars"; "/debug/query"; "/debug/pprof/heap"] = true /\ unexempt_prefixes [] prefixes_repaired = [].
Proof. vm_compute. split; reflexivity. Qed.

(* a client that refreshes the password cache only after user commands (seeded change C19-m6, not the repository): a
   password replaced through a full snapshot still authenticates *)
Theorem C19_refresh_only_on_user_commands_refuted :
  exists evs us0 n p,
    let st := run verify_plain refresh_on_user_commands_only [] us0 evs in
    fst (authenticate_c verify_plain (fst st) (snd st) n p) = true /\
    forall u, find_cuser (snd st) n = Some u -> verify_plain (cu_hash u) p = false.
Proof.
  exists [EvAuth "alice" "old"; EvUpdate PFull [mk_cuser "alice" "H:new" false true]], [mk_cuser "alice" "H:old" false true], "alice", "old".
  cbn zeta. split; [vm_compute; reflexivity|]. intros u F. vm_compute in F. inversion F; subst u. reflexivity.
Qed.
Print Assumptions C19_refresh_only_on_user_commands_refuted.
