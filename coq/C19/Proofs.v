(* C19 lemmas: what a passed table check says about every entry of the table; what `authenticate` can answer and that
   `valid_creds` is its specification; the decision `inner` takes and that `sufficient` is its specification; GRANT / REVOKE
   as a change of one user's privilege on one database; the RequiredPrivileges table (administrator-only types, cardinality
   rule); the translated AuthorizeUnrestricted formula and the authorizer's result kinds. *)
From Coq Require Import String List Bool NArith.
From OG Require Import C19.Model C19.Guards C19.Gen_Routes C19.Privileges C19.Gen_Privileges.
Import ListNotations.
Open Scope string_scope.
Open Scope N_scope.

Lemma filter_negb_nil : forall A (p : A -> bool) l,
  filter (fun x => negb (p x)) l = [] -> forall x, In x l -> p x = true.
Proof.
  intros A p l H x Hin. destruct (p x) eqn:E; [reflexivity|].
  assert (In x (filter (fun x => negb (p x)) l)) as Hf by (apply filter_In; rewrite E; auto).
  rewrite H in Hf. destruct Hf.
Qed.

Lemma route_table_ok_lift : forall sh rs,
  forallb (route_ok sh) rs = true ->
  forall r, In r rs -> public r = false -> authenticated sh r = true \/ always_rejects r = true.
Proof.
  intros sh rs H r Hin Hp. rewrite forallb_forall in H. specialize (H r Hin).
  unfold route_ok in H. rewrite Hp in H. cbn [orb] in H. apply orb_true_iff in H. exact H.
Qed.

Lemma unguarded_nil_forall : forall open gs, unguarded open gs = [] ->
  forall g, In g gs -> decides g = true \/ guard_exempt open g = true.
Proof. intros open gs H g Hin. apply orb_true_iff. exact (filter_negb_nil _ _ _ H g Hin). Qed.

(* the handler facts cover the table: every route with the authenticated signature has its row *)
Definition has_guard_row (r : route) : bool :=
  negb (hsig_eqb (r_sig r) SigUser) ||
  match find_guard handler_guards (r_method r) (r_pattern r) with Some _ => true | None => false end.

Lemma dispatch_nil : forall g path, dispatch g [] path = None.
Proof. reflexivity. Qed.

Lemma dispatch_some_in : forall g ps path p, dispatch g ps path = Some p -> In p ps /\ String.prefix (p_prefix p) path = true.
Proof.
  induction ps as [|q ps IH]; intros path p H; cbn [dispatch] in H; [discriminate|].
  destruct (String.prefix (p_prefix q) path && guard_on g q) eqn:E.
  - inversion H; subst. apply andb_true_iff in E. split; [left; reflexivity|tauto].
  - destruct (IH _ _ H) as [A B]. split; [right; exact A|exact B].
Qed.

(* a path is taken away from the mux only by a rule that runs behind authenticate and asks for the administrator, or that
   an open finding names *)
Lemma dispatch_only_exempt : forall open ps, unexempt_prefixes open ps = [] ->
  forall g path p, dispatch g ps path = Some p ->
  prefix_admin p = true \/ (mem "C19-debug-public" open = true /\ known_prefix p = true).
Proof.
  intros open ps H g path p Hd. apply dispatch_some_in in Hd.
  pose proof (filter_negb_nil _ _ _ H p (proj1 Hd)) as X. unfold prefix_ok, exempt_prefix in X.
  apply orb_true_iff in X. rewrite andb_true_iff in X. exact X.
Qed.

(* AddRoutes wraps the authenticated signature with authenticate *)
Lemma siguser_authenticated : forall sh r, shape_ok sh = true -> r_sig r = SigUser -> authenticated sh r = true.
Proof.
  intros sh r S H. unfold authenticated. rewrite H. unfold shape_ok in S.
  repeat (apply andb_true_iff in S; destruct S as [S _]). exact S.
Qed.

Lemma siguser_not_rejecting : forall r, r_sig r = SigUser -> always_rejects r = false.
Proof. intros r H. unfold always_rejects. rewrite H. reflexivity. Qed.

Definition has_formula_row (r : route) : bool :=
  negb (hsig_eqb (r_sig r) SigUser) ||
  match find_formula handler_formulas (r_method r) (r_pattern r) with Some _ => true | None => false end.

(* a formula that derives DAdmin goes on exactly when KAdminOnly acts. The look-up hypothesis is not used: this is
   derive_sound at DAdmin, for any g *)
Lemma find_formula_derive_admin : forall m p g cfg u rq q o,
  find_formula handler_formulas m p = Some g -> derive g = DAdmin ->
  geval (mk_genv (base_of cfg u (rq_db rq) q) o) g = acts (inner cfg KAdminOnly rq u).
Proof.
  intros m p g cfg u rq q o _ Hd. pose proof (derive_sound g) as S. rewrite Hd in S. exact (S cfg u rq q o).
Qed.

(* ParseCredentials yields only the two methods that `authenticate` handles *)
Lemma parse_methods : forall c cr, parse_credentials c = Some cr ->
  cr_method cr = UserAuthentication \/ cr_method cr = BearerAuthentication.
Proof.
  intros c cr H. unfold parse_credentials in H.
  destruct (negb (c_url_u c =? "")%string && negb (c_url_p c =? "")%string).
  - inversion H; subst. left. reflexivity.
  - destruct (c_hdr c) as [|t|[[u p]|]|[[u p]|]|]; try discriminate; inversion H; subst; cbn; auto.
Qed.

(* every refusal carries 401, a user that is handed on is never nil, and only a method value outside the two declared
   constants reaches the default arm *)
Lemma authenticate_creds_outcome : forall cfg us cr,
  match authenticate_creds cfg us cr with
  | Reject st => st = 401
  | Pass u => u <> None
  | RejectAndPass _ => exists n, cr_method cr = OtherMethod n
  end.
Proof.
  intros cfg us cr. unfold authenticate_creds. destruct (cr_method cr) as [| |n]; [| |eauto].
  - destruct (cr_user cr =? "")%string; [reflexivity|]. destruct (mem (cr_user cr) (locked cfg)); [reflexivity|].
    destruct (find_user us (cr_user cr)); [|reflexivity]. destruct (u_pass u =? cr_pass cr)%string; [discriminate|reflexivity].
  - destruct (negb (shared_secret_set cfg)); [reflexivity|]. destruct (cr_token cr) as [t|]; [|reflexivity].
    destruct (negb (tk_valid t)); [reflexivity|]. destruct (negb (tk_has_exp t)); [reflexivity|].
    destruct (tk_user t) as [m|]; [|reflexivity]. destruct (m =? "")%string; [reflexivity|].
    destruct (find_user us m); [discriminate|reflexivity].
Qed.

(* the handler receives a nil user only with authentication off or no administrator; the default arm of the method switch
   (401 written, then the handler called with a nil user) is never reached *)
Lemma authenticate_outcome : forall cfg us c,
  match authenticate cfg us c with
  | Reject st => st = 401
  | Pass None => auth_enabled cfg = false \/ admin_exists us = false
  | Pass (Some _) => True
  | RejectAndPass _ => False
  end.
Proof.
  intros cfg us c. unfold authenticate. destruct (auth_enabled cfg); [|cbn; auto]. destruct (admin_exists us); [|cbn; auto].
  cbn [negb]. destruct (parse_credentials c) as [cr|] eqn:E; [|reflexivity].
  pose proof (authenticate_creds_outcome cfg us cr) as O.
  destruct (authenticate_creds cfg us cr) as [st|[u|]|st]; [exact O|exact I|congruence|].
  destruct O as [n O]. destruct (parse_methods _ _ E); congruence.
Qed.

(* and it really is only that: a credential with any other method value does fall through to the handler *)
Lemma default_arm_falls_through : forall cfg us n u p t,
  authenticate_creds cfg us (mk_credentials (OtherMethod n) u p t) = RejectAndPass 401.
Proof. reflexivity. Qed.

(* ---- specification of "valid credentials", independent of the functions above ---- *)
Definition url_complete (c : creds_in) : Prop := c_url_u c <> "" /\ c_url_p c <> "".

Definition presented_userpass (c : creds_in) (n p : string) : Prop :=
  (url_complete c /\ c_url_u c = n /\ c_url_p c = p)
  \/ (~ url_complete c /\ (c_hdr c = HToken (Some (n, p)) \/ c_hdr c = HBasic (Some (n, p)))).

Definition presented_token (c : creds_in) (t : token) : Prop := ~ url_complete c /\ c_hdr c = HBearer t.

Definition valid_creds (cfg : config) (us : list user) (c : creds_in) (u : user) : Prop :=
  (exists n p, presented_userpass c n p /\ n <> "" /\ mem n (locked cfg) = false /\
               find_user us n = Some u /\ u_pass u = p)
  \/ (exists t n, presented_token c t /\ shared_secret_set cfg = true /\ tk_valid t = true /\ tk_has_exp t = true /\
                  tk_user t = Some n /\ n <> "" /\ find_user us n = Some u).

Lemma url_complete_dec : forall c,
  (negb (c_url_u c =? "")%string && negb (c_url_p c =? "")%string = true <-> url_complete c).
Proof.
  intros c. unfold url_complete. rewrite andb_true_iff, !negb_true_iff, !String.eqb_neq. tauto.
Qed.

Lemma url_incomplete : forall c, ~ url_complete c ->
  negb (c_url_u c =? "")%string && negb (c_url_p c =? "")%string = false.
Proof. intros c H. apply not_true_is_false. intro E. apply url_complete_dec in E. contradiction. Qed.

Lemma authenticate_creds_user_sound : forall cfg us n p u,
  authenticate_creds cfg us (user_creds n p) = Pass (Some u) ->
  n <> "" /\ mem n (locked cfg) = false /\ find_user us n = Some u /\ u_pass u = p.
Proof.
  intros cfg us n p u H. unfold authenticate_creds, user_creds in H. cbn [cr_method cr_user cr_pass] in H.
  destruct (n =? "")%string eqn:E1; [discriminate|].
  destruct (mem n (locked cfg)) eqn:E2; [discriminate|].
  destruct (find_user us n) as [u'|] eqn:E3; [|discriminate].
  destruct (u_pass u' =? p)%string eqn:E4; [|discriminate].
  inversion H; subst. apply String.eqb_neq in E1. apply String.eqb_eq in E4. auto.
Qed.

Lemma authenticate_creds_user_complete : forall cfg us n p u,
  n <> "" -> mem n (locked cfg) = false -> find_user us n = Some u -> u_pass u = p ->
  authenticate_creds cfg us (user_creds n p) = Pass (Some u).
Proof.
  intros cfg us n p u H1 H2 H3 H4. unfold authenticate_creds, user_creds. cbn [cr_method cr_user cr_pass].
  apply String.eqb_neq in H1. rewrite H1, H2, H3. apply String.eqb_eq in H4. rewrite H4. reflexivity.
Qed.

Lemma authenticate_pass_sound : forall cfg us c u,
  auth_enabled cfg = true -> admin_exists us = true ->
  authenticate cfg us c = Pass (Some u) -> valid_creds cfg us c u.
Proof.
  intros cfg us c u Ha Hadm H. unfold authenticate in H. rewrite Ha, Hadm in H. cbn [negb] in H.
  unfold parse_credentials in H.
  destruct (negb (c_url_u c =? "")%string && negb (c_url_p c =? "")%string) eqn:EU.
  - apply url_complete_dec in EU. apply authenticate_creds_user_sound in H. destruct H as (A & B & C & D).
    left. exists (c_url_u c), (c_url_p c). repeat split; auto. left. auto.
  - assert (~ url_complete c) as NU. { intro X. apply url_complete_dec in X. congruence. }
    destruct (c_hdr c) as [|t|[[n p]|]|[[n p]|]|] eqn:EH; try discriminate.
    + right. unfold authenticate_creds in H. cbn [cr_method cr_token] in H.
      destruct (shared_secret_set cfg) eqn:E0; [|discriminate]. cbn [negb] in H.
      destruct (tk_valid t) eqn:E1; [|discriminate]. destruct (tk_has_exp t) eqn:E2; [|discriminate]. cbn [negb] in H.
      destruct (tk_user t) as [n|] eqn:E3; [|discriminate].
      destruct (n =? "")%string eqn:E4; [discriminate|].
      destruct (find_user us n) as [u'|] eqn:E5; [|discriminate]. inversion H; subst.
      exists t, n. apply String.eqb_neq in E4. unfold presented_token. repeat split; auto.
    + apply authenticate_creds_user_sound in H. destruct H as (A & B & C & D).
      left. exists n, p. repeat split; auto. right. auto.
    + apply authenticate_creds_user_sound in H. destruct H as (A & B & C & D).
      left. exists n, p. repeat split; auto. right. auto.
Qed.

Lemma authenticate_pass_complete : forall cfg us c u,
  auth_enabled cfg = true -> admin_exists us = true ->
  valid_creds cfg us c u -> authenticate cfg us c = Pass (Some u).
Proof.
  intros cfg us c u Ha Hadm H. unfold authenticate. rewrite Ha, Hadm. cbn [negb]. unfold parse_credentials.
  destruct H as [(n & p & Hp & A & B & C & D)|(t & n & [NU EH] & A & B & C & D & E & F)].
  - destruct Hp as [(U & X & Y)|(NU & EH)].
    + apply url_complete_dec in U. rewrite U. subst. apply authenticate_creds_user_complete; auto.
    + rewrite (url_incomplete c NU). destruct EH as [-> | ->]; apply authenticate_creds_user_complete; auto.
  - rewrite (url_incomplete c NU), EH. unfold authenticate_creds. cbn [cr_method cr_token]. rewrite A, B, C, D. cbn [negb].
    apply String.eqb_neq in E. rewrite E, F. reflexivity.
Qed.

Lemma authenticate_invalid : forall cfg us c,
  auth_enabled cfg = true -> admin_exists us = true -> (forall u, ~ valid_creds cfg us c u) ->
  authenticate cfg us c = Reject 401.
Proof.
  intros cfg us c Ha Hadm Hno. pose proof (authenticate_outcome cfg us c) as O.
  destruct (authenticate cfg us c) as [st|[u|]|st] eqn:E.
  - rewrite O. reflexivity.
  - destruct (Hno u). apply authenticate_pass_sound; assumption.
  - destruct O; congruence.
  - destruct O.
Qed.

Definition has_priv (u : user) (p : priv) (d : string) : Prop :=
  u_admin u = true \/ u_rw u = true \/ p = NoPriv \/ exists q, lookup (u_privs u) d = Some q /\ (q = p \/ q = AllPriv).

(* one entry of a statement's requirement list, for an ordinary user *)
Definition entry_holds (u : user) (db : string) (rp : reqpriv) : Prop :=
  match rp with
  | RAdmin | RAdminRw | RInvalid => False
  | RDb d p => has_priv u p (target_db d db)
  | RRwAllow | RRwDeny => True
  end.
(* a statement, for an account with partition privileges: let through by its case, or not refused by its case and free
   of entries without the Rwuser flag *)
Definition rw_allowed (s : stmt) : Prop := In RRwAllow s \/ (~ In RRwDeny s /\ ~ In RAdmin s /\ ~ In RInvalid s).
Definition stmt_allowed (u : user) (db : string) (s : stmt) : Prop :=
  if u_rw u then rw_allowed s else forall rp, In rp s -> entry_holds u db rp.
Definition can_see_spec (u : user) (d : string) : Prop := has_priv u ReadPriv d \/ has_priv u WritePriv d.

Definition sufficient (u : user) (k : rkind) (rq : request) : Prop :=
  match k with
  | KPublic => True
  | KOpaque => True
  | KQuery q => u_admin u = true \/ forall s, In s q -> stmt_allowed u (rq_db rq) s
  | KWrite => has_priv u WritePriv (rq_db rq)
  | KAdminOnly => u_admin u = true
  | KRepoSee => can_see_spec u (rq_db rq)
  | KListRepos _ => True
  end.

Lemma priv_eqb_eq : forall a b, priv_eqb a b = true <-> a = b.
Proof. destruct a, b; cbn; split; intro H; try reflexivity; try discriminate. Qed.

Lemma authorize_database_spec : forall u p d, authorize_database u p d = true <-> has_priv u p d.
Proof.
  intros u p d. unfold authorize_database, has_priv. rewrite !orb_true_iff, priv_eqb_eq. split.
  - intros [[[A|A]|A]|A]; auto. destruct (lookup (u_privs u) d) as [q|] eqn:E; [|discriminate].
    right. right. right. exists q. split; [reflexivity|]. apply orb_true_iff in A. rewrite !priv_eqb_eq in A. exact A.
  - intros [A|[A|[A|(q & E & A)]]]; auto. right. rewrite E. apply orb_true_iff. rewrite !priv_eqb_eq. exact A.
Qed.

Lemma rw_authorize_database : forall u p d, u_rw u = true -> authorize_database u p d = true.
Proof. intros u p d H. unfold authorize_database. rewrite H. rewrite orb_true_r. reflexivity. Qed.

Lemma can_see_iff : forall u d, can_see u d = true <-> can_see_spec u d.
Proof. intros. unfold can_see, can_see_spec. rewrite orb_true_iff, !authorize_database_spec. tauto. Qed.

Lemma existsb_is (f : reqpriv -> bool) x s : (forall y, f y = true <-> y = x) -> (existsb f s = true <-> In x s).
Proof.
  intro Hf. rewrite existsb_exists. split.
  - intros (y & Hin & Hy). apply Hf in Hy. subst y. exact Hin.
  - intro H. exists x. split; [exact H | apply Hf; reflexivity].
Qed.
Lemma existsb_rwallow : forall s, existsb is_rwallow s = true <-> In RRwAllow s.
Proof. intro s. apply existsb_is. intros []; cbn; split; congruence. Qed.
Lemma existsb_rwdeny : forall s, existsb is_rwdeny s = true <-> In RRwDeny s.
Proof. intro s. apply existsb_is. intros []; cbn; split; congruence. Qed.
Lemma existsb_invalid : forall s, existsb is_invalid s = true <-> In RInvalid s.
Proof. intro s. apply existsb_is. intros []; cbn; split; congruence. Qed.

Lemma authorize_stmt_rw_spec : forall s, authorize_stmt_rw s = true <-> rw_allowed s.
Proof.
  intros s. unfold authorize_stmt_rw, rw_allowed.
  destruct (existsb is_rwallow s) eqn:EA.
  - apply existsb_rwallow in EA. tauto.
  - assert (~ In RRwAllow s) as NA. { intro X. apply existsb_rwallow in X. congruence. }
    destruct (existsb is_rwdeny s) eqn:ED.
    + apply existsb_rwdeny in ED. split; [discriminate|]. intros [X|[X _]]; contradiction.
    + assert (~ In RRwDeny s) as ND. { intro X. apply existsb_rwdeny in X. congruence. }
      rewrite forallb_forall. split.
      * intro H. right. split; [exact ND|]. split; intro X; specialize (H _ X); discriminate.
      * intros [X|[_ [X Y]]]; [contradiction|]. intros rp Hrp. destruct rp; try reflexivity; contradiction.
Qed.

Lemma authorize_stmt_spec : forall u db s, authorize_stmt u db s = true <-> stmt_allowed u db s.
Proof.
  intros u db s. unfold authorize_stmt, stmt_allowed. destruct (u_rw u); [apply authorize_stmt_rw_spec|].
  unfold authorize_stmt_plain. rewrite forallb_forall.
  split; intros H rp Hrp; specialize (H rp Hrp); destruct rp as [| |d p| | |]; cbn [entry_holds] in *;
    try discriminate; try contradiction; auto; apply authorize_database_spec; exact H.
Qed.

Lemma authorize_query_spec : forall u q rq, authorize_query u (rq_db rq) q = true <-> sufficient u (KQuery q) rq.
Proof.
  intros u q rq. unfold authorize_query, sufficient. rewrite orb_true_iff, forallb_forall.
  split; (intros [A|A]; [left; exact A|]); right; intros s Hs; apply authorize_stmt_spec; exact (A s Hs).
Qed.

Lemma authorize_query_single : forall u db s, u_admin u = false -> authorize_query u db [s] = authorize_stmt u db s.
Proof. intros u db s H. unfold authorize_query. rewrite H. cbn. apply andb_true_r. Qed.

Lemma authorize_stmt_refuses : forall u db s, ~ stmt_allowed u db s -> authorize_stmt u db s = false.
Proof. intros u db s H. apply not_true_is_false. intro E. apply H, authorize_stmt_spec, E. Qed.

Lemma authorize_query_refuses : forall u db s, u_admin u = false -> ~ stmt_allowed u db s -> authorize_query u db [s] = false.
Proof. intros u db s Ha H. rewrite authorize_query_single by exact Ha. apply authorize_stmt_refuses. exact H. Qed.

(* ---- the decision `inner` takes on the user it is given, with authentication on ---- *)
Definition allowed (u : user) (k : rkind) (rq : request) : bool :=
  match k with
  | KQuery q => authorize_query u (rq_db rq) q
  | KWrite => authorize_database u WritePriv (rq_db rq)
  | KAdminOnly => u_admin u
  | KRepoSee => can_see u (rq_db rq)
  | _ => true
  end.

Lemma allowed_iff : forall u k rq, allowed u k rq = true <-> sufficient u k rq.
Proof.
  intros u k rq. destruct k; cbn [allowed sufficient]; try tauto.
  - apply authorize_query_spec.
  - apply authorize_database_spec.
  - apply can_see_iff.
Qed.

Lemma inner_refuses : forall cfg k rq u, auth_enabled cfg = true -> allowed u k rq = false ->
  inner cfg k rq (Some u) = (403, []).
Proof. intros cfg k rq u Ha H. destruct k; cbn in *; rewrite ?Ha; cbn; try discriminate; rewrite H; reflexivity. Qed.

Lemma inner_acts : forall cfg k rq u, auth_enabled cfg = true -> allowed u k rq = true -> k <> KPublic ->
  snd (inner cfg k rq (Some u)) <> [] /\ fst (inner cfg k rq (Some u)) <> 401 /\ fst (inner cfg k rq (Some u)) <> 403.
Proof.
  intros cfg k rq u Ha H Hk. destruct k; cbn in *; rewrite ?Ha; cbn; rewrite ?H; cbn; repeat split; congruence.
Qed.

Lemma serve_pass : forall sh cfg us r k rq u,
  authenticated sh r = true -> always_rejects r = false -> authenticate cfg us (rq_creds rq) = Pass u ->
  serve sh cfg us r k rq = inner cfg k rq u.
Proof. intros sh cfg us r k rq u Hauth Hrej E. unfold serve. rewrite Hrej, Hauth, E. reflexivity. Qed.

Lemma serve_valid : forall sh cfg us r k rq u,
  auth_enabled cfg = true -> admin_exists us = true -> authenticated sh r = true -> always_rejects r = false ->
  valid_creds cfg us (rq_creds rq) u -> serve sh cfg us r k rq = inner cfg k rq (Some u).
Proof. intros. apply serve_pass; auto. apply authenticate_pass_complete; assumption. Qed.

(* on a route that is wrapped or a rejecting literal, a request without valid credentials has no effect *)
Lemma anonymous_refused : forall sh r k cfg us rq,
  authenticated sh r = true \/ always_rejects r = true ->
  auth_enabled cfg = true -> admin_exists us = true -> (forall u, ~ valid_creds cfg us (rq_creds rq) u) ->
  snd (serve sh cfg us r k rq) = [] /\ (fst (serve sh cfg us r k rq) = 401 \/ fst (serve sh cfg us r k rq) = 403).
Proof.
  intros sh r k cfg us rq Hr Ha Hadm Hno. unfold serve. destruct (always_rejects r); [cbn; auto|].
  destruct Hr as [Hau|]; [|discriminate]. rewrite Hau, (authenticate_invalid _ _ _ Ha Hadm Hno). cbn; auto.
Qed.

Definition no_creds : creds_in := mk_creds_in "" "" HNone.

(* the unauthenticated signature (/failpoint before 8b29366): no wrapper, the handler runs for whoever asks *)
Lemma plain_route_runs_for_anyone : forall sh cfg us r k rq,
  authenticated sh r = false -> always_rejects r = false -> wrap_for (s_rules sh) (r_sig r) None <> None ->
  serve sh cfg us r k rq = inner_plain k rq.
Proof.
  intros sh cfg us r k rq H1 H2 H3. unfold serve. rewrite H2, H1.
  destruct (wrap_for (s_rules sh) (r_sig r) None); [reflexivity|congruence].
Qed.

(* GRANT / REVOKE: Data.SetPrivilege replaces the privilege of the first user named n on database d *)
Definition authorize_by_name (us : list user) (n : string) (p : priv) (d : string) : bool :=
  match find_user us n with Some u => authorize_database u p d | None => false end.

Definition upd_user (n d : string) (p : priv) (u : user) : user :=
  if (u_name u =? n)%string then set_priv_user u d p else u.

Lemma lookup_set_key_same : forall A (l : list (string * A)) k v, lookup (set_key l k v) k = Some v.
Proof.
  induction l as [|[k' v'] l IH]; intros k v; cbn [set_key lookup].
  - rewrite String.eqb_refl. reflexivity.
  - destruct (k' =? k)%string eqn:E; cbn [lookup]; [rewrite String.eqb_refl; reflexivity|rewrite E; apply IH].
Qed.

Lemma lookup_set_key_other : forall A (l : list (string * A)) k v k', k' <> k -> lookup (set_key l k v) k' = lookup l k'.
Proof.
  induction l as [|[k0 v0] l IH]; intros k v k' Hne; cbn [set_key lookup].
  - assert ((k =? k')%string = false) as ->; [apply String.eqb_neq; congruence|reflexivity].
  - destruct (k0 =? k)%string eqn:E; cbn [lookup].
    + apply String.eqb_eq in E. subst k0.
      assert ((k =? k')%string = false) as ->; [apply String.eqb_neq; congruence|reflexivity].
    + destruct (k0 =? k')%string; [reflexivity|apply IH; exact Hne].
Qed.

Lemma authorize_database_other_db : forall u d p q d', d' <> d ->
  authorize_database (set_priv_user u d p) q d' = authorize_database u q d'.
Proof.
  intros. unfold authorize_database, set_priv_user. cbn [u_admin u_rw u_privs]. rewrite lookup_set_key_other; [reflexivity|assumption].
Qed.

Lemma authorize_database_set_same : forall u d p q, u_admin u = false -> u_rw u = false ->
  authorize_database (set_priv_user u d p) q d = priv_eqb q NoPriv || (priv_eqb p q || priv_eqb p AllPriv).
Proof.
  intros u d p q Ha Hr. unfold authorize_database, set_priv_user. cbn [u_admin u_rw u_privs].
  rewrite Ha, Hr, lookup_set_key_same. reflexivity.
Qed.

Lemma find_user_name : forall us n u, find_user us n = Some u -> u_name u = n.
Proof.
  induction us as [|x us IH]; intros n u F; cbn [find_user] in F; [discriminate|].
  destruct (u_name x =? n)%string eqn:Q; [inversion F; subst; apply String.eqb_eq; exact Q|apply IH; exact F].
Qed.

Lemma find_user_set_privilege : forall us n d p n',
  find_user (set_privilege us n d p) n' = option_map (upd_user n d p) (find_user us n').
Proof.
  induction us as [|u us IH]; intros n d p n'; cbn [set_privilege find_user]; [reflexivity|].
  destruct (u_name u =? n)%string eqn:E; cbn [find_user set_priv_user u_name].
  - destruct (u_name u =? n')%string eqn:E'; [cbn [option_map]; unfold upd_user; rewrite E; reflexivity|].
    (* set_privilege stopped at u: a later user found under n' <> n is as it was *)
    destruct (find_user us n') as [u'|] eqn:F; [|reflexivity]. cbn [option_map]. unfold upd_user.
    apply String.eqb_eq in E. rewrite (find_user_name _ _ _ F), <- E, String.eqb_sym, E'. reflexivity.
  - destruct (u_name u =? n')%string; [cbn [option_map]; unfold upd_user; rewrite E; reflexivity|apply IH].
Qed.

Lemma set_privilege_exact : forall us n d p n' d' q,
  n' <> n \/ d' <> d ->
  authorize_by_name (set_privilege us n d p) n' q d' = authorize_by_name us n' q d'.
Proof.
  intros us n d p n' d' q H. unfold authorize_by_name. rewrite find_user_set_privilege.
  destruct (find_user us n') as [u|] eqn:F; [|reflexivity]. cbn [option_map]. unfold upd_user.
  destruct (u_name u =? n)%string eqn:E; [|reflexivity].
  apply String.eqb_eq in E. pose proof (find_user_name _ _ _ F) as X.
  destruct H as [H|H]; [congruence|]. apply authorize_database_other_db. exact H.
Qed.

Lemma set_privilege_effect : forall us n d p u q,
  find_user us n = Some u -> u_admin u = false -> u_rw u = false ->
  authorize_by_name (set_privilege us n d p) n q d = priv_eqb q NoPriv || (priv_eqb p q || priv_eqb p AllPriv).
Proof.
  intros us n d p u q F Hna Hnr. unfold authorize_by_name. rewrite find_user_set_privilege, F. cbn [option_map].
  unfold upd_user. rewrite (find_user_name _ _ _ F), String.eqb_refl. apply authorize_database_set_same; assumption.
Qed.

Lemma set_privilege_admin_exists : forall us n d p, admin_exists (set_privilege us n d p) = admin_exists us.
Proof.
  induction us as [|u us IH]; intros n d p; cbn [set_privilege]; [reflexivity|].
  destruct (u_name u =? n)%string; unfold admin_exists in *; cbn [existsb set_priv_user u_admin]; [reflexivity|].
  rewrite IH. reflexivity.
Qed.

Lemma set_privilege_admin_exists' : forall us n d p, admin_exists (set_privilege us n d p) = admin_exists us.
Proof. exact set_privilege_admin_exists. Qed.

Lemma upd_user_name : forall n d p u, u_name (upd_user n d p u) = u_name u.
Proof. intros. unfold upd_user. destruct (u_name u =? n)%string; reflexivity. Qed.
Lemma upd_user_pass : forall n d p u, u_pass (upd_user n d p u) = u_pass u.
Proof. intros. unfold upd_user. destruct (u_name u =? n)%string; reflexivity. Qed.

Definition stmt_mentions (db d : string) (s : stmt) : bool :=
  existsb (fun rp => match rp with RDb d0 _ => String.eqb (target_db d0 db) d | _ => false end) s.
(* does handling the request consult the privilege on database d ? *)
Definition mentionsb (k : rkind) (rq : request) (d : string) : bool :=
  match k with
  | KQuery q => existsb (stmt_mentions (rq_db rq) d) q
  | KWrite => String.eqb (rq_db rq) d
  | KRepoSee => String.eqb (rq_db rq) d
  | KListRepos dbs => mem d dbs
  | _ => false
  end.

Definition map_auth (f : user -> user) (r : auth_result) : auth_result :=
  match r with Pass (Some u) => Pass (Some (f u)) | x => x end.

(* the handler looks at its user only through the two flags and the privileges on the databases the request mentions *)
Lemma inner_same_answers : forall cfg k rq u u',
  u_admin u' = u_admin u -> u_rw u' = u_rw u ->
  (forall q d, mentionsb k rq d = true -> authorize_database u' q d = authorize_database u q d) ->
  inner cfg k rq (Some u') = inner cfg k rq (Some u).
Proof.
  intros cfg k rq u u' Hadm Hrw H.
  destruct k as [|q| | | |dbs|]; cbn [inner mentionsb] in *; try reflexivity; destruct (negb (auth_enabled cfg)); try reflexivity.
  - assert (authorize_query u' (rq_db rq) q = authorize_query u (rq_db rq) q) as ->; [|reflexivity].
    unfold authorize_query. rewrite Hadm. f_equal. induction q as [|s q IH]; [reflexivity|]. cbn [forallb].
    rewrite IH by (intros p d M; apply H; cbn [existsb]; rewrite M; apply orb_true_r). f_equal.
    unfold authorize_stmt. rewrite Hrw. destruct (u_rw u); [reflexivity|].
    assert (forall p d, stmt_mentions (rq_db rq) d s = true -> authorize_database u' p d = authorize_database u p d) as Hs
      by (intros p d M; apply H; cbn [existsb]; rewrite M; reflexivity).
    clear - Hs. unfold authorize_stmt_plain, stmt_mentions in *. induction s as [|rp s IH]; [reflexivity|]. cbn [forallb].
    rewrite IH by (intros p d M; apply Hs; cbn [existsb]; rewrite M; apply orb_true_r).
    destruct rp as [| |d0 p| | |]; try reflexivity. rewrite (Hs p (target_db d0 (rq_db rq))); [reflexivity|].
    cbn [existsb]. rewrite String.eqb_refl. reflexivity.
  - rewrite (H WritePriv _ (String.eqb_refl _)). reflexivity.
  - rewrite Hadm. reflexivity.
  - unfold can_see. rewrite !(H _ _ (String.eqb_refl _)). reflexivity.
  - assert (visible_repositories u' dbs = visible_repositories u dbs) as ->; [|reflexivity].
    apply filter_ext_in. intros d Hd. unfold can_see. rewrite !(H _ d); [reflexivity| |];
      apply existsb_exists; exists d; (split; [exact Hd|apply String.eqb_refl]).
Qed.

Lemma inner_unmentioned : forall cfg k rq u d p, mentionsb k rq d = false ->
  inner cfg k rq (Some (set_priv_user u d p)) = inner cfg k rq (Some u).
Proof.
  intros cfg k rq u d p H. apply inner_same_answers; [reflexivity|reflexivity|].
  intros q d' M. apply authorize_database_other_db. congruence.
Qed.

Lemma authenticate_set_privilege : forall cfg us n d p c,
  authenticate cfg (set_privilege us n d p) c = map_auth (upd_user n d p) (authenticate cfg us c).
Proof.
  intros cfg us n d p c. unfold authenticate. rewrite set_privilege_admin_exists.
  destruct (negb (auth_enabled cfg)); [reflexivity|]. destruct (negb (admin_exists us)); [reflexivity|].
  destruct (parse_credentials c) as [cr|]; [|reflexivity].
  unfold authenticate_creds. destruct (cr_method cr); [| |reflexivity].
  - destruct (cr_user cr =? "")%string; [reflexivity|]. destruct (mem (cr_user cr) (locked cfg)); [reflexivity|].
    rewrite find_user_set_privilege. destruct (find_user us (cr_user cr)) as [u|]; [|reflexivity]. cbn [option_map].
    rewrite upd_user_pass. destruct (u_pass u =? cr_pass cr)%string; reflexivity.
  - destruct (negb (shared_secret_set cfg)); [reflexivity|]. destruct (cr_token cr) as [t|]; [|reflexivity].
    destruct (negb (tk_valid t)); [reflexivity|]. destruct (negb (tk_has_exp t)); [reflexivity|].
    destruct (tk_user t) as [m|]; [|reflexivity]. destruct (m =? "")%string; [reflexivity|].
    rewrite find_user_set_privilege. destruct (find_user us m) as [u|]; reflexivity.
Qed.

Lemma serve_set_privilege_exact : forall sh cfg us r k rq n d p,
  (forall u, authenticate cfg us (rq_creds rq) = Pass (Some u) -> u_name u <> n) \/ mentionsb k rq d = false ->
  serve sh cfg (set_privilege us n d p) r k rq = serve sh cfg us r k rq.
Proof.
  intros sh cfg us r k rq n d p H. unfold serve. destruct (always_rejects r); [reflexivity|].
  destruct (authenticated sh r); [|reflexivity]. rewrite authenticate_set_privilege.
  destruct (authenticate cfg us (rq_creds rq)) as [st|[u|]|st] eqn:E; cbn [map_auth]; try reflexivity.
  unfold upd_user. destruct (u_name u =? n)%string eqn:En; [|reflexivity].
  destruct H as [H|H].
  - exfalso. apply (H u eq_refl). apply String.eqb_eq. exact En.
  - apply inner_unmentioned. exact H.
Qed.

Lemma serve_set_privilege_self : forall sh cfg us r k rq n d p u,
  authenticated sh r = true -> always_rejects r = false ->
  authenticate cfg us (rq_creds rq) = Pass (Some u) -> u_name u = n ->
  serve sh cfg (set_privilege us n d p) r k rq = inner cfg k rq (Some (set_priv_user u d p)).
Proof.
  intros sh cfg us r k rq n d p u Hauth Hrej E Hn. apply serve_pass; [assumption..|].
  rewrite authenticate_set_privilege, E. cbn [map_auth]. unfold upd_user. rewrite Hn, String.eqb_refl. reflexivity.
Qed.

(* what user n sees after its privilege on d was set to p: d iff p is not the empty privilege, every other repository
   as before *)
Definition see_after (u : user) (d : string) (p : priv) (x : string) : bool :=
  if String.eqb x d then negb (priv_eqb p NoPriv) else can_see u x.

Lemma visible_after_set : forall u d p dbs, u_admin u = false -> u_rw u = false ->
  visible_repositories (set_priv_user u d p) dbs = filter (see_after u d p) dbs.
Proof.
  intros u d p dbs Ha Hr. unfold visible_repositories. apply filter_ext. intro x. unfold see_after, can_see.
  destruct (String.eqb x d) eqn:E.
  - apply String.eqb_eq in E. subst x. rewrite !authorize_database_set_same by assumption. destruct p; reflexivity.
  - apply String.eqb_neq in E. rewrite !authorize_database_other_db by exact E. reflexivity.
Qed.

Lemma listing_cons_lemma : forall u d dbs,
  visible_repositories u (d :: dbs) = if can_see u d then d :: visible_repositories u dbs else visible_repositories u dbs.
Proof. reflexivity. Qed.

Definition admin_only_type (ty : string) : bool :=
  match required_of model_privs ty "" with Some s => existsb (fun r => match r with RAdmin | RAdminRw => true | _ => false end) s | None => false end.

(* cardinality statements. Repaired table: without a FROM clause every one of them asks for read on its database, so a
   user without that privilege is refused; with sources it asks for read on the database of every source *)
Lemma card_repaired_no_source_check :
  forallb (fun ty => forallb (fun exact =>
     match card_rule model_privs_repaired ty exact "d" [] with Some [RDb "d" ReadPriv] => true | _ => false end) [true; false])
  cardinality_types = true.
Proof. vm_compute. reflexivity. Qed.

(* whether the rule of a row is understood does not depend on the name of the statement's database *)
Lemma card_rule_db_generic : forall tbl ty exact d d' srcs,
  card_rule tbl ty exact d srcs = None -> card_rule tbl ty exact d' srcs = None.
Proof.
  intros tbl ty exact d d' srcs. unfold card_rule. destruct (find_stmt_priv tbl ty) as [sp|]; [|reflexivity].
  destruct (negb (delegates_to_sources sp)); [reflexivity|].
  destruct (real_entries sp) as [|e [|e2 l]]; try reflexivity; try discriminate.
  destruct (has_db_read_entry sp "!s.Exact || len(s.Sources) == 0"); [discriminate|].
  destruct (has_db_read_entry sp "!s.Exact"); [discriminate|].
  destruct (has_db_read_entry sp "len(s.Sources) == 0"); [discriminate|]. reflexivity.
Qed.

Lemma uexpr_is_admin_sound : forall e, uexpr_is_admin e = true -> forall adm rw, eval_uexpr e adm rw = Some adm.
Proof.
  intros e H adm rw. unfold uexpr_is_admin in H. repeat (apply andb_true_iff in H; destruct H as [H ?]).
  assert (forall o b, opt_bool_eqb o b = true -> o = Some b) as X.
  { intros o b. destruct o as [x|]; cbn; [|discriminate]. destruct x, b; cbn; congruence. }
  destruct adm, rw; apply X; assumption.
Qed.

Lemma stmt_result_ok_iff : forall u db s, stmt_result u db s = AuthzOk <-> authorize_stmt u db s = true.
Proof.
  intros u db s. unfold stmt_result. destruct (authorize_stmt u db s); [tauto|].
  destruct (existsb is_invalid s && negb (u_rw u && existsb is_rwallow s)); split; discriminate.
Qed.

Lemma stmts_result_ok_iff : forall u db q, stmts_result u db q = AuthzOk <-> forallb (authorize_stmt u db) q = true.
Proof.
  intros u db q. induction q as [|s q IH]; cbn [stmts_result forallb]; [tauto|].
  destruct (authorize_stmt u db s) eqn:F.
  - apply stmt_result_ok_iff in F. rewrite F. exact IH.
  - destruct (stmt_result u db s) eqn:E; [apply stmt_result_ok_iff in E; congruence| |]; cbn [andb]; split; discriminate.
Qed.

Lemma query_result_ok_iff : forall u db q, query_result u db q = AuthzOk <-> authorize_query u db q = true.
Proof.
  intros u db q. unfold query_result, authorize_query. destruct (u_admin u); cbn [orb]; [tauto|]. apply stmts_result_ok_iff.
Qed.
