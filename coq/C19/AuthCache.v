(* C19: the client-side password cache (lib/metaclient/auth.go, meta_client_impl.go). Client.Authenticate looks the user up in
   the node's copy of the catalogue and then asks Auth.authenticate, which first consults a per-user cache of the last
   password that authenticated and only then compares with the stored hash. The cache must follow the catalogue on EVERY
   path by which the copy is replaced: incremental commands, full snapshot (AllClear), SetData command, version-1 snapshot. *)
From Coq Require Import String List Bool.
Import ListNotations.
Open Scope string_scope.

Record cuser := mk_cuser { cu_name : string; cu_hash : string; cu_admin : bool; cu_read_db1 : bool }.
(* UserAuthCache: the stored hash the entry was created against (base) and the password that authenticated *)
Record centry := mk_centry { ce_name : string; ce_base : string; ce_pwd : string }.

Fixpoint find_cuser (us : list cuser) (n : string) : option cuser :=
  match us with
  | [] => None
  | u :: r => if String.eqb (cu_name u) n then Some u else find_cuser r n
  end.

Inductive upath := PIncr | PFull | PSetData | PV1.

Section AuthCache.
  Variable verify : string -> string -> bool.     (* CompareHashAndPlainPwd stored-hash password *)

  Definition cache_hit (c : list centry) (n p : string) : bool :=
    existsb (fun e => String.eqb (ce_name e) n && String.eqb (ce_pwd e) p) c.
  (* AuthCache.Create: one entry per user *)
  Definition cache_add (c : list centry) (e : centry) : list centry :=
    e :: filter (fun x => negb (String.eqb (ce_name x) (ce_name e))) c.

  (* Client.Authenticate + Auth.authenticate: answer and the cache afterwards *)
  Definition authenticate_c (c : list centry) (us : list cuser) (n p : string) : bool * list centry :=
    match find_cuser us n with
    | None => (false, c)
    | Some u => if cache_hit c n p then (true, c)
                else if verify (cu_hash u) p then (true, cache_add c (mk_centry n (cu_hash u) p))
                else (false, c)
    end.

  (* AuthCache.CleanIfNeeded over the new user list: entries of dropped users and of users whose hash changed go *)
  Definition clean (c : list centry) (us : list cuser) : list centry :=
    filter (fun e => match find_cuser us (ce_name e) with Some u => String.eqb (cu_hash u) (ce_base e) | None => false end) c.

  (* the catalogue copy is replaced through `path`; `refresh path` says whether the loop refreshes the cache then *)
  Definition apply_update (refresh : upath -> bool) (c : list centry) (path : upath) (us' : list cuser) : list centry :=
    if refresh path then clean c us' else c.
  Definition refresh_always (_ : upath) : bool := true.
  Definition refresh_on_user_commands_only (p : upath) : bool := match p with PIncr => true | _ => false end.

  (* every entry belongs to a present user, was made against that user's present hash, and its password verifies *)
  Definition consistent (c : list centry) (us : list cuser) : Prop :=
    forall e, In e c -> exists u, find_cuser us (ce_name e) = Some u /\ cu_hash u = ce_base e /\ verify (ce_base e) (ce_pwd e) = true.

  Lemma consistent_nil : forall us, consistent [] us.
  Proof. intros us e []. Qed.

  Lemma authenticate_keeps_consistent : forall c us n p, consistent c us -> consistent (snd (authenticate_c c us n p)) us.
  Proof.
    intros c us n p H. unfold authenticate_c. destruct (find_cuser us n) as [u|] eqn:F; [|exact H].
    destruct (cache_hit c n p); [exact H|]. destruct (verify (cu_hash u) p) eqn:V; [|exact H].
    cbn [snd]. intros e [<-|Hin].
    - exists u. cbn. repeat split; assumption.
    - apply filter_In in Hin. destruct Hin as [Hin _]. exact (H e Hin).
  Qed.

  (* a refresh makes the cache consistent with the NEW user list, whatever changed and by which path *)
  Lemma refresh_consistent : forall c us us', consistent c us -> consistent (clean c us') us'.
  Proof.
    intros c us us' H e Hin. unfold clean in Hin. apply filter_In in Hin. destruct Hin as [Hin Hf].
    destruct (find_cuser us' (ce_name e)) as [u'|] eqn:F; [|discriminate]. apply String.eqb_eq in Hf.
    exists u'. repeat split; [exact Hf|]. destruct (H e Hin) as (u & _ & _ & V). exact V.
  Qed.

  (* with a consistent cache a password is accepted only if it verifies against the user's PRESENT hash: a superseded
     password, a dropped user, a password that never was right are refused *)
  Lemma consistent_no_stale_acceptance : forall c us n p,
    consistent c us -> fst (authenticate_c c us n p) = true ->
    exists u, find_cuser us n = Some u /\ verify (cu_hash u) p = true.
  Proof.
    intros c us n p H A. unfold authenticate_c in A. destruct (find_cuser us n) as [u|] eqn:F; [|discriminate].
    exists u. split; [reflexivity|]. destruct (cache_hit c n p) eqn:Hit.
    - unfold cache_hit in Hit. apply existsb_exists in Hit. destruct Hit as (e & Hin & He).
      apply andb_true_iff in He. destruct He as [E1 E2]. apply String.eqb_eq in E1. apply String.eqb_eq in E2.
      destruct (H e Hin) as (u' & F' & Hh & V). rewrite E1, F in F'. inversion F'; subst u'. rewrite Hh, <- E2. exact V.
    - destruct (verify (cu_hash u) p) eqn:V; [reflexivity|discriminate].
  Qed.

  (* the whole history: start empty, any sequence of authentications and of updates through any path *)
  Inductive event := EvAuth (n p : string) | EvUpdate (path : upath) (us' : list cuser).
  Fixpoint run (refresh : upath -> bool) (c : list centry) (us : list cuser) (evs : list event) : list centry * list cuser :=
    match evs with
    | [] => (c, us)
    | EvAuth n p :: r => run refresh (snd (authenticate_c c us n p)) us r
    | EvUpdate path us' :: r => run refresh (apply_update refresh c path us') us' r
    end.

  Lemma run_consistent : forall evs c us, consistent c us ->
    consistent (fst (run refresh_always c us evs)) (snd (run refresh_always c us evs)).
  Proof.
    induction evs as [|ev evs IH]; intros c us H; [exact H|]. destruct ev as [n p|path us']; cbn [run].
    - apply IH. apply authenticate_keeps_consistent. exact H.
    - apply IH. exact (refresh_consistent c us us' H).
  Qed.
End AuthCache.

(* the hash of the correspondence cases: "H:" followed by the password *)
Definition verify_plain (h p : string) : bool := String.eqb h ("H:" ++ p).

(* ---- correspondence cases: what the real client answered (harness/cmd/c19 authcache) ---- *)
Record probe := mk_probe { pr_name : string; pr_pwd : string; pr_observed : bool }.
Record accase := mk_accase { ac_before : list cuser; ac_warm : list (string * string); ac_path : upath; ac_after : list cuser;
                             ac_probes : list probe; ac_read_db1_observed : bool }.
Fixpoint run_probes (c : list centry) (us : list cuser) (ps : list probe) : bool :=
  match ps with
  | [] => true
  | p :: r => let '(ok, c') := authenticate_c verify_plain c us (pr_name p) (pr_pwd p) in
              Bool.eqb ok (pr_observed p) && run_probes c' us r
  end.
Definition accase_ok (a : accase) : bool :=
  let st := run verify_plain refresh_always [] (ac_before a) (map (fun np => EvAuth (fst np) (snd np)) (ac_warm a) ++ [EvUpdate (ac_path a) (ac_after a)]) in
  run_probes (fst st) (snd st) (ac_probes a) &&
  (* the user a successful authentication returns carries the privileges of the NEW catalogue *)
  Bool.eqb (ac_read_db1_observed a)
           (existsb (fun p => pr_observed p && match find_cuser (snd st) (pr_name p) with Some u => cu_read_db1 u | None => false end) (ac_probes a)).
Fixpoint acmismatches_from (k : nat) (cs : list accase) : list nat :=
  match cs with
  | [] => []
  | c :: r => if accase_ok c then acmismatches_from (S k) r else k :: acmismatches_from (S k) r
  end.
Definition acmismatches := acmismatches_from 0.
