(* C19: guard formulas. For every handler with the authenticated signature the translator evaluates the handler (and the
   functions it hands its user to) symbolically and emits the condition under which the handler goes on instead of
   refusing, as a formula over authorization atoms (harness/translate/c19/gexpr.go). Here: the formulas, their meaning
   over the user model, the reference formulas of the handler kinds of Model.inner, and the (sound) finite procedures
   that decide "is equivalent to" / "implies" a reference formula, so that the per-route model kind is DERIVED from the
   source. *)
From Coq Require Import String List Bool NArith.
From OG Require Import C19.Model.
Import ListNotations.
Open Scope string_scope.
Open Scope N_scope.

Inductive gexpr :=
| GTrue | GFalse
| GAuthOff      (* !h.Config.AuthEnabled *)
| GNil          (* user == nil *)
| GAdmin        (* user.AuthorizeUnrestricted() *)
| GDbRead       (* user.AuthorizeDatabase(ReadPrivilege, ..) *)
| GDbWrite      (* user.AuthorizeDatabase(WritePrivilege, ..) *)
| GWrite        (* WriteAuthorizer.AuthorizeWrite(user.ID(), ..) == nil *)
| GQuery        (* AuthorizeQuery(.., user, ..) == nil *)
| GOpaque (n : N)   (* a condition the evaluator does not understand: free *)
| GAnd (a b : gexpr) | GOr (a b : gexpr) | GNot (a : gexpr).

Record gbase := mk_gbase {
  gb_authoff : bool; gb_nil : bool; gb_admin : bool; gb_read : bool; gb_dbwrite : bool; gb_write : bool; gb_query : bool }.
Record genv := mk_genv { ge_base : gbase; ge_opq : N -> bool }.

Fixpoint geval (v : genv) (e : gexpr) : bool :=
  match e with
  | GTrue => true | GFalse => false
  | GAuthOff => gb_authoff (ge_base v) | GNil => gb_nil (ge_base v) | GAdmin => gb_admin (ge_base v)
  | GDbRead => gb_read (ge_base v) | GDbWrite => gb_dbwrite (ge_base v) | GWrite => gb_write (ge_base v)
  | GQuery => gb_query (ge_base v)
  | GOpaque n => ge_opq v n
  | GAnd a b => geval v a && geval v b
  | GOr a b => geval v a || geval v b
  | GNot a => negb (geval v a)
  end.

(* the atoms over the user model: what the Go calls answer for this configuration, user, database and statement list *)
Definition base_of (cfg : config) (u : option user) (db : string) (q : list stmt) : gbase :=
  match u with
  | None => mk_gbase (negb (auth_enabled cfg)) true false false false false false
  | Some usr => mk_gbase (negb (auth_enabled cfg)) false (u_admin usr) (authorize_database usr ReadPriv db)
                         (authorize_database usr WritePriv db) (authorize_database usr WritePriv db) (authorize_query usr db q)
  end.

(* reference formulas of the handler kinds: requireAdmin / checkAuth / serveSysCtrl; requireRepositoryRead; serveWrite and
   checkWriteAuthorization; checkAuthorization; requireRepositoryDataRead *)
Definition F_admin : gexpr := GOr GAuthOff (GAnd (GNot GNil) GAdmin).
Definition F_see : gexpr := GOr GAuthOff (GAnd (GNot GNil) (GOr GDbRead GDbWrite)).
Definition F_write : gexpr := GOr GAuthOff (GAnd (GNot GNil) GWrite).
Definition F_query : gexpr := GOr GAuthOff GQuery.
Definition F_dbread : gexpr := GOr GAuthOff (GAnd (GNot GNil) GDbRead).

Definition acts (r : N * list effect) : bool := match snd r with [] => false | _ => true end.

(* the reference formulas ARE the decisions of Model.inner *)
Lemma F_admin_is_inner : forall cfg u rq q o,
  geval (mk_genv (base_of cfg u (rq_db rq) q) o) F_admin = acts (inner cfg KAdminOnly rq u).
Proof.
  intros cfg u rq q o. unfold acts. cbn [inner]. destruct u as [usr|]; cbn; destruct (auth_enabled cfg); cbn; try reflexivity.
  destruct (u_admin usr); reflexivity.
Qed.

Lemma F_see_is_inner : forall cfg u rq q o,
  geval (mk_genv (base_of cfg u (rq_db rq) q) o) F_see = acts (inner cfg KRepoSee rq u).
Proof.
  intros cfg u rq q o. unfold acts. cbn [inner]. destruct u as [usr|]; cbn; destruct (auth_enabled cfg); cbn; try reflexivity.
  unfold can_see. destruct (authorize_database usr ReadPriv (rq_db rq) || authorize_database usr WritePriv (rq_db rq)); reflexivity.
Qed.

Lemma F_write_is_inner : forall cfg u rq q o,
  geval (mk_genv (base_of cfg u (rq_db rq) q) o) F_write = acts (inner cfg KWrite rq u).
Proof.
  intros cfg u rq q o. unfold acts. cbn [inner]. destruct u as [usr|]; cbn; destruct (auth_enabled cfg); cbn; try reflexivity.
  destruct (authorize_database usr WritePriv (rq_db rq)); reflexivity.
Qed.

Lemma F_query_is_inner : forall cfg u rq q o,
  geval (mk_genv (base_of cfg u (rq_db rq) q) o) F_query = acts (inner cfg (KQuery q) rq u).
Proof.
  intros cfg u rq q o. unfold acts. cbn [inner]. destruct u as [usr|]; cbn; destruct (auth_enabled cfg); cbn; try reflexivity.
  destruct (authorize_query usr (rq_db rq) q); reflexivity.
Qed.

Lemma read_statement_is_dbread : forall usr db,
  authorize_query usr db [[RDb "" ReadPriv]] = authorize_database usr ReadPriv db.
Proof.
  intros usr db. unfold authorize_query, authorize_stmt, authorize_stmt_rw, authorize_stmt_plain. cbn.
  unfold authorize_database. destruct (u_admin usr); cbn; [reflexivity|]. destruct (u_rw usr); cbn; [reflexivity|].
  rewrite !andb_true_r. reflexivity.
Qed.

Lemma F_dbread_is_inner : forall cfg u rq q o,
  geval (mk_genv (base_of cfg u (rq_db rq) q) o) F_dbread = acts (inner cfg (KQuery [[RDb "" ReadPriv]]) rq u).
Proof.
  intros cfg u rq q o. unfold acts. cbn [inner]. destruct u as [usr|]; cbn; destruct (auth_enabled cfg); cbn; try reflexivity.
  rewrite read_statement_is_dbread. destruct (authorize_database usr ReadPriv (rq_db rq)); reflexivity.
Qed.

(* ---- deciding equivalence / implication by enumeration ---- *)
Fixpoint gatoms (e : gexpr) : list N :=
  match e with
  | GOpaque n => [n]
  | GAnd a b | GOr a b => gatoms a ++ gatoms b
  | GNot a => gatoms a
  | _ => []
  end.
Definition memN (n : N) (l : list N) : bool := existsb (N.eqb n) l.

Definition bools : list bool := [true; false].
Definition all_bases : list gbase :=
  flat_map (fun a => flat_map (fun b => flat_map (fun c => flat_map (fun d => flat_map (fun e => flat_map (fun f =>
    map (fun g => mk_gbase a b c d e f g) bools) bools) bools) bools) bools) bools) bools.
Fixpoint sublists (l : list N) : list (list N) :=
  match l with
  | [] => [[]]
  | x :: r => map (cons x) (sublists r) ++ sublists r
  end.
Definition env_of_set (b : gbase) (s : list N) : genv := mk_genv b (fun n => memN n s).
Definition all_envs (atoms : list N) : list genv :=
  flat_map (fun s => map (fun b => env_of_set b s) all_bases) (sublists atoms).

(* g implies ref / g equals ref under every valuation of the atoms and of g's opaque conditions *)
Definition gimplies (g ref : gexpr) : bool :=
  forallb (fun v => implb (geval v g) (geval v ref)) (all_envs (gatoms g ++ gatoms ref)).
Definition gequiv (g ref : gexpr) : bool :=
  forallb (fun v => Bool.eqb (geval v g) (geval v ref)) (all_envs (gatoms g ++ gatoms ref)).

Lemma bools_complete : forall b, In b bools.
Proof. intros []; cbn; auto. Qed.

Lemma all_bases_complete : forall b, In b all_bases.
Proof.
  intros [a b c d e f g]. unfold all_bases.
  do 6 (apply in_flat_map; eexists; split; [apply bools_complete|]).
  apply in_map_iff. exists g. split; [reflexivity|apply bools_complete].
Qed.

Lemma filter_in_sublists : forall (p : N -> bool) l, In (filter p l) (sublists l).
Proof.
  induction l as [|x l IH]; cbn [filter sublists]; [left; reflexivity|].
  apply in_or_app. destruct (p x).
  - left. apply in_map. exact IH.
  - right. exact IH.
Qed.

Lemma memN_filter : forall (p : N -> bool) l n, In n l -> memN n (filter p l) = p n.
Proof.
  intros p l n Hin. unfold memN. destruct (p n) eqn:E.
  - apply existsb_exists. exists n. split; [apply filter_In; split; assumption|apply N.eqb_refl].
  - destruct (existsb (N.eqb n) (filter p l)) eqn:X; [|reflexivity].
    apply existsb_exists in X. destruct X as (m & Hm & Heq). apply N.eqb_eq in Heq. subst m.
    apply filter_In in Hm. destruct Hm as [_ Hm]. congruence.
Qed.

(* evaluation looks at the opaque conditions only at the atoms of the formula *)
Lemma geval_canon : forall e v l, incl (gatoms e) l ->
  geval v e = geval (env_of_set (ge_base v) (filter (ge_opq v) l)) e.
Proof.
  induction e; intros v l Hincl; cbn [geval env_of_set ge_base ge_opq]; try reflexivity.
  - symmetry. apply memN_filter. apply Hincl. left. reflexivity.
  - cbn [gatoms] in Hincl. rewrite (IHe1 v l), (IHe2 v l); [reflexivity| |]; intros x Hx; apply Hincl; apply in_or_app; auto.
  - cbn [gatoms] in Hincl. rewrite (IHe1 v l), (IHe2 v l); [reflexivity| |]; intros x Hx; apply Hincl; apply in_or_app; auto.
  - cbn [gatoms] in Hincl. rewrite (IHe v l); [reflexivity|exact Hincl].
Qed.

Lemma canon_in_all_envs : forall v l, In (env_of_set (ge_base v) (filter (ge_opq v) l)) (all_envs l).
Proof.
  intros v l. unfold all_envs. apply in_flat_map. exists (filter (ge_opq v) l). split; [apply filter_in_sublists|].
  apply (in_map (fun b => env_of_set b (filter (ge_opq v) l))). apply all_bases_complete.
Qed.

(* a check that passes on all_envs holds under every valuation *)
Lemma all_envs_forall : forall (P : bool -> bool -> bool) g ref,
  forallb (fun v => P (geval v g) (geval v ref)) (all_envs (gatoms g ++ gatoms ref)) = true ->
  forall v, P (geval v g) (geval v ref) = true.
Proof.
  intros P g ref H v. rewrite forallb_forall in H.
  specialize (H _ (canon_in_all_envs v (gatoms g ++ gatoms ref)%list)).
  rewrite <- !geval_canon in H by (intros x Hx; apply in_or_app; auto). exact H.
Qed.

Lemma gimplies_sound : forall g ref, gimplies g ref = true -> forall v, geval v g = true -> geval v ref = true.
Proof. intros g ref H v Hg. pose proof (all_envs_forall implb g ref H v) as X. rewrite Hg in X. exact X. Qed.

Lemma gequiv_sound : forall g ref, gequiv g ref = true -> forall v, geval v g = geval v ref.
Proof. intros g ref H v. apply Bool.eqb_prop. exact (all_envs_forall Bool.eqb g ref H v). Qed.

Inductive dkind := DAdmin | DSee | DWrite | DQuery | DDbRead | DEveryone | DAtLeastRead | DAtLeastQuery | DUnknown.
Definition derive (g : gexpr) : dkind :=
  if gequiv g F_admin then DAdmin
  else if gequiv g F_see then DSee
  else if gequiv g F_write then DWrite
  else if gequiv g F_query then DQuery
  else if gequiv g F_dbread then DDbRead
  else if gequiv g GTrue then DEveryone
  else if gimplies g F_dbread then DAtLeastRead
  else if gimplies g F_query then DAtLeastQuery
  else DUnknown.
Definition dkind_name (d : dkind) : string :=
  match d with
  | DAdmin => "admin" | DSee => "see" | DWrite => "write" | DQuery => "query" | DDbRead => "dbread" | DEveryone => "everyone"
  | DAtLeastRead => "atleast-read" | DAtLeastQuery => "atleast-query" | DUnknown => "unknown"
  end.

(* what a derived kind guarantees, for ALL configurations, users, requests and opaque conditions: the handler goes on
   exactly when (resp. only when) the model's handler kind acts *)
Definition dkind_spec (d : dkind) (g : gexpr) : Prop :=
  forall cfg u rq q o,
    let v := mk_genv (base_of cfg u (rq_db rq) q) o in
    match d with
    | DAdmin => geval v g = acts (inner cfg KAdminOnly rq u)
    | DSee => geval v g = acts (inner cfg KRepoSee rq u)
    | DWrite => geval v g = acts (inner cfg KWrite rq u)
    | DQuery => geval v g = acts (inner cfg (KQuery q) rq u)
    | DDbRead => geval v g = acts (inner cfg (KQuery [[RDb "" ReadPriv]]) rq u)
    | DEveryone => geval v g = true
    | DAtLeastRead => geval v g = true -> acts (inner cfg (KQuery [[RDb "" ReadPriv]]) rq u) = true
    | DAtLeastQuery => geval v g = true -> acts (inner cfg (KQuery q) rq u) = true
    | DUnknown => True
    end.

Lemma gequiv_spec : forall g ref d, gequiv g ref = true -> dkind_spec d ref -> dkind_spec d g.
Proof.
  intros g ref d E H cfg u rq q o. specialize (H cfg u rq q o). cbn zeta in *. rewrite (gequiv_sound _ _ E). exact H.
Qed.

Lemma derive_sound : forall g, dkind_spec (derive g) g.
Proof.
  intros g. unfold derive.
  destruct (gequiv g F_admin) eqn:E1; [exact (gequiv_spec _ _ DAdmin E1 F_admin_is_inner)|].
  destruct (gequiv g F_see) eqn:E2; [exact (gequiv_spec _ _ DSee E2 F_see_is_inner)|].
  destruct (gequiv g F_write) eqn:E3; [exact (gequiv_spec _ _ DWrite E3 F_write_is_inner)|].
  destruct (gequiv g F_query) eqn:E4; [exact (gequiv_spec _ _ DQuery E4 F_query_is_inner)|].
  destruct (gequiv g F_dbread) eqn:E5; [exact (gequiv_spec _ _ DDbRead E5 F_dbread_is_inner)|].
  destruct (gequiv g GTrue) eqn:E6; [exact (gequiv_spec _ _ DEveryone E6 (fun _ _ _ _ _ => eq_refl))|].
  destruct (gimplies g F_dbread) eqn:E7.
  { intros cfg u rq q o. cbn zeta. intro H. rewrite <- (F_dbread_is_inner cfg u rq q o). exact (gimplies_sound _ _ E7 _ H). }
  destruct (gimplies g F_query) eqn:E8.
  { intros cfg u rq q o. cbn zeta. intro H. rewrite <- (F_query_is_inner cfg u rq q o). exact (gimplies_sound _ _ E8 _ H). }
  exact (fun _ _ _ _ _ => I).
Qed.

(* one row per route with the authenticated signature (Gen_Routes.handler_formulas) *)
Record hformula := mk_hformula { f_method : string; f_pattern : string; f_formula : gexpr }.
Fixpoint find_formula (fs : list hformula) (m p : string) : option gexpr :=
  match fs with
  | [] => None
  | f :: r => if String.eqb (f_method f) m && String.eqb (f_pattern f) p then Some (f_formula f) else find_formula r m p
  end.

(* what the statement asks of the routes it names by function, as derived kinds *)
Definition expected_dkinds : list (string * string * dkind) := [
  ("POST", "/debug/ctrl", DAdmin); ("POST", "/backup/run", DAdmin); ("POST", "/backup/abort", DAdmin); ("POST", "/backup/status", DAdmin);
  ("POST", "/failpoint", DAdmin); ("POST", "/api/v1/tsdb/{tsdb}", DAdmin);
  ("POST", "/api/v1/repository/{repository}", DAdmin); ("PUT", "/api/v1/repository/{repository}", DAdmin);
  ("DELETE", "/api/v1/repository/{repository}", DAdmin);
  ("POST", "/api/v1/logstream/{repository}/{logStream}", DAdmin); ("PUT", "/api/v1/logstream/{repository}/{logStream}", DAdmin);
  ("DELETE", "/api/v1/logstream/{repository}/{logStream}", DAdmin);
  ("POST", "/repo/{repository}/logstreams/{logStream}/recalldata", DAdmin);
  ("POST", "/repo/{repository}/logstreams/{logStream}/stream-task", DAdmin);
  ("DELETE", "/repo/{repository}/logstreams/{logStream}/stream-task/{taskId}", DAdmin);
  ("GET", "/api/v1/repository/{repository}", DSee); ("GET", "/api/v1/logstream/{repository}", DSee);
  ("GET", "/api/v1/logstream/{repository}/{logStream}", DSee);
  ("POST", "/write", DWrite); ("POST", "/api/v2/write", DWrite); ("POST", "/api/v1/write", DWrite);
  ("POST", "/prometheus/{metric_store}/api/v1/write", DWrite);
  ("POST", "/api/v1/otlp/traces", DWrite); ("POST", "/api/v1/otlp/metrics", DWrite); ("POST", "/api/v1/otlp/logs", DWrite);
  ("GET", "/fence/match_batch", DWrite); ("POST", "/fence/delete_fence", DWrite);
  ("POST", "/repo/{repository}/logstreams/{logStream}/records", DWrite); ("POST", "/repo/{repository}/logstreams/{logStream}/upload", DWrite);
  ("GET", "/query", DQuery); ("POST", "/query", DQuery);
  ("GET", "/repo/{repository}/logstreams/{logStream}/logbycursor", DDbRead); ("GET", "/repo/{repository}/logstreams/{logStream}/consume/logs", DDbRead);
  ("GET", "/repo/{repository}/logstreams/{logStream}/consume/cursor-time", DDbRead);
  ("GET", "/repo/{repository}/logstreams/{logStream}/consume/cursors", DDbRead);
  ("GET", "/repo/{repository}/logstreams/{logStream}/cursor", DDbRead); ("GET", "/repo/{repository}/logstreams/{logStream}/cursor/{cursor}", DDbRead);
  ("GET", "/repo/{repository}/logstreams/{logStream}/logs", DAtLeastRead); ("GET", "/repo/{repository}/logstreams/{logStream}/context", DAtLeastRead);
  ("GET", "/repo/{repository}/logstreams/{logStream}/histogram", DAtLeastRead);
  ("GET", "/repo/{repository}/logstreams/{logStream}/analytics", DAtLeastRead) ].
(* compared through the names (pairwise distinct), which the correspondence prints anyway *)
Definition dkind_eqb (a b : dkind) : bool := String.eqb (dkind_name a) (dkind_name b).
(* a named route that is registered derives exactly the expected kind *)
Definition expected_dkind_ok (fs : list hformula) (e : string * string * dkind) : bool :=
  let '(m, p, d) := e in
  match find_formula fs m p with
  | Some g => dkind_eqb (derive g) d
              || (dkind_eqb d DAtLeastRead && dkind_eqb (derive g) DDbRead)   (* exactly read is at least read *)
  | None => true
  end.
