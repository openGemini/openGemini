(* C19 property theorems: the statements, each with the few steps that assemble it from the lemmas of Proofs.v, Guards.v and
   AuthCache.v, or - where it is a fact about a table translated in this run - its evaluation; Print Assumptions. *)
From Coq Require Import String List Bool NArith.
From OG Require Import C19.Model C19.Guards C19.AuthCache C19.Gen_Routes C19.Privileges C19.Gen_Privileges C19.Proofs.
Import ListNotations.
Open Scope string_scope.
Open Scope N_scope.

(* (T) Over the route table translated from the repository in this run: every route is on the statement's whitelist
   (pre-flight, liveness/status), or is wrapped by `authenticate`, or is a literal that only rejects. No route is exempt:
   the defects C19-failpoint-public and C19-runtime-config-public are repaired; a re-appearance breaks this theorem. *)
Theorem all_nonpublic_authenticated :
  forallb (fun r => public r || authenticated shape_now r || always_rejects r) routes = true.
Proof. vm_compute. reflexivity. Qed.
Print Assumptions all_nonpublic_authenticated.

Theorem all_nonpublic_authenticated_forall :
  forall r, In r routes -> public r = false -> authenticated shape_now r = true \/ always_rejects r = true.
Proof. exact (route_table_ok_lift _ _ all_nonpublic_authenticated). Qed.
Print Assumptions all_nonpublic_authenticated_forall.

Theorem no_open_route : open_routes shape_now routes = [].
Proof. vm_compute. reflexivity. Qed.
Print Assumptions no_open_route.

(* (T) handler facts. Every handler with the authenticated signature reaches an authorization decision on its user
   argument (AuthorizeUnrestricted / AuthorizeDatabase / AuthorizeWrite / AuthorizeQuery whose negative outcome leaves
   the handler), except the two routes for which authentication alone is asked and the routes named by a finding that
   is listed as open in this run (open_findings; the log-store data plane was exempt so until 4df29f6, now the list is empty). *)
Theorem every_handler_decides : unguarded open_findings handler_guards = [].
Proof. vm_compute. reflexivity. Qed.
Print Assumptions every_handler_decides.

Theorem every_handler_decides_forall :
  forall g, In g handler_guards -> decides g = true \/ guard_exempt open_findings g = true.
Proof. exact (unguarded_nil_forall _ _ every_handler_decides). Qed.
Print Assumptions every_handler_decides_forall.

(* (T) the routes the statement names by what they do make exactly the decision it asks for: catalogue changes and server
   control ask for the administrator (/debug/ctrl, /backup/..., /failpoint, tsdb creation, log-store repository and
   logstream management: repairs 8b29366 21eba35 e8b49bf), log-store listings for read-or-write on the repository
   (3986ddb), writes for the write authorizer, /query for the statement authorizer. *)
Theorem named_routes_decide_as_expected : forallb (expected_ok handler_guards) expected_guards = true.
Proof. vm_compute. reflexivity. Qed.
Print Assumptions named_routes_decide_as_expected.

Theorem handler_facts_cover_table : forallb has_guard_row routes = true.
Proof. vm_compute. reflexivity. Qed.

(* (T) AddRoutes wraps the meta.User signature with authenticate(.., h.Config.AuthEnabled), replaces no handler
   afterwards, registers by (pattern, method); nothing registers on the mux elsewhere; ServeHTTP ends in the mux. *)
Theorem addroutes_shape : shape_ok shape_now = true.
Proof. vm_compute. reflexivity. Qed.
Print Assumptions addroutes_shape.

(* (T) every path prefix dispatched before the mux runs behind authenticate and asks for the administrator, or is one of the
   three named by the finding C19-debug-public while that finding is listed as open *)
Theorem no_prefix_bypass : unexempt_prefixes open_findings prefixes = [].
Proof. vm_compute. reflexivity. Qed.
Print Assumptions no_prefix_bypass.

Theorem no_prefix_bypass_forall : forall guards path p, dispatch guards prefixes path = Some p ->
  prefix_admin p = true \/ (mem "C19-debug-public" open_findings = true /\ known_prefix p = true).
Proof. exact (dispatch_only_exempt _ _ no_prefix_bypass). Qed.
Print Assumptions no_prefix_bypass_forall.

(* a dispatched prefix that runs behind authenticate and asks for the administrator (fix6.patch) acts for nobody else *)
Theorem authenticated_prefix_refuses : forall sh cfg g ps us path r k rq p,
  dispatch g ps path = Some p -> prefix_admin p = true ->
  auth_enabled cfg = true -> admin_exists us = true ->
  ((forall u, ~ valid_creds cfg us (rq_creds rq) u) -> serve_path sh cfg g ps us path r k rq = (401, [])) /\
  (forall u, valid_creds cfg us (rq_creds rq) u -> u_admin u = false -> serve_path sh cfg g ps us path r k rq = (403, [])).
Proof.
  intros sh cfg g ps us path r k rq p Hd Hp Ha Hadm. unfold serve_path. rewrite Hd, Hp. split.
  - intro Hno. rewrite (authenticate_invalid _ _ _ Ha Hadm Hno). reflexivity.
  - intros u Hv Hna. rewrite (authenticate_pass_complete _ _ _ _ Ha Hadm Hv). cbn [inner]. rewrite Ha, Hna. reflexivity.
Qed.
Print Assumptions authenticated_prefix_refuses.

(* with the unexempt prefix rules taken out nothing is dispatched before the mux. In this run no rule is unexempt
   (no_prefix_bypass), so the list is empty and this is dispatch_nil; it says nothing about `prefixes` itself, whose rules
   are covered by no_prefix_bypass_forall and authenticated_prefix_refuses *)
Theorem repaired_dispatch_reaches_mux : forall guards path, dispatch guards (unexempt_prefixes open_findings prefixes) path = None.
Proof. intros. rewrite no_prefix_bypass. reflexivity. Qed.
Print Assumptions repaired_dispatch_reaches_mux.

(* The default arm of the credential-method switch in `authenticate` writes 401 and falls through to the handler
   with a nil user. It cannot be reached: ParseCredentials yields only the two handled methods ... *)
Theorem unsupported_method_unreachable : forall cfg us c st, authenticate cfg us c <> RejectAndPass st.
Proof. intros cfg us c st E. pose proof (authenticate_outcome cfg us c) as O. rewrite E in O. exact O. Qed.
Print Assumptions unsupported_method_unreachable.

Theorem parse_credentials_methods : forall c cr, parse_credentials c = Some cr ->
  cr_method cr = UserAuthentication \/ cr_method cr = BearerAuthentication.
Proof. exact parse_methods. Qed.
Print Assumptions parse_credentials_methods.

(* ... and (T) in the code of this run the methods produced by `credentials{..}` literals are exactly the model's two
   and each has its own arm (or the default arm returns) *)
Theorem unsupported_method_unreachable_code :
  cred_facts_ok cred_facts_now = true /\ cred_facts_match_model cred_facts_now = true.
Proof. vm_compute. split; reflexivity. Qed.
Print Assumptions unsupported_method_unreachable_code.

(* With authentication on and an administrator present, on a route wrapped by `authenticate`: any effect implies
   valid credentials of a user with sufficient privilege for what the handler does on the target database. *)
Theorem handler_runs_only_if_authorized : forall sh cfg us r k rq,
  auth_enabled cfg = true -> admin_exists us = true -> authenticated sh r = true ->
  snd (serve sh cfg us r k rq) <> [] ->
  exists u, valid_creds cfg us (rq_creds rq) u /\ sufficient u k rq.
Proof.
  intros sh cfg us r k rq Ha Hadm Hauth H. unfold serve in H.
  destruct (always_rejects r); [cbn in H; congruence|]. rewrite Hauth in H.
  pose proof (authenticate_outcome cfg us (rq_creds rq)) as O.
  destruct (authenticate cfg us (rq_creds rq)) as [st|[u|]|st] eqn:E.
  - cbn in H. congruence.
  - exists u. split; [apply authenticate_pass_sound; assumption|]. apply allowed_iff.
    destruct (allowed u k rq) eqn:A; [reflexivity|]. rewrite (inner_refuses _ _ _ _ Ha A) in H. contradiction.
  - destruct O; congruence.
  - destruct O.
Qed.
Print Assumptions handler_runs_only_if_authorized.

Theorem invalid_creds_rejected : forall sh cfg us r k rq,
  auth_enabled cfg = true -> admin_exists us = true -> authenticated sh r = true -> always_rejects r = false ->
  (forall u, ~ valid_creds cfg us (rq_creds rq) u) ->
  serve sh cfg us r k rq = (401, []).
Proof.
  intros sh cfg us r k rq Ha Hadm Hauth Hrej Hno. unfold serve.
  rewrite Hrej, Hauth, (authenticate_invalid _ _ _ Ha Hadm Hno). reflexivity.
Qed.
Print Assumptions invalid_creds_rejected.

Theorem insufficient_privilege_rejected : forall sh cfg us r k rq u,
  auth_enabled cfg = true -> admin_exists us = true -> authenticated sh r = true -> always_rejects r = false ->
  valid_creds cfg us (rq_creds rq) u -> ~ sufficient u k rq ->
  serve sh cfg us r k rq = (403, []).
Proof.
  intros sh cfg us r k rq u Ha Hadm Hauth Hrej Hv Hns. rewrite (serve_valid _ _ _ _ _ _ u) by assumption.
  apply inner_refuses; [assumption|]. apply not_true_is_false. intro E. apply Hns, allowed_iff, E.
Qed.
Print Assumptions insufficient_privilege_rejected.

Theorem sufficient_accepted : forall sh cfg us r k rq u,
  auth_enabled cfg = true -> admin_exists us = true -> authenticated sh r = true -> always_rejects r = false ->
  valid_creds cfg us (rq_creds rq) u -> sufficient u k rq -> k <> KPublic ->
  snd (serve sh cfg us r k rq) <> [] /\ fst (serve sh cfg us r k rq) <> 401 /\ fst (serve sh cfg us r k rq) <> 403.
Proof.
  intros sh cfg us r k rq u Ha Hadm Hauth Hrej Hv Hs Hk. rewrite (serve_valid _ _ _ _ _ _ u) by assumption.
  apply inner_acts; [assumption|apply allowed_iff; exact Hs|exact Hk].
Qed.
Print Assumptions sufficient_accepted.

(* the specification predicates are exactly what the executable checks compute *)
Theorem valid_creds_iff_authenticate : forall cfg us c u,
  auth_enabled cfg = true -> admin_exists us = true ->
  (authenticate cfg us c = Pass (Some u) <-> valid_creds cfg us c u).
Proof. intros; split; [apply authenticate_pass_sound|apply authenticate_pass_complete]; assumption. Qed.
Print Assumptions valid_creds_iff_authenticate.

Theorem has_priv_iff_authorize_database : forall u p d, authorize_database u p d = true <-> has_priv u p d.
Proof. exact authorize_database_spec. Qed.

(* GRANT / REVOKE of a privilege to user n on database d changes the answer for exactly that user and database *)
Theorem grant_revoke_exact : forall us n d p n' d' q,
  n' <> n \/ d' <> d ->
  authorize_by_name (grant us n d p) n' q d' = authorize_by_name us n' q d' /\
  authorize_by_name (revoke us n d p) n' q d' = authorize_by_name us n' q d'.
Proof. intros. unfold grant, revoke. split; apply set_privilege_exact; assumption. Qed.
Print Assumptions grant_revoke_exact.

Theorem grant_effect : forall us n d p u q,
  find_user us n = Some u -> u_admin u = false -> u_rw u = false ->
  authorize_by_name (grant us n d p) n q d = priv_eqb q NoPriv || (priv_eqb p q || priv_eqb p AllPriv).
Proof. exact set_privilege_effect. Qed.
Print Assumptions grant_effect.

Theorem revoke_effect : forall us n d p u,
  find_user us n = Some u -> u_admin u = false -> u_rw u = false -> p <> NoPriv ->
  authorize_by_name (revoke us n d p) n p d = false.
Proof.
  intros us n d p u F Hna Hnr Hp. unfold revoke. rewrite (set_privilege_effect _ _ _ _ _ _ F Hna Hnr).
  destruct p; [congruence| | |reflexivity]; destruct (user_priv us n d); reflexivity.
Qed.
Print Assumptions revoke_effect.

Theorem grant_revoke_keep_admin : forall us n d p,
  admin_exists (grant us n d p) = admin_exists us /\ admin_exists (revoke us n d p) = admin_exists us.
Proof. intros; split; apply set_privilege_admin_exists. Qed.

(* serve level: GRANT / REVOKE on (n, d) changes the answer of no request made by somebody else, and of no request of
   n whose handling does not consult the privilege on d *)
Theorem serve_grant_revoke_exact : forall sh cfg us r k rq n d p,
  (forall u, authenticate cfg us (rq_creds rq) = Pass (Some u) -> u_name u <> n) \/ mentionsb k rq d = false ->
  serve sh cfg (grant us n d p) r k rq = serve sh cfg us r k rq /\
  serve sh cfg (revoke us n d p) r k rq = serve sh cfg us r k rq.
Proof. intros. unfold grant, revoke. split; apply serve_set_privilege_exact; assumption. Qed.
Print Assumptions serve_grant_revoke_exact.

(* ... and for n on d it becomes exactly what the granted privilege says *)
Theorem serve_after_grant_is_the_grant : forall sh cfg us r n d p u c want,
  auth_enabled cfg = true -> admin_exists us = true -> authenticated sh r = true -> always_rejects r = false ->
  authenticate cfg us c = Pass (Some u) -> u_name u = n -> u_admin u = false -> u_rw u = false -> want <> NoPriv ->
  fst (serve sh cfg (grant us n d p) r (KQuery [[RDb "" want]]) (mk_request c d)) =
    if priv_eqb p want || priv_eqb p AllPriv then 200 else 403.
Proof.
  intros sh cfg us r n d p u c want Ha Hadm Hauth Hrej E Hn Hna Hnr Hw. unfold grant.
  rewrite (serve_set_privilege_self _ _ _ _ _ _ _ _ _ u) by assumption. cbn [inner rq_db]. rewrite Ha. cbn [negb].
  rewrite authorize_query_single by exact Hna. unfold authorize_stmt. cbn [set_priv_user u_rw]. rewrite Hnr.
  unfold authorize_stmt_plain, target_db. cbn [forallb String.eqb]. rewrite andb_true_r, authorize_database_set_same by assumption.
  assert (priv_eqb want NoPriv = false) as -> by (destruct want; try reflexivity; congruence).
  cbn [orb]. destruct (priv_eqb p want || priv_eqb p AllPriv); reflexivity.
Qed.
Print Assumptions serve_after_grant_is_the_grant.

(* (T) the RequiredPrivileges methods of the source (every statement type: Admin flag, database expression, privilege,
   conditions, delegations) are exactly the table the model and the statement matrix use *)
Theorem required_privileges_match :
  list_eqb stmt_priv_eqb gen_privs model_privs || list_eqb stmt_priv_eqb gen_privs model_privs_repaired = true.
Proof. vm_compute. reflexivity. Qed.
Print Assumptions required_privileges_match.

Theorem admin_requirement_refuses_non_admin : forall u dflt s,
  In RAdmin s -> u_admin u = false -> u_rw u = false -> authorize_query u dflt [s] = false.
Proof.
  intros u dflt s Hin Hna Hnr. apply authorize_query_refuses; [exact Hna|].
  unfold stmt_allowed. rewrite Hnr. intro H. exact (H RAdmin Hin).
Qed.
Print Assumptions admin_requirement_refuses_non_admin.

Theorem every_required_privilege_must_hold : forall u dflt s d p,
  In (RDb d p) s -> u_admin u = false -> authorize_database u p (target_db d dflt) = false ->
  authorize_query u dflt [s] = false.
Proof.
  intros u dflt s d p Hin Hna Hno. apply authorize_query_refuses; [exact Hna|].
  unfold stmt_allowed. destruct (u_rw u) eqn:Hr; [rewrite rw_authorize_database in Hno by exact Hr; discriminate|].
  intro H. specialize (H _ Hin). apply authorize_database_spec in H. congruence.
Qed.
Print Assumptions every_required_privilege_must_hold.

(* the cardinality statements after the repair of C19-cardinality-no-source-unprivileged (fix5.patch): without a FROM
   clause each of them - estimated or exact - asks for read on its database, and a user without it is refused *)
Theorem cardinality_without_source_asks_read : forall ty exact d, In ty cardinality_types ->
  card_rule model_privs_repaired ty exact d [] = Some [RDb d ReadPriv].
Proof.
  intros ty exact d Hin. unfold cardinality_types in Hin.
  repeat (destruct Hin as [<-|Hin]; [destruct exact; vm_compute; reflexivity|]). destruct Hin.
Qed.
Print Assumptions cardinality_without_source_asks_read.

Theorem cardinality_without_source_refused : forall ty exact d dflt u, In ty cardinality_types ->
  u_admin u = false -> authorize_database u ReadPriv (target_db d dflt) = false ->
  match card_rule model_privs_repaired ty exact d [] with
  | Some s => authorize_query u dflt [s] = false
  | None => False
  end.
Proof.
  intros ty exact d dflt u Hin Hna Hno. rewrite (cardinality_without_source_asks_read ty exact d Hin).
  apply (every_required_privilege_must_hold u dflt _ d ReadPriv); [left; reflexivity|assumption|assumption].
Qed.
Print Assumptions cardinality_without_source_refused.

Theorem admin_only_statement_types :
  forallb admin_only_type ["CreateDatabaseStatement"; "DropDatabaseStatement"; "CreateUserStatement"; "DropUserStatement";
    "GrantStatement"; "GrantAdminStatement"; "RevokeStatement"; "RevokeAdminStatement"; "SetPasswordUserStatement";
    "ShowUsersStatement"; "ShowGrantsForUserStatement"; "CreateRetentionPolicyStatement"; "AlterRetentionPolicyStatement";
    "DropMeasurementStatement"; "DropShardStatement"; "KillQueryStatement"; "ShowShardsStatement"; "ShowStatsStatement";
    "ShowDiagnosticsStatement"; "CreateMeasurementStatement"; "SetConfigStatement"; "ShowConfigsStatement"] = true.
Proof. vm_compute. reflexivity. Qed.

(* EVERY route of the table translated in this run that is not on the statement's whitelist, whatever its handler does
   (any kind k): a request without valid credentials has no effect and is answered 401 (or 403 by a rejecting literal) *)
Theorem anonymous_refused_everywhere : forall r k cfg us rq,
  In r routes -> public r = false ->
  auth_enabled cfg = true -> admin_exists us = true -> (forall u, ~ valid_creds cfg us (rq_creds rq) u) ->
  snd (serve shape_now cfg us r k rq) = [] /\ (fst (serve shape_now cfg us r k rq) = 401 \/ fst (serve shape_now cfg us r k rq) = 403).
Proof.
  intros r k cfg us rq Hin Hp. apply anonymous_refused. exact (all_nonpublic_authenticated_forall r Hin Hp).
Qed.
Print Assumptions anonymous_refused_everywhere.

(* a route with the authenticated signature whose handler decides by AuthorizeUnrestricted (the kind KAdminOnly, which the
   correspondence accepts for a route only when the translated handler facts say so; here the caller supplies it) refuses
   every valid non-administrator. Membership in `routes` is not used: the shape of AddRoutes alone gives the wrapper. *)
Theorem admin_routes_refuse_non_administrators : forall r cfg us rq u,
  In r routes -> r_sig r = SigUser ->
  auth_enabled cfg = true -> admin_exists us = true -> valid_creds cfg us (rq_creds rq) u -> u_admin u = false ->
  serve shape_now cfg us r KAdminOnly rq = (403, []).
Proof.
  intros r cfg us rq u _ Hs Ha Hadm Hv Hna.
  apply (insufficient_privilege_rejected shape_now cfg us r KAdminOnly rq u Ha Hadm
           (siguser_authenticated _ r addroutes_shape Hs) (siguser_not_rejecting r Hs) Hv).
  cbn [sufficient]. congruence.
Qed.
Print Assumptions admin_routes_refuse_non_administrators.

(* likewise for a handler that asks for read or write on the repository (KRepoSee) *)
Theorem repository_reads_refuse_without_privilege : forall r cfg us rq u,
  In r routes -> r_sig r = SigUser ->
  auth_enabled cfg = true -> admin_exists us = true -> valid_creds cfg us (rq_creds rq) u ->
  ~ has_priv u ReadPriv (rq_db rq) -> ~ has_priv u WritePriv (rq_db rq) ->
  serve shape_now cfg us r KRepoSee rq = (403, []).
Proof.
  intros r cfg us rq u _ Hs Ha Hadm Hv Hnr Hnw.
  apply (insufficient_privilege_rejected shape_now cfg us r KRepoSee rq u Ha Hadm
           (siguser_authenticated _ r addroutes_shape Hs) (siguser_not_rejecting r Hs) Hv).
  cbn [sufficient]. unfold can_see_spec. tauto.
Qed.
Print Assumptions repository_reads_refuse_without_privilege.

(* For every hash function, every initial user list and EVERY history of authentications and catalogue updates - through
   incremental commands, full snapshot, SetData or the version-1 snapshot, carrying whatever change - : when the password
   cache is refreshed with every update, a (name, password) is accepted only if the user exists in the PRESENT catalogue
   and the password verifies against its PRESENT hash. A superseded password, a dropped user, a wrong password are refused. *)
Theorem credentials_follow_the_catalogue : forall verify evs us0 n p,
  let st := run verify refresh_always [] us0 evs in
  fst (authenticate_c verify (fst st) (snd st) n p) = true ->
  exists u, find_cuser (snd st) n = Some u /\ verify (cu_hash u) p = true.
Proof.
  intros verify evs us0 n p st A. apply (consistent_no_stale_acceptance verify (fst st) (snd st) n p); [|exact A].
  apply run_consistent. apply consistent_nil.
Qed.
Print Assumptions credentials_follow_the_catalogue.

(* the invariant behind it: after every update kind the cache is consistent with the new user list *)
Theorem auth_cache_consistent_after_every_update : forall verify c us path us',
  consistent verify c us -> consistent verify (apply_update refresh_always c path us') us'.
Proof. intros verify c us path us'. exact (refresh_consistent verify c us us'). Qed.
Print Assumptions auth_cache_consistent_after_every_update.

(* (T) in the source every update loop of the catalogue copy refreshes the cache under exactly the conditions under which
   it publishes the new copy *)
Theorem auth_cache_refreshed_with_every_update : auth_refresh_with_every_update_now = true.
Proof. vm_compute. reflexivity. Qed.
Print Assumptions auth_cache_refreshed_with_every_update.

(* For ALL formulas, configurations, users, requests and values of the conditions the evaluator does not understand: the
   kind `derive` assigns means what it says - the handler goes on exactly when (DAdmin, DSee, DWrite, DQuery, DDbRead,
   DEveryone), resp. only when (DAtLeastRead, DAtLeastQuery), the model's handler kind acts. The decision procedures
   gequiv / gimplies behind it are proved sound over every valuation (Guards.gequiv_sound, gimplies_sound). *)
Theorem derived_kinds_are_sound : forall g, dkind_spec (derive g) g.
Proof. exact derive_sound. Qed.
Print Assumptions derived_kinds_are_sound.

(* (T) every route the statement names by function derives exactly the kind it asks for, from the formulas the translator
   obtained by symbolic evaluation of this run's handlers (incl. the and/or structure: read OR write for the catalogue
   reads, the upfront read check AND the per-shard-group statement check for the log-store queries) *)
Theorem named_routes_derive_expected_kinds : forallb (expected_dkind_ok handler_formulas) expected_dkinds = true.
Proof. vm_compute. reflexivity. Qed.
Print Assumptions named_routes_derive_expected_kinds.

Theorem formulas_cover_table : forallb has_formula_row routes = true.
Proof. vm_compute. reflexivity. Qed.

(* the reference formulas are the decisions of the model's handler kinds *)
Theorem admin_formula_is_the_admin_kind : forall cfg u rq q o,
  geval (mk_genv (base_of cfg u (rq_db rq) q) o) F_admin = acts (inner cfg KAdminOnly rq u).
Proof. exact F_admin_is_inner. Qed.
Theorem see_formula_is_the_repository_read_kind : forall cfg u rq q o,
  geval (mk_genv (base_of cfg u (rq_db rq) q) o) F_see = acts (inner cfg KRepoSee rq u).
Proof. exact F_see_is_inner. Qed.
Theorem write_formula_is_the_write_kind : forall cfg u rq q o,
  geval (mk_genv (base_of cfg u (rq_db rq) q) o) F_write = acts (inner cfg KWrite rq u).
Proof. exact F_write_is_inner. Qed.
Theorem query_formula_is_the_query_kind : forall cfg u rq q o,
  geval (mk_genv (base_of cfg u (rq_db rq) q) o) F_query = acts (inner cfg (KQuery q) rq u).
Proof. exact F_query_is_inner. Qed.

(* (T) UserInfo.AuthorizeUnrestricted - the only administrator test of serveSysCtrl, checkAuth (/backup/...), requireAdmin
   (tsdb creation, repository / logstream management, recall, stream tasks) - is the administrator flag and nothing else *)
Theorem authorize_unrestricted_is_the_admin_flag : uexpr_is_admin unrestricted_now = true.
Proof. vm_compute. reflexivity. Qed.
Print Assumptions authorize_unrestricted_is_the_admin_flag.

Theorem authorize_unrestricted_code : forall u, eval_uexpr unrestricted_now (u_admin u) (u_rw u) = Some (u_admin u).
Proof. intro u. apply uexpr_is_admin_sound. exact authorize_unrestricted_is_the_admin_flag. Qed.

(* so on a route with the authenticated signature whose handler asks for the administrator (KAdminOnly) a valid user who is
   not an administrator - an account with partition privileges included: neither `u_rw u` nor `In r routes` is used - is
   refused with no effect, and the translated AuthorizeUnrestricted answers false for it *)
Theorem rwuser_refused_on_admin_routes : forall r cfg us rq u,
  In r routes -> r_sig r = SigUser ->
  auth_enabled cfg = true -> admin_exists us = true -> valid_creds cfg us (rq_creds rq) u -> u_rw u = true -> u_admin u = false ->
  eval_uexpr unrestricted_now (u_admin u) (u_rw u) = Some false /\
  serve shape_now cfg us r KAdminOnly rq = (403, []).
Proof.
  intros r cfg us rq u Hin Hs Ha Hadm Hv Hrw Hna. split.
  - rewrite authorize_unrestricted_code, Hna. reflexivity.
  - exact (admin_routes_refuse_non_administrators r cfg us rq u Hin Hs Ha Hadm Hv Hna).
Qed.
Print Assumptions rwuser_refused_on_admin_routes.

(* (T) Handler.checkAuthorization leaves with a non-nil error for EVERY error of QueryAuthorizer.AuthorizeQuery *)
Theorem check_authorization_hands_on_every_error : check_authz_returns_all_now = true.
Proof. vm_compute. reflexivity. Qed.
Print Assumptions check_authorization_hands_on_every_error.

(* its contract in the model: the handler goes on iff the authorizer answered nil ... *)
Theorem check_authorization_contract : forall u db q, check_authorization (query_result u db q) = authorize_query u db q.
Proof.
  intros u db q. destruct (authorize_query u db q) eqn:E.
  - apply query_result_ok_iff in E. rewrite E. reflexivity.
  - destruct (query_result u db q) eqn:F; try reflexivity. apply query_result_ok_iff in F. congruence.
Qed.

(* ... so an authorizer error of ANY kind (refusal or other) gives 403 and no effect *)
Theorem any_authorizer_error_refuses : forall sh cfg us r q rq u,
  auth_enabled cfg = true -> admin_exists us = true -> authenticated sh r = true -> always_rejects r = false ->
  valid_creds cfg us (rq_creds rq) u -> query_result u (rq_db rq) q <> AuthzOk ->
  serve sh cfg us r (KQuery q) rq = (403, []).
Proof.
  intros sh cfg us r q rq u Ha Hadm Hauth Hrej Hv Hne. rewrite (serve_valid _ _ _ _ _ _ u) by assumption.
  apply inner_refuses; [assumption|]. apply not_true_is_false. intro E. apply Hne, query_result_ok_iff, E.
Qed.
Print Assumptions any_authorizer_error_refuses.

(* the error that is not an authorization error exists: RequiredPrivileges fails for the statement (invalid source) *)
Theorem invalid_source_is_an_other_error : forall u db s q,
  In RInvalid s -> u_admin u = false -> ~ In RRwAllow s -> query_result u db (s :: q) = AuthzOtherError.
Proof.
  intros u db s q Hin Hna Hno. unfold query_result. rewrite Hna. cbn [stmts_result]. unfold stmt_result.
  rewrite (proj2 (existsb_invalid s) Hin).
  assert (existsb is_rwallow s = false) as -> by (apply not_true_is_false; rewrite existsb_rwallow; exact Hno).
  rewrite authorize_stmt_refuses, andb_false_r; [reflexivity|].
  unfold stmt_allowed. destruct (u_rw u); [intros [X|(_ & _ & X)]; contradiction|intro H; exact (H _ Hin)].
Qed.

(* ---- log-store listings (GET /api/v1/repository, repair 3986ddb) ---- *)
(* a listing returns exactly the repositories of the catalogue the user may read or write ... *)
Theorem listing_exact : forall u dbs d,
  In d (visible_repositories u dbs) <-> In d dbs /\ (has_priv u ReadPriv d \/ has_priv u WritePriv d).
Proof.
intros u dbs d. unfold visible_repositories. rewrite filter_In, can_see_iff. unfold can_see_spec. tauto.
Qed.
Print Assumptions listing_exact.

(* ... each once, in the catalogue's order ... *)
Theorem listing_no_duplicates : forall u dbs, NoDup dbs -> NoDup (visible_repositories u dbs).
Proof. intros u dbs H. apply NoDup_filter. exact H. Qed.

(* ... and that is what the endpoint answers for valid credentials (invalid ones: invalid_creds_rejected) *)
Theorem listing_served : forall sh cfg us r dbs rq u,
  auth_enabled cfg = true -> admin_exists us = true -> authenticated sh r = true -> always_rejects r = false ->
  valid_creds cfg us (rq_creds rq) u ->
  serve sh cfg us r (KListRepos dbs) rq = (200, [EffList (visible_repositories u dbs)]).
Proof.
  intros sh cfg us r dbs rq u Ha Hadm Hauth Hrej Hv. rewrite (serve_valid _ _ _ _ _ _ u) by assumption.
  cbn [inner]. rewrite Ha. reflexivity.
Qed.
Print Assumptions listing_served.

Theorem listing_admin_sees_all : forall u dbs, u_admin u = true -> visible_repositories u dbs = dbs.
Proof.
  intros u dbs H. unfold visible_repositories. induction dbs as [|d dbs IH]; [reflexivity|].
  cbn [filter]. unfold can_see at 1, authorize_database. rewrite H. cbn [orb]. rewrite IH. reflexivity.
Qed.

Theorem listing_without_privileges_is_empty : forall u dbs,
  u_admin u = false -> u_rw u = false -> u_privs u = [] -> visible_repositories u dbs = [].
Proof.
  intros u dbs Ha Hr Hp. unfold visible_repositories. induction dbs as [|d dbs IH]; [reflexivity|].
  cbn [filter]. unfold can_see at 1, authorize_database. rewrite Ha, Hr, Hp. cbn. exact IH.
Qed.

(* GRANT p ON d TO n changes n's listing at exactly d: d is listed iff p is a privilege, everything else as before;
   nobody else's listing changes (serve_grant_revoke_exact covers KListRepos) *)
Theorem listing_after_grant : forall sh cfg us r n d p u c x dbs,
  auth_enabled cfg = true -> admin_exists us = true -> authenticated sh r = true -> always_rejects r = false ->
  authenticate cfg us c = Pass (Some u) -> u_name u = n -> u_admin u = false -> u_rw u = false ->
  serve sh cfg (grant us n d p) r (KListRepos dbs) (mk_request c x) = (200, [EffList (filter (see_after u d p) dbs)]).
Proof.
  intros sh cfg us r n d p u c x dbs Ha Hadm Hauth Hrej E Hn Hna Hnr. unfold grant.
  rewrite (serve_set_privilege_self _ _ _ _ _ _ _ _ _ u) by assumption. cbn [inner]. rewrite Ha. cbn [negb].
  rewrite visible_after_set by assumption. reflexivity.
Qed.
Print Assumptions listing_after_grant.

(* ---- accounts with partition privileges (UserInfo.Rwuser) ---- *)
(* they pass every per-database check and see every repository; GRANT / REVOKE never changes what they may do; the control
   endpoints refuse whoever is not an administrator, whatever `u_rw` says (rwuser_is_not_administrator does not mention it);
   a statement entry without the Rwuser flag, or the statement's own refusing case, stops them unless the statement's own
   case lets them through *)
Theorem rwuser_bypasses_database_privileges : forall u p d, u_rw u = true -> authorize_database u p d = true.
Proof. exact rw_authorize_database. Qed.

Theorem rwuser_privileges_irrelevant : forall cfg k rq u d p, u_rw u = true ->
  inner cfg k rq (Some (set_priv_user u d p)) = inner cfg k rq (Some u).
Proof.
  intros cfg k rq u d p H. apply inner_same_answers; [reflexivity|reflexivity|].
  intros q d' _. rewrite !rw_authorize_database by exact H. reflexivity.
Qed.
Print Assumptions rwuser_privileges_irrelevant.

Theorem rwuser_is_not_administrator : forall cfg rq u, auth_enabled cfg = true -> u_admin u = false ->
  inner cfg KAdminOnly rq (Some u) = (403, []).
Proof. intros cfg rq u Ha Hna. cbn [inner]. rewrite Ha, Hna. reflexivity. Qed.

Theorem rwuser_refused_by_unflagged_entry : forall u db s, u_rw u = true -> u_admin u = false ->
  In RAdmin s -> ~ In RRwAllow s -> authorize_query u db [s] = false.
Proof.
  intros u db s Hr Ha Hin Hno. apply authorize_query_refuses; [exact Ha|].
  unfold stmt_allowed. rewrite Hr. intros [X|(_ & X & _)]; contradiction.
Qed.
Print Assumptions rwuser_refused_by_unflagged_entry.

Theorem rwuser_refused_by_statement_case : forall u db s, u_rw u = true -> u_admin u = false ->
  In RRwDeny s -> ~ In RRwAllow s -> authorize_query u db [s] = false.
Proof.
  intros u db s Hr Ha Hin Hno. apply authorize_query_refuses; [exact Ha|].
  unfold stmt_allowed. rewrite Hr. intros [X|(X & _)]; contradiction.
Qed.

Theorem rwuser_database_statements_allowed : forall u db s, u_rw u = true ->
  (forall rp, In rp s -> exists d p, rp = RDb d p) -> authorize_query u db [s] = true.
Proof.
  intros u db s Hr Hall. unfold authorize_query. apply orb_true_iff. right. cbn [forallb]. rewrite andb_true_r.
  apply authorize_stmt_spec. unfold stmt_allowed. rewrite Hr. right.
  repeat split; intro X; destruct (Hall _ X) as (d & p & E); discriminate.
Qed.

Theorem rwuser_markers_ignored_by_ordinary_users : forall u db s m, u_rw u = false -> (m = RRwAllow \/ m = RRwDeny) ->
  authorize_stmt u db (s ++ [m])%list = authorize_stmt u db s.
Proof.
  intros u db s m Hr Hm. unfold authorize_stmt. rewrite Hr. unfold authorize_stmt_plain. rewrite forallb_app. cbn [forallb].
  destruct Hm as [-> | ->]; rewrite !andb_true_r; reflexivity.
Qed.

(* (T) the statement cases of AuthorizeQueryForRwUser in the source are the ones the model gives a meaning to *)
Theorem rwuser_rules_match : list_eqb rwrule_eqb gen_rw_rules model_rw_rules = true /\
  find_rwrule model_rw_rules "<tail>" = Some rw_tail_expected.
Proof. vm_compute. split; reflexivity. Qed.
Print Assumptions rwuser_rules_match.

(* non-vacuity: hypotheses are satisfiable and the interesting outcomes all occur *)
Definition ex_users : list user :=
  [mk_user "root" "rootpw" true false []; mk_user "ro" "ropw" false false [("db1", ReadPriv)];
   mk_user "wo" "wopw" false false [("db1", WritePriv)]; mk_user "rw" "rwpw" false true []].
Definition ex_cfg : config := mk_config true true [].
Definition ex_sel : rkind := KQuery [[RDb "" ReadPriv]].
Definition ex_rq (u p : string) : request := mk_request (mk_creds_in u p HNone) "db1".
Definition ex_route : route := mk_route "query" "GET" "/query" "h.serveQuery" SigUser "".

Example C19_example_outcomes :
  authenticated shape_now ex_route = true /\ admin_exists ex_users = true /\
  serve shape_now ex_cfg ex_users ex_route ex_sel (ex_rq "" "") = (401, []) /\
  serve shape_now ex_cfg ex_users ex_route ex_sel (ex_rq "ro" "bad") = (401, []) /\
  serve shape_now ex_cfg ex_users ex_route ex_sel (ex_rq "wo" "wopw") = (403, []) /\
  serve shape_now ex_cfg ex_users ex_route ex_sel (ex_rq "ro" "ropw") = (200, [EffQuery "db1" [[RDb "" ReadPriv]]]) /\
  serve shape_now ex_cfg ex_users ex_route KWrite (ex_rq "ro" "ropw") = (403, []) /\
  serve shape_now ex_cfg ex_users ex_route KWrite (ex_rq "wo" "wopw") = (204, [EffWrite "db1"]) /\
  serve shape_now ex_cfg ex_users ex_route KAdminOnly (ex_rq "wo" "wopw") = (403, []) /\
  serve shape_now ex_cfg ex_users ex_route KAdminOnly (ex_rq "root" "rootpw") = (200, [EffControl]) /\
  serve shape_now ex_cfg (grant ex_users "wo" "db1" AllPriv) ex_route ex_sel (ex_rq "wo" "wopw") = (200, [EffQuery "db1" [[RDb "" ReadPriv]]]) /\
  serve shape_now ex_cfg (revoke ex_users "ro" "db1" ReadPriv) ex_route ex_sel (ex_rq "ro" "ropw") = (403, []).
Proof. vm_compute. repeat split. Qed.

Example C19_example_valid_creds : valid_creds ex_cfg ex_users (mk_creds_in "ro" "ropw" HNone) (mk_user "ro" "ropw" false false [("db1", ReadPriv)]).
Proof. apply authenticate_pass_sound; reflexivity. Qed.

Example C19_example_table_nonempty : (10 <? N.of_nat (length routes)) = true /\ existsb (authenticated shape_now) routes = true.
Proof. vm_compute. split; reflexivity. Qed.

Example C19_example_listing :
  serve shape_now ex_cfg ex_users ex_route (KListRepos ["db1"; "db2"]) (ex_rq "ro" "ropw") = (200, [EffList ["db1"]]) /\
  serve shape_now ex_cfg ex_users ex_route (KListRepos ["db1"; "db2"]) (ex_rq "root" "rootpw") = (200, [EffList ["db1"; "db2"]]) /\
  serve shape_now ex_cfg ex_users ex_route (KListRepos ["db1"; "db2"]) (ex_rq "rw" "rwpw") = (200, [EffList ["db1"; "db2"]]) /\
  serve shape_now ex_cfg (grant ex_users "ro" "db2" WritePriv) ex_route (KListRepos ["db1"; "db2"]) (ex_rq "ro" "ropw") = (200, [EffList ["db1"; "db2"]]) /\
  serve shape_now ex_cfg (revoke ex_users "ro" "db1" AllPriv) ex_route (KListRepos ["db1"; "db2"]) (ex_rq "ro" "ropw") = (200, [EffList []]) /\
  serve shape_now ex_cfg ex_users ex_route KRepoSee (ex_rq "wo" "wopw") = (200, [EffHandler]) /\
  serve shape_now ex_cfg ex_users ex_route KRepoSee (mk_request (mk_creds_in "wo" "wopw" HNone) "db2") = (403, []) /\
  serve shape_now ex_cfg ex_users ex_route (KListRepos ["db1"]) (ex_rq "ro" "bad") = (401, []).
Proof. vm_compute. repeat split. Qed.

Example C19_example_rwuser :
  serve shape_now ex_cfg ex_users ex_route KWrite (ex_rq "rw" "rwpw") = (204, [EffWrite "db1"]) /\
  serve shape_now ex_cfg ex_users ex_route KAdminOnly (ex_rq "rw" "rwpw") = (403, []) /\
  serve shape_now ex_cfg ex_users ex_route (KQuery [[RAdminRw]]) (ex_rq "rw" "rwpw") = (200, [EffQuery "db1" [[RAdminRw]]]) /\
  serve shape_now ex_cfg ex_users ex_route (KQuery [[RAdminRw]]) (ex_rq "wo" "wopw") = (403, []) /\
  serve shape_now ex_cfg ex_users ex_route (KQuery [[RAdmin]]) (ex_rq "rw" "rwpw") = (403, []) /\
  serve shape_now ex_cfg ex_users ex_route (KQuery [[RAdmin; RRwAllow]]) (ex_rq "rw" "rwpw") = (200, [EffQuery "db1" [[RAdmin; RRwAllow]]]) /\
  serve shape_now ex_cfg ex_users ex_route (KQuery [[RAdminRw; RRwDeny]]) (ex_rq "rw" "rwpw") = (403, []) /\
  rw_marker model_rw_rules "GrantStatement" false = [RRwAllow] /\ rw_marker model_rw_rules "DropUserStatement" true = [] /\
  rw_marker model_rw_rules "DropDatabaseStatement" true = [RRwDeny] /\ rw_marker model_rw_rules "KillQueryStatement" false = [].
Proof. vm_compute. repeat split. Qed.

Example C19_example_handler_facts :
  decides (mk_hguard "POST" "/write" ["write"]) = true /\ decides (mk_hguard "GET" "/x" []) = false /\
  guard_ok [] (mk_hguard "POST" "/repo/{repository}/logstreams/{logStream}/records" []) = false /\
  guard_ok ["C19-logstore-data-unprivileged"] (mk_hguard "POST" "/repo/{repository}/logstreams/{logStream}/records" []) = true /\
  (5 <? N.of_nat (length handler_guards)) = true.
Proof. vm_compute. repeat split. Qed.

Example C19_example_other_error :
  query_result (mk_user "wo" "wopw" false false [("db1", WritePriv)]) "db1" [[RInvalid]] = AuthzOtherError /\
  query_result (mk_user "wo" "wopw" false false [("db1", WritePriv)]) "db1" [[RDb "" ReadPriv]] = AuthzDenied /\
  serve shape_now ex_cfg ex_users ex_route (KQuery [[RInvalid]]) (ex_rq "ro" "ropw") = (403, []) /\
  serve shape_now ex_cfg ex_users ex_route (KQuery [[RInvalid]]) (ex_rq "rw" "rwpw") = (403, []) /\
  serve shape_now ex_cfg ex_users ex_route (KQuery [[RInvalid]]) (ex_rq "root" "rootpw") = (200, [EffQuery "db1" [[RInvalid]]]) /\
  eval_uexpr (UOr UAdmin URw) false true = Some true /\ uexpr_is_admin (UOr UAdmin URw) = false /\ uexpr_is_admin UAdmin = true.
Proof. vm_compute. repeat split. Qed.

Example C19_example_guard_formulas :
  derive (GOr GAuthOff (GAnd (GNot GAuthOff) (GAnd (GNot GNil) (GOr GDbRead GDbWrite)))) = DSee /\
  derive (GOr GAuthOff (GAnd (GNot GAuthOff) (GAnd (GNot GNil) GDbRead))) = DDbRead /\
  derive (GOr GAuthOff (GAnd (GNot GAuthOff) (GAnd (GNot GNil) (GAnd GDbRead GDbWrite)))) = DAtLeastRead /\
  derive (GAnd F_dbread (GOr (GNot (GOpaque 5)) (GAnd (GOpaque 5) F_query))) = DAtLeastRead /\
  derive (GOr (GNot (GOpaque 5)) (GAnd (GOpaque 5) F_query)) = DUnknown /\
  derive (GOr GAuthOff (GAnd (GNot GNil) (GOr GAdmin GDbWrite))) = DUnknown /\ derive GTrue = DEveryone.
Proof. vm_compute. repeat split. Qed.

Example C19_example_auth_cache :
  let us0 := [mk_cuser "alice" "H:old" false true] in
  let us1 := [mk_cuser "alice" "H:new" false true] in
  let st := run verify_plain refresh_always [] us0 [EvAuth "alice" "old"; EvUpdate PFull us1] in
  fst (authenticate_c verify_plain (fst st) (snd st) "alice" "old") = false /\
  fst (authenticate_c verify_plain (fst st) (snd st) "alice" "new") = true /\
  fst (run verify_plain refresh_always [] us0 [EvAuth "alice" "old"]) = [mk_centry "alice" "H:old" "old"].
Proof. vm_compute. repeat split. Qed.
