(* C19 model: executable definitions only.
   Part A: shape of the route table, of AddRoutes and of the ServeHTTP prefix dispatch (instantiated by the
           translator in Gen_Routes.v), the statement's whitelist `public`, the repairs of the known defects, and the
           handler facts (the authorization decisions a handler's user argument reaches).
   Part B: hand model of credential parsing, `authenticate`, privilege checks and `serve`.
   Part C: the RequiredPrivileges table and the statement cases of AuthorizeQueryForRwUser as the translator reads them;
           at the end `serve_path`: the prefix dispatch in front of `serve`. *)
From Coq Require Import String List Bool NArith.
Import ListNotations.
Open Scope string_scope.
Open Scope N_scope.

(* ------------------------------------------------------------------------------------------------------------ *)
(* Part A: tables *)

(* Go type of Route.HandlerFunc as the two type assertions in AddRoutes see it *)
Inductive hsig :=
| SigUser     (* func(http.ResponseWriter, *http.Request, meta.User) *)
| SigPlain    (* func(http.ResponseWriter, *http.Request) *)
| SigReject   (* SigPlain function literal whose whole body is http.Error(w, const, const 4xx/5xx) *)
| SigOther.   (* anything else / not statically known *)

Inductive wrap := WrapAuth | WrapPlain | WrapOther.

Record route := mk_route {
  r_name : string; r_method : string; r_pattern : string; r_handler : string; r_sig : hsig; r_cond : string }.

(* p_auth: the callee is `h.M(inner).ServeHTTP` with M = `return authenticate(func(w, r, user){..}, h, h.Config.AuthEnabled)`
   (the repair of C19-debug-public); p_guards: the decisions that literal's user argument reaches *)
Record prefix_rule := mk_prefix {
  p_prefix : string; p_guard : string; p_callee : string; p_understood : bool; p_auth : bool; p_guards : list string }.

(* one `if hf, ok := r.HandlerFunc.(T); ok { handler = W(hf ...) }` of AddRoutes: T, W and, for authenticate, the
   expression passed as requireAuthentication *)
Record wrap_rule := mk_wrap { w_sig : hsig; w_wrap : wrap; w_flag : string }.

Record shape := mk_shape {
  s_rules : list wrap_rule;
  s_replaced : N;            (* later assignments to `handler` that do not wrap the previous value *)
  s_registers : bool;        (* h.mux.HandleFunc(r.Pattern, handler.ServeHTTP).Methods(r.Method) present *)
  s_direct_mux : N;          (* registrations on the mux outside AddRoutes *)
  s_else_is_mux : bool;      (* final else of the ServeHTTP chain is h.mux.ServeHTTP(w, r) *)
  s_mux_calls : N;           (* number of calls of h.mux.ServeHTTP in ServeHTTP *)
  s_problems : N }.          (* constructs the translator could not interpret *)

Definition hsig_eqb (a b : hsig) : bool :=
  match a, b with
  | SigUser, SigUser | SigPlain, SigPlain | SigReject, SigReject | SigOther, SigOther => true
  | _, _ => false
  end.

(* the Go type a signature class has for the type assertions: a rejecting literal is a plain func *)
Definition go_type (s : hsig) : hsig := match s with SigReject => SigPlain | x => x end.

(* AddRoutes runs its assertions one after the other; a later matching one overwrites `handler` *)
Fixpoint wrap_for (rules : list wrap_rule) (s : hsig) (acc : option wrap_rule) : option wrap_rule :=
  match rules with
  | [] => acc
  | w :: rest => if hsig_eqb (w_sig w) (go_type s) && negb (hsig_eqb (w_sig w) SigOther)
                 then wrap_for rest s (Some w) else wrap_for rest s acc
  end.

Definition auth_flag : string := "h.Config.AuthEnabled".

Definition authenticated (sh : shape) (r : route) : bool :=
  match wrap_for (s_rules sh) (r_sig r) None with
  | Some w => match w_wrap w with WrapAuth => String.eqb (w_flag w) auth_flag | _ => false end
  | None => false
  end.

Definition always_rejects (r : route) : bool := hsig_eqb (r_sig r) SigReject.

(* What the STATEMENT lets answer anonymously: pre-flight requests and the liveness/status endpoints. *)
Definition public (r : route) : bool :=
  String.eqb (r_method r) "OPTIONS"
  || ((String.eqb (r_pattern r) "/ping" || String.eqb (r_pattern r) "/status")
      && (String.eqb (r_method r) "GET" || String.eqb (r_method r) "HEAD")).

Definition route_ok (sh : shape) (r : route) : bool := public r || authenticated sh r || always_rejects r.

(* the routes of a table that act without authentication *)
Definition open_routes (sh : shape) (rs : list route) : list route := filter (fun r => negb (route_ok sh r)) rs.

(* Defects repaired in the repository (C19-failpoint-public 8b29366, C19-runtime-config-public bbb5325): exact method and
   pattern. Only Refuted.v (frozen constants of the tree before these repairs) uses this and `repair_route`; the theorems over the
   table translated in a run exempt NO route. *)
Definition known_open_route (r : route) : bool :=
  (String.eqb (r_method r) "POST" && String.eqb (r_pattern r) "/failpoint")
  || (String.eqb (r_method r) "GET" && String.eqb (r_pattern r) "/runtime_config").

(* the minimal repair: give the handler the authenticated signature *)
Definition repair_route (r : route) : route :=
  if known_open_route r && hsig_eqb (r_sig r) SigPlain
  then mk_route (r_name r) (r_method r) (r_pattern r) (r_handler r) SigUser (r_cond r) else r.
Definition repair_routes (rs : list route) : list route := map repair_route rs.

(* Known defect C19-debug-public: exactly these three prefixes are dispatched before the mux. *)
Definition known_prefix (p : prefix_rule) : bool :=
  p_understood p &&
  (String.eqb (p_prefix p) "/debug/pprof" || String.eqb (p_prefix p) "/debug/vars" || String.eqb (p_prefix p) "/debug/query").
Definition repair_prefixes (ps : list prefix_rule) : list prefix_rule := filter (fun p => negb (known_prefix p)) ps.

(* An exemption is in force only while its finding is OPEN in known_findings.json: `open` is the list of open finding
   ids written into Gen_Routes.v by run.py in every run. Once a finding is marked fixed its exemption is gone and a
   re-appearance breaks the obligation. *)
Definition mem (x : string) (l : list string) : bool := existsb (String.eqb x) l.
Definition exempt_prefix (open : list string) (p : prefix_rule) : bool := mem "C19-debug-public" open && known_prefix p.
Fixpoint str_list_eqb (a b : list string) : bool :=
  match a, b with
  | [], [] => true
  | x :: a', y :: b' => String.eqb x y && str_list_eqb a' b'
  | _, _ => false
  end.
(* a prefix dispatched before the mux is fine when it runs behind authenticate and asks for the administrator *)
Definition prefix_admin (p : prefix_rule) : bool := p_understood p && p_auth p && str_list_eqb (p_guards p) ["admin"].
Definition prefix_ok (open : list string) (p : prefix_rule) : bool := prefix_admin p || exempt_prefix open p.
Definition unexempt_prefixes (open : list string) (ps : list prefix_rule) : list prefix_rule :=
  filter (fun p => negb (prefix_ok open p)) ps.

Definition shape_ok (sh : shape) : bool :=
  match wrap_for (s_rules sh) SigUser None with
  | Some w => match w_wrap w with WrapAuth => String.eqb (w_flag w) auth_flag | _ => false end
  | None => false
  end
  && N.eqb (s_replaced sh) 0 && s_registers sh && N.eqb (s_direct_mux sh) 0
  && s_else_is_mux sh && N.eqb (s_mux_calls sh) 1 && N.eqb (s_problems sh) 0.

(* ---- handler facts: the authorization decisions the user argument of a handler reaches (translated per run) ---- *)
Record hguard := mk_hguard { g_method : string; g_pattern : string; g_guards : list string }.

(* Routes for which authentication alone is what the statement asks: they name no database and perform no action
   (serveFluxQuery only answers "not implemented"; /runtime_config reads the limits configuration). *)
Definition auth_only_ok (m p : string) : bool :=
  (String.eqb m "POST" && String.eqb p "/api/v2/query") || (String.eqb m "GET" && String.eqb p "/runtime_config").
Definition is_dataplane (p : string) : bool := String.prefix "/repo/{repository}/logstreams/{logStream}/" p.
(* the log-store data plane (finding C19-logstore-data-unprivileged, repaired by 4df29f6) is exempt only while that finding is
   listed as open *)
Definition guard_exempt (open : list string) (g : hguard) : bool :=
  auth_only_ok (g_method g) (g_pattern g) || (mem "C19-logstore-data-unprivileged" open && is_dataplane (g_pattern g)).
Definition decides (g : hguard) : bool :=
  match g_guards g with [] => false | _ => negb (mem "?" (g_guards g)) end.
Definition guard_ok (open : list string) (g : hguard) : bool := decides g || guard_exempt open g.
Definition unguarded (open : list string) (gs : list hguard) : list hguard := filter (fun g => negb (guard_ok open g)) gs.

Fixpoint list_eqb {A} (eqb : A -> A -> bool) (a b : list A) : bool :=
  match a, b with
  | [], [] => true
  | x :: a', y :: b' => eqb x y && list_eqb eqb a' b'
  | _, _ => false
  end.

(* What the statement implies for the routes it names by their function: catalogue changes and server control are for the
   administrator; the log-store listings ask for read or write on the repository; the write endpoints go through the
   write authorizer, the query endpoint through the statement authorizer. (method, pattern, decisions) *)
Definition g_admin : list string := ["admin"].
Definition g_see : list string := ["db:ReadPrivilege"; "db:WritePrivilege"].
Definition expected_guards : list hguard := [
  mk_hguard "POST" "/debug/ctrl" g_admin; mk_hguard "POST" "/backup/run" g_admin; mk_hguard "POST" "/backup/abort" g_admin;
  mk_hguard "POST" "/backup/status" g_admin; mk_hguard "POST" "/failpoint" g_admin; mk_hguard "POST" "/api/v1/tsdb/{tsdb}" g_admin;
  mk_hguard "POST" "/api/v1/repository/{repository}" g_admin; mk_hguard "PUT" "/api/v1/repository/{repository}" g_admin;
  mk_hguard "DELETE" "/api/v1/repository/{repository}" g_admin;
  mk_hguard "POST" "/api/v1/logstream/{repository}/{logStream}" g_admin; mk_hguard "PUT" "/api/v1/logstream/{repository}/{logStream}" g_admin;
  mk_hguard "DELETE" "/api/v1/logstream/{repository}/{logStream}" g_admin;
  mk_hguard "GET" "/api/v1/repository" g_see; mk_hguard "GET" "/api/v1/repository/{repository}" g_see;
  mk_hguard "GET" "/api/v1/logstream/{repository}" g_see; mk_hguard "GET" "/api/v1/logstream/{repository}/{logStream}" g_see;
  mk_hguard "POST" "/write" ["write"]; mk_hguard "POST" "/api/v2/write" ["write"]; mk_hguard "POST" "/api/v1/write" ["write"];
  mk_hguard "GET" "/query" ["query"]; mk_hguard "POST" "/query" ["query"] ].
Fixpoint find_guard (gs : list hguard) (m p : string) : option hguard :=
  match gs with
  | [] => None
  | g :: r => if String.eqb (g_method g) m && String.eqb (g_pattern g) p then Some g else find_guard r m p
  end.
(* a named route that is registered makes exactly the expected decisions (a route that is not registered asks nothing) *)
Definition expected_ok (gs : list hguard) (e : hguard) : bool :=
  match find_guard gs (g_method e) (g_pattern e) with
  | Some g => list_eqb String.eqb (g_guards g) (g_guards e)
  | None => true
  end.

(* dispatch of a request path by Handler.ServeHTTP: the first prefix rule that matches wins, else the mux *)
Definition guard_on (enabled_guards : list string) (p : prefix_rule) : bool :=
  String.eqb (p_guard p) "" || existsb (String.eqb (p_guard p)) enabled_guards.
Fixpoint dispatch (guards : list string) (ps : list prefix_rule) (path : string) : option prefix_rule :=
  match ps with
  | [] => None
  | p :: rest => if String.prefix (p_prefix p) path && guard_on guards p then Some p else dispatch guards rest path
  end.

(* credential methods: names of the Go constants *)
Record cred_facts := mk_cred_facts {
  cf_declared : list string; cf_produced : list string; cf_handled : list string;
  cf_has_default : bool; cf_default_returns : bool }.

(* every method ParseCredentials can produce has its own arm in authenticate (or the default arm returns) *)
Definition cred_facts_ok (c : cred_facts) : bool :=
  cf_default_returns c || forallb (fun m => mem m (cf_handled c)) (cf_produced c).
(* the hand model below knows exactly these two methods *)
Definition model_methods : list string := ["BearerAuthentication"; "UserAuthentication"].
Definition cred_facts_match_model (c : cred_facts) : bool :=
  forallb (fun m => mem m model_methods) (cf_produced c) && forallb (fun m => mem m (cf_produced c)) model_methods.

(* ------------------------------------------------------------------------------------------------------------ *)
(* Part B: authentication and authorisation *)

(* influxql.Privilege is a bit mask: 0 none, 1 read, 2 write, 3 all *)
Inductive priv := NoPriv | ReadPriv | WritePriv | AllPriv.
Definition priv_eqb (a b : priv) : bool :=
  match a, b with
  | NoPriv, NoPriv | ReadPriv, ReadPriv | WritePriv, WritePriv | AllPriv, AllPriv => true
  | _, _ => false
  end.
(* p &^ q *)
Definition priv_clear (p q : priv) : priv :=
  match p, q with
  | x, NoPriv => x
  | _, AllPriv => NoPriv
  | NoPriv, _ => NoPriv
  | ReadPriv, ReadPriv => NoPriv | ReadPriv, WritePriv => ReadPriv
  | WritePriv, WritePriv => NoPriv | WritePriv, ReadPriv => WritePriv
  | AllPriv, ReadPriv => WritePriv | AllPriv, WritePriv => ReadPriv
  end.

(* u_rw: UserInfo.Rwuser - the "partition privileges" account class (CREATE USER .. WITH PARTITION PRIVILEGES, a statement
   only an administrator or another such account may run): it passes every per-database check, is never an
   administrator for AuthorizeUnrestricted, and has its own statement rules (AuthorizeQueryForRwUser). *)
Record user := mk_user { u_name : string; u_pass : string; u_admin : bool; u_rw : bool; u_privs : list (string * priv) }.

Fixpoint lookup {A} (l : list (string * A)) (k : string) : option A :=
  match l with
  | [] => None
  | (k', v) :: r => if String.eqb k' k then Some v else lookup r k
  end.
Fixpoint set_key {A} (l : list (string * A)) (k : string) (v : A) : list (string * A) :=
  match l with
  | [] => [(k, v)]
  | (k', v') :: r => if String.eqb k' k then (k, v) :: r else (k', v') :: set_key r k v
  end.

Fixpoint find_user (us : list user) (n : string) : option user :=
  match us with
  | [] => None
  | u :: r => if String.eqb (u_name u) n then Some u else find_user r n
  end.
Definition admin_exists (us : list user) : bool := existsb u_admin us.

(* UserInfo.AuthorizeDatabase *)
Definition authorize_database (u : user) (p : priv) (d : string) : bool :=
  u_admin u || u_rw u || priv_eqb p NoPriv ||
  match lookup (u_privs u) d with
  | Some q => priv_eqb q p || priv_eqb q AllPriv
  | None => false
  end.

(* Data.SetPrivilege / statement executor GRANT and REVOKE *)
Definition set_priv_user (u : user) (d : string) (p : priv) : user :=
  mk_user (u_name u) (u_pass u) (u_admin u) (u_rw u) (set_key (u_privs u) d p).
Fixpoint set_privilege (us : list user) (n d : string) (p : priv) : list user :=
  match us with
  | [] => []
  | u :: r => if String.eqb (u_name u) n then set_priv_user u d p :: r else u :: set_privilege r n d p
  end.
Definition grant (us : list user) (n d : string) (p : priv) : list user := set_privilege us n d p.
Definition user_priv (us : list user) (n d : string) : priv :=
  match find_user us n with
  | Some u => match lookup (u_privs u) d with Some q => q | None => NoPriv end
  | None => NoPriv
  end.
Definition revoke (us : list user) (n d : string) (p : priv) : list user :=
  set_privilege us n d (match p with AllPriv => NoPriv | _ => priv_clear (user_priv us n d) p end).

(* one entry of a statement's RequiredPrivileges: Admin (RAdmin: Rwuser false, RAdminRw: Rwuser true), or privilege p on
   database d ("" = the request's db; every such entry of the source carries Rwuser: true). RRwAllow / RRwDeny are not
   entries of the source list: they mark the statement INSTANCES that AuthorizeQueryForRwUser lets through (`continue`)
   or refuses before it looks at the list; they mean nothing for other users. *)
(* RInvalid: RequiredPrivileges itself fails for the statement (a plain error, not ErrAuthorize: "invalid source" for table
   function / unnest / binary-operation / CTE sources). AuthorizeQuery hands that error on for everybody but the
   administrator (whose check comes first), and checkAuthorization must refuse on ANY error. *)
Inductive reqpriv := RAdmin | RAdminRw | RDb (d : string) (p : priv) | RRwAllow | RRwDeny | RInvalid.
Definition stmt := list reqpriv.

Definition target_db (d dflt : string) : string := if String.eqb d "" then dflt else d.

Definition is_rwallow (rp : reqpriv) : bool := match rp with RRwAllow => true | _ => false end.
Definition is_rwdeny (rp : reqpriv) : bool := match rp with RRwDeny => true | _ => false end.
(* UserInfo.AuthorizeQuery, ordinary user: every entry must hold, an Admin entry never does *)
Definition authorize_stmt_plain (u : user) (db : string) (s : stmt) : bool :=
  forallb (fun rp => match rp with
                     | RAdmin | RAdminRw | RInvalid => false
                     | RDb d p => authorize_database u p (target_db d db)
                     | RRwAllow | RRwDeny => true
                     end) s.
(* UserInfo.AuthorizeQueryForRwUser: the statement cases first, then every entry must carry Rwuser: true *)
Definition authorize_stmt_rw (s : stmt) : bool :=
  if existsb is_rwallow s then true
  else if existsb is_rwdeny s then false
  else forallb (fun rp => match rp with RAdmin | RInvalid => false | _ => true end) s.
Definition authorize_stmt (u : user) (db : string) (s : stmt) : bool :=
  if u_rw u then authorize_stmt_rw s else authorize_stmt_plain u db s.
Definition authorize_query (u : user) (db : string) (q : list stmt) : bool :=
  u_admin u || forallb (authorize_stmt u db) q.

(* What QueryAuthorizer.AuthorizeQuery hands back, by kind: nil, *ErrAuthorize, or any other error (the only one there is: the error of
   RequiredPrivileges). The first statement that does not pass decides. *)
Inductive authz_result := AuthzOk | AuthzDenied | AuthzOtherError.
Definition is_invalid (rp : reqpriv) : bool := match rp with RInvalid => true | _ => false end.
Definition stmt_result (u : user) (db : string) (s : stmt) : authz_result :=
  if authorize_stmt u db s then AuthzOk
  else if existsb is_invalid s && negb (u_rw u && existsb is_rwallow s) then AuthzOtherError else AuthzDenied.
Fixpoint stmts_result (u : user) (db : string) (q : list stmt) : authz_result :=
  match q with
  | [] => AuthzOk
  | s :: r => match stmt_result u db s with AuthzOk => stmts_result u db r | e => e end
  end.
Definition query_result (u : user) (db : string) (q : list stmt) : authz_result :=
  if u_admin u then AuthzOk else stmts_result u db q.
(* Handler.checkAuthorization: nil only when the authorizer returned nil *)
Definition check_authorization (r : authz_result) : bool := match r with AuthzOk => true | _ => false end.

(* ---- UserInfo.AuthorizeUnrestricted as a formula over the account's flags (translated per run) ---- *)
Inductive uexpr := UAdmin | URw | UTrue | UFalse | UOr (a b : uexpr) | UAnd (a b : uexpr) | UNot (a : uexpr) | UUnknown.
Fixpoint eval_uexpr (e : uexpr) (adm rw : bool) : option bool :=
  match e with
  | UAdmin => Some adm | URw => Some rw | UTrue => Some true | UFalse => Some false
  | UOr a b => match eval_uexpr a adm rw, eval_uexpr b adm rw with Some x, Some y => Some (x || y) | _, _ => None end
  | UAnd a b => match eval_uexpr a adm rw, eval_uexpr b adm rw with Some x, Some y => Some (x && y) | _, _ => None end
  | UNot a => match eval_uexpr a adm rw with Some x => Some (negb x) | None => None end
  | UUnknown => None
  end.
Definition opt_bool_eqb (a : option bool) (b : bool) : bool := match a with Some x => Bool.eqb x b | None => false end.
(* the formula is the administrator flag, whatever the other flag says *)
Definition uexpr_is_admin (e : uexpr) : bool :=
  opt_bool_eqb (eval_uexpr e true true) true && opt_bool_eqb (eval_uexpr e true false) true
  && opt_bool_eqb (eval_uexpr e false true) false && opt_bool_eqb (eval_uexpr e false false) false.

(* handler.go canSeeRepository / requireRepositoryRead: read or write on the repository, the rule SHOW DATABASES follows *)
Definition can_see (u : user) (d : string) : bool := authorize_database u ReadPriv d || authorize_database u WritePriv d.
(* serveListRepository: the catalogue's repositories (dbs: not marked deleted, in the order listed) the user can see *)
Definition visible_repositories (u : user) (dbs : list string) : list string := filter (can_see u) dbs.

(* ---- credentials as they arrive ---- *)
Record token := mk_token {
  tk_valid : bool;              (* parses, HMAC signature under the shared secret, not expired *)
  tk_has_exp : bool;            (* carries a positive numeric exp claim *)
  tk_user : option string }.    (* the username claim, if it is a string *)

Inductive authz_header :=
| HNone
| HBearer (t : token)                       (* "Bearer <jwt>" *)
| HToken (up : option (string * string))    (* "Token user:pass"; None: no colon *)
| HBasic (up : option (string * string))    (* "Basic base64(user:pass)"; None: undecodable *)
| HGarbage.                                 (* any other header value *)

Record creds_in := mk_creds_in { c_url_u : string; c_url_p : string; c_hdr : authz_header }.

(* AuthenticationMethod is a Go int: the two declared constants and every other value *)
Inductive cmethod := UserAuthentication | BearerAuthentication | OtherMethod (n : N).
Record credentials := mk_credentials { cr_method : cmethod; cr_user : string; cr_pass : string; cr_token : option token }.

Definition user_creds (u p : string) := mk_credentials UserAuthentication u p None.

Definition parse_credentials (c : creds_in) : option credentials :=
  if negb (String.eqb (c_url_u c) "") && negb (String.eqb (c_url_p c) "") then Some (user_creds (c_url_u c) (c_url_p c))
  else match c_hdr c with
       | HNone => None
       | HBearer t => Some (mk_credentials BearerAuthentication "" "" (Some t))
       | HToken (Some (u, p)) => Some (user_creds u p)
       | HToken None => None
       | HBasic (Some (u, p)) => Some (user_creds u p)
       | HBasic None => None
       | HGarbage => None
       end.

Record config := mk_config {
  auth_enabled : bool;
  shared_secret_set : bool;
  locked : list string }.      (* users currently locked after repeated failures *)

Inductive auth_result :=
| Reject (status : N)                   (* wrote the status and returned: inner not called *)
| Pass (u : option user)                (* inner called with this user (None = nil) *)
| RejectAndPass (status : N).           (* default arm: wrote 401 and fell through to inner with a nil user *)

Definition authenticate_creds (cfg : config) (us : list user) (cr : credentials) : auth_result :=
  match cr_method cr with
  | UserAuthentication =>
      if String.eqb (cr_user cr) "" then Reject 401
      else if mem (cr_user cr) (locked cfg) then Reject 401
      else match find_user us (cr_user cr) with
           | None => Reject 401
           | Some u => if String.eqb (u_pass u) (cr_pass cr) then Pass (Some u) else Reject 401
           end
  | BearerAuthentication =>
      if negb (shared_secret_set cfg) then Reject 401
      else match cr_token cr with
           | None => Reject 401
           | Some t =>
               if negb (tk_valid t) then Reject 401
               else if negb (tk_has_exp t) then Reject 401
               else match tk_user t with
                    | None => Reject 401
                    | Some n => if String.eqb n "" then Reject 401
                                else match find_user us n with None => Reject 401 | Some u => Pass (Some u) end
                    end
           end
  | OtherMethod _ => RejectAndPass 401
  end.

Definition authenticate (cfg : config) (us : list user) (c : creds_in) : auth_result :=
  if negb (auth_enabled cfg) then Pass None
  else if negb (admin_exists us) then Pass None
  else match parse_credentials c with
       | None => Reject 401
       | Some cr => authenticate_creds cfg us cr
       end.

(* ---- handlers ---- *)
(* what the handler behind a route does with the user it is given *)
Inductive rkind :=
| KPublic                       (* ping / status / options: answers 204, touches nothing *)
| KQuery (q : list stmt)        (* serveQuery and the other handlers that go through AuthorizeQuery *)
| KWrite                        (* serveWrite and the other handlers that go through AuthorizeWrite on the request's db *)
| KAdminOnly                    (* /debug/ctrl, /backup/..., requireAdmin: AuthorizeUnrestricted *)
| KRepoSee                      (* requireRepositoryRead on the repository named by the request (rq_db) *)
| KListRepos (dbs : list string) (* serveListRepository over a catalogue holding the repositories dbs *)
| KOpaque.                      (* handler whose own checks are not modelled; only the authentication wrapper is *)

Inductive effect :=
| EffQuery (db : string) (q : list stmt)    (* the statements were executed *)
| EffWrite (db : string)
| EffControl
| EffList (l : list string)                 (* a listing with exactly these entries was returned *)
| EffHandler.                               (* the handler body ran *)

Record request := mk_request { rq_creds : creds_in; rq_db : string }.

Definition inner (cfg : config) (k : rkind) (rq : request) (u : option user) : N * list effect :=
  match k with
  | KPublic => (204, [])
  | KOpaque => (200, [EffHandler])
  | KQuery q =>
      if negb (auth_enabled cfg) then (200, [EffQuery (rq_db rq) q])
      else match u with
           | None => (403, [])
           | Some usr => if authorize_query usr (rq_db rq) q then (200, [EffQuery (rq_db rq) q]) else (403, [])
           end
  | KWrite =>
      if negb (auth_enabled cfg) then (204, [EffWrite (rq_db rq)])
      else match u with
           | None => (403, [])
           | Some usr => if authorize_database usr WritePriv (rq_db rq) then (204, [EffWrite (rq_db rq)]) else (403, [])
           end
  | KAdminOnly =>
      if negb (auth_enabled cfg) then (200, [EffControl])
      else match u with
           | None => (403, [])
           | Some usr => if u_admin usr then (200, [EffControl]) else (403, [])
           end
  | KRepoSee =>
      if negb (auth_enabled cfg) then (200, [EffHandler])
      else match u with
           | None => (403, [])
           | Some usr => if can_see usr (rq_db rq) then (200, [EffHandler]) else (403, [])
           end
  | KListRepos dbs =>
      if negb (auth_enabled cfg) then (200, [EffList dbs])
      else match u with
           | None => (200, [EffList []])
           | Some usr => (200, [EffList (visible_repositories usr dbs)])
           end
  end.

(* a plain-signature handler never sees a user: whatever it does, it does for everybody *)
Definition inner_plain (k : rkind) (rq : request) : N * list effect :=
  match k with
  | KPublic => (204, [])
  | KQuery q => (200, [EffQuery (rq_db rq) q])
  | KWrite => (204, [EffWrite (rq_db rq)])
  | KAdminOnly => (200, [EffControl])
  | KRepoSee => (200, [EffHandler])
  | KListRepos dbs => (200, [EffList dbs])
  | KOpaque => (200, [EffHandler])
  end.

Definition serve (sh : shape) (cfg : config) (us : list user) (r : route) (k : rkind) (rq : request) : N * list effect :=
  if always_rejects r then (403, [])
  else if authenticated sh r then
    match authenticate cfg us (rq_creds rq) with
    | Reject st => (st, [])
    | Pass u => inner cfg k rq u
    | RejectAndPass st => (st, snd (inner cfg k rq None))
    end
  else match wrap_for (s_rules sh) (r_sig r) None with
       | None => (500, [])                       (* nil handler: the recovery wrapper answers *)
       | Some _ => inner_plain k rq
       end.

(* ------------------------------------------------------------------------------------------------------------ *)
(* Part C: the RequiredPrivileges table (one row per statement type; instantiated from the source by the translator in
   Gen_Privileges.v and frozen by hand in Privileges.v) *)
Record pentry := mk_pentry {
  pe_admin : bool;         (* Admin: true *)
  pe_rwuser : bool;        (* Rwuser: true *)
  pe_name : string;        (* "" = the request's db; otherwise the Go expression naming the database *)
  pe_priv : string;        (* name of the influxql constant *)
  pe_cond : string }.      (* enclosing conditions, "" = unconditional *)
Record stmt_priv := mk_stmt_priv {
  sp_type : string; sp_simple : bool; sp_entries : list pentry; sp_calls : list string }.

Definition pentry_eqb (a b : pentry) : bool :=
  Bool.eqb (pe_admin a) (pe_admin b) && Bool.eqb (pe_rwuser a) (pe_rwuser b) && String.eqb (pe_name a) (pe_name b) && String.eqb (pe_priv a) (pe_priv b)
  && String.eqb (pe_cond a) (pe_cond b).
Definition stmt_priv_eqb (a b : stmt_priv) : bool :=
  String.eqb (sp_type a) (sp_type b) && Bool.eqb (sp_simple a) (sp_simple b)
  && list_eqb pentry_eqb (sp_entries a) (sp_entries b) && list_eqb String.eqb (sp_calls a) (sp_calls b).

Definition priv_of_name (s : string) : option priv :=
  if String.eqb s "ReadPrivilege" then Some ReadPriv
  else if String.eqb s "WritePrivilege" then Some WritePriv
  else if String.eqb s "AllPrivileges" then Some AllPriv
  else if String.eqb s "NoPrivileges" then Some NoPriv
  else None.

(* meaning of one unconditional entry for a statement whose own database field holds stmt_db *)
Definition req_of_entry (stmt_db : string) (e : pentry) : option reqpriv :=
  if negb (String.eqb (pe_cond e) "") then None
  else if pe_admin e then Some (if pe_rwuser e then RAdminRw else RAdmin)
  else if negb (pe_rwuser e) then None      (* RDb stands for an entry with Rwuser: true; anything else is not modelled *)
  else match priv_of_name (pe_priv e) with
       | None => None
       | Some p => if String.eqb (pe_name e) "" then Some (RDb "" p)
                   else if String.eqb (pe_name e) "s.Database" then Some (RDb stmt_db p)
                   else None
       end.
Fixpoint req_of_entries (stmt_db : string) (es : list pentry) : option stmt :=
  match es with
  | [] => Some []
  | e :: r => match req_of_entry stmt_db e, req_of_entries stmt_db r with
              | Some x, Some xs => Some (x :: xs)
              | _, _ => None
              end
  end.
Fixpoint find_stmt_priv (tbl : list stmt_priv) (ty : string) : option stmt_priv :=
  match tbl with
  | [] => None
  | sp :: r => if String.eqb (sp_type sp) ty then Some sp else find_stmt_priv r ty
  end.
(* the requirement list of a simple statement type; None for the types whose method computes *)
Definition required_of (tbl : list stmt_priv) (ty stmt_db : string) : option stmt :=
  match find_stmt_priv tbl ty with
  | Some sp => if sp_simple sp then req_of_entries stmt_db (sp_entries sp) else None
  | None => None
  end.
(* Sources.RequiredPrivileges: read on the database of every measurement; SELECT adds write on the target's database;
   CREATE CONTINUOUS QUERY: read on its database and write on the target's if that names a database *)
Definition sources_req (dbs : list string) : stmt := map (fun d => RDb d ReadPriv) dbs.
Definition select_req (srcs : list string) (target : option string) : stmt :=
  (sources_req srcs ++ match target with Some d => [RDb d WritePriv] | None => [] end)%list.
Definition cq_req (db target : string) : stmt :=
  RDb db ReadPriv :: (if String.eqb target "" then [] else [RDb target WritePriv]).

(* ---- the cardinality statements (ShowSeriesCardinality, ShowMeasurementCardinality, ShowTagKeyCardinality,
   ShowFieldKeyCardinality, ShowTagValuesCardinality): their requirement depends on the EXACT flag and on the sources.
   The rule is read off the translated row, so that the methods before a1d6f29 (C19-cardinality-no-source-unprivileged: without a FROM
   clause nothing is asked) and the repaired ones (read on the statement's database) are both understood. ---- *)
Definition has_db_read_entry (sp : stmt_priv) (c : string) : bool :=
  existsb (fun e => negb (pe_admin e) && pe_rwuser e && String.eqb (pe_name e) "s.Database"
                    && String.eqb (pe_priv e) "ReadPrivilege" && String.eqb (pe_cond e) c) (sp_entries sp).
Definition real_entries (sp : stmt_priv) : list pentry :=
  filter (fun e => negb (String.prefix "assign " (pe_name e))) (sp_entries sp).
Definition delegates_to_sources (sp : stmt_priv) : bool :=
  list_eqb String.eqb (sp_calls sp) ["s.Sources.RequiredPrivileges"].
(* a source without a database of its own: the request's database, or - ShowTagValuesCardinality rewrites it - the statement's *)
Definition src_dbs (sp : stmt_priv) (stmt_db : string) (srcs : list string) : list string :=
  if existsb (fun e => String.eqb (pe_name e) "assign p.Name") (sp_entries sp)
  then map (fun d => if String.eqb d "" then stmt_db else d) srcs else srcs.
Definition card_rule (tbl : list stmt_priv) (ty : string) (exact : bool) (stmt_db : string) (srcs : list string) : option stmt :=
  match find_stmt_priv tbl ty with
  | None => None
  | Some sp =>
      let nosrc := match srcs with [] => true | _ => false end in
      let dbreq := [RDb stmt_db ReadPriv] in
      let bysrc := sources_req (src_dbs sp stmt_db srcs) in
      if negb (delegates_to_sources sp) then None
      else match real_entries sp with
           | [] => Some bysrc
           | [_] =>
               if has_db_read_entry sp "!s.Exact || len(s.Sources) == 0" then Some (if negb exact || nosrc then dbreq else bysrc)
               else if has_db_read_entry sp "!s.Exact" then Some (if negb exact then dbreq else bysrc)
               else if has_db_read_entry sp "len(s.Sources) == 0" then Some (if nosrc then dbreq else bysrc)
               else None
           | _ => None
           end
  end.
Definition cardinality_types : list string :=
  ["ShowSeriesCardinalityStatement"; "ShowMeasurementCardinalityStatement"; "ShowTagKeyCardinalityStatement";
   "ShowFieldKeyCardinalityStatement"; "ShowTagValuesCardinalityStatement"].
(* the repair (fix5.patch): without a FROM clause read on the statement's database is asked *)
Definition repair_card_row (sp : stmt_priv) : stmt_priv :=
  let e c := mk_pentry false true "s.Database" "ReadPrivilege" c in
  if String.eqb (sp_type sp) "ShowSeriesCardinalityStatement" || String.eqb (sp_type sp) "ShowMeasurementCardinalityStatement"
  then mk_stmt_priv (sp_type sp) false [e "!s.Exact || len(s.Sources) == 0"] (sp_calls sp)
  else if String.eqb (sp_type sp) "ShowTagKeyCardinalityStatement" || String.eqb (sp_type sp) "ShowFieldKeyCardinalityStatement"
       || String.eqb (sp_type sp) "ShowTagValuesCardinalityStatement"
  then mk_stmt_priv (sp_type sp) false (e "len(s.Sources) == 0" :: sp_entries sp) (sp_calls sp)
  else sp.

(* ---- the statement cases of AuthorizeQueryForRwUser (translated in Gen_Privileges.v, frozen in Privileges.v) ---- *)
Record rwrule := mk_rwrule { rw_type : string; rw_action : string }.
Definition rwrule_eqb (a b : rwrule) : bool := String.eqb (rw_type a) (rw_type b) && String.eqb (rw_action a) (rw_action b).
Fixpoint find_rwrule (rules : list rwrule) (ty : string) : option string :=
  match rules with
  | [] => None
  | r :: rest => if String.eqb (rw_type r) ty then Some (rw_action r) else find_rwrule rest ty
  end.
(* what an arm means for an instance of the statement type. `special`: the instance names the account "rwuser" (DROP USER,
   SET PASSWORD, by an account that is not itself called "rwuser") or the database "_internal" (DROP DATABASE).
   An arm whose text is not one of the known ones means nothing here (no marker), so that a changed arm shows as a
   disagreement with the running server and as a broken table equality. *)
Definition rw_marker (rules : list rwrule) (ty : string) (special : bool) : list reqpriv :=
  match find_rwrule rules ty with
  | None => []
  | Some a =>
      if String.eqb a "continue" then [RRwAllow]
      else if String.eqb a "if stmtType.Admin == true { set stmtType.Admin = false }; continue" then [RRwAllow]
      else if String.eqb a "if stmtType.Name != ""rwuser"" { continue }" then (if special then [] else [RRwAllow])
      else if String.eqb a "if u.Name != ""rwuser"" && stmtType.Name == ""rwuser"" { refuse }; continue"
           then (if special then [RRwDeny] else [RRwAllow])
      else if String.eqb a "if stmtType.Name == ""_internal"" { refuse }" then (if special then [RRwDeny] else [])
      else []
  end.
(* after the arms: every entry of RequiredPrivileges must carry Rwuser: true *)
Definition rw_tail_expected : string :=
  "set privs, err := stmt.RequiredPrivileges(); if err != nil { return return err }; range privs { if !p.Rwuser { refuse } }".

(* a request path: prefix dispatch first, then the route the mux selected *)
Definition serve_path (sh : shape) (cfg : config) (guards : list string) (ps : list prefix_rule) (us : list user)
           (path : string) (r : route) (k : rkind) (rq : request) : N * list effect :=
  match dispatch guards ps path with
  | Some p =>
      if prefix_admin p then
        match authenticate cfg us (rq_creds rq) with
        | Reject st => (st, [])
        | Pass u => inner cfg KAdminOnly rq u
        | RejectAndPass st => (st, snd (inner cfg KAdminOnly rq None))
        end
      else (200, [EffHandler])
  | None => serve sh cfg us r k rq
  end.
