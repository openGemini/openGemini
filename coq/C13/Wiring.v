(* C13 - which deleted-id set the searches of one index consult (finding C13-drop-ignored-by-new-index).
   A retention policy of a database partition has one deleted-id table (engine/partition.go: delIndexBuilderMap[rp]) and one
   series index per index time range. A search consults the table its index was WIRED to (MergeSetIndex.deleteMergeSet,
   set by SetDeleteMergeSet); an index that is not wired sees the empty set (GetDeletedTSIDs). Wiring happens in
   SetDelMergeSetForEachMergeSet, called (a) when the partition's indexes are opened at start and (b) by the first DROP SERIES that
   has to create the table - for the indexes that exist at that moment.
   _current (/repo before 23cb1db): an index created later (NewShard -> NewMergeSetIndex, a write into a new time range) is never
   wired until the next restart.  _repaired (since): a new index is wired at creation when the policy's table exists.
   The whole machine of Tree.v contains this protocol and TreeProofs.eff_ok proves the same there; this file is the protocol
   alone, on which the _current variant is refuted by a four-step history (Refuted.v). *)
From Coq Require Import NArith List Bool.
Import ListNotations.
Open Scope N_scope.

Record wstate := mkW {
  w_table : bool;                 (* the policy's deleted-id table exists *)
  w_del : list N;                 (* its ids (in memory; persistence is the business of Tree.v) *)
  w_idx : list (N * bool)         (* the policy's indexes: id, wired to the table? *)
}.
Definition w0 : wstate := mkW false [] [].

Inductive wop :=
| WNewIndex (i : N)               (* first write into a new index time range *)
| WDrop (ids : list N)            (* DROP SERIES found these ids (in whatever indexes) *)
| WRestart.

Definition wire_all (l : list (N * bool)) : list (N * bool) := map (fun x => (fst x, true)) l.

Definition wstep (repaired : bool) (s : wstate) (o : wop) : wstate :=
  match o with
  | WNewIndex i => mkW (w_table s) (w_del s) (w_idx s ++ [(i, repaired && w_table s)])
  | WDrop ids =>
      match ids with
      | [] => s                                                     (* storeTsids returns at once *)
      | _ => if w_table s then mkW true (w_del s ++ ids) (w_idx s)
             else mkW true (w_del s ++ ids) (wire_all (w_idx s))    (* creates the table, wires what exists *)
      end
  | WRestart => match w_idx s with
                | [] => s                                           (* no index directory: OpenIndexes returns early *)
                | _ => mkW true (w_del s) (wire_all (w_idx s))
                end
  end.
Definition wrun (repaired : bool) (s : wstate) (os : list wop) : wstate := fold_left (wstep repaired) os s.

(* the deleted set the searches of an index consult *)
Definition eff (s : wstate) (wired : bool) : list N := if wired then w_del s else [].

Definition winv (s : wstate) : Prop :=
  (w_table s = false -> w_del s = []) /\ (w_table s = true -> forall x, In x (w_idx s) -> snd x = true).

Lemma wire_all_wired l x : In x (wire_all l) -> snd x = true.
Proof. unfold wire_all. rewrite in_map_iff. intros (y & <- & _). reflexivity. Qed.

Lemma wstep_inv s o : winv s -> winv (wstep true s o).
Proof.
  intros [H1 H2]. destruct o as [i | ids |]; simpl.
  - split; simpl; auto. intros Ht x Hx. apply in_app_iff in Hx. destruct Hx as [Hx | [<- | []]]; auto.
  - destruct ids as [| a r]; [split; auto |]. destruct (w_table s) eqn:Et; split; simpl; auto; try discriminate.
    intros _ x Hx. eapply wire_all_wired; eauto.
  - destruct (w_idx s) as [| a r] eqn:Ei.
    + split; auto. intros Ht x Hx. rewrite Ei in Hx. destruct Hx.
    + split; simpl; try discriminate. intros _ x Hx. eapply (wire_all_wired (a :: r)); eauto.
Qed.
Lemma wrun_inv os : forall s, winv s -> winv (wrun true s os).
Proof. induction os as [| o r IH]; simpl; auto. intros s H. apply IH. apply wstep_inv. exact H. Qed.

Lemma winv_w0 : winv w0.
Proof. split; simpl; auto; discriminate. Qed.
(* whatever the history, every index of the policy consults exactly the policy's deleted set *)
Lemma eff_wired s i b : winv s -> In (i, b) (w_idx s) -> eff s b = w_del s.
Proof.
  intros [H1 H2] Hin. unfold eff. destruct (w_table s) eqn:Et.
  - rewrite (H2 eq_refl _ Hin : b = true). reflexivity.
  - rewrite H1; auto. destruct b; reflexivity.
Qed.
