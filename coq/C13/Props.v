(* C13 property theorems with Print Assumptions, and examples. The theorems about the whole machine are facts of the reference
   machine (TreeProofs.v) carried over to the system model by the refinement. *)
From Coq Require Import NArith List Bool Lia.
From OG Require Import C10.Model C10.Proofs C13.Model C13.Proofs C13.Tree C13.TreeLemmas C13.TreeProofs.
Import ListNotations.
Open Scope N_scope.

(* every read path of the repaired model (no predicate = plain select / field filter / group by tag / group by time /
   aggregates; tag predicate of any shape) returns exactly the series that are not dropped and satisfy the predicate *)
Theorem C13_read_paths_exact : forall am L del m q id, wfL L -> okq q ->
  In id (read_repaired am (postings L) del m q) <-> In id (spec_ids am L del m q).
Proof. exact read_repaired_exact. Qed.
Print Assumptions C13_read_paths_exact.

(* so do the listings and the id search DROP SERIES itself uses (this path has no _current variant) *)
Theorem C13_listing_path_exact : forall am L del m q id, wfL L -> okq q ->
  In id (list_ids am (postings L) del m q) <-> In id (spec_ids am L del m q).
Proof. exact list_ids_exact. Qed.
Print Assumptions C13_listing_path_exact.

(* SHOW TAG VALUES ... WITH KEY = k WHERE q and SHOW TAG KEYS ... WHERE q: a value / key is listed iff a series that is not
   dropped, of the measurement, satisfying q carries it - a dropped series contributes nothing, also when it satisfies q *)
Theorem C13_list_tag_values_where_exact : forall am L del m k q v, wfL L -> okq q -> k <> 0 ->
  In v (list_tag_values_where am (postings L) del m k q) <->
  exists s id, In (s, id) L /\ ~ In id del /\ s_mst s = m /\ evalq am q (s_tags s) = true /\ In (k, v) (s_tags s).
Proof.
  intros am L del m k q v Hwf Hq Hk.
  pose proof Hwf as [Hnd _]. unfold list_tag_values_where. rewrite in_map_iff. split.
  - intros ([[[m' k'] v'] id] & <- & Ht). apply filter_In in Ht. unfold t_m, t_k, t_id in Ht. simpl in Ht.
    rewrite !andb_true_iff, !N.eqb_eq, mem_spec, (list_ids_exact am L del m q id Hwf Hq), spec_char in Ht.
    destruct Ht as (Ht & (-> & ->) & s1 & Hin1 & Hn & Hm1 & He). apply in_tag_items in Ht; auto.
    destruct Ht as (s & Hin & Hm & Hkv). rewrite (uniq_id _ _ _ _ Hnd Hin1 Hin) in *. exists s, id. auto.
  - intros (s & id & Hin & Hn & Hm & He & Hkv). exists (m, k, v, id). split; [reflexivity |]. apply filter_In. split.
    + apply in_tag_items; eauto.
    + unfold t_m, t_k, t_id. simpl. rewrite !N.eqb_refl. apply mem_spec.
      rewrite (list_ids_exact am L del m q id Hwf Hq), spec_char. exists s. auto.
Qed.
Theorem C13_list_tag_keys_where_exact : forall am L del m q k, wfL L -> okq q ->
  In k (list_tag_keys_where am (postings L) del m q) <->
  exists s id v, In (s, id) L /\ ~ In id del /\ s_mst s = m /\ evalq am q (s_tags s) = true /\ In (k, v) (s_tags s).
Proof.
  intros am L del m q k Hwf Hq.
  pose proof Hwf as [Hnd _]. unfold list_tag_keys_where. rewrite in_map_iff. split.
  - intros ([[[m' k'] v] id] & <- & Ht). apply filter_In in Ht. unfold t_m, t_k, t_id in *. simpl in *.
    rewrite !andb_true_iff, negb_true_iff, N.eqb_eq, N.eqb_neq, mem_spec, (list_ids_exact am L del m q id Hwf Hq), spec_char in Ht.
    destruct Ht as (Ht & (-> & Hk) & s1 & Hin1 & Hn & Hm1 & He). apply in_tag_items in Ht; auto.
    destruct Ht as (s & Hin & Hm & Hkv). rewrite (uniq_id _ _ _ _ Hnd Hin1 Hin) in *. exists s, id, v. auto.
  - intros (s & id & v & Hin & Hn & Hm & He & Hkv). destruct (wf_tags_val _ _ _ (wfL_tags _ _ _ Hwf Hin) Hkv) as [Hk _].
    exists (m, k, v, id). split; [reflexivity |]. apply filter_In. split.
    + apply in_tag_items; eauto.
    + unfold t_m, t_k, t_id. simpl. rewrite N.eqb_refl. apply N.eqb_neq in Hk. rewrite Hk. apply mem_spec.
      rewrite (list_ids_exact am L del m q id Hwf Hq), spec_char. exists s. auto.
Qed.
Print Assumptions C13_list_tag_values_where_exact.
Print Assumptions C13_list_tag_keys_where_exact.

(* DROP SERIES with predicate q on measurement m: afterwards EVERY read (any measurement m', any shape q') returns what it
   returned before minus exactly the series q named - nothing else changes *)
Theorem C13_drop_series_consistent : forall am s m q m' q' id, wfL (d_L s) -> okq q -> okq q' ->
  let s' := drop_series am s m q in
  In id (read_repaired am (d_T s') (d_del s') m' q') <->
  In id (read_repaired am (d_T s) (d_del s) m' q') /\ ~ In id (spec_ids am (d_L s) (d_del s) m q).
Proof. exact drop_series_consistent. Qed.
Print Assumptions C13_drop_series_consistent.

Theorem C13_drop_series_other_measurements_unchanged : forall am s m q m' q' id, wfL (d_L s) -> okq q -> okq q' -> m' <> m ->
  let s' := drop_series am s m q in
  In id (read_repaired am (d_T s') (d_del s') m' q') <-> In id (read_repaired am (d_T s) (d_del s) m' q').
Proof.
  intros am s m q m' q' id Hwf Hq Hq' Hne s'.
  unfold s'. rewrite Proofs.drop_series_consistent; auto. split; [tauto |]. intros H. split; auto.
  unfold d_T in H. rewrite read_repaired_exact in H; auto. rewrite spec_char in *. destruct H as (s1 & Hin1 & _ & Hm1 & _).
  intros (s2 & Hin2 & _ & Hm2 & _). destruct Hwf as [Hnd _]. rewrite (uniq_id _ _ _ _ Hnd Hin1 Hin2) in Hm1. congruence.
Qed.
Print Assumptions C13_drop_series_other_measurements_unchanged.

(* dropped data never reappears: a dropped id is returned by no read path, in any later state in which it is still recorded
   as dropped; in this model flush / compaction / restart / kill -9 are the step DNoop,
   which is the identity by definition (they are real steps in Tree.v: C13_flush_compact_restart_invisible) *)
Theorem C13_dropped_never_returned : forall am s m q id, wfL (d_L s) -> okq q ->
  In id (d_del s) -> ~ In id (read_repaired am (d_T s) (d_del s) m q).
Proof.
  intros am s m q id Hwf Hq Hd H.
  unfold d_T in H. rewrite read_repaired_exact in H; auto. rewrite spec_char in H.
  destruct H as (_ & _ & Hn & _). contradiction.
Qed.
Theorem C13_stable_under_flush_compact_restart : forall am s n, drun am s (repeat DNoop n) = s.
Proof. intros am s n. induction n as [| n IH]; simpl; auto. Qed.
Print Assumptions C13_dropped_never_returned.

(* a later write to a dropped key behaves as a write to a fresh series *)
Theorem C13_write_after_drop_is_fresh : forall am s k q, dwf s -> wf_tags (s_tags k) -> okq q ->
  (forall id, In (k, id) (d_L s) -> In id (d_del s)) ->
  evalq am q (s_tags k) = true ->
  let r := write s k in
  snd r = d_next s + 1 /\ ~ In (snd r) (d_del (fst r)) /\ (forall id0, In (k, id0) (d_L s) -> id0 <> snd r) /\
  In (snd r) (read_repaired am (d_T (fst r)) (d_del (fst r)) (s_mst k) q).
Proof.
  intros am s k q Hd Hk Hq Hall Hev r.
  pose proof (write_dwf s k Hd Hk) as Hd'. fold r in Hd'.
  destruct Hd as (Hwf & Hb & Hdel). unfold r, write in *.
  destruct (lookup_live s k) as [id |] eqn:E.
  - exfalso. apply lookup_live_some in E. destruct E as [Hin Hn]. apply Hn. apply Hall. exact Hin.
  - simpl in *. repeat split.
    + intros Hin. apply Hdel in Hin. lia.
    + intros id0 Hin. apply Hb in Hin. simpl in Hin. lia.
    + destruct Hd' as (Hwf' & _). unfold d_T. simpl. rewrite read_repaired_exact; auto. rewrite spec_char.
      exists k. repeat split; auto.
      * apply in_app_iff. right. left. reflexivity.
      * intros Hin. apply Hdel in Hin. lia.
Qed.
Print Assumptions C13_write_after_drop_is_fresh.

(* DROP MEASUREMENT removes exactly that (physical) measurement from every read *)
Theorem drop_measurement_exact : forall am s m m' q id, wfL (d_L s) -> okq q ->
  let s' := drop_measurement s m in
  In id (read_repaired am (d_T s') (d_del s') m' q) <-> m' <> m /\ In id (read_repaired am (d_T s) (d_del s) m' q).
Proof. exact C13.Proofs.drop_measurement_exact. Qed.
Print Assumptions drop_measurement_exact.

(* under a physical name without items nothing is visible; and the version suffix of a re-created measurement differs from the
   old one ([next_version] is used by no step of the models: the tie between the two is Tree.v's generator of identities) *)
Theorem recreate_is_fresh : forall am s m2 q id, wfL (d_L s) -> okq q ->
  (forall e, In e (d_L s) -> s_mst (fst e) <> m2) -> ~ In id (read_repaired am (d_T s) (d_del s) m2 q).
Proof. exact C13.Proofs.recreate_is_fresh. Qed.
Theorem recreate_version_differs : forall v, v < 65536 -> next_version v <> v.
Proof.
  intros v.
  unfold next_version. intros Hv E. destruct (N.eq_dec v 65535) as [-> | Hne]; [discriminate E |].
  rewrite N.mod_small in E by lia. lia.
Qed.
Print Assumptions recreate_is_fresh.

(* non-vacuity: measurements 1 and 2; key host=1, values a=1 b=2; ids 5,6 in measurement 1 and 7 in measurement 2.
   drop series from 1 where host = a; then write host=a again. *)
Example C13_example :
  let am := fun _ _ => false in
  let s0 := mkD [(mkS 1 [(1, 1)], 5); (mkS 1 [(1, 2)], 6); (mkS 2 [(1, 1)], 7)] [] 7 [] in
  let s1 := drop_series am s0 1 (Some (Atom 1 Eq 1)) in
  let r := write s1 (mkS 1 [(1, 1)]) in
  d_del s1 = [5] /\
  read_repaired am (d_T s1) (d_del s1) 1 None = [6; 6] /\
  read_repaired am (d_T s1) (d_del s1) 1 (Some (Atom 1 Neq 2)) = [] /\
  read_repaired am (d_T s1) (d_del s1) 2 None = [7; 7] /\
  snd r = 8 /\ read_repaired am (d_T (fst r)) (d_del (fst r)) 1 (Some (Atom 1 Eq 1)) = [8] /\
  read_repaired am (d_T (drop_measurement s1 1)) (d_del s1) 1 None = [].
Proof. vm_compute. repeat split. Qed.

(* =====================================================================================================================
   THE WHOLE STATEMENT as one machine (C13/Tree.v): databases -> retention policies -> measurement incarnations -> series index
   with deleted ids -> memtable / files; operations: create database / policy, write, DROP SERIES / MEASUREMENT / RETENTION POLICY /
   DATABASE, flush, compaction, sync of the deleted-id table, restart.  [trun true true true] = an acknowledged DROP SERIES is on
   disk, the memtable was flushed before it, a new series index is wired to the policy's deleted-series table at creation (the
   _repaired variants; Refuted.v refutes [trun false _ _], [trun _ false _] and [trun _ _ false]). *)

(* refinement: after ANY operation sequence, EVERY read shape (None = plain select / field filter / group by / aggregates;
   Some e = any tag predicate) of every (database, policy, measurement) returns exactly the rows of the reference machine -
   the reference map the black-box oracle uses: drops filter it, flush / compaction / restart do not touch it *)
Theorem C13_tree_refines_reference : forall am os d r n q x, Forall top_ok os -> okq q ->
  In x (tread am (trun true true true am t0 os) d r n q) <-> In x (sread am (srun am s0 os) d r n q).
Proof. exact tree_refines. Qed.
Print Assumptions C13_tree_refines_reference.
(* ... and so does every listing (show series; tag values / tag keys are projections of it) *)
Theorem C13_tree_listing_refines_reference : forall am os d r n q tg, Forall top_ok os -> okq q ->
  In tg (tlist am (trun true true true am t0 os) d r n q) <-> In tg (slist am (srun am s0 os) d r n q).
Proof.
  intros am os d r n q tg Hok Hq. pose proof (reach_LI am os d r Hok) as Hg. unfold tlist, slist.
  destruct (kget (d, r) (t_pols _)), (kget (d, r) (s_pols _)); try contradiction; [| tauto]. apply LI_list; auto.
Qed.
Print Assumptions C13_tree_listing_refines_reference.

(* each of the four drops removes exactly what it names, for every read of every location: the answer after the drop is the
   answer before it minus the rows named ([hit]: same policy + measurement + predicate / same policy + measurement / same
   policy / same database); everything else is unchanged *)
Theorem C13_every_drop_removes_exactly_what_it_names : forall am ops X d r n q x,
  Forall top_ok (ops ++ [X]) -> okq q -> is_drop X = true ->
  In x (tread am (trun true true true am t0 (ops ++ [X])) d r n q) <->
  In x (tread am (trun true true true am t0 ops) d r n q) /\ hit am X d r n (o_tags x) = false.
Proof.
  intros am ops X d r n q x Hok Hq HX. assert (Hok1 : Forall top_ok ops) by (apply Forall_app in Hok; tauto).
  rewrite !tree_refines; auto. rewrite srun_app. apply s_drop_exact. exact HX.
Qed.
Print Assumptions C13_every_drop_removes_exactly_what_it_names.

(* for good, and re-creation is fresh: after a drop X and ANY later operations (writes, re-creation of the database / policy /
   measurement / series, flushes, compactions, restarts, further drops), whatever any read returns from inside what X named was
   written after X - it carries the stamp of a later write *)
Theorem C13_after_a_drop_only_later_writes_are_visible_inside : forall am ops1 X ops2 d r n q x,
  Forall top_ok (ops1 ++ X :: ops2) -> okq q ->
  In x (tread am (trun true true true am t0 (ops1 ++ X :: ops2)) d r n q) -> hit am X d r n (o_tags x) = true ->
  In (o_stamp x) (flat_map stamp_of ops2).
Proof. intros am ops1 X ops2 d r n q x Hok Hq Hx. rewrite tree_refines in Hx; auto. eapply s_after_drop_fresh; eauto. Qed.
Print Assumptions C13_after_a_drop_only_later_writes_are_visible_inside.
Theorem C13_dropped_never_reappears : forall am ops1 X ops2 d r n q x,
  Forall top_ok (ops1 ++ X :: ops2) -> okq q ->
  hit am X d r n (o_tags x) = true -> ~ In (o_stamp x) (flat_map stamp_of ops2) ->
  ~ In x (tread am (trun true true true am t0 (ops1 ++ X :: ops2)) d r n q).
Proof.
  intros am ops1 X ops2 d r n q x Hok Hq Hh Hs Hx. apply Hs.
  eapply C13_after_a_drop_only_later_writes_are_visible_inside; eauto.
Qed.
Print Assumptions C13_dropped_never_reappears.

(* several series indexes per policy (one per week of data) inside the same machine: in every reachable state every index of every
   policy consults exactly the policy's deleted set - so the refinement above already speaks about a DROP SERIES that spans indexes,
   about indexes created after the deleted-series table, and about restarts *)
Theorem C13_tree_every_index_consults_the_deleted_set : forall am os d r p g, Forall top_ok os ->
  kget (d, r) (t_pols (trun true true true am t0 os)) = Some p -> In g (map fst (p_idx p)) -> eff p g = d_del (p_ix p).
Proof.
  intros am os d r p g Hok Hp Hg. pose proof (reach_LI am os d r Hok) as Hget.
  rewrite Hp in Hget. destruct (kget (d, r) (s_pols _)) as [R |]; [| contradiction]. eapply eff_ok; eauto.
Qed.
Print Assumptions C13_tree_every_index_consults_the_deleted_set.

(* flush, compaction, restart and the table sync, anywhere in a history, change no read at any later time *)
Theorem C13_flush_compact_restart_invisible : forall am ops1 o ops2 d r n q x,
  Forall top_ok (ops1 ++ o :: ops2) -> okq q -> invisible o = true ->
  In x (tread am (trun true true true am t0 (ops1 ++ o :: ops2)) d r n q) <-> In x (tread am (trun true true true am t0 (ops1 ++ ops2)) d r n q).
Proof.
  intros am ops1 o ops2 d r n q x Hok Hq Ho.
  assert (Hok' : Forall top_ok (ops1 ++ ops2)).
  { apply Forall_app in Hok. destruct Hok as [A B]. inversion B; subst. apply Forall_app. auto. }
  rewrite !tree_refines; auto. rewrite !srun_app. simpl. rewrite s_invisible; auto. reflexivity.
Qed.
Print Assumptions C13_flush_compact_restart_invisible.

(* a write into an existing policy - whatever was dropped there before - is visible, with its value, to every read whose
   predicate its tags satisfy *)
Theorem C13_write_after_any_history_is_visible : forall am ops d r n tags t v w q,
  Forall top_ok ops -> wf_tags tags -> okq q ->
  kget (d, r) (t_pols (trun true true true am t0 ops)) <> None -> evalq am q tags = true ->
  In (tags, t, v, w) (tread am (trun true true true am t0 (ops ++ [TWrite d r n tags t v w])) d r n q).
Proof.
  intros am ops d r n tags t v w q Hok Ht Hq Hex He.
  rewrite tree_refines; auto; [| apply Forall_app; split; auto; constructor; auto; constructor].
  rewrite srun_app. apply s_write_visible; auto. pose proof (reach_LI am ops d r Hok) as Hg.
  destruct (kget (d, r) (t_pols _)); [| congruence]. destruct (kget (d, r) (s_pols _)); [discriminate | contradiction].
Qed.
Print Assumptions C13_write_after_any_history_is_visible.

(* non-vacuity: database 1, policy 1, measurement 5, tag host=1 with values a=1, b=2. Writes, flush, DROP SERIES host=a, a new
   write to host=a, compaction, restart, DROP MEASUREMENT + re-creation, DROP DATABASE + re-creation. *)
Definition ex_ops : list top :=
  [TCreateDB 1; TCreateRP 1 1; TWrite 1 1 5 [(1, 1)] 10 7 100; TWrite 1 1 5 [(1, 2)] 10 8 101; TFlush 1 1;
   TDropSeries 1 1 5 (Some (Atom 1 Eq 1)); TWrite 1 1 5 [(1, 1)] 11 9 102; TFlush 1 1; TCompact 1 1 0 2; TRestart 1 1].
(* two index groups (times 10.. and 700000..): the series host=a lives in both indexes with two ids; DROP SERIES removes both *)
Example C13_tree_two_indexes_example :
  let am := fun (_ _ : N) => false in
  let os := [TCreateDB 1; TCreateRP 1 1; TWrite 1 1 5 [(1, 1)] 10 7 100; TDropSeries 1 1 5 (Some (Atom 1 Eq 2));
             TDropSeries 1 1 5 (Some (Atom 1 Eq 1)); TWrite 1 1 5 [(1, 1)] 700000 8 101; TWrite 1 1 5 [(1, 2)] 700001 9 102;
             TWrite 1 1 5 [(1, 1)] 11 6 103] in
  (tread am (trun true true true am t0 os) 1 1 5 None = [([(1, 1)], 11, 6, 103); ([(1, 1)], 700000, 8, 101); ([(1, 2)], 700001, 9, 102)]) /\
  (tread am (trun true true true am t0 (os ++ [TDropSeries 1 1 5 (Some (Atom 1 Eq 1))])) 1 1 5 None = [([(1, 2)], 700001, 9, 102)]).
Proof. vm_compute. split; reflexivity. Qed.

Example C13_tree_example :
  let am := fun (_ _ : N) => false in
  Forall top_ok ex_ops /\
  (tread am (trun true true true am t0 ex_ops) 1 1 5 None = [([(1, 2)], 10, 8, 101); ([(1, 1)], 11, 9, 102)]) /\
  (tlist am (trun true true true am t0 ex_ops) 1 1 5 None = [[(1, 2)]; [(1, 2)]; [(1, 1)]; [(1, 1)]]) /\
  (tread am (trun true true true am t0 (ex_ops ++ [TDropMst 1 1 5; TWrite 1 1 5 [(1, 2)] 12 1 103])) 1 1 5 None = [([(1, 2)], 12, 1, 103)]) /\
  (tread am (trun true true true am t0 (ex_ops ++ [TDropDB 1; TCreateDB 1; TCreateRP 1 1])) 1 1 5 None = []) /\
  (tread am (trun true true true am t0 (ex_ops ++ [TDropRP 1 1; TCreateRP 1 1; TWrite 1 1 5 [(1, 1)] 10 3 104])) 1 1 5 None = [([(1, 1)], 10, 3, 104)]).
Proof.
  intros am. split.
  - unfold ex_ops. repeat (apply Forall_cons; [simpl; try exact I |]); try apply Forall_nil.
    all: try (split; [repeat constructor; intros [] | repeat constructor; discriminate]).
    discriminate.
  - vm_compute. repeat split; reflexivity.
Qed.

(* =====================================================================================================================
   which deleted set a search consults (C13/Wiring.v; finding C13-drop-ignored-by-new-index): with a new index wired to the
   policy's deleted-id table at creation, every index of the policy consults exactly the policy's deleted set after any history
   of index creations, DROP SERIES statements and restarts *)
From OG Require Import C13.Wiring C13.Purge.
Theorem C13_every_index_consults_the_deleted_set : forall os i b,
  In (i, b) (w_idx (wrun true w0 os)) -> eff (wrun true w0 os) b = w_del (wrun true w0 os).
Proof. intros os i b. apply eff_wired, wrun_inv, winv_w0. Qed.
Print Assumptions C13_every_index_consults_the_deleted_set.
Example C13_wiring_example :
  let s := wrun true w0 [WNewIndex 1; WDrop [5]; WNewIndex 2; WDrop [6]; WRestart; WNewIndex 3] in
  w_idx s = [(1, true); (2, true); (3, true)] /\ w_del s = [5; 6].
Proof. vm_compute. split; reflexivity. Qed.

(* the physical purge of dropped series from an index part (C13/Purge.v; finding C13-purge-loses-live-items): with the item that
   did not fit re-added after the block flush, and tag->ids rows rewritten id by id, the new part holds exactly the items of the
   old one with exactly their ids that are not deleted, in order - for all item lists, item sizes and block capacities - and no
   block exceeds the capacity when every single item fits *)
Theorem C13_purge_keeps_exactly_the_live_items : forall (H : Type) (hsz : H -> N) (del : N -> bool) (cap : N) (l : list (item H)),
  purge_repaired H hsz del cap l = purge_spec H del l.
Proof. intros H hsz del cap l. unfold purge_repaired. rewrite pack_repaired. reflexivity. Qed.
Print Assumptions C13_purge_keeps_exactly_the_live_items.
Theorem C13_purge_blocks_fit : forall (H : Type) (hsz : H -> N) (del : N -> bool) (cap : N) (l : list (item H)),
  (forall x y, In x l -> keep_repaired H del x = Some y -> isz H hsz y <= cap) ->
  Forall (fun b => bsz H hsz b <= cap) (pack H hsz cap true (keep_repaired H del) l [] 0 []).
Proof. intros H hsz del cap l Hfit. apply pack_blocks; auto; simpl; try lia; try apply N.le_0_l. Qed.
Print Assumptions C13_purge_blocks_fit.
Example C13_purge_example :
  purge_repaired N (fun h => h) (fun i => i =? 2) 30 [(4, [1]); (4, [2]); (4, [3]); (4, [4]); (2, [1; 2; 3]); (2, [2])]
  = [(4, [1]); (4, [3]); (4, [4]); (2, [1; 3])].
Proof. vm_compute. reflexivity. Qed.

(* the purge pass over a whole table (C13/Purge.v PurgePass; finding C13-purge-forgets-ids-of-skipped-parts): when the ids are kept
   in the deleted-series table unless every part was filtered, the pass never makes a dropped id visible - whatever parts are being
   merged - and never hides a live one *)
Theorem C13_purge_pass_never_unhides_dropped : forall t id, In id (pt_deleted t) -> ~ In id (visible_ids (purge_pass true t)).
Proof.
intros t id Hdel Hvis.
  unfold visible_ids, purge_pass in Hvis. simpl in Hvis.
  apply filter_In in Hvis. destruct Hvis as [Hin Hn]. apply negb_true_iff in Hn.
  destruct (existsb (fun p : tpart => fst p) (pt_parts t)) eqn:Esk; simpl in Hn.
  - assert (nmem id (pt_deleted t) = true) by (apply nmem_in; exact Hdel). congruence.
  - (* no part was skipped: every part was filtered *)
    apply in_flat_map in Hin. destruct Hin as (p' & Hp' & Hid). apply in_map_iff in Hp'. destruct Hp' as (p & <- & Hp).
    assert (fst p = false).
    { destruct (fst p) eqn:E; auto. assert (existsb (fun q : tpart => fst q) (pt_parts t) = true) by (apply existsb_exists; exists p; auto). congruence. }
    rewrite H in Hid. simpl in Hid. apply filter_In in Hid. destruct Hid as [_ Hf]. apply negb_true_iff in Hf.
    assert (nmem id (pt_deleted t) = true) by (apply nmem_in; exact Hdel). congruence.
Qed.
Theorem C13_purge_pass_keeps_live : forall k t id, ~ In id (pt_deleted t) -> In id (flat_map snd (pt_parts t)) ->
  In id (visible_ids (purge_pass k t)).
Proof.
intros k t id Hn Hin.
  assert (Hnm : nmem id (pt_deleted t) = false).
  { destruct (nmem id (pt_deleted t)) eqn:E; auto. apply nmem_in in E. contradiction. }
  unfold visible_ids, purge_pass. simpl. apply filter_In. split.
  - apply in_flat_map in Hin. destruct Hin as (p & Hp & Hid). apply in_flat_map.
    exists (if fst p then p else (false, filter (fun i => negb (nmem i (pt_deleted t))) (snd p))). split.
    + apply in_map_iff. exists p. auto.
    + destruct (fst p); simpl; auto. apply filter_In. split; auto. rewrite Hnm. reflexivity.
  - destruct (k && existsb (fun p : tpart => fst p) (pt_parts t)); simpl; auto. rewrite Hnm. reflexivity.
Qed.
Print Assumptions C13_purge_pass_never_unhides_dropped.
Print Assumptions C13_purge_pass_keeps_live.
Example C13_purge_pass_example :
  visible_ids (purge_pass true (mkPT [(true, [1; 2; 3]); (false, [2; 4])] [2])) = [1; 3; 4] /\
  visible_ids (purge_pass true (mkPT [(false, [1; 2; 3]); (false, [2; 4])] [2])) = [1; 3; 4].
Proof. vm_compute. split; reflexivity. Qed.

(* =====================================================================================================================
   DROP DATABASE / RETENTION POLICY / MEASUREMENT as the phases the code runs (C13/Phases.v): mark in the catalogue (the
   acknowledgement), file-by-file deletion on every store, finalisation only when every store is empty; any crash between steps.
   [pnext true] = /repo's guard on the finalisation. *)
From OG Require Import C13.Phases.
(* not dropped before the acknowledgement: crashes, stray store messages and finalisation attempts change nothing of a live object *)
Theorem C13_phases_live_object_untouched : forall g s os, ps_cat s = Live -> forallb background os = true -> prun g s os = s.
Proof. exact live_untouched. Qed.
(* dropped at every crash point after it: nothing is readable until the name is created again, and that is refused while marked *)
Theorem C13_phases_dropped_at_every_point : forall g s os, ps_cat s <> Live -> forallb not_create os = true -> pvisible (prun g s os) = [].
Proof. exact dropped_at_every_point. Qed.
Theorem C13_phases_create_refused_while_marked : forall g s, ps_cat s = Marked -> pnext g s PCreate = s.
Proof. exact create_refused_while_marked. Qed.
(* a re-run completes from every crash point: after any part of the deletion, one more round frees the name and empties every store *)
Theorem C13_phases_rerun_completes : forall s os, ps_cat s = Marked -> forallb deletion_step os = true ->
  ps_cat (pround true (prun true s os)) = Absent /\ all_empty (ps_files (pround true (prun true s os))) = true.
Proof. exact rerun_completes. Qed.
(* re-creation is fresh in every reachable state: no file of an earlier object of the name is ever visible, and a free name has no files *)
Theorem C13_phases_recreated_is_fresh : forall n os x, In x (pvisible (prun true (p0 n) os)) -> x = ps_inc (prun true (p0 n) os).
Proof. exact recreated_is_fresh. Qed.
Theorem C13_phases_free_name_has_no_files : forall n os, ps_cat (prun true (p0 n) os) = Absent -> all_empty (ps_files (prun true (p0 n) os)) = true.
Proof. exact free_name_has_no_files. Qed.
Print Assumptions C13_phases_live_object_untouched.
Print Assumptions C13_phases_dropped_at_every_point.
Print Assumptions C13_phases_rerun_completes.
Print Assumptions C13_phases_recreated_is_fresh.
Print Assumptions C13_phases_free_name_has_no_files.
Example C13_phases_example :
  let s := prun true (p0 2) [PCreate; PWrite 0; PWrite 1; PWrite 1; PMark; PStoreDelete 1; PCrash; PFinalize; PCreate; PWrite 0] in
  ps_cat s = Marked /\ pvisible s = [] /\ ps_files s = [[1]; [1]] /\
  pvisible (prun true (pround true s) [PCreate; PWrite 0]) = [2].
Proof. vm_compute. repeat split; reflexivity. Qed.
(* listings and selects agree at every point when the listing's catalogue walk skips marked objects as well *)
Theorem C13_phases_listing_agrees_with_select : forall s, plisted true s = pvisible s.
Proof. exact listed_consistent. Qed.
Print Assumptions C13_phases_listing_agrees_with_select.
