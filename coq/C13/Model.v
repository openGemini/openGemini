(* C13 - executable model of dropping. On top of the series index of C10 (entries = series key -> id, postings):
   the deleted-id set, the read paths as separate functions (all of a measurement, by tag filter through the scan,
   by regex alternatives through exact-value lookups, listings), each in a _current variant (what /repo
   subtracted before b717b86) and a _repaired variant (every path subtracts the deleted set, as /repo does since); DROP SERIES as "search ids by predicate,
   record them as deleted"; writes after a drop; measurement versions for DROP MEASUREMENT + re-creation.
   Strings are interned as N (0 = empty string); regex atoms are a parameter as in C10. *)
From Coq Require Import NArith List Bool.
From OG Require Import C10.Model.
Import ListNotations.
Open Scope N_scope.

Definition live (del ids : list N) : list N := diff ids del.

(* ---- leaf sets of the select path.
   all-of-measurement (getTSIDsByMeasurementName -> updateTSIDsForPrefix), _current: the deleted set is subtracted after the
   scan loop, but the loop RETURNS as soon as it meets an item outside the measurement's prefix; so the subtraction happens only
   when the measurement's items are the last ones of the tag->ids namespace. [later T m] = some item sorts after the
   items of m ([ord m m'] = measurement m' sorts after m: longer name, or same length and greater bytes). *)
Definition later (ord : N -> N -> bool) (T : list titem) (m : N) : bool := existsb (fun t => ord m (t_m t)) T.
Definition all_current (ord : N -> N -> bool) (T : list titem) (del : list N) (m : N) : list N :=
  if later ord T m then all_ids T m else live del (all_ids T m).
Definition all_repaired (T : list titem) (del : list N) (m : N) : list N := live del (all_ids T m).

Section ReadPaths.
  Variable am : N -> N -> bool.          (* what a regex atom matches *)
  Variable orv : N -> bool.              (* the pattern is translated into exact-value lookups (alternation / class) *)
  Variable allf : list titem -> list N -> N -> list N.   (* all-of-measurement leaf *)
  Variable sub_orv : bool.               (* do the exact-value lookups subtract the deleted set? *)

  (* leaves that go through the tag-filter scan (scanTSIDsForTagFilter): its hook skips deleted ids - also before b717b86 *)
  Definition l_post (T : list titem) (del : list N) (m k v : N) := live del (post T m k v).
  Definition l_haskey (T : list titem) (del : list N) (m k : N) := live del (haskey T m k).
  (* regex leaf: the scan, or - for patterns translated into alternatives - exact-value lookups (updateTSIDsByOrSuffixes) *)
  Definition re_leaf (T : list titem) (del : list N) (m k p : N) : list N :=
    if orv p && negb sub_orv then scan am T m k p else live del (scan am T m k p).
  Definition re_set (T : list titem) (del : list N) (m k p : N) : list N :=
    (if am p 0 then diff (allf T del m) (l_haskey T del m k) else []) ++ re_leaf T del m k p.

  (* the select path (seriesByExprIterator) with the deleted set *)
  Fixpoint dsearch (T : list titem) (del : list N) (m : N) (e : expr) : list N :=
    match e with
    | And a b => inter (dsearch T del m a) (dsearch T del m b)
    | Or a b => dsearch T del m a ++ dsearch T del m b
    | Paren a => dsearch T del m a
    | Atom k Eq v => if v =? 0 then diff (allf T del m) (l_haskey T del m k) else l_post T del m k v
    | Atom k Neq v => if v =? 0 then l_haskey T del m k else diff (allf T del m) (l_post T del m k v)
    | Atom k Re p => re_set T del m k p
    | Atom k Nre p => diff (allf T del m) (re_set T del m k p)
    end.
End ReadPaths.

Definition dsearch_current (am : N -> N -> bool) (orv : N -> bool) (ord : N -> N -> bool) :=
  dsearch am orv (all_current ord) false.
Definition dsearch_repaired (am : N -> N -> bool) :=
  dsearch am (fun _ => false) all_repaired true.

(* read shapes. None = no tag predicate (plain select, field filter, group by tag, group by time, aggregates: all of them
   start from all-of-measurement); Some e = tag predicate *)
Definition read_current am orv ord (T : list titem) (del : list N) (m : N) (q : option expr) : list N :=
  match q with None => all_current ord T del m | Some e => dsearch_current am orv ord T del m e end.
Definition read_repaired am (T : list titem) (del : list N) (m : N) (q : option expr) : list N :=
  match q with None => all_repaired T del m | Some e => dsearch_repaired am T del m e end.

(* the show-series / tag-value listing path and DROP SERIES itself (searchTSIDs): the set algebra of C10, deleted ids
   subtracted once at the end - also before b717b86 *)
Definition list_ids (am : N -> N -> bool) (T : list titem) (del : list N) (m : N) (q : option expr) : list N :=
  live del (match q with None => all_ids T m | Some e => search am T m e end).

(* conditioned tag-value listing (SHOW TAG VALUES ... WITH KEY = k WHERE q; searchTagValues): the values of key k carried by
   the tag->ids rows of the measurement that have a series which is not dropped and is selected by the condition. (The code
   builds the eligible set with searchTSIDsInternal, WITHOUT subtracting dropped ids, and leaves the dropped-id test to the row
   check IsExpectedTag; the model subtracts once, in list_ids - both sites together must amount to this.) *)
Definition list_tag_values_where (am : N -> N -> bool) (T : list titem) (del : list N) (m k : N) (q : option expr) : list N :=
  map t_v (filter (fun t => (t_m t =? m) && (t_k t =? k) && mem (t_id t) (list_ids am T del m q)) T).
Definition list_tag_keys_where (am : N -> N -> bool) (T : list titem) (del : list N) (m : N) (q : option expr) : list N :=
  map t_k (filter (fun t => (t_m t =? m) && negb (t_k t =? 0) && mem (t_id t) (list_ids am T del m q)) T).

(* ---- state and operations *)
Record dstate := mkD {
  d_L : list entry;        (* key -> id items *)
  d_del : list N;          (* deleted ids *)
  d_next : N;              (* id generator *)
  d_dead : list N          (* physical measurement names (name+version) that were dropped *)
}.
Definition d_T (s : dstate) := postings (d_L s).

(* key lookup on write: a hit on a deleted id does not count (getSeriesIdBySeriesKey) *)
Definition lookup_live (s : dstate) (k : series) : option N :=
  match find (fun e => series_eqb (fst e) k && negb (mem (snd e) (d_del s))) (d_L s) with
  | Some e => Some (snd e) | None => None end.
Definition write (s : dstate) (k : series) : dstate * N :=
  match lookup_live s k with
  | Some id => (s, id)
  | None => let id := d_next s + 1 in (mkD (d_L s ++ [(k, id)]) (d_del s) id (d_dead s), id)
  end.

Definition drop_series (am : N -> N -> bool) (s : dstate) (m : N) (q : option expr) : dstate :=
  mkD (d_L s) (d_del s ++ list_ids am (d_T s) (d_del s) m q) (d_next s) (d_dead s).

(* DROP MEASUREMENT on the physical name m (logical name + version): the stores delete its files and index items; the
   catalogue keeps the version counter, so a re-creation gets another physical name *)
Definition drop_measurement (s : dstate) (m : N) : dstate :=
  mkD (filter (fun e => negb (s_mst (fst e) =? m)) (d_L s)) (d_del s) (d_next s) (m :: d_dead s).

Inductive dop :=
| DWrite (k : series)
| DDropSeries (m : N) (q : option expr)
| DDropMeasurement (m : N)
| DNoop.                                  (* flush, compaction, restart, kill -9: no effect on what reads may return *)

Definition dstep (am : N -> N -> bool) (s : dstate) (o : dop) : dstate :=
  match o with
  | DWrite k => fst (write s k)
  | DDropSeries m q => drop_series am s m q
  | DDropMeasurement m => drop_measurement s m
  | DNoop => s
  end.
Definition drun (am : N -> N -> bool) (s : dstate) (os : list dop) : dstate := fold_left (dstep am) os s.

(* rows are stored under the id they were written with; a read returns the rows of the ids it selects *)
Definition rows_of (rows : list (N * N * N)) (ids : list N) : list (N * N * N) :=
  filter (fun r => mem (fst (fst r)) ids) rows.

(* the specification object: entries that are not dropped *)
Definition live_entries (L : list entry) (del : list N) : list entry := filter (fun e => negb (mem (snd e) del)) L.
Definition spec_ids (am : N -> N -> bool) (L : list entry) (del : list N) (m : N) (q : option expr) : list N :=
  match q with
  | None => map snd (filter (fun e => s_mst (fst e) =? m) (live_entries L del))
  | Some e => bruteforce am (live_entries L del) m e
  end.

(* catalogue side of DROP MEASUREMENT: version suffix of the physical name *)
Definition next_version (v : N) : N := (v + 1) mod 65536.

(* the meaning of an optional tag predicate on one tag set, and its well-formedness *)
Definition evalq (am : N -> N -> bool) (q : option expr) (ts : tagset) : bool :=
  match q with None => true | Some e => eval am e ts end.
Definition okq (q : option expr) : Prop := match q with None => True | Some e => expr_ok e end.
