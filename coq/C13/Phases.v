(* C13 - DROP DATABASE / DROP RETENTION POLICY / DROP MEASUREMENT as the phases the code runs (Tree.v treats them as one step).
   sql node:    MarkDatabaseDelete / MarkRetentionPolicyDelete / MarkMeasurementDelete through the meta raft log; the statement is
                acknowledged after this step (lib/util/lifted/influx/coordinator/statement_executor.go).
   meta leader: Store.checkDelete (app/ts-meta/meta/store.go) looks, every checkInterval, for marked objects, sends the delete to
                every store that owns a part of the object (NetStore.DeleteDatabase / DeleteRetentionPolicy / DeleteMeasurement) and,
                ONLY when all of them returned no error, applies the Drop command that removes the object from the catalogue.
   store:       EngineImpl.DeleteDatabase / DropRetentionPolicy / DropMeasurement close the shards and remove directories - file
                by file; a crash leaves any subset behind; the call is idempotent.
   catalogue:   a marked object is invisible to reads and writes; a database / policy of the same name cannot be created while the
                old one is marked (CheckCanCreateDatabase: "being deleted"); after the Drop command the name is free again and the
                new object uses the same directories.
   The model: one name; the catalogue state of its current object; for every store the files under the name's directory, each
   tagged with the incarnation that wrote it. Crash = a step that changes nothing (the marks are in the raft log, files are files);
   the interesting part is that any prefix of a round may have happened. *)
From Coq Require Import NArith List Bool.
Import ListNotations.
Open Scope N_scope.

Inductive cstate := Absent | Live | Marked.
Record pstate := mkPS {
  ps_cat : cstate;               (* the catalogue entry of the name *)
  ps_inc : N;                    (* incarnation counter: how many objects of this name were created so far *)
  ps_files : list (list N)       (* per store: the incarnations of the files under the name's directory *)
}.

Inductive pstep :=
| PCreate                        (* CREATE DATABASE / POLICY (or the first write) *)
| PWrite (store : nat)           (* an acknowledged write lands in a file on one store *)
| PMark                          (* the DROP statement: acknowledged when this is in the raft log *)
| PStoreDelete (store : nat)     (* the store removes ONE file of the directory (any crash point inside the removal) *)
| PFinalize                      (* meta leader: Drop command, when every store reported success *)
| PCrash.                        (* kill -9 of any process, restart *)

Definition all_empty (fs : list (list N)) : bool := forallb (fun l => match l with [] => true | _ => false end) fs.
Fixpoint upd_nth {A} (n : nat) (f : A -> A) (l : list A) : list A :=
  match l, n with
  | [], _ => []
  | x :: r, O => f x :: r
  | x :: r, S k => x :: upd_nth k f r
  end.

(* [guard]: the finalisation waits for every store (true: /repo's code); false = a variant that finalises after the mark
   alone (used to show what the guard is for) *)
Definition pnext (guard : bool) (s : pstate) (o : pstep) : pstate :=
  match o with
  | PCreate => match ps_cat s with
               | Absent => mkPS Live (ps_inc s + 1) (ps_files s)
               | _ => s                                  (* exists already, or "being deleted": refused *)
               end
  | PWrite i => match ps_cat s with
                | Live => mkPS Live (ps_inc s) (upd_nth i (fun l => ps_inc s :: l) (ps_files s))
                | _ => s                                 (* not found *)
                end
  | PMark => match ps_cat s with Live => mkPS Marked (ps_inc s) (ps_files s) | _ => s end
  | PStoreDelete i => match ps_cat s with
                      | Marked => mkPS Marked (ps_inc s) (upd_nth i (fun l => tl l) (ps_files s))
                      | _ => s                           (* stores delete only what the meta leader tells them to *)
                      end
  | PFinalize => match ps_cat s with
                 | Marked => if negb guard || all_empty (ps_files s) then mkPS Absent (ps_inc s) (ps_files s) else s
                 | _ => s
                 end
  | PCrash => s
  end.
Definition prun (guard : bool) (s : pstate) (os : list pstep) : pstate := fold_left (pnext guard) os s.
Definition p0 (nstores : nat) : pstate := mkPS Absent 0 (repeat [] nstores).

(* what a read of the name returns: the files of the current object, when the catalogue shows it *)
Definition pvisible (s : pstate) : list N :=
  match ps_cat s with Live => concat (ps_files s) | _ => [] end.

(* one round of the meta leader for a marked object: every store removes everything, then the Drop command *)
Definition delete_all (s : pstate) : pstate :=
  match ps_cat s with Marked => mkPS Marked (ps_inc s) (map (fun _ => []) (ps_files s)) | _ => s end.
Definition pround (guard : bool) (s : pstate) : pstate := pnext guard (delete_all s) PFinalize.

Lemma in_upd_nth {A} (f : A -> A) l : forall n x, In x (upd_nth n f l) -> In x l \/ exists y, In y l /\ x = f y.
Proof.
  induction l as [| a r IH]; intros [| n] x H; simpl in *; auto.
  - destruct H as [<- | H]; [right; exists a; auto | auto].
  - destruct H as [<- | H]; auto. destruct (IH n x H) as [H1 | (y & Hy & E)]; auto. right. exists y. auto.
Qed.
Lemma upd_nth_length {A} (f : A -> A) l : forall n, length (upd_nth n f l) = length l.
Proof. induction l as [| a r IH]; intros [| n]; simpl; auto. Qed.

(* every file under the name's directory belongs to the CURRENT object, and there is none when the name is free *)
Definition files_ok (s : pstate) : Prop :=
  forall l x, In l (ps_files s) -> In x l -> x = ps_inc s /\ ps_cat s <> Absent.

Lemma all_empty_spec fs : all_empty fs = true <-> forall l x, In l fs -> ~ In x l.
Proof.
  unfold all_empty. rewrite forallb_forall. split.
  - intros H l x Hl Hx. specialize (H l Hl). destruct l; [destruct Hx | discriminate].
  - intros H l Hl. destruct l as [| a r]; auto. exfalso. apply (H (a :: r) a Hl). left. reflexivity.
Qed.

Lemma files_ok_p0 n : files_ok (p0 n).
Proof. intros l x Hl Hx. simpl in Hl. apply repeat_spec in Hl. subst. destruct Hx. Qed.

Lemma pnext_ok s o : files_ok s -> files_ok (pnext true s o).
Proof.
  intros H. destruct o; simpl; destruct (ps_cat s) eqn:Ec; auto.
  - (* create: the directory is empty *)
    intros l x Hl Hx. simpl in *. exfalso. destruct (H l x Hl Hx) as [_ Hn]. apply Hn. exact Ec.
  - intros l x Hl Hx. simpl in *. split; [| discriminate].
    apply in_upd_nth in Hl. destruct Hl as [Hl | (y & Hy & ->)].
    + apply (H l x Hl Hx).
    + destruct Hx as [<- | Hx]; auto. apply (H y x Hy Hx).
  - intros l x Hl Hx. simpl in *. split; [apply (H l x Hl Hx) | discriminate].
  - intros l x Hl Hx. simpl in *. split; [| discriminate].
    apply in_upd_nth in Hl. destruct Hl as [Hl | (y & Hy & ->)].
    + apply (H l x Hl Hx).
    + destruct y as [| a r]; [destruct Hx |]. apply (H (a :: r) x Hy). right. exact Hx.
  - (* finalise: only when every store is empty *)
    simpl. destruct (all_empty (ps_files s)) eqn:Ee; [| exact H].
    intros l x Hl Hx. simpl in *. exfalso. rewrite all_empty_spec in Ee. exact (Ee l x Hl Hx).
Qed.
Lemma prun_inv g (c : pstep -> bool) (P : pstate -> Prop) :
  (forall s o, c o = true -> P s -> P (pnext g s o)) -> forall os s, forallb c os = true -> P s -> P (prun g s os).
Proof.
  intros Hstep. induction os as [| o r IH]; simpl; intros s Hb Hs; auto.
  apply andb_true_iff in Hb. destruct Hb as [Ho Hr]. apply IH; auto.
Qed.
Lemma prun_ok os : forall s, files_ok s -> files_ok (prun true s os).
Proof. intros s H. apply (prun_inv true (fun _ => true) files_ok); auto using pnext_ok. induction os; auto. Qed.

(* NOT DROPPED before the statement is acknowledged: without a mark, no crash, store message or finalisation changes anything *)
Definition background (o : pstep) : bool := match o with PCrash | PStoreDelete _ | PFinalize => true | _ => false end.
Theorem live_untouched g s os : ps_cat s = Live -> forallb background os = true -> prun g s os = s.
Proof.
  intros Hc Hb. apply (prun_inv g background (fun s' => s' = s)); auto.
  intros s' o Ho ->. destruct o; simpl in *; try discriminate; rewrite ?Hc; reflexivity.
Qed.

(* DROPPED from the acknowledgement on, at every crash point: once the object is marked (or gone), whatever happens - crashes,
   store deletions in any order and to any extent, finalisation, refused writes, repeated drops - no read returns anything until
   somebody creates the name again (which is refused while the mark is there) *)
Definition not_create (o : pstep) : bool := match o with PCreate => false | _ => true end.
Theorem dropped_at_every_point g s os : ps_cat s <> Live -> forallb not_create os = true -> pvisible (prun g s os) = [].
Proof.
  intros Hc Hb. assert (H : ps_cat (prun g s os) <> Live).
  { apply (prun_inv g not_create (fun s' => ps_cat s' <> Live)); auto. intros s' o Ho Hs'.
    destruct o; simpl in *; try discriminate; destruct (ps_cat s') eqn:E; simpl; try congruence;
      try (destruct (negb g || all_empty (ps_files s')); simpl; congruence). }
  unfold pvisible. destruct (ps_cat (prun g s os)); auto. congruence.
Qed.
Theorem create_refused_while_marked g s : ps_cat s = Marked -> pnext g s PCreate = s.
Proof. intros H. simpl. rewrite H. reflexivity. Qed.

(* A RE-RUN COMPLETES from every crash point: whatever part of the deletion happened before (any sequence of store steps and
   crashes after the mark), one more round of the meta leader leaves the name free and every store empty *)
Definition deletion_step (o : pstep) : bool := match o with PCrash | PStoreDelete _ => true | _ => false end.
Lemma marked_stays g s os : ps_cat s = Marked -> forallb deletion_step os = true -> ps_cat (prun g s os) = Marked.
Proof.
  intros Hc Hb. apply (prun_inv g deletion_step (fun s' => ps_cat s' = Marked)); auto.
  intros s' o Ho Hs'. destruct o; simpl in *; try discriminate; rewrite Hs'; reflexivity.
Qed.
Lemma all_empty_map_nil {A} (fs : list A) : all_empty (map (fun _ => []) fs) = true.
Proof. induction fs; simpl; auto. Qed.
Theorem rerun_completes s os : ps_cat s = Marked -> forallb deletion_step os = true ->
  ps_cat (pround true (prun true s os)) = Absent /\ all_empty (ps_files (pround true (prun true s os))) = true.
Proof.
  intros Hc Hb. pose proof (marked_stays true s os Hc Hb) as Hm.
  unfold pround, delete_all. rewrite Hm. simpl. rewrite all_empty_map_nil. simpl. split; auto. apply all_empty_map_nil.
Qed.

(* RE-CREATION IS FRESH: in every state reachable from the empty system, whatever a read returns was written into the current
   object - no file of an earlier object of the same name is ever visible again *)
Theorem recreated_is_fresh n os x : In x (pvisible (prun true (p0 n) os)) -> x = ps_inc (prun true (p0 n) os).
Proof.
  intros Hx. pose proof (prun_ok os (p0 n) (files_ok_p0 n)) as Hok. unfold pvisible in Hx.
  destruct (ps_cat (prun true (p0 n) os)); try destruct Hx.
  apply in_concat in Hx. destruct Hx as (l & Hl & Hx). apply (Hok l x Hl Hx).
Qed.
(* ... and the name is free only when no file is left *)
Theorem free_name_has_no_files n os : ps_cat (prun true (p0 n) os) = Absent -> all_empty (ps_files (prun true (p0 n) os)) = true.
Proof.
  intros Hc. pose proof (prun_ok os (p0 n) (files_ok_p0 n)) as Hok. apply all_empty_spec. intros l x Hl Hx.
  destruct (Hok l x Hl Hx) as [_ Hn]. contradiction.
Qed.

(* ---- listings (show series / tag values / tag keys) resolve the measurements of a policy through another catalogue walk than
   selects do (finding C13-marked-policy-still-listed): [checks_mark] = that walk skips a marked object too (true: /repo since f28ab35; before, it
   did for databases and measurements, not for retention policies) *)
Definition plisted (checks_mark : bool) (s : pstate) : list N :=
  match ps_cat s with
  | Live => concat (ps_files s)
  | Marked => if checks_mark then [] else concat (ps_files s)
  | Absent => []
  end.
(* with the check, every kind of read agrees at every point of every run *)
Theorem listed_consistent s : plisted true s = pvisible s.
Proof. unfold plisted, pvisible. destruct (ps_cat s); reflexivity. Qed.
