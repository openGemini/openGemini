(* C13 - the system model refines the reference machine: for every operation sequence every read of the system model
   (index + deleted set + incarnations + memtable / files) returns exactly what the reference returns. *)
From Coq Require Import NArith List Bool Lia.
From OG Require Import C10.Model C10.Proofs C13.Model C13.Proofs C13.Tree C13.TreeLemmas.
Import ListNotations.
Open Scope N_scope.

(* ---- the catalogue of live incarnations, keyed by (measurement name, index group). [curl] is [cur] as a function of the list
   [p_cur], for the lemmas about appending to and filtering that list *)
Definition curl (l : list (ckey * N)) (k : ckey) : option N :=
  match find (fun x => ckey_eqb (fst x) k) l with Some x => Some (snd x) | None => None end.
Lemma ckey_eqb_eq a b : ckey_eqb a b = true <-> a = b.
Proof. unfold ckey_eqb. rewrite andb_true_iff, !N.eqb_eq. destruct a, b; simpl. split; [intros [-> ->]; auto | intros E; inversion E; auto]. Qed.
Lemma ckey_eqb_refl a : ckey_eqb a a = true.
Proof. apply ckey_eqb_eq. reflexivity. Qed.
Lemma cur_curl p k : cur p k = curl (p_cur p) k.
Proof. reflexivity. Qed.
Lemma curl_in l k pm : curl l k = Some pm -> In (k, pm) l.
Proof.
  unfold curl. destruct (find (fun x => ckey_eqb (fst x) k) l) as [[a b] |] eqn:E; [| discriminate]. intros H. inversion H; subst.
  apply find_some in E. destruct E as [Hin Hb]. simpl in Hb. apply ckey_eqb_eq in Hb. subst. exact Hin.
Qed.
Lemma curl_of_in l k pm : NoDup (map fst l) -> In (k, pm) l -> curl l k = Some pm.
Proof.
  unfold curl. induction l as [| [a b] r IH]; simpl; intros Hnd Hin; [destruct Hin |]. inversion Hnd as [| ? ? Hni Hnd']; subst.
  destruct Hin as [E | Hin].
  - inversion E; subst. rewrite ckey_eqb_refl. reflexivity.
  - destruct (ckey_eqb a k) eqn:Ek; [| apply IH; auto]. apply ckey_eqb_eq in Ek. subst a. exfalso. apply Hni.
    apply in_map_iff. exists (k, pm). auto.
Qed.
Lemma curl_snoc l k0 pm0 k :
  curl (l ++ [(k0, pm0)]) k = match curl l k with Some y => Some y | None => if ckey_eqb k0 k then Some pm0 else None end.
Proof.
  unfold curl. rewrite find_app. destruct (find (fun x => ckey_eqb (fst x) k) l); auto. simpl. destruct (ckey_eqb k0 k); auto.
Qed.
Lemma curl_filter l n0 k :
  curl (filter (fun x => negb (fst (fst x) =? n0)) l) k = if fst k =? n0 then None else curl l k.
Proof.
  unfold curl. induction l as [| [a b] r IH]; simpl; [destruct (fst k =? n0); auto |].
  destruct (fst a =? n0) eqn:E0; simpl.
  - rewrite IH. destruct (fst k =? n0) eqn:E; auto. destruct (ckey_eqb a k) eqn:E1; auto.
    apply ckey_eqb_eq in E1. subst. congruence.
  - destruct (ckey_eqb a k) eqn:E1; simpl.
    + apply ckey_eqb_eq in E1. subst. rewrite E0. reflexivity.
    + exact IH.
Qed.
Lemma in_pms p n g pm : In (g, pm) (pms p n) <-> In ((n, g), pm) (p_cur p).
Proof.
  unfold pms. rewrite in_map_iff. split.
  - intros ([[n' g'] pm'] & E & Hin). apply filter_In in Hin. destruct Hin as [Hin Hn]. simpl in *. apply N.eqb_eq in Hn.
    inversion E; subst. exact Hin.
  - intros Hin. exists ((n, g), pm). split; auto. apply filter_In. split; auto. simpl. apply N.eqb_refl.
Qed.

(* ---- the index write: the deleted set stays, the entry of the key is there with a live id, old entries stay; an entry that
   was not there is the one of the key, and then every earlier id of the key is deleted *)
Lemma write_facts s k : dwf s ->
  d_del (fst (write s k)) = d_del s /\ In (k, snd (write s k)) (d_L (fst (write s k))) /\ ~ In (snd (write s k)) (d_del s) /\
  incl (d_L s) (d_L (fst (write s k))) /\
  (forall e, In e (d_L (fst (write s k))) ->
     In e (d_L s) \/ (e = (k, snd (write s k)) /\ forall id, In (k, id) (d_L s) -> In id (d_del s))).
Proof.
  intros (Hwf & Hb & Hd). unfold write. destruct (lookup_live s k) as [id |] eqn:E; simpl.
  - apply lookup_live_some in E. destruct E as [Hin Hn]. split; [| split; [| split; [| split]]]; auto. apply incl_refl.
  - split; [| split; [| split; [| split]]]; auto.
    + apply in_app_iff. right. left. reflexivity.
    + intros Hin. apply Hd in Hin. lia.
    + apply incl_appl, incl_refl.
    + intros e He. apply in_app_iff in He. destruct He as [He | [<- | []]]; auto.
      right. split; auto. apply lookup_live_none. exact E.
Qed.

(* ---- the local invariant: one policy of the system model against its reference rows *)
Record LI (p : policy) (R : list lrow) : Prop := mkLI {
  li_dwf : dwf (p_ix p);
  li_deld : p_deld p = d_del (p_ix p);
  li_one : forall k i1 i2, In (k, i1) (d_L (p_ix p)) -> In (k, i2) (d_L (p_ix p)) ->
                           ~ In i1 (d_del (p_ix p)) -> ~ In i2 (d_del (p_ix p)) -> i1 = i2;
  li_rows : forall x, In x (p_all p) -> exists tags, In (mkS (r_m x) tags, r_id x) (d_L (p_ix p));
  (* memtable rows keep their id when the WAL is replayed at a restart *)
  li_memlive : forall x, In x (p_mem p) ->
                         exists tags, In (mkS (r_m x) tags, r_id x) (d_L (p_ix p)) /\ ~ In (r_id x) (d_del (p_ix p));
  (* an identity from the generator is above everything in use: a new incarnation has no items and no rows *)
  li_mbound : forall e, In e (d_L (p_ix p)) -> s_mst (fst e) <= p_nextm p;
  li_cbound : forall x, In x (p_cur p) -> snd x <= p_nextm p;
  li_cnodup : NoDup (map fst (p_cur p));
  li_cinj : forall k1 k2 pm, cur p k1 = Some pm -> cur p k2 = Some pm -> k1 = k2;
  (* the indexes: every identity lives in an existing index; every index consults the policy's deleted set *)
  li_curidx : forall k pm, cur p k = Some pm -> In (snd k) (map fst (p_idx p));
  li_wired : (p_table p = false -> d_del (p_ix p) = []) /\ (p_table p = true -> forall x, In x (p_idx p) -> snd x = true);
  li_rowgrp : forall x k, In x (p_all p) -> cur p k = Some (r_m x) -> grp (r_t x) = snd k;
  (* for the listings, which return series, not rows *)
  li_hasrow : forall k id ck, In (k, id) (d_L (p_ix p)) -> ~ In id (d_del (p_ix p)) -> cur p ck = Some (s_mst k) ->
                              exists t v w, In (mkR (s_mst k) id t v w) (lww (p_all p));
  li_abs : forall n tags t v w, In (mkL n tags t v w) R <->
     exists pm id, cur p (n, grp t) = Some pm /\ In (mkS pm tags, id) (d_L (p_ix p)) /\ ~ In id (d_del (p_ix p)) /\
                   In (mkR pm id t v w) (lww (p_all p))
}.

Lemma LI_empty : LI empty_policy [].
Proof.
  constructor; simpl; try (intros; contradiction); auto.
  all: try (repeat split; simpl; try constructor; intros; try contradiction; discriminate).
  intros. split; [intros [] | intros (pm & id & H & _)]. discriminate.
Qed.

Lemma cur_in_iff p R k pm : LI p R -> (cur p k = Some pm <-> In (k, pm) (p_cur p)).
Proof. intros H. rewrite cur_curl. split; [apply curl_in | apply curl_of_in; apply (li_cnodup _ _ H)]. Qed.

(* every index that exists consults exactly the policy's deleted set (the wiring theorem, inside the refinement) *)
Lemma eff_ok p R g : LI p R -> In g (map fst (p_idx p)) -> eff p g = d_del (p_ix p).
Proof.
  intros H Hg. destruct (li_wired _ _ H) as [Hf Ht]. unfold eff. destruct (p_table p) eqn:Et.
  - assert (wiredb p g = true); [| rewrite H0; reflexivity].
    unfold wiredb. apply existsb_exists. apply in_map_iff in Hg. destruct Hg as ([g' b] & E & Hin). simpl in E. subst g'.
    exists (g, b). split; auto. simpl. rewrite N.eqb_refl. simpl. apply (Ht eq_refl (g, b) Hin).
  - rewrite (Hf eq_refl). destruct (wiredb p g); reflexivity.
Qed.

Lemma dwf_uniq s k1 k2 id : dwf s -> In (k1, id) (d_L s) -> In (k2, id) (d_L s) -> k1 = k2.
Proof. intros ((Hnd & _) & _) H1 H2. exact (uniq_id _ _ _ _ Hnd H1 H2). Qed.

Lemma tagset_eqb_eq a b : tagset_eqb a b = true <-> a = b.
Proof. unfold tagset_eqb. destruct (tagset_eq_dec a b); split; auto; discriminate. Qed.
Lemma same_lpt_iff n tags t x : same_lpt n tags t x = true <-> l_n x = n /\ l_tags x = tags /\ l_t x = t.
Proof. unfold same_lpt. rewrite !andb_true_iff, !N.eqb_eq, tagset_eqb_eq. tauto. Qed.

(* ---- steps that change neither the catalogue nor what the index and the merged view say *)
Lemma LI_ext p p' R :
  p_cur p' = p_cur p -> p_nextm p' = p_nextm p -> d_L (p_ix p') = d_L (p_ix p) -> d_del (p_ix p') = d_del (p_ix p) ->
  d_next (p_ix p') = d_next (p_ix p) -> p_deld p' = d_del (p_ix p') ->
  lww (p_all p') = lww (p_all p) -> (forall x, In x (p_all p') -> In x (p_all p)) ->
  (forall x, In x (p_mem p') -> In x (p_mem p)) ->
  incl (map fst (p_idx p)) (map fst (p_idx p')) ->
  ((p_table p' = false -> d_del (p_ix p') = []) /\ (p_table p' = true -> forall x, In x (p_idx p') -> snd x = true)) ->
  LI p R -> LI p' R.
Proof.
  intros Ec En EL Ed Ex Edd Elww Hin Hmem Eidx Hw H.
  assert (Hcur : forall k, cur p' k = cur p k) by (intros k; unfold cur; rewrite Ec; reflexivity).
  constructor; rewrite ?EL, ?Ed, ?En, ?Elww.
  - destruct (li_dwf _ _ H) as (A & B & C). unfold dwf. rewrite EL, Ed, Ex. auto.
  - rewrite Edd, Ed. reflexivity.
  - apply (li_one _ _ H).
  - intros x Hx. apply (li_rows _ _ H). auto.
  - intros x Hx. apply (li_memlive _ _ H). auto.
  - apply (li_mbound _ _ H).
  - rewrite Ec. apply (li_cbound _ _ H).
  - rewrite Ec. apply (li_cnodup _ _ H).
  - intros k1 k2 pm. rewrite !Hcur. apply (li_cinj _ _ H).
  - intros k pm. rewrite Hcur. intros Hc. apply Eidx, (li_curidx _ _ H k pm Hc).
  - rewrite <- Ed. exact Hw.
  - intros x k Hx. rewrite Hcur. apply (li_rowgrp _ _ H). auto.
  - intros k id ck. rewrite Hcur. apply (li_hasrow _ _ H).
  - intros n tags t v w. rewrite (li_abs _ _ H). setoid_rewrite Hcur. reflexivity.
Qed.

(* ---- WRITE, in the three steps of [p_write]. First: the index of the time's group is created if there is none. *)
Lemma LI_ensure_idx p R g : LI p R -> LI (ensure_idx true p g) R /\ In g (map fst (p_idx (ensure_idx true p g))).
Proof.
  intros H. unfold ensure_idx. destruct (existsb (fun x => fst x =? g) (p_idx p)) eqn:E.
  - split; auto. apply existsb_exists in E. destruct E as (x & Hx & Ex). apply N.eqb_eq in Ex. subst g. apply in_map. exact Hx.
  - split; [| simpl; rewrite map_app; apply in_app_iff; right; left; reflexivity].
    apply (LI_ext p); auto; try reflexivity; simpl.
    + apply (li_deld _ _ H).
    + rewrite map_app. apply incl_appl, incl_refl.
    + destruct (li_wired _ _ H) as [Hf Ht]. split; auto. intros Et x Hx. apply in_app_iff in Hx.
      destruct Hx as [Hx | [<- | []]]; [apply (Ht Et x Hx) | simpl; rewrite Et; reflexivity].
Qed.

(* Second: a measurement without an identity in that group gets a fresh one. Nothing in the index or in the stored rows carries
   it (identities in use are bounded by the generator), so the reference rows are the same. *)
Lemma LI_ensure_mst p R c : LI p R -> In (snd c) (map fst (p_idx p)) ->
  LI (fst (ensure_mst p c)) R /\ cur (fst (ensure_mst p c)) c = Some (snd (ensure_mst p c)).
Proof.
  intros H Hg. unfold ensure_mst. destruct (cur p c) as [pm0 |] eqn:E; [auto |]. simpl.
  set (pm := p_nextm p + 1).
  set (p' := mkP (p_cur p ++ [(c, pm)]) pm (p_ix p) (p_table p) (p_idx p) (p_deld p) (p_mem p) (p_files p)).
  assert (Hcur : forall k, cur p' k = match cur p k with Some y => Some y | None => if ckey_eqb c k then Some pm else None end)
    by (intros k; apply curl_snoc).
  assert (Hcb : forall k m, cur p k = Some m -> m <= p_nextm p).
  { intros k m Hk. apply (cur_in_iff _ _ _ _ H) in Hk. apply (li_cbound _ _ H _ Hk). }
  assert (Hold : forall k m, cur p' k = Some m -> m <= p_nextm p -> cur p k = Some m).
  { intros k m Hk Hm. rewrite Hcur in Hk. destruct (cur p k); auto. destruct (ckey_eqb c k); [| discriminate].
    inversion Hk. unfold pm in *. lia. }
  split; [| rewrite Hcur, E, ckey_eqb_refl; reflexivity].
  constructor; fold p'; try solve [apply H].
  - intros e He. apply (li_mbound _ _ H) in He. simpl. unfold pm. lia.
  - intros x Hx. simpl in Hx. apply in_app_iff in Hx. destruct Hx as [Hx | [<- | []]]; simpl; unfold pm;
      [apply (li_cbound _ _ H) in Hx |]; lia.
  - simpl. rewrite map_app. apply nodup_snoc; [apply (li_cnodup _ _ H) |]. simpl.
    intros Hin. apply in_map_iff in Hin. destruct Hin as ([k m] & Ek & Hin). simpl in Ek. subst k.
    apply (cur_in_iff _ _ _ _ H) in Hin. congruence.
  - intros k1 k2 m H1 H2. destruct (N.le_gt_cases m (p_nextm p)) as [Hm | Hm].
    + apply (li_cinj _ _ H k1 k2 m); apply Hold; auto.
    + rewrite Hcur in H1, H2.
      destruct (cur p k1) eqn:E1; [inversion H1; subst; apply Hcb in E1; lia |].
      destruct (cur p k2) eqn:E2; [inversion H2; subst; apply Hcb in E2; lia |].
      destruct (ckey_eqb c k1) eqn:Ea; [| discriminate]. destruct (ckey_eqb c k2) eqn:Eb; [| discriminate].
      apply ckey_eqb_eq in Ea, Eb. congruence.
  - intros k m Hk. simpl. rewrite Hcur in Hk. destruct (cur p k) eqn:Ek; [apply (li_curidx _ _ H k n Ek) |].
    destruct (ckey_eqb c k) eqn:Ec; [| discriminate]. apply ckey_eqb_eq in Ec. subst k. exact Hg.
  - intros x k Hx Hk. apply (li_rowgrp _ _ H x k Hx). apply Hold; auto.
    destruct (li_rows _ _ H x Hx) as (tg & Hin). apply (li_mbound _ _ H) in Hin. exact Hin.
  - intros k id ck Hin Hl Hk. apply (li_hasrow _ _ H k id ck Hin Hl). apply Hold; auto. apply (li_mbound _ _ H) in Hin. exact Hin.
  - intros n tags t v w. rewrite (li_abs _ _ H). split; intros (m & id & Hc & Hin & Hr); exists m, id; split; auto.
    + rewrite Hcur, Hc. reflexivity.
    + apply Hold; auto. apply (li_mbound _ _ H) in Hin. exact Hin.
Qed.

(* Third: the series key is written to the index and the row appended to the memtable; it replaces the reference row of its
   point. *)
Lemma LI_write_row p R n tags t v w pm : LI p R -> wf_tags tags -> cur p (n, grp t) = Some pm ->
  LI (mkP (p_cur p) (p_nextm p) (fst (write (p_ix p) (mkS pm tags))) (p_table p) (p_idx p) (p_deld p)
          (p_mem p ++ [mkR pm (snd (write (p_ix p) (mkS pm tags))) t v w]) (p_files p))
     (s_write R n tags t v w).
Proof.
  intros H Htags Hpm. pose proof (li_dwf _ _ H) as Hdwf. set (k0 := mkS pm tags).
  pose proof (write_facts (p_ix p) k0 Hdwf) as (Wdel & Win & Wlive & Wold & Wnew).
  pose proof (write_dwf (p_ix p) k0 Hdwf Htags) as Hdwf'.
  set (ix' := fst (write (p_ix p) k0)) in *. set (id0 := snd (write (p_ix p) k0)) in *.
  set (x0 := mkR pm id0 t v w).
  set (pN := mkP (p_cur p) (p_nextm p) ix' (p_table p) (p_idx p) (p_deld p) (p_mem p ++ [x0]) (p_files p)).
  assert (Hone' : forall k i1 i2, In (k, i1) (d_L ix') -> In (k, i2) (d_L ix') ->
                                  ~ In i1 (d_del (p_ix p)) -> ~ In i2 (d_del (p_ix p)) -> i1 = i2).
  { intros k i1 i2 H1 H2 N1 N2. destruct (Wnew _ H1) as [A1 | [E1 Hall1]], (Wnew _ H2) as [A2 | [E2 Hall2]].
    - eapply (li_one _ _ H); eauto.
    - inversion E2; subst. exfalso. apply N1, Hall2, A1.
    - inversion E1; subst. exfalso. apply N2, Hall1, A2.
    - congruence. }
  assert (Hallnew : p_all pN = p_all p ++ [x0]) by (unfold p_all; simpl; apply app_assoc).
  constructor; fold pN; try solve [apply H].
  - exact Hdwf'.
  - simpl. rewrite Wdel. apply (li_deld _ _ H).
  - simpl. rewrite Wdel. exact Hone'.
  - rewrite Hallnew. simpl. intros x Hx. apply in_app_iff in Hx. destruct Hx as [Hx | [<- | []]].
    + destruct (li_rows _ _ H x Hx) as (tg & Hin). exists tg. apply Wold, Hin.
    + exists tags. exact Win.
  - simpl. rewrite Wdel. intros x Hx. apply in_app_iff in Hx. destruct Hx as [Hx | [<- | []]].
    + destruct (li_memlive _ _ H x Hx) as (tg & Hin & Hl). exists tg. split; [apply Wold, Hin | exact Hl].
    + exists tags. split; [exact Win | exact Wlive].
  - simpl. intros e He. destruct (Wnew _ He) as [He' | [-> _]]; [apply (li_mbound _ _ H e He') |]. simpl.
    apply (cur_in_iff _ _ _ _ H) in Hpm. apply (li_cbound _ _ H _ Hpm).
  - simpl. rewrite Wdel. apply (li_wired _ _ H).
  - (* a row's time lies in the group of its identity *)
    rewrite Hallnew. intros x k Hx Hc. apply in_app_iff in Hx. destruct Hx as [Hx | [<- | []]].
    + apply (li_rowgrp _ _ H x k Hx Hc).
    + simpl in *. rewrite (li_cinj _ _ H k (n, grp t) pm Hc Hpm). reflexivity.
  - (* a live series of a live incarnation has a visible row *)
    rewrite Hallnew, lww_snoc. simpl. rewrite Wdel. intros k id ck Hin Hlive Hc.
    destruct (Wnew _ Hin) as [A | [E _]].
    + destruct (li_hasrow _ _ H k id ck A Hlive Hc) as (t1 & v1 & w1 & Hrow).
      destruct (same_pt (mkR (s_mst k) id t1 v1 w1) x0) eqn:Es.
      * apply same_pt_iff in Es. simpl in Es. destruct Es as (Em & Ei & Et). exists t, v, w.
        apply in_app_iff. right. left. unfold x0. congruence.
      * exists t1, v1, w1. apply in_app_iff. left. apply filter_In. split; auto. rewrite Es. reflexivity.
    + inversion E; subst k id. exists t, v, w. apply in_app_iff. right. left. reflexivity.
  - (* abstraction. An entry under an identity of the catalogue stands at the point of the new row exactly when its reference
       row stands at the written point *)
    assert (Hpt : forall n1 tags1 t1 v1 w1 m id, cur p (n1, grp t1) = Some m -> In (mkS m tags1, id) (d_L ix') ->
              ~ In id (d_del (p_ix p)) -> same_pt (mkR m id t1 v1 w1) x0 = same_lpt n tags t (mkL n1 tags1 t1 v1 w1)).
    { intros n1 tags1 t1 v1 w1 m id Hc Hin Hl. apply eq_true_iff_eq. rewrite same_pt_iff, same_lpt_iff. simpl. split.
      - intros (-> & -> & ->). assert (Ek : (n1, grp t) = (n, grp t)) by (apply (li_cinj _ _ H _ _ pm); auto).
        assert (Hk : mkS pm tags1 = k0) by (apply (dwf_uniq ix' _ _ id0 Hdwf'); auto). inversion Ek. inversion Hk. auto.
      - intros (-> & -> & ->). assert (m = pm) by congruence. subst m. repeat split; auto. apply (Hone' k0 id id0); auto. }
    intros n1 tags1 t1 v1 w1. rewrite Hallnew, lww_snoc. simpl. rewrite Wdel. unfold s_write. rewrite in_app_iff, filter_In. simpl.
    change (cur pN (n1, grp t1)) with (cur p (n1, grp t1)). split.
    + intros [[HR Hns] | [Heq | []]].
      * apply (li_abs _ _ H) in HR. destruct HR as (m & id & Hc & Hin & Hlive & Hrow). exists m, id. repeat split; auto.
        apply in_app_iff. left. apply filter_In. split; auto. rewrite (Hpt n1 tags1 t1 v1 w1 m id); auto.
      * inversion Heq; subst. exists pm, id0. repeat split; auto. apply in_app_iff. right. left. reflexivity.
    + intros (m & id & Hc & Hin & Hlive & Hrow). apply in_app_iff in Hrow. destruct Hrow as [Hrow | [Hrow | []]].
      * apply filter_In in Hrow. destruct Hrow as [Hrow Hns]. rewrite (Hpt n1 tags1 t1 v1 w1 m id) in Hns; auto. left. split; auto.
        apply (li_abs _ _ H). exists m, id. repeat split; auto.
        (* the entry is an old one: its id is the id of a stored row *)
        destruct (li_rows _ _ H _ (lww_in _ _ Hrow)) as (tg & Hin0). simpl in Hin0.
        assert (E : mkS m tg = mkS m tags1) by (apply (dwf_uniq ix' _ _ id Hdwf'); auto). inversion E; subst tg. exact Hin0.
      * right. left. inversion Hrow; subst m id t1 v1 w1.
        assert (Hs : same_lpt n tags t (mkL n1 tags1 t v w) = true)
          by (rewrite <- (Hpt n1 tags1 t v w pm id0); auto; apply same_pt_refl).
        apply same_lpt_iff in Hs. simpl in Hs. destruct Hs as (-> & -> & _). reflexivity.
Qed.

Lemma LI_write p R n tags t v w : LI p R -> wf_tags tags -> LI (p_write true p n tags t v w) (s_write R n tags t v w).
Proof.
  intros H Htags. unfold p_write. destruct (LI_ensure_idx p R (grp t) H) as [H0 Hg].
  destruct (LI_ensure_mst _ R (n, grp t) H0 Hg) as [H1 Hpm]. apply LI_write_row; assumption.
Qed.

Lemma LI_flush p R : LI p R -> LI (p_flush p) R.
Proof.
  intros H. assert (E : p_all (p_flush p) = p_all p).
  { unfold p_all, p_flush. simpl. rewrite concat_app. simpl. rewrite !List.app_nil_r. reflexivity. }
  apply (LI_ext p); auto using incl_refl; try reflexivity.
  - simpl. apply (li_deld _ _ H).
  - rewrite E. reflexivity.
  - rewrite E. auto.
  - simpl. intros x [].
  - apply (li_wired _ _ H).
Qed.

Lemma LI_compact p R i k : LI p R -> LI (p_compact p i k) R.
Proof.
  intros H. set (fs := p_files p).
  assert (Ea : p_all p = concat (firstn i fs) ++ concat (firstn k (skipn i fs)) ++ (concat (skipn k (skipn i fs)) ++ p_mem p)).
  { unfold p_all. fold fs. rewrite (firstn_skipn_split fs i k) at 1. rewrite !concat_app, <- !app_assoc. reflexivity. }
  assert (Eb : p_all (p_compact p i k) =
               concat (firstn i fs) ++ lww (concat (firstn k (skipn i fs))) ++ (concat (skipn k (skipn i fs)) ++ p_mem p)).
  { unfold p_all, p_compact. simpl. fold fs. rewrite !concat_app. simpl. rewrite ?List.app_nil_r, <- ?app_assoc. reflexivity. }
  apply (LI_ext p); auto using incl_refl; try reflexivity.
  - simpl. apply (li_deld _ _ H).
  - rewrite Ea, Eb. apply lww_compact.
  - intros x. rewrite Ea, Eb, !in_app_iff. intros [A | [A | A]]; auto. right. left. apply lww_in. exact A.
  - apply (li_wired _ _ H).
Qed.

Lemma LI_sync p R : LI p R -> LI (p_sync p) R.
Proof. intros H. apply (LI_ext p); auto using incl_refl; try reflexivity. apply (li_wired _ _ H). Qed.

(* the WAL replay finds for every memtable row the id it has: the one live id of its key *)
Lemma lookup_live_the s k id : NoDup (map snd (d_L s)) ->
  (forall k0 i1 i2, In (k0, i1) (d_L s) -> In (k0, i2) (d_L s) -> ~ In i1 (d_del s) -> ~ In i2 (d_del s) -> i1 = i2) ->
  In (k, id) (d_L s) -> ~ In id (d_del s) -> lookup_live s k = Some id.
Proof.
  intros Hnd Hone Hin Hlive. destruct (lookup_live s k) as [id' |] eqn:E.
  - apply lookup_live_some in E. destruct E as [Hin' Hl']. f_equal. eapply Hone; eauto.
  - exfalso. apply Hlive. eapply lookup_live_none; eauto.
Qed.
Lemma replay_id s rows acc : NoDup (map snd (d_L s)) ->
  (forall k0 i1 i2, In (k0, i1) (d_L s) -> In (k0, i2) (d_L s) -> ~ In i1 (d_del s) -> ~ In i2 (d_del s) -> i1 = i2) ->
  (forall x, In x rows -> exists tags, In (mkS (r_m x) tags, r_id x) (d_L s) /\ ~ In (r_id x) (d_del s)) ->
  fold_left replay_row rows (s, acc) = (s, acc ++ rows).
Proof.
  intros Hnd Hone. revert acc. induction rows as [| x r IH]; intros acc Hrows; simpl; [rewrite app_nil_r; reflexivity |].
  destruct (Hrows x (or_introl eq_refl)) as (tags & Hin & Hlive).
  unfold replay_row at 2. simpl. rewrite (key_of_in _ _ _ Hnd Hin). unfold write.
  rewrite (lookup_live_the s _ _ Hnd Hone Hin Hlive). simpl.
  rewrite IH; [| intros y Hy; apply Hrows; right; exact Hy]. rewrite <- app_assoc. simpl. destruct x; reflexivity.
Qed.

Lemma wire_all_fst l : map fst (wire_all l) = map fst l.
Proof. unfold wire_all. rewrite map_map. reflexivity. Qed.
Lemma wire_all_wired l x : In x (wire_all l) -> snd x = true.
Proof. unfold wire_all. rewrite in_map_iff. intros (y & <- & _). reflexivity. Qed.

Lemma LI_restart p R : LI p R -> LI (p_restart p) R.
Proof.
  intros H. pose proof (li_dwf _ _ H) as ((Hnd & _) & _).
  assert (E : p_restart p = mkP (p_cur p) (p_nextm p) (mkD (d_L (p_ix p)) (p_deld p) (d_next (p_ix p)) (d_dead (p_ix p)))
                                (match p_idx p with [] => p_table p | _ => true end)
                                (match p_idx p with [] => [] | l => wire_all l end)
                                (p_deld p) (p_mem p) (p_files p)).
  { unfold p_restart. rewrite replay_id; simpl; auto.
    - rewrite (li_deld _ _ H). apply (li_one _ _ H).
    - rewrite (li_deld _ _ H). apply (li_memlive _ _ H). }
  rewrite E. apply (LI_ext p); auto; try reflexivity; simpl.
  - apply (li_deld _ _ H).
  - destruct (p_idx p) as [| a r]; [| simpl; rewrite wire_all_fst]; apply incl_refl.
  - rewrite (li_deld _ _ H). destruct (li_wired _ _ H) as [Hf Ht]. destruct (p_idx p) as [| a r] eqn:Ei.
    + split; auto; intros _ x [].
    + split; [discriminate |]. intros _ x [<- | Hx]; [reflexivity | eapply wire_all_wired; eauto].
Qed.

(* what the search of one index selects for an incarnation, whichever path computes it: the live entries under the incarnation's
   identity in that index whose tags satisfy the predicate *)
Lemma LI_sel am p R n q g pm id : LI p R ->
  (In (g, pm) (pms p n) /\ In id (spec_ids am (d_L (p_ix p)) (eff p g) pm q)) <->
  (cur p (n, g) = Some pm /\
   exists tags, In (mkS pm tags, id) (d_L (p_ix p)) /\ ~ In id (d_del (p_ix p)) /\ evalq am q tags = true).
Proof.
  intros H. rewrite in_pms, <- (cur_in_iff _ _ _ _ H).
  split; intros [Hc Hid]; (split; [exact Hc |]); rewrite (eff_ok p R g H (li_curidx _ _ H _ _ Hc)), spec_char in *.
  - destruct Hid as ([m tags] & Hin & Hl & Hm & He). simpl in *. subst m. eauto.
  - destruct Hid as (tags & Hin & Hl & He). exists (mkS pm tags). auto.
Qed.

Lemma LI_drop_series am p0 R n0 q : LI p0 R -> okq q ->
  LI (p_drop_series true true am p0 n0 q) (s_drop_series am R n0 q).
Proof.
  intros H0 Hq. unfold p_drop_series. set (p := p_flush p0). assert (H : LI p R) by (apply LI_flush; exact H0).
  assert (Hmem0 : p_mem p = []) by reflexivity. clearbody p. clear H0.
  pose proof (li_dwf _ _ H) as Hdwf. destruct Hdwf as (Hwf & Hb & Hd).
  set (ids := flat_map (fun gm : N * N => list_ids am (d_T (p_ix p)) (eff p (fst gm)) (snd gm) q) (pms p n0)).
  (* the ids found: the live series of the measurement, in whatever index, that satisfy the predicate *)
  assert (Hids : forall id, In id ids <->
            exists g pm tags, cur p (n0, g) = Some pm /\ In (mkS pm tags, id) (d_L (p_ix p)) /\ ~ In id (d_del (p_ix p)) /\
                              evalq am q tags = true).
  { intros id. unfold ids, d_T. rewrite in_flat_map. split.
    - intros ([g pm] & Hgm & Hid). simpl in Hid. rewrite (list_ids_exact am _ _ pm q id Hwf Hq) in Hid.
      destruct (proj1 (LI_sel am p R n0 q g pm id H) (conj Hgm Hid)) as (Hc & tags & A). exists g, pm, tags. auto.
    - intros (g & pm & tags & Hc & A). destruct (proj2 (LI_sel am p R n0 q g pm id H)) as [Hgm Hid]; [eauto |].
      exists (g, pm). split; auto. simpl. rewrite (list_ids_exact am _ _ pm q id Hwf Hq). exact Hid. }
  assert (Hkey : forall n tags t pm id, cur p (n, grp t) = Some pm -> In (mkS pm tags, id) (d_L (p_ix p)) ->
                   ~ In id (d_del (p_ix p)) -> (In id ids <-> n = n0 /\ evalq am q tags = true)).
  { intros n tags t pm id Hc Hin Hlive. rewrite Hids. split.
    - intros (g & pm' & tags' & Hc' & A & _ & D).
      assert (E : mkS pm' tags' = mkS pm tags) by (apply (uniq_id _ _ _ id (proj1 Hwf)); auto). inversion E; subst pm' tags'.
      assert (Ek : (n0, g) = (n, grp t)) by (apply (li_cinj _ _ H _ _ pm); auto). inversion Ek. auto.
    - intros [-> He]. exists (grp t), pm, tags. auto. }
  assert (Habs : forall n tags t v w, In (mkL n tags t v w) (s_drop_series am R n0 q) <->
     exists pm id, cur p (n, grp t) = Some pm /\ In (mkS pm tags, id) (d_L (p_ix p)) /\ ~ In id (d_del (p_ix p) ++ ids) /\
                   In (mkR pm id t v w) (lww (p_all p))).
  { intros n tags t v w. unfold s_drop_series. rewrite filter_In, (li_abs _ _ H). unfold named. simpl. split.
    - intros [(m & id & Hc & Hin & Hlive & Hrow) Hnn]. exists m, id. repeat split; auto.
      intros A. apply in_app_iff in A. destruct A as [A | A]; [contradiction |].
      apply (Hkey n tags t m id Hc Hin Hlive) in A. destruct A as [-> He]. rewrite N.eqb_refl, He in Hnn. discriminate.
    - intros (m & id & Hc & Hin & Hlive & Hrow).
      assert (Hl : ~ In id (d_del (p_ix p))) by (intros A; apply Hlive; apply in_app_iff; auto). split.
      + exists m, id. auto.
      + apply negb_true_iff. destruct (n =? n0) eqn:En; simpl; auto. apply N.eqb_eq in En. subst n.
        destruct (evalq am q tags) eqn:Ee; auto. exfalso. apply Hlive. apply in_app_iff. right.
        apply (Hkey n0 tags t m id Hc Hin Hl). auto. }
  destruct ids as [| i0 ir] eqn:Eids.
  - (* nothing found: nothing happens *)
    constructor; try apply H. intros n tags t v w. rewrite Habs, List.app_nil_r. reflexivity.
  - rewrite <- Eids in *. clear Eids.
    set (p' := mkP (p_cur p) (p_nextm p) (mkD (d_L (p_ix p)) (d_del (p_ix p) ++ ids) (d_next (p_ix p)) (d_dead (p_ix p)))
                   true (if p_table p then p_idx p else wire_all (p_idx p)) (p_deld p ++ ids) (p_mem p) (p_files p)).
    constructor; fold p'; try solve [apply H]; simpl.
    + unfold dwf. simpl. split; [exact Hwf | split; [exact Hb |]].
      intros id Hin. apply in_app_iff in Hin. destruct Hin as [Hin | Hin]; auto.
      apply Hids in Hin. destruct Hin as (_ & pm & tags & _ & Hin & _). apply (Hb _ Hin).
    + rewrite (li_deld _ _ H). reflexivity.
    + intros k i1 i2 H1 H2 N1 N2. apply (li_one _ _ H k); auto; intros A; [apply N1 | apply N2]; apply in_app_iff; auto.
    + rewrite Hmem0. intros x [].
    + intros k pm Hc. destruct (p_table p); [| rewrite wire_all_fst]; apply (li_curidx _ _ H k pm Hc).
    + split; [discriminate |]. intros _ x Hx. destruct (p_table p) eqn:Et.
      * apply (proj2 (li_wired _ _ H) Et x Hx).
      * eapply wire_all_wired; eauto.
    + intros k id ck Hin Hlive Hc. apply (li_hasrow _ _ H k id ck); auto.
      intros A. apply Hlive. apply in_app_iff. auto.
    + exact Habs.
Qed.

Lemma LI_drop_mst p R n0 : LI p R -> LI (p_drop_mst p n0) (s_drop_mst R n0).
Proof.
  intros H. unfold p_drop_mst. set (dead := map snd (pms p n0)).
  set (keep := fun r : prow => negb (mem (r_m r) dead)).
  set (p' := mkP (filter (fun x => negb (fst (fst x) =? n0)) (p_cur p)) (p_nextm p) (p_ix p) (p_table p) (p_idx p) (p_deld p)
                 (filter keep (p_mem p)) (map (filter keep) (p_files p))).
  assert (Eall : p_all p' = filter keep (p_all p)).
  { unfold p_all, p'. simpl. rewrite concat_filter_map, filter_app. reflexivity. }
  assert (Hkeep : forall a b, same_pt a b = true -> keep a = keep b).
  { intros a b E. apply same_pt_iff in E. destruct E as (E & _). unfold keep. rewrite E. reflexivity. }
  assert (Elww : lww (p_all p') = filter keep (lww (p_all p))) by (rewrite Eall; apply lww_filter; exact Hkeep).
  assert (Hcur : forall k, cur p' k = if fst k =? n0 then None else cur p k).
  { intros k. rewrite !cur_curl. unfold p'. simpl. apply curl_filter. }
  (* a row of an identity of the catalogue is deleted exactly when the identity belongs to the dropped measurement *)
  assert (Hkr : forall x k, cur p k = Some (r_m x) -> keep x = negb (fst k =? n0)).
  { intros x k Hc. unfold keep. destruct (mem (r_m x) dead) eqn:Em; simpl.
    - apply mem_spec in Em. unfold dead in Em. apply in_map_iff in Em. destruct Em as ([g pm] & E & Hin). simpl in E. subst pm.
      apply in_pms in Hin. apply (cur_in_iff _ _ _ _ H) in Hin.
      assert (k = (n0, g)) by (apply (li_cinj _ _ H _ _ (r_m x)); auto). subst k. simpl. rewrite N.eqb_refl. reflexivity.
    - destruct (fst k =? n0) eqn:En; auto. exfalso. apply N.eqb_eq in En. destruct k as [n g]. simpl in En. subst n.
      assert (mem (r_m x) dead = true); [| congruence]. apply mem_spec. unfold dead. apply in_map_iff. exists (g, r_m x). split; auto.
      apply in_pms. apply (cur_in_iff _ _ _ _ H). exact Hc. }
  constructor; fold p'; try solve [apply H].
  - intros x Hx. rewrite Eall in Hx. apply filter_In in Hx. apply (li_rows _ _ H). tauto.
  - intros x Hx. simpl in Hx. apply filter_In in Hx. apply (li_memlive _ _ H). tauto.
  - intros x Hx. simpl in Hx. apply filter_In in Hx. apply (li_cbound _ _ H). tauto.
  - simpl. apply nodup_map_filter. apply (li_cnodup _ _ H).
  - intros k1 k2 m. rewrite !Hcur. destruct (fst k1 =? n0); [discriminate |]. destruct (fst k2 =? n0); [discriminate |].
    apply (li_cinj _ _ H).
  - intros k m. rewrite Hcur. destruct (fst k =? n0); [discriminate |]. apply (li_curidx _ _ H).
  - intros x k Hx. rewrite Eall in Hx. apply filter_In in Hx. rewrite Hcur. destruct (fst k =? n0); [discriminate |].
    apply (li_rowgrp _ _ H). tauto.
  - intros k id ck Hin Hlive Hc. rewrite Hcur in Hc. destruct (fst ck =? n0) eqn:En; [discriminate |].
    destruct (li_hasrow _ _ H k id ck Hin Hlive Hc) as (t & v & w & Hrow). exists t, v, w. rewrite Elww.
    apply filter_In. split; auto. rewrite (Hkr _ ck); simpl; auto. rewrite En. reflexivity.
  - intros n tags t v w. unfold s_drop_mst. rewrite filter_In, (li_abs _ _ H), Elww. simpl. split.
    + intros [(m & id & Hc & Hin & Hlive & Hrow) Hnn]. exists m, id. rewrite Hcur. simpl. apply negb_true_iff in Hnn. rewrite Hnn.
      repeat split; auto. apply filter_In. split; auto. rewrite (Hkr _ (n, grp t)); simpl; auto. rewrite Hnn. reflexivity.
    + intros (m & id & Hc & Hin & Hlive & Hrow). rewrite Hcur in Hc. simpl in Hc. destruct (n =? n0) eqn:En; [discriminate |].
      apply filter_In in Hrow. split; auto. exists m, id. tauto.
Qed.

Lemma LI_read am p R n q x : LI p R -> okq q -> In x (p_read am p n q) <-> In x (s_read am R n q).
Proof.
  intros H Hq. pose proof (li_dwf _ _ H) as (Hwf & _). unfold p_read, s_read, d_T.
  rewrite in_map_iff, in_flat_map. split.
  - intros ([g pm] & Hgm & Hx). simpl in Hx.
    apply in_flat_map in Hx. destruct Hx as (row & Hrow & Hx). apply filter_In in Hrow. destruct Hrow as [Hrow Hf].
    apply andb_true_iff in Hf. destruct Hf as [Hm Hid]. apply N.eqb_eq in Hm. apply mem_spec in Hid.
    rewrite (read_repaired_exact am _ _ pm q _ Hwf Hq) in Hid.
    destruct (proj1 (LI_sel am p R n q g pm _ H) (conj Hgm Hid)) as (Hc & tags & Hin & Hlive & He).
    apply in_map_iff in Hx. destruct Hx as (k & Ex & Hk). apply key_of_sound in Hk.
    rewrite (uniq_id _ _ _ _ (proj1 Hwf) Hk Hin) in Ex.
    assert (Hg : grp (r_t row) = g) by (apply (li_rowgrp _ _ H row (n, g)); [apply lww_in; exact Hrow | rewrite Hm; exact Hc]).
    destruct row as [m id t v w]. simpl in *. subst m g.
    exists (mkL n tags t v w). split; auto. apply filter_In. split.
    + apply (li_abs _ _ H). exists pm, id. auto.
    + unfold named. simpl. rewrite N.eqb_refl, He. reflexivity.
  - intros ([n' tags t v w] & Ex & Hlr). apply filter_In in Hlr. destruct Hlr as [Hin Hnamed].
    unfold named in Hnamed. simpl in *. apply andb_true_iff in Hnamed. destruct Hnamed as [Hn He]. apply N.eqb_eq in Hn. subst n'.
    apply (li_abs _ _ H) in Hin. destruct Hin as (pm & id & Hc & HinL & Hlive & Hrow).
    destruct (proj2 (LI_sel am p R n q (grp t) pm id H)) as [Hgm Hid]; [eauto |].
    exists (grp t, pm). split; [exact Hgm |]. simpl. apply in_flat_map. exists (mkR pm id t v w). split.
    + apply filter_In. split; auto. simpl. rewrite N.eqb_refl. simpl. apply mem_spec.
      rewrite (read_repaired_exact am _ _ pm q _ Hwf Hq). exact Hid.
    + apply in_map_iff. exists (mkS pm tags). split; auto. simpl.
      rewrite (key_of_in _ _ _ (proj1 Hwf) HinL). left. reflexivity.
Qed.

Lemma LI_list am p R n q tg : LI p R -> okq q ->
  In tg (p_list am p n q) <-> In tg (map l_tags (filter (named am n q) R)).
Proof.
  intros H Hq. pose proof (li_dwf _ _ H) as (Hwf & _). unfold p_list, d_T.
  rewrite in_map_iff, in_flat_map. split.
  - intros ([g pm] & Hgm & Hx). simpl in Hx.
    apply in_flat_map in Hx. destruct Hx as (id & Hid & Hx). rewrite (list_ids_exact am _ _ pm q id Hwf Hq) in Hid.
    destruct (proj1 (LI_sel am p R n q g pm _ H) (conj Hgm Hid)) as (Hc & tags & Hin & Hlive & He).
    apply in_map_iff in Hx. destruct Hx as (k & Ex & Hk). apply key_of_sound in Hk.
    rewrite (uniq_id _ _ _ _ (proj1 Hwf) Hk Hin) in Ex. simpl in Ex. subst tg.
    destruct (li_hasrow _ _ H _ id (n, g) Hin Hlive Hc) as (t & v & w & Hrow). simpl in Hrow.
    assert (Hg : grp t = g) by (apply (li_rowgrp _ _ H (mkR pm id t v w) (n, g)); [apply lww_in; exact Hrow | exact Hc]).
    subst g. exists (mkL n tags t v w). split; auto. apply filter_In. split.
    + apply (li_abs _ _ H). exists pm, id. auto.
    + unfold named. simpl. rewrite N.eqb_refl, He. reflexivity.
  - intros ([n' tags t v w] & Ex & Hlr). apply filter_In in Hlr. destruct Hlr as [Hin Hnamed].
    unfold named in Hnamed. simpl in *. apply andb_true_iff in Hnamed. destruct Hnamed as [Hn He]. apply N.eqb_eq in Hn. subst n'.
    apply (li_abs _ _ H) in Hin. destruct Hin as (pm & id & Hc & HinL & Hlive & Hrow).
    destruct (proj2 (LI_sel am p R n q (grp t) pm id H)) as [Hgm Hid]; [eauto |].
    exists (grp t, pm). split; [exact Hgm |]. simpl. apply in_flat_map. exists id. split.
    + rewrite (list_ids_exact am _ _ pm q id Hwf Hq). exact Hid.
    + apply in_map_iff. exists (mkS pm tags). split; auto.
      rewrite (key_of_in _ _ _ (proj1 Hwf) HinL). left. reflexivity.
Qed.

Definition GI (t : tstate) (s : sstate) : Prop := t_dbs t = s_dbs s /\ krel LI (t_pols t) (s_pols s).

Lemma GI_0 : GI t0 s0.
Proof. split; [reflexivity | constructor]. Qed.

Lemma GI_step am t s o : GI t s -> top_ok o -> GI (tstep true true true am t o) (sstep am s o).
Proof.
  intros [Hd Hk] Hok. destruct o; simpl in *; rewrite <- ?Hd.
  - (* create database *) destruct (mem d (t_dbs t)); split; simpl; auto; try congruence.
  - (* create policy *) destruct (mem d (t_dbs t)); split; simpl; auto. apply krel_kins; auto; apply LI_empty.
  - (* write *) split; simpl; auto. apply krel_kupd; auto. intros a b Hab. apply LI_write; auto.
  - (* drop series *) split; simpl; auto. apply krel_kupd; auto. intros a b Hab. apply LI_drop_series; auto.
  - (* drop measurement *) split; simpl; auto. apply krel_kupd; auto. intros a b Hab. apply LI_drop_mst; auto.
  - (* drop policy *) split; simpl; auto. apply krel_kdel; auto.
  - (* drop database *) split; simpl; [congruence |]. apply krel_kdel; auto.
  - (* flush *) split; simpl; auto. apply krel_kupd_l; auto. intros a b. apply LI_flush.
  - (* compact *) split; simpl; auto. apply krel_kupd_l; auto. intros a b. apply LI_compact.
  - (* table sync *) split; simpl; auto. apply krel_kupd_l; auto. intros a b. apply LI_sync.
  - (* restart *) split; simpl; auto. apply krel_kupd_l; auto. intros a b. apply LI_restart.
Qed.

Lemma GI_run am os : forall t s, GI t s -> Forall top_ok os -> GI (trun true true true am t os) (srun am s os).
Proof.
  induction os as [| o r IH]; simpl; intros t s H Hok; auto.
  inversion Hok; subst. apply IH; auto. apply GI_step; auto.
Qed.

(* in every reachable state a location holds a policy exactly when the reference holds rows for it, and the two are related *)
Lemma reach_LI am os d r : Forall top_ok os ->
  match kget (d, r) (t_pols (trun true true true am t0 os)), kget (d, r) (s_pols (srun am s0 os)) with
  | Some p, Some R => LI p R | None, None => True | _, _ => False
  end.
Proof. intros Hok. apply krel_kget, (GI_run am os t0 s0 GI_0 Hok). Qed.

(* THE REFINEMENT: after any sequence of operations, every read shape on every (database, policy, measurement) returns in the
   system model exactly the rows the reference holds for it; so does every listing *)
Theorem tree_refines am os d r n q x : Forall top_ok os -> okq q ->
  In x (tread am (trun true true true am t0 os) d r n q) <-> In x (sread am (srun am s0 os) d r n q).
Proof.
  intros Hok Hq. pose proof (reach_LI am os d r Hok) as Hg. unfold tread, sread.
  destruct (kget (d, r) (t_pols _)), (kget (d, r) (s_pols _)); try contradiction; [| tauto]. apply LI_read; auto.
Qed.

(* ---- consequences on the reference machine (Props.v transports them to the system model by the refinement) *)
Lemma trun_app d f w am t a b : trun d f w am t (a ++ b) = trun d f w am (trun d f w am t a) b.
Proof. unfold trun. apply fold_left_app. Qed.
Lemma srun_app am s a b : srun am s (a ++ b) = srun am (srun am s a) b.
Proof. unfold srun. apply fold_left_app. Qed.

(* one step of the reference at one location: a row of the new state was there before and is not named by the step, or carries
   the stamp of the step (it is the row the step wrote) *)
Lemma sstep_rows am s o k R' x : kget k (s_pols (sstep am s o)) = Some R' -> In x R' ->
  (exists R, kget k (s_pols s) = Some R /\ In x R /\ hit am o (fst k) (snd k) (l_n x) (l_tags x) = false) \/ In (l_w x) (stamp_of o).
Proof.
  destruct k as [d' r']. destruct o; simpl.
  - (* create database *) destruct (mem d (s_dbs s)); simpl; eauto.
  - (* create policy *) destruct (mem d (s_dbs s)); simpl; eauto. destruct (key_eqb (d, r) (d', r')) eqn:Ek.
    + apply key_eqb_eq in Ek. rewrite <- Ek, kget_kins_same. destruct (kget (d, r) (s_pols s)); [eauto | intros [= <-] []].
    + rewrite kget_kins_other; eauto. intros E. rewrite E, key_eqb_refl in Ek. discriminate.
  - (* write *) destruct (key_eqb (d, r) (d', r')) eqn:Ek.
    + apply key_eqb_eq in Ek. rewrite <- Ek, kget_kupd_same. destruct (kget (d, r) (s_pols s)) as [R |]; [| discriminate].
      intros [= <-] Hx. apply in_app_iff in Hx. destruct Hx as [Hx | [<- | []]]; simpl; auto.
      apply filter_In in Hx. left. exists R. tauto.
    + rewrite (kget_kupd_other _ _ _ _ Ek). eauto.
  - (* drop series *) destruct (key_eqb (d, r) (d', r')) eqn:Ek; simpl.
    + apply key_eqb_eq in Ek. rewrite <- Ek, kget_kupd_same. destruct (kget (d, r) (s_pols s)) as [R |]; [| discriminate].
      intros [= <-] Hx. apply filter_In in Hx. destruct Hx as [Hx Hn]. apply negb_true_iff in Hn. unfold named in Hn.
      left. exists R. rewrite N.eqb_sym. auto.
    + rewrite (kget_kupd_other _ _ _ _ Ek). eauto.
  - (* drop measurement *) destruct (key_eqb (d, r) (d', r')) eqn:Ek; simpl.
    + apply key_eqb_eq in Ek. rewrite <- Ek, kget_kupd_same. destruct (kget (d, r) (s_pols s)) as [R |]; [| discriminate].
      intros [= <-] Hx. apply filter_In in Hx. destruct Hx as [Hx Hn]. apply negb_true_iff in Hn.
      left. exists R. rewrite N.eqb_sym. auto.
    + rewrite (kget_kupd_other _ _ _ _ Ek). eauto.
  - (* drop policy *) rewrite kget_kdel. destruct (key_eqb (d, r) (d', r')); [discriminate | eauto].
  - (* drop database *) rewrite kget_kdel. simpl. rewrite (N.eqb_sym d d'). destruct (d' =? d); [discriminate | eauto].
  - (* flush *) eauto.
  - (* compact *) eauto.
  - (* table sync *) eauto.
  - (* restart *) eauto.
Qed.

Lemma srun_rows am os : forall s k R' x, kget k (s_pols (srun am s os)) = Some R' -> In x R' ->
  (exists R, kget k (s_pols s) = Some R /\ In x R) \/ In (l_w x) (flat_map stamp_of os).
Proof.
  induction os as [| o r IH]; simpl; intros s k R' x E Hx; eauto.
  destruct (IH _ _ _ _ E Hx) as [(R1 & E1 & H1) | H]; [| right; apply in_app_iff; auto].
  destruct (sstep_rows am s o k R1 x E1 H1) as [(R & E0 & H0 & _) | H]; eauto. right. apply in_app_iff. auto.
Qed.

(* RE-CREATION IS FRESH / NEW WRITES TO WHAT WAS DROPPED ARE FRESH (reference): whatever a read returns, at any time after a
   drop, from inside what the drop named, carries the stamp of a write that came after the drop *)
Lemma s_after_drop_fresh am ops1 X ops2 d r n q x :
  In x (sread am (srun am s0 (ops1 ++ X :: ops2)) d r n q) ->
  hit am X d r n (o_tags x) = true ->
  In (o_stamp x) (flat_map stamp_of ops2).
Proof.
  unfold sread, s_read. rewrite srun_app. simpl. destruct (kget (d, r) _) as [R' |] eqn:E; [| intros []].
  rewrite in_map_iff. intros (row & <- & Hrow) Hh. apply filter_In in Hrow. destruct Hrow as [Hrow Hn].
  unfold named in Hn. apply andb_true_iff in Hn. destruct Hn as [Hn _]. apply N.eqb_eq in Hn. subst n.
  destruct (srun_rows am ops2 _ _ _ _ E Hrow) as [(R1 & E1 & H1) | H]; [| exact H].
  destruct (sstep_rows am _ X _ R1 row E1 H1) as [(_ & _ & _ & Hf) | H].
  - unfold o_tags in Hh. simpl in *. congruence.
  - destruct X; simpl in *; try discriminate; contradiction.
Qed.

Lemma s_read_filter am (g : lrow -> bool) (h : tagset -> bool) R n q x :
  (forall row, l_n row = n -> g row = h (l_tags row)) ->
  In x (s_read am (filter g R) n q) <-> In x (s_read am R n q) /\ h (o_tags x) = true.
Proof.
  intros Hg. unfold s_read. rewrite !in_map_iff. split.
  - intros (row & Ex & Hin). apply filter_In in Hin. destruct Hin as [Hin Hn]. apply filter_In in Hin. destruct Hin as [Hin Hgr].
    assert (l_n row = n) by (unfold named in Hn; apply andb_true_iff in Hn; destruct Hn as [Hn _]; apply N.eqb_eq; exact Hn).
    split; [exists row; split; auto; apply filter_In; auto |]. subst x. unfold o_tags. simpl. rewrite <- Hg; auto.
  - intros [(row & Ex & Hin) Hh]. apply filter_In in Hin. destruct Hin as [Hin Hn].
    assert (l_n row = n) by (unfold named in Hn; apply andb_true_iff in Hn; destruct Hn as [Hn _]; apply N.eqb_eq; exact Hn).
    exists row. split; auto. apply filter_In. split; auto. apply filter_In. split; auto. rewrite Hg; auto.
    subst x. exact Hh.
Qed.

(* a step that removes rows of one location: every read returns what it returned before minus the rows removed *)
Lemma sread_kupd_filter am s k0 (g : lrow -> bool) (h : tagset -> bool) d r n q x :
  (forall row, l_n row = n -> g row = negb (h (l_tags row))) ->
  In x (sread am (mkSS (s_dbs s) (kupd k0 (filter g) (s_pols s))) d r n q) <->
  In x (sread am s d r n q) /\ key_eqb k0 (d, r) && h (o_tags x) = false.
Proof.
  intros Hg. unfold sread. simpl. destruct (key_eqb k0 (d, r)) eqn:Ek; simpl.
  - apply key_eqb_eq in Ek. subst k0. rewrite kget_kupd_same. destruct (kget (d, r) (s_pols s)) as [R |]; simpl; [| tauto].
    rewrite (s_read_filter am g (fun tags => negb (h tags)) R n q x Hg), negb_true_iff. reflexivity.
  - rewrite (kget_kupd_other _ _ _ _ Ek). tauto.
Qed.

(* EACH DROP REMOVES EXACTLY WHAT IT NAMES (reference): every read of every location returns what it returned before minus
   exactly the rows the drop names *)
Lemma s_drop_exact am s X d r n q x : is_drop X = true ->
  In x (sread am (sstep am s X) d r n q) <-> In x (sread am s d r n q) /\ hit am X d r n (o_tags x) = false.
Proof.
  intros HX. destruct X; try discriminate; simpl.
  - rewrite <- andb_assoc. apply (sread_kupd_filter am s (d0, r0) _ (fun tags => (n0 =? n) && evalq am q0 tags)).
    intros row Hn. unfold named. rewrite Hn, (N.eqb_sym n n0). reflexivity.
  - apply (sread_kupd_filter am s (d0, r0) _ (fun _ => n0 =? n)). intros row Hn. rewrite Hn, (N.eqb_sym n n0). reflexivity.
  - unfold sread. simpl. rewrite kget_kdel. destruct (key_eqb (d0, r0) (d, r)); [| tauto]. split; [intros [] | intros [_ E]; discriminate].
  - unfold sread. simpl. rewrite kget_kdel. simpl. rewrite (N.eqb_sym d d0). destruct (d0 =? d); [| tauto].
    split; [intros [] | intros [_ E]; discriminate].
Qed.

(* flush / compaction / restart / table sync anywhere in a history are invisible (reference: by definition) *)
Lemma s_invisible am s o : invisible o = true -> sstep am s o = s.
Proof. destruct o; simpl; auto; discriminate. Qed.

(* a write into an existing policy is visible to every read whose predicate its tags satisfy, with its value *)
Lemma s_write_visible am s d r n tags t v w q : kget (d, r) (s_pols s) <> None -> evalq am q tags = true ->
  In (tags, t, v, w) (sread am (sstep am s (TWrite d r n tags t v w)) d r n q).
Proof.
  intros Hex He. unfold sread. simpl. rewrite kget_kupd_same. destruct (kget (d, r) (s_pols s)) as [R |]; [| congruence]. simpl.
  unfold s_read, s_write. apply in_map_iff. exists (mkL n tags t v w). split; auto. apply filter_In. split.
  - apply in_app_iff. right. left. reflexivity.
  - unfold named. simpl. rewrite N.eqb_refl, He. reflexivity.
Qed.
