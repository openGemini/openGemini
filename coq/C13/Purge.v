(* C13 - the physical purge of dropped series from one part of the index table
   (lib/util/lifted/vm/mergeset/table.go: genTempPart, isDeleted; finding C13-purge-loses-live-items).
   The part's items are read in order; an item that is "deleted" is skipped, the others are appended to an in-memory block of at
   most [cap] bytes; when an item does not fit the block is flushed to the new part.
   _current is /repo before 22be654, _repaired what it does since.
   * block-full path. _current: after the flush the loop CONTINUES - the item that did not fit is never added.
                      _repaired: the item is added to the emptied block.
   * tag->ids rows hold up to 64 ids. _current: a row is deleted iff its LAST id is deleted (isDeleted looks at the last 8 bytes).
                      _repaired: the row is rewritten with its ids that are not deleted and dropped when none is left.
   An item is (head, ids): its size is [hsz head + 8 * length ids]; key->id and id->key items have one id, other items none. *)
From Coq Require Import NArith List Bool Lia.
Import ListNotations.
Open Scope N_scope.

Section Purge.
  Variable H : Type.                        (* the bytes of an item that are not ids *)
  Variable hsz : H -> N.
  Variable del : N -> bool.                 (* the deleted-id set *)
  Variable cap : N.

  Definition item := (H * list N)%type.
  Definition isz (x : item) : N := hsz (fst x) + 8 * N.of_nat (length (snd x)).

  (* what happens to one item *)
  Definition keep_current (x : item) : option item :=
    match rev (snd x) with
    | last :: _ => if del last then None else Some x
    | [] => Some x
    end.
  Definition keep_repaired (x : item) : option item :=
    match snd x with
    | [] => Some x
    | ids => match filter (fun i => negb (del i)) ids with [] => None | l => Some (fst x, l) end
    end.

  (* the block loop: [blk] current block (reversed), [used] its bytes, [out] flushed blocks (reversed) *)
  Fixpoint pack (readd : bool) (keep : item -> option item) (l : list item) (blk : list item) (used : N) (out : list (list item))
    : list (list item) :=
    match l with
    | [] => rev (rev blk :: out)
    | x :: r =>
        match keep x with
        | None => pack readd keep r blk used out
        | Some y =>
            if used + isz y <=? cap then pack readd keep r (y :: blk) (used + isz y) out
            else if readd then pack readd keep r [y] (isz y) (rev blk :: out)
                 else pack readd keep r [] 0 (rev blk :: out)
        end
    end.
  Definition purge_current (l : list item) : list item := concat (pack false keep_current l [] 0 []).
  Definition purge_repaired (l : list item) : list item := concat (pack true keep_repaired l [] 0 []).

  (* the specification: every item with exactly its ids that are not deleted, in order; rows left without ids disappear *)
  Definition purge_spec (l : list item) : list item := flat_map (fun x => match keep_repaired x with Some y => [y] | None => [] end) l.

  Lemma concat_rev_cons (out : list (list item)) blk :
    concat (rev (blk :: out)) = concat (rev out) ++ blk.
  Proof. simpl. rewrite concat_app. simpl. rewrite app_nil_r. reflexivity. Qed.

  Lemma pack_repaired l : forall blk used out,
    concat (pack true keep_repaired l blk used out) = concat (rev out) ++ rev blk ++ purge_spec l.
  Proof.
    induction l as [| x r IH]; intros blk used out; simpl.
    - rewrite concat_app. simpl. rewrite !app_nil_r. reflexivity.
    - destruct (keep_repaired x) as [y |]; simpl; [| apply IH].
      destruct (used + isz y <=? cap).
      + rewrite IH. simpl. rewrite <- !app_assoc. reflexivity.
      + rewrite IH. simpl. rewrite concat_app. simpl. rewrite app_nil_r, <- !app_assoc. reflexivity.
  Qed.

  (* the flushed blocks stay within the capacity as long as every single item fits *)
  Definition bsz (b : list item) : N := fold_right (fun x a => isz x + a) 0 b.
  Lemma bsz_rev_cons y blk : bsz (rev (y :: blk)) = bsz (rev blk) + isz y.
  Proof.
    simpl. generalize (rev blk). intros l. induction l as [| a r IH]; simpl; [lia |]. rewrite IH. lia.
  Qed.
  Lemma pack_blocks l : forall blk used out,
    (forall x y, In x l -> keep_repaired x = Some y -> isz y <= cap) ->
    used = bsz (rev blk) -> used <= cap -> Forall (fun b => bsz b <= cap) out ->
    Forall (fun b => bsz b <= cap) (pack true keep_repaired l blk used out).
  Proof.
    induction l as [| x r IH]; intros blk used out Hfit Hu Hc Ho; simpl.
    - apply Forall_app. split; [apply Forall_rev; exact Ho |]. constructor; auto. rewrite <- Hu. exact Hc.
    - destruct (keep_repaired x) as [y |] eqn:Ek.
      + destruct (used + isz y <=? cap) eqn:E.
        * apply IH; auto.
          -- intros a b Ha. apply Hfit. right. exact Ha.
          -- rewrite bsz_rev_cons. lia.
          -- apply N.leb_le. exact E.
        * apply IH; auto.
          -- intros a b Ha. apply Hfit. right. exact Ha.
          -- simpl. lia.
          -- apply (Hfit x y); auto. left. reflexivity.
          -- constructor; auto. rewrite <- Hu. exact Hc.
      + apply IH; auto. intros a b Ha. apply Hfit. right. exact Ha.
  Qed.
End Purge.

(* ---- the purge pass over a whole table and the deleted-series table (finding C13-purge-forgets-ids-of-skipped-parts).
   A part that is being merged is left alone by the pass (RemoveItemsByDelTsidsFromParts skips isInMerge parts); afterwards
   IndexBuilder.DropSeries discards the flushed part of the deleted-series table (RemoveDeletedPart).
   _current (/repo before 544468e): it discards it whenever the pass returned no error - also when parts were skipped: their items of dropped series are
   then no longer hidden after the next restart.  _repaired (since): it keeps the ids unless every part was filtered. *)
Section PurgePass.
  Definition tpart := (bool * list N)%type.            (* being merged?, the series ids its items carry *)
  Record ptable := mkPT { pt_parts : list tpart; pt_deleted : list N }.   (* index parts, ids in the deleted-series table on disk *)
  Definition nmem (x : N) (l : list N) : bool := existsb (N.eqb x) l.

  Definition purge_pass (keep_when_skipped : bool) (t : ptable) : ptable :=
    let del := pt_deleted t in
    let parts' := map (fun p : tpart => if fst p then p else (false, filter (fun i => negb (nmem i del)) (snd p))) (pt_parts t) in
    let skipped := existsb (fun p : tpart => fst p) (pt_parts t) in
    mkPT parts' (if keep_when_skipped && skipped then del else []).

  (* what a search returns after a restart: the ids of the parts that the deleted-series table does not hide *)
  Definition visible_ids (t : ptable) : list N := filter (fun i => negb (nmem i (pt_deleted t))) (flat_map snd (pt_parts t)).

  Lemma nmem_in x l : nmem x l = true <-> In x l.
  Proof.
    unfold nmem. rewrite existsb_exists. split.
    - intros (y & Hy & E). apply N.eqb_eq in E. subst. exact Hy.
    - intros Hin. exists x. split; auto. apply N.eqb_refl.
  Qed.

End PurgePass.
