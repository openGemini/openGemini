(* C13 - item-level correspondence of the purge model (C13/Purge.v) with the real mergeset table: the harness dumps the items of every
   part before the purge (head, bytes outside the ids, ids) and the content of the table after it; the model computes, for each of
   its variants, what the new parts hold. Storage details that are not the model's business (adjacent tag->ids rows are merged
   again when a block is flushed; the order of parts) are factored out by comparing the SET of (head, id) pairs (id 0 = an item
   without ids). Heads and ids are interned by the harness (ids from 1). *)
From Coq Require Import NArith List Bool Sorting.Mergesort Orders.
From OG Require Import C10.Model C13.Purge.
Import ListNotations.
Open Scope N_scope.

Definition phead := (N * N)%type.                       (* interned head, number of bytes of the item outside its ids *)
Definition pitem := item phead.
Definition hsz (h : phead) : N := snd h.

Module PairOrder <: TotalLeBool.
  Definition t := (N * N)%type.
  Definition leb (a b : t) : bool := (fst a <? fst b) || ((fst a =? fst b) && (snd a <=? snd b)).
  Theorem leb_total : forall a b, leb a b = true \/ leb b a = true.
  Proof.
    intros [a1 a2] [b1 b2]. unfold leb. simpl. destruct (N.lt_trichotomy a1 b1) as [H | [-> | H]].
    - left. apply N.ltb_lt in H. rewrite H. reflexivity.
    - rewrite N.eqb_refl, N.ltb_irrefl. simpl.
      destruct (N.leb_spec a2 b2) as [H | H]; [left; reflexivity | right; apply N.leb_le, N.lt_le_incl, H].
    - right. apply N.ltb_lt in H. rewrite H. reflexivity.
  Qed.
End PairOrder.
Module PairSort := Sort PairOrder.

Fixpoint dedup_sorted (l : list (N * N)) : list (N * N) :=
  match l with
  | a :: ((b :: _) as r) => if (fst a =? fst b) && (snd a =? snd b) then dedup_sorted r else a :: dedup_sorted r
  | _ => l
  end.
Definition canon (l : list (N * N)) : list (N * N) := dedup_sorted (PairSort.sort l).
Fixpoint pairs_eqb (a b : list (N * N)) : bool :=
  match a, b with
  | [], [] => true
  | x :: r, y :: s => (fst x =? fst y) && (snd x =? snd y) && pairs_eqb r s
  | _, _ => false
  end.

Definition flat (l : list pitem) : list (N * N) :=
  flat_map (fun x => match snd x with [] => [(fst (fst x), 0)] | ids => map (fun i => (fst (fst x), i)) ids end) l.

(* cap, deleted ids, the parts' items before the purge, the (head, id) pairs of the table after it *)
Record pcase := mkPC { pc_cap : N; pc_del : list N; pc_parts : list (list pitem); pc_after : list (N * N) }.

(* readd: the item that did not fit is re-added; rows: tag->ids rows are filtered id by id *)
Definition model_after (readd rows : bool) (c : pcase) : list (N * N) :=
  let del := fun i => mem i (pc_del c) in
  flat_map (fun items => flat (concat (pack phead hsz (pc_cap c) readd
                                            (if rows then keep_repaired phead del else keep_current phead del) items [] 0 [])))
           (pc_parts c).
Definition purge_agrees (readd rows : bool) (c : pcase) : bool := pairs_eqb (canon (model_after readd rows c)) (canon (pc_after c)).
(* which variants reproduce the table: (/repo before 22be654, re-add only, rows only, both repairs = /repo since), and sizes for the report *)
Definition purge_verdict (c : pcase) : (bool * bool * bool * bool) * (N * N * N) :=
  ((purge_agrees false false c, purge_agrees true false c, purge_agrees false true c, purge_agrees true true c),
   (N.of_nat (length (canon (pc_after c))), N.of_nat (length (canon (model_after false false c))),
    N.of_nat (length (canon (model_after true true c))))).
