(* C13 correspondence evaluator: replays a black-box history on the model and compares, read by read, the set of series keys
   the server returned rows for with the set the model's read path selects. Strings interned by the driver. *)
From Coq Require Import NArith List Bool.
From OG Require Import C10.Model C13.Model.
Import ListNotations.
Open Scope N_scope.

Inductive kop :=
| KWrite (k : series)
| KDropSeries (m : N) (q : option expr)
| KDropMeasurement (m : N)
(* path: 0 = a select-path shape, 1 = a listing; primed: the identical tag filter was evaluated before the last DROP SERIES
   (its cached answer may still be served for some seconds); obs: series keys seen in the answer *)
| KRead (path : N) (primed : bool) (m : N) (q : option expr) (obs : list series)
(* conditioned listings: tag values of key k / tag keys, of the series of m selected by q *)
| KVals (m k : N) (q : option expr) (obs : list N)
| KKeys (m : N) (q : option expr) (obs : list N).

Definition pair_mem (tab : list (N * N)) (a b : N) : bool := existsb (fun x => (fst x =? a) && (snd x =? b)) tab.
Definition smem (s : series) (l : list series) : bool := existsb (series_eqb s) l.
Definition sset_eqb (a b : list series) : bool := forallb (fun x => smem x b) a && forallb (fun x => smem x a) b.
Definition nset_eqb (a b : list N) : bool := forallb (fun x => mem x b) a && forallb (fun x => mem x a) b.
Definition keys_of (L : list entry) (ids : list N) : list series := flat_map (key_of L) ids.

Record ctab := mkT { t_am : list (N * N); t_orv : list N; t_ord : list (N * N) }.

(* ca: all-of-measurement leaf as before /repo b717b86 (all_current); co: exact-value lookups as before b717b86 *)
Definition model_read (ca co : bool) (t : ctab) (s : dstate) (del : list N) (path m : N) (q : option expr) : list series :=
  let am := pair_mem (t_am t) in
  let ids :=
    if path =? 1 then list_ids am (d_T s) del m q
    else match q with
         | None => if ca then all_current (pair_mem (t_ord t)) (d_T s) del m else all_repaired (d_T s) del m
         | Some e => dsearch am (fun p => mem p (t_orv t)) (if ca then all_current (pair_mem (t_ord t)) else all_repaired)
                            (negb co) (d_T s) del m e
         end in
  keys_of (d_L s) ids.

Fixpoint check_ops (ca co : bool) (t : ctab) (k : nat) (s : dstate) (prev : list N) (os : list kop) : list nat :=
  match os with
  | [] => []
  | KWrite x :: r => check_ops ca co t (S k) (fst (write s x)) prev r
  | KDropSeries m q :: r => check_ops ca co t (S k) (drop_series (pair_mem (t_am t)) s m q) (d_del s) r
  | KDropMeasurement m :: r => check_ops ca co t (S k) (drop_measurement s m) prev r
  | KRead path primed m q obs :: r =>
      let ok := sset_eqb (model_read ca co t s (d_del s) path m q) obs ||
                (primed && sset_eqb (model_read ca co t s prev path m q) obs) in
      (if ok then [] else [k]) ++ check_ops ca co t (S k) s prev r
  | KVals m key q obs :: r =>
      (if nset_eqb (list_tag_values_where (pair_mem (t_am t)) (d_T s) (d_del s) m key q) obs then [] else [k])
      ++ check_ops ca co t (S k) s prev r
  | KKeys m q obs :: r =>
      (if nset_eqb (list_tag_keys_where (pair_mem (t_am t)) (d_T s) (d_del s) m q) obs then [] else [k])
      ++ check_ops ca co t (S k) s prev r
  end.

Definition ccase := (ctab * list kop)%type.
Definition check_case (ca co : bool) (c : ccase) : list nat := check_ops ca co (fst c) 0 (mkD [] [] 0 []) [] (snd c).
Fixpoint mismatches_from (ca co : bool) (k : nat) (cs : list ccase) : list (nat * nat) :=
  match cs with
  | [] => []
  | c :: r => map (fun x => (k, x)) (check_case ca co c) ++ mismatches_from ca co (S k) r
  end.
Definition mismatches (ca co : bool) := mismatches_from ca co 0.
