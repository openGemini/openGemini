(* C13 - the whole statement as one machine: databases -> retention policies -> measurements (incarnations) -> series index
   with the deleted-id set -> points in memtable / files. Two machines over the same operations:
   * the SYSTEM model [tstate]: per (database, policy) a [policy] record = the catalogue's live measurements with, per index
     group (one series index per week of data), the physical identity of their current incarnation in that index (name_version
     inside that index: a re-created measurement gets identities that were never used before), the series indexes of
     C13.Model (entries, the policy's deleted ids, id generator), which indexes exist and whether each is wired to the policy's
     deleted-series table (an index that is not wired consults an empty set), the durable copy of that table, memtable rows and
     immutable files (rows are stored under physical identity + series id; a read merges files and memtable, newest wins).
     Flush, compaction, restart (wiring, WAL replay) and the persistence of the deleted-series table are real steps.
   * the REFERENCE machine [sstate]: per (database, policy) the list of visible rows (measurement name, tags, time, value) -
     exactly the reference map of the black-box harness. Drops filter it, flush / compaction / restart do not touch it.
   TreeProofs.v proves that every read of the system model equals the read of the reference for every operation sequence.
   Every row carries the stamp [w] of the write operation that produced it (ghost: nothing depends on it); it lets the
   theorems say "the data that was dropped" as opposed to equal-looking data written later. *)
From Coq Require Import NArith List Bool.
From OG Require Import C10.Model C13.Model.
Import ListNotations.
Open Scope N_scope.

(* ---- association lists keyed by (database, policy) *)
Definition key := (N * N)%type.
Definition key_eqb (a b : key) : bool := (fst a =? fst b) && (snd a =? snd b).
Definition kget {V} (k : key) (l : list (key * V)) : option V :=
  match find (fun kv => key_eqb (fst kv) k) l with Some kv => Some (snd kv) | None => None end.
Definition kupd {V} (k : key) (f : V -> V) (l : list (key * V)) : list (key * V) :=
  map (fun kv => if key_eqb (fst kv) k then (fst kv, f (snd kv)) else kv) l.
Definition kdel {V} (P : key -> bool) (l : list (key * V)) : list (key * V) := filter (fun kv => negb (P (fst kv))) l.
Definition khas {V} (k : key) (l : list (key * V)) : bool := existsb (fun kv => key_eqb (fst kv) k) l.
Definition kins {V} (k : key) (v : V) (l : list (key * V)) : list (key * V) := if khas k l then l else l ++ [(k, v)].

(* ---- stored rows: physical measurement, series id, time, value, stamp of the write *)
Record prow := mkR { r_m : N; r_id : N; r_t : N; r_v : N; r_w : N }.
Definition same_pt (a b : prow) : bool := (r_m a =? r_m b) && (r_id a =? r_id b) && (r_t a =? r_t b).
(* merged view of a sequence of rows, oldest first: the newest row of a point wins *)
Fixpoint lww (l : list prow) : list prow :=
  match l with
  | [] => []
  | x :: r => if existsb (same_pt x) r then lww r else x :: lww r
  end.

(* one series index per index time range ("index group": a week of data by default); the harness shifts its times so that the
   model's ranges are the server's *)
Definition index_span : N := 604800.
Definition grp (t : N) : N := t / index_span.

Definition ckey := (N * N)%type.                       (* measurement name, index group *)
Definition ckey_eqb (a b : ckey) : bool := (fst a =? fst b) && (snd a =? snd b).

Record policy := mkP {
  p_cur : list (ckey * N);       (* live measurements, per index group: (name, group) -> physical identity of the incarnation's
                                    items in that group's index (name_version inside that index; never reused) *)
  p_nextm : N;                   (* generator of physical identities *)
  p_ix : dstate;                 (* the series indexes of the policy (all groups; a physical identity belongs to one group):
                                    key -> id entries, the policy's deleted ids (in memory), id generator *)
  p_table : bool;                (* the policy's deleted-series table exists (created by the first DROP SERIES that finds
                                    something, or opened at a restart with data) *)
  p_idx : list (N * bool);       (* the index groups that exist: group, wired to the deleted-series table? An index that is not
                                    wired consults an empty deleted set *)
  p_deld : list N;               (* deleted ids that have reached a part of the deleted-series table on disk *)
  p_mem : list prow;             (* memtable (covered by the WAL: acknowledged rows survive a crash) *)
  p_files : list (list prow)     (* immutable files, oldest first *)
}.
Definition empty_policy : policy := mkP [] 0 (mkD [] [] 0 []) false [] [] [] [].
Definition p_all (p : policy) : list prow := concat (p_files p) ++ p_mem p.
Definition cur (p : policy) (k : ckey) : option N :=
  match find (fun x => ckey_eqb (fst x) k) (p_cur p) with Some x => Some (snd x) | None => None end.
(* the incarnation's (group, physical identity) pairs *)
Definition pms (p : policy) (n : N) : list (N * N) :=
  map (fun x => (snd (fst x), snd x)) (filter (fun x => fst (fst x) =? n) (p_cur p)).
Definition wiredb (p : policy) (g : N) : bool := existsb (fun x => (fst x =? g) && snd x) (p_idx p).
(* the deleted set the searches of group g's index consult *)
Definition eff (p : policy) (g : N) : list N := if wiredb p g then d_del (p_ix p) else [].
Definition wire_all (l : list (N * bool)) : list (N * bool) := map (fun x => (fst x, true)) l.

(* a write goes to the index of its time's group: the index is created if it does not exist ([wirenew] = wired to the policy's
   deleted-series table at creation when that table exists: _repaired, /repo since 23cb1db; never: _current), the measurement gets an identity in that
   index if it has none, the series key is looked up (a dropped id does not count: C13.Model.write), the row goes to the memtable *)
Definition ensure_idx (wirenew : bool) (p : policy) (g : N) : policy :=
  if existsb (fun x => fst x =? g) (p_idx p) then p
  else mkP (p_cur p) (p_nextm p) (p_ix p) (p_table p) (p_idx p ++ [(g, wirenew && p_table p)]) (p_deld p) (p_mem p) (p_files p).
Definition ensure_mst (p : policy) (k : ckey) : policy * N :=
  match cur p k with
  | Some pm => (p, pm)
  | None => let pm := p_nextm p + 1 in
            (mkP (p_cur p ++ [(k, pm)]) pm (p_ix p) (p_table p) (p_idx p) (p_deld p) (p_mem p) (p_files p), pm)
  end.
Definition p_write (wirenew : bool) (p : policy) (n : N) (tags : tagset) (t v w : N) : policy :=
  let p0 := ensure_idx wirenew p (grp t) in
  let p1 := fst (ensure_mst p0 (n, grp t)) in
  let pm := snd (ensure_mst p0 (n, grp t)) in
  let r := write (p_ix p1) (mkS pm tags) in
  mkP (p_cur p1) (p_nextm p1) (fst r) (p_table p1) (p_idx p1) (p_deld p1) (p_mem p1 ++ [mkR pm (snd r) t v w]) (p_files p1).

Definition p_flush (p : policy) : policy :=
  mkP (p_cur p) (p_nextm p) (p_ix p) (p_table p) (p_idx p) (p_deld p) [] (p_files p ++ [p_mem p]).

(* DROP SERIES: every index of the policy is searched (the listing path, with the deleted set that index consults) and the ids
   found are recorded in the policy's deleted-series table - which is created, and wired to the indexes that exist, when there is
   none yet and something was found. [durable] = the ids are in a part on disk before the statement is acknowledged (_repaired, /repo since b25e346)
   or only after the next flush of the table, [p_sync] (_current); [flushfirst] = the memtable is flushed before the ids are
   searched and recorded (_repaired, /repo since d904bb8: no row written before the drop is left in the WAL) or not (_current) *)
Definition p_drop_series (durable flushfirst : bool) (am : N -> N -> bool) (p0 : policy) (n : N) (q : option expr) : policy :=
  let p := if flushfirst then p_flush p0 else p0 in
  let ids := flat_map (fun gm : N * N => list_ids am (d_T (p_ix p)) (eff p (fst gm)) (snd gm) q) (pms p n) in
  match ids with
  | [] => p
  | _ => mkP (p_cur p) (p_nextm p)
             (mkD (d_L (p_ix p)) (d_del (p_ix p) ++ ids) (d_next (p_ix p)) (d_dead (p_ix p)))
             true (if p_table p then p_idx p else wire_all (p_idx p))
             (if durable then p_deld p ++ ids else p_deld p) (p_mem p) (p_files p)
  end.
Definition p_sync (p : policy) : policy :=
  mkP (p_cur p) (p_nextm p) (p_ix p) (p_table p) (p_idx p) (d_del (p_ix p)) (p_mem p) (p_files p).

(* DROP MEASUREMENT: the catalogue forgets the incarnation, the store deletes its memtable rows and files; its index items
   stay (they are purged lazily) - they are unreachable because no later incarnation has the same physical identities *)
Definition p_drop_mst (p : policy) (n : N) : policy :=
  let dead := map snd (pms p n) in
  let keep := fun r : prow => negb (mem (r_m r) dead) in
  mkP (filter (fun x => negb (fst (fst x) =? n)) (p_cur p)) (p_nextm p) (p_ix p) (p_table p) (p_idx p) (p_deld p)
      (filter keep (p_mem p)) (map (filter keep) (p_files p)).

(* compaction / merge of k adjacent files starting at file i into one file holding the newest row of every point *)
Definition p_compact (p : policy) (i k : nat) : policy :=
  let fs := p_files p in
  mkP (p_cur p) (p_nextm p) (p_ix p) (p_table p) (p_idx p) (p_deld p) (p_mem p)
      (firstn i fs ++ [lww (concat (firstn k (skipn i fs)))] ++ skipn k (skipn i fs)).
(* restart (clean or kill -9): the deleted-series table is opened when the policy has an index, every index is wired to it, the
   in-memory deleted set is reloaded from the table on disk; the memtable is rebuilt by replaying the WAL: a WAL row carries its
   series KEY, and the replay looks the key up like any write - a row whose id is recorded as deleted gets a fresh id. (Index
   entries and files are on disk.) *)
Definition replay_row (st : dstate * list prow) (x : prow) : dstate * list prow :=
  match key_of (d_L (fst st)) (r_id x) with
  | k :: _ => let r := write (fst st) k in (fst r, snd st ++ [mkR (r_m x) (snd r) (r_t x) (r_v x) (r_w x)])
  | [] => (fst st, snd st ++ [x])
  end.
Definition p_restart (p : policy) : policy :=
  let ix0 := mkD (d_L (p_ix p)) (p_deld p) (d_next (p_ix p)) (d_dead (p_ix p)) in
  let st := fold_left replay_row (p_mem p) (ix0, []) in
  mkP (p_cur p) (p_nextm p) (fst st)
      (match p_idx p with [] => p_table p | _ => true end) (match p_idx p with [] => [] | l => wire_all l end)
      (p_deld p) (snd st) (p_files p).

(* a read of measurement n with tag predicate q (None: plain select / field filter / group by / aggregates): for every index
   group in which the measurement has an identity, the rows of the merged view that belong to it and whose id the read path of
   that index selects; reported with the tags of the id *)
Definition orow := (tagset * N * N * N)%type.            (* tags, time, value, stamp *)
Definition p_read (am : N -> N -> bool) (p : policy) (n : N) (q : option expr) : list orow :=
  flat_map (fun gm : N * N =>
    let ids := read_repaired am (d_T (p_ix p)) (eff p (fst gm)) (snd gm) q in
    flat_map (fun r => map (fun k => (s_tags k, r_t r, r_v r, r_w r)) (key_of (d_L (p_ix p)) (r_id r)))
             (filter (fun r => (r_m r =? snd gm) && mem (r_id r) ids) (lww (p_all p))))
    (pms p n).
(* the listing path (show series / tag values / tag keys start from it): series keys of the ids it selects, in every index *)
Definition p_list (am : N -> N -> bool) (p : policy) (n : N) (q : option expr) : list tagset :=
  flat_map (fun gm : N * N =>
    flat_map (fun id => map s_tags (key_of (d_L (p_ix p)) id)) (list_ids am (d_T (p_ix p)) (eff p (fst gm)) (snd gm) q))
    (pms p n).

(* ---- the system *)
Record tstate := mkTS { t_dbs : list N; t_pols : list (key * policy) }.
Definition t0 : tstate := mkTS [] [].

Inductive top :=
| TCreateDB (d : N)
| TCreateRP (d r : N)
| TWrite (d r n : N) (tags : tagset) (t v w : N)
| TDropSeries (d r n : N) (q : option expr)
| TDropMst (d r n : N)
| TDropRP (d r : N)
| TDropDB (d : N)
| TFlush (d r : N)
| TCompact (d r : N) (i k : nat)
| TSync (d r : N)                     (* the deleted-id table of the policy flushes its pending items *)
| TRestart (d r : N).

Definition tstep (durable flushfirst wirenew : bool) (am : N -> N -> bool) (s : tstate) (o : top) : tstate :=
  match o with
  | TCreateDB d => if mem d (t_dbs s) then s else mkTS (t_dbs s ++ [d]) (t_pols s)
  | TCreateRP d r => if mem d (t_dbs s) then mkTS (t_dbs s) (kins (d, r) empty_policy (t_pols s)) else s
  | TWrite d r n tags t v w => mkTS (t_dbs s) (kupd (d, r) (fun p => p_write wirenew p n tags t v w) (t_pols s))
  | TDropSeries d r n q => mkTS (t_dbs s) (kupd (d, r) (fun p => p_drop_series durable flushfirst am p n q) (t_pols s))
  | TDropMst d r n => mkTS (t_dbs s) (kupd (d, r) (fun p => p_drop_mst p n) (t_pols s))
  | TDropRP d r => mkTS (t_dbs s) (kdel (key_eqb (d, r)) (t_pols s))
  | TDropDB d => mkTS (filter (fun x => negb (x =? d)) (t_dbs s)) (kdel (fun k => fst k =? d) (t_pols s))
  | TFlush d r => mkTS (t_dbs s) (kupd (d, r) p_flush (t_pols s))
  | TCompact d r i k => mkTS (t_dbs s) (kupd (d, r) (fun p => p_compact p i k) (t_pols s))
  | TSync d r => mkTS (t_dbs s) (kupd (d, r) p_sync (t_pols s))
  | TRestart d r => mkTS (t_dbs s) (kupd (d, r) p_restart (t_pols s))
  end.
Definition trun (durable flushfirst wirenew : bool) (am : N -> N -> bool) (s : tstate) (os : list top) : tstate :=
  fold_left (tstep durable flushfirst wirenew am) os s.

Definition tread (am : N -> N -> bool) (s : tstate) (d r n : N) (q : option expr) : list orow :=
  match kget (d, r) (t_pols s) with Some p => p_read am p n q | None => [] end.
Definition tlist (am : N -> N -> bool) (s : tstate) (d r n : N) (q : option expr) : list tagset :=
  match kget (d, r) (t_pols s) with Some p => p_list am p n q | None => [] end.

(* ---- the reference machine *)
Record lrow := mkL { l_n : N; l_tags : tagset; l_t : N; l_v : N; l_w : N }.
Definition tagset_eqb (a b : tagset) : bool := if tagset_eq_dec a b then true else false.
Definition same_lpt (n : N) (tags : tagset) (t : N) (x : lrow) : bool := (l_n x =? n) && tagset_eqb (l_tags x) tags && (l_t x =? t).
Definition s_write (R : list lrow) (n : N) (tags : tagset) (t v w : N) : list lrow :=
  filter (fun x => negb (same_lpt n tags t x)) R ++ [mkL n tags t v w].
Definition named (am : N -> N -> bool) (n : N) (q : option expr) (x : lrow) : bool := (l_n x =? n) && evalq am q (l_tags x).
Definition s_drop_series (am : N -> N -> bool) (R : list lrow) (n : N) (q : option expr) : list lrow :=
  filter (fun x => negb (named am n q x)) R.
Definition s_drop_mst (R : list lrow) (n : N) : list lrow := filter (fun x => negb (l_n x =? n)) R.

Record sstate := mkSS { s_dbs : list N; s_pols : list (key * list lrow) }.
Definition s0 : sstate := mkSS [] [].
Definition sstep (am : N -> N -> bool) (s : sstate) (o : top) : sstate :=
  match o with
  | TCreateDB d => if mem d (s_dbs s) then s else mkSS (s_dbs s ++ [d]) (s_pols s)
  | TCreateRP d r => if mem d (s_dbs s) then mkSS (s_dbs s) (kins (d, r) [] (s_pols s)) else s
  | TWrite d r n tags t v w => mkSS (s_dbs s) (kupd (d, r) (fun R => s_write R n tags t v w) (s_pols s))
  | TDropSeries d r n q => mkSS (s_dbs s) (kupd (d, r) (fun R => s_drop_series am R n q) (s_pols s))
  | TDropMst d r n => mkSS (s_dbs s) (kupd (d, r) (fun R => s_drop_mst R n) (s_pols s))
  | TDropRP d r => mkSS (s_dbs s) (kdel (key_eqb (d, r)) (s_pols s))
  | TDropDB d => mkSS (filter (fun x => negb (x =? d)) (s_dbs s)) (kdel (fun k => fst k =? d) (s_pols s))
  | TFlush _ _ | TCompact _ _ _ _ | TSync _ _ | TRestart _ _ => s
  end.
Definition srun (am : N -> N -> bool) (s : sstate) (os : list top) : sstate := fold_left (sstep am) os s.

Definition s_read (am : N -> N -> bool) (R : list lrow) (n : N) (q : option expr) : list orow :=
  map (fun x => (l_tags x, l_t x, l_v x, l_w x)) (filter (named am n q) R).
Definition sread (am : N -> N -> bool) (s : sstate) (d r n : N) (q : option expr) : list orow :=
  match kget (d, r) (s_pols s) with Some R => s_read am R n q | None => [] end.
Definition slist (am : N -> N -> bool) (s : sstate) (d r n : N) (q : option expr) : list tagset :=
  match kget (d, r) (s_pols s) with Some R => map l_tags (filter (named am n q) R) | None => [] end.

(* every row of the reference state with its location: (database, policy, row) *)
Definition srows (s : sstate) : list (key * lrow) := flat_map (fun kv => map (fun x => (fst kv, x)) (snd kv)) (s_pols s).

(* what an operation is allowed to carry: well-formed tag sets / predicates (as the parser and the line protocol guarantee) *)
Definition top_ok (o : top) : Prop :=
  match o with
  | TWrite _ _ _ tags _ _ _ => wf_tags tags
  | TDropSeries _ _ _ q => okq q
  | _ => True
  end.
Definition stamp_of (o : top) : list N := match o with TWrite _ _ _ _ _ _ w => [w] | _ => [] end.

(* the drops, and which rows (by location and tags) a drop names *)
Definition is_drop (o : top) : bool :=
  match o with TDropSeries _ _ _ _ | TDropMst _ _ _ | TDropRP _ _ | TDropDB _ => true | _ => false end.
Definition hit (am : N -> N -> bool) (o : top) (d' r' n' : N) (tags : tagset) : bool :=
  match o with
  | TDropSeries d r n q => key_eqb (d, r) (d', r') && (n =? n') && evalq am q tags
  | TDropMst d r n => key_eqb (d, r) (d', r') && (n =? n')
  | TDropRP d r => key_eqb (d, r) (d', r')
  | TDropDB d => d =? d'
  | _ => false
  end.
(* operations no read may notice *)
Definition invisible (o : top) : bool :=
  match o with TFlush _ _ | TCompact _ _ _ _ | TSync _ _ | TRestart _ _ => true | _ => false end.
Definition o_tags (x : orow) : tagset := fst (fst (fst x)).
Definition o_stamp (x : orow) : N := snd x.
