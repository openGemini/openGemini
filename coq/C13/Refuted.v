(* C13: what the _current variants - /repo before the fix commit named with each, all fixed since - do not satisfy, and what
   the guard of the finalisation is for. Witnesses closed by vm_compute. *)
From Coq Require Import NArith List Bool.
From OG Require Import C10.Model C13.Model.
Import ListNotations.
Open Scope N_scope.

(* Before /repo b717b86: after `drop series from m where host='a'` the listing path does not return the series, but every read that starts from
   "all series of the measurement" (plain select, field filter, group by, aggregates, != and !~ filters) still does -
   whenever the index holds a measurement that sorts after m. Measurements 1 < 2; ids 5 (host=a), 6 (host=b) in 1; 7 in 2. *)
Theorem C13_current_refuted :
  exists (am : N -> N -> bool) (orv : N -> bool) (ord : N -> N -> bool) (s : dstate) (m : N) (q : option expr) (id : N),
    let s' := drop_series am s m q in
    ~ In id (list_ids am (d_T s') (d_del s') m None) /\
    In id (read_current am orv ord (d_T s') (d_del s') m None) /\
    In id (read_current am orv ord (d_T s') (d_del s') m (Some (Atom 1 Neq 2))).
Proof.
  exists (fun _ _ => false), (fun _ => false), (fun a b => a <? b),
         (mkD [(mkS 1 [(1, 1)], 5); (mkS 1 [(1, 2)], 6); (mkS 2 [(1, 1)], 7)] [] 7 []), 1, (Some (Atom 1 Eq 1)), 5.
  vm_compute. repeat split.
  - intros [H | [H | []]]; discriminate.
  - left. reflexivity.
  - left. reflexivity.
Qed.
Print Assumptions C13_current_refuted.

(* before b717b86 a regex tag filter that is translated into exact-value lookups (host =~ /a|b/) does not consult the deleted set at all,
   even for the last measurement of the index *)
Theorem C13_current_refuted_alternatives :
  exists (am : N -> N -> bool) (orv : N -> bool) (ord : N -> N -> bool) (s : dstate) (id : N),
    In id (d_del s) /\ In id (read_current am orv ord (d_T s) (d_del s) 1 (Some (Atom 1 Re 1))).
Proof.
  exists (fun p v => (p =? 1) && ((v =? 1) || (v =? 2))), (fun p => p =? 1), (fun a b => a <? b),
         (mkD [(mkS 1 [(1, 1)], 5); (mkS 1 [(1, 2)], 6)] [5] 6 []), 5.
  vm_compute. split; left; reflexivity.
Qed.
Print Assumptions C13_current_refuted_alternatives.

(* ---- persistence of the deleted-id table (finding C13-drop-lost-on-crash, /repo before b25e346): with that DROP SERIES ([trun false true true]: the ids are
   in the in-memory set and in the table's raw items when the statement is acknowledged, in a part on disk only after the table's
   next flush) a restart right after the drop brings the dropped series back - the system model then returns a row the reference
   does not hold. Database 1, policy 1, measurement 5, series host=a (stamp 100) and host=b (101). *)
From OG Require Import C13.Tree.
Definition crash_ops : list top :=
  [TCreateDB 1; TCreateRP 1 1; TWrite 1 1 5 [(1, 1)] 10 7 100; TWrite 1 1 5 [(1, 2)] 10 8 101; TFlush 1 1;
   TDropSeries 1 1 5 (Some (Atom 1 Eq 1)); TRestart 1 1].
Theorem C13_drop_lost_on_crash_current_refuted :
  exists (am : N -> N -> bool) (os : list top) (x : orow),
    In x (tread am (trun false true true am t0 os) 1 1 5 None) /\ ~ In x (sread am (srun am s0 os) 1 1 5 None).
Proof.
  exists (fun _ _ => false), crash_ops, ([(1, 1)], 10, 7, 100). vm_compute. split.
  - left. reflexivity.
  - intros [H | []]. discriminate.
Qed.
Print Assumptions C13_drop_lost_on_crash_current_refuted.
(* the window closes with the next flush of the table: the same history with the sync before the restart agrees with the reference *)
Example C13_drop_survives_after_table_flush_current :
  let am := fun (_ _ : N) => false in
  let os := [TCreateDB 1; TCreateRP 1 1; TWrite 1 1 5 [(1, 1)] 10 7 100; TWrite 1 1 5 [(1, 2)] 10 8 101; TFlush 1 1;
             TDropSeries 1 1 5 (Some (Atom 1 Eq 1)); TSync 1 1; TRestart 1 1] in
  tread am (trun false true true am t0 os) 1 1 5 None = sread am (srun am s0 os) 1 1 5 None.
Proof. vm_compute. reflexivity. Qed.

(* ---- finding C13-drop-ignored-by-new-index (/repo before 23cb1db): an index created after the policy's deleted-id table exists is not wired to
   it; a later DROP SERIES records ids that the searches of that index never consult (until the next restart) *)
From OG Require Import C13.Wiring C13.Purge.
Theorem C13_new_index_not_wired_current_refuted :
  exists (os : list wop) (i : N) (b : bool),
    In (i, b) (w_idx (wrun false w0 os)) /\ eff (wrun false w0 os) b <> w_del (wrun false w0 os).
Proof. exists [WNewIndex 1; WDrop [5]; WNewIndex 2; WDrop [6]], 2, false. vm_compute. split; [right; left; reflexivity | discriminate]. Qed.
Print Assumptions C13_new_index_not_wired_current_refuted.
(* ... and the next restart wires it *)
Example C13_new_index_wired_by_restart_current :
  w_idx (wrun false w0 [WNewIndex 1; WDrop [5]; WNewIndex 2; WDrop [6]; WRestart]) = [(1, true); (2, true)].
Proof. vm_compute. reflexivity. Qed.

(* ---- finding C13-purge-loses-live-items (/repo before 22be654): the block-full path loses the item that did not fit (three live items of 12 bytes,
   blocks of 30 bytes: the third is gone), and a tag->ids row is judged by its last id only *)
Theorem C13_purge_current_refuted :
  exists (hsz : N -> N) (del : N -> bool) (cap : N) (l : list (item N)),
    purge_current N hsz del cap l <> purge_spec N del l.
Proof. exists (fun h => h), (fun _ => false), 30, [(4, [1]); (4, [2]); (4, [3])]. vm_compute. discriminate. Qed.
Theorem C13_purge_rows_current_refuted :
  exists (del : N -> bool) (l : list (item N)),
    purge_current N (fun h => h) del 1000 l <> purge_spec N del l /\
    purge_current N (fun h => h) del 1000 l = [(0, [2; 1])] /\ purge_spec N del l = [(0, [1]); (0, [1])].
Proof. exists (fun i => i =? 2), [(0, [1; 2]); (0, [2; 1])]. vm_compute. repeat split; discriminate. Qed.
Print Assumptions C13_purge_current_refuted.

(* ---- finding C13-dropped-rows-replayed-from-wal (/repo before d904bb8): DROP SERIES leaves the rows written before it in the memtable and in the
   WAL ([trun _ false _]); after a crash the WAL replay looks their series keys up like new writes, the dropped id does not count,
   and the rows come back under a fresh series id - even when the drop itself is durable ([trun true _ _], or [TSync] before the crash) *)
Definition wal_ops : list top :=
  [TCreateDB 1; TCreateRP 1 1; TWrite 1 1 5 [(1, 1)] 10 7 100; TWrite 1 1 5 [(1, 2)] 10 8 101;
   TDropSeries 1 1 5 (Some (Atom 1 Eq 1)); TSync 1 1; TRestart 1 1].
Theorem C13_dropped_rows_replayed_from_wal_current_refuted :
  exists (am : N -> N -> bool) (os : list top) (x : orow),
    In x (tread am (trun true false true am t0 os) 1 1 5 None) /\ In x (tread am (trun false false true am t0 os) 1 1 5 None) /\
    ~ In x (sread am (srun am s0 os) 1 1 5 None).
Proof.
  exists (fun _ _ => false), wal_ops, ([(1, 1)], 10, 7, 100). vm_compute. repeat split.
  - left. reflexivity.
  - left. reflexivity.
  - intros [H | []]. discriminate.
Qed.
Print Assumptions C13_dropped_rows_replayed_from_wal_current_refuted.

(* ---- finding C13-purge-forgets-ids-of-skipped-parts (/repo before 544468e): the purge pass discards the flushed part of the deleted-series table
   also when it left a part alone because it was being merged; the dropped id 2 of that part is visible again (after the restart) *)
Theorem C13_purge_pass_current_refuted :
  exists (t : ptable) (id : N), In id (pt_deleted t) /\ In id (visible_ids (purge_pass false t)).
Proof. exists (mkPT [(true, [1; 2; 3]); (false, [2; 4])] [2]), 2. vm_compute. split; [left | right; left]; reflexivity. Qed.
Print Assumptions C13_purge_pass_current_refuted.

(* ---- what the guard of the finalisation is for (C13/Phases.v): were the Drop command applied right after the mark, a file of the
   dropped object would be visible in the object created next under the same name *)
From OG Require Import C13.Phases.
Theorem C13_phases_unguarded_finalisation_refuted :
  exists (os : list pstep) (x : N), In x (pvisible (prun false (p0 1) os)) /\ x <> ps_inc (prun false (p0 1) os).
Proof. exists [PCreate; PWrite 0; PMark; PFinalize; PCreate], 1. vm_compute. split; [left; reflexivity | discriminate]. Qed.
Print Assumptions C13_phases_unguarded_finalisation_refuted.

(* ---- finding C13-drop-ignored-by-new-index inside the tree model ([trun _ _ false]: a new index is not wired): series host=a at time 10 (index group
   0) is dropped - the table is created and index 0 wired; host=b is written at time 700000 (a new index group) and dropped: the ids
   are recorded, the new index consults nothing, every read still returns b; a restart wires the index *)
Definition newidx_ops : list top :=
  [TCreateDB 1; TCreateRP 1 1; TWrite 1 1 5 [(1, 1)] 10 7 100; TFlush 1 1; TDropSeries 1 1 5 (Some (Atom 1 Eq 1));
   TWrite 1 1 5 [(1, 2)] 700000 8 101; TFlush 1 1; TDropSeries 1 1 5 (Some (Atom 1 Eq 2))].
Theorem C13_tree_new_index_not_wired_current_refuted :
  exists (am : N -> N -> bool) (os : list top) (x : orow),
    In x (tread am (trun true true false am t0 os) 1 1 5 None) /\ ~ In x (sread am (srun am s0 os) 1 1 5 None) /\
    ~ In x (tread am (trun true true false am t0 (os ++ [TRestart 1 1])) 1 1 5 None).
Proof.
  exists (fun _ _ => false), newidx_ops, ([(1, 2)], 700000, 8, 101). vm_compute. repeat split.
  - left. reflexivity.
  - intros [].
  - intros [].
Qed.
Print Assumptions C13_tree_new_index_not_wired_current_refuted.

(* ---- finding C13-marked-policy-still-listed (/repo before f28ab35): between the mark of a retention policy and the stores' deletion the listing still shows
   what the select already refuses *)
Theorem C13_phases_marked_policy_still_listed_current_refuted :
  exists (os : list pstep), plisted false (prun true (p0 1) os) <> pvisible (prun true (p0 1) os).
Proof. exists [PCreate; PWrite 0; PMark]. vm_compute. discriminate. Qed.
Print Assumptions C13_phases_marked_policy_still_listed_current_refuted.
