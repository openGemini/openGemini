(* C13 - lemmas. Everything is reduced to the search theorem of C10 applied to the entries that are not dropped. *)
From Coq Require Import NArith List Bool Lia.
From OG Require Import C10.Model C10.Proofs C13.Model.
Import ListNotations.
Open Scope N_scope.


Lemma nmem_iff x l : negb (mem x l) = true <-> ~ In x l.
Proof.
  rewrite negb_true_iff. split.
  - intros E H. apply mem_spec in H. congruence.
  - intros H. destruct (mem x l) eqn:E; auto. apply mem_spec in E. contradiction.
Qed.

Lemma in_live del ids id : In id (live del ids) <-> In id ids /\ ~ In id del.
Proof. unfold live. apply in_diff. Qed.

Lemma in_live_entries L del s id : In (s, id) (live_entries L del) <-> In (s, id) L /\ ~ In id del.
Proof. unfold live_entries. rewrite filter_In. simpl. rewrite nmem_iff. tauto. Qed.

Lemma wfL_filter g L : wfL L -> wfL (filter g L).
Proof.
  intros [Hnd Hf]. split; [apply nodup_map_filter; exact Hnd |].
  rewrite Forall_forall in *. intros e He. apply filter_In in He. destruct He as [He _]. auto.
Qed.

Lemma leaf_live f L del id :
  In id (live del (ids_where f (postings L))) <-> In id (ids_where f (postings (live_entries L del))).
Proof.
  rewrite in_live, !in_ids_where_postings. split.
  - intros [(s & Hin & Ht) Hn]. exists s. split; auto. apply in_live_entries; auto.
  - intros (s & Hin & Ht). apply in_live_entries in Hin. destruct Hin. split; eauto.
Qed.

Lemma re_set_live am L del m k p id :
  In id (re_set am (fun _ => false) all_repaired true (postings L) del m k p) <->
  In id (re_ids am (postings (live_entries L del)) m k p).
Proof.
  unfold re_set, re_ids, re_leaf, nokey, l_haskey, all_repaired. simpl.
  rewrite !in_app_iff. destruct (am p 0).
  - rewrite !in_diff. unfold all_ids, haskey, scan. rewrite !leaf_live. tauto.
  - simpl. unfold scan. rewrite leaf_live. tauto.
Qed.

Lemma dsearch_repaired_live am L del m e : forall id,
  In id (dsearch_repaired am (postings L) del m e) <-> In id (search am (postings (live_entries L del)) m e).
Proof.
  unfold dsearch_repaired. induction e as [a IHa b IHb | a IHa b IHb | a IHa | k c v]; simpl; intros id.
  - rewrite !in_inter, IHa, IHb. tauto.
  - rewrite !in_app_iff, IHa, IHb. tauto.
  - apply IHa.
  - destruct c.
    + destruct (v =? 0).
      * unfold nokey, l_haskey, all_repaired. rewrite !in_diff. unfold all_ids, haskey. rewrite !leaf_live. tauto.
      * unfold l_post, post. apply leaf_live.
    + destruct (v =? 0).
      * unfold l_haskey, haskey. apply leaf_live.
      * unfold l_post, all_repaired. rewrite !in_diff. unfold all_ids, post. rewrite !leaf_live. tauto.
    + apply re_set_live.
    + rewrite !in_diff. rewrite re_set_live. unfold all_repaired, all_ids. rewrite leaf_live. tauto.
Qed.

Lemma spec_char am L del m q id :
  In id (spec_ids am L del m q) <->
  exists s, In (s, id) L /\ ~ In id del /\ s_mst s = m /\ evalq am q (s_tags s) = true.
Proof.
  destruct q as [e |]; simpl.
  - rewrite bruteforce_sel. split.
    + intros (s & Hin & Hm & He). apply in_live_entries in Hin. destruct Hin. exists s. auto.
    + intros (s & Hin & Hn & Hm & He). exists s. repeat split; auto. apply in_live_entries. auto.
  - rewrite in_map_iff. split.
    + intros ([s i] & E & H). simpl in E. subst i. apply filter_In in H. destruct H as [Hin Hm]. simpl in Hm.
      apply N.eqb_eq in Hm. apply in_live_entries in Hin. destruct Hin. exists s. auto.
    + intros (s & Hin & Hn & Hm & _). exists (s, id). split; auto. apply filter_In. split.
      * apply in_live_entries. auto.
      * simpl. apply N.eqb_eq. exact Hm.
Qed.

Theorem read_repaired_exact am L del m q id : wfL L -> okq q ->
  In id (read_repaired am (postings L) del m q) <-> In id (spec_ids am L del m q).
Proof.
  intros Hwf Hok. destruct q as [e |]; simpl.
  - rewrite dsearch_repaired_live. apply search_is_bruteforce; auto. apply wfL_filter. exact Hwf.
  - unfold all_repaired, all_ids. rewrite leaf_live. fold (all_ids (postings (live_entries L del)) m).
    rewrite sel_all. rewrite in_map_iff. split.
    + intros (s & Hin & Hm & _). exists (s, id). split; auto. apply filter_In. split; auto. simpl. apply N.eqb_eq. exact Hm.
    + intros ([s i] & E & H). simpl in E. subst i. apply filter_In in H. destruct H as [Hin Hm]. simpl in Hm.
      apply N.eqb_eq in Hm. exists s. auto.
Qed.

(* the listing / drop path is exact (also in /repo before b717b86: it has no _current variant) *)
Theorem list_ids_exact am L del m q id : wfL L -> okq q ->
  In id (list_ids am (postings L) del m q) <-> In id (spec_ids am L del m q).
Proof.
  intros Hwf Hok. unfold list_ids. rewrite in_live, spec_char. destruct q as [e |]; simpl.
  - rewrite search_is_bruteforce, bruteforce_sel; auto. split.
    + intros [(s & Hin & Hm & He) Hn]. exists s. auto.
    + intros (s & Hin & Hn & Hm & He). split; auto. exists s. auto.
  - rewrite sel_all. split.
    + intros [(s & Hin & Hm & _) Hn]. exists s. auto.
    + intros (s & Hin & Hn & Hm & _). split; auto. exists s. auto.
Qed.

Lemma spec_ids_app am L del D m q id :
  In id (spec_ids am L (del ++ D) m q) <-> In id (spec_ids am L del m q) /\ ~ In id D.
Proof.
  rewrite !spec_char. split.
  - intros (s & Hin & Hn & Hm & He). rewrite in_app_iff in Hn. split; [exists s; repeat split; auto | tauto].
  - intros [(s & Hin & Hn & Hm & He) HD]. exists s. repeat split; auto. rewrite in_app_iff. tauto.
Qed.

(* DROP SERIES: afterwards every read returns what it returned before minus exactly the series the predicate named *)
Theorem drop_series_consistent am s m q m' q' id : wfL (d_L s) -> okq q -> okq q' ->
  let s' := drop_series am s m q in
  In id (read_repaired am (d_T s') (d_del s') m' q') <->
  In id (read_repaired am (d_T s) (d_del s) m' q') /\ ~ In id (spec_ids am (d_L s) (d_del s) m q).
Proof.
  intros Hwf Hq Hq' s'. unfold s', drop_series, d_T. simpl.
  rewrite !read_repaired_exact; auto. rewrite spec_ids_app. rewrite (list_ids_exact am (d_L s) (d_del s) m q id Hwf Hq). tauto.
Qed.

Definition dwf (s : dstate) : Prop :=
  wfL (d_L s) /\ (forall e, In e (d_L s) -> snd e <= d_next s) /\ (forall id, In id (d_del s) -> id <= d_next s).

Lemma lookup_live_none s k : lookup_live s k = None -> forall id, In (k, id) (d_L s) -> In id (d_del s).
Proof.
  unfold lookup_live.
  destruct (find (fun e => series_eqb (fst e) k && negb (mem (snd e) (d_del s))) (d_L s)) eqn:E; [discriminate |]. intros _ id Hin.
  apply (find_none _ _ E) in Hin. simpl in Hin. assert (Hs : series_eqb k k = true) by (apply series_eqb_true; reflexivity).
  rewrite Hs in Hin. simpl in Hin. apply negb_false_iff in Hin. apply mem_spec. exact Hin.
Qed.
Lemma lookup_live_some s k id : lookup_live s k = Some id -> In (k, id) (d_L s) /\ ~ In id (d_del s).
Proof.
  unfold lookup_live.
  destruct (find (fun e => series_eqb (fst e) k && negb (mem (snd e) (d_del s))) (d_L s)) as [[k' i'] |] eqn:E; [| discriminate].
  intros H. inversion H; subst.
  apply find_some in E. destruct E as [Hin Hb]. simpl in Hb. apply andb_true_iff in Hb. destruct Hb as [Hk Hn].
  apply series_eqb_true in Hk. subst. split; auto. apply nmem_iff. exact Hn.
Qed.

Lemma write_dwf s k : dwf s -> wf_tags (s_tags k) -> dwf (fst (write s k)).
Proof.
  intros (Hwf & Hb & Hd) Hk. unfold write. destruct (lookup_live s k) eqn:E; simpl; [exact (conj Hwf (conj Hb Hd)) |].
  destruct Hwf as [Hnd Hf]. repeat split; simpl.
  - rewrite map_app. simpl. apply nodup_snoc; auto. intros Hin. apply in_map_iff in Hin. destruct Hin as (e & Ee & Hin).
    apply Hb in Hin. rewrite Ee in Hin. lia.
  - apply Forall_app. split; auto.
  - intros e Hin. apply in_app_iff in Hin. destruct Hin as [Hin | [<- | []]]; simpl; [apply Hb in Hin; lia | lia].
  - intros id Hin. apply Hd in Hin. lia.
Qed.

(* a write to a key that has a live id goes to that id (no new series) *)
Theorem write_live_key_same s k id : lookup_live s k = Some id -> write s k = (s, id).
Proof. intros E. unfold write. rewrite E. reflexivity. Qed.

Theorem drop_measurement_exact am s m m' q id : wfL (d_L s) -> okq q ->
  let s' := drop_measurement s m in
  In id (read_repaired am (d_T s') (d_del s') m' q) <-> m' <> m /\ In id (read_repaired am (d_T s) (d_del s) m' q).
Proof.
  intros Hwf Hq s'. unfold s', drop_measurement, d_T. simpl.
  rewrite !read_repaired_exact; auto; [| apply wfL_filter; exact Hwf]. rewrite !spec_char. split.
  - intros (k & Hin & Hn & Hm & He). apply filter_In in Hin. destruct Hin as [Hin Hf]. simpl in Hf.
    apply negb_true_iff in Hf. apply N.eqb_neq in Hf. split; [congruence | exists k; auto].
  - intros [Hne (k & Hin & Hn & Hm & He)]. exists k. repeat split; auto. apply filter_In. split; auto. simpl.
    apply negb_true_iff. apply N.eqb_neq. congruence.
Qed.

(* under a physical name that no entry carries nothing is visible. That a re-created measurement gets such a name is not part
   of this model: the tree model (Tree.v: identities from a generator, never reused) carries that argument *)
Theorem recreate_is_fresh am s m2 q id : wfL (d_L s) -> okq q ->
  (forall e, In e (d_L s) -> s_mst (fst e) <> m2) ->
  ~ In id (read_repaired am (d_T s) (d_del s) m2 q).
Proof.
  intros Hwf Hq Hno H. unfold d_T in H. rewrite read_repaired_exact in H; auto. rewrite spec_char in H.
  destruct H as (k & Hin & _ & Hm & _). apply (Hno _ Hin). exact Hm.
Qed.
