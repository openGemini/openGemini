(* C13 - lemmas about the merged view (newest row of a point wins) and about association lists related entry by entry. *)
From Coq Require Import NArith List Bool.
From OG Require Import C10.Model C10.Proofs C13.Model C13.Tree.
Import ListNotations.
Open Scope N_scope.

Lemma same_pt_iff a b : same_pt a b = true <-> r_m a = r_m b /\ r_id a = r_id b /\ r_t a = r_t b.
Proof. unfold same_pt. rewrite !andb_true_iff, !N.eqb_eq. tauto. Qed.
Lemma same_pt_refl a : same_pt a a = true.
Proof. apply same_pt_iff. auto. Qed.
Lemma same_pt_congr a b c : same_pt a b = true -> same_pt a c = same_pt b c.
Proof. intros H. apply same_pt_iff in H. destruct H as (E1 & E2 & E3). unfold same_pt. rewrite E1, E2, E3. reflexivity. Qed.

Lemma existsb_same_congr a b l : same_pt a b = true -> existsb (same_pt a) l = existsb (same_pt b) l.
Proof. intros H. induction l as [| y r IH]; simpl; auto. rewrite IH, (same_pt_congr _ _ y H). reflexivity. Qed.

Lemma lww_in x l : In x (lww l) -> In x l.
Proof.
  induction l as [| y r IH]; simpl; auto. destruct (existsb (same_pt y) r).
  - intros H. right. auto.
  - intros [H | H]; auto.
Qed.

Lemma existsb_same_lww x l : existsb (same_pt x) (lww l) = existsb (same_pt x) l.
Proof.
  induction l as [| y r IH]; simpl; auto. destruct (existsb (same_pt y) r) eqn:E.
  - rewrite IH. destruct (same_pt x y) eqn:Exy; simpl; auto.
    rewrite (existsb_same_congr _ _ r Exy). exact E.
  - simpl. rewrite IH. reflexivity.
Qed.

Lemma lww_snoc l x : lww (l ++ [x]) = filter (fun y => negb (same_pt y x)) (lww l) ++ [x].
Proof.
  induction l as [| y r IH]; simpl; auto.
  rewrite existsb_app. simpl. rewrite orb_false_r.
  destruct (existsb (same_pt y) r) eqn:E; simpl; auto.
  destruct (same_pt y x) eqn:Eyx; simpl; rewrite ?Eyx; simpl; auto. rewrite IH. reflexivity.
Qed.

Lemma lww_lww_app b c : lww (lww b ++ c) = lww (b ++ c).
Proof.
  induction b as [| y r IH]; simpl; auto.
  destruct (existsb (same_pt y) r) eqn:E.
  - rewrite existsb_app, E. simpl. exact IH.
  - simpl. rewrite !existsb_app, existsb_same_lww, E. simpl. rewrite IH. reflexivity.
Qed.
(* compaction: replacing a run of adjacent files by their merged view does not change the merged view of everything *)
Lemma lww_compact a b c : lww (a ++ lww b ++ c) = lww (a ++ b ++ c).
Proof.
  induction a as [| y r IH]; simpl; [apply lww_lww_app |].
  rewrite !existsb_app, existsb_same_lww, IH. reflexivity.
Qed.

Lemma existsb_same_filter (P : prow -> bool) y l :
  (forall a b, same_pt a b = true -> P a = P b) -> P y = true ->
  existsb (same_pt y) (filter P l) = existsb (same_pt y) l.
Proof.
  intros HP Hy. induction l as [| z r IH]; simpl; auto.
  destruct (P z) eqn:Ez; simpl; rewrite IH; auto.
  destruct (same_pt y z) eqn:E; simpl; auto. rewrite (HP _ _ E) in Hy. congruence.
Qed.
(* deleting whole points (a predicate that does not separate rows of one point) commutes with the merged view *)
Lemma lww_filter (P : prow -> bool) l :
  (forall a b, same_pt a b = true -> P a = P b) -> lww (filter P l) = filter P (lww l).
Proof.
  intros HP. induction l as [| y r IH]; simpl; auto.
  destruct (P y) eqn:Ey; simpl.
  - rewrite existsb_same_filter by auto. destruct (existsb (same_pt y) r); simpl; rewrite ?Ey, IH; auto.
  - destruct (existsb (same_pt y) r); simpl; rewrite ?Ey; auto.
Qed.

Lemma firstn_skipn_split {A} (l : list A) i k : l = firstn i l ++ firstn k (skipn i l) ++ skipn k (skipn i l).
Proof. rewrite (firstn_skipn k (skipn i l)). symmetry. apply firstn_skipn. Qed.

Definition krel {A B} (R : A -> B -> Prop) (l1 : list (key * A)) (l2 : list (key * B)) : Prop :=
  Forall2 (fun a b => fst a = fst b /\ R (snd a) (snd b)) l1 l2.

Lemma krel_kupd {A B} (R : A -> B -> Prop) k f g l1 l2 :
  krel R l1 l2 -> (forall a b, R a b -> R (f a) (g b)) -> krel R (kupd k f l1) (kupd k g l2).
Proof.
  intros H Hf. induction H as [| [k1 a] [k2 b] r1 r2 [Hk HR] _ IH]; simpl; [constructor |].
  simpl in Hk. subst k2. constructor; auto. destruct (key_eqb k1 k); simpl; auto.
Qed.
Lemma krel_kdel {A B} (R : A -> B -> Prop) P l1 l2 : krel R l1 l2 -> krel R (kdel P l1) (kdel P l2).
Proof.
  intros H. induction H as [| [k1 a] [k2 b] r1 r2 [Hk HR] _ IH]; simpl; [constructor |].
  simpl in Hk. subst k2. destruct (P k1); simpl; auto. constructor; auto.
Qed.
Lemma krel_khas {A B} (R : A -> B -> Prop) k l1 l2 : krel R l1 l2 -> khas k l1 = khas k l2.
Proof.
  intros H. unfold khas. induction H as [| [k1 a] [k2 b] r1 r2 [Hk HR] _ IH]; simpl; auto.
  simpl in Hk. subst k2. rewrite IH. reflexivity.
Qed.
Lemma krel_kins {A B} (R : A -> B -> Prop) k a b l1 l2 : krel R l1 l2 -> R a b -> krel R (kins k a l1) (kins k b l2).
Proof.
  intros H HR. unfold kins. rewrite (krel_khas R k l1 l2 H). destruct (khas k l2); auto.
  apply Forall2_app; [exact H |]. constructor; [split; auto | constructor].
Qed.
Lemma krel_kget {A B} (R : A -> B -> Prop) k l1 l2 : krel R l1 l2 ->
  match kget k l1, kget k l2 with Some a, Some b => R a b | None, None => True | _, _ => False end.
Proof.
  intros H. unfold kget. induction H as [| [k1 a] [k2 b] r1 r2 [Hk HR] _ IH]; simpl; auto.
  simpl in Hk. subst k2. destruct (key_eqb k1 k); simpl; auto.
Qed.

Lemma key_eqb_eq a b : key_eqb a b = true <-> a = b.
Proof. unfold key_eqb. rewrite andb_true_iff, !N.eqb_eq. destruct a, b; simpl. split; [intros [-> ->]; auto | intros E; inversion E; auto]. Qed.
Lemma key_eqb_refl a : key_eqb a a = true.
Proof. apply key_eqb_eq. reflexivity. Qed.

Lemma kget_kupd_same {V} k (f : V -> V) l : kget k (kupd k f l) = option_map f (kget k l).
Proof.
  unfold kget, kupd. induction l as [| [k1 a] r IH]; simpl; auto.
  destruct (key_eqb k1 k) eqn:E; simpl; rewrite ?E; simpl; auto.
Qed.
Lemma kupd_id {V} k (l : list (key * V)) : kupd k (fun x => x) l = l.
Proof. unfold kupd. induction l as [| [k1 v] r IH]; simpl; auto. rewrite IH. destruct (key_eqb k1 k); reflexivity. Qed.
(* a step of the system that the reference does not take *)
Lemma krel_kupd_l {A B} (R : A -> B -> Prop) k f l1 l2 :
  krel R l1 l2 -> (forall a b, R a b -> R (f a) b) -> krel R (kupd k f l1) l2.
Proof. intros H Hf. rewrite <- (kupd_id k l2). apply krel_kupd; assumption. Qed.

Lemma kget_kupd_other {V} k k' (f : V -> V) l : key_eqb k k' = false -> kget k' (kupd k f l) = kget k' l.
Proof.
  intros Hne. unfold kget, kupd. induction l as [| [k1 a] r IH]; simpl; auto.
  destruct (key_eqb k1 k) eqn:E; simpl; [| destruct (key_eqb k1 k'); auto].
  apply key_eqb_eq in E. subst k1. rewrite Hne. exact IH.
Qed.
Lemma kget_kdel {V} (P : key -> bool) k (l : list (key * V)) : kget k (kdel P l) = if P k then None else kget k l.
Proof.
  unfold kget, kdel. induction l as [| [k1 a] r IH]; simpl; [destruct (P k); auto |].
  destruct (P k1) eqn:E1; simpl.
  - rewrite IH. destruct (key_eqb k1 k) eqn:E; auto. apply key_eqb_eq in E. subst. rewrite E1. reflexivity.
  - destruct (key_eqb k1 k) eqn:E; auto. apply key_eqb_eq in E. subst. rewrite E1. reflexivity.
Qed.
Lemma kget_kins_same {V} k (v : V) l : kget k (kins k v l) = match kget k l with Some x => Some x | None => Some v end.
Proof.
  unfold kins, khas, kget. induction l as [| [k1 a] r IH]; simpl; [rewrite key_eqb_refl; auto |].
  destruct (key_eqb k1 k) eqn:E; simpl; rewrite ?E; auto.
  destruct (existsb (fun kv => key_eqb (fst kv) k) r) eqn:Ex; simpl; rewrite ?E; auto.
Qed.
Lemma find_app {A} (f : A -> bool) (a b : list A) :
  find f (a ++ b) = match find f a with Some x => Some x | None => find f b end.
Proof. induction a as [| x r IH]; simpl; auto. destruct (f x); auto. Qed.
Lemma kget_kins_other {V} k k' (v : V) l : k' <> k -> kget k' (kins k v l) = kget k' l.
Proof.
  intros Hne. unfold kins. destruct (khas k l); auto. unfold kget. rewrite find_app.
  destruct (find (fun kv => key_eqb (fst kv) k') l); auto. simpl.
  destruct (key_eqb k k') eqn:E; auto. apply key_eqb_eq in E. congruence.
Qed.
