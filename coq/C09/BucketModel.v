(* C09 - time buckets (GROUP BY time(w)) and tag groups (GROUP BY tag, several series per group). Executable definitions.

   bucket_of: the window a timestamp falls into (query.ProcessorOptions.Window with zero offset: t - t mod w, floor
   semantics for negative times); a row belongs to exactly one bucket.
   A segment may be answered from its stored statistics for bucket b only when it lies wholly inside the query range AND
   wholly inside b; a segment crossing a bucket (or range) boundary is read row by row. Whether an eligible segment
   actually IS answered from its statistics is left to a choice oracle `use` (the engine: never - matchPreAgg
   switches the shortcut off as soon as the statement has an interval; the theorem covers every oracle, so an engine
   that starts using statistics inside buckets stays inside the model as long as it respects the two conditions).
   A tag group is a set of series; its result per bucket is the combination of the per-series partial results. *)
From Coq Require Import ZArith List Bool.
From OG Require Import C09.Model.
Import ListNotations.
Open Scope Z_scope.

Definition bucket_of (w t : Z) : Z := t / w.
Definition in_bucket (w b : Z) (r : row) : bool := bucket_of w (fst r) =? b.
Definition in_rb (lo hi w b : Z) (r : row) : bool := in_range lo hi r && in_bucket w b r.

Definition seg_in_bucket (w b : Z) (s : segment) : bool := (bucket_of w (seg_min s) =? b) && (bucket_of w (seg_max s) =? b).
Definition agg_segment_bucket (use : segment -> bool) (lo hi w b : Z) (s : segment) : stats :=
  if use s && covered lo hi s && seg_in_bucket w b s then s_stats s
  else build_stats (filter (in_rb lo hi w b) (s_rows s)).

Record series := { g_key : Z; g_segs : list segment; g_mem : list row }.
Definition series_rows (sr : series) : list row := all_rows (g_segs sr) (g_mem sr).

Definition agg_series_bucket (use : segment -> bool) (lo hi w b : Z) (sr : series) : stats :=
  fold_right (fun s acc => combine (agg_segment_bucket use lo hi w b s) acc)
             (build_stats (filter (in_rb lo hi w b) (g_mem sr))) (g_segs sr).

(* per (group, bucket): the series of the group, combined *)
Definition agg_group_bucket (use : segment -> bool) (lo hi w : Z) (ss : list series) (g b : Z) : stats :=
  fold_right (fun sr acc => if g_key sr =? g then combine (agg_series_bucket use lo hi w b sr) acc else acc) empty ss.
(* per group, no bucket: the statistics shortcut of Model.v per series, combined *)
Definition agg_group_short (lo hi : Z) (ss : list series) (g : Z) : stats :=
  fold_right (fun sr acc => if g_key sr =? g then combine (agg_short lo hi (g_segs sr) (g_mem sr)) acc else acc) empty ss.

Definition group_rows (ss : list series) (g : Z) : list row :=
  concat (map series_rows (filter (fun sr => g_key sr =? g) ss)).

(* the buckets a range touches, ascending *)
Definition buckets (lo hi w : Z) : list Z :=
  map (fun i => bucket_of w lo + Z.of_nat i) (seq 0 (Z.to_nat (bucket_of w hi - bucket_of w lo + 1))).

(* the result table of `GROUP BY time(w)` for one group: ascending, or descending (ORDER BY time DESC) *)
Definition bucket_table (use : segment -> bool) (lo hi w : Z) (ss : list series) (g : Z) (desc : bool) : list (Z * stats) :=
  let bs := buckets lo hi w in
  map (fun b => (b, agg_group_bucket use lo hi w ss g b)) (if desc then rev bs else bs).
