(* C09 - CHUNKS: a chunk is what one data file stores for one series: a list of segments (at most max-rows-per-segment
   rows each, ascending times over the whole chunk) plus, per column, ONE statistics record for the whole chunk
   (ColumnMeta.preAgg: count, sum, min and max with the time of their first occurrence) and the time range of every
   segment (ChunkMeta.timeRange). Executable definitions only.

   Mirrors, for one column of one series:
     engine/immutable/reader.go        readSumCount / readSumCountFromData, readMinMax / readMinMaxFromData:
                                       chunk statistics when the WHOLE chunk lies in the range (ChunkMeta.allRowsInRange),
                                       otherwise every segment overlapping the range is decoded and its rows in range are used
     engine/immutable/first_last_reader.go FirstLastReader.Read: segments are visited from the front (first) / the back
                                       (last); per segment (a) the chunk's stored min / max is taken when its time is the
                                       segment's first / last time, (b) a null-free segment that starts at / after the range
                                       start (ends at / before the range end) gives its first / last row, (c) otherwise the
                                       time column is decoded and the first / last non-null row in range is searched; a
                                       segment without such a row is skipped
     engine/iterators_helper.go        recordIter.set{Int,Float,Bool,String}ColumnMeta: statistics of the memtable rows
   Variants: `_current` = the code before /repo commits 4c0ceca (reader) and 21620c9 (memtable), `_repaired` = after. *)
From Coq Require Import ZArith List Bool.
From OG Require Import C09.Model.
Import ListNotations.
Open Scope Z_scope.

Record chunk := { c_segs : list (list row); c_stats : stats }.

Definition rows_lo (s : list row) : Z := match s with r :: _ => fst r | [] => 0 end.
Definition rows_hi (s : list row) : Z := fst (last s (0, None)).
Definition chunk_rows (c : chunk) : list row := concat (c_segs c).
Definition chunk_lo (c : chunk) : Z := rows_lo (chunk_rows c).      (* ChunkMeta.MinMaxTime *)
Definition chunk_hi (c : chunk) : Z := rows_hi (chunk_rows c).
Definition mk_chunk (segs : list (list row)) : chunk := {| c_segs := segs; c_stats := build_stats (concat segs) |}.

Definition overlaps (lo hi a b : Z) : bool := (lo <=? b) && (a <=? hi).            (* util.TimeRange.Overlaps *)
Definition all_in_range (lo hi : Z) (c : chunk) : bool := (lo <=? chunk_lo c) && (chunk_hi c <=? hi).

(* count / sum / min / max of a chunk that is only partly inside the range: every overlapping segment, rows in range *)
Definition seg_scan (lo hi : Z) (s : list row) : stats :=
  if overlaps lo hi (rows_lo s) (rows_hi s) then build_stats (filter (in_range lo hi) s) else empty.
Definition chunk_scan (lo hi : Z) (c : chunk) : stats :=
  fold_right (fun s acc => combine (seg_scan lo hi s) acc) empty (c_segs c).
Definition chunk_agg (lo hi : Z) (c : chunk) : stats :=
  if all_in_range lo hi c then c_stats c else chunk_scan lo hi c.

Definition no_nulls (s : list row) : bool := forallb (fun r : row => match snd r with Some _ => true | None => false end) s.
Definition first_row_val (s : list row) : option Z := match s with r :: _ => snd r | [] => None end.
Definition last_row_val (s : list row) : option Z := snd (last s (0, None)).
Fixpoint scan_first (rows : list row) : option (Z * Z) :=       (* readFirstRowIndex over the rows in range *)
  match rows with
  | [] => None
  | (t, Some v) :: _ => Some (v, t)
  | (_, None) :: rest => scan_first rest
  end.
Fixpoint scan_last (rows : list row) : option (Z * Z) :=        (* readLastRowIndex *)
  match rows with
  | [] => None
  | (t, o) :: rest => match scan_last rest with
                      | Some r => Some r
                      | None => match o with Some v => Some (v, t) | None => None end
                      end
  end.

(* FirstLastReader.Read, first = true. `stamp s` is the time given to the row taken by branch (b):
   _current: the chunk's first time (r.cm.minTime()), _repaired: the segment's first time (minMaxSeg.minTime()).
   `pre` is the chunk's stored minimum when the column type has one the reader can use (integer, float), else None. *)
Fixpoint first_scan (stamp : list row -> Z) (lo hi : Z) (pre : option (Z * Z)) (segs : list (list row)) : option (Z * Z) :=
  match segs with
  | [] => None
  | s :: rest =>
    if negb (overlaps lo hi (rows_lo s) (rows_hi s)) then first_scan stamp lo hi pre rest
    else
      match (if lo <=? rows_lo s then match pre with Some (v, t) => if t =? rows_lo s then Some (v, t) else None | None => None end else None) with
      | Some r => Some r                                                            (* (a) readFirstOrLastFromPreAgg *)
      | None =>
        if no_nulls s && (lo <=? rows_lo s)
        then match first_row_val s with Some v => Some (v, stamp s) | None => None end   (* (b) *)
        else match scan_first (filter (in_range lo hi) s) with                      (* (c) *)
             | Some r => Some r
             | None => first_scan stamp lo hi pre rest
             end
      end
  end.

(* first = false: the segments are visited from the back *)
Fixpoint last_scan (stamp : list row -> Z) (lo hi : Z) (pre : option (Z * Z)) (rsegs : list (list row)) : option (Z * Z) :=
  match rsegs with
  | [] => None
  | s :: rest =>
    if negb (overlaps lo hi (rows_lo s) (rows_hi s)) then last_scan stamp lo hi pre rest
    else
      match (if rows_hi s <=? hi then match pre with Some (v, t) => if t =? rows_hi s then Some (v, t) else None | None => None end else None) with
      | Some r => Some r
      | None =>
        if no_nulls s && (rows_hi s <=? hi)
        then match last_row_val s with Some v => Some (v, stamp s) | None => None end
        else match scan_last (filter (in_range lo hi) s) with
             | Some r => Some r
             | None => last_scan stamp lo hi pre rest
             end
      end
  end.

Definition pre_min (use_pre : bool) (c : chunk) : option (Z * Z) := if use_pre then smin (c_stats c) else None.
Definition pre_max (use_pre : bool) (c : chunk) : option (Z * Z) := if use_pre then smax (c_stats c) else None.

Definition first_reader_repaired (use_pre : bool) (lo hi : Z) (c : chunk) : option (Z * Z) :=
  first_scan rows_lo lo hi (pre_min use_pre c) (c_segs c).
Definition first_reader_current (use_pre : bool) (lo hi : Z) (c : chunk) : option (Z * Z) :=
  first_scan (fun _ => chunk_lo c) lo hi (pre_min use_pre c) (c_segs c).
Definition last_reader_repaired (use_pre : bool) (lo hi : Z) (c : chunk) : option (Z * Z) :=
  last_scan rows_hi lo hi (pre_max use_pre c) (rev (c_segs c)).
Definition last_reader_current (use_pre : bool) (lo hi : Z) (c : chunk) : option (Z * Z) :=
  last_scan (fun _ => chunk_hi c) lo hi (pre_max use_pre c) (rev (c_segs c)).

(* the chunk is consulted at all only when it overlaps the range (Location.Contains / readData) *)
Definition chunk_live (lo hi : Z) (c : chunk) : bool := overlaps lo hi (chunk_lo c) (chunk_hi c).

(* the partial result one chunk contributes (all six functions at once) *)
Definition chunk_partial (fr lr : bool -> Z -> Z -> chunk -> option (Z * Z)) (use_pre : bool) (lo hi : Z) (c : chunk) : stats :=
  if chunk_live lo hi c then
    let a := chunk_agg lo hi c in
    {| cnt := cnt a; sum := sum a; smin := smin a; smax := smax a; sfirst := fr use_pre lo hi c; slast := lr use_pre lo hi c |}
  else empty.
Definition chunk_partial_repaired := chunk_partial first_reader_repaired last_reader_repaired.
Definition chunk_partial_current := chunk_partial first_reader_current last_reader_current.

(* ---- memtable statistics (recordIter.set*ColumnMeta): one pass over the rows of the memtable record ----
   The record holds every row that carries ANY selected field; the column of this call may be null in a row.
   `last` is the last non-null VALUE; its time is
     _current : the time of the last ROW of the record (timeCols[len-1]),
     _repaired: the time of that value (lastVTime). *)
Record macc := { m_cnt : Z; m_sum : Z; m_min : option (Z * Z); m_max : option (Z * Z); m_first : option (Z * Z);
                 m_lastv : option Z; m_lastvt : Z }.
Definition macc0 : macc := {| m_cnt := 0; m_sum := 0; m_min := None; m_max := None; m_first := None; m_lastv := None; m_lastvt := 0 |}.
Definition mstep (a : macc) (r : row) : macc :=
  match snd r with
  | None => a
  | Some v =>
    let t := fst r in
    {| m_cnt := m_cnt a + 1; m_sum := m_sum a + v;
       m_min := match m_min a with
                | None => Some (v, t)
                | Some (mv, mt) => if (v <? mv) || ((v =? mv) && (t <? mt)) then Some (v, t) else Some (mv, mt)
                end;
       m_max := match m_max a with
                | None => Some (v, t)
                | Some (mv, mt) => if (mv <? v) || ((v =? mv) && (t <? mt)) then Some (v, t) else Some (mv, mt)
                end;
       m_first := match m_first a with None => Some (v, t) | Some f => Some f end;
       m_lastv := Some v; m_lastvt := t |}
  end.
Definition mloop (rows : list row) : macc := fold_left mstep rows macc0.
Definition mem_stats (last_time : macc -> list row -> Z) (rows : list row) : stats :=
  let a := mloop rows in
  {| cnt := m_cnt a; sum := m_sum a; smin := m_min a; smax := m_max a; sfirst := m_first a;
     slast := match m_lastv a with Some v => Some (v, last_time a rows) | None => None end |}.
Definition mem_stats_repaired : list row -> stats := mem_stats (fun a _ => m_lastvt a).
Definition mem_stats_current : list row -> stats := mem_stats (fun _ rows => rows_hi rows).

(* ---- the whole shortcut over chunks (ordered and out-of-order files) and the memtable ---- *)
Definition agg_chunks (part : bool -> Z -> Z -> chunk -> stats) (mem : list row -> stats) (use_pre : bool) (lo hi : Z)
           (chunks : list chunk) (memrows : list row) : stats :=
  fold_right (fun c acc => combine (part use_pre lo hi c) acc) (mem (filter (in_range lo hi) memrows)) chunks.
Definition agg_chunks_repaired := agg_chunks chunk_partial_repaired mem_stats_repaired.
Definition agg_chunks_current_reader := agg_chunks chunk_partial_current mem_stats_repaired.   (* the reader before /repo 4c0ceca *)
Definition agg_chunks_current_mem := agg_chunks chunk_partial_repaired mem_stats_current.      (* the memtable builder before /repo 21620c9 *)
Definition all_chunk_rows (chunks : list chunk) (memrows : list row) : list row := concat (map chunk_rows chunks) ++ memrows.

(* ---- ORDER BY time DESC ----
   The aggregate of a (group, bucket) does not depend on the order in which its rows are visited (`_repaired`: agg_rows of
   the rows in any order, see C09_order_irrelevant / C09_desc_rows_repaired).
   `_current`, row path (exact-statistics hint, field filter, time bucket): the series-level reducers
   (engine/series_agg_func.gen.go *FirstReduce / *LastReduce, "last is designed in ascending order") take the first / last
   ARRIVING value; under DESC the rows arrive newest first, so first and last are swapped.
   `_current`, shortcut path with GROUP BY tag (the schema forces ascending order only when there is no GROUP BY): every
   container's partial result (file reader on reversed columns, memtable builder on the reversed record) is positional,
   i.e. swapped, and the partial results are then merged by time. (The times the real reader attaches under DESC are not
   modelled; the variant reproduces the values of the witness.) *)
Definition swap_fl (s : stats) : stats :=
  {| cnt := cnt s; sum := sum s; smin := smin s; smax := smax s; sfirst := slast s; slast := sfirst s |}.
Definition agg_rows_desc_current (rows : list row) : stats := swap_fl (agg_rows rows).
Definition agg_rows_desc_repaired (rows : list row) : stats := agg_rows (rev rows).
Definition agg_chunks_desc_current (use_pre : bool) (lo hi : Z) (chunks : list chunk) (memrows : list row) : stats :=
  fold_right (fun c acc => combine (swap_fl (chunk_partial_repaired use_pre lo hi c)) acc)
             (swap_fl (mem_stats_repaired (filter (in_range lo hi) memrows))) chunks.
