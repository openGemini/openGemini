(* C09 x C07, PROVED: C07's model of the integer statistics builder (IntegerPreAgg.reset / addValues accumulated segment
   by segment over int64 bit patterns, repaired start-value rule - coq/C07/ModelStats.v int_build) computes, for every
   segment layout of time-ordered rows with int64 values, exactly the statistics C09 reasons about (build_stats of the
   rows): count, sum (as a bit pattern), min and max with their times. Uses C07's own theorem stats_int_repaired
   (builder = first-occurrence reference) and relates that reference to build_stats. *)
From Coq Require Import ZArith List Bool Lia.
From OG Require Import C09.Model C09.Proofs C09.ListSpec C09.ChunkModel C09.ChunkProofs C09.Corr C09.CrossC07.
From OG Require C07.Model C07.ModelPreAgg C07.ModelStats C07.ProofsStats.
Import ListNotations.
Open Scope Z_scope.

Notation M64 := OG.C07.Model.M64.
Notation M63 := OG.C07.Model.M63.
Notation sgn64 := OG.C07.ModelPreAgg.sgn64.
Notation ilt := OG.C07.ModelStats.ilt.
Notation iadd := OG.C07.ModelStats.iadd.
Notation ref_loop := (OG.C07.ModelStats.ref_loop ilt (fun _ => true) iadd).

Definition in_i64 (v : Z) : Prop := - M63 <= v < M63.
Definition pat (v : Z) : Z := v mod M64.

Lemma sgn_pat : forall v, in_i64 v -> sgn64 (pat v) = v.
Proof.
  intros v [L H]. unfold pat, OG.C07.ModelPreAgg.sgn64, OG.C07.Model.M64, OG.C07.Model.M63 in *.
  destruct (Z_lt_le_dec v 0) as [N | N].
  - replace (v mod 18446744073709551616) with (v + 18446744073709551616).
    + destruct (v + 18446744073709551616 <? 9223372036854775808) eqn:E; [apply Z.ltb_lt in E; lia | lia].
    + rewrite <- (Z_mod_plus_full v 1 18446744073709551616). rewrite Z.mod_small; lia.
  - rewrite Z.mod_small by lia. destruct (v <? 9223372036854775808) eqn:E; [reflexivity | apply Z.ltb_ge in E; lia].
Qed.

Definition vals_in_range (rows : list row) : Prop := forall t v, In (t, Some v) rows -> in_i64 v.
Definition dec (o : option (Z * Z)) : option (Z * Z) := match o with Some (p, t) => Some (sgn64 p, t) | None => None end.

Lemma c07_rows_app : forall a b, c07_rows (a ++ b) = c07_rows a ++ c07_rows b.
Proof. intros. unfold c07_rows. apply map_app. Qed.

Lemma smin_time_in : forall rows v t, smin (build_stats rows) = Some (v, t) -> exists r, In r rows /\ fst r = t.
Proof. intros rows v t E. exists (t, Some v). split; [apply smin_in; exact E | reflexivity]. Qed.
Lemma smax_time_in : forall rows v t, smax (build_stats rows) = Some (v, t) -> exists r, In r rows /\ fst r = t.
Proof. intros rows v t E. exists (t, Some v). split; [apply smax_in; exact E | reflexivity]. Qed.

(* the first-occurrence reference over bit patterns, decoded, is build_stats *)
Definition ref_ok (r : option (Z * Z) * option (Z * Z) * Z * Z) (s : stats) : Prop :=
  let '(mn, mx, sm, n) := r in
  n = cnt s /\ sm = pat (sum s) /\ dec mn = smin s /\ dec mx = smax s /\
  (forall p t, mn = Some (p, t) -> exists v, in_i64 v /\ p = pat v) /\ (forall p t, mx = Some (p, t) -> exists v, in_i64 v /\ p = pat v).

Lemma reference_ok : forall rows, asc rows -> vals_in_range rows ->
  ref_ok (ref_loop None None 0 0 (c07_rows rows)) (build_stats rows).
Proof.
  induction rows as [| r rows IH] using rev_ind; intros A R.
  - cbn. repeat split; try reflexivity; intros; discriminate.
  - apply asc_app in A. destruct A as (A1 & _ & A3).
    assert (R1 : vals_in_range rows) by (intros t v I; apply (R t v); apply in_or_app; left; exact I).
    specialize (IH A1 R1). rewrite c07_rows_app.
    change (c07_rows [r]) with [(option_map pat (snd r), fst r)]. rewrite OG.C07.ProofsStats.ref_loop_app, build_stats_snoc.
    destruct (ref_loop None None 0 0 (c07_rows rows)) as [[[mn mx] sm] n].
    destruct IH as (C & S & Mi & Ma & Pi & Pa).
    destruct r as [t [v |]]; cbn [option_map snd fst OG.C07.ModelStats.ref_loop of_row].
    2:{ rewrite combine_empty_r. repeat split; auto. }
    assert (V : in_i64 v) by (apply (R t v); apply in_or_app; right; left; reflexivity).
    unfold ref_ok. cbn [combine cnt sum smin smax].
    split; [lia |]. split.
    { unfold OG.C07.ModelStats.iadd. rewrite S. unfold pat. symmetry. apply Zplus_mod. }
    split.
    { (* min *)
      unfold OG.C07.ModelStats.ref_step. destruct mn as [[pm tm] |]; cbn [dec] in Mi |- *.
      - destruct (Pi pm tm eq_refl) as (m & Rm & Em). subst pm. rewrite (sgn_pat m Rm) in Mi. rewrite <- Mi. cbn [pick].
        unfold OG.C07.ModelStats.ilt. rewrite (sgn_pat v V), (sgn_pat m Rm). unfold min_better; cbn [fst snd].
        symmetry in Mi. destruct (smin_time_in _ _ _ Mi) as (x & Ix & Ex). specialize (A3 x (t, Some v) Ix (or_introl eq_refl)). cbn [fst] in A3.
        destruct (v <? m) eqn:B1; cbn [dec]; rewrite ?sgn_pat by assumption;
          destruct ((m <? v) || ((m =? v) && (tm <=? t))) eqn:B2; auto; lia.
      - rewrite <- Mi. cbn [pick dec]. rewrite (sgn_pat v V). reflexivity. }
    split.
    { (* max *)
      unfold OG.C07.ModelStats.ref_step. destruct mx as [[pm tm] |]; cbn [dec] in Ma |- *.
      - destruct (Pa pm tm eq_refl) as (m & Rm & Em). subst pm. rewrite (sgn_pat m Rm) in Ma. rewrite <- Ma. cbn [pick].
        unfold OG.C07.ModelStats.ilt. rewrite (sgn_pat v V), (sgn_pat m Rm). unfold max_better; cbn [fst snd].
        symmetry in Ma. destruct (smax_time_in _ _ _ Ma) as (x & Ix & Ex). specialize (A3 x (t, Some v) Ix (or_introl eq_refl)). cbn [fst] in A3.
        destruct (m <? v) eqn:B1; cbn [dec]; rewrite ?sgn_pat by assumption;
          destruct ((v <? m) || ((m =? v) && (tm <=? t))) eqn:B2; auto; lia.
      - rewrite <- Ma. cbn [pick dec]. rewrite (sgn_pat v V). reflexivity. }
    split.
    + intros p t0 E. unfold OG.C07.ModelStats.ref_step in E. destruct mn as [[pm tm] |].
      * destruct (ilt (pat v) pm); inversion E; subst; [exists v; auto | apply (Pi _ _ eq_refl)].
      * inversion E; subst. exists v; auto.
    + intros p t0 E. unfold OG.C07.ModelStats.ref_step in E. destruct mx as [[pm tm] |].
      * destruct (ilt pm (pat v)); inversion E; subst; [exists v; auto | apply (Pa _ _ eq_refl)].
      * inversion E; subst. exists v; auto.
Qed.

Lemma c07_rows_concat : forall segs, concat (map c07_rows segs) = c07_rows (concat segs).
Proof. induction segs as [| s segs IH]; cbn; auto. rewrite c07_rows_app, IH. reflexivity. Qed.

(* the builder model of C07 and the statistics of C09 agree on every segment layout *)
Theorem builder_models_agree : forall segs : list (list row), asc (concat segs) -> vals_in_range (concat segs) ->
  let s7 := OG.C07.ModelStats.int_build true (map c07_rows segs) in
  let s9 := build_stats (concat segs) in
  OG.C07.ModelPreAgg.s_cnt s7 = cnt s9 /\
  OG.C07.ModelPreAgg.s_sum s7 = pat (sum s9) /\
  (cnt s9 <> 0 -> smin s9 = Some (sgn64 (OG.C07.ModelPreAgg.s_min s7), OG.C07.ModelPreAgg.s_minT s7) /\
                  smax s9 = Some (sgn64 (OG.C07.ModelPreAgg.s_max s7), OG.C07.ModelPreAgg.s_maxT s7)).
Proof.
  intros segs A R s7 s9. subst s7.
  rewrite OG.C07.ProofsStats.stats_int_repaired. unfold OG.C07.ModelStats.int_reference, OG.C07.ModelStats.reference.
  rewrite c07_rows_concat. pose proof (reference_ok (concat segs) A R) as H.
  destruct (ref_loop None None 0 0 (c07_rows (concat segs))) as [[[mn mx] sm] n].
  destruct H as (C & S & Mi & Ma & _ & _). fold s9 in C, S, Mi, Ma.
  unfold OG.C07.ModelStats.int_ref_stat, OG.C07.ModelStats.ref_stat.
  cbn [OG.C07.ModelPreAgg.s_cnt OG.C07.ModelPreAgg.s_sum OG.C07.ModelPreAgg.s_min OG.C07.ModelPreAgg.s_max OG.C07.ModelPreAgg.s_minT OG.C07.ModelPreAgg.s_maxT].
  split; [exact C |]. split; [exact S |]. intros NZ.
  assert (Smin : smin s9 <> None).
  { intros E. pose proof (build_stats_min_spec (concat segs)) as Sp. fold s9 in Sp. rewrite E in Sp. cbn in Sp.
    destruct (build_stats_count_sum (concat segs)) as [Cn _]. fold s9 in Cn. rewrite <- vt_values, map_length, Sp in Cn. cbn in Cn. lia. }
  assert (Smax : smax s9 <> None).
  { intros E. pose proof (build_stats_max_spec (concat segs)) as Sp. fold s9 in Sp. rewrite E in Sp. cbn in Sp.
    destruct (build_stats_count_sum (concat segs)) as [Cn _]. fold s9 in Cn. rewrite <- vt_values, map_length, Sp in Cn. cbn in Cn. lia. }
  destruct mn as [[pm tm] |]; cbn [dec] in Mi; [| congruence].
  destruct mx as [[px tx] |]; cbn [dec] in Ma; [| congruence].
  split; congruence.
Qed.
