(* C09 - proofs about time buckets and tag groups (BucketModel.v) *)
From Coq Require Import ZArith List Bool Lia Permutation.
From OG Require Import C09.Model C09.Proofs C09.BucketModel.
Import ListNotations.
Open Scope Z_scope.

Lemma filter_and : forall A (p q : A -> bool) l, filter (fun x => p x && q x) l = filter q (filter p l).
Proof.
  induction l as [| x l IH]; cbn; auto. destruct (p x); cbn; [destruct (q x); rewrite IH; reflexivity | auto].
Qed.

Lemma seg_bucket_filter_id : forall lo hi w b s, 0 < w -> wf_segment s -> covered lo hi s = true -> seg_in_bucket w b s = true ->
  filter (in_rb lo hi w b) (s_rows s) = s_rows s.
Proof.
  intros lo hi w b s Hw W C B. pose proof (covered_filter_id lo hi s W C) as F.
  destruct W as (N & S & _). apply filter_all. intros r I.
  assert (R : in_range lo hi r = true). { rewrite <- F in I. apply filter_In in I. tauto. }
  unfold in_rb. rewrite R. cbn [andb]. pose proof (sorted_bounds _ r S I) as Bd.
  unfold seg_in_bucket, seg_min, seg_max, in_bucket, bucket_of in *. apply andb_true_iff in B. destruct B as [B1 B2].
  apply Z.eqb_eq in B1. apply Z.eqb_eq in B2. apply Z.eqb_eq.
  destruct (s_rows s) as [| x rows] eqn:E; [congruence |].
  assert (L1 : fst x / w <= fst r / w) by (apply Z.div_le_mono; lia).
  assert (L2 : fst r / w <= fst (last (x :: rows) (0, None)) / w) by (apply Z.div_le_mono; lia).
  lia.
Qed.

Lemma agg_segment_bucket_spec : forall use lo hi w b s, 0 < w -> wf_segment s ->
  agg_segment_bucket use lo hi w b s = build_stats (filter (in_rb lo hi w b) (s_rows s)).
Proof.
  intros use lo hi w b s Hw W. unfold agg_segment_bucket.
  destruct (use s && covered lo hi s && seg_in_bucket w b s) eqn:E; auto.
  apply andb_true_iff in E. destruct E as [E B]. apply andb_true_iff in E. destruct E as [_ C].
  rewrite (seg_bucket_filter_id lo hi w b s Hw W C B). destruct W as (_ & _ & S). exact S.
Qed.

Lemma agg_series_bucket_spec : forall use lo hi w b sr, 0 < w -> Forall wf_segment (g_segs sr) ->
  agg_series_bucket use lo hi w b sr = build_stats (filter (in_rb lo hi w b) (series_rows sr)).
Proof.
  intros use lo hi w b sr Hw W. unfold agg_series_bucket, series_rows, all_rows. rewrite filter_app, build_stats_app.
  induction W as [| s segs Ws Wsegs IH]; cbn [fold_right map concat].
  - rewrite combine_empty_l. reflexivity.
  - rewrite IH, (agg_segment_bucket_spec use lo hi w b s Hw Ws), filter_app, build_stats_app, combine_assoc. reflexivity.
Qed.

Definition wf_series (sr : series) : Prop := Forall wf_segment (g_segs sr).

Lemma agg_group_bucket_spec : forall use lo hi w ss g b, 0 < w -> Forall wf_series ss ->
  agg_group_bucket use lo hi w ss g b = build_stats (filter (in_rb lo hi w b) (group_rows ss g)).
Proof.
  intros use lo hi w ss g b Hw W. unfold agg_group_bucket, group_rows.
  induction W as [| sr ss Wsr Wss IH]; cbn [fold_right filter]; auto.
  destruct (g_key sr =? g); auto. cbn [map concat].
  rewrite IH, (agg_series_bucket_spec use lo hi w b sr Hw Wsr), filter_app, build_stats_app. reflexivity.
Qed.

Lemma agg_group_short_spec : forall lo hi ss g, Forall wf_series ss ->
  agg_group_short lo hi ss g = build_stats (filter (in_range lo hi) (group_rows ss g)).
Proof.
  intros lo hi ss g W. unfold agg_group_short, group_rows.
  induction W as [| sr ss Wsr Wss IH]; cbn [fold_right filter]; auto.
  destruct (g_key sr =? g); auto. cbn [map concat].
  rewrite IH, (agg_short_spec lo hi _ _ Wsr), filter_app, build_stats_app. reflexivity.
Qed.

Lemma in_buckets : forall lo hi w t, 0 < w -> lo <= t <= hi -> In (bucket_of w t) (buckets lo hi w).
Proof.
  intros lo hi w t Hw R. unfold buckets, bucket_of.
  assert (L1 : lo / w <= t / w) by (apply Z.div_le_mono; lia).
  assert (L2 : t / w <= hi / w) by (apply Z.div_le_mono; lia).
  apply in_map_iff. exists (Z.to_nat (t / w - lo / w)). split; [lia |]. apply in_seq. lia.
Qed.

Lemma buckets_nodup : forall lo hi w, NoDup (buckets lo hi w).
Proof.
  intros. unfold buckets. apply FinFun.Injective_map_NoDup; [| apply seq_NoDup]. intros x y E. lia.
Qed.

Definition fold_stats (l : list stats) : stats := fold_right combine empty l.

Lemma fold_one_hit : forall (bs : list Z) (b0 : Z) (x : stats) (f : Z -> stats), NoDup bs -> In b0 bs ->
  fold_stats (map (fun b => if b =? b0 then combine x (f b) else f b) bs) = combine x (fold_stats (map f bs)).
Proof.
  induction bs as [| b bs IH]; intros b0 x f ND I; [destruct I |]. inversion ND as [| ? ? NI ND']; subst.
  unfold fold_stats in *. cbn [map fold_right]. destruct (b =? b0) eqn:E.
  - apply Z.eqb_eq in E. subst b0. rewrite combine_assoc. f_equal. f_equal. f_equal. apply map_ext_in.
    intros a Ia. destruct (a =? b) eqn:E2; auto. apply Z.eqb_eq in E2. subst. contradiction.
  - destruct I as [I | I]; [subst; rewrite Z.eqb_refl in E; discriminate |].
    rewrite (IH b0 x f ND' I). rewrite <- !combine_assoc, (combine_comm (f b) x). reflexivity.
Qed.

Lemma fold_empty : forall (bs : list Z), fold_stats (map (fun _ => empty) bs) = empty.
Proof. induction bs; cbn; auto. unfold fold_stats in *. cbn. rewrite IHbs. reflexivity. Qed.

Lemma bucket_partition_gen : forall lo hi w bs rows, NoDup bs ->
  (forall r, In r rows -> in_range lo hi r = true -> In (bucket_of w (fst r)) bs) ->
  build_stats (filter (in_range lo hi) rows) = fold_stats (map (fun b => build_stats (filter (in_rb lo hi w b) rows)) bs).
Proof.
  intros lo hi w bs rows ND. induction rows as [| r rows IH]; intros H.
  - cbn [filter]. change (build_stats []) with empty. rewrite fold_empty. reflexivity.
  - cbn [filter]. unfold in_rb at 1. destruct (in_range lo hi r) eqn:R; cbn [andb].
    + change (build_stats (r :: filter (in_range lo hi) rows)) with (combine (of_row r) (build_stats (filter (in_range lo hi) rows))).
      rewrite IH by (intros; apply H; [right |]; auto).
      rewrite <- (fold_one_hit bs (bucket_of w (fst r)) (of_row r) _ ND (H r (or_introl eq_refl) R)).
      f_equal. apply map_ext. intros b. unfold in_bucket. destruct (bucket_of w (fst r) =? b) eqn:E.
      * apply Z.eqb_eq in E. subst b. rewrite Z.eqb_refl. reflexivity.
      * rewrite Z.eqb_sym, E. reflexivity.
    + rewrite IH by (intros; apply H; [right |]; auto). reflexivity.
Qed.

Lemma bucket_partition : forall lo hi w rows, 0 < w ->
  build_stats (filter (in_range lo hi) rows) =
  fold_stats (map (fun b => build_stats (filter (in_rb lo hi w b) rows)) (buckets lo hi w)).
Proof.
  intros lo hi w rows Hw. apply bucket_partition_gen; [apply buckets_nodup |].
  intros r _ R. unfold in_range in R. apply andb_true_iff in R. destruct R as [R1 R2].
  apply Z.leb_le in R1. apply Z.leb_le in R2. apply in_buckets; auto.
Qed.

Lemma bucket_of_range : forall w t, 0 < w -> bucket_of w t * w <= t < (bucket_of w t + 1) * w.
Proof. intros w t Hw. unfold bucket_of. pose proof (Z.mul_div_le t w Hw). pose proof (Z.mul_succ_div_gt t w Hw). lia. Qed.
