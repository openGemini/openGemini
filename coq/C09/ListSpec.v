(* C09 - independent LIST SPECIFICATIONS of min / max / first / last (with their tie rules) and proofs that the
   statistics builder (build_stats) and the combination of partial results (combine) meet them.

   The specifications talk about the list of non-null (value, time) pairs only - no fold, no pick:
     min   : the value is a lower bound of all values; among the rows carrying it, the reported time is the EARLIEST
     max   : the value is an upper bound; among the rows carrying it, the reported time is the EARLIEST
             (engine: IntegerPreAgg.addValues / readMinRowIndex use a strict comparison while scanning in time order,
              minMeta / maxMeta / addMin / addMax prefer the smaller time on equal values)
     first : the time is the SMALLEST time; among rows of that time (only possible across containers / series) the
             GREATER value is reported   (engine: firstMeta + compareMin take the other side when it is greater)
     last  : the time is the GREATEST time; among rows of that time the GREATER value is reported (lastMeta + compareMin)
   Each specification determines its result uniquely (spec_*_unique). *)
From Coq Require Import ZArith List Bool Lia ZifyBool Permutation.
From OG Require Import C09.Model C09.Proofs.
Import ListNotations.
Open Scope Z_scope.

(* the non-null (value, time) pairs of a row list *)
Definition vt (rows : list row) : list (Z * Z) :=
  flat_map (fun r : row => match snd r with Some v => [(v, fst r)] | None => [] end) rows.

Definition spec_min (rows : list row) (o : option (Z * Z)) : Prop :=
  match o with
  | None => vt rows = []
  | Some (v, t) => In (v, t) (vt rows) /\ forall v' t', In (v', t') (vt rows) -> v <= v' /\ (v' = v -> t <= t')
  end.
Definition spec_max (rows : list row) (o : option (Z * Z)) : Prop :=
  match o with
  | None => vt rows = []
  | Some (v, t) => In (v, t) (vt rows) /\ forall v' t', In (v', t') (vt rows) -> v' <= v /\ (v' = v -> t <= t')
  end.
Definition spec_first (rows : list row) (o : option (Z * Z)) : Prop :=
  match o with
  | None => vt rows = []
  | Some (v, t) => In (v, t) (vt rows) /\ forall v' t', In (v', t') (vt rows) -> t <= t' /\ (t' = t -> v' <= v)
  end.
Definition spec_last (rows : list row) (o : option (Z * Z)) : Prop :=
  match o with
  | None => vt rows = []
  | Some (v, t) => In (v, t) (vt rows) /\ forall v' t', In (v', t') (vt rows) -> t' <= t /\ (t' = t -> v' <= v)
  end.

Lemma vt_cons_some : forall t v rows, vt ((t, Some v) :: rows) = (v, t) :: vt rows.
Proof. reflexivity. Qed.
Lemma vt_cons_none : forall t rows, vt ((t, None) :: rows) = vt rows.
Proof. reflexivity. Qed.
Lemma vt_app : forall a b, vt (a ++ b) = vt a ++ vt b.
Proof. intros. unfold vt. apply flat_map_app. Qed.
Lemma vt_in : forall rows v t, In (v, t) (vt rows) <-> In (t, Some v) rows.
Proof.
  induction rows as [| [t0 [v0 |]] rows IH]; intros v t.
  - split; intros [].
  - rewrite vt_cons_some. cbn [In]. rewrite IH. split; intros [E | I]; auto; left; congruence.
  - rewrite vt_cons_none. cbn [In]. rewrite IH. split; [auto | intros [E | I]; [discriminate | auto]].
Qed.

Lemma build_cons_some : forall t v rows,
  build_stats ((t, Some v) :: rows) = combine (of_row (t, Some v)) (build_stats rows).
Proof. reflexivity. Qed.
Lemma build_cons_none : forall t rows, build_stats ((t, None) :: rows) = build_stats rows.
Proof. intros. change (build_stats ((t, None) :: rows)) with (combine empty (build_stats rows)). apply combine_empty_l. Qed.

(* all four specifications say: the result is the best candidate of the list for the tie rule, a total order *)
Definition best (better : Z * Z -> Z * Z -> bool) (l : list (Z * Z)) (o : option (Z * Z)) : Prop :=
  match o with
  | None => l = []
  | Some x => In x l /\ forall y, In y l -> better x y = true
  end.

Lemma spec_best : forall better (P : Z -> Z -> Z -> Z -> Prop),
  (forall v t v' t', P v t v' t' <-> better (v, t) (v', t') = true) ->
  forall l o, match o with
              | None => l = []
              | Some (v, t) => In (v, t) l /\ forall v' t', In (v', t') l -> P v t v' t'
              end <-> best better l o.
Proof.
  intros better P H l [[v t]|]; [|reflexivity]. split; intros [I J]; (split; [exact I|]).
  - intros [v' t'] K. apply H, J, K.
  - intros v' t' K. apply H, (J _ K).
Qed.

Lemma spec_min_best : forall rows o, spec_min rows o <-> best min_better (vt rows) o.
Proof. intros. apply (spec_best min_better (fun v t v' t' => v <= v' /\ (v' = v -> t <= t'))). unfold min_better. cbn. lia. Qed.
Lemma spec_max_best : forall rows o, spec_max rows o <-> best max_better (vt rows) o.
Proof. intros. apply (spec_best max_better (fun v t v' t' => v' <= v /\ (v' = v -> t <= t'))). unfold max_better. cbn. lia. Qed.
Lemma spec_first_best : forall rows o, spec_first rows o <-> best first_better (vt rows) o.
Proof. intros. apply (spec_best first_better (fun v t v' t' => t <= t' /\ (t' = t -> v' <= v))). unfold first_better. cbn. lia. Qed.
Lemma spec_last_best : forall rows o, spec_last rows o <-> best last_better (vt rows) o.
Proof. intros. apply (spec_best last_better (fun v t v' t' => t' <= t /\ (t' = t -> v' <= v))). unfold last_better. cbn. lia. Qed.

Section Best.
  Variable better : Z * Z -> Z * Z -> bool.
  Hypothesis O : total_order better.

  Lemma best_unique : forall l a b, best better l a -> best better l b -> a = b.
  Proof.
    destruct O as (_ & A & _). intros l [x|] [y|]; cbn [best]; intros Ha Hb; auto.
    - destruct Ha as [Ia Ha], Hb as [Ib Hb]. f_equal. apply A; auto.
    - destruct Ha as [Ia _]. rewrite Hb in Ia. destruct Ia.
    - destruct Hb as [Ib _]. rewrite Ha in Ib. destruct Ib.
  Qed.

  Lemma better_refl : forall x, better x x = true.
  Proof. destruct O as (T & _). intros x. destruct (better x x) eqn:E; [reflexivity|]. rewrite <- E. exact (T x x E). Qed.

  (* the best of two lists is the better of their best candidates *)
  Lemma best_pick : forall la lb a b, best better la a -> best better lb b -> best better (la ++ lb) (pick better a b).
  Proof.
    destruct O as (T & _ & R). intros la lb [x|] [y|]; cbn [best pick]; intros Ha Hb.
    - destruct Ha as [Ia Ha], Hb as [Ib Hb]. destruct (better x y) eqn:E; (split; [apply in_or_app; auto|]);
        intros z I; apply in_app_or in I; destruct I as [I|I]; auto.
      + apply (R x y z E). auto.
      + apply (R y x z (T x y E)). auto.
    - subst lb. rewrite app_nil_r. exact Ha.
    - subst la. exact Hb.
    - subst la lb. reflexivity.
  Qed.

  (* build_stats keeps the best candidate in every component that combines by `pick better` *)
  Lemma build_stats_best : forall sel : stats -> option (Z * Z),
    (forall a b, sel (combine a b) = pick better (sel a) (sel b)) ->
    (forall t v, sel (of_row (t, Some v)) = Some (v, t)) -> sel empty = None ->
    forall rows, best better (vt rows) (sel (build_stats rows)).
  Proof.
    intros sel Hc Hr He. induction rows as [| [t [v |]] rows IH].
    - cbn [build_stats fold_right]. rewrite He. reflexivity.
    - rewrite build_cons_some, Hc, Hr, vt_cons_some. apply (best_pick [(v, t)]); [|exact IH].
      split; [left; reflexivity|]. intros y [<-|[]]. apply better_refl.
    - rewrite build_cons_none. exact IH.
  Qed.
End Best.

Lemma spec_min_unique : forall rows a b, spec_min rows a -> spec_min rows b -> a = b.
Proof. intros rows a b A B. apply spec_min_best in A, B. exact (best_unique _ min_order _ _ _ A B). Qed.
Lemma spec_max_unique : forall rows a b, spec_max rows a -> spec_max rows b -> a = b.
Proof. intros rows a b A B. apply spec_max_best in A, B. exact (best_unique _ max_order _ _ _ A B). Qed.
Lemma spec_first_unique : forall rows a b, spec_first rows a -> spec_first rows b -> a = b.
Proof. intros rows a b A B. apply spec_first_best in A, B. exact (best_unique _ first_order _ _ _ A B). Qed.
Lemma spec_last_unique : forall rows a b, spec_last rows a -> spec_last rows b -> a = b.
Proof. intros rows a b A B. apply spec_last_best in A, B. exact (best_unique _ last_order _ _ _ A B). Qed.

(* build_stats meets the specifications, for EVERY row list (no order assumption) *)
Lemma build_stats_min_spec : forall rows, spec_min rows (smin (build_stats rows)).
Proof. intros. apply spec_min_best. apply (build_stats_best _ min_order smin); reflexivity. Qed.
Lemma build_stats_max_spec : forall rows, spec_max rows (smax (build_stats rows)).
Proof. intros. apply spec_max_best. apply (build_stats_best _ max_order smax); reflexivity. Qed.
Lemma build_stats_first_spec : forall rows, spec_first rows (sfirst (build_stats rows)).
Proof. intros. apply spec_first_best. apply (build_stats_best _ first_order sfirst); reflexivity. Qed.
Lemma build_stats_last_spec : forall rows, spec_last rows (slast (build_stats rows)).
Proof. intros. apply spec_last_best. apply (build_stats_best _ last_order slast); reflexivity. Qed.

(* all four at once, plus count and sum against the same list *)
Definition spec_all (rows : list row) (s : stats) : Prop :=
  cnt s = Z.of_nat (length (vt rows)) /\ sum s = fold_right Z.add 0 (map fst (vt rows)) /\
  spec_min rows (smin s) /\ spec_max rows (smax s) /\ spec_first rows (sfirst s) /\ spec_last rows (slast s).

Lemma vt_values : forall rows, map fst (vt rows) = values rows.
Proof.
  induction rows as [| [t [v |]] rows IH]; auto.
  - rewrite vt_cons_some. cbn [map fst]. rewrite IH. reflexivity.
Qed.

Lemma build_stats_spec_all : forall rows, spec_all rows (build_stats rows).
Proof.
  intros rows. destruct (build_stats_count_sum rows) as [C S]. unfold spec_all.
  rewrite vt_values, <- (map_length fst (vt rows)), vt_values.
  split; [exact C | split; [exact S | split; [| split; [| split]]]].
  - apply build_stats_min_spec.
  - apply build_stats_max_spec.
  - apply build_stats_first_spec.
  - apply build_stats_last_spec.
Qed.

Lemma spec_all_unique : forall rows a b, spec_all rows a -> spec_all rows b -> a = b.
Proof.
  intros rows a b (A1 & A2 & A3 & A4 & A5 & A6) (B1 & B2 & B3 & B4 & B5 & B6).
  apply stats_eq; try congruence.
  - eapply spec_min_unique; eauto.
  - eapply spec_max_unique; eauto.
  - eapply spec_first_unique; eauto.
  - eapply spec_last_unique; eauto.
Qed.

Lemma spec_all_perm : forall a b s, Permutation a b -> spec_all a s -> spec_all b s.
Proof.
  intros a b s P HA. rewrite (spec_all_unique a s (build_stats a) HA (build_stats_spec_all a)).
  rewrite (build_stats_perm a b P). apply build_stats_spec_all.
Qed.

Fixpoint first_nonnull (rows : list row) : option (Z * Z) :=
  match rows with
  | [] => None
  | (t, Some v) :: _ => Some (v, t)
  | (_, None) :: rest => first_nonnull rest
  end.
Fixpoint last_nonnull (rows : list row) : option (Z * Z) :=
  match rows with
  | [] => None
  | (t, o) :: rest => match last_nonnull rest with
                      | Some r => Some r
                      | None => match o with Some v => Some (v, t) | None => None end
                      end
  end.

(* strictly ascending times (inductive form; the nth-based sorted_rows of Model.v is equivalent, see asc_sorted_rows) *)
Fixpoint asc (rows : list row) : Prop :=
  match rows with
  | [] => True
  | r :: rest => (forall r', In r' rest -> fst r < fst r') /\ asc rest
  end.

Lemma asc_app : forall a b, asc (a ++ b) <-> asc a /\ asc b /\ (forall x y, In x a -> In y b -> fst x < fst y).
Proof.
  induction a as [| r a IH]; intros b; cbn [app asc].
  - split; [intros H; repeat split; auto; intros x y [] | intros (_ & H & _); exact H].
  - rewrite IH. split.
    + intros (H1 & H2 & H3 & H4). repeat split; auto.
      * intros r' I. apply H1. apply in_or_app; auto.
      * intros x y [E | I] J; [subst; apply H1; apply in_or_app; auto | apply H4; auto].
    + intros ((H1 & H2) & H3 & H4). repeat split; auto.
      * intros r' I. apply in_app_or in I. destruct I as [I | I]; [apply H1; auto | apply H4; cbn; auto].
      * intros x y I J. apply H4; cbn; auto.
Qed.

Lemma asc_filter : forall p rows, asc rows -> asc (filter p rows).
Proof.
  induction rows as [| r rows IH]; cbn [filter asc]; auto. intros [H1 H2]. destruct (p r); cbn [asc]; auto.
  split; auto. intros r' I. apply filter_In in I. apply H1. tauto.
Qed.

Lemma vt_in_row : forall rows v t, In (v, t) (vt rows) -> exists r, In r rows /\ fst r = t.
Proof. intros rows v t I. apply vt_in in I. exists (t, Some v). auto. Qed.

Lemma first_nonnull_none : forall rows, first_nonnull rows = None -> vt rows = [].
Proof.
  induction rows as [| [t [v |]] rows IH]; cbn [first_nonnull]; auto; try discriminate.
Qed.
Lemma last_nonnull_none : forall rows, last_nonnull rows = None -> vt rows = [].
Proof.
  induction rows as [| [t o] rows IH]; cbn [last_nonnull]; auto.
  destruct (last_nonnull rows); [discriminate |]. destruct o; [discriminate |]. intros _. rewrite vt_cons_none. auto.
Qed.

Lemma first_nonnull_spec : forall rows, asc rows -> spec_first rows (first_nonnull rows).
Proof.
  induction rows as [| [t [v |]] rows IH]; intros A.
  - reflexivity.
  - cbn [first_nonnull spec_first]. rewrite vt_cons_some. split; [left; reflexivity |].
    intros v' t' [E | I]; [inversion E; subst; lia |]. destruct A as [A1 _].
    destruct (vt_in_row _ _ _ I) as (r & Ir & Er). specialize (A1 r Ir). cbn [fst] in A1. lia.
  - cbn [first_nonnull]. change (spec_first rows (first_nonnull rows)). apply IH. apply A.
Qed.

Lemma last_nonnull_spec : forall rows, asc rows -> spec_last rows (last_nonnull rows).
Proof.
  induction rows as [| [t o] rows IH]; intros A.
  - reflexivity.
  - destruct A as [A1 A2]. specialize (IH A2). cbn [last_nonnull].
    destruct (last_nonnull rows) as [[v0 t0] |] eqn:E.
    + cbn [spec_last] in *. destruct IH as [I0 H0].
      assert (LT : t < t0). { destruct (vt_in_row _ _ _ I0) as (r & Ir & Er). specialize (A1 r Ir). cbn [fst] in A1. lia. }
      destruct o as [v |].
      * rewrite vt_cons_some. split; [right; exact I0 |]. intros v' t' [Eq | I]; [inversion Eq; subst; lia | apply H0; auto].
      * change (vt ((t, None) :: rows)) with (vt rows). split; auto.
    + apply last_nonnull_none in E. destruct o as [v |].
      * cbn [spec_last]. rewrite vt_cons_some, E. split; [left; reflexivity |]. intros v' t' [Eq | []]. inversion Eq; subst; lia.
      * cbn [spec_last]. change (vt ((t, None) :: rows)) with (vt rows). exact E.
Qed.

Lemma sfirst_first_nonnull : forall rows, asc rows -> sfirst (build_stats rows) = first_nonnull rows.
Proof. intros rows A. eapply spec_first_unique; [apply build_stats_first_spec | apply first_nonnull_spec; exact A]. Qed.
Lemma slast_last_nonnull : forall rows, asc rows -> slast (build_stats rows) = last_nonnull rows.
Proof. intros rows A. eapply spec_last_unique; [apply build_stats_last_spec | apply last_nonnull_spec; exact A]. Qed.

Lemma first_nonnull_app : forall a b, first_nonnull (a ++ b) = match first_nonnull a with Some r => Some r | None => first_nonnull b end.
Proof. induction a as [| [t [v |]] a IH]; intros b; cbn [app first_nonnull]; auto. Qed.
Lemma last_nonnull_app : forall a b, last_nonnull (a ++ b) = match last_nonnull b with Some r => Some r | None => last_nonnull a end.
Proof.
  induction a as [| [t o] a IH]; intros b; cbn [app last_nonnull].
  - destruct (last_nonnull b); reflexivity.
  - rewrite IH. destruct (last_nonnull b); reflexivity.
Qed.

Lemma sorted_rows_asc : forall rows, sorted_rows rows -> asc rows.
Proof.
  induction rows as [| r rows IH]; intros S; cbn [asc]; auto. split.
  - intros r' I. apply In_nth with (d := (0, None)) in I. destruct I as (i & Hi & E). subst r'.
    specialize (S 0%nat (Datatypes.S i)). cbn [nth length] in S. apply S. lia.
  - apply IH. intros i j H. specialize (S (Datatypes.S i) (Datatypes.S j)). cbn [nth length] in S. apply S. lia.
Qed.
Lemma asc_sorted_rows : forall rows, asc rows -> sorted_rows rows.
Proof.
  induction rows as [| r rows IH]; intros A i j H; cbn [length] in H; [lia |]. destruct A as [A1 A2].
  destruct j as [| j]; [lia |]. destruct i as [| i]; cbn [nth].
  - apply A1. apply nth_In. lia.
  - apply IH; auto. lia.
Qed.
