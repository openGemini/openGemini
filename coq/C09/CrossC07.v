(* C09 x C07: one source of truth about the stored statistics. C07 models the statistics BUILDERS
   (coq/C07/ModelStats.v: IntegerPreAgg.reset / addValues accumulated segment by segment over int64 bit patterns, with the
   repaired start-value rule); C09 models the statistics as build_stats of the rows. Imported, not copied: on every run the
   two models are evaluated on the decoded segments of every integer column of every data file the harness produces and must
   agree - and C09's build_stats is compared with what is STORED (Corr.check_stored), so stored = C09 = C07. *)
From Coq Require Import ZArith List Bool.
From OG Require Import C09.Model C09.ChunkModel C09.Corr.
From OG Require C07.Model C07.ModelPreAgg C07.ModelStats.
Import ListNotations.
Open Scope Z_scope.

(* for an integer column, C07's builder model run over the decoded SEGMENTS (int64 bit patterns, accumulation segment by
   segment, repaired start-value rule) must give the statistics C09's build_stats gives over the concatenated rows: count,
   sum, min and max with their times *)
Definition c07_rows (s : list row) : list OG.C07.ModelStats.srow :=
  map (fun r : row => (option_map (fun v => v mod OG.C07.Model.M64) (snd r), fst r)) s.
Definition check_c07_int (segs : list (list mrow)) (f : nat) : bool :=
  let rows := map (col f) segs in
  let s7 := OG.C07.ModelStats.int_build true (map c07_rows rows) in
  let s9 := build_stats (concat rows) in
  let sg := OG.C07.ModelPreAgg.sgn64 in
  (OG.C07.ModelPreAgg.s_cnt s7 =? cnt s9)
  && (if cnt s9 =? 0 then true
      else (sg (OG.C07.ModelPreAgg.s_sum s7) =? sum s9)
           && opt_pair_eqb (smin s9) (Some (sg (OG.C07.ModelPreAgg.s_min s7), OG.C07.ModelPreAgg.s_minT s7))
           && opt_pair_eqb (smax s9) (Some (sg (OG.C07.ModelPreAgg.s_max s7), OG.C07.ModelPreAgg.s_maxT s7))).
Definition check_c07 (segs : list (list mrow)) (s : stored) : bool :=
  let '(f, kind, _, _, _, _) := s in if kind =? 0 then check_c07_int segs f else true.


(* chunk results plus kind 4 = the two models disagree on an integer column *)
Fixpoint c07_from (k : nat) (cs : list chunk_case) : list (nat * nat * nat) :=
  match cs with
  | [] => []
  | cc :: rest => map (fun i => (k, 4, i)%nat) (bad_indices (check_c07 (fst (fst (fst cc)))) 0 (snd (fst cc))) ++ c07_from (S k) rest
  end.
Definition flat_chunks7 (cs : list chunk_case) : list (nat * nat * nat) := flat_chunks cs ++ c07_from 0 cs.

(* the cross-check is not vacuous: two segments, nulls, the minimum 3 carried by two rows (earliest time 2 reported), sum 16 *)
Example check_c07_example :
  let segs := [[(1, [Some 7]); (2, [Some 3]); (4, [None])]; [(5, [Some 3]); (6, [Some 3])]] in
  check_c07_int segs 0 = true /\
  OG.C07.ModelPreAgg.s_minT (OG.C07.ModelStats.int_build true (map c07_rows (map (col 0) segs))) = 2 /\
  OG.C07.ModelPreAgg.s_sum (OG.C07.ModelStats.int_build true (map c07_rows (map (col 0) segs))) = 16.
Proof. vm_compute. repeat split. Qed.
