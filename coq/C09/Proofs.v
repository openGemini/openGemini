(* C09: the partial aggregates form a commutative monoid (each tie rule is a total order on (value, time) pairs and `pick`
   keeps the smaller candidate); statistics of a concatenation and of a permutation; the segment shortcut. *)
From Coq Require Import ZArith List Bool Lia ZifyBool Permutation.
From OG Require Import C09.Model.
Import ListNotations.
Open Scope Z_scope.

(* every tie rule is a total order on (value, time) pairs; `pick` keeps the smaller of two candidates, so it is
   commutative and associative for each of them *)
Definition total_order (better : Z * Z -> Z * Z -> bool) : Prop :=
  (forall x y, better x y = false -> better y x = true) /\
  (forall x y, better x y = true -> better y x = true -> x = y) /\
  (forall x y z, better x y = true -> better y z = true -> better x z = true).

Lemma pick_comm : forall better, total_order better -> forall a b, pick better a b = pick better b a.
Proof.
  intros better (T & A & _) [x|] [y|]; cbn [pick]; try reflexivity.
  destruct (better x y) eqn:X, (better y x) eqn:Y; try reflexivity.
  - f_equal. apply A; assumption.
  - rewrite (T x y X) in Y. discriminate.
Qed.

Lemma pick_assoc : forall better, total_order better ->
  forall a b c, pick better (pick better a b) c = pick better a (pick better b c).
Proof.
  intros better (T & _ & R) [x|] [y|] [z|]; cbn [pick]; try reflexivity;
    try (destruct (better x y); reflexivity).
  destruct (better x y) eqn:X, (better y z) eqn:Y; cbn [pick]; rewrite ?X, ?Y; try reflexivity.
  - rewrite (R x y z X Y). reflexivity.
  - destruct (better x z) eqn:Z; [|reflexivity].
    rewrite (R y x z (T x y X) Z) in Y. discriminate.
Qed.

Lemma pair_eq : forall a b c d : Z, a = c -> b = d -> (a, b) = (c, d).
Proof. congruence. Qed.

Lemma min_order : total_order min_better.
Proof. unfold total_order, min_better. repeat split; intros [? ?] [? ?]; try intros [? ?]; cbn [fst snd]; intros; try apply pair_eq; lia. Qed.
Lemma max_order : total_order max_better.
Proof. unfold total_order, max_better. repeat split; intros [? ?] [? ?]; try intros [? ?]; cbn [fst snd]; intros; try apply pair_eq; lia. Qed.
Lemma first_order : total_order first_better.
Proof. unfold total_order, first_better. repeat split; intros [? ?] [? ?]; try intros [? ?]; cbn [fst snd]; intros; try apply pair_eq; lia. Qed.
Lemma last_order : total_order last_better.
Proof. unfold total_order, last_better. repeat split; intros [? ?] [? ?]; try intros [? ?]; cbn [fst snd]; intros; try apply pair_eq; lia. Qed.

Lemma stats_eq : forall a b, cnt a = cnt b -> sum a = sum b -> smin a = smin b -> smax a = smax b ->
  sfirst a = sfirst b -> slast a = slast b -> a = b.
Proof. intros [] []; cbn; intros; subst; reflexivity. Qed.

Lemma combine_comm : forall a b, combine a b = combine b a.
Proof.
  intros a b. apply stats_eq; cbn; try lia.
  - apply pick_comm, min_order.
  - apply pick_comm, max_order.
  - apply pick_comm, first_order.
  - apply pick_comm, last_order.
Qed.
Lemma combine_assoc : forall a b c, combine (combine a b) c = combine a (combine b c).
Proof.
  intros a b c. apply stats_eq; cbn; try lia.
  - apply pick_assoc, min_order.
  - apply pick_assoc, max_order.
  - apply pick_assoc, first_order.
  - apply pick_assoc, last_order.
Qed.
Lemma combine_empty_l : forall a, combine empty a = a.
Proof. intros []; reflexivity. Qed.
Lemma combine_empty_r : forall a, combine a empty = a.
Proof. intros a. rewrite combine_comm. apply combine_empty_l. Qed.

Lemma build_stats_app : forall a b, build_stats (a ++ b) = combine (build_stats a) (build_stats b).
Proof.
  induction a as [| r a IH]; intros b; cbn.
  - rewrite combine_empty_l; reflexivity.
  - fold (build_stats (a ++ b)). fold (build_stats a). rewrite IH, combine_assoc. reflexivity.
Qed.

Lemma build_stats_perm : forall a b, Permutation a b -> build_stats a = build_stats b.
Proof.
  induction 1; cbn; auto.
  - fold (build_stats l). fold (build_stats l'). congruence.
  - fold (build_stats l). rewrite <- !combine_assoc. rewrite (combine_comm (of_row y) (of_row x)). reflexivity.
  - congruence.
Qed.

Definition values (rows : list row) : list Z := concat (map (fun r : row => match snd r with Some v => [v] | None => [] end) rows).
Lemma build_stats_count_sum : forall rows,
  cnt (build_stats rows) = Z.of_nat (length (values rows)) /\ sum (build_stats rows) = fold_right Z.add 0 (values rows).
Proof.
  induction rows as [| [t [v |]] rows [IH1 IH2]].
  - split; reflexivity.
  - change (build_stats ((t, Some v) :: rows)) with (combine (of_row (t, Some v)) (build_stats rows)).
    change (values ((t, Some v) :: rows)) with (v :: values rows).
    cbn [combine of_row cnt sum snd fold_right length]. rewrite IH1, IH2, Nat2Z.inj_succ. split; lia.
  - change (build_stats ((t, None) :: rows)) with (combine empty (build_stats rows)). rewrite combine_empty_l.
    change (values ((t, None) :: rows)) with (values rows). auto.
Qed.

(* a covered segment: every row lies in the range, so its stored statistics are the statistics of its rows in range *)
Lemma sorted_bounds : forall rows r, sorted_rows rows -> In r rows ->
  fst (match rows with x :: _ => x | [] => (0, None) end) <= fst r <= fst (last rows (0, None)).
Proof.
  intros rows r HS I. apply In_nth with (d := (0, None)) in I. destruct I as (i & Hi & E). subst r.
  assert (L : last rows (0, None) = nth (length rows - 1) rows (0, None)).
  { clear. induction rows as [| x [| y rows] IH]; cbn in *; auto. rewrite IH. destruct (length rows); cbn; auto. }
  rewrite L. split.
  - destruct rows as [| x rows]; [cbn in Hi; lia |]. destruct i; [cbn; lia |].
    specialize (HS 0%nat (Datatypes.S i)). cbn [nth] in HS. cbn [nth]. cbn [length] in *. lia.
  - destruct (Nat.eq_dec i (length rows - 1)); [subst; lia |]. specialize (HS i (length rows - 1)%nat). lia.
Qed.

Lemma filter_all : forall A (p : A -> bool) l, (forall x, In x l -> p x = true) -> filter p l = l.
Proof.
  induction l as [| x l IH]; intros H; cbn; auto. rewrite (H x (or_introl eq_refl)). f_equal. apply IH. intros; apply H; right; auto.
Qed.

Lemma covered_filter_id : forall lo hi s, wf_segment s -> covered lo hi s = true ->
  filter (in_range lo hi) (s_rows s) = s_rows s.
Proof.
  intros lo hi s (N & S & _) C. unfold covered, seg_min, seg_max in C. apply andb_true_iff in C. destruct C as [C1 C2].
  apply Z.leb_le in C1. apply Z.leb_le in C2.
  apply filter_all. intros r I. pose proof (sorted_bounds _ r S I) as B.
  unfold in_range. destruct (s_rows s) as [| x rows] eqn:E; [congruence |].
  apply andb_true_iff; split; apply Z.leb_le; lia.
Qed.

Lemma agg_segment_spec : forall lo hi s, wf_segment s ->
  agg_segment lo hi s = build_stats (filter (in_range lo hi) (s_rows s)).
Proof.
  intros lo hi s W. unfold agg_segment. destruct (covered lo hi s) eqn:C; auto.
  rewrite (covered_filter_id lo hi s W C). destruct W as (_ & _ & E). auto.
Qed.

Lemma filter_concat : forall A (p : A -> bool) (ls : list (list A)), filter p (concat ls) = concat (map (filter p) ls).
Proof. induction ls as [| l ls IH]; cbn; auto. rewrite filter_app, IH. reflexivity. Qed.

(* the shortcut evaluates to the statistics of all stored rows in range, in container order *)
Lemma agg_short_spec : forall lo hi segs mem, Forall wf_segment segs ->
  agg_short lo hi segs mem = build_stats (filter (in_range lo hi) (all_rows segs mem)).
Proof.
  intros lo hi segs mem W. unfold agg_short, all_rows. rewrite filter_app, build_stats_app.
  induction W as [| s segs Ws Wsegs IH]; cbn.
  - rewrite combine_empty_l. reflexivity.
  - rewrite IH. rewrite (agg_segment_spec lo hi s Ws). rewrite filter_app, build_stats_app, combine_assoc. reflexivity.
Qed.

Lemma multi_rows_nth : forall n rows i, (i < n)%nat -> nth i (agg_multi_rows n rows) empty = agg_rows (col i rows).
Proof.
  intros n rows i H. unfold agg_multi_rows.
  rewrite (nth_indep _ empty (agg_rows (col 0 rows))) by (rewrite map_length, seq_length; auto).
  rewrite (map_nth (fun i => agg_rows (col i rows)) (seq 0 n) 0%nat i). rewrite seq_nth; auto.
Qed.

Lemma mk_segment_wf : forall rows, rows <> [] -> sorted_rows rows -> wf_segment (mk_segment rows).
Proof. intros rows N S. repeat split; auto. Qed.
