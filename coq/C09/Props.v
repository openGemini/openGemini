(* C09 property theorems. Models: Model.v (segments, statistics monoid), ChunkModel.v (chunks, first/last reader, memtable
   statistics builders), BucketModel.v (time buckets, tag groups). The correspondence (props/C09/run.py, harness/cmd/c09)
   runs these models against the real shard on every check. *)
From Coq Require Import ZArith List Bool Lia Permutation.
From OG Require Import C09.Model C09.Proofs C09.ListSpec C09.ChunkModel C09.ChunkProofs C09.BucketModel C09.BucketProofs C09.CrossC07 C09.CrossC07Proofs.
From OG Require C07.Model C07.ModelPreAgg C07.ModelStats.
Import ListNotations.
Open Scope Z_scope.

(* build_stats_correct: count and sum stored with a segment are the count / sum of its non-null values *)
Theorem C09_build_stats_correct : forall rows,
  cnt (build_stats rows) = Z.of_nat (length (values rows)) /\ sum (build_stats rows) = fold_right Z.add 0 (values rows).
Proof. exact build_stats_count_sum. Qed.
Print Assumptions C09_build_stats_correct.

(* partial aggregates form a commutative monoid: any grouping / order of segments, files and the memtable gives the
   same result (count, sum, min, max, first, last with their tie rules) *)
Theorem C09_combine_assoc : forall a b c, combine (combine a b) c = combine a (combine b c).
Proof. exact combine_assoc. Qed.
Theorem C09_combine_comm : forall a b, combine a b = combine b a.
Proof. exact combine_comm. Qed.
Theorem C09_stats_of_concatenation : forall a b, build_stats (a ++ b) = combine (build_stats a) (build_stats b).
Proof. exact build_stats_app. Qed.
Theorem C09_order_irrelevant : forall a b, Permutation a b -> build_stats a = build_stats b.
Proof. exact build_stats_perm. Qed.

(* a segment fully inside the range may be answered from its statistics; a partially covered one from its rows:
   for every range position both are the statistics of the segment's rows inside the range *)
Theorem C09_segment_shortcut : forall lo hi s, wf_segment s ->
  agg_segment lo hi s = build_stats (filter (in_range lo hi) (s_rows s)).
Proof. exact agg_segment_spec. Qed.
Print Assumptions C09_segment_shortcut.

(* C09_equiv: for every list of well-formed segments (any file / segment layout), memtable rows and range, if the plain
   select returns exactly the stored rows of the range (a permutation: it sorts them by time) - which is the case
   whenever no (series,time) is stored in more than one flush generation - the shortcut equals the aggregate over the
   selected rows, for count, sum (hence mean), min, max, first, last at once *)
Theorem C09_equiv : forall lo hi segs mem selected, Forall wf_segment segs ->
  Permutation (filter (in_range lo hi) (all_rows segs mem)) selected ->
  agg_short lo hi segs mem = agg_rows selected.
Proof. intros. rewrite agg_short_spec; auto. apply build_stats_perm; auto. Qed.
Print Assumptions C09_equiv.

(* several aggregates in one statement (`select f(a), g(b), ..`): column i of the result is the single-column shortcut of
   column i - it does not depend on the other columns, in particular not on a column that is all-null in some container *)
Theorem C09_multi_columns_independent : forall n lo hi segs mem i, (i < n)%nat ->
  nth i (agg_multi_short n lo hi segs mem) empty = agg_short lo hi (col_segments i segs) (col i mem).
Proof.
  intros n lo hi segs mem i H. unfold agg_multi_short.
  rewrite (nth_indep _ empty (agg_short lo hi (col_segments 0 segs) (col 0 mem))) by (rewrite map_length, seq_length; auto).
  rewrite (map_nth (fun i => agg_short lo hi (col_segments i segs) (col i mem)) (seq 0 n) 0%nat i).
  rewrite seq_nth; auto.
Qed.
Theorem C09_multi_equiv : forall n lo hi segs mem (selected : nat -> list row),
  (forall i, (i < n)%nat -> Forall wf_segment (col_segments i segs) /\
                            Permutation (filter (in_range lo hi) (all_rows (col_segments i segs) (col i mem))) (selected i)) ->
  agg_multi_short n lo hi segs mem = map (fun i => agg_rows (selected i)) (seq 0 n).
Proof.
  intros n lo hi segs mem selected H. unfold agg_multi_short. apply map_ext_in. intros i I.
  apply in_seq in I. destruct (H i) as [W P]; [lia |]. apply C09_equiv; auto.
Qed.
Print Assumptions C09_multi_equiv.

(* a memtable that holds field 0 but not field 1 still contributes its field-0 rows (the situation of seeded change m3) *)
Example C09_multi_example :
  let seg := [(1, [Some 5; Some 1]); (2, [Some 6; None])] in
  let mem := [(3, [Some 7; None]); (4, [Some 9; None])] in
  map cnt (agg_multi_short 2 0 10 [seg] mem) = [4; 1] /\ map sum (agg_multi_short 2 0 10 [seg] mem) = [27; 1].
Proof. vm_compute. split; reflexivity. Qed.

(* non-vacuity: two segments and a memtable, range cutting through the first segment and covering the second *)
Example C09_example :
  let s1 := mk_segment [(1, Some 4); (2, None); (3, Some (-2))] in
  let s2 := mk_segment [(5, Some 7); (6, Some 7)] in
  let mem := [(8, Some 1); (9, None)] in
  agg_short 2 8 [s1; s2] mem = agg_rows [(2, None); (3, Some (-2)); (5, Some 7); (6, Some 7); (8, Some 1)]
  /\ cnt (agg_short 2 8 [s1; s2] mem) = 4 /\ smax (agg_short 2 8 [s1; s2] mem) = Some (7, 5)
  /\ slast (agg_short 2 8 [s1; s2] mem) = Some (1, 8).
Proof. vm_compute. repeat split. Qed.

(* min / max / first / last of build_stats meet specifications that only talk about the list of non-null (value, time)
   pairs - min/max: extreme value, EARLIEST time among the rows carrying it; first/last: extreme time, GREATER value among
   rows of that time - for every row list, in any order *)
Theorem C09_min_spec : forall rows, spec_min rows (smin (build_stats rows)).
Proof. exact build_stats_min_spec. Qed.
Theorem C09_max_spec : forall rows, spec_max rows (smax (build_stats rows)).
Proof. exact build_stats_max_spec. Qed.
Theorem C09_first_spec : forall rows, spec_first rows (sfirst (build_stats rows)).
Proof. exact build_stats_first_spec. Qed.
Theorem C09_last_spec : forall rows, spec_last rows (slast (build_stats rows)).
Proof. exact build_stats_last_spec. Qed.
Print Assumptions C09_last_spec.
(* all six components at once, and the specification determines the statistics uniquely *)
Theorem C09_build_stats_meets_spec : forall rows, spec_all rows (build_stats rows).
Proof. exact build_stats_spec_all. Qed.
Theorem C09_spec_determines_stats : forall rows a b, spec_all rows a -> spec_all rows b -> a = b.
Proof. exact spec_all_unique. Qed.
(* combining two partial results that meet the specification of their rows meets the specification of all the rows:
   the tie rules of combine (segments, files, memtable, series of one tag group) are those of the specification *)
Theorem C09_combine_meets_spec : forall a b sa sb, spec_all a sa -> spec_all b sb -> spec_all (a ++ b) (combine sa sb).
Proof.
  intros a b sa sb HA HB.
  rewrite (spec_all_unique a sa (build_stats a) HA (build_stats_spec_all a)).
  rewrite (spec_all_unique b sb (build_stats b) HB (build_stats_spec_all b)).
  rewrite <- build_stats_app. apply build_stats_spec_all.
Qed.
Print Assumptions C09_combine_meets_spec.
(* on time-ordered rows first / last are the first / last non-null row *)
Theorem C09_first_last_time_ordered : forall rows, asc rows ->
  sfirst (build_stats rows) = first_nonnull rows /\ slast (build_stats rows) = last_nonnull rows.
Proof. intros rows A. split; [apply sfirst_first_nonnull | apply slast_last_nonnull]; exact A. Qed.
Example C09_spec_example :   (* two rows carry the minimum 3: the earlier time is reported; nulls are ignored *)
  spec_min [(5, Some 3); (1, None); (2, Some 3); (9, Some 4)] (Some (3, 2)) /\
  smin (build_stats [(5, Some 3); (1, None); (2, Some 3); (9, Some 4)]) = Some (3, 2).
Proof. split; [| reflexivity]. cbn. split; [auto |]. intros v' t' [E | [E | [E | []]]]; inversion E; subst; lia. Qed.

(* count / sum / min / max of one chunk: the chunk-level statistics when the whole chunk is inside the range, else a scan
   of the overlapping segments - both are the statistics of the chunk's rows in range, for every segment layout and
   range position *)
Theorem C09_chunk_agg : forall lo hi c, wf_chunk c -> chunk_agg lo hi c = build_stats (filter (in_range lo hi) (chunk_rows c)).
Proof. exact chunk_agg_spec. Qed.
(* the repaired FirstLastReader (stored min/max shortcut, null-free segment shortcut with the SEGMENT's time, row search):
   reader result = first / last over the chunk's rows in range, value AND time *)
Theorem C09_first_reader_repaired : forall use_pre lo hi c, wf_chunk c ->
  first_reader_repaired use_pre lo hi c = sfirst (build_stats (filter (in_range lo hi) (chunk_rows c))).
Proof. exact first_reader_repaired_spec. Qed.
Theorem C09_last_reader_repaired : forall use_pre lo hi c, wf_chunk c ->
  last_reader_repaired use_pre lo hi c = slast (build_stats (filter (in_range lo hi) (chunk_rows c))).
Proof. exact last_reader_repaired_spec. Qed.
Print Assumptions C09_last_reader_repaired.
Theorem C09_chunk_partial : forall use_pre lo hi c, wf_chunk c ->
  chunk_partial_repaired use_pre lo hi c = build_stats (filter (in_range lo hi) (chunk_rows c)).
Proof. exact chunk_partial_repaired_spec. Qed.
(* the repaired memtable builders (time of the last non-null value) compute the statistics of the memtable rows *)
Theorem C09_mem_stats_repaired : forall rows, asc rows -> mem_stats_repaired rows = build_stats rows.
Proof. exact mem_stats_repaired_spec. Qed.
Print Assumptions C09_mem_stats_repaired.
(* the whole shortcut - any number of chunks (ordered / out-of-order files, any segment layout), memtable, any range:
   if the plain select returns exactly the stored rows in range, the shortcut is the aggregate over the selected rows *)
Theorem C09_equiv_chunks : forall use_pre lo hi chunks mem selected, Forall wf_chunk chunks -> asc mem ->
  Permutation (filter (in_range lo hi) (all_chunk_rows chunks mem)) selected ->
  agg_chunks_repaired use_pre lo hi chunks mem = agg_rows selected.
Proof. intros. rewrite agg_chunks_repaired_spec; auto. apply build_stats_perm; auto. Qed.
Print Assumptions C09_equiv_chunks.
Theorem C09_equiv_chunks_meets_spec : forall use_pre lo hi chunks mem selected, Forall wf_chunk chunks -> asc mem ->
  Permutation (filter (in_range lo hi) (all_chunk_rows chunks mem)) selected ->
  spec_all selected (agg_chunks_repaired use_pre lo hi chunks mem).
Proof. intros. erewrite C09_equiv_chunks; eauto. apply build_stats_spec_all. Qed.
(* non-vacuity: the layout of corpus/C09/01 (9 rows, segments of 8 + 1, memtable row at t=20), range 19..23 *)
Example C09_chunk_example :
  let c := mk_chunk [[(0, Some 0); (2, Some 2); (4, Some 4); (6, Some 6); (8, Some 8); (9, Some 9); (13, Some 13); (18, Some 18)]; [(23, Some 23)]] in
  wf_chunk c /\ sfirst (agg_chunks_repaired true 19 23 [c] [(20, Some 99)]) = Some (99, 20)
  /\ first_reader_repaired true 19 23 c = Some (23, 23) /\ first_reader_current true 19 23 c = Some (23, 0)
  /\ last_reader_repaired true 0 20 c = Some (18, 18) /\ last_reader_current true 0 20 c = Some (18, 23).
Proof.
  cbn zeta. split; [| vm_compute; repeat split].
  apply mk_chunk_wf; [repeat constructor; discriminate | apply ascb_asc; reflexivity].
Qed.

(* per (tag group, time bucket): whichever eligible segments are answered from their statistics (wholly inside range and
   bucket) and whichever row by row, the result is the aggregate over the rows the plain select returns for that group in
   that bucket *)
Theorem C09_bucket_equiv : forall use lo hi w ss g b selected, 0 < w -> Forall wf_series ss ->
  Permutation (filter (in_rb lo hi w b) (group_rows ss g)) selected ->
  agg_group_bucket use lo hi w ss g b = agg_rows selected.
Proof. intros. rewrite agg_group_bucket_spec; auto. apply build_stats_perm; auto. Qed.
Print Assumptions C09_bucket_equiv.
(* per tag group without a bucket (several series per group, each with its own files / memtable) *)
Theorem C09_group_equiv : forall lo hi ss g selected, Forall wf_series ss ->
  Permutation (filter (in_range lo hi) (group_rows ss g)) selected ->
  agg_group_short lo hi ss g = agg_rows selected.
Proof. intros. rewrite agg_group_short_spec; auto. apply build_stats_perm; auto. Qed.
(* the buckets of the range partition the rows in range: combining all buckets loses and double counts nothing *)
Theorem C09_bucket_partition : forall lo hi w rows, 0 < w ->
  build_stats (filter (in_range lo hi) rows) =
  fold_stats (map (fun b => build_stats (filter (in_rb lo hi w b) rows)) (buckets lo hi w)).
Proof. exact bucket_partition. Qed.
Theorem C09_bucket_table_total : forall use lo hi w ss g, 0 < w -> Forall wf_series ss ->
  fold_stats (map snd (bucket_table use lo hi w ss g false)) = agg_group_short lo hi ss g.
Proof.
  intros use lo hi w ss g Hw W. unfold bucket_table. rewrite map_map. cbn [snd].
  rewrite (agg_group_short_spec lo hi ss g W), (bucket_partition lo hi w _ Hw). f_equal. apply map_ext.
  intros b. apply agg_group_bucket_spec; auto.
Qed.
Print Assumptions C09_bucket_table_total.
(* descending order: the same value per bucket, the table reversed *)
Theorem C09_descending : forall use lo hi w ss g,
  bucket_table use lo hi w ss g true = rev (bucket_table use lo hi w ss g false).
Proof. intros. unfold bucket_table. rewrite map_rev. reflexivity. Qed.
(* ORDER BY time DESC, repaired evaluation: visiting the rows newest-first changes no aggregate *)
Theorem C09_desc_rows_repaired : forall rows, agg_rows_desc_repaired rows = agg_rows rows.
Proof. intros. apply build_stats_perm. apply Permutation_sym. apply Permutation_rev. Qed.
Example C09_bucket_example :   (* two series in group 7, one in group 8; buckets of width 5 over 0..12; segment [5..8] lies in bucket 1 *)
  let s1 := {| g_key := 7; g_segs := [mk_segment [(1, Some 4); (3, Some 1)]; mk_segment [(5, Some 2); (8, Some 6)]]; g_mem := [(11, Some 9)] |} in
  let s2 := {| g_key := 7; g_segs := [mk_segment [(4, Some 5); (6, None)]]; g_mem := [] |} in
  let s3 := {| g_key := 8; g_segs := []; g_mem := [(2, Some 100)] |} in
  map (fun x => (fst x, cnt (snd x), smax (snd x))) (bucket_table (fun _ => true) 0 12 5 [s1; s2; s3] 7 false)
  = [(0, 3, Some (5, 4)); (1, 2, Some (6, 8)); (2, 1, Some (9, 11))].
Proof. vm_compute. reflexivity. Qed.

(* C07's model of the integer statistics BUILDER (IntegerPreAgg.reset / addValues, segment by segment, int64 bit patterns,
   repaired start-value rule; imported from coq/C07/ModelStats.v) computes, for every segment layout of time-ordered rows
   with int64 values, the statistics C09 reasons about: count, sum (as a 64-bit pattern: also when the sum wraps), min and
   max with the times of their first occurrence. With C07's stats_int_repaired this makes `c_stats = build_stats`, the
   hypothesis of the chunk theorems, a consequence of the builder model for integer columns. *)
Theorem C09_stats_builder_agrees_with_C07 : forall segs : list (list row), asc (concat segs) -> vals_in_range (concat segs) ->
  let s7 := OG.C07.ModelStats.int_build true (map c07_rows segs) in
  let s9 := build_stats (concat segs) in
  OG.C07.ModelPreAgg.s_cnt s7 = cnt s9 /\
  OG.C07.ModelPreAgg.s_sum s7 = pat (sum s9) /\
  (cnt s9 <> 0 -> smin s9 = Some (OG.C07.ModelPreAgg.sgn64 (OG.C07.ModelPreAgg.s_min s7), OG.C07.ModelPreAgg.s_minT s7) /\
                  smax s9 = Some (OG.C07.ModelPreAgg.sgn64 (OG.C07.ModelPreAgg.s_max s7), OG.C07.ModelPreAgg.s_maxT s7)).
Proof. exact builder_models_agree. Qed.
Print Assumptions C09_stats_builder_agrees_with_C07.
