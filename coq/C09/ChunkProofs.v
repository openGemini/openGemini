(* C09 - proofs about chunks, the first/last reader and the memtable statistics builders (ChunkModel.v) *)
From Coq Require Import ZArith List Bool Lia Permutation.
From OG Require Import C09.Model C09.Proofs C09.ListSpec C09.ChunkModel.
Import ListNotations.
Open Scope Z_scope.

Definition wf_chunk (c : chunk) : Prop :=
  Forall (fun s : list row => s <> []) (c_segs c) /\ asc (chunk_rows c) /\ c_stats c = build_stats (chunk_rows c).

Lemma mk_chunk_wf : forall segs, Forall (fun s : list row => s <> []) segs -> asc (concat segs) -> wf_chunk (mk_chunk segs).
Proof. intros segs N A. repeat split; auto. Qed.

(* a decidable form of asc, for examples and for the correspondence evaluator *)
Fixpoint ascb (rows : list row) : bool :=
  match rows with
  | [] => true
  | r :: rest => match rest with [] => true | r' :: _ => (fst r <? fst r') && ascb rest end
  end.
Lemma ascb_asc : forall rows, ascb rows = true -> asc rows.
Proof.
  induction rows as [| r rest IH]; intros H; cbn [asc]; auto.
  destruct rest as [| r1 rest']; [split; [intros r' [] | exact I] |].
  cbn [ascb] in H. apply andb_true_iff in H. destruct H as [H1 H2]. apply Z.ltb_lt in H1. specialize (IH H2).
  split; auto. intros r' [E | In']; [subst; auto |]. destruct IH as [IH1 _]. specialize (IH1 r' In'). lia.
Qed.

Lemma asc_bounds : forall rows r, asc rows -> In r rows -> rows_lo rows <= fst r <= rows_hi rows.
Proof.
  induction rows as [| x rows IH]; intros r A I; [destruct I |]. destruct A as [A1 A2]. unfold rows_lo, rows_hi in *.
  destruct rows as [| y rows].
  - destruct I as [E | []]. subst. cbn. lia.
  - change (last (x :: y :: rows) (0, None)) with (last (y :: rows) (0, None)).
    destruct I as [E | I].
    + subst r. split; [lia |]. specialize (IH y A2 (or_introl eq_refl)). specialize (A1 y (or_introl eq_refl)). cbn [fst] in *. lia.
    + specialize (IH r A2 I). specialize (A1 y (or_introl eq_refl)). cbn [fst] in *. lia.
Qed.

Lemma asc_time_inj : forall rows x y, asc rows -> In x rows -> In y rows -> fst x = fst y -> x = y.
Proof.
  induction rows as [| r rows IH]; intros x y A Ix Iy E; [destruct Ix |]. destruct A as [A1 A2].
  destruct Ix as [Ex | Ix], Iy as [Ey | Iy]; subst; auto.
  - specialize (A1 y Iy). lia.
  - specialize (A1 x Ix). lia.
Qed.

Lemma filter_none : forall A (p : A -> bool) l, (forall x, In x l -> p x = false) -> filter p l = [].
Proof.
  induction l as [| x l IH]; intros H; cbn; auto. rewrite (H x (or_introl eq_refl)). apply IH. intros; apply H; right; auto.
Qed.

Lemma no_overlap_filter : forall lo hi s, asc s -> overlaps lo hi (rows_lo s) (rows_hi s) = false ->
  filter (in_range lo hi) s = [].
Proof.
  intros lo hi s A O. apply filter_none. intros r I. pose proof (asc_bounds s r A I) as B.
  unfold overlaps in O. unfold in_range. lia.
Qed.

Lemma seg_scan_spec : forall lo hi s, asc s -> seg_scan lo hi s = build_stats (filter (in_range lo hi) s).
Proof.
  intros lo hi s A. unfold seg_scan. destruct (overlaps lo hi (rows_lo s) (rows_hi s)) eqn:O; auto.
  rewrite (no_overlap_filter lo hi s A O). reflexivity.
Qed.

Lemma asc_concat_each : forall segs, asc (concat segs) -> Forall asc segs.
Proof.
  induction segs as [| s segs IH]; intros A; constructor; cbn [concat] in A; apply asc_app in A; destruct A as (A1 & A2 & _); auto.
Qed.

Lemma chunk_scan_spec : forall lo hi c, asc (chunk_rows c) -> chunk_scan lo hi c = build_stats (filter (in_range lo hi) (chunk_rows c)).
Proof.
  intros lo hi c A. unfold chunk_scan, chunk_rows in *. apply asc_concat_each in A.
  induction A as [| s segs As Asegs IH]; cbn [fold_right concat]; auto.
  rewrite IH, (seg_scan_spec lo hi s As), filter_app, build_stats_app. reflexivity.
Qed.

Lemma all_in_range_filter : forall lo hi rows, asc rows -> (lo <=? rows_lo rows) && (rows_hi rows <=? hi) = true ->
  filter (in_range lo hi) rows = rows.
Proof.
  intros lo hi rows A C. apply filter_all. intros r I. pose proof (asc_bounds rows r A I). unfold in_range. lia.
Qed.

(* count / sum / min / max: chunk statistics or segment scan, both are the statistics of the chunk's rows in range *)
Lemma chunk_agg_spec : forall lo hi c, wf_chunk c -> chunk_agg lo hi c = build_stats (filter (in_range lo hi) (chunk_rows c)).
Proof.
  intros lo hi c (N & A & S). unfold chunk_agg. destruct (all_in_range lo hi c) eqn:C.
  - unfold all_in_range, chunk_lo, chunk_hi in C. rewrite (all_in_range_filter lo hi _ A C). exact S.
  - apply chunk_scan_spec; auto.
Qed.

Lemma scan_first_eq : forall rows, scan_first rows = first_nonnull rows.
Proof. induction rows as [| [t [v |]] rows IH]; cbn; auto. Qed.
Lemma scan_last_eq : forall rows, scan_last rows = last_nonnull rows.
Proof. induction rows as [| [t o] rows IH]; cbn; auto. Qed.

Lemma smin_in : forall rows v t, smin (build_stats rows) = Some (v, t) -> In (t, Some v) rows.
Proof. intros rows v t E. pose proof (build_stats_min_spec rows) as H. rewrite E in H. apply vt_in. apply H. Qed.
Lemma smax_in : forall rows v t, smax (build_stats rows) = Some (v, t) -> In (t, Some v) rows.
Proof. intros rows v t E. pose proof (build_stats_max_spec rows) as H. rewrite E in H. apply vt_in. apply H. Qed.

Lemma no_nulls_in : forall s r, no_nulls s = true -> In r s -> exists v, snd r = Some v.
Proof.
  intros s r N I. unfold no_nulls in N. rewrite forallb_forall in N. specialize (N r I). destruct (snd r) as [v |]; [eauto | discriminate].
Qed.

(* one overlapping segment, in either direction: the stored extreme (a) and the null-free shortcut (b), where they
   apply, give what the search (c) over the segment's rows in range gives.
   first reader: side = (lo <=? rows_lo s), e = rows_lo s, ev = first_row_val s, F = first_nonnull of the rows in range;
   last reader: side = (rows_hi s <=? hi), e = rows_hi s, ev = last_row_val s, F = last_nonnull of them;
   nn = no_nulls s, pre = the chunk's stored minimum / maximum, rest = the result of the segments still to visit *)
Lemma scan_step : forall (side nn : bool) (pre : option (Z * Z)) (e : Z) (ev : option Z) (F rest : option (Z * Z)),
  (side = true -> forall v t, pre = Some (v, t) -> t = e -> F = Some (v, t)) ->
  (side = true -> nn = true -> exists v0, ev = Some v0 /\ F = Some (v0, e)) ->
  match (if side then match pre with Some (v, t) => if t =? e then Some (v, t) else None | None => None end else None) with
  | Some r => Some r
  | None => if nn && side then match ev with Some v => Some (v, e) | None => None end
            else match F with Some r => Some r | None => rest end
  end = match F with Some r => Some r | None => rest end.
Proof.
  intros side nn pre e ev F rest HA HB. destruct side; [|rewrite andb_false_r; reflexivity].
  assert (B : (if nn && true then match ev with Some v => Some (v, e) | None => None end
               else match F with Some r => Some r | None => rest end) = match F with Some r => Some r | None => rest end).
  { destruct nn; [|reflexivity]. destruct (HB eq_refl eq_refl) as (v0 & -> & ->). reflexivity. }
  destruct pre as [[v t]|]; [|exact B]. destruct (Z.eqb_spec t e) as [E|E]; [|exact B].
  rewrite (HA eq_refl v t eq_refl E). reflexivity.
Qed.

Lemma first_scan_spec : forall lo hi pre segs pre_rows,
  asc (pre_rows ++ concat segs) -> Forall (fun s : list row => s <> []) segs ->
  (pre = None \/ pre = smin (build_stats (pre_rows ++ concat segs))) ->
  first_scan rows_lo lo hi pre segs = first_nonnull (filter (in_range lo hi) (concat segs)).
Proof.
  intros lo hi pre segs. induction segs as [| s rest IH]; intros pre_rows A N P; [reflexivity |].
  cbn [first_scan concat]. rewrite filter_app, first_nonnull_app.
  inversion N as [| ? ? Ns Nrest]; subst.
  assert (As : asc s). { apply asc_app in A. destruct A as (_ & A & _). apply asc_app in A. tauto. }
  rewrite (IH (pre_rows ++ s)) by (auto; rewrite <- app_assoc; auto).
  destruct (overlaps lo hi (rows_lo s) (rows_hi s)) eqn:O; cbn [negb].
  2:{ rewrite (no_overlap_filter lo hi s As O). reflexivity. }
  destruct s as [| r0 s']; [congruence |]. cbn [rows_lo] in *.
  assert (R0 : (lo <=? fst r0) = true -> in_range lo hi r0 = true) by (unfold overlaps in O; unfold in_range; lia).
  rewrite scan_first_eq. apply scan_step.
  - intros L v t -> ->. destruct P as [P | P]; [discriminate |]. symmetry in P. apply smin_in in P.
    assert (E : (fst r0, Some v) = r0)
      by (apply (asc_time_inj _ _ _ A P); [apply in_or_app; right; left; reflexivity | reflexivity]).
    cbn [filter]. rewrite (R0 L), <- E. reflexivity.
  - intros L NN. destruct (no_nulls_in _ r0 NN (or_introl eq_refl)) as [v0 E0]. exists v0.
    cbn [first_row_val filter]. rewrite (R0 L). destruct r0 as [t0 o0]. cbn [snd] in E0. subst o0. split; reflexivity.
Qed.

Lemma last_split : forall (s : list row), s <> [] -> exists s0, s = s0 ++ [last s (0, None)].
Proof. intros s N. exists (removelast s). apply app_removelast_last. exact N. Qed.

Lemma last_scan_spec : forall lo hi pre rsegs post_rows,
  asc (concat (rev rsegs) ++ post_rows) -> Forall (fun s : list row => s <> []) rsegs ->
  (pre = None \/ pre = smax (build_stats (concat (rev rsegs) ++ post_rows))) ->
  last_scan rows_hi lo hi pre rsegs = last_nonnull (filter (in_range lo hi) (concat (rev rsegs))).
Proof.
  intros lo hi pre rsegs. induction rsegs as [| s rest IH]; intros post_rows A N P; [reflexivity |].
  cbn [last_scan rev]. rewrite concat_app. cbn [concat]. rewrite app_nil_r, filter_app, last_nonnull_app.
  cbn [rev] in A, P. rewrite concat_app in A, P. cbn [concat] in A, P. rewrite app_nil_r, <- app_assoc in A, P.
  inversion N as [| ? ? Ns Nrest]; subst.
  assert (As : asc s). { apply asc_app in A. destruct A as (_ & A & _). apply asc_app in A. tauto. }
  rewrite (IH (s ++ post_rows)) by auto.
  destruct (overlaps lo hi (rows_lo s) (rows_hi s)) eqn:O; cbn [negb].
  2:{ rewrite (no_overlap_filter lo hi s As O). reflexivity. }
  destruct (last_split s Ns) as [s0 Es]. unfold last_row_val, rows_hi in *. set (rl := last s (0, None)) in *.
  assert (Irl : In rl s) by (rewrite Es; apply in_or_app; right; left; reflexivity).
  assert (Fl : (fst rl <=? hi) = true -> last_nonnull (filter (in_range lo hi) s) =
                 match snd rl with Some v => Some (v, fst rl) | None => last_nonnull (filter (in_range lo hi) s0) end).
  { intros H. assert (R : in_range lo hi rl = true) by (unfold overlaps in O; unfold in_range; lia).
    rewrite Es at 1. rewrite filter_app. cbn [filter]. rewrite R, last_nonnull_app. destruct rl as [tl [vl |]]; cbn; auto. }
  rewrite scan_last_eq. apply scan_step.
  - intros H v t -> ->. destruct P as [P | P]; [discriminate |]. symmetry in P. apply smax_in in P.
    assert (E : (fst rl, Some v) = rl)
      by (apply (asc_time_inj _ _ _ A P); [apply in_or_app; right; apply in_or_app; left; exact Irl | reflexivity]).
    rewrite (Fl H), <- E. reflexivity.
  - intros H NN. destruct (no_nulls_in _ rl NN Irl) as [v0 E0]. exists v0. rewrite (Fl H), E0. split; reflexivity.
Qed.

(* the repaired reader returns first / last over the chunk's rows in range: every segment layout, every range position,
   columns with and without a usable stored minimum / maximum *)
Lemma first_reader_repaired_spec : forall use_pre lo hi c, wf_chunk c ->
  first_reader_repaired use_pre lo hi c = sfirst (build_stats (filter (in_range lo hi) (chunk_rows c))).
Proof.
  intros use_pre lo hi c (N & A & S). unfold first_reader_repaired.
  rewrite (first_scan_spec lo hi (pre_min use_pre c) (c_segs c) []); auto.
  - symmetry. apply sfirst_first_nonnull. apply asc_filter. exact A.
  - unfold pre_min. destruct use_pre; auto. right. rewrite S. reflexivity.
Qed.
Lemma last_reader_repaired_spec : forall use_pre lo hi c, wf_chunk c ->
  last_reader_repaired use_pre lo hi c = slast (build_stats (filter (in_range lo hi) (chunk_rows c))).
Proof.
  intros use_pre lo hi c (N & A & S). unfold last_reader_repaired.
  rewrite (last_scan_spec lo hi (pre_max use_pre c) (rev (c_segs c)) []); rewrite ?rev_involutive, ?app_nil_r; auto.
  - symmetry. apply slast_last_nonnull. apply asc_filter. exact A.
  - apply Forall_rev. exact N.
  - unfold pre_max. destruct use_pre; auto. right. rewrite S. reflexivity.
Qed.

Lemma chunk_partial_repaired_spec : forall use_pre lo hi c, wf_chunk c ->
  chunk_partial_repaired use_pre lo hi c = build_stats (filter (in_range lo hi) (chunk_rows c)).
Proof.
  intros use_pre lo hi c W. unfold chunk_partial_repaired, chunk_partial. destruct (chunk_live lo hi c) eqn:L.
  - rewrite (chunk_agg_spec lo hi c W), (first_reader_repaired_spec use_pre lo hi c W), (last_reader_repaired_spec use_pre lo hi c W).
    apply stats_eq; reflexivity.
  - destruct W as (_ & A & _). unfold chunk_live, chunk_lo, chunk_hi in L. rewrite (no_overlap_filter lo hi _ A L). reflexivity.
Qed.

Lemma mloop_snoc : forall rows r, mloop (rows ++ [r]) = mstep (mloop rows) r.
Proof. intros. unfold mloop. rewrite fold_left_app. reflexivity. Qed.

Lemma build_stats_snoc : forall rows r, build_stats (rows ++ [r]) = combine (build_stats rows) (of_row r).
Proof. intros. rewrite build_stats_app. cbn. rewrite combine_empty_r. reflexivity. Qed.

Lemma sfirst_time_in : forall rows v t, sfirst (build_stats rows) = Some (v, t) -> exists r, In r rows /\ fst r = t.
Proof. intros rows v t E. pose proof (build_stats_first_spec rows) as H. rewrite E in H. destruct H as [I _]. eapply vt_in_row; eauto. Qed.
Lemma slast_time_in : forall rows v t, slast (build_stats rows) = Some (v, t) -> exists r, In r rows /\ fst r = t.
Proof. intros rows v t E. pose proof (build_stats_last_spec rows) as H. rewrite E in H. destruct H as [I _]. eapply vt_in_row; eauto. Qed.

Definition macc_ok (a : macc) (s : stats) : Prop :=
  m_cnt a = cnt s /\ m_sum a = sum s /\ m_min a = smin s /\ m_max a = smax s /\ m_first a = sfirst s /\
  slast s = match m_lastv a with Some v => Some (v, m_lastvt a) | None => None end.

Lemma mloop_ok : forall rows, asc rows -> macc_ok (mloop rows) (build_stats rows).
Proof.
  induction rows as [| r rows IH] using rev_ind; intros A.
  - cbn. repeat split.
  - apply asc_app in A. destruct A as (A1 & _ & A3). specialize (IH A1). destruct IH as (C & S & Mi & Ma & Fi & La).
    rewrite mloop_snoc, build_stats_snoc. destruct r as [t [v |]]; unfold mstep; cbn [snd fst of_row].
    2:{ rewrite combine_empty_r. repeat split; auto. }
    unfold macc_ok. cbn [m_cnt m_sum m_min m_max m_first m_lastv m_lastvt combine cnt sum smin smax sfirst slast].
    rewrite C, S, Mi, Ma, Fi. repeat split.
    + destruct (smin (build_stats rows)) as [[mv mt] |]; cbn [pick]; auto. unfold min_better; cbn [fst snd].
      destruct ((v <? mv) || ((v =? mv) && (t <? mt))) eqn:B1; destruct ((mv <? v) || ((mv =? v) && (mt <=? t))) eqn:B2; auto; lia.
    + destruct (smax (build_stats rows)) as [[mv mt] |]; cbn [pick]; auto. unfold max_better; cbn [fst snd].
      destruct ((mv <? v) || ((v =? mv) && (t <? mt))) eqn:B1; destruct ((v <? mv) || ((mv =? v) && (mt <=? t))) eqn:B2; auto; lia.
    + destruct (sfirst (build_stats rows)) as [[fv ft] |] eqn:E; cbn [pick]; auto. unfold first_better; cbn [fst snd].
      destruct (sfirst_time_in _ _ _ E) as (x & Ix & Ex). specialize (A3 x (t, Some v) Ix (or_introl eq_refl)). cbn [fst] in A3.
      destruct ((ft <? t) || ((ft =? t) && (v <=? fv))) eqn:B; auto. lia.
    + destruct (slast (build_stats rows)) as [[lv lt] |] eqn:E; cbn [pick]; auto. unfold last_better; cbn [fst snd].
      destruct (slast_time_in _ _ _ E) as (x & Ix & Ex). specialize (A3 x (t, Some v) Ix (or_introl eq_refl)). cbn [fst] in A3.
      destruct ((t <? lt) || ((lt =? t) && (v <=? lv))) eqn:B; auto. lia.
Qed.

Lemma mem_stats_repaired_spec : forall rows, asc rows -> mem_stats_repaired rows = build_stats rows.
Proof.
  intros rows A. destruct (mloop_ok rows A) as (C & S & Mi & Ma & Fi & La).
  unfold mem_stats_repaired, mem_stats. apply stats_eq; cbn [cnt sum smin smax sfirst slast]; auto.
Qed.

Lemma agg_chunks_repaired_spec : forall use_pre lo hi chunks mem, Forall wf_chunk chunks -> asc mem ->
  agg_chunks_repaired use_pre lo hi chunks mem = build_stats (filter (in_range lo hi) (all_chunk_rows chunks mem)).
Proof.
  intros use_pre lo hi chunks mem W A. unfold agg_chunks_repaired, agg_chunks, all_chunk_rows.
  rewrite filter_app, build_stats_app, (mem_stats_repaired_spec _ (asc_filter _ _ A)).
  induction W as [| c chunks Wc Wcs IH]; cbn [fold_right map concat].
  - rewrite combine_empty_l. reflexivity.
  - rewrite IH, (chunk_partial_repaired_spec use_pre lo hi c Wc), filter_app, build_stats_app, combine_assoc. reflexivity.
Qed.
