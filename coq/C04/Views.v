(* C04: coverage invariant (every appended batch is visible to a fresh query until the closer drops
   the active table) and the reader invariants that give complete views. *)
From Coq Require Import List Bool Arith PeanoNat Lia.
From OG Require Import C04.Model C04.Proofs C04.Steps C04.Inv.
Import ListNotations.

(* where a query that begins now finds batch b: in the active table, in the snapshot table while its flag is unset, or
   in a listed file.  These are exactly the places a reader captures in R1 -> R2 (see rd_ok). *)
Definition vis_tables (s : shared) (b : nat) : Prop :=
  (exists a, active s = Some a /\ In b (mt_rows_of s a)) \/
  (exists m, snap s = Some m /\ flag_of s (Some m) = false /\ In b (mt_rows_of s m)).

Definition vis (s : shared) (b : nat) : Prop :=
  vis_tables s b \/ (exists f x, get_file s f = Some x /\ f_listed x = true /\ In b (f_rows x)).

(* the coverage invariant: until the closer drops the active table every appended batch is visible - a flush moves a
   batch from table to file in the step that sets the flag, a compaction de-lists a file only when its rows are listed
   elsewhere *)
Definition cover (s : shared) : Prop := dropped s = false -> forall b, In b (appended s) -> vis s b.

Definition close_ok (s : shared) (l : list actor) : Prop :=
  (fclosed s = true -> dropped s = true) /\
  (forall j c, nth_error l j = Some (AC c) -> (c = C3 \/ c = C4) -> dropped s = true).

Arguments mt_rows_of : simpl never.
Arguments file_rows_of : simpl never.

Lemma close_ok_step : forall st i st', close_ok (sh st) (actors st) -> exec correct st i = Some st' ->
  close_ok (sh st') (actors st').
Proof.
  intros st i st' [Hc1 Hc2] H. inv_step H. destruct st' as [s' l']. simpl in *. subst l'.
  assert (Hframe : fclosed s' = fclosed (sh st) -> dropped s' = dropped (sh st) ->
            (forall c, a' = AC c -> (c = C3 \/ c = C4) -> dropped (sh st) = true) -> close_ok s' (upd (actors st) i a')).
  { intros E1 E2 Hn. split; [rewrite E1, E2; auto|]. intros j c Hj Hp. rewrite E2.
    apply nth_error_upd in Hj. destruct Hj as [[_ Hj]|[_ Hj]]; [apply (Hn c); congruence|apply (Hc2 _ _ Hj Hp)]. }
  pose proof (lstep_kind _ _ _ _ _ _ Hls) as K.
  destruct a as [w|r|f|t|c];
    try (destruct (lstep_close _ _ _ _ _ _ Hls) as [E1 [_ [_ E2]]]; [discriminate|]; apply Hframe; auto; intros; subst; contradiction).
  inv_lstep Hls; try (apply Hframe; auto; intros c E [X|X]; inversion E; congruence).
  - (* C2 *) split; simpl; auto.
  - (* C3 *) apply Hframe; auto. intros c E _. eapply Hc2; eauto.
  - (* C4 *) split; simpl; [intros _; eapply Hc2; eauto|].
    intros j c Hj Hp. apply nth_error_upd in Hj. destruct Hj as [[_ Hj]|[_ Hj]]; eauto.
Qed.

Lemma close_ok_init : forall l, forallb fresh l = true -> close_ok init_shared l.
Proof.
  intros l Hl. split; simpl; [discriminate|]. intros j c Hj Hp.
  rewrite forallb_forall in Hl. apply nth_error_In in Hj. apply Hl in Hj. simpl in Hj. destruct Hp; subst; discriminate.
Qed.

(* what a step of ANOTHER actor preserves *)
Definition ext_held (j : nat) (s s' : shared) : Prop :=
  (forall m t, get_mt s m = Some t -> In j (m_hold t) ->
     exists t', get_mt s' m = Some t' /\ incl (m_rows t) (m_rows t') /\ In j (m_hold t')) /\
  (forall f x, get_file s f = Some x -> In j (f_hold x) ->
     exists x', get_file s' f = Some x' /\ f_rows x' = f_rows x /\ In j (f_hold x')).

Lemma dropped_map_mt : forall s a g, dropped (map_mt s a g) = dropped s.
Proof. intros. unfold map_mt. destruct (get_mt s a); reflexivity. Qed.
Lemma dropped_map_file : forall s a g, dropped (map_file s a g) = dropped s.
Proof. intros. unfold map_file. destruct (get_file s a); reflexivity. Qed.

Lemma is_nil_In : forall (l : list nat) x, In x l -> is_nil l = false.
Proof. destruct l; simpl; auto; tauto. Qed.

Lemma step_ext_held : forall s l i a s' a' j, lstep s l i a s' a' -> j <> i -> ext_held j s s'.
Proof.
  intros s l i a s' a' j Hls N. split.
  - intros m t G Hj. pose proof (lstep_mt _ _ _ _ _ _ m Hls) as Hm. unfold mt_step in Hm. rewrite G in Hm.
    destruct Hm as [t' [G' He]]. exists t'. split; auto. destruct He; simpl; auto using incl_refl.
    + split; auto. intros x Hx; right; auto.
    + assert (Hr : In j (remove_nat i (m_hold t))) by (apply In_remove_nat; auto).
      unfold mt_unhold. rewrite (is_nil_In _ _ Hr). simpl. auto using incl_refl.
    + match goal with Hx : m_hold t = [] |- _ => rewrite Hx in Hj end. destruct Hj.
  - intros f x G Hj. pose proof (lstep_file _ _ _ _ _ _ f Hls) as Hf. unfold file_step in Hf. rewrite G in Hf.
    destruct Hf as [x' [G' He]]. exists x'. split; auto. destruct He; simpl; auto.
    + split; auto. apply In_remove_nat; auto.
    + match goal with Hx : f_hold x = [] |- _ => rewrite Hx in Hj end. destruct Hj.
Qed.

Lemma step_appended_cases : forall s l i a s' a', lstep s l i a s' a' ->
  appended s' = appended s \/
  (exists b a0, active s = Some a0 /\ s' = set_logs (map_mt s a0 (mt_add_row b)) (b :: appended s) (acked s)).
Proof.
  intros s l i a s' a' Hls.
  destruct a as [w|r|f|t|c]; try (left; apply (lstep_logs _ _ _ _ _ _ Hls); discriminate). inv_lstep Hls; eauto.
Qed.

Lemma step_appended_mono : forall s l i a s' a', lstep s l i a s' a' -> incl (appended s) (appended s').
Proof.
  intros s l i a s' a' Hls. destruct (step_appended_cases _ _ _ _ _ _ Hls) as [->|[b [a0 [_ ->]]]]; [apply incl_refl|].
  apply incl_tl, incl_refl.
Qed.

Lemma vis_file : forall s f x b, get_file s f = Some x -> f_listed x = true -> In b (f_rows x) -> vis s b.
Proof. intros. right. eauto. Qed.

Lemma owned_rows_kept : forall s s' m b, owned_kept s s' -> In m (owned_ids s) -> In b (mt_rows_of s m) -> In b (mt_rows_of s' m).
Proof.
  intros s s' m b [_ [_ [_ E4]]] Ho Hb. rewrite mt_rows_of_get in *. destruct (get_mt s m) eqn:G; [|destruct Hb].
  destruct (E4 _ _ G Ho) as [t' [-> [Hi _]]]. auto.
Qed.

Lemma vis_kept : forall s s' b, owned_kept s s' -> (forall m, flag_of s' (Some m) = flag_of s (Some m)) ->
  vis_tables s b -> vis_tables s' b.
Proof.
  intros s s' b K Hfl V. pose proof K as [E1 [E2 _]].
  destruct V as [[a [E Hb]]|[m [E [F Hb]]]].
  - left. exists a. rewrite E1. split; auto. apply (owned_rows_kept _ _ _ _ K); auto. apply In_owned; auto.
  - right. exists m. rewrite E2, Hfl. repeat split; auto. apply (owned_rows_kept _ _ _ _ K); auto. apply In_owned; auto.
Qed.

(* a listed file stays listed, or its rows are listed elsewhere *)
Lemma vis_file_step : forall s l i a s' a' b f x, lstep s l i a s' a' ->
  get_file s f = Some x -> f_listed x = true -> In b (f_rows x) -> vis s' b.
Proof.
  intros s l i a s' a' b f x Hls G L Hb.
  pose proof (lstep_file _ _ _ _ _ _ f Hls) as Hx. unfold file_step in Hx. rewrite G in Hx. destruct Hx as [x' [G' He]].
  destruct He; try (exact (vis_file _ _ _ _ G' L Hb)); [|congruence].
  match goal with Hc : forall b, In b (f_rows x) -> _ |- _ => destruct (Hc _ Hb) as [g [y [Gy [Ly Hy]]]] end.
  exact (vis_file _ _ _ _ Gy Ly Hy).
Qed.

(* FlushChunks + AddBothTSSPFiles list every row of the table in one of the two new files *)
Lemma publish_lists_rows : forall s m b, In b (mt_rows_of s m) ->
  exists f x, get_file (publish s m false) f = Some x /\ f_listed x = true /\ In b (f_rows x).
Proof.
  intros s m b Hb.
  assert (Hfiles : forall k, get_file (publish s m false) k =
            nth_error (files s ++ opt_file (filter (fun b0 => hi s <? b0) (mt_rows_of s m)) (Some m) true true
                               ++ opt_file (filter (fun b0 => b0 <=? hi s) (mt_rows_of s m)) (Some m) false true) k)
    by (intro k; destruct (publish_shape s m false) as [ms [h ->]]; reflexivity).
  assert (Hone : forall pre rows ord, In b rows ->
            exists x, nth_error (pre ++ opt_file rows (Some m) ord true) (length pre) = Some x /\ f_listed x = true /\ In b (f_rows x)).
  { intros pre rows ord Hi. destruct rows as [|n0 r0]; [destruct Hi|]. eexists. rewrite nth_error_app2, Nat.sub_diag; auto.
    split; [reflexivity|]. auto. }
  destruct (Nat.ltb (hi s) b) eqn:Eh.
  - destruct (Hone (files s) (filter (fun b0 => hi s <? b0) (mt_rows_of s m)) true) as [x [Gx Hx]]; [apply filter_In; auto|].
    exists (length (files s)), x. rewrite Hfiles. split; auto. rewrite app_assoc. apply nth_error_app_old. exact Gx.
  - destruct (Hone (files s ++ opt_file (filter (fun b0 => hi s <? b0) (mt_rows_of s m)) (Some m) true true)
                (filter (fun b0 => b0 <=? hi s) (mt_rows_of s m)) false) as [x [Gx Hx]].
    { apply filter_In. split; auto. apply Nat.ltb_ge in Eh. apply Nat.leb_le; auto. }
    eexists _, x. rewrite Hfiles, app_assoc. split; [exact Gx|auto].
Qed.

Lemma vis_step : forall st i st' b, Inv1 st -> exec correct st i = Some st' -> dropped (sh st') = false ->
  vis (sh st) b -> vis (sh st') b.
Proof.
  intros st i st' b [[Ha [Hs Hne]] [Hf _] _ _] H Hd V. inv_step H. destruct st' as [s' l']. simpl in *. clear Hact.
  destruct V as [V'|[f [x [G [L Hb]]]]]; [|eapply vis_file_step; eauto].
  assert (Hk : (forall f, a <> AF f) -> a <> AC C2 -> vis s' b).
  { intros N1 N2. left. apply (vis_kept (sh st)); [eapply lstep_owned_kept; eauto|apply (proj2 (lstep_flags _ _ _ _ _ _ Hls N1))|exact V']. }
  destruct a as [w|r|f|t|c]; try (apply Hk; discriminate).
  - specialize (Hf _ _ Hnth). inv_lstep Hls; match goal with Hx : fl_ph f = _ |- _ => rewrite Hx in Hf end.
    + (* skip *) left; exact V'.
    + (* swap: the active table becomes the snapshot table *)
      destruct V' as [[a1 [E1 E2]]|[m [E _]]]; [|congruence].
      assert (a1 = a) by congruence. subst a1. destruct (Ha _ E1) as [tm [G1 [G2 _]]].
      left; right. exists a. simpl. split; auto. unfold flag_of. rewrite mt_rows_of_get in *. rewrite get_mt_set_as, get_mt_set_mts.
      rewrite (nth_error_app_old _ _ _ _ _ G1). rewrite G1 in E2. auto.
    + (* publish: the rows of the snapshot table are listed in the critical section that sets its flag *)
      destruct Hf as [X1 _]. destruct V' as [[a1 [E1 E2]]|[m1 [E1 [_ E3]]]].
      * destruct (Hs _ X1) as [ts [Gs _]]. left; left. exists a1. rewrite (proj1 (publish_active _ _ _)). split; auto.
        rewrite mt_rows_of_get in *. rewrite publish_mts, Gs. destruct (Nat.eqb_spec m a1) as [->|]; auto. exfalso. eapply Hne; eauto.
      * assert (m1 = m) by congruence. subst m1. right. apply publish_lists_rows; auto.
    + contradiction.
    + (* drop: the flag is set *)
      destruct Hf as [X1 X2]. destruct V' as [[a1 [E1 E2]]|[m1 [E1 [E2 _]]]]; [|congruence].
      left; left. exists a1. rewrite (proj1 (drop_snap_active _ _)). split; auto.
      rewrite mt_rows_of_get in *. rewrite drop_snap_mts. destruct (get_mt (sh st) m); auto.
      destruct (Nat.eqb_spec m a1) as [->|]; auto. exfalso. eapply Hne; eauto.
  - destruct c; try (apply Hk; discriminate). inv_lstep Hls. discriminate.
Qed.

Lemma cover_step : forall st i st', Inv1 st -> cover (sh st) -> exec correct st i = Some st' -> cover (sh st').
Proof.
  intros st i st' HI Hc H Hd b Hb.
  assert (H' := H). inv_step H'.
  assert (Hd0 : dropped (sh st) = false).
  { destruct (lstep_owner _ _ _ _ _ _ Hls) as [[_ [_ E]]|[_ [[f ->]|[_ [_ E]]]]]; try congruence.
    rewrite <- (proj1 (lstep_close _ _ _ _ _ _ Hls ltac:(discriminate))). exact Hd. }
  destruct (step_appended_cases _ _ _ _ _ _ Hls) as [E|[b0 [a0 [Ea Es]]]].
  - rewrite E in Hb. eapply vis_step; eauto.
  - rewrite Es in Hb. simpl in Hb. destruct Hb as [<-|Hb].
    + left; left. exists a0. rewrite Es. simpl. rewrite active_map_mt. split; auto.
      rewrite mt_rows_of_get, get_mt_set_logs, get_mt_map_mt.
      destruct HI as [[Ha _] _ _ _]. destruct (Ha _ Ea) as [tm [G _]]. rewrite G, Nat.eqb_refl. simpl. auto.
    + eapply vis_step; eauto.
Qed.

Lemma cover_init : cover init_shared.
Proof. intros _ b []. Qed.

Definition holds_files (s : shared) (i : nat) (fs : list nat) : Prop :=
  forall f, In f fs -> exists x, get_file s f = Some x /\ In i (f_hold x).
Definition holds_mts (s : shared) (i : nat) (ms : list nat) : Prop :=
  forall m, In m ms -> exists t, get_mt s m = Some t /\ In i (m_hold t).

(* the invariant of a query in flight that began before the close.  From R2 on it is `vis` frozen at the step R1 -> R2:
   every batch acknowledged at the query's start is in the active table, in the captured snapshot table if its flag was
   read unset, or in a captured file - and the query holds what it captured, so the rows stay (rd_ok_other) *)
Definition rd_ok (s : shared) (i : nat) (r : reader) : Prop :=
  match r_ph r with
  | R0 => True
  | R1 sn _ => snap s = sn /\ dropped s = false /\ incl (r_start r) (appended s)
  | R2 sn fs fl => snap s = sn /\ dropped s = false /\ holds_files s i fs /\
      (forall b, In b (r_start r) ->
         (exists a, active s = Some a /\ In b (mt_rows_of s a)) \/
         (fl = false /\ exists m, sn = Some m /\ In b (mt_rows_of s m)) \/
         (exists f, In f fs /\ In b (file_rows_of s f)))
  | R3 ms fs => holds_files s i fs /\ holds_mts s i ms /\
      (forall b, In b (r_start r) ->
         (exists m, In m ms /\ In b (mt_rows_of s m)) \/ (exists f, In f fs /\ In b (file_rows_of s f)))
  | R4 ms fs res => incl (r_start r) res
  end.

Definition hist_ok (r : reader) : Prop :=
  forall ok st res, In (ok, st, res) (r_hist r) -> ok = true -> incl st res.

Definition rd_inv (st : state) : Prop :=
  forall i r, nth_error (actors st) i = Some (AR r) -> (r_ok r = true -> rd_ok (sh st) i r) /\ hist_ok r.

Lemma snapR_of_reader : forall l j r, nth_error l j = Some (AR r) ->
  (match r_ph r with R1 _ _ | R2 _ _ _ => True | _ => False end) -> snapR l = true.
Proof.
  intros. eapply existsb_nth; eauto. simpl. destruct (r_ph r); auto; contradiction.
Qed.

Lemma held_files_kept : forall j s s' fs, ext_held j s s' -> holds_files s j fs ->
  holds_files s' j fs /\ forall f b, In f fs -> In b (file_rows_of s f) -> In b (file_rows_of s' f).
Proof.
  intros j s s' fs [_ Hf] C. split.
  - intros f Hi. destruct (C _ Hi) as [x [G Hx]]. destruct (Hf _ _ G Hx) as [x' [G' [_ Hx']]]. eauto.
  - intros f b Hi Hb. destruct (C _ Hi) as [x [G Hx]]. destruct (Hf _ _ G Hx) as [x' [G' [Er _]]].
    rewrite file_rows_of_get in *. rewrite G', Er. rewrite G in Hb. exact Hb.
Qed.

Lemma held_mts_kept : forall j s s' ms, ext_held j s s' -> holds_mts s j ms ->
  holds_mts s' j ms /\ forall m b, In m ms -> In b (mt_rows_of s m) -> In b (mt_rows_of s' m).
Proof.
  intros j s s' ms [Hm _] D. split.
  - intros m Hi. destruct (D _ Hi) as [t [G Ht]]. destruct (Hm _ _ G Ht) as [t' [G' [_ Ht']]]. eauto.
  - intros m b Hi Hb. destruct (D _ Hi) as [t [G Ht]]. destruct (Hm _ _ G Ht) as [t' [G' [Hinc _]]].
    rewrite mt_rows_of_get in *. rewrite G'. rewrite G in Hb. auto.
Qed.

Lemma rd_ok_other : forall st i st' j r a a',
  lstep (sh st) (actors st) i a (sh st') a' -> j <> i ->
  nth_error (actors st) j = Some (AR r) -> rd_ok (sh st) j r -> rd_ok (sh st') j r.
Proof.
  intros st i st' j r a a' Hls N Hj Hok.
  pose proof (step_ext_held _ _ _ _ _ _ j Hls N) as Hheld.
  assert (Hown : (match r_ph r with R1 _ _ | R2 _ _ _ => True | _ => False end) -> owned_kept (sh st) (sh st')).
  { intro Hp. eapply lstep_owned_kept; eauto. right. eapply snapR_of_reader; eauto. }
  unfold rd_ok in *. destruct (r_ph r) eqn:Ep; auto.
  - (* R1 *)
    destruct (Hown I) as [E1 [E2 [E3 _]]]. destruct Hok as [A [B C]]. rewrite E2, E3. repeat split; auto.
    eapply incl_tran; eauto. eapply step_appended_mono; eauto.
  - (* R2 *)
    pose proof (Hown I) as Ho. destruct Ho as [E1 [E2 [E3 _]]].
    destruct Hok as [A [B [C D]]]. destruct (held_files_kept _ _ _ _ Hheld C) as [C' Rf]. rewrite E2, E3. repeat split; auto.
    intros b Hb. destruct (D _ Hb) as [[a1 [Ea Er]]|[[Efl [m [Em Er]]]|[f [Hf Er]]]].
    + left. exists a1. rewrite E1. split; auto. apply (owned_rows_kept _ _ _ _ (Hown I)); auto. apply In_owned; auto.
    + right; left. split; auto. exists m. split; auto. apply (owned_rows_kept _ _ _ _ (Hown I)); auto. apply In_owned. right; congruence.
    + right; right. eauto.
  - (* R3 *)
    destruct Hok as [C [D E]]. destruct (held_files_kept _ _ _ _ Hheld C) as [C' Rf]. destruct (held_mts_kept _ _ _ _ Hheld D) as [D' Rm].
    repeat split; auto. intros b Hb. destruct (E _ Hb) as [[m [Hm' Er]]|[f [Hf Er]]]; [left|right]; eauto.
Qed.

Lemma rd_self : forall st i r s' a', Inv1 st -> cover (sh st) -> close_ok (sh st) (actors st) ->
  lstep (sh st) (actors st) i (AR r) s' a' ->
  (r_ok r = true -> rd_ok (sh st) i r) -> hist_ok r ->
  exists r', a' = AR r' /\ (r_ok r' = true -> rd_ok s' i r') /\ hist_ok r'.
Proof.
  intros st i r s' a' [[Ha [Hs Hne]] _ Hfi [Hak _]] Hc [Hcl _] Hls Hok Hh.
  inversion Hls; subst; repeat match goal with x := _ |- _ => subst x end.
  - (* begin *) eexists; split; [reflexivity|]. split; auto. simpl. intro Hd. apply negb_true_iff in Hd.
    unfold rd_ok. simpl. auto.
  - (* files: R1 -> R2 takes the listed files and reads *flushed in one step, so what the query captures is `vis` of
       this very state, and `cover` says every batch of r_start is visible in it *)
    eexists; split; [reflexivity|]. split; auto. simpl. intro Hk. specialize (Hok Hk).
    unfold rd_ok in *. simpl. match goal with Hx : r_ph r = R1 _ _ |- _ => rewrite Hx in Hok end.
    destruct Hok as [A [B C]].
    assert (Hfc : fclosed (sh st) = false). { destruct (fclosed (sh st)) eqn:E; auto. rewrite (Hcl eq_refl) in B. discriminate. }
    rewrite Hfc. simpl. split; auto. split; auto. split.
    + intros f Hf. pose proof (proj2 (mem_nat_In _ _) Hf) as Hm. apply listed_In in Hf. destruct Hf as [x [G L]].
      rewrite (get_file_map_at _ (sh st)), G. simpl. rewrite Hm. eexists; split; [reflexivity|]. simpl; auto.
    + intros b Hb. destruct (Hc B b (C _ Hb)) as [[[a1 [E1 E2]]|[m [E1 [E2 E3]]]]|[f [x [E1 [E2 E3]]]]].
      * left. exists a1. auto.
      * right; left. rewrite <- A, E1. split; auto. exists m. auto.
      * right; right. exists f. split; [apply listed_In; eauto|].
        rewrite file_rows_of_get, (get_file_map_at _ (sh st)), E1. simpl. destruct (mem_nat f _); auto.
  - (* mem *) eexists; split; [reflexivity|]. split; auto. simpl. intro Hk. specialize (Hok Hk).
    unfold rd_ok in *. simpl. match goal with Hx : r_ph r = R2 _ _ _ |- _ => rewrite Hx in Hok end.
    destruct Hok as [A [B [C D]]].
    set (ms := opt_list (active (sh st)) ++ (if fl then [] else opt_list sn)).
    assert (Hget : forall m, In m ms -> exists t, get_mt (sh st) m = Some t).
    { intros m Hm. apply in_app_or in Hm. destruct Hm as [Hm|Hm]; [apply In_opt_list in Hm; destruct (Ha _ Hm) as [t [G _]]; eauto|].
      destruct fl; [destruct Hm|]. apply In_opt_list in Hm. rewrite Hm in A. destruct (Hs _ A) as [t [G _]]. eauto. }
    assert (Hrows : forall m, mt_rows_of (set_mts (sh st) (map_at 0 (fun k => mem_nat k ms) (mt_add_hold i) (mts (sh st)))) m = mt_rows_of (sh st) m).
    { intro m. rewrite !mt_rows_of_get, (get_mt_map_at _ (sh st)). destruct (get_mt (sh st) m); simpl; auto. destruct (mem_nat m ms); auto. }
    split; [|split].
    + intros f Hf. destruct (C _ Hf) as [x [G Hx]]. rewrite get_file_set_mts. eauto.
    + intros m Hm. destruct (Hget _ Hm) as [t G]. rewrite (get_mt_map_at _ (sh st)), G. simpl.
      rewrite (proj2 (mem_nat_In _ _) Hm). eexists; split; [reflexivity|]. simpl; auto.
    + intros b Hb. destruct (D _ Hb) as [[a1 [Ea Er]]|[[Efl [m [Em Er]]]|[f [Hf Er]]]].
      * left. exists a1. rewrite Hrows. split; auto. apply in_or_app. left. apply In_opt_list, Ea.
      * left. exists m. rewrite Hrows. split; auto. apply in_or_app. right. rewrite Efl. apply In_opt_list, Em.
      * right. exists f. split; auto.
  - (* read *) eexists; split; [reflexivity|]. split; auto. simpl. intro Hk. specialize (Hok Hk).
    unfold rd_ok in *. simpl. match goal with Hx : r_ph r = R3 _ _ |- _ => rewrite Hx in Hok end.
    destruct Hok as [C [D E]]. intros b Hb. apply in_or_app. destruct (E _ Hb) as [[m [Hm Er]]|[f [Hf Er]]].
    + left. apply in_flat_map. eauto.
    + right. apply in_flat_map. eauto.
  - (* done *) eexists; split; [reflexivity|]. split; [simpl; discriminate|].
    intros ok st0 res0 Hi Hk. simpl in Hi. destruct Hi as [Hi|Hi]; [|eapply Hh; eauto].
    injection Hi as E1 E2 E3. rewrite <- E1 in Hk. specialize (Hok Hk). unfold rd_ok in Hok.
    match goal with Hx : r_ph r = R4 _ _ _ |- _ => rewrite Hx in Hok end. rewrite <- E2, <- E3. auto.
Qed.

Lemma rd_inv_step : forall st i st', Inv1 st -> cover (sh st) -> close_ok (sh st) (actors st) -> rd_inv st ->
  exec correct st i = Some st' -> rd_inv st'.
Proof.
  intros st i st' HI Hc Hcl Hr H. inv_step H. intros j r Hj. rewrite Hact in Hj.
  apply nth_error_upd in Hj. destruct Hj as [[<- Ej]|[N Hj]].
  - (* the reader that stepped *)
    destruct a; try (inversion Hls; subst; discriminate).
    destruct (Hr _ _ Hnth) as [Hok Hh].
    destruct (rd_self _ _ _ _ _ HI Hc Hcl Hls Hok Hh) as [r' [E [A B]]]. rewrite E in Ej. inversion Ej; subst. auto.
  - destruct (Hr _ _ Hj) as [Hok Hh]. split; auto. intro Hk. eapply rd_ok_other; eauto.
Qed.

Lemma rd_inv_init : forall l, forallb fresh l = true -> rd_inv (init_state l).
Proof.
  intros l Hl j r Hj. rewrite forallb_forall in Hl. apply nth_error_In in Hj. apply Hl in Hj. simpl in Hj.
  destruct (r_ph r) eqn:E; try discriminate. split.
  - intros _. unfold rd_ok. rewrite E. auto.
  - intros ok st res Hi. apply is_nil_true in Hj. rewrite Hj in Hi. destruct Hi.
Qed.

Record Inv2 (st : state) : Prop := { i2_1 : Inv1 st; i2_cover : cover (sh st); i2_close : close_ok (sh st) (actors st); i2_rd : rd_inv st }.

Lemma inv2_step : forall st i st', Inv2 st -> exec correct st i = Some st' -> Inv2 st'.
Proof.
  intros st i st' [A B C D] H. constructor; eauto using inv1_step, cover_step, close_ok_step, rd_inv_step.
Qed.

Lemma inv2_reach : forall l st, forallb fresh l = true -> reach correct (init_state l) st -> Inv2 st.
Proof.
  intros l st Hl. apply reach_inv; [|exact inv2_step].
  constructor; [apply inv1_init|apply cover_init|apply close_ok_init|apply rd_inv_init]; auto.
Qed.
