(* C04 engine level: what the model predicts for the probes the harness runs against the real engine
   (harness/cmd/c04/eng.go).  Everything here is evaluated by vm_compute in the check's scratch files. *)
From Coq Require Import List Bool Arith PeanoNat.
From OG Require Import C04.Model C04.Eng.
Import ListNotations.

(* operations by the names the harness uses; raftlookup has two candidates (the code before fix f11ca97 / since) *)
Inductive opname := Oquery | Owrite | Oraft | Oraft_current | Odropmst | Odelmst | Oflush | Odropdb | Oclose | Odelshard.
Definition prog_of (o : opname) : prog :=
  match o with
  | Oquery => P_query | Owrite => P_write | Oraft => P_raft | Oraft_current => P_raft_current | Odropmst => P_dropmst
  | Odelmst => P_delmst | Oflush => P_flush | Odropdb => P_dropdb | Oclose => P_close | Odelshard => P_delshard
  end.

(* footprint: 0 = the operation finishes although the harness holds the lock; else 1 + 2*lock + (1 if it waits as a
   writer) *)
Definition enc_fp (r : option (nat * bool)) : nat :=
  match r with None => 0 | Some (k, w) => 1 + 2 * k + (if w then 1 else 0) end.
Definition fp_row (o : opname) : list nat :=
  map (fun kw => enc_fp (probe_footprint (prog_of o) (fst kw) (snd kw)))
      [(1, true); (1, false); (2, true); (2, false); (3, true); (3, false)].
(* re-entry: 2 * (operation done) + (finale done) *)
Definition re_row (o : opname) : list nat :=
  map (fun f => let '(a, b) := probe_reentry (prog_of o) (prog_of f) in (if a then 2 else 0) + (if b then 1 else 0)) [Oclose; Odropdb].

Definition b2n (b : bool) : nat := if b then 1 else 0.
Definition waiting (st : estate) (i : nat) : bool :=
  match nth_error (eacts st) i with Some a => match pr a with Br Wait _ _ => true | _ => false end | None => false end.
Definition has_ref (st : estate) (i : nat) : bool :=
  match nth_error (eacts st) i with Some a => hasref (ts a) | None => false end.

(* drain probe: a query holds a reference, DeleteDatabase starts, a second query tries to take a reference, the first
   query finishes, DeleteDatabase finishes, a third query and a write try.  Observables in the order the harness
   reports them: refs while the query runs, drop waits, offloading while waiting, second reference taken?, directories
   present while waiting, everybody done, partition present after, directories present after, third reference taken?,
   number of violations logged.  A query has taken (or been refused) its reference after 3 steps (RLock, Ref, RUnlock);
   fuel 200 outlasts every program; 6 and 4 rounds let everybody listed finish. *)
Definition drain_expect : list nat :=
  let st0 := einit [P_query; P_dropdb; P_query; P_query; P_write] in
  let st1 := run_until_blocked ecode 3 st0 0 in
  let st2 := run_until_blocked ecode 200 st1 1 in
  let st3 := run_until_blocked ecode 3 st2 2 in
  let r2 := has_ref st3 2 in
  let st4 := run_rounds ecode 6 st3 [2; 0; 1] in
  let st5 := run_until_blocked ecode 3 st4 3 in
  let r3 := has_ref st5 3 in
  let st6 := run_rounds ecode 4 st5 [3; 4] in
  [refs (esh st1); b2n (waiting st2 1); b2n (offl (esh st2)); b2n r2; b2n (negb (gone (esh st3)));
   b2n (forallb edone (eacts st6)); b2n (present (esh st6)); b2n (negb (gone (esh st6))); b2n r3; length (bad (esh st6))].
(* time-out path: DeleteDatabase gives up; observables: offloading after, a new reference is taken?, partition present,
   directories present, everybody done *)
Definition drain_timeout_expect : list nat :=
  let st0 := einit [P_query; P_dropdb; P_query] in
  let st1 := run_until_blocked ecode 3 st0 0 in
  let st2 := run_until_blocked ecode 200 st1 1 in
  match eexec ecode st2 1 false with
  | None => []
  | Some st3 =>
      let st4 := run_until_blocked ecode 200 st3 1 in
      let st5 := run_until_blocked ecode 3 st4 2 in
      let r := has_ref st5 2 in
      let st6 := run_rounds ecode 6 st5 [0; 2] in
      [b2n (offl (esh st4)); b2n r; b2n (present (esh st6)); b2n (negb (gone (esh st6))); b2n (forallb edone (eacts st6))]
  end.
