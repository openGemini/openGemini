(* C04 engine level: the lock invariants of the machine of Eng.v and NO DEADLOCK for every system of
   operations whose programs pass the static discipline `chk` (locks in increasing rank, Lock = Ann;Acq), under Go's
   writer-preferring RWMutex semantics, for any number of concurrent operations and every interleaving. *)
From Coq Require Import List Bool Arith PeanoNat Lia.
From OG Require Import C04.Model C04.Proofs C04.Eng.
Import ListNotations.

(* strictly decreasing ranks from the head (the newest acquisition has the highest rank) *)
Fixpoint hsorted (l : list (nat * mode)) : Prop :=
  match l with
  | [] => True
  | x :: r => (forall y, In y r -> fst y < fst x) /\ hsorted r
  end.

Lemma is_km_true : forall k m x, is_km k m x = true <-> x = (k, m).
Proof.
  intros k m [k' m']. unfold is_km. simpl. rewrite andb_true_iff, Nat.eqb_eq. split.
  - intros [-> H]. destruct m, m'; simpl in H; try discriminate; reflexivity.
  - intros H. inversion H; subst. split; auto. destruct m; reflexivity.
Qed.

Lemma holds_In : forall k m t, holds k m t = true <-> In (k, m) (held t).
Proof.
  intros. unfold holds. rewrite existsb_exists. split.
  - intros [x [Hi Hx]]. apply is_km_true in Hx. subst. auto.
  - intros H. exists (k, m). split; auto. apply is_km_true. auto.
Qed.

Lemma holds_any_In : forall k t, holds_any k t = true <-> exists m, In (k, m) (held t).
Proof.
  intros. unfold holds_any. rewrite existsb_exists. split.
  - intros [[k' m] [Hi Hx]]. simpl in Hx. apply Nat.eqb_eq in Hx. subst. eauto.
  - intros [m H]. exists (k, m). split; auto. simpl. apply Nat.eqb_refl.
Qed.

Lemma all_lt_In : forall k t, all_lt k t = true <-> forall x, In x (held t) -> fst x < k.
Proof.
  intros. unfold all_lt. rewrite forallb_forall. split; intros H x Hx; specialize (H x Hx).
  - apply Nat.ltb_lt; auto.
  - apply Nat.ltb_lt; auto.
Qed.

Lemma In_rm_km : forall k m l x, In x (rm_km k m l) -> In x l.
Proof.
  induction l as [|y r IH]; simpl; intros x H; auto.
  destruct (is_km k m y); [right; auto|]. destruct H as [H|H]; [left; auto|right; auto].
Qed.

Lemma hsorted_rm : forall k m l, hsorted l -> hsorted (rm_km k m l).
Proof.
  induction l as [|y r IH]; simpl; intros H; auto. destruct H as [H1 H2].
  destruct (is_km k m y); auto. simpl. split; auto. intros z Hz. apply H1. eapply In_rm_km; eauto.
Qed.

Lemma rm_km_none : forall k m l, hsorted l -> In (k, m) l -> forall m', ~ In (k, m') (rm_km k m l).
Proof.
  induction l as [|y r IH]; simpl; intros Hs Hi m' Hc; auto. destruct Hs as [H1 H2].
  destruct (is_km k m y) eqn:E.
  - apply is_km_true in E. subst y. apply H1 in Hc. simpl in Hc. lia.
  - destruct Hi as [Hi|Hi]; [subst y; rewrite (proj2 (is_km_true k m (k, m)) eq_refl) in E; discriminate|].
    destruct Hc as [Hc|Hc].
    + subst y. apply H1 in Hi. simpl in Hi. lia.
    + eapply IH; eauto.
Qed.

Lemma rm_km_other : forall k m l x, fst x <> k -> (In x (rm_km k m l) <-> In x l).
Proof.
  induction l as [|y r IH]; simpl; intros x N; [tauto|].
  destruct (is_km k m y) eqn:E.
  - apply is_km_true in E. subst y. split; [auto|]. intros [H|H]; auto. subst x. simpl in N. congruence.
  - simpl. rewrite IH; auto. tauto.
Qed.

Lemma In_map_upg : forall k l x, In x (map (upg k) l) <->
  (In x l /\ x <> (k, MA)) \/ (x = (k, MW) /\ In (k, MA) l).
Proof.
  intros k l x. rewrite in_map_iff. split.
  - intros [y [Hy Hi]]. unfold upg in Hy. destruct (is_km k MA y) eqn:E.
    + apply is_km_true in E. subst. right. auto.
    + subst. left. split; auto. intro C. subst. rewrite (proj2 (is_km_true k MA (k, MA)) eq_refl) in E. discriminate.
  - intros [[Hi N]|[-> Hi]].
    + exists x. split; auto. unfold upg. destruct (is_km k MA x) eqn:E; auto. apply is_km_true in E. congruence.
    + exists (k, MA). split; auto. unfold upg. rewrite (proj2 (is_km_true k MA (k, MA)) eq_refl). auto.
Qed.

Lemma hsorted_upg : forall k l, hsorted l -> hsorted (map (upg k) l).
Proof.
  induction l as [|y r IH]; simpl; intros H; auto. destruct H as [H1 H2]. split; auto.
  intros z Hz. apply in_map_iff in Hz. destruct Hz as [w [Hw Hi]]. specialize (H1 w Hi).
  assert (F : forall v, fst (upg k v) = fst v).
  { intros v. unfold upg. destruct (is_km k MA v) eqn:E; auto. apply is_km_true in E. subst. reflexivity. }
  rewrite <- Hw. rewrite !F. auto.
Qed.

Definition actor_inv (a : eactor) : Prop :=
  chk (ts a) (pr a) = true /\
  hsorted (held (ts a)) /\
  (forall x, In x (held (ts a)) -> fst x < 4) /\
  (forall k, In (k, MA) (held (ts a)) -> (exists q, pr a = Seq (L (Acq k)) q) /\ exists r, held (ts a) = (k, MA) :: r).

Lemma actor_inv_fresh : forall p, chk ts0 p = true -> actor_inv (fresh_actor p).
Proof. intros p H. unfold actor_inv; simpl. split; [auto|split; [exact I|split; [intros x []|intros k []]]]. Qed.

Lemma chk_Seq : forall t o q, chk t (Seq o q) = true -> ok_op o t = true /\ ann_then_acq o q = true /\ chk (ts_op o t) q = true.
Proof. intros t o q H. simpl in H. apply andb_true_iff in H. destruct H as [H H3]. apply andb_true_iff in H. tauto. Qed.
Lemma chk_Br : forall t b f q, chk t (Br b f q) = true -> ok_br b t = true /\ chk t f = true /\ chk (ts_br b t) q = true.
Proof. intros t b f q H. simpl in H. apply andb_true_iff in H. destruct H as [H H3]. apply andb_true_iff in H. tauto. Qed.

Lemma held_ts_data : forall o t, held (ts_data o t) = held t.
Proof. destruct o; reflexivity. Qed.
Lemma held_ts_br : forall b t, held (ts_br b t) = held t.
Proof. destruct b; reflexivity. Qed.

Lemma no_ma : forall a, actor_inv a -> (forall k q, pr a <> Seq (L (Acq k)) q) -> forall k, ~ In (k, MA) (held (ts a)).
Proof. intros a [_ [_ [_ H]]] N k Hi. destruct (H k Hi) as [[q Hq] _]. eapply N; eauto. Qed.

Lemma mk_actor_inv : forall p t, chk t p = true -> hsorted (held t) -> (forall x, In x (held t) -> fst x < 4) ->
  (forall k, ~ In (k, MA) (held t)) -> actor_inv {| pr := p; ts := t |}.
Proof.
  intros p t H1 H2 H3 H4. unfold actor_inv. simpl. split; [auto|split; [auto|split; [auto|]]].
  intros k C. exfalso. eapply H4; eauto.
Qed.

Lemma actor_inv_step : forall V i c s a s' a', actor_inv a -> estep V i c s a = Some (s', a') -> actor_inv a'.
Proof.
  intros V i c s a s' a' HI H. pose proof HI as [Hc [Hs [Hb Hm]]]. unfold estep in H.
  destruct (pr a) as [|o q|b f q] eqn:Ep; [discriminate| |].
  - (* Seq *)
    apply chk_Seq in Hc. destruct Hc as [Hok [Haa Hq]].
    destruct o as [o|o].
    + destruct (guard_lock o s); [|discriminate]. inversion H; subst; clear H.
      destruct o as [k|k|k|k|k]; simpl in Hok, Hq, Haa |- *.
      * (* RLock *) apply andb_true_iff in Hok. destruct Hok as [Hlt Hk4]. rewrite all_lt_In in Hlt. apply Nat.ltb_lt in Hk4.
        assert (Hno : forall k0, ~ In (k0, MA) (held (ts a))) by (apply no_ma; auto; rewrite Ep; congruence).
        apply mk_actor_inv; simpl; auto.
        -- intros x [<-|Hx]; simpl; auto.
        -- intros k0 [C|C]; [discriminate|eapply Hno; eauto].
      * (* RUnlock *)
        assert (Hno : forall k0, ~ In (k0, MA) (held (ts a))) by (apply no_ma; auto; rewrite Ep; congruence).
        apply mk_actor_inv; simpl; auto.
        -- apply hsorted_rm; auto.
        -- intros x Hx. apply Hb. eapply In_rm_km; eauto.
        -- intros k0 C. eapply Hno. eapply In_rm_km; eauto.
      * (* Ann *) apply andb_true_iff in Hok. destruct Hok as [Hlt Hk4]. rewrite all_lt_In in Hlt. apply Nat.ltb_lt in Hk4.
        assert (Hno : forall k0, ~ In (k0, MA) (held (ts a))) by (apply no_ma; auto; rewrite Ep; congruence).
        destruct q as [|[[| | |k'|]|] q'|]; simpl in Haa; try discriminate. apply Nat.eqb_eq in Haa. subst k'.
        unfold actor_inv. simpl. split; [auto|split; [auto|split]].
        -- intros x [<-|Hx]; simpl; auto.
        -- intros k0 [C|C]; [inversion C; subst; eauto|exfalso; eapply Hno; eauto].
      * (* Acq *)
        apply mk_actor_inv; simpl; auto.
        -- apply hsorted_upg; auto.
        -- intros x Hx. apply In_map_upg in Hx. destruct Hx as [[Hx _]|[-> Hx]]; [auto|]. apply Hb in Hx. auto.
        -- intros k0 C. apply In_map_upg in C. destruct C as [[Hi N]|[C _]]; [|discriminate].
           destruct (Hm k0 Hi) as [[q0 Hq0] _]. inversion Hq0; subst. congruence.
      * (* WUnlock *)
        assert (Hno : forall k0, ~ In (k0, MA) (held (ts a))) by (apply no_ma; auto; rewrite Ep; congruence).
        apply mk_actor_inv; simpl; auto.
        -- apply hsorted_rm; auto.
        -- intros x Hx. apply Hb. eapply In_rm_km; eauto.
        -- intros k0 C. eapply Hno. eapply In_rm_km; eauto.
    + destruct (guard_data o s); [|discriminate]. inversion H; subst; clear H. simpl in Hq.
      assert (Hno : forall k0, ~ In (k0, MA) (held (ts a))) by (apply no_ma; auto; rewrite Ep; congruence).
      apply mk_actor_inv; auto; rewrite held_ts_data; auto.
  - (* Br *)
    apply chk_Br in Hc. destruct Hc as [Hok [Hf Hq]].
    assert (Hno : forall k0, ~ In (k0, MA) (held (ts a))) by (apply no_ma; auto; rewrite Ep; congruence).
    assert (Gf : actor_inv {| pr := f; ts := ts a |}) by (apply mk_actor_inv; auto).
    assert (Gq : actor_inv {| pr := q; ts := ts_br b (ts a) |}) by (apply mk_actor_inv; auto; rewrite held_ts_br; auto).
    destruct b.
    + destruct (is_none (pend (lk s 2))); [|discriminate].
      destruct (present s && (negb (offl s) || ev_ref_ignores_offl V)); inversion H; subst; auto.
    + destruct (present s); inversion H; subst; auto.
    + destruct (mapped s); inversion H; subst; auto.
    + destruct c.
      * destruct (Nat.eqb (refs s) 0); [|discriminate]. inversion H; subst; auto.
      * destruct (ev_timeout V); [|discriminate]. inversion H; subst; auto.
Qed.

Definition holder (st : estate) (j k : nat) (m : mode) : Prop :=
  exists a, nth_error (eacts st) j = Some a /\ In (k, m) (held (ts a)).

Definition lock_inv (st : estate) : Prop :=
  forall k,
    NoDup (rd (lk (esh st) k)) /\
    (forall j, In j (rd (lk (esh st) k)) <-> holder st j k MR) /\
    (forall j, (pend (lk (esh st) k) = Some j /\ wheld (lk (esh st) k) = false) <-> holder st j k MA) /\
    (forall j, (pend (lk (esh st) k) = Some j /\ wheld (lk (esh st) k) = true) <-> holder st j k MW) /\
    (pend (lk (esh st) k) = None -> wheld (lk (esh st) k) = false) /\
    (wheld (lk (esh st) k) = true -> rd (lk (esh st) k) = []).

Definition all_inv (st : estate) : Prop :=
  lock_inv st /\ forall i a, nth_error (eacts st) i = Some a -> actor_inv a.

Lemma lock_inv_init : forall ps, lock_inv (einit ps).
Proof.
  intros ps k. simpl. assert (N : forall j m, ~ holder (einit ps) j k m).
  { intros j m [a [Ha Hi]]. simpl in Ha. rewrite nth_error_map in Ha. destruct (nth_error ps j); inversion Ha; subst. destruct Hi. }
  split; [constructor|]. split; [|split; [|split; [|split]]].
  - intros j. split; [intros []|]. intros H. exfalso. eapply N; eauto.
  - intros j. split; [intros [C _]; discriminate|]. intros H. exfalso. eapply N; eauto.
  - intros j. split; [intros [C _]; discriminate|]. intros H. exfalso. eapply N; eauto.
  - auto.
  - discriminate.
Qed.

Lemma all_inv_init : forall ps, forallb (chk ts0) ps = true -> all_inv (einit ps).
Proof.
  intros ps H. split; [apply lock_inv_init|]. intros i a Ha. simpl in Ha. rewrite nth_error_map in Ha.
  destruct (nth_error ps i) eqn:E; inversion Ha; subst. apply actor_inv_fresh.
  rewrite forallb_forall in H. apply H. eapply nth_error_In; eauto.
Qed.

Lemma In_rm_one : forall x l y, In y (rm_one x l) -> In y l.
Proof.
  induction l as [|z r IH]; simpl; intros y H; auto. destruct (Nat.eqb x z); auto. destruct H; auto.
Qed.
Lemma NoDup_rm_one : forall x l, NoDup l -> NoDup (rm_one x l) /\ ~ In x (rm_one x l) /\ (forall y, y <> x -> In y l -> In y (rm_one x l)).
Proof.
  induction l as [|z r IH]; simpl; intros H; [repeat split; auto|]. inversion H; subst.
  destruct (Nat.eqb x z) eqn:E.
  - apply Nat.eqb_eq in E. subst z. repeat split; auto. intros y N [C|C]; [congruence|auto].
  - apply Nat.eqb_neq in E. destruct (IH H3) as [I1 [I2 I3]]. repeat split.
    + constructor; auto. intro C. apply H2. eapply In_rm_one; eauto.
    + intros [C|C]; [congruence|auto].
    + intros y N [C|C]; [left; auto|right; auto].
Qed.

Lemma holder_upd_other : forall st i a' j k m, j <> i ->
  (holder {| esh := esh st; eacts := upd (eacts st) i a' |} j k m <-> holder st j k m).
Proof.
  intros. unfold holder. simpl. rewrite nth_error_upd_neq; auto. tauto.
Qed.

Lemma holder_self : forall st s' i a a' k m, nth_error (eacts st) i = Some a ->
  (holder {| esh := s'; eacts := upd (eacts st) i a' |} i k m <-> In (k, m) (held (ts a'))).
Proof.
  intros. unfold holder. simpl. rewrite (nth_error_upd_same _ _ _ _ _ H). split.
  - intros [x [Hx Hi]]. inversion Hx; subst. auto.
  - intros Hi. eauto.
Qed.

Lemma holder_self0 : forall st i a k m, nth_error (eacts st) i = Some a -> (holder st i k m <-> In (k, m) (held (ts a))).
Proof. intros. unfold holder. rewrite H. split; [intros [x [Hx Hi]]; inversion Hx; subst; auto|eauto]. Qed.

Lemma holder_esh : forall st s' l j k m, holder {| esh := s'; eacts := l |} j k m <-> holder {| esh := esh st; eacts := l |} j k m.
Proof. intros. unfold holder. simpl. tauto. Qed.

Lemma lk_set_lk_eq : forall s k x, lk (set_lk s k x) k = x.
Proof. intros. simpl. rewrite Nat.eqb_refl. auto. Qed.
Lemma lk_set_lk_neq : forall s k k' x, k' <> k -> lk (set_lk s k x) k' = lk s k'.
Proof. intros. simpl. destruct (Nat.eqb k' k) eqn:E; auto. apply Nat.eqb_eq in E. congruence. Qed.

Lemma lock_inv_frame : forall st i a s' a', lock_inv st -> nth_error (eacts st) i = Some a ->
  lk s' = lk (esh st) -> held (ts a') = held (ts a) ->
  lock_inv {| esh := s'; eacts := upd (eacts st) i a' |}.
Proof.
  intros st i a s' a' HL Ha El Eh k. specialize (HL k). simpl. rewrite El.
  assert (Hh : forall j m, holder {| esh := s'; eacts := upd (eacts st) i a' |} j k m <-> holder st j k m).
  { intros j m. destruct (Nat.eq_dec j i) as [->|N].
    - rewrite (holder_self st s' i a a' k m Ha), (holder_self0 st i a k m Ha), Eh. tauto.
    - rewrite (holder_esh st s'). apply holder_upd_other; auto. }
  destruct HL as [H1 [H2 [H3 [H4 [H5 H6]]]]]. split; auto. split; [|split; [|split; [|split]]]; auto.
  - intros j. rewrite Hh. auto.
  - intros j. rewrite Hh. auto.
  - intros j. rewrite Hh. auto.
Qed.


Lemma uniq_rank : forall l k m m', hsorted l -> In (k, m) l -> In (k, m') l -> m = m'.
Proof.
  induction l as [|y r IH]; simpl; intros k m m' Hs Ha Hb; [destruct Ha|]. destruct Hs as [H1 H2].
  destruct Ha as [Ha|Ha], Hb as [Hb|Hb].
  - congruence.
  - subst y. apply H1 in Hb. simpl in Hb. lia.
  - subst y. apply H1 in Ha. simpl in Ha. lia.
  - eapply IH; eauto.
Qed.

(* one lock operation of actor i on lock k0: new lock state x', new held list h' *)
Lemma lock_inv_lockop : forall st i a q k0 x' h',
  lock_inv st -> nth_error (eacts st) i = Some a ->
  (forall k' m, k' <> k0 -> (In (k', m) h' <-> In (k', m) (held (ts a)))) ->
  NoDup (rd x') ->
  (forall j, j <> i -> (In j (rd x') <-> In j (rd (lk (esh st) k0)))) ->
  (In i (rd x') <-> In (k0, MR) h') ->
  (forall j, j <> i -> ((pend x' = Some j /\ wheld x' = false) <-> (pend (lk (esh st) k0) = Some j /\ wheld (lk (esh st) k0) = false))) ->
  ((pend x' = Some i /\ wheld x' = false) <-> In (k0, MA) h') ->
  (forall j, j <> i -> ((pend x' = Some j /\ wheld x' = true) <-> (pend (lk (esh st) k0) = Some j /\ wheld (lk (esh st) k0) = true))) ->
  ((pend x' = Some i /\ wheld x' = true) <-> In (k0, MW) h') ->
  (pend x' = None -> wheld x' = false) ->
  (wheld x' = true -> rd x' = []) ->
  lock_inv {| esh := set_lk (esh st) k0 x'; eacts := upd (eacts st) i {| pr := q; ts := set_held (ts a) h' |} |}.
Proof.
  intros st i a q k0 x' h' HL Ha Hoth N1 R1 R2 A1 A2 W1 W2 P1 P2 k.
  assert (Hj : forall j k m, j <> i ->
            (holder {| esh := set_lk (esh st) k0 x'; eacts := upd (eacts st) i {| pr := q; ts := set_held (ts a) h' |} |} j k m <-> holder st j k m)).
  { intros. rewrite (holder_esh st (set_lk (esh st) k0 x')). apply holder_upd_other; auto. }
  assert (Hi : forall k m,
            (holder {| esh := set_lk (esh st) k0 x'; eacts := upd (eacts st) i {| pr := q; ts := set_held (ts a) h' |} |} i k m <-> In (k, m) h')).
  { intros k' m'. rewrite (holder_self st _ i a _ k' m' Ha). simpl. tauto. }
  destruct (HL k) as [H1 [H2 [H3 [H4 [H5 H6]]]]].
  destruct (Nat.eq_dec k k0) as [->|Nk].
  - simpl esh. rewrite lk_set_lk_eq. split; auto. split; [|split; [|split; [|split]]]; auto.
    + intros j. destruct (Nat.eq_dec j i) as [->|Nj]; [rewrite Hi; auto|]. rewrite Hj, R1; auto.
    + intros j. destruct (Nat.eq_dec j i) as [->|Nj]; [rewrite Hi; auto|]. rewrite Hj, A1; auto.
    + intros j. destruct (Nat.eq_dec j i) as [->|Nj]; [rewrite Hi; auto|]. rewrite Hj, W1; auto.
  - simpl esh. rewrite lk_set_lk_neq; auto.
    assert (Hx : forall j m, holder {| esh := set_lk (esh st) k0 x'; eacts := upd (eacts st) i {| pr := q; ts := set_held (ts a) h' |} |} j k m <-> holder st j k m).
    { intros j m. destruct (Nat.eq_dec j i) as [->|Nj]; [|apply Hj; auto].
      rewrite Hi, (holder_self0 st i a k m Ha). apply Hoth; auto. }
    split; auto. split; [|split; [|split; [|split]]]; auto; intros j; rewrite Hx; auto.
Qed.

Lemma lock_inv_step : forall V st i c st', all_inv st -> eexec V st i c = Some st' -> lock_inv st'.
Proof.
  intros V st i c st' [HL HA] H. unfold eexec in H.
  destruct (nth_error (eacts st) i) as [a|] eqn:Ha; [|discriminate].
  destruct (estep V i c (esh st) a) as [[s' a']|] eqn:Es; [|discriminate]. inversion H; subst; clear H.
  pose proof (HA _ _ Ha) as HI. pose proof HI as [Hc [Hs [Hb Hm]]].
  unfold estep in Es. destruct (pr a) as [|o q|b f q] eqn:Ep; [discriminate| |].
  2:{ destruct b.
    - destruct (is_none (pend (lk (esh st) 2))); [|discriminate].
      destruct (present (esh st) && (negb (offl (esh st)) || ev_ref_ignores_offl V)); inversion Es; subst;
        eapply lock_inv_frame; eauto.
    - destruct (present (esh st)); inversion Es; subst; eapply lock_inv_frame; eauto.
    - destruct (mapped (esh st)); inversion Es; subst; eapply lock_inv_frame; eauto.
    - destruct c.
      + destruct (Nat.eqb (refs (esh st)) 0); [|discriminate]. inversion Es; subst. eapply lock_inv_frame; eauto.
      + destruct (ev_timeout V); [|discriminate]. inversion Es; subst. eapply lock_inv_frame; eauto. }
  apply chk_Seq in Hc. destruct Hc as [Hok [Haa Hq]].
  destruct o as [o|o].
  2:{ destruct (guard_data o (esh st)); [|discriminate]. inversion Es; subst.
      eapply lock_inv_frame; eauto; [|simpl; apply held_ts_data].
      destruct o; simpl; auto; try (destruct (refs (esh st)); reflexivity);
        try (destruct (gone (esh st)); reflexivity); try (destruct (negb (closed (esh st)) && gone (esh st)); reflexivity). }
  destruct (guard_lock o (esh st)) eqn:Eg; [|discriminate]. inversion Es; subst; clear Es.
  assert (Hself : forall k m, holder st i k m <-> In (k, m) (held (ts a))) by (intros; apply holder_self0; auto).
  destruct o as [k0|k0|k0|k0|k0]; simpl in Hok, Eg; unfold eff_lock, ts_lock;
    destruct (HL k0) as [H1 [H2 [H3 [H4 [H5 H6]]]]].
  - (* RLock *)
    apply andb_true_iff in Hok. destruct Hok as [Hlt _]. rewrite all_lt_In in Hlt.
    assert (Nh : forall m, ~ In (k0, m) (held (ts a))) by (intros m C; apply Hlt in C; simpl in C; lia).
    destruct (pend (lk (esh st) k0)) eqn:Ep0; [discriminate|].
    apply (lock_inv_lockop st i a q k0 _ _ HL Ha); simpl.
    + intros k' m N. split; [intros [C|C]; [congruence|auto]|auto].
    + constructor; auto. intro C. apply H2 in C. apply Hself in C. eapply Nh; eauto.
    + intros j N. split; [intros [C|C]; [congruence|auto]|auto].
    + tauto.
    + intros j N. rewrite Ep0. tauto.
    + split; [intros [C _]; discriminate|]. intros [C|C]; [discriminate|exfalso; eapply Nh; eauto].
    + intros j N. rewrite Ep0. tauto.
    + split; [intros [C _]; discriminate|]. intros [C|C]; [discriminate|exfalso; eapply Nh; eauto].
    + intros _. apply H5. auto.
    + intros C. rewrite H5 in C; [discriminate|auto].
  - (* RUnlock *)
    apply holds_In in Hok.
    destruct (NoDup_rm_one i _ H1) as [I1 [I2 I3]].
    apply (lock_inv_lockop st i a q k0 _ _ HL Ha); simpl.
    + intros k' m N. apply (rm_km_other k0 MR (held (ts a)) (k', m)). simpl. auto.
    + exact I1.
    + intros j N. split; [apply In_rm_one|apply I3; auto].
    + split; [intros C; exfalso; auto|]. intros C. exfalso. eapply rm_km_none; eauto.
    + tauto.
    + split.
      * intros C. apply H3 in C. apply Hself in C. pose proof (uniq_rank _ _ _ _ Hs Hok C). discriminate.
      * intros C. exfalso. eapply rm_km_none; eauto.
    + tauto.
    + split.
      * intros C. apply H4 in C. apply Hself in C. pose proof (uniq_rank _ _ _ _ Hs Hok C). discriminate.
      * intros C. exfalso. eapply rm_km_none; eauto.
    + exact H5.
    + intros C. rewrite (H6 C). reflexivity.
  - (* Ann *)
    apply andb_true_iff in Hok. destruct Hok as [Hlt _]. rewrite all_lt_In in Hlt.
    assert (Nh : forall m, ~ In (k0, m) (held (ts a))) by (intros m C; apply Hlt in C; simpl in C; lia).
    destruct (pend (lk (esh st) k0)) eqn:Ep0; [discriminate|].
    apply (lock_inv_lockop st i a q k0 _ _ HL Ha); simpl.
    + intros k' m N. split; [intros [C|C]; [congruence|auto]|auto].
    + exact H1.
    + tauto.
    + split.
      * intros C. apply H2 in C. apply Hself in C. exfalso. eapply Nh; eauto.
      * intros [C|C]; [discriminate|exfalso; eapply Nh; eauto].
    + intros j N. rewrite Ep0. split; [intros [C _]; congruence|intros [C _]; discriminate].
    + tauto.
    + intros j N. rewrite Ep0. split; [intros [_ C]; discriminate|intros [C _]; discriminate].
    + split; [intros [_ C]; discriminate|]. intros [C|C]; [discriminate|exfalso; eapply Nh; eauto].
    + discriminate.
    + discriminate.
  - (* Acq *)
    apply holds_In in Hok. pose proof (proj2 (H3 i) (proj2 (Hself k0 MA) Hok)) as [Ep0 Ew0].
    destruct (rd (lk (esh st) k0)) eqn:Er; [|discriminate].
    apply (lock_inv_lockop st i a q k0 _ _ HL Ha); simpl.
    + intros k' m N. rewrite In_map_upg. split.
      * intros [[C _]|[C _]]; [auto|congruence].
      * intros C. left. split; auto. congruence.
    + constructor.
    + rewrite Er. tauto.
    + split; [intros []|]. rewrite In_map_upg. intros [[C _]|[C _]]; [|discriminate].
      pose proof (uniq_rank _ _ _ _ Hs Hok C). discriminate.
    + intros j N. rewrite Ew0. split; [intros [_ C]; discriminate|]. intros [C _]. congruence.
    + split; [intros [_ C]; discriminate|]. rewrite In_map_upg. intros [[_ C]|[C _]]; [congruence|discriminate].
    + intros j N. rewrite Ep0; rewrite Ew0. split; [intros [C _]; congruence|intros [_ C]; congruence].
    + split; [|auto]. intros _. apply In_map_upg. right. auto.
    + intros C. congruence.
    + auto.
  - (* WUnlock *)
    apply andb_true_iff in Hok. destruct Hok as [Hok _]. apply holds_In in Hok.
    pose proof (proj2 (H4 i) (proj2 (Hself k0 MW) Hok)) as [Ep0 Ew0]. pose proof (H6 Ew0) as Er.
    apply (lock_inv_lockop st i a q k0 _ _ HL Ha); simpl.
    + intros k' m N. apply (rm_km_other k0 MW (held (ts a)) (k', m)). simpl. auto.
    + exact H1.
    + tauto.
    + rewrite Er. split; [intros []|]. intros C. apply In_rm_km in C.
      pose proof (uniq_rank _ _ _ _ Hs Hok C). discriminate.
    + intros j N. rewrite Ep0. split; [intros [C _]; discriminate|]. intros [C _]. congruence.
    + split; [intros [C _]; discriminate|]. intros C. exfalso. eapply rm_km_none; eauto.
    + intros j N. rewrite Ep0. split; [intros [C _]; discriminate|]. intros [C _]. congruence.
    + split; [intros [C _]; discriminate|]. intros C. exfalso. eapply rm_km_none; eauto.
    + auto.
    + discriminate.
Qed.

Lemma all_inv_step : forall V st i c st', all_inv st -> eexec V st i c = Some st' -> all_inv st'.
Proof.
  intros V st i c st' HI H. split; [eapply lock_inv_step; eauto|].
  destruct HI as [_ HA]. unfold eexec in H.
  destruct (nth_error (eacts st) i) as [a|] eqn:Ha; [|discriminate].
  destruct (estep V i c (esh st) a) as [[s' a']|] eqn:Es; [|discriminate]. inversion H; subst; clear H. simpl.
  intros j b Hj. apply nth_error_upd in Hj. destruct Hj as [[-> ->]|[N Hj]]; [|eauto].
  eapply actor_inv_step; eauto.
Qed.

Lemma all_inv_reach : forall V ps st, forallb (chk ts0) ps = true -> ereach V (einit ps) st -> all_inv st.
Proof.
  intros V ps st Hp R. induction R; [apply all_inv_init; auto|].
  destruct H as [i [c H]]. eapply all_inv_step; eauto.
Qed.

Lemma lock_excl : forall st k j1 j2 a1 a2 m, lock_inv st -> nth_error (eacts st) j1 = Some a1 -> nth_error (eacts st) j2 = Some a2 ->
  In (k, MW) (held (ts a1)) -> In (k, m) (held (ts a2)) -> j1 = j2.
Proof.
  intros st k j1 j2 a1 a2 m HL N1 N2 I1 I2. destruct (HL k) as [H1 [H2 [H3 [H4 [H5 H6]]]]].
  assert (W : pend (lk (esh st) k) = Some j1 /\ wheld (lk (esh st) k) = true) by (apply H4; exists a1; auto).
  destruct W as [Wp Ww]. destruct m.
  - assert (C : In j2 (rd (lk (esh st) k))) by (apply H2; exists a2; auto). rewrite (H6 Ww) in C. destruct C.
  - assert (C : pend (lk (esh st) k) = Some j2 /\ wheld (lk (esh st) k) = false) by (apply H3; exists a2; auto). destruct C; congruence.
  - assert (C : pend (lk (esh st) k) = Some j2 /\ wheld (lk (esh st) k) = true) by (apply H4; exists a2; auto). destruct C; congruence.
Qed.

(* No deadlock (variant `ecode`: DeleteDatabase's wait has its time-out).  In a stuck state every lock is free, by
   downward induction on the rank - whoever holds a lock of rank k is not finished, so it is blocked, and by the rank
   discipline it can only be blocked on a lock of higher rank (or, as an announced writer, on the readers of its own
   lock, which in turn are blocked on higher ranks). *)
Definition free (s : eshared) (k : nat) : Prop := pend (lk s k) = None /\ rd (lk s k) = [].

Lemma is_none_false : forall A (o : option A), is_none o = false -> o <> None.
Proof. destruct o; simpl; congruence. Qed.

Lemma blocked_wants : forall i s a, actor_inv a -> pr a <> Done ->
  estep ecode i true s a = None -> estep ecode i false s a = None ->
  (exists k', pend (lk s k') <> None /\ (forall x, In x (held (ts a)) -> fst x < k')) \/
  (exists k' q, pr a = Seq (L (Acq k')) q /\ rd (lk s k') <> [] /\ In (k', MA) (held (ts a))).
Proof.
  intros i s a [Hc _] Hnd H1 H2. unfold estep in *. destruct (pr a) as [|o q|b f q] eqn:Ep; [congruence| |].
  - apply chk_Seq in Hc. destruct Hc as [Hok _]. destruct o as [o|o].
    + destruct (guard_lock o s) eqn:Eg; [discriminate|]. destruct o as [k|k|k|k|k]; simpl in Eg, Hok; try discriminate.
      * left. exists k. apply andb_true_iff in Hok. destruct Hok as [Hlt _]. split; [apply is_none_false; auto|apply all_lt_In; auto].
      * left. exists k. apply andb_true_iff in Hok. destruct Hok as [Hlt _]. split; [apply is_none_false; auto|apply all_lt_In; auto].
      * right. exists k, q. split; auto. split; [|apply holds_In; auto]. destruct (rd (lk s k)); simpl in Eg; congruence.
    + destruct (guard_data o s) eqn:Eg; [discriminate|]. destruct o; simpl in Eg, Hok; try discriminate.
      left. exists 2. apply andb_true_iff in Hok. destruct Hok as [_ Hlt]. split; [apply is_none_false; auto|apply all_lt_In; auto].
  - apply chk_Br in Hc. destruct Hc as [Hok _]. destruct b; simpl in Hok.
    + destruct (is_none (pend (lk s 2))) eqn:Eg.
      * destruct (present s && (negb (offl s) || ev_ref_ignores_offl ecode)); discriminate.
      * left. exists 2. apply andb_true_iff in Hok. destruct Hok as [Hok _]. apply andb_true_iff in Hok. destruct Hok as [_ Hlt].
        split; [apply is_none_false; auto|apply all_lt_In; auto].
    + destruct (present s); discriminate.
    + destruct (mapped s); discriminate.
    + simpl in H2. discriminate.
Qed.

Lemma eexec_none : forall V st i c a, nth_error (eacts st) i = Some a -> eexec V st i c = None -> estep V i c (esh st) a = None.
Proof.
  intros V st i c a Ha H. unfold eexec in H. rewrite Ha in H. destruct (estep V i c (esh st) a) as [[s' a']|]; [discriminate|auto].
Qed.

Lemma not_done_of_held : forall a x, actor_inv a -> In x (held (ts a)) -> pr a <> Done.
Proof.
  intros a x [Hc _] Hi Hd. rewrite Hd in Hc. simpl in Hc. apply andb_true_iff in Hc. destruct Hc as [Hc _].
  apply andb_true_iff in Hc. destruct Hc as [Hc _]. destruct (held (ts a)); [destruct Hi|discriminate].
Qed.

Lemma holder_blocked : forall st j a k m, all_inv st -> (forall i c, eexec ecode st i c = None) ->
  nth_error (eacts st) j = Some a -> In (k, m) (held (ts a)) ->
  (exists k', k < k' /\ ~ free (esh st) k') \/ (m = MA /\ rd (lk (esh st) k) <> []).
Proof.
  intros st j a k m [HL HA] Hst Ha Hi. pose proof (HA _ _ Ha) as HI.
  destruct (blocked_wants j (esh st) a HI (not_done_of_held _ _ HI Hi) (eexec_none _ _ _ _ _ Ha (Hst j true)) (eexec_none _ _ _ _ _ Ha (Hst j false)))
    as [[k' [Hp Hlt]]|[k' [q [Ep [Hr Hma]]]]].
  - left. exists k'. split; [apply (Hlt _ Hi)|]. intros [F _]. congruence.
  - destruct HI as [_ [Hs [_ Hm]]]. destruct (Hm _ Hma) as [_ [r Hr']].
    destruct (Nat.eq_dec k' k) as [->|N].
    + right. split; auto. exact (uniq_rank _ _ _ _ Hs Hi Hma).
    + left. exists k'. split.
      * rewrite Hr' in Hi, Hs. destruct Hi as [C|C]; [inversion C; congruence|]. simpl in Hs. destruct Hs as [Hs _]. apply (Hs _ C).
      * intros [_ F]. congruence.
Qed.

Lemma stuck_free : forall st, all_inv st -> (forall i c, eexec ecode st i c = None) ->
  forall n k, 4 <= k + n -> free (esh st) k.
Proof.
  intros st HI Hst. pose proof HI as [HL HA]. induction n as [|n IH]; intros k Hk.
  - (* no lock of rank >= 4 is ever held *)
    destruct (HL k) as [H1 [H2 [H3 [H4 [H5 H6]]]]].
    assert (Nh : forall j m, ~ holder st j k m).
    { intros j m [a [Ha Hi]]. destruct (HA _ _ Ha) as [_ [_ [Hb _]]]. apply Hb in Hi. simpl in Hi. lia. }
    split.
    + destruct (pend (lk (esh st) k)) as [j|] eqn:Ep; auto. exfalso. destruct (wheld (lk (esh st) k)) eqn:Ew.
      * eapply Nh. apply H4. eauto.
      * eapply Nh. apply H3. eauto.
    + destruct (rd (lk (esh st) k)) as [|j r] eqn:Er; auto. exfalso. eapply Nh. apply H2. left; reflexivity.
  - destruct (Nat.le_gt_cases 4 (k + n)) as [Hle|Hgt]; [apply IH; auto|].
    assert (Hup : forall k', k < k' -> free (esh st) k') by (intros k' Hk'; apply IH; lia).
    destruct (HL k) as [H1 [H2 [H3 [H4 [H5 H6]]]]].
    assert (Hrd : rd (lk (esh st) k) = []).
    { destruct (rd (lk (esh st) k)) as [|j r] eqn:Er; auto. exfalso.
      destruct (proj1 (H2 j) (or_introl eq_refl)) as [a [Ha Hi]].
      destruct (holder_blocked st j a k MR HI Hst Ha Hi) as [[k' [Hlt Hnf]]|[C _]]; [|discriminate].
      apply Hnf. apply Hup. auto. }
    split; auto.
    destruct (pend (lk (esh st) k)) as [j|] eqn:Ep; auto. exfalso.
    assert (Hh : exists a m, nth_error (eacts st) j = Some a /\ In (k, m) (held (ts a)) /\ m <> MR).
    { destruct (wheld (lk (esh st) k)) eqn:Ew.
      - destruct (proj1 (H4 j) (conj eq_refl eq_refl)) as [a [Ha Hi]]. exists a, MW. repeat split; auto. discriminate.
      - destruct (proj1 (H3 j) (conj eq_refl eq_refl)) as [a [Ha Hi]]. exists a, MA. repeat split; auto. discriminate. }
    destruct Hh as [a [m [Ha [Hi _]]]].
    destruct (holder_blocked st j a k m HI Hst Ha Hi) as [[k' [Hlt Hnf]]|[_ C]]; [|congruence].
    apply Hnf. apply Hup. auto.
Qed.

Lemma eng_stuck_all_done : forall st, all_inv st -> (forall i c, eexec ecode st i c = None) ->
  forall i a, nth_error (eacts st) i = Some a -> edone a = true.
Proof.
  intros st HI Hst i a Hi. unfold edone. destruct (pr a) eqn:Ep; auto; exfalso.
  all: assert (Hnd : pr a <> Done) by congruence.
  all: destruct (blocked_wants i (esh st) a (proj2 HI _ _ Hi) Hnd (eexec_none _ _ _ _ _ Hi (Hst i true)) (eexec_none _ _ _ _ _ Hi (Hst i false)))
    as [[k' [Hp' _]]|[k' [q [_ [Hr _]]]]];
    destruct (stuck_free st HI Hst 4 k') as [F1 F2]; try lia; congruence.
Qed.
