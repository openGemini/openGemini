(* C04 engine level: the witnesses of the refutations in Refuted.v and Mutants.v.  (1) THE CODE BEFORE FIX f11ca97:
   checkAndGetDBPTInfo re-enters EngineImpl.mu.RLock; with a Close (or anything that calls EngineImpl.mu.Lock) arriving
   in between the machine reaches a deadlock.  (2) sensitivity: without the time-out of DeleteDatabase's wait a pending
   writer of EngineImpl.mu deadlocks the drop; a DBPTInfo.ref that ignores the offloading flag lets an operation work on
   deleted data. *)
From Coq Require Import List Bool Arith.
From OG Require Import C04.Model C04.Eng.
Import ListNotations.

Lemma ereach_trans : forall V a b c, ereach V a b -> ereach V b c -> ereach V a c.
Proof. intros V a b c H1 H2. induction H2; auto. eapply ereach_step; eauto. Qed.

Lemma run_until_blocked_reach : forall V n st i, ereach V st (run_until_blocked V n st i).
Proof.
  intros V n. induction n as [|n IH]; intros st i; simpl; [apply ereach_refl|].
  destruct (eexec V st i true) as [st'|] eqn:E; [|apply ereach_refl].
  eapply ereach_trans; [|apply IH]. eapply ereach_step; [apply ereach_refl|]. exists i, true. exact E.
Qed.

Lemma erun_reach : forall V sched st st', erun V st sched = Some st' -> ereach V st st'.
Proof.
  intros V sched. induction sched as [|[i c] t IH]; intros st st' H; simpl in H.
  - inversion H; subst. apply ereach_refl.
  - destruct (eexec V st i c) as [st1|] eqn:E; [|discriminate].
    eapply ereach_trans; [|apply IH; exact H]. eapply ereach_step; [apply ereach_refl|]. exists i, c. exact E.
Qed.

(* the partition lookup of WriteToRaft does not pass the static discipline ... *)
Lemma raft_current_not_ordered : chk ts0 P_raft_current = false.
Proof. vm_compute. reflexivity. Qed.

(* ... and the machine deadlocks: the lookup holds EngineImpl.mu.RLock and has taken its reference, Engine.Close
   announces itself as writer of EngineImpl.mu, the lookup's deferred unrefDBPT asks for EngineImpl.mu.RLock again *)
Definition reentry_witness : list (nat * bool) := [(0, true); (0, true); (1, true)].

(* the repaired lookup and the same Close, run round-robin: everybody finishes *)
Lemma repaired_on_reentry_witness :
  chk ts0 P_raft = true /\
  let st := run_rounds ecode 4 (einit [P_raft; P_close]) [0; 1] in
  forallb edone (eacts st) = true /\ bad (esh st) = [].
Proof. vm_compute. repeat split. Qed.

Definition no_timeout : evariant := {| ev_timeout := false; ev_ref_ignores_offl := false |}.
Definition ref_ignores_offloading : evariant := {| ev_timeout := true; ev_ref_ignores_offl := true |}.

(* a query holds a reference; DeleteDatabase marks the partition and waits (holding EngineImpl.mu.RLock); Engine.Close
   announces itself on EngineImpl.mu; the query's DbPTUnref cannot take EngineImpl.mu.RLock any more.  Without the
   time-out nobody can move; with it (the code) DeleteDatabase gives up and everything drains. *)
Definition stall_state (V : evariant) : estate :=
  let st0 := einit [P_query; P_dropdb; P_close] in
  let st1 := run_until_blocked V 12 st0 0 in      (* the query up to (not including) its DbPTUnref *)
  let st2 := run_until_blocked V 200 st1 1 in     (* DeleteDatabase up to its wait *)
  let st3 := run_until_blocked V 200 st2 2 in     (* Close: announced, waiting for the readers *)
  run_until_blocked V 200 st3 0.

(* the programs of the code pass the discipline, so the theorems of EngInv.v / EngSafe.v apply to any number of
   instances of them *)
Lemma code_progs_ordered : forallb (chk ts0) code_progs = true.
Proof. vm_compute. reflexivity. Qed.
