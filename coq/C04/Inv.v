(* C04: what one step of the correct machine does - to a memtable (lstep_mt), to a file (lstep_file), to the logs, the
   close flags and the two table pointers (lstep_logs, lstep_close, lstep_owner) - and the structural invariants that
   follow (Inv1).  Views.v, Safety.v and Progress.v argue from these effects where they can, and by cases on the kind of
   step otherwise. *)
From Coq Require Import List Bool Arith PeanoNat Lia.
From OG Require Import C04.Model C04.Proofs C04.Steps.
Import ListNotations.

Arguments get_mt : simpl never.
Arguments get_file : simpl never.
Arguments map_mt : simpl never.
Arguments map_file : simpl never.
Arguments publish : simpl never.
Arguments drop_snap : simpl never.
Arguments flag_of : simpl never.

Lemma get_mt_set_logs : forall s a b k, get_mt (set_logs s a b) k = get_mt s k. Proof. reflexivity. Qed.
Lemma get_mt_set_files : forall s a k, get_mt (set_files s a) k = get_mt s k. Proof. reflexivity. Qed.
Lemma get_mt_set_close : forall s a b c d e k, get_mt (set_close s a b c d e) k = get_mt s k. Proof. reflexivity. Qed.
Lemma get_mt_set_seq : forall s a b k, get_mt (set_seq s a b) k = get_mt s k. Proof. reflexivity. Qed.
Lemma get_mt_set_as : forall s a b k, get_mt (set_active_snap s a b) k = get_mt s k. Proof. reflexivity. Qed.
Lemma get_mt_set_mts : forall s l k, get_mt (set_mts s l) k = nth_error l k. Proof. reflexivity. Qed.
Lemma get_file_set_logs : forall s a b k, get_file (set_logs s a b) k = get_file s k. Proof. reflexivity. Qed.
Lemma get_file_set_mts : forall s a k, get_file (set_mts s a) k = get_file s k. Proof. reflexivity. Qed.
Lemma get_file_set_close : forall s a b c d e k, get_file (set_close s a b c d e) k = get_file s k. Proof. reflexivity. Qed.
Lemma get_file_set_seq : forall s a b k, get_file (set_seq s a b) k = get_file s k. Proof. reflexivity. Qed.
Lemma get_file_set_as : forall s a b k, get_file (set_active_snap s a b) k = get_file s k. Proof. reflexivity. Qed.
Lemma get_file_set_files : forall s l k, get_file (set_files s l) k = nth_error l k. Proof. reflexivity. Qed.
Lemma get_file_map_mt : forall s a g k, get_file (map_mt s a g) k = get_file s k.
Proof. intros. unfold map_mt. destruct (get_mt s a); reflexivity. Qed.
Lemma get_mt_map_file : forall s a g k, get_mt (map_file s a g) k = get_mt s k.
Proof. intros. unfold map_file. destruct (get_file s a); reflexivity. Qed.
Lemma get_mt_unfold : forall s k, get_mt s k = nth_error (mts s) k. Proof. reflexivity. Qed.
Lemma get_file_unfold : forall s k, get_file s k = nth_error (files s) k. Proof. reflexivity. Qed.
Lemma active_map_mt : forall s a g, active (map_mt s a g) = active s.
Proof. intros. unfold map_mt. destruct (get_mt s a); reflexivity. Qed.
Lemma snap_map_mt : forall s a g, snap (map_mt s a g) = snap s.
Proof. intros. unfold map_mt. destruct (get_mt s a); reflexivity. Qed.
Lemma active_map_file : forall s a g, active (map_file s a g) = active s.
Proof. intros. unfold map_file. destruct (get_file s a); reflexivity. Qed.
Lemma snap_map_file : forall s a g, snap (map_file s a g) = snap s.
Proof. intros. unfold map_file. destruct (get_file s a); reflexivity. Qed.


Lemma nth_error_app_new : forall A (l : list A) x k y,
  nth_error (l ++ [x]) k = Some y -> (k < length l /\ nth_error l k = Some y) \/ (k = length l /\ y = x).
Proof.
  intros. destruct (Nat.lt_ge_cases k (length l)).
  - left. rewrite nth_error_app1 in H; auto.
  - right. rewrite nth_error_app2 in H; auto. destruct (k - length l) eqn:E.
    + simpl in H. inversion H. split; auto. lia.
    + simpl in H. destruct n; discriminate.
Qed.

Lemma nth_error_app_old : forall A (l l2 : list A) k y, nth_error l k = Some y -> nth_error (l ++ l2) k = Some y.
Proof. intros. rewrite nth_error_app1; auto. apply nth_error_Some. congruence. Qed.

Lemma get_mt_map_mt : forall s a g k,
  get_mt (map_mt s a g) k = match get_mt s a with
                            | Some t => if Nat.eqb a k then Some (g t) else get_mt s k
                            | None => get_mt s k end.
Proof. intros. unfold map_mt. destruct (get_mt s a) eqn:E; auto. exact (nth_error_upd_at _ _ _ _ _ _ E). Qed.

Lemma get_file_map_file : forall s a g k,
  get_file (map_file s a g) k = match get_file s a with
                                | Some t => if Nat.eqb a k then Some (g t) else get_file s k
                                | None => get_file s k end.
Proof. intros. unfold map_file. destruct (get_file s a) eqn:E; auto. exact (nth_error_upd_at _ _ _ _ _ _ E). Qed.

Lemma nth_error_unhold_all : forall i own ms l k j,
  nth_error (unhold_all i own ms k l) j =
  option_map (fun t => if mem_nat (k + j) ms then mt_unhold i (mem_nat (k + j) own) t else t) (nth_error l j).
Proof.
  intros i own ms l; induction l; intros k j; destruct j; simpl; auto.
  - rewrite Nat.add_0_r; auto.
  - rewrite IHl. replace (S k + j) with (k + S j) by lia. auto.
Qed.

Lemma listed_from_In : forall l k f, In f (listed_from k l) <->
  exists j x, f = k + j /\ nth_error l j = Some x /\ f_listed x = true.
Proof.
  induction l as [|a l IH]; intros k f; simpl.
  - split; [tauto|]. intros [[|j] [x [_ [H _]]]]; discriminate.
  - assert (E : In f (if f_listed a then k :: listed_from (S k) l else listed_from (S k) l) <->
                (f = k /\ f_listed a = true) \/ In f (listed_from (S k) l)).
    { destruct (f_listed a); simpl; intuition congruence. }
    rewrite E, IH. split.
    + intros [[-> L]|[j [x [-> [H L]]]]]; [exists 0, a; rewrite Nat.add_0_r; auto|exists (S j), x; split; [lia|auto]].
    + intros [[|j] [x [-> [H L]]]]; [left; inversion H; subst; rewrite Nat.add_0_r; auto|right; exists j, x; split; [lia|auto]].
Qed.

Lemma listed_In : forall s f, In f (listed s) <-> exists x, get_file s f = Some x /\ f_listed x = true.
Proof.
  intros. unfold listed, get_file. rewrite listed_from_In. split; [intros [j [x [-> H]]]; eauto|intros [x H]; exists f, x; auto].
Qed.

Lemma existsb_nth : forall A (p : A -> bool) l i a, nth_error l i = Some a -> p a = true -> existsb p l = true.
Proof. intros. apply existsb_exists. exists a. split; auto. eapply nth_error_In; eauto. Qed.

Lemma existsb_false_nth : forall A (p : A -> bool) l i a, existsb p l = false -> nth_error l i = Some a -> p a = false.
Proof.
  intros. destruct (p a) eqn:E; auto. rewrite (existsb_nth _ p l i a) in H; auto.
Qed.

Lemma flag_of_some : forall s m, flag_of s (Some m) = match get_mt s m with Some t => m_flag t | None => false end.
Proof. reflexivity. Qed.

Lemma mid_flush_F : forall f, mid_flush (AF f) = match fl_ph f with F0 => false | _ => true end.
Proof. reflexivity. Qed.

Lemma fmid_false_all : forall l j f, fmid l = false -> nth_error l j = Some (AF f) -> fl_ph f = F0.
Proof.
  intros. pose proof (existsb_false_nth _ _ _ _ _ H H0) as E. simpl in E. destruct (fl_ph f); auto; discriminate.
Qed.

Lemma get_mt_map_at : forall s0 s p g k,
  get_mt (set_mts s0 (map_at 0 p g (mts s))) k = option_map (fun t => if p k then g t else t) (get_mt s k).
Proof. intros. exact (nth_error_map_at _ p g (mts s) 0 k). Qed.

Lemma get_file_map_at : forall s0 s p g k,
  get_file (set_files s0 (map_at 0 p g (files s))) k = option_map (fun x => if p k then g x else x) (get_file s k).
Proof. intros. exact (nth_error_map_at _ p g (files s) 0 k). Qed.

Lemma get_mt_unhold_all : forall s0 s i own ms k,
  get_mt (set_mts s0 (unhold_all i own ms 0 (mts s))) k =
  option_map (fun t => if mem_nat k ms then mt_unhold i (mem_nat k own) t else t) (get_mt s k).
Proof. intros. exact (nth_error_unhold_all i own ms (mts s) 0 k). Qed.

(* apart from the one list they rewrite, map_mt, map_file, publish and drop_snap leave every field alone *)
Lemma map_mt_shape : forall s a g, exists ms, map_mt s a g = set_mts s ms.
Proof. intros. unfold map_mt. destruct (get_mt s a); eauto. exists (mts s). destruct s; reflexivity. Qed.

Lemma map_file_shape : forall s f g, exists fs, map_file s f g = set_files s fs.
Proof. intros. unfold map_file. destruct (get_file s f); eauto. exists (files s). destruct s; reflexivity. Qed.

Lemma publish_shape : forall s m o, exists ms h,
  publish s m o =
  set_mts (set_seq (set_files s (files s ++ opt_file (filter (fun b => hi s <? b) (mt_rows_of s m)) (Some m) true true
                                         ++ opt_file (filter (fun b => b <=? hi s) (mt_rows_of s m)) (Some m) false (negb o)))
                   h (ugen s)) ms.
Proof. intros. unfold publish. match goal with |- context [map_mt ?x m mt_set_flag] => destruct (map_mt_shape x m mt_set_flag) as [ms E] end. eauto. Qed.

Lemma drop_snap_shape : forall s m, exists ms, drop_snap s m = set_mts (set_active_snap s (active s) None) ms.
Proof.
  intros. unfold drop_snap. set (s1 := set_active_snap s (active s) None).
  destruct (get_mt s1 m) as [t|]; [destruct (is_nil (m_hold t))|]; try apply map_mt_shape; exists (mts s); reflexivity.
Qed.

(* expose those shapes in the goal, so that field projections compute *)
Ltac shape :=
  repeat match goal with
         | |- context [map_mt ?s ?a ?g] => let E := fresh in destruct (map_mt_shape s a g) as [? E]; rewrite E; clear E
         | |- context [map_file ?s ?a ?g] => let E := fresh in destruct (map_file_shape s a g) as [? E]; rewrite E; clear E
         | |- context [publish ?s ?m ?o] => let E := fresh in destruct (publish_shape s m o) as [? [? E]]; rewrite E; clear E
         | |- context [drop_snap ?s ?m] => let E := fresh in destruct (drop_snap_shape s m) as [? E]; rewrite E; clear E
         | |- context [if fclosed ?s then _ else _] => destruct (fclosed s) eqn:?
         end.

Lemma publish_mts : forall s m o k, get_mt (publish s m o) k =
  match get_mt s m with Some t => if Nat.eqb m k then Some (mt_set_flag t) else get_mt s k | None => get_mt s k end.
Proof. intros. unfold publish. rewrite get_mt_map_mt. reflexivity. Qed.

Lemma drop_snap_mts : forall s m k, get_mt (drop_snap s m) k =
  match get_mt s m with
  | Some t => if Nat.eqb m k then Some (if is_nil (m_hold t) then mt_kill t else t) else get_mt s k
  | None => get_mt s k
  end.
Proof.
  intros. unfold drop_snap. rewrite get_mt_set_as. destruct (get_mt s m) as [t|] eqn:E; auto.
  destruct (is_nil (m_hold t)).
  - rewrite get_mt_map_mt, get_mt_set_as, E. reflexivity.
  - rewrite get_mt_set_as. destruct (Nat.eqb_spec m k) as [<-|]; auto.
Qed.

Lemma mt_unhold_owned : forall i t, m_flag (mt_unhold i true t) = m_flag t /\ m_dead (mt_unhold i true t) = m_dead t /\
  m_rows (mt_unhold i true t) = m_rows t.
Proof. intros. unfold mt_unhold. rewrite andb_false_r. simpl. auto. Qed.

Lemma mt_unhold_flag : forall i o t, m_flag (mt_unhold i o t) = m_flag t.
Proof. intros. unfold mt_unhold. destruct (is_nil (remove_nat i (m_hold t)) && negb o); reflexivity. Qed.

Ltac inv_step H :=
  let a := fresh "a" in let a' := fresh "a'" in let Hn := fresh "Hnth" in let Hl := fresh "Hls" in let Ha := fresh "Hact" in
  destruct (exec_lstep _ _ _ H) as [a [a' [Hn [Hl Ha]]]].

Ltac inv_lstep H := inversion H; subst; repeat match goal with x := _ |- _ => subst x end.

Definition same_kind (a a' : actor) : Prop :=
  match a, a' with AW _, AW _ | AR _, AR _ | AF _, AF _ | AP _, AP _ | AC _, AC _ => True | _, _ => False end.

Lemma lstep_kind : forall s l i a s' a', lstep s l i a s' a' -> same_kind a a'.
Proof. intros s l i a s' a' H. inversion H; exact I. Qed.

Lemma lstep_logs : forall s l i a s' a', lstep s l i a s' a' -> (forall w, a <> AW w) ->
  appended s' = appended s /\ acked s' = acked s.
Proof.
  intros s l i a s' a' H N. inv_lstep H; try (exfalso; exact (N _ eq_refl)); shape; auto.
Qed.

Lemma lstep_close : forall s l i a s' a', lstep s l i a s' a' -> (forall c, a <> AC c) ->
  dropped s' = dropped s /\ mu_x s' = mu_x s /\ mmu_x s' = mmu_x s /\ fclosed s' = fclosed s.
Proof.
  intros s l i a s' a' H N. inv_lstep H; try (exfalso; exact (N _ eq_refl)); shape; auto.
Qed.

(* the active and the snapshot table are re-assigned only under the exclusive snapshot lock: by a flusher (swap, drop)
   or by the closer (C2).  For C2 the disjunct also says what it does - it drops the active table and leaves the
   snapshot pointer - because those are the two facts its users need (lstep_flags, cover_step). *)
Lemma lstep_owner : forall s l i a s' a', lstep s l i a s' a' ->
  (active s' = active s /\ snap s' = snap s /\ dropped s' = dropped s) \/
  (snapR l = false /\ ((exists f, a = AF f) \/ (a = AC C2 /\ snap s' = snap s /\ dropped s' = true))).
Proof.
  intros s l i a s' a' H. inv_lstep H; try (left; shape; auto; fail); right; eauto.
Qed.

(* a memtable that exists goes through one of these, each naming the actor that does it; a new one is empty *)
Inductive mt_eff (s s' : shared) (l : list actor) (i : nat) (a : actor) (m : nat) (t : mtab) : mtab -> Prop :=
| ME_same : mt_eff s s' l i a m t t
| ME_row : forall w b, a = AW w -> active s = Some m -> appended s' = b :: appended s -> mt_eff s s' l i a m t (mt_add_row b t)
| ME_hold : forall r sn fs fl, a = AR r -> r_ph r = R2 sn fs fl -> active s = Some m \/ (fl = false /\ sn = Some m) ->
    mt_eff s s' l i a m t (mt_add_hold i t)
| ME_unhold : forall r ms fs res, a = AR r -> r_ph r = R4 ms fs res -> mt_eff s s' l i a m t (mt_unhold i (mem_nat m (owned_ids s)) t)
| ME_flag : forall f, a = AF f -> fl_ph f = F1 m \/ (exists g, fl_ph f = F1b m g) -> mt_eff s s' l i a m t (mt_set_flag t)
| ME_kill : forall f, a = AF f -> fl_ph f = F2 m -> snapR l = false -> m_hold t = [] -> mt_eff s s' l i a m t (mt_kill t).

Definition mt_step (s s' : shared) (l : list actor) (i : nat) (a : actor) (m : nat) : Prop :=
  match get_mt s m with
  | Some t => exists t', get_mt s' m = Some t' /\ mt_eff s s' l i a m t t'
  | None => forall t', get_mt s' m = Some t' -> t' = new_mtab
  end.

Lemma mt_step_same : forall s s' l i a m, get_mt s' m = get_mt s m -> mt_step s s' l i a m.
Proof.
  intros s s' l i a m E. unfold mt_step. rewrite E. destruct (get_mt s m); [eauto using ME_same|discriminate].
Qed.

Lemma mt_step_map : forall s s' l i a m (p : bool) g, get_mt s' m = option_map (fun t => if p then g t else t) (get_mt s m) ->
  (forall t, p = true -> mt_eff s s' l i a m t (g t)) -> mt_step s s' l i a m.
Proof.
  intros s s' l i a m p g E Hg. unfold mt_step. rewrite E. destruct (get_mt s m); simpl; [|discriminate].
  destruct p; eauto using ME_same.
Qed.

Lemma mt_step_at : forall s s' l i a m k g,
  get_mt s' m = match get_mt s k with Some t => if Nat.eqb k m then Some (g t) else get_mt s m | None => get_mt s m end ->
  (forall t, get_mt s m = Some t -> k = m -> mt_eff s s' l i a m t (g t)) -> mt_step s s' l i a m.
Proof.
  intros s s' l i a m k g E Hg. destruct (get_mt s k) as [t|] eqn:G; [|apply mt_step_same; exact E].
  destruct (Nat.eqb_spec k m) as [->|N]; [|apply mt_step_same; exact E].
  unfold mt_step. rewrite E, G. eauto.
Qed.

Lemma In_opt_list : forall o m, In m (opt_list o) <-> o = Some m.
Proof. destruct o; simpl; intuition congruence. Qed.

Lemma lstep_mt : forall s l i a s' a' m, lstep s l i a s' a' -> mt_step s s' l i a m.
Proof.
  intros s l i a s' a' m H.
  inv_lstep H; try (apply mt_step_same; rewrite ?get_mt_map_file; reflexivity).
  - (* append *) eapply mt_step_at; [rewrite get_mt_set_logs; apply get_mt_map_mt|].
    intros t0 _ <-. eapply ME_row; eauto.
  - (* files *) destruct (fclosed s); apply mt_step_same; reflexivity.
  - (* mem *) eapply mt_step_map; [apply (get_mt_map_at _ s)|]. intros t Hm. apply mem_nat_In, in_app_or in Hm.
    eapply ME_hold; eauto. destruct Hm as [Hm|Hm]; [left; apply In_opt_list; auto|right].
    destruct fl; [destruct Hm|]. split; auto. apply In_opt_list; auto.
  - (* done *) eapply mt_step_map; [apply (get_mt_unhold_all _ s)|]. intros; eapply ME_unhold; eauto.
  - (* swap *) unfold mt_step. rewrite get_mt_set_as, get_mt_set_mts. destruct (get_mt s m) as [t|] eqn:G.
    + exists t. split; [apply nth_error_app_old; exact G|apply ME_same].
    + intros t' G'. apply nth_error_app_new in G'. destruct G' as [[_ G']|[_ G']]; [rewrite get_mt_unfold in G|]; congruence.
  - (* publish *) eapply mt_step_at; [apply publish_mts|]. intros t0 _ <-. eauto using ME_flag.
  - eapply mt_step_at; [apply publish_mts|]. intros t0 _ <-. eauto using ME_flag.
  - (* drop *) eapply mt_step_at; [apply drop_snap_mts|]. intros t0 _ <-. cbv beta.
    destruct (is_nil (m_hold t0)) eqn:En; [eapply ME_kill; eauto using is_nil_true|apply ME_same].
Qed.

(* a file that exists goes through one of these: its rows stay where a fresh query finds them when it is de-listed *)
Inductive file_eff (s' : shared) (i : nat) (a : actor) (x : file) : file -> Prop :=
| FE_same : file_eff s' i a x x
| FE_hold : forall r sn fl0, a = AR r -> r_ph r = R1 sn fl0 -> f_listed x = true -> file_eff s' i a x (f_add_hold i x)
| FE_unhold : forall r ms fs res, a = AR r -> r_ph r = R4 ms fs res -> file_eff s' i a x (f_unhold i x)
| FE_delist : (forall b, In b (f_rows x) -> exists g y, get_file s' g = Some y /\ f_listed y = true /\ In b (f_rows y)) ->
    file_eff s' i a x (f_delist x)
| FE_remove : f_listed x = false -> f_removed x = false -> f_hold x = [] -> file_eff s' i a x (f_remove x).

(* a file created by the step: flushed from the snapshot table m in the critical section that sets m's flag, or the
   output of a compaction / merge *)
Definition file_new (s s' : shared) (a : actor) (x : file) : Prop :=
  f_removed x = false /\ f_hold x = [] /\
  match f_src x with
  | Some m => (exists fl, a = AF fl /\ (fl_ph fl = F1 m \/ exists g, fl_ph fl = F1b m g)) /\
              incl (f_rows x) (mt_rows_of s m) /\ (get_mt s m <> None -> flag_of s' (Some m) = true)
  | None => f_listed x = true /\ forall b, In b (f_rows x) -> exists g, In b (file_rows_of s g)
  end.

Definition file_step (s s' : shared) (i : nat) (a : actor) (f : nat) : Prop :=
  match get_file s f with
  | Some x => exists x', get_file s' f = Some x' /\ file_eff s' i a x x'
  | None => forall x', get_file s' f = Some x' -> file_new s s' a x'
  end.

Lemma file_step_same : forall s s' i a f, get_file s' f = get_file s f -> file_step s s' i a f.
Proof.
  intros s s' i a f E. unfold file_step. rewrite E. destruct (get_file s f); [eauto using FE_same|discriminate].
Qed.

Lemma file_step_map : forall s s' i a f (p : bool) g, get_file s' f = option_map (fun x => if p then g x else x) (get_file s f) ->
  (forall x, get_file s f = Some x -> p = true -> file_eff s' i a x (g x)) -> file_step s s' i a f.
Proof.
  intros s s' i a f p g E Hg. unfold file_step. rewrite E. destruct (get_file s f); simpl; [|discriminate].
  destruct p; eauto using FE_same.
Qed.

Lemma covered_elsewhere_wit : forall s fs f b, covered_elsewhere s fs = true -> In f fs -> In b (file_rows_of s f) ->
  exists g, In g (listed s) /\ ~ In g fs /\ In b (file_rows_of s g).
Proof.
  intros s fs f b H Hf Hb. unfold covered_elsewhere in H. rewrite forallb_forall in H. specialize (H _ Hf).
  rewrite forallb_forall in H. specialize (H _ Hb). apply mem_nat_In in H. apply in_flat_map in H.
  destruct H as [g [Hg Hbg]]. apply filter_In in Hg. destruct Hg as [Hg1 Hg2]. exists g. repeat split; auto.
  intro X. apply mem_nat_In in X. rewrite X in Hg2. discriminate.
Qed.

Lemma file_rows_of_get : forall s f, file_rows_of s f = match get_file s f with Some t => f_rows t | None => [] end.
Proof. reflexivity. Qed.
Lemma mt_rows_of_get : forall s m, mt_rows_of s m = match get_mt s m with Some t => m_rows t | None => [] end.
Proof. reflexivity. Qed.

(* compaction / merge: the files olds are de-listed, one new file holds the rows of the files all *)
Lemma file_step_compact : forall s0 s i a f olds all, incl olds all ->
  file_step s (set_files s0 (map_at 0 (fun k => mem_nat k olds) f_delist (files s)
                            ++ [mk_file (flat_map (file_rows_of s) all) None true true])) i a f.
Proof.
  intros s0 s i a f olds all Hin. unfold file_step. rewrite get_file_set_files.
  assert (Hnew : nth_error (map_at 0 (fun k => mem_nat k olds) f_delist (files s)
                            ++ [mk_file (flat_map (file_rows_of s) all) None true true]) (length (files s))
                 = Some (mk_file (flat_map (file_rows_of s) all) None true true)).
  { rewrite nth_error_app2; rewrite length_map_at; auto. rewrite Nat.sub_diag. reflexivity. }
  pose proof (get_file_map_at s s (fun k => mem_nat k olds) f_delist f) as E. rewrite get_file_set_files in E.
  destruct (get_file s f) as [x|] eqn:G.
  - exists (if mem_nat f olds then f_delist x else x). split; [apply nth_error_app_old; exact E|].
    destruct (mem_nat f olds) eqn:Em; [|apply FE_same]. apply FE_delist. intros b Hb.
    eexists _, _. split; [exact Hnew|]. split; [reflexivity|]. simpl. apply in_flat_map. exists f.
    split; [apply Hin, mem_nat_In, Em|]. rewrite file_rows_of_get, G. exact Hb.
  - intros x' G'. apply nth_error_app_new in G'. destruct G' as [[_ G']|[_ ->]]; [simpl in E; congruence|].
    repeat split. simpl. intros b Hb. apply in_flat_map in Hb. destruct Hb as [g [_ Hb]]. eauto.
Qed.

Lemma file_step_publish : forall s m o i fl f, fl_ph fl = F1 m \/ (exists g, fl_ph fl = F1b m g) ->
  file_step s (publish s m o) i (AF fl) f.
Proof.
  intros s m o i fl f Hph. unfold file_step.
  assert (Ef : get_file (publish s m o) f =
               nth_error (files s ++ opt_file (filter (fun b => hi s <? b) (mt_rows_of s m)) (Some m) true true
                                  ++ opt_file (filter (fun b => b <=? hi s) (mt_rows_of s m)) (Some m) false (negb o)) f)
    by (destruct (publish_shape s m o) as [ms [h ->]]; reflexivity).
  rewrite Ef. destruct (get_file s f) as [x|] eqn:G; [eauto using nth_error_app_old, FE_same|].
  intros x' G'. rewrite nth_error_app2 in G' by (apply nth_error_None; exact G). apply nth_error_In in G'.
  assert (Hn : forall p ord lst, In x' (opt_file (filter p (mt_rows_of s m)) (Some m) ord lst) ->
               file_new s (publish s m o) (AF fl) x').
  { intros p ord lst Hi. destruct (filter p (mt_rows_of s m)) as [|b0 r0] eqn:Ef'; simpl in Hi; [tauto|].
    destruct Hi as [<-|[]]. split; [reflexivity|]. split; [reflexivity|]. simpl. split; [exists fl; auto|]. split.
    - rewrite <- Ef'. intros b Hb. apply filter_In in Hb. tauto.
    - intros N. unfold flag_of. rewrite publish_mts. destruct (get_mt s m); [rewrite Nat.eqb_refl; reflexivity|congruence]. }
  apply in_app_or in G'. destruct G'; eauto.
Qed.

Lemma lstep_file : forall s l i a s' a' f, lstep s l i a s' a' -> file_step s s' i a f.
Proof.
  intros s l i a s' a' f H.
  inv_lstep H; try (apply file_step_same; rewrite ?get_file_set_logs, ?get_file_map_mt; reflexivity).
  - (* files *) destruct (fclosed s); [apply file_step_same; reflexivity|].
    eapply file_step_map; [apply (get_file_map_at _ s)|]. intros x G Hm. apply mem_nat_In, listed_In in Hm.
    destruct Hm as [x0 [G0 L]]. apply (FE_hold _ _ _ _ r sn fl0); auto. congruence.
  - (* done *) eapply file_step_map; [rewrite get_file_set_mts; apply (get_file_map_at _ s)|]. intros; eapply FE_unhold; eauto.
  - (* publish *) apply file_step_publish; auto.
  - apply file_step_publish; eauto.
  - (* drop *) apply file_step_same. destruct (drop_snap_shape s m) as [ms ->]. reflexivity.
  - (* gc *) unfold file_step. rewrite get_file_map_file, H0. destruct (Nat.eqb_spec f0 f) as [->|N].
    + rewrite H0. eauto using FE_remove.
    + destruct (get_file s f); [eauto using FE_same|discriminate].
  - (* replace *) apply file_step_compact. apply incl_appl, incl_refl.
  - (* delist *) eapply file_step_map; [apply (get_file_map_at _ s)|]. intros x G Hm. apply FE_delist. intros b Hb.
    destruct (covered_elsewhere_wit s fs f b) as [g [Hg1 [Hg2 Hg3]]]; auto; [apply mem_nat_In; auto|rewrite file_rows_of_get, G; auto|].
    apply listed_In in Hg1. destruct Hg1 as [y [Gy Ly]]. exists g, y. rewrite (get_file_map_at _ s), Gy. simpl.
    destruct (mem_nat g fs) eqn:Eg; [exfalso; apply Hg2, mem_nat_In, Eg|]. rewrite file_rows_of_get, Gy in Hg3. auto.
  - (* merge *) apply file_step_compact. apply incl_appl, incl_refl.
Qed.

(* read backwards: where a container of the new state comes from *)
Lemma lstep_mt_inv : forall s l i a s' a' m t', lstep s l i a s' a' -> get_mt s' m = Some t' ->
  (exists t, get_mt s m = Some t /\ mt_eff s s' l i a m t t') \/ (get_mt s m = None /\ t' = new_mtab).
Proof.
  intros s l i a s' a' m t' H G. pose proof (lstep_mt _ _ _ _ _ _ m H) as Hm. unfold mt_step in Hm.
  destruct (get_mt s m) as [t|]; [|auto]. destruct Hm as [t2 [G2 He]]. left. exists t. split; congruence.
Qed.

Lemma lstep_file_inv : forall s l i a s' a' f x', lstep s l i a s' a' -> get_file s' f = Some x' ->
  (exists x, get_file s f = Some x /\ file_eff s' i a x x') \/ (get_file s f = None /\ file_new s s' a x').
Proof.
  intros s l i a s' a' f x' H G. pose proof (lstep_file _ _ _ _ _ _ f H) as Hf. unfold file_step in Hf.
  destruct (get_file s f) as [x|]; [|auto]. destruct Hf as [x2 [G2 He]]. left. exists x. split; congruence.
Qed.

Definition mt_ok (s : shared) : Prop :=
  (forall a, active s = Some a -> exists t, get_mt s a = Some t /\ m_flag t = false /\ m_dead t = false) /\
  (forall m, snap s = Some m -> exists t, get_mt s m = Some t /\ m_dead t = false) /\
  (forall a m, active s = Some a -> snap s = Some m -> a <> m).

Definition fl_ok (s : shared) (l : list actor) : Prop :=
  (forall j f, nth_error l j = Some (AF f) ->
     match fl_ph f with
     | F0 => True
     | F1 m => snap s = Some m /\ flag_of s (Some m) = false
     | F1b _ _ => False
     | F2 m => snap s = Some m /\ flag_of s (Some m) = true
     end) /\
  (forall j1 j2 f1 f2, nth_error l j1 = Some (AF f1) -> nth_error l j2 = Some (AF f2) ->
     fl_ph f1 <> F0 -> fl_ph f2 <> F0 -> j1 = j2) /\
  (forall m, snap s = Some m -> fmid l = true).

Definition files_ok (s : shared) : Prop :=
  forall f x, get_file s f = Some x -> f_listed x = true -> f_removed x = false.

Definition logs_ok (s : shared) (l : list actor) : Prop :=
  incl (acked s) (appended s) /\
  (forall j w b, nth_error l j = Some (AW w) -> w_ph w = W1 b -> In b (appended s)).

Record Inv1 (st : state) : Prop := {
  i_mt : mt_ok (sh st);
  i_fl : fl_ok (sh st) (actors st);
  i_files : files_ok (sh st);
  i_logs : logs_ok (sh st) (actors st)
}.

Lemma In_owned : forall s m, In m (owned_ids s) <-> active s = Some m \/ snap s = Some m.
Proof. intros. unfold owned_ids. rewrite in_app_iff, !In_opt_list. tauto. Qed.

Lemma mt_eff_owned : forall s s' l i a m t t', mt_eff s s' l i a m t t' -> In m (owned_ids s) ->
  (forall f, a <> AF f) \/ snapR l = true ->
  incl (m_rows t) (m_rows t') /\ m_dead t' = m_dead t /\ ((forall f, a <> AF f) -> m_flag t' = m_flag t).
Proof.
  intros s s' l i a m t t' H Ho Hc. destruct H; simpl; auto using incl_refl.
  - split; auto. intros x Hx; right; auto.
  - apply mem_nat_In in Ho. rewrite Ho. destruct (mt_unhold_owned i t) as [A [B C]]. rewrite A, B, C. auto using incl_refl.
  - split; [apply incl_refl|]. split; auto. intros N. exfalso; eapply N; eauto.
  - exfalso. destruct Hc as [N|Hc]; [eapply N; eauto|congruence].
Qed.

(* the shard's two tables are not re-assigned, the closer has not dropped the active one, and they keep their rows *)
Definition owned_kept (s s' : shared) : Prop :=
  active s' = active s /\ snap s' = snap s /\ dropped s' = dropped s /\
  forall m t, get_mt s m = Some t -> In m (owned_ids s) ->
    exists t', get_mt s' m = Some t' /\ incl (m_rows t) (m_rows t') /\ m_dead t' = m_dead t.

Lemma lstep_owned_kept : forall s l i a s' a', lstep s l i a s' a' ->
  ((forall f, a <> AF f) /\ a <> AC C2) \/ snapR l = true -> owned_kept s s'.
Proof.
  intros s l i a s' a' H Hc.
  destruct (lstep_owner _ _ _ _ _ _ H) as [[E1 [E2 E3]]|[Hl Ho]].
  2:{ exfalso. destruct Hc as [[Nf Nc]|Hc]; [|congruence]. destruct Ho as [[f E]|[E _]]; [eapply Nf; eauto|contradiction]. }
  repeat split; auto. intros m t G Ho. pose proof (lstep_mt _ _ _ _ _ _ m H) as Hm. unfold mt_step in Hm. rewrite G in Hm.
  destruct Hm as [t' [G' He]]. exists t'. split; auto.
  assert (Hc' : (forall f, a <> AF f) \/ snapR l = true) by tauto.
  destruct (mt_eff_owned _ _ _ _ _ _ _ _ He Ho Hc') as [A [B _]]. auto.
Qed.

Lemma lstep_flags : forall s l i a s' a', lstep s l i a s' a' -> (forall f, a <> AF f) ->
  snap s' = snap s /\ forall m, flag_of s' (Some m) = flag_of s (Some m).
Proof.
  intros s l i a s' a' H Nf. split.
  - destruct (lstep_owner _ _ _ _ _ _ H) as [[_ [E _]]|[_ [[f E]|[_ [E _]]]]]; auto. exfalso; eapply Nf; eauto.
  - intros m. unfold flag_of. pose proof (lstep_mt _ _ _ _ _ _ m H) as Hm. unfold mt_step in Hm.
    destruct (get_mt s m) as [t|].
    + destruct Hm as [t' [-> He]]. destruct He; simpl; auto using mt_unhold_flag; exfalso; eapply Nf; eauto.
    + destruct (get_mt s' m) as [t'|]; auto. rewrite (Hm _ eq_refl). reflexivity.
Qed.

Lemma mt_ok_kept : forall s s', owned_kept s s' -> (forall m, flag_of s' (Some m) = flag_of s (Some m)) -> mt_ok s -> mt_ok s'.
Proof.
  intros s s' [E1 [E2 [_ K]]] Hfl [Ha [Hs Hne]]. unfold mt_ok. rewrite E1, E2. repeat split; auto.
  - intros a E. destruct (Ha _ E) as [t [G [F D]]]. destruct (K _ _ G) as [t' [G' [_ D']]]; [apply In_owned; auto|].
    exists t'. specialize (Hfl a). unfold flag_of in Hfl. rewrite G, G' in Hfl. rewrite Hfl, D'. auto.
  - intros m E. destruct (Hs _ E) as [t [G D]]. destruct (K _ _ G) as [t' [G' [_ D']]]; [apply In_owned; auto|].
    exists t'. rewrite D'. auto.
Qed.

Lemma publish_active : forall s m o, active (publish s m o) = active s /\ snap (publish s m o) = snap s.
Proof. intros. shape. auto. Qed.

Lemma drop_snap_active : forall s m, active (drop_snap s m) = active s /\ snap (drop_snap s m) = None.
Proof. intros. shape. auto. Qed.

Lemma mt_ok_step : forall st i st', Inv1 st -> exec correct st i = Some st' -> mt_ok (sh st').
Proof.
  intros st i st' [Hmt [Hf _] _ _] H. inv_step H. destruct st' as [s' l']. simpl in *. clear Hact.
  assert (Hk : (forall f, a <> AF f) -> a <> AC C2 -> mt_ok s').
  { intros N1 N2. apply (mt_ok_kept (sh st)); [eapply lstep_owned_kept; eauto|apply (proj2 (lstep_flags _ _ _ _ _ _ Hls N1))|exact Hmt]. }
  destruct Hmt as [Ha [Hs Hne]].
  destruct a as [w|r|f|t|c]; try (apply Hk; discriminate).
  - specialize (Hf _ _ Hnth). inv_lstep Hls; try (apply Hk; discriminate).
    + (* skip *) repeat split; auto.
    + (* swap: the new table becomes the active one *)
      match goal with Hx : active (sh st) = Some _ |- _ => destruct (Ha _ Hx) as [tm [G1 [G2 G3]]] end.
      unfold mt_ok; simpl. repeat split.
      * intros a1 E. inversion E; subst. rewrite get_mt_set_as, get_mt_set_mts, nth_error_app2, Nat.sub_diag; auto.
        exists new_mtab. simpl; auto.
      * intros m E. inversion E; subst. exists tm. rewrite get_mt_set_as, get_mt_set_mts. split; [apply nth_error_app_old; exact G1|auto].
      * intros a1 m E1 E2. inversion E1; inversion E2; subst. apply nth_lt in G1. lia.
    + (* publish: the flag of the snapshot table, which is not the active one *)
      match goal with Hx : fl_ph f = _ |- _ => rewrite Hx in Hf end. destruct Hf as [X1 _]. destruct (Hs _ X1) as [ts [Gs Ds]].
      destruct (publish_active (sh st) m false) as [P1 P2]. unfold mt_ok. rewrite P1, P2. repeat split; auto.
      * intros a1 E. rewrite publish_mts, Gs. destruct (Nat.eqb_spec m a1) as [->|]; [exfalso; eapply Hne; eauto|auto].
      * intros m0 E. assert (m0 = m) by congruence; subst. rewrite publish_mts, Gs, Nat.eqb_refl. eexists; split; [reflexivity|exact Ds].
    + match goal with Hx : fl_ph f = _ |- _ => rewrite Hx in Hf end. contradiction.
    + (* drop *)
      match goal with Hx : fl_ph f = _ |- _ => rewrite Hx in Hf end. destruct Hf as [X1 _]. destruct (drop_snap_active (sh st) m) as [P1 P2].
      unfold mt_ok. rewrite P1, P2. repeat split; try discriminate.
      intros a1 E. rewrite drop_snap_mts. destruct (get_mt (sh st) m); auto.
      destruct (Nat.eqb_spec m a1) as [->|]; [exfalso; eapply Hne; eauto|auto].
  - destruct c; try (apply Hk; discriminate). inv_lstep Hls. unfold mt_ok; simpl. repeat split; auto; discriminate.
Qed.

Lemma fmid_upd_other : forall l i a a', nth_error l i = Some a -> mid_flush a = mid_flush a' ->
  fmid (upd l i a') = fmid l.
Proof.
  unfold fmid. induction l; intros i x x' H E; destruct i; simpl in *; auto; try discriminate.
  - inversion H; subst. rewrite E. auto.
  - rewrite (IHl i x x'); auto.
Qed.

Lemma existsb_upd_true : forall A (p : A -> bool) l i a', i < length l -> p a' = true -> existsb p (upd l i a') = true.
Proof.
  induction l; intros i a' H E; destruct i; simpl in *; try lia.
  - rewrite E; auto.
  - rewrite IHl; auto. apply orb_true_r. lia.
Qed.

Lemma fl_ok_frame : forall s s' l i a a', fl_ok s l -> snap s' = snap s ->
  (forall m, flag_of s' (Some m) = flag_of s (Some m)) ->
  nth_error l i = Some a -> mid_flush a = false -> mid_flush a' = false -> fl_ok s' (upd l i a').
Proof.
  intros s s' l i a a' [Hf [Hu Hsm]] Es Ef Hn Ma Ma'.
  assert (Hoth : forall j f, nth_error (upd l i a') j = Some (AF f) -> fl_ph f <> F0 -> nth_error l j = Some (AF f)).
  { intros j f Hj N. apply nth_error_upd in Hj. destruct Hj as [[_ <-]|[_ Hj]]; auto.
    simpl in Ma'. destruct (fl_ph f); congruence. }
  repeat split.
  - intros j f Hj. destruct (fl_ph f) eqn:Ep; auto; assert (N : fl_ph f <> F0) by congruence;
      specialize (Hf _ _ (Hoth _ _ Hj N)); rewrite Ep in Hf; rewrite ?Es, ?Ef; auto.
  - intros j1 j2 f1 f2 H1 H2 N1 N2. eauto.
  - intros m E. rewrite Es in E. erewrite fmid_upd_other; [eauto|eauto|congruence].
Qed.

(* a step of the one flusher inside the flush window, or of a flusher that enters it *)
Lemma fl_ok_window : forall s s' l i f f', fl_ok s l -> nth_error l i = Some (AF f) -> fl_ph f <> F0 \/ snap s = None ->
  match fl_ph f' with
  | F0 => snap s' = None
  | F1 m => snap s' = Some m /\ flag_of s' (Some m) = false
  | F1b _ _ => False
  | F2 m => snap s' = Some m /\ flag_of s' (Some m) = true
  end -> fl_ok s' (upd l i (AF f')).
Proof.
  intros s s' l i f f' [Hf [Hu Hsm]] Hn Hw Hf'.
  assert (Hoth : forall j f0, nth_error (upd l i (AF f')) j = Some (AF f0) -> fl_ph f0 <> F0 -> j = i /\ f0 = f').
  { intros j f0 Hj N. apply nth_error_upd in Hj. destruct Hj as [[<- E]|[Nj Hj]]; [split; congruence|]. exfalso.
    destruct Hw as [Hw|Hw]; [apply Nj; eauto|]. specialize (Hf _ _ Hj). rewrite Hw in Hf. destruct (fl_ph f0); intuition congruence. }
  repeat split.
  - intros j f0 Hj. destruct (fl_ph f0) eqn:Ep; auto; destruct (Hoth _ _ Hj) as [_ ->]; try congruence; rewrite Ep in Hf'; auto.
  - intros j1 j2 f1 f2 H1 H2 N1 N2. destruct (Hoth _ _ H1 N1), (Hoth _ _ H2 N2). congruence.
  - intros m E. apply existsb_upd_true; [eapply nth_lt; eauto|]. simpl. destruct (fl_ph f'); auto. congruence.
Qed.

Lemma fl_ok_step : forall st i st', Inv1 st -> exec correct st i = Some st' -> fl_ok (sh st') (actors st').
Proof.
  intros st i st' [Hmt Hfl _ _] H. inv_step H. destruct st' as [s' l']. simpl in *. subst l'.
  assert (Hk : (forall f, a <> AF f) -> fl_ok s' (upd (actors st) i a')).
  { intros N. destruct (lstep_flags _ _ _ _ _ _ Hls N) as [E1 E2]. pose proof (lstep_kind _ _ _ _ _ _ Hls) as K.
    apply (fl_ok_frame _ _ _ _ a a' Hfl E1 E2 Hnth); destruct a, a'; try contradiction; auto; exfalso; eapply N; reflexivity. }
  destruct a as [w|r|f|t|c]; try (apply Hk; discriminate).
  pose proof (proj1 Hfl _ _ Hnth) as Hf. destruct Hmt as [Ha [Hs _]].
  inv_lstep Hls; match goal with Hx : fl_ph f = _ |- _ => rewrite Hx in Hf end.
  - (* skip *) apply (fl_ok_frame _ _ _ _ (AF f) _ Hfl eq_refl (fun _ => eq_refl) Hnth); simpl; auto.
    match goal with Hx : fl_ph f = _ |- _ => rewrite Hx end; auto.
  - (* swap *) match goal with Hx : active (sh st) = Some _ |- _ => destruct (Ha _ Hx) as [tm [G1 [G2 _]]] end.
    eapply fl_ok_window; eauto. simpl. split; auto. unfold flag_of. rewrite get_mt_set_as, get_mt_set_mts.
    rewrite (nth_error_app_old _ _ _ _ _ G1). exact G2.
  - (* publish *) destruct Hf as [X1 _]. destruct (Hs _ X1) as [ts [Gs _]].
    eapply fl_ok_window; eauto; [left; congruence|]. simpl. rewrite (proj2 (publish_active _ _ _)). split; auto.
    unfold flag_of. rewrite publish_mts, Gs, Nat.eqb_refl. reflexivity.
  - contradiction.
  - (* drop *) eapply fl_ok_window; eauto; [left; congruence|]. simpl. apply drop_snap_active.
Qed.

Lemma files_ok_step : forall st i st', Inv1 st -> exec correct st i = Some st' -> files_ok (sh st').
Proof.
  intros st i st' [_ _ Hfi _] H. inv_step H. intros f x' G L.
  destruct (lstep_file_inv _ _ _ _ _ _ _ _ Hls G) as [[x [G0 He]]|[_ [N _]]]; auto.
  destruct He; simpl in *; try congruence; apply (Hfi _ _ G0); assumption.
Qed.

Lemma logs_ok_step : forall st i st', Inv1 st -> exec correct st i = Some st' -> logs_ok (sh st') (actors st').
Proof.
  intros st i st' [_ _ _ [Hak Hw]] H. inv_step H. destruct st' as [s' l']. simpl in *. subst l'.
  assert (Hframe : appended s' = appended (sh st) -> acked s' = acked (sh st) ->
            (forall w b, a' = AW w -> w_ph w <> W1 b) -> logs_ok s' (upd (actors st) i a')).
  { intros E1 E2 Hn. split; [rewrite E1, E2; auto|]. intros j w b Hj Hp.
    apply nth_error_upd in Hj. destruct Hj as [[_ Hj]|[_ Hj]]; [exfalso; eapply Hn; eauto|]. rewrite E1. eauto. }
  pose proof (lstep_kind _ _ _ _ _ _ Hls) as K.
  destruct a as [w|r|f|t|c];
    try (destruct (lstep_logs _ _ _ _ _ _ Hls) as [E1 E2]; [discriminate|]; apply Hframe; auto; intros; subst; contradiction).
  inv_lstep Hls.
  - (* reject *) apply Hframe; auto. intros w0 b0 E. inversion E; subst. discriminate.
  - (* append *) split; simpl.
    + intros x Hx. right. shape. auto.
    + intros j w0 b0 Hj Hp. shape. simpl. apply nth_error_upd in Hj. destruct Hj as [[_ Hj]|[_ Hj]]; [|right; eauto].
      inversion Hj; subst. inversion Hp; subst. left; auto.
  - (* ack *) split; simpl.
    + intros x [<-|Hx]; eauto.
    + intros j w0 b0 Hj Hp. apply nth_error_upd in Hj. destruct Hj as [[_ Hj]|[_ Hj]]; eauto. inversion Hj; subst. discriminate.
Qed.

Lemma inv1_init : forall l, forallb fresh l = true -> Inv1 (init_state l).
Proof.
  intros l Hl. assert (Hfr : forall j a, nth_error l j = Some a -> fresh a = true).
  { intros j a Hj. rewrite forallb_forall in Hl. apply Hl. eapply nth_error_In; eauto. }
  constructor; simpl.
  - repeat split; simpl; try discriminate.
    intros a E. inversion E; subst. eexists; split; [reflexivity|]. simpl; auto.
  - repeat split; simpl; try discriminate.
    + intros j f Hj. apply Hfr in Hj. simpl in Hj. destruct (fl_ph f); auto; discriminate.
    + intros j1 j2 f1 f2 H1 H2 N1. apply Hfr in H1. simpl in H1. destruct (fl_ph f1); congruence.
  - intros f x G. unfold get_file in G. simpl in G. destruct f; discriminate.
  - split; simpl; [intros x []|]. intros j w b Hj Hp. apply Hfr in Hj. simpl in Hj. rewrite Hp in Hj. discriminate.
Qed.

Lemma inv1_step : forall st i st', Inv1 st -> exec correct st i = Some st' -> Inv1 st'.
Proof.
  intros. constructor; eauto using mt_ok_step, fl_ok_step, files_ok_step, logs_ok_step.
Qed.

Lemma inv1_reach : forall l st, forallb fresh l = true -> reach correct (init_state l) st -> Inv1 st.
Proof.
  intros l st Hl. apply reach_inv; [apply inv1_init; auto|exact inv1_step].
Qed.
