(* C04 correspondence evaluator: runs the model on a forced schedule and compares, query by query, the set of
   batches the real shard returned with the model's view. *)
From Coq Require Import List Bool Arith PeanoNat.
From OG Require Import C04.Model.
Import ListNotations.

(* actor specifications as the harness writes them *)
Inductive aspec := SW (bs : list nat) | SR (n : nat) | SF (n : nat) | SM | SC.
Definition mk_actor (a : aspec) : actor :=
  match a with
  | SW bs => fresh_writer bs | SR n => fresh_reader n | SF n => fresh_flusher n | SM => AP [Merge] | SC => AC C0
  end.

Fixpoint insert_nat (x : nat) (l : list nat) : list nat :=
  match l with [] => [x] | y :: t => if x <? y then x :: l else if x =? y then l else y :: insert_nat x t end.
Definition sort_dedup (l : list nat) : list nat := fold_right insert_nat [] l.

Fixpoint list_eqb (a b : list nat) : bool :=
  match a, b with [] , [] => true | x :: a', y :: b' => (x =? y) && list_eqb a' b' | _, _ => false end.

(* results of the finished queries of reader actor i, oldest first, as sorted duplicate-free sets *)
Definition model_results (st : state) (i : nat) : list (list nat) :=
  match nth_error (actors st) i with
  | Some a => rev (map (fun e => sort_dedup (snd e)) (reader_hist a))
  | None => []
  end.

Fixpoint lists_eqb (a b : list (list nat)) : bool :=
  match a, b with [], [] => true | x :: a', y :: b' => list_eqb x y && lists_eqb a' b' | _, _ => false end.

(* a case: actors, schedule, and for each reader actor index the observed result sets of its queries.
   0 = agree; 1 = the schedule is not executable in the model; 2 = some view differs *)
Definition check_case (V : variant) (specs : list aspec) (sched : list nat) (obs : list (nat * list (list nat))) : nat :=
  match run V (init_state (map mk_actor specs)) sched with
  | None => 1
  | Some st => if forallb (fun o => lists_eqb (model_results st (fst o)) (map sort_dedup (snd o))) obs then 0 else 2
  end.

Definition case := (list aspec * list nat * list (nat * list (list nat)))%type.
Fixpoint mismatches_from (V : variant) (k : nat) (cs : list case) : list (nat * nat) :=
  match cs with
  | [] => []
  | (sp, sc, ob) :: r =>
      match check_case V sp sc ob with
      | 0 => mismatches_from V (S k) r
      | c => (k, c) :: mismatches_from V (S k) r
      end
  end.
Definition mismatches (V : variant) := mismatches_from V 0.

(* aggregate readers (harness actor kind A): the harness reports count(v) of the series, computed on the store's
   aggregate path (pre-aggregation from chunk metadata + memtable rows), instead of the row set.  The model's count of a
   view is the number of distinct batches in it - a view that showed the snapshot table together with a file flushed
   from it would count those batches twice on that path.  cobs: reader index -> observed counts.  3 = a count differs *)
Definition model_counts (st : state) (i : nat) : list nat := map (@length nat) (model_results st i).
Definition check_case_a (V : variant) (specs : list aspec) (sched : list nat) (obs : list (nat * list (list nat)))
  (cobs : list (nat * list nat)) : nat :=
  match run V (init_state (map mk_actor specs)) sched with
  | None => 1
  | Some st =>
      if forallb (fun o => lists_eqb (model_results st (fst o)) (map sort_dedup (snd o))) obs
      then (if forallb (fun o => list_eqb (model_counts st (fst o)) (snd o)) cobs then 0 else 3)
      else 2
  end.
Definition case_a := (list aspec * list nat * list (nat * list (list nat)) * list (nat * list nat))%type.
Fixpoint mismatches_a_from (V : variant) (k : nat) (cs : list case_a) : list (nat * nat) :=
  match cs with
  | [] => []
  | (sp, sc, ob, cb) :: r =>
      match check_case_a V sp sc ob cb with
      | 0 => mismatches_a_from V (S k) r
      | c => (k, c) :: mismatches_a_from V (S k) r
      end
  end.
Definition mismatches_a (V : variant) := mismatches_a_from V 0.

(* ---- bounded enumeration of schedules in the normal form the harness can force:
   a write (append + acknowledgement), the tail of a query (reference memtables, read, release) and a close are
   macro steps whose model steps are adjacent; everything else is interleaved step by step.  Fuel 6 at the call sites
   covers the longest macro step, the five model steps of a close. *)
Definition mid_macro (a : actor) : bool :=
  match a with
  | AW w => match w_ph w with W1 _ => true | W0 => false end
  | AR r => match r_ph r with R3 _ _ | R4 _ _ _ => true | _ => false end
  | AC c => match c with C1 | C2 | C3 | C4 => true | _ => false end
  | _ => false
  end.

Fixpoint macro_exec (V : variant) (fuel : nat) (st : state) (i : nat) : option (state * list nat) :=
  match fuel with
  | O => None
  | S f =>
      match exec V st i with
      | None => None
      | Some st' =>
          match nth_error (actors st') i with
          | Some a => if mid_macro a
                      then match macro_exec V f st' i with
                           | Some (st2, l) => Some (st2, i :: l)
                           | None => None
                           end
                      else Some (st', [i])
          | None => None
          end
      end
  end.

Fixpoint enum (V : variant) (fuel : nat) (st : state) : list (list nat) :=
  match fuel with
  | O => [[]]
  | S f =>
      let idx := seq 0 (length (actors st)) in
      let nexts := flat_map (fun i => match macro_exec V 6 st i with
                                      | Some (st', l) => map (fun s => l ++ s) (enum V f st')
                                      | None => [] end) idx in
      match nexts with [] => [[]] | _ => nexts end
  end.

(* enum_sys, walk_sys, enum_from and blocked_after fix the variant `current`: the harness parks a flush at four positions,
   the four model steps a flush has in that variant (swap, fetch the list object, publish, drop); the driver removes the
   fetch step from a schedule before it evaluates it in `correct` *)
Definition enum_sys (specs : list aspec) (fuel : nat) : list (list nat) :=
  enum current fuel (init_state (map mk_actor specs)).

(* model-guided random walk: at every point the enabled macro steps are computed with the machine and the next one is
   picked by the next number of `choices` (supplied by the driver from its seeded PRNG) *)
Fixpoint walk (V : variant) (choices : list nat) (st : state) : list nat :=
  match choices with
  | [] => []
  | c :: t =>
      let idx := seq 0 (length (actors st)) in
      let en := flat_map (fun i => match macro_exec V 6 st i with Some r => [r] | None => [] end) idx in
      match en with
      | [] => []
      | _ => let '(st', l) := nth (Nat.modulo c (length en)) en (st, []) in l ++ walk V t st'
      end
  end.
Definition walk_sys (specs : list aspec) (choices : list nat) : list nat :=
  walk current choices (init_state (map mk_actor specs)).

(* every interleaving of the macro steps of the actors in `allowed`, from st (enum_from: from the state reached by `prefix`) *)
Fixpoint enum_only (V : variant) (fuel : nat) (allowed : list nat) (st : state) : list (list nat) :=
  match fuel with
  | O => [[]]
  | S f =>
      let nexts := flat_map (fun i => match macro_exec V 6 st i with
                                      | Some (st', l) => map (fun s => l ++ s) (enum_only V f allowed st')
                                      | None => [] end) allowed in
      match nexts with [] => [[]] | _ => nexts end
  end.
Definition enum_from (specs : list aspec) (prefix : list nat) (allowed : list nat) (fuel : nat) : list (list nat) :=
  match run current (init_state (map mk_actor specs)) prefix with
  | Some st => map (fun s => prefix ++ s) (enum_only current fuel allowed st)
  | None => []
  end.

(* is the next step of actor i disabled after `sched`?  (used for negative probes: the implementation must block there too) *)
Definition blocked_after (specs : list aspec) (sched : list nat) (i : nat) : bool :=
  match run current (init_state (map mk_actor specs)) sched with
  | Some st => match exec current st i with None => true | Some _ => false end
  | None => false
  end.
