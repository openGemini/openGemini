(* C04: no deadlock - in a reachable state of the correct machine in which no actor can step, every actor is done
   (stuck_all_done).  The argument follows the waits: whoever holds a file reference is a reader past R1, and such a
   reader is never blocked, so no file is held; then the closer at C4 is not blocked, so MmsTables.mu is free; then no
   reader waits at R1, so every reader is done and the snapshot lock is free; then no writer is mid-write, no flusher is
   in its window (hence there is no snapshot table and the flushers are done), the closers are done and shard.mu is
   free.  lock_ok says who holds the closer's two locks and who the file holders are. *)
From Coq Require Import List Bool Arith PeanoNat Lia.
From OG Require Import C04.Model C04.Proofs C04.Steps C04.Inv C04.Views C04.Safety.
Import ListNotations.

Definition reader_has_file (r : reader) (f : nat) : Prop :=
  match r_ph r with R2 _ fs _ | R3 _ fs | R4 _ fs _ => In f fs | _ => False end.

Definition lock_ok (st : state) : Prop :=
  (mmu_x (sh st) = true -> exists j, nth_error (actors st) j = Some (AC C4)) /\
  (mu_x (sh st) = true -> exists j c, nth_error (actors st) j = Some (AC c) /\ (c = C2 \/ c = C3 \/ c = C4)) /\
  (forall f x j, get_file (sh st) f = Some x -> In j (f_hold x) ->
     exists r, nth_error (actors st) j = Some (AR r) /\ reader_has_file r f).

Lemma lock_ok_init : forall l, lock_ok (init_state l).
Proof.
  intros l. split; [|split]; simpl; try discriminate.
  intros f x j G. unfold get_file in G; simpl in G. destruct f; discriminate.
Qed.

Lemma lock_ok_step : forall st i st', lock_ok st -> exec correct st i = Some st' -> lock_ok st'.
Proof.
  intros st i st' [K1 [K2 K3]] H. inv_step H. unfold lock_ok. rewrite Hact.
  destruct st' as [s' l']. simpl in *. clear Hact.
  (* whoever is in another state than the actor that steps is another actor *)
  assert (Hkeep : forall j b, nth_error (actors st) j = Some b -> b <> a -> nth_error (upd (actors st) i a') j = Some b).
  { intros j b Hj N. rewrite nth_error_upd_neq; auto. intro; subst. congruence. }
  assert (Hself : nth_error (upd (actors st) i a') i = Some a') by (eapply nth_error_upd_same; eauto).
  split; [|split].
  - (* MmsTables.mu is held from C3 -> C4 to C4 -> C5 *)
    destruct a as [w|r|f|t|c];
      try (rewrite (proj1 (proj2 (proj2 (lstep_close _ _ _ _ _ _ Hls ltac:(discriminate))))); intro X;
           destruct (K1 X) as [j Hj]; exists j; apply Hkeep; auto; discriminate).
    inv_lstep Hls; simpl; try discriminate; try (intro X; destruct (K1 X) as [j Hj]; exists j; apply Hkeep; auto; discriminate). eauto.
  - (* shard.mu is held from C1 -> C2 to C4 -> C5 *)
    destruct a as [w|r|f|t|c];
      try (rewrite (proj1 (proj2 (lstep_close _ _ _ _ _ _ Hls ltac:(discriminate)))); intro X;
           destruct (K2 X) as [j [c [Hj Hc]]]; exists j, c; (split; auto); apply Hkeep; auto; discriminate).
    inv_lstep Hls; simpl; try discriminate; try (intros _; eauto 8; fail);
      intro X; destruct (K2 X) as [j [c [Hj Hc]]]; exists j, c; (split; auto); apply Hkeep; auto; destruct Hc as [->|[->| ->]]; discriminate.
  - intros f0 x' j G Hi.
    destruct (lstep_file_inv _ _ _ _ _ _ _ _ Hls G) as [[x [G0 He]]|[_ [_ [N _]]]]; [|rewrite N in Hi; destruct Hi].
    (* a holder before the step, or the reader that steps and has just taken its references *)
    assert (Hj : In j (f_hold x) \/ (j = i /\ f_listed x = true /\ exists r sn fl0, a = AR r /\ r_ph r = R1 sn fl0)).
    { destruct He; simpl in Hi; auto.
      - destruct Hi as [<-|Hi]; [right; eauto 8|left; auto].
      - apply In_remove_nat in Hi. left; tauto. }
    destruct Hj as [Hj|[-> [L [r [sn [fl0 [-> Hph]]]]]]].
    + destruct (K3 _ _ _ G0 Hj) as [r0 [Hr Hh]]. destruct (Nat.eq_dec j i) as [->|N]; [|exists r0; split; auto; rewrite nth_error_upd_neq; auto].
      (* the reader that steps keeps what it holds until it is done *)
      rewrite Hnth in Hr. inversion Hr; subst a. unfold reader_has_file in Hh. rewrite Hself.
      inv_lstep Hls; match goal with Hx : r_ph r0 = _ |- _ => rewrite Hx in Hh end; try contradiction; try (eexists; split; [reflexivity|exact Hh]).
      exfalso. apply mem_nat_In in Hh. rewrite get_file_set_mts, (get_file_map_at _ (sh st)), G0 in G. simpl in G. rewrite Hh in G.
      inversion G; subst x'. simpl in Hi. apply In_remove_nat in Hi. tauto.
    + (* R1 -> R2: the references are those of the listed files *)
      rewrite Hself. inv_lstep Hls; try congruence. eexists; split; [reflexivity|]. unfold reader_has_file. simpl.
      apply listed_In. eauto.
Qed.

Lemma lock_ok_reach : forall l st, reach correct (init_state l) st -> lock_ok st.
Proof.
  intros l st. apply reach_inv; [apply lock_ok_init|exact lock_ok_step].
Qed.

Lemma blocked_writer : forall st i w, nth_error (actors st) i = Some (AW w) -> exec correct st i = None ->
  w_ph w = W0 /\ (w_todo w = [] \/ mu_x (sh st) = true).
Proof.
  intros st i w Hn H. unfold exec in H. rewrite Hn in H. unfold step_writer in H.
  destruct (w_ph w); [|discriminate]. split; auto. destruct (w_todo w); auto. right.
  destruct (mu_x (sh st)); auto. destruct (closing (sh st)); [discriminate|]. destruct (active (sh st)); discriminate.
Qed.

Lemma blocked_reader : forall st i r, nth_error (actors st) i = Some (AR r) -> exec correct st i = None ->
  (r_ph r = R0 /\ r_left r = 0) \/ (exists sn fl, r_ph r = R1 sn fl /\ mmu_x (sh st) = true).
Proof.
  intros st i r Hn H. unfold exec in H. rewrite Hn in H. unfold step_reader in H.
  destruct (r_ph r); try discriminate.
  - left. destruct (r_left r); auto. discriminate.
  - right. destruct (mmu_x (sh st)); [eauto|discriminate].
Qed.

Lemma blocked_flusher : forall st i f, nth_error (actors st) i = Some (AF f) -> exec correct st i = None ->
  (fl_ph f = F0 /\ fl_left f = 0) \/
  (fl_ph f = F0 /\ (snapR (actors st) = true \/ snap (sh st) <> None)) \/
  ((exists m, fl_ph f = F1 m) /\ mmu_x (sh st) = true) \/
  ((exists m g, fl_ph f = F1b m g) /\ mmu_x (sh st) = true) \/
  ((exists m, fl_ph f = F2 m) /\ snapR (actors st) = true).
Proof.
  intros st i f Hn H. unfold exec in H. rewrite Hn in H. unfold step_flusher in H. simpl in H.
  destruct (fl_ph f).
  - destruct (fl_left f); [left; auto|]. right; left. split; auto.
    destruct (active (sh st)); [|discriminate]. destruct (snapR (actors st)); simpl in H; auto.
    destruct (snap (sh st)); [right; discriminate|discriminate].
  - right; right; left. destruct (mmu_x (sh st)); [eauto|discriminate].
  - right; right; right; left. destruct (mmu_x (sh st)); [eauto|discriminate].
  - right; right; right; right. destruct (snapR (actors st)); simpl in H; [eauto|discriminate].
Qed.

Lemma blocked_replacer : forall st i t, nth_error (actors st) i = Some (AP t) -> exec correct st i = None ->
  t = [] \/ exists f t' x, t = Gc f :: t' /\ get_file (sh st) f = Some x /\ f_hold x <> [].
Proof.
  intros st i t Hn H. unfold exec in H. rewrite Hn in H. unfold step_replacer in H.
  destruct t as [|op t']; auto. right. destruct op.
  - destruct (closing (sh st) || mmu_x (sh st)); [discriminate|].
    destruct (negb (is_nil olds) && nodup_nat (olds ++ extra) && all_listed (sh st) (olds ++ extra)); discriminate.
  - destruct (closing (sh st) || mmu_x (sh st)); [discriminate|].
    destruct (nodup_nat fs && all_listed (sh st) fs && covered_elsewhere (sh st) fs); discriminate.
  - destruct (get_file (sh st) f) as [x|] eqn:G; [|discriminate]. simpl in H.
    exists f, t', x. split; auto. split; auto. intro Hh. rewrite Hh in H. simpl in H.
    destruct (f_listed x), (f_removed x); simpl in H; discriminate.
  - destruct (closing (sh st) || mmu_x (sh st)); [discriminate|].
    match type of H with context [is_nil ?u || is_nil ?v] => destruct (is_nil u || is_nil v) end; discriminate.
  - destruct (closing (sh st) || mmu_x (sh st)); [discriminate|].
    match type of H with context [is_nil ?u] => destruct (is_nil u) end; discriminate.
Qed.

Lemma blocked_closer : forall st i c, nth_error (actors st) i = Some (AC c) -> exec correct st i = None ->
  c = C5 \/ (c = C1 /\ wmid (actors st) = true) \/ (c = C2 /\ snapR (actors st) = true) \/
  (c = C3 /\ fmid (actors st) = true) \/ (c = C4 /\ all_unheld (sh st) = false).
Proof.
  intros st i c Hn H. unfold exec in H. rewrite Hn in H. unfold step_closer in H. destruct c; auto.
  - destruct (closing (sh st)); discriminate.
  - right; left. destruct (wmid (actors st)); [auto|discriminate].
  - right; right; left. destruct (snapR (actors st)); [auto|discriminate].
  - right; right; right; left. destruct (fmid (actors st)); [auto|discriminate].
  - right; right; right; right. destruct (all_unheld (sh st)); [discriminate|auto].
Qed.

Lemma existsb_false_all : forall A (p : A -> bool) l, (forall i a, nth_error l i = Some a -> p a = false) -> existsb p l = false.
Proof.
  intros A p l H. destruct (existsb p l) eqn:E; auto. apply existsb_exists in E. destruct E as [a [Hi Hp]].
  apply In_nth_error in Hi. destruct Hi as [n Hn]. rewrite (H _ _ Hn) in Hp. discriminate.
Qed.

Lemma stuck_all_done : forall st, Inv1 st -> lock_ok st ->
  (forall i, exec correct st i = None) -> forall i a, nth_error (actors st) i = Some a -> done a = true.
Proof.
  intros st [_ [_ [_ Hsm]] _ _] [K1 [K2 K3]] Hstuck.
  (* 1. nobody holds a file *)
  assert (Hnohold : forall f x, get_file (sh st) f = Some x -> f_hold x = []).
  { intros f x G. destruct (f_hold x) as [|j t] eqn:E; auto. exfalso.
    destruct (K3 f x j G) as [r [Hj Hr]]; [rewrite E; left; auto|].
    destruct (blocked_reader _ _ _ Hj (Hstuck j)) as [[P _]|[sn [fl [P _]]]]; unfold reader_has_file in Hr; rewrite P in Hr; auto. }
  assert (Hunheld : all_unheld (sh st) = true).
  { unfold all_unheld. apply forallb_forall. intros x Hx. apply In_nth_error in Hx. destruct Hx as [f Hf].
    rewrite (Hnohold f x); auto. }
  (* 2. the closer does not hold MmsTables.mu *)
  assert (Hmmu : mmu_x (sh st) = false).
  { destruct (mmu_x (sh st)) eqn:E; auto. destruct (K1 eq_refl) as [j Hj].
    destruct (blocked_closer _ _ _ Hj (Hstuck j)) as [X|[[X _]|[[X _]|[[X _]|[_ X]]]]]; try discriminate. congruence. }
  (* 3. all readers are done, so the snapshot lock is free *)
  assert (Hrd : forall j r, nth_error (actors st) j = Some (AR r) -> r_ph r = R0 /\ r_left r = 0).
  { intros j r Hj. destruct (blocked_reader _ _ _ Hj (Hstuck j)) as [X|[sn [fl [_ X]]]]; auto. congruence. }
  assert (HsnapR : snapR (actors st) = false).
  { apply existsb_false_all. intros j a Hj. destruct a; simpl; auto. destruct (Hrd _ _ Hj) as [P _]. rewrite P. auto. }
  (* 4. no writer is in the middle of a write *)
  assert (Hwmid : wmid (actors st) = false).
  { apply existsb_false_all. intros j a Hj. destruct a; simpl; auto.
    destruct (blocked_writer _ _ _ Hj (Hstuck j)) as [P _]. rewrite P. auto. }
  (* 5. no flusher is in the middle of a flush; hence there is no snapshot table; hence flushers are done *)
  assert (Hfl0 : forall j f, nth_error (actors st) j = Some (AF f) -> fl_ph f = F0).
  { intros j f Hj. destruct (blocked_flusher _ _ _ Hj (Hstuck j)) as [[P _]|[[P _]|[[_ X]|[[_ X]|[_ X]]]]]; auto; congruence. }
  assert (Hfmid : fmid (actors st) = false).
  { apply existsb_false_all. intros j a Hj. destruct a; simpl; auto. rewrite (Hfl0 _ _ Hj). auto. }
  assert (Hsnap : snap (sh st) = None).
  { destruct (snap (sh st)) eqn:E; auto. rewrite (Hsm _ eq_refl) in Hfmid. discriminate. }
  (* 6. closers are done, so shard.mu is free *)
  assert (Hcl : forall j c, nth_error (actors st) j = Some (AC c) -> c = C5).
  { intros j c Hj. destruct (blocked_closer _ _ _ Hj (Hstuck j)) as [X|[[_ X]|[[_ X]|[[_ X]|[_ X]]]]]; auto; congruence. }
  assert (Hmu : mu_x (sh st) = false).
  { destruct (mu_x (sh st)) eqn:E; auto. destruct (K2 eq_refl) as [j [c [Hj Hc]]]. rewrite (Hcl _ _ Hj) in Hc.
    destruct Hc as [|[|]]; discriminate. }
  intros i a Hi. destruct a; simpl.
  - destruct (blocked_writer _ _ _ Hi (Hstuck i)) as [P [Q|Q]]; rewrite P; [rewrite Q; auto|congruence].
  - destruct (Hrd _ _ Hi) as [P Q]. rewrite P, Q. auto.
  - destruct (blocked_flusher _ _ _ Hi (Hstuck i)) as [[P Q]|[[P [Q|Q]]|[[[m P] _]|[[[m [g P]] _]|[[m P] _]]]]];
      try (rewrite (Hfl0 _ _ Hi) in P; discriminate); try congruence. rewrite P, Q. auto.
  - destruct (blocked_replacer _ _ _ Hi (Hstuck i)) as [->|[f [t' [x [_ [G Hh]]]]]]; auto.
    exfalso. apply Hh. eauto.
  - rewrite (Hcl _ _ Hi). auto.
Qed.
