(* C04: generic facts about the machine (an executable schedule is a reachability witness; a bounded search) and about
   the list functions of the model. *)
From Coq Require Import List Bool Arith PeanoNat Lia.
From OG Require Import C04.Model.
Import ListNotations.

Lemma reach_trans : forall V a b c, reach V a b -> reach V b c -> reach V a c.
Proof. intros V a b c H1 H2. induction H2; auto. eapply reach_step; eauto. Qed.

Lemma run_reach : forall V sched st st', run V st sched = Some st' -> reach V st st'.
Proof.
  intros V sched. induction sched as [|i t IH]; intros st st' H; simpl in H.
  - inversion H; subst. apply reach_refl.
  - destruct (exec V st i) as [st1|] eqn:E; [|discriminate].
    eapply reach_trans; [|apply IH; exact H].
    eapply reach_step; [apply reach_refl|]. exists i; exact E.
Qed.

Lemma reach_inv : forall V (P : state -> Prop) st0, P st0 ->
  (forall st i st', P st -> exec V st i = Some st' -> P st') -> forall st, reach V st0 st -> P st.
Proof. intros V P st0 H0 Hs st R. induction R; auto. destruct H as [i H]. eauto. Qed.

Lemma bounded_search : forall X (g : nat -> option X) n,
  (exists j x, j < n /\ g j = Some x) \/ (forall j, j < n -> g j = None).
Proof.
  induction n as [|n IH]; [right; intros; lia|]. destruct IH as [[j [x [Hj He]]]|IH]; [left; exists j, x; split; auto|].
  destruct (g n) as [x|] eqn:E; [left; exists n, x; split; auto|].
  right. intros j Hj. destruct (Nat.eq_dec j n); [subst; auto|apply IH; lia].
Qed.

Lemma length_upd : forall A (l : list A) i x, length (upd l i x) = length l.
Proof. induction l; destruct i; simpl; auto. Qed.

Lemma nth_error_upd_eq : forall A (l : list A) i x, i < length l -> nth_error (upd l i x) i = Some x.
Proof. induction l; destruct i; simpl; intros; try lia; auto. apply IHl; lia. Qed.

Lemma nth_lt : forall A (l : list A) i a, nth_error l i = Some a -> i < length l.
Proof. intros. apply nth_error_Some. congruence. Qed.

Lemma nth_error_upd_same : forall A (l : list A) i a x, nth_error l i = Some a -> nth_error (upd l i x) i = Some x.
Proof. intros. apply nth_error_upd_eq. eapply nth_lt; eauto. Qed.

Lemma nth_error_upd_neq : forall A (l : list A) i j x, i <> j -> nth_error (upd l i x) j = nth_error l j.
Proof. induction l; destruct i, j; simpl; intros; auto; try congruence. Qed.

Lemma nth_error_upd : forall A (l : list A) i j x y,
  nth_error (upd l i x) j = Some y -> (i = j /\ y = x) \/ (i <> j /\ nth_error l j = Some y).
Proof.
  intros. destruct (Nat.eq_dec i j) as [->|N].
  - left. split; auto. assert (j < length l).
    { assert (j < length (upd l j x)) by (apply nth_error_Some; congruence). rewrite length_upd in H0; auto. }
    rewrite nth_error_upd_eq in H; congruence.
  - right. rewrite nth_error_upd_neq in H; auto.
Qed.

Lemma nth_error_upd_at : forall A (l : list A) i x j y, nth_error l i = Some y ->
  nth_error (upd l i x) j = if Nat.eqb i j then Some x else nth_error l j.
Proof.
  intros A l i x j y H. destruct (Nat.eqb_spec i j) as [<-|N]; [|apply nth_error_upd_neq; auto].
  apply nth_error_upd_eq. apply nth_error_Some. congruence.
Qed.

Lemma length_map_at : forall A k p (g : A -> A) l, length (map_at k p g l) = length l.
Proof. intros A k p g l; revert k; induction l; simpl; auto. Qed.

Lemma nth_error_map_at : forall A p (g : A -> A) l k j,
  nth_error (map_at k p g l) j = option_map (fun t => if p (k + j) then g t else t) (nth_error l j).
Proof.
  intros A p g l; induction l; intros k j; destruct j; simpl; auto.
  - rewrite Nat.add_0_r; auto.
  - rewrite IHl. replace (S k + j) with (k + S j) by lia. auto.
Qed.

Lemma mem_nat_In : forall x l, mem_nat x l = true <-> In x l.
Proof.
  induction l; simpl; [split; [discriminate|tauto]|].
  rewrite orb_true_iff, Nat.eqb_eq, IHl. split; intros [H|H]; auto.
Qed.

Lemma In_remove_nat : forall x y l, In y (remove_nat x l) <-> In y l /\ y <> x.
Proof.
  induction l; simpl; [tauto|].
  destruct (Nat.eqb x a) eqn:E.
  - apply Nat.eqb_eq in E; subst. rewrite IHl. split; [tauto|]. intros [[H|H] N]; [congruence|auto].
  - apply Nat.eqb_neq in E. simpl. rewrite IHl. split; [intros [H|H]; [subst; split; auto|tauto]|tauto].
Qed.
