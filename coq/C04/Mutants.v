(* C04 sensitivity of the model: protocol MUTANTS reach a bad view.  These theorems are about mutated machines
   (variant records other than `correct`); they document that the properties proved for `correct` are not vacuous
   consequences of the modelling.  They are not findings about the repository. *)
From Coq Require Import List Bool Arith.
From OG Require Import C04.Model C04.Proofs.
Import ListNotations.

Definition mut (a b c d : bool) : variant :=
  {| v_flag_first := a; v_drop_first := b; v_gc_ignores_refs := c; v_no_snap_lock := d; v_stale_list := false; v_drop_blind := false; v_no_wait_snap := false |}.

Definition sys1 : list actor := [fresh_writer [1]; fresh_reader 1; fresh_flusher 1; AP [Replace [0] []; Gc 0]].

Lemma sys1_fresh : forallb fresh sys1 = true. Proof. reflexivity. Qed.

(* reading *flushed BEFORE taking the file references: the view holds the snapshot table AND the file flushed from it, so
   a batch is returned twice.  (A view with a repeated batch is reachable in `correct` as well - a query between a Merge
   and its Delist reads the merged file and the out-of-order inputs - so some_view_dup alone does not tell this mutant
   from `correct`; what `correct` excludes is the overlap in provenance, C04_view_not_both.) *)
Theorem flag_before_refs_refuted :
  exists st, reach (mut true false false false) (init_state sys1) st /\ some_view_dup st = true.
Proof.
  destruct (run (mut true false false false) (init_state sys1) [0;0;2;1;2;1;1;1;1]) as [st|] eqn:E; [|vm_compute in E; discriminate].
  exists st. split; [eapply run_reach; exact E|]. vm_compute in E. inversion E; subst. vm_compute. reflexivity.
Qed.

(* dropping the snapshot table BEFORE the files are listed: a query in between misses acknowledged batches *)
Theorem drop_before_publish_refuted :
  exists st, reach (mut false true false false) (init_state sys1) st /\ some_view_missing st = true.
Proof.
  destruct (run (mut false true false false) (init_state sys1) [0;0;2;2;1;1;1;1;1]) as [st|] eqn:E; [|vm_compute in E; discriminate].
  exists st. split; [eapply run_reach; exact E|]. vm_compute in E. inversion E; subst. vm_compute. reflexivity.
Qed.

(* physical removal that does not wait for reference count 0: a query holding the replaced file loses its rows *)
Theorem removal_ignores_refs_refuted :
  exists st, reach (mut false false true false) (init_state sys1) st /\ some_view_missing st = true.
Proof.
  destruct (run (mut false false true false) (init_state sys1) [0;0;2;2;2;1;1;3;3;1;1;1]) as [st|] eqn:E; [|vm_compute in E; discriminate].
  exists st. split; [eapply run_reach; exact E|]. vm_compute in E. inversion E; subst. vm_compute. reflexivity.
Qed.

(* swapping / dropping the snapshot table without the exclusive snapshot lock: the table is recycled under a query *)
Theorem no_snapshot_lock_refuted :
  exists st, reach (mut false false false true) (init_state sys1) st /\ some_view_missing st = true.
Proof.
  destruct (run (mut false false false true) (init_state sys1) [0;0;1;1;2;2;2;1;1;1]) as [st|] eqn:E; [|vm_compute in E; discriminate].
  exists st. split; [eapply run_reach; exact E|]. vm_compute in E. inversion E; subst. vm_compute. reflexivity.
Qed.

(* these four schedules on the correct machine are either not executable or end in a view that is complete and has no
   repeated batch *)
Example correct_on_mutant_schedules :
  forallb (fun sched => match run correct (init_state sys1) sched with
                        | Some st => negb (some_view_missing st) && negb (some_view_dup st)
                        | None => true end)
          [[0;0;2;1;2;1;1;1;1]; [0;0;2;2;1;1;1;1;1]; [0;0;2;2;2;1;1;3;3;1;1;1]; [0;0;1;1;2;2;2;1;1;1]] = true.
Proof. vm_compute. reflexivity. Qed.

(* deleteUnorderedFiles deleting the out-of-order list object on the stale "empty" decision of its first critical
   section (no re-check under m.mu): a flush that lists its out-of-order file between the two sections is orphaned.
   W: 5 flush (ordered), 3 flush (out of order), 4; merge replaces and de-lists {3}; the flush of {4} is published;
   the merge's second section deletes the list object; a query misses 4 *)
Definition mutv (blind nowait : bool) : variant :=
  {| v_flag_first := false; v_drop_first := false; v_gc_ignores_refs := false; v_no_snap_lock := false;
     v_stale_list := false; v_drop_blind := blind; v_no_wait_snap := nowait |}.
Definition sys2 : list actor := [fresh_writer [5;3;4]; fresh_flusher 3; AP [Merge]; fresh_reader 1].
Definition sched_blind : list nat := [0;0; 1;1;1;  0;0; 1;1;1;  0;0;  2;2;  1;1;  2;  1;  3;3;3;3;3].

Theorem map_delete_without_recheck_refuted :
  exists st, reach (mutv true false) (init_state sys2) st /\ some_view_missing st = true.
Proof.
  destruct (run (mutv true false) (init_state sys2) sched_blind) as [st|] eqn:E; [|vm_compute in E; discriminate].
  exists st. split; [eapply run_reach; exact E|]. vm_compute in E. inversion E; subst. vm_compute. reflexivity.
Qed.

(* a flush that does not wait for the snapshot already in flight overwrites the single snapshot slot: the first
   snapshot's batches are in no container a query looks at.  W: 5; flusher A swaps; W: 3; flusher B swaps too *)
Definition sys3 : list actor := [fresh_writer [5;3]; fresh_flusher 1; fresh_flusher 1; fresh_reader 1].
Definition sched_nowait : list nat := [0;0; 1; 0;0; 2; 3;3;3;3;3].

Theorem flush_without_waiting_refuted :
  exists st, reach (mutv false true) (init_state sys3) st /\ some_view_missing st = true.
Proof.
  destruct (run (mutv false true) (init_state sys3) sched_nowait) as [st|] eqn:E; [|vm_compute in E; discriminate].
  exists st. split; [eapply run_reach; exact E|]. vm_compute in E. inversion E; subst. vm_compute. reflexivity.
Qed.

(* on the correct machine the first schedule ends in a complete view and the second is not executable (the second
   swap is not enabled while a snapshot is in flight) *)
Example correct_on_new_mutant_schedules :
  (match run correct (init_state sys2) sched_blind with
   | Some st => negb (some_view_missing st) | None => false end) = true /\
  run correct (init_state sys3) sched_nowait = None /\
  run correct (init_state sys3) [0;0; 1; 0;0] <> None /\ exec correct
    (match run correct (init_state sys3) [0;0; 1; 0;0] with Some st => st | None => init_state [] end) 2 = None.
Proof. vm_compute. repeat split; discriminate. Qed.

Print Assumptions map_delete_without_recheck_refuted.
Print Assumptions flush_without_waiting_refuted.
Print Assumptions flag_before_refs_refuted.
Print Assumptions drop_before_publish_refuted.
Print Assumptions removal_ignores_refs_refuted.
Print Assumptions no_snapshot_lock_refuted.

From OG Require Import C04.Eng C04.EngRefuted.

(* without the time-out of DeleteDatabase's wait a writer pending on EngineImpl.mu deadlocks the drop (the query cannot
   release its reference, the drop holds the read lock the writer waits for); with the time-out - the code - the same
   state has exactly one way out, and taking it everything drains *)
Theorem engine_drop_wait_needs_timeout :
  ereach no_timeout (einit [P_query; P_dropdb; P_close]) (stall_state no_timeout) /\
  deadlocked no_timeout (stall_state no_timeout) = true /\
  deadlocked ecode (stall_state ecode) = false /\
  match eexec ecode (stall_state ecode) 1 false with
  | Some st => forallb edone (eacts (run_rounds ecode 6 st [1; 2; 0])) = true /\ bad (esh (run_rounds ecode 6 st [1; 2; 0])) = []
  | None => False
  end.
Proof.
  split; [|vm_compute; repeat split].
  unfold stall_state. repeat (eapply ereach_trans; [|apply run_until_blocked_reach]). apply ereach_refl.
Qed.

(* a DBPTInfo.ref that ignores `offloading` lets the directories be deleted under a reference *)
Theorem engine_ref_ignoring_offloading_refuted : exists st,
  ereach ref_ignores_offloading (einit [P_dropdb; P_query]) st /\ bad (esh st) <> [].
Proof.
  exists (run_until_blocked ref_ignores_offloading 200
           (run_until_blocked ref_ignores_offloading 3 (run_until_blocked ref_ignores_offloading 9 (einit [P_dropdb; P_query]) 0) 1) 0).
  split.
  - repeat (eapply ereach_trans; [|apply run_until_blocked_reach]). apply ereach_refl.
  - vm_compute. discriminate.
Qed.

Print Assumptions engine_drop_wait_needs_timeout.
Print Assumptions engine_ref_ignoring_offloading_refuted.
