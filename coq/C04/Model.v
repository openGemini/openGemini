(* C04 model: a small-step machine whose steps are the critical sections (lock acquire ... release) of the
   actors that touch one shard: writers, readers (queries), flushers, replacers (compaction / out-of-order merge /
   physical removal) and closers.  Executable Gallina only; the theorems are in Props.v, Mutants.v and Refuted.v, their
   invariants in Steps.v, Inv.v, Views.v, Safety.v and Progress.v.

   Shared state = layout of containers holding batches (memtables, files) + reference holders + flags + the two
   locks the closer holds across steps.  Locks that are only held inside one step are implicit in the atomicity of
   that step; locks held across steps are derived from the phases of the actors (snapshot lock: readers in R1/R2;
   shard.mu read side: writers in W1; "snapshot in progress": flushers in F1/F1b/F2) or explicit (mu_x, mmu_x: the
   closer).  A step is enabled only if the locks it takes are free.

   Code anchors (repository paths, for the reader of the model):
     writer   W0->W1  shard.WriteRows/writeRows: under shard.mu.R and snapshotLock.R append to activeTbl (+ WAL)
              W1->W0  WriteRows returns nil = acknowledgement (shard.mu.R released)
     reader   R0->R1  shard.cloneReaders: snapshotLock.RLock; read s.snapshotTbl and its MsInfo.flushed POINTER
              R1->R2  MmsTables.GetBothFilesRef: under m.mu.R + both TSSPFiles.lock.R: Ref every listed file, THEN
                      read *flushed
              R2->R3  mutableReader.Init(active, snapshot iff not flushed); Ref; snapshotLock.RUnlock
              R3->R4  cursors read the referenced containers
              R4->R0  TsIndexInfo.Unref: Unref files and memtables
     flusher  F0->F1  tsstoreImpl.writeSnapshot: snapshotLock.Lock; snapshotTbl = activeTbl; new activeTbl; Unlock
              F1->F2  FlushChunks ... AddBothTSSPFiles: under the TSSPFiles write locks append files AND *flushed=true
              F2->F0  snapshotLock.Lock; snapshotTbl.UnRef(); snapshotTbl = nil; Unlock
     replacer Replace MmsTables.ReplaceFiles under TSSPFiles.lock: de-list old files, list the new one
              Delist  deleteUnorderedFiles after an out-of-order merge put the rows into ordered files
              Gc      tsspFile.Remove / TableStoreGC.GC: physical removal, only when nobody holds a reference
     closer   shard.Close: cacheClosed+DisableCompAndMerge; shard.mu.Lock; snapshotLock.Lock{activeTbl=nil};
              waitSnapshot; immTables.Close (m.mu.Lock; every file: Stop, wg.Wait for references) *)
From Coq Require Import List Bool Arith PeanoNat.
Import ListNotations.

(* ---------------------------------------------------------------- protocol variants (mutants) *)
Record variant := {
  v_flag_first : bool;   (* reader reads *flushed BEFORE taking the file references (in R0->R1) *)
  v_drop_first : bool;   (* flusher drops the snapshot table BEFORE publishing the files *)
  v_gc_ignores_refs : bool;  (* physical removal does not wait for reference count 0 *)
  v_no_snap_lock : bool; (* flusher swaps / drops without waiting for readers inside the snapshot lock *)
  v_stale_list : bool;   (* THE CODE BEFORE fix 0726c22: the flusher fetches the out-of-order list object (makeTSSPFiles) in one
                            critical section and appends to it in a later one, while deleteUnorderedFiles may remove
                            an empty list object from MmsTables.OutOfOrder in between *)
  v_drop_blind : bool;   (* mutant: deleteUnorderedFiles deletes the out-of-order list object from the map on the stale
                            "list became empty" decision of its first critical section, without re-checking under m.mu *)
  v_no_wait_snap : bool  (* mutant: a flush starts without waiting for the snapshot that is already in flight
                            (ForceFlush without waitSnapshot / background snapshot ignoring snapshotTbl != nil) *)
}.
Definition correct : variant :=
  {| v_flag_first := false; v_drop_first := false; v_gc_ignores_refs := false; v_no_snap_lock := false;
     v_stale_list := false; v_drop_blind := false; v_no_wait_snap := false |}.
(* the protocol as the repository implemented it before fix 0726c22 (see Refuted.v) *)
Definition current : variant :=
  {| v_flag_first := false; v_drop_first := false; v_gc_ignores_refs := false; v_no_snap_lock := false;
     v_stale_list := true; v_drop_blind := false; v_no_wait_snap := false |}.

(* ---------------------------------------------------------------- shared state *)
Record mtab := { m_rows : list nat; m_hold : list nat; m_flag : bool; m_dead : bool }.
Record file := { f_rows : list nat; f_src : option nat; f_ord : bool; f_listed : bool; f_removed : bool; f_hold : list nat }.

Record shared := {
  mts : list mtab;          (* every memtable ever created; id = position *)
  active : option nat;
  snap : option nat;
  files : list file;        (* every file ever created; id = position *)
  appended : list nat;      (* batches some writer has appended (acknowledged or in flight) *)
  acked : list nat;         (* acknowledged batches *)
  dropped : bool;           (* the closer has dropped the active table *)
  closing : bool;           (* Close has been called: writes are rejected, compaction is stopped *)
  mu_x : bool;              (* closer holds shard.mu exclusively *)
  mmu_x : bool;             (* closer holds MmsTables.mu exclusively (immTables.Close) *)
  fclosed : bool;           (* files closed *)
  hi : nat;                 (* sequencer: largest batch (= time) in ordered files; later flushes send b <= hi out of order *)
  ugen : nat                (* identity (generation) of the out-of-order list object in MmsTables.OutOfOrder *)
}.

Definition init_shared : shared :=
  {| mts := [ {| m_rows := []; m_hold := []; m_flag := false; m_dead := false |} ];
     active := Some 0; snap := None; files := []; appended := []; acked := [];
     dropped := false; closing := false; mu_x := false; mmu_x := false; fclosed := false; hi := 0; ugen := 0 |}.

(* ---------------------------------------------------------------- actors *)
Inductive wph := W0 | W1 (b : nat).
Record writer := { w_todo : list nat; w_ph : wph }.

Inductive rph :=
| R0
| R1 (sn : option nat) (fl0 : bool)               (* fl0: flag as read in R0->R1 (only used by v_flag_first) *)
| R2 (sn : option nat) (fs : list nat) (fl : bool)
| R3 (ms fs : list nat)
| R4 (ms fs res : list nat).
Record reader := {
  r_left : nat;                 (* queries still to run *)
  r_ok : bool;                  (* current query started before the closer dropped the active table *)
  r_start : list nat;           (* batches acknowledged when the current query took its first step *)
  r_ph : rph;
  r_hist : list (bool * list nat * list nat)   (* finished queries, newest first: (ok, start, result) *)
}.

Inductive fph := F0 | F1 (m : nat) | F1b (m : nat) (g : nat) | F2 (m : nat).
Record flusher := { fl_left : nat; fl_ph : fph }.

Inductive rop :=
| Replace (olds extra : list nat) | Delist (fs : list nat) | Gc (f : nat)
| Merge        (* out-of-order merge: Replace (listed ordered) (listed out-of-order); then Delist; then DropList *)
| DropList.    (* deleteUnorderedFiles: an empty out-of-order list object is removed from MmsTables.OutOfOrder *)
Inductive cph := C0 | C1 | C2 | C3 | C4 | C5.

Inductive actor :=
| AW (w : writer) | AR (r : reader) | AF (f : flusher) | AP (todo : list rop) | AC (c : cph).

Record state := { sh : shared; actors : list actor }.

(* ---------------------------------------------------------------- list helpers *)
Fixpoint upd {A} (l : list A) (i : nat) (x : A) : list A :=
  match l, i with
  | [], _ => []
  | _ :: t, O => x :: t
  | h :: t, S j => h :: upd t j x
  end.

(* apply g at every position k (counted from k0) with p k = true *)
Fixpoint map_at {A} (k0 : nat) (p : nat -> bool) (g : A -> A) (l : list A) : list A :=
  match l with
  | [] => []
  | h :: t => (if p k0 then g h else h) :: map_at (S k0) p g t
  end.

Fixpoint remove_nat (x : nat) (l : list nat) : list nat :=
  match l with
  | [] => []
  | y :: t => if Nat.eqb x y then remove_nat x t else y :: remove_nat x t
  end.

Fixpoint mem_nat (x : nat) (l : list nat) : bool :=
  match l with [] => false | y :: t => Nat.eqb x y || mem_nat x t end.

Definition is_nil {A} (l : list A) : bool := match l with [] => true | _ => false end.

Fixpoint seq_from (k n : nat) : list nat := match n with O => [] | S n' => k :: seq_from (S k) n' end.

(* ---------------------------------------------------------------- accessors *)
Definition get_mt (s : shared) (m : nat) : option mtab := nth_error (mts s) m.
Definition get_file (s : shared) (f : nat) : option file := nth_error (files s) f.

Definition set_mts (s : shared) (l : list mtab) : shared :=
  {| mts := l; active := active s; snap := snap s; files := files s; appended := appended s; acked := acked s;
     dropped := dropped s; closing := closing s; mu_x := mu_x s; mmu_x := mmu_x s; fclosed := fclosed s;
     hi := hi s; ugen := ugen s |}.
Definition set_files (s : shared) (l : list file) : shared :=
  {| mts := mts s; active := active s; snap := snap s; files := l; appended := appended s; acked := acked s;
     dropped := dropped s; closing := closing s; mu_x := mu_x s; mmu_x := mmu_x s; fclosed := fclosed s;
     hi := hi s; ugen := ugen s |}.
Definition set_active_snap (s : shared) (a sn : option nat) : shared :=
  {| mts := mts s; active := a; snap := sn; files := files s; appended := appended s; acked := acked s;
     dropped := dropped s; closing := closing s; mu_x := mu_x s; mmu_x := mmu_x s; fclosed := fclosed s;
     hi := hi s; ugen := ugen s |}.
Definition set_logs (s : shared) (ap ak : list nat) : shared :=
  {| mts := mts s; active := active s; snap := snap s; files := files s; appended := ap; acked := ak;
     dropped := dropped s; closing := closing s; mu_x := mu_x s; mmu_x := mmu_x s; fclosed := fclosed s;
     hi := hi s; ugen := ugen s |}.
Definition set_close (s : shared) (dr cl mx mmx fc : bool) : shared :=
  {| mts := mts s; active := active s; snap := snap s; files := files s; appended := appended s; acked := acked s;
     dropped := dr; closing := cl; mu_x := mx; mmu_x := mmx; fclosed := fc; hi := hi s; ugen := ugen s |}.

Definition set_seq (s : shared) (h g : nat) : shared :=
  {| mts := mts s; active := active s; snap := snap s; files := files s; appended := appended s; acked := acked s;
     dropped := dropped s; closing := closing s; mu_x := mu_x s; mmu_x := mmu_x s; fclosed := fclosed s;
     hi := h; ugen := g |}.

Definition map_mt (s : shared) (m : nat) (g : mtab -> mtab) : shared :=
  match get_mt s m with Some t => set_mts s (upd (mts s) m (g t)) | None => s end.
Definition map_file (s : shared) (f : nat) (g : file -> file) : shared :=
  match get_file s f with Some t => set_files s (upd (files s) f (g t)) | None => s end.

Definition mt_add_row (b : nat) (t : mtab) : mtab :=
  {| m_rows := b :: m_rows t; m_hold := m_hold t; m_flag := m_flag t; m_dead := m_dead t |}.
Definition mt_add_hold (i : nat) (t : mtab) : mtab :=
  {| m_rows := m_rows t; m_hold := i :: m_hold t; m_flag := m_flag t; m_dead := m_dead t |}.
Definition mt_set_flag (t : mtab) : mtab :=
  {| m_rows := m_rows t; m_hold := m_hold t; m_flag := true; m_dead := m_dead t |}.
Definition mt_kill (t : mtab) : mtab :=   (* recycled: MemTable.Reset *)
  {| m_rows := []; m_hold := m_hold t; m_flag := m_flag t; m_dead := true |}.
(* remove holder i; if nobody holds it any more and it is not owned by the shard it is recycled *)
Definition mt_unhold (i : nat) (owned : bool) (t : mtab) : mtab :=
  let h := remove_nat i (m_hold t) in
  if is_nil h && negb owned
  then {| m_rows := []; m_hold := h; m_flag := m_flag t; m_dead := true |}
  else {| m_rows := m_rows t; m_hold := h; m_flag := m_flag t; m_dead := m_dead t |}.

Definition f_add_hold (i : nat) (t : file) : file :=
  {| f_rows := f_rows t; f_src := f_src t; f_ord := f_ord t; f_listed := f_listed t; f_removed := f_removed t; f_hold := i :: f_hold t |}.
Definition f_unhold (i : nat) (t : file) : file :=
  {| f_rows := f_rows t; f_src := f_src t; f_ord := f_ord t; f_listed := f_listed t; f_removed := f_removed t; f_hold := remove_nat i (f_hold t) |}.
Definition f_delist (t : file) : file :=
  {| f_rows := f_rows t; f_src := f_src t; f_ord := f_ord t; f_listed := false; f_removed := f_removed t; f_hold := f_hold t |}.
Definition f_remove (t : file) : file :=   (* physical removal: the contents are gone *)
  {| f_rows := []; f_src := f_src t; f_ord := f_ord t; f_listed := f_listed t; f_removed := true; f_hold := f_hold t |}.

Definition opt_list (o : option nat) : list nat := match o with Some x => [x] | None => [] end.

Definition owned (s : shared) (m : nat) : bool :=
  match active s with Some a => Nat.eqb a m | None => false end
  || match snap s with Some a => Nat.eqb a m | None => false end.

Definition owned_ids (s : shared) : list nat := opt_list (active s) ++ opt_list (snap s).
(* reader i releases the memtables ms: holder removed; a table nobody holds and the shard no longer owns is recycled *)
Fixpoint unhold_all (i : nat) (own ms : list nat) (k : nat) (l : list mtab) : list mtab :=
  match l with
  | [] => []
  | t :: r => (if mem_nat k ms then mt_unhold i (mem_nat k own) t else t) :: unhold_all i own ms (S k) r
  end.

(* ids of the listed files, in id order *)
Fixpoint listed_from (k : nat) (l : list file) : list nat :=
  match l with
  | [] => []
  | t :: r => if f_listed t then k :: listed_from (S k) r else listed_from (S k) r
  end.
Definition listed (s : shared) : list nat := listed_from 0 (files s).

Definition mt_rows_of (s : shared) (m : nat) : list nat :=
  match get_mt s m with Some t => m_rows t | None => [] end.
Definition file_rows_of (s : shared) (f : nat) : list nat :=
  match get_file s f with Some t => f_rows t | None => [] end.
Definition flag_of (s : shared) (sn : option nat) : bool :=
  match sn with Some m => match get_mt s m with Some t => m_flag t | None => false end | None => false end.

(* ---------------------------------------------------------------- lock status derived from the phases *)
Definition holds_snap (a : actor) : bool :=
  match a with AR r => match r_ph r with R1 _ _ | R2 _ _ _ => true | _ => false end | _ => false end.
Definition mid_write (a : actor) : bool :=
  match a with AW w => match w_ph w with W1 _ => true | W0 => false end | _ => false end.
Definition mid_flush (a : actor) : bool :=
  match a with AF f => match fl_ph f with F0 => false | _ => true end | _ => false end.
Definition snapR (l : list actor) : bool := existsb holds_snap l.
Definition wmid (l : list actor) : bool := existsb mid_write l.
Definition fmid (l : list actor) : bool := existsb mid_flush l.

Definition all_unheld (s : shared) : bool := forallb (fun t => is_nil (f_hold t)) (files s).

(* every row of the files fs is also in a listed file outside fs *)
Definition covered_elsewhere (s : shared) (fs : list nat) : bool :=
  let others := filter (fun g => negb (mem_nat g fs)) (listed s) in
  let rows := flat_map (file_rows_of s) others in
  forallb (fun f => forallb (fun b => mem_nat b rows) (file_rows_of s f)) fs.

Fixpoint nodup_nat (l : list nat) : bool :=
  match l with [] => true | x :: t => negb (mem_nat x t) && nodup_nat t end.

(* ---------------------------------------------------------------- the step function *)
Definition step_writer (s : shared) (w : writer) : option (shared * writer) :=
  match w_ph w with
  | W0 =>
      match w_todo w with
      | [] => None
      | b :: t =>
          if mu_x s then None                                     (* blocked on shard.mu *)
          else if closing s then Some (s, {| w_todo := t; w_ph := W0 |})     (* rejected with an error *)
          else match active s with
               | None => Some (s, {| w_todo := t; w_ph := W0 |})
               | Some a =>
                   let s1 := map_mt s a (mt_add_row b) in
                   Some (set_logs s1 (b :: appended s1) (acked s1), {| w_todo := t; w_ph := W1 b |})
               end
      end
  | W1 b => Some (set_logs s (appended s) (b :: acked s), {| w_todo := w_todo w; w_ph := W0 |})
  end.

Definition step_reader (V : variant) (i : nat) (s : shared) (r : reader) : option (shared * reader) :=
  let mk ok st ph hist left :=
    {| r_left := left; r_ok := ok; r_start := st; r_ph := ph; r_hist := hist |} in
  match r_ph r with
  | R0 =>
      match r_left r with
      | O => None
      | S _ => Some (s, mk (negb (dropped s)) (acked s) (R1 (snap s) (flag_of s (snap s))) (r_hist r) (r_left r))
      end
  | R1 sn fl0 =>
      if mmu_x s then None
      else
        let fs := listed s in
        let s1 := if fclosed s then s else set_files s (map_at 0 (fun k => mem_nat k fs) (f_add_hold i) (files s)) in
        let fl := if v_flag_first V then fl0 else flag_of s sn in
        Some (s1, mk (r_ok r) (r_start r) (R2 sn fs fl) (r_hist r) (r_left r))
  | R2 sn fs fl =>
      let ms := opt_list (active s) ++ (if fl then [] else opt_list sn) in
      let s1 := set_mts s (map_at 0 (fun k => mem_nat k ms) (mt_add_hold i) (mts s)) in
      Some (s1, mk (r_ok r) (r_start r) (R3 ms fs) (r_hist r) (r_left r))
  | R3 ms fs =>
      let res := flat_map (mt_rows_of s) ms ++ flat_map (file_rows_of s) fs in
      Some (s, mk (r_ok r) (r_start r) (R4 ms fs res) (r_hist r) (r_left r))
  | R4 ms fs res =>
      let s1 := set_files s (map_at 0 (fun k => mem_nat k fs) (f_unhold i) (files s)) in
      let s2 := set_mts s1 (unhold_all i (owned_ids s) ms 0 (mts s1)) in
      Some (s2, mk false [] R0 ((r_ok r, r_start r, res) :: r_hist r) (pred (r_left r)))
  end.

Definition new_mtab : mtab := {| m_rows := []; m_hold := []; m_flag := false; m_dead := false |}.

Definition mk_file (rows : list nat) (src : option nat) (ord lst : bool) : file :=
  {| f_rows := rows; f_src := src; f_ord := ord; f_listed := lst; f_removed := false; f_hold := [] |}.
Definition opt_file (rows : list nat) (src : option nat) (ord lst : bool) : list file :=
  match rows with [] => [] | _ => [mk_file rows src ord lst] end.

(* FlushChunks + AddBothTSSPFiles: rows later than everything flushed in order go to a new ordered file, the rest to
   a new out-of-order file; both are listed and the flushed flag is set in ONE critical section.  `orphan`: the
   out-of-order list object the flusher holds is no longer the one in MmsTables.OutOfOrder (variant `current` only: the code before fix 0726c22). *)
Definition publish (s : shared) (m : nat) (orphan : bool) : shared :=
  let rows := mt_rows_of s m in
  let ro := filter (fun b => hi s <? b) rows in
  let ru := filter (fun b => b <=? hi s) rows in
  let s1 := set_files s (files s ++ opt_file ro (Some m) true true ++ opt_file ru (Some m) false (negb orphan)) in
  let s2 := set_seq s1 (fold_right Nat.max (hi s) ro) (ugen s1) in
  map_mt s2 m mt_set_flag.

Definition drop_snap (s : shared) (m : nat) : shared :=
  let s1 := set_active_snap s (active s) None in
  match get_mt s1 m with
  | Some t => if is_nil (m_hold t) then map_mt s1 m mt_kill else s1
  | None => s1
  end.

Definition step_flusher (V : variant) (l : list actor) (s : shared) (f : flusher) : option (shared * flusher) :=
  let free := v_no_snap_lock V || negb (snapR l) in
  match fl_ph f with
  | F0 =>
      match fl_left f with
      | O => None
      | S n =>
          match active s with
          | None => Some (s, {| fl_left := n; fl_ph := F0 |})           (* writeSnapshot: activeTbl == nil -> return *)
          | Some a =>
              (* the single snapshot slot: ForceFlush waits for the snapshot in flight (waitSnapshot), the background
                 snapshot is not started while snapshotTbl != nil (shouldSnapshot) *)
              if free && (v_no_wait_snap V || match snap s with None => true | Some _ => false end)
              then let s1 := set_mts s (mts s ++ [new_mtab]) in
                   Some (set_active_snap s1 (Some (length (mts s))) (Some a), {| fl_left := fl_left f; fl_ph := F1 a |})
              else None
          end
      end
  | F1 m =>
      if v_drop_first V   (* mutant: the shard forgets the snapshot table first (kept alive until the files are listed) *)
      then (if free then Some (set_active_snap s (active s) None, {| fl_left := fl_left f; fl_ph := F2 m |}) else None)
      else if v_stale_list V then Some (s, {| fl_left := fl_left f; fl_ph := F1b m (ugen s) |})   (* makeTSSPFiles *)
      else (if mmu_x s then None else Some (publish s m false, {| fl_left := fl_left f; fl_ph := F2 m |}))
  | F1b m g =>
      if mmu_x s then None
      else Some (publish s m (negb (Nat.eqb g (ugen s))), {| fl_left := fl_left f; fl_ph := F2 m |})
  | F2 m =>
      if v_drop_first V
      then (if mmu_x s then None else Some (drop_snap (publish s m false) m, {| fl_left := pred (fl_left f); fl_ph := F0 |}))
      else (if free then Some (drop_snap s m, {| fl_left := pred (fl_left f); fl_ph := F0 |}) else None)
  end.

Definition all_listed (s : shared) (fs : list nat) : bool :=
  forallb (fun f => match get_file s f with Some t => f_listed t && negb (f_removed t) | None => false end) fs.

Definition step_replacer (V : variant) (s : shared) (todo : list rop) : option (shared * list rop) :=
  match todo with
  | [] => None
  | Gc f :: t =>
      match get_file s f with
      | Some x =>
          if negb (f_listed x) && negb (f_removed x) && (v_gc_ignores_refs V || is_nil (f_hold x))
          then Some (map_file s f f_remove, t)
          else if f_removed x || f_listed x then Some (s, t)  (* nothing to collect (already gone / still listed) *)
          else None                                          (* de-listed but still referenced: waits for ref count 0 *)
      | None => Some (s, t)
      end
  | op :: t =>
      if closing s || mmu_x s then Some (s, t)                  (* compaction / merge stopped: the operation is abandoned *)
      else match op with
           | Replace olds extra =>
               if negb (is_nil olds) && nodup_nat (olds ++ extra) && all_listed s (olds ++ extra)
               then let rows := flat_map (file_rows_of s) (olds ++ extra) in
                    let s1 := set_files s (map_at 0 (fun k => mem_nat k olds) f_delist (files s)) in
                    Some (set_files s1 (files s1 ++ [mk_file rows None true true]), t)
               else Some (s, t)                                 (* plan no longer applicable: skipped *)
           | Delist fs =>
               if nodup_nat fs && all_listed s fs && covered_elsewhere s fs
               then let s1 := set_files s (map_at 0 (fun k => mem_nat k fs) f_delist (files s)) in
                    (* first critical section of deleteUnorderedFiles; the mutant remembers here whether the list
                       became empty (it skips the second section otherwise) *)
                    let t1 := if v_drop_blind V
                              then (if is_nil (filter (fun f => match get_file s1 f with Some x => negb (f_ord x) | None => false end) (listed s1))
                                    then t else match t with DropList :: t' => t' | _ => t end)
                              else t in
                    Some (s1, t1)
               else Some (s, t)
           | Merge =>
               let os := filter (fun f => match get_file s f with Some x => f_ord x | None => false end) (listed s) in
               let us := filter (fun f => match get_file s f with Some x => negb (f_ord x) | None => false end) (listed s) in
               if is_nil os || is_nil us then Some (s, t)
               else let rows := flat_map (file_rows_of s) (os ++ us) in
                    let s1 := set_files s (map_at 0 (fun k => mem_nat k os) f_delist (files s)) in
                    Some (set_files s1 (files s1 ++ [mk_file rows None true true]), Delist us :: DropList :: t)
           | DropList =>
               let us := filter (fun f => match get_file s f with Some x => negb (f_ord x) | None => false end) (listed s) in
               (* second critical section (under m.mu.Lock): re-read the list object, delete it only if still empty.
                  Mutant: delete it whatever it holds now - the files it lists become unreachable *)
               if v_drop_blind V
               then Some (set_seq (set_files s (map_at 0 (fun k => mem_nat k us) f_delist (files s))) (hi s) (S (ugen s)), t)
               else if is_nil us then Some (set_seq s (hi s) (S (ugen s)), t) else Some (s, t)
           | Gc _ => Some (s, t)
           end
  end.

Definition step_closer (l : list actor) (s : shared) (c : cph) : option (shared * cph) :=
  match c with
  | C0 => if closing s then Some (s, C5)       (* a second Close returns ErrShardClosed at once *)
          else Some (set_close s (dropped s) true (mu_x s) (mmu_x s) (fclosed s), C1)
  | C1 => if wmid l then None else Some (set_close s (dropped s) true true (mmu_x s) (fclosed s), C2)
  | C2 => if snapR l then None
          else Some (set_close (set_active_snap s None (snap s)) true true true (mmu_x s) (fclosed s), C3)
  | C3 => if fmid l then None else Some (set_close s (dropped s) true true true (fclosed s), C4)
  | C4 => if all_unheld s then Some (set_close s (dropped s) true false false true, C5) else None
  | C5 => None
  end.

Definition exec (V : variant) (st : state) (i : nat) : option state :=
  match nth_error (actors st) i with
  | None => None
  | Some a =>
      let s := sh st in
      let l := actors st in
      match a with
      | AW w => match step_writer s w with Some (s', w') => Some {| sh := s'; actors := upd l i (AW w') |} | None => None end
      | AR r => match step_reader V i s r with Some (s', r') => Some {| sh := s'; actors := upd l i (AR r') |} | None => None end
      | AF f => match step_flusher V l s f with Some (s', f') => Some {| sh := s'; actors := upd l i (AF f') |} | None => None end
      | AP t => match step_replacer V s t with Some (s', t') => Some {| sh := s'; actors := upd l i (AP t') |} | None => None end
      | AC c => match step_closer l s c with Some (s', c') => Some {| sh := s'; actors := upd l i (AC c') |} | None => None end
      end
  end.

Definition step (V : variant) (st st' : state) : Prop := exists i, exec V st i = Some st'.

Inductive reach (V : variant) (st0 : state) : state -> Prop :=
| reach_refl : reach V st0 st0
| reach_step : forall st st', reach V st0 st -> step V st st' -> reach V st0 st'.

(* run a schedule (list of actor indices); None if some step is not enabled *)
Fixpoint run (V : variant) (st : state) (sched : list nat) : option state :=
  match sched with
  | [] => Some st
  | i :: t => match exec V st i with Some st' => run V st' t | None => None end
  end.

(* ---------------------------------------------------------------- initial states *)
Definition fresh_reader (n : nat) : actor :=
  AR {| r_left := n; r_ok := false; r_start := []; r_ph := R0; r_hist := [] |}.
Definition fresh_writer (bs : list nat) : actor := AW {| w_todo := bs; w_ph := W0 |}.
Definition fresh_flusher (n : nat) : actor := AF {| fl_left := n; fl_ph := F0 |}.

Definition fresh (a : actor) : bool :=
  match a with
  | AW w => match w_ph w with W0 => true | _ => false end
  | AR r => match r_ph r with R0 => is_nil (r_hist r) | _ => false end
  | AF f => match fl_ph f with F0 => true | _ => false end
  | AP _ => true
  | AC c => match c with C0 => true | _ => false end
  end.

Definition init_state (l : list actor) : state := {| sh := init_shared; actors := l |}.

Definition done (a : actor) : bool :=
  match a with
  | AW w => match w_ph w with W0 => is_nil (w_todo w) | _ => false end
  | AR r => match r_ph r with R0 => Nat.eqb (r_left r) 0 | _ => false end
  | AF f => match fl_ph f with F0 => Nat.eqb (fl_left f) 0 | _ => false end
  | AP t => is_nil t
  | AC c => match c with C5 => true | _ => false end
  end.

(* observable of a finished query *)
Definition reader_hist (a : actor) : list (bool * list nat * list nat) :=
  match a with AR r => r_hist r | _ => [] end.

(* ---------------------------------------------------------------- decidable "bad view" predicates *)
(* a finished query that started before the close misses a batch acknowledged before its first step; a finished query
   returns some batch twice; some reader has such an entry in its history *)
Definition entry_missing (e : bool * list nat * list nat) : bool :=
  let '(ok, st, res) := e in ok && negb (forallb (fun b => mem_nat b res) st).
Definition entry_dup (e : bool * list nat * list nat) : bool :=
  let '(ok, st, res) := e in negb (nodup_nat res).
Definition some_view_missing (st : state) : bool := existsb (fun a => existsb entry_missing (reader_hist a)) (actors st).
Definition some_view_dup (st : state) : bool := existsb (fun a => existsb entry_dup (reader_hist a)) (actors st).
