(* C04: values come from appended batches; never a memtable together with a file flushed from it;
   nothing referenced is removed or recycled; monotone reads. *)
From Coq Require Import List Bool Arith PeanoNat Lia.
From OG Require Import C04.Model C04.Proofs C04.Steps C04.Inv C04.Views.
Import ListNotations.

Definition rows_ok (st : state) : Prop :=
  (forall m t, get_mt (sh st) m = Some t -> incl (m_rows t) (appended (sh st))) /\
  (forall f x, get_file (sh st) f = Some x -> incl (f_rows x) (appended (sh st))) /\
  (forall i r, nth_error (actors st) i = Some (AR r) ->
     (forall ms fs res, r_ph r = R4 ms fs res -> incl res (appended (sh st))) /\
     (forall ok s0 res, In (ok, s0, res) (r_hist r) -> incl res (appended (sh st)))).

Lemma incl_flat_map : forall (g : nat -> list nat) l (A : list nat),
  (forall x, In x l -> incl (g x) A) -> incl (flat_map g l) A.
Proof. intros g l A H b Hb. apply in_flat_map in Hb. destruct Hb as [x [Hx Hb]]. eapply H; eauto. Qed.

Lemma rows_ok_step : forall st i st', rows_ok st -> exec correct st i = Some st' -> rows_ok st'.
Proof.
  intros st i st' [Hm [Hf Hr]] H. inv_step H. destruct st' as [s' l']. simpl in *. subst l'.
  pose proof (step_appended_mono _ _ _ _ _ _ Hls) as Hmono.
  assert (HmR : forall m, incl (mt_rows_of (sh st) m) (appended (sh st))).
  { intro m. rewrite mt_rows_of_get. destruct (get_mt (sh st) m) eqn:G; [eauto|intros x []]. }
  assert (HfR : forall f, incl (file_rows_of (sh st) f) (appended (sh st))).
  { intro f. rewrite file_rows_of_get. destruct (get_file (sh st) f) eqn:G; [eauto|intros x []]. }
  split; [|split]; simpl.
  - intros m t' G. destruct (lstep_mt_inv _ _ _ _ _ _ _ _ Hls G) as [[t [G0 He]]|[_ ->]]; [|intros x []].
    specialize (Hm _ _ G0). destruct He; simpl; try (eapply incl_tran; eauto; fail).
    + match goal with Hx : appended s' = _ |- _ => rewrite Hx end. intros x [<-|Hx]; [left|right]; auto.
    + unfold mt_unhold. destruct (_ && _); simpl; [intros x []|eapply incl_tran; eauto].
    + intros x [].
  - intros f x' G. destruct (lstep_file_inv _ _ _ _ _ _ _ _ Hls G) as [[x [G0 He]]|[_ [_ [_ N]]]].
    + eapply incl_tran; [|exact Hmono]. specialize (Hf _ _ G0). destruct He; simpl; auto. intros y [].
    + eapply incl_tran; [|exact Hmono]. destruct (f_src x') as [m|].
      * eapply incl_tran; [apply N|apply HmR].
      * intros b Hb. destruct (proj2 N b Hb) as [g Hg]. eapply HfR; eauto.
  - intros j r Hj. apply nth_error_upd in Hj. destruct Hj as [[<- Ej]|[_ Hj]].
    2:{ destruct (Hr _ _ Hj) as [A B]. split; intros; eapply incl_tran; eauto. }
    subst a'. inv_lstep Hls; simpl; destruct (Hr _ _ Hnth) as [A B];
      (split; [try (intros; discriminate)|try (intros; eapply incl_tran; [eapply B; eassumption|exact Hmono])]).
    + (* read *) intros ms0 fs0 res0 E0. inversion E0; subst. apply incl_app; apply incl_flat_map; auto.
    + (* done *) intros ? ? ? [Hi|Hi]; [inversion Hi; subst|]; eapply incl_tran; eauto.
Qed.

Lemma rows_ok_init : forall l, forallb fresh l = true -> rows_ok (init_state l).
Proof.
  intros l Hl. split; [|split]; simpl.
  - intros m t G. unfold get_mt in G; simpl in G. destruct m; [inversion G; subst; simpl; intros x []|destruct m; discriminate].
  - intros f x G. unfold get_file in G; simpl in G. destruct f; discriminate.
  - intros i r Hi. rewrite forallb_forall in Hl. apply nth_error_In in Hi. apply Hl in Hi. simpl in Hi.
    destruct (r_ph r) eqn:E; try discriminate. split; [intros; discriminate|].
    apply is_nil_true in Hi. rewrite Hi. intros ok s0 res [].
Qed.

Definition ptr_ok (st : state) : Prop :=
  forall i r, nth_error (actors st) i = Some (AR r) ->
    match r_ph r with R1 sn _ | R2 sn _ _ => snap (sh st) = sn | _ => True end.

Lemma ptr_ok_step : forall st i st', ptr_ok st -> exec correct st i = Some st' -> ptr_ok st'.
Proof.
  intros st i st' Hp H. inv_step H. intros j r Hj. rewrite Hact in Hj.
  apply nth_error_upd in Hj. destruct Hj as [[<- Ej]|[N Hj]].
  - subst a'. destruct st' as [s' l']. simpl in *. subst l'.
    inversion Hls; subst; repeat match goal with x := _ |- _ => subst x end; simpl; auto.
    specialize (Hp _ _ Hnth). match goal with Hx : r_ph _ = R1 _ _ |- _ => rewrite Hx in Hp end.
    destruct (fclosed (sh st)); auto.
  - specialize (Hp _ _ Hj). destruct (r_ph r) eqn:Ep; auto.
    + assert (Hl : snapR (actors st) = true) by (eapply snapR_of_reader; eauto; rewrite Ep; auto).
      destruct (lstep_owned_kept _ _ _ _ _ _ Hls (or_intror Hl)) as [_ [E2 _]]. congruence.
    + assert (Hl : snapR (actors st) = true) by (eapply snapR_of_reader; eauto; rewrite Ep; auto).
      destruct (lstep_owned_kept _ _ _ _ _ _ Hls (or_intror Hl)) as [_ [E2 _]]. congruence.
Qed.

Lemma ptr_ok_init : forall l, forallb fresh l = true -> ptr_ok (init_state l).
Proof.
  intros l Hl i r Hi. rewrite forallb_forall in Hl. apply nth_error_In in Hi. apply Hl in Hi. simpl in Hi.
  destruct (r_ph r); auto; discriminate.
Qed.

Definition gone_ok (s : shared) : Prop :=
  (forall f x, get_file s f = Some x -> f_removed x = true -> f_hold x = []) /\
  (forall m t, get_mt s m = Some t -> m_dead t = true -> m_hold t = []).

Lemma gone_ok_step : forall st i st', Inv1 st -> ptr_ok st -> gone_ok (sh st) -> exec correct st i = Some st' -> gone_ok (sh st').
Proof.
  intros st i st' [[Ha [Hs _]] _ Hfi _] Hp [Hf Hm] H. inv_step H. split.
  - intros f x' G R. destruct (lstep_file_inv _ _ _ _ _ _ _ _ Hls G) as [[x [G0 He]]|[_ [N _]]]; [|congruence].
    destruct He; simpl in *; eauto.
    + (* only listed files are referenced, and they are not removed *) rewrite (Hfi _ _ G0) in R; auto. discriminate.
    + rewrite (Hf _ _ G0 R). reflexivity.
  - intros m t' G D. destruct (lstep_mt_inv _ _ _ _ _ _ _ _ Hls G) as [[t [G0 He]]|[_ ->]]; [|discriminate].
    destruct He; simpl in *; eauto.
    + (* only the active table and the current snapshot table are referenced, and they are live *)
      exfalso. subst a. specialize (Hp _ _ Hnth). match goal with Hx : r_ph r = _ |- _ => rewrite Hx in Hp end.
      match goal with Hx : _ \/ _ |- _ => destruct Hx as [E|[_ E]] end.
      * destruct (Ha _ E) as [t1 [G1 [_ D1]]]. congruence.
      * rewrite E in Hp. destruct (Hs _ Hp) as [t1 [G1 D1]]. congruence.
    + unfold mt_unhold in *. destruct (is_nil (remove_nat i (m_hold t)) && _) eqn:Ec; simpl in *.
      * apply andb_true_iff in Ec. apply is_nil_true, Ec.
      * rewrite (Hm _ _ G0 D). reflexivity.
Qed.

Lemma gone_ok_init : gone_ok init_shared.
Proof.
  split; simpl.
  - intros f x G. unfold get_file in G; simpl in G. destruct f; discriminate.
  - intros m t G D. unfold get_mt in G; simpl in G. destruct m; [inversion G; subst; simpl in D; discriminate|destruct m; discriminate].
Qed.

Record Inv3 (st : state) : Prop := { i3_2 : Inv2 st; i3_rows : rows_ok st; i3_ptr : ptr_ok st; i3_gone : gone_ok (sh st) }.

Lemma inv3_step : forall st i st', Inv3 st -> exec correct st i = Some st' -> Inv3 st'.
Proof.
  intros st i st' [A B C D] H. pose proof (i2_1 _ A) as A1.
  constructor; eauto using inv2_step, rows_ok_step, ptr_ok_step, gone_ok_step.
Qed.

Lemma inv3_reach : forall l st, forallb fresh l = true -> reach correct (init_state l) st -> Inv3 st.
Proof.
  intros l st Hl. apply reach_inv; [|exact inv3_step].
  constructor; [apply (inv2_reach l); auto; apply reach_refl|apply rows_ok_init|apply ptr_ok_init|apply gone_ok_init]; auto.
Qed.

Definition start_of (e : bool * list nat * list nat) : list nat := snd (fst e).
(* r_hist is newest first: whatever stands behind an entry is older and started with fewer acknowledged batches (the
   shape h = pre ++ e2 :: post is that of C04_monotone_reads) *)
Definition sorted_hist (h : list (bool * list nat * list nat)) : Prop :=
  forall pre e2 post, h = pre ++ e2 :: post -> forall e1, In e1 post -> incl (start_of e1) (start_of e2).

(* acked is the yardstick: every start set is a past value of acked, acked only grows, and a query starts with the
   acked of its first step - hence later starts contain earlier ones *)
Definition chain_ok (st : state) : Prop :=
  forall i r, nth_error (actors st) i = Some (AR r) ->
    (forall e, In e (r_hist r) -> incl (start_of e) (acked (sh st))) /\
    (r_ph r <> R0 -> incl (r_start r) (acked (sh st)) /\ forall e, In e (r_hist r) -> incl (start_of e) (r_start r)) /\
    sorted_hist (r_hist r).

Lemma step_acked_mono : forall s l i a s' a', lstep s l i a s' a' -> incl (acked s) (acked s').
Proof.
  intros s l i a s' a' Hls.
  destruct a as [w|r|f|t|c]; try (rewrite (proj2 (lstep_logs _ _ _ _ _ _ Hls ltac:(discriminate))); apply incl_refl).
  inv_lstep Hls; try apply incl_refl. apply incl_tl, incl_refl.
Qed.

Lemma sorted_hist_cons : forall e h, sorted_hist h -> (forall e1, In e1 h -> incl (start_of e1) (start_of e)) -> sorted_hist (e :: h).
Proof.
  intros e h Hs He pre e2 post E e1 Hi. destruct pre as [|p pre]; simpl in E; inversion E; subst.
  - auto.
  - eapply Hs; eauto.
Qed.

Lemma chain_ok_step : forall st i st', chain_ok st -> exec correct st i = Some st' -> chain_ok st'.
Proof.
  intros st i st' Hc H. inv_step H. pose proof (step_acked_mono _ _ _ _ _ _ Hls) as Hmono.
  intros j r Hj. rewrite Hact in Hj. apply nth_error_upd in Hj. destruct Hj as [[<- Ej]|[N Hj]].
  - subst a'. destruct st' as [s' l']. simpl in *. subst l'.
    inversion Hls; subst; repeat match goal with x := _ |- _ => subst x end; simpl;
      destruct (Hc _ _ Hnth) as [A [B C]].
    + (* begin *) split; [|split]; auto; try (intros _; split; [apply incl_refl|auto]).
    + (* files *) assert (Hn0 : r_ph r0 <> R0) by congruence. destruct (B Hn0) as [B1 B2].
      split; [|split]; auto.
      * intros e He. eapply incl_tran; eauto.
      * intros _. split; auto. eapply incl_tran; eauto.
    + (* mem *) assert (Hn0 : r_ph r0 <> R0) by congruence. destruct (B Hn0) as [B1 B2]. split; [|split]; auto.
    + (* read *) assert (Hn0 : r_ph r0 <> R0) by congruence. destruct (B Hn0) as [B1 B2]. split; [|split]; auto.
    + (* done *) assert (Hn0 : r_ph r0 <> R0) by congruence. destruct (B Hn0) as [B1 B2]. split; [|split].
      * intros e [<-|He]; simpl; auto.
      * intros X; congruence.
      * apply sorted_hist_cons; auto.
  - destruct (Hc _ _ Hj) as [A [B C]]. split; [|split]; auto.
    + intros e He. eapply incl_tran; eauto.
    + intros Hn0. destruct (B Hn0) as [B1 B2]. split; auto. eapply incl_tran; eauto.
Qed.

Lemma chain_ok_init : forall l, forallb fresh l = true -> chain_ok (init_state l).
Proof.
  intros l Hl i r Hi. rewrite forallb_forall in Hl. apply nth_error_In in Hi. apply Hl in Hi. simpl in Hi.
  destruct (r_ph r) eqn:E; try discriminate. apply is_nil_true in Hi. rewrite Hi. split; [|split].
  - intros e [].
  - congruence.
  - intros pre e2 post X. destruct pre; discriminate.
Qed.

Lemma chain_ok_reach : forall l st, forallb fresh l = true -> reach correct (init_state l) st -> chain_ok st.
Proof.
  intros l st Hl. apply reach_inv; [apply chain_ok_init; auto|exact chain_ok_step].
Qed.

Lemma step_flag_mono : forall s l i a s' a' m, lstep s l i a s' a' ->
  flag_of s (Some m) = true -> flag_of s' (Some m) = true.
Proof.
  intros s l i a s' a' m Hls Hfl. unfold flag_of in *. pose proof (lstep_mt _ _ _ _ _ _ m Hls) as Hm. unfold mt_step in Hm.
  destruct (get_mt s m) as [t|]; [|discriminate]. destruct Hm as [t' [-> He]]. destruct He; simpl; auto.
  rewrite mt_unhold_flag; auto.
Qed.

Lemma step_file_fwd : forall s l i a s' a' f x, lstep s l i a s' a' -> get_file s f = Some x ->
  exists x', get_file s' f = Some x' /\ f_src x' = f_src x.
Proof.
  intros s l i a s' a' f x Hls G. pose proof (lstep_file _ _ _ _ _ _ f Hls) as Hf. unfold file_step in Hf. rewrite G in Hf.
  destruct Hf as [x' [G' He]]. exists x'. split; auto. destruct He; reflexivity.
Qed.

Definition prov_ok (s : shared) : Prop :=
  forall f x m, get_file s f = Some x -> f_src x = Some m -> flag_of s (Some m) = true.

Lemma prov_ok_step : forall st i st', Inv1 st -> prov_ok (sh st) -> exec correct st i = Some st' -> prov_ok (sh st').
Proof.
  intros st i st' [[_ [Hs _]] [Hfl _] _ _] Hp H. inv_step H.
  intros f x' m G Hsrc. destruct (lstep_file_inv _ _ _ _ _ _ _ _ Hls G) as [[x [G0 He]]|[_ [_ [_ N]]]].
  - (* the file existed before: flags only grow *)
    apply (step_flag_mono _ _ _ _ _ _ _ Hls). apply (Hp _ _ _ G0). destruct He; exact Hsrc.
  - (* created by this step: flushed from the snapshot table of the flusher that steps *)
    rewrite Hsrc in N. destruct N as [[fl [-> Hph]] [_ N]]. apply N. specialize (Hfl _ _ Hnth).
    destruct Hph as [Hph|[g Hph]]; rewrite Hph in Hfl; [|contradiction]. destruct (Hs _ (proj1 Hfl)) as [tm [G1 _]]. congruence.
Qed.

Definition srcs_sat (s : shared) (fs : list nat) (Q : option nat -> Prop) : Prop :=
  forall f, In f fs -> exists x, get_file s f = Some x /\ Q (f_src x).

Lemma srcs_sat_step : forall s l i a s' a' fs Q, lstep s l i a s' a' -> srcs_sat s fs Q -> srcs_sat s' fs Q.
Proof.
  intros s l i a s' a' fs Q Hls H f Hf. destruct (H _ Hf) as [x [G Hq]].
  destruct (step_file_fwd _ _ _ _ _ _ _ _ Hls G) as [x' [G' Es]]. exists x'. rewrite Es. auto.
Qed.

Definition sep_ok (st : state) : Prop :=
  forall i r, nth_error (actors st) i = Some (AR r) ->
    match r_ph r with
    | R2 sn fs fl =>
        srcs_sat (sh st) fs (fun src => (forall a, active (sh st) = Some a -> src <> Some a) /\
                                          (fl = false -> forall m, sn = Some m -> src <> Some m))
    | R3 ms fs | R4 ms fs _ => srcs_sat (sh st) fs (fun src => forall m, In m ms -> src <> Some m)
    | _ => True
    end.

Lemma sep_ok_step : forall st i st', Inv1 st -> prov_ok (sh st) -> ptr_ok st -> sep_ok st ->
  exec correct st i = Some st' -> sep_ok st'.
Proof.
  intros st i st' [[Ha [Hs Hne]] _ _ _] Hp Hptr Hsep H. inv_step H.
  intros j r Hj. rewrite Hact in Hj. apply nth_error_upd in Hj. destruct Hj as [[<- Ej]|[N Hj]].
  - (* own step *) subst a'. destruct st' as [s' l']. simpl in *. subst l'.
    inv_lstep Hls; simpl; auto; specialize (Hsep _ _ Hnth); specialize (Hptr _ _ Hnth);
      match goal with Hx : r_ph _ = _ |- _ => rewrite Hx in Hsep, Hptr end; auto.
    + (* files: a listed file was flushed from a table whose flag is set: neither the active one, nor the snapshot table
         whose flag the reader has just read as false *)
      intros f Hf. apply listed_In in Hf. destruct Hf as [x [G _]].
      assert (Hq : (forall a, active (sh st) = Some a -> f_src x <> Some a) /\
                   (flag_of (sh st) sn = false -> forall m, sn = Some m -> f_src x <> Some m)).
      { split.
        - intros a Ea Es. pose proof (Hp _ _ _ G Es) as F. destruct (Ha _ Ea) as [tm [G1 [G2 _]]].
          unfold flag_of in F. rewrite G1 in F. congruence.
        - intros Efl m Em Es. subst sn. pose proof (Hp _ _ _ G Es) as F. congruence. }
      destruct (fclosed (sh st)); [eauto|]. rewrite (get_file_map_at _ (sh st)), G. simpl.
      destruct (mem_nat f _); eexists; split; try reflexivity; exact Hq.
    + (* mem: the view holds the active table, and the snapshot table if its flag was read as false *)
      intros f Hf. destruct (Hsep _ Hf) as [x [G [B1 B2]]]. exists x. rewrite get_file_set_mts. split; auto.
      intros m Hm. apply in_app_or in Hm. destruct Hm as [Hm|Hm]; [apply B1, In_opt_list, Hm|].
      destruct fl; [destruct Hm|]. apply B2; auto. apply In_opt_list, Hm.
  - (* step of another actor *)
    specialize (Hsep _ _ Hj). destruct (r_ph r) eqn:Ep; auto; try (eapply srcs_sat_step; eauto; fail).
    assert (Hl : snapR (actors st) = true) by (eapply snapR_of_reader; eauto; rewrite Ep; auto).
    destruct (lstep_owned_kept _ _ _ _ _ _ Hls (or_intror Hl)) as [E1 _]. rewrite E1. eapply srcs_sat_step; eauto.
Qed.

Lemma not_both_reach : forall l st, forallb fresh l = true -> reach correct (init_state l) st -> prov_ok (sh st) /\ sep_ok st.
Proof.
  intros l st Hl R.
  cut (Inv3 st /\ prov_ok (sh st) /\ sep_ok st); [tauto|]. revert st R. apply reach_inv.
  - split; [apply (inv3_reach l); auto; apply reach_refl|]. split.
    + intros f x m G. unfold get_file in G; simpl in G. destruct f; discriminate.
    + intros i r Hi. rewrite forallb_forall in Hl. apply nth_error_In in Hi. apply Hl in Hi. simpl in Hi.
      destruct (r_ph r); auto; discriminate.
  - intros st i st' [I3 [A B]] H. pose proof I3 as [[I1 _ _ _] _ P _].
    split; [eapply inv3_step; eauto|]. split; [eapply prov_ok_step; eauto|eapply sep_ok_step; eauto].
Qed.
