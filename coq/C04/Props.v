(* C04 property theorems (PARTIAL claim: the lock-granular protocol; see props/C04/NOTES.md).
   All theorems are about the machine of C04/Model.v in its `correct` variant (the protocol since fix 0726c22; the code
   before that fix is variant `current`, refuted in Refuted.v), for ANY list of fresh actors (any number of writers with any batches,
   readers with any number of queries, flushers, replacers with any operation lists, closers) and EVERY state
   reachable by any interleaving of enabled steps.  Each theorem is read off the invariants of Inv.v, Views.v, Safety.v and
   Progress.v (engine level: EngInv.v, EngSafe.v). *)
From Coq Require Import List Bool Arith.
From OG Require Import C04.Model C04.Proofs C04.Steps C04.Inv C04.Views C04.Safety C04.Progress.
From OG Require Import C04.Eng C04.EngInv C04.EngSafe C04.EngRefuted.
Import ListNotations.

(* every executable schedule is a reachability witness (used by Mutants.v / Refuted.v and by the correspondence) *)
Theorem C04_run_reach : forall V sched st st', run V st sched = Some st' -> reach V st st'.
Proof. exact run_reach. Qed.
Print Assumptions C04_run_reach.

(* view_complete: a finished query that took its first step before the closer dropped the active table (ok = true)
   returns every batch that was acknowledged when it took that first step.  (The flushed-flag protocol never drops the
   snapshot table from a view before the files flushed from it are in that view.) *)
Theorem C04_view_complete : forall l st i r ok start res,
  forallb fresh l = true -> reach correct (init_state l) st ->
  nth_error (actors st) i = Some (AR r) -> In (ok, start, res) (r_hist r) -> ok = true -> incl start res.
Proof.
  intros l st i r ok start res Hl R Hn Hi Hk. destruct (inv2_reach _ _ Hl R) as [_ _ _ D].
  destruct (D _ _ Hn) as [_ Hh]. eapply Hh; eauto.
Qed.
Print Assumptions C04_view_complete.

(* the same for the query in progress, once it has read (phase R4) *)
Theorem C04_view_complete_in_progress : forall l st i r ms fs res,
  forallb fresh l = true -> reach correct (init_state l) st ->
  nth_error (actors st) i = Some (AR r) -> r_ok r = true -> r_ph r = R4 ms fs res -> incl (r_start r) res.
Proof.
  intros l st i r ms fs res Hl R Hn Hk Hp. destruct (inv2_reach _ _ Hl R) as [_ _ _ D].
  destruct (D _ _ Hn) as [Hok _]. specialize (Hok Hk). unfold rd_ok in Hok. rewrite Hp in Hok. auto.
Qed.
Print Assumptions C04_view_complete_in_progress.

(* a view does not show a batch in two places of the same flush: the memtables of a view and its files never overlap in provenance; in particular a view never
   contains the snapshot table together with a file flushed from it *)
Theorem C04_view_not_both : forall l st i r ms fs,
  forallb fresh l = true -> reach correct (init_state l) st ->
  nth_error (actors st) i = Some (AR r) -> (r_ph r = R3 ms fs \/ exists res, r_ph r = R4 ms fs res) ->
  forall m f x, In m ms -> In f fs -> get_file (sh st) f = Some x -> f_src x <> Some m.
Proof.
  intros l st i r ms fs Hl R Hn Hp. destruct (not_both_reach _ _ Hl R) as [_ S]. specialize (S _ _ Hn).
  intros m f x Hm Hf G. destruct Hp as [Hp|[res Hp]]; rewrite Hp in S; destruct (S _ Hf) as [x' [G' Hq]];
    rewrite G in G'; inversion G'; subst; auto.
Qed.
Print Assumptions C04_view_not_both.

(* view_values_acked: every batch a query returns was appended by some writer (acknowledged or still in flight) *)
Theorem C04_view_values_acked : forall l st i r ok start res,
  forallb fresh l = true -> reach correct (init_state l) st ->
  nth_error (actors st) i = Some (AR r) -> In (ok, start, res) (r_hist r) -> incl res (appended (sh st)).
Proof.
  intros l st i r ok start res Hl R Hn Hi. destruct (inv3_reach _ _ Hl R) as [_ [_ [_ B]] _ _].
  destruct (B _ _ Hn) as [_ X]. eauto.
Qed.
Print Assumptions C04_view_values_acked.

(* no_file_removed_while_referenced (and no memtable recycled while referenced), for a query that took its first step
   before the closer dropped the active table (r_ok) and is in phase R2 or R3: every file (R3: and every memtable) of its
   view exists, names the query among its holders, and has not been removed (recycled) *)
Theorem C04_no_file_removed_while_referenced : forall l st i r,
  forallb fresh l = true -> reach correct (init_state l) st ->
  nth_error (actors st) i = Some (AR r) -> r_ok r = true ->
  match r_ph r with
  | R2 _ fs _ => forall f, In f fs -> exists x, get_file (sh st) f = Some x /\ In i (f_hold x) /\ f_removed x = false
  | R3 ms fs =>
      (forall f, In f fs -> exists x, get_file (sh st) f = Some x /\ In i (f_hold x) /\ f_removed x = false) /\
      (forall m, In m ms -> exists t, get_mt (sh st) m = Some t /\ In i (m_hold t) /\ m_dead t = false)
  | _ => True
  end.
Proof.
  intros l st i r Hl R Hn Hk. destruct (inv3_reach _ _ Hl R) as [[_ _ _ D] _ _ [Gf Gm]].
  destruct (D _ _ Hn) as [Hok _]. specialize (Hok Hk). unfold rd_ok in Hok.
  (* a reference is held, and what is removed or recycled has no holders *)
  assert (Hfile : forall fs, holds_files (sh st) i fs ->
            forall f, In f fs -> exists x, get_file (sh st) f = Some x /\ In i (f_hold x) /\ f_removed x = false).
  { intros fs C f Hf. destruct (C _ Hf) as [x [G Hx]]. exists x. repeat split; auto.
    destruct (f_removed x) eqn:E; auto. rewrite (Gf _ _ G E) in Hx. destruct Hx. }
  destruct (r_ph r); auto.
  - apply Hfile, Hok.
  - destruct Hok as [C [D' _]]. split; [apply Hfile, C|].
    intros m Hm. destruct (D' _ Hm) as [t [G Ht]]. exists t. repeat split; auto.
    destruct (m_dead t) eqn:E; auto. rewrite (Gm _ _ G E) in Ht. destruct Ht.
Qed.
Print Assumptions C04_no_file_removed_while_referenced.

(* monotone_reads: for two finished queries of one client, the later one (started before the close) started with every
   batch acknowledged that was acknowledged when the earlier one started, and returns all of those.  The third conjunct
   is view_complete of the later query once more; the statement says nothing about the earlier result res1. *)
Theorem C04_monotone_reads : forall l st i r pre ok2 s2 res2 post ok1 s1 res1,
  forallb fresh l = true -> reach correct (init_state l) st ->
  nth_error (actors st) i = Some (AR r) ->
  r_hist r = pre ++ (ok2, s2, res2) :: post -> In (ok1, s1, res1) post -> ok2 = true ->
  incl s1 s2 /\ incl s1 res2 /\ (forall b, In b res1 -> In b s2 -> In b res2).
Proof.
  intros l st i r pre ok2 s2 res2 post ok1 s1 res1 Hl R Hn Eh Hi Hk.
  pose proof (chain_ok_reach _ _ Hl R _ _ Hn) as [_ [_ C]].
  assert (H12 : incl s1 s2) by (apply (C _ _ _ Eh (ok1, s1, res1) Hi)).
  assert (H2 : incl s2 res2).
  { eapply C04_view_complete; eauto. rewrite Eh. apply in_or_app. right. left. reflexivity. }
  split; auto. split; [eapply incl_tran; eauto|]. intros b _ Hb. auto.
Qed.
Print Assumptions C04_monotone_reads.

(* the single snapshot slot: at most one flush is between its swap and its drop, and whenever a snapshot table
   exists some flusher is in that window (a flush waits for the snapshot in flight before it swaps) *)
Theorem C04_single_snapshot_in_flight : forall l st, forallb fresh l = true -> reach correct (init_state l) st ->
  (forall j1 j2 f1 f2, nth_error (actors st) j1 = Some (AF f1) -> nth_error (actors st) j2 = Some (AF f2) ->
     fl_ph f1 <> F0 -> fl_ph f2 <> F0 -> j1 = j2) /\
  (forall m, snap (sh st) = Some m -> fmid (actors st) = true) /\
  (forall j f m, nth_error (actors st) j = Some (AF f) -> (fl_ph f = F1 m \/ fl_ph f = F2 m) -> snap (sh st) = Some m).
Proof.
  intros l st Hl R. destruct (inv1_reach _ _ Hl R) as [_ [Hf [Hu Hsm]] _ _]. split; [exact Hu|]. split; [exact Hsm|].
  intros j f m Hj [P|P]; specialize (Hf _ _ Hj); rewrite P in Hf; tauto.
Qed.
Print Assumptions C04_single_snapshot_in_flight.

(* close_drains / no deadlock: as long as some actor (writer, reader, flusher, replacer, closer) is not done, some
   step is enabled - in particular a Close in flight is never stuck, whatever else is in flight.  (That every run then
   ends is not stated: no termination measure is proved.) *)
Theorem C04_close_drains : forall l st, forallb fresh l = true -> reach correct (init_state l) st ->
  (exists i a, nth_error (actors st) i = Some a /\ done a = false) ->
  exists i st', exec correct st i = Some st'.
Proof.
  intros l st Hl R [i [a [Hi Hd]]].
  destruct (bounded_search _ (exec correct st) (length (actors st))) as [[j [st' [_ He]]]|Hnone]; [eauto|].
  exfalso. assert (Hstuck : forall j, exec correct st j = None).
  { intro j. destruct (Nat.lt_ge_cases j (length (actors st))); auto.
    unfold exec. rewrite (proj2 (nth_error_None _ _)); auto. }
  rewrite (stuck_all_done _ (inv1_reach _ _ Hl R) (lock_ok_reach _ _ R) Hstuck _ _ Hi) in Hd. discriminate.
Qed.
Print Assumptions C04_close_drains.

(* non-vacuity: a concrete system (two writers, a reader with two queries, a flusher, a merger, a closer) and an
   interleaving in which the first query overlaps a flush (it takes the snapshot pointer before the files are published,
   the file references after) and two writes, the second follows an out-of-order merge; both views are complete and
   the run drains *)
Example C04_example :
  let sys := [fresh_writer [5;3]; fresh_writer [4]; fresh_reader 2; fresh_flusher 2; AP [Merge]; AC C0] in
  forallb fresh sys = true /\
  match run correct (init_state sys) [0;0; 3; 2; 3; 2; 2; 3; 0;0; 1;1; 2;2; 3;3;3; 4;4;4; 2;2;2;2;2; 5;5;5;5;5] with
  | Some st => map reader_hist (actors st) = [[]; []; [(true, [4;3;5], [5;4;3]); (true, [5], [4;3;5])]; []; []; []]
               /\ forallb done (actors st) = true
  | None => False
  end.
Proof. vm_compute. repeat split. Qed.

(* ENGINE / PARTITION LEVEL (C04/Eng.v): operations are programs over the droppingDB token, EngineImpl.mu, DBPTInfo.mu,
   shard.mu (Go RWMutex semantics WITH writer preference: an announced writer blocks every new reader) and the
   partition's reference counter.  The theorems hold for ANY number of concurrent operations whose programs pass the
   static discipline `chk` (locks taken in increasing rank - hence never re-entered -, Lock = announce;acquire,
   reference before use, drained + closed before the directories go) and EVERY interleaving.  The programs of the code
   (query, write, WriteToRaft's partition lookup [as it is since fix f11ca97], DropMeasurement, DeleteMstInShard, ForceFlush,
   DeleteDatabase, Engine.Close, DeleteShard) pass it: C04_engine_code_programs_ordered. *)

(* closing or dropping while operations are in flight does not deadlock: while some operation has not finished, some
   step is enabled (DeleteDatabase's wait for the references has its time-out, as in the code) *)
Theorem C04_engine_no_deadlock : forall ps st, forallb (chk ts0) ps = true -> ereach ecode (einit ps) st ->
  (exists i a, nth_error (eacts st) i = Some a /\ edone a = false) ->
  exists i c st', eexec ecode st i c = Some st'.
Proof.
  intros ps st Hp R [i [a [Hi Hd]]].
  destruct (bounded_search _ (fun j => match eexec ecode st j true with Some x => Some x | None => eexec ecode st j false end)
              (length (eacts st))) as [[j [st' [_ He]]]|Hnone]; [destruct (eexec ecode st j true) eqn:E; eauto|].
  exfalso. assert (Hst : forall j c, eexec ecode st j c = None).
  { intros j c. destruct (Nat.lt_ge_cases j (length (eacts st))) as [L|L].
    - specialize (Hnone _ L). destruct (eexec ecode st j true) eqn:E; [discriminate|]. destruct c; auto.
    - unfold eexec. rewrite (proj2 (nth_error_None _ _)); auto. }
  rewrite (eng_stuck_all_done _ (all_inv_reach _ _ _ Hp R) Hst _ _ Hi) in Hd. discriminate.
Qed.
Print Assumptions C04_engine_no_deadlock.

(* ... nor crashes / uses freed state: the violation log stays empty (no counter underflow, no work on deleted data
   under a reference, no admitted shard operation on deleted files, no directory deletion under references); the
   counter equals the number of reference holders; directories go only after the shard was closed and the references
   drained; an operation that holds a reference never sees the directories gone *)
Theorem C04_engine_ref_safety : forall ps st, forallb (chk ts0) ps = true -> ereach ecode (einit ps) st ->
  bad (esh st) = [] /\
  refs (esh st) = nref (eacts st) /\
  (gone (esh st) = true -> closed (esh st) = true /\ refs (esh st) = 0) /\
  (forall j a, nth_error (eacts st) j = Some a -> hasref (ts a) = true -> gone (esh st) = false).
Proof.
  intros ps st Hp R. destruct (safe_inv_reach _ _ Hp R) as [S1 [_ [S5 S6]]].
  split; auto. split; auto. split; [intros G; destruct (S5 G) as [G1 [G2 _]]; auto|].
  intros j a Hj Hr. destruct (gone (esh st)) eqn:G; auto. destruct (S5 eq_refl) as [_ [G2 _]].
  pose proof (nref_pos _ _ _ Hj Hr). rewrite <- S1, G2 in H. inversion H.
Qed.
Print Assumptions C04_engine_ref_safety.

(* the read/write locks exclude: whoever holds a lock exclusively is its only holder *)
Theorem C04_engine_rw_exclusion : forall V ps st k, forallb (chk ts0) ps = true -> ereach V (einit ps) st ->
  forall j1 j2 a1 a2 m, nth_error (eacts st) j1 = Some a1 -> nth_error (eacts st) j2 = Some a2 ->
    In (k, MW) (held (ts a1)) -> In (k, m) (held (ts a2)) -> j1 = j2.
Proof.
  intros V ps st k Hp R j1 j2 a1 a2 m. apply lock_excl. apply (all_inv_reach _ _ _ Hp R).
Qed.
Print Assumptions C04_engine_rw_exclusion.

(* the hypotheses are satisfiable by the code's programs, in any multiplicity *)
Theorem C04_engine_code_programs_ordered : forall ps, (forall p, In p ps -> In p code_progs) -> forallb (chk ts0) ps = true.
Proof.
  intros ps H. apply forallb_forall. intros p Hp. pose proof code_progs_ordered as C. rewrite forallb_forall in C. auto.
Qed.
Print Assumptions C04_engine_code_programs_ordered.

(* non-vacuity: two queries, a write, a DropMeasurement, a ForceFlush, a DeleteDatabase and an Engine.Close, run
   round-robin from a state where the first query already holds its reference and DeleteDatabase already waits for it:
   everybody finishes, nothing bad is logged, the partition is gone and the counter is back at 0 *)
Example C04_engine_example :
  let sys := [P_query; P_dropdb; P_write; P_dropmst; P_flush; P_close; P_query] in
  forallb (chk ts0) sys = true /\
  let st1 := run_until_blocked ecode 200 (run_until_blocked ecode 5 (einit sys) 0) 1 in
  (match nth_error (eacts st1) 1 with Some a => match pr a with Br Wait _ _ => true | _ => false end | None => false end) = true /\
  let st := run_rounds ecode 12 st1 [0; 1; 2; 3; 4; 5; 6] in
  forallb edone (eacts st) = true /\ bad (esh st) = [] /\ refs (esh st) = 0 /\ present (esh st) = false.
Proof. vm_compute. repeat split. Qed.
