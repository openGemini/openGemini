(* C04: the steps of the `correct` machine as an inductive relation, one constructor per kind of critical section.
   Only exec -> lstep is proved (exec_lstep), and lstep allows more than exec does: LP_skip drops any operation at any
   time, LP_droplist is unconditional, and LF_publish_b is there because exec has a step from phase F1b although `correct`
   never enters it (fl_ok refutes the phase).  An invariant of lstep is an invariant of exec, which is all that is asked. *)
From Coq Require Import List Bool Arith PeanoNat Lia.
From OG Require Import C04.Model C04.Proofs.
Import ListNotations.

Definition mkr (left : nat) (ok : bool) (st : list nat) (ph : rph) (hist : list (bool * list nat * list nat)) : reader :=
  {| r_left := left; r_ok := ok; r_start := st; r_ph := ph; r_hist := hist |}.

Definition unord_listed (s : shared) : list nat :=
  filter (fun f => match get_file s f with Some x => negb (f_ord x) | None => false end) (listed s).
Definition ord_listed (s : shared) : list nat :=
  filter (fun f => match get_file s f with Some x => f_ord x | None => false end) (listed s).

(* lstep s l i a s' a' : actor a (at position i of l) steps, shared state s -> s', actor -> a' *)
Inductive lstep (s : shared) (l : list actor) (i : nat) : actor -> shared -> actor -> Prop :=
| LW_reject : forall w b t, w_ph w = W0 -> w_todo w = b :: t -> mu_x s = false ->
    (closing s = true \/ active s = None) ->
    lstep s l i (AW w) s (AW {| w_todo := t; w_ph := W0 |})
| LW_append : forall w b t a, w_ph w = W0 -> w_todo w = b :: t -> mu_x s = false -> closing s = false ->
    active s = Some a ->
    lstep s l i (AW w) (set_logs (map_mt s a (mt_add_row b)) (b :: appended s) (acked s)) (AW {| w_todo := t; w_ph := W1 b |})
| LW_ack : forall w b, w_ph w = W1 b ->
    lstep s l i (AW w) (set_logs s (appended s) (b :: acked s)) (AW {| w_todo := w_todo w; w_ph := W0 |})
| LR_begin : forall r n, r_ph r = R0 -> r_left r = S n ->
    lstep s l i (AR r) s (AR (mkr (r_left r) (negb (dropped s)) (acked s) (R1 (snap s) (flag_of s (snap s))) (r_hist r)))
| LR_files : forall r sn fl0, r_ph r = R1 sn fl0 -> mmu_x s = false ->
    lstep s l i (AR r)
      (if fclosed s then s else set_files s (map_at 0 (fun k => mem_nat k (listed s)) (f_add_hold i) (files s)))
      (AR (mkr (r_left r) (r_ok r) (r_start r) (R2 sn (listed s) (flag_of s sn)) (r_hist r)))
| LR_mem : forall r sn fs fl, r_ph r = R2 sn fs fl ->
    let ms := opt_list (active s) ++ (if fl then [] else opt_list sn) in
    lstep s l i (AR r) (set_mts s (map_at 0 (fun k => mem_nat k ms) (mt_add_hold i) (mts s)))
      (AR (mkr (r_left r) (r_ok r) (r_start r) (R3 ms fs) (r_hist r)))
| LR_read : forall r ms fs, r_ph r = R3 ms fs ->
    lstep s l i (AR r) s
      (AR (mkr (r_left r) (r_ok r) (r_start r) (R4 ms fs (flat_map (mt_rows_of s) ms ++ flat_map (file_rows_of s) fs)) (r_hist r)))
| LR_done : forall r ms fs res, r_ph r = R4 ms fs res ->
    let s1 := set_files s (map_at 0 (fun k => mem_nat k fs) (f_unhold i) (files s)) in
    lstep s l i (AR r) (set_mts s1 (unhold_all i (owned_ids s) ms 0 (mts s1)))
      (AR (mkr (pred (r_left r)) false [] R0 ((r_ok r, r_start r, res) :: r_hist r)))
| LF_skip : forall f n, fl_ph f = F0 -> fl_left f = S n -> active s = None ->
    lstep s l i (AF f) s (AF {| fl_left := n; fl_ph := F0 |})
| LF_swap : forall f n a, fl_ph f = F0 -> fl_left f = S n -> active s = Some a -> snapR l = false -> snap s = None ->
    lstep s l i (AF f) (set_active_snap (set_mts s (mts s ++ [new_mtab])) (Some (length (mts s))) (Some a))
      (AF {| fl_left := fl_left f; fl_ph := F1 a |})
| LF_publish : forall f m, fl_ph f = F1 m -> mmu_x s = false ->
    lstep s l i (AF f) (publish s m false) (AF {| fl_left := fl_left f; fl_ph := F2 m |})
| LF_publish_b : forall f m g, fl_ph f = F1b m g -> mmu_x s = false ->
    lstep s l i (AF f) (publish s m (negb (Nat.eqb g (ugen s)))) (AF {| fl_left := fl_left f; fl_ph := F2 m |})
| LF_drop : forall f m, fl_ph f = F2 m -> snapR l = false ->
    lstep s l i (AF f) (drop_snap s m) (AF {| fl_left := pred (fl_left f); fl_ph := F0 |})
| LP_gc : forall f t x, get_file s f = Some x -> f_listed x = false -> f_removed x = false -> f_hold x = [] ->
    lstep s l i (AP (Gc f :: t)) (map_file s f f_remove) (AP t)
| LP_skip : forall op t, lstep s l i (AP (op :: t)) s (AP t)
| LP_replace : forall olds extra t, closing s = false -> mmu_x s = false ->
    olds <> [] -> nodup_nat (olds ++ extra) = true -> all_listed s (olds ++ extra) = true ->
    let s1 := set_files s (map_at 0 (fun k => mem_nat k olds) f_delist (files s)) in
    lstep s l i (AP (Replace olds extra :: t))
      (set_files s1 (files s1 ++ [mk_file (flat_map (file_rows_of s) (olds ++ extra)) None true true])) (AP t)
| LP_delist : forall fs t, closing s = false -> mmu_x s = false ->
    nodup_nat fs = true -> all_listed s fs = true -> covered_elsewhere s fs = true ->
    lstep s l i (AP (Delist fs :: t)) (set_files s (map_at 0 (fun k => mem_nat k fs) f_delist (files s))) (AP t)
| LP_merge : forall t, closing s = false -> mmu_x s = false -> ord_listed s <> [] -> unord_listed s <> [] ->
    let s1 := set_files s (map_at 0 (fun k => mem_nat k (ord_listed s)) f_delist (files s)) in
    lstep s l i (AP (Merge :: t))
      (set_files s1 (files s1 ++ [mk_file (flat_map (file_rows_of s) (ord_listed s ++ unord_listed s)) None true true]))
      (AP (Delist (unord_listed s) :: DropList :: t))
| LP_droplist : forall t, lstep s l i (AP (DropList :: t)) (set_seq s (hi s) (S (ugen s))) (AP t)
| LC_again : closing s = true -> lstep s l i (AC C0) s (AC C5)
| LC_begin : closing s = false ->
    lstep s l i (AC C0) (set_close s (dropped s) true (mu_x s) (mmu_x s) (fclosed s)) (AC C1)
| LC_lock : wmid l = false -> lstep s l i (AC C1) (set_close s (dropped s) true true (mmu_x s) (fclosed s)) (AC C2)
| LC_drop : snapR l = false ->
    lstep s l i (AC C2) (set_close (set_active_snap s None (snap s)) true true true (mmu_x s) (fclosed s)) (AC C3)
| LC_wait : fmid l = false -> lstep s l i (AC C3) (set_close s (dropped s) true true true (fclosed s)) (AC C4)
| LC_files : all_unheld s = true -> lstep s l i (AC C4) (set_close s (dropped s) true false false true) (AC C5).

Lemma is_nil_true : forall A (l : list A), is_nil l = true -> l = [].
Proof. destruct l; simpl; congruence. Qed.
Lemma is_nil_false : forall A (l : list A), is_nil l = false -> l <> [].
Proof. destruct l; simpl; congruence. Qed.

Lemma step_writer_lstep : forall s l i w s' w', step_writer s w = Some (s', w') -> lstep s l i (AW w) s' (AW w').
Proof.
  intros s l i w s' w' H. unfold step_writer in H. destruct (w_ph w) eqn:Ep.
  - destruct (w_todo w) as [|b t] eqn:Et; [discriminate|]. destruct (mu_x s) eqn:Em; [discriminate|].
    destruct (closing s) eqn:Ec; [inversion H; subst; eapply LW_reject; eauto|].
    destruct (active s) as [a|] eqn:Ea; inversion H; subst; [|eapply LW_reject; eauto].
    replace (appended (map_mt s a (mt_add_row b))) with (appended s) by (unfold map_mt; destruct (get_mt s a); reflexivity).
    replace (acked (map_mt s a (mt_add_row b))) with (acked s) by (unfold map_mt; destruct (get_mt s a); reflexivity).
    eapply LW_append; eauto.
  - inversion H; subst. eapply LW_ack; eauto.
Qed.

Lemma step_reader_lstep : forall s l i r s' r', step_reader correct i s r = Some (s', r') -> lstep s l i (AR r) s' (AR r').
Proof.
  intros s l i r s' r' H. unfold step_reader in H. destruct (r_ph r) eqn:Ep.
  - destruct (r_left r) eqn:El; [discriminate|]. inversion H; subst. rewrite <- El. eapply LR_begin; eauto.
  - destruct (mmu_x s) eqn:Em; [discriminate|]. inversion H; subst. eapply LR_files; eauto.
  - inversion H; subst. eapply LR_mem; eauto.
  - inversion H; subst. eapply LR_read; eauto.
  - inversion H; subst. eapply LR_done; eauto.
Qed.

Lemma step_flusher_lstep : forall s l i f s' f', step_flusher correct l s f = Some (s', f') -> lstep s l i (AF f) s' (AF f').
Proof.
  intros s l i f s' f' H. unfold step_flusher in H. simpl in H. destruct (fl_ph f) eqn:Ep.
  - destruct (fl_left f) eqn:El; [discriminate|]. destruct (active s) as [a|] eqn:Ea.
    + destruct (snapR l) eqn:Es; simpl in H; [discriminate|]. destruct (snap s) eqn:En; [discriminate|].
      inversion H; subst. rewrite <- El. eapply LF_swap; eauto.
    + inversion H; subst. eapply LF_skip; eauto.
  - destruct (mmu_x s) eqn:Em; [discriminate|]. inversion H; subst. eapply LF_publish; eauto.
  - destruct (mmu_x s) eqn:Em; [discriminate|]. inversion H; subst. eapply LF_publish_b; eauto.
  - destruct (snapR l) eqn:Es; [discriminate|]. inversion H; subst. eapply LF_drop; eauto.
Qed.

Lemma step_replacer_lstep : forall s l i t s' t', step_replacer correct s t = Some (s', t') -> lstep s l i (AP t) s' (AP t').
Proof.
  intros s l i t s' t' H. unfold step_replacer in H. destruct t as [|op t]; [discriminate|].
  assert (Hskip : Some (s, t) = Some (s', t') -> lstep s l i (AP (op :: t)) s' (AP t')) by (intro E; inversion E; subst; apply LP_skip).
  destruct op.
  - (* Replace *)
    destruct (closing s || mmu_x s) eqn:Ec; auto. apply orb_false_iff in Ec. destruct Ec as [Ec Em].
    destruct (negb (is_nil olds) && nodup_nat (olds ++ extra) && all_listed s (olds ++ extra)) eqn:Eg; auto.
    apply andb_true_iff in Eg. destruct Eg as [Eg E3]. apply andb_true_iff in Eg. destruct Eg as [E1 E2].
    inversion H; subst. eapply LP_replace; eauto. apply is_nil_false. apply negb_true_iff; auto.
  - (* Delist *)
    destruct (closing s || mmu_x s) eqn:Ec; auto. apply orb_false_iff in Ec. destruct Ec as [Ec Em].
    destruct (nodup_nat fs && all_listed s fs && covered_elsewhere s fs) eqn:Eg; auto.
    apply andb_true_iff in Eg. destruct Eg as [Eg E3]. apply andb_true_iff in Eg. destruct Eg as [E1 E2].
    inversion H; subst. eapply LP_delist; eauto.
  - (* Gc *)
    destruct (get_file s f) as [x|] eqn:Ef; auto. simpl in H.
    destruct (negb (f_listed x) && negb (f_removed x) && is_nil (f_hold x)) eqn:Eg.
    + apply andb_true_iff in Eg. destruct Eg as [Eg E3]. apply andb_true_iff in Eg. destruct Eg as [E1 E2].
      inversion H; subst. eapply LP_gc; eauto using is_nil_true; apply negb_true_iff; auto.
    + destruct (f_removed x || f_listed x); [auto|discriminate].
  - (* Merge *)
    destruct (closing s || mmu_x s) eqn:Ec; auto. apply orb_false_iff in Ec. destruct Ec as [Ec Em].
    fold (ord_listed s) in H. fold (unord_listed s) in H.
    destruct (is_nil (ord_listed s) || is_nil (unord_listed s)) eqn:Eg; auto.
    apply orb_false_iff in Eg. destruct Eg as [E1 E2]. inversion H; subst. eapply LP_merge; eauto using is_nil_false.
  - (* DropList *)
    destruct (closing s || mmu_x s) eqn:Ec; auto.
    match type of H with context [is_nil ?u] => destruct (is_nil u) end; auto. inversion H; subst. apply LP_droplist.
Qed.

Lemma step_closer_lstep : forall s l i c s' c', step_closer l s c = Some (s', c') -> lstep s l i (AC c) s' (AC c').
Proof.
  intros s l i c s' c' H. unfold step_closer in H. destruct c.
  - destruct (closing s) eqn:Ec; inversion H; subst; [apply LC_again|apply LC_begin]; auto.
  - destruct (wmid l) eqn:E; [discriminate|]. inversion H; subst. apply LC_lock; auto.
  - destruct (snapR l) eqn:E; [discriminate|]. inversion H; subst. apply LC_drop; auto.
  - destruct (fmid l) eqn:E; [discriminate|]. inversion H; subst. apply LC_wait; auto.
  - destruct (all_unheld s) eqn:E; [|discriminate]. inversion H; subst. apply LC_files; auto.
  - discriminate.
Qed.

Lemma exec_lstep : forall st i st', exec correct st i = Some st' ->
  exists a a', nth_error (actors st) i = Some a /\ lstep (sh st) (actors st) i a (sh st') a' /\
               actors st' = upd (actors st) i a'.
Proof.
  intros st i st' H. unfold exec in H. destruct (nth_error (actors st) i) as [a|] eqn:Ha; [|discriminate].
  exists a. destruct a as [w|r|f|t|c];
    match type of H with match ?e with _ => _ end = _ => destruct e as [[s' x']|] eqn:E; [|discriminate] end;
    inversion H; subst; simpl; eexists; (split; [reflexivity|]); (split; [|reflexivity]).
  - apply step_writer_lstep; auto.
  - apply step_reader_lstep; auto.
  - apply step_flusher_lstep; auto.
  - apply step_replacer_lstep; auto.
  - apply step_closer_lstep; auto.
Qed.
