(* C04: the protocol as the repository implemented it before fix 0726c22 (variant `current`) reaches a state in which a query
   that started after a batch was acknowledged does not return it.

   Root cause: tsImmTableImpl.AddBothTSSPFiles obtained the measurement's out-of-order TSSPFiles object with
   makeTSSPFiles (under MmsTables.mu, released), and appended the new out-of-order file to it in a LATER critical
   section (under the TSSPFiles lock only).  Between the two, MmsTables.deleteUnorderedFiles (end of an out-of-order
   merge) could find that list empty and delete the object from MmsTables.OutOfOrder.  The flush then listed its file
   in an object no reader could reach; the flushed flag was set and the snapshot table dropped, so the rows of that
   flush with time <= last flushed time vanished from every query until the shard was reopened.  Since 0726c22 the list
   object is validated in the critical section that appends to it (variant `correct`).

   Witness: W writes 5, flush (ordered file {5}); W writes 3, flush (out-of-order file {3}); W writes 4, flusher swaps
   and fetches the list object; merge replaces {5}+{3} by one ordered file, de-lists {3}, deletes the now empty list
   object; flusher appends {4} to the orphaned object; a query misses 4. *)
From Coq Require Import List Bool Arith.
From OG Require Import C04.Model C04.Proofs C04.Eng C04.EngRefuted.
Import ListNotations.

Definition sys_orphan : list actor := [fresh_writer [5;3;4]; fresh_flusher 3; AP [Merge]; fresh_reader 1].
Definition sched_orphan : list nat :=
  [0;0; 1;1;1;1;  0;0; 1;1;1;1;  0;0; 1;1;  2;2;2;  1;1;  3;3;3;3;3].

Theorem view_complete_current_refuted :
  exists st, forallb fresh sys_orphan = true /\ reach current (init_state sys_orphan) st /\ some_view_missing st = true.
Proof.
  destruct (run current (init_state sys_orphan) sched_orphan) as [st|] eqn:E; [|vm_compute in E; discriminate].
  exists st. split; [reflexivity|]. split; [eapply run_reach; exact E|].
  vm_compute in E. inversion E; subst. vm_compute. reflexivity.
Qed.
Print Assumptions view_complete_current_refuted.

(* the repaired protocol (list object validated in the critical section that appends to it) on the same history *)
Example repaired_on_witness :
  match run correct (init_state sys_orphan) [0;0; 1;1;1;  0;0; 1;1;1;  0;0; 1;  2;2;2;  1;1;  3;3;3;3;3] with
  | Some st => some_view_missing st = false /\ map reader_hist (actors st) = [[]; []; []; [(true, [4;3;5], [5;3;4])]]
  | None => False
  end.
Proof. vm_compute. split; reflexivity. Qed.

(* ENGINE LEVEL, THE CODE BEFORE FIX f11ca97 (finding C04-reentrant-engine-rlock): EngineImpl.checkAndGetDBPTInfo (the
   partition lookup of WriteToRaft) held EngineImpl.mu.RLock until it returns and its deferred unrefDBPT took EngineImpl.mu.RLock
   again.  Go's RWMutex blocks new readers once a writer waits, so with Engine.Close (CreateDBPT, the last step of
   DeleteDatabase, ...) arriving in between both block for ever.  P_raft_current is the program of that code. *)
Theorem engine_reentrant_rlock_refuted : exists st,
  erun ecode (einit [P_raft_current; P_close]) reentry_witness = Some st /\ deadlocked ecode st = true.
Proof. eexists. split; [vm_compute; reflexivity|]. vm_compute. reflexivity. Qed.
Print Assumptions engine_reentrant_rlock_refuted.

(* it is exactly the static discipline that P_raft_current violates; the repaired program passes it and, run round-robin
   with the same Close, finishes *)
Example engine_repaired_on_witness :
  chk ts0 P_raft_current = false /\ chk ts0 P_raft = true /\
  let st := run_rounds ecode 4 (einit [P_raft; P_close]) [0; 1] in
  forallb edone (eacts st) = true /\ bad (esh st) = [].
Proof. split; [exact raft_current_not_ordered|exact repaired_on_reentry_witness]. Qed.
