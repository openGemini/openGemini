(* C04 engine level: SAFETY of the reference / offload protocol.  For every system of operations whose
   programs pass `chk`, in every reachable state (variant `ecode`):
     - the partition's operation counter equals the number of operations that hold a reference (never underflows);
     - the partition's directories are deleted only after the shard was closed and while no reference is held, and
       from then on no reference can be taken (the partition is offloading or already dropped from EngineImpl.DBPartitions);
     - hence no operation that holds a reference ever works on deleted data, no shard operation that was admitted
       (not rejected with "shard closed") touches deleted files: the violation log `bad` stays empty. *)
From Coq Require Import List Bool Arith PeanoNat Lia.
From OG Require Import C04.Model C04.Proofs C04.Eng C04.EngInv.
Import ListNotations.

Definition nref (l : list eactor) : nat := length (filter (fun a => hasref (ts a)) l).

Lemma nref_upd : forall l i a a', nth_error l i = Some a ->
  nref (upd l i a') + (if hasref (ts a) then 1 else 0) = nref l + (if hasref (ts a') then 1 else 0).
Proof.
  unfold nref. induction l as [|x r IH]; intros i a a' H; destruct i; simpl in *; try discriminate.
  - inversion H; subst. destruct (hasref (ts a)), (hasref (ts a')); simpl; lia.
  - specialize (IH _ _ a' H). destruct (hasref (ts x)); simpl; lia.
Qed.

Lemma nref_pos : forall l i a, nth_error l i = Some a -> hasref (ts a) = true -> 1 <= nref l.
Proof.
  unfold nref. induction l as [|x r IH]; intros i a Hj Hr; destruct i; simpl in *; try discriminate.
  - inversion Hj; subst. rewrite Hr. simpl. lia.
  - specialize (IH _ _ Hj Hr). destruct (hasref (ts x)); simpl; lia.
Qed.

(* what the typestate of one operation promises about the shared state *)
Definition tinv (s : eshared) (t : tstate) : Prop :=
  (marked t = true -> In (0, MW) (held t) /\ offl s = true) /\
  (drained t = true -> marked t = true /\ refs s = 0) /\
  (closedk t = true -> closed s = true).

Definition safe_inv (st : estate) : Prop :=
  refs (esh st) = nref (eacts st) /\
  (forall j a, nth_error (eacts st) j = Some a -> tinv (esh st) (ts a)) /\
  (gone (esh st) = true -> closed (esh st) = true /\ refs (esh st) = 0 /\
     ((exists j a, nth_error (eacts st) j = Some a /\ drained (ts a) = true) \/ present (esh st) = false)) /\
  bad (esh st) = [].

Lemma safe_inv_init : forall ps, safe_inv (einit ps).
Proof.
  intros ps. unfold safe_inv. simpl. split; [|split; [|split]]; auto; try discriminate.
  - unfold nref. induction ps; simpl; auto.
  - intros j a H. rewrite nth_error_map in H. destruct (nth_error ps j); inversion H; subst.
    split; [|split]; simpl; discriminate.
Qed.

Lemma tinv_mono : forall s s' t, tinv s t -> (offl s = true -> offl s' = true) -> (refs s = 0 -> refs s' = 0) ->
  (closed s = true -> closed s' = true) -> tinv s' t.
Proof.
  intros s s' t [A [B C]] Ho Hr Hc. split; [|split]; intro X; auto; [destruct (A X)|destruct (B X)]; auto.
Qed.

Lemma tinv_unmarked : forall s s' t, tinv s t -> marked t = false -> (closed s = true -> closed s' = true) -> tinv s' t.
Proof.
  intros s s' t [A [B C]] M Hc. split; [|split]; intro X; auto; [congruence|destruct (B X); congruence].
Qed.

Lemma tinv_flags : forall s t t', tinv s t -> held t' = held t -> marked t' = marked t -> drained t' = drained t ->
  closedk t' = closedk t -> tinv s t'.
Proof. intros s t t' H E1 E2 E3 E4. unfold tinv. rewrite E1, E2, E3, E4. exact H. Qed.

Lemma In_rm_km_keep : forall k m l x, In x l -> x <> (k, m) -> In x (rm_km k m l).
Proof.
  induction l as [|y r IH]; simpl; intros x H N; auto. destruct (is_km k m y) eqn:E.
  - apply is_km_true in E. subst y. destruct H; [congruence|auto].
  - destruct H; [left; auto|right; auto].
Qed.

Lemma keep_0w : forall o t, ok_lock o t = true -> marked t = true -> In (0, MW) (held t) -> In (0, MW) (held (ts_lock o t)).
Proof.
  intros o t Hok Hm Hi. destruct o as [k|k|k|k|k]; simpl in *.
  - right; auto.
  - apply In_rm_km_keep; auto. discriminate.
  - right; auto.
  - apply In_map_upg. left. split; auto. discriminate.
  - apply andb_true_iff in Hok. destruct Hok as [_ Hok]. destruct (Nat.eqb k 0) eqn:E.
    + rewrite Hm in Hok. discriminate.
    + apply In_rm_km_keep; auto. intro C. inversion C; subst. discriminate.
Qed.

Lemma flags_ts_lock : forall o t, hasref (ts_lock o t) = hasref t /\ marked (ts_lock o t) = marked t /\
  drained (ts_lock o t) = drained t /\ closedk (ts_lock o t) = closedk t.
Proof. destruct o; simpl; auto. Qed.

Lemma eff_lock_fields : forall i o s, refs (eff_lock i o s) = refs s /\ offl (eff_lock i o s) = offl s /\
  present (eff_lock i o s) = present s /\ closed (eff_lock i o s) = closed s /\ gone (eff_lock i o s) = gone s /\
  bad (eff_lock i o s) = bad s.
Proof. destruct o; simpl; auto 10. Qed.

Lemma safe_inv_step : forall st i c st', all_inv st -> safe_inv st -> eexec ecode st i c = Some st' -> safe_inv st'.
Proof.
  intros [s l] i c st' [HL HA] [Scount [Sacts [Sgone Sbad]]] H. unfold eexec in H. simpl in *.
  destruct (nth_error l i) as [a|] eqn:Ha; [|discriminate].
  destruct (estep ecode i c s a) as [[s' a']|] eqn:Es; [|discriminate]. inversion H; subst; clear H.
  pose proof (HA _ _ Ha) as [Hc _]. pose proof (Sacts _ _ Ha) as [Tmark [Tdrain Tclose]].
  unfold safe_inv. simpl esh. simpl eacts.
  assert (Hcount : refs s' + (if hasref (ts a) then 1 else 0) = refs s + (if hasref (ts a') then 1 else 0) ->
                   refs s' = nref (upd l i a')).
  { intro E. pose proof (nref_upd l i a a' Ha). lia. }
  assert (Hacts : tinv s' (ts a') -> (forall j b, j <> i -> nth_error l j = Some b -> tinv s' (ts b)) ->
                  forall j b, nth_error (upd l i a') j = Some b -> tinv s' (ts b)).
  { intros Hs Ho j b Hj. apply nth_error_upd in Hj. destruct Hj as [[_ ->]|[N Hj]]; eauto. }
  assert (Hmono : (offl s = true -> offl s' = true) -> (refs s = 0 -> refs s' = 0) -> (closed s = true -> closed s' = true) ->
                  forall j b, j <> i -> nth_error l j = Some b -> tinv s' (ts b)).
  { intros Ho Hr Hcl j b _ Hj. eapply tinv_mono; eauto. }
  assert (Hgone : gone s' = gone s -> (closed s = true -> closed s' = true) -> (refs s = 0 -> refs s' = 0) ->
                  (present s = false -> present s' = false) -> (drained (ts a) = true -> drained (ts a') = true) ->
                  gone s' = true -> closed s' = true /\ refs s' = 0 /\
                    ((exists j b, nth_error (upd l i a') j = Some b /\ drained (ts b) = true) \/ present s' = false)).
  { intros Eg Hcl Hr Hp Hd G. rewrite Eg in G. destruct (Sgone G) as [G1 [G2 G3]]. split; auto. split; auto.
    destruct G3 as [[j [b [Hj Db]]]|G3]; auto. left. destruct (Nat.eq_dec j i) as [->|N].
    - rewrite Ha in Hj. inversion Hj; subst b. exists i, a'. split; [eapply nth_error_upd_same; eauto|auto].
    - exists j, b. split; auto. rewrite nth_error_upd_neq; auto. }
  (* a reference is held: the directories are still there *)
  assert (Hlive : hasref (ts a) = true -> gone s = false).
  { intro Hr. destruct (gone s) eqn:G; auto. destruct (Sgone eq_refl) as [_ [G2 _]]. pose proof (nref_pos _ _ _ Ha Hr). lia. }
  (* the droppingDB token (lock 0) is exclusive: nobody else has marked the partition *)
  assert (Huniq : marked (ts a) = true -> forall j b, j <> i -> nth_error l j = Some b -> marked (ts b) = false).
  { intros Ma j b N Hj. destruct (marked (ts b)) eqn:Mb; auto. exfalso. apply N.
    eapply (lock_excl {| esh := s; eacts := l |}); eauto; [apply (Sacts _ _ Hj)|apply Tmark]; auto. }
  (* a step that moves neither the counter nor a reference and only raises offloading and closed *)
  assert (Hstd : refs s' = refs s -> hasref (ts a') = hasref (ts a) -> bad s' = bad s -> gone s' = gone s ->
                 (offl s = true -> offl s' = true) -> (closed s = true -> closed s' = true) -> (present s = false -> present s' = false) ->
                 (drained (ts a) = true -> drained (ts a') = true) -> tinv s' (ts a') ->
                 safe_inv {| esh := s'; eacts := upd l i a' |}).
  { intros Er Eh Eb Eg Ho Hcl Hp Hd Hs. unfold safe_inv; simpl. split; [apply Hcount; rewrite Er, Eh; auto|]. split; [|split; [|congruence]].
    - apply Hacts; auto. apply Hmono; auto; congruence.
    - apply Hgone; auto; congruence. }
  unfold estep in Es. destruct (pr a) as [|o q|brk f q] eqn:Ep; [discriminate| |].
  - apply chk_Seq in Hc. destruct Hc as [Hok _]. destruct o as [o|o].
    + (* lock operation: only the locks and the held list change *)
      destruct (guard_lock o s); [|discriminate]. inversion Es; subst; clear Es. simpl in Hok. simpl ts in *.
      destruct (flags_ts_lock o (ts a)) as [F1 [F2 [F3 F4]]]. destruct (eff_lock_fields i o s) as [E1 [E2 [E3 [E4 [E5 E6]]]]].
      apply Hstd; try congruence. unfold tinv. rewrite F2, F3, F4, E1, E2, E4.
      split; [|auto]. intro X. destruct (Tmark X). auto using keep_0w.
    + destruct (guard_data o s); [|discriminate]. inversion Es; subst; clear Es. simpl in Hok. simpl ts in *.
      destruct o; simpl in Hok.
      * (* Unref: the counter is positive *)
        apply andb_true_iff in Hok. destruct Hok as [Hok _]. apply andb_true_iff in Hok. destruct Hok as [Hr _].
        pose proof (nref_pos _ _ _ Ha Hr). unfold eff_data in *. destruct (refs s) as [|n] eqn:Er; [lia|].
        split; [apply Hcount; rewrite Hr; simpl; lia|]. split; [|split; [simpl; rewrite (Hlive Hr); discriminate|auto]].
        apply Hacts; [|apply Hmono; simpl; congruence].
        apply (tinv_flags _ (ts a)); auto. eapply tinv_mono; eauto; simpl; congruence.
      * (* Mark *)
        apply andb_true_iff in Hok. destruct Hok as [Hok Hnm]. apply andb_true_iff in Hok. destruct Hok as [_ H0].
        apply holds_In in H0. apply negb_true_iff in Hnm.
        assert (Hnd : drained (ts a) = false) by (destruct (drained (ts a)); auto; destruct Tdrain; congruence).
        apply Hstd; simpl; auto; try congruence. split; [|split]; simpl; auto. congruence.
      * (* Unmark: nobody else has marked, and this operation has not drained *)
        apply andb_true_iff in Hok. destruct Hok as [Hok Hnd]. apply andb_true_iff in Hok. destruct Hok as [_ Hmk].
        apply negb_true_iff in Hnd.
        split; [apply Hcount; simpl; auto|]. split; [|split; [apply Hgone; simpl; auto; congruence|auto]].
        apply Hacts; [split; [|split]; simpl; auto; intros; congruence|].
        intros j b N Hj. apply (tinv_unmarked s _ _ (Sacts _ _ Hj)); [exact (Huniq Hmk _ _ N Hj)|auto].
      * (* CloseShard *) apply Hstd; simpl; auto. split; [|split]; simpl; auto.
      * (* Unmap *) apply Hstd; simpl; auto. split; [|split]; simpl; auto.
      * (* DelDirs: drained and closed *)
        apply andb_true_iff in Hok. destruct Hok as [Hd Hck]. destruct (Tdrain Hd) as [_ Hr0].
        assert (Ed : eff_data DelDirs s = set_pt s (offl s) (present s) (mapped s) (closed s) true) by (simpl; rewrite Hr0; auto).
        rewrite Ed in *.
        split; [apply Hcount; simpl; auto|]. split; [|split; [|auto]].
        -- apply Hacts; [|apply Hmono; auto]. split; [|split]; simpl; auto.
        -- intros _. split; auto. split; auto. left. exists i, {| pr := q; ts := ts a |}.
           split; [eapply nth_error_upd_same; eauto|auto].
      * (* DropPt *)
        split; [apply Hcount; simpl; auto|]. split; [|split; [|auto]].
        -- apply Hacts; [|apply Hmono; auto]. split; [|split]; simpl; auto; discriminate.
        -- simpl. intro G. destruct (Sgone G) as [G1 [G2 _]]. auto.
      * (* Use *)
        assert (Eu : eff_data Use s = s) by (simpl; rewrite (Hlive Hok); auto). rewrite Eu in *. apply Hstd; simpl; auto. split; [|split]; simpl; auto.
      * (* ShardOp: admitted only while the files are there *)
        assert (Eb : eff_data ShardOp s = s).
        { simpl. destruct (gone s) eqn:G; [|rewrite andb_false_r; auto]. destruct (Sgone eq_refl) as [C _]. rewrite C. auto. }
        rewrite Eb in *. apply Hstd; simpl; auto. split; [|split]; simpl; auto.
  - apply chk_Br in Hc. destruct Hc as [Hok _].
    (* the failure continuation (and Lookup / ShardLookup success) change nothing but the program *)
    assert (Hsame : forall p', s' = s -> a' = {| pr := p'; ts := ts a |} ->
              safe_inv {| esh := s'; eacts := upd l i a' |}).
    { intros p' -> ->. apply Hstd; simpl; auto. split; [|split]; simpl; auto. }
    destruct brk; simpl in Hok.
    + (* Ref *)
      destruct (is_none (pend (lk s 2))); [|discriminate].
      destruct (present s && (negb (offl s) || ev_ref_ignores_offl ecode)) eqn:Eok; inversion Es; subst; clear Es; [|eapply Hsame; eauto].
      simpl in Eok. rewrite orb_false_r in Eok. apply andb_true_iff in Eok. destruct Eok as [Hpr Hof]. apply negb_true_iff in Hof.
      apply andb_true_iff in Hok. destruct Hok as [_ Hnr]. apply negb_true_iff in Hnr.
      (* the partition is not offloading: nobody has marked it, hence nobody has drained and nothing is gone *)
      assert (Nm : forall j b, nth_error l j = Some b -> marked (ts b) = false).
      { intros j b Hj. destruct (marked (ts b)) eqn:Mb; auto. destruct (proj1 (Sacts _ _ Hj) Mb). congruence. }
      assert (Ng : gone s = false).
      { destruct (gone s) eqn:G; auto. destruct (Sgone eq_refl) as [_ [_ [[j [b [Hj Db]]]|C]]]; [|congruence].
        destruct (proj1 (proj2 (Sacts _ _ Hj)) Db) as [Mb _]. rewrite (Nm _ _ Hj) in Mb. discriminate. }
      simpl. split; [apply Hcount; simpl; rewrite Hnr; lia|]. split; [|split; [rewrite Ng; discriminate|auto]].
      apply Hacts; [|intros j b _ Hj; eapply tinv_unmarked; eauto].
      apply (tinv_flags _ (ts a)); auto. eapply tinv_unmarked; eauto.
    + destruct (present s); inversion Es; subst; eapply Hsame; eauto.
    + destruct (mapped s); inversion Es; subst; eapply Hsame; eauto.
    + (* Wait *)
      destruct c.
      * destruct (Nat.eqb (refs s) 0) eqn:E0; [|discriminate]. apply Nat.eqb_eq in E0. inversion Es; subst; clear Es.
        apply andb_true_iff in Hok. destruct Hok as [Hmk _].
        apply Hstd; simpl; auto. split; [|split]; simpl; auto.
      * destruct (ev_timeout ecode); [|discriminate]. inversion Es; subst. eapply Hsame; eauto.
Qed.

Lemma safe_inv_reach : forall ps st, forallb (chk ts0) ps = true -> ereach ecode (einit ps) st -> safe_inv st.
Proof.
  intros ps st Hp R. induction R; [apply safe_inv_init|]. destruct H as [i [c H]].
  eapply safe_inv_step; eauto. eapply all_inv_reach; eauto.
Qed.
