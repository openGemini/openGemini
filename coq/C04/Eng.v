(* C04, engine / partition level: the close / drop protocol around one partition (DBPTInfo) and its shard.

   Operations are PROGRAMS over four locks and the partition's reference counter; the machine interleaves any number
   of them.  Locks (index = rank; the programs of the code acquire them in increasing rank):
     0  the droppingDB token of EngineImpl.startDrop / endDrop (a plain mutex: only taken exclusively)
     1  EngineImpl.mu      2  DBPTInfo.mu      3  shard.mu          (sync.RWMutex)
   RWMutex semantics with WRITER PREFERENCE as in Go: Lock() = Ann (the writer holds the internal writer mutex and has
   announced itself: from now on every new RLock blocks) followed by Acq (waits until the readers that were inside have
   left).  RLock is enabled only while no writer is announced - so a goroutine that re-enters RLock while a writer
   waits deadlocks.

   Code anchors (engine/engine.go, engine/engine_ddl.go, engine/partition.go, engine/shard.go):
     Ref / Unref     DBPTInfo.ref / unref (under DBPTInfo.mu.RLock; exeCount; refused while offloading)
     Lookup          e.DBPartitions[db][pt]              ShardLookup   dbPT.shards[id] / DBPTInfo.Shard
     Mark / Unmark   DBPTInfo.markOffload / unMarkOffload (under DBPTInfo.mu.Lock)
     Wait            DeleteDatabase: select { <-done | <-time.After(DeleteDatabaseTimeout) }  (done is signalled by the
                     unref that brings exeCount to 0 while offloading)
     CloseShard      shard.Close (under shard.mu.Lock)    Unmap   delete(dbPT.shards, id)
     DelDirs         deleteDataAndWalPath                 DropPt  dropDBPTInfo (under EngineImpl.mu.Lock)
     Use             an operation that holds a partition reference works on the partition's data
     ShardOp         the body of shard.WriteRows / CreateLogicalPlan / DropMeasurement under shard.mu.RLock: rejected with
                     ErrShardClosed after Close, else it touches the shard's files
   Executable Gallina only; theorems are in EngInv.v / EngSafe.v / Props.v. *)
From Coq Require Import List Bool Arith PeanoNat.
From OG Require Import C04.Model.
Import ListNotations.

Inductive mode := MR | MA | MW.      (* read-held | writer announced | write-held *)
Definition mode_eqb (a b : mode) : bool :=
  match a, b with MR, MR | MA, MA | MW, MW => true | _, _ => false end.

Inductive lockop := RLock (k : nat) | RUnlock (k : nat) | Ann (k : nat) | Acq (k : nat) | WUnlock (k : nat).
Inductive dataop := Unref | Mark | Unmark | CloseShard | Unmap | DelDirs | DropPt | Use | ShardOp.
Inductive op := L (o : lockop) | D (o : dataop).
Inductive br := Ref | Lookup | ShardLookup | Wait.
(* Br b fail ok: a branching instruction with the continuation after failure and after success *)
Inductive prog := Done | Seq (o : op) (p : prog) | Br (b : br) (fail ok : prog).

(* ---------------------------------------------------------------- per-operation ghost state (typestate) *)
Record tstate := { held : list (nat * mode); hasref : bool; marked : bool; drained : bool; closedk : bool }.
Definition ts0 : tstate := {| held := []; hasref := false; marked := false; drained := false; closedk := false |}.

Definition set_held (t : tstate) (h : list (nat * mode)) : tstate :=
  {| held := h; hasref := hasref t; marked := marked t; drained := drained t; closedk := closedk t |}.
Definition set_flags (t : tstate) (r m d c : bool) : tstate :=
  {| held := held t; hasref := r; marked := m; drained := d; closedk := c |}.

Definition is_km (k : nat) (m : mode) (x : nat * mode) : bool := Nat.eqb (fst x) k && mode_eqb (snd x) m.
Definition holds (k : nat) (m : mode) (t : tstate) : bool := existsb (is_km k m) (held t).
Definition holds_any (k : nat) (t : tstate) : bool := existsb (fun x => Nat.eqb (fst x) k) (held t).
Definition all_lt (k : nat) (t : tstate) : bool := forallb (fun x => fst x <? k) (held t).
Fixpoint rm_km (k : nat) (m : mode) (l : list (nat * mode)) : list (nat * mode) :=
  match l with [] => [] | x :: r => if is_km k m x then r else x :: rm_km k m r end.

Definition upg (k : nat) (x : nat * mode) : nat * mode := if is_km k MA x then (k, MW) else x.
Definition ts_lock (o : lockop) (t : tstate) : tstate :=
  match o with
  | RLock k => set_held t ((k, MR) :: held t)
  | RUnlock k => set_held t (rm_km k MR (held t))
  | Ann k => set_held t ((k, MA) :: held t)
  | Acq k => set_held t (map (upg k) (held t))
  | WUnlock k => set_held t (rm_km k MW (held t))
  end.
Definition ts_data (o : dataop) (t : tstate) : tstate :=
  match o with
  | Unref => set_flags t false (marked t) (drained t) (closedk t)
  | Mark => set_flags t (hasref t) true (drained t) (closedk t)
  | Unmark => set_flags t (hasref t) false (drained t) (closedk t)
  | CloseShard => set_flags t (hasref t) (marked t) (drained t) true
  | DropPt => set_flags t (hasref t) false false (closedk t)
  | Unmap | DelDirs | Use | ShardOp => t
  end.
Definition ts_op (o : op) (t : tstate) : tstate := match o with L x => ts_lock x t | D x => ts_data x t end.
(* typestate after the SUCCESS branch (the failure branch leaves it unchanged) *)
Definition ts_br (b : br) (t : tstate) : tstate :=
  match b with
  | Ref => set_flags t true (marked t) (drained t) (closedk t)
  | Wait => set_flags t (hasref t) (marked t) true (closedk t)
  | Lookup | ShardLookup => t
  end.

(* the static discipline: locks in increasing rank (hence never re-entered), every release matches an acquisition,
   and the protocol typestate (reference before use, exclusive partition lock around mark / unmark, drained and closed
   before the directories go) *)
Definition ok_lock (o : lockop) (t : tstate) : bool :=
  match o with
  | RLock k => all_lt k t && (k <? 4)
  | RUnlock k => holds k MR t
  | Ann k => all_lt k t && (k <? 4)
  | Acq k => holds k MA t
  | WUnlock k => holds k MW t && (if Nat.eqb k 0 then negb (marked t) else true)
  end.
Definition ok_data (o : dataop) (t : tstate) : bool :=
  match o with
  | Unref => hasref t && holds_any 1 t && all_lt 2 t
  | Mark => holds 2 MW t && holds 0 MW t && negb (marked t)
  | Unmark => holds 2 MW t && marked t && negb (drained t)
  | CloseShard => holds 3 MW t
  | Unmap => holds 2 MW t
  | DelDirs => drained t && closedk t
  | DropPt => holds 1 MW t && (negb (marked t) || drained t)
  | Use => hasref t
  | ShardOp => holds 3 MR t
  end.
Definition ok_op (o : op) (t : tstate) : bool := match o with L x => ok_lock x t | D x => ok_data x t end.
Definition ok_br (b : br) (t : tstate) : bool :=
  match b with
  | Ref => holds_any 1 t && all_lt 2 t && negb (hasref t)
  | Lookup => holds_any 1 t
  | ShardLookup => holds_any 2 t
  | Wait => marked t && negb (drained t)
  end.

(* Lock() is Ann immediately followed by Acq *)
Definition ann_then_acq (o : op) (q : prog) : bool :=
  match o with
  | L (Ann k) => match q with Seq (L (Acq k')) _ => Nat.eqb k k' | _ => false end
  | _ => true
  end.

Fixpoint chk (t : tstate) (p : prog) : bool :=
  match p with
  | Done => is_nil (held t) && negb (hasref t) && negb (marked t)
  | Seq o q => ok_op o t && ann_then_acq o q && chk (ts_op o t) q
  | Br b f q => ok_br b t && chk t f && chk (ts_br b t) q
  end.

(* ---------------------------------------------------------------- shared state *)
Record rw := { rd : list nat; pend : option nat; wheld : bool }.
Definition rw0 : rw := {| rd := []; pend := None; wheld := false |}.

Record eshared := {
  lk : nat -> rw;
  refs : nat;          (* DBPTInfo.exeCount *)
  offl : bool;         (* DBPTInfo.offloading *)
  present : bool;      (* the partition is in EngineImpl.DBPartitions *)
  mapped : bool;       (* the shard is in DBPTInfo.shards *)
  closed : bool;       (* shard.Close has run *)
  gone : bool;         (* the partition's directories have been deleted *)
  bad : list nat       (* violations seen: 1 reference counter underflow, 2 use of deleted data under a reference,
                          3 shard operation on deleted files, 4 directories deleted while references are held *)
}.
Definition einit_shared : eshared :=
  {| lk := fun _ => rw0; refs := 0; offl := false; present := true; mapped := true; closed := false; gone := false; bad := [] |}.

Definition set_lk (s : eshared) (k : nat) (x : rw) : eshared :=
  {| lk := fun k' => if Nat.eqb k' k then x else lk s k'; refs := refs s; offl := offl s; present := present s;
     mapped := mapped s; closed := closed s; gone := gone s; bad := bad s |}.
Definition set_refs (s : eshared) (n : nat) : eshared :=
  {| lk := lk s; refs := n; offl := offl s; present := present s; mapped := mapped s; closed := closed s; gone := gone s; bad := bad s |}.
Definition set_pt (s : eshared) (o p m c g : bool) : eshared :=
  {| lk := lk s; refs := refs s; offl := o; present := p; mapped := m; closed := c; gone := g; bad := bad s |}.
Definition add_bad (s : eshared) (c : nat) : eshared :=
  {| lk := lk s; refs := refs s; offl := offl s; present := present s; mapped := mapped s; closed := closed s; gone := gone s;
     bad := c :: bad s |}.

Fixpoint rm_one (x : nat) (l : list nat) : list nat :=
  match l with [] => [] | y :: t => if Nat.eqb x y then t else y :: rm_one x t end.

Definition is_none {A} (o : option A) : bool := match o with None => true | Some _ => false end.

(* ---------------------------------------------------------------- variants *)
Record evariant := {
  ev_timeout : bool;           (* DeleteDatabase's wait for the references has a time-out (the code: 15 s) *)
  ev_ref_ignores_offl : bool   (* mutant: DBPTInfo.ref succeeds although the partition is offloading *)
}.
Definition ecode : evariant := {| ev_timeout := true; ev_ref_ignores_offl := false |}.

(* ---------------------------------------------------------------- steps *)
Definition guard_lock (o : lockop) (s : eshared) : bool :=
  match o with
  | RLock k => is_none (pend (lk s k))          (* writer preference: no new reader once a writer is announced *)
  | Ann k => is_none (pend (lk s k))            (* writers are serialised by the RWMutex's internal mutex *)
  | Acq k => is_nil (rd (lk s k))               (* wait for the readers that were inside *)
  | RUnlock _ | WUnlock _ => true
  end.
Definition eff_lock (i : nat) (o : lockop) (s : eshared) : eshared :=
  let x k := lk s k in
  match o with
  | RLock k => set_lk s k {| rd := i :: rd (x k); pend := pend (x k); wheld := wheld (x k) |}
  | RUnlock k => set_lk s k {| rd := rm_one i (rd (x k)); pend := pend (x k); wheld := wheld (x k) |}
  | Ann k => set_lk s k {| rd := rd (x k); pend := Some i; wheld := false |}
  | Acq k => set_lk s k {| rd := rd (x k); pend := pend (x k); wheld := true |}
  | WUnlock k => set_lk s k {| rd := rd (x k); pend := None; wheld := false |}
  end.
(* DBPTInfo.ref / unref take DBPTInfo.mu.RLock for the duration of the call *)
Definition guard_data (o : dataop) (s : eshared) : bool :=
  match o with Unref => is_none (pend (lk s 2)) | _ => true end.
Definition eff_data (o : dataop) (s : eshared) : eshared :=
  match o with
  | Unref => match refs s with O => add_bad s 1 | S n => set_refs s n end
  | Mark => set_pt s true (present s) (mapped s) (closed s) (gone s)
  | Unmark => set_pt s false (present s) (mapped s) (closed s) (gone s)
  | CloseShard => set_pt s (offl s) (present s) (mapped s) true (gone s)
  | Unmap => set_pt s (offl s) (present s) false (closed s) (gone s)
  | DelDirs => let s1 := set_pt s (offl s) (present s) (mapped s) (closed s) true in
               match refs s with O => s1 | S _ => add_bad s1 4 end
  | DropPt => set_pt s (offl s) false (mapped s) (closed s) (gone s)
  | Use => if gone s then add_bad s 2 else s
  | ShardOp => if negb (closed s) && gone s then add_bad s 3 else s
  end.

Record eactor := { pr : prog; ts : tstate }.
Record estate := { esh : eshared; eacts : list eactor }.

(* c: the choice at a Wait - true = the references have drained, false = the time-out fires *)
Definition estep (V : evariant) (i : nat) (c : bool) (s : eshared) (a : eactor) : option (eshared * eactor) :=
  match pr a with
  | Done => None
  | Seq (L o) q => if guard_lock o s then Some (eff_lock i o s, {| pr := q; ts := ts_lock o (ts a) |}) else None
  | Seq (D o) q => if guard_data o s then Some (eff_data o s, {| pr := q; ts := ts_data o (ts a) |}) else None
  | Br Ref f q =>
      if is_none (pend (lk s 2))
      then (if present s && (negb (offl s) || ev_ref_ignores_offl V)
            then Some (set_refs s (S (refs s)), {| pr := q; ts := ts_br Ref (ts a) |})
            else Some (s, {| pr := f; ts := ts a |}))
      else None
  | Br Lookup f q => if present s then Some (s, {| pr := q; ts := ts a |}) else Some (s, {| pr := f; ts := ts a |})
  | Br ShardLookup f q => if mapped s then Some (s, {| pr := q; ts := ts a |}) else Some (s, {| pr := f; ts := ts a |})
  | Br Wait f q =>
      if c then (if Nat.eqb (refs s) 0 then Some (s, {| pr := q; ts := ts_br Wait (ts a) |}) else None)
      else (if ev_timeout V then Some (s, {| pr := f; ts := ts a |}) else None)
  end.

Definition eexec (V : evariant) (st : estate) (i : nat) (c : bool) : option estate :=
  match nth_error (eacts st) i with
  | None => None
  | Some a => match estep V i c (esh st) a with
              | Some (s', a') => Some {| esh := s'; eacts := upd (eacts st) i a' |}
              | None => None
              end
  end.

Definition estepr (V : evariant) (st st' : estate) : Prop := exists i c, eexec V st i c = Some st'.
Inductive ereach (V : evariant) (st0 : estate) : estate -> Prop :=
| ereach_refl : ereach V st0 st0
| ereach_step : forall st st', ereach V st0 st -> estepr V st st' -> ereach V st0 st'.

Fixpoint erun (V : evariant) (st : estate) (sched : list (nat * bool)) : option estate :=
  match sched with
  | [] => Some st
  | (i, c) :: t => match eexec V st i c with Some st' => erun V st' t | None => None end
  end.

Definition fresh_actor (p : prog) : eactor := {| pr := p; ts := ts0 |}.
Definition einit (ps : list prog) : estate := {| esh := einit_shared; eacts := map fresh_actor ps |}.
Definition edone (a : eactor) : bool := match pr a with Done => true | _ => false end.
(* some actor can step *)
Definition can_step (V : evariant) (st : estate) : bool :=
  existsb (fun i => match eexec V st i true, eexec V st i false with None, None => false | _, _ => true end)
          (seq 0 (length (eacts st))).
(* a deadlock: somebody is not done and nobody can step *)
Definition deadlocked (V : evariant) (st : estate) : bool :=
  negb (forallb edone (eacts st)) && negb (can_step V st).

(* ---------------------------------------------------------------- the programs of the code *)
Fixpoint seqs (os : list op) (p : prog) : prog := match os with [] => p | o :: t => Seq o (seqs t p) end.
Definition Lock (k : nat) : list op := [L (Ann k); L (Acq k)].
(* e.unrefDBPT: e.mu.RLock; unrefDBPTNoLock; e.mu.RUnlock *)
Definition unrefDBPT (p : prog) : prog := seqs [L (RLock 1); D Unref; L (RUnlock 1)] p.

(* the store's select handler: DbPTRef; GetShard (getDBPTInfo, DBPTInfo.Shard); shard.CreateLogicalPlan under
   shard.mu.RLock; the cursors run on the references they took; DbPTUnref *)
Definition P_query : prog :=
  Seq (L (RLock 1)) (Br Ref (Seq (L (RUnlock 1)) Done)
    (seqs [L (RUnlock 1); L (RLock 1); L (RUnlock 1); L (RLock 2)]
      (Br ShardLookup (Seq (L (RUnlock 2)) (unrefDBPT Done))
         (seqs [L (RUnlock 2); L (RLock 3); D ShardOp; L (RUnlock 3); D Use] (unrefDBPT Done))))).

(* EngineImpl.WriteRows: getShard (reference held only for the lookup), then shard.WriteRows under shard.mu.RLock *)
Definition P_write : prog :=
  Seq (L (RLock 1)) (Br Ref (Seq (L (RUnlock 1)) Done)
    (seqs [L (RUnlock 1); L (RLock 2)]
      (Br ShardLookup (Seq (L (RUnlock 2)) (unrefDBPT Done))
         (Seq (L (RUnlock 2)) (unrefDBPT (seqs [L (RLock 3); D ShardOp; L (RUnlock 3)] Done)))))).

(* checkAndGetDBPTInfo (first step of WriteToRaft) as the code had it before fix f11ca97: the deferred unrefDBPT takes
   EngineImpl.mu.RLock while the function still holds it *)
Definition P_raft_current : prog :=
  Seq (L (RLock 1)) (Br Ref (Seq (L (RUnlock 1)) Done) (unrefDBPT (Seq (L (RUnlock 1)) Done))).
(* since f11ca97 (unrefDBPTNoLock): the reference is released under the read lock already held *)
Definition P_raft : prog :=
  Seq (L (RLock 1)) (Br Ref (Seq (L (RUnlock 1)) Done) (seqs [D Unref; L (RUnlock 1)] Done)).

(* EngineImpl.DropMeasurement: references, then under DBPTInfo.mu.RLock shard.DropMeasurement (shard.mu.RLock) *)
Definition P_dropmst : prog :=
  Seq (L (RLock 1)) (Br Lookup (Seq (L (RUnlock 1)) Done) (Br Ref (Seq (L (RUnlock 1)) Done)
    (seqs [L (RUnlock 1); L (RLock 2)]
      (Br ShardLookup (Seq (L (RUnlock 2)) (unrefDBPT Done))
         (seqs [L (RLock 3); D ShardOp; L (RUnlock 3); L (RUnlock 2)] (unrefDBPT Done)))))).

(* EngineImpl.DeleteMstInShard: the shard is looked up under DBPTInfo.mu.Lock *)
Definition P_delmst : prog :=
  Seq (L (RLock 1)) (Br Ref (Seq (L (RUnlock 1)) Done)
    (seqs (L (RUnlock 1) :: Lock 2)
      (Br ShardLookup (Seq (L (WUnlock 2)) (unrefDBPT Done))
         (seqs [L (WUnlock 2); L (RLock 3); D ShardOp; L (RUnlock 3)] (unrefDBPT Done))))).

(* EngineImpl.ForceFlush: everything under EngineImpl.mu.RLock; DBPTInfo.unref directly *)
Definition P_flush : prog :=
  Seq (L (RLock 1)) (Br Ref (Seq (L (RUnlock 1)) Done)
    (seqs [L (RLock 2); D Use; L (RUnlock 2); D Unref; L (RUnlock 1)] Done)).

(* EngineImpl.DeleteDatabase *)
Definition P_dropdb : prog :=
  seqs (Lock 0 ++ [L (RLock 1)])
    (Br Lookup (seqs [L (RUnlock 1); L (WUnlock 0)] Done)
      (seqs (Lock 2 ++ [D Mark; L (WUnlock 2)])
        (Br Wait (seqs (Lock 2 ++ [D Unmark; L (WUnlock 2); L (RUnlock 1); L (WUnlock 0)]) Done)
          (seqs (Lock 2 ++ Lock 3 ++ [D CloseShard; L (WUnlock 3); D Unmap; L (WUnlock 2); D DelDirs; L (RUnlock 1)]
                 ++ Lock 1 ++ [D DropPt; L (WUnlock 1); L (WUnlock 0)]) Done)))).

(* EngineImpl.Close: closeDBPt under EngineImpl.mu.Lock, then dropDBPt *)
Definition P_close : prog :=
  seqs (Lock 1 ++ Lock 2 ++ Lock 3 ++ [D CloseShard; L (WUnlock 3); L (WUnlock 2); L (WUnlock 1)] ++ Lock 1
        ++ [D DropPt; L (WUnlock 1)]) Done.

(* EngineImpl.DeleteShard (the shard's own directories are removed after its Close; not the partition's) *)
Definition P_delshard : prog :=
  Seq (L (RLock 1)) (Br Ref (Seq (L (RUnlock 1)) Done)
    (seqs (L (RUnlock 1) :: Lock 2)
      (Br ShardLookup (Seq (L (WUnlock 2)) (unrefDBPT Done))
         (seqs ([D Unmap; L (WUnlock 2)] ++ Lock 3 ++ [D CloseShard; L (WUnlock 3)] ++ Lock 2 ++ [L (WUnlock 2)]) (unrefDBPT Done))))).

Definition code_progs : list prog :=
  [P_query; P_write; P_raft; P_dropmst; P_delmst; P_flush; P_dropdb; P_close; P_delshard].

(* ---------------------------------------------------------------- probes used by the correspondence *)
(* run actor i as far as it goes (taking the "drained" choice at a Wait).  The callers' fuel 200 outlasts every program
   of the code. *)
Fixpoint run_until_blocked (V : evariant) (fuel : nat) (st : estate) (i : nat) : estate :=
  match fuel with
  | O => st
  | S n => match eexec V st i true with Some st' => run_until_blocked V n st' i | None => st end
  end.
Definition actor_done (st : estate) (i : nat) : bool :=
  match nth_error (eacts st) i with Some a => edone a | None => true end.
(* the lock operation the actor is blocked at: (lock, true = it wants it exclusively) *)
Definition blocked_at (st : estate) (i : nat) : option (nat * bool) :=
  match nth_error (eacts st) i with
  | Some a => match pr a with
              | Seq (L (RLock k)) _ => Some (k, false)
              | Seq (L (Ann k)) _ => Some (k, true)
              | Seq (L (Acq k)) _ => Some (k, true)
              | Seq (D Unref) _ => Some (2, false)
              | Br Ref _ _ => Some (2, false)
              | _ => None
              end
  | None => None
  end.
(* the harness as an actor: holds lock k (exclusively or shared) and then releases it *)
Definition P_hold (k : nat) (w : bool) : prog :=
  if w then seqs (Lock k ++ [L (WUnlock k)]) Done else seqs [L (RLock k); L (RUnlock k)] Done.
(* footprint probe: the harness holds lock k; the operation runs; blocked? *)
Definition probe_footprint (p : prog) (k : nat) (w : bool) : option (nat * bool) :=
  let st0 := einit [P_hold k w; p] in
  let st1 := run_until_blocked ecode (if w then 2 else 1) st0 0 in
  let st2 := run_until_blocked ecode 200 st1 1 in
  if actor_done st2 1 then None else blocked_at st2 1.
(* round-robin: run each of the actors `is` as far as it goes, n times *)
Fixpoint run_rounds (V : evariant) (n : nat) (st : estate) (is : list nat) : estate :=
  match n with
  | O => st
  | S m => run_rounds V m (fold_left (fun s i => run_until_blocked V 200 s i) is st) is
  end.
(* re-entry probe: the harness holds DBPTInfo.mu exclusively, the operation stalls in Ref, the finale becomes a pending
   writer, the harness releases, both run as far as they go; result: (operation done, finale done) *)
Definition probe_reentry (p fin : prog) : bool * bool :=
  let st0 := einit [P_hold 2 true; p; fin] in
  let st1 := run_until_blocked ecode 2 st0 0 in
  let st2 := run_until_blocked ecode 200 st1 1 in
  let st3 := run_until_blocked ecode 200 st2 2 in
  let st4 := run_until_blocked ecode 1 st3 0 in
  let st5 := run_rounds ecode 6 st4 [1; 2] in
  (actor_done st5 1, actor_done st5 2).
